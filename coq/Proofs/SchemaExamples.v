(* Proofs of the non-vacuity examples of Props/C02.v (kept here so that Props/C02.v, which is
   recompiled on every run, stays cheap). *)
From DV Require Import Base.Prelude Model.NameM Model.SchemaM Proofs.SchemaCodec Proofs.SchemaThm Proofs.SchemaFix Proofs.SchemaTable Proofs.SchemaOrigin Proofs.ListFacts.
From DV Require Proofs.NameValid.
From DV Require Import Model.DispatchM Proofs.SchemaDispatch Model.SchemaHand Proofs.SchemaHandThm Proofs.SchemaTotal Proofs.SchemaReenc.
Open Scope Z_scope.

Definition mx_schema := [FS (FU 2 65535); FS (FName true)].

Definition mx_value := [VS (VI 10); VS (VN [[109; 97; 105; 108]; [101; 120]; []])].

Lemma mx_wf_ex : schema_wf mx_schema = true.
Proof. reflexivity. Qed.

Lemma mx_encodes_ex :
  encode_rdata None mx_schema CkNone mx_value = Ok [0; 10; 4; 109; 97; 105; 108; 2; 101; 120; 0].
Proof. reflexivity. Qed.

Lemma mx_decodes_inside_message_ex :
  decode_rdata None mx_schema CkNone ([7; 7; 7] ++ [0; 10; 4; 109; 97; 105; 108; 2; 101; 120; 0] ++ [9]) 3 11
  = Ok mx_value.
Proof. reflexivity. Qed.

Definition nsec3_schema :=
  [FS (FU 1 255); FS (FU 1 255); FS (FU 2 65535); FS (FCounted 1 0 255); FS (FCounted 1 0 255);
   FRepeat false true [FU 1 255; FCounted 1 1 32]].

Lemma nsec3_wf_ex : schema_wf nsec3_schema = true.
Proof. reflexivity. Qed.

Lemma nsec3_roundtrip_ex :
  let v := [VS (VI 1); VS (VI 0); VS (VI 12); VS (VB [170; 187]); VS (VB [1; 2; 3]);
            VL [[VI 0; VB [64; 1]]; [VI 1; VB [128]]]] in
  exists b, encode_rdata None nsec3_schema CkNone v = Ok b /\
            decode_rdata None nsec3_schema CkNone b 0 (length b) = Ok v.
Proof. eexists. split; reflexivity. Qed.

Lemma a_record_trailing_octet_ex :
  decode_rdata None [FRemN 4] CkNone [1; 2; 3; 4; 5] 0 5 = Lib eFormError.
Proof. reflexivity. Qed.

Lemma a_entry_ok_ex :
  entry_ok (mk_entry 1 1 [(FS (FFixed 4), 0)] [(FRemN 4, 0)] CkNone) = true.
Proof. reflexivity. Qed.

Lemma mx_width_slip_rejected_ex :
  entry_ok (mk_entry 255 15 [(FS (FU 4 65535), 0); (FS (FName true), 1)]
                            [(FS (FU 2 65535), 0); (FS (FName true), 1)] CkNone) = false.
Proof. reflexivity. Qed.

Lemma srv_swap_rejected_ex :
  entry_ok (mk_entry 255 33
     [(FS (FU 2 65535), 1); (FS (FU 2 65535), 0); (FS (FU 2 65535), 2); (FS (FName true), 3)]
     [(FS (FU 2 65535), 0); (FS (FU 2 65535), 1); (FS (FU 2 65535), 2); (FS (FName true), 3)] CkNone) = false.
Proof. reflexivity. Qed.

Lemma mx_relative_with_origin_ex :
  let o := [[101; 120; 97; 109; 112; 108; 101]; []] in
  let v := [VS (VI 10); VS (VN [[109; 97; 105; 108]])] in
  nok_fields (nok_origin o) mx_schema v /\
  exists b, encode_rdata (Some o) mx_schema CkNone v = Ok b /\
            decode_rdata (Some o) mx_schema CkNone b 0 (length b) = Ok v.
Proof.
  split.
  - cbn. repeat split; try exact Logic.I. left. split; [reflexivity|]. split; [reflexivity|].
    unfold NameValid.Valid. cbn. repeat split; try lia; repeat constructor; cbn; try lia; discriminate.
  - eexists. split; reflexivity.
Qed.

Lemma dispatch_example_ex :
  let mods := [(cIN, 1); (cCH, 1); (cANY, 15)] in
  mods_ok mods = true /\ loadable mods [1; 15] = true /\
  forallb (safe_step mods) [Query 4 15; LoadAll true; Query cCH 15; Query cCH 1; Query cANY 15; Query 4 1] = true /\
  run_history mods [1; 15] [Query 4 15; LoadAll true; Query cCH 15; Query cCH 1; Query cANY 15; Query 4 1] init_state
  = [L [I 255; I 15]; L [I 255; I 15]; L [I 3; I 1]; L [I 255; I 15]; I 0].
Proof. repeat split; reflexivity. Qed.

Lemma hip_example_ex :
  exists b, hand_encode_rdata HHip None
              [VS (VB [1; 2; 3]); VS (VI 2); VS (VB [9; 9]); VL [[VN [[114; 118; 115]; []]]; [VN [[]]]]] = Ok b.
Proof. eexists. reflexivity. Qed.

Lemma ipseckey_example_ex :
  exists b, hand_encode_rdata HIpseckey None
              [VS (VI 10); VS (VI 3); VS (VI 2); VS (VN [[103; 119]; []]); VS (VB [1; 2])] = Ok b.
Proof. eexists. reflexivity. Qed.

Lemma amtrelay_example_ex :
  exists b, hand_encode_rdata HAmtrelay None [VS (VI 10); VS (VI 1); VS (VI 1); VS (VB [192; 0; 2; 1])] = Ok b
            /\ hand_decode_rdata HAmtrelay None b 0 (length b) = Ok [VS (VI 10); VS (VI 1); VS (VI 1); VS (VB [192; 0; 2; 1])].
Proof. eexists. split; reflexivity. Qed.

Lemma apl_example_ex :
  let v := [VL [[VI 1; VI 1; VB [0; 0; 0; 0]; VI 0]; [VI 2; VI 0; VB [32; 1; 0; 0; 0; 0; 0; 0; 0; 0; 0; 0; 0; 0; 0; 0]; VI 16]]] in
  apl_canon v /\ exists b, hand_encode_rdata HApl None v = Ok b /\ hand_decode_rdata HApl None b 0 (length b) = Ok v.
Proof.
  split; [cbn; constructor; [left; reflexivity|constructor; [right; left; reflexivity|constructor]]|].
  eexists. split; reflexivity.
Qed.

Lemma svcb_example_ex :
  let v := [VS (VI 1); VS (VN [[115; 118; 99]; []]);
            VL [[VI 0; VB [0; 1; 0; 3]]; [VI 1; VB [2; 104; 50]]; [VI 2; VB []]; [VI 3; VB [1; 187]]; [VI 4; VB [192; 0; 2; 1]]]] in
  exists b, hand_encode_rdata HSvcb None v = Ok b /\ hand_decode_rdata HSvcb None b 0 (length b) = Ok v.
Proof. eexists. split; reflexivity. Qed.

Lemma svcb_duplicate_key_normalised_ex :
  hand_decode_rdata HSvcb None [0; 1; 0; 0; 3; 0; 2; 0; 80; 0; 3; 0; 2; 1; 187] 0 15
  = Ok [VS (VI 1); VS (VN [[]]); VL [[VI 3; VB [1; 187]]]].
Proof. reflexivity. Qed.

Lemma loc_example_ex :
  let lat := [VI 42; VI 21; VI 54; VI 0; VI 1] in
  let lon := [VI 71; VI 6; VI 18; VI 0; VI (-1)] in
  coord_canon 90 lat /\ coord_canon 180 lon /\ In 100 loc_sizes /\ In 1000000 loc_sizes /\
  exists b, hand_encode_rdata HLoc None [VL [lat]; VL [lon]; VS (VI (-2400)); VS (VI 100); VS (VI 1000000); VS (VI 1000)] = Ok b.
Proof.
  cbn [coord_canon]. repeat split; try lia; try (left; reflexivity); try (right; reflexivity).
  - apply existsb_eqb_In. reflexivity.
  - apply existsb_eqb_In. reflexivity.
  - eexists. reflexivity.
Qed.

Lemma opt_example_ex :
  let v := [VL [[VI 8; VB [0; 1; 20; 0; 192; 0; 32]]; [VI 15; VB [0; 18; 195; 169]]; [VI 10; VB [1; 2; 3; 4; 5; 6; 7; 8]];
                [VI 18; VB [1; 97; 0]]; [VI 65001; VB []]]] in
  exists b, hand_encode_rdata HOpt None v = Ok b /\ hand_decode_rdata HOpt None b 0 (length b) = Ok v.
Proof. eexists. split; reflexivity. Qed.

Lemma opt_normalises_ex :
  hand_decode_rdata HOpt None [0; 8; 0; 7; 0; 1; 20; 0; 192; 0; 47;  0; 15; 0; 4; 0; 18; 120; 0] 0 19
  = Ok [VL [[VI 8; VB [0; 1; 20; 0; 192; 0; 32]]; [VI 15; VB [0; 18; 120]]]].
Proof. reflexivity. Qed.

Lemma nsec3_no_norm_ex : forallb no_norm nsec3_schema = true.
Proof. reflexivity. Qed.

Lemma gpos_example_ex :
  let fs := [FS (FCounted 1 0 255); FS (FCounted 1 0 255); FS (FCounted 1 0 255)] in
  check_wf CkGPOS fs = true /\
  (exists b, encode_rdata None fs CkGPOS [VS (VB [45; 57; 48]); VS (VB [49; 56; 48; 46; 48]); VS (VB [46; 53])] = Ok b) /\
  encode_rdata None fs CkGPOS [VS (VB [57; 48; 46; 48; 49]); VS (VB [48]); VS (VB [48])] = Lib eValueError.
Proof. repeat split; try reflexivity. eexists. reflexivity. Qed.
