(* C13 - what one step of the loop does in the two kinds of state a transfer in progress is in: an IXFR
   (ist) and a full transfer (ast: AXFR, or IXFR after the AXFR-style fallback). *)
From DV Require Import Base.Prelude Model.XfrM Proofs.XfrSets Proofs.XfrSpec Proofs.XfrZone
  Proofs.XfrSafety Proofs.XfrBasic Proofs.XfrRun.

(* an RRset that is not the zone's SOA, once the first-record decision is made: skipped when out of zone,
   else deleted exactly / added *)
Lemma step_rs : forall l p tz rdt inc ser udp so dm rq s,
  (s_type s =? tSOA) && (s_name s =? origin) = false ->
  step l (mkSt p (Some tz) rdt inc ser udp so false false dm rq) s =
  let st' tz' := mkSt p (Some tz') rdt inc ser udp so false false dm rq in
  if negb (in_zone (s_name s)) then (st' tz, None)
  else res_of (st' tz) (if dm then t_delete_exact tz s else t_add false tz s) (fun tz' => (st' tz', None)).
Proof.
  intros l p tz rdt inc ser udp so dm rq s H. unfold step. cbn [done txn expecting delmode]. rewrite H.
  destruct (in_zone (s_name s)); [|reflexivity]. destruct dm; reflexivity.
Qed.

(* the first record after the announced SOA is not an SOA: AXFR-style answer; roll back, start a
   replacement transaction *)
Lemma step_fallback : forall l u p tz cur s0 s,
  (s_type s =? tSOA) && (s_name s =? origin) = false ->
  step l (ist u p tz cur s0 true false) s =
  if negb (in_zone (s_name s)) then (ast u tIXFR p [] cur s0, None)
  else res_of (ast u tIXFR p [] cur s0) (t_add false [] s) (fun tz' => (ast u tIXFR p tz' cur s0, None)).
Proof.
  intros l u p tz cur s0 s H. unfold step, ist. cbn [done txn expecting]. rewrite H.
  destruct (in_zone (s_name s)); reflexivity.
Qed.

(* an SOA record during an IXFR: the announced SOA outside a deletion section ends the transfer (if all
   is well); otherwise it starts a deletion section (its serial must be the current one) or an addition
   section *)
Lemma step_ist_soa : forall l u p tz cur fin e dm b,
  step l (ist u p tz cur (single (soa_rr fin)) e dm) (single (soa_rr b)) =
  let s0 := single (soa_rr fin) in
  if (v_soa b =? v_soa fin) && negb dm then
    if e then (ist u p tz cur s0 true true, Some eEmptyIXFR)
    else if negb (cur =? v_serial b) then (ist u p tz cur s0 false true, Some eUnexpectedEnd)
    else match l with
         | Mid => (ist u p tz cur s0 false true, Some eAfterFinal)
         | _ => res_of (ist u p tz cur s0 false true) (t_add true tz (single (soa_rr b)))
                  (fun tz' => (mkSt tz' None tIXFR true cur u (Some s0) true false true false, None))
         end
  else if negb dm then
    (ist u p tz cur s0 false true, if negb (v_serial b =? cur) then Some eBaseMismatch else None)
  else res_of (ist u p tz (v_serial b) s0 false false) (t_add true tz (single (soa_rr b)))
         (fun tz' => (ist u p tz' (v_serial b) s0 false false, None)).
Proof.
  intros l u p tz cur fin e dm b. unfold step, ist. cbn [done txn incremental delmode soa set_delmode].
  change ((s_type (single (soa_rr b)) =? tSOA) && (s_name (single (soa_rr b)) =? origin)) with true. cbv iota zeta.
  rewrite soa_eqb, soa_serial_single. cbn [orb negb].
  destruct (v_soa b =? v_soa fin), dm; cbn [andb negb expecting incremental serial set_expecting set_delmode set_serial req_tsig];
    try reflexivity.
  - destruct e; [reflexivity|]. destruct (cur =? v_serial b); [|reflexivity]. destruct l; reflexivity.
  - destruct (v_serial b =? cur); reflexivity.
Qed.

(* its cases outside a deletion section: the start of a deletion section ... *)
Lemma step_del_start : forall l u p tz fin a e, v_soa a <> v_soa fin ->
  step l (ist u p tz (v_serial a) (single (soa_rr fin)) e false) (single (soa_rr a)) =
  (ist u p tz (v_serial a) (single (soa_rr fin)) false true, None).
Proof.
  intros l u p tz fin a e Hne. apply Z.eqb_neq in Hne. rewrite step_ist_soa, Hne, Z.eqb_refl. reflexivity.
Qed.

(* ... the announced SOA where nothing can complete ... *)
Lemma step_fin_mid : forall u p tz cur fin e b, v_soa b = v_soa fin ->
  exists s' c, step Mid (ist u p tz cur (single (soa_rr fin)) e false) (single (soa_rr b)) = (s', Some c).
Proof.
  intros u p tz cur fin e b Hb. apply Z.eqb_eq in Hb. rewrite step_ist_soa, Hb. cbv zeta. cbn [andb negb].
  destruct e; [eauto|]. destruct (cur =? v_serial b); cbn [negb]; eauto.
Qed.

(* ... and the announced SOA at the announced serial, last of its message: the end *)
Lemma step_final : forall u p tz fin b, v_soa b = v_soa fin ->
  step Last (ist u p tz (v_serial b) (single (soa_rr fin)) false false) (single (soa_rr b)) =
  res_of (ist u p tz (v_serial b) (single (soa_rr fin)) false true) (t_add true tz (single (soa_rr b)))
    (fun tz' => (mkSt tz' None tIXFR true (v_serial b) u (Some (single (soa_rr fin))) true false true false, None)).
Proof. intros u p tz fin b Hb. apply Z.eqb_eq in Hb. rewrite step_ist_soa, Hb, Z.eqb_refl. reflexivity. Qed.

(* inside a deletion section it starts the addition section *)
Lemma step_add_start : forall l u p tz cur fin b,
  step l (ist u p tz cur (single (soa_rr fin)) false true) (single (soa_rr b)) =
  res_of (ist u p tz (v_serial b) (single (soa_rr fin)) false false) (t_add true tz (single (soa_rr b)))
    (fun tz' => (ist u p tz' (v_serial b) (single (soa_rr fin)) false false, None)).
Proof. intros. rewrite step_ist_soa. cbv zeta. rewrite andb_false_r. reflexivity. Qed.

(* an SOA record during a full transfer: the announced one ends it, any other is an error *)
Lemma step_ast_soa : forall l u rdt p tz ser fin b,
  step l (ast u rdt p tz ser (single (soa_rr fin))) (single (soa_rr b)) =
  let s := ast u rdt p tz ser (single (soa_rr fin)) in
  if v_soa b =? v_soa fin then
    match l with
    | Mid => (s, Some eAfterFinal)
    | _ => res_of s (t_add true tz (single (soa_rr b)))
             (fun tz' => (mkSt tz' None rdt false ser u (Some (single (soa_rr fin))) true false false false, None))
    end
  else (s, Some eAXFRSOA).
Proof.
  intros l u rdt p tz ser fin b. unfold step, ast. cbn [done txn incremental delmode soa set_delmode].
  change ((s_type (single (soa_rr b)) =? tSOA) && (s_name (single (soa_rr b)) =? origin)) with true. cbv iota zeta.
  rewrite soa_eqb, soa_serial_single. cbn [orb negb andb].
  destruct (v_soa b =? v_soa fin); [|reflexivity]. destruct l; reflexivity.
Qed.
