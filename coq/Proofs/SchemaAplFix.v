(* APL: trimming trailing zero octets is the only normalisation; for every record the
   constructor accepts, the encoding exists, decodes to the canonical form of the record, and
   that form re-encodes to the same octets (fixed point of decode-then-encode). *)
From DV Require Import Base.Prelude Model.NameM Model.SchemaM Model.SchemaHand
  Proofs.SchemaName Proofs.SchemaCodec Proofs.SchemaThm Proofs.SchemaHandOrigin Proofs.SchemaHandThm.
Open Scope Z_scope.

Definition apl_canon_item (r : list sval) : list sval :=
  match r with
  | [VI fam; VI neg; VB addr; VI prefix] =>
      if (fam =? 1) || (fam =? 2) then r else [VI fam; VI neg; VB (strip0 addr); VI prefix]
  | _ => r
  end.

(* on a valid item: the same encoding, still valid, and canonical *)
Lemma apl_canon_item_ok : forall r, apl_item_valid r = true ->
  apl_item_enc (apl_canon_item r) = apl_item_enc r /\
  apl_item_valid (apl_canon_item r) = true /\ apl_item_canon (apl_canon_item r).
Proof.
  intros r H. pose proof H as Hv.
  apply apl_item_valid_inv in H as (fam & neg & addr & prefix & -> & Hf & Hn & Hp & Hl & H4 & H16).
  cbn [apl_canon_item]. destruct ((fam =? 1) || (fam =? 2)) eqn:E.
  - split; [reflexivity|]. split; [exact Hv|]. cbn [apl_item_canon]. lia.
  - cbn [apl_item_enc apl_item_valid apl_item_canon]. rewrite strip0_idem.
    split; [reflexivity|]. split; [|auto].
    pose proof (strip0_length addr). unfold zlen in *.
    replace (fam =? 1) with false by lia. replace (fam =? 2) with false by lia. lia.
Qed.

Lemma apl_item_enc_total : forall r, apl_item_valid r = true -> exists b, apl_item_enc r = Ok b.
Proof.
  intros r H. apply apl_item_valid_inv in H as (fam & neg & addr & prefix & -> & Hf & Hn & Hp & Hl & _).
  cbn [apl_item_enc]. pose proof (strip0_length addr).
  replace ((zlen (strip0 addr) <? 128) && (0 <=? fam) && (fam <? 65536) && u8_ok prefix) with true
    by (unfold u8_ok, zlen in *; lia).
  eauto.
Qed.

Lemma apl_items_enc_total : forall items, forallb apl_item_valid items = true ->
  exists b, apl_items_enc items = Ok b /\ apl_items_enc (map apl_canon_item items) = Ok b.
Proof.
  induction items as [|r rr IH]; intros H; [cbn; eauto|].
  cbn [forallb] in H. apply andb_prop in H as [H1 H2].
  destruct (apl_item_enc_total r H1) as [b1 E1]. destruct (IH H2) as (b2 & E2 & E3).
  cbn [map apl_items_enc]. rewrite (proj1 (apl_canon_item_ok r H1)), E1, E2, E3. cbn. eauto.
Qed.

Theorem apl_fixed_point_thm : forall items,
  apl_valid [VL items] = true ->
  exists w, hand_encode_rdata HApl None [VL items] = Ok w /\
            hand_decode_rdata HApl None w 0 (length w) = Ok [VL (map apl_canon_item items)] /\
            hand_encode_rdata HApl None [VL (map apl_canon_item items)] = Ok w.
Proof.
  intros items Hv. pose proof Hv as Hv'. unfold apl_valid in Hv'.
  destruct (apl_items_enc_total items Hv') as (w & Ew & Ec).
  rewrite forallb_forall in Hv'.
  assert (Hc : forall r, In r (map apl_canon_item items) -> apl_item_valid r = true /\ apl_item_canon r).
  { intros r Hin. apply in_map_iff in Hin as (r0 & <- & Hin). apply apl_canon_item_ok, Hv', Hin. }
  destruct (hand_fixed_point HApl [VL (map apl_canon_item items)] w) as [He Hd].
  - apply Forall_forall. intros r Hin. apply Hc, Hin.
  - apply forallb_forall. intros r Hin. apply Hc, Hin.
  - exact Ec.
  - exists w. split; [|split; assumption].
    unfold hand_encode_rdata. cbn [hand_valid hand_enc]. rewrite Hv. exact Ew.
Qed.

(* in particular for whatever the reader accepted *)
Corollary apl_decoded_fixed_point : forall wire cur rdlen vs,
  hand_decode_rdata HApl None wire cur rdlen = Ok vs ->
  exists items w, vs = [VL items] /\ hand_encode_rdata HApl None vs = Ok w /\
            hand_decode_rdata HApl None w 0 (length w) = Ok [VL (map apl_canon_item items)] /\
            hand_encode_rdata HApl None [VL (map apl_canon_item items)] = Ok w.
Proof.
  intros wire cur rdlen vs H. apply hand_decode_ok in H as (_ & Hd & Hv). cbn [hand_dec hand_valid] in Hd, Hv.
  unfold apl_dec in Hd. inv_bind Hd. injection Hd as <- _. destruct x as [items c1].
  destruct (apl_fixed_point_thm items Hv) as (w & H1 & H2 & H3).
  exists items, w. auto.
Qed.
