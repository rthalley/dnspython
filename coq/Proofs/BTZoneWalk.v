(* C20: WritableVersion.update_glue_flag - the cursor walk over the subtree of a name. *)
From DV Require Import Base.Prelude Model.NameM Model.BTZoneM
     Proofs.BTZoneOrder Proofs.BTZoneList Proofs.BTZoneSpec.
Open Scope Z_scope.

(* `for ename, node in updates: self.nodes[ename] = node` *)
Definition apply_updates (ups nodes : nodes_t) : nodes_t :=
  fold_left (fun ns u => al_set (fst u) (snd u) ns) ups nodes.

Lemma apply_updates_spec : forall ups nodes, sorted nodes -> sorted ups ->
    sorted (apply_updates ups nodes) /\
    forall k v, In (k, v) (apply_updates ups nodes) <->
                (In (k, v) ups \/ (In (k, v) nodes /\ ~ In (K k) (keys ups))).
Proof.
  induction ups as [|[k0 v0] ups IH]; intros nodes S Su; cbn [apply_updates fold_left fst snd].
  - split; auto. intros k v. cbn. tauto.
  - apply sorted_cons in Su as [Su1 Su2].
    destruct (IH (al_set k0 v0 nodes) (al_set_sorted _ _ _ S) Su2) as [A B].
    split; [exact A|]. intros k v. unfold apply_updates in B. rewrite B. rewrite al_set_in by auto.
    cbn [In keys map fst]. split.
    + intros [H|[[H|[H Hn]] Hk]]; auto. right. split; auto. intros [E|E]; auto.
    + intros [[H|H]|[H Hk]]; auto.
      * right. split; [left; auto|]. inversion H; subst. intros Hin.
        apply keys_in in Hin as (k' & v' & Hin & E). exact (klt_neq _ _ (Su1 _ _ Hin) (eq_sym E)).
      * right. split; [right; split; [auto | intros E; apply Hk; left; auto] | intros E; apply Hk; right; auto].
Qed.

(* the updates give new values to the part sub of the list that P selects *)
Lemma apply_updates_map : forall (l sub : nodes_t) (P : name -> bool) (f : name * node -> node),
    sorted l -> sorted sub -> (forall k v, In (k, v) sub <-> In (k, v) l /\ P k = true) ->
    sorted (apply_updates (map (fun e => (fst e, f e)) sub) l) /\
    forall k nd', In (k, nd') (apply_updates (map (fun e => (fst e, f e)) sub) l) <->
                  exists nd, In (k, nd) l /\ nd' = if P k then f (k, nd) else nd.
Proof.
  intros l sub P f S Ss Hsub. set (ups := map (fun e => (fst e, f e)) sub).
  assert (Ek : keys ups = keys sub) by (unfold ups, keys; rewrite map_map; reflexivity).
  assert (Hk : forall k nd, In (k, nd) l -> P k = false -> ~ In (K k) (keys ups)).
  { intros k nd Hin HP Hk. rewrite Ek in Hk. apply keys_in in Hk as (k2 & v2 & Hin2 & E).
    apply Hsub in Hin2 as [Hin2 HP2].
    pose proof (sorted_functional l k2 v2 k nd S Hin2 Hin E). congruence. }
  destruct (apply_updates_spec ups l S) as [S3 H3]; [unfold sorted; rewrite Ek; exact Ss|].
  split; [exact S3|]. intros k nd'. rewrite H3. split.
  - intros [Hin|[Hin Hn]].
    + apply in_map_iff in Hin as ([k0 nd0] & E0 & Hin0). injection E0 as <- <-.
      apply Hsub in Hin0 as [Hin0 HP]. exists nd0. cbn [fst]. rewrite HP. auto.
    + exists nd'. split; [exact Hin|]. destruct (P k) eqn:HP; [|reflexivity].
      exfalso. apply Hn. rewrite Ek. apply (in_keys _ k nd'), Hsub. auto.
  - intros (nd & Hin & ->). destruct (P k) eqn:HP.
    + left. apply in_map_iff. exists (k, nd). split; [reflexivity|]. apply Hsub. auto.
    + right. split; [exact Hin|]. eapply Hk; eauto.
Qed.

(* k is at or beneath the `exposed` cut x *)
Definition cov (x : option name) (k : name) : bool :=
  match x with Some x0 => is_subdomain k x0 | None => false end.

(* the loop without its `break`, on the nodes strictly beneath the name;
   one turn: the node's flags, the next `exposed`, the next delegation index *)
Definition wflag (g : bool) (x : option name) (e : name * node) : Z :=
  if g then fGLUE else flagspec false (cov x (fst e)) (has_ns (snd e)).
Definition wnext (g : bool) (x : option name) (e : name * node) : option name :=
  if g || cov x (fst e) then x else if has_ns (snd e) then Some (fst e) else x.
Definition wdel (g : bool) (x : option name) (e : name * node) (d : delegs_t) : delegs_t :=
  if g then al_discard (fst e) d
  else if cov x (fst e) then d else if has_ns (snd e) then al_set (fst e) tt d else d.

Fixpoint walk_ups (g : bool) (sub : nodes_t) (x : option name) : nodes_t :=
  match sub with
  | [] => []
  | e :: r => (fst e, mkNode (wflag g x e) (nrds (snd e))) :: walk_ups g r (wnext g x e)
  end.

Fixpoint walk_d (g : bool) (sub : nodes_t) (x : option name) (d : delegs_t) : delegs_t :=
  match sub with
  | [] => d
  | e :: r => walk_d g r (wnext g x e) (wdel g x e d)
  end.

Lemma ugf_loop_walk : forall n g sub rest x d ch,
    (forall k v, In (k, v) sub -> is_subdomain k n = true) ->
    (match rest with [] => True | (k, _) :: _ => is_subdomain k n = false end) ->
    exists ch', ugf_loop n g (sub ++ rest) x d ch = (walk_d g sub x d, ch', walk_ups g sub x).
Proof.
  induction sub as [|[k v] sub IH]; intros rest x d ch Hs Hr; cbn [app ugf_loop walk_d walk_ups].
  - destruct rest as [|[k v] rest]; cbn; eauto. rewrite Hr. cbn. eauto.
  - rewrite (Hs k v) by (left; auto). cbn [negb].
    destruct (IH rest (wnext g x (k, v)) (wdel g x (k, v) d) (changed_add k ch)) as [ch' E];
      [intros; eapply Hs; right; eauto|exact Hr|].
    exists ch'. unfold wnext, wdel, wflag, flagspec, cov in *. cbn [fst snd] in *.
    destruct g; [|destruct (match x with Some x0 => is_subdomain k x0 | None => false end); [|destruct (has_ns v)]];
      cbn [orb] in E; rewrite E; reflexivity.
Qed.

(* the elements after the cursor: first the nodes strictly beneath n, then none of them *)
Lemma subtree_split : forall (a : nodes_t) n,
    sorted a -> (forall k v, In (k, v) a -> klt (K n) (K k)) ->
    exists sub rest, a = sub ++ rest /\
                     (forall k v, In (k, v) sub -> sbelow (K k) (K n)) /\
                     (forall k v, In (k, v) rest -> ~ below (K k) (K n)).
Proof.
  induction a as [|[k v] a IH]; intros n S H.
  - exists [], []. split; [reflexivity|split; intros ? ? []].
  - apply sorted_cons in S as [S1 S2].
    destruct (is_subdomain k n) eqn:E.
    + destruct (IH n S2) as (sub & rest & E1 & E2 & E3); [intros; eapply H; right; eauto|].
      exists ((k, v) :: sub), rest. split; [cbn; rewrite E1; auto|split; [|auto]].
      intros k' v' [Hin|Hin]; eauto. injection Hin as <- <-. apply is_subdomain_below in E.
      split; auto. apply not_eq_sym, klt_neq. eapply H. left; auto.
    + exists [], ((k, v) :: a). split; [reflexivity|split; [intros ? ? []|]].
      apply is_subdomain_false_below in E.
      intros k' v' [Hin|Hin].
      * injection Hin as <- <-; auto.
      * unfold below. eapply prefix_past; [apply (H k v); left; auto|exact E|]. apply klt_le. eauto.
Qed.

Lemma ugf_walk : forall (nodes : nodes_t) d ch n g,
    sorted nodes ->
    exists sub ch',
      sorted sub /\ (forall k v, In (k, v) sub <-> In (k, v) nodes /\ strictly_beneath k n = true) /\
      update_glue_flag (mkVer nodes d ch) n g =
      mkVer (apply_updates (walk_ups g sub None) nodes) (walk_d g sub None d) ch'.
Proof.
  intros nodes d ch n g S. unfold update_glue_flag. cbn [v_nodes v_delegs v_changed].
  destruct (c_seek nodes n) as [b a] eqn:Es. destruct (c_seek_spec _ _ _ _ S Es) as (E & Hb & Ha).
  assert (Sa : sorted a) by (rewrite E in S; apply sorted_app in S; tauto).
  destruct (subtree_split a n Sa Ha) as (sub & rest & -> & H1 & H2).
  destruct (ugf_loop_walk n g sub rest None d ch) as [ch' El].
  { intros k v Hin. apply is_subdomain_below, sbelow_below. eauto. }
  { destruct rest as [|[k v] rest]; auto. apply is_subdomain_false_below, (H2 k v). left; auto. }
  rewrite El. exists sub, ch'. split; [apply sorted_app in Sa; tauto|]. split; [|reflexivity].
  intros k v. rewrite strictly_beneath_iff. split.
  - intros H. split; [|eauto]. rewrite E. apply in_or_app. right. apply in_or_app. auto.
  - intros [H Hs]. rewrite E in H. apply in_app_or in H as [H|H].
    + exfalso. apply in_rev in H. apply (Hb k v H), kcmp_gt_lt, sbelow_klt, Hs.
    + apply in_app_or in H as [H|H]; [exact H|]. exfalso. eapply H2; eauto. apply sbelow_below; auto.
Qed.

(* what the walk computes: a later name is glue when it is at or beneath the exposed cut or
   strictly beneath an NS owner met on the way *)
Definition covered (x : option name) (sub : nodes_t) (k : name) : bool :=
  cov x k || existsb (fun e => has_ns (snd e) && strictly_beneath k (fst e)) sub.

Definition wflags (g : bool) (x : option name) (sub : nodes_t) (e : name * node) : Z :=
  if g then fGLUE else flagspec false (covered x sub (fst e)) (has_ns (snd e)).

(* the exposed cut, if any, precedes the names still to come *)
Definition xlt (x : option name) (sub : nodes_t) : Prop :=
  forall x0, x = Some x0 -> forall k v, In (k, v) sub -> klt (K x0) (K k).

Lemma xlt_next : forall x e sub, sorted (e :: sub) -> xlt x (e :: sub) -> xlt (wnext false x e) sub.
Proof.
  intros x [k v] sub S Hx x0 E k1 v1 Hin. apply sorted_cons in S as [S1 _].
  unfold wnext in E. cbn [orb fst snd] in E.
  destruct (cov x k); [|destruct (has_ns v); [injection E as <-; eauto|]]; eapply Hx; eauto; right; exact Hin.
Qed.

Lemma covered_cons : forall x k v sub,
    sorted ((k, v) :: sub) -> xlt x ((k, v) :: sub) ->
    covered x ((k, v) :: sub) k = cov x k /\
    forall k' v', In (k', v') sub -> covered x ((k, v) :: sub) k' = covered (wnext false x (k, v)) sub k'.
Proof.
  intros x k v sub S Hx. apply sorted_cons in S as [S1 S2]. unfold covered. cbn [existsb fst snd]. split.
  - (* no ancestor of k comes after k *)
    rewrite (not_sb_self k k eq_refl), andb_false_r. cbn [orb].
    replace (existsb _ sub) with false; [apply orb_false_r|].
    symmetry. apply not_true_is_false. intros H. apply existsb_exists in H as ([k' v'] & Hin & H).
    apply andb_true_iff in H as [_ H]. apply strictly_beneath_iff, sbelow_klt in H.
    apply (klt_irrefl (K k)). eapply klt_trans; eauto.
  - intros k' v' Hin. rewrite orb_assoc. f_equal. pose proof (S1 k' v' Hin) as Hlt.
    unfold wnext. cbn [orb fst snd]. destruct (cov x k) eqn:Ex.
    + (* k is at or beneath the cut x: so is everything beneath k *)
      destruct (has_ns v && strictly_beneath k' k) eqn:E; [|apply orb_false_r].
      apply andb_true_iff in E as [_ E]. apply strictly_beneath_iff, sbelow_below in E.
      destruct x as [x0|]; [|discriminate]. cbn [cov] in *. apply is_subdomain_below in Ex.
      rewrite (proj2 (is_subdomain_below k' x0)); [reflexivity|]. eapply below_trans; eauto.
    + destruct (has_ns v); [|apply orb_false_r].
      (* k becomes the cut; x, which k is past, is also past for the names after k *)
      replace (cov x k') with false.
      * cbn [cov andb orb]. unfold strictly_beneath.
        rewrite (proj2 (name_eqb_false_ekey k' k)); [apply andb_true_r|]. apply not_eq_sym, klt_neq, Hlt.
      * symmetry. destruct x as [x0|]; [|reflexivity]. cbn [cov] in *.
        apply is_subdomain_false_below in Ex. apply is_subdomain_false_below.
        eapply prefix_past; [eapply Hx; [reflexivity|left; reflexivity]|exact Ex|apply klt_le, Hlt].
Qed.

Lemma walk_ups_spec : forall g sub x,
    sorted sub -> xlt x sub ->
    walk_ups g sub x = map (fun e => (fst e, mkNode (wflags g x sub e) (nrds (snd e)))) sub.
Proof.
  intros g. induction sub as [|[k v] sub IH]; intros x S Hx; cbn [walk_ups map]; [reflexivity|].
  destruct g.
  - change (wnext true x (k, v)) with x. rewrite (IH x); [reflexivity|apply sorted_cons in S; tauto|].
    intros x0 E k1 v1 H1. eapply Hx; [exact E|right; exact H1].
  - destruct (covered_cons x k v sub S Hx) as [Hself Hlater].
    rewrite (IH _ (proj2 (proj1 (sorted_cons _ _ _) S)) (xlt_next _ _ _ S Hx)).
    unfold wflags, wflag. cbn [fst snd]. rewrite Hself. f_equal.
    apply map_ext_in. intros [k1 v1] Hin. cbn [fst snd]. rewrite (Hlater k1 v1 Hin). reflexivity.
Qed.

(* setting the flag: the names beneath leave the index *)
Lemma walk_d_true : forall sub x d, sorted d ->
    sorted (walk_d true sub x d) /\
    forall y, In y (keys (walk_d true sub x d)) <-> (In y (keys d) /\ ~ In y (keys sub)).
Proof.
  induction sub as [|[k0 v0] sub IH]; intros x d S; cbn [walk_d].
  - split; [exact S|]. cbn. tauto.
  - destruct (al_discard_spec d k0 S) as [S' _]. destruct (IH x (al_discard k0 d) S') as [A B].
    split; [exact A|]. intros y. unfold wnext, wdel. cbn [orb fst]. rewrite B, (al_discard_keys d k0 S).
    cbn [keys map In fst]. intuition congruence.
Qed.

(* clearing the flag: the NS owners that nothing covers enter the index *)
Lemma walk_d_false : forall sub x d,
    sorted sub -> sorted d -> xlt x sub ->
    sorted (walk_d false sub x d) /\
    forall y, In y (keys (walk_d false sub x d)) <->
              (In y (keys d) \/
               exists k v, In (k, v) sub /\ K k = y /\ has_ns v = true /\ covered x sub k = false).
Proof.
  induction sub as [|[k v] sub IH]; intros x d S Sd Hx; cbn [walk_d].
  - split; [exact Sd|]. intros y. split; auto. intros [H|(k & v & [] & _)]; auto.
  - destruct (covered_cons x k v sub S Hx) as [Hself Hlater].
    assert (Hd' : sorted (wdel false x (k, v) d) /\
                  forall y, In y (keys (wdel false x (k, v) d)) <->
                            In y (keys d) \/ (y = K k /\ has_ns v = true /\ cov x k = false)).
    { unfold wdel. cbn [fst snd]. destruct (cov x k); [split; [exact Sd|intuition discriminate]|].
      destruct (has_ns v); [|split; [exact Sd|intuition discriminate]].
      split; [apply al_set_sorted; exact Sd|]. intros y. rewrite (al_set_keys d k tt Sd). tauto. }
    destruct Hd' as [Sd' Hd'].
    destruct (IH _ _ (proj2 (proj1 (sorted_cons _ _ _) S)) Sd' (xlt_next _ _ _ S Hx)) as [A B].
    split; [exact A|]. intros y. rewrite B, Hd'. split.
    + intros [[H|(-> & Hn & Hc)]|(k1 & v1 & Hin & E & Hn & Hc)]; auto.
      * right. exists k, v. rewrite Hself. repeat split; auto. left; reflexivity.
      * right. exists k1, v1. rewrite (Hlater k1 v1 Hin). repeat split; auto. right; exact Hin.
    + intros [H|(k1 & v1 & [Hin|Hin] & E & Hn & Hc)]; auto.
      * injection Hin as <- <-. rewrite Hself in Hc. auto.
      * right. exists k1, v1. rewrite <- (Hlater k1 v1 Hin). auto.
Qed.
