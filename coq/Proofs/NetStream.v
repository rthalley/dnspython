(* C18, stream side: _net_read / _net_write under every chunking, EOF, deadline, and the
   2-octet length framing of send_tcp / receive_tcp / tcp. *)
From DV Require Import Base.Prelude Model.NameM Model.NetM Proofs.NameOrder Proofs.NetUdp Proofs.ListFacts.
Open Scope Z_scope.

(* the loops below are unfolded with simpl; what they are applied to stays as written *)
Local Arguments firstn : simpl never.
Local Arguments skipn : simpl never.
Local Arguments Nat.leb : simpl never.
Local Arguments Nat.min : simpl never.
Local Arguments Nat.sub : simpl never.
Local Arguments wait_for : simpl never.

Lemma firstn_skipn_taken {A} (m : nat) (l : list A) : firstn m l ++ skipn (length (firstn m l)) l = l.
Proof.
  rewrite firstn_length. destruct (Nat.min_spec m (length l)) as [[_ ->]|[H ->]]; [apply firstn_skipn|].
  rewrite firstn_all2, skipn_all, app_nil_r by exact H. reflexivity.
Qed.

(* a list cut in two is cut at the length of the first part *)
Lemma app_cut {A} (l1 l2 l : list A) (n : nat) :
  l1 ++ l2 = l -> length l1 = n -> l1 = firstn n l /\ l2 = skipn n l.
Proof.
  intros <- <-. rewrite firstn_app_len, skipn_app_len. auto.
Qed.

Lemma firstn_nil_inv {A} (m : nat) (l : list A) : firstn m l = [] -> m = 0%nat \/ l = [].
Proof. destruct m; destruct l; cbn; auto. discriminate. Qed.

Section Read.
  Variable expiration : option Z.

  (* SOUNDNESS, for every script (every chunking, any would-blocks, EOF events, any deadline):
     if _net_read returns at all, it has moved exactly `count` octets from the front of the stream
     to the end of the accumulator; the script consumed is a prefix *)
  Lemma net_read_loop_ok : forall evs stream count s now res sk,
    net_read_loop expiration evs stream count s now = Ok (res, sk) ->
    res ++ rs_stream sk = s ++ stream /\ length res = (length s + count)%nat /\
    exists used, evs = used ++ rs_evs sk.
  Proof.
    assert (Done : forall evs stream s now, s ++ stream = s ++ stream /\ length s = (length s + 0)%nat /\
                     exists used, evs = used ++ rs_evs {| rs_stream := stream; rs_evs := evs; rs_now := now |}).
    { intros. split; [reflexivity|]. split; [lia|]. exists []. reflexivity. }
    induction evs as [|ev evs IH]; intros stream [|c] s now res sk H; simpl in H;
      try (injection H as <- <-; apply Done).
    - destruct (Nat.leb_spec (S c) (length stream)); [|discriminate]. injection H as <- <-.
      split; [rewrite <- app_assoc; f_equal; apply firstn_skipn|].
      split; [rewrite app_length, firstn_length; lia|]. exists []. reflexivity.
    - destruct ev as [k|dt|]; [| |discriminate].
      + remember (firstn (Nat.min k (S c)) stream) as n eqn:En. destruct n as [|x n']; [discriminate|].
        apply IH in H. destruct H as (H1 & H2 & used & H3).
        assert (L : (length (x :: n') <= S c)%nat) by (rewrite En, firstn_length; lia).
        rewrite <- app_assoc, En, firstn_skipn_taken in H1. rewrite app_length in H2.
        split; [exact H1|]. split; [lia|]. exists (RAvail k :: used). rewrite H3. reflexivity.
      + destruct (wait_for now expiration dt); simpl in H; try discriminate.
        apply IH in H. destruct H as (H1 & H2 & used & H3). repeat split; auto.
        exists (RBlock dt :: used). rewrite H3. reflexivity.
  Qed.

  Theorem net_read_chunking sk count res sk' :
    net_read expiration sk count = Ok (res, sk') ->
    res = firstn count (rs_stream sk) /\ length res = count /\
    rs_stream sk = res ++ rs_stream sk'.
  Proof.
    intros H. apply net_read_loop_ok in H. destruct H as (H1 & H2 & _). simpl in *.
    destruct (app_cut _ _ _ _ H1 H2). auto.
  Qed.

  (* never a short message: an early end of the stream is never an Ok *)
  Theorem eof_is_error sk count :
    (length (rs_stream sk) < count)%nat -> forall r, net_read expiration sk count <> Ok r.
  Proof.
    intros Hlt [res sk'] H. apply net_read_loop_ok in H. destruct H as (H1 & H2 & _).
    simpl in *. rewrite <- H1, app_length in Hlt. lia.
  Qed.

  (* the only possible failures are the documented ones *)
  Lemma net_read_loop_errors : forall evs stream count s now,
    match net_read_loop expiration evs stream count s now with
    | Ok _ => True
    | Lib e => e = neEOF \/ e = neTimeout
    | Internal e => e = niScriptEnd /\ expiration = None
    end.
  Proof.
    induction evs as [|ev evs IH]; intros stream [|c] s now; simpl; auto.
    - destruct (Nat.leb (S c) (length stream)); auto.
    - destruct ev as [k|dt|]; auto.
      + destruct (firstn (Nat.min k (S c)) stream); auto. apply IH.
      + pose proof (wait_for_cases now expiration dt) as C.
        destruct (wait_for now expiration dt) as [now'|e|e]; simpl; [apply IH|tauto|exact C].
  Qed.
End Read.

(* a script that only fragments and delays: every recv hands over at least one octet or
   would-blocks for a finite time; no EOF event *)
Definition benign_r (e : rxev) : Prop :=
  match e with
  | RAvail k => (1 <= k)%nat
  | RBlock (Some _) => True
  | _ => False
  end.

(* under such a script, without a deadline, the only failure is EOFError, and only when the stream
   is too short *)
Lemma net_read_loop_benign : forall evs stream count s now,
  Forall benign_r evs ->
  match net_read_loop None evs stream count s now with
  | Ok _ => True
  | Lib e => e = neEOF /\ (length stream < count)%nat
  | Internal _ => False
  end.
Proof.
  induction evs as [|ev evs IH]; intros stream [|c] s now Hb; simpl; auto.
  - destruct (Nat.leb_spec (S c) (length stream)); auto.
  - inversion Hb as [|? ? Hev Hrest]; subst. destruct ev as [k|[d|]|]; simpl in Hev; try contradiction.
    + pose proof (firstn_length (Nat.min k (S c)) stream) as L.
      destruct (firstn (Nat.min k (S c)) stream) as [|x n']; [simpl in L; split; [reflexivity|lia]|].
      specialize (IH (skipn (length (x :: n')) stream) (S c - length (x :: n'))%nat (s ++ x :: n') now Hrest).
      destruct (net_read_loop _ _ _ _ _ _); auto. rewrite skipn_length in IH. split; [tauto|lia].
    + apply IH. exact Hrest.
Qed.

(* COMPLETENESS: for every such chunking of a stream, reading count octets that are there
   succeeds (and by soundness yields exactly them) *)
Theorem net_read_chunking_complete sk count :
  Forall benign_r (rs_evs sk) -> (count <= length (rs_stream sk))%nat ->
  exists sk', net_read None sk count = Ok (firstn count (rs_stream sk), sk')
              /\ rs_stream sk' = skipn count (rs_stream sk) /\ Forall benign_r (rs_evs sk').
Proof.
  intros Hb Hle. unfold net_read.
  pose proof (net_read_loop_benign (rs_evs sk) (rs_stream sk) count [] (rs_now sk) Hb) as B.
  destruct (net_read_loop _ _ _ _ _ _) as [[res sk']| |] eqn:E; [|lia|destruct B].
  apply net_read_loop_ok in E. destruct E as (H1 & H2 & used & H3). simpl in *.
  destruct (app_cut _ _ _ _ H1 H2) as [-> E2]. exists sk'. split; [reflexivity|]. split; [exact E2|].
  rewrite H3 in Hb. apply Forall_app in Hb. tauto.
Qed.

(* ... and when the stream ends early the outcome is EOFError *)
Theorem eof_is_eoferror sk count :
  Forall benign_r (rs_evs sk) -> (length (rs_stream sk) < count)%nat ->
  net_read None sk count = Lib neEOF.
Proof.
  intros Hb Hlt. pose proof (eof_is_error None sk count Hlt) as N. unfold net_read in *.
  pose proof (net_read_loop_benign (rs_evs sk) (rs_stream sk) count [] (rs_now sk) Hb) as B.
  destruct (net_read_loop _ _ _ _ _ _) as [r|e|e]; [destruct (N r eq_refl)|f_equal; tauto|destruct B].
Qed.

(* DEADLINE: a successful read never waited beyond the deadline ... *)
Lemma net_read_loop_deadline e : forall evs stream count s now res sk,
  net_read_loop (Some e) evs stream count s now = Ok (res, sk) ->
  rs_now sk = now \/ rs_now sk < e.
Proof.
  induction evs as [|ev evs IH]; intros stream [|c] s now res sk H; simpl in H;
    try (injection H as <- <-; auto).
  - destruct (Nat.leb (S c) (length stream)); inversion H; subst. auto.
  - destruct ev as [k|dt|]; [| |discriminate].
    + destruct (firstn (Nat.min k (S c)) stream); [discriminate|]. eapply IH; eauto.
    + destruct (wait_for now (Some e) dt) as [now'| |] eqn:W; simpl in H; try discriminate.
      apply wait_for_ok_lt in W. apply IH in H. lia.
Qed.

(* ... and a would-block that lasts to the deadline (or a deadline already passed) is Timeout,
   whatever arrived before it: the octets read so far are not returned *)
Fixpoint no_wait (pre : list rxev) : Prop :=
  match pre with
  | [] => True
  | RAvail _ :: r => no_wait r
  | _ => False
  end.

Definition late (e now : Z) (dt : option Z) : Prop :=
  match dt with Some d => e - now <= d | None => True end.

Lemma net_read_loop_timeout e : forall pre dt rest stream count s now,
  no_wait pre -> late e now dt ->
  match net_read_loop (Some e) (pre ++ RBlock dt :: rest) stream count s now with
  | Ok (res, sk) => (length (rs_evs sk) > length rest)%nat
  | Lib e' => e' = neTimeout \/ e' = neEOF
  | Internal _ => False
  end.
Proof.
  induction pre as [|[k|dt0|] pre IH]; intros dt rest stream [|c] s now Hnw Hdt; simpl in *;
    try contradiction; rewrite ?app_length; simpl; try lia.
  - rewrite wait_for_timeout by auto. simpl. auto.
  - destruct (firstn (Nat.min k (S c)) stream) as [|x n']; [auto|apply IH; assumption].
Qed.

(* if the read gets as far as a would-block that cannot end before the deadline, it does not
   return a message *)
Theorem deadline_is_error e pre dt rest sk count :
  rs_evs sk = pre ++ RBlock dt :: rest -> no_wait pre ->
  (match dt with Some d => e - rs_now sk <= d | None => True end) ->
  forall res sk', net_read (Some e) sk count = Ok (res, sk') ->
  (length (rs_evs sk') > length rest)%nat.
Proof.
  intros Hev Hnw Hdt res sk' H. unfold net_read in H. rewrite Hev in H.
  pose proof (net_read_loop_timeout e pre dt rest (rs_stream sk) count [] (rs_now sk) Hnw Hdt) as T.
  rewrite H in T. exact T.
Qed.

(* the deadline stated directly: the socket hands over chunks of k1, k2, ... octets - fewer in total
   than asked for - and then would-blocks until the deadline: the result is Timeout, not the
   octets read so far *)
Theorem deadline_is_timeout e : forall ks dt rest stream count s now,
  Forall (fun k => (1 <= k)%nat) ks ->
  (list_sum ks < count)%nat -> (list_sum ks <= length stream)%nat ->
  late e now dt ->
  net_read_loop (Some e) (map RAvail ks ++ RBlock dt :: rest) stream count s now = Lib neTimeout.
Proof.
  induction ks as [|k ks IH]; intros dt rest stream [|c] s now Hk Hlt Hle Hl; simpl in *; try lia.
  - rewrite wait_for_timeout by auto. reflexivity.
  - inversion Hk as [|? ? Hk1 Hks]; subst. rewrite Nat.min_l by lia.
    assert (Hlen : length (firstn k stream) = k) by (rewrite firstn_length; lia).
    destruct (firstn k stream) as [|x n'] eqn:En; [simpl in Hlen; lia|].
    rewrite Hlen. apply IH; auto; [|rewrite skipn_length]; lia.
Qed.

(* SOUNDNESS for every script: when _net_write returns, the socket has received exactly the
   data, each octet once and in order *)
Lemma net_write_loop_ok exp : forall evs data sent now sent' evs' now',
  net_write_loop exp evs data sent now = Ok (sent', evs', now') -> sent' = sent ++ data.
Proof.
  induction evs as [|[k|dt] evs IH]; intros [|x data] sent now sent' evs' now' H; simpl in H;
    try (injection H as <- _ _; rewrite ?app_nil_r; reflexivity).
  - apply IH in H. rewrite H, <- app_assoc, firstn_skipn. reflexivity.
  - destruct (wait_for now exp dt); simpl in H; try discriminate. apply IH in H. auto.
Qed.

Theorem send_all_in_order exp evs data now sent evs' now' :
  net_write_loop exp evs data [] now = Ok (sent, evs', now') -> sent = data.
Proof. intros H. apply net_write_loop_ok in H. auto. Qed.

Definition benign_w (e : txev) : Prop :=
  match e with
  | WAccept _ => True           (* even a send that takes nothing *)
  | WBlock (Some _) => True
  | WBlock None => False
  end.

(* COMPLETENESS: without a deadline, every fragmentation of the writes gets all data out *)
Theorem send_all_complete : forall evs data sent now,
  Forall benign_w evs ->
  exists evs' now', net_write_loop None evs data sent now = Ok (sent ++ data, evs', now').
Proof.
  induction evs as [|ev evs IH]; intros [|x data] sent now Hb; simpl; rewrite ?app_nil_r; eauto.
  inversion Hb as [|? ? Hev Hrest]; subst. destruct ev as [k|[d|]]; simpl in Hev; try contradiction.
  - destruct (IH (skipn k (x :: data)) (sent ++ firstn k (x :: data)) now Hrest) as (e' & n' & H).
    rewrite H, <- app_assoc, firstn_skipn. eauto.
  - apply IH; auto.
Qed.

(* on a failure what reached the socket is a prefix of the data: nothing out of order, nothing
   twice (trace version of the loop) *)
Fixpoint net_write_trace (exp : option Z) (evs : list txev) (data sent : list Z) (now : Z) : list Z :=
  match data with
  | [] => sent
  | _ :: _ =>
      match evs with
      | [] => sent ++ data
      | WAccept k :: r => net_write_trace exp r (skipn k data) (sent ++ firstn k data) now
      | WBlock dt :: r =>
          match wait_for now exp dt with
          | Ok now' => net_write_trace exp r data sent now'
          | _ => sent
          end
      end
  end.

Lemma net_write_trace_prefix exp : forall evs data sent now,
  exists done, net_write_trace exp evs data sent now = sent ++ done /\ exists rest, data = done ++ rest.
Proof.
  assert (None_ : forall data sent : list Z, exists done, sent = sent ++ done /\ exists rest, data = done ++ rest).
  { intros. exists []. rewrite app_nil_r. split; [reflexivity|]. exists data. reflexivity. }
  assert (All : forall data sent : list Z, exists done, sent ++ data = sent ++ done /\ exists rest, data = done ++ rest).
  { intros. exists data. split; [reflexivity|]. exists []. rewrite app_nil_r. reflexivity. }
  induction evs as [|[k|dt] evs IH]; intros [|x data] sent now; simpl; auto.
  - destruct (IH (skipn k (x :: data)) (sent ++ firstn k (x :: data)) now) as (d & Hd & rest & Hr).
    exists (firstn k (x :: data) ++ d). split; [rewrite Hd, app_assoc; reflexivity|].
    exists rest. rewrite <- app_assoc, <- Hr, firstn_skipn. reflexivity.
  - destruct (wait_for now exp dt); auto.
Qed.

Lemma net_write_trace_ok exp : forall evs data sent now sent' evs' now',
  net_write_loop exp evs data sent now = Ok (sent', evs', now') ->
  net_write_trace exp evs data sent now = sent'.
Proof.
  induction evs as [|[k|dt] evs IH]; intros [|x data] sent now sent' evs' now' H; simpl in *;
    try (injection H as <- _ _; reflexivity).
  - eapply IH; eauto.
  - destruct (wait_for now exp dt); simpl in H; try discriminate. eapply IH; eauto.
Qed.

(* a successful write never waited beyond the deadline *)
Lemma net_write_loop_deadline e : forall evs data sent now sent' evs' now',
  net_write_loop (Some e) evs data sent now = Ok (sent', evs', now') -> now' = now \/ now' < e.
Proof.
  induction evs as [|[k|dt] evs IH]; intros [|x data] sent now sent' evs' now' H; simpl in H;
    try (injection H as _ _ <-; auto).
  - eapply IH; eauto.
  - destruct (wait_for now (Some e) dt) as [n1| |] eqn:W; simpl in H; try discriminate.
    apply wait_for_ok_lt in W. apply IH in H. lia.
Qed.

(* short sends of k1, k2, ... octets and then a would-block until the deadline is Timeout *)
Theorem write_deadline_is_timeout e : forall ks dt rest data sent now,
  (list_sum ks < length data)%nat -> late e now dt ->
  net_write_loop (Some e) (map WAccept ks ++ WBlock dt :: rest) data sent now = Lib neTimeout.
Proof.
  induction ks as [|k ks IH]; intros dt rest [|x data] sent now Hlt Hl; simpl in *; try lia.
  - rewrite wait_for_timeout by auto. reflexivity.
  - apply IH; auto. rewrite skipn_length. simpl. lia.
Qed.

Definition frame (w : list Z) : list Z := u16be (zlen w) ++ w.

Lemma u16be_decode n : 0 <= n -> (n / 256) * 256 + n mod 256 = n.
Proof. intros H. pose proof (Z.div_mod n 256). lia. Qed.

Section Framing.
  Variable parse : list Z -> pabs.

  Theorem send_tcp_frames exp evs what now n sent evs' now' :
    send_tcp exp evs what now = Ok (n, (sent, evs', now')) ->
    zlen what <= 65535 /\ sent = frame what /\ n = zlen what + 2 /\
    net_write_loop exp evs (frame what) [] now = Ok (sent, evs', now').
  Proof.
    unfold send_tcp. destruct (zlen what >? 65535) eqn:G; [discriminate|]. fold (frame what).
    destruct (net_write_loop exp evs (frame what) [] now) as [[[s e] t]| |] eqn:W; simpl; try discriminate.
    intros H. injection H as <- <- <- <-. split; [lia|]. split; [exact (net_write_loop_ok _ _ _ _ _ _ _ _ W)|].
    unfold zlen, frame, u16be. simpl. split; [lia|reflexivity].
  Qed.

  (* a message longer than the prefix can express is refused, not mis-framed *)
  Theorem send_tcp_too_long exp evs what now :
    zlen what > 65535 -> send_tcp exp evs what now = Internal niOverflow.
  Proof. intros H. unfold send_tcp. destruct (zlen what >? 65535) eqn:G; auto. lia. Qed.

  (* receive_tcp is two reads - the length, then that many octets - and the parse *)
  Lemma receive_tcp_ok exp it sk m wire sk' :
    receive_tcp parse exp it sk = Ok (m, wire, sk') ->
    exists hi lo sk1, net_read exp sk 2 = Ok ([hi; lo], sk1) /\
      net_read exp sk1 (Z.to_nat (hi * 256 + lo)) = Ok (wire, sk') /\
      from_wire_out (parse wire) it false = POk m.
  Proof.
    unfold receive_tcp.
    destruct (net_read exp sk 2) as [[[|hi [|lo [|]]] sk1]| |]; simpl; try discriminate.
    destruct (net_read exp sk1 _) as [[w sk2]| |] eqn:R2; simpl; try discriminate.
    destruct (from_wire_out (parse w) it false) as [m'|m'|e] eqn:P; [|discriminate|unfold err_res; destruct (e <? 20); discriminate].
    intros H. injection H as <- <- <-. exists hi, lo, sk1. auto.
  Qed.

  (* EXACT FRAMING on arbitrary input, for every script: a message returned by receive_tcp is
     the octets that follow a 2-octet big-endian length, exactly that many, and everything after
     them is left in the stream *)
  Theorem receive_tcp_exact exp it sk m wire sk' :
    receive_tcp parse exp it sk = Ok (m, wire, sk') ->
    exists hi lo, rs_stream sk = hi :: lo :: wire ++ rs_stream sk' /\
                  length wire = Z.to_nat (hi * 256 + lo) /\
                  from_wire_out (parse wire) it false = POk m.
  Proof.
    intros H. apply receive_tcp_ok in H. destruct H as (hi & lo & sk1 & R1 & R2 & P).
    apply net_read_chunking in R1, R2. destruct R1 as (_ & _ & ->). destruct R2 as (_ & L & ->).
    exists hi, lo. auto.
  Qed.

  (* ROUND TRIP: what send_tcp put on the wire (under any write fragmentation) is read back by
     receive_tcp (under any read fragmentation) as exactly the same message, and what follows
     it on the connection is untouched *)
  Theorem tcp_frame_roundtrip what more exp wevs now n sent evs' now' exp2 it revs now2 m wire sk' :
    send_tcp exp wevs what now = Ok (n, (sent, evs', now')) ->
    receive_tcp parse exp2 it {| rs_stream := sent ++ more; rs_evs := revs; rs_now := now2 |}
      = Ok (m, wire, sk') ->
    wire = what /\ rs_stream sk' = more /\ from_wire_out (parse what) it false = POk m.
  Proof.
    intros Hs Hr. apply send_tcp_frames in Hs. destruct Hs as (Hlen & -> & _).
    apply receive_tcp_exact in Hr. destruct Hr as (hi & lo & Hst & Hl & Hp).
    injection Hst as <- <- Hst. rewrite u16be_decode in Hl by (unfold zlen; lia).
    unfold zlen in Hl. rewrite Nat2Z.id in Hl.
    destruct (app_cut _ _ _ _ Hst eq_refl) as [E1 E2], (app_cut wire (rs_stream sk') _ _ eq_refl Hl) as [E3 E4].
    rewrite <- E3 in E1. rewrite <- E4 in E2. subst. auto.
  Qed.

  (* completeness of the round trip under scripts that only fragment and delay *)
  Theorem tcp_frame_roundtrip_complete what more it revs now2 :
    zlen what <= 65535 -> Forall benign_r revs ->
    exists sk', rs_stream sk' = more /\ Forall benign_r (rs_evs sk') /\
      receive_tcp parse None it {| rs_stream := frame what ++ more; rs_evs := revs; rs_now := now2 |}
      = match from_wire_out (parse what) it false with
        | POk m => Ok (m, what, sk')
        | PTrunc _ => Lib neTruncated
        | PErr e => err_res e
        end.
  Proof.
    intros Hlen Hb. unfold receive_tcp.
    destruct (net_read_chunking_complete {| rs_stream := frame what ++ more; rs_evs := revs; rs_now := now2 |} 2 Hb)
      as (sk1 & -> & S1 & B1); [unfold frame, u16be; simpl; lia|].
    change (rs_stream sk1 = what ++ more) in S1.
    change (firstn 2 _) with [zlen what / 256; zlen what mod 256]. cbn [bind].
    rewrite u16be_decode by (unfold zlen; lia). unfold zlen at 1. rewrite Nat2Z.id.
    destruct (net_read_chunking_complete sk1 (length what) B1) as (sk2 & -> & S2 & B2); [rewrite S1, app_length; lia|].
    rewrite S1 in *. rewrite firstn_app, Nat.sub_diag, firstn_all, firstn_O, app_nil_r.
    rewrite skipn_app, Nat.sub_diag, skipn_all, skipn_O in S2. exists sk2. auto.
  Qed.

  Theorem send_tcp_n_frames exp : forall msgs evs now sent,
    send_tcp_n exp evs msgs now = Ok sent ->
    sent = concat (map frame msgs) /\ Forall (fun w => zlen w <= 65535) msgs.
  Proof.
    induction msgs as [|w msgs IH]; intros evs now sent H; simpl in H.
    - injection H as <-. auto.
    - destruct (send_tcp exp evs w now) as [[n [[s e] t]]| |] eqn:S; simpl in H; try discriminate.
      destruct (send_tcp_n exp e msgs t) as [rest| |] eqn:R; simpl in H; try discriminate.
      injection H as <-. apply send_tcp_frames in S. destruct S as (Hl & -> & _).
      apply IH in R. destruct R as [-> Hf]. auto.
  Qed.

  (* the j-th message returned is the j-th message sent: no message is lost, duplicated,
     merged with its neighbour or split, under any fragmentation *)
  Theorem receive_tcp_n_in_order exp it more : forall msgs k sk j m w t,
    (k <= length msgs)%nat ->
    rs_stream sk = concat (map frame msgs) ++ more ->
    Forall (fun w => zlen w <= 65535) msgs ->
    nth_error (receive_tcp_n parse exp it k sk) j = Some (Ok (m, w, t)) ->
    nth_error msgs j = Some w /\ from_wire_out (parse w) it false = POk m.
  Proof.
    induction msgs as [|w0 msgs IH]; intros [|k] sk j m w t Hk Hst Hf Hn; simpl in *;
      try lia; try (destruct j; discriminate).
    destruct (receive_tcp parse exp it sk) as [[[m1 w1] sk1]| |] eqn:R; [|destruct j as [|[|j]]; discriminate..].
    inversion Hf as [|? ? Hl Hf']; subst. rewrite <- app_assoc in Hst.
    destruct sk as [st ev nw]. simpl in Hst. subst st.
    assert (S : send_tcp None [] w0 0 = Ok (zlen (frame w0), (frame w0, [], 0))).
    { unfold send_tcp. destruct (zlen w0 >? 65535) eqn:G; [lia|]. reflexivity. }
    destruct (tcp_frame_roundtrip _ _ _ _ _ _ _ _ _ _ _ _ _ _ _ _ S R) as (-> & Hm & Hp).
    destruct j as [|j]; simpl in *; [injection Hn as <- <- _; auto|].
    apply (IH k sk1 j m w t); auto. lia.
  Qed.

  (* tcp() = send_tcp, receive_tcp on the same deadline, final check *)
  Lemma tcp_ok q qwire timeout it wevs stream revs now m wire t sent sk :
    tcp parse q qwire timeout it wevs stream revs now = Ok (m, wire, t, sent, sk) ->
    exists n evs' now1,
      send_tcp (snd (compute_times now timeout)) wevs qwire now = Ok (n, (sent, evs', now1)) /\
      receive_tcp parse (snd (compute_times now timeout)) it {| rs_stream := stream; rs_evs := revs; rs_now := now1 |}
        = Ok (m, wire, sk) /\
      genuine q m /\ t = rs_now sk - now.
  Proof.
    unfold tcp. replace (compute_times now timeout) with (now, snd (compute_times now timeout)) by (destruct timeout; reflexivity).
    destruct (send_tcp _ wevs qwire now) as [[n [[s e] t1]]| |]; simpl; try discriminate.
    destruct (receive_tcp _ _ _ _) as [[[m1 w1] sk1]| |] eqn:R; simpl; try discriminate.
    destruct (is_response q m1) eqn:Ir; simpl; [|discriminate].
    intros H. injection H as <- <- <- <- <-. apply is_response_iff in Ir. exists n, e, t1. auto.
  Qed.

  (* for every write / read script and every option: a message returned by tcp() is a response to
     the query, is the first frame of the stream, was parsed without error, the query went out
     length-prefixed, and nothing beyond the frame was consumed *)
  Theorem tcp_returns_genuine q qwire timeout it wevs stream revs now m wire t sent sk :
    tcp parse q qwire timeout it wevs stream revs now = Ok (m, wire, t, sent, sk) ->
    genuine q m /\ sent = frame qwire /\
    from_wire_out (parse wire) it false = POk m /\
    exists hi lo, stream = hi :: lo :: wire ++ rs_stream sk /\ length wire = Z.to_nat (hi * 256 + lo).
  Proof.
    intros H. apply tcp_ok in H. destruct H as (n & evs' & now1 & S & R & G & _).
    apply send_tcp_frames in S. destruct S as (_ & -> & _).
    apply receive_tcp_exact in R. destruct R as (hi & lo & Hst & Hl & Hp). eauto 8.
  Qed.

  (* a well-formed reply that does not answer the query is BadResponse, never returned *)
  Theorem tcp_bad_response q qwire timeout it wevs stream revs now :
    forall n s e t1 m w sk1,
    send_tcp (snd (compute_times now timeout)) wevs qwire now = Ok (n, (s, e, t1)) ->
    receive_tcp parse (snd (compute_times now timeout)) it
                {| rs_stream := stream; rs_evs := revs; rs_now := t1 |} = Ok (m, w, sk1) ->
    ~ genuine q m ->
    tcp parse q qwire timeout it wevs stream revs now = Lib neBadResponse.
  Proof.
    intros n s e t1 m w sk1 S R G. unfold tcp.
    destruct (compute_times now timeout) as [begin_time expiration]. simpl in S, R.
    rewrite S. simpl. rewrite R. simpl. rewrite (not_genuine_false _ _ G). reflexivity.
  Qed.

End Framing.

(* an answer is never handed out after the deadline *)
Theorem tcp_answer_within_timeout (parse : list Z -> pabs) q qwire T it wevs stream revs now m wire t sent sk :
  tcp parse q qwire (Some T) it wevs stream revs now = Ok (m, wire, t, sent, sk) -> t = 0 \/ t < T.
Proof.
  intros H. apply tcp_ok in H. destruct H as (n & evs' & now1 & S & R & _ & ->). simpl in S, R.
  apply send_tcp_frames in S. destruct S as (_ & _ & _ & W). apply net_write_loop_deadline in W.
  apply receive_tcp_ok in R. destruct R as (hi & lo & sk1 & R1 & R2 & _).
  apply net_read_loop_deadline in R1, R2. simpl in R1. lia.
Qed.

Section Fallback.
  Variable parse : list Z -> pabs.

  (* whichever transport answered, the message returned answers the query; one that came over
     UDP came from the queried address and does not have the TC bit; TCP is used only after the
     UDP exchange ended in Truncated *)
  Theorem udp_with_fallback_returns_genuine q qwire where_ timeout af o evs wevs stream revs now used m wire t :
    udp_with_fallback parse q qwire where_ timeout af o evs wevs stream revs now = Ok (used, (m, wire, t)) ->
    genuine q m /\
    (used = false ->
       has_tc m = false /\
       exists pre from rest, evs = pre ++ UData wire from :: rest /\ src_ok af from (Some where_)) /\
    (used = true ->
       exists i, udp parse q qwire where_ timeout af (with_rot o) [] evs now = (i, Lib neTruncated)).
  Proof.
    unfold udp_with_fallback.
    destruct (udp parse q qwire where_ timeout af (with_rot o) [] evs now) as [i [[[[[r w] t0] from] rest]|e|e]] eqn:U;
      [| |discriminate].
    - intros H. injection H as <- <- <- <-.
      apply udp_returns_genuine in U. destruct U as (Hg & Hs & Hp & pre & Hev & _).
      split; [exact Hg|]. split; [|discriminate]. intros _.
      apply from_wire_ok_wellformed in Hp. destruct Hp as (_ & _ & _ & _ & Htc). split; [auto|eauto].
    - destruct (Z.eqb_spec e neTruncated) as [->|]; [|discriminate].
      destruct (tcp _ _ _ _ _ _ _ _ _) as [[[[[m1 w1] t1] s1] sk1]| |] eqn:T; simpl; try discriminate.
      intros H. injection H as <- <- <- <-. apply tcp_returns_genuine in T.
      split; [apply T|]. split; [discriminate|eauto].
  Qed.

  (* a genuine truncated UDP reply (behind any ignorable prefix) makes the call go to TCP: the
     result is the TCP exchange's *)
  Theorem fallback_on_truncation q qwire where_ timeout af o pre wire from rest wevs stream revs now now' :
    let exp := snd (compute_times now timeout) in
    passes parse af (Some where_) exp (with_rot o) (Some q) pre now now' ->
    src_defined af (Some where_) -> src_ok af from (Some where_) ->
    p_short (parse wire) = false -> has_tc (p_msg (parse wire)) = true ->
    (forall e, p_err (parse wire) = Some e -> is_formerr e = true) ->
    genuine q (p_msg (parse wire)) ->
    udp_with_fallback parse q qwire where_ timeout af o (pre ++ UData wire from :: rest) wevs stream revs now
    = match tcp parse q qwire timeout (o_ignore_trailing o) wevs stream revs
                (now + blocks_time (firstn (length pre + 1) (pre ++ UData wire from :: rest))) with
      | Ok (m, w, t, _, _) => Ok (true, (m, w, t))
      | Lib e => Lib e
      | Internal e => Internal e
      end.
  Proof.
    intros exp Hp Hd Hs Hsh Htc He Hg. unfold udp_with_fallback.
    rewrite (NetUdp.truncation_reported parse q qwire where_ timeout af (with_rot o) pre wire from rest
               now now' Hp Hd Hs eq_refl Hsh Htc He Hg).
    simpl. destruct (tcp _ _ _ _ _ _ _ _ _) as [[[[[m1 w1] t1] s1] sk1]| |]; reflexivity.
  Qed.
End Fallback.

(* completeness of tcp(): without a deadline, under write and read scripts that only fragment and
   delay, a well-formed genuine reply is returned, and what follows it stays on the connection *)
Theorem tcp_genuine_returned (parse : list Z -> pabs) q qwire it wevs what more revs now m :
  zlen qwire <= 65535 -> zlen what <= 65535 -> Forall benign_w wevs -> Forall benign_r revs ->
  from_wire_out (parse what) it false = POk m -> genuine q m ->
  exists t sk, tcp parse q qwire None it wevs (frame what ++ more) revs now
               = Ok (m, what, t, frame qwire, sk) /\ rs_stream sk = more.
Proof.
  intros Hq Hw Bw Br Hp Hg. unfold tcp, send_tcp. cbn [compute_times].
  destruct (zlen qwire >? 65535) eqn:G; [lia|].
  destruct (send_all_complete wevs (u16be (zlen qwire) ++ qwire) [] now Bw) as (evs' & now' & ->). cbn [bind app].
  destruct (tcp_frame_roundtrip_complete parse what more it revs now' Hw Br) as (sk' & Hst & _ & ->).
  rewrite Hp. cbn [bind]. apply is_response_iff in Hg. rewrite Hg. cbn [negb]. eauto.
Qed.

(* the same at the octet level for tcp(), for the parser used in the correspondence runs *)
Theorem tcp_answer_on_the_wire tab q qwire timeout it wevs stream revs now m wire t sent sk :
  tcp (lookup tab) q qwire timeout it wevs stream revs now = Ok (m, wire, t, sent, sk) ->
  exists b0 b1 b2 b3 tl, wire = b0 :: b1 :: b2 :: b3 :: tl /\
    b0 * 256 + b1 = m_id q /\ Z.land (b2 * 256 + b3) fQR <> 0 /\ (12 <= length wire)%nat.
Proof.
  intros H. apply tcp_returns_genuine in H. destruct H as (Hg & _ & Hp & _).
  exact (genuine_on_the_wire _ _ _ _ _ _ Hp Hg).
Qed.

Theorem tcp_answer_question_on_the_wire tab q qwire timeout it wevs stream revs now m wire t sent sk :
  tcp (lookup tab) q qwire timeout it wevs stream revs now = Ok (m, wire, t, sent, sk) ->
  wire_question_section wire = Some (m_question m) /\ genuine q m.
Proof.
  intros H. apply tcp_returns_genuine in H. destruct H as (Hg & _ & Hp & _).
  split; [apply (lookup_ok_on_the_wire _ _ _ _ _ Hp)|exact Hg].
Qed.
