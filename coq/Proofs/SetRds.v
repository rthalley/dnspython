(* Rdataset / ImmutableRdataset / RRset of Model/SetM.v: what add accepts and refuses, singleton
   types, the set algebra through the Rdataset overrides, and the well-formedness they keep. *)
From DV Require Import Base.Prelude Model.SetM Proofs.SetAlg Proofs.SetRdata Proofs.SetMachine.
Open Scope Z_scope.

Lemma with_ttl_self s : with_ttl s (ttl s) = s.
Proof. destruct s; reflexivity. Qed.

(* update_ttl only ever writes the TTL field; every other fact about it follows by computation *)
Lemma update_ttl_eq s t :
  update_ttl s t = with_ttl s (if isempty s then t else Z.min (ttl s) t).
Proof.
  unfold update_ttl. destruct (isempty s); [reflexivity|]. destruct (Z.ltb_spec t (ttl s)) as [H|H].
  - rewrite Z.min_r by apply Z.lt_le_incl, H. reflexivity.
  - rewrite Z.min_l by exact H. symmetry. apply with_ttl_self.
Qed.

Lemma update_ttl_ttl s t :
  ttl (update_ttl s t) = if isempty s then t else Z.min (ttl s) t.
Proof. rewrite update_ttl_eq. reflexivity. Qed.

Lemma update_ttl_self s : update_ttl s (ttl s) = s.
Proof.
  rewrite update_ttl_eq, Z.min_id. destruct (isempty s); apply with_ttl_self.
Qed.

Record wf (s : rds) : Prop := mkWf {
  wf_nd : ND (items s);
  wf_ct : forall x, In x (items s) -> rcls x = cls s /\ rtyp x = typ s;
  wf_cov : is_sigtype (typ s) = true -> forall x, In x (items s) -> rcov x = cov s;
  wf_single : is_singleton (typ s) = true -> (length (items s) <= 1)%nat
}.

Lemma wf_empty k c t v tt n d : wf (mkRds k c t v tt [] n d).
Proof. constructor; cbn; try (intros; contradiction); [constructor|intros; apply Nat.le_0_l]. Qed.

(* wf only looks at class, type, covers and the members, and survives the removal of members
   (a duplicate-free sub-collection cannot be longer) *)
Lemma wf_sub s s' :
  wf s -> cls s' = cls s -> typ s' = typ s -> cov s' = cov s ->
  ND (items s') -> incl (items s') (items s) -> wf s'.
Proof.
  intros [H1 H2 H3 H4] Ec Et Ev Hl Hsub. constructor; rewrite ?Ec, ?Et, ?Ev; auto.
  intros Hs. etransitivity; [|exact (H4 Hs)].
  apply (subset_length rdata rd_eqb rd_eqb_refl rd_eqb_sym rd_eqb_trans _ _ Hl).
  intros x Hx. apply mem_true_iff in Hx as (k & Hk & E). apply mem_true_iff. exists k. auto.
Qed.

Lemma wf_ext s s' :
  cls s' = cls s -> typ s' = typ s -> cov s' = cov s -> items s' = items s -> wf s -> wf s'.
Proof.
  intros Ec Et Ev Ei H. apply (wf_sub s); try assumption; rewrite Ei; [apply H|apply incl_refl].
Qed.

Lemma wf_update_ttl s t : wf s -> wf (update_ttl s t).
Proof. rewrite update_ttl_eq. apply wf_ext; reflexivity. Qed.

Lemma In_sadd x y s : In x (sadd rd_eqb y s) -> In x s \/ x = y.
Proof.
  unfold sadd. destruct (mem rd_eqb y s); [auto|].
  intros H. apply in_app_or in H as [H|[<-|[]]]; auto.
Qed.

Lemma In_filter_sub {A} f (x : A) l : In x (filter f l) -> In x l.
Proof. intros H. apply filter_In in H. apply H. Qed.

Lemma In_sdel x y s : In x (sdel rd_eqb y s) -> In x s.
Proof.
  induction s as [|k r IH]; cbn; [auto|]. destruct (rd_eqb k y); cbn; [auto|].
  intros [H|H]; auto.
Qed.

Definition compat (s : rds) (rd : rdata) : Prop := rcls rd = cls s /\ rtyp rd = typ s.

(* the covers check passes *)
Definition cov_ok (s : rds) (rd : rdata) : Prop :=
  is_sigtype (typ s) = false \/ (isempty s = true /\ cov s = 0) \/ cov s = rcov rd.

Definition merged_ttl (s : rds) (ottl : option Z) : Z :=
  match ottl with
  | Some t => if isempty s then t else Z.min (ttl s) t
  | None => ttl s
  end.

(* the two checks as add computes them *)
Definition compatb (s : rds) (rd : rdata) : bool := (cls s =? rcls rd) && (typ s =? rtyp rd).
Definition cov_okb (s : rds) (rd : rdata) : bool :=
  negb (is_sigtype (typ s)) || isempty s && (cov s =? 0) || (cov s =? rcov rd).

Lemma compatb_spec s rd : compatb s rd = true <-> compat s rd.
Proof. unfold compatb, compat. rewrite andb_true_iff, !Z.eqb_eq. split; intros []; auto. Qed.

Lemma cov_okb_spec s rd : cov_okb s rd = true <-> cov_ok s rd.
Proof.
  unfold cov_okb, cov_ok.
  rewrite !orb_true_iff, andb_true_iff, negb_true_iff, !Z.eqb_eq. apply or_assoc.
Qed.

Lemma add_ttl_eq s ottl :
  match ottl with Some t => update_ttl s t | None => s end = with_ttl s (merged_ttl s ottl).
Proof. destruct ottl; [apply update_ttl_eq|symmetry; apply with_ttl_self]. Qed.

(* Rdataset.add in one equation: refused for the class or type with nothing changed, refused
   for the covered type after the TTL has been merged, or the record goes in - replacing the
   members of a singleton type, and committing the covered type of an empty RRSIG/SIG set *)
Lemma radd_eq s rd ottl :
  radd s rd ottl =
  if compatb s rd then
    if cov_okb s rd then
      (mkRds (kd s) (cls s) (typ s)
             (if is_sigtype (typ s) && isempty s && (cov s =? 0) then rcov rd else cov s)
             (merged_ttl s ottl)
             (if is_singleton (typ s) then [rd] else sadd rd_eqb rd (items s))
             (oname s) (deleting s), Ok tt)
    else (match ottl with Some t => update_ttl s t | None => s end, Lib eDifferingCovers)
  else (s, Lib eIncompatibleTypes).
Proof.
  unfold radd, compatb, cov_okb. destruct (cls s =? rcls rd); [|reflexivity].
  destruct (Z.eqb_spec (typ s) (rtyp rd)) as [<-|]; [|reflexivity].
  rewrite add_ttl_eq. generalize (merged_ttl s ottl). intros T.
  destruct s as [k c t v t0 l n d]. cbn.
  destruct (is_singleton t), (is_sigtype t), l; cbn; try reflexivity;
    destruct (v =? rcov rd); try reflexivity; destruct (v =? 0); reflexivity.
Qed.

(* a record of a different class or type is refused and nothing at all changes *)
Theorem radd_refuses_type s rd ottl :
  ~ compat s rd -> radd s rd ottl = (s, Lib eIncompatibleTypes).
Proof.
  intros H. rewrite radd_eq. destruct (compatb s rd) eqn:E; [|reflexivity].
  apply compatb_spec in E. contradiction.
Qed.

(* a signature covering another type is refused: members, class, type, covers unchanged; the
   TTL has already been minimised, exactly as in the code *)
Theorem radd_refuses_covers s rd ottl :
  compat s rd -> ~ cov_ok s rd ->
  radd s rd ottl = (match ottl with Some t => update_ttl s t | None => s end, Lib eDifferingCovers).
Proof.
  intros Hc Hn. rewrite radd_eq, (proj2 (compatb_spec s rd) Hc).
  destruct (cov_okb s rd) eqn:E; [|reflexivity]. apply cov_okb_spec in E. contradiction.
Qed.

(* an acceptable record is added; a singleton type keeps exactly the newest record *)
Theorem radd_accepts s rd ottl :
  compat s rd -> cov_ok s rd ->
  exists s', radd s rd ottl = (s', Ok tt) /\
    items s' = (if is_singleton (typ s) then [rd] else sadd rd_eqb rd (items s)) /\
    ttl s' = merged_ttl s ottl /\
    kd s' = kd s /\ cls s' = cls s /\ typ s' = typ s /\
    oname s' = oname s /\ deleting s' = deleting s /\
    cov s' = (if is_sigtype (typ s) && isempty s && (cov s =? 0) then rcov rd else cov s).
Proof.
  intros Hc Hok.
  rewrite radd_eq, (proj2 (compatb_spec s rd) Hc), (proj2 (cov_okb_spec s rd) Hok).
  eexists. split; [reflexivity|]. repeat split.
Qed.

(* Rdataset.add succeeds exactly on records of the set's class, type and covered type *)
Theorem radd_ok_iff s rd ottl :
  snd (radd s rd ottl) = Ok tt <-> compat s rd /\ cov_ok s rd.
Proof.
  rewrite radd_eq, <- compatb_spec, <- cov_okb_spec.
  destruct (compatb s rd), (cov_okb s rd); cbn; split; try discriminate; intros []; auto; discriminate.
Qed.

(* every failure of add leaves the members (and class, type, covers) as they were *)
Theorem radd_failure_keeps_members s rd ottl :
  snd (radd s rd ottl) <> Ok tt ->
  items (fst (radd s rd ottl)) = items s /\ cls (fst (radd s rd ottl)) = cls s /\
  typ (fst (radd s rd ottl)) = typ s /\ cov (fst (radd s rd ottl)) = cov s.
Proof.
  rewrite radd_eq, add_ttl_eq. destruct (compatb s rd), (cov_okb s rd); cbn; auto.
  intros H. contradiction.
Qed.

(* add only merges the TTL it is given, and only once class and type have been accepted *)
Lemma radd_ttl s rd ottl :
  ttl (fst (radd s rd ottl)) = if compatb s rd then merged_ttl s ottl else ttl s.
Proof.
  rewrite radd_eq, add_ttl_eq. destruct (compatb s rd), (cov_okb s rd); reflexivity.
Qed.

Lemma wf_radd s rd ottl : wf s -> wf (fst (radd s rd ottl)).
Proof.
  intros Hwf. rewrite radd_eq.
  destruct (compatb s rd) eqn:Ec; [|exact Hwf].
  destruct (cov_okb s rd) eqn:Eo; cbn [fst].
  2:{ rewrite add_ttl_eq. eapply wf_ext; [..|exact Hwf]; reflexivity. }
  apply compatb_spec in Ec as [Hcls Htyp]. apply cov_okb_spec in Eo.
  destruct Hwf as [H1 H2 H3 H4].
  assert (Hin : forall x, In x (if is_singleton (typ s) then [rd] else sadd rd_eqb rd (items s)) ->
                          In x (items s) \/ x = rd).
  { destruct (is_singleton (typ s)); [intros x [<-|[]]; auto|intros x; apply In_sadd]. }
  constructor; cbn.
  - destruct (is_singleton (typ s)); [repeat constructor|apply ND_sadd, H1].
  - intros x Hx. destruct (Hin x Hx) as [Hx'| ->]; auto.
  - intros Hs x Hx. rewrite Hs. cbn [andb]. destruct (Hin x Hx) as [Hx'| ->].
    + unfold isempty. destruct (items s); [contradiction|]. apply (H3 Hs x Hx').
    + destruct (isempty s && (cov s =? 0)) eqn:E1; [reflexivity|].
      destruct Eo as [Eo|[[Eo1 Eo2]|Eo]]; [congruence| |auto].
      rewrite Eo1, Eo2 in E1. discriminate.
  - intros Hs. rewrite Hs. apply Nat.le_refl.
Qed.

Lemma wf_radd_all l s : wf s -> wf (fst (radd_all s l)).
Proof.
  revert s. induction l as [|x l IH]; intros s H; cbn; [exact H|].
  pose proof (wf_radd s x None H) as H1.
  destruct (radd s x None) as [s' [[]| |]]; cbn in *; auto.
Qed.

Lemma radd_all_ttl l : forall s, ttl (fst (radd_all s l)) = ttl s.
Proof.
  induction l as [|x l IH]; intros s; cbn; [reflexivity|].
  assert (H : ttl (fst (radd s x None)) = ttl s) by (rewrite radd_ttl; destruct (compatb s x); reflexivity).
  destruct (radd s x None) as [s' [[]| |]]; cbn [fst] in *; try exact H.
  rewrite IH. exact H.
Qed.

(* no record of l meets a covers refusal, however many of the others have been added before it:
   they all cover c, and so does s unless it is still uncommitted *)
Definition covers_fit (s : rds) (l : list rdata) (c : Z) : Prop :=
  is_sigtype (typ s) = true ->
  l = [] \/ ((forall x, In x l -> rcov x = c) /\ (cov s = c \/ (isempty s = true /\ cov s = 0))).

(* merging a list of records that all fit: each goes through Rdataset.add, so a singleton type
   ends with the newest record only; the TTL is not touched *)
Lemma radd_all_ok l : forall s c,
  (forall x, In x l -> compat s x) -> covers_fit s l c ->
  exists s', radd_all s l = (s', Ok tt) /\
    items s' = fold_left (fun acc x => if is_singleton (typ s) then [x] else sadd rd_eqb x acc)
                         l (items s) /\
    kd s' = kd s /\ cls s' = cls s /\ typ s' = typ s.
Proof.
  induction l as [|x l IH]; intros s c Hc Hsig; [exists s; repeat split|].
  assert (Hcx : compat s x) by (apply Hc; left; reflexivity).
  assert (Hox : cov_ok s x).
  { unfold cov_ok. destruct (is_sigtype (typ s)) eqn:E; [right|auto].
    destruct (Hsig E) as [|[Hall [H|H]]]; [discriminate|right|left; exact H].
    rewrite H. symmetry. apply Hall. left. reflexivity. }
  cbn [radd_all fold_left].
  rewrite radd_eq, (proj2 (compatb_spec s x) Hcx), (proj2 (cov_okb_spec s x) Hox).
  lazymatch goal with |- context [radd_all ?s1 l] => destruct (IH s1 c) as (s' & -> & Hs') end;
    cbn; [| |exists s'; split; [reflexivity|exact Hs']].
  - intros y Hy. apply Hc. right. exact Hy.
  - unfold covers_fit. cbn. intros E. destruct l as [|y l]; [left; reflexivity|right].
    destruct (Hsig E) as [|[Hall Hcov]]; [discriminate|].
    split; [intros z Hz; apply Hall; right; exact Hz|left].
    rewrite E. cbn [andb]. destruct Hcov as [H|[-> ->]]; [|apply Hall; left; reflexivity].
    destruct (isempty s && (cov s =? 0)); [apply Hall; left; reflexivity|exact H].
Qed.

(* a foreign record stops the merge with IncompatibleTypes before anything is added *)
Lemma radd_all_refuses s x l :
  ~ compat s x -> radd_all s (x :: l) = (s, Lib eIncompatibleTypes).
Proof. intros H. cbn. rewrite (radd_refuses_type s x None H). reflexivity. Qed.

(* the two rdatasets can be merged: same class and type, and for RRSIG/SIG the same covered
   type unless self is still uncommitted *)
Definition mergeable (self other : rds) : Prop :=
  cls other = cls self /\ typ other = typ self /\
  (is_sigtype (typ self) = true ->
     items other = [] \/ cov self = cov other \/ (isempty self = true /\ cov self = 0)).

Lemma mergeable_members self other :
  wf other -> mergeable self other -> forall x, In x (items other) -> compat self x.
Proof.
  intros Hw (Hc & Ht & _) x Hx. destruct (wf_ct other Hw x Hx). unfold compat. split; congruence.
Qed.

Lemma mergeable_fit self other t :
  wf other -> mergeable self other -> covers_fit (update_ttl self t) (items other) (cov other).
Proof.
  intros Hw (Hc & Ht & Hs). rewrite update_ttl_eq. intros Hsig. cbn in Hsig.
  destruct (Hs Hsig) as [H|H]; [left; exact H|right]. split; [|exact H].
  apply (wf_cov other Hw). congruence.
Qed.

(* union_update between distinct mergeable rdatasets: the TTL is minimised, then every member
   of other goes through Rdataset.add; nothing else changes *)
Lemma r_union_update_items self other :
  wf other -> mergeable self other ->
  exists s', r_union_update self other false = (s', Ok tt) /\
    items s' = fold_left (fun acc x => if is_singleton (typ self) then [x] else sadd rd_eqb x acc)
                         (items other) (items self) /\
    ttl s' = (if isempty self then ttl other else Z.min (ttl self) (ttl other)) /\
    kd s' = kd self /\ cls s' = cls self /\ typ s' = typ self.
Proof.
  intros Hw Hm. unfold r_union_update.
  destruct (radd_all_ok (items other) (update_ttl self (ttl other)) (cov other)) as (s' & E & Hs').
  - rewrite update_ttl_eq. exact (mergeable_members self other Hw Hm).
  - apply mergeable_fit; assumption.
  - exists s'. split; [exact E|]. rewrite update_ttl_eq in Hs'. destruct Hs' as (Ei & Hs').
    split; [exact Ei|]. split; [|exact Hs'].
    change s' with (fst (s', Ok tt)). rewrite <- E, radd_all_ttl. apply update_ttl_ttl.
Qed.

(* non-singleton types: the members are Set.union_update's *)
Theorem r_union_update_ok self other :
  wf other -> mergeable self other -> is_singleton (typ self) = false ->
  exists s', r_union_update self other false = (s', Ok tt) /\
    items s' = sunion_update rd_eqb (items self) (items other) false /\
    ttl s' = (if isempty self then ttl other else Z.min (ttl self) (ttl other)) /\
    kd s' = kd self /\ cls s' = cls self /\ typ s' = typ self.
Proof.
  intros Hw Hm Hns. destruct (r_union_update_items self other Hw Hm) as (s' & E & Ei & H).
  rewrite Hns in Ei. exists s'. auto.
Qed.

Theorem r_union_update_singleton self other y :
  wf other -> mergeable self other -> is_singleton (typ self) = true -> items other = [y] ->
  exists s', r_union_update self other false = (s', Ok tt) /\ items s' = [y] /\
    ttl s' = (if isempty self then ttl other else Z.min (ttl self) (ttl other)).
Proof.
  intros Hw Hm Hs Ey. destruct (r_union_update_items self other Hw Hm) as (s' & E & Ei & Et & _).
  rewrite Hs, Ey in Ei. exists s'. auto.
Qed.

(* a non-empty rdataset of another class or type cannot be merged in: IncompatibleTypes, the
   members stay, only the TTL has been minimised *)
Theorem r_union_update_refuses self other :
  wf other -> items other <> [] -> (cls other <> cls self \/ typ other <> typ self) ->
  r_union_update self other false = (update_ttl self (ttl other), Lib eIncompatibleTypes).
Proof.
  intros Hw Hne Hd. unfold r_union_update.
  destruct (items other) as [|y l] eqn:Eo; [contradiction|].
  apply radd_all_refuses. rewrite update_ttl_eq. intros [H1 H2].
  destruct (wf_ct other Hw y) as [A B]; [rewrite Eo; left; reflexivity|].
  cbn in H1, H2. destruct Hd; congruence.
Qed.

Theorem r_inter_update_spec self other same :
  r_inter_update self other same
  = (with_items (update_ttl self (if same then ttl self else ttl other))
       (sinter_update rd_eqb (items self) (items other) same), Ok tt).
Proof. unfold r_inter_update. rewrite update_ttl_eq. reflexivity. Qed.

Lemma items_rclone s : items (rclone s) = items s.
Proof. unfold rclone. destruct (kd s); reflexivity. Qed.

Theorem r_sym_update_ok self other :
  wf other -> mergeable self other -> is_singleton (typ self) = false ->
  exists s', r_sym_update self other false = (s', Ok tt) /\
    items s' = ssym_update rd_eqb (items self) (items other) false /\
    ttl s' = (if isempty self then ttl other else Z.min (ttl self) (ttl other)) /\
    kd s' = kd self /\ cls s' = cls self /\ typ s' = typ self.
Proof.
  intros Hw Hm Hns. unfold r_sym_update.
  destruct (r_union_update_ok self other Hw Hm Hns) as (s1 & -> & Ei & H).
  rewrite r_inter_update_spec. eexists. split; [reflexivity|].
  cbn. rewrite Ei, items_rclone. auto.
Qed.

(* aliased in-place calls a.<op>_update(a): members as in Set, TTL untouched *)
Theorem ralg_aliased a self :
  ralg a self self true = (with_items self (salg a (items self) (items self) true), Ok tt).
Proof.
  destruct a; cbn [ralg salg]; try reflexivity.
  - unfold r_union_update. rewrite update_ttl_self. destruct self; reflexivity.
  - rewrite r_inter_update_spec, update_ttl_self. reflexivity.
Qed.

(* all four algorithms, distinct mergeable non-singleton operands: Set's members; the TTL is
   the minimum (difference does not merge) *)
Theorem ralg_ok a self other :
  wf other -> mergeable self other -> is_singleton (typ self) = false ->
  exists s', ralg a self other false = (s', Ok tt) /\
    items s' = salg a (items self) (items other) false /\
    ttl s' = (match a with
              | ADiff => ttl self
              | _ => if isempty self then ttl other else Z.min (ttl self) (ttl other)
              end) /\
    kd s' = kd self /\ cls s' = cls self /\ typ s' = typ self.
Proof.
  intros Hw Hm Hns. destruct a; cbn [ralg salg].
  - apply r_union_update_ok; assumption.
  - rewrite r_inter_update_spec, update_ttl_eq. eexists. repeat split.
  - eexists. repeat split.
  - apply r_sym_update_ok; assumption.
Qed.

Corollary singleton_newest s rd ottl :
  is_singleton (typ s) = true -> compat s rd -> cov_ok s rd ->
  exists s', radd s rd ottl = (s', Ok tt) /\ items s' = [rd] /\ ttl s' = merged_ttl s ottl.
Proof.
  intros Hs Hc Ho. destruct (radd_accepts s rd ottl Hc Ho) as (s' & E & Ei & Et & _).
  exists s'. rewrite Hs in Ei. auto.
Qed.

Corollary add_nonsingleton s rd ottl :
  is_singleton (typ s) = false -> compat s rd -> cov_ok s rd ->
  exists s', radd s rd ottl = (s', Ok tt) /\ items s' = sadd rd_eqb rd (items s) /\
             ttl s' = merged_ttl s ottl.
Proof.
  intros Hs Hc Ho. destruct (radd_accepts s rd ottl Hc Ho) as (s' & E & Ei & Et & _).
  exists s'. rewrite Hs in Ei. auto.
Qed.

(* set theory for rdatasets: members of the result of each in-place algorithm *)
Corollary ralg_mem a self other :
  wf self -> wf other -> mergeable self other -> is_singleton (typ self) = false ->
  exists s', ralg a self other false = (s', Ok tt) /\
    (forall x, rmem x (items s') = alg_bool a (rmem x (items self)) (rmem x (items other))) /\
    items s' = alg_order rdata rd_eqb a (items self) (items other).
Proof.
  intros Hs Ho Hm Hns. destruct (ralg_ok a self other Ho Hm Hns) as (s' & E & Ei & _).
  exists s'. split; [exact E|]. rewrite Ei. split.
  - intros x. apply set_alg_mem; [apply Hs|apply Ho|discriminate].
  - apply set_alg_order; [apply Hs|apply Ho].
Qed.

(* copying forms: a new object of the same kind (immutable stays immutable) with Set's members;
   o may be the same object as self *)
Theorem r_func_ok w self other :
  wf other -> mergeable self other -> is_singleton (typ self) = false ->
  exists x, r_func w self other = Ok x /\
    items x = salg (func_alg w) (items self) (items other) false /\
    kd x = kd self /\
    ttl x = (match func_alg w with
             | ADiff => ttl self
             | _ => if isempty self then ttl other else Z.min (ttl self) (ttl other)
             end).
Proof.
  intros Ho Hm Hns.
  destruct (ralg_ok (func_alg w) (rclone self) other Ho) as (s' & E & Ei & Et & Ek & _).
  1,2: unfold rclone; destruct (kd self); assumption.
  unfold r_func. rewrite E. eexists. split; [reflexivity|].
  revert Ei Et Ek. unfold rclone. destruct (kd self) eqn:K; cbn; rewrite <- ?K; auto.
Qed.

(* a boolean test for wf, for the examples of Props/C07.v *)

Fixpoint nodupb (l : list rdata) : bool :=
  match l with
  | [] => true
  | x :: r => negb (mem rd_eqb x r) && nodupb r
  end.

Lemma nodupb_ND l : nodupb l = true -> ND l.
Proof.
  induction l as [|x r IH]; cbn; intros H; [constructor|].
  apply andb_true_iff in H as [H1 H2]. constructor; [apply negb_true_iff, H1|apply IH, H2].
Qed.

Definition wfb (s : rds) : bool :=
  nodupb (items s) &&
  forallb (fun x => (rcls x =? cls s) && (rtyp x =? typ s)) (items s) &&
  (if is_sigtype (typ s) then forallb (fun x => rcov x =? cov s) (items s) else true) &&
  (if is_singleton (typ s) then Nat.leb (length (items s)) 1 else true).

Lemma wfb_wf s : wfb s = true -> wf s.
Proof.
  unfold wfb. rewrite !andb_true_iff. intros [[[H1 H2] H3] H4]. constructor.
  - apply nodupb_ND, H1.
  - intros x Hx. rewrite forallb_forall in H2. specialize (H2 x Hx).
    apply andb_true_iff in H2 as [A B]. apply Z.eqb_eq in A, B. auto.
  - intros Hs x Hx. rewrite Hs in H3. rewrite forallb_forall in H3. apply Z.eqb_eq, H3, Hx.
  - intros Hs. rewrite Hs in H4. apply Nat.leb_le, H4.
Qed.
