(* NSEC3 next hashed owner name: base32hex without padding, as printed by NSEC3._next_text and read
   back by NSEC3.from_text (upper-casing, translation to the standard alphabet, re-padding,
   base64.b32decode): decode (encode d) = d for every octet string. *)
From DV Require Import Base.Prelude Model.NameM Model.TokM Model.RdTextM.
From DV Require Import Proofs.TokEsc Proofs.TokWords Proofs.RdTextAddr Proofs.ListFacts.
Open Scope Z_scope.

Definition b32_digit_ok (v : Z) : bool :=
  match b32hex_val (hexdigit v) with Some v' => v' =? v | None => false end
  && negb (hexdigit v =? 61) && safe (hexdigit v) && (0 <=? hexdigit v) && (hexdigit v <? 128).

Lemma b32_digit_all : forallb b32_digit_ok (map Z.of_nat (seq 0 32)) = true.
Proof. vm_compute. reflexivity. Qed.

Lemma b32_digit v : 0 <= v < 32 ->
  b32hex_val (hexdigit v) = Some v /\ hexdigit v <> 61 /\ safe (hexdigit v) = true /\ 0 <= hexdigit v < 128.
Proof.
  intros Hv. pose proof (sweep _ 32 b32_digit_all v ltac:(lia)) as H. unfold b32_digit_ok in H.
  apply andb_true_iff in H as [H A5]. apply andb_true_iff in H as [H A4]. apply andb_true_iff in H as [H A3].
  apply andb_true_iff in H as [A1 A2]. destruct (b32hex_val (hexdigit v)) as [v'|]; [|discriminate].
  apply Z.eqb_eq in A1. subst v'. apply negb_true_iff in A2. repeat split; try assumption; lia.
Qed.

Fixpoint list_ind5 {A} (P : list A -> Prop) (H0 : P []) (H1 : forall a, P [a]) (H2 : forall a b, P [a; b])
         (H3 : forall a b c, P [a; b; c]) (H4 : forall a b c d, P [a; b; c; d])
         (H5 : forall a b c d e r, P r -> P (a :: b :: c :: d :: e :: r)) (l : list A) : P l :=
  match l with
  | [] => H0
  | [a] => H1 a
  | [a; b] => H2 a b
  | [a; b; c] => H3 a b c
  | [a; b; c; d] => H4 a b c d
  | a :: b :: c :: d :: e :: r => H5 a b c d e r (list_ind5 P H0 H1 H2 H3 H4 H5 r)
  end.

Definition v32 (v : Z) : Prop := 0 <= v < 32.

Lemma b32_group_range b0 b1 b2 b3 b4 : 0 <= b0 < 256 -> 0 <= b1 < 256 -> 0 <= b2 < 256 -> 0 <= b3 < 256 -> 0 <= b4 < 256 ->
  Forall v32 (b32_group b0 b1 b2 b3 b4) /\
  b32_bytes (b0 / 8) ((b0 mod 8) * 4 + b1 / 64) ((b1 / 2) mod 32) ((b1 mod 2) * 16 + b2 / 16)
            ((b2 mod 16) * 2 + b3 / 128) ((b3 / 4) mod 32) ((b3 mod 4) * 8 + b4 / 32) (b4 mod 32)
  = [b0; b1; b2; b3; b4].
Proof.
  intros. split.
  - unfold b32_group, v32. repeat constructor; dlia.
  - unfold b32_bytes. repeat f_equal; dlia.
Qed.

Theorem b32_values_roundtrip d : all_bytes d = true ->
  Forall v32 (b32_values d) /\ b32_decode_values (b32_values d) = Ok d.
Proof.
  induction d as [|a|a b|a b c|a b c e|a b c e f r IH] using list_ind5; intros Hd;
    repeat (apply all_bytes_cons in Hd as [? Hd]).
  1-5: split; [unfold v32; repeat constructor; dlia|cbn [b32_values firstn b32_group b32_decode_values b32_bytes]; repeat f_equal; dlia].
  destruct (IH Hd) as [I1 I2]. destruct (b32_group_range a b c e f) as [G1 G2]; try assumption.
  change (b32_values (a :: b :: c :: e :: f :: r)) with (b32_group a b c e f ++ b32_values r). split.
  - apply Forall_app. split; assumption.
  - unfold b32_group at 1. cbn [app b32_decode_values]. rewrite I2. cbn [bind]. rewrite G2. reflexivity.
Qed.

Lemma opt_map_digits vs : Forall v32 vs -> opt_map b32hex_val (map hexdigit vs) = Some vs.
Proof.
  induction 1 as [|v vs Hv _ IH]; [reflexivity|]. cbn [map opt_map].
  destruct (b32_digit v Hv) as (E & _). rewrite E, IH. reflexivity.
Qed.

Lemma ends_with_no61 l : Forall (fun c => c <> 61) l -> ends_with [61] l = false.
Proof.
  intros H. unfold ends_with, starts_with. cbn [rev app length].
  destruct (rev l) as [|x r] eqn:E; [reflexivity|].
  assert (Hx : x <> 61).
  { rewrite Forall_forall in H. apply H. apply in_rev. rewrite E. left. reflexivity. }
  cbn [firstn zlist_eqb]. replace (x =? 61) with false by lia. reflexivity.
Qed.

Theorem b32hex_roundtrip d : all_bytes d = true -> b32hex_decode (b32hex_encode d) = Ok d.
Proof.
  intros Hd. destruct (b32_values_roundtrip d Hd) as [Hv Hr]. unfold b32hex_decode, b32hex_encode.
  assert (Hasc : forallb (fun c => (0 <=? c) && (c <? 128)) (map hexdigit (b32_values d)) = true).
  { apply forallb_forall. intros c Hc. apply in_map_iff in Hc as (v & <- & Hin). rewrite Forall_forall in Hv.
    destruct (b32_digit v (Hv v Hin)) as (_ & _ & _ & R). lia. }
  rewrite Hasc. cbn [negb].
  rewrite ends_with_no61.
  2:{ apply Forall_forall. intros c Hc. apply in_map_iff in Hc as (v & <- & Hin). rewrite Forall_forall in Hv.
      destruct (b32_digit v (Hv v Hin)) as (_ & N & _). exact N. }
  rewrite opt_map_digits by exact Hv. exact Hr.
Qed.

Lemma b32hex_word d : all_bytes d = true -> d <> [] ->
  forallb safe (b32hex_encode d) = true /\ b32hex_encode d <> [].
Proof.
  intros Hd Hne. destruct (b32_values_roundtrip d Hd) as [Hv _]. unfold b32hex_encode. split.
  - apply forallb_forall. intros c Hc. apply in_map_iff in Hc as (v & <- & Hin). rewrite Forall_forall in Hv.
    destruct (b32_digit v (Hv v Hin)) as (_ & _ & S & _). exact S.
  - destruct d as [|a [|b [|c [|e [|f r]]]]]; try congruence; cbn; discriminate.
Qed.
