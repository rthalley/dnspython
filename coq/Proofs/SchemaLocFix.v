(* LOC: whatever the reader accepts is a legal, canonical location whose encoding exists and
   decodes to the same record (fixed point of decode-then-encode). *)
From DV Require Import Base.Prelude Model.NameM Model.SchemaM Model.SchemaHand
  Proofs.SchemaName Proofs.SchemaCodec Proofs.SchemaThm Proofs.SchemaReenc Proofs.SchemaHandOrigin Proofs.SchemaHandThm.
Open Scope Z_scope.

(* _decode_size only produces mantissa * 10^exponent with both digits at most 9 *)
Lemma loc_decode_size_in : forall b s, 0 <= b < 256 -> loc_decode_size b = Ok s -> In s loc_sizes.
Proof.
  intros b s Hb H. unfold loc_decode_size in H.
  destruct (b mod 16 >? 9) eqn:E1; [discriminate|]. destruct (b / 16 >? 9) eqn:E2; [discriminate|].
  injection H as <-. unfold loc_sizes.
  pose proof (Z.mod_pos_bound b 16 ltac:(lia)). pose proof (Z.div_pos b 16 ltac:(lia) ltac:(lia)).
  destruct (Z.eq_dec (b / 16) 0) as [->|Hm]; [left; reflexivity|].
  right. apply in_flat_map. exists (b mod 16). split; [cbn [In]; lia|].
  apply in_map_iff. exists (b / 16). split; [reflexivity|cbn [In]; lia].
Qed.

Lemma coord_of_wire_canon : forall lim v, 0 <= lim <= 180 ->
  two31 - lim * 3600000 <= v <= two31 + lim * 3600000 ->
  coord_canon lim (coord_of_wire v) /\ coord_to_wire (coord_of_wire v) = v.
Proof.
  intros lim v Hl Hv. unfold coord_of_wire. cbn [coord_canon coord_to_wire]. unfold two31 in *.
  set (ms := Z.abs (v - 2147483648)).
  destruct (dms_of_total ms ltac:(subst ms; lia)) as (R1 & R2 & R3 & R4 & ->).
  destruct (v >=? 2147483648) eqn:E; subst ms; repeat split; auto; lia.
Qed.

Theorem loc_fixed_point_thm : forall wire cur rdlen vs,
  all_bytes wire = true ->
  hand_decode_rdata HLoc None wire cur rdlen = Ok vs ->
  exists w', hand_encode_rdata HLoc None vs = Ok w' /\
             hand_decode_rdata HLoc None w' 0 (length w') = Ok vs.
Proof.
  intros wire cur rdlen vs Hb H. apply hand_decode_ok in H as (He & Ed & Hv). cbn [hand_dec hand_valid] in Ed, Hv.
  unfold loc_dec in Ed.
  inv_bind Ed. destruct x as [ver c1]. apply get_u_inv in E as (-> & L1 & B1); auto; [|lia].
  inv_bind Ed. destruct x as [sz c2]. apply get_u_inv in E as (-> & L2 & B2); auto.
  inv_bind Ed. destruct x as [hp c3]. apply get_u_inv in E as (-> & L3 & B3); auto.
  inv_bind Ed. destruct x as [vp c4]. apply get_u_inv in E as (-> & L4 & B4); auto.
  inv_bind Ed. destruct x as [lat c5]. apply get_u_inv in E as (-> & L5 & B5); auto.
  inv_bind Ed. destruct x as [lon c6]. apply get_u_inv in E as (-> & L6 & B6); auto.
  inv_bind Ed. destruct x as [alt c7]. apply get_u_inv in E as (-> & L7 & B7); auto.
  cbn [fst snd] in Ed. change (pow256 1) with 256 in *. change (pow256 4) with 4294967296 in *.
  destruct (negb (ver =? 0)); [discriminate|].
  destruct ((lat <? two31 - 90 * 3600000) || (lat >? two31 + 90 * 3600000)) eqn:Elat; [discriminate|].
  destruct ((lon <? two31 - 180 * 3600000) || (lon >? two31 + 180 * 3600000)) eqn:Elon; [discriminate|].
  inv_bind Ed. rename x into s. inv_bind Ed. rename x into h. inv_bind Ed. rename x into v.
  injection Ed as <- _.
  apply loc_decode_size_in in E; [|lia]. apply loc_decode_size_in in E0; [|lia]. apply loc_decode_size_in in E1; [|lia].
  destruct (coord_of_wire_canon 90 lat ltac:(lia) ltac:(lia)) as [Clat Wlat].
  destruct (coord_of_wire_canon 180 lon ltac:(lia) ltac:(lia)) as [Clon Wlon].
  destruct (loc_size_rt s E) as (bs & Es & _). destruct (loc_size_rt h E0) as (bh & Eh & _).
  destruct (loc_size_rt v E1) as (bv & Ev & _).
  eexists. apply (hand_fixed_point HLoc); [|exact Hv|].
  - exists (coord_of_wire lat), (coord_of_wire lon), (alt - 10000000), s, h, v.
    split; [reflexivity|]. split; [exact Clat|]. split; [exact Clon|]. split; [lia|auto].
  - cbn [hand_enc loc_enc]. rewrite Es, Eh, Ev. cbn [bind]. rewrite Wlat, Wlon. unfold two31 in *.
    replace ((0 <=? lat) && (lat <? 4294967296) && (0 <=? lon) && (lon <? 4294967296)
             && (0 <=? alt - 10000000 + 10000000) && (alt - 10000000 + 10000000 <? 4294967296)) with true by lia.
    reflexivity.
Qed.
