(* C17 - store-level lemmas: the sentinel ring of LRUCacheNode objects.
   `cyc s m` says that the nodes m (in this order) form a doubly linked cycle in store s:
   next of each is the following one, prev of the following one is it (prev (next n) = n).
   unlink / link_after are first described by what they do to the next / prev / payload views of
   the store (whatever the shape of the ring), then proved against that invariant. *)
From Coq Require Import Permutation.
From DV Require Import Base.Prelude Model.CacheM.

Lemma sget_sset : forall s i n j, sget (sset s i n) j = if Nat.eqb i j then Some n else sget s j.
Proof.
  induction s as [|[x m] s IH]; intros i n j; cbn.
  - reflexivity.
  - destruct (Nat.eqb_spec x i) as [->|E1]; cbn.
    + destruct (Nat.eqb i j); reflexivity.
    + rewrite IH. destruct (Nat.eqb_spec x j) as [->|]; [|reflexivity].
      destruct (Nat.eqb_spec i j); [congruence|reflexivity].
Qed.

Lemma sget_sfree : forall s i j, sget (sfree s i) j = if Nat.eqb i j then None else sget s j.
Proof.
  induction s as [|[x m] s IH]; intros i j; cbn.
  - destruct (Nat.eqb i j); reflexivity.
  - destruct (Nat.eqb_spec x i) as [->|E1]; cbn; rewrite IH.
    + destruct (Nat.eqb i j); reflexivity.
    + destruct (Nat.eqb_spec x j) as [->|]; [|reflexivity].
      destruct (Nat.eqb_spec i j); [congruence|reflexivity].
Qed.

Definition nxt (s : store) (i : nat) : option nat := option_map n_next (sget s i).
Definition prv (s : store) (i : nat) : option nat := option_map n_prev (sget s i).
Definition payload (s : store) (i : nat) : option (option Z * option ans * Z) :=
  option_map (fun n => (n_key n, n_val n, n_hits n)) (sget s i).

Lemma nxt_some : forall s i b, nxt s i = Some b -> exists n, sget s i = Some n /\ n_next n = b.
Proof. unfold nxt; intros s i b H; destruct (sget s i) as [n|]; [|discriminate]. inversion H; eauto. Qed.
Lemma prv_some : forall s i b, prv s i = Some b -> exists n, sget s i = Some n /\ n_prev n = b.
Proof. unfold prv; intros s i b H; destruct (sget s i) as [n|]; [|discriminate]. inversion H; eauto. Qed.
Lemma payload_some : forall s i p, payload s i = Some p ->
  exists n, sget s i = Some n /\ (n_key n, n_val n, n_hits n) = p.
Proof. unfold payload; intros s i p H; destruct (sget s i) as [n|]; [|discriminate]. inversion H; eauto. Qed.

(* the three field assignments: each changes one view of one node *)
Lemma set_prev_spec : forall s i v, sget s i <> None ->
  exists s', set_prev s i v = Ok s' /\
    (forall j, nxt s' j = nxt s j) /\
    (forall j, prv s' j = if Nat.eqb i j then Some v else prv s j) /\
    (forall j, payload s' j = payload s j).
Proof.
  intros s i v H. unfold set_prev, getn. destruct (sget s i) as [n|] eqn:E; [clear H|congruence].
  eexists; split; [reflexivity|]. unfold nxt, prv, payload.
  repeat split; intros j; rewrite sget_sset; destruct (Nat.eqb_spec i j) as [<-|]; rewrite ?E; reflexivity.
Qed.

Lemma set_next_spec : forall s i v, sget s i <> None ->
  exists s', set_next s i v = Ok s' /\
    (forall j, nxt s' j = if Nat.eqb i j then Some v else nxt s j) /\
    (forall j, prv s' j = prv s j) /\
    (forall j, payload s' j = payload s j).
Proof.
  intros s i v H. unfold set_next, getn. destruct (sget s i) as [n|] eqn:E; [clear H|congruence].
  eexists; split; [reflexivity|]. unfold nxt, prv, payload.
  repeat split; intros j; rewrite sget_sset; destruct (Nat.eqb_spec i j) as [<-|]; rewrite ?E; reflexivity.
Qed.

Lemma set_hits_spec : forall s i h n, sget s i = Some n ->
  exists s', set_hits s i h = Ok s' /\
    (forall j, nxt s' j = nxt s j) /\
    (forall j, prv s' j = prv s j) /\
    (forall j, payload s' j = if Nat.eqb i j then Some (n_key n, n_val n, h) else payload s j).
Proof.
  intros s i h n E. unfold set_hits, getn. rewrite E.
  eexists; split; [reflexivity|]. unfold nxt, prv, payload.
  repeat split; intros j; rewrite sget_sset; destruct (Nat.eqb_spec i j) as [<-|]; rewrite ?E; reflexivity.
Qed.

Lemma payload_dom : forall s s', (forall j, payload s' j = payload s j) ->
  forall j, sget s' j = None <-> sget s j = None.
Proof.
  intros s s' H j. specialize (H j). unfold payload in H.
  destruct (sget s' j), (sget s j); cbn in H; split; intros; congruence.
Qed.

Lemma payload_live : forall s s', (forall j, payload s' j = payload s j) ->
  forall j, sget s j <> None -> sget s' j <> None.
Proof. intros s s' Y j H E. apply H, (payload_dom _ _ Y), E. Qed.

(* unlink splices node n out: its predecessor and successor point at each other.  The re-read
   of n after the first assignment sees the same prev and next even when n is its own successor. *)
Lemma unlink_spec : forall s n nd,
  sget s n = Some nd -> sget s (n_next nd) <> None -> sget s (n_prev nd) <> None ->
  exists s', unlink s n = Ok s' /\
    (forall j, nxt s' j = if Nat.eqb (n_prev nd) j then Some (n_next nd) else nxt s j) /\
    (forall j, prv s' j = if Nat.eqb (n_next nd) j then Some (n_prev nd) else prv s j) /\
    (forall j, payload s' j = payload s j).
Proof.
  intros s n nd Hn Hq Hp.
  destruct (set_prev_spec s (n_next nd) (n_prev nd) Hq) as (s1 & E1 & N1 & P1 & Y1).
  destruct (nxt_some s1 n (n_next nd)) as (n1 & Hn1 & Hq1).
  { rewrite N1. unfold nxt. rewrite Hn. reflexivity. }
  assert (Hp1 : n_prev n1 = n_prev nd).
  { specialize (P1 n). unfold prv in P1. rewrite Hn1, Hn in P1.
    destruct (Nat.eqb (n_next nd) n); cbn in P1; congruence. }
  destruct (set_next_spec s1 (n_prev nd) (n_next nd) (payload_live _ _ Y1 _ Hp)) as (s2 & E2 & N2 & P2 & Y2).
  exists s2. split.
  { unfold unlink, getn. rewrite Hn. cbn [bind]. rewrite E1. cbn [bind]. rewrite Hn1. cbn [bind].
    rewrite Hp1, Hq1. exact E2. }
  repeat split; intros j; [rewrite N2, N1|rewrite P2, P1|rewrite Y2, Y1]; reflexivity.
Qed.

Lemma link_after_spec : forall s n a ad,
  sget s n <> None -> sget s a = Some ad -> n <> a -> sget s (n_next ad) <> None ->
  exists s', link_after s n a = Ok s' /\
    (forall j, nxt s' j = if Nat.eqb a j then Some n else if Nat.eqb n j then Some (n_next ad) else nxt s j) /\
    (forall j, prv s' j = if Nat.eqb (n_next ad) j then Some n else if Nat.eqb n j then Some a else prv s j) /\
    (forall j, payload s' j = payload s j).
Proof.
  intros s n a ad Hn Ha Hna Hq.
  assert (Hnx : nxt s a = Some (n_next ad)) by (unfold nxt; rewrite Ha; reflexivity).
  destruct (set_prev_spec s n a Hn) as (s1 & E1 & N1 & P1 & Y1).
  destruct (nxt_some s1 a (n_next ad)) as (a1 & Ha1 & Hq1); [rewrite N1; exact Hnx|].
  destruct (set_next_spec s1 n (n_next ad) (payload_live _ _ Y1 _ Hn)) as (s2 & E2 & N2 & P2 & Y2).
  destruct (nxt_some s2 a (n_next ad)) as (a2 & Ha2 & Hq2).
  { rewrite N2, N1. destruct (Nat.eqb_spec n a); [congruence|exact Hnx]. }
  destruct (set_prev_spec s2 (n_next ad) n (payload_live _ _ Y2 _ (payload_live _ _ Y1 _ Hq)))
    as (s3 & E3 & N3 & P3 & Y3).
  destruct (set_next_spec s3 a n) as (s4 & E4 & N4 & P4 & Y4).
  { apply (payload_live _ _ Y3). congruence. }
  exists s4. split.
  { unfold link_after, getn. rewrite E1. cbn [bind]. rewrite Ha1. cbn [bind]. rewrite Hq1, E2. cbn [bind].
    rewrite Ha2. cbn [bind]. rewrite Hq2, E3. exact E4. }
  repeat split; intros j; [rewrite N4, N3, N2, N1|rewrite P4, P3, P2, P1|rewrite Y4, Y3, Y2, Y1]; reflexivity.
Qed.

Definition linked (s : store) (a b : nat) : Prop := nxt s a = Some b /\ prv s b = Some a.

Fixpoint path (s : store) (a : nat) (l : list nat) (b : nat) : Prop :=
  match l with
  | [] => linked s a b
  | x :: r => linked s a x /\ path s x r b
  end.

Definition cyc (s : store) (m : list nat) : Prop :=
  match m with
  | [] => True
  | x :: r => path s x r x
  end.

Lemma path_app : forall s l1 a x l2 b,
  path s a (l1 ++ x :: l2) b <-> path s a l1 x /\ path s x l2 b.
Proof.
  induction l1 as [|y l1 IH]; intros a x l2 b; cbn.
  - tauto.
  - rewrite IH. tauto.
Qed.

Lemma path_snoc : forall s l a p b, path s a (l ++ [p]) b <-> path s a l p /\ linked s p b.
Proof. intros. rewrite path_app. cbn. tauto. Qed.

Lemma cyc_rot : forall s l1 l2, cyc s (l1 ++ l2) -> cyc s (l2 ++ l1).
Proof.
  intros s l1 l2. destruct l1 as [|a l1]; [rewrite app_nil_r; auto|].
  destruct l2 as [|b l2]; [rewrite app_nil_r; auto|].
  cbn [cyc app]. rewrite !path_app. tauto.
Qed.

Lemma nodup_app_comm : forall {A} (l1 l2 : list A), NoDup (l1 ++ l2) -> NoDup (l2 ++ l1).
Proof. intros A l1 l2 H. eapply Permutation_NoDup; [apply Permutation_app_comm|exact H]. Qed.

Lemma path_nxt_hd : forall s a l b, path s a l b -> nxt s a = Some (hd b l).
Proof. intros s a [|x r] b H; apply H. Qed.

Lemma path_frame : forall s s' l a b,
  (forall y, In y (a :: l) -> nxt s' y = nxt s y) ->
  (forall y, In y (l ++ [b]) -> prv s' y = prv s y) ->
  path s a l b -> path s' a l b.
Proof.
  induction l as [|x l IH]; intros a b Hn Hp; cbn [path]; unfold linked.
  - intros [H1 H2]. rewrite Hn, Hp by (cbn; auto). auto.
  - intros [[H1 H2] H3]. rewrite Hn, Hp by (cbn; auto). split; [auto|].
    apply IH; auto.
    + intros y Hy. apply Hn. cbn in *. tauto.
    + intros y Hy. apply Hp. cbn in *. tauto.
Qed.

Lemma cyc_frame : forall s s' m,
  (forall y, In y m -> nxt s' y = nxt s y) ->
  (forall y, In y m -> prv s' y = prv s y) ->
  cyc s m -> cyc s' m.
Proof.
  intros s s' [|x r] Hn Hp; cbn [cyc]; [auto|].
  apply path_frame; intros y Hy.
  - apply Hn; auto.
  - apply Hp. apply in_app_or in Hy. cbn in *. tauto.
Qed.

(* the same path from a new first node n that took over a's link to the second node *)
Lemma path_head : forall s s' a n l b,
  path s a l b -> NoDup (l ++ [b]) ->
  nxt s' n = nxt s a -> prv s' (hd b l) = Some n ->
  (forall y, In y l -> nxt s' y = nxt s y) ->
  (forall y, In y (l ++ [b]) -> y <> hd b l -> prv s' y = prv s y) ->
  path s' n l b.
Proof.
  intros s s' a n [|x r] b; cbn [path hd app]; unfold linked.
  - intros [H _] _ Hn Hp _ _. rewrite Hn. auto.
  - intros [[H _] Hr] Hnd Hn Hp Fn Fp. rewrite Hn. split; [auto|].
    apply NoDup_cons_iff in Hnd. eapply path_frame; [exact Fn| |exact Hr].
    intros y Hy. apply Fp; [right; exact Hy|]. intros ->. tauto.
Qed.

Lemma path_nxt_in : forall s l a b y, path s a l b -> In y (a :: l) -> nxt s y <> None.
Proof.
  induction l as [|x l IH]; intros a b y; cbn [path]; unfold linked.
  - intros [H _] [<-|[]]. congruence.
  - intros [[H _] H3] [<-|Hy]; [congruence|]. eapply IH; eauto.
Qed.

Lemma cyc_in_store : forall s m y, cyc s m -> In y m -> sget s y <> None.
Proof.
  intros s [|x r] y Hc Hy; [destruct Hy|]. cbn in Hc.
  pose proof (path_nxt_in _ _ _ _ _ Hc Hy) as H. unfold nxt in H.
  destruct (sget s y); [discriminate|]. cbn in H. congruence.
Qed.

(* node n is the first of the cycle n :: m; afterwards m alone is a cycle *)
Lemma unlink_cyc : forall s n m,
  cyc s (n :: m) -> NoDup (n :: m) -> m <> [] ->
  exists s', unlink s n = Ok s' /\ cyc s' m /\ (forall j, payload s' j = payload s j).
Proof.
  intros s n m Hc Hnd Hne.
  destruct (exists_last Hne) as (l & p & ->).
  (* seen from n's predecessor p the cycle is p -> n -> l -> p *)
  pose proof (cyc_rot s (n :: l) [p] Hc) as Hr. cbn [cyc app path] in Hr. destruct Hr as [[_ Hnp] Hp].
  destruct (prv_some _ _ _ Hnp) as (nd & Hn & <-).
  pose proof (path_nxt_hd _ _ _ _ Hp) as Hq. unfold nxt in Hq. rewrite Hn in Hq. injection Hq as Hq.
  apply NoDup_cons_iff in Hnd. destruct Hnd as [_ Hnd].
  destruct (unlink_spec s n nd Hn) as (s' & E & N & P & Y).
  { rewrite Hq. apply (cyc_in_store _ _ _ Hc). right. destruct l; cbn; auto. }
  { apply (cyc_in_store _ _ _ Hc). right. apply in_or_app. right. left. reflexivity. }
  exists s'. split; [exact E|]. split; [|exact Y].
  apply (cyc_rot s' [n_prev nd] l). cbn [cyc app].
  eapply path_head; [exact Hp|exact Hnd| | | |].
  - rewrite N, Nat.eqb_refl. unfold nxt. rewrite Hn. reflexivity.
  - rewrite P, <- Hq, Nat.eqb_refl. reflexivity.
  - intros y Hy. rewrite N. destruct (Nat.eqb_spec (n_prev nd) y) as [<-|]; [|reflexivity].
    apply NoDup_remove_2 in Hnd. rewrite app_nil_r in Hnd. contradiction.
  - intros y _ Hy. rewrite P, Hq. destruct (Nat.eqb_spec (hd (n_prev nd) l) y); [congruence|reflexivity].
Qed.

(* node n (present in the store, not on the cycle) is inserted right after a *)
Lemma link_after_cyc : forall s a l n nd,
  cyc s (a :: l) -> NoDup (a :: l) -> ~ In n (a :: l) -> sget s n = Some nd ->
  exists s', link_after s n a = Ok s' /\ cyc s' (a :: n :: l) /\
    (forall j, payload s' j = payload s j).
Proof.
  intros s a l n nd Hc Hnd Hnin Hn.
  assert (Hna : n <> a) by (intros ->; apply Hnin; left; reflexivity).
  pose proof Hc as Hp. cbn [cyc] in Hp.
  destruct (nxt_some _ _ _ (path_nxt_hd _ _ _ _ Hp)) as (ad & Ha & Hq).
  assert (Hqin : In (n_next ad) (a :: l)) by (rewrite Hq; destruct l; cbn; auto).
  destruct (link_after_spec s n a ad) as (s' & E & N & P & Y);
    [congruence|exact Ha|exact Hna|exact (cyc_in_store _ _ _ Hc Hqin)|].
  exists s'. split; [exact E|]. split; [|exact Y].
  cbn [cyc path]. unfold linked. split; [split|].
  - rewrite N, Nat.eqb_refl. reflexivity.
  - rewrite P, Nat.eqb_refl. destruct (Nat.eqb_spec (n_next ad) n); [congruence|reflexivity].
  - eapply path_head; [exact Hp|exact (nodup_app_comm [a] l Hnd)| | | |].
    + rewrite N, Nat.eqb_refl. destruct (Nat.eqb_spec a n); [congruence|]. unfold nxt. rewrite Ha. reflexivity.
    + rewrite P, Hq, Nat.eqb_refl. reflexivity.
    + intros y Hy. rewrite N. apply NoDup_cons_iff in Hnd.
      destruct (Nat.eqb_spec a y) as [<-|]; [tauto|].
      destruct (Nat.eqb_spec n y) as [<-|]; [|reflexivity]. exfalso. apply Hnin. right. exact Hy.
    + intros y Hy Hne. rewrite P, Hq.
      destruct (Nat.eqb_spec (hd a l) y); [congruence|].
      destruct (Nat.eqb_spec n y) as [<-|]; [|reflexivity].
      exfalso. apply Hnin. apply in_app_or in Hy. destruct Hy as [Hy|[Hy|[]]]; [right; exact Hy|left; exact Hy].
Qed.

Lemma cyc_prv_last : forall s a l g, cyc s (a :: l ++ [g]) -> prv s a = Some g.
Proof.
  intros s a l g Hc. cbn [cyc] in Hc. rewrite path_snoc in Hc. destruct Hc as [_ [_ H]]. exact H.
Qed.

Lemma cyc_nxt_first : forall s a q l, cyc s (a :: q :: l) -> nxt s a = Some q.
Proof. intros s a q l Hc. exact (path_nxt_hd _ _ _ _ Hc). Qed.

Lemma path_nxt_mid : forall s l1 a x y l2 b, path s a (l1 ++ x :: y :: l2) b -> nxt s x = Some y.
Proof.
  intros s l1 a x y l2 b H. rewrite path_app in H. exact (path_nxt_hd _ _ _ _ (proj2 H)).
Qed.
