(* Facts about the canonical name order used by the NSEC chain and ZONEMD proofs:
   sorted(names), subtrees are contiguous intervals of the canonical order. *)
From Coq Require Import Permutation Sorted.
From DV Require Import Base.Prelude Model.NameM Model.DnssecM.
From DV Require Import Proofs.NameOrder Proofs.NameValid Proofs.NameRel Proofs.DnssecRef Proofs.DnssecSort.
Open Scope Z_scope.

Definition name_le (a b : name) : Prop := order a b <= 0.

Lemma name_lt_le a b : name_lt a b = true -> name_le a b.
Proof. unfold name_lt, name_le. lia. Qed.
Lemma name_nlt_ge a b : name_lt a b = false -> name_le b a.
Proof.
  unfold name_lt, name_le. intros H.
  destruct (order_total b a) as [L|[E|L]]; [lia|apply eq_iff_ci in E; lia|lia].
Qed.
Lemma name_le_trans a b c : name_le a b -> name_le b c -> name_le a c.
Proof. apply order_trans. Qed.

Lemma sort_names_perm l : Permutation l (sort_names l).
Proof. exact (py_sorted_perm name_lt name_le name_lt_le name_nlt_ge name_le_trans l). Qed.
Lemma sort_names_sorted l : StronglySorted name_le (sort_names l).
Proof. exact (py_sorted_sorted name_lt name_le name_lt_le name_nlt_ge name_le_trans l). Qed.

(* keys of a dict of names: no two entries are equal as names *)
Definition ci_distinct (l : list name) : Prop :=
  NoDup l /\ forall x y, In x l -> In y l -> ci_equal x y -> x = y.

Lemma ci_distinct_perm l l' : Permutation l l' -> ci_distinct l -> ci_distinct l'.
Proof.
  intros P [N D]. split; [eapply Permutation_NoDup; eauto|].
  intros x y Hx Hy. apply D; eapply Permutation_in; try apply Permutation_sym; eauto.
Qed.

Lemma sorted_names_unique : forall l1 l2,
  ci_distinct l1 -> StronglySorted name_le l1 -> StronglySorted name_le l2 -> Permutation l1 l2 -> l1 = l2.
Proof.
  intros l1 l2 [_ D] S1 S2 P. apply (sorted_perm_unique name_le); auto.
  intros x y Hx Hy L1 L2. apply D; auto. now apply order_antisym_le.
Qed.

Lemma ci_key_length n : length (ci_key n) = length n.
Proof. unfold ci_key. now rewrite rev_length, map_length. Qed.

Lemma is_subdomain_key a d :
  is_subdomain a d = true <-> is_absolute a = is_absolute d /\ exists q, ci_key a = ci_key d ++ q.
Proof.
  rewrite is_subdomain_iff, <- common_suffix_full. unfold common_suffix.
  rewrite <- (ci_key_length d), lcp_full_r. reflexivity.
Qed.

Lemma is_subdomain_trans a b c : is_subdomain a b = true -> is_subdomain b c = true -> is_subdomain a c = true.
Proof.
  rewrite !is_subdomain_key. intros (E1 & q1 & K1) (E2 & q2 & K2). split; [congruence|].
  exists (q2 ++ q1). rewrite K1, K2. now rewrite app_assoc.
Qed.

Lemma is_subdomain_refl a : is_subdomain a a = true.
Proof. exact (NameOrder.is_subdomain_refl a). Qed.

Lemma lex_prefix_between : forall (kd kx q : list label),
  lex cmp_bytes kd kx <> Gt -> lex cmp_bytes kx (kd ++ q) <> Gt -> exists q', kx = kd ++ q'.
Proof.
  induction kd as [|h t IH]; intros kx q H1 H2; [exists kx; reflexivity|].
  destruct kx as [|y kx]; [cbn in H1; congruence|].
  cbn [lex app] in H1, H2. rewrite (cmp_bytes_anti h y) in H2.
  destruct (cmp_bytes h y) eqn:E; cbn in H2; try congruence.
  apply cmp_bytes_eq in E. subst y. destruct (IH kx q H1 H2) as [q' ->]. exists q'. reflexivity.
Qed.

Lemma lex_prefix_le : forall (k q : list label), lex cmp_bytes k (k ++ q) <> Gt.
Proof.
  induction k as [|h t IH]; intros q; cbn [lex app]; [destruct q; discriminate|].
  rewrite cmp_bytes_refl. apply IH.
Qed.

Lemma lex_prefix_lt : forall (k q : list label), q <> [] -> lex cmp_bytes k (k ++ q) = Lt.
Proof.
  induction k as [|h t IH]; intros q Hq; cbn [lex app]; [destruct q; congruence|].
  rewrite cmp_bytes_refl. now apply IH.
Qed.

Lemma name_le_cmp a b : name_le a b <-> canon_cmp a b <> Gt.
Proof. unfold name_le. rewrite <- order_spec. rewrite Z.compare_gt_iff. lia. Qed.

Lemma canon_cmp_same_abs a b :
  is_absolute a = is_absolute b -> canon_cmp a b = lex cmp_bytes (ci_key a) (ci_key b).
Proof. intros E. unfold canon_cmp. rewrite E. destruct (is_absolute b); reflexivity. Qed.

(* the names at or below d form an interval of the canonical order *)
Lemma subtree_contiguous d x a :
  is_absolute d = is_absolute x -> is_absolute x = is_absolute a ->
  name_le d x -> name_le x a -> is_subdomain a d = true -> is_subdomain x d = true.
Proof.
  intros E1 E2 H1 H2 Hs. apply is_subdomain_key in Hs as (_ & q & K).
  apply name_le_cmp in H1, H2. rewrite canon_cmp_same_abs in H1, H2 by assumption.
  rewrite K in H2. destruct (lex_prefix_between _ _ _ H1 H2) as [q' K'].
  apply is_subdomain_key. split; [congruence|]. now exists q'.
Qed.

Lemma ancestor_le a d : is_subdomain a d = true -> name_le d a.
Proof.
  intros Hs. apply is_subdomain_key in Hs as (E & q & K).
  apply name_le_cmp. rewrite canon_cmp_same_abs by congruence. rewrite K. apply lex_prefix_le.
Qed.

Lemma proper_ancestor_lt a d : is_subdomain a d = true -> name_eqb d a = false -> order d a < 0.
Proof.
  intros Hs Hne. apply is_subdomain_key in Hs as (E & q & K).
  apply order_lt. rewrite canon_cmp_same_abs by congruence. rewrite K. apply lex_prefix_lt.
  intros ->. rewrite app_nil_r in K.
  assert (ci_equal d a) by (apply ci_key_eq; congruence).
  apply name_eqb_iff_ci in H. congruence.
Qed.

(* the empty (relative) name is the least name *)
Lemma name_le_nil x : is_absolute x = false -> name_le x [] -> x = [].
Proof.
  intros E H. apply name_le_cmp in H. rewrite canon_cmp_same_abs in H by (rewrite E; reflexivity).
  unfold ci_key in H at 2. cbn in H. destruct (ci_key x) eqn:K; [|cbn in H; congruence].
  apply (f_equal (@length _)) in K. rewrite ci_key_length in K. destruct x; [reflexivity|discriminate].
Qed.
