(* C13 - the order of the records inside a deletion / addition section (and inside an AXFR body)
   does not matter: additions commute with one another, and so do exact deletions, up to
   finite-map equality. *)
From DV Require Import Base.Prelude Model.XfrM Proofs.XfrSets Proofs.XfrSpec Proofs.XfrZone Proofs.XfrDiff
  Proofs.XfrGeneral Proofs.XfrAxfr.
From Coq Require Import Sorting.Permutation.

Lemma ins_comm : forall a b l, ssorted l -> ins a (ins b l) = ins b (ins a l).
Proof.
  intros a b l Hl. apply ssorted_ext; try (apply ins_sorted, ins_sorted, Hl).
  intros x. rewrite !ins_In. tauto.
Qed.

Lemma tmin_comm3 : forall a b c, tmin a (tmin b c) = tmin b (tmin a c).
Proof. intros a b c. rewrite !tmin_min. lia. Qed.

Definition add1o (e : option entry) (r : rr) : option entry := Some (add1 e (r_ttl r) (r_data r)).

Lemma add1o_some : forall t S0 r,
  add1o (Some (t, S0)) r = Some (tmin (r_ttl r) t, ins (r_data r) S0).
Proof. reflexivity. Qed.

Lemma add1o_none : forall r, add1o None r = Some (r_ttl r, ins (r_data r) []).
Proof. reflexivity. Qed.

Lemma add1_comm : forall e r1 r2, wf_e e -> add1o (add1o e r1) r2 = add1o (add1o e r2) r1.
Proof.
  intros e r1 r2 He. destruct e as [[t0 S0]|].
  - rewrite !add1o_some, tmin_comm3, (ins_comm (r_data r2)) by exact He. reflexivity.
  - rewrite !add1o_none, !add1o_some, !tmin_min, Z.min_comm, (ins_comm (r_data r2)) by constructor.
    reflexivity.
Qed.

Lemma fa_cons : forall k e r x,
  fa k e (r :: x) = fa k (if key_eqb (rkey r) k then add1o e r else e) x.
Proof. reflexivity. Qed.

Lemma wf_e_add1o : forall e r, wf_e e -> wf_e (add1o e r).
Proof.
  intros e r He. destruct e as [[t0 S0]|]; [apply ins_sorted, He|apply ssorted_one].
Qed.

Lemma fa_perm : forall k x y, Permutation x y -> forall e, wf_e e -> fa k e x = fa k e y.
Proof.
  intros k x y P. induction P as [|r x y P IH|r1 r2 x|x y z P1 IH1 P2 IH2]; intros e He.
  - reflexivity.
  - rewrite !fa_cons. apply IH. destruct (key_eqb (rkey r) k); [apply wf_e_add1o|]; exact He.
  - rewrite !fa_cons. destruct (key_eqb (rkey r1) k), (key_eqb (rkey r2) k); try reflexivity.
    rewrite add1_comm by exact He. reflexivity.
  - rewrite IH1 by exact He. apply IH2, He.
Qed.

Lemma adds_perm : forall x y z, Permutation x y -> zsorted z -> zeq (adds z x) (adds z y).
Proof.
  intros x y z P Hz k. rewrite !look_adds_fa. apply fa_perm; [exact P|apply Hz].
Qed.

Definition bindo {A B} (o : option A) (f : A -> option B) : option B :=
  match o with Some a => f a | None => None end.

Lemma bindo_assoc : forall {A B C} (o : option A) (f : A -> option B) (g : B -> option C),
  bindo (bindo o f) g = bindo o (fun a => bindo (f a) g).
Proof. intros A B C [a|] f g; reflexivity. Qed.

(* effect on the entry at key k of deleting the records x in order; None = DeleteNotExact *)
Fixpoint fd (k : key) (e : option entry) (x : list rr) : option (option entry) :=
  match x with
  | [] => Some e
  | r :: x' => if key_eqb (rkey r) k
               then bindo (del1 e (r_data r)) (fun e' => fd k e' x')
               else fd k e x'
  end.

Lemma norm_some : forall t l, l <> [] -> norm t l = Some (t, l).
Proof. exact norm_ne. Qed.

(* deleting a then b from one entry, in closed form *)
Lemma del1_twice : forall t S0 a b,
  bindo (del1 (Some (t, S0)) a) (fun e' => del1 e' b) =
  if mem a S0 && (mem b S0 && negb (mem b [a])) then Some (norm t (diff S0 ([a] ++ [b]))) else None.
Proof.
  intros t S0 a b. cbn [del1]. destruct (mem a S0); [|reflexivity]. cbn [bindo andb].
  rewrite del1_norm, mem_diff, diff_diff. reflexivity.
Qed.

Lemma del1_comm : forall e a b,
  bindo (del1 e a) (fun e' => del1 e' b) = bindo (del1 e b) (fun e' => del1 e' a).
Proof.
  intros e a b. destruct e as [[t S0]|]; [|reflexivity]. rewrite !del1_twice.
  cbn [mem app]. rewrite !orb_false_r, (Z.eqb_sym b a).
  destruct (mem a S0), (mem b S0), (a =? b); try reflexivity. cbn [andb negb].
  f_equal. f_equal. unfold diff. apply filter_ext. intros x. cbn [mem]. rewrite !orb_false_r, orb_comm. reflexivity.
Qed.

Lemma fd_perm_g : forall k x y, Permutation x y -> forall e, fd k e x = fd k e y.
Proof.
  intros k x y P. induction P as [|r x y P IH|r1 r2 x|x y z P1 IH1 P2 IH2]; intros e.
  - reflexivity.
  - cbn [fd]. destruct (key_eqb (rkey r) k); [|apply IH].
    destruct (del1 e (r_data r)) as [e'|]; cbn [bindo]; [apply IH|reflexivity].
  - cbn [fd]. destruct (key_eqb (rkey r1) k), (key_eqb (rkey r2) k); try reflexivity.
    rewrite <- !bindo_assoc, del1_comm. reflexivity.
  - rewrite IH1. apply IH2.
Qed.

Lemma fd_perm : forall k x y, Permutation x y -> forall e, wf_e e -> fd k e x = fd k e y.
Proof. intros k x y P e _. apply fd_perm_g, P. Qed.

Lemma look_dels_fd : forall x z z', dels z x = Some z' -> forall k, fd k (look z k) x = Some (look z' k).
Proof.
  induction x as [|r x IH]; intros z z' H k; cbn [dels fd] in *.
  - inversion H; reflexivity.
  - destruct (del1 (look z (rkey r)) (r_data r)) as [oe|] eqn:E; [|discriminate].
    specialize (IH _ _ H k). rewrite look_zset in IH. rewrite (key_eqb_sym k (rkey r)) in IH.
    destruct (key_eqb_spec (rkey r) k) as [Ek|_].
    + subst k. rewrite E. cbn [bindo]. exact IH.
    + exact IH.
Qed.

Lemma dels_fd_complete : forall x z, (forall k, fd k (look z k) x <> None) -> exists z', dels z x = Some z'.
Proof.
  induction x as [|r x IH]; intros z H; cbn [dels].
  - eauto.
  - pose proof (H (rkey r)) as Hr. cbn [fd] in Hr. rewrite key_eqb_refl in Hr.
    destruct (del1 (look z (rkey r)) (r_data r)) as [oe|] eqn:E; [|cbn in Hr; congruence].
    apply IH. intros k. specialize (H k). cbn [fd] in H. rewrite look_zset, (key_eqb_sym k (rkey r)).
    destruct (key_eqb_spec (rkey r) k) as [Ek|_].
    + subst k. rewrite E in H. exact H.
    + exact H.
Qed.

(* deletions whose effect on every entry is known *)
Lemma dels_of_fd : forall y z z1, (forall k, fd k (look z k) y = Some (look z1 k)) ->
  exists z2, dels z y = Some z2 /\ zeq z2 z1.
Proof.
  intros y z z1 F. destruct (dels_fd_complete y z) as [z2 H2]; [intros k; rewrite F; discriminate|].
  exists z2. split; [exact H2|]. intros k.
  pose proof (look_dels_fd _ _ _ H2 k) as G. rewrite F in G. inversion G; reflexivity.
Qed.

(* exact deletion in another order succeeds as well and gives the same zone *)
Lemma dels_perm : forall x y z z1, Permutation x y -> dels z x = Some z1 ->
  exists z2, dels z y = Some z2 /\ zeq z2 z1.
Proof.
  intros x y z z1 P H. apply dels_of_fd. intros k. rewrite <- (fd_perm_g k x y P). apply look_dels_fd, H.
Qed.

Lemma dels_zeq : forall x a b a', zeq a b -> dels a x = Some a' ->
  exists b', dels b x = Some b' /\ zeq b' a'.
Proof. intros x a b a' H Hd. apply dels_of_fd. intros k. rewrite <- H. apply look_dels_fd, Hd. Qed.

(* additions are idempotent, so only the set of added records matters *)
Lemma rr_eq_dec : forall a b : rr, {a = b} + {a <> b}.
Proof. decide equality; apply Z.eq_dec. Qed.

Lemma ins_idem : forall d l, ssorted l -> ins d (ins d l) = ins d l.
Proof.
  intros d l Hl. apply ssorted_ext; try (repeat apply ins_sorted; exact Hl).
  intros x. rewrite !ins_In. tauto.
Qed.

Lemma tmin_idem : forall a b, tmin a (tmin a b) = tmin a b.
Proof. intros a b. rewrite !tmin_min. lia. Qed.

Lemma add1_idem : forall e r, wf_e e -> add1o (add1o e r) r = add1o e r.
Proof.
  intros e r He. destruct e as [[t0 S0]|].
  - rewrite !add1o_some, tmin_idem, ins_idem by exact He. reflexivity.
  - rewrite add1o_none, add1o_some, tmin_min, Z.min_id, ins_idem by constructor. reflexivity.
Qed.

Lemma fa_dup_head : forall k e r x, wf_e e -> In r x -> fa k e (r :: x) = fa k e x.
Proof.
  intros k e r x He Hin. apply in_split in Hin. destruct Hin as [l1 [l2 ->]].
  rewrite (fa_perm k (r :: l1 ++ r :: l2) (r :: r :: l1 ++ l2)) by
    (apply perm_skip, Permutation_sym, Permutation_middle || exact He).
  rewrite (fa_perm k (l1 ++ r :: l2) (r :: l1 ++ l2)) by
    (apply Permutation_sym, Permutation_middle || exact He).
  rewrite !fa_cons. destruct (key_eqb (rkey r) k); [|reflexivity].
  rewrite add1_idem by exact He. reflexivity.
Qed.

Lemma fa_nodup : forall k x e, wf_e e -> fa k e (nodup rr_eq_dec x) = fa k e x.
Proof.
  intros k x. induction x as [|r x IH]; intros e He; cbn [nodup]; [reflexivity|].
  destruct (in_dec rr_eq_dec r x) as [Hin|Hnin].
  - rewrite IH by exact He. symmetry. apply fa_dup_head; assumption.
  - rewrite !fa_cons. apply IH. destruct (key_eqb (rkey r) k); [apply wf_e_add1o|]; exact He.
Qed.

Lemma adds_same_set : forall x y z, same_set x y -> zsorted z -> zeq (adds z x) (adds z y).
Proof.
  intros x y z H Hz k. rewrite !look_adds_fa.
  rewrite <- (fa_nodup k x) by apply Hz. rewrite <- (fa_nodup k y) by apply Hz.
  apply fa_perm; [|apply Hz].
  apply NoDup_Permutation; try apply NoDup_nodup.
  intros r. rewrite !nodup_In. apply H.
Qed.

(* zsorted, under which the order of additions does not matter, is kept by deletions, by storing the SOA,
   and holds of a whole version *)
Lemma wf_e_norm : forall t l, ssorted l -> wf_e (norm t l).
Proof. intros t [|x l] H; [exact Logic.I|exact H]. Qed.

Lemma wf_e_del1 : forall e d e', wf_e e -> del1 e d = Some e' -> wf_e e'.
Proof.
  intros e d e' He H. destruct e as [[t S0]|]; [|discriminate]. cbn [del1 wf_e] in *.
  destruct (mem d S0); [|discriminate]. inversion H; subst. apply wf_e_norm, filter_sorted, He.
Qed.

Lemma dels_sorted : forall D z z', zsorted z -> dels z D = Some z' -> zsorted z'.
Proof.
  induction D as [|r D IH]; intros z z' Hs Hd; cbn [dels] in Hd; [inversion Hd; subst; exact Hs|].
  destruct (del1 (look z (rkey r)) (r_data r)) as [oe|] eqn:E; [|discriminate].
  apply (IH (zset (rkey r) oe z)); [|exact Hd]. intros k. rewrite look_zset.
  destruct (key_eqb k (rkey r)); [|apply Hs]. apply (wf_e_del1 _ _ _ (Hs (rkey r)) E).
Qed.

Lemma zsorted_zput_one : forall k t d z, zsorted z -> zsorted (zput k (t, [d]) z).
Proof.
  intros k t d z Hz k'. rewrite look_zput. destruct (key_eqb k' k); [apply ssorted_one|apply Hz].
Qed.

Lemma zsorted_zone_of : forall v, version_wf_g v -> zsorted (zone_of v).
Proof.
  intros v (_ & Hwf & _) k. rewrite look_zone_of. destruct (key_eqb k soakey); [apply ssorted_one|].
  destruct (look (v_rest v) k) as [[t ds]|] eqn:E; [|exact Logic.I].
  destruct (rest_wf0_entry _ _ _ _ Hwf E) as (_ & Hs & _). exact Hs.
Qed.

(* the difference a -> b, its deletions in any order, its additions in any order and with repetitions,
   applied to a zone that agrees with a away from the SOA (cf. diff_apply0) *)
Lemma diff_apply_perm : forall a b tz D A t d, rest_wf0 a -> rest_wf0 b -> zsorted tz ->
  (forall k, k <> soakey -> look tz k = look a k) ->
  Permutation D (zminus a b) -> same_set A (zminus b a) ->
  exists z1, dels tz D = Some z1 /\
    (forall k, k <> soakey -> look z1 k = after_del (look a k) (look b k)) /\
    forall k, look (adds (zput soakey (t, [d]) z1) A) k = if key_eqb k soakey then Some (t, [d]) else look b k.
Proof.
  intros a b tz D A t d Ha Hb Hs Hz PD PA.
  destruct (diff_apply0 a b tz Ha Hb Hz) as (z1 & Hd & _ & Hz1 & Hadd).
  destruct (dels_perm _ D tz z1 (Permutation_sym PD) Hd) as [z1' [Hd' Hzz]].
  exists z1'. split; [exact Hd'|]. split; [intros k Hk; rewrite Hzz; apply Hz1, Hk|].
  intros k. rewrite <- Hadd.
  eapply eq_trans; [apply adds_same_set; [exact PA|apply zsorted_zput_one, (dels_sorted _ _ _ Hs Hd')]|].
  apply adds_zeq, zput_zeq, Hzz.
Qed.
