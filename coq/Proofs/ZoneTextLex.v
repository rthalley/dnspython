(* C09: the tokenizer on one clean identifier or quoted string; lines as blank-separated pieces. *)
From DV Require Import Base.Prelude Model.NameM Model.ZoneTextM Proofs.ZoneTextBase.
Open Scope Z_scope.

(* an identifier spelling: no unescaped delimiter, no dangling backslash, no escaped newline *)
Fixpoint id_clean_go (t : list Z) (esc : bool) : bool :=
  match t with
  | [] => negb esc
  | c :: r =>
      if esc then negb (c =? 10) && id_clean_go r false
      else if c =? 92 then id_clean_go r true
      else negb (is_delim c) && id_clean_go r false
  end.
Definition id_clean (t : list Z) : bool :=
  match t with [] => false | _ => id_clean_go t false end.

(* the inside of a quoted string: no bare quote, no raw newline, no dangling backslash *)
Fixpoint q_clean_go (t : list Z) (esc : bool) : bool :=
  match t with
  | [] => negb esc
  | c :: r =>
      if esc then q_clean_go r false
      else if c =? 92 then q_clean_go r true
      else negb (c =? 34) && negb (c =? 10) && q_clean_go r false
  end.
Definition q_clean (t : list Z) : bool := q_clean_go t false.

Definition tok_clean (t : tok) : bool :=
  match t with TId v => id_clean v | TQ v => q_clean v end.

Definition render_tok (t : tok) : list Z :=
  match t with TId v => v | TQ v => dquote v end.

Lemma is_delim_false c :
  is_delim c = false <-> c <> 32 /\ c <> 9 /\ c <> 10 /\ c <> 59 /\ c <> 40 /\ c <> 41 /\ c <> 34.
Proof. unfold is_delim. rewrite !orb_false_iff, !Z.eqb_neq. tauto. Qed.

Lemma lex_skip_id c r ml acc :
  is_delim c = false -> (c =? 92) = false -> lex (c :: r) ml MSkip acc = lex r ml (MId [c]) acc.
Proof.
  intros Hd H92. unfold is_delim in Hd. repeat (apply orb_false_iff in Hd as [Hd ?]).
  cbn [lex]. repeat match goal with H : (c =? _) = false |- _ => rewrite H; clear H end. reflexivity.
Qed.

Lemma lex_mid_delim c r ml a acc :
  is_delim c = true -> lex (c :: r) ml (MId a) acc = lex (c :: r) ml MSkip (TId (rev a) :: acc).
Proof. intros H. cbn [lex]. rewrite H. reflexivity. Qed.

Lemma lex_id_go : forall t a esc acc ml d rest,
  id_clean_go t esc = true -> is_delim d = true ->
  lex (t ++ d :: rest) ml (if esc then MEsc false a else MId a) acc =
  lex (d :: rest) ml MSkip (TId (rev a ++ t) :: acc).
Proof.
  induction t as [|c t IH]; intros a esc acc ml d rest Hc Hd; cbn [id_clean_go] in Hc.
  - destruct esc; [discriminate|]. cbn [app]. rewrite app_nil_r. apply lex_mid_delim; exact Hd.
  - destruct esc.
    + apply andb_true_iff in Hc as [Hn Hc]. apply negb_true_iff in Hn.
      cbn [app lex]. rewrite Hn. cbn [andb negb].
      rewrite (IH (c :: a) false acc ml d rest Hc Hd). cbn [rev]. rewrite <- app_assoc. reflexivity.
    + destruct (c =? 92) eqn:E92.
      * apply Z.eqb_eq in E92. subst c. cbn [app lex]. cbn [is_delim Z.eqb orb]. 
        rewrite (IH (92 :: a) true acc ml d rest Hc Hd). cbn [rev]. rewrite <- app_assoc. reflexivity.
      * apply andb_true_iff in Hc as [Hn Hc]. apply negb_true_iff in Hn.
        cbn [app lex]. rewrite Hn, E92.
        rewrite (IH (c :: a) false acc ml d rest Hc Hd). cbn [rev]. rewrite <- app_assoc. reflexivity.
Qed.

(* an identifier followed by a delimiter, read from between tokens *)
Lemma lex_id t acc ml d rest :
  id_clean t = true -> is_delim d = true ->
  lex (t ++ d :: rest) ml MSkip acc = lex (d :: rest) ml MSkip (TId t :: acc).
Proof.
  intros Hc Hd. destruct t as [|c t]; [discriminate|]. unfold id_clean in Hc.
  pose proof (lex_id_go (c :: t) [] false acc ml d rest Hc Hd) as H. cbn [rev app] in H.
  rewrite <- H. clear H.
  cbn [id_clean_go] in Hc.
  destruct (c =? 92) eqn:E92.
  - apply Z.eqb_eq in E92. subst c. reflexivity.
  - apply andb_true_iff in Hc as [Hn _]. apply negb_true_iff in Hn.
    cbn [app]. rewrite (lex_skip_id c _ ml acc Hn E92). cbn [lex]. rewrite Hn, E92. reflexivity.
Qed.

Lemma lex_q_go : forall t a esc acc ml rest,
  q_clean_go t esc = true ->
  lex (t ++ 34 :: rest) ml (if esc then MEsc true a else MQ a) acc =
  lex rest ml MSkip (TQ (rev a ++ t) :: acc).
Proof.
  induction t as [|c t IH]; intros a esc acc ml rest Hc; cbn [q_clean_go] in Hc.
  - destruct esc; [discriminate|]. cbn [app lex]. rewrite app_nil_r. reflexivity.
  - destruct esc.
    + cbn [app lex]. cbn [negb andb]. rewrite andb_false_r.
      rewrite (IH (c :: a) false acc ml rest Hc). cbn [rev]. rewrite <- app_assoc. reflexivity.
    + destruct (c =? 92) eqn:E92.
      * apply Z.eqb_eq in E92. subst c. cbn [app lex]. cbn [Z.eqb].
        rewrite (IH (92 :: a) true acc ml rest Hc). cbn [rev]. rewrite <- app_assoc. reflexivity.
      * apply andb_true_iff in Hc as [Hn Hc]. apply andb_true_iff in Hn as [Hq Hn].
        apply negb_true_iff in Hn, Hq.
        cbn [app lex]. rewrite Hq, Hn, E92.
        rewrite (IH (c :: a) false acc ml rest Hc). cbn [rev]. rewrite <- app_assoc. reflexivity.
Qed.

Lemma lex_q t acc ml rest :
  q_clean t = true ->
  lex (dquote t ++ rest) ml MSkip acc = lex rest ml MSkip (TQ t :: acc).
Proof.
  intros Hc. unfold dquote. cbn [app lex]. cbn [Z.eqb orb].
  rewrite <- app_assoc. cbn [app].
  apply (lex_q_go t [] false acc ml rest Hc).
Qed.

Lemma lex_spaces n rest ml acc : lex (repeat 32 n ++ rest) ml MSkip acc = lex rest ml MSkip acc.
Proof. induction n as [|n IH]; [reflexivity|]. cbn [repeat app lex]. cbn [Z.eqb orb]. exact IH. Qed.

Inductive piece := Sp (n : nat) | Tk (t : tok).

Fixpoint render (ps : list piece) : list Z :=
  match ps with
  | [] => []
  | Sp n :: r => repeat 32 n ++ render r
  | Tk t :: r => render_tok t ++ render r
  end.

Fixpoint toks_of (ps : list piece) : list tok :=
  match ps with
  | [] => []
  | Sp _ :: r => toks_of r
  | Tk t :: r => t :: toks_of r
  end.

(* every token is clean and followed by at least one blank or the end of the line *)
Fixpoint sep_ok (ps : list piece) : bool :=
  match ps with
  | [] => true
  | Sp _ :: r => sep_ok r
  | Tk t :: r =>
      tok_clean t && match r with [] => true | Sp (S _) :: _ => true | _ => false end && sep_ok r
  end.

Lemma render_app a b : render (a ++ b) = render a ++ render b.
Proof.
  induction a as [|[n|t] a IH]; cbn [app render]; [reflexivity| |]; rewrite IH, app_assoc; reflexivity.
Qed.

Lemma toks_of_app a b : toks_of (a ++ b) = toks_of a ++ toks_of b.
Proof. induction a as [|[n|t] a IH]; cbn [app toks_of]; [reflexivity|exact IH|]. rewrite IH. reflexivity. Qed.

(* rdata tokens joined by single blanks *)
Fixpoint interleave (ts : list tok) : list piece :=
  match ts with
  | [] => []
  | [t] => [Tk t]
  | t :: r => Tk t :: Sp 1 :: interleave r
  end.

Lemma render_interleave ts : render (interleave ts) = join_sp (map render_tok ts).
Proof.
  induction ts as [|t ts IH]; [reflexivity|].
  destruct ts as [|t' ts']; [cbn; rewrite app_nil_r; reflexivity|].
  cbn [interleave render map join_sp] in *. rewrite IH. reflexivity.
Qed.

Lemma toks_interleave ts : toks_of (interleave ts) = ts.
Proof.
  induction ts as [|t ts IH]; [reflexivity|].
  destruct ts as [|t' ts']; [reflexivity|]. cbn [interleave toks_of] in *. rewrite IH. reflexivity.
Qed.

Lemma sep_interleave ts : forallb tok_clean ts = true -> sep_ok (interleave ts) = true.
Proof.
  induction ts as [|t ts IH]; [reflexivity|].
  cbn [forallb]. intros H. apply andb_true_iff in H as [Ht Hr].
  destruct ts as [|t' ts']; [cbn; rewrite Ht; reflexivity|].
  cbn [interleave sep_ok] in *. rewrite Ht. cbn [andb]. apply IH. exact Hr.
Qed.

Lemma starts_ws_any l r1 r2 : starts_ws (l ++ 10 :: r1) = starts_ws (l ++ 10 :: r2).
Proof. destruct l; reflexivity. Qed.
