(* Set algebra of the dns.set.Set model (Model/SetM.v, section SetAlg), for an arbitrary element
   type whose == is an equivalence relation. *)
From Coq Require Import Permutation.
From DV Require Import Base.Prelude Model.SetM Proofs.ListFacts.
Open Scope Z_scope.

Lemma filter_true {A} (l : list A) : filter (fun _ => true) l = l.
Proof. induction l; cbn; congruence. Qed.

Section SetAlgProofs.
  Variable A : Type.
  Variable eqb : A -> A -> bool.
  Hypothesis eqb_refl : forall x, eqb x x = true.
  Hypothesis eqb_sym : forall x y, eqb x y = eqb y x.
  Hypothesis eqb_trans : forall x y z, eqb x y = true -> eqb y z = true -> eqb x z = true.

  Notation mem := (mem eqb).
  Notation sadd := (sadd eqb).
  Notation sdel := (sdel eqb).

  (* no two members are equal *)
  Inductive NoDupE : list A -> Prop :=
  | ND_nil : NoDupE []
  | ND_cons : forall x s, mem x s = false -> NoDupE s -> NoDupE (x :: s).

  (* f does not distinguish equal elements *)
  Definition compat (f : A -> bool) : Prop := forall a b, eqb a b = true -> f a = f b.

  Lemma eqb_false_l x y z : eqb x y = true -> eqb x z = false -> eqb y z = false.
  Proof.
    intros H1 H2. destruct (eqb y z) eqn:E; [|reflexivity].
    rewrite (eqb_trans _ _ _ H1 E) in H2. discriminate.
  Qed.

  Lemma eqb_congr_r x y z : eqb x y = true -> eqb z x = eqb z y.
  Proof.
    intros H. destruct (eqb z x) eqn:E1, (eqb z y) eqn:E2; try reflexivity.
    - rewrite (eqb_trans _ _ _ E1 H) in E2. discriminate.
    - rewrite eqb_sym in H. rewrite (eqb_trans _ _ _ E2 H) in E1. discriminate.
  Qed.

  Lemma mem_true_iff x s : mem x s = true <-> exists k, In k s /\ eqb k x = true.
  Proof. unfold SetM.mem. rewrite existsb_exists. reflexivity. Qed.

  Lemma mem_false_iff x s : mem x s = false <-> forall k, In k s -> eqb k x = false.
  Proof.
    split.
    - intros H k Hk. destruct (eqb k x) eqn:E; [|reflexivity].
      assert (mem x s = true) by (apply mem_true_iff; eauto). congruence.
    - intros H. destruct (mem x s) eqn:E; [|reflexivity].
      apply mem_true_iff in E as (k & Hk & E). rewrite (H k Hk) in E. discriminate.
  Qed.

  Lemma mem_congr x y s : eqb x y = true -> mem x s = mem y s.
  Proof.
    intros H. unfold SetM.mem. induction s as [|k r IH]; cbn; [reflexivity|].
    rewrite IH, (eqb_congr_r _ _ k H). reflexivity.
  Qed.

  Lemma mem_compat s : compat (fun x => mem x s).
  Proof. intros a b H. apply mem_congr, H. Qed.

  Lemma mem_app x s t : mem x (s ++ t) = mem x s || mem x t.
  Proof. unfold SetM.mem. apply existsb_app. Qed.

  Lemma mem_cons x k s : mem x (k :: s) = eqb k x || mem x s.
  Proof. reflexivity. Qed.

  Lemma mem_In x s : In x s -> mem x s = true.
  Proof. intros H. apply mem_true_iff. exists x. auto. Qed.

  Lemma mem_sadd x y s : mem x (sadd y s) = mem x s || eqb y x.
  Proof.
    unfold SetM.sadd. destruct (mem y s) eqn:E.
    - destruct (eqb y x) eqn:E2; [|rewrite orb_false_r; reflexivity].
      rewrite <- (mem_congr _ _ s E2), E. reflexivity.
    - rewrite mem_app. cbn. rewrite orb_false_r. reflexivity.
  Qed.

  Lemma nodup_snoc s x : NoDupE s -> mem x s = false -> NoDupE (s ++ [x]).
  Proof.
    induction 1 as [|k r Hk Hr IH]; intros Hx; cbn.
    - constructor; [reflexivity|constructor].
    - rewrite mem_cons in Hx. apply orb_false_iff in Hx as [Hkx Hxr].
      constructor; [|apply IH, Hxr].
      rewrite mem_app, Hk. cbn. rewrite eqb_sym, Hkx. reflexivity.
  Qed.

  Lemma nodup_sadd x s : NoDupE s -> NoDupE (sadd x s).
  Proof.
    intros H. unfold SetM.sadd. destruct (mem x s) eqn:E; [exact H|apply nodup_snoc; assumption].
  Qed.

  Lemma mem_filter f x s : compat f -> mem x (filter f s) = mem x s && f x.
  Proof.
    intros Hf. induction s as [|k r IH]; [reflexivity|]. cbn [filter].
    destruct (f k) eqn:Fk; rewrite !mem_cons, ?IH;
      (destruct (eqb k x) eqn:E; cbn; [|reflexivity]);
      rewrite <- (Hf _ _ E), Fk, ?andb_false_r; reflexivity.
  Qed.

  Lemma mem_filter_false f x s : mem x s = false -> mem x (filter f s) = false.
  Proof.
    rewrite !mem_false_iff. intros H k Hk. apply filter_In in Hk as [Hk _]. auto.
  Qed.

  Lemma nodup_filter f s : NoDupE s -> NoDupE (filter f s).
  Proof.
    induction 1 as [|k r Hk Hr IH]; cbn; [constructor|].
    destruct (f k); [constructor; [apply mem_filter_false, Hk|exact IH]|exact IH].
  Qed.

  Lemma nodup_app_l s t : NoDupE (s ++ t) -> NoDupE s.
  Proof.
    induction s as [|k r IH]; cbn; intros H; [constructor|].
    inversion H as [|? ? Hk Hr]; subst. constructor; [|apply IH, Hr].
    rewrite mem_app in Hk. apply orb_false_iff in Hk. tauto.
  Qed.

  Lemma nodup_app s t :
    NoDupE s -> NoDupE t -> (forall x, In x t -> mem x s = false) -> NoDupE (s ++ t).
  Proof.
    intros Hs Ht. revert s Hs. induction Ht as [|x t Hx Ht IH]; intros s Hs H.
    - rewrite app_nil_r. exact Hs.
    - change (s ++ x :: t) with (s ++ [x] ++ t). rewrite app_assoc. apply IH.
      + apply nodup_snoc; [exact Hs|]. apply H. left. reflexivity.
      + intros y Hy. rewrite mem_app. rewrite (H y (or_intror Hy)). cbn.
        rewrite orb_false_r. rewrite mem_false_iff in Hx. rewrite eqb_sym. apply Hx, Hy.
  Qed.

  (* del self.items[x] on a duplicate-free key list removes every key equal to x *)
  Lemma sdel_filter x s : NoDupE s -> sdel x s = filter (fun k => negb (eqb k x)) s.
  Proof.
    induction 1 as [|k r Hk Hr IH]; [reflexivity|]. cbn.
    destruct (eqb k x) eqn:E; cbn; [|rewrite IH; reflexivity].
    rewrite (mem_congr _ _ r E) in Hk. rewrite mem_false_iff in Hk.
    rewrite <- (filter_true r) at 1. apply filter_ext_in.
    intros a Ha. rewrite (Hk a Ha). reflexivity.
  Qed.

  Lemma neq_compat x : compat (fun k => negb (eqb k x)).
  Proof.
    intros a b H. f_equal. rewrite !(eqb_sym _ x). apply eqb_congr_r, H.
  Qed.

  Lemma nodup_sdel x s : NoDupE s -> NoDupE (sdel x s).
  Proof. intros H. rewrite sdel_filter by exact H. apply nodup_filter, H. Qed.

  Lemma mem_sdel x y s : NoDupE s -> mem y (sdel x s) = mem y s && negb (eqb y x).
  Proof.
    intros H. rewrite sdel_filter by exact H. apply (mem_filter _ y s (neq_compat x)).
  Qed.

  (* without the duplicate-freeness: members not equal to x survive *)
  Lemma mem_sdel_other x y s : mem y s = true -> eqb x y = false -> mem y (sdel x s) = true.
  Proof.
    induction s as [|k r IH]; [discriminate|]. cbn [SetM.sdel]. rewrite mem_cons.
    intros H Hxy. destruct (eqb k x) eqn:E.
    - destruct (eqb k y) eqn:E2; [|exact H].
      rewrite eqb_sym in E. rewrite (eqb_trans _ _ _ E E2) in Hxy. discriminate.
    - rewrite mem_cons. destruct (eqb k y); [reflexivity|]. apply IH; assumption.
  Qed.

  Lemma length_sdel x s : mem x s = true -> S (length (sdel x s)) = length s.
  Proof.
    induction s as [|k r IH]; cbn; [discriminate|].
    destruct (eqb k x); [reflexivity|]. cbn. intros H. rewrite IH by exact H. reflexivity.
  Qed.

  Lemma nodup_supdate o s : NoDupE s -> NoDupE (supdate eqb s o).
  Proof.
    unfold SetM.supdate. revert s. induction o as [|x o IH]; intros s H; cbn; [exact H|].
    apply IH, nodup_sadd, H.
  Qed.

  Lemma mem_supdate x o s : mem x (supdate eqb s o) = mem x s || mem x o.
  Proof.
    unfold SetM.supdate. revert s. induction o as [|y o IH]; intros s; cbn [fold_left].
    - cbn. rewrite orb_false_r. reflexivity.
    - rewrite IH, mem_sadd, mem_cons. rewrite <- orb_assoc. reflexivity.
  Qed.

  (* first-insertion order of a merge *)
  Lemma supdate_order o s :
    NoDupE o -> supdate eqb s o = s ++ filter (fun x => negb (mem x s)) o.
  Proof.
    unfold SetM.supdate. intros Ho. revert s.
    induction Ho as [|x o Hx Ho IH]; intros s; cbn [fold_left filter].
    - rewrite app_nil_r. reflexivity.
    - rewrite IH. unfold SetM.sadd. destruct (mem x s) eqn:E; cbn [negb].
      + reflexivity.
      + rewrite <- app_assoc. cbn. f_equal. f_equal.
        apply filter_ext_in. intros y Hy. rewrite mem_app. cbn.
        rewrite mem_false_iff in Hx. rewrite eqb_sym, (Hx y Hy), !orb_false_r. reflexivity.
  Qed.

  Lemma inter_fold o l acc :
    NoDupE acc ->
    fold_left (fun acc x => if mem x o then acc else sdel x acc) l acc
    = filter (fun k => mem k o || negb (mem k l)) acc.
  Proof.
    revert acc. induction l as [|x l IH]; intros acc Hacc; cbn [fold_left].
    - rewrite <- (filter_true acc) at 1. apply filter_ext.
      intros a. cbn. rewrite orb_true_r. reflexivity.
    - destruct (mem x o) eqn:E.
      + rewrite IH by exact Hacc. apply filter_ext. intros k. rewrite mem_cons.
        destruct (eqb x k) eqn:E2; cbn; [|reflexivity].
        rewrite <- (mem_congr _ _ o E2), E. reflexivity.
      + rewrite IH by (apply nodup_sdel, Hacc). rewrite sdel_filter by exact Hacc.
        rewrite filter_filter. apply filter_ext. intros k. rewrite mem_cons.
        rewrite (eqb_sym k x).
        destruct (eqb x k) eqn:E2; cbn.
        * rewrite <- (mem_congr _ _ o E2), E, andb_false_r. reflexivity.
        * rewrite andb_true_r. reflexivity.
  Qed.

  Lemma sinter_order s o :
    NoDupE s -> sinter_update eqb s o false = filter (fun x => mem x o) s.
  Proof.
    intros H. unfold SetM.sinter_update. rewrite inter_fold by exact H.
    apply filter_ext_in. intros k Hk. rewrite (mem_In _ _ Hk). cbn. apply orb_false_r.
  Qed.

  Lemma sdiff_order s o :
    NoDupE s -> sdiff_update eqb s o false = filter (fun x => negb (mem x o)) s.
  Proof.
    unfold SetM.sdiff_update, SetM.sdiscard. revert s.
    induction o as [|x o IH]; intros s H; cbn [fold_left].
    - symmetry. apply filter_true.
    - rewrite IH by (apply nodup_sdel, H). rewrite sdel_filter by exact H.
      rewrite filter_filter. apply filter_ext. intros k.
      rewrite mem_cons, negb_orb, (eqb_sym x k). apply andb_comm.
  Qed.

  Lemma ssym_order s o :
    NoDupE s -> NoDupE o ->
    ssym_update eqb s o false
    = filter (fun x => negb (mem x o)) s ++ filter (fun x => negb (mem x s)) o.
  Proof.
    intros Hs Ho. unfold SetM.ssym_update, SetM.sclone, SetM.sunion_update.
    rewrite sinter_order by exact Hs. rewrite supdate_order by exact Ho.
    rewrite sdiff_order.
    2:{ rewrite <- supdate_order by exact Ho. apply nodup_supdate, Hs. }
    rewrite filter_app. f_equal.
    - apply filter_ext_in. intros k Hk.
      rewrite (mem_filter _ k s (mem_compat o)), (mem_In _ _ Hk). reflexivity.
    - rewrite filter_filter. apply filter_ext. intros k.
      rewrite (mem_filter _ k s (mem_compat o)).
      destruct (mem k s); cbn; [rewrite andb_false_r|]; reflexivity.
  Qed.

  Definition salg_g (a : alg) (s o : list A) (same : bool) : list A :=
    match a with
    | AUnion => sunion_update eqb s o same
    | AInter => sinter_update eqb s o same
    | ADiff => sdiff_update eqb s o same
    | ASym => ssym_update eqb s o same
    end.

  (* the set-theoretic connective of each algorithm *)
  Definition alg_bool (a : alg) (p q : bool) : bool :=
    match a with
    | AUnion => p || q
    | AInter => p && q
    | ADiff => p && negb q
    | ASym => xorb p q
    end.

  (* the first-insertion-order normal form of each algorithm *)
  Definition alg_order (a : alg) (s o : list A) : list A :=
    match a with
    | AUnion => s ++ filter (fun x => negb (mem x s)) o
    | AInter => filter (fun x => mem x o) s
    | ADiff => filter (fun x => negb (mem x o)) s
    | ASym => filter (fun x => negb (mem x o)) s ++ filter (fun x => negb (mem x s)) o
    end.

  Lemma salg_order a s o :
    NoDupE s -> NoDupE o -> salg_g a s o false = alg_order a s o.
  Proof.
    intros Hs Ho. destruct a; cbn.
    - apply supdate_order, Ho.
    - apply sinter_order, Hs.
    - apply sdiff_order, Hs.
    - apply ssym_order; assumption.
  Qed.

  (* `self is other`: the aliased in-place forms *)
  Lemma salg_same a s :
    salg_g a s s true = match a with AUnion | AInter => s | ADiff | ASym => [] end.
  Proof. destruct a; reflexivity. Qed.

  Lemma negb_mem_compat s : compat (fun x => negb (mem x s)).
  Proof. intros a b H. f_equal. apply mem_congr, H. Qed.

  Lemma mem_alg_order a s o x :
    mem x (alg_order a s o) = alg_bool a (mem x s) (mem x o).
  Proof.
    destruct a; cbn [alg_order alg_bool].
    - rewrite mem_app, (mem_filter _ x o (negb_mem_compat s)).
      destruct (mem x s), (mem x o); reflexivity.
    - apply (mem_filter _ x s (mem_compat o)).
    - apply (mem_filter _ x s (negb_mem_compat o)).
    - rewrite mem_app, (mem_filter _ x s (negb_mem_compat o)), (mem_filter _ x o (negb_mem_compat s)).
      destruct (mem x s), (mem x o); reflexivity.
  Qed.

  Lemma nodup_alg_order a s o : NoDupE s -> NoDupE o -> NoDupE (alg_order a s o).
  Proof.
    intros Hs Ho. destruct a; cbn [alg_order].
    - apply nodup_app; [exact Hs|apply nodup_filter, Ho|].
      intros x Hx. apply filter_In in Hx as [_ Hx]. apply negb_true_iff, Hx.
    - apply nodup_filter, Hs.
    - apply nodup_filter, Hs.
    - apply nodup_app; [apply nodup_filter, Hs|apply nodup_filter, Ho|].
      intros x Hx. apply filter_In in Hx as [_ Hx]. apply negb_true_iff in Hx.
      apply mem_filter_false, Hx.
  Qed.

  (* In-characterisation of union / intersection / difference / symmetric difference, in-place
     form with the aliasing flag: `same = true` is only ever passed with o = s *)
  Theorem salg_mem a s o same x :
    NoDupE s -> NoDupE o -> (same = true -> o = s) ->
    mem x (salg_g a s o same) = alg_bool a (mem x s) (mem x o).
  Proof.
    intros Hs Ho Hsame. destruct same.
    - rewrite (Hsame eq_refl), salg_same. destruct a; cbn; destruct (mem x s); reflexivity.
    - rewrite salg_order by assumption. apply mem_alg_order.
  Qed.

  Theorem salg_nodup a s o same :
    NoDupE s -> NoDupE o -> (same = true -> o = s) -> NoDupE (salg_g a s o same).
  Proof.
    intros Hs Ho Hsame. destruct same.
    - rewrite (Hsame eq_refl), salg_same. destruct a; first [exact Hs|constructor].
    - rewrite salg_order by assumption. apply nodup_alg_order; assumption.
  Qed.

  Definition subset (s o : list A) : Prop := forall x, mem x s = true -> mem x o = true.

  Theorem sissubset_spec s o : sissubset eqb s o = true <-> subset s o.
  Proof.
    unfold SetM.sissubset. rewrite forallb_forall. split.
    - intros H x Hx. apply mem_true_iff in Hx as (k & Hk & E).
      rewrite <- (mem_congr _ _ o E). apply H, Hk.
    - intros H x Hx. apply H, mem_In, Hx.
  Qed.

  Theorem sissuperset_spec s o : sissuperset eqb s o = true <-> subset o s.
  Proof. apply (sissubset_spec o s). Qed.

  Theorem sisdisjoint_spec s o :
    sisdisjoint eqb s o = true <-> forall x, mem x s = true -> mem x o = true -> False.
  Proof.
    unfold SetM.sisdisjoint. rewrite forallb_forall. split.
    - intros H x Hs Ho. apply mem_true_iff in Ho as (k & Hk & E).
      specialize (H k Hk). rewrite (mem_congr _ _ s E), Hs in H. discriminate.
    - intros H x Hx. destruct (mem x s) eqn:E; [|reflexivity].
      exfalso. apply (H x E), mem_In, Hx.
  Qed.

  Lemma mem_neq s x y : mem x s = false -> mem y s = true -> eqb x y = false.
  Proof.
    intros Hx Hy. destruct (eqb x y) eqn:E; [|reflexivity].
    rewrite (mem_congr _ _ s E), Hy in Hx. discriminate.
  Qed.

  Lemma subset_length s o : NoDupE s -> subset s o -> (length s <= length o)%nat.
  Proof.
    intros Hs. revert o. induction Hs as [|x s Hx Hs IH]; intros o H; cbn; [apply Nat.le_0_l|].
    assert (Hxo : mem x o = true) by (apply H; rewrite mem_cons, eqb_refl; reflexivity).
    rewrite <- (length_sdel x o Hxo).
    apply le_n_S, IH. intros y Hy.
    apply mem_sdel_other; [apply H; rewrite mem_cons, Hy; apply orb_true_r|].
    exact (mem_neq s x y Hx Hy).
  Qed.

  Lemma subset_full s o :
    NoDupE s -> subset s o -> length s = length o -> subset o s.
  Proof.
    intros Hs H Hlen y Hy. destruct (mem y s) eqn:E; [reflexivity|exfalso].
    assert (Hsub : subset s (sdel y o))
      by (intros x Hx; apply mem_sdel_other; [apply H, Hx|exact (mem_neq s y x E Hx)]).
    apply subset_length in Hsub; [|exact Hs].
    rewrite Hlen, <- (length_sdel y o Hy) in Hsub. exact (Nat.nle_succ_diag_l _ Hsub).
  Qed.

  Theorem seq_spec s o :
    NoDupE s -> NoDupE o -> (seq eqb s o = true <-> forall x, mem x s = mem x o).
  Proof.
    intros Hs Ho. unfold SetM.seq. rewrite andb_true_iff, Nat.eqb_eq.
    change (forallb (fun x => mem x o) s) with (sissubset eqb s o). rewrite sissubset_spec.
    split.
    - intros [Hlen Hsub] x. apply eq_true_iff_eq.
      split; [apply Hsub|apply (subset_full s o Hs Hsub Hlen)].
    - intros H. assert (S1 : subset s o) by (intros x Hx; rewrite <- H; exact Hx).
      assert (S2 : subset o s) by (intros x Hx; rewrite H; exact Hx).
      split; [|exact S1]. apply Nat.le_antisymm; apply subset_length; assumption.
  Qed.

  Lemma mem_perm s s' x : Permutation s s' -> mem x s = mem x s'.
  Proof.
    induction 1; try congruence.
    - rewrite !mem_cons. congruence.
    - rewrite !mem_cons. destruct (eqb y x), (eqb x0 x); reflexivity.
  Qed.

  Lemma nodup_sof_list l : NoDupE (sof_list eqb l).
  Proof. apply nodup_supdate. constructor. Qed.

  Lemma spop_snoc (s : list A) x s' : spop s = Ok (x, s') -> s = s' ++ [x].
  Proof.
    revert x s'. induction s as [|k r IH]; intros x s'; cbn; [discriminate|].
    destruct r as [|k2 r2].
    - intros H; inversion H; subst. reflexivity.
    - destruct (spop (k2 :: r2)) as [[y r']| |] eqn:E; try discriminate.
      intros H; inversion H; subst. cbn. f_equal. apply IH. reflexivity.
  Qed.

  Lemma nodup_spop (s : list A) x s' : NoDupE s -> spop s = Ok (x, s') -> NoDupE s'.
  Proof. intros H E. apply spop_snoc in E. subst. eapply nodup_app_l, H. Qed.

  Lemma nodup_fold_sdel l s : NoDupE s -> NoDupE (fold_left (fun acc x => sdel x acc) l s).
  Proof.
    revert s. induction l as [|x l IH]; intros s H; cbn; [exact H|]. apply IH, nodup_sdel, H.
  Qed.

  Definition R (x y : A) : Prop := eqb x y = true.

  Lemma eqb_congr2 k k' x x' : R k k' -> R x x' -> eqb k x = eqb k' x'.
  Proof.
    unfold R. intros H1 H2. rewrite (eqb_congr_r _ _ k H2).
    rewrite (eqb_sym k x'), (eqb_sym k' x'). apply eqb_congr_r, H1.
  Qed.

  Lemma mem_F2 s s' x x' : Forall2 R s s' -> R x x' -> mem x s = mem x' s'.
  Proof.
    intros H Hx. induction H as [|k k' s s' Hk Hs IH]; [reflexivity|].
    rewrite !mem_cons, IH, (eqb_congr2 _ _ _ _ Hk Hx). reflexivity.
  Qed.

  Lemma filter_F2 (f f' : A -> bool) s s' :
    Forall2 R s s' -> (forall a a', R a a' -> f a = f' a') ->
    Forall2 R (filter f s) (filter f' s').
  Proof.
    intros H Hf. induction H as [|k k' s s' Hk Hs IH]; cbn; [constructor|].
    rewrite (Hf _ _ Hk). destruct (f' k'); [constructor; assumption|assumption].
  Qed.

  Lemma nodup_F2 s s' : Forall2 R s s' -> NoDupE s -> NoDupE s'.
  Proof.
    intros H. induction H as [|k k' s s' Hk Hs IH]; intros Hn; [constructor|].
    inversion Hn as [|? ? Hm Hn']; subst. constructor; [|apply IH, Hn'].
    rewrite <- (mem_F2 s s' k k' Hs Hk). exact Hm.
  Qed.

  Lemma alg_order_F2 a s s' o o' :
    Forall2 R s s' -> Forall2 R o o' -> Forall2 R (alg_order a s o) (alg_order a s' o').
  Proof.
    intros Hs Ho.
    assert (Fo : forall x x', R x x' -> mem x o = mem x' o') by (intros; apply mem_F2; assumption).
    assert (Fs : forall x x', R x x' -> mem x s = mem x' s') by (intros; apply mem_F2; assumption).
    destruct a; cbn [alg_order].
    - apply Forall2_app; [exact Hs|]. apply filter_F2; [exact Ho|]. intros; f_equal; auto.
    - apply filter_F2; [exact Hs|auto].
    - apply filter_F2; [exact Hs|]. intros; f_equal; auto.
    - apply Forall2_app; apply filter_F2; try assumption; intros; f_equal; auto.
  Qed.

  (* replacing every member of the operands by an equal element (another spelling of the same
     record) changes the result only by the same replacement, position by position *)
  Theorem salg_value_semantics a s s' o o' :
    NoDupE s -> NoDupE o -> Forall2 R s s' -> Forall2 R o o' ->
    Forall2 R (salg_g a s o false) (salg_g a s' o' false).
  Proof.
    intros Hs Ho Rs Ro.
    rewrite !salg_order; try assumption; try (eapply nodup_F2; eassumption).
    apply alg_order_F2; assumption.
  Qed.
End SetAlgProofs.
