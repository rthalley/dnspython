(* C10: the spelling of owner names (relative / absolute / letter case, Name / str) and the zone
   configuration (zone class, relativize on/off) are irrelevant: histories that differ only in these give
   the same results for every call and zones that look the same. *)
From DV Require Import Base.Prelude Model.NameM Model.TxnM Proofs.ListFacts.
From DV Require Import Proofs.NameValid Proofs.NameOrder Proofs.NameRel.
From DV Require Import Proofs.TxnName Proofs.TxnStore Proofs.TxnLow Proofs.TxnSim Proofs.TxnThm.
Open Scope Z_scope.

Lemma Forall2_filter {A B} (Rl : A -> B -> Prop) p q l1 l2 :
  Forall2 Rl l1 l2 -> (forall x y, Rl x y -> p x = q y) -> Forall2 Rl (filter p l1) (filter q l2).
Proof.
  intros F H. induction F as [|x y l1 l2 Hxy F IH]; cbn; [constructor|].
  rewrite (H x y Hxy). destruct (q y); auto.
Qed.

Lemma Forall2_existsb {A B} (Rl : A -> B -> Prop) p q l1 l2 :
  Forall2 Rl l1 l2 -> (forall x y, Rl x y -> p x = q y) -> existsb p l1 = existsb q l2.
Proof.
  intros F H. induction F as [|x y l1 l2 Hxy F IH]; cbn; [reflexivity|].
  rewrite (H x y Hxy), IH. reflexivity.
Qed.

Lemma Forall2_find {A B} (Rl : A -> B -> Prop) p q l1 l2 :
  Forall2 Rl l1 l2 -> (forall x y, Rl x y -> p x = q y) ->
  match find p l1, find q l2 with
  | Some x, Some y => Rl x y
  | None, None => True
  | _, _ => False
  end.
Proof.
  intros F H. induction F as [|x y l1 l2 Hxy F IH]; cbn; [exact Logic.I|].
  rewrite (H x y Hxy). destruct (q y); auto.
Qed.

Lemma Forall2_compose {A B C} (R1 : A -> B -> Prop) (R2 : B -> C -> Prop) l1 l2 l3 :
  Forall2 R1 l1 l2 -> Forall2 R2 l2 l3 -> Forall2 (fun a c => exists b, R1 a b /\ R2 b c) l1 l3.
Proof.
  intros F. revert l3. induction F; intros l3 G; inversion G; subst; constructor; eauto.
Qed.

Lemma Forall2_flip {A B} (Rl : A -> B -> Prop) l1 l2 : Forall2 Rl l1 l2 -> Forall2 (fun b a => Rl a b) l2 l1.
Proof. induction 1; constructor; auto. Qed.

(* the reference store only sees owners *)
Definition ent_same (e1 e2 : entry) : Prop := ck (e_name e1) = ck (e_name e2) /\ e_rds e1 = e_rds e2.
Definition ent_rel (l1 l2 : list entry) : Prop := Forall2 ent_same l1 l2.
Definition rst_rel (s1 s2 : rstate) : Prop := ent_rel (rs_entries s1) (rs_entries s2) /\ rs_dirty s1 = rs_dirty s2.

Definition ci (a b : name) : Prop := ck a = ck b.

Section Irrel.
  Variable c1 c2 : cfg.
  Hypothesis W1 : wfc c1.
  Hypothesis W2 : wfc c2.
  Hypothesis Ho : c_origin c1 = c_origin c2.

  (* two spellings of the same owner: both within the DNS limits, and their absolute forms are the
     same name up to letter case (or both are rejected) *)
  Definition ES (n1 n2 : name) : Prop := Valid n1 /\ Valid n2 /\ res_rel ci (canon c1 n1) (canon c2 n2).

  Lemma at_name_same a1 a2 e1 e2 : ci a1 a2 -> ent_same e1 e2 -> at_name a1 e1 = at_name a2 e2.
  Proof. intros Ha [He _]. unfold at_name. apply name_eqb_ci; auto. Qed.

  Lemma at_key_same a1 a2 ty cov e1 e2 : ci a1 a2 -> ent_same e1 e2 -> at_key a1 ty cov e1 = at_key a2 ty cov e2.
  Proof. intros Ha He. unfold at_key. rewrite (at_name_same a1 a2 e1 e2 Ha He). destruct He as [_ ->]. reflexivity. Qed.

  Lemma entries_at_same a1 a2 l1 l2 : ci a1 a2 -> ent_rel l1 l2 -> entries_at a1 l1 = entries_at a2 l2.
  Proof.
    intros Ha F. unfold entries_at. induction F as [|e1 e2 l1 l2 He F IH]; cbn; [reflexivity|].
    rewrite (at_name_same a1 a2 e1 e2 Ha He). destruct (at_name a2 e2); cbn; [|exact IH].
    destruct He as [_ ->]. f_equal. exact IH.
  Qed.

  Ltac canon_cases n1 n2 He :=
    destruct He as (_ & _ & He);
    destruct (canon c1 n1) as [a1|e1|e1], (canon c2 n2) as [a2|e2|e2]; cbn in He |- *;
    try contradiction; try (subst; reflexivity).

  Lemma irr_get s1 s2 n1 n2 ty cov : rst_rel s1 s2 -> ES n1 n2 -> r_get c1 s1 n1 ty cov = r_get c2 s2 n2 ty cov.
  Proof.
    intros [F _] He. unfold r_get. canon_cases n1 n2 He.
    pose proof (Forall2_find ent_same (at_key a1 ty cov) (at_key a2 ty cov) _ _ F
                  (fun x y H => at_key_same a1 a2 ty cov x y He H)) as K.
    destruct (find _ (rs_entries s1)), (find _ (rs_entries s2)); try contradiction; auto.
    destruct K as [_ ->]. reflexivity.
  Qed.

  Lemma irr_put s1 s2 n1 n2 r : rst_rel s1 s2 -> ES n1 n2 -> res_rel rst_rel (r_put c1 s1 n1 r) (r_put c2 s2 n2 r).
  Proof.
    intros [F _] He. unfold r_put. canon_cases n1 n2 He.
    split; cbn; [|reflexivity]. apply Forall2_app.
    - apply Forall2_filter; [exact F|]. intros x y Hxy.
      rewrite (at_name_same a1 a2 x y He Hxy). unfold evicts. destruct Hxy as [_ ->]. reflexivity.
    - constructor; [|constructor]. split; cbn; auto.
  Qed.

  Lemma irr_del_name s1 s2 n1 n2 : rst_rel s1 s2 -> ES n1 n2 -> res_rel rst_rel (r_del_name c1 s1 n1) (r_del_name c2 s2 n2).
  Proof.
    intros [F D] He. unfold r_del_name. canon_cases n1 n2 He.
    rewrite (Forall2_existsb ent_same (at_name a1) (at_name a2) _ _ F (fun x y H => at_name_same a1 a2 x y He H)).
    destruct (existsb _ _); cbn; [|split; auto].
    split; cbn; [|reflexivity]. apply Forall2_filter; [exact F|]. intros x y Hxy.
    rewrite (at_name_same a1 a2 x y He Hxy). reflexivity.
  Qed.

  Lemma irr_del_rds s1 s2 n1 n2 ty cov :
    rst_rel s1 s2 -> ES n1 n2 -> res_rel rst_rel (r_del_rds c1 s1 n1 ty cov) (r_del_rds c2 s2 n2 ty cov).
  Proof.
    intros [F D] He. unfold r_del_rds. canon_cases n1 n2 He.
    split; cbn; [|reflexivity]. apply Forall2_filter; [exact F|]. intros x y Hxy.
    rewrite (at_key_same a1 a2 ty cov x y He Hxy). reflexivity.
  Qed.

  Lemma irr_exists s1 s2 n1 n2 : rst_rel s1 s2 -> ES n1 n2 -> r_exists c1 s1 n1 = r_exists c2 s2 n2.
  Proof.
    intros [F _] He. unfold r_exists. canon_cases n1 n2 He.
    rewrite (Forall2_existsb ent_same (at_name a1) (at_name a2) _ _ F (fun x y H => at_name_same a1 a2 x y He H)).
    reflexivity.
  Qed.

  Lemma irr_node s1 s2 n1 n2 : rst_rel s1 s2 -> ES n1 n2 -> r_node c1 s1 n1 = r_node c2 s2 n2.
  Proof.
    intros [F _] He. unfold r_node. canon_cases n1 n2 He.
    rewrite (entries_at_same a1 a2 _ _ He F). reflexivity.
  Qed.

  Lemma irr_origin n1 n2 : ES n1 n2 -> origin_ok c1 n1 = origin_ok c2 n2.
  Proof.
    intros (V1 & V2 & He). rewrite (origin_ok_canon c1 n1 W1 V1), (origin_ok_canon c2 n2 W2 V2).
    destruct (canon c1 n1), (canon c2 n2); cbn in He; try contradiction; auto.
    rewrite Ho. apply name_eqb_ci; [exact He|reflexivity].
  Qed.

  Lemma irr_empty : ES NameM.empty NameM.empty.
  Proof.
    split; [apply Valid_nil|split; [apply Valid_nil|]]. unfold canon. rewrite Ho. cbn.
    destruct (mk_name _); cbn; try reflexivity. destruct (_ =? _); reflexivity.
  Qed.

  (* the reference model: same results, same published content (owners up to letter case) *)
  Theorem spec_irrelevant h1 h2 l1 l2 :
    Forall2 (spec_rel ES) h1 h2 -> ent_rel l1 l2 ->
    Forall2 (ROut ent_rel) (spec_hist c1 h1 l1) (spec_hist c2 h2 l2).
  Proof.
    intros F HP. unfold spec_hist.
    apply (sim_run_hist (rstore c1) (rstore c2) c1 c2 ES rst_rel ent_rel false (fun _ => True) closed_True irr_empty irr_origin);
      auto using hist_ok_True; [|intros z1 z2 b H; cbn; destruct b; split; cbn; auto; constructor].
    split.
    - intros s1 s2 [H _]. exact H.
    - intros; apply irr_get; auto.
    - intros s1 s2 n ty cov r _ G. split; [exact (r_get_cls c2 _ _ _ _ _ G)|exact Logic.I].
    - intros; apply irr_put; auto.
    - intros; apply irr_del_name; auto.
    - intros; apply irr_del_rds; auto.
    - intros; apply irr_exists; auto.
    - intros; apply irr_node; auto.
    - intros s1 s2 [_ H]. exact H.
    - discriminate.
  Qed.

  (* spec_rel ES histories are valid on both sides *)
  Lemma ES_valid h1 h2 : Forall2 (spec_rel ES) h1 h2 -> Forall spec_valid h1 /\ Forall spec_valid h2.
  Proof.
    assert (forall a b, arg_rel ES a b -> arg_valid a /\ arg_valid b) as Ka
      by (intros a b H; destruct H; cbn; auto; destruct H as (? & ? & _); auto).
    assert (forall a b, Forall2 (arg_rel ES) a b -> Forall arg_valid a /\ Forall arg_valid b) as Kl
      by (induction 1 as [|x y a b Hxy _ [I1 I2]]; [auto|destruct (Ka x y Hxy); auto]).
    assert (forall o1 o2, op_rel ES o1 o2 -> op_valid o1 /\ op_valid o2) as Ko.
    { intros o1 o2 H. destruct H; cbn; auto; try discriminate. destruct a, b; cbn in *; auto; contradiction. }
    induction 1 as [|x y h1 h2 (_ & _ & _ & H) _ [I1 I2]]; [auto|].
    assert (spec_valid x /\ spec_valid y) as [Hx Hy]; [|auto].
    unfold spec_valid. induction H as [|o1 o2 l1 l2 Hoo _ [J1 J2]]; [auto|]. destruct (Ko o1 o2 Hoo). auto.
  Qed.

  (* two zones that denote the same content *)
  Definition same_zone (z1 z2 : nmap) : Prop := exists l1 l2, RP c1 z1 l1 /\ RP c2 z2 l2 /\ ent_rel l1 l2.

  (* The zone model: two histories that differ only in how owner names are spelled, run on zones of any
     class with relativize on or off, give the same result for every call and zones with the same content *)
  Theorem impl_irrelevant h1 h2 z1 z2 :
    Forall2 (spec_rel ES) h1 h2 -> same_zone z1 z2 ->
    Forall2 (fun x y => fst x = fst y /\ same_zone (snd x) (snd y)) (impl_hist c1 h1 z1) (impl_hist c2 h2 z2).
  Proof.
    intros F (l1 & l2 & P1 & P2 & HL).
    destruct (ES_valid h1 h2 F) as [V1 V2].
    pose proof (refines_hist c1 h1 z1 l1 W1 V1 P1) as R1.
    pose proof (refines_hist c2 h2 z2 l2 W2 V2 P2) as R2.
    pose proof (spec_irrelevant h1 h2 l1 l2 F HL) as R3.
    pose proof (Forall2_compose _ _ _ _ _ (Forall2_compose _ _ _ _ _ R1 R3) (Forall2_flip _ _ _ R2)) as K.
    eapply Forall2_impl; [|exact K]. intros x y (b2 & (b1 & [A1 A2] & [B1 B2]) & [C1 C2]).
    split; [congruence|]. exists (snd b1), (snd b2). auto.
  Qed.

  (* ... and "same content" is what an observer of Zone.get_node sees, under either spelling *)
  Theorem same_zone_observe z1 z2 n1 n2 :
    same_zone z1 z2 -> ES n1 n2 -> zone_get_node c1 z1 n1 = zone_get_node c2 z2 n2.
  Proof.
    intros (l1 & l2 & P1 & P2 & HL) He. pose proof He as (V1 & V2 & Hc).
    rewrite (RP_observe c1 z1 l1 n1 W1 V1 P1), (RP_observe c2 z2 l2 n2 W2 V2 P2). unfold ref_node.
    destruct (canon c1 n1), (canon c2 n2); cbn in Hc; try contradiction; auto.
    rewrite (entries_at_same _ _ _ _ Hc HL). reflexivity.
  Qed.
End Irrel.

(* the two spellings the property text names: a relative name and the same name made absolute *)
Lemma ES_rel_abs c r :
  wfc c -> Valid r -> is_absolute r = false -> Valid (r ++ c_origin c) -> ES c c r (r ++ c_origin c).
Proof.
  intros W Vr Ar V. split; [exact Vr|split; [exact V|]].
  assert (canon c r = Ok (r ++ c_origin c)) as E1.
  { unfold canon. rewrite Ar, (mk_name_valid _ V). reflexivity. }
  rewrite E1, (canon_idem c r _ W Vr E1). reflexivity.
Qed.

Lemma ES_refl c n : Valid n -> ES c c n n.
Proof.
  intros V. split; [exact V|split; [exact V|]]. destruct (canon c n); cbn; reflexivity.
Qed.

(* spellings that differ in letter case only denote the same owner, in every zone *)
Lemma ES_ci c n n' : Valid n -> Valid n' -> ci n n' -> ES c c n n'.
Proof.
  intros V V' Hc. split; [exact V|split; [exact V'|]].
  pose proof (ci_equal_absolute n n' Hc) as A. unfold canon. rewrite <- A. destruct (is_absolute n).
  - rewrite (is_subdomain_ci n n' _ Hc).
    destruct (is_subdomain n' (c_origin c)); cbn; [exact Hc|reflexivity].
  - assert (ci_equal (n ++ c_origin c) (n' ++ c_origin c)) as Hci by (apply ci_equal_app; [exact Hc|reflexivity]).
    unfold mk_name. rewrite (validate_labels_ci _ _ Hci).
    destruct (validate_labels (n' ++ c_origin c)) as [[]|e|e]; cbn; [exact Hci| |reflexivity].
    destruct (e =? eNameTooLong); reflexivity.
Qed.

(* letter case of an absolute in-zone name *)
Lemma ES_case c n n' :
  wfc c -> Valid n -> Valid n' -> ci n n' -> is_absolute n = true -> ES c c n n'.
Proof. intros _ V V' Hc _. apply ES_ci; assumption. Qed.

(* letter case of a relative name *)
Lemma ES_case_rel c r r' :
  wfc c -> Valid r -> Valid r' -> ci r r' -> is_absolute r = false -> ES c c r r'.
Proof. intros _ V V' Hc _. apply ES_ci; assumption. Qed.
