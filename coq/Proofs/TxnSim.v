(* C10: the high-level transaction code (dns.transaction.Transaction) preserves any simulation between
   two low-level stores (`store_sim`): equal results for every call, related private and published states.
   Generic in the two stores, in the two zone configurations, in a relation E between the owner names given
   on the two sides and in a predicate QR on the rdatasets handed over.  Instances:
     zone version model vs reference store, same names (TxnThm.v; with checks installed TxnHook.v, with the
       iterate calls TxnCount.v); node-object model and B-tree model vs zone version model (TxnHeap.v, TxnBtree.v);
     reference store vs itself, names spelled differently / other zone configuration (TxnIrrel.v);
     any store vs itself, related = equal and satisfying an invariant (section Inv below; TxnAbs.v, TxnItems.v).
   The driver loops are treated once for any "one call" function, which also serves the rdataset-object
   model (TxnObj.v, TxnObjR.v). *)
From DV Require Import Base.Prelude Model.NameM Model.TxnM.
From DV Require Import Proofs.NameValid Proofs.TxnName Proofs.TxnStore.
Open Scope Z_scope.

#[local] Hint Constructors Forall2 : core.

(* ---------------------------------------------------------------- the drivers
   run_manual / run_with / run_hist of the store front end and o_run_manual / o_run_with / obj_hist of the
   rdataset-object model are the same three loops (caller-driven, with-block, history) around `step st c` and
   `o_step c`; what is proved of the loops below is proved for any "one call" function. *)
Section Run.
  Context {P T : Type}.
  Variable stp : op -> P -> T -> res (out * P * T).    (* one call *)
  Variable ext : bool -> P -> T -> P.                  (* __exit__ *)
  Variable opn : Z -> P -> T.                          (* writer() / reader() *)

  Fixpoint g_manual (ops : list op) (z : P) (t : T) : list (res out) * P :=
    match ops with
    | [] => ([], ext false z t)
    | o :: r =>
        match stp o z t with
        | Ok (x, z', t') => let '(outs, zf) := g_manual r z' t' in (Ok x :: outs, zf)
        | Lib e => let '(outs, zf) := g_manual r z t in (Lib e :: outs, zf)
        | Internal e => let '(outs, zf) := g_manual r z t in (Internal e :: outs, zf)
        end
    end.

  Fixpoint g_with (ops : list op) (fault : option nat) (z : P) (t : T) : list (res out) * P :=
    match fault with
    | Some O => ([Lib eInjected], ext false z t)
    | _ =>
        match ops with
        | [] => match fault with
                | Some _ => ([Lib eInjected], ext false z t)
                | None => ([], ext true z t)
                end
        | o :: r =>
            match stp o z t with
            | Ok (x, z', t') =>
                let '(outs, zf) := g_with r (match fault with Some (Datatypes.S k) => Some k | _ => None end) z' t' in
                (Ok x :: outs, zf)
            | Lib e => ([Lib e], ext false z t)
            | Internal e => ([Internal e], ext false z t)
            end
        end
    end.

  (* the state after the calls, when none of them raised *)
  Fixpoint g_final (ops : list op) (z : P) (t : T) : option T :=
    match ops with
    | [] => Some t
    | o :: r => match stp o z t with
                | Ok (_, z', t') => g_final r z' t'
                | _ => None
                end
    end.

  (* what every successful call preserves holds of the final state *)
  Lemma g_final_inv (IT : T -> Prop) ops :
    (forall o z t x z' t', In o ops -> IT t -> stp o z t = Ok (x, z', t') -> IT t') ->
    forall z t t', IT t -> g_final ops z t = Some t' -> IT t'.
  Proof.
    induction ops as [|o ops IH]; intros Hs z t t' Ht; cbn [g_final]; [intros [= <-]; exact Ht|].
    destruct (stp o z t) as [[[x z1] t1]| |] eqn:Es; try discriminate.
    apply IH; [intros; eapply Hs; eauto; right; assumption|]. eapply Hs; eauto. left. reflexivity.
  Qed.

  Definition g_txn (x : txnspec) (z : P) : list (res out) * P :=
    if x_style x =? 1 then g_with (x_ops x) (x_fault x) z (opn (x_mode x) z)
    else g_manual (x_ops x) z (opn (x_mode x) z).

  Fixpoint g_hist (h : list txnspec) (z : P) : list (list (res out) * P) :=
    match h with
    | [] => []
    | x :: r => let '(outs, z') := g_txn x z in (outs, z') :: g_hist r z'
    end.
End Run.

Lemma g_cons_snd {P} r (x : list (res out) * P) : snd (let '(outs, zf) := x in (r :: outs, zf)) = snd x.
Proof. destruct x; reflexivity. Qed.

Lemma g_cons_fst {P} r (x : list (res out) * P) : fst (let '(outs, zf) := x in (r :: outs, zf)) = r :: fst x.
Proof. destruct x; reflexivity. Qed.

Lemma run_manual_g {P S} (st : store P S) c : run_manual st c = g_manual (step st c) (hl_exit st).
Proof. reflexivity. Qed.
Lemma run_with_g {P S} (st : store P S) c : run_with st c = g_with (step st c) (hl_exit st).
Proof. reflexivity. Qed.
Lemma run_hist_g {P S} (st : store P S) c : run_hist st c = g_hist (step st c) (hl_exit st) (open_txn st).
Proof. reflexivity. Qed.
Lemma o_run_manual_g c ops : forall z t, o_run_manual c ops z t = g_manual (o_step c) (o_exit c) ops z t.
Proof.
  induction ops as [|o ops IH]; intros z t; cbn [o_run_manual g_manual]; [reflexivity|].
  destruct (o_step c o z t) as [[[x z'] t']| |]; rewrite IH; reflexivity.
Qed.

Lemma o_run_with_g c ops : forall fault z t, o_run_with c ops fault z t = g_with (o_step c) (o_exit c) ops fault z t.
Proof.
  induction ops as [|o ops IH]; intros [[|k]|] z t; cbn [o_run_with g_with]; try reflexivity;
    destruct (o_step c o z t) as [[[x z'] t']| |]; rewrite ?IH; reflexivity.
Qed.

Lemma obj_hist_g c h : forall z, obj_hist c h z = g_hist (o_step c) (o_exit c) o_open h z.
Proof.
  induction h as [|x h IH]; intros z; cbn [obj_hist g_hist]; [reflexivity|].
  unfold o_run_txn, g_txn. rewrite o_run_with_g, o_run_manual_g.
  destruct (if x_style x =? 1 then _ else _) as [outs z']. rewrite IH. reflexivity.
Qed.

Section Rel.
  Variable it : bool.   (* are the iterate calls (OIter) part of the relation? *)
  Variable E : name -> name -> Prop.

  Inductive arg_rel : arg -> arg -> Prop :=
  | AR_name n1 n2 : E n1 n2 -> arg_rel (AName n1) (AName n2)
  | AR_str n1 n2 : E n1 n2 -> arg_rel (AStr n1) (AStr n2)
  | AR_rrset n1 n2 r : E n1 n2 -> arg_rel (ARRset n1 r) (ARRset n2 r)
  | AR_rds r : arg_rel (ARds r) (ARds r)
  | AR_int z : arg_rel (AInt z) (AInt z)
  | AR_rdata ty body aux cls : arg_rel (ARdata ty body aux cls) (ARdata ty body aux cls)
  | AR_tystr ty : arg_rel (ATyStr ty) (ATyStr ty)
  | AR_none : arg_rel ANone ANone.

  Definition oarg_rel (a b : option arg) : Prop :=
    match a, b with
    | Some x, Some y => arg_rel x y
    | None, None => True
    | _, _ => False
    end.

  (* OIter (counting names / rdatasets of the private state) is related only when `it` is set: it needs
     a store relation strong enough to count (Proofs/TxnCount.v) *)
  Inductive op_rel_it : op -> op -> Prop :=
  | OR_add a b : Forall2 arg_rel a b -> op_rel_it (OAdd a) (OAdd b)
  | OR_replace a b : Forall2 arg_rel a b -> op_rel_it (OReplace a) (OReplace b)
  | OR_delete a b : Forall2 arg_rel a b -> op_rel_it (ODelete a) (ODelete b)
  | OR_delete_exact a b : Forall2 arg_rel a b -> op_rel_it (ODeleteExact a) (ODeleteExact b)
  | OR_serial v r a b : oarg_rel a b -> op_rel_it (OSerial v r a) (OSerial v r b)
  | OR_get a b ty cov : arg_rel a b -> op_rel_it (OGet a ty cov) (OGet b ty cov)
  | OR_exists a b : arg_rel a b -> op_rel_it (OExists a) (OExists b)
  | OR_changed : op_rel_it OChanged OChanged
  | OR_getnode a b : arg_rel a b -> op_rel_it (OGetNode a) (OGetNode b)
  | OR_commit : op_rel_it OCommit OCommit
  | OR_rollback : op_rel_it ORollback ORollback
  | OR_iter : it = true -> op_rel_it OIter OIter.

  Definition spec_rel_it (x y : txnspec) : Prop :=
    x_mode x = x_mode y /\ x_style x = x_style y /\ x_fault x = x_fault y /\ Forall2 op_rel_it (x_ops x) (x_ops y).

  Definition parsed_rel (x y : option rds * list arg) : Prop := fst x = fst y /\ Forall2 arg_rel (snd x) (snd y).

  Lemma rdataset_from_args_rel d a b :
    Forall2 arg_rel a b -> res_rel parsed_rel (rdataset_from_args d a) (rdataset_from_args d b).
  Proof.
    intros F. destruct F as [|x y a b Hxy F]; [destruct d; cbn; [split; cbn; auto|reflexivity]|].
    assert (forall t a1 b1 r1 r2, arg_rel a1 b1 -> Forall2 arg_rel r1 r2 ->
              res_rel parsed_rel
                (match a1 with
                 | ARdata ty body aux cls => Ok (Some (from_rdata t ty body aux cls), r1)
                 | _ => Lib eTypeError
                 end)
                (match b1 with
                 | ARdata ty body aux cls => Ok (Some (from_rdata t ty body aux cls), r2)
                 | _ => Lib eTypeError
                 end)) as K.
    { intros t a1 b1 r1 r2 H1 H2. destruct H1; cbn; auto. split; cbn; auto. }
    destruct Hxy; cbn [rdataset_from_args];
      try (destruct d; cbn; try reflexivity; split; cbn; auto; fail).
    - destruct (to_rdataset r); cbn; auto. split; cbn; auto.
    - destruct d; [cbn; reflexivity|]. cbn [bind].
      destruct (z >? MAX_TTL); [reflexivity|].
      destruct F as [|x2 y2 a2 b2 H2 F2]; [reflexivity|]. cbn [bind]. apply K; auto.
  Qed.

  Definition added_rel (x y : name * rds * list arg) : Prop :=
    E (fst (fst x)) (fst (fst y)) /\ snd (fst x) = snd (fst y) /\ Forall2 arg_rel (snd x) (snd y).

  Lemma add_parse_rel a b r1 r2 :
    arg_rel a b -> Forall2 arg_rel r1 r2 -> res_rel added_rel (add_parse a r1) (add_parse b r2).
  Proof.
    intros H F. unfold add_parse.
    assert (forall n1 n2, E n1 n2 ->
              res_rel added_rel
                (do y <- rdataset_from_args false r1;
                 match fst y with Some r => Ok (n1, r, snd y) | None => Internal eAssertion end)
                (do y <- rdataset_from_args false r2;
                 match fst y with Some r => Ok (n2, r, snd y) | None => Internal eAssertion end)) as K.
    { intros n1 n2 He. pose proof (rdataset_from_args_rel false r1 r2 F) as P.
      destruct (rdataset_from_args false r1) as [[o1 l1]| |], (rdataset_from_args false r2) as [[o2 l2]| |];
        cbn in P |- *; try contradiction; auto.
      destruct P as [P1 P2]. cbn in P1, P2. subst o2. destruct o1; cbn; [|reflexivity].
      unfold added_rel. cbn. auto. }
    destruct H; cbn; auto.
    destruct (to_rdataset r); cbn; auto. unfold added_rel. cbn. auto.
  Qed.
End Rel.

Notation op_rel := (op_rel_it false).
Notation spec_rel := (spec_rel_it false).

(* ---------------------------------------------------------------- a property of the rdatasets handed over
   A predicate that holds of what the caller passes and is kept by the record-set algebra of the front end
   (merge on add, difference on delete, the rdatasets built from rdatas and RRsets, the SOA of update_serial)
   holds of everything the front end hands to _put_rdataset. *)
Record rds_closed (Q : rds -> Prop) : Prop := {
  q_union : forall e r, Q e -> Q r -> Q (rds_union e r);
  q_difference : forall e r, Q e -> Q (rds_difference e r);
  q_from_rdata : forall ttl ty body aux cls, Q (from_rdata ttl ty body aux cls);
  q_to_rdataset : forall r r', Q r -> to_rdataset r = Ok r' -> Q r';
  q_soa : forall ttl body ser, Q (mkRds cIN tSOA 0 ttl [(body, ser)])
}.

Lemma closed_True : rds_closed (fun _ => True).
Proof. split; auto. Qed.

Section Closed.
  Variable Q : rds -> Prop.
  Hypothesis QC : rds_closed Q.

  Definition arg_ok (a : arg) : Prop := match a with ARds r | ARRset _ r => Q r | _ => True end.

  Definition op_ok (o : op) : Prop :=
    match o with
    | OAdd a | OReplace a | ODelete a | ODeleteExact a => Forall arg_ok a
    | _ => True
    end.

  Lemma rdataset_from_args_ok d args o rest :
    Forall arg_ok args -> rdataset_from_args d args = Ok (o, rest) ->
    match o with Some r => Q r | None => True end /\ Forall arg_ok rest.
  Proof.
    intros F. unfold rdataset_from_args.
    destruct args as [|a args]; [destruct d; intros [= <- <-]; auto|].
    inversion F as [|? ? Fa Fr]; subst.
    assert (forall (x : res (Z * arg * list arg)),
              (forall t a1 r1, x = Ok (t, a1, r1) -> Forall arg_ok r1) ->
              (do x0 <- x; let '(ttl, a1, rest1) := x0 in
               match a1 with
               | ARdata ty body aux cls => Ok (Some (from_rdata ttl ty body aux cls), rest1)
               | _ => Lib eTypeError
               end) = Ok (o, rest) ->
              match o with Some r => Q r | None => True end /\ Forall arg_ok rest) as K.
    { intros x Hx. destruct x as [[[t a1] r1]| |]; cbn [bind]; try discriminate.
      destruct a1; try discriminate. intros [= <- <-]. split; [apply (q_from_rdata Q QC)|eapply Hx; eauto]. }
    destruct a; try (apply K; destruct d; [intros ? ? ? [= <- <- <-]; auto|try (intros ? ? ? H; discriminate H)]).
    - intros [= <- <-]; auto.
    - destruct (to_rdataset r) eqn:T; cbn [bind]; intros [= <- <-]. split; [eapply (q_to_rdataset Q QC); eauto|auto].
    - destruct (z >? MAX_TTL); [intros ? ? ? H; discriminate H|].
      destruct args as [|a2 r2]; intros ? ? ? [= <- <- <-]. inversion Fr; auto.
  Qed.

  Lemma add_parse_ok a rest n r rest1 : Forall arg_ok (a :: rest) -> add_parse a rest = Ok (n, r, rest1) -> Q r.
  Proof.
    intros F. inversion F as [|? ? Fa Fr]; subst. unfold add_parse.
    destruct a; try discriminate.
    1,2: destruct (rdataset_from_args false rest) as [[o r1]| |] eqn:E; cbn [bind fst snd]; try discriminate;
         destruct o; intros [= <- <- <-]; apply (rdataset_from_args_ok false rest _ _ Fr E).
    - destruct (to_rdataset r0) eqn:T; cbn [bind]; intros [= <- <- <-]. eapply (q_to_rdataset Q QC); eauto.
  Qed.
End Closed.

Lemma op_ok_True o : op_ok (fun _ => True) o.
Proof. destruct o; cbn; auto; apply Forall_forall; intros [] _; exact Logic.I. Qed.

Lemma hist_ok_True h : Forall (fun x => Forall (op_ok (fun _ => True)) (x_ops x)) h.
Proof. apply Forall_forall. intros x _. apply Forall_forall. intros o _. apply op_ok_True. Qed.

Section RunSim.
  Context {P1 T1 P2 T2 : Type}.
  Variable stp1 : op -> P1 -> T1 -> res (out * P1 * T1).
  Variable ext1 : bool -> P1 -> T1 -> P1.
  Variable opn1 : Z -> P1 -> T1.
  Variable stp2 : op -> P2 -> T2 -> res (out * P2 * T2).
  Variable ext2 : bool -> P2 -> T2 -> P2.
  Variable opn2 : Z -> P2 -> T2.
  Variable OR : op -> op -> Prop.
  Variable RP : P1 -> P2 -> Prop.
  Variable RT : T1 -> T2 -> Prop.

  Definition RStep (x : out * P1 * T1) (y : out * P2 * T2) : Prop :=
    fst (fst x) = fst (fst y) /\ RP (snd (fst x)) (snd (fst y)) /\ RT (snd x) (snd y).

  Definition ROut (x : list (res out) * P1) (y : list (res out) * P2) : Prop :=
    fst x = fst y /\ RP (snd x) (snd y).

  (* a call that returns None and leaves the published state / that ends the transaction *)
  Lemma RStep_txn (x : res T1) (y : res T2) z1 z2 :
    RP z1 z2 -> res_rel RT x y -> res_rel RStep (do t' <- x; Ok (RNone, z1, t')) (do t' <- y; Ok (RNone, z2, t')).
  Proof. intros HP H. destruct x, y; cbn in *; try contradiction; auto. split; cbn; auto. Qed.

  Lemma RStep_end (x : res (P1 * T1)) (y : res (P2 * T2)) :
    res_rel (fun a b => RP (fst a) (fst b) /\ RT (snd a) (snd b)) x y ->
    res_rel RStep (do e <- x; Ok (RNone, fst e, snd e)) (do e <- y; Ok (RNone, fst e, snd e)).
  Proof. intros H. destruct x, y; cbn in *; try contradiction; auto. split; cbn; tauto. Qed.

  Hypothesis H_step : forall o1 o2 z1 z2 t1 t2, OR o1 o2 -> RP z1 z2 -> RT t1 t2 ->
                                                res_rel RStep (stp1 o1 z1 t1) (stp2 o2 z2 t2).
  Hypothesis H_exit : forall b z1 z2 t1 t2, RP z1 z2 -> RT t1 t2 -> RP (ext1 b z1 t1) (ext2 b z2 t2).
  Hypothesis H_open : forall m z1 z2, RP z1 z2 -> RT (opn1 m z1) (opn2 m z2).

  Lemma ROut_cons r x y :
    ROut x y -> ROut (let '(outs, zf) := x in (r :: outs, zf)) (let '(outs, zf) := y in (r :: outs, zf)).
  Proof. destruct x, y. intros [H1 H2]. cbn in H1. subst. split; [reflexivity|exact H2]. Qed.

  Lemma g_manual_sim ops1 ops2 : Forall2 OR ops1 ops2 -> forall z1 z2 t1 t2,
    RP z1 z2 -> RT t1 t2 -> ROut (g_manual stp1 ext1 ops1 z1 t1) (g_manual stp2 ext2 ops2 z2 t2).
  Proof.
    induction 1 as [|o1 o2 ops1 ops2 Fo Fr IH]; intros z1 z2 t1 t2 HP HT; cbn [g_manual].
    - split; [reflexivity|apply H_exit; auto].
    - pose proof (H_step o1 o2 z1 z2 t1 t2 Fo HP HT) as H.
      destruct (stp1 o1 z1 t1) as [[[x1 z1'] t1']|e1|e1], (stp2 o2 z2 t2) as [[[x2 z2'] t2']|e2|e2];
        cbn in H; try contradiction; [destruct H as (Hx & HP' & HT'); cbn in Hx|..]; subst; apply ROut_cons, IH; auto.
  Qed.

  Lemma g_with_sim ops1 ops2 : Forall2 OR ops1 ops2 -> forall fault z1 z2 t1 t2,
    RP z1 z2 -> RT t1 t2 -> ROut (g_with stp1 ext1 ops1 fault z1 t1) (g_with stp2 ext2 ops2 fault z2 t2).
  Proof.
    induction 1 as [|o1 o2 ops1 ops2 Fo Fr IH]; intros [[|k]|] z1 z2 t1 t2 HP HT; cbn [g_with];
      try (split; [reflexivity|apply H_exit; auto]).
    all: pose proof (H_step o1 o2 z1 z2 t1 t2 Fo HP HT) as H;
      destruct (stp1 o1 z1 t1) as [[[x1 z1'] t1']|e1|e1], (stp2 o2 z2 t2) as [[[x2 z2'] t2']|e2|e2];
      cbn in H; try contradiction; [destruct H as (Hx & HP' & HT'); cbn in Hx; subst; apply ROut_cons, IH; auto|..];
      subst; (split; [reflexivity|apply H_exit; auto]).
  Qed.

  Definition txn_rel (x y : txnspec) : Prop :=
    x_mode x = x_mode y /\ x_style x = x_style y /\ x_fault x = x_fault y /\ Forall2 OR (x_ops x) (x_ops y).

  Theorem g_hist_sim h1 h2 : Forall2 txn_rel h1 h2 -> forall z1 z2, RP z1 z2 ->
    Forall2 ROut (g_hist stp1 ext1 opn1 h1 z1) (g_hist stp2 ext2 opn2 h2 z2).
  Proof.
    induction 1 as [|x y h1 h2 (Hm & Hs & Hf & Ho) Fh IH]; intros z1 z2 HP; cbn [g_hist]; [constructor|].
    assert (ROut (g_txn stp1 ext1 opn1 x z1) (g_txn stp2 ext2 opn2 y z2)) as H.
    { unfold g_txn. rewrite Hm, Hs, Hf. destruct (x_style y =? 1); [apply g_with_sim|apply g_manual_sim]; auto. }
    destruct (g_txn stp1 ext1 opn1 x z1) as [o1 z1'], (g_txn stp2 ext2 opn2 y z2) as [o2 z2'].
    constructor; [exact H|]. apply IH. apply H.
  Qed.
End RunSim.

Lemma txn_rel_and (OR : op -> op -> Prop) (OK : op -> Prop) h1 h2 :
  Forall2 (txn_rel OR) h1 h2 -> Forall (fun x => Forall OK (x_ops x)) h1 ->
  Forall2 (txn_rel (fun o1 o2 => OR o1 o2 /\ OK o1)) h1 h2.
Proof.
  induction 1 as [|x y h1 h2 (Hm & Hs & Hf & Ho) _ IH]; intros F; inversion F as [|? ? Fx Fh]; subst; constructor; auto.
  repeat split; auto. clear -Ho Fx. induction Ho; inversion Fx; subst; constructor; auto.
Qed.

(* one list of operations run on both sides *)
Lemma txn_rel_diag (OK : op -> Prop) h :
  Forall (fun x => Forall OK (x_ops x)) h -> Forall2 (txn_rel (fun o1 o2 => o1 = o2 /\ OK o1)) h h.
Proof.
  apply txn_rel_and. induction h as [|x h IH]; constructor; [|exact IH]. repeat split. induction (x_ops x); constructor; auto.
Qed.

(* ---------------------------------------------------------------- simulation of one store by another
   what the abstract methods of Transaction must satisfy for two stores to be indistinguishable through the
   front end, once a transaction is open: names related by E give equal reads and writes that keep the
   private states related; writes are only asked for rdatasets of class IN satisfying QR, and what a read
   returns is such an rdataset *)
Record store_sim {P1 S1 P2 S2 : Type} (st1 : store P1 S1) (st2 : store P2 S2) (E : name -> name -> Prop)
       (RS : S1 -> S2 -> Prop) (RP : P1 -> P2 -> Prop) (it : bool) (QR : rds -> Prop) : Prop := {
  ss_publish : forall s1 s2, RS s1 s2 -> RP (s_publish st1 s1) (s_publish st2 s2);
  ss_get : forall s1 s2 n1 n2 ty cov, RS s1 s2 -> E n1 n2 -> s_get st1 s1 n1 ty cov = s_get st2 s2 n2 ty cov;
  ss_get_ok : forall s1 s2 n ty cov r, RS s1 s2 -> s_get st2 s2 n ty cov = Ok (Some r) -> r_cls r = cIN /\ QR r;
  ss_put : forall s1 s2 n1 n2 r, RS s1 s2 -> E n1 n2 -> r_cls r = cIN -> QR r ->
                                 res_rel RS (s_put st1 s1 n1 r) (s_put st2 s2 n2 r);
  ss_del_name : forall s1 s2 n1 n2, RS s1 s2 -> E n1 n2 -> res_rel RS (s_del_name st1 s1 n1) (s_del_name st2 s2 n2);
  ss_del_rds : forall s1 s2 n1 n2 ty cov, RS s1 s2 -> E n1 n2 ->
                                          res_rel RS (s_del_rds st1 s1 n1 ty cov) (s_del_rds st2 s2 n2 ty cov);
  ss_exists : forall s1 s2 n1 n2, RS s1 s2 -> E n1 n2 -> s_exists st1 s1 n1 = s_exists st2 s2 n2;
  ss_node : forall s1 s2 n1 n2, RS s1 s2 -> E n1 n2 -> s_node st1 s1 n1 = s_node st2 s2 n2;
  ss_changed : forall s1 s2, RS s1 s2 -> s_changed st1 s1 = s_changed st2 s2;
  (* the iterate calls count the private state: only relations strong enough to count relate them *)
  ss_count : it = true -> forall s1 s2, RS s1 s2 -> s_count st1 s1 = s_count st2 s2
}.
Arguments ss_publish {_ _ _ _ _ _ _ _ _ _ _}.
Arguments ss_get {_ _ _ _ _ _ _ _ _ _ _}. Arguments ss_get_ok {_ _ _ _ _ _ _ _ _ _ _}.
Arguments ss_put {_ _ _ _ _ _ _ _ _ _ _}. Arguments ss_del_name {_ _ _ _ _ _ _ _ _ _ _}.
Arguments ss_del_rds {_ _ _ _ _ _ _ _ _ _ _}. Arguments ss_exists {_ _ _ _ _ _ _ _ _ _ _}.
Arguments ss_node {_ _ _ _ _ _ _ _ _ _ _}. Arguments ss_changed {_ _ _ _ _ _ _ _ _ _ _}.
Arguments ss_count {_ _ _ _ _ _ _ _ _ _ _}.

Section Sim.
  Context {P1 S1 P2 S2 : Type}.
  Variable st1 : store P1 S1.
  Variable st2 : store P2 S2.
  Variable c1 c2 : cfg.
  Variable E : name -> name -> Prop.
  Variable RS : S1 -> S2 -> Prop.
  Variable RP : P1 -> P2 -> Prop.
  Variable it : bool.
  Variable QR : rds -> Prop.

  Hypothesis QC : rds_closed QR.
  Hypothesis H_empty : E NameM.empty NameM.empty.
  Hypothesis H_origin : forall n1 n2, E n1 n2 -> origin_ok c1 n1 = origin_ok c2 n2.
  Hypothesis SS : store_sim st1 st2 E RS RP it QR.
  Hypothesis H_begin : forall z1 z2 b, RP z1 z2 -> RS (s_begin st1 z1 b) (s_begin st2 z2 b).

  Notation arel := (arg_rel E).

  Lemma sim_add rep a b s1 s2 :
    RS s1 s2 -> Forall2 arel a b -> Forall (arg_ok QR) a ->
    res_rel RS (hl_add st1 c1 rep a s1) (hl_add st2 c2 rep b s2).
  Proof.
    intros HR F Fq. unfold hl_add. destruct F as [|x y a b Hxy F]; [reflexivity|].
    pose proof (add_parse_rel E x y a b Hxy F) as P.
    destruct (add_parse x a) as [[[n1 r1] l1]|e|e] eqn:Ep, (add_parse y b) as [[[n2 r2] l2]|e'|e'];
      cbn in P |- *; try contradiction; auto.
    destruct P as (He & Hr & Hl). cbn in He, Hr, Hl. subst r2.
    pose proof (add_parse_ok QR QC x a n1 r1 l1 Fq Ep) as Qr.
    destruct (r_cls r1 =? cIN) eqn:Ec; cbn [negb]; [|reflexivity]. apply Z.eqb_eq in Ec.
    rewrite (H_origin n1 n2 He).
    destruct ((r_ty r1 =? tSOA) && negb (origin_ok c2 n2)); [reflexivity|].
    destruct Hl; [|reflexivity].
    destruct rep; cbn [bind].
    - apply (ss_put SS); auto.
    - rewrite (ss_get SS s1 s2 n1 n2 (r_ty r1) (r_cov r1) HR He).
      destruct (s_get st2 s2 n2 (r_ty r1) (r_cov r1)) as [ex|e|e] eqn:G; cbn [bind]; try reflexivity.
      destruct ex as [e0|]; [|apply (ss_put SS); auto].
      destruct (ss_get_ok SS _ _ _ _ _ _ HR G) as [Gc Gq].
      apply (ss_put SS); auto; [rewrite rds_union_cls; exact Gc|apply (q_union QR QC); assumption].
  Qed.

  Lemma sim_delete_common exact n1 n2 ord r1 r2 s1 s2 :
    RS s1 s2 -> E n1 n2 -> Forall2 arel r1 r2 ->
    res_rel RS (hl_delete_common st1 exact n1 ord r1 s1) (hl_delete_common st2 exact n2 ord r2 s2).
  Proof.
    intros HR He F. unfold hl_delete_common. destruct F; [|reflexivity].
    assert (res_rel RS (if exact then do ex <- s_exists st1 s1 n1; if negb ex then Lib eDeleteNotExact else s_del_name st1 s1 n1
                        else s_del_name st1 s1 n1)
                       (if exact then do ex <- s_exists st2 s2 n2; if negb ex then Lib eDeleteNotExact else s_del_name st2 s2 n2
                        else s_del_name st2 s2 n2)) as Kname.
    { destruct exact; [|apply (ss_del_name SS); auto].
      rewrite (ss_exists SS s1 s2 n1 n2 HR He). destruct (s_exists st2 s2 n2) as [b|e|e]; cbn [bind]; try reflexivity.
      destruct b; cbn [negb]; [apply (ss_del_name SS); auto|reflexivity]. }
    destruct ord as [[cls ty cov ttl items]|]; [|exact Kname].
    destruct items as [|i items]; [exact Kname|].
    destruct (cls =? cIN); cbn [negb]; [|reflexivity].
    rewrite (ss_get SS s1 s2 n1 n2 ty cov HR He).
    destruct (s_get st2 s2 n2 ty cov) as [ex|e|e] eqn:G; cbn [bind]; try reflexivity.
    destruct ex as [e0|]; [|destruct exact; [reflexivity|exact HR]].
    destruct (exact && _); [reflexivity|].
    destruct (ss_get_ok SS _ _ _ _ _ _ HR G) as [Gc Gq].
    destruct (r_items (rds_difference e0 _)) eqn:D.
    - apply (ss_del_rds SS); auto.
    - apply (ss_put SS); auto. apply (q_difference QR QC). exact Gq.
  Qed.

  Lemma make_type_rel a b : arel a b -> make_type a = make_type b.
  Proof. intros H; destruct H; reflexivity. Qed.

  Lemma is_type_arg_rel a b : arel a b -> is_type_arg a = is_type_arg b.
  Proof. intros H; destruct H; reflexivity. Qed.

  Lemma sim_delete_bytype exact n1 n2 t1 t2 r1 r2 s1 s2 :
    RS s1 s2 -> E n1 n2 -> arel t1 t2 -> Forall2 arel r1 r2 ->
    res_rel RS (hl_delete_bytype st1 exact n1 t1 r1 s1) (hl_delete_bytype st2 exact n2 t2 r2 s2).
  Proof.
    intros HR He Ht F. unfold hl_delete_bytype. rewrite (make_type_rel t1 t2 Ht).
    destruct (make_type t2) as [ty|e|e]; cbn [bind]; try reflexivity.
    assert (forall cov,
              res_rel RS (do ex <- s_get st1 s1 n1 ty cov;
                          match ex with None => if exact then Lib eDeleteNotExact else Ok s1 | Some _ => s_del_rds st1 s1 n1 ty cov end)
                         (do ex <- s_get st2 s2 n2 ty cov;
                          match ex with None => if exact then Lib eDeleteNotExact else Ok s2 | Some _ => s_del_rds st2 s2 n2 ty cov end)) as K.
    { intros cov. rewrite (ss_get SS s1 s2 n1 n2 ty cov HR He).
      destruct (s_get st2 s2 n2 ty cov) as [[ex|]|e|e]; cbn [bind]; try reflexivity;
        [apply (ss_del_rds SS); auto|destruct exact; [reflexivity|exact HR]]. }
    destruct F as [|x y r1 r2 Hxy F]; cbn [bind]; [apply K|].
    rewrite (make_type_rel x y Hxy). destruct (make_type y); cbn [bind]; try reflexivity. destruct F; [apply K|reflexivity].
  Qed.

  Lemma sim_delete exact a b s1 s2 :
    RS s1 s2 -> Forall2 arel a b ->
    res_rel RS (hl_delete st1 exact a s1) (hl_delete st2 exact b s2).
  Proof.
    intros HR F. unfold hl_delete. destruct F as [|x y a b Hxy F]; [reflexivity|].
    assert (forall n1 n2, E n1 n2 ->
              res_rel RS (do y0 <- rdataset_from_args true a; hl_delete_common st1 exact n1 (fst y0) (snd y0) s1)
                         (do y0 <- rdataset_from_args true b; hl_delete_common st2 exact n2 (fst y0) (snd y0) s2)) as Kc.
    { intros n1 n2 He. pose proof (rdataset_from_args_rel E true a b F) as P.
      destruct (rdataset_from_args true a) as [[o1 l1]| |], (rdataset_from_args true b) as [[o2 l2]| |];
        cbn in P |- *; try contradiction; auto.
      destruct P as [Q1 Q2]. cbn in Q1, Q2. subst o2. apply sim_delete_common; auto. }
    destruct Hxy; try reflexivity; [| |apply sim_delete_common; auto].
    all: destruct F as [|t1 t2 a b Ht F]; [apply Kc; assumption|];
      rewrite (is_type_arg_rel t1 t2 Ht); destruct (is_type_arg t2); [apply sim_delete_bytype|apply Kc]; auto.
  Qed.

  Definition RT (t1 : txn (S:=S1)) (t2 : txn (S:=S2)) : Prop :=
    RS (t_st t1) (t_st t2) /\ t_ro t1 = t_ro t2 /\ t_ended t1 = t_ended t2.

  Lemma sim_write f1 f2 t1 t2 :
    RT t1 t2 -> (forall s1 s2, RS s1 s2 -> res_rel RS (f1 s1) (f2 s2)) ->
    res_rel RT (hl_write f1 t1) (hl_write f2 t2).
  Proof.
    intros (HR & Hro & Hen) Hf. unfold hl_write. rewrite Hro, Hen.
    destruct (t_ended t2) eqn:Een; [reflexivity|]. destruct (t_ro t2) eqn:Ero; [reflexivity|].
    specialize (Hf _ _ HR). destruct (f1 (t_st t1)), (f2 (t_st t2)); cbn in *; try contradiction; auto.
    unfold RT, with_st. cbn. repeat split; congruence.
  Qed.

  Lemma name_of_arg_rel a b :
    arel a b -> res_rel E (name_of_arg a) (name_of_arg b).
  Proof. intros H; destruct H; cbn; auto. Qed.

  Lemma sim_update_serial value rel a b t1 t2 :
    RT t1 t2 -> oarg_rel E a b ->
    res_rel RT (hl_update_serial st1 c1 value rel a t1) (hl_update_serial st2 c2 value rel b t2).
  Proof.
    intros HT Va. pose proof HT as (HR & Hro & Hen). unfold hl_update_serial. rewrite Hen.
    destruct (t_ended t2); [reflexivity|]. destruct (value <? 0); [reflexivity|].
    assert (res_rel E (match a with None => Ok NameM.empty | Some x => name_of_arg x end)
                      (match b with None => Ok NameM.empty | Some x => name_of_arg x end)) as Kn.
    { destruct a, b; cbn in Va; try contradiction; [apply name_of_arg_rel; auto|exact H_empty]. }
    destruct (match a with None => Ok NameM.empty | Some x => name_of_arg x end) as [n1|e|e],
             (match b with None => Ok NameM.empty | Some x => name_of_arg x end) as [n2|e'|e'];
      cbn in Kn |- *; try contradiction; auto.
    rewrite (ss_get SS _ _ n1 n2 tSOA 0 HR Kn).
    destruct (s_get st2 (t_st t2) n2 tSOA 0) as [ex|e|e]; cbn [bind]; try reflexivity.
    destruct ex as [e0|]; [|reflexivity]. destruct (r_items e0) as [|[body serial] ?]; [reflexivity|].
    destruct (if rel then serial_add serial value else Ok (value mod 4294967296)) as [ser|e|e]; cbn [bind]; try reflexivity.
    apply sim_write; [exact HT|]. intros s1 s2 HR'. apply sim_add; auto.
    - constructor; [constructor; exact Kn|constructor; [constructor|constructor]].
    - constructor; [exact Logic.I|constructor; [apply (q_soa QR QC)|constructor]].
  Qed.

  Lemma sim_end commit z1 z2 t1 t2 :
    RP z1 z2 -> RT t1 t2 ->
    res_rel (fun a b => RP (fst a) (fst b) /\ RT (snd a) (snd b)) (hl_end st1 commit z1 t1) (hl_end st2 commit z2 t2).
  Proof.
    intros HP (HR & Hro & Hen). unfold hl_end. rewrite Hen, Hro, (ss_changed SS _ _ HR).
    destruct (t_ended t2); [reflexivity|]. cbn [res_rel]. split; cbn [fst snd].
    - destruct (negb (t_ro t2) && commit && s_changed st2 (t_st t2)); [apply (ss_publish SS); exact HR|exact HP].
    - unfold RT. cbn. auto.
  Qed.

  Lemma sim_step o1 o2 z1 z2 t1 t2 :
    op_rel_it it E o1 o2 -> op_ok QR o1 -> RP z1 z2 -> RT t1 t2 ->
    res_rel (RStep RP RT) (step st1 c1 o1 z1 t1) (step st2 c2 o2 z2 t2).
  Proof.
    intros Vo Qo HP HT. pose proof HT as (HR & Hro & Hen).
    destruct Vo; cbn [step op_ok] in *.
    1-4: apply RStep_txn, sim_write; auto; intros; (apply sim_add || apply sim_delete); auto.
    - apply RStep_txn, sim_update_serial; auto.
    - rewrite Hen. destruct (t_ended t2); [reflexivity|].
      pose proof (name_of_arg_rel a b H) as Kn.
      destruct (name_of_arg a) as [n1|e|e], (name_of_arg b) as [n2|e'|e']; cbn [bind res_rel] in Kn |- *; try contradiction; auto.
      destruct (make_type (AInt ty)) as [ty'|e|e]; cbn [bind]; try reflexivity.
      destruct (make_type (AInt cov)) as [cov'|e|e]; cbn [bind]; try reflexivity.
      rewrite (ss_get SS _ _ n1 n2 ty' cov' HR Kn).
      destruct (s_get st2 (t_st t2) n2 ty' cov'); cbn [bind]; try reflexivity. unfold RStep. cbn. auto.
    - rewrite Hen. destruct (t_ended t2); [reflexivity|].
      pose proof (name_of_arg_rel a b H) as Kn.
      destruct (name_of_arg a) as [n1|e|e], (name_of_arg b) as [n2|e'|e']; cbn [bind res_rel] in Kn |- *; try contradiction; auto.
      rewrite (ss_exists SS _ _ n1 n2 HR Kn).
      destruct (s_exists st2 (t_st t2) n2); cbn [bind]; try reflexivity. unfold RStep. cbn. auto.
    - rewrite Hen, Hro, (ss_changed SS _ _ HR). destruct (t_ended t2); [reflexivity|]. unfold RStep. cbn. auto.
    - rewrite Hen. destruct (t_ended t2); [reflexivity|].
      pose proof (name_of_arg_rel a b H) as Kn.
      destruct (name_of_arg a) as [n1|e|e], (name_of_arg b) as [n2|e'|e']; cbn [bind res_rel] in Kn |- *; try contradiction; auto.
      rewrite (ss_node SS _ _ n1 n2 HR Kn).
      destruct (s_node st2 (t_st t2) n2); cbn [bind]; try reflexivity. unfold RStep. cbn. auto.
    - apply RStep_end, sim_end; auto.
    - apply RStep_end, sim_end; auto.
    - rewrite Hen, (ss_count SS H _ _ HR). destruct (t_ended t2); [reflexivity|].
      destruct (s_count st2 (t_st t2)). unfold RStep. cbn. auto.
  Qed.

  Lemma sim_exit clean z1 z2 t1 t2 :
    RP z1 z2 -> RT t1 t2 -> RP (hl_exit st1 clean z1 t1) (hl_exit st2 clean z2 t2).
  Proof.
    intros HP HT. unfold hl_exit. pose proof (sim_end clean z1 z2 t1 t2 HP HT) as H.
    destruct (hl_end st1 clean z1 t1) as [[? ?]| |], (hl_end st2 clean z2 t2) as [[? ?]| |];
      cbn in *; try contradiction; auto. destruct H. auto.
  Qed.

  Lemma sim_open mode z1 z2 : RP z1 z2 -> RT (open_txn st1 mode z1) (open_txn st2 mode z2).
  Proof.
    intros HP. unfold open_txn. destruct (mode =? 2); unfold RT; cbn; auto.
  Qed.

  Theorem sim_run_hist h1 h2 :
    Forall2 (spec_rel_it it E) h1 h2 -> Forall (fun x => Forall (op_ok QR) (x_ops x)) h1 -> forall z1 z2,
    RP z1 z2 ->
    Forall2 (ROut RP) (run_hist st1 c1 h1 z1) (run_hist st2 c2 h2 z2).
  Proof.
    intros F Fq. rewrite !run_hist_g.
    apply g_hist_sim with (RT := RT) (OR := fun o1 o2 => op_rel_it it E o1 o2 /\ op_ok QR o1);
      auto using sim_exit, sim_open, txn_rel_and.
    intros o1 o2 z1 z2 t1 t2 [Vo Qo]. apply sim_step; assumption.
  Qed.
End Sim.

(* the diagonal: one list of operations *)
(* the names handed to the transaction are dns.name.Name objects, i.e. within the DNS limits *)
Definition arg_valid (a : arg) : Prop :=
  match a with
  | AName n | AStr n | ARRset n _ => Valid n
  | _ => True
  end.

Definition op_valid (o : op) : Prop :=
  match o with
  | OAdd a | OReplace a | ODelete a | ODeleteExact a => Forall arg_valid a
  | OSerial _ _ (Some a) => arg_valid a
  | OGet a _ _ | OExists a | OGetNode a => arg_valid a
  | OIter => False
  | _ => True
  end.

Definition spec_valid (x : txnspec) : Prop := Forall op_valid (x_ops x).

(* the same name on both sides, satisfying V *)
Definition EVp (V : name -> Prop) (n1 n2 : name) : Prop := n1 = n2 /\ V n1.
Notation EV := (EVp Valid).

Lemma arg_valid_rel a : arg_valid a -> arg_rel EV a a.
Proof. destruct a; cbn; intros H; constructor; split; cbn; auto. Qed.

Lemma args_valid_rel a : Forall arg_valid a -> Forall2 (arg_rel EV) a a.
Proof. induction 1; constructor; auto using arg_valid_rel. Qed.

(* OIter is valid only where the iterate calls are part of the relation *)
Definition op_valid_or_iter (it : bool) (o : op) : Prop := op_valid o \/ (it = true /\ o = OIter).

Lemma op_valid_rel it o : op_valid_or_iter it o -> op_rel_it it EV o o.
Proof.
  intros [H|[H ->]]; [|constructor; exact H].
  destruct o; cbn in H; try contradiction; constructor; auto using args_valid_rel, arg_valid_rel.
  destruct n; cbn; auto using arg_valid_rel.
Qed.

Lemma hist_valid_rel it h :
  Forall (fun x => Forall (op_valid_or_iter it) (x_ops x)) h -> Forall2 (spec_rel_it it EV) h h.
Proof.
  induction 1 as [|x h Hx _ IH]; constructor; [|exact IH].
  repeat split. induction Hx; constructor; auto using op_valid_rel.
Qed.

Lemma spec_valid_or_iter it h :
  Forall spec_valid h -> Forall (fun x => Forall (op_valid_or_iter it) (x_ops x)) h.
Proof. intros F. eapply Forall_impl; [|exact F]. intros x Hx. eapply Forall_impl; [|exact Hx]. left. assumption. Qed.

Lemma EV_empty : EV NameM.empty NameM.empty.
Proof. split; [reflexivity|apply Valid_nil]. Qed.

Lemma EV_origin V c n1 n2 : EVp V n1 n2 -> origin_ok c n1 = origin_ok c n2.
Proof. intros [-> _]. reflexivity. Qed.

(* with nothing asked of the names, every operation - the iterate calls included - is related to itself *)
#[local] Notation ET := (EVp (fun _ => True)).

Lemma op_rel_refl o : op_rel_it true ET o o.
Proof.
  assert (forall a, arg_rel ET a a) as Ka by (intros a; destruct a; constructor; split; auto).
  assert (forall l, Forall2 (arg_rel ET) l l) as Kl by (induction l; constructor; auto).
  destruct o; constructor; auto. destruct n; cbn; auto.
Qed.

Lemma hist_rel_refl h : Forall2 (spec_rel_it true ET) h h.
Proof. induction h as [|x h IH]; constructor; [|exact IH]. repeat split. induction (x_ops x); constructor; auto using op_rel_refl. Qed.

(* two related stores run a valid history to the same results and related published states *)
Corollary sim_valid_hist {P1 S1 P2 S2 : Type} (st1 : store P1 S1) (st2 : store P2 S2) c RS RP :
  store_sim st1 st2 EV RS RP false (fun _ => True) ->
  (forall z1 z2 b, RP z1 z2 -> RS (s_begin st1 z1 b) (s_begin st2 z2 b)) ->
  forall h z1 z2, Forall spec_valid h -> RP z1 z2 ->
  Forall2 (ROut RP) (run_hist st1 c h z1) (run_hist st2 c h z2).
Proof.
  intros SS Hb h z1 z2 F HP.
  apply (sim_run_hist st1 st2 c c EV RS RP false (fun _ => True) closed_True EV_empty (EV_origin Valid c) SS Hb);
    auto using hist_valid_rel, spec_valid_or_iter, hist_ok_True.
Qed.

(* ---------------------------------------------------------------- invariants
   An invariant of the private state kept by the low-level operations is a simulation of the store by
   itself (related = equal and satisfying the invariant): every public call keeps it, and every history
   keeps the invariant of the published state. *)
Lemma res_rel_diag {A} (Q : A -> Prop) (x : res A) :
  (forall a, x = Ok a -> Q a) -> res_rel (fun a b => a = b /\ Q a) x x.
Proof. destruct x; cbn; auto. Qed.

Lemma Forall2_diag {A} (Rl : A -> A -> Prop) l : Forall2 Rl l l -> Forall (fun x => Rl x x) l.
Proof. induction l; intros H; inversion H; subst; constructor; auto. Qed.

Section Inv.
  Context {P S : Type}.
  Variable st : store P S.
  Variable c : cfg.
  Variable V : name -> Prop.     (* what the low-level operations may assume of the names they are given *)
  Variable IS : S -> Prop.
  Variable IP : P -> Prop.
  Variable QR : rds -> Prop.
  Hypothesis QC : rds_closed QR.
  Hypothesis V_empty : V NameM.empty.
  Hypothesis I_begin : forall z b, IP z -> IS (s_begin st z b).
  Hypothesis I_publish : forall s, IS s -> IP (s_publish st s).
  Hypothesis I_get_ok : forall s n ty cov r, IS s -> s_get st s n ty cov = Ok (Some r) -> r_cls r = cIN /\ QR r.
  Hypothesis I_put : forall s n r s', IS s -> V n -> r_cls r = cIN -> QR r -> s_put st s n r = Ok s' -> IS s'.
  Hypothesis I_del_name : forall s n s', IS s -> V n -> s_del_name st s n = Ok s' -> IS s'.
  Hypothesis I_del_rds : forall s n ty cov s', IS s -> V n -> s_del_rds st s n ty cov = Ok s' -> IS s'.

  Lemma inv_store_sim :
    store_sim st st (EVp V) (fun s1 s2 => s1 = s2 /\ IS s1) (fun z1 z2 => z1 = z2 /\ IP z1) true QR.
  Proof.
    split.
    - intros s1 s2 [<- H]. auto.
    - intros s1 s2 n1 n2 ty cov [<- _] [<- _]. reflexivity.
    - intros s1 s2 n ty cov r [<- H]. apply I_get_ok. exact H.
    - intros s1 s2 n1 n2 r [<- H] [<- Vn] Cr Qr. apply res_rel_diag. intros s'. apply I_put; assumption.
    - intros s1 s2 n1 n2 [<- H] [<- Vn]. apply res_rel_diag. intros s'. apply I_del_name; assumption.
    - intros s1 s2 n1 n2 ty cov [<- H] [<- Vn]. apply res_rel_diag. intros s'. apply I_del_rds; assumption.
    - intros s1 s2 n1 n2 [<- _] [<- _]. reflexivity.
    - intros s1 s2 n1 n2 [<- _] [<- _]. reflexivity.
    - intros s1 s2 [<- _]. reflexivity.
    - intros _ s1 s2 [<- _]. reflexivity.
  Qed.

  Definition IT (t : txn (S:=S)) : Prop := IS (t_st t).

  Lemma step_inv o z t x z' t' :
    op_rel_it true (EVp V) o o -> op_ok QR o -> IP z -> IT t -> step st c o z t = Ok (x, z', t') -> IP z' /\ IT t'.
  Proof.
    intros Vo Qo Hz Ht Es.
    pose proof (sim_step st st c c (EVp V) _ _ true QR QC (conj eq_refl V_empty) (EV_origin V c) inv_store_sim o o z z t t
                  Vo Qo (conj eq_refl Hz) (conj (conj eq_refl Ht) (conj eq_refl eq_refl))) as H.
    rewrite Es in H. destruct H as (_ & [_ Hz'] & [_ Ht'] & _). auto.
  Qed.

  Theorem run_hist_inv h z :
    Forall2 (spec_rel_it true (EVp V)) h h -> Forall (fun x => Forall (op_ok QR) (x_ops x)) h ->
    IP z -> Forall (fun x => IP (snd x)) (run_hist st c h z).
  Proof.
    intros F Fq Hz.
    assert (forall z1 z2 b, z1 = z2 /\ IP z1 -> s_begin st z1 b = s_begin st z2 b /\ IS (s_begin st z1 b)) as Hb
      by (intros z1 z2 b [<- H]; auto).
    pose proof (sim_run_hist st st c c (EVp V) _ _ true QR QC (conj eq_refl V_empty) (EV_origin V c) inv_store_sim Hb h h
                  F Fq z z (conj eq_refl Hz)) as H.
    apply Forall2_diag in H. eapply Forall_impl; [|exact H]. intros x [_ [_ Hx]]. exact Hx.
  Qed.
End Inv.

(* an invariant of the private state alone that the writes keep whatever name they are given: kept by every
   call, the iterate calls and malformed names included *)
Corollary step_inv_state {P S : Type} (st : store P S) c (IS : S -> Prop) :
  (forall s n ty cov r, s_get st s n ty cov = Ok (Some r) -> r_cls r = cIN) ->
  (forall s n r s', IS s -> r_cls r = cIN -> s_put st s n r = Ok s' -> IS s') ->
  (forall s n s', IS s -> s_del_name st s n = Ok s' -> IS s') ->
  (forall s n ty cov s', IS s -> s_del_rds st s n ty cov = Ok s' -> IS s') ->
  forall o z t x z' t', IS (t_st t) -> step st c o z t = Ok (x, z', t') -> IS (t_st t').
Proof.
  intros Hg Hp Hn Hr o z t x z' t' Ht Es.
  destruct (step_inv st c (fun _ => True) IS (fun _ => True) (fun _ => True) closed_True Logic.I) with (o := o) (z := z) (t := t) (x := x) (z' := z') (t' := t')
    as [_ H]; auto using op_ok_True, op_rel_refl.
  - intros s n ty cov r _ G. split; [exact (Hg _ _ _ _ _ G)|exact Logic.I].
  - intros s n r s' Hs _ Cr _. apply Hp; assumption.
  - intros s n s' Hs _. apply Hn; assumption.
  - intros s n ty cov s' Hs _. apply Hr; assumption.
Qed.
