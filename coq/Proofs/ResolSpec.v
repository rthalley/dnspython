(* The decision table of Resolver.resolve as a function of the queries made and the replies seen
   (outcome_spec_resolve), together with the exact content of the cache afterwards. *)
From DV Require Import Base.Prelude Model.NameM Model.ResolM Proofs.NameOrder.
From DV Require Import Proofs.ResolBase Proofs.ResolTerm Proofs.ResolTrace.
Open Scope Z_scope.

Lemma name_eqb_sym : forall a b, name_eqb a b = true -> name_eqb b a = true.
Proof. intros a b H. rewrite NameOrder.name_eqb_sym. exact H. Qed.

Lemma name_eqb_trans : forall a b d, name_eqb a b = true -> name_eqb b d = true -> name_eqb a d = true.
Proof. exact NameOrder.name_eqb_trans. Qed.

Lemma ckey_eqb_refl : forall k, ckey_eqb k k = true.
Proof. intros. unfold ckey_eqb. rewrite name_eqb_refl, !Z.eqb_refl. reflexivity. Qed.

Lemma cache_lookup_put_same : forall chx k a, cache_lookup (cache_put chx k a) k = Some a.
Proof.
  induction chx as [|[k' a'] r IH]; intros k a; simpl.
  - rewrite ckey_eqb_refl. reflexivity.
  - destruct (ckey_eqb k' k) eqn:E; simpl; rewrite E; auto.
Qed.

Lemma cache_get_put_same : forall chx k a now,
  now < a_expiration a -> cache_get (cache_put chx k a) k now = Some a.
Proof.
  intros. unfold cache_get. rewrite cache_lookup_put_same.
  destruct (a_expiration a <=? now) eqn:E; auto. lia.
Qed.

Definition has_nx (nx : list (name * Z)) (q : name) : Prop :=
  exists k v, In (k, v) nx /\ name_eqb k q = true.

Lemma nx_set_in : forall l q x k v,
  In (k, v) (nx_set l q x) -> In (k, v) l \/ (v = x /\ name_eqb k q = true).
Proof.
  induction l as [|[k' v'] r IH]; intros q x k v H; simpl in H.
  - destruct H as [H|[]]. inversion H; subst. right. split; auto. apply name_eqb_refl.
  - destruct (name_eqb k' q) eqn:E.
    + destruct H as [H|H]; [inversion H; subst; auto|]. left. right. exact H.
    + destruct H as [H|H]; [left; left; exact H|].
      destruct (IH _ _ _ _ H); auto. left. right. assumption.
Qed.

Lemma nx_set_has_self : forall l q x, has_nx (nx_set l q x) q.
Proof.
  induction l as [|[k' v'] r IH]; intros q x; simpl.
  - exists q, x. split; [left; reflexivity|apply name_eqb_refl].
  - destruct (name_eqb k' q) eqn:E.
    + exists k', x. split; [left; reflexivity|exact E].
    + destruct (IH q x) as (k & v & HI & HE). exists k, v. split; [right; exact HI|exact HE].
Qed.

Lemma nx_set_has_mono : forall l q x q', has_nx l q' -> has_nx (nx_set l q x) q'.
Proof.
  induction l as [|[k' v'] r IH]; intros q x q' (k & v & HI & HE); simpl in *; [tauto|].
  destruct HI as [HI|HI].
  - inversion HI; subst. destruct (name_eqb k q).
    + exists k, x. split; [left; reflexivity|exact HE].
    + exists k, v. split; [left; reflexivity|exact HE].
  - destruct (name_eqb k' q).
    + exists k, v. split; [right; exact HI|exact HE].
    + destruct (IH q x q') as (k2 & v2 & HI2 & HE2); [exists k, v; auto|].
      exists k2, v2. split; [right; exact HI2|exact HE2].
Qed.

Lemma nx_get_has : forall l q, has_nx l q -> nx_get l q <> None.
Proof.
  induction l as [|[k' v'] r IH]; intros q (k & v & HI & HE); simpl in *; [tauto|].
  destruct (name_eqb k' q) eqn:E; [discriminate|].
  destruct HI as [HI|HI]; [inversion HI; subst; congruence|].
  apply IH. exists k, v. auto.
Qed.

Section Spec.
Variables (sc : nat -> outcome) (c : cfg) (start : Z) (ch : cache).

Definition nonterminal (ev : event) : Prop := accepts (ev_obs ev) = None /\ is_yx (ev_obs ev) = false.

(* what a reply leaves in the cache: an acceptable NOERROR reply is stored under
   (question name, rdtype, rdclass), an acceptable NXDOMAIN under (question name, ANY, rdclass) *)
Definition cache_step (chx : cache) (ev : event) : cache :=
  if c_cache c then
    match ev_obs ev with
    | OMsg m =>
        if m_rcode m =? rcNOERROR then
          match make_answer (ev_qname ev) (c_rdtype c) (c_rdclass c) m (Some (ev_server ev)) (ev_end ev)
                            (Z.of_nat (ev_idx ev)) with
          | Ok a => cache_put chx {| k_name := ev_qname ev; k_type := c_rdtype c; k_class := c_rdclass c |} a
          | _ => chx
          end
        else if m_rcode m =? rcNXDOMAIN then
          match make_answer (ev_qname ev) tANY cIN m None (ev_end ev) (Z.of_nat (ev_idx ev)) with
          | Ok a => cache_put chx {| k_name := ev_qname ev; k_type := tANY; k_class := c_rdclass c |} a
          | _ => chx
          end
        else chx
    | OExn _ => chx
    end
  else chx.

Definition cache_after (tr : list event) : cache := fold_left cache_step tr ch.

Lemma cache_after_snoc : forall tr ev, cache_after (tr ++ [ev]) = cache_step (cache_after tr) ev.
Proof. intros. unfold cache_after. rewrite fold_left_app. reflexivity. Qed.

Lemma make_answer_ok_iff : forall q t k m sv now src,
  (exists a, make_answer q t k m sv now src = Ok a) <-> (exists x, resolve_chaining m = Ok x).
Proof.
  intros. unfold make_answer. destruct (resolve_chaining m) as [x|e|e]; simpl; split; intros (y & H); eauto; discriminate.
Qed.

Lemma cache_step_none : forall chx ev,
  accepts (ev_obs ev) = None -> nx_accepts (ev_obs ev) = None -> cache_step chx ev = chx.
Proof.
  intros chx ev HA HN. unfold cache_step. destruct (c_cache c); auto.
  destruct (ev_obs ev) as [k|m]; auto. simpl in HA, HN.
  destruct (m_rcode m =? rcNOERROR).
  - unfold make_answer. destruct (resolve_chaining m); simpl; auto. discriminate.
  - destruct (m_rcode m =? rcNXDOMAIN); auto.
    unfold make_answer. destruct (resolve_chaining m); simpl; auto. discriminate.
Qed.

Lemma cache_step_accepts : forall chx ev m a,
  ev_obs ev = OMsg m -> accepts (ev_obs ev) <> None ->
  make_answer (ev_qname ev) (c_rdtype c) (c_rdclass c) m (Some (ev_server ev)) (ev_end ev) (Z.of_nat (ev_idx ev)) = Ok a ->
  cache_step chx ev =
    if c_cache c then cache_put chx {| k_name := ev_qname ev; k_type := c_rdtype c; k_class := c_rdclass c |} a else chx.
Proof.
  intros chx ev m a HO HA HM. unfold cache_step. rewrite HO in *. simpl in HA.
  destruct (m_rcode m =? rcNOERROR); [|congruence]. rewrite HM. reflexivity.
Qed.

Lemma cache_step_nx : forall chx ev m a,
  ev_obs ev = OMsg m -> nx_accepts (ev_obs ev) <> None ->
  make_answer (ev_qname ev) tANY cIN m None (ev_end ev) (Z.of_nat (ev_idx ev)) = Ok a ->
  cache_step chx ev =
    if c_cache c then cache_put chx {| k_name := ev_qname ev; k_type := tANY; k_class := c_rdclass c |} a else chx.
Proof.
  intros chx ev m a HO HA HM. unfold cache_step. rewrite HO in *. simpl in HA.
  destruct (Z.eqb_spec (m_rcode m) rcNXDOMAIN) as [E|]; [|congruence]. rewrite E, HM. reflexivity.
Qed.

(* NXDOMAIN evidence: from a reply seen in this resolution, or from the cache *)
Definition nx_cached (chx : cache) (now : Z) (k : name) (v : Z) : Prop :=
  exists q a, name_eqb k q = true /\
    cache_get chx {| k_name := q; k_type := tANY; k_class := c_rdclass c |} now = Some a /\
    a_rcode a = rcNXDOMAIN /\ a_src a = v.

Definition nx_prov (tr : list event) (k : name) (v : Z) : Prop :=
  (exists ev, In ev tr /\ name_eqb k (ev_qname ev) = true /\ nx_accepts (ev_obs ev) <> None /\
              Z.of_nat (ev_idx ev) = v)
  \/ (c_cache c = true /\ exists pre post now, tr = pre ++ post /\ nx_cached (cache_after pre) now k v).

Lemma nx_prov_snoc : forall tr ev k v, nx_prov tr k v -> nx_prov (tr ++ [ev]) k v.
Proof.
  intros tr ev k v [(e0 & HI & H)|(HC & pre & post & now & HE & H)].
  - left. exists e0. split; [apply in_or_app; auto|exact H].
  - right. split; auto. exists pre, (post ++ [ev]), now. split; [rewrite HE, app_assoc; reflexivity|exact H].
Qed.

(* skipping `skipped` from s to s0: every skipped name gets an entry, entries are kept, and every new
   entry comes from a cached NXDOMAIN *)
Definition nxrel (now : Z) (s : st) (skipped : list name) (s0 : st) : Prop :=
  frame s s0 /\
  (forall q, In q skipped -> has_nx (s_nx s0) q) /\
  (forall q, has_nx (s_nx s) q -> has_nx (s_nx s0) q) /\
  (forall k v, In (k, v) (s_nx s0) -> In (k, v) (s_nx s) \/ (c_cache c = true /\ nx_cached (s_cache s) now k v)).

Lemma next_request_nx : forall now qnames s,
  match next_request c s qnames now with
  | NRequest s' => exists sk q rest s0, qnames = sk ++ q :: rest /\ s' = arm c s0 q rest /\ nxrel now s sk s0
  | NAnswer s' a => cache_hit c now (nxrel now) qnames s s' a /\ (a_rrset a <> None \/ c_raise c = false)
  | NNoAnswer s' a => cache_hit c now (nxrel now) qnames s s' a /\ a_rrset a = None /\ c_raise c = true
  | NNXDOMAIN s' => nxrel now s qnames s'
  end.
Proof.
  intros now. apply next_request_spec.
  - intros s s0 HF E. split; [exact HF|]. rewrite E. split; [intros ? []|]. auto.
  - intros s s1 q a sk s0 HC HG HR (F1 & F2 & F3) E ((G1 & G2 & G3) & X1 & X2 & X3).
    split; [repeat split; congruence|]. rewrite E in *. split; [|split].
    + intros q0 [<-|H0]; [apply X2, nx_set_has_self|apply X1, H0].
    + intros q0 H0. apply X2, nx_set_has_mono, H0.
    + intros k v H0. rewrite F3 in X3. destruct (X3 k v H0) as [H1|H1]; [|auto].
      apply nx_set_in in H1. destruct H1 as [H1|(-> & H1)]; [auto|].
      right. split; [exact HC|]. exists q, a. auto.
Qed.

Definition covered (s : st) (tr : list event) : Prop :=
  forall sv, In sv (c_servers c) ->
    In (sv_id sv) (ids (s_nameservers s)) \/
    exists ev, In ev tr /\ ev_server ev = sv_id sv /\ ev_drops c ev = true.

(* the bookkeeping next_request works on: no terminal reply so far, the cache, evidence for the
   candidates `done` already given up *)
Definition OState (tr : list event) (s : st) (done : list name) : Prop :=
  Forall nonterminal tr /\ s_cache s = cache_after tr /\
  (forall q, In q done -> has_nx (s_nx s) q) /\
  (forall k v, In (k, v) (s_nx s) -> nx_prov tr k v).

Definition OInv (new : list event) (s : st) (e : env) : Prop :=
  s_have_request s = true /\ covered s new /\
  exists done, c_qnames c = done ++ s_qname s :: s_qnames s /\ OState new s done.

(* the documented results, as a function of the queries `new` of this resolution *)
Definition from_network (new : list event) (a : answer) : Prop :=
  exists pre ev m, new = pre ++ [ev] /\ Forall nonterminal pre /\ ev_obs ev = OMsg m /\
    accepts (ev_obs ev) <> None /\
    make_answer (ev_qname ev) (c_rdtype c) (c_rdclass c) m (Some (ev_server ev)) (ev_end ev)
                (Z.of_nat (ev_idx ev)) = Ok a.

Definition from_cache (new : list event) (now : Z) (a : answer) : Prop :=
  c_cache c = true /\ Forall nonterminal new /\
  exists q, In q (c_qnames c) /\
    cache_get (cache_after new) {| k_name := q; k_type := c_rdtype c; k_class := c_rdclass c |} now = Some a.

Definition outcome_ok (new : list event) (f : final) (now : Z) : Prop :=
  match f with
  | FAnswer a => (a_rrset a <> None \/ c_raise c = false) /\ (from_network new a \/ from_cache new now a)
  | FNoAnswer a => (a_rrset a = None /\ c_raise c = true) /\ (from_network new a \/ from_cache new now a)
  | FNXDOMAIN qs nx =>
      qs = c_qnames c /\ Forall nonterminal new /\
      forall q, In q (c_qnames c) -> exists k v, In (k, v) nx /\ name_eqb k q = true /\ nx_prov new k v
  | FYXDOMAIN => exists pre ev, new = pre ++ [ev] /\ Forall nonterminal pre /\ is_yx (ev_obs ev) = true
  | FNoNameservers _ =>
      Forall nonterminal new /\
      forall sv, In sv (c_servers c) -> exists ev, In ev new /\ ev_server ev = sv_id sv /\ ev_drops c ev = true
  | FLifetime _ d =>
      Forall nonterminal new /\ (c_lifetime c <= d \/ d < -1000) /\
      (d = now - start \/ (-1000 <= now - start < 0 /\ d = 0))
  | FInternal _ => True     (* excluded by broken_never_reasked for distinct servers *)
  | FFuel | FNoMetaqueries | FLibError _ => False
  end.

Definition OFin (new : list event) (f : final) (s' : st) (e' : env) : Prop :=
  match f with
  | FInternal _ => True
  | _ => outcome_ok new f (e_clock e') /\ s_cache s' = cache_after new
  end.

Lemma covered_snoc : forall s tr ev, covered s tr -> covered s (tr ++ [ev]).
Proof.
  intros s tr ev H sv Hsv. destruct (H sv Hsv) as [H1|(e0 & H1 & H2)]; auto.
  right. exists e0. split; [apply in_or_app; auto|exact H2].
Qed.

Lemma ostate_skip : forall tr s done now sk s0,
  OState tr s done -> nxrel now s sk s0 -> OState tr s0 (done ++ sk).
Proof.
  intros tr s done now sk s0 (O1 & O2 & O3 & O4) ((_ & _ & F3) & X1 & X2 & X3).
  split; [exact O1|]. split; [congruence|]. split.
  - intros q Hq. apply in_app_or in Hq. destruct Hq; auto.
  - intros k v Hkv. destruct (X3 k v Hkv) as [H1|(H1 & H2)]; [auto|].
    right. split; [exact H1|]. exists tr, [], now. rewrite app_nil_r, <- O2. auto.
Qed.

(* an acceptable NXDOMAIN reply for the current candidate: the candidate is given up *)
Lemma ostate_nx : forall tr s done ev m a s2,
  OState tr s done -> ev_obs ev = OMsg m -> nx_accepts (ev_obs ev) <> None ->
  make_answer (ev_qname ev) tANY cIN m None (ev_end ev) (Z.of_nat (ev_idx ev)) = Ok a ->
  s_nx s2 = nx_set (s_nx s) (ev_qname ev) (Z.of_nat (ev_idx ev)) ->
  s_cache s2 = (if c_cache c
                then cache_put (s_cache s) {| k_name := ev_qname ev; k_type := tANY; k_class := c_rdclass c |} a
                else s_cache s) ->
  OState (tr ++ [ev]) s2 (done ++ [ev_qname ev]).
Proof.
  intros tr s done ev m a s2 (O1 & O2 & O3 & O4) Hr Hnx HMA HX HC.
  destruct (nx_accepts_only c true _ Hnx) as (N1 & N2 & _).
  split; [apply Forall_app; split; [exact O1|repeat constructor; assumption]|].
  split; [rewrite cache_after_snoc, (cache_step_nx _ ev m a Hr Hnx HMA), <- O2; exact HC|].
  rewrite HX. split.
  - intros q Hq. apply in_app_or in Hq. destruct Hq as [Hq|[<-|[]]]; [apply nx_set_has_mono; auto|apply nx_set_has_self].
  - intros k v Hkv. apply nx_set_in in Hkv. destruct Hkv as [Hkv|(-> & Hkv)]; [apply nx_prov_snoc; auto|].
    left. exists ev. split; [apply in_or_app; right; left; reflexivity|]. auto.
Qed.

(* next_request from such a state: the request armed is for the next candidate without cached
   NXDOMAIN, and an immediate result is the documented one *)
Lemma ostate_next : forall tr s done qnames now,
  OState tr s done -> c_qnames c = done ++ qnames ->
  match next_request c s qnames now with
  | NRequest s' =>
      exists s0 q rest, s' = arm c s0 q rest /\ frame s s0 /\
        exists done', c_qnames c = done' ++ q :: rest /\ OState tr s0 done'
  | r => forall f s', after_next c r = inr (f, s') -> outcome_ok tr f now /\ s_cache s' = cache_after tr
  end.
Proof.
  intros tr s done qnames now HS HQ. pose proof HS as (O1 & O2 & _).
  assert (Hit : forall s' a, cache_hit c now (nxrel now) qnames s s' a ->
                  from_cache tr now a /\ s_cache s' = cache_after tr).
  { intros s' a (sk & q & rest & -> & ((_ & _ & F3) & _) & HC & HG). split; [|congruence].
    split; [exact HC|]. split; [exact O1|]. exists q.
    split; [rewrite HQ; apply in_or_app; right; apply in_or_app; right; left; reflexivity|].
    rewrite <- O2. exact HG. }
  pose proof (next_request_nx now qnames s) as N.
  destruct (next_request c s qnames now) as [s'|s' a|s' a|s'].
  - destruct N as (sk & q & rest & s0 & -> & -> & HX). exists s0, q, rest.
    split; [reflexivity|]. split; [apply HX|]. exists (done ++ sk).
    split; [rewrite HQ, <- app_assoc; reflexivity|eapply ostate_skip; eauto].
  - destruct N as (HH & HR). intros f s'' E. injection E as <- <-. destruct (Hit _ _ HH). simpl. auto.
  - destruct N as (HH & HR). intros f s'' E. injection E as <- <-. destruct (Hit _ _ HH). simpl. auto.
  - intros f s'' E. injection E as <- <-. destruct (ostate_skip _ _ _ _ _ _ HS N) as (_ & P2 & P3 & P4).
    split; [|exact P2]. split; [reflexivity|]. split; [exact O1|].
    intros q Hq. rewrite HQ in Hq. destruct (P3 q Hq) as (k & v & K1 & K2). exists k, v. auto.
Qed.

(* an acceptable NXDOMAIN reply hands next_request the state with the candidate given up *)
Lemma oinv_nx : forall tr s e s1 ns ev s2,
  OInv tr s e -> asked sc c start s e s1 ns ev -> result_of c s1 ev = QNext s2 ->
  s_have_request s2 = true /\ s_nameservers s2 = s_nameservers s /\
  match next_request c s2 (s_qnames s2) (ev_end ev) with
  | NRequest s' =>
      exists s0 q rest, s' = arm c s0 q rest /\ frame s2 s0 /\
        exists done', c_qnames c = done' ++ q :: rest /\ OState (tr ++ [ev]) s0 done'
  | r => forall f s', after_next c r = inr (f, s') ->
           outcome_ok (tr ++ [ev]) f (ev_end ev) /\ s_cache s' = cache_after (tr ++ [ev])
  end.
Proof.
  intros tr s e s1 ns ev s2 (O0 & O5 & done & O3 & HS) (tcp & backoff & cur & bo & T & ob & clock2 & -> & -> & _) HQ.
  pose proof (query_result_spec c (serving s ns tcp cur bo) clock2 (Z.of_nat (e_pos e)) ob ns eq_refl) as Q.
  unfold result_of in HQ. simpl in HQ. rewrite HQ in Q. destruct Q as (m & a & -> & Hnx & HMA & ->).
  split; [exact O0|]. split; [reflexivity|].
  apply (ostate_next _ _ (done ++ [s_qname s])); [|rewrite <- app_assoc; exact O3].
  apply (ostate_nx tr s done (mk_event s e ns tcp backoff bo T (OMsg m) clock2) m a _ HS eq_refl Hnx HMA); reflexivity.
Qed.

Lemma oinv_step : forall tr s e s1 ns ev s',
  OInv tr s e -> asked sc c start s e s1 ns ev -> continues c s1 ev s' -> OInv (tr ++ [ev]) s' (after_query e ev).
Proof.
  intros tr s e s1 ns ev s' HI HA [HQ|s2 HQ HR].
  - destruct HI as (O0 & O5 & done & O3 & O1 & O2 & O3' & O4).
    destruct HA as (tcp & backoff & cur & bo & T & ob & clock2 & -> & -> & _).
    pose proof (query_result_spec c (serving s ns tcp cur bo) clock2 (Z.of_nat (e_pos e)) ob ns eq_refl) as Q.
    unfold result_of in HQ. simpl in HQ. rewrite HQ in Q.
    destruct Q as (K1 & K2 & K3 & nss & errs & -> & HD). split; [exact O0|]. split.
    + intros sv Hsv. destruct (O5 sv Hsv) as [H1|(e0 & H1 & H2)];
        [|right; exists e0; split; [apply in_or_app; auto|exact H2]].
      simpl in *. destruct (drops c tcp ob) eqn:ED; [|subst nss; auto].
      destruct (proj1 (proj1 (remove_server_ids _ _ _ HD) _) H1) as [E|E]; [right|auto].
      eexists. split; [apply in_or_app; right; left; reflexivity|]. split; [symmetry; exact E|exact ED].
    + exists done. split; [exact O3|].
      split; [apply Forall_app; split; [exact O1|repeat constructor; assumption]|].
      split; [simpl; rewrite cache_after_snoc, cache_step_none by assumption; exact O2|].
      split; [exact O3'|]. intros k v Hkv. apply nx_prov_snoc, O4, Hkv.
  - destruct (oinv_nx _ _ _ _ _ _ _ HI HA HQ) as (H1 & H2 & N). destruct HI as (_ & O5 & _).
    rewrite HR in N. destruct N as (s0 & q & rest & -> & (F1 & F2 & _) & HD).
    split; [reflexivity|]. split; [|exact HD].
    apply covered_snoc. intros sv Hsv. simpl. rewrite F1, H1, F2, H2. auto.
Qed.

Lemma oinv_stop : forall tr s e f s' e', OInv tr s e -> gives_up c start s e f s' e' -> OFin tr f s' e'.
Proof.
  intros tr s e f s' e' (O0 & O5 & done & O3 & O1 & O2 & _) [k _ _|_ _ HNS|ns tcp backoff cur bo d _ HT]; simpl.
  - exact Logic.I.
  - split; [|exact O2]. split; [exact O1|]. intros sv Hsv.
    destruct (O5 sv Hsv) as [H1|H1]; [rewrite HNS in H1; destruct H1|exact H1].
  - split; [|exact O2]. split; [exact O1|]. exact (compute_timeout_inr _ _ _ _ _ HT).
Qed.

Lemma oinv_end : forall tr s e s1 ns ev f s',
  OInv tr s e -> asked sc c start s e s1 ns ev -> ends c s1 ev f s' -> OFin (tr ++ [ev]) f s' (after_query e ev).
Proof.
  intros tr s e s1 ns ev f s' HI HA HE. destruct HE as [s' a HQ|s' a HQ|s' HQ|k HQ|s2 r f s' HQ HR E].
  5:{ destruct (oinv_nx _ _ _ _ _ _ _ HI HA HQ) as (_ & _ & N).
      rewrite HR in N. destruct r; [discriminate|..]; specialize (N _ _ E); injection E as <- <-; exact N. }
  all: destruct HI as (O0 & O5 & done & O3 & O1 & O2 & O3' & O4);
    destruct HA as (tcp & backoff & cur & bo & T & ob & clock2 & -> & -> & _);
    set (ev := mk_event s e ns tcp backoff bo T ob clock2);
    pose proof (query_result_spec c (serving s ns tcp cur bo) clock2 (Z.of_nat (e_pos e)) ob ns eq_refl) as Q;
    unfold result_of in HQ; simpl in HQ; rewrite HQ in Q; simpl.
  (* an accepted NOERROR reply: the answer is built from it and it is what the cache gets *)
  1,2: destruct Q as ((m & Hr & Hacc & HMA & SCA) & HRR); split; [split; [exact HRR|left; exists tr, ev, m; auto]|];
    rewrite cache_after_snoc, (cache_step_accepts _ ev m a Hr Hacc HMA), <- O2; exact SCA.
  - destruct Q as (Y1 & Y2 & Y3 & Y4 & Y5). split; [exists tr, ev; auto|].
    rewrite cache_after_snoc, cache_step_none by assumption. rewrite Y5. exact O2.
  - exact Logic.I.
Qed.
End Spec.
