(* C10: the object-level model.  (1) All-or-nothing at the level of objects: whatever a transaction does,
   no node object that existed when it began is ever mutated (copy-on-write: every write goes to an object
   allocated by this transaction), so the published zone - and every older version a reader may hold - is
   intact whether the transaction commits, rolls back or dies.  (2) The object-level model refines the
   value-level model that `refines` is about. *)
From DV Require Import Base.Prelude Model.NameM Model.TxnM.
From DV Require Import Proofs.NameValid Proofs.NameOrder Proofs.NameRel.
From DV Require Import Proofs.TxnName Proofs.TxnStore Proofs.TxnLow Proofs.TxnSim Proofs.TxnThm.
Open Scope Z_scope.

Lemma amap_get_congr m k k' : name_eqb k k' = true -> amap_get m k = amap_get m k'.
Proof. exact (kget_congr m k k'). Qed.

Lemma amap_get_set m k0 v k :
  amap_get (amap_set m k0 v) k = if name_eqb k0 k then Some v else amap_get m k.
Proof. exact (kget_set m k0 v k). Qed.

Lemma amap_get_remove m k0 k :
  amap_get (amap_remove m k0) k = if name_eqb k0 k then None else amap_get m k.
Proof. exact (kget_remove m k0 k). Qed.

Lemma amap_get_in m k id : amap_get m k = Some id -> In id (map snd m).
Proof.
  induction m as [|[k' v'] m IH]; cbn [amap_get map snd]; [discriminate|].
  destruct (name_eqb k' k); [intros H; inversion H; left; reflexivity|intros H; right; auto].
Qed.

Lemma amap_set_ids m k v id : In id (map snd (amap_set m k v)) -> id = v \/ In id (map snd m).
Proof.
  induction m as [|[k' v'] m IH]; cbn [amap_set map snd].
  - intros [H|[]]; auto.
  - destruct (name_eqb k' k); cbn [map snd In].
    + intros [H|H]; auto.
    + intros [H|H]; auto. destruct (IH H); auto.
Qed.

Lemma amap_remove_ids m k id : In id (map snd (amap_remove m k)) -> In id (map snd m).
Proof.
  induction m as [|[k' v'] m IH]; cbn [amap_remove map snd]; [auto|].
  destruct (name_eqb k' k); cbn [map snd In].
  - intros H. right. auto.
  - intros [H|H]; auto.
Qed.

(* object stores are lists of cells: the id of an object is its position, allocation appends, hset / lset
   mutate one cell in place *)
Lemma lset_length {A} (l : list A) i x : length (lset l i x) = length l.
Proof. revert i. induction l as [|y l IH]; intros [|i]; cbn; auto. Qed.

Lemma nth_lset_same {A} (l : list A) i x d : (i < length l)%nat -> nth i (lset l i x) d = x.
Proof. revert i. induction l as [|y l IH]; intros [|i] H; cbn in *; try lia; auto. apply IH. lia. Qed.

Lemma nth_lset_other {A} (l : list A) i x j d : i <> j -> nth j (lset l i x) d = nth j l d.
Proof. revert i j. induction l as [|y l IH]; intros [|i] [|j] H; cbn; auto; congruence. Qed.

Lemma hnode_app_l h x id : (id < length h)%nat -> hnode (h ++ x) id = hnode h id.
Proof. intros H. unfold hnode. apply app_nth1. exact H. Qed.

Lemma hnode_app_new h x : hnode (h ++ [x]) (length h) = x.
Proof. unfold hnode. rewrite app_nth2, Nat.sub_diag by lia. reflexivity. Qed.

Lemma hset_lset h : forall i nd, hset h i nd = lset h i nd.
Proof. induction h as [|x h IH]; intros [|i] nd; cbn; try rewrite IH; reflexivity. Qed.

Lemma hset_length h i nd : length (hset h i nd) = length h.
Proof. rewrite hset_lset. apply lset_length. Qed.

Lemma hnode_hset_same h i nd : (i < length h)%nat -> hnode (hset h i nd) i = nd.
Proof. rewrite hset_lset. apply nth_lset_same. Qed.

Lemma hnode_hset_other h i nd j : i <> j -> hnode (hset h i nd) j = hnode h j.
Proof. rewrite hset_lset. apply nth_lset_other. Qed.

Lemma changed_has_add l k k' : changed_has (changed_add l k) k' = changed_has l k' || name_eqb k k'.
Proof.
  unfold changed_add. destruct (changed_has l k) eqn:E.
  - destruct (name_eqb k k') eqn:E'; [|rewrite orb_false_r; reflexivity].
    rewrite orb_true_r. unfold changed_has in *. rewrite <- E. apply existsb_ext. intros x. symmetry.
    apply name_eqb_trans_r. exact E'.
  - unfold changed_has. rewrite existsb_app. cbn. rewrite orb_false_r. reflexivity.
Qed.

Lemma changed_add_others ch k k' :
  changed_has (changed_add ch k) k' = true -> name_eqb k k' = false -> changed_has ch k' = true.
Proof. intros Hc E. rewrite changed_has_add, E, orb_false_r in Hc. exact Hc. Qed.

(* (1) published objects are never mutated *)
Definition ids_ok (h : heap) (m : hmap) : Prop := forall id, In id (map snd m) -> (id < length h)%nat.

(* l agrees with l0 on the first b cells: kept by allocation and by mutating a cell at or above b *)
Definition agree_upto {A} (d : A) (b : nat) (l0 l : list A) : Prop :=
  (b <= length l)%nat /\ forall i, (i < b)%nat -> nth i l d = nth i l0 d.

Lemma agree_refl {A} (d : A) l : agree_upto d (length l) l l.
Proof. split; auto. Qed.

Lemma agree_trans {A} (d : A) b l0 l l' : agree_upto d b l0 l -> agree_upto d (length l) l l' -> agree_upto d b l0 l'.
Proof. intros [L1 H1] [L2 H2]. split; [lia|]. intros i Hi. rewrite H2 by lia. auto. Qed.

Lemma agree_app {A} (d : A) b l0 l x : agree_upto d b l0 l -> agree_upto d b l0 (l ++ x).
Proof. intros [L H]. split; [rewrite app_length; lia|]. intros i Hi. rewrite app_nth1 by lia. auto. Qed.

Lemma agree_lset {A} (d : A) b l0 l i x : agree_upto d b l0 l -> (b <= i)%nat -> agree_upto d b l0 (lset l i x).
Proof.
  intros [L H] Hi. split; [rewrite lset_length; exact L|]. intros j Hj. rewrite nth_lset_other by lia. auto.
Qed.

(* The frame of a copy-on-write transaction, relative to the store h0 of length b it started from: the names
   it has changed point to cells allocated since, and the cells below b are as they were.  For node objects
   here, for node objects holding rdataset ids in Proofs/TxnObj.v. *)
Section CowFrame.
  Context {A : Type}.
  Variable d : A.
  Variable b : nat.
  Variable h0 : list A.

  Definition frame (h : list A) (m : hmap) (ch : list name) : Prop :=
    (forall k id, changed_has ch k = true -> amap_get m k = Some id -> (b <= id)%nat) /\ agree_upto d b h0 h.

  (* _maybe_cow_with_name: a new cell, k now points to it *)
  Lemma frame_cow h m ch k x : frame h m ch -> frame (h ++ [x]) (amap_set m k (length h)) (changed_add ch k).
  Proof.
    intros [Hfresh Ha]. split; [|apply agree_app; exact Ha].
    intros k' id' Hc Hg. rewrite changed_has_add in Hc. rewrite amap_get_set in Hg.
    destruct (name_eqb k k'); [injection Hg as <-; apply Ha|]. rewrite orb_false_r in Hc. eauto.
  Qed.

  Lemma frame_lset h m ch i x : frame h m ch -> (b <= i)%nat -> frame (lset h i x) m ch.
  Proof. intros [Hfresh Ha] Hi. split; [exact Hfresh|apply agree_lset; assumption]. Qed.

  Lemma frame_remove h m ch k ch' :
    frame h m ch ->
    (forall k', changed_has ch' k' = true -> name_eqb k k' = false -> changed_has ch k' = true) ->
    frame h (amap_remove m k) ch'.
  Proof.
    intros [Hfresh Ha] Hch. split; [|exact Ha].
    intros k' id' Hc Hg. rewrite amap_get_remove in Hg. destruct (name_eqb k k') eqn:E; [discriminate|]. eauto.
  Qed.
End CowFrame.

Definition HI (b : nat) (h0 : heap) (v : hver) : Prop := frame [] b h0 (hv_heap v) (hv_nodes v) (hv_changed v).

Section Frame.
  Variable c : cfg.
  Variable b : nat.
  Variable h0 : heap.

  Lemma cow_frame v n v1 id k : HI b h0 v -> h_maybe_cow c v n = Ok (v1, id, k) -> HI b h0 v1 /\ (b <= id)%nat.
  Proof.
    intros Hv. unfold h_maybe_cow. destruct (validate_name c n) as [k0| |]; cbn [bind]; try discriminate.
    assert (forall x, HI b h0 (mkHver (hv_heap v ++ [x]) (amap_set (hv_nodes v) k0 (length (hv_heap v))) (changed_add (hv_changed v) k0))
                      /\ (b <= length (hv_heap v))%nat) as Knew
      by (intros x; split; [apply frame_cow; exact Hv|apply Hv]).
    destruct (amap_get (hv_nodes v) k0) as [id0|] eqn:G; [destruct (changed_has (hv_changed v) k0) eqn:Ch|];
      intros [= <- <- <-]; [|apply Knew..].
    split; [exact Hv|]. eapply (proj1 Hv); eauto.
  Qed.

  Lemma put_frame v n r v' : HI b h0 v -> h_put_rdataset c v n r = Ok v' -> HI b h0 v'.
  Proof.
    intros HIv. unfold h_put_rdataset.
    destruct (h_maybe_cow c v n) as [[[v1 id] k]| |] eqn:Cw; cbn [bind]; try discriminate.
    destruct (cow_frame v n v1 id k HIv Cw) as (H1 & Hid).
    intros [= <-]. unfold HI. cbn [hv_heap hv_nodes hv_changed]. rewrite hset_lset. apply frame_lset; assumption.
  Qed.

  Lemma del_rds_frame v n ty cov v' : HI b h0 v -> h_delete_rdataset c v n ty cov = Ok v' -> HI b h0 v'.
  Proof.
    intros HIv. unfold h_delete_rdataset.
    destruct (h_maybe_cow c v n) as [[[v1 id] k]| |] eqn:Cw; cbn [bind]; try discriminate.
    destruct (cow_frame v n v1 id k HIv Cw) as (H1 & Hid).
    pose proof (frame_lset [] b h0 _ _ _ id (node_delete (hnode (hv_heap v1) id) cIN ty cov) H1 Hid) as H2.
    rewrite <- hset_lset in H2.
    destruct (node_delete (hnode (hv_heap v1) id) cIN ty cov) as [|x nd']; [|intros [= <-]; exact H2].
    unfold amap_del. destruct (amap_has (hv_nodes v1) k); cbn [bind]; [|discriminate].
    intros [= <-]. apply (frame_remove [] b h0 _ _ _ k _ H2). auto.
  Qed.

  Lemma del_name_frame v n v' : HI b h0 v -> h_delete_node c v n = Ok v' -> HI b h0 v'.
  Proof.
    intros HIv. unfold h_delete_node. destruct (validate_name c n) as [k| |]; cbn [bind]; try discriminate.
    destruct (amap_has (hv_nodes v) k); intros [= <-]; [|exact HIv].
    apply (frame_remove [] b h0 _ _ _ k _ HIv). apply changed_add_others.
  Qed.

  Lemma h_get_cls v n ty cov r : h_get_rdataset c v n ty cov = Ok (Some r) -> r_cls r = cIN.
  Proof.
    unfold h_get_rdataset, h_get_node. destruct (validate_name c n) as [k| |]; cbn [bind]; try discriminate.
    destruct (amap_get (hv_nodes v) k); [|discriminate]. intros H; inversion H as [F]. eapply node_find_cls; eauto.
  Qed.

  (* every successful public call keeps the frame *)
  Lemma step_frame o z (t : txn (S:=hver)) x z' t' :
    HI b h0 (t_st t) -> step (hstore c) c o z t = Ok (x, z', t') -> HI b h0 (t_st t').
  Proof.
    intros Ht Hs. apply (step_inv_state (hstore c) c (HI b h0)) with (6 := Hs); auto.
    - intros s n ty cov r. apply h_get_cls.
    - intros s n r s' Hi _. apply put_frame; exact Hi.
    - intros s n s'. apply del_name_frame.
    - intros s n ty cov s'. apply del_rds_frame.
  Qed.
End Frame.

Definition hz_ok (z : hzone) : Prop := ids_ok (fst z) (snd z) /\ NoDup (map snd (snd z)).

Lemma HI_begin c z mode : HI (length (fst z)) (fst z) (t_st (open_txn (hstore c) mode z)).
Proof.
  unfold open_txn. destruct (mode =? 2); cbn [t_st s_begin hstore];
    (split; [intros k id H; discriminate|apply agree_refl]).
Qed.

(* Whatever sequence of calls succeeds inside a transaction opened on the published zone z - and whether
   the transaction then commits, rolls back or is abandoned - every node object that existed when it began
   still holds exactly what it held: in particular the objects the published map points to.  Neither the
   shape of the published map nor the names the calls are given matter. *)
Theorem node_objects_never_mutated c z mode ops t' :
  final_txn (hstore c) c ops z (open_txn (hstore c) mode z) = Some t' ->
  forall id, (id < length (fst z))%nat -> hnode (hv_heap (t_st t')) id = hnode (fst z) id.
Proof.
  intros Hf. rewrite final_txn_g in Hf.
  refine (proj2 (proj2 (g_final_inv _ (fun t => HI _ _ (t_st t)) ops _ _ _ t' (HI_begin c z mode) Hf))).
  intros o zz t x z' t0 _. apply step_frame.
Qed.

Theorem published_objects_never_mutated c z mode ops t' :
  ids_ok (fst z) (snd z) -> Forall op_valid ops ->
  final_txn (hstore c) c ops z (open_txn (hstore c) mode z) = Some t' ->
  forall id, (id < length (fst z))%nat -> hnode (hv_heap (t_st t')) id = hnode (fst z) id.
Proof. intros _ _. apply node_objects_never_mutated. Qed.

(* (2) the object level refines the value level *)
Definition RSh (hv : hver) (v : version) : Prop :=
  v_nodes v = deref (hv_heap hv, hv_nodes hv) /\ v_changed v = hv_changed hv /\
  ids_ok (hv_heap hv) (hv_nodes hv) /\ NoDup (map snd (hv_nodes hv)).

Definition RPh (hz : hzone) (z : nmap) : Prop := z = deref hz /\ hz_ok hz.

Lemma deref_get h m k : map_get (deref (h, m)) k = match amap_get m k with Some id => Some (hnode h id) | None => None end.
Proof.
  unfold deref. cbn [fst snd]. induction m as [|[k' id'] m IH]; cbn [map map_get amap_get fst snd]; [reflexivity|].
  destruct (name_eqb k' k); [reflexivity|exact IH].
Qed.

Lemma deref_app h x m : ids_ok h m -> deref (h ++ x, m) = deref (h, m).
Proof.
  unfold deref. cbn [fst snd]. intros H. apply map_ext_in. intros [k id] Hin. cbn [fst snd]. f_equal.
  apply hnode_app_l. apply H. apply in_map_iff. exists (k, id). auto.
Qed.

Lemma deref_set h m k id : deref (h, amap_set m k id) = map_set (deref (h, m)) k (hnode h id).
Proof.
  unfold deref. cbn [fst snd]. induction m as [|[k' id'] m IH]; cbn [amap_set map map_set fst snd]; [reflexivity|].
  destruct (name_eqb k' k); cbn [map fst snd]; [reflexivity|rewrite IH; reflexivity].
Qed.

Lemma deref_remove h m k : deref (h, amap_remove m k) = map_remove (deref (h, m)) k.
Proof.
  unfold deref. cbn [fst snd]. induction m as [|[k' id'] m IH]; cbn [amap_remove map map_remove fst snd]; [reflexivity|].
  destruct (name_eqb k' k); cbn [map fst snd]; [exact IH|rewrite IH; reflexivity].
Qed.

(* mutating the object of k in place = replacing the value at k: no other name shares the object *)
Lemma deref_hset h m k id nd :
  NoDup (map snd m) -> amap_get m k = Some id -> (id < length h)%nat ->
  deref (hset h id nd, m) = map_set (deref (h, m)) k nd.
Proof.
  unfold deref. cbn [fst snd]. intros N G L.
  induction m as [|[k' id'] m IH]; cbn [amap_get map map_set fst snd] in *; [discriminate|].
  inversion N as [|? ? Hn N']; subst.
  destruct (name_eqb k' k) eqn:E.
  - inversion G; subst id'. rewrite hnode_hset_same by exact L. f_equal.
    apply map_ext_in. intros [k1 id1] Hin. cbn [fst snd]. f_equal. apply hnode_hset_other.
    intros ->. apply Hn. apply in_map_iff. exists (k1, id1). auto.
  - rewrite (IH N' G). f_equal. f_equal. apply hnode_hset_other.
    intros ->. apply Hn. eapply amap_get_in; eauto.
Qed.

Lemma nodup_amap_set m k fresh :
  NoDup (map snd m) -> ~ In fresh (map snd m) -> NoDup (map snd (amap_set m k fresh)).
Proof.
  induction m as [|[k' id'] m IH]; intros N F; cbn [amap_set map snd] in *; [repeat constructor; intros []|].
  inversion N; subst. destruct (name_eqb k' k); cbn [map snd].
  - constructor; [|assumption]. intros Hin. apply F. right. exact Hin.
  - constructor.
    + intros Hin. apply amap_set_ids in Hin. destruct Hin as [->|Hin]; [|contradiction]. apply F. left. reflexivity.
    + apply IH; auto. intros Hin. apply F. right. exact Hin.
Qed.

Lemma fresh_not_in (h : heap) m : ids_ok h m -> ~ In (length h) (map snd m).
Proof. intros H Hin. specialize (H _ Hin). exact (Nat.lt_irrefl _ H). Qed.

Lemma ids_ok_set (h : heap) m k x : ids_ok h m -> ids_ok (h ++ [x]) (amap_set m k (length h)).
Proof.
  intros H i Hin. rewrite app_length. cbn [length]. apply amap_set_ids in Hin. destruct Hin as [->|Hin].
  - apply Nat.lt_succ_r. rewrite Nat.add_1_r. apply Nat.le_refl.
  - specialize (H i Hin). rewrite Nat.add_1_r. apply Nat.lt_lt_succ_r. exact H.
Qed.

Section HeapRefines.
  Variable c : cfg.

  Lemma hsim_node hv v n : RSh hv v -> h_get_node c hv n = get_node c v n.
  Proof.
    intros (Hn & _). unfold h_get_node, get_node. destruct (validate_name c n); cbn [bind]; try reflexivity.
    rewrite Hn, deref_get. reflexivity.
  Qed.

  Lemma hsim_get hv v n ty cov : RSh hv v -> h_get_rdataset c hv n ty cov = get_rdataset c v n ty cov.
  Proof. intros H. unfold h_get_rdataset, get_rdataset. rewrite (hsim_node hv v n H). reflexivity. Qed.

  Definition cow_rel (x : hver * nat * name) (y : version * node * name) : Prop :=
    let '(hv1, id, k) := x in let '(v1, nd, k') := y in
    k = k' /\ RSh hv1 v1 /\ nd = hnode (hv_heap hv1) id /\ amap_get (hv_nodes hv1) k = Some id /\
    (id < length (hv_heap hv1))%nat.

  Lemma hsim_cow hv v n : RSh hv v -> res_rel cow_rel (h_maybe_cow c hv n) (maybe_cow c v n).
  Proof.
    intros (Hn & Hc & Hids & Hnd). unfold h_maybe_cow, maybe_cow.
    destruct (validate_name c n) as [k| |]; cbn [bind res_rel]; auto.
    destruct v as [vn vc]. cbn [v_nodes v_changed] in *. subst vn vc. rewrite deref_get.
    (* a fresh object holding nd, entered under k on both sides *)
    assert (forall nd, cow_rel (mkHver (hv_heap hv ++ [nd]) (amap_set (hv_nodes hv) k (length (hv_heap hv))) (changed_add (hv_changed hv) k),
                                length (hv_heap hv), k)
                               (mkVer (map_set (deref (hv_heap hv, hv_nodes hv)) k nd) (changed_add (hv_changed hv) k), nd, k)) as Knew.
    { intros nd. split; [reflexivity|]. cbn [hv_heap hv_nodes hv_changed]. split; [|split; [|split]].
      - split; [|split; [|split]]; cbn [v_nodes v_changed hv_heap hv_nodes hv_changed].
        + rewrite deref_set, hnode_app_new, deref_app by exact Hids. reflexivity.
        + reflexivity.
        + apply ids_ok_set. exact Hids.
        + apply nodup_amap_set; [exact Hnd|apply fresh_not_in; exact Hids].
      - rewrite hnode_app_new. reflexivity.
      - rewrite amap_get_set, name_eqb_refl. reflexivity.
      - rewrite app_length. cbn. lia. }
    destruct (amap_get (hv_nodes hv) k) as [id|] eqn:G; [|apply Knew].
    destruct (changed_has (hv_changed hv) k); cbn [res_rel]; [|apply Knew].
    repeat split; auto. apply Hids. eapply amap_get_in; eauto.
  Qed.

  Lemma RSh_hset hv v k id nd :
    RSh hv v -> amap_get (hv_nodes hv) k = Some id -> (id < length (hv_heap hv))%nat ->
    RSh (mkHver (hset (hv_heap hv) id nd) (hv_nodes hv) (hv_changed hv))
        (mkVer (map_set (v_nodes v) k nd) (v_changed v)).
  Proof.
    intros (Hn & Hc & Hids & Hnd) G L. split; [|split; [|split]]; cbn [v_nodes v_changed hv_heap hv_nodes hv_changed]; auto.
    - rewrite Hn. symmetry. apply deref_hset; auto.
    - intros i Hin. rewrite hset_length. auto.
  Qed.

  Lemma hsim_put hv v n r : RSh hv v -> res_rel RSh (h_put_rdataset c hv n r) (put_rdataset c v n r).
  Proof.
    intros HR. unfold h_put_rdataset, put_rdataset. pose proof (hsim_cow hv v n HR) as Cw.
    destruct (h_maybe_cow c hv n) as [[[hv1 id] k]| |], (maybe_cow c v n) as [[[v1 nd] k']| |];
      cbn in Cw |- *; try contradiction; auto.
    destruct Cw as (<- & HR1 & -> & G & L). apply RSh_hset; auto.
  Qed.

  Lemma amap_has_deref h m k : amap_has m k = map_has (deref (h, m)) k.
  Proof. unfold amap_has, map_has. rewrite deref_get. destruct (amap_get m k); reflexivity. Qed.

  Lemma RSh_remove hv v k ch :
    RSh hv v -> RSh (mkHver (hv_heap hv) (amap_remove (hv_nodes hv) k) ch) (mkVer (map_remove (v_nodes v) k) ch).
  Proof.
    intros (Hn & Hc & Hids & Hnd). split; [|split; [|split]]; cbn [v_nodes v_changed hv_heap hv_nodes hv_changed]; auto.
    - rewrite Hn, deref_remove. reflexivity.
    - intros i Hin. apply Hids. eapply amap_remove_ids; eauto.
    - clear -Hnd. induction (hv_nodes hv) as [|[k' id'] m IH]; cbn [amap_remove map snd] in *; [constructor|].
      inversion Hnd; subst. destruct (name_eqb k' k); cbn [map snd]; [auto|].
      constructor; [|auto]. intros Hin. apply H1. eapply amap_remove_ids; eauto.
  Qed.

  Lemma hsim_del_rds hv v n ty cov : RSh hv v -> res_rel RSh (h_delete_rdataset c hv n ty cov) (delete_rdataset c v n ty cov).
  Proof.
    intros HR. unfold h_delete_rdataset, delete_rdataset. pose proof (hsim_cow hv v n HR) as Cw.
    destruct (h_maybe_cow c hv n) as [[[hv1 id] k]| |], (maybe_cow c v n) as [[[v1 nd] k']| |];
      cbn in Cw |- *; try contradiction; auto.
    destruct Cw as (<- & HR1 & -> & G & L).
    pose proof (RSh_hset hv1 v1 k id (node_delete (hnode (hv_heap hv1) id) cIN ty cov) HR1 G L) as H2.
    destruct (node_delete (hnode (hv_heap hv1) id) cIN ty cov) as [|x nd'] eqn:D.
    - unfold amap_del, map_del. destruct HR1 as (Hn1 & Hc1 & _). rewrite (amap_has_deref (hv_heap hv1)), <- Hn1.
      destruct (map_has (v_nodes v1) k); cbn [bind res_rel]; [|reflexivity].
      pose proof (RSh_remove _ _ k (hv_changed hv1) H2) as H3. cbn [hv_heap hv_nodes v_nodes] in H3.
      rewrite Hc1. replace (map_remove (v_nodes v1) k) with (map_remove (map_set (v_nodes v1) k []) k)
        by apply map_remove_set. exact H3.
    - cbn [res_rel]. exact H2.
  Qed.

  Lemma hsim_del_name hv v n : RSh hv v -> res_rel RSh (h_delete_node c hv n) (delete_node c v n).
  Proof.
    intros HR. unfold h_delete_node, delete_node. destruct (validate_name c n) as [k| |]; cbn [bind res_rel]; auto.
    pose proof HR as (Hn & Hc & _). rewrite (amap_has_deref (hv_heap hv)), <- Hn.
    destruct (map_has (v_nodes v) k); cbn [res_rel]; [|exact HR]. rewrite Hc. apply RSh_remove. exact HR.
  Qed.

  Lemma hstore_sim : store_sim (hstore c) (zstore c) EV RSh RPh false (fun _ => True).
  Proof.
    split.
    - intros s1 s2 (Hn & _ & H1 & H2). cbn [s_publish hstore zstore]. split; [exact Hn|split; assumption].
    - intros s1 s2 n1 n2 ty cov HR [-> _]. apply hsim_get; auto.
    - intros s1 s2 n ty cov r _ G. split; [exact (get_cls c _ _ _ _ _ G)|exact Logic.I].
    - intros s1 s2 n1 n2 r HR [-> _] _ _. apply hsim_put; auto.
    - intros s1 s2 n1 n2 HR [-> _]. apply hsim_del_name; auto.
    - intros s1 s2 n1 n2 ty cov HR [-> _]. apply hsim_del_rds; auto.
    - intros s1 s2 n1 n2 HR [-> _]. cbn [s_exists hstore zstore]. rewrite (hsim_node s1 s2 n2 HR). reflexivity.
    - intros s1 s2 n1 n2 HR [-> _]. apply hsim_node; auto.
    - intros s1 s2 (_ & Hc & _). cbn [s_changed hstore zstore]. rewrite Hc. reflexivity.
    - discriminate.
  Qed.

  (* every history: same results, and the published object-level zone dereferences to the published
     value-level zone *)
  Theorem heap_refines_value h hz z :
    Forall spec_valid h -> RPh hz z ->
    Forall2 (ROut RPh) (heap_hist c h hz) (impl_hist c h z).
  Proof.
    apply (sim_valid_hist _ _ c _ _ hstore_sim).
    intros z1 z2 b [-> [H1 H2]]. cbn [s_begin hstore zstore]. destruct b.
    - split; [reflexivity|split; [reflexivity|split; [intros i []|constructor]]].
    - split; [destruct z1; reflexivity|split; [reflexivity|split; assumption]].
  Qed.
End HeapRefines.

Lemma RPh_empty : RPh ([], []) [].
Proof. split; [reflexivity|split; [intros i []|constructor]]. Qed.
