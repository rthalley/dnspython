(* APL items: [!]family:address/prefix.  The printed item is one tokenizer word, the family digits contain no
   colon and the address text no slash, so the two str.split(sep, 1) calls of from_text cut where to_text joined. *)
From DV Require Import Base.Prelude Model.NameM Model.TokM Model.RdTextM.
From DV Require Import Proofs.ListFacts Proofs.TokEsc Proofs.TokWords Proofs.TokDec Proofs.TokHex Proofs.TokShape Proofs.RdTextAddr
     Proofs.RdTextFmtHex.
Open Scope Z_scope.

Notation ns47 := (no_sep 47).

Lemma split_once_app sep a b : no_sep sep a = true -> split_once sep (a ++ sep :: b) = Some (a, b).
Proof.
  induction a as [|c a IH]; intros H; cbn [app split_once].
  - rewrite Z.eqb_refl. reflexivity.
  - unfold no_sep in H. cbn [forallb] in H. apply andb_true_iff in H as [Hc H]. apply negb_true_iff in Hc.
    rewrite Hc. rewrite (IH H). reflexivity.
Qed.

Lemma decimal_nosep sep s : sep <? 48 = true \/ 57 <? sep = true -> forallb is_decimal s = true -> no_sep sep s = true.
Proof.
  intros Hsep H. unfold no_sep. rewrite forallb_forall in *. intros c Hc. specialize (H c Hc).
  unfold is_decimal in H. apply negb_true_iff. lia.
Qed.

Lemma dec_ns sep n : 0 <= n -> sep <? 48 = true \/ 57 <? sep = true -> no_sep sep (dec n) = true.
Proof. intros Hn Hs. apply decimal_nosep; [exact Hs|apply dec_decimal, Hn]. Qed.

(* address texts contain no separator character below "0" other than "." *)
Section NoSep.
  Variable sep : Z.
  Hypothesis Hlow : sep <? 48 = true.
  Hypothesis Hdot : (46 =? sep) = false.
  Notation ns := (no_sep sep).

  Lemma ns_single c : (c =? sep) = false -> ns [c] = true.
  Proof. intros H. unfold no_sep. cbn [forallb]. rewrite H. reflexivity. Qed.

  Lemma v4text_nosep b0 b1 b2 b3 : 0 <= b0 -> 0 <= b1 -> 0 <= b2 -> 0 <= b3 -> ns (v4text b0 b1 b2 b3) = true.
  Proof.
    intros. unfold v4text.
    repeat (apply no_sep_app; [apply dec_ns; [assumption|left; exact Hlow]|];
            change (ns (46 :: ?x)) with (ns ([46] ++ x)); apply no_sep_app; [apply ns_single, Hdot|]).
    apply dec_ns; [assumption|left; exact Hlow].
  Qed.

  Lemma ipv4_ntoa_nosep a t : all_bytes a = true -> ipv4_ntoa a = Ok t -> ns t = true.
  Proof.
    intros Hb. destruct a as [|a0 [|a1 [|a2 [|a3 [|? ?]]]]]; cbn [ipv4_ntoa]; try discriminate.
    cbn [all_bytes forallb] in Hb. repeat (apply andb_true_iff in Hb as [? Hb]).
    repeat match goal with H : is_byte _ = true |- _ => apply is_byte_range in H end.
    intros E. inversion E. apply (v4text_nosep a0 a1 a2 a3); lia.
  Qed.

  Lemma chunk_nosep v : 0 <= v < 65536 -> ns (chunk_of v) = true.
  Proof. intros Hv. apply hexchars_nosep; [rewrite Hlow; reflexivity|apply chunk_hexchars, Hv]. Qed.

  Lemma colon_ns : ns [58] = true /\ ns [58; 58] = true.
  Proof. assert ((58 =? sep) = false) by lia. unfold no_sep. cbn [forallb]. rewrite H. split; reflexivity. Qed.

  Lemma join_nosep vs : Forall (fun v => 0 <= v < 65536) vs -> ns (join_colon (map chunk_of vs)) = true.
  Proof.
    induction 1 as [|v vs Hv H IH]; [reflexivity|]. destruct vs as [|v2 vs]; [cbn [map join_colon]; apply chunk_nosep, Hv|].
    change (join_colon (map chunk_of (v :: v2 :: vs))) with (chunk_of v ++ [58] ++ join_colon (map chunk_of (v2 :: vs))).
    apply no_sep_app; [apply chunk_nosep, Hv|]. apply no_sep_app; [apply colon_ns|exact IH].
  Qed.

  Theorem ipv6_ntoa_nosep a t : all_bytes a = true -> ipv6_ntoa a = Ok t -> ns t = true.
  Proof.
    intros Hb. unfold ipv6_ntoa. destruct (Nat.eqb (length a) 16) eqn:EL; cbn [negb]; [|discriminate].
    pose proof (pairs16_range a Hb) as HR.
    change (map (fun v => strip0 (hex4 v)) (pairs16 a)) with (map chunk_of (pairs16 a)).
    destruct (zrun (map chunk_of (pairs16 a))) as [bs bl].
    destruct (bl >? 1).
    - destruct ((bs =? 0) && ((bl =? 6) || (bl =? 5) && zlist_eqb (nth 5 (map chunk_of (pairs16 a)) []) [102; 102; 102; 102])).
      + destruct (ipv4_ntoa (skipn 12 a)) as [v4| |] eqn:E4; cbn [bind]; try discriminate.
        assert (Hs : all_bytes (skipn 12 a) = true).
        { unfold all_bytes in *. rewrite forallb_forall in *. intros x Hx. apply Hb. eapply In_skipn; eauto. }
        intros E. inversion E. apply no_sep_app; [|apply (ipv4_ntoa_nosep _ _ Hs E4)].
        assert (E58 : (58 =? sep) = false) by lia. assert (E102 : (102 =? sep) = false) by lia.
        destruct (bl =? 6); unfold no_sep; cbn [forallb]; rewrite ?E58, ?E102; reflexivity.
      + intros E. inversion E. rewrite firstn_map, skipn_map.
        apply no_sep_app; [apply join_nosep, Forall_firstn, HR|].
        change (58 :: 58 :: ?x) with ([58; 58] ++ x). apply no_sep_app; [apply colon_ns|apply join_nosep, Forall_skipn, HR].
    - intros E. inversion E. apply join_nosep, HR.
  Qed.
End NoSep.

Definition ipv4_ntoa_noslash := ipv4_ntoa_nosep 47 eq_refl eq_refl.
Definition ipv6_ntoa_noslash := ipv6_ntoa_nosep 47 eq_refl eq_refl.
Definition ipv4_ntoa_nocomma := ipv4_ntoa_nosep 44 eq_refl eq_refl.
Definition ipv6_ntoa_nocomma := ipv6_ntoa_nosep 44 eq_refl eq_refl.

(* the hex text of an unknown family *)
Lemma hexval_hexdigit c v : hexval c = Some v -> is_hexdigit c = true.
Proof.
  unfold hexval, digit_val, is_hexdigit.
  destruct ((48 <=? c) && (c <=? 57)) eqn:E1; [intros _; lia|].
  destruct ((97 <=? c) && (c <=? 122)) eqn:E2.
  - destruct (c - 87 <? 16) eqn:E; [intros _; lia|discriminate].
  - destruct ((65 <=? c) && (c <=? 90)) eqn:E3; [|discriminate].
    destruct (c - 55 <? 16) eqn:E; [intros _; lia|discriminate].
Qed.

Lemma unhexlify_hexdigits : forall s d, unhexlify s = Ok d -> forallb is_hexdigit s = true.
Proof.
  fix IH 1. intros [|a [|b r]] d H; cbn [unhexlify] in H; [reflexivity|discriminate|].
  destruct (hexval a) as [x|] eqn:Ea; try discriminate. destruct (hexval b) as [y|] eqn:Eb; try discriminate.
  destruct (unhexlify r) as [t| |] eqn:Er; cbn [bind] in H; try discriminate.
  cbn [forallb]. rewrite (hexval_hexdigit a x Ea), (hexval_hexdigit b y Eb), (IH r t Er). reflexivity.
Qed.

Lemma hexdigits_facts s : forallb is_hexdigit s = true -> forallb safe s = true /\ all_ascii s = true /\ ns47 s = true.
Proof.
  induction s as [|c s IH]; intros H; [repeat split; reflexivity|].
  cbn [forallb] in H. apply andb_true_iff in H as [Hc H]. destruct (IH H) as (I1 & I2 & I3).
  pose proof (hexdigit_char_safe c Hc) as Sc. unfold all_ascii, no_sep in *. cbn [forallb]. rewrite Sc, I1, I2, I3.
  unfold is_hexdigit in Hc. repeat split; try reflexivity.
  - replace ((0 <=? c) && (c <? 128)) with true by lia. reflexivity.
  - replace (negb (c =? 47)) with true by lia. reflexivity.
Qed.

Definition item_ok (it : aplitem) : Prop :=
  let '(family, neg, addr, prefix) := it in
  if family =? 1 then all_bytes addr = true /\ length addr = 4%nat /\ 0 <= prefix <= 32
  else if family =? 2 then all_bytes addr = true /\ length addr = 16%nat /\ 0 <= prefix <= 128
  else 0 <= family <= 65535 /\ zlen addr <= 127 /\ (exists d, unhexlify addr = Ok d) /\ 0 <= prefix <= 255.

Theorem apl_item_roundtrip it t : item_ok it -> apl_item_text it = Ok t ->
  forallb safe t = true /\ t <> [] /\ apl_item_of_token (utok t) = Ok it.
Proof.
  destruct it as [[[family neg] addr] prefix]. unfold item_ok, apl_item_text. intros Hok Ht.
  (* the address text a, its properties, and how the constructor reads it back *)
  assert (HA : exists a, (if family =? 1 then ipv4_ntoa addr else if family =? 2 then ipv6_ntoa addr else Ok addr) = Ok a /\
                 forallb safe a = true /\ ns47 a = true /\ 0 <= family <= 65535 /\ 0 <= prefix <= 255 /\
                 apl_ctor family neg a prefix = Ok (family, neg, addr, prefix)).
  { unfold apl_ctor. destruct (family =? 1) eqn:E1.
    - destruct Hok as (Hb & Hl & Hp). apply Z.eqb_eq in E1. subst family.
      destruct (ipv4_roundtrip addr Hb Hl) as (a & En & Ea). exists a. split; [exact En|].
      destruct (ipv4_ntoa_word addr a Hb En) as [S _]. split; [exact S|]. split; [apply (ipv4_ntoa_noslash addr a Hb En)|].
      split; [lia|]. split; [lia|]. cbn [Z.ltb Z.gtb Z.compare orb Z.eqb Pos.eqb]. rewrite Ea. cbn [bind].
      replace ((prefix <? 0) || (prefix >? 32)) with false by lia. reflexivity.
    - destruct (family =? 2) eqn:E2.
      + destruct Hok as (Hb & Hl & Hp). apply Z.eqb_eq in E2. subst family.
        destruct (ipv6_roundtrip addr Hb Hl) as (a & En & Ea). exists a. split; [exact En|].
        destruct (ipv6_ntoa_word addr a Hb En) as [S _]. split; [exact S|]. split; [apply (ipv6_ntoa_noslash addr a Hb En)|].
        split; [lia|]. split; [lia|]. cbn [Z.ltb Z.gtb Z.compare orb Z.eqb Pos.eqb]. rewrite Ea. cbn [bind].
        replace ((prefix <? 0) || (prefix >? 128)) with false by lia. reflexivity.
      + destruct Hok as (Hf & Hl & (d & Hd) & Hp). exists addr. split; [reflexivity|].
        destruct (hexdigits_facts addr (unhexlify_hexdigits addr d Hd)) as (S & A & N).
        split; [exact S|]. split; [exact N|]. split; [exact Hf|]. split; [exact Hp|].
        replace ((family <? 0) || (family >? 65535)) with false by lia.
        rewrite utf8_ascii by exact A. cbn [bind]. replace (zlen addr >? 127) with false by lia. rewrite Hd. cbn [bind].
        replace ((prefix <? 0) || (prefix >? 255)) with false by lia. reflexivity. }
  destruct HA as (a & Ea & Sa & Na & Hf & Hp & Hctor). rewrite Ea in Ht. cbn [bind] in Ht. inversion Ht; subst t. clear Ht.
  set (body := dec family ++ 58 :: a ++ 47 :: dec prefix).
  change ((if neg then [33] else []) ++ dec family ++ [58] ++ a ++ [47] ++ dec prefix) with ((if neg then [33] else []) ++ body).
  assert (Sbody : forallb safe body = true).
  { unfold body. apply safe_app; [apply dec_safe; lia|]. change (58 :: ?x) with ([58] ++ x). apply safe_app; [reflexivity|].
    apply safe_app; [exact Sa|]. change (47 :: ?x) with ([47] ++ x). apply safe_app; [reflexivity|apply dec_safe; lia]. }
  assert (Hparse : forall pre, (* the part after the optional "!" *)
            match split_once 58 body with
            | Some (fam, rest) =>
                match py_int 10 fam with
                | Some fv => match split_once 47 rest with
                             | Some (ad, pfx) => match py_int 10 pfx with Some pv => apl_ctor fv pre ad pv | None => Internal iValueError end
                             | None => Internal iValueError
                             end
                | None => Internal iValueError
                end
            | None => Internal iValueError
            end = apl_ctor family pre a prefix).
  { intros pre. unfold body. rewrite (split_once_app 58 (dec family)) by (apply dec_ns; [lia|right; reflexivity]).
    rewrite py_int_dec by lia. rewrite (split_once_app 47 a) by exact Na. rewrite py_int_dec by lia. reflexivity. }
  assert (Hd0 : exists d0 dr, dec family = d0 :: dr /\ (d0 =? 33) = false).
  { pose proof (dec_decimal family ltac:(lia)) as D. pose proof (dec_nonempty family) as N.
    destruct (dec family) as [|d0 dr]; [congruence|]. exists d0, dr. split; [reflexivity|].
    cbn [forallb] in D. apply andb_true_iff in D as [D _]. unfold is_decimal in D. lia. }
  destruct Hd0 as (d0 & dr & Ed & E33).
  assert (St : forallb safe ((if neg then [33] else []) ++ body) = true) by (destruct neg; [apply safe_app|]; auto).
  split; [exact St|]. unfold apl_item_of_token. rewrite unescape_utok by exact St. cbn [bind tvalue].
  (* "!" is the first character exactly when the item is negated: a number does not begin with it *)
  destruct neg.
  - split; [discriminate|]. change (([33] ++ body)) with (33 :: body). cbv iota.
    change (33 =? 33) with true. cbv iota. rewrite (Hparse true). exact Hctor.
  - change ([] ++ body) with body.
    assert (Eb : body = d0 :: (dr ++ 58 :: a ++ 47 :: dec prefix)) by (unfold body; rewrite Ed; reflexivity).
    split; [rewrite Eb; discriminate|]. rewrite Eb. rewrite E33. cbv iota. rewrite <- Eb. rewrite (Hparse false). exact Hctor.
Qed.

From DV Require Import Proofs.RdTextTypes Proofs.RdTextTail.

Lemma join_sp_cons_spaced t ts : join_sp (t :: ts) = t ++ spaced ts.
Proof.
  destruct ts as [|t2 r]; [cbn [join_sp spaced flat_map]; rewrite app_nil_r; reflexivity|].
  change (join_sp (t :: t2 :: r)) with (t ++ 32 :: join_sp (t2 :: r)). rewrite join_sp_spaced by discriminate. reflexivity.
Qed.

Lemma apl_items_texts items : Forall item_ok items -> forall ts, map_res apl_item_text items = Ok ts ->
  Forall uword ts /\ Forall (fun t => forallb safe t = true) ts /\ map_res apl_item_of_token (map utok ts) = Ok items.
Proof.
  induction 1 as [|it items Hit _ IH]; intros ts E.
  - inversion E; subst. repeat split; constructor.
  - cbn [map_res] in E. destruct (apl_item_text it) as [t| |] eqn:E1; cbn [bind] in E; try discriminate.
    destruct (map_res apl_item_text items) as [ts'| |] eqn:E2; cbn [bind] in E; try discriminate.
    inversion E; subst ts. destruct (IH ts' eq_refl) as (I1 & I2 & I3).
    destruct (apl_item_roundtrip it t Hit E1) as (S & N & P).
    split; [constructor; [split; [apply units_safe, S|exact N]|exact I1]|].
    split; [constructor; assumption|]. cbn [map map_res]. rewrite P. cbn [bind]. rewrite I3. reflexivity.
Qed.
