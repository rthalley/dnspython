(* C19 - in-order traversal lemmas (elements of a node around one child: zipl / zipr), the shape
   predicate wfn (occupancy, children count, uniform leaf depth; its root form wfr is in BTreeInsert.v,
   the property-level `wf` in BTreeLookup.v), and what split / steal / merge do to shape and traversal. *)
From DV Require Import Base.Prelude Proofs.ListFacts Model.BTreeM Proofs.BTreeBase.

Notation E := (fun k : tree => elements k).

(* the traversal of a node to the left of one of its children (children, each followed by its
   key) and to the right of it (keys, each followed by its child): see elements_split *)
Fixpoint zipl (ks : list tree) (es : list elt) : list elt :=
  match ks, es with
  | k :: ks', e :: es' => elements k ++ e :: zipl ks' es'
  | _, _ => []
  end.

Fixpoint zipr (es : list elt) (ks : list tree) : list elt :=
  match es, ks with
  | e :: es', k :: ks' => e :: elements k ++ zipr es' ks'
  | _, _ => []
  end.

Lemma elements_node es ks : elements (Node false es ks) = interleave E es ks.
Proof. reflexivity. Qed.
Lemma elements_leaf es ks : elements (Node true es ks) = es.
Proof. reflexivity. Qed.

Lemma interleave_tail eb c kb : length kb = length eb -> interleave E eb (c :: kb) = elements c ++ zipr eb kb.
Proof.
  revert c kb. induction eb as [|e eb IH]; intros c kb Hl; destruct kb as [|k kb]; try discriminate; cbn.
  - now rewrite app_nil_r.
  - f_equal. f_equal. apply IH. cbn in Hl. lia.
Qed.

Lemma interleave_split ea eb ka c kb :
  length ka = length ea -> interleave E (ea ++ eb) (ka ++ c :: kb) = zipl ka ea ++ interleave E eb (c :: kb).
Proof.
  revert ea. induction ka as [|k ka IH]; intros ea Hl; destruct ea as [|e ea]; try discriminate.
  - reflexivity.
  - cbn [app zipl interleave]. rewrite <- app_assoc. cbn [app]. f_equal. f_equal. apply IH. cbn in Hl. lia.
Qed.

Lemma elements_split ea eb ka c kb :
  length ka = length ea -> length kb = length eb ->
  elements (Node false (ea ++ eb) (ka ++ c :: kb)) = zipl ka ea ++ elements c ++ zipr eb kb.
Proof. intros H1 H2. rewrite elements_node, interleave_split, interleave_tail by assumption. reflexivity. Qed.

Lemma elements_split2 ea pe eb ka l r kb :
  length ka = length ea -> length kb = length eb ->
  elements (Node false (ea ++ pe :: eb) (ka ++ l :: r :: kb))
  = zipl ka ea ++ (elements l ++ pe :: elements r) ++ zipr eb kb.
Proof.
  intros H1 H2. rewrite elements_split by (cbn; lia). cbn [zipr]. rewrite <- !app_assoc. reflexivity.
Qed.

Lemma interleave_app es1 e es2 ks1 ks2 :
  length ks1 = S (length es1) -> length ks2 = S (length es2) ->
  interleave E (es1 ++ e :: es2) (ks1 ++ ks2) = interleave E es1 ks1 ++ e :: interleave E es2 ks2.
Proof.
  revert ks1. induction es1 as [|e0 es1 IH]; intros ks1 H1 H2.
  - destruct ks1 as [|k0 [|]]; try discriminate. cbn. destruct ks2; [discriminate|]. reflexivity.
  - destruct ks1 as [|k0 ks1]; [discriminate|]. cbn [app interleave]. rewrite IH by (cbn in H1; lia).
    now rewrite <- app_assoc.
Qed.

Lemma interleave_snoc es ks e k :
  length ks = S (length es) -> interleave E (es ++ [e]) (ks ++ [k]) = interleave E es ks ++ e :: elements k.
Proof. intros Hl. exact (interleave_app es e [] ks [k] Hl eq_refl). Qed.

Lemma in_zipl x ka ea : length ka = length ea -> In x ea -> In x (zipl ka ea).
Proof.
  revert ea. induction ka as [|k ka IH]; intros [|e ea] Hl; try discriminate; cbn; [tauto|].
  intros [->|H]; apply in_or_app; right; [now left|right]. apply IH; [cbn in Hl; lia|assumption].
Qed.

Lemma in_zipr x eb kb : length kb = length eb -> In x eb -> In x (zipr eb kb).
Proof.
  revert kb. induction eb as [|e eb IH]; intros [|k kb] Hl; try discriminate; cbn; [tauto|].
  intros [->|H]; [now left|right]. apply in_or_app; right. apply IH; [cbn in Hl; lia|assumption].
Qed.

Lemma zipl_lt ka ea k : length ka = length ea -> ksorted (zipl ka ea) -> all_lt ea k -> all_lt (zipl ka ea) k.
Proof.
  revert ea. induction ka as [|c ka IH]; intros [|e ea] Hl Hs Hlt; try discriminate; cbn in *; try constructor.
  inversion Hlt; subst. apply ksorted_mid in Hs as (Ha1 & Ha2 & Ha3 & Ha4).
  apply all_lt_app; split.
  - eapply all_lt_weaken; [|exact Ha1]. lia.
  - constructor; [assumption|]. apply IH; [lia|assumption|assumption].
Qed.

Lemma zipr_gt eb kb k : ksorted (zipr eb kb) -> all_gt eb k -> all_gt (zipr eb kb) k.
Proof.
  revert kb. induction eb as [|e eb IH]; intros [|c kb] Hs Hgt; cbn in *; try constructor.
  - inversion Hgt; subst. assumption.
  - inversion Hgt; subst. destruct Hs as (Hg & Hs). eapply all_gt_weaken; [|exact Hg]. lia.
Qed.

(* the children of an internal node, lined up with a given split of its keys *)
Lemma kids_at {A B} (ea eb : list A) (ks : list B) :
  length ks = S (length (ea ++ eb)) ->
  exists ka c kb, ks = ka ++ c :: kb /\ length ka = length ea /\ length kb = length eb.
Proof.
  rewrite app_length. intros Hl.
  destruct (split_at_ok (length ea) ks) as (ka & c & kb & _ & -> & Hka); [lia|].
  exists ka, c, kb. rewrite app_length in Hl. cbn in Hl. repeat split; [assumption|lia].
Qed.

Lemma kids_at2 {A B} (ea : list A) pe eb (ks : list B) :
  length ks = S (length (ea ++ pe :: eb)) ->
  exists ka l r kb, ks = ka ++ l :: r :: kb /\ length ka = length ea /\ length kb = length eb.
Proof.
  intros Hl. destruct (kids_at ea (pe :: eb) ks Hl) as (ka & l & [|r kb] & -> & H1 & H2); [discriminate|].
  injection H2 as H2. now exists ka, l, r, kb.
Qed.

Lemma node_decomp1 {A B} (es : list A) (ks : list B) i :
  length ks = S (length es) -> (i <= length es)%nat ->
  exists ea eb ka c kb, es = ea ++ eb /\ ks = ka ++ c :: kb /\ length ea = i /\ length ka = i /\ length kb = length eb.
Proof.
  intros Hl Hi. destruct (list_split_at es i Hi) as (ea & eb & -> & Hea).
  destruct (kids_at ea eb ks Hl) as (ka & c & kb & -> & H1 & H2).
  exists ea, eb, ka, c, kb. repeat split; congruence.
Qed.

Section WF.
Variable t : nat.
Hypothesis Ht : (3 <= t)%nat.

(* wfn lo h n : n is a subtree of height h, every node below it holds t-1..2t-1 keys, n itself
   holds lo..2t-1 keys, internal nodes have one more child than keys, all leaves at depth h *)
Inductive wfn : nat -> nat -> tree -> Prop :=
| wfn_leaf lo es : (lo <= length es <= t_max t)%nat -> wfn lo 1 (Node true es [])
| wfn_node lo h es ks :
    (lo <= length es <= t_max t)%nat -> length ks = S (length es) ->
    Forall (wfn (t_min t) h) ks -> wfn lo (S h) (Node false es ks).

Lemma wfn_inv lo h lf es ks :
  wfn lo h (Node lf es ks) ->
  (lo <= length es <= t_max t)%nat /\
  ((lf = true /\ h = 1%nat /\ ks = []) \/
   (lf = false /\ exists h', h = S h' /\ length ks = S (length es) /\ Forall (wfn (t_min t) h') ks)).
Proof.
  inversion 1; subst; (split; [assumption|]); [left; auto|right].
  split; [reflexivity|]. eexists. auto.
Qed.

Lemma wfn_node_inv lo h es ks :
  wfn lo (S h) (Node false es ks) ->
  (lo <= length es <= t_max t)%nat /\ length ks = S (length es) /\ Forall (wfn (t_min t) h) ks.
Proof. inversion 1. auto. Qed.

Lemma wfn_leaf_inv lo h es ks :
  wfn lo h (Node true es ks) -> h = 1%nat /\ ks = [] /\ (lo <= length es <= t_max t)%nat.
Proof. inversion 1. auto. Qed.

Lemma wfn_kid lo h es ka c kb : wfn lo (S h) (Node false es (ka ++ c :: kb)) -> wfn (t_min t) h c.
Proof. now intros (_ & _ & (_ & Hc & _)%Forall_mid)%wfn_node_inv. Qed.

Lemma wfn_kids2 lo h es ka l r kb :
  wfn lo (S h) (Node false es (ka ++ l :: r :: kb)) -> wfn (t_min t) h l /\ wfn (t_min t) h r.
Proof. now intros (_ & _ & (_ & Hl & (Hr & _)%Forall_cons_iff)%Forall_mid)%wfn_node_inv. Qed.

(* the height tells leaves from internal nodes *)
Lemma wfn_height_1 lo n : wfn lo 1 n -> exists es, n = Node true es [] /\ (lo <= length es <= t_max t)%nat.
Proof.
  inversion 1 as [? es Hb|? ? es ks Hb Hk Hall]; subst; [eauto|].
  destruct ks as [|k ks]; [discriminate|]. apply Forall_inv in Hall. inversion Hall.
Qed.

Lemma wfn_height_S lo h n :
  wfn lo (S (S h)) n ->
  exists es ks, n = Node false es ks /\ (lo <= length es <= t_max t)%nat /\ length ks = S (length es) /\
                Forall (wfn (t_min t) (S h)) ks.
Proof. inversion 1 as [|? ? es ks]. now exists es, ks. Qed.

(* an internal node stays well-formed when children are replaced, one is split, or two are merged *)
Lemma wfn_replace1 lo h ea eb ka c kb c' :
  wfn lo (S h) (Node false (ea ++ eb) (ka ++ c :: kb)) -> wfn (t_min t) h c' ->
  wfn lo (S h) (Node false (ea ++ eb) (ka ++ c' :: kb)).
Proof.
  intros H Hc. apply wfn_node_inv in H as (Hb & Hk & Hall).
  constructor; [assumption|rewrite app_length in *; exact Hk|].
  apply Forall_mid in Hall as (H1 & _ & H3). apply Forall_mid. auto.
Qed.

Lemma wfn_replace2 lo h ea pe eb ka l r kb pe' l' r' :
  wfn lo (S h) (Node false (ea ++ pe :: eb) (ka ++ l :: r :: kb)) -> wfn (t_min t) h l' -> wfn (t_min t) h r' ->
  wfn lo (S h) (Node false (ea ++ pe' :: eb) (ka ++ l' :: r' :: kb)).
Proof.
  intros H Hl Hr. apply wfn_node_inv in H as (Hb & Hk & Hall). rewrite !app_length in *.
  constructor; rewrite ?app_length; [exact Hb|exact Hk|].
  apply Forall_mid in Hall as (H1 & _ & H3). apply Forall_cons_iff in H3 as (_ & H3).
  apply Forall_mid. auto.
Qed.

Lemma wfn_split_kid lo h ea eb ka c kb m l r :
  wfn lo (S h) (Node false (ea ++ eb) (ka ++ c :: kb)) -> (length (ea ++ eb) < t_max t)%nat ->
  wfn (t_min t) h l -> wfn (t_min t) h r ->
  wfn lo (S h) (Node false (ea ++ m :: eb) (ka ++ l :: r :: kb)).
Proof.
  intros H Hlen Hl Hr. apply wfn_node_inv in H as (Hb & Hk & Hall). rewrite !app_length in *. cbn [length] in Hk.
  constructor; rewrite ?app_length; cbn [length]; [lia|lia|].
  apply Forall_mid in Hall as (H1 & _ & H3). apply Forall_mid. auto.
Qed.

Lemma wfn_merge_parent lo h ea pe eb ka l r kb m :
  wfn lo (S h) (Node false (ea ++ pe :: eb) (ka ++ l :: r :: kb)) -> wfn (t_min t) h m ->
  wfn (length (ea ++ pe :: eb) - 1) (S h) (Node false (ea ++ eb) (ka ++ m :: kb)).
Proof.
  intros H Hm. apply wfn_node_inv in H as (Hb & Hk & Hall). rewrite !app_length in *. cbn [length] in *.
  constructor; rewrite ?app_length; cbn [length]; [lia|lia|].
  apply Forall_mid in Hall as (H1 & _ & (_ & H3)%Forall_cons_iff). apply Forall_mid. auto.
Qed.

Lemma wfn_same_leaf lo1 lo2 h l r : wfn lo1 h l -> wfn lo2 h r -> n_leaf l = n_leaf r.
Proof.
  intros Hl Hr. destruct h as [|[|h]]; [inversion Hl| |].
  - apply wfn_height_1 in Hl as (? & -> & _), Hr as (? & -> & _). reflexivity.
  - apply wfn_height_S in Hl as (? & ? & -> & _), Hr as (? & ? & -> & _). reflexivity.
Qed.

Lemma wfn_lo lo lo' h n : wfn lo h n -> (lo' <= length (n_elts n))%nat -> wfn lo' h n.
Proof. intros H; inversion H; subst; cbn; intros; constructor; auto; lia. Qed.

Lemma wfn_len lo h n : wfn lo h n -> (lo <= length (n_elts n) <= t_max t)%nat.
Proof. intros H; inversion H; subst; cbn; lia. Qed.

Lemma wfn_pos lo h n : wfn lo h n -> (1 <= h)%nat.
Proof. intros H; inversion H; lia. Qed.

Lemma wfn_depth lo h n : wfn lo h n -> depth n = h.
Proof.
  revert lo n. induction h as [|h IH]; intros lo n H; inversion H as [|? ? es ks _ Hk Hall]; subst; [reflexivity|].
  destruct ks as [|k ks]; [discriminate|]. cbn. f_equal. apply Forall_inv in Hall. eapply IH, Hall.
Qed.

Lemma t_min_lt_max : (t_min t < t_max t)%nat.
Proof. unfold t_min, t_max. lia. Qed.

Lemma is_maximal_ok lo h n : wfn lo h n -> is_maximal t n = Ok (length (n_elts n) =? t_max t)%nat.
Proof.
  intros H. apply wfn_len in H. unfold is_maximal.
  destruct (Nat.ltb_spec (t_max t) (length (n_elts n))); [lia|reflexivity].
Qed.

Lemma is_minimal_ok h n : wfn (t_min t) h n -> is_minimal t n = Ok (length (n_elts n) =? t_min t)%nat.
Proof.
  intros H. apply wfn_len in H. unfold is_minimal.
  destruct (Nat.ltb_spec (length (n_elts n)) (t_min t)); [lia|reflexivity].
Qed.

Lemma in_interleave x es ks : (length es < length ks)%nat -> In x es -> In x (interleave E es ks).
Proof.
  revert ks. induction es as [|e es IH]; intros ks Hl Hin; [destruct Hin|].
  destruct ks as [|k ks]; [cbn in Hl; lia|]. cbn [interleave]. apply in_or_app. right.
  destruct Hin as [->|Hin]; [now left|right]. apply IH; [cbn in Hl; lia|assumption].
Qed.

Lemma interleave_sorted_es es ks : (length es < length ks)%nat -> ksorted (interleave E es ks) -> ksorted es.
Proof.
  revert ks. induction es as [|e es IH]; intros ks Hl Hs; [exact Logic.I|].
  destruct ks as [|k ks]; [cbn in Hl; lia|]. cbn [interleave] in Hs.
  apply ksorted_mid in Hs as (H1 & H2 & H3 & H4). cbn. split.
  - unfold all_gt in *. rewrite Forall_forall in *. intros x Hx. apply H2. apply in_interleave; [cbn in Hl; lia|assumption].
  - apply (IH ks); [cbn in Hl; lia|assumption].
Qed.

Lemma node_es_sorted lo h n : wfn lo h n -> ksorted (elements n) -> ksorted (n_elts n).
Proof.
  intros H Hs. inversion H; subst; cbn in *; [assumption|].
  apply (interleave_sorted_es es ks); [lia|assumption].
Qed.

Lemma kid_sorted ea eb ka c kb :
  length ka = length ea -> length kb = length eb ->
  ksorted (elements (Node false (ea ++ eb) (ka ++ c :: kb))) ->
  ksorted (elements c) /\ ksorted (zipl ka ea) /\ ksorted (zipr eb kb) /\ ksorted (elements c ++ zipr eb kb) /\
  (forall x, In x (elements c) -> all_lt ea (fst x) /\ all_gt eb (fst x)).
Proof.
  intros H1 H2 Hs. rewrite elements_split in Hs by assumption.
  apply ksorted_app in Hs as (Ha & Hcb & Hacb). pose proof Hcb as Hcb'.
  apply ksorted_app in Hcb as (Hc & Hb & Hcb). repeat split; try assumption.
  - unfold all_lt. apply Forall_forall. intros y Hy.
    specialize (Hacb y (in_zipl _ _ _ H1 Hy)). apply all_gt_app in Hacb as (Hacb & _).
    unfold all_gt in Hacb. rewrite Forall_forall in Hacb. now apply Hacb.
  - unfold all_gt. apply Forall_forall. intros y Hy. specialize (Hcb x H).
    unfold all_gt in Hcb. rewrite Forall_forall in Hcb. apply Hcb. now apply in_zipr.
Qed.

(* an element of a node in its context: the traversal around it, which does not change when
   the element is replaced *)
Lemma node_at_elt lo h lf ea e eb ks :
  wfn lo h (Node lf (ea ++ e :: eb) ks) ->
  exists A B, forall x, elements (Node lf (ea ++ x :: eb) ks) = A ++ x :: B /\
                        wfn lo h (Node lf (ea ++ x :: eb) ks).
Proof.
  intros Hw.
  assert (Hlen : forall x, length (ea ++ x :: eb) = length (ea ++ e :: eb)) by (intros; now rewrite !app_length).
  apply wfn_inv in Hw as (Hb & [(-> & -> & ->)|(-> & h' & -> & Hk & Hall)]).
  - exists ea, eb. intros x. split; [reflexivity|]. constructor. now rewrite Hlen.
  - destruct (kids_at2 ea e eb ks Hk) as (ka & l & r & kb & -> & H1 & H2).
    exists (zipl ka ea ++ elements l), (elements r ++ zipr eb kb). intros x. split.
    + rewrite elements_split2 by assumption. now rewrite <- !app_assoc.
    + constructor; rewrite ?Hlen; assumption.
Qed.

(* the child between the keys below k and the keys above k *)
Lemma kid_bounds lo h ea eb ka c kb k :
  length ka = length ea -> length kb = length eb ->
  wfn lo (S h) (Node false (ea ++ eb) (ka ++ c :: kb)) ->
  ksorted (elements (Node false (ea ++ eb) (ka ++ c :: kb))) ->
  all_lt ea k -> all_gt eb k ->
  wfn (t_min t) h c /\ ksorted (elements c) /\ all_lt (zipl ka ea) k /\ all_gt (zipr eb kb) k.
Proof.
  intros H1 H2 Hw Hs Hlt Hgt. pose proof (wfn_kid _ _ _ _ _ _ Hw) as Hc.
  destruct (kid_sorted ea eb ka c kb H1 H2 Hs) as (Hcs & Hzl & Hzr & _).
  auto using zipl_lt, zipr_gt.
Qed.

(* What a descent for key k finds at a well-formed sorted node: the key itself (then replacing
   the element changes only that place of the traversal), a leaf without it, or the child to
   continue in, with everything to its left below k and everything to its right above. *)
Inductive key_view (k : Z) (lo : nat) : nat -> tree -> Prop :=
| kv_here h lf ea v eb ks A B :
    search k (ea ++ (k, v) :: eb) = Ok (length ea, true) ->
    all_lt A k -> all_gt B k ->
    (forall x, elements (Node lf (ea ++ x :: eb) ks) = A ++ x :: B) ->
    (forall x, wfn lo h (Node lf (ea ++ x :: eb) ks)) ->
    key_view k lo h (Node lf (ea ++ (k, v) :: eb) ks)
| kv_absent ea eb :
    search k (ea ++ eb) = Ok (length ea, false) -> all_lt ea k -> all_gt eb k ->
    key_view k lo 1 (Node true (ea ++ eb) [])
| kv_below h ea eb ka c kb :
    search k (ea ++ eb) = Ok (length ea, false) -> all_lt ea k -> all_gt eb k ->
    length ka = length ea -> length kb = length eb ->
    wfn (t_min t) h c -> ksorted (elements c) ->
    all_lt (zipl ka ea) k -> all_gt (zipr eb kb) k ->
    key_view k lo (S h) (Node false (ea ++ eb) (ka ++ c :: kb)).

Lemma key_view_of k lo h n : wfn lo h n -> ksorted (elements n) -> key_view k lo h n.
Proof.
  intros Hw Hs. pose proof (node_es_sorted _ _ _ Hw Hs) as Hes. destruct n as [lf es ks]. cbn [n_elts] in Hes.
  destruct (search_cases k es Hes) as [(ea & v & eb & -> & Hsr & Hlt & Hgt)|(ea & eb & -> & Hsr & Hlt & Hgt)].
  - destruct (node_at_elt _ _ _ _ _ _ _ Hw) as (A & B & HAB).
    rewrite (proj1 (HAB _)) in Hs. apply ksorted_mid in Hs as (HA & HB & _).
    apply kv_here with A B; try assumption; intros x; apply HAB.
  - pose proof Hw as Hi. apply wfn_inv in Hi as (_ & [(-> & -> & ->)|(-> & h' & -> & Hk & _)]).
    + now apply kv_absent.
    + destruct (kids_at ea eb ks Hk) as (ka & c & kb & -> & H1 & H2).
      destruct (kid_bounds _ _ _ _ _ _ _ k H1 H2 Hw Hs Hlt Hgt) as (Hc & Hcs & HA & HB).
      now apply kv_below.
Qed.

Lemma split_node_spec h c :
  wfn (t_min t) h c -> length (n_elts c) = t_max t ->
  exists l m r, split_node t c = Ok (l, m, r) /\ wfn (t_min t) h l /\ wfn (t_min t) h r /\
    length (n_elts l) = t_min t /\ length (n_elts r) = t_min t /\
    elements c = elements l ++ m :: elements r.
Proof.
  intros Hw Hlen. destruct c as [lf es ks]. cbn [n_elts] in Hlen.
  assert (Hmax : t_max t = (t_min t + S (t_min t))%nat) by (unfold t_min, t_max; lia).
  destruct (list_split_at es (t_min t)) as (el & er0 & -> & Hel); [lia|].
  unfold split_node. rewrite (is_maximal_ok _ _ _ Hw). cbn [n_elts]. rewrite Hlen, Nat.eqb_refl. cbn [bind negb].
  rewrite app_length in Hlen. destruct er0 as [|m er]; cbn [length] in Hlen; [lia|].
  rewrite (nth_error_app_mid' _ _ _ _ Hel), firstn_app_exact by assumption.
  change (el ++ m :: er) with (el ++ [m] ++ er) at 1. rewrite app_assoc, skipn_app_exact by (now rewrite last_length, Hel).
  pose proof t_min_lt_max as Htm.
  apply wfn_inv in Hw as (Hb & [(-> & -> & ->)|(-> & h' & -> & Hks & Hall)]).
  - exists (Node true el []), m, (Node true er []). split; [reflexivity|].
    split; [constructor; lia|]. split; [constructor; lia|]. cbn [n_elts elements].
    split; [assumption|]. split; [lia|reflexivity].
  - destruct (list_split_at ks (S (t_min t))) as (kl & kr & -> & Hkl).
    { rewrite Hks, app_length. cbn [length]. lia. }
    rewrite firstn_app_exact, skipn_app_exact by assumption.
    rewrite !app_length in Hks. cbn [length] in Hks.
    apply Forall_app in Hall as (Hl & Hr).
    exists (Node false el kl), m, (Node false er kr). split; [reflexivity|].
    split; [constructor; [lia|lia|assumption]|]. split; [constructor; [lia|lia|assumption]|]. cbn [n_elts].
    split; [assumption|]. split; [lia|]. rewrite !elements_node. apply interleave_app; lia.
Qed.

(* nothing to steal: no right sibling, or a minimal one *)
Lemma try_right_steal_last p i a x : split_at i (n_kids p) = Ok (a, x, []) -> try_right_steal t p i = Ok (p, false).
Proof. destruct p as [lf es ks]. cbn. unfold try_right_steal. intros ->. reflexivity. Qed.

Lemma try_right_steal_min p i a x r b h :
  split_at i (n_kids p) = Ok (a, x, r :: b) -> wfn (t_min t) h r -> length (n_elts r) = t_min t ->
  try_right_steal t p i = Ok (p, false).
Proof.
  destruct p as [lf es ks]. cbn. unfold try_right_steal. intros -> Hr Hm. cbn [bind].
  now rewrite (is_minimal_ok _ _ Hr), Hm, Nat.eqb_refl.
Qed.

(* p = Node false (ea ++ pe :: eb) (ka ++ l :: r :: kb): kid l (index |ka|) takes the separator,
   the first key of r moves up *)
Lemma try_right_steal_spec h ea pe eb ka l r kb :
  length ka = length ea ->
  wfn (t_min t) h l -> wfn (t_min t) h r -> (length (n_elts l) < t_max t)%nat -> length (n_elts r) <> t_min t ->
  exists l' re r',
    try_right_steal t (Node false (ea ++ pe :: eb) (ka ++ l :: r :: kb)) (length ka)
      = Ok (Node false (ea ++ re :: eb) (ka ++ l' :: r' :: kb), true) /\
    wfn (t_min t) h l' /\ wfn (t_min t) h r' /\ length (n_elts l') = S (length (n_elts l)) /\
    elements l' ++ re :: elements r' = elements l ++ pe :: elements r /\ In re (elements r).
Proof.
  intros H1 Hl Hr Hlen Hm. unfold try_right_steal.
  rewrite split_at_app by reflexivity. cbn [bind]. rewrite (is_minimal_ok _ _ Hr). cbn [bind].
  destruct (Nat.eqb_spec (length (n_elts r)) (t_min t)) as [|_]; [contradiction|].
  rewrite split_at_app by congruence. cbn [bind].
  pose proof (wfn_len _ _ _ Hr) as Hrl. assert (Hpos : (1 <= t_min t)%nat) by (unfold t_min; lia).
  destruct h as [|[|h]]; [now apply wfn_pos in Hl| |].
  - apply wfn_height_1 in Hl as (ses & -> & Hlb). apply wfn_height_1 in Hr as ([|re res] & -> & Hrb);
      cbn [n_elts length] in *; [lia|].
    exists (Node true (ses ++ [pe]) []), re, (Node true res []). cbn [n_elts elements]. rewrite last_length.
    split; [reflexivity|]. split; [constructor; rewrite last_length; lia|]. split; [constructor; lia|].
    split; [reflexivity|]. split; [now rewrite <- app_assoc|now left].
  - apply wfn_height_S in Hl as (ses & sks & -> & Hlb & Hlk & Hlall).
    apply wfn_height_S in Hr as ([|re res] & rks & -> & Hrb & Hrk & Hrall); cbn [n_elts length] in *; [lia|].
    destruct rks as [|rc rks]; [discriminate|]. injection Hrk as Hrk. apply Forall_cons_iff in Hrall as (Hrc & Hrall).
    exists (Node false (ses ++ [pe]) (sks ++ [rc])), re, (Node false res rks). cbn [n_elts]. rewrite last_length.
    split; [reflexivity|]. split; [|split; [|split; [reflexivity|split]]].
    + constructor; rewrite ?last_length; [lia|lia|]. apply Forall_app. auto.
    + constructor; [lia|assumption..].
    + rewrite !elements_node, interleave_snoc by assumption. cbn [interleave]. now rewrite <- app_assoc.
    + rewrite elements_node. cbn [interleave]. apply in_or_app. right. now left.
Qed.

Lemma try_left_steal_zero p : try_left_steal t p 0 = Ok (p, false).
Proof. destruct p. reflexivity. Qed.

Lemma try_left_steal_min p i a l x b h :
  split_at i (n_kids p) = Ok (a, l, x :: b) -> wfn (t_min t) h l -> length (n_elts l) = t_min t ->
  try_left_steal t p (S i) = Ok (p, false).
Proof.
  destruct p as [lf es ks]. cbn. intros -> Hl Hm. cbn [bind].
  now rewrite (is_minimal_ok _ _ Hl), Hm, Nat.eqb_refl.
Qed.

(* p = Node false (ea ++ pe :: eb) (ka ++ l :: r :: kb): kid r (index S |ka|) takes the separator
   in front, the last key of l moves up *)
Lemma try_left_steal_spec h ea pe eb ka l r kb :
  length ka = length ea ->
  wfn (t_min t) h l -> wfn (t_min t) h r -> (length (n_elts r) < t_max t)%nat -> length (n_elts l) <> t_min t ->
  exists l' le r',
    try_left_steal t (Node false (ea ++ pe :: eb) (ka ++ l :: r :: kb)) (S (length ka))
      = Ok (Node false (ea ++ le :: eb) (ka ++ l' :: r' :: kb), true) /\
    wfn (t_min t) h l' /\ wfn (t_min t) h r' /\ length (n_elts r') = S (length (n_elts r)) /\
    elements l' ++ le :: elements r' = elements l ++ pe :: elements r /\ In le (elements l).
Proof.
  intros H1 Hl Hr Hlen Hm. unfold try_left_steal.
  rewrite split_at_app by reflexivity. cbn [bind]. rewrite (is_minimal_ok _ _ Hl). cbn [bind].
  destruct (Nat.eqb_spec (length (n_elts l)) (t_min t)) as [|_]; [contradiction|].
  rewrite split_at_app by congruence. cbn [bind].
  pose proof (wfn_len _ _ _ Hl) as Hll. assert (Hpos : (1 <= t_min t)%nat) by (unfold t_min; lia).
  destruct h as [|[|h]]; [now apply wfn_pos in Hl| |].
  - apply wfn_height_1 in Hr as (ses & -> & Hrb). apply wfn_height_1 in Hl as (les & -> & Hlb). cbn [n_elts] in *.
    destruct (pop_last_ok les) as (les' & le & -> & ->); [intros ->; cbn in Hlb; lia|]. cbn [bind].
    rewrite last_length in *.
    exists (Node true les' []), le, (Node true (pe :: ses) []). cbn [n_elts elements length].
    split; [reflexivity|]. split; [constructor; lia|]. split; [constructor; cbn [length]; lia|].
    split; [reflexivity|]. split; [now rewrite <- app_assoc|]. apply in_or_app. right. now left.
  - apply wfn_height_S in Hr as (ses & sks & -> & Hrb & Hrk & Hrall).
    apply wfn_height_S in Hl as (les & lks & -> & Hlb & Hlk & Hlall). cbn [n_elts] in *.
    destruct (pop_last_ok les) as (les' & le & -> & ->); [intros ->; cbn in Hlb; lia|]. cbn [bind].
    destruct (pop_last_ok lks) as (lks' & lc & -> & ->); [intros ->; discriminate|]. cbn [bind].
    rewrite !last_length in *. injection Hlk as Hlk. apply Forall_app in Hlall as (Hlall & Hlc). apply Forall_inv in Hlc.
    exists (Node false les' lks'), le, (Node false (pe :: ses) (lc :: sks)). cbn [n_elts length].
    split; [reflexivity|]. split; [|split; [|split; [reflexivity|split]]].
    + constructor; [lia|assumption..].
    + constructor; cbn [length]; [lia|lia|]. now constructor.
    + rewrite !elements_node, interleave_snoc by assumption. cbn [interleave]. now rewrite <- app_assoc.
    + rewrite elements_node, interleave_snoc by assumption. apply in_or_app. right. now left.
Qed.

Lemma merge_spec h ea pe eb ka l r kb :
  length ka = length ea ->
  wfn (t_min t) h l -> wfn (t_min t) h r ->
  (length (n_elts l) + S (length (n_elts r)) <= t_max t)%nat ->
  exists m, merge (Node false (ea ++ pe :: eb) (ka ++ l :: r :: kb)) (length ka)
            = Ok (Node false (ea ++ eb) (ka ++ m :: kb)) /\
    wfn (t_min t) h m /\ elements m = elements l ++ pe :: elements r /\
    length (n_elts m) = (length (n_elts l) + S (length (n_elts r)))%nat.
Proof.
  intros H1 Hl Hr Hlen. unfold merge.
  rewrite split_at_app by reflexivity. cbn [bind]. rewrite split_at_app by congruence. cbn [bind].
  destruct h as [|[|h]]; [now apply wfn_pos in Hl| |].
  - apply wfn_height_1 in Hl as (ses & -> & Hlb). apply wfn_height_1 in Hr as (res & -> & Hrb). cbn [n_elts] in *.
    eexists. split; [reflexivity|]. cbn [n_elts elements]. rewrite app_length. cbn [length].
    split; [|split; reflexivity]. constructor. rewrite app_length. cbn [length]. lia.
  - apply wfn_height_S in Hl as (ses & sks & -> & Hlb & Hlk & Hlall).
    apply wfn_height_S in Hr as (res & rks & -> & Hrb & Hrk & Hrall). cbn [n_elts] in *.
    eexists. split; [reflexivity|]. cbn [n_elts]. rewrite app_length. cbn [length].
    split; [|split; [|reflexivity]].
    + constructor; rewrite ?app_length; cbn [length]; [lia|lia|]. apply Forall_app. auto.
    + rewrite !elements_node. apply interleave_app; assumption.
Qed.

End WF.
