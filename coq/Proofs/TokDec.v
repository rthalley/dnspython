(* Numbers in text: f"{n}", f"{n:o}" (print_base b n, any base 2..10) as printed by the rdata classes is read back
   by int(text, b) / Tokenizer.as_int / as_uintN as the same number and is a "safe" word for the tokenizer;
   more generally int() reads any non-empty string of digits below b as its positional value [bval]. *)
From DV Require Import Base.Prelude Model.TokM Proofs.TokEsc Proofs.TokWords.
Open Scope Z_scope.

(* int() strips blanks first: a digit string has none *)
Lemma strip_digits s : forallb is_decimal s = true -> strip s = s.
Proof.
  intros Hs. unfold strip.
  assert (L : forall t, forallb is_decimal t = true -> lstrip t = t).
  { intros [|c t] H; [reflexivity|]. cbn [forallb] in H. apply andb_true_iff in H as [Hc _].
    unfold is_decimal in Hc. cbn [lstrip]. unfold is_space.
    replace ((9 <=? c) && (c <=? 13) || (c =? 32)) with false by lia. reflexivity. }
  rewrite (L s Hs).
  assert (Hr : forallb is_decimal (rev s) = true).
  { rewrite forallb_forall in *. intros x Hx. apply Hs. apply in_rev. exact Hx. }
  rewrite (L _ Hr). apply rev_involutive.
Qed.

Lemma decimal_safe s : forallb is_decimal s = true -> forallb safe s = true.
Proof.
  intros H. rewrite forallb_forall in *. intros c Hc. specialize (H c Hc).
  unfold is_decimal in H. apply safe_char; lia.
Qed.

Section Base.
Variable b : Z.
Hypothesis Hb : 2 <= b <= 10.

(* written so that [is_digit_b 10] and [is_decimal] are convertible *)
Definition is_digit_b (c : Z) : bool := (48 <=? c) && (c <=? 47 + b).

(* value of a digit string read left to right from accumulator a *)
Definition bval (s : list Z) (a : Z) : Z := fold_left (fun a c => a * b + (c - 48)) s a.

Lemma bval_app s t a : bval (s ++ t) a = bval t (bval s a).
Proof. apply fold_left_app. Qed.

Lemma digit_b_decimal s : forallb is_digit_b s = true -> forallb is_decimal s = true.
Proof.
  intros H. rewrite forallb_forall in *. intros c Hc. specialize (H c Hc). unfold is_digit_b in H. unfold is_decimal. lia.
Qed.

Lemma int_digits_bval s : forallb is_digit_b s = true -> forall a p,
  (s <> [] \/ p = true) -> int_digits b s a p = Some (bval s a).
Proof.
  induction s as [|c s IH]; intros Hs a p Hp.
  - destruct Hp as [H| ->]; [congruence|]. reflexivity.
  - cbn [forallb] in Hs. apply andb_true_iff in Hs as [Hc Hs]. unfold is_digit_b in Hc.
    cbn [int_digits]. replace (c =? 95) with false by lia.
    unfold digit_val. replace ((48 <=? c) && (c <=? 57)) with true by lia.
    replace (c - 48 <? b) with true by lia. rewrite IH by auto. reflexivity.
Qed.

(* int(s, b) of a non-empty string of digits below b: no blank to strip, no sign, and a leading "0o" is
   impossible since the second character is a digit too *)
Theorem py_int_digits s : s <> [] -> forallb is_digit_b s = true -> py_int b s = Some (bval s 0).
Proof.
  intros Hne Hd. unfold py_int. rewrite strip_digits by (apply digit_b_decimal, Hd).
  destruct s as [|c s]; [congruence|].
  assert (E : int_digits b (c :: s) 0 false = Some (bval (c :: s) 0))
    by (apply int_digits_bval; auto; left; discriminate).
  cbn [forallb] in Hd. apply andb_true_iff in Hd as [Hc Hd]. unfold is_digit_b in Hc.
  replace (c =? 43) with false by lia. replace (c =? 45) with false by lia.
  assert (E95 : (c =? 95) = false) by lia.
  destruct s as [|p r].
  - cbv beta match. rewrite andb_false_r. cbv beta match. rewrite E95, E. reflexivity.
  - cbn [forallb] in Hd. apply andb_true_iff in Hd as [Hp _]. unfold is_digit_b in Hp.
    replace ((p =? 111) || (p =? 79)) with false by lia. rewrite andb_false_r.
    cbv beta match. rewrite andb_false_r. cbv beta match. rewrite E95, E. reflexivity.
Qed.

(* The printer emits the digits of n from the last one backwards in front of acc; read forwards they rebuild n
   and then go on through acc. *)
Lemma bval_digits f : forall n acc, 0 <= n < b ^ Z.of_nat f -> bval (digits_fuel f b n acc) 0 = bval acc n.
Proof.
  induction f as [|f IH]; intros n acc Hn.
  - cbn in Hn. replace n with 0 by lia. reflexivity.
  - cbn [digits_fuel]. rewrite Nat2Z.inj_succ, Z.pow_succ_r in Hn by lia. destruct (n <? b) eqn:E.
    + unfold bval. cbn [fold_left]. f_equal. lia.
    + rewrite IH by (split; [apply Z.div_pos|apply Z.div_lt_upper_bound]; lia).
      unfold bval. cbn [fold_left]. f_equal. pose proof (Z.div_mod n b). lia.
Qed.

Lemma print_fuel_enough n : 0 <= n -> n < b ^ Z.of_nat (S (Z.to_nat (Z.log2 n))).
Proof.
  intros Hn. rewrite Nat2Z.inj_succ, Z2Nat.id by apply Z.log2_nonneg.
  destruct (Z.eq_dec n 0) as [->|Hz]; [cbn; lia|].
  pose proof (Z.log2_spec n ltac:(lia)) as [_ H].
  eapply Z.lt_le_trans; [exact H|]. apply Z.pow_le_mono_l. lia.
Qed.

Lemma bval_print n : 0 <= n -> bval (print_base b n) 0 = n.
Proof. intros Hn. apply (bval_digits _ n []). split; [exact Hn|]. apply print_fuel_enough, Hn. Qed.

Lemma digits_fuel_digits f : forall n acc, 0 <= n ->
  forallb is_digit_b acc = true -> forallb is_digit_b (digits_fuel f b n acc) = true.
Proof.
  induction f as [|f IH]; intros n acc Hn Hacc; [exact Hacc|].
  cbn [digits_fuel]. destruct (n <? b) eqn:E.
  - cbn [forallb]. rewrite Hacc. unfold is_digit_b. lia.
  - apply IH; [apply Z.div_pos; lia|]. cbn [forallb]. rewrite Hacc. unfold is_digit_b.
    pose proof (Z.mod_pos_bound n b ltac:(lia)). lia.
Qed.

Lemma print_base_digits n : 0 <= n -> forallb is_digit_b (print_base b n) = true.
Proof. intros. apply digits_fuel_digits; [assumption|reflexivity]. Qed.

Lemma digits_fuel_nonempty f : forall n acc, (acc <> [] \/ f <> O) -> digits_fuel f b n acc <> [].
Proof.
  induction f as [|f IH]; intros n acc H.
  - cbn. destruct H; congruence.
  - cbn [digits_fuel]. destruct (n <? b); [discriminate|]. apply IH. left. discriminate.
Qed.

Lemma print_base_nonempty n : print_base b n <> [].
Proof. unfold print_base. apply digits_fuel_nonempty. right. discriminate. Qed.

(* no leading zero *)
Lemma digits_fuel_leading f : forall n acc, 0 < n < b ^ Z.of_nat f ->
  exists c r, digits_fuel f b n acc = c :: r /\ c <> 48.
Proof.
  induction f as [|f IH]; intros n acc Hn; [cbn in Hn; lia|].
  cbn [digits_fuel]. destruct (n <? b) eqn:E; [exists (48 + n), acc; split; [reflexivity|lia]|].
  rewrite Nat2Z.inj_succ, Z.pow_succ_r in Hn by lia. apply IH.
  split; [apply Z.div_str_pos; lia|apply Z.div_lt_upper_bound; lia].
Qed.

Lemma print_base_leading n : 0 < n -> exists c r, print_base b n = c :: r /\ c <> 48.
Proof. intros Hn. apply digits_fuel_leading. split; [exact Hn|apply print_fuel_enough; lia]. Qed.

Theorem py_int_print_base n : 0 <= n -> py_int b (print_base b n) = Some n.
Proof.
  intros Hn. rewrite py_int_digits, bval_print by (auto using print_base_nonempty, print_base_digits). reflexivity.
Qed.

(* Tokenizer.as_int and as_uint on the printed number *)
Theorem as_int_print_base n : 0 <= n -> as_int (mkTok tIDENT (print_base b n) false None) b = Ok n.
Proof.
  intros Hn. unfold as_int, is_identifier. cbn [ttype tvalue].
  change (tIDENT =? tIDENT) with true. cbn [negb].
  rewrite py_int_print_base by lia. replace (n <? 0) with false by lia. reflexivity.
Qed.

Theorem as_uint_print_base maxv n : 0 <= n <= maxv ->
  as_uint maxv (mkTok tIDENT (print_base b n) false None) b = Ok n.
Proof.
  intros Hn. unfold as_uint. rewrite as_int_print_base by lia. cbn [bind].
  replace ((n <? 0) || (n >? maxv)) with false by lia. reflexivity.
Qed.

Lemma print_base_safe n : 0 <= n -> forallb safe (print_base b n) = true.
Proof. intros. apply decimal_safe, digit_b_decimal, print_base_digits. assumption. Qed.
End Base.

Lemma base10 : 2 <= 10 <= 10.
Proof. lia. Qed.

Lemma dec_decimal n : 0 <= n -> forallb is_decimal (dec n) = true.
Proof. exact (print_base_digits 10 base10 n). Qed.

Lemma dec_nonempty n : dec n <> [].
Proof. exact (print_base_nonempty 10 n). Qed.

Lemma dec_safe n : 0 <= n -> forallb safe (dec n) = true.
Proof. exact (print_base_safe 10 base10 n). Qed.

Theorem py_int_decimal s : s <> [] -> forallb is_decimal s = true -> py_int 10 s = Some (bval 10 s 0).
Proof. exact (py_int_digits 10 base10 s). Qed.

Theorem py_int_dec n : 0 <= n -> py_int 10 (dec n) = Some n.
Proof. exact (py_int_print_base 10 base10 n). Qed.

Theorem as_uint_dec maxv n : 0 <= n <= maxv ->
  as_uint maxv (mkTok tIDENT (dec n) false None) 10 = Ok n.
Proof. exact (as_uint_print_base 10 base10 maxv n). Qed.

Theorem as_int_dec n : 0 <= n -> as_int (mkTok tIDENT (dec n) false None) 10 = Ok n.
Proof. exact (as_int_print_base 10 base10 n). Qed.

(* the printed number as str.isdecimal() and the digit-by-digit value of the model see it *)
Lemma dec_value_bval s a : dec_value s a = bval 10 s a.
Proof. revert a. induction s as [|c s IH]; intros a; [reflexivity|]. cbn [dec_value]. rewrite IH. reflexivity. Qed.

Lemma dec_isdecimal n : 0 <= n -> negb (is_nil (dec n)) && forallb is_decimal (dec n) = true.
Proof. intros Hn. rewrite dec_decimal by exact Hn. pose proof (dec_nonempty n). destruct (dec n); [congruence|reflexivity]. Qed.

Lemma dec_value_dec n : 0 <= n -> dec_value (dec n) 0 = n.
Proof. intros Hn. rewrite dec_value_bval. apply bval_print; [exact base10|exact Hn]. Qed.

(* dns.ttl.from_text on the printed number *)
Theorem ttl_from_text_dec n : 0 <= n <= MAX_TTL -> ttl_from_text (dec n) = Ok n.
Proof.
  intros Hn. unfold ttl_from_text. rewrite dec_isdecimal, dec_value_dec by lia. cbn [bind]. unfold MAX_TTL in *.
  replace ((n <? 0) || (n >? 4294967295)) with false by lia. reflexivity.
Qed.

Lemma digits_length f : forall n acc k, (k < f)%nat -> (k = 0%nat \/ 10 ^ Z.of_nat k <= n) -> n < 10 ^ Z.of_nat (S k) ->
  length (digits_fuel f 10 n acc) = (S k + length acc)%nat.
Proof.
  induction f as [|f IH]; intros n acc k Hk Hlo Hhi; [lia|]. cbn [digits_fuel].
  rewrite Nat2Z.inj_succ, Z.pow_succ_r in Hhi by lia. destruct (n <? 10) eqn:E.
  - destruct k as [|k]; [reflexivity|]. destruct Hlo as [Hlo|Hlo]; [discriminate|].
    rewrite Nat2Z.inj_succ, Z.pow_succ_r in Hlo by lia. pose proof (Z.pow_pos_nonneg 10 (Z.of_nat k)). lia.
  - destruct k as [|k]; [cbn in Hhi; lia|]. destruct Hlo as [Hlo|Hlo]; [discriminate|].
    rewrite Nat2Z.inj_succ, Z.pow_succ_r in Hlo, Hhi by lia.
    rewrite (IH (n / 10) _ k); [cbn [length]; lia|lia|right; dlia|rewrite Nat2Z.inj_succ, Z.pow_succ_r by lia; dlia].
Qed.

Lemma dec_length n k : (k = 0%nat /\ 0 <= n \/ 10 ^ Z.of_nat k <= n) -> n < 10 ^ Z.of_nat (S k) -> length (dec n) = S k.
Proof.
  intros Hlo Hhi. unfold dec, print_base. rewrite (digits_length _ n [] k); [cbn [length]; lia| |tauto|exact Hhi].
  destruct Hlo as [[-> _]|Hlo]; [lia|]. assert (Z.of_nat k <= Z.log2 n); [|lia].
  apply Z.log2_le_pow2; [pose proof (Z.pow_pos_nonneg 10 (Z.of_nat k)); lia|].
  etransitivity; [|exact Hlo]. apply Z.pow_le_mono_l. lia.
Qed.
