(* C04 for the message text reader (Model/UntrustedTextM.v = dns.message._TextReader): every
   character string ends in a message or in a documented library error, for an ARBITRARY per-type
   text parser (it runs under ExceptionWrapper(SyntaxError)). *)
From DV Require Import Base.Prelude Model.NameM Proofs.NameValid Proofs.UntrustedEnds.
From DV Require Model.TokM Model.RdTextM Proofs.UntrustedText.
From DV Require Import Model.UntrustedTextM.
Open Scope Z_scope.

(* SyntaxError family (SyntaxError, UnexpectedEnd, BadTTL, LabelTooLong, EmptyLabel, BadEscape),
   NameTooLong, UngetBufferFull, UnknownHeaderField, NoPreviousName, UnknownOpcode, UnknownRcode,
   UnknownRdatatype, FormError (UPDATE section rules) *)
Definition mt_lib (e : Z) : Prop :=
  T.in_syntax_family e = true \/ e = eNameTooLong \/ e = T.eUngetFull \/ e = eUnknownHeaderField
  \/ e = eNoPreviousName \/ e = eUnknownOpcode \/ e = eUnknownRcode \/ e = eUnknownRdatatype \/ e = eFormError.

(* a value or a documented error *)
Definition Fine {A} (r : res A) : Prop := ends any mt_lib none r.
(* ... or, while the loops are not known to terminate, the fuel marker *)
Definition Nice {A} (r : res A) : Prop := ends any mt_lib (fun e => e = iFuelT) r.

Lemma fine_nice {A} (Q : A -> Prop) I (r : res A) : ends Q mt_lib none r -> ends Q mt_lib I r.
Proof. intros H. eapply ends_mono; [exact H|auto|auto|contradiction]. Qed.

Ltac ml := first [ reflexivity | left; reflexivity | right; ml ].

Lemma fine_get st wl wc : Fine (T.get st wl wc).
Proof.
  eapply ends_mono; [apply (UntrustedText.tokenizer_get_family st wl wc)|auto| |auto]. intros e [-> | ->]; ml.
Qed.

Lemma fine_unget st t : Fine (T.unget st t).
Proof. unfold T.unget. destruct (T.ungot st); [ml|exact Logic.I]. Qed.

Lemma fine_unescape t : Fine (T.unescape t).
Proof.
  eapply ends_mono; [apply (UntrustedText.unescape_family t)|auto| |auto]. intros e [-> | ->]; ml.
Qed.

Lemma fine_get_unescaped st : Fine (T.get_unescaped st).
Proof.
  unfold T.get_unescaped. apply ends_seq; [apply fine_get|]. intros ts.
  apply ends_seq; [apply fine_unescape|]. intros; exact Logic.I.
Qed.

Lemma fine_as_uint m t b : Fine (T.as_uint m t b).
Proof.
  unfold T.as_uint, T.as_int. destruct (negb (T.is_identifier t)); cbn [bind]; [ml|].
  destruct (T.py_int b (T.tvalue t)) as [v|]; cbn [bind]; [|ml].
  destruct (v <? 0); cbn [bind]; [ml|]. destruct ((v <? 0) || (v >? m)); [ml|exact Logic.I].
Qed.

Lemma fine_get_uint m st b : Fine (T.get_uint m st b).
Proof.
  unfold T.get_uint. apply ends_seq; [apply fine_get_unescaped|]. intros ts.
  apply ends_seq; [apply fine_as_uint|]. intros; exact Logic.I.
Qed.

Lemma fine_get_string st m : Fine (T.get_string st m).
Proof.
  unfold T.get_string. apply ends_seq; [apply fine_get_unescaped|]. intros ts.
  apply ends_seq; [|intros; exact Logic.I].
  unfold T.as_string. destruct (negb _); [ml|]. destruct (_ && _); [ml|exact Logic.I].
Qed.

Lemma fine_get_eol_tok st : Fine (T.get_eol_as_token st).
Proof.
  unfold T.get_eol_as_token. apply ends_seq; [apply fine_get|]. intros ts.
  destruct (negb (T.is_eol_or_eof (fst ts))); [ml|exact Logic.I].
Qed.

Lemma fine_get_eol st : Fine (get_eol st).
Proof. unfold get_eol. apply ends_seq; [apply fine_get_eol_tok|]. intros; exact Logic.I. Qed.

(* the name errors: three are in the SyntaxError family, NameTooLong is listed *)
Lemma fine_name {A} (Q : A -> Prop) (r : res A) : ends Q UntrustedText.isNameTextErr none r -> Fine r.
Proof.
  intros H. eapply ends_mono; [exact H|auto| |auto].
  unfold UntrustedText.isNameTextErr. intros e [-> | [-> | [-> | ->]]]; ml.
Qed.

(* tok.as_name: SyntaxError or one of the four name errors *)
Lemma fine_as_name pctx tk : Fine (RdTextM.as_name pctx tk).
Proof.
  unfold RdTextM.as_name. destruct (negb (T.is_identifier tk)); [ml|].
  apply ends_seq; [eapply fine_name, UntrustedText.name_from_text_family|]. intros n.
  eapply fine_name, UntrustedText.choose_relativity_family.
Qed.

Lemma fine_parse_rr_header m sec c t : Fine (parse_rr_header m sec c t).
Proof.
  unfold parse_rr_header. destruct (negb (tm_update m)); [exact Logic.I|].
  destruct (sec =? 0).
  - destruct (_ || _); [ml|exact Logic.I].
  - destruct (rev (tm_q m)) as [|[[? ?] zc] ?]; [ml|].
    destruct ((c =? 255) || (c =? 254)); exact Logic.I.
Qed.

(* try: tok.get() ... except SyntaxError: raise; except Exception: the token is kept *)
Lemma fine_next_ident {A} (st : T.tstate) (k : T.token -> T.tstate -> A) (d : A) :
  Fine match T.get0 st with
       | Ok (tk2, st2) => if negb (T.is_identifier tk2) then Lib T.eSyntax else Ok (k tk2 st2)
       | Lib e => if T.in_syntax_family e then Lib T.eSyntax else Ok d
       | Internal _ => Ok d
       end.
Proof.
  destruct (T.get0 st) as [[tk2 st2]|e|e]; try exact Logic.I.
  - destruct (negb (T.is_identifier tk2)); [ml|exact Logic.I].
  - destruct (T.in_syntax_family e); [ml|exact Logic.I].
Qed.

Section Reader.
  Variable per_type_text : Z -> Z -> T.tstate -> res (unit * T.tstate).
  Variable pctx : RdTextM.pctx.
  Variable type_from_text : list Z -> res Z.
  (* dns.rdatatype.from_text raises UnknownRdatatype (or ValueError, which the reader converts) *)
  Hypothesis type_lib : forall v e, type_from_text v = Lib e -> e = eUnknownRdatatype.

  (* dns.rdata.from_text: whatever the per-type parser does, a value or the SyntaxError family *)
  Lemma fine_rdata_from_tok c t st : Fine (rdata_from_tok per_type_text c t st).
  Proof.
    unfold rdata_from_tok, T.wrap_syntax.
    match goal with |- Fine (match ?x with _ => _ end) => destruct x as [a|e|e] end; [exact Logic.I| |ml].
    destruct (T.in_syntax_family e) eqn:E; [left; exact E|ml].
  Qed.

  Lemma nice_flags_loop : forall fuel tbl st acc, Nice (flags_loop fuel tbl st acc).
  Proof.
    induction fuel as [|f IH]; intros tbl st acc; cbn [flags_loop]; [reflexivity|].
    apply ends_seq; [apply fine_nice, fine_get|]. intros ts.
    destruct (negb (T.is_identifier (fst ts))).
    - apply ends_seq; [apply fine_nice, fine_unget|intros; exact Logic.I].
    - destruct (flags_from_text tbl (T.tvalue (fst ts))); [apply IH|ml|ml].
  Qed.

  (* dns.opcode / dns.rcode from_text: the ValueError of an out-of-range number becomes SyntaxError *)
  Lemma fine_enum {A} (Q : A -> Prop) tbl maxv unknown (v : list Z) (k : Z -> A) :
    mt_lib unknown -> (forall c, Q (k c)) ->
    ends Q mt_lib none match enum_from_text tbl [] maxv unknown v with
                       | Ok c => Ok (k c) | Lib e => Lib e | Internal _ => Lib T.eSyntax
                       end.
  Proof.
    intros U HQ. unfold enum_from_text. cbv zeta. destruct (assoc _ _); [apply HQ|].
    destruct (strip_prefix _ _) as [d|]; [|exact U]. destruct (all_decimal d); [|exact U].
    destruct (dec_value d >? maxv); [ml|apply HQ].
  Qed.

  (* the header line: the message being built is not touched *)
  Lemma nice_header_line r : ends (fun r' => t_msg r' = t_msg r) mt_lib (fun e => e = iFuelT) (header_line r).
  Proof.
    unfold header_line. apply ends_seq; [apply fine_nice, fine_get|]. intros [tk st].
    eapply ends_bind with (Q1 := fun r' => t_msg r' = t_msg r).
    2:{ intros r' E. apply ends_seq; [apply fine_nice, fine_get_eol|]. intros st'. exact E. }
    repeat match goal with |- _ (if zlist_eqb ?a ?b then _ else _) => destruct (zlist_eqb a b) end.
    (* id, edns, payload: a number; flags, eflags: the loop; opcode, rcode: a mnemonic *)
    1, 3, 5: apply ends_seq; [apply fine_nice, fine_get_uint|intros; reflexivity].
    1, 2: apply ends_seq; [apply nice_flags_loop|intros; reflexivity].
    1, 2: apply ends_seq; [apply fine_nice, fine_get_string|]; intros v; apply fine_nice, fine_enum; [ml|reflexivity].
    ml.
  Qed.

  Lemma header_line_msg r r' : header_line r = Ok r' -> t_msg r' = t_msg r.
  Proof. apply (ends_ok _ _ _ _ _ (nice_header_line r)). Qed.

  Lemma fine_owner r : Fine (owner pctx r).
  Proof.
    unfold owner. apply ends_seq; [apply fine_get|]. intros [tk st].
    apply ends_seq.
    - destruct (negb (T.ttype tk =? T.tWS)); [|exact Logic.I].
      apply ends_seq; [apply fine_as_name|intros; exact Logic.I].
    - intros r1. destruct (t_last r1); [exact Logic.I|ml].
  Qed.

  Lemma fine_class_column tk st : Fine (class_column tk st).
  Proof.
    unfold class_column. destruct (class_from_text (T.tvalue tk)); try exact Logic.I.
    apply (fine_next_ident st (fun tk2 st2 => (a, tk2, st2))).
  Qed.

  Lemma fine_type_column tk : Fine (type_column type_from_text tk).
  Proof.
    unfold type_column. destruct (type_from_text (T.tvalue tk)) as [v|e|e] eqn:E; [exact Logic.I| |ml].
    rewrite (type_lib _ _ E). ml.
  Qed.

  (* a question or record line leaves a message behind *)
  Lemma fine_question_line r m sec :
    ends (fun r' => t_msg r' <> None) mt_lib none (question_line pctx type_from_text r m sec).
  Proof.
    unfold question_line. apply ends_seq; [apply fine_owner|]. intros [r1 n].
    apply ends_seq; [apply fine_get|]. intros ts.
    destruct (negb (T.is_identifier (fst ts))); [ml|].
    apply ends_seq; [apply fine_class_column|]. intros [[rdclass tk] st].
    apply ends_seq; [apply fine_type_column|]. intros rdtype.
    apply ends_seq; [apply fine_parse_rr_header|]. intros hd. cbv zeta.
    apply ends_seq; [apply fine_get_eol|]. intros; discriminate.
  Qed.

  Lemma fine_rr_line r m sec :
    ends (fun r' => t_msg r' <> None) mt_lib none (rr_line per_type_text pctx type_from_text r m sec).
  Proof.
    unfold rr_line. apply ends_seq; [apply fine_owner|]. intros [r1 n].
    apply ends_seq; [apply fine_get|]. intros ts.
    destruct (negb (T.is_identifier (fst ts))); [ml|].
    apply ends_seq.
    { destruct (int0 (T.tvalue (fst ts))) as [v|]; [|exact Logic.I].
      destruct ((v <? 0) || (v >? 4294967295)); [ml|].
      apply (fine_next_ident (snd ts) (fun tk2 st2 => (v, tk2, st2))). }
    intros [[ttl tk1] st1].
    apply ends_seq; [apply fine_class_column|]. intros [[rdclass tk] st].
    apply ends_seq; [apply fine_type_column|]. intros rdtype.
    apply ends_seq; [apply fine_parse_rr_header|]. intros [[rdclass' deleting] empty].
    apply ends_seq; [apply fine_get|]. intros ts3. cbv zeta.
    destruct (empty && negb (T.is_eol_or_eof (fst ts3))); [ml|].
    destruct (negb empty && T.is_eol_or_eof (fst ts3)); [ml|].
    apply ends_seq.
    { destruct (negb (T.is_eol_or_eof (fst ts3))); [|exact Logic.I].
      apply ends_seq; [apply fine_unget|]. intros st4.
      apply ends_seq; [apply fine_rdata_from_tok|]. intros; exact Logic.I. }
    intros [have_rd st5]. discriminate.
  Qed.

  (* the line method can only be a section method once a message exists *)
  Definition linv (r : rdr) (lm : lmeth) : Prop := lm = LHeader \/ t_msg r <> None.

  (* a comment line may switch sections (and then makes the message) *)
  Lemma linv_section r lm sec u st' :
    linv r lm ->
    let lm1 := if zlist_eqb u [72;69;65;68;69;82] then LHeader else lm in
    let m := match t_msg r with Some m => m | None => make_message r end in
    let '(r1, lm2, sec2) :=
      match enum_from_text (section_tbl (tm_update m)) [] 3 0 u with
      | Ok sn =>
          let r1 := match t_msg r with
                    | Some _ => r
                    | None => set_msg r m (if tm_update m then true else t_orps r)
                    end in
          (r1, (if sn =? 0 then LQuestion else LRR), sn)
      | _ => (r, lm1, sec)
      end in
    linv (set_tok r1 st') lm2.
  Proof.
    intros I. cbv zeta. destruct (enum_from_text _ _ _ _ _).
    - right. destruct (t_msg r) eqn:M; cbn; [rewrite M|]; discriminate.
    - destruct (zlist_eqb _ _); [left; reflexivity|exact I].
    - destruct (zlist_eqb _ _); [left; reflexivity|exact I].
  Qed.

  (* _TextReader.read *)
  Lemma nice_read_loop : forall fuel r lm sec, linv r lm -> Nice (read_loop per_type_text pctx type_from_text fuel r lm sec).
  Proof.
    induction fuel as [|f IH]; intros r lm sec I; cbn [read_loop]; [reflexivity|].
    apply ends_seq; [apply fine_nice, fine_get|]. intros [tk st].
    destruct (T.is_eol_or_eof tk); [exact Logic.I|].
    destruct (T.ttype tk =? T.tCOMMENT).
    - pose proof (fun st' => linv_section r lm sec (upper_l (T.tvalue tk)) st' I) as S. cbv zeta in S |- *.
      destruct (match enum_from_text _ _ _ _ _ with Ok _ => _ | _ => _ end) as [[r1 lm2] sec2].
      apply ends_seq; [apply fine_nice, fine_get_eol|]. intros st'. apply IH, S.
    - apply ends_seq; [apply fine_nice, fine_unget|]. intros st1. cbv zeta.
      eapply ends_bind with (Q1 := fun r' => linv r' lm); [|intros r' I'; apply IH, I'].
      destruct lm.
      + eapply ends_mono; [apply nice_header_line|left; reflexivity|auto|auto].
      + destruct I as [I|I]; [discriminate|]. cbn [t_msg set_tok].
        destruct (t_msg r) as [m|]; [|contradiction].
        eapply ends_mono; [apply fine_question_line|right; assumption|auto|contradiction].
      + destruct I as [I|I]; [discriminate|]. cbn [t_msg set_tok].
        destruct (t_msg r) as [m|]; [|contradiction].
        eapply ends_mono; [apply fine_rr_line|right; assumption|auto|contradiction].
  Qed.

  (* dns.message.from_text *)
  Theorem message_from_text_outcome text orps :
    match from_text per_type_text pctx type_from_text text orps with
    | Ok _ => True
    | Lib e => mt_lib e
    | Internal e => e = iFuelT
    end.
  Proof.
    unfold from_text. apply ends_seq; [|intros; exact Logic.I].
    apply nice_read_loop. left; reflexivity.
  Qed.
End Reader.

(* the instance used by `run`: dns.rdatatype.from_text raises UnknownRdatatype or ValueError only *)
Lemma type_from_text_run_lib v e : type_from_text_run v = Lib e -> e = eUnknownRdatatype.
Proof.
  unfold type_from_text_run. destruct (RdTextM.rdtype_from_text v); intros H; inversion H; reflexivity.
Qed.
