(* LOC altitude: round(float(format(alt / 100.0, "0.2f")) * 100.0) = alt for every altitude of the wire range, by
   error bounds on the correctly rounded operations. *)
From DV Require Import Base.Prelude Model.NameM Model.TokM Model.RdTextM.
From DV Require Import Proofs.RdTextLoc.
Open Scope Z_scope.

Lemma rdiv_even_err n d : 0 <= n -> 0 < d -> Z.abs (rdiv_even n d * d - n) * 2 <= d.
Proof.
  intros Hn Hd. unfold rdiv_even. pose proof (Z.div_mod n d ltac:(lia)) as E. pose proof (Z.mod_pos_bound n d Hd) as B.
  set (q := n / d) in *. set (r := n mod d) in *.
  destruct ((2 * r >? d) || ((2 * r =? d) && Z.odd q)) eqn:C.
  - apply orb_true_iff in C as [C|C]; [|apply andb_true_iff in C as [C _]]; nia.
  - apply orb_false_iff in C as [C1 C2]. assert (2 * r <= d) by lia. nia.
Qed.

Lemma rdiv_even_unique n d k : 0 <= n -> 0 < d -> Z.abs (k * d - n) * 2 < d -> rdiv_even n d = k.
Proof.
  intros Hn Hd Hk. pose proof (rdiv_even_err n d Hn Hd) as E. set (m := rdiv_even n d) in *.
  assert (Z.abs ((m - k) * d) < 2 * d) by nia.
  assert (Z.abs (m - k) * d < 2 * d) by (rewrite <- (Z.abs_eq d) at 1 by lia; rewrite <- Z.abs_mul; exact H).
  assert (Z.abs (m - k) < 2) by nia.
  destruct (Z.eq_dec m k) as [|Hne]; [assumption|].
  assert (Z.abs (m - k) = 1) by lia.
  (* |m - k| = 1 contradicts the two half-unit bounds *)
  exfalso. assert (Z.abs ((m - k) * d) = d) by (rewrite Z.abs_mul, H2, (Z.abs_eq d) by lia; lia). nia.
Qed.

(* the exponent chosen for n / d in [2^-10, 2^40) *)
Lemma pow2_add a b : 0 <= a -> 0 <= b -> 2 ^ (a + b) = 2 ^ a * 2 ^ b.
Proof. intros. apply Z.pow_add_r; assumption. Qed.

(* a bound on a quotient bounds the difference of the bit lengths *)
Lemma log2_diff x y k : 0 < x -> 0 < y -> 0 <= k -> x < y * 2 ^ k -> Z.log2 x - Z.log2 y <= k.
Proof.
  intros Hx Hy Hk H. pose proof (Z.log2_spec x Hx) as [Lx _]. pose proof (Z.log2_spec y Hy) as [_ Uy].
  pose proof (Z.log2_nonneg x). pose proof (Z.log2_nonneg y). pose proof (Z.pow_pos_nonneg 2 k ltac:(lia) Hk).
  assert (P : 2 ^ Z.log2 x < 2 ^ (Z.succ (Z.log2 y) + k)) by (rewrite Z.pow_add_r by lia; nia).
  apply Z.pow_lt_mono_r_iff in P; lia.
Qed.

Lemma round_q_spec neg n d : 0 < n -> 0 < d -> d <= n * 2 ^ 10 -> n < d * 2 ^ 40 ->
  exists m e, round_q neg n d = FFin (mkD neg m e) /\ -64 <= e <= -11 /\ 0 <= m /\
    Z.abs (m * d - n * 2 ^ (- e)) * 2 <= d.
Proof.
  intros Hn Hd Hlo Hhi.
  pose proof (Z.log2_spec n Hn) as [La Ua]. pose proof (Z.log2_spec d Hd) as [Lb Ub].
  set (a := Z.log2 n) in *. set (b := Z.log2 d) in *.
  assert (Ha : 0 <= a) by apply Z.log2_nonneg. assert (Hb : 0 <= b) by apply Z.log2_nonneg.
  replace (Z.succ a) with (a + 1) in Ua by lia. replace (Z.succ b) with (b + 1) in Ub by lia.
  assert (Hab1 : a - b <= 40) by (apply log2_diff; lia).
  assert (Hab2 : b - a <= 11) by (apply log2_diff; [lia|lia|lia|change (2 ^ 11) with (2 * 2 ^ 10); lia]).
  set (t := 52 - a + b).
  assert (Ht : 12 <= t <= 63) by (unfold t; lia).
  (* the two candidate exponents e0 - 1 = -(t + 1) and e0 = -t *)
  assert (P1 : 2 ^ (a + t) = 2 ^ 52 * 2 ^ b) by (rewrite <- pow2_add by lia; f_equal; unfold t; lia).
  assert (Pt : 0 < 2 ^ t) by (apply Z.pow_pos_nonneg; lia).
  assert (Pt1 : 2 ^ (t + 1) = 2 * 2 ^ t) by (rewrite pow2_add by lia; lia).
  assert (Pa : 2 ^ (a + t) = 2 ^ a * 2 ^ t) by (apply pow2_add; lia).
  assert (Pa1 : 2 ^ (a + 1) = 2 * 2 ^ a) by (rewrite pow2_add by lia; lia).
  assert (Pb1 : 2 ^ (b + 1) = 2 * 2 ^ b) by (rewrite pow2_add by lia; lia).
  assert (F0up : n * 2 ^ t < p53 * d) by (unfold p53; change 9007199254740992 with (2 * 2 ^ 52); nia).
  assert (F1lo : p52 * d <= n * 2 ^ (t + 1)) by (unfold p52; change 4503599627370496 with (2 ^ 52); nia).
  unfold round_q. replace (n =? 0) with false by lia.
  assert (Hpick : exists e, pick_exp n d = e /\ (e = - t \/ e = - (t + 1)) /\
                   p52 * d <= n * 2 ^ (- e) /\ n * 2 ^ (- e) < p53 * d).
  { unfold pick_exp. fold a b. replace (a - b - 52) with (- t) by (unfold t; lia).
    unfold scaled at 1. replace (- t - 1 >=? 0) with false by lia. replace (- (- t - 1)) with (t + 1) by lia.
    destruct ((p52 * d <=? n * 2 ^ (t + 1)) && (n * 2 ^ (t + 1) <? p53 * d)) eqn:C1.
    - exists (- (t + 1)). replace (- t - 1) with (- (t + 1)) by lia. split; [apply Z.max_l; lia|]. split; [right; reflexivity|].
      replace (- - (t + 1)) with (t + 1) by lia. lia.
    - assert (p53 * d <= n * 2 ^ (t + 1)) by lia.
      unfold scaled. replace (- t >=? 0) with false by lia. replace (- - t) with t by lia.
      replace ((p52 * d <=? n * 2 ^ t) && (n * 2 ^ t <? p53 * d)) with true
        by (unfold p52, p53 in *; symmetry; apply andb_true_iff; split; [apply Z.leb_le|apply Z.ltb_lt]; nia).
      exists (- t). split; [apply Z.max_l; lia|]. split; [left; reflexivity|]. replace (- - t) with t by lia.
      unfold p52, p53 in *. nia. }
  destruct Hpick as (e & -> & He & Flo & Fup).
  assert (He' : -64 <= e <= -12) by lia.
  unfold scaled. replace (e >=? 0) with false by lia.
  assert (Pe : 0 < 2 ^ (- e)) by (apply Z.pow_pos_nonneg; lia).
  assert (Hn0 : 0 <= n * 2 ^ (- e)) by (apply Z.mul_nonneg_nonneg; lia).
  pose proof (rdiv_even_err (n * 2 ^ (- e)) d Hn0 Hd) as Err.
  set (m := rdiv_even (n * 2 ^ (- e)) d) in *.
  assert (Hm0 : 0 <= m) by (apply rdiv_even_nonneg; assumption).
  destruct (m =? p53) eqn:Ec.
  - apply Z.eqb_eq in Ec. replace (e + 1 >? 971) with false by lia.
    exists p52, (e + 1). split; [reflexivity|]. split; [lia|]. split; [unfold p52; lia|].
    (* m = 2^53 is renormalised to 2^52 one exponent up: the error halves *)
    assert (H : 2 ^ (- e) = 2 * 2 ^ (- (e + 1))) by (replace (- e) with (1 + - (e + 1)) by lia; rewrite pow2_add by lia; lia).
    rewrite Ec, H in Err. replace (p53 * d - n * (2 * 2 ^ (- (e + 1)))) with (2 * (p52 * d - n * 2 ^ (- (e + 1)))) in Err
      by (unfold p52, p53; ring).
    rewrite Z.abs_mul in Err. lia.
  - replace (e >? 971) with false by lia. exists m, e. split; [reflexivity|]. split; [lia|]. split; [exact Hm0|exact Err].
Qed.

Lemma pow_ge_2048 e : -64 <= e <= -11 -> 2048 <= 2 ^ (- e).
Proof. intros H. change 2048 with (2 ^ 11). apply Z.pow_le_mono_r; lia. Qed.

Lemma dbl_q_neg_exp neg m e : e < 0 -> dbl_q (mkD neg m e) = (m, 2 ^ (- e)).
Proof. intros H. unfold dbl_q. cbn [de dm]. replace (e >=? 0) with false by lia. reflexivity. Qed.

Theorem altitude_roundtrip alt : -10000000 <= alt < 4284967296 ->
  exists a', num_reparse (the_dbl (dbl_of_Z alt)) = FFin a' /\ dbl_round a' = alt.
Proof.
  intros Hr. destruct (Z.eq_dec alt 0) as [->|Hnz]; [eexists; split; vm_compute; reflexivity|].
  set (A := Z.abs alt). set (neg := alt <? 0).
  assert (HA : 1 <= A < 4284967296) by (unfold A; lia).
  assert (Hsign : (if neg then - A else A) = alt) by (unfold neg, A; destruct (alt <? 0) eqn:E; lia).
  unfold dbl_of_Z. fold A neg.
  (* 1. float(alt) is exact *)
  destruct (round_q_spec neg A 1 ltac:(lia) ltac:(lia) ltac:(lia) ltac:(lia)) as (m0 & e0 & E0 & He0 & Hm0 & B0).
  pose proof (pow_ge_2048 e0 He0) as P0. set (p0 := 2 ^ (- e0)) in *.
  assert (Hm0e : m0 = A * p0) by lia.
  rewrite E0. cbn [the_dbl]. unfold num_reparse, fdiv100. rewrite dbl_q_neg_exp by lia. fold p0. cbn [dneg].
  (* 2. / 100.0 *)
  destruct (round_q_spec neg m0 (p0 * 100) ltac:(nia) ltac:(nia) ltac:(nia) ltac:(nia)) as (m1 & e1 & E1 & He1 & Hm1 & B1).
  pose proof (pow_ge_2048 e1 He1) as P1. set (p1 := 2 ^ (- e1)) in *.
  rewrite E1. cbn [the_dbl dneg]. unfold fmt_R. rewrite dbl_q_neg_exp by lia. fold p1.
  assert (B1' : Z.abs (m1 * 100 - A * p1) * 2 <= 100).
  { subst m0. assert (Z.abs ((m1 * 100 - A * p1) * p0) * 2 <= p0 * 100) by (replace ((m1 * 100 - A * p1) * p0) with (m1 * (p0 * 100) - A * p0 * p1) by ring; exact B1).
    rewrite Z.abs_mul, (Z.abs_eq p0) in H by lia. nia. }
  (* 3. the two decimals printed are those of alt *)
  assert (HR : rdiv_even (m1 * 100) p1 = A).
  { apply rdiv_even_unique; [nia|lia|]. replace (A * p1 - m1 * 100) with (- (m1 * 100 - A * p1)) by ring. rewrite Z.abs_opp. lia. }
  rewrite HR.
  (* 4. float(text) *)
  destruct (round_q_spec neg A 100 ltac:(lia) ltac:(lia) ltac:(lia) ltac:(lia)) as (m2 & e2 & E2 & He2 & Hm2 & B2).
  pose proof (pow_ge_2048 e2 He2) as P2. set (p2 := 2 ^ (- e2)) in *.
  rewrite E2. unfold fmul100. rewrite dbl_q_neg_exp by lia. fold p2. cbn [dneg].
  assert (B2a : A * p2 - 50 <= m2 * 100 <= A * p2 + 50) by lia.
  (* 5. * 100.0 *)
  assert (Hp2 : p2 <= A * p2 <= 4284967295 * p2) by (clear - HA P2; nia).
  destruct (round_q_spec neg (m2 * 100) p2 ltac:(lia) ltac:(lia) ltac:(lia) ltac:(lia)) as (m3 & e3 & E3 & He3 & Hm3 & B3).
  pose proof (pow_ge_2048 e3 He3) as P3. set (p3 := 2 ^ (- e3)) in *.
  rewrite E3. exists (mkD neg m3 e3). split; [reflexivity|].
  (* 6. round() *)
  unfold dbl_round. rewrite dbl_q_neg_exp by lia. fold p3. cbn [dneg].
  assert (HQ : rdiv_even m3 p3 = A).
  { apply rdiv_even_unique; [lia|lia|].
    (* |A p3 - m3| p2  <=  |A p2 - 100 m2| p3 + |100 m2 p3 - m3 p2|  <=  50 p3 + p2 / 2,  and p2, p3 >= 2048 *)
    set (X := Z.abs (A * p2 - m2 * 100)). set (Y := Z.abs (m2 * 100 * p3 - m3 * p2)). set (W := Z.abs (A * p3 - m3)).
    assert (T1 : X * 2 <= 100) by (unfold X; replace (A * p2 - m2 * 100) with (- (m2 * 100 - A * p2)) by ring; rewrite Z.abs_opp; exact B2).
    assert (T2 : Y * 2 <= p2) by (unfold Y; replace (m2 * 100 * p3 - m3 * p2) with (- (m3 * p2 - m2 * 100 * p3)) by ring; rewrite Z.abs_opp; exact B3).
    assert (T3 : W * p2 <= X * p3 + Y).
    { unfold W, X, Y. rewrite <- (Z.abs_eq p2) at 1 by lia. rewrite <- (Z.abs_eq p3) at 2 by lia. rewrite <- !Z.abs_mul.
      replace ((A * p3 - m3) * p2) with ((A * p2 - m2 * 100) * p3 + (m2 * 100 * p3 - m3 * p2)) by ring. apply Z.abs_triangle. }
    destruct (Z_lt_le_dec (W * 2) p3) as [|C]; [assumption|]. exfalso.
    assert (T4 : X * 2 * p3 <= 100 * p3) by (apply Z.mul_le_mono_nonneg_r; lia).
    assert (T5 : p3 * p2 <= W * 2 * p2) by (apply Z.mul_le_mono_nonneg_r; lia).
    assert (T6 : 2047 * 1948 <= (p3 - 1) * (p2 - 100)) by (apply Z.mul_le_mono_nonneg; lia).
    clearbody X Y W p2 p3. clear - T2 T3 T4 T5 T6. lia. }
  rewrite HQ. exact Hsign.
Qed.

(* the record-level side conditions without the altitude clause, which altitude_roundtrip supplies *)
Definition loc_wf (la lo : Z * Z * Z * Z * Z) (alt : Z) (sz hp vp : dbl) : Prop :=
  coord_wf la /\ coord_wf lo /\ loc_coord_ok la 90 = true /\ loc_coord_ok lo 180 = true /\
  -10000000 <= alt < 4284967296 /\ 0 <= dm sz /\ 0 <= dm hp /\ 0 <= dm vp /\
  (loc_sizes_default sz hp vp = false ->
     (exists s, loc_norm (num_reparse sz) = Ok s) /\ (exists s, loc_norm (num_reparse hp) = Ok s)
     /\ (exists s, loc_norm (num_reparse vp) = Ok s)).

Lemma loc_wf_ok la lo alt sz hp vp : loc_wf la lo alt sz hp vp -> loc_ok la lo alt sz hp vp.
Proof.
  intros (A & B & C & D & E & F & G & H & I). unfold loc_ok. repeat (split; [assumption|]).
  split; [apply altitude_roundtrip, E|]. repeat (split; [assumption|]). exact I.
Qed.

(* a LOC whose sizes are wire values (base * 10^exponent cm) comes back exactly *)
Definition is_wire_size (x : dbl) : Prop := exists b e, 0 <= b <= 9 /\ 0 <= e <= 9 /\ x = wire_size b e.

Lemma loc_expect_wire la lo alt sz hp vp : is_wire_size sz -> is_wire_size hp -> is_wire_size vp ->
  loc_expect la lo alt sz hp vp = VLoc la lo alt sz hp vp.
Proof.
  intros (b1 & e1 & B1 & E1 & ->) (b2 & e2 & B2 & E2 & ->) (b3 & e3 & B3 & E3 & ->). unfold loc_expect.
  destruct (loc_sizes_default _ _ _); [reflexivity|]. unfold norm_dbl.
  destruct (wire_size_roundtrip b1 e1 B1 E1) as [-> _]. destruct (wire_size_roundtrip b2 e2 B2 E2) as [-> _].
  destruct (wire_size_roundtrip b3 e3 B3 E3) as [-> _]. reflexivity.
Qed.
