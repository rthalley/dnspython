(* C09: the printed zone is read back as the zone that was printed. *)
From DV Require Import Base.Prelude Model.NameM Model.ZoneTextM Proofs.ZoneTextBase Proofs.ZoneTextInv
  Proofs.ZoneTextRespell Proofs.ZoneTextRead Proofs.ZoneTextLex Proofs.ZoneTextLines Proofs.ZoneTextAcc
  Proofs.ZoneTextRecord Proofs.ZoneTextSweep.
Open Scope Z_scope.

Lemma rds_eta r : mkrds (rtype r) (rcovers r) (rttl r) (rdatas r) = r.
Proof. destruct r; reflexivity. Qed.

Lemma blank_line_reads c s : line_reads c s [] s.
Proof. intros rest f. reflexivity. Qed.

Lemma check_origin_empty c zo : check_origin c (Some zo) [] = Lib eNoSOA.
Proof. unfold check_origin. destruct (c_rel c); reflexivity. Qed.

Section RT.
  Variable c : cfg.
  Variable st : style.
  Variable zo : name.
  Let rel := c_rel c.

  Hypothesis Hloss : lossless st.
  Hypothesis Hclass16 : 0 <= c_class c <= 65535.
  Let Hclass : class_ok c := class_ok_all c Hclass16.

  (* the zone built so far: the finished names, then the current name if it has an rdataset *)
  Definition pzone (zdone : zone) (n : name) (ndone : node) : zone :=
    zdone ++ match ndone with [] => [] | _ => [(n, ndone)] end.

  Lemma first_add zdone n ndone ttl ty rd :
    key_fresh zdone n -> soa_ok zo rel n ty ->
    rds_fresh ndone ty (covers_of ty rd) -> compat ndone (classify ty (covers_of ty rd)) ->
    txn_add zo rel (pzone zdone n ndone) n ttl ty rd =
    Ok (zdone ++ [(n, ndone ++ [mkrds ty (covers_of ty rd) ttl [rd]])]).
  Proof.
    intros Hf Hs Hr Hc. unfold pzone. destruct ndone as [|r0 nd0].
    - rewrite app_nil_r. apply add_new_node; assumption.
    - apply add_new_rds; assumption.
  Qed.

  (* well-formed zones (what Zone objects built through the API satisfy) *)
  Fixpoint rdatas_wf (ty cov : Z) (rdone rds : list rdata) : Prop :=
    match rds with
    | [] => True
    | rd :: r =>
        covers_of ty rd = cov /\
        existsb (rdata_eqb (canon_names ty) rd) rdone = false /\
        (exists toks, rdata_ok c st zo ty rd toks) /\
        rdatas_wf ty cov (rdone ++ [rd]) r
    end.

  Definition rds_wf (n : name) (r : rdataset) : Prop :=
    rdatas r <> [] /\ 0 <= rttl r <= MAX_TTL /\ 0 <= rtype r <= 65535 /\ soa_ok zo rel n (rtype r) /\
    (is_singleton (rtype r) = true -> exists rd, rdatas r = [rd]) /\
    rdatas_wf (rtype r) (rcovers r) [] (rdatas r).

  Fixpoint rdss_wf (n : name) (ndone rest : node) : Prop :=
    match rest with
    | [] => True
    | r :: rest' =>
        rds_fresh ndone (rtype r) (rcovers r) /\ compat ndone (rds_kind r) /\ rds_wf n r /\
        rdss_wf n (ndone ++ [r]) rest'
    end.

  Fixpoint nodes_wf (zdone rest : zone) : Prop :=
    match rest with
    | [] => True
    | (n, nd) :: rest' =>
        key_fresh zdone n /\ nd <> [] /\ (exists v nabs, owner_ok c st zo n v nabs) /\
        rdss_wf n [] nd /\ nodes_wf (zdone ++ [(n, nd)]) rest'
    end.

  Section Node.
    Variables (zdone : zone) (n nabs : name) (v : list Z).
    Hypothesis Hfresh : key_fresh zdone n.
    Hypothesis Hown : owner_ok c st zo n v nabs.

    Let own_cond (s : rstate) (ownt : option (list Z)) : Prop :=
      match ownt with Some v' => v' = v | None => lastname s = Some nabs end.

    Lemma own_cond_record s ownt :
      own_cond s ownt ->
      match ownt with
      | Some v' => owner_ok c st zo n v' nabs
      | None => lastname s = Some nabs /\ is_subdomain nabs zo = true /\
                (if c_rel c then lift_name true (relativize nabs zo) else Ok nabs) = Ok n
      end.
    Proof.
      destruct ownt as [v'|]; cbn.
      - intros E. subst v'. exact Hown.
      - intros Hl. destruct Hown as (_ & _ & _ & _ & Hs & Hr). auto.
    Qed.

    (* the zone while the records of rdataset r are read; rdone: those read so far *)
    Definition cur_zone (ndone : node) (r : rdataset) (rdone : list rdata) : zone :=
      match rdone with
      | [] => pzone zdone n ndone
      | _ => zdone ++ [(n, ndone ++ [mkrds (rtype r) (rcovers r) (rttl r) rdone])]
      end.

    Lemma rdatas_lines_read r ndone : forall rds rdone s ownt,
      st_inv st zo s -> own_cond s ownt -> zn s = cur_zone ndone r rdone ->
      0 <= rttl r <= MAX_TTL -> type_ok (rtype r) -> soa_ok zo rel n (rtype r) ->
      rds_fresh ndone (rtype r) (rcovers r) -> compat ndone (rds_kind r) ->
      (is_singleton (rtype r) = true -> (length (rdone ++ rds) <= 1)%nat) ->
      rdatas_wf (rtype r) (rcovers r) rdone rds ->
      exists lines s',
        rds_lines st (owner_field st ownt) (ttl_field st (rttl r)) (class_field c st) (type_field st (rtype r)) r rds
          = Ok lines /\
        lines_read c s lines s' /\ st_inv st zo s' /\
        (rds <> [] \/ lastname s = Some nabs -> lastname s' = Some nabs) /\
        zn s' = cur_zone ndone r (rdone ++ rds).
    Proof.
      induction rds as [|rd rds IH]; intros rdone s ownt Hinv Hoc Hzn Httl Hty Hsoa Hrf Hcp Hsing Hwf.
      - exists [], s. cbn [rds_lines]. rewrite app_nil_r.
        split; [reflexivity|]. split; [constructor|]. split; [exact Hinv|]. split; [intros [[]|H]; auto|exact Hzn].
      - cbn [rdatas_wf] in Hwf. destruct Hwf as (Hcov & Hdup & (toks & Hrd) & Hwf).
        assert (Hcur : cur_zone ndone r (rdone ++ [rd]) =
                       zdone ++ [(n, ndone ++ [mkrds (rtype r) (rcovers r) (rttl r) (rdone ++ [rd])])])
          by (destruct rdone; reflexivity).
        assert (Hadd : txn_add zo rel (zn s) n (rttl r) (rtype r) rd = Ok (cur_zone ndone r (rdone ++ [rd]))).
        { rewrite Hzn, Hcur. destruct rdone as [|rd0 rdone]; cbn [cur_zone].
          - rewrite <- Hcov. apply first_add; auto; rewrite Hcov; assumption.
          - apply add_more_rd; auto; [discriminate|].
            destruct (is_singleton (rtype r)); [|reflexivity].
            specialize (Hsing eq_refl). cbn [app length] in Hsing. rewrite app_length in Hsing. cbn in Hsing. lia. }
        set (z' := cur_zone ndone r (rdone ++ [rd])) in *.
        set (s1 := next_state st s nabs (rttl r) (rtype r) rd z').
        assert (Hline := record_line_reads c st zo s n nabs ownt (rttl r) (rtype r) rd toks z'
                           Hloss Hclass Hinv (own_cond_record s ownt Hoc) Httl Hty Hrd Hadd).
        fold s1 in Hline.
        destruct (IH (rdone ++ [rd]) s1 (if st_dedup st then None else ownt)) as (lines & s' & Hl & Hr & Hi & Hla & Hz); auto.
        + apply next_state_inv. exact Hinv.
        + destruct (st_dedup st); [apply next_state_last|].
          destruct ownt; [exact Hoc|apply next_state_last].
        + rewrite <- app_assoc. exact Hsing.
        + destruct Hrd as (Hrt & _ & _).
          destruct Hloss as (_ & _ & Hg & _ & Hod & _).
          exists ((owner_field st ownt ++ ttl_field st (rttl r) ++ class_field c st ++ type_field st (rtype r) ++
                   32 :: join_sp (map render_tok toks)) :: lines), s'.
          cbn [rds_lines]. rewrite Hg, Hod, Hrt. cbn [bind].
          replace (if st_dedup st then justify blank4 (st_name_just st) else owner_field st ownt)
            with (owner_field st (if st_dedup st then None else ownt)) by (destruct (st_dedup st); reflexivity).
          rewrite Hl. cbn [bind].
          split; [reflexivity|]. split; [econstructor; eauto|]. split; [exact Hi|].
          split; [intros _; apply Hla; right; apply next_state_last|].
          rewrite Hz, <- app_assoc. reflexivity.
    Qed.

    Lemma rds_text_lines_eq (fd : bool) r :
      rds_text_lines st (c_class c) fd n r =
      rds_lines st (owner_field st (if st_dedup st && fd then None else Some v)) (ttl_field st (rttl r))
        (class_field c st) (type_field st (rtype r)) r (rdatas r).
    Proof.
      destruct Hloss as (_ & Hot & Hg & _ & Hod & _). destruct Hown as (Hnt & _).
      unfold rds_text_lines, owner_field, ttl_field, class_field, type_field.
      rewrite Hod, Hnt. destruct (st_dedup st && fd); reflexivity.
    Qed.

    Lemma rdataset_lines r ndone (fd : bool) s :
      st_inv st zo s -> (st_dedup st && fd = true -> lastname s = Some nabs) ->
      zn s = pzone zdone n ndone ->
      rds_fresh ndone (rtype r) (rcovers r) -> compat ndone (rds_kind r) -> rds_wf n r ->
      exists lines s',
        rds_text_lines st (c_class c) fd n r = Ok lines /\
        lines_read c s lines s' /\ st_inv st zo s' /\ lastname s' = Some nabs /\
        zn s' = zdone ++ [(n, ndone ++ [r])].
    Proof.
      intros Hinv Hfd Hzn Hrf Hcp (Hne & Httl & Hty16 & Hsoa & Hsing & Hwf).
      destruct (rdatas_lines_read r ndone (rdatas r) [] s (if st_dedup st && fd then None else Some v))
        as (lines & s' & Hl & Hr & Hi & Hla & Hz); auto.
      - destruct (st_dedup st && fd); [apply Hfd; reflexivity|reflexivity].
      - apply type_ok_all. exact Hty16.
      - intros H. destruct (Hsing H) as (rd0 & ->). cbn. lia.
      - exists lines, s'. rewrite rds_text_lines_eq.
        split; [exact Hl|]. split; [exact Hr|]. split; [exact Hi|]. split; [apply Hla; left; exact Hne|].
        rewrite Hz. cbn [app]. unfold cur_zone. destruct (rdatas r) eqn:E; [congruence|]. rewrite <- E, rds_eta. reflexivity.
    Qed.

    Lemma pzone_cons ndone r : pzone zdone n (ndone ++ [r]) = zdone ++ [(n, ndone ++ [r])].
    Proof. unfold pzone. destruct (ndone ++ [r]) eqn:E; [|reflexivity]. apply app_eq_nil in E. destruct E; discriminate. Qed.

    Lemma node_lines_read : forall rest ndone (fd : bool) s,
      st_inv st zo s -> (st_dedup st && fd = true -> lastname s = Some nabs) ->
      zn s = pzone zdone n ndone -> rdss_wf n ndone rest ->
      exists lines s',
        node_lines st (c_class c) fd n rest = Ok lines /\
        lines_read c s lines s' /\ st_inv st zo s' /\
        zn s' = pzone zdone n (ndone ++ rest).
    Proof.
      induction rest as [|r rest IH]; intros ndone fd s Hinv Hfd Hzn Hwf.
      - exists [], s. rewrite app_nil_r. split; [reflexivity|]. split; [constructor|]. auto.
      - cbn [rdss_wf] in Hwf. destruct Hwf as (Hrf & Hcp & Hr & Hwf).
        destruct (rdataset_lines r ndone fd s Hinv Hfd Hzn Hrf Hcp Hr) as (l & s1 & Hl & Hr1 & Hi1 & Hla1 & Hz1).
        destruct (IH (ndone ++ [r]) (fd || st_dedup st) s1 Hi1 ltac:(intros _; exact Hla1)
                    ltac:(rewrite pzone_cons; exact Hz1) Hwf) as (more & s' & Hm & Hr2 & Hi2 & Hz2).
        exists (l ++ more), s'. cbn [node_lines].
        destruct Hr as (Hne & _). destruct (rdatas r) eqn:Erd; [congruence|].
        rewrite Hl. cbn [bind]. rewrite Hm. cbn [bind].
        split; [reflexivity|]. split; [eapply lines_read_app; eauto|]. split; [exact Hi2|].
        rewrite Hz2, <- app_assoc. reflexivity.
    Qed.
  End Node.

  Lemma nodes_lines_read : forall rest zdone s,
    st_inv st zo s -> zn s = zdone -> nodes_wf zdone rest ->
    exists lines s',
      nodes_lines st (c_class c) rest = Ok lines /\
      lines_read c s lines s' /\ st_inv st zo s' /\ zn s' = zdone ++ rest.
  Proof.
    induction rest as [|[n nd] rest IH]; intros zdone s Hinv Hzn Hwf.
    - exists [], s. rewrite app_nil_r. split; [reflexivity|]. split; [constructor|]. auto.
    - cbn [nodes_wf] in Hwf. destruct Hwf as (Hf & Hne & (v & nabs & Hown) & Hrw & Hwf).
      destruct Hloss as (Hfd & _).
      destruct (node_lines_read zdone n nabs v Hf Hown nd [] (st_first_dup st) s Hinv)
        as (l & s1 & Hl & Hr1 & Hi1 & Hz1); auto.
      { rewrite Hfd, andb_false_r. discriminate. }
      { unfold pzone. rewrite app_nil_r. exact Hzn. }
      assert (Hz1' : zn s1 = zdone ++ [(n, nd)]).
      { rewrite Hz1. unfold pzone. cbn [app]. destruct nd; [congruence|reflexivity]. }
      destruct (IH (zdone ++ [(n, nd)]) s1 Hi1 Hz1' Hwf) as (more & s' & Hm & Hr2 & Hi2 & Hz2).
      exists ((match l with [] => [[]] | _ => l end) ++ more), s'.
      cbn [nodes_lines]. rewrite Hl. cbn [bind]. rewrite Hm. cbn [bind].
      split; [reflexivity|]. split; [|split; [exact Hi2|rewrite Hz2, <- app_assoc; reflexivity]].
      eapply lines_read_app; [|exact Hr2].
      destruct l as [|l0 l']; [|exact Hr1].
      inversion Hr1; subst. econstructor; [apply blank_line_reads|constructor].
  Qed.

  Definition origin_ok : Prop :=
    as_name true (NameM.to_text zo) None false None = Ok zo /\ is_absolute zo = true /\
    id_clean (NameM.to_text zo) = true.

  Lemma origin_line_reads s :
    origin_ok ->
    line_reads c s ([36; 79; 82; 73; 71; 73; 78; 32] ++ NameM.to_text zo) (set_origin s zo).
  Proof.
    intros (Hn & Ha & Hc).
    replace ([36; 79; 82; 73; 71; 73; 78; 32] ++ NameM.to_text zo)
      with (render [Tk (TId sORIGIN); Sp 1; Tk (TId (NameM.to_text zo))])
      by (cbn [render render_tok repeat app sORIGIN]; rewrite app_nil_r; reflexivity).
    apply line_reads_pieces.
    - cbn [sep_ok tok_clean]. rewrite Hc. reflexivity.
    - cbn [toks_of]. unfold process_line.
      replace (starts_ws _) with false by reflexivity.
      cbn [tokval sORIGIN upper_l map upper Z.leb Z.compare andb zlist_eqb Z.eqb sTTL Pos.eqb get_ident bind].
      rewrite Hn. cbn [bind]. rewrite Ha. reflexivity.
  Qed.

  Lemma ttl_line_reads s d :
    0 <= d <= MAX_TTL ->
    line_reads c s ([36; 84; 84; 76; 32] ++ dec d) (set_dttl s d).
  Proof.
    intros Hd.
    replace ([36; 84; 84; 76; 32] ++ dec d) with (render [Tk (TId sTTL); Sp 1; Tk (TId (dec d))])
      by (cbn [render render_tok repeat app sTTL]; rewrite app_nil_r; reflexivity).
    apply line_reads_pieces.
    - cbn [sep_ok tok_clean].
      destruct (dec_spec d ltac:(lia)) as (Ha & _ & Hne). rewrite (digits_clean _ Ha Hne). reflexivity.
    - cbn [toks_of]. unfold process_line.
      replace (starts_ws _) with false by reflexivity.
      cbn [tokval sTTL upper_l map upper Z.leb Z.compare andb zlist_eqb Z.eqb Pos.eqb get_ident bind].
      rewrite (ttl_from_text_dec _ Hd). reflexivity.
  Qed.

  (* the order in which the printer writes the names *)
  Definition printed_order (nodes : zone) : zone := if st_sorted st then zsort nodes else nodes.

  Theorem zone_roundtrip_proof nodes nodes' :
    nodes' = printed_order nodes ->
    (c_origin c = Some zo \/ (c_origin c = None /\ st_want_origin st = true)) ->
    (st_want_origin st = true -> origin_ok) ->
    nodes_wf [] nodes' ->
    (c_check c = true -> check_origin c (Some zo) nodes' = Ok tt) ->
    exists text,
      zone_text st (mkpz (Some zo) rel (c_class c) nodes) = Ok text /\
      from_text c text = Ok (match nodes' with [] => c_origin c | _ => Some zo end, nodes').
  Proof.
    intros En Horig Hook Hwf Hchk.
    destruct Hloss as (Hfd & Hot & Hg & Hnj & Hod & Hdr).
    (* state after the directives *)
    set (s0 := init_state c).
    set (s1 := if st_want_origin st then set_origin s0 zo else s0).
    set (s2 := match st_default_ttl st with Some d => set_dttl s1 d | None => s1 end).
    assert (Hinv : st_inv st zo s2).
    { unfold st_inv, s2, s1, s0, init_state.
      destruct (st_want_origin st) eqn:Ew; destruct (st_default_ttl st) as [d|] eqn:Ed; st_simpl;
        destruct Horig as [Ho|[Ho Hw]]; try rewrite Ho; try congruence;
        (split; [reflexivity|split; [reflexivity|]]); intros d' Hd'; inversion Hd'; subst; auto. }
    assert (Hz2 : zn s2 = []).
    { unfold s2, s1, s0. destruct (st_want_origin st); destruct (st_default_ttl st); reflexivity. }
    destruct (nodes_lines_read nodes' [] s2 Hinv Hz2 Hwf) as (l3 & s3 & Hl3 & Hr3 & Hi3 & Hz3).
    cbn [app] in Hz3.
    set (l1 := if st_want_origin st then [[36; 79; 82; 73; 71; 73; 78; 32] ++ NameM.to_text zo] else []).
    set (l2 := match st_default_ttl st with Some d => [[36; 84; 84; 76; 32] ++ dec d] | None => [] end).
    assert (Hlines : zone_lines st (mkpz (Some zo) rel (c_class c) nodes) = Ok (l1 ++ l2 ++ l3)).
    { unfold zone_lines. cbn [pz_rel pz_origin pz_class pz_nodes]. rewrite Hg. cbn [andb].
      fold (printed_order nodes). rewrite <- En, Hl3. unfold l1, l2.
      destruct (st_want_origin st); [|reflexivity].
      unfold name_text, choose_relativity. cbn [bind]. rewrite Hod. reflexivity. }
    assert (Hread : lines_read c s0 (l1 ++ l2 ++ l3) s3).
    { apply lines_read_app with (s1 := s1).
      - unfold l1, s1. destruct (st_want_origin st) eqn:Ew; [|constructor].
        econstructor; [apply origin_line_reads; auto|constructor].
      - apply lines_read_app with (s1 := s2); [|exact Hr3].
        unfold l2, s2. destruct (st_default_ttl st) as [d|] eqn:Ed; [|constructor].
        econstructor; [apply ttl_line_reads; auto|constructor]. }
    exists (text_of (l1 ++ l2 ++ l3)). split.
    - unfold zone_text. rewrite Hlines. reflexivity.
    - unfold from_text.
      rewrite (read_loop_lines c _ _ _ Hread) by (pose proof (length_text_of (l1 ++ l2 ++ l3)); lia).
      cbn [bind]. rewrite Hz3.
      destruct Hi3 as (_ & Hzo3 & _). rewrite Hzo3.
      destruct nodes' as [|e ns]; [|destruct (c_check c) eqn:Ec; [rewrite (Hchk eq_refl)|]; reflexivity].
      destruct (c_check c) eqn:Ec; [|reflexivity].
      specialize (Hchk eq_refl). rewrite check_origin_empty in Hchk. discriminate.
  Qed.
End RT.
