(* Lemmas about the TSIG model (coq/Model/TsigM.v): encodings, the digest input is the
   RFC 8945 input (Proofs/TsigSpec.v), validate's acceptance condition, sign-then-validate. *)
From DV Require Import Base.Prelude Proofs.ListFacts.
From DV Require Model.NameM.
From DV Require Proofs.NameOrder.
From DV Require Import Model.TsigM Proofs.TsigSpec.
Open Scope Z_scope.

(* E : (do x <- r; ...) = Ok _ with r not itself a bind: r is some Ok x, with its equation q *)
Tactic Notation "dbind" hyp(E) "as" ident(x) ident(q) :=
  match type of E with
  | context [bind ?r _] =>
      lazymatch r with bind _ _ => fail | _ => idtac end;
      destruct r as [x| |] eqn:q; cbn [bind] in E; try discriminate
  end.

(* unlike injection, leaves both sides as they are written *)
Lemma all_bytes_In : forall w x, all_bytes w = true -> In x w -> 0 <= x < 256.
Proof.
  intros w x A I. unfold all_bytes in A. rewrite forallb_forall in A. apply A in I. unfold is_byte in I. lia.
Qed.

Lemma be_app : forall m n v, be (n + m) v = be n (v / 256 ^ Z.of_nat m) ++ be m v.
Proof.
  induction m; intros.
  - rewrite Nat.add_0_r. cbn [be]. rewrite app_nil_r. change (256 ^ Z.of_nat 0) with 1. now rewrite Z.div_1_r.
  - rewrite Nat.add_succ_r. cbn [be]. rewrite IHm, <- app_assoc. f_equal.
    rewrite Z.div_div by lia. f_equal. rewrite Nat2Z.inj_succ, Z.pow_succ_r by lia. reflexivity.
Qed.

Lemma be_length : forall n v, length (be n v) = n.
Proof. induction n; intros; cbn [be]; [reflexivity|]. rewrite app_length, IHn. cbn. lia. Qed.

(* be n reads v modulo 256^n *)
Lemma be_mod : forall n v, be n (v mod 256 ^ Z.of_nat n) = be n v.
Proof.
  induction n; intros v; [reflexivity|]. cbn [be].
  rewrite Nat2Z.inj_succ, Z.pow_succ_r, Z.rem_mul_r, (Z.mul_comm 256) by lia.
  rewrite Z.div_add, Z.mod_add, Z.mod_mod, (Z.div_small (v mod 256)) by (try apply Z.mod_pos_bound; lia).
  now rewrite Z.add_0_l, IHn.
Qed.

Lemma in_u16_iff : forall v, in_u16 v = true <-> 0 <= v < 65536.
Proof. intros. unfold in_u16. rewrite andb_true_iff, Z.leb_le, Z.ltb_lt. tauto. Qed.

Lemma u16_be : forall v, in_u16 v = true -> u16 v = be 2 v.
Proof.
  intros v Hv. apply in_u16_iff in Hv. unfold u16. cbn [be app]. f_equal. (Z.to_euclidean_division_equations; lia).
Qed.

Lemma u32_be : forall v, 0 <= v < 4294967296 -> u32 v = be 4 v.
Proof.
  intros v Hv. unfold u32. cbn [be app]. rewrite !Z.div_div by lia. cbn [Z.mul Pos.mul]. f_equal.
  symmetry. apply Z.mod_small. split; [apply Z.div_pos|apply Z.div_lt_upper_bound]; lia.
Qed.

(* struct.pack("!HI", (t >> 32) & 0xFFFF, t & 0xFFFFFFFF) is the 48-bit time *)
Lemma time_be : forall t,
  u16 ((t / 4294967296) mod 65536) ++ u32 (t mod 4294967296) = be 6 t.
Proof.
  intros. change 6%nat with (2 + 4)%nat. rewrite be_app.
  rewrite u16_be, u32_be by (try apply in_u16_iff; apply Z.mod_pos_bound; lia).
  f_equal; [apply (be_mod 2)|apply (be_mod 4)].
Qed.

Lemma be_inj : forall n a b,
  0 <= a < 256 ^ Z.of_nat n -> 0 <= b < 256 ^ Z.of_nat n -> be n a = be n b -> a = b.
Proof.
  induction n; intros a b Ha Hb E.
  - change (256 ^ Z.of_nat 0) with 1 in *. lia.
  - cbn [be] in E. apply app_inj_tail in E as [E1 E2].
    rewrite Nat2Z.inj_succ, Z.pow_succ_r in Ha, Hb by lia.
    apply IHn in E1; [|(Z.to_euclidean_division_equations; lia)|(Z.to_euclidean_division_equations; lia)].
    rewrite (Z.div_mod a 256), (Z.div_mod b 256) by lia. congruence.
Qed.

(* the parser's big-endian reading of octets *)
Lemma be_val_app : forall a b acc, be_val (a ++ b) acc = be_val b (be_val a acc).
Proof. induction a; intros; cbn [app be_val]; [reflexivity|apply IHa]. Qed.

Lemma be_val_be : forall n v acc,
  0 <= v < 256 ^ Z.of_nat n -> be_val (be n v) acc = acc * 256 ^ Z.of_nat n + v.
Proof.
  induction n; intros v acc Hv.
  - change (256 ^ Z.of_nat 0) with 1 in *. cbn [be be_val]. lia.
  - cbn [be]. rewrite be_val_app. cbn [be_val].
    rewrite Nat2Z.inj_succ, Z.pow_succ_r in * by lia.
    rewrite IHn by (Z.to_euclidean_division_equations; lia). (Z.to_euclidean_division_equations; lia).
Qed.

Lemma be_val_bound : forall l acc,
  (forall x, In x l -> 0 <= x < 256) -> 0 <= acc ->
  0 <= be_val l acc < (acc + 1) * 256 ^ Z.of_nat (length l).
Proof.
  induction l as [|b l IH]; intros acc Hb Ha; cbn [be_val length].
  - change (256 ^ Z.of_nat 0) with 1. lia.
  - assert (Bb : 0 <= b < 256) by (apply Hb; now left).
    assert (IHl := IH (acc * 256 + b) (fun x Hx => Hb x (or_intror Hx))).
    rewrite Nat2Z.inj_succ, Z.pow_succ_r by lia.
    assert (0 < 256 ^ Z.of_nat (length l)) by (apply Z.pow_pos_nonneg; lia).
    split; [apply IHl; lia|].
    eapply Z.lt_le_trans; [apply IHl; lia|]. nia.
Qed.

Lemma canonical_name_wire : forall n, canonical_name n = NameM.wire_labels true n.
Proof.
  intros. unfold canonical_name, NameM.wire_labels. rewrite flat_map_concat_map. reflexivity.
Qed.

Lemma to_digestable_ok : forall n b,
  NameM.to_wire n None true = Ok b -> b = canonical_name n /\ NameM.is_absolute n = true.
Proof.
  intros n b E. unfold NameM.to_wire in E. destruct (NameM.is_absolute n); [|discriminate].
  inversion E. now rewrite canonical_name_wire.
Qed.

Definition vars_of (k : key) (rd : tsig) (t : Z) : tsig_variables :=
  {| v_name := kname k; v_alg := kalg k; v_time := t; v_fudge := t_fudge rd;
     v_error := t_error rd; v_other := t_other rd |}.

Definition time_of (rd : tsig) (time : option Z) : Z :=
  match time with Some t => t | None => t_time rd end.

Definition omac (rmac : bytes) : option octets := match rmac with [] => None | _ => Some rmac end.

Lemma get_context_ok : forall k c,
  get_context k = Ok c ->
  assoc_name hashes (kalg k) = Some (c_hash c, c_size c) /\ c_key c = ksecret k /\ c_data c = [].
Proof.
  intros k c E. unfold get_context in E.
  destruct (NameM.name_eqb (kalg k) nGSS_TSIG); [discriminate|].
  destruct (assoc_name hashes (kalg k)) as [[h sz]|]; [|discriminate].
  apply Ok_inj in E as <-. cbn. auto.
Qed.

Lemma pack_u16_ok : forall v b, pack_u16 v = Ok b -> b = be 2 v /\ in_u16 v = true.
Proof.
  intros v b E. unfold pack_u16 in E. destruct (in_u16 v) eqn:I; [|discriminate].
  apply Ok_inj in E as <-. split; [now apply u16_be | reflexivity].
Qed.

Lemma time_encoded_ok : forall t f b,
  time_encoded t f = Ok b -> b = be 6 t ++ be 2 f /\ in_u16 f = true.
Proof.
  intros t f b E. unfold time_encoded in E. destruct (in_u16 f) eqn:I; [|discriminate].
  apply Ok_inj in E as <-. split; [|reflexivity]. rewrite (u16_be f) by assumption.
  change (u16 (t / 4294967296 mod 65536) ++ u32 (t mod 4294967296) ++ be 2 f)
    with (u16 (t / 4294967296 mod 65536) ++ (u32 (t mod 4294967296) ++ be 2 f)).
  now rewrite app_assoc, time_be.
Qed.

Lemma first_prefix : forall c0 (rmac : bytes) c1,
  (match rmac with
   | [] => Ok c0
   | _ :: _ => do l <- pack_u16 (zlen rmac); Ok (update (update c0 l) rmac)
   end) = Ok c1 ->
  c_data c1 = c_data c0 ++ (match omac rmac with Some m => rfc_request_mac m | None => [] end)
  /\ c_key c1 = c_key c0 /\ c_hash c1 = c_hash c0 /\ c_size c1 = c_size c0.
Proof.
  intros c0 rmac c1 E. destruct rmac as [|r0 rm].
  - apply Ok_inj in E as <-. cbn [omac]. rewrite app_nil_r. auto.
  - dbind E as l PK. apply pack_u16_ok in PK as [-> _]. apply Ok_inj in E as <-.
    cbn [update c_data c_key c_hash c_size omac]. unfold rfc_request_mac, olen, zlen.
    rewrite <- app_assoc. auto.
Qed.

(* first form: request (no request MAC) or response / first envelope (request MAC) *)
Lemma digest_first_is_rfc : forall wire k rd time rmac ctx multi c,
  (ctx = None \/ multi = false) ->
  digest wire k rd time rmac ctx multi = Ok c ->
  c_data c = rfc8945_input (omac rmac) (t_oid rd) wire (vars_of k rd (time_of rd time))
  /\ c_key c = ksecret k
  /\ assoc_name hashes (kalg k) = Some (c_hash c, c_size c).
Proof.
  intros wire k rd time rmac ctx multi c Hf E. unfold digest in E.
  replace (negb (match ctx with Some _ => multi | None => false end)) with true in E
    by (destruct Hf; subst; [reflexivity | now destruct ctx]).
  dbind E as c0 G. apply get_context_ok in G as (Gh & Gk & Gd).
  destruct (match rmac with [] => _ | _ => _ end) as [c1| |] eqn:E1; cbn [bind] in E; try discriminate.
  apply first_prefix in E1 as (D1 & K1 & H1 & S1). rewrite Gd in D1. cbn [app] in D1.
  dbind E as oid PO. apply pack_u16_ok in PO as [-> _].
  dbind E as kn KN. apply to_digestable_ok in KN as [-> _].
  dbind E as te TE. apply time_encoded_ok in TE as [-> FU].
  destruct (zlen (t_other rd) >? 65535) eqn:OL; [discriminate|].
  dbind E as an AN. apply to_digestable_ok in AN as [-> _].
  destruct (in_u16 (t_error rd)) eqn:IE; [|discriminate].
  apply Ok_inj in E as <-. cbn [update c_data c_key c_hash c_size].
  rewrite D1, K1, Gk, H1, S1. split; [|split; [reflexivity|assumption]].
  unfold rfc8945_input, rfc_dns_message, rfc_tsig_variables, vars_of, time_of, CLASS_ANY.
  cbn [v_name v_alg v_time v_fudge v_error v_other].
  assert (OLb : in_u16 (zlen (t_other rd)) = true) by (apply in_u16_iff; unfold zlen in *; lia).
  rewrite !u16_be by (assumption || reflexivity).
  rewrite (u32_be 0) by lia. unfold olen, zlen.
  repeat rewrite <- app_assoc. reflexivity.
Qed.

(* subsequent form: an existing context in a multi-message exchange *)
Lemma digest_subsequent_is_rfc : forall wire k rd time rmac c0 c,
  digest wire k rd time rmac (Some c0) true = Ok c ->
  c_data c = c_data c0 ++ rfc_dns_message (t_oid rd) wire
             ++ rfc_tsig_timers (time_of rd time) (t_fudge rd)
  /\ c_key c = c_key c0 /\ c_hash c = c_hash c0 /\ c_size c = c_size c0.
Proof.
  intros wire k rd time rmac c0 c E. unfold digest in E. cbn [negb bind] in E.
  dbind E as oid PO. apply pack_u16_ok in PO as [-> _].
  dbind E as te TE. apply time_encoded_ok in TE as [-> FU].
  destruct (zlen (t_other rd) >? 65535); [discriminate|].
  apply Ok_inj in E as <-. cbn [update c_data c_key c_hash c_size].
  unfold rfc_dns_message, rfc_tsig_timers, time_of.
  repeat rewrite <- app_assoc. auto.
Qed.

(* the context returned for the next envelope starts with the length-prefixed MAC *)
Lemma maybe_start_digest_multi : forall k mac r,
  maybe_start_digest k mac true = Ok r ->
  exists c1, r = Some c1 /\ c_data c1 = rfc_request_mac mac /\ c_key c1 = ksecret k
             /\ assoc_name hashes (kalg k) = Some (c_hash c1, c_size c1).
Proof.
  intros k mac r E. unfold maybe_start_digest in E.
  dbind E as c0 G. apply get_context_ok in G as (Gh & Gk & Gd).
  dbind E as l PK. apply pack_u16_ok in PK as [-> _]. apply Ok_inj in E as <-.
  eexists. split; [reflexivity|]. cbn [update c_data c_key c_hash c_size]. rewrite Gd. auto.
Qed.

Lemma maybe_start_digest_single : forall k mac r,
  maybe_start_digest k mac false = r -> r = Ok None.
Proof. intros. now subst. Qed.

(* the truncation the model applies, in the words of the specification *)
Definition trunc_of (sz : option Z) : option nat :=
  match sz with Some s => Some (Z.to_nat (s / 8)) | None => None end.

Lemma ctx_sign_spec : forall H c,
  ctx_sign H c = rfc_truncate (trunc_of (c_size c)) (H (c_hash c) (c_key c) (c_data c)).
Proof. intros. unfold ctx_sign, rfc_truncate, trunc_of. now destruct (c_size c). Qed.

(* the rdata constructor returns its arguments, all in range *)
Lemma mk_tsig_inv : forall a t f m o e ot r,
  mk_tsig a t f m o e ot = Ok r ->
  r = {| t_alg := a; t_time := t; t_fudge := f; t_mac := m; t_oid := o; t_error := e; t_other := ot |}
  /\ 0 <= t < 281474976710656 /\ 0 <= f < 65536 /\ 0 <= o < 65536 /\ 0 <= e <= 4095.
Proof.
  intros until r. intros M. unfold mk_tsig, in_u48, in_u16 in M.
  destruct ((0 <=? t) && _) eqn:A; cbn [negb] in M; [|discriminate].
  destruct ((0 <=? f) && _) eqn:B; cbn [negb] in M; [|discriminate].
  destruct ((0 <=? o) && _) eqn:C; cbn [negb] in M; [|discriminate].
  destruct ((0 <=? e) && _) eqn:D; cbn [negb] in M; [|discriminate].
  injection M as <-. repeat split; lia.
Qed.

Lemma mk_tsig_fields : forall a t f m o e ot r,
  mk_tsig a t f m o e ot = Ok r ->
  t_alg r = a /\ t_time r = t /\ t_fudge r = f /\ t_mac r = m /\ t_oid r = o /\ t_error r = e /\ t_other r = ot.
Proof. intros until r. intros M. apply mk_tsig_inv in M as [-> _]. cbn. repeat split. Qed.

(* the checks validate makes before it digests anything *)
Definition pre_ok (wire : bytes) (k : key) (owner : name) (rd : tsig) (now : Z) (adcount : Z) : Prop :=
  get_adcount wire = Ok adcount /\ adcount <> 0 /\ t_error rd = 0
  /\ rfc_time_ok now (t_time rd) (t_fudge rd)
  /\ NameM.name_eqb (kname k) owner = true
  /\ NameM.name_eqb (kalg k) (t_alg rd) = true.

Lemma strip_is_rfc_received : forall wire ad start,
  in_u16 (ad - 1) = true ->
  strip_tsig wire ad start = rfc_received_message wire ad start.
Proof.
  intros. unfold strip_tsig, rfc_received_message, slice. now rewrite u16_be by assumption.
Qed.

Lemma get_adcount_range : forall wire ad,
  all_bytes wire = true -> get_adcount wire = Ok ad -> 0 <= ad < 65536.
Proof.
  intros wire ad A G. unfold get_adcount in G.
  destruct (slice wire 10 12) as [|a [|b [|]]] eqn:S; try discriminate. apply Ok_inj in G as <-.
  assert (B : forall x, In x [a; b] -> 0 <= x < 256).
  { intros x Hx. rewrite <- S in Hx. apply In_firstn, In_skipn in Hx. now apply (all_bytes_In wire). }
  pose proof (B a (or_introl eq_refl)). pose proof (B b (or_intror (or_introl eq_refl))). lia.
Qed.

(* a message whose TSIG passed the checks: what validate digests is the RFC's received message *)
Lemma strip_received : forall wire k owner rd now ad start,
  all_bytes wire = true -> pre_ok wire k owner rd now ad ->
  strip_tsig wire ad start = rfc_received_message wire ad start.
Proof.
  intros until start. intros A (G & NZ & _). apply strip_is_rfc_received.
  pose proof (get_adcount_range _ _ A G). unfold in_u16. lia.
Qed.

Section WithH.
  Variable H : hashid -> bytes -> bytes -> bytes.

  (* the checks of validate, in their order, once ARCOUNT is known to be non-zero *)
  Lemma validate_pre_checks : forall wire k owner rd now start adcount,
    get_adcount wire = Ok adcount -> adcount <> 0 ->
    validate_pre wire k owner rd now start =
      if negb (t_error rd =? 0) then Lib (peer_error (t_error rd))
      else if Z.abs (t_time rd - now) >? t_fudge rd then Lib eBadTime
      else if negb (NameM.name_eqb (kname k) owner) then Lib eBadKey
      else if negb (NameM.name_eqb (kalg k) (t_alg rd)) then Lib eBadAlgorithm
      else Ok (strip_tsig wire adcount start).
  Proof.
    intros until adcount. intros G A. unfold validate_pre. rewrite G. cbn [bind].
    now replace (adcount =? 0) with false by lia.
  Qed.

  Lemma validate_pre_iff : forall wire k owner rd now start nw,
    validate_pre wire k owner rd now start = Ok nw <->
    exists adcount, pre_ok wire k owner rd now adcount /\ nw = strip_tsig wire adcount start.
  Proof.
    intros. unfold pre_ok, rfc_time_ok. split.
    - intros E. unfold validate_pre in E. dbind E as ad G.
      destruct (ad =? 0) eqn:A; [discriminate|].
      destruct (t_error rd =? 0) eqn:B; cbn [negb] in E; [|discriminate].
      destruct (Z.abs (t_time rd - now) >? t_fudge rd) eqn:C; [discriminate|].
      destruct (NameM.name_eqb (kname k) owner) eqn:D; cbn [negb] in E; [|discriminate].
      destruct (NameM.name_eqb (kalg k) (t_alg rd)) eqn:F; cbn [negb] in E; [|discriminate].
      apply Ok_inj in E as <-. exists ad. repeat split; auto; lia.
    - intros (ad & (G & A & B & C & D & F) & ->).
      rewrite (validate_pre_checks _ _ _ _ _ _ ad G A), B, D, F. cbn [Z.eqb negb].
      now replace (Z.abs (t_time rd - now) >? t_fudge rd) with false by lia.
  Qed.

  Lemma unimplemented_ok : forall (A : Type) (r : res A) a, unimplemented_is_badalg r = Ok a <-> r = Ok a.
  Proof.
    intros A r a. destruct r as [x|e|e]; cbn; try tauto.
    destruct (e =? eNotImplemented); split; discriminate.
  Qed.

  Lemma ctx_verify_iff : forall c mac, ctx_verify H c mac = Ok tt <-> mac = ctx_sign H c.
  Proof.
    intros. unfold ctx_verify. destruct (zlist_eqb (ctx_sign H c) mac) eqn:E.
    - apply zlist_eqb_eq in E. split; auto.
    - split; [discriminate|]. intros ->. rewrite zlist_eqb_refl in E. discriminate.
  Qed.

  (* validate accepts exactly when the checks pass, the digest can be built, and the MAC in the
     record equals the (possibly truncated) keyed hash of the digested octets *)
  Lemma validate_accepts_iff_lemma : forall wire k owner rd now rmac start ctx multi r,
    validate H wire k owner rd now rmac start ctx multi = Ok r <->
    exists adcount c,
      pre_ok wire k owner rd now adcount
      /\ digest (strip_tsig wire adcount start) k rd None rmac ctx multi = Ok c
      /\ t_mac rd = ctx_sign H c
      /\ maybe_start_digest k (t_mac rd) multi = Ok r.
  Proof.
    intros. unfold validate. split.
    - intros E. dbind E as nw P. apply validate_pre_iff in P as (ad & P & ->).
      dbind E as c D. apply -> unimplemented_ok in D.
      dbind E as u V. destruct u. apply ctx_verify_iff in V. apply -> unimplemented_ok in E.
      exists ad, c. auto.
    - intros (ad & c & P & D & M & S).
      assert (P' : validate_pre wire k owner rd now start = Ok (strip_tsig wire ad start))
        by (apply validate_pre_iff; eauto).
      rewrite P'. cbn [bind]. rewrite D. cbn [bind unimplemented_is_badalg].
      apply ctx_verify_iff in M. rewrite M. cbn [bind]. apply unimplemented_ok. exact S.
  Qed.

  Lemma peer_error_lemma :
    forall wire k owner rd now rmac start ctx multi adcount,
      get_adcount wire = Ok adcount -> adcount <> 0 ->
      t_error rd <> 0 ->
      validate H wire k owner rd now rmac start ctx multi = Lib (peer_error (t_error rd)).
  Proof.
    intros until adcount. intros G A B. unfold validate. rewrite (validate_pre_checks _ _ _ _ _ _ _ G A).
    now replace (t_error rd =? 0) with false by lia.
  Qed.

  Lemma bad_time_lemma :
    forall wire k owner rd now rmac start ctx multi adcount,
      get_adcount wire = Ok adcount -> adcount <> 0 -> t_error rd = 0 ->
      ~ rfc_time_ok now (t_time rd) (t_fudge rd) ->
      validate H wire k owner rd now rmac start ctx multi = Lib eBadTime.
  Proof.
    intros until adcount. intros G A B C. unfold validate. rewrite (validate_pre_checks _ _ _ _ _ _ _ G A), B.
    unfold rfc_time_ok in C. now replace (Z.abs (t_time rd - now) >? t_fudge rd) with true by lia.
  Qed.

  Lemma bad_key_lemma :
    forall wire k owner rd now rmac start ctx multi adcount,
      get_adcount wire = Ok adcount -> adcount <> 0 -> t_error rd = 0 ->
      rfc_time_ok now (t_time rd) (t_fudge rd) ->
      NameM.name_eqb (kname k) owner = false ->
      validate H wire k owner rd now rmac start ctx multi = Lib eBadKey.
  Proof.
    intros until adcount. intros G A B C D. unfold validate. rewrite (validate_pre_checks _ _ _ _ _ _ _ G A), B, D.
    unfold rfc_time_ok in C. now replace (Z.abs (t_time rd - now) >? t_fudge rd) with false by lia.
  Qed.

  Lemma bad_alg_lemma :
    forall wire k owner rd now rmac start ctx multi adcount,
      get_adcount wire = Ok adcount -> adcount <> 0 -> t_error rd = 0 ->
      rfc_time_ok now (t_time rd) (t_fudge rd) ->
      NameM.name_eqb (kname k) owner = true ->
      NameM.name_eqb (kalg k) (t_alg rd) = false ->
      validate H wire k owner rd now rmac start ctx multi = Lib eBadAlgorithm.
  Proof.
    intros until adcount. intros G A B C D F. unfold validate.
    rewrite (validate_pre_checks _ _ _ _ _ _ _ G A), B, D, F.
    unfold rfc_time_ok in C. now replace (Z.abs (t_time rd - now) >? t_fudge rd) with false by lia.
  Qed.

  (* digest looks at the rdata only through original id, time, fudge, error, other data *)
  Lemma digest_rd_irrelevant : forall wire k rd rd' time time' rmac ctx multi,
    t_oid rd = t_oid rd' -> t_fudge rd = t_fudge rd' -> t_error rd = t_error rd' ->
    t_other rd = t_other rd' -> time_of rd time = time_of rd' time' ->
    digest wire k rd time rmac ctx multi = digest wire k rd' time' rmac ctx multi.
  Proof.
    intros until multi. intros A B C D E. unfold digest.
    unfold time_of in E. now rewrite A, B, C, D, E.
  Qed.

  (* what a successful sign did *)
  Lemma sign_inv : forall wire k rd t rmac ctx multi rd' c',
    sign H wire k rd (Some t) rmac ctx multi = Ok (rd', c') ->
    exists c, digest wire k rd (Some t) rmac ctx multi = Ok c
      /\ mk_tsig (t_alg rd) t (t_fudge rd) (ctx_sign H c) (t_oid rd) (t_error rd) (t_other rd) = Ok rd'
      /\ maybe_start_digest k (ctx_sign H c) multi = Ok c'.
  Proof.
    intros until c'. intros S. unfold sign in S.
    dbind S as c D. dbind S as r M. dbind S as cc MS. injection S as <- <-. eauto.
  Qed.

  Lemma sign_fields : forall wire k rd t rmac ctx multi rd' c',
    sign H wire k rd (Some t) rmac ctx multi = Ok (rd', c') ->
    t_time rd' = t /\ t_alg rd' = t_alg rd /\ t_fudge rd' = t_fudge rd
    /\ t_oid rd' = t_oid rd /\ t_error rd' = t_error rd /\ t_other rd' = t_other rd.
  Proof.
    intros until c'. intros S. apply sign_inv in S as (c & _ & M & _).
    apply mk_tsig_fields in M. tauto.
  Qed.

  (* the signed message: the message, ARCOUNT + 1, the TSIG RR of the signed rdata *)
  Lemma sign_message_inv : forall w k owner rd now rmac ctx multi out rd' c',
    sign_message H w k owner rd now rmac ctx multi = Ok (out, rd', c') ->
    sign H w k rd (Some now) rmac ctx multi = Ok (rd', c')
    /\ exists ad rr, get_adcount w = Ok ad /\ tsig_rr owner rd' = Ok rr
                     /\ out = slice w 0 10 ++ u16 (ad + 1) ++ skipn 12 w ++ rr.
  Proof.
    intros until c'. intros S. unfold sign_message in S.
    dbind S as tc SG. destruct tc as [t c]. cbn [fst snd] in S.
    dbind S as rr RR. dbind S as ad AD. dbind S as adb PK.
    unfold pack_u16 in PK. destruct (in_u16 (ad + 1)); [|discriminate]. apply Ok_inj in PK as <-.
    apply Ok_inj in S. split; [congruence|]. exists ad, rr. repeat split; congruence.
  Qed.

  (* every TSIG the library computes validates under the same key: `wire'` is any message that
     contains `wire` up to `start` with ARCOUNT one higher (i.e. wire plus the TSIG RR) *)
  Lemma sign_then_validate_lemma :
    forall wire k rd t rmac ctx multi rd' c' wire' start adcount now,
      sign H wire k rd (Some t) rmac ctx multi = Ok (rd', c') ->
      get_adcount wire' = Ok adcount -> adcount <> 0 ->
      strip_tsig wire' adcount start = wire ->
      t_error rd = 0 ->
      NameM.name_eqb (kalg k) (t_alg rd) = true ->
      rfc_time_ok now t (t_fudge rd) ->
      validate H wire' k (kname k) rd' now rmac start ctx multi = Ok c'.
  Proof.
    intros until now. intros S G A W Er Al Ti.
    apply sign_inv in S as (c & D & M & MS).
    apply mk_tsig_fields in M as (Fa & Ft & Ff & Fm & Fo & Fe & Fot).
    apply validate_accepts_iff_lemma. exists adcount, c. repeat split; auto.
    - congruence.
    - rewrite Ft, Ff. exact Ti.
    - apply NameOrder.name_eqb_refl.
    - congruence.
    - rewrite W. rewrite <- D. apply digest_rd_irrelevant; try congruence.
      cbn [time_of]. congruence.
    - rewrite Fm. exact MS.
  Qed.
  (* an accepted first-form TSIG (request, response, first envelope) carries exactly the
     RFC 8945 MAC: the keyed hash of the section 4.3 input, truncated as the algorithm says *)
  Lemma validate_accepts_mac_is_rfc : forall wire k owner rd now rmac start ctx multi r,
    (ctx = None \/ multi = false) ->
    all_bytes wire = true ->
    validate H wire k owner rd now rmac start ctx multi = Ok r ->
    exists adcount h sz,
      pre_ok wire k owner rd now adcount
      /\ assoc_name hashes (kalg k) = Some (h, sz)
      /\ t_mac rd = rfc_truncate (trunc_of sz)
           (H h (ksecret k)
              (rfc8945_input (omac rmac) (t_oid rd) (rfc_received_message wire adcount start)
                 (vars_of k rd (t_time rd)))).
  Proof.
    intros until r. intros F A V.
    apply validate_accepts_iff_lemma in V as (ad & c & P & D & M & S).
    apply digest_first_is_rfc in D as (Dd & Dk & Dh); [|assumption].
    exists ad, (c_hash c), (c_size c). split; [assumption|]. split; [assumption|].
    now rewrite M, ctx_sign_spec, Dd, Dk, (strip_received _ _ _ _ _ _ start A P).
  Qed.

  (* and of a subsequent envelope: the running context followed by message and timers *)
  Lemma validate_accepts_mac_subsequent : forall wire k owner rd now rmac start c0 r,
    all_bytes wire = true ->
    validate H wire k owner rd now rmac start (Some c0) true = Ok r ->
    exists adcount,
      pre_ok wire k owner rd now adcount
      /\ t_mac rd = rfc_truncate (trunc_of (c_size c0))
           (H (c_hash c0) (c_key c0)
              (c_data c0 ++ rfc_dns_message (t_oid rd) (rfc_received_message wire adcount start)
                 ++ rfc_tsig_timers (t_time rd) (t_fudge rd)))
      /\ exists c1, r = Some c1 /\ c_data c1 = rfc_request_mac (t_mac rd) /\ c_key c1 = ksecret k
                    /\ assoc_name hashes (kalg k) = Some (c_hash c1, c_size c1).
  Proof.
    intros until r. intros A V.
    apply validate_accepts_iff_lemma in V as (ad & c & P & D & M & S).
    apply digest_subsequent_is_rfc in D as (Dd & Dk & Dh & Ds).
    exists ad. split; [assumption|]. split; [|now apply maybe_start_digest_multi].
    now rewrite M, ctx_sign_spec, Dd, Dk, Dh, Ds, (strip_received _ _ _ _ _ _ start A P).
  Qed.

  (* the MAC sign computes, first form *)
  Lemma sign_mac_is_rfc : forall wire k rd t rmac ctx multi rd' c',
    (ctx = None \/ multi = false) ->
    sign H wire k rd (Some t) rmac ctx multi = Ok (rd', c') ->
    exists h sz,
      assoc_name hashes (kalg k) = Some (h, sz)
      /\ t_mac rd' = rfc_truncate (trunc_of sz)
           (H h (ksecret k) (rfc8945_input (omac rmac) (t_oid rd) wire (vars_of k rd t)))
      /\ t_time rd' = t /\ t_alg rd' = t_alg rd /\ t_fudge rd' = t_fudge rd
      /\ t_oid rd' = t_oid rd /\ t_error rd' = t_error rd /\ t_other rd' = t_other rd.
  Proof.
    intros until c'. intros F S. pose proof (sign_fields _ _ _ _ _ _ _ _ _ S) as Fs.
    apply sign_inv in S as (c & D & M & MS). apply mk_tsig_fields in M as (_ & _ & _ & Fm & _).
    apply digest_first_is_rfc in D as (Dd & Dk & Dh); [|assumption].
    exists (c_hash c), (c_size c). split; [assumption|].
    now rewrite Fm, ctx_sign_spec, Dd, Dk.
  Qed.

  (* the MAC sign computes for a subsequent envelope, and the context it hands on *)
  Lemma sign_mac_subsequent : forall wire k rd t rmac c0 rd' c',
    sign H wire k rd (Some t) rmac (Some c0) true = Ok (rd', c') ->
    t_mac rd' = rfc_truncate (trunc_of (c_size c0))
        (H (c_hash c0) (c_key c0)
           (c_data c0 ++ rfc_dns_message (t_oid rd) wire ++ rfc_tsig_timers t (t_fudge rd)))
    /\ exists c1, c' = Some c1 /\ c_data c1 = rfc_request_mac (t_mac rd') /\ c_key c1 = ksecret k
                  /\ assoc_name hashes (kalg k) = Some (c_hash c1, c_size c1).
  Proof.
    intros until c'. intros S. apply sign_inv in S as (c & D & M & MS).
    apply mk_tsig_fields in M as (Fa & Ft & Ff & Fm & Fo & Fe & Fot).
    apply digest_subsequent_is_rfc in D as (Dd & Dk & Dh & Ds). rewrite Fm. split.
    - now rewrite ctx_sign_spec, Dd, Dk, Dh, Ds.
    - now apply maybe_start_digest_multi.
  Qed.
End WithH.
