(* Rdataset.processing_order (Model/SetM.v section Proc): whatever random.shuffle does - any
   function that rearranges its argument - the result is a rearrangement of the members, and for
   the prioritised types it is in non-decreasing priority order. *)
From Coq Require Import Permutation Sorted.
From DV Require Import Base.Prelude Model.SetM Proofs.ListFacts.
Open Scope Z_scope.

Section ProcProofs.
  Variable A : Type.
  Variable shuffle : list A -> list A.
  Variable prio : A -> Z.
  Hypothesis shuffle_perm : forall l, Permutation l (shuffle l).

  Notation tbl_add := (tbl_add A).
  Notation ptable := (ptable A prio).
  Notation grp := (grp A).

  Lemma grp_tbl_add k x t k' :
    grp (tbl_add k x t) k' = if k' =? k then grp t k' ++ [x] else grp t k'.
  Proof.
    unfold SetM.grp. induction t as [|[k0 l] r IH]; cbn.
    - rewrite (Z.eqb_sym k k'). destruct (k' =? k); reflexivity.
    - destruct (Z.eqb_spec k0 k) as [->|Hn]; cbn.
      + rewrite (Z.eqb_sym k k'). destruct (k' =? k); reflexivity.
      + destruct (Z.eqb_spec k0 k') as [->|Hn'].
        * destruct (Z.eqb_spec k' k); [congruence|reflexivity].
        * exact IH.
  Qed.

  Lemma keys_tbl_add k x t k' :
    In k' (map fst (tbl_add k x t)) <-> k = k' \/ In k' (map fst t).
  Proof.
    induction t as [|[k0 l] r IH]; cbn; [tauto|].
    destruct (Z.eqb_spec k0 k) as [->|Hn]; cbn; split.
    - intros [H|H]; auto.
    - intros [H|H]; auto.
    - intros [H|H]; [auto|apply IH in H as [H|H]; auto].
    - intros [H|[H|H]]; [right; apply IH|left|right; apply IH]; auto.
  Qed.

  Lemma nodup_tbl_add k x t : NoDup (map fst t) -> NoDup (map fst (tbl_add k x t)).
  Proof.
    induction t as [|[k0 l] r IH]; cbn; intros H.
    - constructor; [intros []|constructor].
    - inversion H as [|? ? Hk Hr]; subst. destruct (Z.eqb_spec k0 k) as [->|Hn]; cbn.
      + constructor; assumption.
      + constructor; [|apply IH, Hr].
        intros Hin. apply keys_tbl_add in Hin as [E|Hin]; [congruence|contradiction].
  Qed.

  (* the table after more insertions: keys stay distinct, every group grows by its records in
     order, no key is lost and every priority seen is a key *)
  Lemma ptable_gen : forall items t,
    NoDup (map fst t) ->
    let t' := fold_left (fun t x => tbl_add (prio x) x t) items t in
    NoDup (map fst t') /\
    (forall k, grp t' k = grp t k ++ filter (fun x => prio x =? k) items) /\
    (forall k, In k (map fst t) \/ In k (map prio items) -> In k (map fst t')).
  Proof.
    induction items as [|x r IH]; intros t Hnd; cbn [fold_left].
    - cbn. split; [exact Hnd|]. split; [intros; now rewrite app_nil_r|tauto].
    - destruct (IH (tbl_add (prio x) x t) (nodup_tbl_add _ _ _ Hnd)) as (H1 & H2 & H3).
      cbv zeta in *. split; [exact H1|]. split.
      + intros k. rewrite H2, grp_tbl_add. cbn [filter].
        rewrite (Z.eqb_sym (prio x) k). destruct (k =? prio x); [now rewrite <- app_assoc|reflexivity].
      + intros k [Hk|[Hk|Hk]]; apply H3; [left; apply keys_tbl_add; auto..|right; exact Hk].
  Qed.

  Lemma ptable_spec items :
    NoDup (map fst (ptable items)) /\
    (forall k, grp (ptable items) k = filter (fun x => prio x =? k) items) /\
    (forall x, In x items -> In (prio x) (map fst (ptable items))).
  Proof.
    destruct (ptable_gen items [] (NoDup_nil _)) as (H1 & H2 & H3). cbv zeta in *.
    split; [exact H1|]. split; [exact H2|].
    intros x Hx. apply H3. right. apply in_map, Hx.
  Qed.

  Lemma insert_perm k l : Permutation (k :: l) (insert_z k l).
  Proof.
    induction l as [|x r IH]; cbn; [reflexivity|].
    destruct (k <=? x); [reflexivity|]. rewrite perm_swap. constructor. exact IH.
  Qed.

  Lemma sort_perm l : Permutation l (sort_z l).
  Proof.
    induction l as [|x r IH]; cbn; [constructor|].
    rewrite <- insert_perm. constructor. exact IH.
  Qed.

  Lemma insert_sorted k l : StronglySorted Z.le l -> StronglySorted Z.le (insert_z k l).
  Proof.
    induction 1 as [|x r Hs IH Hall]; cbn; [repeat constructor|].
    destruct (Z.leb_spec k x).
    - constructor; [constructor; assumption|].
      constructor; [assumption|]. eapply Forall_impl; [|exact Hall]. intros; cbn in *; lia.
    - constructor; [exact IH|].
      apply Forall_forall. intros y Hy.
      apply (Permutation_in _ (Permutation_sym (insert_perm k r))) in Hy.
      destruct Hy as [<-|Hy]; [lia|]. rewrite Forall_forall in Hall. apply Hall, Hy.
  Qed.

  Lemma sort_sorted l : StronglySorted Z.le (sort_z l).
  Proof. induction l as [|x r IH]; cbn; [constructor|apply insert_sorted, IH]. Qed.

  Lemma perm_filter_split (f : A -> bool) l :
    Permutation (filter f l ++ filter (fun x => negb (f x)) l) l.
  Proof.
    induction l as [|x r IH]; cbn; [constructor|].
    destruct (f x); cbn; [constructor; exact IH|].
    rewrite <- Permutation_middle. constructor. exact IH.
  Qed.

  Lemma filter_filter_neq k k' l : k' <> k ->
    filter (fun x => prio x =? k') (filter (fun x => negb (prio x =? k)) l)
    = filter (fun x => prio x =? k') l.
  Proof.
    intros Hn. induction l as [|x r IH]; cbn; [reflexivity|].
    destruct (Z.eqb_spec (prio x) k) as [E|E]; cbn.
    - destruct (Z.eqb_spec (prio x) k'); [congruence|exact IH].
    - destruct (prio x =? k'); [f_equal|]; exact IH.
  Qed.

  Lemma flat_map_ext_in {B C} (f g : B -> list C) l :
    (forall a, In a l -> f a = g a) -> flat_map f l = flat_map g l.
  Proof.
    induction l as [|a l IH]; cbn; intros H; [reflexivity|]. rewrite H, IH; auto.
  Qed.

  Lemma flat_map_perm {B C} (f g : B -> list C) l :
    (forall a, Permutation (f a) (g a)) -> Permutation (flat_map f l) (flat_map g l).
  Proof.
    intros H. induction l as [|a l IH]; cbn; [constructor|]. apply Permutation_app; auto.
  Qed.

  Lemma perm_partition : forall keys items,
    NoDup keys -> (forall x, In x items -> In (prio x) keys) ->
    Permutation (flat_map (fun k => filter (fun x => prio x =? k) items) keys) items.
  Proof.
    induction keys as [|k ks IH]; intros items Hnd Hcov; cbn [flat_map].
    - destruct items as [|x r]; [constructor|]. exfalso. apply (Hcov x). left. reflexivity.
    - inversion Hnd as [|? ? Hk Hr]; subst.
      eapply perm_trans; [|apply (perm_filter_split (fun x => prio x =? k) items)].
      apply Permutation_app_head.
      eapply perm_trans; [|apply (IH (filter (fun x => negb (prio x =? k)) items) Hr)].
      + apply Permutation_refl'. apply flat_map_ext_in. intros k' Hk'.
        symmetry. apply filter_filter_neq. intros ->. contradiction.
      + intros x Hx. apply filter_In in Hx as [Hx Hp]. apply negb_true_iff, Z.eqb_neq in Hp.
        destruct (Hcov x Hx) as [E|Hin]; [congruence|exact Hin].
  Qed.

  Theorem priority_order_perm items : Permutation items (priority_order A shuffle prio items).
  Proof.
    unfold priority_order. destruct items as [|x [|y r]]; [|reflexivity|].
    - cbn. constructor.
    - set (items := x :: y :: r). destruct (ptable_spec items) as (Hnd & Hg & Hk).
      apply Permutation_sym.
      eapply perm_trans; [apply flat_map_perm; intros k; apply Permutation_sym, shuffle_perm|].
      eapply perm_trans; [apply Permutation_flat_map, Permutation_sym, sort_perm|].
      rewrite (flat_map_ext_in _ (fun k => filter (fun x => prio x =? k) items)) by (intros; apply Hg).
      apply perm_partition; [exact Hnd|exact Hk].
  Qed.

  Definition le_prio (a b : A) : Prop := prio a <= prio b.

  Lemma const_prio_sorted k l : (forall x, In x l -> prio x = k) -> StronglySorted le_prio l.
  Proof.
    induction l as [|x r IH]; intros H; constructor.
    - apply IH. intros; apply H; right; assumption.
    - apply Forall_forall. intros y Hy. unfold le_prio.
      rewrite (H x (or_introl eq_refl)), (H y (or_intror Hy)). lia.
  Qed.

  Lemma blocks_sorted (f : Z -> list A) : forall ks,
    StronglySorted Z.le ks -> (forall k x, In x (f k) -> prio x = k) ->
    StronglySorted le_prio (flat_map f ks).
  Proof.
    induction 1 as [|k ks Hs IH Hall]; intros Hf; cbn; [constructor|].
    apply StronglySorted_app. split; [eapply const_prio_sorted; intros; eapply Hf; eassumption|split; [apply IH, Hf|]].
    intros x y Hx Hy. apply in_flat_map in Hy as (k' & Hk' & Hy).
    unfold le_prio. rewrite (Hf _ _ Hx), (Hf _ _ Hy).
    rewrite Forall_forall in Hall. apply Hall, Hk'.
  Qed.

  Theorem priority_order_sorted items : StronglySorted le_prio (priority_order A shuffle prio items).
  Proof.
    unfold priority_order. destruct items as [|x [|y r]].
    - cbn. constructor.
    - repeat constructor.
    - set (items := x :: y :: r). destruct (ptable_spec items) as (Hnd & Hg & Hk).
      apply blocks_sorted; [apply sort_sorted|].
      intros k z Hz. apply (Permutation_in _ (Permutation_sym (shuffle_perm _))) in Hz.
      rewrite Hg in Hz. apply filter_In in Hz as [_ Hz]. apply Z.eqb_eq, Hz.
  Qed.

  (* Rdataset.processing_order *)
  Theorem processing_order_perm by_priority items :
    Permutation items (processing_order A shuffle prio by_priority items).
  Proof.
    unfold processing_order. destruct items as [|x r]; [constructor|].
    destruct by_priority; [apply priority_order_perm|apply shuffle_perm].
  Qed.

  Theorem processing_order_sorted items :
    StronglySorted le_prio (processing_order A shuffle prio true items).
  Proof.
    unfold processing_order. destruct items as [|x r]; [constructor|apply priority_order_sorted].
  Qed.
End ProcProofs.

Section WeightedProofs.
  Variable A : Type.
  Variable uniform : Z -> Z.
  Variable prio : A -> Z.
  Variable weight : A -> Z.

  Lemma wpick_perm : forall l r x rest,
    wpick A weight r l = Some (x, rest) -> Permutation l (x :: rest).
  Proof.
    induction l as [|a l IH]; intros r x rest; cbn [wpick]; [discriminate|].
    destruct l as [|b t].
    - intros E; inversion E; subst. reflexivity.
    - destruct (sweight A weight a >? r).
      + intros E; inversion E; subst. reflexivity.
      + destruct (wpick A weight (r - sweight A weight a) (b :: t)) as [[y rest']|] eqn:Ep; [|discriminate].
        intros E; inversion E; subst.
        eapply perm_trans; [apply perm_skip, (IH _ _ _ Ep)|apply perm_swap].
  Qed.

  Lemma wextract_loop_perm : forall fuel total l,
    Permutation l (wextract_loop A uniform weight fuel total l).
  Proof.
    induction fuel as [|f IH]; intros total l; destruct l as [|a [|b t]]; cbn [wextract_loop];
      try reflexivity.
    destruct (wpick A weight (uniform total) (a :: b :: t)) as [[x rest]|] eqn:Ep; [|reflexivity].
    rewrite (wpick_perm _ _ _ _ Ep). constructor. apply IH.
  Qed.

  Lemma wextract_perm l : Permutation l (wextract A uniform weight l).
  Proof. apply wextract_loop_perm. Qed.

  (* whatever random.uniform returns, weighted_processing_order yields a rearrangement of the
     records in non-decreasing priority order *)
  Theorem weighted_order_perm items :
    Permutation items (weighted_order A uniform prio weight items).
  Proof. apply priority_order_perm. apply wextract_perm. Qed.

  Theorem weighted_order_sorted items :
    StronglySorted (le_prio A prio) (weighted_order A uniform prio weight items).
  Proof. apply priority_order_sorted. apply wextract_perm. Qed.
End WeightedProofs.
