(* C17 - list-level facts: invariants of the specification `alru_step`, the ideal map
   (key -> most recently stored answer that was neither flushed nor evicted), recency ages. *)
From Coq Require Import Sorting.Sorted.
From DV Require Import Base.Prelude Model.CacheM Model.CacheSpecM Proofs.CacheDict Proofs.ListFacts.

Lemma tick_spec : forall k t k', tick k = (t, k') -> nonneg (pend k) ->
  now k <= t /\ now k' = t /\ nonneg (pend k').
Proof.
  intros k t k' H Hn. unfold tick in H. destruct (pend k) as [|d q] eqn:E.
  - inversion H; subst. rewrite E. repeat split; [lia|constructor].
  - inversion H; subst. cbn. apply Forall_cons_iff in Hn. destruct Hn. repeat split; [lia|auto].
Qed.

(* f: what the cache holds.  Every held answer is the ideal one; an ideal answer that is not
   held has expired.  The LRUCache specification, the Cache dict and each of their methods are
   instances of the lemmas below. *)
Definition has_val (f : Z -> option ans) (x : Z) : bool :=
  match f x with Some _ => true | None => false end.

Definition ideal_ok (f : Z -> option ans) (t : Z) (m : imap) : Prop :=
  (forall k v, f k = Some v -> m k = Some v) /\
  (forall k v, m k = Some v -> f k = Some v \/ a_exp v <= t).

(* time passes, and entries may disappear once they have expired *)
Lemma ideal_weaken : forall f f' t t' m m',
  ideal_ok f t m -> (forall x, m' x = m x) -> t <= t' ->
  (forall k v, f' k = Some v -> f k = Some v) ->
  (forall k v, f k = Some v -> f' k = Some v \/ a_exp v <= t') ->
  ideal_ok f' t' m'.
Proof.
  intros f f' t t' m m' [A B] Hm Ht H1 H2. split; intros k v H; rewrite Hm in *.
  - auto.
  - destruct (B k v H) as [H3|H3]; [auto|right; lia].
Qed.

Lemma ideal_later : forall f t t' m, ideal_ok f t m -> t <= t' -> ideal_ok f t' m.
Proof. intros f t t' m H Ht. eapply ideal_weaken; [exact H|reflexivity|exact Ht| |]; auto. Qed.

Lemma ideal_del : forall f f' t m key,
  ideal_ok f t m -> (forall x, f' x = if key =? x then None else f x) ->
  ideal_ok f' t (fun x => if x =? key then None else m x).
Proof.
  intros f f' t m key [A B] Hf.
  split; intros k v; rewrite Hf, (Z.eqb_sym k key); destruct (key =? k); intros H; try discriminate; auto.
Qed.

Lemma ideal_set : forall f f' t m key v,
  ideal_ok f t m -> (forall x, f' x = if key =? x then Some v else f x) ->
  ideal_ok f' t (fun x => if x =? key then Some v else m x).
Proof.
  intros f f' t m key v [A B] Hf.
  split; intros k w; rewrite Hf, (Z.eqb_sym k key); destruct (key =? k); auto.
Qed.

(* eviction: the keys that vanish leave the ideal map too *)
Lemma ideal_shrink : forall f f' t m,
  ideal_ok f t m -> (forall k v, f' k = Some v -> f k = Some v) ->
  ideal_ok f' t (fun x => if has_val f x && negb (has_val f' x) then None else m x).
Proof.
  intros f f' t m [A B] Hs. unfold has_val. split; intros k v H.
  - rewrite H. cbn. rewrite andb_false_r. auto.
  - destruct (f' k) as [w|] eqn:E'; cbn in H.
    + rewrite andb_false_r in H. destruct (B k v H) as [H1|H1]; [left|auto].
      rewrite (Hs _ _ E') in H1. exact H1.
    + destruct (f k) as [w|] eqn:E; cbn in H; [discriminate|]. destruct (B k v H); [congruence|auto].
Qed.

(* what a lookup computes from the ideal map it computes from f just as well *)
Lemma ideal_lookup : forall {A} (d : A) (g : ans -> A) f t t' m key,
  ideal_ok f t m -> t <= t' ->
  match m key with Some v => if a_exp v <=? t' then d else g v | None => d end =
  match f key with Some v => if a_exp v <=? t' then d else g v | None => d end.
Proof.
  intros A d g f t t' m key [I O] Ht. destruct (f key) as [v|] eqn:E; [rewrite (I _ _ E); reflexivity|].
  destruct (m key) as [v|] eqn:Em; [|reflexivity].
  destruct (O _ _ Em) as [H|H]; [congruence|]. destruct (Z.leb_spec (a_exp v) t'); [reflexivity|lia].
Qed.

Definition ahas (a : alru) (x : Z) : bool :=
  match afind (a_list a) x with Some _ => true | None => false end.

Lemma akeys_firstn : forall n l, akeys (firstn n l) = firstn n (akeys l).
Proof. intros. unfold akeys. symmetry. apply firstn_map. Qed.

(* the calls that leave the recency list alone and use no key *)
Definition quiet (cl : call) : bool :=
  match cl with HitsFor _ | Hits | Misses | Snapshot | ResetStats => true | _ => false end.

Lemma quiet_list : forall cl a k, quiet cl = true -> a_list (snd (fst (alru_step cl a k))) = a_list a.
Proof.
  intros [key|key v|[key|]|m|key| | | |] a k; try discriminate; cbn; auto.
  destruct (afind (a_list a) key) as [e|]; [|auto].
  destruct (tick k) as [t k1]. destruct (a_exp (e_val e) <=? t); auto.
Qed.

Lemma nodup_put : forall l key v n, NoDup (akeys l) ->
  NoDup (akeys (mkEnt key v 0 :: firstn n (aremove l key))).
Proof.
  intros l key v n H. cbn. rewrite akeys_firstn. constructor.
  - intros Hin. apply In_firstn in Hin. eapply aremove_notin; eauto.
  - apply nodup_firstn. apply nodup_aremove. exact H.
Qed.

Lemma akeys_nodup_step : forall cl a k, NoDup (akeys (a_list a)) ->
  NoDup (akeys (a_list (snd (fst (alru_step cl a k))))).
Proof.
  intros cl a k H.
  destruct cl as [key|key v|[key|]|m|key| | | |]; try (rewrite quiet_list by reflexivity; exact H); cbn.
  - destruct (afind (a_list a) key) as [e|] eqn:E; [|exact H].
    destruct (tick k) as [t k1]. destruct (a_exp (e_val e) <=? t); cbn.
    + apply nodup_aremove; auto.
    + constructor; [apply aremove_notin; auto|apply nodup_aremove; auto].
  - apply (nodup_put (a_list a) key v _ H).
  - apply nodup_aremove; auto.
  - constructor.
  - unfold atrim. rewrite akeys_firstn. apply nodup_firstn. exact H.
Qed.

Lemma length_aremove : forall l k,
  Z.of_nat (length (aremove l k)) =
  Z.of_nat (length l) - (match afind l k with Some _ => 1 | None => 0 end).
Proof.
  induction l as [|e l IH]; intros k; cbn; [reflexivity|].
  destruct (e_key e =? k); cbn [length]; [lia|]. rewrite Nat2Z.inj_succ, IH. lia.
Qed.

(* the LRU bound, list level: |list| <= max and max >= 1, after every call *)
Definition abound (a : alru) : Prop := zlen (a_list a) <= a_max a /\ 1 <= a_max a.

Lemma abound_step : forall cl a k, abound a -> abound (snd (fst (alru_step cl a k))).
Proof.
  unfold abound, zlen. intros cl a k [H1 H2].
  destruct cl as [key|key v|[key|]|m|key| | | |];
    cbn; unfold atrim; rewrite ?firstn_length; auto; try pose proof (length_aremove (a_list a) key) as L.
  - destruct (afind (a_list a) key) as [e|] eqn:E; [|auto].
    destruct (tick k) as [t k1]. destruct (a_exp (e_val e) <=? t); cbn; lia.
  - destruct (afind (a_list a) key); lia.
  - destruct (afind (a_list a) key); lia.
  - lia.
  - destruct (Z.ltb_spec m 1); lia.
  - destruct (afind (a_list a) key) as [e|]; [|auto].
    destruct (tick k) as [t k1]. destruct (a_exp (e_val e) <=? t); auto.
Qed.

(* put keeps as many of the old entries as the limit allows: no needless eviction *)
Lemma put_length : forall a key v k,
  length (a_list (snd (fst (alru_step (Put key v) a k)))) =
  S (Nat.min (Z.to_nat (a_max a - 1)) (length (aremove (a_list a) key))).
Proof. intros. cbn. unfold atrim. rewrite firstn_length. reflexivity. Qed.

Lemma alru_step_time : forall cl a k, nonneg (pend k) ->
  now k <= now (snd (alru_step cl a k)).
Proof.
  intros cl a k Hn. destruct cl as [key|key v|[key|]|m|key| | | |]; cbn; try lia;
    (destruct (afind (a_list a) key) as [e|]; [|cbn; lia]);
    destruct (tick k) as [t k1] eqn:Et; destruct (tick_spec _ _ _ Et Hn) as [A [B _]];
    destruct (a_exp (e_val e) <=? t); cbn; lia.
Qed.

Record J (a : alru) (t : Z) (m : imap) : Prop := mkJ {
  J_in : forall k e, afind (a_list a) k = Some e -> m k = Some (e_val e);
  J_out : forall k v, m k = Some v ->
          (exists e, afind (a_list a) k = Some e /\ e_val e = v) \/ a_exp v <= t }.

(* the lookup function of the recency list *)
Definition aval (l : list aent) (k : Z) : option ans := option_map e_val (afind l k).

Lemma J_ideal : forall a t m, J a t m <-> ideal_ok (aval (a_list a)) t m.
Proof.
  intros a t m. unfold aval. split; intros [A B]; split.
  - intros k v H. destruct (afind (a_list a) k) eqn:E; [|discriminate]. injection H as <-. auto.
  - intros k v H. destruct (B k v H) as [[e [-> <-]]|]; auto.
  - intros k e H. apply A. rewrite H. reflexivity.
  - intros k v H. destruct (B k v H) as [H1|]; [left|auto].
    destruct (afind (a_list a) k); [|discriminate]. injection H1 as <-. eauto.
Qed.

Lemma ahas_aval : forall a x, ahas a x = has_val (aval (a_list a)) x.
Proof. intros a x. unfold ahas, has_val, aval. destruct (afind (a_list a) x); reflexivity. Qed.

Lemma aval_aremove : forall l k k', NoDup (akeys l) ->
  aval (aremove l k) k' = if k =? k' then None else aval l k'.
Proof. intros l k k' H. unfold aval. rewrite afind_aremove by exact H. destruct (k =? k'); reflexivity. Qed.

Lemma aval_cons : forall e l k, aval (e :: l) k = if e_key e =? k then Some (e_val e) else aval l k.
Proof. intros. unfold aval. cbn. destruct (e_key e =? k); reflexivity. Qed.

Lemma afind_firstn_some : forall n l k e, afind (firstn n l) k = Some e -> afind l k = Some e.
Proof.
  induction n as [|n IH]; intros l k e H; cbn in H; [discriminate|].
  destruct l as [|x l]; cbn in *; [discriminate|].
  destruct (e_key x =? k); [exact H|auto].
Qed.

Lemma aval_firstn : forall n l k v, aval (firstn n l) k = Some v -> aval l k = Some v.
Proof.
  unfold aval. intros n l k v H. destruct (afind (firstn n l) k) eqn:E; [|discriminate].
  rewrite (afind_firstn_some _ _ _ _ E). exact H.
Qed.

Lemma ahas_true : forall a x, ahas a x = true <-> exists e, afind (a_list a) x = Some e.
Proof.
  intros a x. unfold ahas. destruct (afind (a_list a) x) as [e|]; split;
    [exists e; reflexivity|reflexivity|discriminate|intros [e H]; discriminate].
Qed.

Lemma J_weaken : forall a t t' m, J a t m -> t <= t' -> J a t' m.
Proof.
  intros a t t' m H Ht. apply J_ideal. apply J_ideal in H. exact (ideal_later _ _ _ _ H Ht).
Qed.

Lemma J_ext : forall a a' t t' m m', J a t m ->
  a_list a' = a_list a -> (forall x, m' x = m x) -> t <= t' -> J a' t' m'.
Proof.
  intros a a' t t' m m' H Hl Hm Ht. apply J_ideal. apply J_ideal in H. rewrite Hl.
  eapply ideal_weaken; [exact H|exact Hm|exact Ht| |]; auto.
Qed.

Lemma J_get : forall a key k m, J a (now k) m -> nonneg (pend k) ->
  fst (fst (alru_step (Get key) a k)) = expected m key (now (snd (alru_step (Get key) a k))).
Proof.
  intros a key k m HJ Hn. unfold expected. apply J_ideal in HJ.
  pose proof (alru_step_time (Get key) a k Hn) as Ht.
  rewrite (ideal_lookup RNone RAns _ _ _ _ key HJ Ht). unfold aval. cbn.
  destruct (afind (a_list a) key) as [e|]; [|reflexivity].
  destruct (tick k) as [t k1] eqn:Et. destruct (tick_spec _ _ _ Et Hn) as [_ [B _]].
  destruct (a_exp (e_val e) <=? t) eqn:Ex; cbn; rewrite B, Ex; reflexivity.
Qed.

Lemma ideal_upd_ext : forall cl hb ha hb' ha' m x,
  (forall y, hb y = hb' y) -> (forall y, ha y = ha' y) ->
  ideal_upd cl hb ha m x = ideal_upd cl hb' ha' m x.
Proof.
  intros cl hb ha hb' ha' m x H1 H2. destruct cl as [key|key v|[key|]|mx|key| | | |]; cbn;
    try reflexivity; rewrite H1, H2; reflexivity.
Qed.

Lemma J_step : forall cl a k m,
  NoDup (akeys (a_list a)) -> nonneg (pend k) -> J a (now k) m ->
  J (snd (fst (alru_step cl a k))) (now (snd (alru_step cl a k)))
    (ideal_upd cl (ahas a) (ahas (snd (fst (alru_step cl a k)))) m).
Proof.
  intros cl a k m Hnd Hn HJ.
  pose proof (alru_step_time cl a k Hn) as Ht.
  destruct cl as [key|key v|[key|]|mx|key| | | |];
    try (eapply J_ext; [exact HJ|apply quiet_list; reflexivity|reflexivity|exact Ht]);
    apply J_ideal; apply J_ideal in HJ; cbn in *.
  - (* Get: the entry is dropped only if expired; a hit only moves it *)
    destruct (afind (a_list a) key) as [e|] eqn:E;
      [|exact (ideal_later _ _ _ _ HJ Ht)].
    assert (Ev : aval (a_list a) key = Some (e_val e)) by (unfold aval; rewrite E; reflexivity).
    destruct (tick k) as [t k1] eqn:Et. destruct (tick_spec _ _ _ Et Hn) as [_ [B _]].
    destruct (Z.leb_spec (a_exp (e_val e)) t) as [Ex|Ex]; cbn in *;
      (eapply ideal_weaken; [exact HJ|reflexivity|exact Ht| |]); intros k0 v0;
      rewrite ?aval_cons; cbn [e_key e_val]; rewrite aval_aremove by exact Hnd;
      destruct (Z.eqb_spec key k0) as [<-|]; auto; try discriminate.
    + rewrite Ev. intros [= <-]. right. lia.
    + congruence.
    + left. congruence.
  - (* Put: evict, then store *)
    set (l1 := atrim (aremove (a_list a) key) (a_max a - 1)).
    eapply ideal_weaken with (t := now k);
      [eapply (ideal_set _ (aval (mkEnt key v 0 :: l1)) _ _ key v);
       [eapply (ideal_shrink _ (aval l1)); [exact HJ|]|]| |lia|auto|auto].
    + intros k0 v0 H. apply aval_firstn in H. rewrite aval_aremove in H by exact Hnd.
      destruct (key =? k0); [discriminate|exact H].
    + intros x. apply aval_cons.
    + intros x. cbn. destruct (Z.eqb_spec x key) as [->|Hx]; [reflexivity|].
      rewrite !ahas_aval. unfold has_val. cbn [a_list alru_set_list]. rewrite aval_cons. cbn [e_key].
      destruct (Z.eqb_spec key x); [congruence|reflexivity].
  - eapply ideal_del; [exact HJ|]. intros x. apply aval_aremove, Hnd.
  - split; intros; discriminate.
  - eapply ideal_weaken with (t := now k);
      [eapply (ideal_shrink _ (aval (atrim (a_list a) (if mx <? 1 then 1 else mx)))); [exact HJ|]| |lia|auto|auto].
    + intros k0 v0. apply aval_firstn.
    + intros x. cbn [ideal_upd]. rewrite !ahas_aval. reflexivity.
Qed.

Definition recency_ok (h : list event) (ks : list Z) : Prop :=
  StronglySorted (younger h) ks /\ Forall (fun k => age h k <> None) ks.

Lemma younger_shift : forall ev h k k', uses ev k = false -> uses ev k' = false ->
  younger h k k' -> younger (ev :: h) k k'.
Proof.
  intros ev h k k' U1 U2 [n [n' [A [B C]]]]. exists (S n), (S n'). cbn. rewrite U1, U2, A, B.
  cbn. repeat split; lia.
Qed.

Lemma ss_impl_in : forall {A} (R R' : A -> A -> Prop) l,
  (forall x y, In x l -> In y l -> R x y -> R' x y) -> StronglySorted R l -> StronglySorted R' l.
Proof.
  intros A R R' l. induction l as [|a l IH]; intros H Hs; [constructor|].
  apply StronglySorted_inv in Hs. destruct Hs as [Hs F]. constructor.
  - apply IH; [|exact Hs]. intros x y Hx Hy. apply H; right; auto.
  - rewrite Forall_forall in *. intros y Hy. apply H; [left; auto|right; auto|auto].
Qed.

Lemma recency_unused : forall ev h ks, (forall k, In k ks -> uses ev k = false) ->
  recency_ok h ks -> recency_ok (ev :: h) ks.
Proof.
  intros ev h ks U [Hs F]. split.
  - eapply ss_impl_in; [|exact Hs]. intros x y Hx Hy. apply younger_shift; auto.
  - rewrite Forall_forall in *. intros k Hk. cbn. rewrite (U k Hk).
    specialize (F k Hk). destruct (age h k); [discriminate|congruence].
Qed.

Lemma recency_front : forall ev h key ks,
  uses ev key = true -> (forall k, In k ks -> uses ev k = false) ->
  recency_ok h ks -> recency_ok (ev :: h) (key :: ks).
Proof.
  intros ev h key ks U0 U HR. destruct (recency_unused ev h ks U HR) as [Hs F]. split.
  - constructor; [exact Hs|]. rewrite Forall_forall in *. intros k Hk.
    specialize (F k Hk). cbn in F. rewrite (U k Hk) in F.
    destruct (age h k) as [n|] eqn:E; [|cbn in F; congruence].
    exists 0%nat, (S n). cbn. rewrite U0, (U k Hk), E. cbn. repeat split; lia.
  - constructor; [|exact F]. cbn. rewrite U0. discriminate.
Qed.

Lemma ss_firstn : forall {A} (R : A -> A -> Prop) n l, StronglySorted R l -> StronglySorted R (firstn n l).
Proof.
  intros A R n. induction n as [|n IH]; intros l Hs; cbn; [constructor|].
  destruct l as [|x l]; [constructor|]. apply StronglySorted_inv in Hs. destruct Hs as [Hs F].
  constructor; [auto|]. rewrite Forall_forall in *. intros y Hy. apply F. eapply In_firstn; eauto.
Qed.

Lemma ss_aremove : forall R l k, StronglySorted R (akeys l) -> StronglySorted R (akeys (aremove l k)).
Proof.
  intros R l k. induction l as [|e l IH]; intros Hs; cbn in *; [constructor|].
  apply StronglySorted_inv in Hs. destruct Hs as [Hs F].
  destruct (e_key e =? k); [exact Hs|]. cbn. constructor; [auto|].
  rewrite Forall_forall in *. intros y Hy. apply F. eapply akeys_aremove_incl; eauto.
Qed.

Lemma recency_aremove : forall h l k, recency_ok h (akeys l) -> recency_ok h (akeys (aremove l k)).
Proof.
  intros h l k [Hs F]. split; [apply ss_aremove; exact Hs|].
  rewrite Forall_forall in *. intros x Hx. apply F. eapply akeys_aremove_incl; eauto.
Qed.

Lemma recency_firstn : forall h n l, recency_ok h (akeys l) -> recency_ok h (akeys (firstn n l)).
Proof.
  intros h n l [Hs F]. rewrite akeys_firstn. split; [apply ss_firstn; exact Hs|].
  rewrite Forall_forall in *. intros x Hx. apply F. eapply In_firstn; eauto.
Qed.

(* the key an event uses goes to the front of what is left of the list *)
Lemma recency_touch : forall ev h key l, NoDup (akeys l) -> uses ev key = true ->
  (forall k, k <> key -> uses ev k = false) ->
  recency_ok h (akeys l) -> forall n, recency_ok (ev :: h) (key :: akeys (firstn n (aremove l key))).
Proof.
  intros ev h key l Hnd U0 U HR n. apply recency_front; [exact U0| |apply recency_firstn, recency_aremove, HR].
  intros x Hx. apply U. intros ->. rewrite akeys_firstn in Hx. apply In_firstn in Hx.
  eapply aremove_notin; eauto.
Qed.

Lemma recency_step : forall cl a k h,
  NoDup (akeys (a_list a)) -> recency_ok h (akeys (a_list a)) ->
  recency_ok ((cl, fst (fst (alru_step cl a k))) :: h) (akeys (a_list (snd (fst (alru_step cl a k))))).
Proof.
  intros cl a k h Hnd HR.
  destruct cl as [key|key v|[key|]|mx|key| | | |];
    try (rewrite quiet_list by reflexivity; apply recency_unused; [reflexivity|exact HR]);
    cbn [alru_step].
  - destruct (afind (a_list a) key) as [e|] eqn:E.
    2:{ cbn. apply recency_unused; [reflexivity|exact HR]. }
    destruct (tick k) as [t k1]. destruct (a_exp (e_val e) <=? t); cbn.
    + apply recency_unused; [reflexivity|]. apply recency_aremove. exact HR.
    + rewrite <- (firstn_all (aremove (a_list a) key)).
      apply (recency_touch _ h key (a_list a) Hnd); [apply Z.eqb_refl| |exact HR].
      intros x Hx. apply Z.eqb_neq. congruence.
  - cbn. apply (recency_touch _ h key (a_list a) Hnd); [apply Z.eqb_refl| |exact HR].
    intros x Hx. apply Z.eqb_neq. congruence.
  - cbn. apply recency_unused; [reflexivity|]. apply recency_aremove. exact HR.
  - cbn. split; constructor.
  - cbn. apply recency_unused; [reflexivity|]. unfold atrim. apply recency_firstn. exact HR.
Qed.

Lemma ahas_in : forall a x, ahas a x = true <-> In x (akeys (a_list a)).
Proof.
  intros a x. rewrite <- afind_in. unfold ahas. destruct (afind (a_list a) x); split; intros; congruence.
Qed.

(* what trimming drops is older than what it keeps *)
Lemma trim_order : forall h l n g kept,
  recency_ok h (akeys l) -> In g (akeys l) -> ~ In g (akeys (firstn n l)) ->
  In kept (akeys (firstn n l)) -> younger h kept g.
Proof.
  intros h l n g kept [Hs _] Hg Hng Hk.
  rewrite <- (firstn_skipn n l) in Hs, Hg. unfold akeys in Hs, Hg. rewrite map_app in Hs, Hg.
  apply in_app_or in Hg. destruct Hg as [Hg|Hg]; [contradiction|].
  apply StronglySorted_app in Hs as (_ & _ & C). apply C; assumption.
Qed.

(* strict LRU eviction, list level: every entry that a put / set_max_size evicts was used less
   recently than every entry it keeps *)
Lemma evict_order : forall cl a k h g kept,
  NoDup (akeys (a_list a)) -> recency_ok h (akeys (a_list a)) ->
  (match cl with Put key _ => g <> key /\ kept <> key | SetMax _ => True | _ => False end) ->
  ahas a g = true -> ahas (snd (fst (alru_step cl a k))) g = false ->
  ahas (snd (fst (alru_step cl a k))) kept = true ->
  younger h kept g.
Proof.
  intros cl a k h g kept Hnd HR Hcl Hg Hg' Hk.
  assert (Hgn : ahas (snd (fst (alru_step cl a k))) g <> true) by (rewrite Hg'; discriminate).
  rewrite ahas_in in Hg, Hk, Hgn.
  destruct cl as [key|key v|[key|]|mx|key| | | |]; try contradiction; cbn in Hk, Hgn; unfold atrim in *.
  - destruct Hcl as [Hgk Hkk]. destruct Hk as [Hk|Hk]; [congruence|].
    apply (trim_order h (aremove (a_list a) key) (Z.to_nat (a_max a - 1))); auto.
    + apply recency_aremove. exact HR.
    + apply afind_in. rewrite afind_aremove by exact Hnd.
      destruct (Z.eqb_spec key g); [congruence|]. apply afind_in. exact Hg.
  - eapply trim_order; eauto.
Qed.

Lemma astats_step : forall cl a k h,
  (a_hits a, a_miss a) = stats_of h ->
  (a_hits (snd (fst (alru_step cl a k))), a_miss (snd (fst (alru_step cl a k)))) =
  stats_of ((cl, fst (fst (alru_step cl a k))) :: h).
Proof.
  intros cl a k h H. symmetry in H.
  destruct cl as [key|key v|[key|]|mx|key| | | |]; cbn [alru_step];
    try (cbn; rewrite ?H; reflexivity);
    (* the two lookups *)
    (destruct (afind (a_list a) key) as [e|];
     [destruct (tick k) as [t k1]; destruct (a_exp (e_val e) <=? t)|]);
    cbn; rewrite ?H; reflexivity.
Qed.

Definition khits_ok (h : list event) (l : list aent) : Prop :=
  Forall (fun e => e_hits e = key_hits h (e_key e)) l.

Lemma in_aremove : forall l k e, In e (aremove l k) -> In e l.
Proof.
  induction l as [|x l IH]; intros k e H; cbn in *; [auto|].
  destruct (e_key x =? k); cbn in *; [auto|]. destruct H; eauto.
Qed.

(* the entries that stay, under an event that leaves their hit counts alone *)
Lemma khits_rest : forall ev h l l',
  (forall e, In e l' -> In e l /\ key_hits (ev :: h) (e_key e) = key_hits h (e_key e)) ->
  khits_ok h l -> khits_ok (ev :: h) l'.
Proof.
  unfold khits_ok. intros ev h l l' H F. rewrite Forall_forall in *. intros e He.
  destruct (H e He) as [Hin ->]. auto.
Qed.

Lemma in_aremove_key : forall l k e, NoDup (akeys l) -> In e (aremove l k) -> e_key e <> k.
Proof.
  intros l k e Hnd He Hk. subst k. apply (aremove_notin l (e_key e) Hnd). unfold akeys. apply in_map. exact He.
Qed.

Lemma khits_step : forall cl a k h,
  NoDup (akeys (a_list a)) -> khits_ok h (a_list a) ->
  khits_ok ((cl, fst (fst (alru_step cl a k))) :: h) (a_list (snd (fst (alru_step cl a k)))).
Proof.
  intros cl a k h Hnd HK.
  destruct cl as [key|key v|[key|]|mx|key| | | |];
    try (rewrite quiet_list by reflexivity; eapply khits_rest; [|exact HK]; auto);
    cbn [alru_step].
  - destruct (afind (a_list a) key) as [e|] eqn:E.
    2:{ cbn. eapply khits_rest; [|exact HK]. auto. }
    destruct (tick k) as [t k1]. destruct (a_exp (e_val e) <=? t); cbn.
    + eapply khits_rest; [|exact HK]. intros x Hx. apply in_aremove in Hx. auto.
    + constructor.
      * cbn. rewrite Z.eqb_refl. destruct (afind_key _ _ _ E) as [Hk Hin].
        unfold khits_ok in HK. rewrite Forall_forall in HK. rewrite (HK e Hin), Hk. lia.
      * eapply khits_rest; [|exact HK]. intros x Hx. split; [eapply in_aremove, Hx|].
        cbn. destruct (Z.eqb_spec key (e_key x)) as [E1|]; [|lia].
        symmetry in E1. exfalso. revert E1. apply (in_aremove_key _ _ _ Hnd Hx).
  - cbn. constructor.
    + cbn. rewrite Z.eqb_refl. reflexivity.
    + eapply khits_rest; [|exact HK]. intros x Hx. unfold atrim in Hx. apply In_firstn in Hx.
      split; [eapply in_aremove, Hx|].
      cbn. destruct (Z.eqb_spec key (e_key x)) as [E1|]; [|reflexivity].
      symmetry in E1. exfalso. revert E1. apply (in_aremove_key _ _ _ Hnd Hx).
  - cbn. eapply khits_rest; [|exact HK]. intros x Hx. apply in_aremove in Hx. auto.
  - cbn. constructor.
  - cbn. eapply khits_rest; [|exact HK]. intros x Hx. unfold atrim in Hx. apply In_firstn in Hx. auto.
Qed.

Lemma J_hitsfor : forall a key k m h, J a (now k) m -> khits_ok h (a_list a) -> nonneg (pend k) ->
  fst (fst (alru_step (HitsFor key) a k)) =
  expected_hits m h key (now (snd (alru_step (HitsFor key) a k))).
Proof.
  intros a key k m h HJ HK Hn. unfold expected_hits. apply J_ideal in HJ.
  pose proof (alru_step_time (HitsFor key) a k Hn) as Ht.
  rewrite (ideal_lookup (RInt 0) (fun _ => RInt (key_hits h key)) _ _ _ _ key HJ Ht). unfold aval. cbn.
  destruct (afind (a_list a) key) as [e|] eqn:E; [|reflexivity].
  destruct (tick k) as [t k1] eqn:Et. destruct (tick_spec _ _ _ Et Hn) as [_ [B _]].
  destruct (afind_key _ _ _ E) as [Hk Hin].
  unfold khits_ok in HK. rewrite Forall_forall in HK. rewrite <- Hk, <- (HK e Hin).
  destruct (a_exp (e_val e) <=? t) eqn:Ex; cbn; rewrite B, Ex; reflexivity.
Qed.

Lemma ahas_false : forall a x, ahas a x = false <-> afind (a_list a) x = None.
Proof.
  intros a x. unfold ahas. destruct (afind (a_list a) x); split; intros; congruence.
Qed.

Lemma afind_firstn_none : forall n l k, afind l k = None -> afind (firstn n l) k = None.
Proof.
  intros n l k H. destruct (afind (firstn n l) k) eqn:E; [|reflexivity].
  apply afind_firstn_some in E. congruence.
Qed.

Lemma keyset_step : forall cl a k x, NoDup (akeys (a_list a)) ->
  keyset_rule cl (ahas a) (ahas (snd (fst (alru_step cl a k)))) x.
Proof.
  intros cl a k x Hnd.
  destruct cl as [key|key v|[key|]|mx|key| | | |]; cbn [keyset_rule];
    try (unfold ahas; rewrite quiet_list by reflexivity; reflexivity);
    cbn [alru_step].
  - intros Hne. destruct (afind (a_list a) key) as [e|] eqn:E; [|reflexivity].
    destruct (tick k) as [t k1]. destruct (a_exp (e_val e) <=? t); unfold ahas; cbn;
      rewrite afind_aremove by exact Hnd; destruct (Z.eqb_spec key x); congruence.
  - unfold ahas. cbn. destruct (Z.eqb_spec key x) as [->|]; split; try congruence.
    intros _ Hb. destruct (afind (a_list a) x) eqn:E2; [discriminate|].
    unfold atrim. rewrite afind_firstn_none; [reflexivity|].
    rewrite afind_aremove by exact Hnd. destruct (key =? x); auto.
  - unfold ahas. cbn. rewrite afind_aremove by exact Hnd.
    rewrite (Z.eqb_sym x key). destruct (key =? x); reflexivity.
  - reflexivity.
  - unfold ahas. cbn. intros Hb.
    destruct (afind (a_list a) x) eqn:E2; [discriminate|].
    unfold atrim. rewrite afind_firstn_none by exact E2. reflexivity.
Qed.

(* the invariant of the specification state a at clock reading t with ghost g *)
Record AInv (a : alru) (t : Z) (g : lghost) : Prop := mkAInv {
  A_nodup : NoDup (akeys (a_list a));
  A_bound : abound a;
  A_ideal : J a t (fst g);
  A_recency : recency_ok (snd g) (akeys (a_list a));
  A_stats : (a_hits a, a_miss a) = stats_of (snd g);
  A_khits : khits_ok (snd g) (a_list a) }.

(* hb / ha: any functions that say which keys are held before / after, e.g. those of a store
   that represents the specification state *)
Lemma ainv_step : forall cl a t ds g hb ha,
  AInv a t g -> nonneg ds ->
  (forall x, hb x = ahas a x) ->
  (forall x, ha x = ahas (snd (fst (alru_step cl a (mkClk t ds)))) x) ->
  AInv (snd (fst (alru_step cl a (mkClk t ds)))) (now (snd (alru_step cl a (mkClk t ds))))
       (ideal_upd cl hb ha (fst g), (cl, fst (fst (alru_step cl a (mkClk t ds)))) :: snd g).
Proof.
  intros cl a t ds g hb ha [] Hn Hb Ha. constructor; cbn [fst snd].
  - apply akeys_nodup_step; assumption.
  - apply abound_step; assumption.
  - eapply J_ext; [apply (J_step cl a (mkClk t ds)); eassumption|reflexivity| |lia].
    intros x. apply ideal_upd_ext; assumption.
  - apply recency_step; assumption.
  - apply astats_step; assumption.
  - apply khits_step; assumption.
Qed.

Lemma ainv_adv : forall a t d g, AInv a t g -> 0 <= d -> AInv a (t + d) g.
Proof. intros a t d g [] Hd. constructor; auto. eapply J_weaken; [eassumption|lia]. Qed.

Lemma ainv_init : forall m t, AInv (alru_init m) t lghost0.
Proof.
  intros m t. constructor; cbn; try (constructor; fail).
  - unfold abound. cbn. destruct (Z.ltb_spec m 1); lia.
  - constructor; intros; discriminate.
  - split; constructor.
Qed.
