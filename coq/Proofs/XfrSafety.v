(* C13 - safety: the published zone only changes by the commit at the final SOA, the commit is the
   last thing process_message does, hence every error leaves the zone as it was. *)
From DV Require Import Base.Prelude Model.XfrM Proofs.XfrSets Proofs.XfrSpec Proofs.XfrZone.

(* what every step except the commit leaves alone: it may move the open transaction, the serial and
   the mode flags, nothing else *)
Definition frame (s s' : st) : Prop :=
  pub s' = pub s /\ soa s' = soa s /\ is_udp s' = is_udp s /\ rdtype s' = rdtype s /\
  req_tsig s' = req_tsig s /\ done s' = done s /\ (txn s <> None -> txn s' <> None).

Lemma frame_refl : forall s, frame s s.
Proof. intros s. repeat split; auto. Qed.

Lemma frame_trans : forall a b c, frame a b -> frame b c -> frame a c.
Proof.
  intros a b c (A1 & A2 & A3 & A4 & A5 & A6 & A7) (B1 & B2 & B3 & B4 & B5 & B6 & B7).
  repeat split; try congruence. auto.
Qed.

(* the commit: r is the announced SOA again, last RRset of a message that is signed if signatures are
   required; the transaction with r in it is published *)
Definition commit_of (fl : flag) (s : st) (r : rrset) (s' : st) : Prop :=
  exists tz s0 z', txn s = Some tz /\ soa s = Some s0 /\ rrset_eqb r s0 = true /\
    s_type r = tSOA /\ s_name r = origin /\ t_add true tz r = Ok z' /\
    fl <> Mid /\ (fl = LastNoSig -> req_tsig s = false) /\ done s = false /\
    s' = set_done (set_txn (set_pub (set_delmode s (if incremental s then negb (delmode s) else delmode s)) z') None) true.

Lemma res_of_frame : forall s0 s (r : res zone) s' o, frame s0 s ->
  res_of s r (fun tz' => (set_txn s (Some tz'), None)) = (s', o) -> frame s0 s'.
Proof.
  intros s0 s r s' o F H. apply (frame_trans _ _ _ F).
  destruct r; inversion H; subst; repeat split; auto; intros; discriminate.
Qed.

Lemma step_cases : forall fl s r s' o, step fl s r = (s', o) ->
  frame s s' \/ (o = None /\ commit_of fl s r s').
Proof.
  intros fl s r s' o H. unfold step in H.
  destruct (done s) eqn:Hd; [inversion H; subst; left; apply frame_refl|].
  destruct (txn s) as [tz|] eqn:Ht; [|inversion H; subst; left; apply frame_refl].
  destruct ((s_type r =? tSOA) && (s_name r =? origin)) eqn:Hsoa.
  - set (sd := set_delmode s (if incremental s then negb (delmode s) else delmode s)) in *.
    assert (Fd : frame s sd) by (repeat split; auto).
    match type of H with (if ?c then _ else _) = _ => destruct c eqn:Hfin end.
    + destruct (soa_serial r); [|inversion H; subst; left; exact Fd].
      destruct (expecting sd); [inversion H; subst; left; exact Fd|].
      match type of H with (if ?c then _ else _) = _ => destruct c end; [inversion H; subst; left; exact Fd|].
      assert (COMMIT : fl <> Mid -> (fl = LastNoSig -> req_tsig s = false) ->
        res_of sd (t_add true tz r) (fun tz' => (set_done (set_txn (set_pub sd tz') None) true, None)) = (s', o) ->
        frame s s' \/ (o = None /\ commit_of fl s r s')).
      { intros Hfl Hsg HH. destruct (t_add true tz r) as [z'|e|e] eqn:Ha; cbn [res_of] in HH;
          [|inversion HH; subst; left; exact Fd|inversion HH; subst; left; exact Fd].
        inversion HH; subst. right. split; [reflexivity|].
        apply andb_true_iff in Hfin. destruct Hfin as [Heq _]. cbn [soa sd set_delmode] in Heq.
        destruct (soa s) as [s0|] eqn:Es; [|discriminate].
        apply andb_true_iff in Hsoa. destruct Hsoa as [Hty Hnm]. apply Z.eqb_eq in Hty, Hnm.
        exists tz, s0, z'. repeat split; auto. }
      destruct fl; [inversion H; subst; left; exact Fd| |]; cbn [req_tsig sd set_delmode] in H.
      * rewrite andb_false_r in H. apply COMMIT; [discriminate|discriminate|exact H].
      * rewrite andb_true_r in H. destruct (req_tsig s) eqn:Hrq; [inversion H; subst; left; exact Fd|].
        apply COMMIT; [discriminate|reflexivity|exact H].
    + set (se := set_expecting sd false) in *.
      assert (Fe : frame s se) by (repeat split; auto).
      destruct (soa_serial r) as [ss|]; [|inversion H; subst; left; exact Fe].
      destruct (incremental se); [|inversion H; subst; left; exact Fe].
      match type of H with (if ?c then _ else _) = _ => destruct c end.
      * match type of H with (if ?c then _ else _) = _ => destruct c end; inversion H; subst; left; exact Fe.
      * left. eapply res_of_frame; [|exact H]. repeat split; auto.
  - left.
    assert (G : forall sb tb, frame s sb ->
      (if negb (in_zone (s_name r)) then (sb, None)
       else if delmode sb then res_of sb (t_delete_exact tb r) (fun tz' => (set_txn sb (Some tz'), None))
       else res_of sb (t_add false tb r) (fun tz' => (set_txn sb (Some tz'), None))) = (s', o) -> frame s s').
    { intros sb tb F HH. destruct (negb (in_zone (s_name r))); [inversion HH; subst; exact F|].
      destruct (delmode sb); eapply res_of_frame; eassumption. }
    destruct (expecting s); cbv beta iota in H; apply (G _ _) in H; try exact H; repeat split; auto; intros; discriminate.
Qed.

Lemma commit_facts : forall fl s r s', commit_of fl s r s' ->
  done s' = true /\ txn s' = None /\ soa s' = soa s /\ is_udp s' = is_udp s /\ rdtype s' = rdtype s /\
  req_tsig s' = req_tsig s /\ (exists s0, soa s = Some s0 /\ announced s0 (pub s')) /\
  fl <> Mid /\ (fl = LastNoSig -> req_tsig s = false).
Proof.
  intros fl s r s' (tz & s0 & z' & _ & Hs0 & Heq & Hty & Hnm & Ha & Hfl & Hsg & _ & ->).
  repeat split; try assumption. exists s0. split; [exact Hs0|]. cbn [pub set_done set_txn set_pub].
  unfold rrset_eqb in Heq. rewrite !andb_true_iff, !Z.eqb_eq in Heq. destruct Heq as [[_ Hcv] Hds].
  unfold t_add in Ha. destruct (s_data r) as [|d0 ds0] eqn:Ed; [discriminate|]. rewrite <- Ed in *.
  destruct (negb (s_class r =? cIN)); [discriminate|].
  destruct ((s_type r =? tSOA) && negb (s_name r =? origin)); [discriminate|]. inversion Ha; subst z'.
  exists (s_ttl r), (s_data r). split; [|exact Hds].
  unfold skey, node_put. rewrite Hnm, Hty, Hcv, look_zput, key_eqb_refl. reflexivity.
Qed.

Lemma step_req_tsig : forall fl s r s' o, step fl s r = (s', o) -> req_tsig s' = req_tsig s.
Proof.
  intros fl s r s' o H. apply step_cases in H. destruct H as [F|[_ C]]; [apply F|apply commit_facts in C; apply C].
Qed.

(* the loop over the RRsets of one message: the commit, if any, is its last step *)
Lemma loop_cases : forall sg rs s s' o, loopT sg s rs = (s', o) ->
  frame s s' \/ (o = None /\ exists s1 r, frame s s1 /\ commit_of (if sg then Last else LastNoSig) s1 r s').
Proof.
  intros sg. induction rs as [|r rest IH]; intros s s' o H; cbn [loopT] in H.
  - inversion H; subst. left; apply frame_refl.
  - destruct (step _ s r) as [s1 [e|]] eqn:Hs; apply step_cases in Hs.
    + inversion H; subst. destruct Hs as [F|[E _]]; [left; exact F|discriminate].
    + destruct Hs as [F|[_ C]].
      * apply IH in H. destruct H as [F'|(E & s2 & r2 & F' & C)]; [left|right; split; [exact E|exists s2, r2; split; [|exact C]]];
          eapply frame_trans; eassumption.
      * destruct rest; [|apply commit_facts in C; destruct C as (_ & _ & _ & _ & _ & _ & _ & Hm & _); congruence].
        cbn in H. inversion H; subst. right. split; [reflexivity|]. exists s, r. split; [apply frame_refl|exact C].
Qed.

(* the fields no step changes; the transaction stays open until the commit; a commit publishes the SOA
   announced by the first record, and needs a signed message when signatures are required *)
Lemma loop_inv : forall sg rs s s' o, loopT sg s rs = (s', o) ->
  soa s' = soa s /\ is_udp s' = is_udp s /\ rdtype s' = rdtype s /\ req_tsig s' = req_tsig s /\
  (frame s s' \/
   (o = None /\ done s' = true /\ txn s' = None /\ (sg = false -> req_tsig s = false) /\
    exists s0, soa s = Some s0 /\ announced s0 (pub s'))).
Proof.
  intros sg rs s s' o H. apply loop_cases in H. destruct H as [F|(E & s1 & r & F & C)].
  - pose proof F as (_ & A & B & C & D & _). auto 6.
  - destruct (commit_facts _ _ _ _ C) as (C1 & C2 & C3 & C4 & C5 & C6 & (s0 & C7 & C8) & _ & Hs).
    destruct F as (_ & A & B & D & G & _).
    repeat split; try congruence. right. repeat split; auto.
    + intros ->. rewrite <- G. apply Hs. reflexivity.
    + exists s0. split; [congruence|exact C8].
Qed.

(* the check made after the loop ("unexpected end of UDP IXFR") *)
Definition after (r : st * option Z) : st * option Z :=
  match r with
  | (s1, Some e) => (s1, Some e)
  | (s1, None) => if is_udp s1 && negb (done s1) then (s1, Some eUDPEnd) else (s1, None)
  end.

(* it changes no state, and cannot fire after a commit *)
Lemma after_inv : forall r s' o, after r = (s', o) ->
  s' = fst r /\ (done s' = true -> o = snd r).
Proof.
  intros [s1 [e|]] s' o H; cbn [after fst snd] in *; [inversion H; auto|].
  destruct (done s1) eqn:Hd; [rewrite andb_false_r in H|destruct (is_udp s1 && negb false)];
    inversion H; subst; split; congruence.
Qed.

(* the states process_message hands to the loop: the transaction is open, the first SOA may have been
   noted; rs are the RRsets left to go through *)
Definition entered (s : st) (m : message) (sa : st) (rs : list rrset) : Prop :=
  pub sa = pub s /\ req_tsig sa = req_tsig s /\
  match soa s with
  | Some s0 => soa sa = Some s0 /\ rs = m_answer m
  | None => exists r0, m_answer m = r0 :: rs /\ soa sa = Some r0
  end.

Inductive pm_outcome (s : st) (m : message) : st * option Z -> Prop :=
| pm_refused : forall sa e, pub sa = pub s -> req_tsig sa = req_tsig s ->
    (forall s0, soa s = Some s0 -> soa sa = Some s0) -> pm_outcome s m (sa, Some e)
| pm_looped : forall sa rs, entered s m sa rs -> pm_outcome s m (after (loopT (m_tsig m) sa rs)).

Lemma process_message_outcome : forall s m, pm_outcome s m (process_message s m).
Proof.
  intros s m. unfold process_message.
  set (sx := match txn s with
             | None => set_txn s (Some (if incremental s then pub s else []))
             | Some _ => s end).
  assert (X : pub sx = pub s /\ req_tsig sx = req_tsig s /\ soa sx = soa s) by (subst sx; destruct (txn s); auto).
  destruct X as (Xp & Xr & Xs). clearbody sx.
  assert (R : forall sa e, pub sa = pub sx -> req_tsig sa = req_tsig sx -> (soa s = None \/ soa sa = soa sx) ->
              pm_outcome s m (sa, Some e)).
  { intros sa e A B C. apply pm_refused; try congruence. intros s0 E. destruct C; congruence. }
  destruct (negb (m_rcode m =? 0)); [apply R; auto|].
  match goal with |- pm_outcome _ _ (match ?q with Some e => _ | None => _ end) => destruct q end; [apply R; auto|].
  cbv zeta. fold after.
  destruct (soa sx) as [s0|] eqn:Es.
  - apply pm_looped. unfold entered. rewrite <- Xs. auto.
  - symmetry in Xs.
    destruct (m_answer m) as [|r0 rest] eqn:Ea; [apply R; auto|].
    destruct (negb (s_name r0 =? origin)); [apply R; auto|].
    destruct (negb (s_type r0 =? tSOA)); [apply R; auto|].
    assert (L : forall sa, pub sa = pub sx -> req_tsig sa = req_tsig sx -> soa sa = Some r0 ->
                pm_outcome s m (after (loopT (m_tsig m) sa rest))).
    { intros sa A B C. apply pm_looped. unfold entered. rewrite Xs, Ea. repeat split; try congruence. eauto. }
    cbn [incremental set_soa].
    destruct (incremental sx); [|apply L; reflexivity].
    destruct (soa_serial r0) as [ss|]; [|apply R; auto].
    cbn [serial is_udp set_soa].
    destruct (ss =? serial sx); [apply L; reflexivity|].
    destruct (serial_lt ss (serial sx)); [apply R; auto|].
    match goal with |- pm_outcome _ _ (if ?c then _ else _) => destruct c end; [apply R; auto|apply L; reflexivity].
Qed.

(* one call of process_message: require_tsig and a noted SOA stay; the first SOA is noted when the call
   succeeds; the published zone is untouched, or the call committed (on a signed message if signatures are
   required), returned True, raised nothing, and the zone holds the announced SOA *)
Lemma process_message_inv : forall s m s' o, process_message s m = (s', o) ->
  req_tsig s' = req_tsig s /\ (forall s0, soa s = Some s0 -> soa s' = Some s0) /\
  (soa s = None -> o = None -> exists r0 rs, m_answer m = r0 :: rs /\ soa s' = Some r0) /\
  (pub s' = pub s \/
   (o = None /\ done s' = true /\ txn s' = None /\ (m_tsig m = false -> req_tsig s = false) /\
    exists s0, soa s' = Some s0 /\ announced s0 (pub s'))).
Proof.
  intros s m s' o H. pose proof (process_message_outcome s m) as P. rewrite H in P.
  inversion P as [sa e A B C|sa rs (A & B & C) E]; subst.
  - split; [exact B|]. split; [exact C|]. split; [discriminate|left; exact A].
  - apply after_inv in E. destruct E as [-> Eo].
    destruct (loopT (m_tsig m) sa rs) as [s1 o1] eqn:Hl. cbn [fst snd] in *.
    apply loop_inv in Hl. destruct Hl as (L1 & _ & _ & L4 & L5).
    assert (S1 : forall s0, soa s = Some s0 -> soa s1 = Some s0).
    { intros s0 Es. rewrite Es in C. destruct C. congruence. }
    assert (S2 : soa s = None -> exists r0 rs', m_answer m = r0 :: rs' /\ soa s1 = Some r0).
    { intros Es. rewrite Es in C. destruct C as (r0 & C1 & C2). exists r0, rs. split; congruence. }
    split; [congruence|]. split; [exact S1|]. split; [auto|].
    destruct L5 as [F|(E1 & E2 & E3 & E4 & s0 & E5 & E6)]; [left; destruct F; congruence|right].
    rewrite (Eo E2), E1. repeat split; auto; [intros Hm; rewrite <- B; auto|].
    exists s0. split; [congruence|exact E6].
Qed.

Lemma process_message_pub : forall s m s' o,
  process_message s m = (s', o) ->
  pub s' = pub s \/ (o = None /\ done s' = true /\ txn s' = None).
Proof.
  intros s m s' o H. apply process_message_inv in H. destruct H as (_ & _ & _ & [H|(A & B & C & _)]); auto.
Qed.

Lemma process_req_tsig : forall s m s' o, process_message s m = (s', o) -> req_tsig s' = req_tsig s.
Proof. intros s m s' o H. apply process_message_inv in H. apply H. Qed.

(* one call of process_message on a message without TSIG, when TSIGs are required: nothing is published *)
Theorem unsigned_message_never_applies : forall s m s' o,
  req_tsig s = true -> m_tsig m = false ->
  process_message s m = (s', o) -> pub s' = pub s.
Proof.
  intros s m s' o Hrq Hsig H. apply process_message_inv in H.
  destruct H as (_ & _ & _ & [H|(_ & _ & _ & C & _)]); [exact H|]. rewrite (C Hsig) in Hrq. discriminate.
Qed.

Definition zone_of_result (r : result) : zone :=
  match r with Done z => z | Error _ z => z end.

(* the driver: an exception (including EOF before done) means the zone is what it was *)
Lemma drive_error_leaves_zone : forall one_rr ws s e z n,
  drive one_rr s ws = (Error e z, n) -> z = pub s.
Proof.
  induction ws as [|w rest IH]; intros s e z n H; cbn [drive] in H.
  - inversion H; reflexivity.
  - destruct (process_message s (from_wire one_rr w)) as [s' [e'|]] eqn:Hp.
    + inversion H; subst. apply process_message_pub in Hp.
      destruct Hp as [?|[? _]]; [auto|discriminate].
    + destruct (done s') eqn:Hd.
      * (* the check made after the loop: only an unsigned completing message, which published nothing *)
        destruct (req_tsig s' && negb (w_tsig w)) eqn:Hc; [|inversion H].
        inversion H; subst. apply andb_true_iff in Hc. destruct Hc as [Hr Hs].
        apply negb_true_iff in Hs.
        eapply (unsigned_message_never_applies s (from_wire one_rr w)); [|exact Hs|exact Hp].
        rewrite <- (process_req_tsig _ _ _ _ Hp). exact Hr.
      * destruct (drive one_rr s' rest) as [r n'] eqn:Hdr. inversion H; subst.
        apply IH in Hdr. apply process_message_pub in Hp.
        destruct Hp as [?|[_ [Hd' _]]]; [congruence|congruence].
Qed.

(* what Inbound.__init__ sets up *)
Lemma init_t_inv : forall req z rdt ser udp s, init_t req z rdt ser udp = inl s ->
  pub s = z /\ soa s = None /\ req_tsig s = req.
Proof.
  intros req z rdt ser udp s H. unfold init_t in H. destruct (rdt =? tIXFR).
  - destruct ser; inversion H; auto.
  - destruct (rdt =? tAXFR); [|discriminate]. destruct udp; inversion H; auto.
Qed.

Theorem error_leaves_zone_t : forall req z rdt ser udp ws e z' n,
  xfr_run req z rdt ser udp ws = (Error e z', n) -> z' = z.
Proof.
  intros req z rdt ser udp ws e z' n H. unfold xfr_run in H.
  destruct (init_t req z rdt ser udp) as [s|e0] eqn:Hi; [|inversion H; reflexivity].
  apply drive_error_leaves_zone in H. apply init_t_inv in Hi. destruct Hi as [<- _]. exact H.
Qed.

Theorem error_leaves_zone : forall z rdt ser udp ws e z' n,
  inbound_xfr z rdt ser udp ws = (Error e z', n) -> z' = z.
Proof. intros z rdt ser udp ws e z' n. apply error_leaves_zone_t. Qed.

(* as a case distinction *)
Lemma done_or_untouched : forall z rdt ser udp ws,
  (exists e n, inbound_xfr z rdt ser udp ws = (Error e z, n)) \/ (exists z' n, inbound_xfr z rdt ser udp ws = (Done z', n)).
Proof.
  intros z rdt ser udp ws. destruct (inbound_xfr z rdt ser udp ws) as [[z'|e z1] n] eqn:E; [right; eauto|left].
  pose proof (error_leaves_zone _ _ _ _ _ _ _ _ E). subst z1. eauto.
Qed.

(* the same for the public API used without the driver: while no call has returned True the zone is
   untouched, whatever was fed *)
Lemma feed_not_done_leaves_zone : forall ms s l z,
  feed s ms = (l, z) -> ~ In rTrue l -> z = pub s.
Proof.
  induction ms as [|m rest IH]; intros s l z H Hn; cbn [feed] in H.
  - inversion H; reflexivity.
  - destruct (process_message s m) as [s' [e|]] eqn:Hp.
    + inversion H; subst. apply process_message_pub in Hp.
      destruct Hp as [?|[? _]]; [auto|discriminate].
    + destruct (feed s' rest) as [l' z'] eqn:Hf. inversion H; subst.
      apply process_message_pub in Hp.
      destruct (done s') eqn:Hd.
      * exfalso. apply Hn. left; reflexivity.
      * destruct Hp as [?|[_ [Hd' _]]]; [|congruence].
        rewrite <- H0. apply (IH _ _ _ Hf). intros Hin. apply Hn. right; exact Hin.
Qed.
