(* What render-then-parse returns: the header fields read back, the message the reader builds from the chains, and
   the equivalence it is compared under. *)
From DV Require Import Base.Prelude Model.NameM Model.MessageM.
From DV Require Import Proofs.NameOrder Proofs.NameValid Proofs.NameRel Proofs.NameWire Proofs.NameCompress.
From DV Require Import Proofs.MessageName Proofs.MessageRender Proofs.MessageRead Proofs.MessageRoundtrip.
Open Scope Z_scope.

Definition q_equiv (q' q : rrset) : Prop :=
  ci_equal (rname q') (rname q) /\ rclass q' = rclass q /\ rtype q' = rtype q /\
  rcovers q' = 0 /\ rdeleting q' = None /\ rttl q' = 0 /\ rrds q' = [].

Definition msg_equiv (m' m : msg) : Prop :=
  mid m' = mid m /\ mflags m' = mflags m /\
  Forall2 q_equiv (mq m') (mq m) /\
  Forall2 rrset_equiv (man m') (man m) /\ Forall2 rrset_equiv (mau m') (mau m) /\
  Forall2 rrset_equiv (mad m') (mad m) /\
  mopt m' = mopt m.

Lemma hdr_read id fl c0 c1 c2 c3 body :
  0 <= id <= 65535 -> 0 <= fl <= 65535 -> 0 <= c0 <= 65535 -> 0 <= c1 <= 65535 ->
  0 <= c2 <= 65535 -> 0 <= c3 <= 65535 ->
  let w := hdr_bytes id fl c0 c1 c2 c3 ++ body in
  rd_u16 w (length w) 0 = Ok id /\ rd_u16 w (length w) 2 = Ok fl /\ rd_u16 w (length w) 4 = Ok c0 /\
  rd_u16 w (length w) 6 = Ok c1 /\ rd_u16 w (length w) 8 = Ok c2 /\ rd_u16 w (length w) 10 = Ok c3.
Proof.
  intros H0 H1 H2 H3 H4 H5 w.
  assert (Hl : (12 <= length w)%nat) by (unfold w; rewrite app_length; cbn [length hdr_bytes MessageM.u16 app]; lia).
  pose proof (sits_here [] (hdr_bytes id fl c0 c1 c2 c3) body) as S. fold w in S. unfold hdr_bytes in S. cbn [length] in S.
  apply sits_app in S. destruct S as (S0 & S). apply sits_app in S. destruct S as (S1 & S).
  apply sits_app in S. destruct S as (S2 & S). apply sits_app in S. destruct S as (S3 & S).
  apply sits_app in S. destruct S as (S4 & S5). cbn [length MessageM.u16 Nat.add] in *.
  repeat split; apply rd_u16_sits; assumption || lia.
Qed.

Definition opt_count {A} (o : option A) : Z := match o with Some _ => 1 | None => 0 end.

Definition read_result (id fl : Z) (qs : list qd) (ds1 ds2 ds3 : list rrd) (o : option optrec) : msg :=
  let m1 := fold_left add_q qs (mkMsg id fl [] [] [] [] None None) in
  let m2 := fold_left (apply_d 1 false) ds1 m1 in
  let m3 := fold_left (apply_d 2 false) ds2 m2 in
  let m4 := fold_left (apply_d 3 false) ds3 m3 in
  match o with Some o' => set_opt m4 o' | None => m4 end.

Lemma fold_add_q_eq qs : forall m, fold_left add_q qs m = set_sec m 0 (mq m ++ map qrec qs).
Proof.
  induction qs as [|q qs IH]; intros m; cbn [fold_left map].
  - rewrite app_nil_r. symmetry. exact (set_get_sec m 0 ltac:(lia)).
  - rewrite IH. unfold add_q, set_sec. cbn [mid mflags mq man mau mad mopt mtsig Z.eqb]. rewrite <- app_assoc. reflexivity.
Qed.

(* each section of the message the reader builds depends on the records of that section only *)
Lemma read_result_eq id fl qs ds1 ds2 ds3 oo :
  read_result id fl qs ds1 ds2 ds3 oo =
  mkMsg id fl (map qrec qs) (fold_left step_sec ds1 []) (fold_left step_sec ds2 []) (fold_left step_sec ds3 []) oo None.
Proof. unfold read_result. rewrite fold_add_q_eq, !fold_apply_d_eq by lia. destruct oo; reflexivity. Qed.

Definition rr_count (l : list rrset) : Z := fold_right (fun rs acc => rrset_count rs + acc) 0 l.

Lemma SecDesc_count o : forall l ds, SecDesc o l ds -> Forall (wf_rrset o) l -> zlen ds = rr_count l.
Proof.
  induction 1 as [|rs l ds1 ds2 F2 SD IH]; intros WF; [reflexivity|].
  inversion WF as [|? ? W1 WF']; subst. cbn [rr_count fold_right]. rewrite zlen_app, (IH WF').
  f_equal. destruct W1 as (_ & _ & NE & _). unfold rrset_count.
  apply Forall2_len in F2. destruct (rrds rs) eqn:E; [congruence|]. unfold zlen. f_equal. exact F2.
Qed.

