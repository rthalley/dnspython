(* TXT-like records: to_styled_text of any non-empty list of octet strings (each <= 255 octets)
   parses back, through dns.rdata.from_text (peek, class from_text = get_remaining +
   unescape_to_bytes, end-of-line check), to the same list.  Proved for any way of writing a string
   between its quotes that the tokenizer takes as one token and unescape_to_bytes takes back to the
   string, so that _escapify and _escapify_unicode (Proofs/TokUtf8.v) are instances. *)
From DV Require Import Base.Prelude Model.TokM Proofs.TokEsc Proofs.TokWords Proofs.TokShape.
Open Scope Z_scope.

(* a body that stands for the octet string s *)
Definition body_ok (b s : list Z) : Prop :=
  qbody b /\ forall t acc, ub_loop (b ++ t) acc = ub_loop t (rev s ++ acc).

Lemma body_ok_unescape b s : body_ok b s -> ub_loop b [] = Ok s.
Proof.
  intros [_ H]. rewrite <- (app_nil_r b), H. cbn [ub_loop]. rewrite app_nil_r, rev_involutive. reflexivity.
Qed.

Lemma escapify_body_ok s : all_bytes s = true -> body_ok (escapify s) s.
Proof. intros Hs. split; [apply escapify_qbody, Hs|intros t acc; apply ub_escapify, Hs]. Qed.

(* what follows the closing quote of a string: blank + next quoted string ..., then `rest` *)
Fixpoint txt_tail_b (bs : list (list Z)) (rest : list Z) : list Z :=
  match bs with
  | [] => rest
  | b :: r => 32 :: 34 :: b ++ 34 :: txt_tail_b r rest
  end.

Lemma txt_join_tail b bs rest : txt_join (b :: bs) ++ rest = 34 :: b ++ 34 :: txt_tail_b bs rest.
Proof.
  revert b. induction bs as [|b2 bs IH]; intros b.
  - unfold txt_join, quote_body, txt_tail_b. rewrite <- app_comm_cons. f_equal. rewrite <- app_assoc. reflexivity.
  - change (txt_join (b :: b2 :: bs)) with (quote_body b ++ 32 :: txt_join (b2 :: bs)).
    unfold quote_body at 1. rewrite <- !app_comm_cons. f_equal. rewrite <- !app_assoc. f_equal.
    cbn [app txt_tail_b]. f_equal. f_equal. rewrite IH. reflexivity.
Qed.

Lemma txt_tail_b_length bs rest : (length bs <= length (txt_tail_b bs rest))%nat.
Proof. induction bs as [|b bs IH]; cbn [txt_tail_b length]; [lia|]. rewrite app_length. cbn [length]. lia. Qed.

Definition tok_body (b : list Z) (t : token) : Prop := ttype t = tQUOTED /\ tvalue t = b.

Lemma get_remaining_tail_b bs : Forall qbody bs ->
  forall rest fuel acc, line_end rest -> (length bs < fuel)%nat ->
  exists toks st,
    Forall2 tok_body bs toks /\ at_eol st /\
    get_remaining_loop fuel (stq true (txt_tail_b bs rest)) 0 acc = Ok (rev acc ++ toks, st).
Proof.
  induction bs as [|b bs IH]; intros Hbs rest fuel acc Hrest Hfuel.
  - destruct fuel as [|f]; [cbn in Hfuel; lia|].
    destruct (get0_end_q_len true [] rest eq_refl Hrest) as (t & st & Ht & _ & Hu & _ & E). cbn [app] in E.
    cbn [txt_tail_b]. rewrite grl_unfold. rewrite E. cbn [bind]. rewrite Ht. unfold unget. rewrite Hu. cbn [bind].
    do 2 eexists. split; [constructor|]. split; [|rewrite app_nil_r; reflexivity].
    exists t. split; [reflexivity|exact Ht].
  - destruct fuel as [|f]; [cbn in Hfuel; lia|]. inversion Hbs as [|? ? Hb Hbs']; subst.
    destruct (get0_quoted_body_q true [32] b (txt_tail_b bs rest) eq_refl Hb) as (he & E).
    cbn [txt_tail_b]. rewrite grl_unfold. cbn [app] in E. rewrite E. cbn [bind].
    change (is_eol_or_eof (mkTok tQUOTED b he None)) with false. cbv iota. cbn [length] in Hfuel.
    destruct (IH Hbs' rest f (mkTok tQUOTED b he None :: acc) Hrest ltac:(lia)) as (toks & st & HF & Hst & E2).
    rewrite E2. exists (mkTok tQUOTED b he None :: toks), st. split; [constructor; [split; reflexivity|assumption]|].
    split; [exact Hst|]. cbn [rev]. rewrite <- app_assoc. reflexivity.
Qed.

Lemma txt_strings_ok_b bs ss toks :
  Forall2 body_ok bs ss -> Forall (fun s => zlen s <= 255) ss -> Forall2 tok_body bs toks ->
  txt_strings toks = Ok ss.
Proof.
  intros HB. revert toks. induction HB as [|b s bs ss Hb HB IH]; intros toks Hl HT.
  - inversion HT; subst. reflexivity.
  - inversion HT as [|? t ? toks' Htb HT']; subst. destruct Htb as [Ht Hv]. inversion Hl; subst.
    cbn [txt_strings]. unfold unescape_to_bytes. rewrite (body_ok_unescape _ s Hb). cbn [bind].
    unfold is_quoted, is_identifier. cbn [ttype tvalue]. rewrite Ht. change (tQUOTED =? tQUOTED) with true.
    cbn [orb negb]. replace (zlen s >? 255) with false by lia. rewrite IH by assumption. reflexivity.
Qed.

(* the class's from_text on the joined strings, as the last field of a record or the whole of it *)
Theorem txt_bodies_first_tok bs ss R q bl :
  bs <> [] -> Forall2 body_ok bs ss -> Forall (fun s => zlen s <= 255) ss -> line_end R ->
  forallb is_blank bl = true ->
  first_tok (stq q (bl ++ txt_join bs ++ R)) (fun stX => exists st, txt_from_text stX = Ok (ss, st) /\ at_eol st).
Proof.
  intros Hne HB HL HR Hbl. destruct HB as [|b s bs ss Hb HB]; [congruence|]. rewrite txt_join_tail.
  assert (HQ : Forall qbody bs) by (clear - HB; induction HB as [|? ? ? ? [Hq _] _ IH]; constructor; assumption).
  apply first_tok_quoted; [exact Hbl|exact (proj1 Hb)|]. intros he stX HX HL2.
  destruct (get_remaining_tail_b bs HQ R (S (length (inp stX))) [mkTok tQUOTED b he None] HR)
    as (toks & st & HF & Hst & E2).
  { pose proof (txt_tail_b_length bs R). lia. }
  exists st. split; [|exact Hst].
  unfold txt_from_text, get_remaining, rem_fuel. rewrite grl_unfold, HX. cbn [bind].
  change (is_eol_or_eof (mkTok tQUOTED b he None)) with false. cbv iota. rewrite E2. cbn [bind rev app fst snd].
  rewrite (txt_strings_ok_b (b :: bs) (s :: ss) (_ :: toks)); [reflexivity|constructor; assumption|exact HL|].
  constructor; [split; reflexivity|exact HF].
Qed.

Theorem txt_bodies_roundtrip bs ss rest :
  bs <> [] -> Forall2 body_ok bs ss -> Forall (fun s => zlen s <= 255) ss -> line_end rest ->
  rdata_from_text_txt (txt_join bs ++ rest) = Ok ss.
Proof.
  intros Hne HB HL Hrest. apply rdata_from_text_first_tok.
  eapply first_tok_impl; [|exact (txt_bodies_first_tok bs ss rest false [] Hne HB HL Hrest eq_refl)].
  intros stX (st & E & Hst). exists st. split; [exact E|apply at_eol_ends, Hst].
Qed.

(* the record's own hypotheses, split for the theorem above *)
Lemma txt_strings_bodies (body : list Z -> list Z) strings :
  (forall s, all_bytes s = true -> body_ok (body s) s) ->
  Forall (fun s => all_bytes s = true /\ zlen s <= 255) strings ->
  Forall2 body_ok (map body strings) strings /\ Forall (fun s => zlen s <= 255) strings.
Proof. intros Hb. induction 1 as [|s l [Hs Hl] _ [I1 I2]]; split; constructor; auto. Qed.

Lemma txt_to_text_join strings : txt_to_text strings = txt_join (map escapify strings).
Proof.
  induction strings as [|s [|s2 r] IH]; [reflexivity|reflexivity|].
  change (txt_to_text (s :: s2 :: r)) with (quote s ++ 32 :: txt_to_text (s2 :: r)). rewrite IH. reflexivity.
Qed.

Theorem txt_roundtrip strings rest :
  strings <> [] ->
  Forall (fun s => all_bytes s = true /\ zlen s <= 255) strings ->
  line_end rest ->
  rdata_from_text_txt (txt_to_text strings ++ rest) = Ok strings.
Proof.
  intros Hne Hss Hrest. destruct (txt_strings_bodies escapify strings escapify_body_ok Hss) as [HB HL].
  rewrite txt_to_text_join. apply txt_bodies_roundtrip; try assumption. destruct strings; [congruence|discriminate].
Qed.
