(* C17 - "never serve an answer at or after its expiration time", tied to how the expiration is
   derived from the response message and the clock:
     Answer.expiration = (clock reading when the Answer is built) + minimum_ttl,
     minimum_ttl = QueryMessage.resolve_chaining (Model/ResolM.v; chain_spec of property C16).
   So whatever a cache lookup returns is younger than the TTL of every CNAME RRset followed, of
   the answer RRset, and - for a negative answer - than the TTL and the MINIMUM of the enclosing
   SOA. *)
From DV Require Import Base.Prelude Model.NameM.
From DV Require Model.ResolM Proofs.ResolChain.
From DV Require Import Model.CacheM Model.CacheAnsM Proofs.CacheBasic.

Import ResolM.

(* the running minimum is below its start value and below every TTL it has seen *)
Lemma min_over_le : forall p base,
  ResolChain.min_over base p <= base /\ (forall c, In c p -> ResolChain.min_over base p <= rs_ttl c).
Proof.
  unfold ResolChain.min_over. induction p as [|x p IH]; intros base; cbn; [split; [lia|tauto]|].
  destruct (IH (Z.min base (rs_ttl x))) as [A B]. split; [lia|]. intros c [<-|H]; [lia|auto].
Qed.

(* the lifetime bound of an answer built from message m at clock reading t *)
Definition within_record_lifetimes (m : msg) (t : Z) (limit : Z) : Prop :=
  exists ch q,
    resolve_chaining m = Ok ch /\ m_question m = [q] /\
    limit <= t + ch_min_ttl ch /\
    limit <= t + MAX_TTL /\
    (forall c, In c (ch_cnames ch) -> limit <= t + rs_ttl c) /\
    match ch_answer ch with
    | Some a => limit <= t + rs_ttl a
    | None => forall s, ResolChain.soa_at (m_authority m) (q_class q) (ch_canonical ch) (Some s) ->
                        limit <= t + rs_ttl s /\ limit <= t + soa_minimum s
    end.

Lemma soa_at_functional : forall auth cls n r1 r2,
  ResolChain.soa_at auth cls n r1 -> ResolChain.soa_at auth cls n r2 -> r1 = r2.
Proof.
  intros auth cls n r1 r2 H1. revert r2.
  induction H1 as [n s F|n p r F P H IH|n F P]; intros r2 H2;
    inversion H2 as [n' s' F'|n' p' r' F' P' H'|n' F' P']; subst; try congruence.
  all: try (exfalso; eapply P'; exact P); try (exfalso; eapply P; exact P').
  all: try (apply IH; assert (p' = p) by congruence; subst p'; exact H').
Qed.

Lemma answer_expiration_spec : forall m vid t v,
  answer_of_msg m vid t = Ok v ->
  a_id v = vid /\ within_record_lifetimes m t (a_exp v).
Proof.
  intros m vid t v H. unfold answer_of_msg in H.
  destruct (resolve_chaining m) as [ch|e|e] eqn:E; try discriminate. inversion H; subst v. cbn [a_id a_exp].
  split; [reflexivity|].
  destruct (ResolChain.chain_spec_lemma m ch E) as [q [HQ [_ [_ [_ [_ HT]]]]]].
  exists ch, q. split; [exact E|]. split; [exact HQ|]. split; [lia|].
  destruct (min_over_le (ch_cnames ch) MAX_TTL) as [LB LI].
  assert (Hmin : ch_min_ttl ch <= ResolChain.min_over MAX_TTL (ch_cnames ch)).
  { destruct (ch_answer ch) as [a|].
    - destruct HT as [_ ->]. lia.
    - destruct HT as [r [_ ->]]. destruct r; lia. }
  split; [lia|]. split.
  - intros c Hc. specialize (LI c Hc). lia.
  - destruct (ch_answer ch) as [a|].
    + destruct HT as [_ ->]. lia.
    + destruct HT as [r [Hr Heq]]. intros s Hs.
      pose proof (soa_at_functional _ _ _ _ _ Hr Hs) as ->. rewrite Heq. lia.
Qed.

(* the bound holds of every earlier instant as well *)
Lemma within_earlier : forall m t l l',
  within_record_lifetimes m t l -> l' <= l -> within_record_lifetimes m t l'.
Proof.
  intros m t l l' (ch & q & E & HQ & H1 & H2 & H3 & H4) Hl.
  exists ch, q. split; [exact E|]. split; [exact HQ|]. split; [lia|]. split; [lia|]. split.
  - intros x Hx. specialize (H3 x Hx). lia.
  - destruct (ch_answer ch); [lia|]. intros s Hs. destruct (H4 s Hs). lia.
Qed.

(* a lookup that returns the answer built from m at reading t happens strictly before
   t + the lifetime of every record the answer rests on *)
Lemma lru_serves_within_lifetimes : forall m vid t v key c k c' k',
  answer_of_msg m vid t = Ok v ->
  lru_step (Get key) c k = Ok (RAns v, c', k') ->
  within_record_lifetimes m t (now k' + 1).
Proof.
  intros m vid t v key c k c' k' HA HG.
  apply (within_earlier _ _ _ _ (proj2 (answer_expiration_spec _ _ _ _ HA))).
  pose proof (lru_get_fresh _ _ _ _ _ _ HG). lia.
Qed.

Lemma cache_serves_within_lifetimes : forall m vid t v key c k c' k',
  answer_of_msg m vid t = Ok v ->
  cache_step (Get key) c k = Ok (RAns v, c', k') ->
  within_record_lifetimes m t (now k' + 1).
Proof.
  intros m vid t v key c k c' k' HA HG.
  apply (within_earlier _ _ _ _ (proj2 (answer_expiration_spec _ _ _ _ HA))).
  pose proof (cache_get_fresh _ _ _ _ _ _ HG). lia.
Qed.
