(* C18, datagram side: acceptance predicate, source matching, the receive_udp loop and udp(). *)
From DV Require Import Base.Prelude Model.NameM Model.NetM Proofs.NameOrder Proofs.ListFacts.
Open Scope Z_scope.

(* two question entries denote the same question: same class and type, names equal up to
   ASCII case *)
Definition same_qent (a b : qent) : Prop :=
  ci_equal (q_name a) (q_name b) /\ q_class a = q_class b /\ q_type a = q_type b.

(* the two question sections are equal as sets of questions *)
Definition same_question (a b : list qent) : Prop :=
  (forall n, In n a -> exists n', In n' b /\ same_qent n n') /\
  (forall n, In n b -> exists n', In n' a /\ same_qent n n').

Definition qr_set (m : msg) : Prop := Z.land (m_flags m) fQR <> 0.

(* "a response to the query that was sent (QR set, same id, opcode and question)", with the two
   documented leniencies of Message.is_response: an error rcode with an empty question section,
   and dynamic updates (whose responses need not echo the zone section) *)
Definition genuine (q r : msg) : Prop :=
  qr_set r /\ m_id q = m_id r /\ opcode_of (m_flags q) = opcode_of (m_flags r) /\
  ( (rcode_lenient (rcode_of (m_flags r) (m_ednsflags r)) = true /\ m_question r = [])
    \/ opcode_of (m_flags q) = opUPDATE
    \/ same_question (m_question q) (m_question r) ).

Lemma qent_eqb_iff a b : qent_eqb a b = true <-> same_qent a b.
Proof.
  unfold qent_eqb, same_qent. rewrite !andb_true_iff, !Z.eqb_eq, name_eqb_iff_ci. tauto.
Qed.

Lemma q_in_iff n l : q_in n l = true <-> exists n', In n' l /\ same_qent n n'.
Proof.
  unfold q_in. rewrite existsb_exists. split; intros (x & H1 & H2); exists x; split; auto;
    apply qent_eqb_iff; auto.
Qed.

Lemma q_subset_iff a b :
  q_subset a b = true <-> forall n, In n a -> exists n', In n' b /\ same_qent n n'.
Proof.
  unfold q_subset. rewrite forallb_forall. split; intros H n Hn; apply q_in_iff; auto.
Qed.

Theorem is_response_iff q r : is_response q r = true <-> genuine q r.
Proof.
  unfold genuine, qr_set, same_question.
  rewrite <- !q_subset_iff, <- (NameValid.zlen_nil_iff (m_question r)), <- Z.eqb_neq, <- !Z.eqb_eq, <- negb_true_iff.
  rewrite <- !andb_true_iff, <- !orb_true_iff, <- !andb_true_iff.
  (* both sides are now boolean expressions over the same eight tests *)
  unfold is_response.
  destruct (Z.land (m_flags r) fQR =? 0); [reflexivity|].
  destruct (m_id q =? m_id r); [|reflexivity].
  destruct (opcode_of (m_flags q) =? opcode_of (m_flags r)); [|reflexivity].
  destruct (rcode_lenient _), (zlen (m_question r) =? 0), (opcode_of (m_flags q) =? opUPDATE),
    (q_subset (m_question q) (m_question r)), (q_subset (m_question r) (m_question q)); reflexivity.
Qed.

(* binary form of an address in the socket's family *)
Definition bin_of (af : Z) (a : addr) : option (list Z) :=
  if af =? AF_INET then a_v4 a else if af =? AF_INET6 then a_v6 a else None.

(* the destination is a multicast address *)
Definition multicast (d : addr) : Prop :=
  match a_v4 d with
  | Some (first :: _) => 224 <= first <= 239
  | Some [] => False
  | None => match a_v6 d with Some (first :: _) => first = 255 | _ => False end
  end.

(* "arrived from the queried address and port": same binary address in the socket's family and
   same remaining tuple components (port, flow, scope); a multicast destination is answered from
   any address with the same port; no destination accepts everything *)
Definition src_ok (af : Z) (from : addr) (dest : option addr) : Prop :=
  match dest with
  | None => True
  | Some d =>
      (exists n, bin_of af from = Some n /\ bin_of af d = Some n /\ a_rest from = a_rest d)
      \/ (multicast d /\ a_rest from = a_rest d)
  end.

(* the situations in which _matches_destination raises nothing of its own: a known family and a
   destination that is an address *)
Definition src_defined (af : Z) (dest : option addr) : Prop :=
  (af = AF_INET \/ af = AF_INET6) /\
  match dest with
  | None => True
  | Some d => match a_v4 d, a_v6 d with
              | Some (_ :: _), _ => True
              | None, Some (_ :: _) => True
              | _, _ => False
              end
  end.

Lemma inet_pton_bin af a :
  inet_pton af a = if (af =? AF_INET) || (af =? AF_INET6) then Ok (bin_of af a) else Internal niNotImplemented.
Proof. unfold inet_pton, bin_of. destruct (af =? AF_INET), (af =? AF_INET6); reflexivity. Qed.

Lemma addresses_equal_spec af a1 a2 :
  match addresses_equal af a1 a2 with
  | Ok b => (b = true <-> exists n, bin_of af a1 = Some n /\ bin_of af a2 = Some n /\ a_rest a1 = a_rest a2)
  | Lib _ => False
  | Internal _ => ~ (af = AF_INET \/ af = AF_INET6)
  end.
Proof.
  unfold addresses_equal. rewrite !inet_pton_bin.
  destruct (Z.eqb_spec af AF_INET) as [E4|E4], (Z.eqb_spec af AF_INET6) as [E6|E6]; simpl; [| | |tauto];
    (destruct (bin_of af a1) as [n1|]; [destruct (bin_of af a2) as [n2|]|]; simpl;
     [rewrite andb_true_iff, !zlist_eqb_eq; split; [intros [-> H]; eauto|intros (n & H1 & H2 & H3); split; congruence]
     |split; [discriminate|intros (n & _ & H & _); discriminate]
     |split; [discriminate|intros (n & H & _); discriminate]]).
Qed.

(* the destination tuple names an address: is_multicast can tell *)
Definition is_address (d : addr) : Prop :=
  match a_v4 d, a_v6 d with
  | Some (_ :: _), _ => True
  | None, Some (_ :: _) => True
  | _, _ => False
  end.

Lemma is_multicast_spec d :
  match is_multicast d with
  | Ok b => (b = true <-> multicast d) /\ is_address d
  | Lib _ => False
  | Internal _ => ~ is_address d
  end.
Proof.
  unfold is_multicast, multicast, is_address.
  destruct (a_v4 d) as [[|f t]|]; [tauto|rewrite andb_true_iff; intuition lia|].
  destruct (a_v6 d) as [[|f t]|]; [tauto|rewrite Z.eqb_eq; tauto|tauto].
Qed.

(* _matches_destination, outcome by outcome *)
Lemma matches_destination_cases af from dest iu :
  match matches_destination af from dest iu with
  | Ok true => src_ok af from dest
  | Ok false => iu = true /\ ~ src_ok af from dest
  | Lib e => e = neUnexpectedSource /\ iu = false /\ ~ src_ok af from dest
  | Internal _ => ~ src_defined af dest
  end.
Proof.
  unfold matches_destination, src_ok, src_defined. destruct dest as [d|]; [|exact Logic.I].
  pose proof (addresses_equal_spec af from d) as A. pose proof (is_multicast_spec d) as M.
  destruct (addresses_equal af from d) as [[|]| |]; simpl; [apply proj1 in A; auto|..|destruct A|tauto].
  unfold is_address in M. destruct (is_multicast d) as [mc| |]; simpl; [|destruct M|tauto].
  pose proof (zlist_eqb_eq (a_rest from) (a_rest d)) as R.
  destruct mc, (zlist_eqb (a_rest from) (a_rest d)); simpl; [|destruct iu..]; intuition congruence.
Qed.

(* soundness: whatever the flags, a source is only ever accepted when it matches *)
Theorem matches_destination_sound af from dest iu :
  matches_destination af from dest iu = Ok true -> src_ok af from dest.
Proof. intros H. pose proof (matches_destination_cases af from dest iu) as C. rewrite H in C. exact C. Qed.

(* completeness: with a known family and an address as destination the outcome is exactly the
   configured one *)
Theorem matches_destination_spec af from dest iu :
  src_defined af dest ->
  (src_ok af from dest -> matches_destination af from dest iu = Ok true) /\
  (~ src_ok af from dest ->
   matches_destination af from dest iu = if iu then Ok false else Lib neUnexpectedSource).
Proof.
  intros D. pose proof (matches_destination_cases af from dest iu) as C.
  destruct (matches_destination af from dest iu) as [[|]| |]; [tauto|..|tauto];
    [destruct C as (-> & C)|destruct C as (-> & -> & C)]; tauto.
Qed.

(* a message is only ever handed out for a wire string with a complete header, no section
   error, no unread octets (unless told to ignore them) and, when truncation is to be raised,
   no TC bit; Truncated is raised only when asked, for a TC bit behind a complete header *)
Lemma from_wire_out_cases a it rot :
  match from_wire_out a it rot with
  | POk m => p_short a = false /\ p_err a = None /\ m = p_msg a /\
             (p_trailing a = true -> it = true) /\ (rot = true -> has_tc m = false)
  | PTrunc m => rot = true /\ m = p_msg a /\ has_tc m = true /\ p_short a = false
  | PErr _ => True
  end.
Proof.
  unfold from_wire_out. destruct (p_short a); [exact Logic.I|].
  destruct (p_err a) as [e|]; [destruct (is_formerr e)|destruct it, (p_trailing a)];
    destruct (has_tc (p_msg a)) eqn:TC, rot; simpl; repeat split; auto; discriminate.
Qed.

Theorem from_wire_ok_wellformed a it rot m :
  from_wire_out a it rot = POk m ->
  p_short a = false /\ p_err a = None /\ m = p_msg a /\
  (p_trailing a = true -> it = true) /\ (rot = true -> has_tc m = false).
Proof. intros H. pose proof (from_wire_out_cases a it rot) as C. rewrite H in C. exact C. Qed.

(* when truncation is to be raised, a datagram with a header, the TC bit and at most a
   FormError-class defect is reported as truncated, whatever else is wrong with it *)
Theorem from_wire_truncated a it :
  p_short a = false -> has_tc (p_msg a) = true ->
  (forall e, p_err a = Some e -> is_formerr e = true) ->
  from_wire_out a it true = PTrunc (p_msg a).
Proof.
  intros Hs Htc He. unfold from_wire_out. rewrite Hs.
  destruct (p_err a) as [e|].
  - rewrite (He e eq_refl), Htc. reflexivity.
  - destruct (negb it && p_trailing a); rewrite Htc; reflexivity.
Qed.

(* a wait that returns has ended strictly before the deadline; the only exception is Timeout, and
   only with a deadline *)
Lemma wait_for_cases now exp dt :
  match wait_for now exp dt with
  | Ok now' => forall e, exp = Some e -> now' < e
  | Lib e' => e' = neTimeout /\ exp <> None
  | Internal e' => e' = niScriptEnd /\ exp = None
  end.
Proof.
  unfold wait_for. destruct exp as [e|]; [|destruct dt; [discriminate|auto]].
  destruct (e - now <=? 0); [split; [reflexivity|discriminate]|].
  destruct dt as [d|]; [|split; [reflexivity|discriminate]].
  destruct (Z.ltb_spec d (e - now)); [|split; [reflexivity|discriminate]].
  intros e' E. injection E as <-. lia.
Qed.

Theorem wait_for_ok_lt now e dt now' : wait_for now (Some e) dt = Ok now' -> now' < e.
Proof. intros H. pose proof (wait_for_cases now (Some e) dt) as C. rewrite H in C. auto. Qed.

(* a would-block that lasts to the deadline (or a deadline already passed) is Timeout *)
Lemma wait_for_timeout now e dt :
  (e <= now \/ match dt with Some d => e - now <= d | None => True end) ->
  wait_for now (Some e) dt = Lib neTimeout.
Proof.
  intros H. unfold wait_for. destruct (Z.leb_spec (e - now) 0); [reflexivity|].
  destruct dt as [d|]; [|reflexivity]. destruct (Z.ltb_spec d (e - now)); [lia|reflexivity].
Qed.

Theorem wait_for_expired now e dt : e <= now -> wait_for now (Some e) dt = Lib neTimeout.
Proof. intros H. apply wait_for_timeout. auto. Qed.

Theorem wait_for_late now e d : e - now <= d -> wait_for now (Some e) (Some d) = Lib neTimeout.
Proof. intros H. apply wait_for_timeout. auto. Qed.

Section Udp.
  Variable parse : list Z -> pabs.
  Variables (af : Z) (dest : option addr) (expiration : option Z) (o : uopts) (query : option msg).

  Notation recv := (receive_udp parse af dest expiration o query).
  Notation fw w := (from_wire_out (parse w) (o_ignore_trailing o) (o_raise_on_truncation o)).

  (* while ignore_errors, a message that does not answer the query is passed over *)
  Definition unwanted (m : msg) : bool :=
    o_ignore_errors o && match query with Some q => negb (is_response q m) | None => false end.

  (* what the loop does with one datagram: None = pass it over, else the outcome of the call *)
  Definition judge (wire : list Z) (from : addr) : option (res msg) :=
    match matches_destination af from dest (o_ignore_unexpected o) with
    | Lib e => Some (Lib e)
    | Internal e => Some (Internal e)
    | Ok false => None
    | Ok true =>
        match fw wire with
        | PTrunc m => if unwanted m then None else Some (Lib neTruncated)
        | PErr e => if o_ignore_errors o then None else Some (err_res e)
        | POk m => if unwanted m then None else Some (Ok m)
        end
    end.

  (* one socket event: the loop goes on at the clock given, or the call ends *)
  Definition on_event (ev : uev) (now : Z) (r : list uev) : Z + res (msg * list Z * Z * addr * list uev) :=
    match ev with
    | UBlock dt =>
        match wait_for now expiration dt with Ok now' => inl now' | Lib e => inr (Lib e) | Internal e => inr (Internal e) end
    | UData wire from =>
        match judge wire from with
        | None => inl now
        | Some v => inr (do m <- v; Ok (m, wire, now, from, r))
        end
    end.

  Lemma receive_udp_cons ev r now i :
    recv (ev :: r) now i = match on_event ev now r with inl now' => recv r now' (S i) | inr x => (S i, x) end.
  Proof.
    destruct ev as [wire from|dt]; simpl; [unfold judge, unwanted|destruct (wait_for _ _ _); reflexivity].
    destruct (matches_destination _ _ _ _) as [[|]| |]; try reflexivity.
    destruct (fw wire) as [m|m|e]; [destruct (_ && _)..|destruct (o_ignore_errors o)]; try reflexivity.
    unfold err_res. destruct (e <? 20); reflexivity.
  Qed.

  (* where the loop stops: at the end of the script, or at the first event that is not passed over;
     it has not waited beyond the deadline before *)
  Lemma receive_udp_stops : forall evs now i j x,
    recv evs now i = (j, x) ->
    exists pre now', (forall e, expiration = Some e -> now' = now \/ now' < e) /\
      ((evs = pre /\ recv [] now' j = (j, x)) \/
       (exists ev rest, evs = pre ++ ev :: rest /\ j = (i + length pre + 1)%nat /\ on_event ev now' rest = inr x)).
  Proof.
    induction evs as [|ev evs IH]; intros now i j x H.
    - exists [], now. split; [auto|]. left. split; [reflexivity|].
      simpl in *. destruct (wait_for now expiration None); injection H as <- <-; reflexivity.
    - rewrite receive_udp_cons in H. destruct (on_event ev now evs) as [now1|y] eqn:E.
      + destruct (IH _ _ _ _ H) as (pre & now' & Hd & HS). exists (ev :: pre), now'. split.
        * intros e He. destruct ev as [w f|dt]; simpl in E; [destruct (judge w f); [discriminate|]; injection E as <-; auto|].
          pose proof (wait_for_cases now expiration dt) as C.
          destruct (wait_for now expiration dt); [|discriminate..]. injection E as <-.
          specialize (C e He). destruct (Hd e He); lia.
        * destruct HS as [(-> & HS)|(ev' & rest & -> & -> & HS)]; [left; auto|right; exists ev', rest].
          repeat split; auto. simpl. lia.
      + injection H as <- <-. exists [], now. split; [auto|]. right. exists ev, evs. repeat split; auto. simpl. lia.
  Qed.

  (* a datagram is only delivered from an accepted source, when it parses without error and -
     while ignore_errors - answers the query *)
  Lemma judge_ok wire from m :
    judge wire from = Some (Ok m) ->
    matches_destination af from dest (o_ignore_unexpected o) = Ok true /\ fw wire = POk m /\
    (o_ignore_errors o = true -> forall q, query = Some q -> is_response q m = true).
  Proof.
    unfold judge, unwanted. destruct (matches_destination _ _ _ _) as [[|]| |]; try discriminate.
    destruct (fw wire) as [m'|m'|e]; [|destruct (_ && _); discriminate|unfold err_res; destruct (o_ignore_errors o), (e <? 20); discriminate].
    destruct (_ && _) eqn:E; [discriminate|]. intros H. injection H as <-. repeat split.
    intros Hie q Hq. rewrite Hie, Hq in E. apply negb_false_iff in E. exact E.
  Qed.

  Lemma receive_udp_ok : forall evs now i j m wire t from rest,
    recv evs now i = (j, Ok (m, wire, t, from, rest)) ->
    exists pre, evs = pre ++ UData wire from :: rest /\ j = (i + length pre + 1)%nat /\
      matches_destination af from dest (o_ignore_unexpected o) = Ok true /\
      fw wire = POk m /\
      (o_ignore_errors o = true -> forall q, query = Some q -> is_response q m = true).
  Proof.
    intros evs now i j m wire t from rest H.
    destruct (receive_udp_stops _ _ _ _ _ H) as (pre & now' & _ & [(_ & HS)|(ev & r & -> & -> & HS)]);
      [simpl in HS; destruct (wait_for _ _ _); discriminate|].
    destruct ev as [w f|dt]; simpl in HS; [|destruct (wait_for _ _ _); discriminate].
    destruct (judge w f) as [[m'| |]|] eqn:EJ; try discriminate. injection HS as <- <- <- <- <-.
    exists pre. split; [reflexivity|]. split; [reflexivity|]. exact (judge_ok _ _ _ EJ).
  Qed.

  (* a datagram that is to be ignored: from elsewhere while ignore_unexpected, or - while
     ignore_errors - malformed, or not a response to the query (truncated or not) *)
  Definition ignorable (wire : list Z) (from : addr) : Prop :=
    src_defined af dest /\
    ( (~ src_ok af from dest /\ o_ignore_unexpected o = true)
      \/ (src_ok af from dest /\ o_ignore_errors o = true /\
          ( (exists e, fw wire = PErr e)
            \/ (exists q m, query = Some q /\ (fw wire = POk m \/ fw wire = PTrunc m) /\
                            ~ genuine q m) )) ).

  (* a prefix of the script that is passed over: would-blocks that end before the deadline and
     ignorable datagrams; the clock moves from now to now' *)
  Inductive passes : list uev -> Z -> Z -> Prop :=
  | pass_nil now : passes [] now now
  | pass_block dt r now now' now'' :
      wait_for now expiration dt = Ok now' -> passes r now' now'' -> passes (UBlock dt :: r) now now''
  | pass_data wire from r now now' :
      ignorable wire from -> passes r now now' -> passes (UData wire from :: r) now now'.

  Lemma not_genuine_false q m : ~ genuine q m -> is_response q m = false.
  Proof.
    intros H. destruct (is_response q m) eqn:E; auto. apply is_response_iff in E. contradiction.
  Qed.

  Lemma judge_ignorable wire from : ignorable wire from -> judge wire from = None.
  Proof.
    intros [Hd [[Hs Hiu] | (Hs & Hie & Hc)]]; unfold judge, unwanted;
      destruct (matches_destination_spec af from dest (o_ignore_unexpected o) Hd) as [H1 H2].
    - rewrite (H2 Hs), Hiu. reflexivity.
    - rewrite (H1 Hs), Hie. destruct Hc as [[e ->] | (q & m & -> & [-> | ->] & Hg)];
        rewrite ?(not_genuine_false _ _ Hg); reflexivity.
  Qed.

  Theorem passes_skipped : forall pre now now', passes pre now now' ->
    forall evs i, recv (pre ++ evs) now i = recv evs now' (i + length pre)%nat.
  Proof.
    induction 1 as [now | dt r now now' now'' Hw _ IH | wire from r now now' Hi _ IH]; intros evs i;
      simpl app; [|rewrite receive_udp_cons; simpl; rewrite ?Hw, ?(judge_ignorable _ _ Hi), IH..];
      f_equal; simpl; lia.
  Qed.

  Lemma passes_snoc pre now now' wire from :
    passes pre now now' -> ignorable wire from -> passes (pre ++ [UData wire from]) now now'.
  Proof.
    intros Hp Hi. induction Hp; simpl.
    - constructor; [exact Hi | constructor].
    - econstructor; eauto.
    - constructor; auto.
  Qed.

  Lemma recv_after_passes pre now now' ev rest i :
    passes pre now now' ->
    recv (pre ++ ev :: rest) now i =
      match on_event ev now' rest with
      | inl now'' => recv rest now'' (i + length pre + 1)%nat
      | inr x => ((i + length pre + 1)%nat, x)
      end.
  Proof.
    intros Hp. rewrite (passes_skipped _ _ _ Hp), receive_udp_cons, Nat.add_1_r. reflexivity.
  Qed.

  (* the verdict on a datagram from the queried address, by what the parser makes of it *)
  Lemma judge_from_dest wire from :
    src_defined af dest -> src_ok af from dest ->
    judge wire from =
      match fw wire with
      | PTrunc m => if unwanted m then None else Some (Lib neTruncated)
      | PErr e => if o_ignore_errors o then None else Some (err_res e)
      | POk m => if unwanted m then None else Some (Ok m)
      end.
  Proof.
    intros Hd Hs. unfold judge.
    rewrite (proj1 (matches_destination_spec af from dest (o_ignore_unexpected o) Hd) Hs). reflexivity.
  Qed.

  (* ... and from elsewhere *)
  Lemma judge_unexpected wire from :
    src_defined af dest -> ~ src_ok af from dest ->
    judge wire from = if o_ignore_unexpected o then None else Some (Lib neUnexpectedSource).
  Proof.
    intros Hd Hs. unfold judge.
    rewrite (proj2 (matches_destination_spec af from dest (o_ignore_unexpected o) Hd) Hs).
    destruct (o_ignore_unexpected o); reflexivity.
  Qed.

  Lemma wanted_genuine m :
    (o_ignore_errors o = true -> forall q, query = Some q -> genuine q m) -> unwanted m = false.
  Proof.
    intros H. unfold unwanted. destruct (o_ignore_errors o); [|reflexivity]. destruct query as [q|]; [|reflexivity].
    apply negb_false_iff, is_response_iff. auto.
  Qed.

  (* if everything that arrives is passed over, nothing is returned: the call ends in Timeout
     (or, without a deadline, never ends) *)
  Theorem all_passed_times_out pre now now' i :
    passes pre now now' ->
    recv pre now i = ((i + length pre)%nat,
                      match expiration with Some _ => Lib neTimeout | None => Internal niScriptEnd end).
  Proof.
    intros Hp. rewrite <- (app_nil_r pre) at 1. rewrite (passes_skipped _ _ _ Hp). simpl.
    unfold wait_for. destruct expiration as [e|]; [destruct (e - now' <=? 0)|]; reflexivity.
  Qed.

  (* a would-block that outlasts the deadline ends the call with Timeout *)
  Theorem deadline_is_error_recv pre now now' dt rest i e :
    passes pre now now' -> expiration = Some e ->
    (match dt with Some d => e - now' <= d | None => True end) ->
    recv (pre ++ UBlock dt :: rest) now i = ((i + length pre + 1)%nat, Lib neTimeout).
  Proof.
    intros Hp He Hdt. rewrite (recv_after_passes _ _ _ _ _ _ Hp). simpl.
    rewrite He, wait_for_timeout by auto. reflexivity.
  Qed.

  (* why a documented exception came out of receive_udp *)
  Definition raised_as_configured (e : Z) (wire : list Z) (from : addr) : Prop :=
    (e = neUnexpectedSource /\ o_ignore_unexpected o = false /\ ~ src_ok af from dest)
    \/ (src_ok af from dest /\ e = neTruncated /\ o_raise_on_truncation o = true /\
        has_tc (p_msg (parse wire)) = true /\ fw wire = PTrunc (p_msg (parse wire)) /\
        (o_ignore_errors o = true -> forall q, query = Some q -> genuine q (p_msg (parse wire))))
    \/ (src_ok af from dest /\ o_ignore_errors o = false /\ fw wire = PErr e).

  Lemma judge_lib wire from e : judge wire from = Some (Lib e) -> raised_as_configured e wire from.
  Proof.
    unfold judge, unwanted. pose proof (matches_destination_cases af from dest (o_ignore_unexpected o)) as M.
    destruct (matches_destination _ _ _ _) as [[|]| |]; try discriminate.
    - pose proof (from_wire_out_cases (parse wire) (o_ignore_trailing o) (o_raise_on_truncation o)) as C.
      destruct (fw wire) as [m|m|e'] eqn:EF; [destruct (_ && _); discriminate| |].
      + destruct (_ && _) eqn:E; [discriminate|]. intros H. injection H as <-. right. left.
        destruct C as (C1 & -> & C3 & _). do 5 (split; [auto|]).
        intros Hie q0 Hq. rewrite Hie, Hq in E. apply negb_false_iff, is_response_iff in E. exact E.
      + destruct (o_ignore_errors o) eqn:Hie; [discriminate|]. unfold err_res.
        destruct (e' <? 20); [|discriminate]. intros H. injection H as <-. right. right. auto.
    - intros H. injection H as <-. left. tauto.
  Qed.

  Theorem receive_udp_error_sound : forall evs now i j e,
    recv evs now i = (j, Lib e) ->
    (e = neTimeout /\ expiration <> None) \/
    exists pre wire from rest, evs = pre ++ UData wire from :: rest /\ j = (i + length pre + 1)%nat /\
                               raised_as_configured e wire from.
  Proof.
    intros evs now i j e H.
    assert (W : forall now' dt, match wait_for now' expiration dt with
                                | Ok _ => True | Lib e' => e' = e -> e = neTimeout /\ expiration <> None | Internal _ => True end).
    { intros now' dt. pose proof (wait_for_cases now' expiration dt) as C.
      destruct (wait_for now' expiration dt); auto. intros <-. exact C. }
    destruct (receive_udp_stops _ _ _ _ _ H) as (pre & now' & _ & [(_ & HS)|(ev & r & -> & -> & HS)]).
    - left. specialize (W now' None). simpl in HS. destruct (wait_for now' expiration None); try discriminate.
      injection HS as HS. auto.
    - destruct ev as [w f|dt]; simpl in HS.
      + destruct (judge w f) as [[m'|e'|e']|] eqn:EJ; try discriminate. injection HS as <-.
        right. exists pre, w, f, r. repeat split. exact (judge_lib _ _ _ EJ).
      + left. specialize (W now' dt). destruct (wait_for now' expiration dt); try discriminate.
        injection HS as HS. auto.
  Qed.
End Udp.

Section UdpCall.
  Variable parse : list Z -> pabs.

  Notation fwo o w := (from_wire_out (parse w) (o_ignore_trailing o) (o_raise_on_truncation o)).

  (* the check udp() makes on what receive_udp returned, and the elapsed time it reports *)
  Definition final_check (q : msg) (o : uopts) (begin_time : Z) (y : res (msg * list Z * Z * addr * list uev))
    : res (msg * list Z * Z * addr * list uev) :=
    match y with
    | Ok (r, w, received, from, rest) =>
        if negb (o_ignore_errors o || is_response q r) then Lib neBadResponse
        else Ok (r, w, received - begin_time, from, rest)
    | other => other
    end.

  (* udp() = send, receive from the queried address with the query at hand, final check *)
  Lemma udp_unfold q qwire where_ timeout af o sevs evs now :
    where_valid where_ = true ->
    udp parse q qwire where_ timeout af o sevs evs now =
      match udp_send (snd (compute_times now timeout)) (zlen qwire) sevs now with
      | Ok (_, now1) =>
          let (i, y) := receive_udp parse af (Some where_) (snd (compute_times now timeout)) o (Some q) evs now1 0 in
          (i, final_check q o now y)
      | Lib e => (0%nat, Lib e)
      | Internal e => (0%nat, Internal e)
      end.
  Proof.
    intros Hv. unfold udp. rewrite Hv. destruct timeout; simpl;
      (destruct (udp_send _ _ _ _) as [[n now1]| |]; [|reflexivity..]);
      destruct (receive_udp _ _ _ _ _ _ _ _ _) as [i [[[[[r w] t] f] rest]| |]]; simpl;
      try destruct (negb _); reflexivity.
  Qed.

  Lemma udp_valid q qwire where_ timeout af o sevs evs now i x :
    udp parse q qwire where_ timeout af o sevs evs now = (i, x) -> (forall e, x <> Internal e) ->
    where_valid where_ = true.
  Proof.
    unfold udp. destruct (where_valid where_); [reflexivity|]. intros H N. injection H as _ <-. destruct (N _ eq_refl).
  Qed.

  (* an answer from udp() is what receive_udp returned after the send, checked once more *)
  Lemma udp_ok q qwire where_ timeout af o sevs evs now i r wire t from rest :
    udp parse q qwire where_ timeout af o sevs evs now = (i, Ok (r, wire, t, from, rest)) ->
    exists n now1 t0,
      udp_send (snd (compute_times now timeout)) (zlen qwire) sevs now = Ok (n, now1) /\
      receive_udp parse af (Some where_) (snd (compute_times now timeout)) o (Some q) evs now1 0
        = (i, Ok (r, wire, t0, from, rest)) /\
      t = t0 - now /\ o_ignore_errors o || is_response q r = true.
  Proof.
    intros H. rewrite (udp_unfold _ _ _ _ _ _ _ _ _ (udp_valid _ _ _ _ _ _ _ _ _ _ _ H ltac:(discriminate))) in H.
    destruct (udp_send _ _ _ _) as [[n now1]| |] eqn:S; try discriminate.
    destruct (receive_udp _ _ _ _ _ _ _ _ _) as [j [[[[[r0 w0] t0] f0] rest0]| |]] eqn:E; try discriminate.
    simpl in H. destruct (o_ignore_errors o || is_response q r0) eqn:Ec; [|discriminate].
    injection H as <- <- <- <- <- <-. exists n, now1, t0. auto.
  Qed.

  (* soundness: for every script of socket events and every option combination,
     a message returned by udp() is the parse of a datagram that is in the script at the position
     reported, came from the queried address and port, is well formed, and is a response to the
     query (QR, id, opcode, question) *)
  Theorem udp_returns_genuine q qwire where_ timeout af o sevs evs now i r wire t from rest :
    udp parse q qwire where_ timeout af o sevs evs now = (i, Ok (r, wire, t, from, rest)) ->
    genuine q r /\ src_ok af from (Some where_) /\
    fwo o wire = POk r /\
    exists pre, evs = pre ++ UData wire from :: rest /\ i = (length pre + 1)%nat.
  Proof.
    intros H. destruct (udp_ok _ _ _ _ _ _ _ _ _ _ _ _ _ _ _ H) as (n & now1 & t0 & _ & E & _ & Ec).
    apply receive_udp_ok in E. destruct E as (pre & -> & -> & Hm & Hp & Hq).
    split; [|split; [eapply matches_destination_sound; eauto|eauto]].
    apply is_response_iff. apply orb_true_iff in Ec.
    destruct Ec as [Hie|Hr]; [apply (Hq Hie q eq_refl) | exact Hr].
  Qed.

  (* a datagram is forged / unusable when it did not come from the queried address and port, or
     is malformed (or truncated while truncation is to be raised), or does not answer the query *)
  Definition forged (q : msg) (where_ : addr) (af : Z) (o : uopts) (wire : list Z) (from : addr) : Prop :=
    ~ src_ok af from (Some where_) \/
    (forall m, fwo o wire <> POk m) \/
    (exists m, fwo o wire = POk m /\ ~ genuine q m).

  (* no script and no option combination makes udp() return a forged datagram *)
  Theorem forged_never_returned q qwire where_ timeout af o sevs evs now i r wire t from rest :
    udp parse q qwire where_ timeout af o sevs evs now = (i, Ok (r, wire, t, from, rest)) ->
    ~ forged q where_ af o wire from.
  Proof.
    intros H. apply udp_returns_genuine in H. destruct H as (Hg & Hs & Hp & _).
    intros [F | [F | (m & F1 & F2)]].
    - contradiction.
    - apply (F r). auto.
    - rewrite Hp in F1. inversion F1; subst. contradiction.
  Qed.

  (* in particular: if every datagram of the script is forged, udp() returns nothing *)
  Corollary only_forged_never_ok q qwire where_ timeout af o sevs evs now :
    (forall wire from, In (UData wire from) evs -> forged q where_ af o wire from) ->
    forall i x, udp parse q qwire where_ timeout af o sevs evs now <> (i, Ok x).
  Proof.
    intros Hall i [[[[r wire] t] from] rest] H.
    pose proof (forged_never_returned _ _ _ _ _ _ _ _ _ _ _ _ _ _ _ H) as NF.
    apply udp_returns_genuine in H. destruct H as (_ & _ & _ & pre & -> & _).
    apply NF. apply Hall. apply in_or_app. right. left. reflexivity.
  Qed.

  Definition src_defined_where (af : Z) (w : addr) : Prop := src_defined af (Some w).

  Lemma src_defined_valid af w : src_defined af (Some w) -> where_valid w = true.
  Proof.
    intros [_ H]. unfold where_valid. destruct (a_v4 w) as [[|]|]; auto; try contradiction.
    destruct (a_v6 w) as [[|]|]; auto; contradiction.
  Qed.

  (* the datagram behind a passed-over prefix decides the call, by the verdict on it *)
  Lemma udp_after_passes q qwire where_ timeout af o pre wire from rest now now' v :
    passes parse af (Some where_) (snd (compute_times now timeout)) o (Some q) pre now now' ->
    src_defined af (Some where_) ->
    judge parse af (Some where_) o (Some q) wire from = Some v ->
    udp parse q qwire where_ timeout af o [] (pre ++ UData wire from :: rest) now
    = ((length pre + 1)%nat, final_check q o now (do m <- v; Ok (m, wire, now', from, rest))).
  Proof.
    intros Hp Hd Hj. rewrite udp_unfold by (eapply src_defined_valid; eauto). simpl udp_send. cbv iota.
    rewrite (recv_after_passes _ _ _ _ _ _ _ _ _ _ _ _ Hp). simpl. rewrite Hj. reflexivity.
  Qed.

  (* a genuine truncated reply is reported as Truncated when asked *)
  Theorem truncation_reported q qwire where_ timeout af o pre wire from rest now now' :
    let exp := snd (compute_times now timeout) in
    passes parse af (Some where_) exp o (Some q) pre now now' ->
    src_defined af (Some where_) -> src_ok af from (Some where_) ->
    o_raise_on_truncation o = true ->
    p_short (parse wire) = false -> has_tc (p_msg (parse wire)) = true ->
    (forall e, p_err (parse wire) = Some e -> is_formerr e = true) ->
    genuine q (p_msg (parse wire)) ->
    udp parse q qwire where_ timeout af o [] (pre ++ UData wire from :: rest) now
    = ((length pre + 1)%nat, Lib neTruncated).
  Proof.
    intros exp Hp Hd Hs Hrot Hsh Htc He Hg.
    rewrite (udp_after_passes _ _ _ _ _ _ _ _ _ _ _ _ (Lib neTruncated) Hp Hd); [reflexivity|].
    rewrite judge_from_dest, Hrot, (from_wire_truncated _ _ Hsh Htc He), wanted_genuine; auto.
    intros _ q' Hq. injection Hq as <-. exact Hg.
  Qed.

  (* with a timeout, a script in which everything is passed over ends in Timeout *)
  Theorem udp_deadline_is_error q qwire where_ t af o pre now now' :
    passes parse af (Some where_) (Some (now + t)) o (Some q) pre now now' ->
    src_defined af (Some where_) ->
    udp parse q qwire where_ (Some t) af o [] pre now = (length pre, Lib neTimeout).
  Proof.
    intros Hp Hd. rewrite udp_unfold by (eapply src_defined_valid; eauto). simpl.
    rewrite (all_passed_times_out _ _ _ _ _ _ _ _ _ _ Hp). reflexivity.
  Qed.
End UdpCall.

(* raise or skip as configured, in one statement: after any prefix that the configuration says
   to pass over (which udp() indeed passes over), the next datagram is
     - from elsewhere:            UnexpectedSource      unless ignore_unexpected (then passed over)
     - malformed:                 its parse error       unless ignore_errors (then passed over)
     - well formed, no response:  BadResponse           unless ignore_errors (then passed over)
     - a genuine response:        returned                                                     *)
Theorem raise_or_skip_as_configured
        (parse : list Z -> pabs) q qwire where_ timeout af o pre wire from rest now now' :
  let exp := snd (compute_times now timeout) in
  let fw := from_wire_out (parse wire) (o_ignore_trailing o) (o_raise_on_truncation o) in
  let call := udp parse q qwire where_ timeout af o [] (pre ++ UData wire from :: rest) now in
  let pos := (length pre + 1)%nat in
  passes parse af (Some where_) exp o (Some q) pre now now' ->
  src_defined af (Some where_) ->
  (~ src_ok af from (Some where_) -> o_ignore_unexpected o = false ->
     call = (pos, Lib neUnexpectedSource)) /\
  (src_ok af from (Some where_) -> o_ignore_errors o = false -> forall e, fw = PErr e ->
     call = (pos, err_res e)) /\
  (src_ok af from (Some where_) -> o_ignore_errors o = false -> forall m, fw = POk m -> ~ genuine q m ->
     call = (pos, Lib neBadResponse)) /\
  (src_ok af from (Some where_) -> forall m, fw = POk m -> genuine q m ->
     call = (pos, Ok (m, wire, now' - now, from, rest))) /\
  (ignorable parse af (Some where_) o (Some q) wire from ->
     passes parse af (Some where_) exp o (Some q) (pre ++ [UData wire from]) now now').
Proof.
  intros exp fw call pos Hp Hd.
  assert (HU := fun v => udp_after_passes parse q qwire where_ timeout af o pre wire from rest now now' v Hp Hd).
  pose proof (judge_from_dest parse af (Some where_) o (Some q) wire from Hd) as HJ.
  fold fw in HJ. fold call pos in HU. repeat split.
  - intros Hs Hiu. rewrite (HU (Lib neUnexpectedSource)); [reflexivity|].
    rewrite judge_unexpected, Hiu; auto.
  - intros Hs Hie e He. rewrite (HU (err_res e)); [|rewrite (HJ Hs), He, Hie; reflexivity].
    unfold err_res. destruct (e <? 20); reflexivity.
  - intros Hs Hie m Hm Hg. rewrite (HU (Ok m)); [|rewrite (HJ Hs), Hm; unfold unwanted; rewrite Hie; reflexivity].
    simpl. rewrite Hie, (not_genuine_false _ _ Hg). reflexivity.
  - intros Hs m Hm Hg. rewrite (HU (Ok m)).
    + simpl. apply is_response_iff in Hg. rewrite Hg, orb_true_r. reflexivity.
    + rewrite (HJ Hs), Hm, wanted_genuine; [reflexivity|]. intros _ q' Hq. injection Hq as <-. exact Hg.
  - intros Hi. apply passes_snoc; auto.
Qed.

Lemma udp_send_lib exp len : forall sevs now e,
  udp_send exp len sevs now = Lib e -> e = neTimeout /\ exp <> None.
Proof.
  induction sevs as [|[n|dt] sevs IH]; intros now e H; simpl in H; try discriminate.
  pose proof (wait_for_cases now exp dt) as C.
  destruct (wait_for now exp dt); simpl in H; [eauto|injection H as <-; exact C|discriminate].
Qed.

(* every documented exception udp() raises, whatever the send side does, is justified by the
   configuration and by the datagram at the position reported (or is the deadline) *)
Theorem udp_error_sound (parse : list Z -> pabs) q qwire where_ timeout af o sevs evs now i e :
  udp parse q qwire where_ timeout af o sevs evs now = (i, Lib e) ->
  (e = neTimeout /\ timeout <> None) \/
  exists pre wire from rest, evs = pre ++ UData wire from :: rest /\ i = (length pre + 1)%nat /\
    ( raised_as_configured parse af (Some where_) o (Some q) e wire from
      \/ (e = neBadResponse /\ o_ignore_errors o = false /\ src_ok af from (Some where_) /\
          exists m, from_wire_out (parse wire) (o_ignore_trailing o) (o_raise_on_truncation o) = POk m
                    /\ ~ genuine q m) ).
Proof.
  intros H. rewrite (udp_unfold _ _ _ _ _ _ _ _ _ _ (udp_valid _ _ _ _ _ _ _ _ _ _ _ _ H ltac:(discriminate))) in H.
  assert (Hexp : snd (compute_times now timeout) <> None -> timeout <> None) by (destruct timeout; simpl; congruence).
  destruct (udp_send _ _ _ _) as [[n now1]|e'|e'] eqn:Us;
    [|injection H as _ <-; apply udp_send_lib in Us; left; tauto|discriminate].
  destruct (receive_udp _ _ _ _ _ _ _ _ _) as [j [[[[[r0 w0] t0] f0] rest0]|e'|e']] eqn:E; simpl in H.
  - destruct (negb (o_ignore_errors o || is_response q r0)) eqn:Ec; [|discriminate]. injection H as <- <-. right.
    apply receive_udp_ok in E. destruct E as (pre & -> & -> & Hm & Hp & _).
    exists pre, w0, f0, rest0. split; [reflexivity|]. split; [reflexivity|]. right.
    apply negb_true_iff, orb_false_iff in Ec. destruct Ec as [Hie Hr].
    split; [reflexivity|]. split; [exact Hie|]. split; [eapply matches_destination_sound; eauto|].
    exists r0. split; [exact Hp|]. intros G. apply is_response_iff in G. congruence.
  - injection H as <- <-. apply receive_udp_error_sound in E.
    destruct E as [[-> Hx]|(pre & w1 & f1 & r1 & -> & -> & Hc)]; [left; auto|].
    right. exists pre, w1, f1, r1. auto.
  - discriminate.
Qed.

(* udp(q, timeout=T): the elapsed time reported with an answer is 0 (nothing was waited for) or
   strictly less than T *)
Theorem udp_answer_within_timeout (parse : list Z -> pabs) q qwire where_ T af o evs now i r wire t from rest :
  udp parse q qwire where_ (Some T) af o [] evs now = (i, Ok (r, wire, t, from, rest)) ->
  t = 0 \/ t < T.
Proof.
  intros H. destruct (udp_ok _ _ _ _ _ _ _ _ _ _ _ _ _ _ _ _ H) as (n & now1 & t0 & S & E & -> & _).
  injection S as _ <-.
  destruct (receive_udp_stops _ _ _ _ _ _ _ _ _ _ _ E) as (pre & now' & Hd & [(_ & HS)|(ev & r' & _ & _ & HS)]).
  - simpl in HS. destruct (_ <=? 0); discriminate.
  - destruct ev as [w f|dt]; cbn [on_event] in HS; [|destruct (wait_for _ _ _); discriminate].
    destruct (judge _ _ _ _ _ _ _) as [[m| |]|]; try discriminate. injection HS as _ _ <- _ _.
    destruct (Hd _ eq_refl); lia.
Qed.

(* `lookup tab`, the parser of the correspondence runs, hands out a description only when it
   agrees with the datagram on id, flags and question section *)
Lemma lookup_checked : forall t w,
  p_err (lookup t w) = None ->
  header_ok w (lookup t w) = true /\ question_ok w (lookup t w) = true.
Proof.
  induction t as [|[k a] t IH]; intros w H; cbn [lookup] in *.
  - cbn in H. discriminate.
  - destruct (zlist_eqb k w).
    + destruct (header_ok w a && question_ok w a) eqn:E.
      * apply andb_true_iff in E. exact E.
      * cbn in H. discriminate.
    + apply IH. auto.
Qed.

Lemma qents_same_eq : forall a b, qents_same a b = true -> a = b.
Proof.
  induction a as [|x a IH]; destruct b as [|y b]; cbn [qents_same]; try discriminate; auto.
  intros H. apply andb_true_iff in H. destruct H as [H Hr].
  apply andb_true_iff in H. destruct H as [H Ht].
  apply andb_true_iff in H. destruct H as [Hn Hc].
  apply Z.eqb_eq in Ht, Hc. apply IH in Hr. subst b.
  assert (En : q_name x = q_name y).
  { clear - Hn. revert Hn. generalize (q_name x) (q_name y).
    induction n as [|l1 m IHm]; destruct n as [|l2 n']; try discriminate; auto.
    intros H. apply andb_true_iff in H. destruct H as [H1 H2].
    apply zlist_eqb_eq in H1. subst. f_equal. apply IHm. exact H2. }
  destruct x, y. cbn in *. subst. reflexivity.
Qed.

(* a message accepted from `lookup tab` is at least a full header, its id and flags are the first
   two 16-bit fields of the datagram, and its question section is the one on the wire (decoded per
   RFC 1035, compression included) *)
Lemma lookup_ok_on_the_wire tab wire it rot m :
  from_wire_out (lookup tab wire) it rot = POk m ->
  wire_question_section wire = Some (m_question m) /\
  exists b0 b1 b2 b3 tl, wire = b0 :: b1 :: b2 :: b3 :: tl /\
    b0 * 256 + b1 = m_id m /\ b2 * 256 + b3 = m_flags m /\ (12 <= length wire)%nat.
Proof.
  intros Hp. apply from_wire_ok_wellformed in Hp. destruct Hp as (Hsh & He & -> & _).
  destruct (lookup_checked tab wire He) as [Hh Hq].
  unfold question_ok in Hq. unfold header_ok in Hh. rewrite ?He, Hsh in *. split.
  - destruct (wire_question_section wire) as [qs|]; [|discriminate].
    apply qents_same_eq in Hq. subst. reflexivity.
  - apply andb_true_iff in Hh. destruct Hh as [Hl Hh]. apply negb_true_iff, Nat.ltb_ge in Hl.
    destruct wire as [|b0 [|b1 [|b2 [|b3 tl]]]]; cbn [wire_header] in Hh; try discriminate.
    apply andb_true_iff in Hh. destruct Hh as [Hid Hfl]. apply Z.eqb_eq in Hid, Hfl.
    exists b0, b1, b2, b3, tl. auto.
Qed.

Lemma genuine_on_the_wire tab q wire it rot m :
  from_wire_out (lookup tab wire) it rot = POk m -> genuine q m ->
  exists b0 b1 b2 b3 tl, wire = b0 :: b1 :: b2 :: b3 :: tl /\
    b0 * 256 + b1 = m_id q /\ Z.land (b2 * 256 + b3) fQR <> 0 /\ (12 <= length wire)%nat.
Proof.
  intros Hp (Hqr & Hi & _).
  destruct (lookup_ok_on_the_wire _ _ _ _ _ Hp) as (_ & b0 & b1 & b2 & b3 & tl & -> & Hid & Hfl & Hl).
  exists b0, b1, b2, b3, tl. unfold qr_set in Hqr. rewrite Hid, Hfl, Hi. auto.
Qed.

(* ... and the question section on the wire is the question section acceptance was decided on *)
Theorem udp_answer_question_on_the_wire tab q qwire where_ timeout af o sevs evs now i r wire t from rest :
  udp (lookup tab) q qwire where_ timeout af o sevs evs now = (i, Ok (r, wire, t, from, rest)) ->
  wire_question_section wire = Some (m_question r) /\ genuine q r.
Proof.
  intros H. apply udp_returns_genuine in H. destruct H as (Hg & _ & Hp & _).
  split; [apply (lookup_ok_on_the_wire _ _ _ _ _ Hp)|exact Hg].
Qed.

(* for every table of datagram descriptions the harness may supply: what udp() returns starts,
   on the wire, with the id of the query and has the QR bit set in its third octet, and is at
   least a full header *)
Theorem udp_answer_on_the_wire tab q qwire where_ timeout af o sevs evs now i r wire t from rest :
  udp (lookup tab) q qwire where_ timeout af o sevs evs now = (i, Ok (r, wire, t, from, rest)) ->
  exists b0 b1 b2 b3 tl, wire = b0 :: b1 :: b2 :: b3 :: tl /\
    b0 * 256 + b1 = m_id q /\ Z.land (b2 * 256 + b3) fQR <> 0 /\ (12 <= length wire)%nat.
Proof.
  intros H. apply udp_returns_genuine in H. destruct H as (Hg & _ & Hp & _).
  exact (genuine_on_the_wire _ _ _ _ _ _ Hp Hg).
Qed.
