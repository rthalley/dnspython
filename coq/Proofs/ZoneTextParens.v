(* C09: layouts of one logical line - blanks, parentheses with embedded newlines, comments -
   lex to the same tokens; hence parenthesised multi-line and single-line records load alike. *)
From DV Require Import Base.Prelude Model.NameM Model.ZoneTextM Proofs.ZoneTextBase Proofs.ZoneTextLex.
Open Scope Z_scope.

Inductive mpiece :=
| MSp (n : nat)              (* n blanks *)
| MTab                       (* a tab *)
| MNl                        (* a newline inside parentheses *)
| MOpen | MClose             (* ( and ) *)
| MTk (t : tok)
| MComNl (text : list Z)     (* "; text" and the newline that ends it, inside parentheses *)
| MComEnd (text : list Z).   (* a trailing "; text" (ended by the newline of the line) *)

Fixpoint mrender (ps : list mpiece) : list Z :=
  match ps with
  | [] => []
  | MSp n :: r => repeat 32 n ++ mrender r
  | MTab :: r => 9 :: mrender r
  | MNl :: r => 10 :: mrender r
  | MOpen :: r => 40 :: mrender r
  | MClose :: r => 41 :: mrender r
  | MTk t :: r => render_tok t ++ mrender r
  | MComNl text :: r => 59 :: text ++ 10 :: mrender r
  | MComEnd text :: r => 59 :: text ++ mrender r
  end.

Fixpoint mtoks (ps : list mpiece) : list tok :=
  match ps with
  | [] => []
  | MTk t :: r => t :: mtoks r
  | _ :: r => mtoks r
  end.

Definition no_nl (text : list Z) : bool := forallb (fun c => negb (c =? 10)) text.

(* what may directly follow an identifier: anything that starts with a delimiter *)
Definition delim_next (r : list mpiece) : bool :=
  match r with
  | [] => true
  | MSp (S _) :: _ | MTab :: _ | MNl :: _ | MOpen :: _ | MClose :: _ | MComNl _ :: _ | MComEnd _ :: _ => true
  | MTk (TQ _) :: _ => true
  | _ => false
  end.

(* depth = current parenthesis depth *)
Fixpoint mvalid (depth : nat) (ps : list mpiece) : bool :=
  match ps with
  | [] => match depth with O => true | _ => false end
  | MSp _ :: r | MTab :: r => mvalid depth r
  | MNl :: r => match depth with O => false | _ => mvalid depth r end
  | MOpen :: r => mvalid (S depth) r
  | MClose :: r => match depth with O => false | S d => mvalid d r end
  | MTk (TId v) :: r => id_clean v && delim_next r && mvalid depth r
  | MTk (TQ v) :: r => q_clean v && mvalid depth r
  | MComNl text :: r => no_nl text && match depth with O => false | _ => mvalid depth r end
  | MComEnd text :: r => no_nl text && match r, depth with [], O => true | _, _ => false end
  end.

Lemma lex_comment : forall text rest ml acc,
  no_nl text = true ->
  lex (text ++ 10 :: rest) ml MCom acc = lex (10 :: rest) ml MCom acc.
Proof.
  induction text as [|c text IH]; intros rest ml acc H; [reflexivity|].
  cbn [no_nl forallb] in H. apply andb_true_iff in H as [Hc H]. apply negb_true_iff in Hc.
  cbn [app lex]. rewrite Hc. apply IH. exact H.
Qed.

Lemma delim_next_head r rest : delim_next r = true ->
  exists d r', mrender r ++ 10 :: rest = d :: r' /\ is_delim d = true.
Proof.
  destruct r as [|p r]; cbn [delim_next]; intros H.
  - exists 10, rest. split; reflexivity.
  - destruct p as [[|k]| | | | |[v|v]|text|text]; try discriminate; cbn [mrender repeat app render_tok dquote];
      eexists _, _; split; reflexivity.
Qed.

Lemma lex_mrender : forall ps depth acc rest,
  mvalid depth ps = true ->
  lex (mrender ps ++ 10 :: rest) depth MSkip acc = (rev acc ++ mtoks ps, TEol, rest).
Proof.
  induction ps as [|p ps IH]; intros depth acc rest Hv.
  - cbn [mvalid] in Hv. destruct depth; [|discriminate].
    cbn [mrender app lex mtoks]. cbn [Z.eqb orb]. rewrite app_nil_r. reflexivity.
  - destruct p as [n| | | | |t|text|text]; cbn [mrender mtoks mvalid] in *.
    + rewrite <- app_assoc, lex_spaces. apply IH. exact Hv.
    + cbn [app lex]. cbn [Z.eqb orb]. apply IH. exact Hv.
    + destruct depth as [|d]; [discriminate|]. cbn [app lex]. cbn [Z.eqb orb]. apply IH. exact Hv.
    + cbn [app lex]. cbn [Z.eqb orb]. apply IH. exact Hv.
    + destruct depth as [|d]; [discriminate|]. cbn [app lex]. cbn [Z.eqb orb]. apply IH. exact Hv.
    + destruct t as [v|v].
      * apply andb_true_iff in Hv as [Hv Hr]. apply andb_true_iff in Hv as [Hc Hn].
        cbn [render_tok]. rewrite <- app_assoc.
        destruct (delim_next_head ps rest Hn) as (d & r' & Hd & Hdd).
        rewrite Hd, (lex_id v acc depth d r' Hc Hdd), <- Hd.
        rewrite (IH depth (TId v :: acc) rest Hr). cbn [rev]. rewrite <- app_assoc. reflexivity.
      * apply andb_true_iff in Hv as [Hc Hr].
        cbn [render_tok]. rewrite <- app_assoc, (lex_q v acc depth _ Hc).
        rewrite (IH depth (TQ v :: acc) rest Hr). cbn [rev]. rewrite <- app_assoc. reflexivity.
    + apply andb_true_iff in Hv as [Hn Hr]. destruct depth as [|d]; [discriminate|].
      change (lex ((59 :: text ++ 10 :: mrender ps) ++ 10 :: rest) (S d) MSkip acc)
        with (lex ((text ++ 10 :: mrender ps) ++ 10 :: rest) (S d) MCom acc).
      rewrite <- app_assoc. cbn [app].
      rewrite (lex_comment text _ (S d) acc Hn).
      change (lex (10 :: mrender ps ++ 10 :: rest) (S d) MCom acc) with (lex (mrender ps ++ 10 :: rest) (S d) MSkip acc).
      apply IH. exact Hr.
    + apply andb_true_iff in Hv as [Hn Hr]. destruct ps; [|discriminate]. destruct depth; [|discriminate].
      cbn [mrender mtoks]. rewrite !app_nil_r.
      change (lex ((59 :: text) ++ 10 :: rest) 0 MSkip acc) with (lex (text ++ 10 :: rest) 0 MCom acc).
      rewrite (lex_comment text rest 0 acc Hn). reflexivity.
Qed.

(* a line of blank-separated pieces is such a layout *)
Definition mp (p : piece) : mpiece := match p with Sp n => MSp n | Tk t => MTk t end.

Lemma mrender_pieces ps : mrender (map mp ps) = render ps.
Proof. induction ps as [|[n|t] ps IH]; cbn [map mp mrender render]; congruence. Qed.

Lemma mtoks_pieces ps : mtoks (map mp ps) = toks_of ps.
Proof. induction ps as [|[n|t] ps IH]; cbn [map mp mtoks toks_of]; congruence. Qed.

Lemma mvalid_pieces ps : sep_ok ps = true -> mvalid 0 (map mp ps) = true.
Proof.
  induction ps as [|[n|t] ps IH]; cbn [map mp mvalid sep_ok]; auto. intros Hs.
  apply andb_true_iff in Hs as [Hs Hr]. apply andb_true_iff in Hs as [Hc Hn].
  rewrite (IH Hr). destruct t as [v|v]; cbn [tok_clean] in Hc; rewrite Hc; [|reflexivity].
  destruct ps as [|[[|k]|t'] ps']; try discriminate; reflexivity.
Qed.

Lemma lex_render ps acc rest :
  sep_ok ps = true ->
  lex (render ps ++ 10 :: rest) 0 MSkip acc = (rev acc ++ toks_of ps, TEol, rest).
Proof.
  intros Hs. rewrite <- mrender_pieces, <- mtoks_pieces. apply lex_mrender, mvalid_pieces, Hs.
Qed.

(* Two layouts of the same tokens are read alike: the reader sees a line only through its
   leading-blank flag and its tokens. *)
Theorem respell_layout_proof c s ps ps' rest f :
  mvalid 0 ps = true -> mvalid 0 ps' = true ->
  mtoks ps = mtoks ps' ->
  starts_ws (mrender ps ++ [10]) = starts_ws (mrender ps' ++ [10]) ->
  read_loop (S f) c s (mrender ps ++ 10 :: rest) = read_loop (S f) c s (mrender ps' ++ 10 :: rest).
Proof.
  intros Hv Hv' Ht Hl. cbn [read_loop].
  rewrite (lex_mrender ps 0 [] rest Hv), (lex_mrender ps' 0 [] rest Hv'). cbn [rev app].
  rewrite (starts_ws_any _ rest []), (starts_ws_any (mrender ps') rest []), Hl, Ht. reflexivity.
Qed.

(* the single-line layout of a token list: tokens separated by one blank *)
Fixpoint single_line (ts : list tok) : list mpiece :=
  match ts with
  | [] => []
  | [t] => [MTk t]
  | t :: r => MTk t :: MSp 1 :: single_line r
  end.

Lemma single_line_pieces ts : single_line ts = map mp (interleave ts).
Proof.
  induction ts as [|t [|t' ts'] IH]; try reflexivity. cbn [single_line interleave map mp] in *. congruence.
Qed.

Lemma mtoks_single ts : mtoks (single_line ts) = ts.
Proof. rewrite single_line_pieces, mtoks_pieces. apply toks_interleave. Qed.

Lemma mvalid_single ts : forallb tok_clean ts = true -> mvalid 0 (single_line ts) = true.
Proof. intros H. rewrite single_line_pieces. apply mvalid_pieces, sep_interleave, H. Qed.

Lemma mvalid_clean : forall ps depth, mvalid depth ps = true -> forallb tok_clean (mtoks ps) = true.
Proof.
  induction ps as [|p ps IH]; intros depth Hv; [reflexivity|].
  destruct p as [n| | | | |[v|v]|text|text]; cbn [mvalid mtoks forallb tok_clean] in *.
  1, 2, 4: eapply IH; exact Hv.
  1, 2: destruct depth; [discriminate|eapply IH; exact Hv].
  - apply andb_true_iff in Hv as [Hv Hr]. apply andb_true_iff in Hv as [-> _]. eapply IH; exact Hr.
  - apply andb_true_iff in Hv as [-> Hr]. eapply IH; exact Hr.
  - apply andb_true_iff in Hv as [_ Hr]. destruct depth; [discriminate|eapply IH; exact Hr].
  - apply andb_true_iff in Hv as [_ Hr]. destruct ps; [reflexivity|discriminate].
Qed.

(* parenthesised multi-line versus single-line: any valid layout (parentheses, embedded newlines,
   comments, extra blanks) reads like the single-line form of its tokens if it starts like it *)
Lemma respell_single_line c s ps rest f :
  mvalid 0 ps = true ->
  starts_ws (mrender ps ++ [10]) = starts_ws (mrender (single_line (mtoks ps)) ++ [10]) ->
  read_loop (S f) c s (mrender ps ++ 10 :: rest) =
  read_loop (S f) c s (mrender (single_line (mtoks ps)) ++ 10 :: rest).
Proof.
  intros Hv Hl. apply respell_layout_proof; auto.
  - apply mvalid_single, (mvalid_clean ps 0 Hv).
  - symmetry. apply mtoks_single.
Qed.

Theorem respell_parens_proof c s ts ps rest f :
  forallb tok_clean ts = true ->
  mvalid 0 ps = true -> mtoks ps = ts ->
  starts_ws (mrender ps ++ [10]) = starts_ws (mrender (single_line ts) ++ [10]) ->
  read_loop (S f) c s (mrender ps ++ 10 :: rest) =
  read_loop (S f) c s (mrender (single_line ts) ++ 10 :: rest).
Proof. intros _ Hv <-. apply respell_single_line. exact Hv. Qed.
