(* Token.unescape / Token.unescape_to_bytes with the digit test the code really uses
   (str.isdecimal(), int(c)): for EVERY classifier dval - whatever characters it accepts as decimal
   digits and whatever values it gives them - the decoders return a value, SyntaxError or
   UnexpectedEnd (unescape_to_bytes: or UnicodeEncodeError on a lone surrogate); the conversion
   int(c) can never fail because it is only applied where dval is defined.  With the ASCII classifier
   they are the decoders of the shared TokM.v.  (The loops are followed in UntrustedText.v.) *)
From DV Require Import Base.Prelude Model.NameM Model.ParserM Model.UntrustedM.
From DV Require Model.TokM Proofs.UntrustedText.
Open Scope Z_scope.

(* Token.unescape's value loop: every classifier, every string *)
Theorem unescape_g_family dval v :
  match ue_loop_g dval v [] with
  | Ok _ => True
  | Lib e => e = TokM.eUnexpectedEnd \/ e = TokM.eSyntax
  | Internal _ => False
  end.
Proof. apply UntrustedText.ue_loop_g_family. Qed.

Theorem unescape_to_bytes_g_family dval v :
  match ub_loop_g dval v [] with
  | Ok _ => True
  | Lib e => e = TokM.eUnexpectedEnd \/ e = TokM.eSyntax
  | Internal e => e = TokM.iUnicodeEncode /\ ~ Forall UntrustedText.no_surrogate v
  end.
Proof. apply UntrustedText.ub_loop_g_family. Qed.

Theorem unescape_ascii_agrees v :
  ue_loop_g dval_ascii v [] = TokM.ue_loop v [] /\ ub_loop_g dval_ascii v [] = TokM.ub_loop v [].
Proof. split; [apply UntrustedText.ue_ascii_agrees|apply UntrustedText.ub_ascii_agrees]. Qed.
