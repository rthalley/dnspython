(* C09: a $GENERATE statement loads exactly like the record lines of its expansion. *)
From DV Require Import Base.Prelude Model.NameM Model.ZoneTextM Proofs.ListFacts.
From DV Require Import Proofs.NameValid Proofs.NameText Proofs.NameTok.
From DV Require Import Proofs.ZoneTextBase Proofs.ZoneTextInv Proofs.ZoneTextRespell Proofs.ZoneTextRead.
Open Scope Z_scope.

Lemma ends_with_root_app (l co : name) : ends_with_root co = true -> ends_with_root (l ++ co) = true.
Proof.
  unfold ends_with_root. rewrite rev_app_distr.
  destruct (rev co) as [|x r]; [discriminate|]. destruct x; [|discriminate]. reflexivity.
Qed.

Lemma from_text_absolute v co n :
  is_absolute co = true -> NameM.from_text v (Some co) = Ok n -> is_absolute n = true.
Proof.
  intros Hco. rewrite <- ends_with_root_abs in Hco.
  assert (Hfin : forall labels : name, finish labels (Some co) = Ok n -> is_absolute n = true).
  { intros labels H. unfold finish in H. apply mk_name_ok in H as [-> _]. rewrite <- ends_with_root_abs.
    destruct (ends_with_root labels) eqn:E; cbn [negb]; [exact E|apply ends_with_root_app; exact Hco]. }
  destruct (list_eq_dec Z.eq_dec v [64]) as [->|H64].
  { intros H. apply (Hfin []). exact H. }
  destruct (list_eq_dec Z.eq_dec v [46]) as [->|H46].
  { intros H. cbn in H. apply mk_name_ok in H as [-> _]. reflexivity. }
  destruct (list_eq_dec Z.eq_dec v []) as [->|Hne].
  { intros H. apply (Hfin []). exact H. }
  rewrite from_text_generic by assumption.
  destruct (ft_loop v [] [] false 0%nat 0) as [[[labels lab] esc]|e|e]; try discriminate.
  destruct esc; [discriminate|]. apply Hfin.
Qed.

Lemma as_name_owner_absolute v co nm :
  is_absolute co = true ->
  lift_name true (NameM.from_text v (Some co)) = Ok nm ->
  as_name true v (Some co) false None = Ok nm.
Proof.
  intros Hco H. unfold as_name. rewrite H. cbn [bind].
  assert (Hn : is_absolute nm = true).
  { destruct (NameM.from_text v (Some co)) as [n0| |] eqn:E; cbn in H.
    - inversion H; subst. eapply from_text_absolute; eauto.
    - unfold name_err in H. destruct (_ =? _); [discriminate|]. destruct (_ || _); discriminate.
    - discriminate. }
  rewrite (choose_derel_abs nm (Some co) Hn). reflexivity.
Qed.

Definition ttl_given (s : rstate) (ttlo : option (list Z)) (ttl : Z) : Prop :=
  match ttlo with
  | Some tv => ttl_from_text tv = Ok ttl
  | None => (dttl_known s = true /\ dttl s = ttl) \/
            (dttl_known s = false /\ lttl_known s = true /\ lttl s = ttl)
  end.

Definition gmodt := (list Z * bool * Z * Z * Z)%type.

Definition gen_text (side : list Z) (m : gmodt) (i : Z) : list Z :=
  let '(md, neg, off, width, base) := m in
  replace_all (36 :: md) (format_index (i + (if neg then - off else off)) base width) side.

(* the i-th line of the expansion: owner, the statement's TTL / class / type fields, and the
   tokens of the substituted right-hand side *)
Definition gen_exp_line (lhs rhs : list Z) (lm rm : gmodt) (ttlo clso : option (list Z)) (tyt : list Z) (i : Z)
  : list tok * bool :=
  let '(toks, term, _) := lex (gen_text rhs rm i) 0 MSkip [] in
  (TId (gen_text lhs lm i) :: opt_tok ttlo ++ opt_tok clso ++ TId tyt :: toks,
   match term with TErr => true | _ => false end).

Fixpoint exp_fold (count : nat) (i step : Z) (c : cfg) (s : rstate) (lhs rhs : list Z) (lm rm : gmodt)
         (ttlo clso : option (list Z)) (tyt : list Z) : res rstate :=
  match count with
  | O => Ok s
  | S k =>
      let '(toks, lerr) := gen_exp_line lhs rhs lm rm ttlo clso tyt i in
      do s' <- rr_line c s false toks lerr;
      exp_fold k (i + step) step c s' lhs rhs lm rm ttlo clso tyt
  end.

Lemma set_lttl_set_last_comm s t n : set_last (set_lttl s t) n = set_lttl (set_last s n) t.
Proof. reflexivity. Qed.

Lemma bind_lib {A B} (r : res A) (f : A -> res B) e : r = Lib e -> bind r f = Lib e.
Proof. intros ->. reflexivity. Qed.
Lemma bind_int {A B} (r : res A) (f : A -> res B) e : r = Internal e -> bind r f = Internal e.
Proof. intros ->. reflexivity. Qed.

(* the loop of _generate_line (rg) and the line-by-line reading of the expansion (rf) end alike:
   same state, or the same exception - unless an out-of-zone name stopped the statement *)
Definition same_outcome (rg : res (rstate * bool)) (rf : res rstate) : Prop :=
  match rg with
  | Ok (g', false) => rf = Ok g'
  | Ok (_, true) => True
  | Lib e => rf = Lib e
  | Internal e => rf = Internal e
  end.

Section Gen.
  Variables (c : cfg) (co zo : name) (lhs rhs : list Z).
  Variables (ttlo clso : option (list Z)) (tyt : list Z) (ttl ty step : Z).
  Hypothesis Hco : is_absolute co = true.
  Hypothesis Hcls : forall cv, clso = Some cv -> class_from_text cv = Some (c_class c).
  Hypothesis Hty : type_text_ok tyt ty.
  Hypothesis Hsoa : ty <> tSOA.

  (* _generate_line sets last_ttl once, before its loop; the line-by-line reader f sets it at
     its first line.  So the loop runs from after_ttlo f, and the two states coincide from the
     first iteration on. *)
  Lemma gen_loop_outcome (lm rm : gmodt) : forall count i f,
    corigin f = Some co -> zorigin f = Some zo -> ttl_given f ttlo ttl ->
    after_ttlo f ttlo ttl = f \/ count <> O ->
    same_outcome (gen_loop count i step c (after_ttlo f ttlo ttl) co zo lhs rhs lm rm ttl ty)
                 (exp_fold count i step c f lhs rhs lm rm ttlo clso tyt).
  Proof.
    destruct lm as [[[[lmod lneg] loff] lwidth] lbase], rm as [[[[rmod rneg] roff] rwidth] rbase].
    induction count as [|k IH]; intros i f Hcf Hzf Httl Hsame; cbn [gen_loop exp_fold].
    - destruct Hsame as [->|[]]; reflexivity.
    - cbv beta iota. unfold gen_exp_line, gen_text.
      set (nametext := replace_all (36 :: lmod) _ lhs). set (rdtext := replace_all (36 :: rmod) _ rhs).
      destruct (lex rdtext 0 MSkip []) as [[toks term] rest0].
      set (lerr := match term with TErr => true | _ => false end).
      destruct (lift_name true (NameM.from_text nametext (Some co))) as [nm|e|e] eqn:Enm; cbn [bind same_outcome].
      2, 3: unfold rr_line, as_name; rewrite Hcf, Enm; reflexivity.
      destruct (is_subdomain nm zo) eqn:Esub; cbn [negb]; [|exact Logic.I].
      pose proof (rr_line_spelled c f co zo nm (Some nametext) ttlo ttl clso tyt ty toks lerr Hcf Hzf
                    (as_name_owner_absolute _ _ _ Hco Enm) Esub Httl Hcls Hty) as HL.
      cbn [opt_tok app] in HL. rewrite HL. clear HL.
      destruct (if c_rel c then _ else _) as [n|e|e]; cbn [bind]; try reflexivity.
      destruct (parse_rdata ty toks lerr co (c_rel c) zo) as [rd|e|e]; cbn [bind]; try reflexivity.
      replace (zn (set_last (after_ttlo f ttlo ttl) nm)) with (zn f) by (destruct ttlo; reflexivity).
      destruct (txn_add zo (c_rel c) (zn f) n ttl ty rd) as [z'|e|e]; cbn [bind]; try reflexivity.
      rewrite (after_soa_other _ _ _ Hsoa).
      set (f1 := set_zn (after_ttlo (set_last f nm) ttlo ttl) z').
      replace (set_zn (set_last (after_ttlo f ttlo ttl) nm) z') with (after_ttlo f1 ttlo ttl)
        by (destruct ttlo; reflexivity).
      apply IH; [| | |left]; destruct ttlo; assumption || reflexivity.
  Qed.
End Gen.

Lemma grange_bounds t a b st : grange_from_text t = Ok (a, b, st) -> 0 <= a <= b /\ 1 <= st.
Proof.
  unfold grange_from_text. rewrite minus_match. destruct (match t with c :: _ => c =? 45 | [] => false end);
    [discriminate|]. intros H'.
  apply bind_ok in H' as ([[[start stop] cur] st0] & _ & H').
  apply bind_ok in H' as ([stop' step] & _ & H').
  destruct (step >=? 1) eqn:E1; [|discriminate]. destruct (start >=? 0) eqn:E2; [|discriminate].
  destruct (start >? stop') eqn:E3; [discriminate|]. inversion H'; subst.
  rewrite Z.geb_leb in E1, E2. apply Z.leb_le in E1, E2. rewrite Z.gtb_ltb in E3. apply Z.ltb_ge in E3. lia.
Qed.

Section Statement.
  Variables (c : cfg) (s : rstate) (co zo : name) (t0 : tok) (lhs rhs : list Z).
  Variables (ttlo clso : option (list Z)) (tyt : list Z) (start stop step ttl ty : Z) (lm rm : gmodt).
  Hypothesis Hco : corigin s = Some co.
  Hypothesis Hzo : zorigin s = Some zo.
  Hypothesis Hgr : grange_from_text (tokval t0) = Ok (start, stop, step).
  Hypothesis Httl : ttl_given s ttlo ttl.
  Hypothesis Hcls : forall cv, clso = Some cv -> class_from_text cv = Some (c_class c).
  Hypothesis Hty : type_text_ok tyt ty.
  Hypothesis Hlm : parse_modify lhs = Ok lm.
  Hypothesis Hrm : parse_modify rhs = Ok rm.
  Let count := Z.to_nat ((stop - start) / step + 1).

  (* the statement up to its loop *)
  Lemma generate_line_spelled lerr :
    generate_line c s (t0 :: TId lhs :: opt_tok ttlo ++ opt_tok clso ++ [TId tyt; TId rhs]) lerr =
    (do (s2, eaten) <- gen_loop count start step c (after_ttlo s ttlo ttl) co zo lhs rhs lm rm ttl ty;
     if eaten then (if lerr then Lib eSyntax else Ok (s2, None)) else Ok (s2, Some [])).
  Proof.
    destruct Hty as (Hty1 & Htc & Htt).
    assert (Hc : forall cv, clso = Some cv ->
              ttl_from_text cv = Lib eBadTTL /\ class_from_text cv = Some (c_class c))
      by (intros cv E; split; [eapply class_not_ttl|]; eauto).
    unfold generate_line, ttl_given, after_ttlo in *. rewrite Hco, Hgr. cbn [get_ident bind].
    (* as in rr_fields_spelled, the four spellings evaluate alike *)
    destruct ttlo as [tv|]; destruct clso as [cv|]; try destruct (Hc cv eq_refl) as [Hc1 Hc2];
      cbn [opt_tok app get_ident bind];
      rewrite ?Httl, ?Hc1, ?Htt;
      try (destruct Httl as [[Hk <-]|(Hk & Hl & <-)]; rewrite Hk, ?Hl); cbn [get_ident bind];
      rewrite ?Hc2, ?Htc; cbn [get_ident bind]; rewrite Z.eqb_refl, Hty1; cbn [negb get_ident bind];
      rewrite Hlm, Hrm; cbn [bind]; st_simpl; rewrite Hzo; reflexivity.
  Qed.

  Hypothesis Hab : is_absolute co = true.
  Hypothesis Hsoa : ty <> tSOA.

  Lemma generate_line_outcome :
    match generate_line c s (t0 :: TId lhs :: opt_tok ttlo ++ opt_tok clso ++ [TId tyt; TId rhs]) false,
          exp_fold count start step c s lhs rhs lm rm ttlo clso tyt with
    | Ok (s', Some []), expn => expn = Ok s'
    | Ok _, _ => True
    | Lib e, expn => expn = Lib e
    | Internal e, expn => expn = Internal e
    end.
  Proof.
    destruct (grange_bounds _ _ _ _ Hgr) as [Hr1 Hr2].
    assert (Hcount : count <> O).
    { assert (0 <= (stop - start) / step) by (apply Z.div_pos; lia). unfold count. lia. }
    rewrite generate_line_spelled.
    pose proof (gen_loop_outcome c co zo lhs rhs ttlo clso tyt ttl ty step Hab Hcls Hty Hsoa lm rm
                  count start s Hco Hzo Httl (or_intror Hcount)) as HO.
    destruct (gen_loop count start step c _ co zo lhs rhs lm rm ttl ty) as [[s2 [|]]|e|e];
      cbn [bind same_outcome] in *; auto.
  Qed.
End Statement.

(* A $GENERATE statement that loads (without meeting an out-of-zone name, and not of type SOA)
   leaves exactly the state that reading the lines of its expansion one by one leaves. *)
Theorem respell_generate_proof c s co zo t0 lhs ttlo clso tyt rhs start stop step ttl ty lm rm s' :
  corigin s = Some co -> zorigin s = Some zo -> is_absolute co = true ->
  grange_from_text (tokval t0) = Ok (start, stop, step) ->
  ttl_given s ttlo ttl ->
  (forall cv, clso = Some cv -> class_from_text cv = Some (c_class c)) ->
  type_from_text tyt = Some ty -> class_from_text tyt = None -> ttl_from_text tyt = Lib eBadTTL ->
  ty <> tSOA ->
  parse_modify lhs = Ok lm -> parse_modify rhs = Ok rm ->
  generate_line c s (t0 :: TId lhs :: opt_tok ttlo ++ opt_tok clso ++ [TId tyt; TId rhs]) false = Ok (s', Some []) ->
  exp_fold (Z.to_nat ((stop - start) / step + 1)) start step c s lhs rhs lm rm ttlo clso tyt = Ok s'.
Proof.
  intros Hco Hzo Hab Hgr Httl Hcls Hty Htc Htt Hsoa Hlm Hrm H.
  pose proof (generate_line_outcome c s co zo t0 lhs rhs ttlo clso tyt start stop step ttl ty lm rm
                Hco Hzo Hgr Httl Hcls (conj Hty (conj Htc Htt)) Hlm Hrm Hab Hsoa) as HO.
  rewrite H in HO. exact HO.
Qed.

(* statement level, the error cases: a $GENERATE that is rejected is rejected with the exception
   its expansion raises *)
Theorem respell_generate_errors_proof c s co zo t0 lhs ttlo clso tyt rhs start stop step ttl ty lm rm :
  corigin s = Some co -> zorigin s = Some zo -> is_absolute co = true ->
  grange_from_text (tokval t0) = Ok (start, stop, step) ->
  ttl_given s ttlo ttl ->
  (forall cv, clso = Some cv -> class_from_text cv = Some (c_class c)) ->
  type_from_text tyt = Some ty -> class_from_text tyt = None -> ttl_from_text tyt = Lib eBadTTL ->
  ty <> tSOA ->
  parse_modify lhs = Ok lm -> parse_modify rhs = Ok rm ->
  let stmt := generate_line c s (t0 :: TId lhs :: opt_tok ttlo ++ opt_tok clso ++ [TId tyt; TId rhs]) false in
  let expn := exp_fold (Z.to_nat ((stop - start) / step + 1)) start step c s lhs rhs lm rm ttlo clso tyt in
  (forall e, stmt = Lib e -> expn = Lib e) /\ (forall e, stmt = Internal e -> expn = Internal e).
Proof.
  intros Hco Hzo Hab Hgr Httl Hcls Hty Htc Htt Hsoa Hlm Hrm stmt expn.
  pose proof (generate_line_outcome c s co zo t0 lhs rhs ttlo clso tyt start stop step ttl ty lm rm
                Hco Hzo Hgr Httl Hcls (conj Hty (conj Htc Htt)) Hlm Hrm Hab Hsoa) as HO.
  fold stmt expn in HO. split; intros e E; rewrite E in HO; exact HO.
Qed.
