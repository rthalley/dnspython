(* C20: dns.zone._validate_name returns names at or beneath the apex, with the zone's relativity,
   so that histories of Name objects are acceptable; bounds_eq_spec_hist, get_delegation_eq_spec_main
   and the all-callers form incremental_eq_spec_names, for the zone a history ends in. *)
From DV Require Import Base.Prelude Model.NameM Model.BTZoneM
     Proofs.BTZoneOrder Proofs.BTZoneList Proofs.BTZoneSpec Proofs.BTZoneInv Proofs.BTZoneMain
     Proofs.BTZoneBounds2 Proofs.BTZoneBounds3.
Open Scope Z_scope.

(* what the Name constructor guarantees: only the last label may be empty *)
Definition wf_labels (n : name) : Prop := forall l, In l (removelast n) -> l <> [].

Lemma is_absolute_false_nonempty : forall m : name, (forall l, In l m -> l <> []) -> is_absolute m = false.
Proof.
  induction m as [|x m IH]; intros H; auto. cbn. destruct m as [|y m].
  - destruct x; auto. exfalso. apply (H []); [left|]; auto.
  - apply IH. intros l Hl. apply H. right; auto.
Qed.

Lemma firstn_in_removelast : forall (n : name) k l, (k < length n)%nat -> In l (firstn k n) -> In l (removelast n).
Proof.
  induction n as [|x n IH]; intros k l Hk Hin; [cbn in Hk; lia|].
  destruct k as [|k]; [destruct Hin|]. cbn [firstn] in Hin. destruct n as [|y n].
  - cbn in Hk. lia.
  - cbn [removelast]. destruct Hin as [<-|Hin]; [left; auto|]. right. apply (IH k); auto. cbn in *. lia.
Qed.

Lemma below_empty : forall n, below (K n) (K empty) <-> is_absolute n = false.
Proof.
  intros n. rewrite below_split. unfold empty. cbn. split; [tauto|]. intros H. split; auto. exists (lkey n). reflexivity.
Qed.

Theorem validate_valid : forall c n,
    is_absolute (c_origin c) = true -> wf_labels n -> name_ok c n.
Proof.
  intros c n Ho Hwf n' H. unfold validate_name in H. unfold validk, apexkey, apexname.
  pose proof (is_absolute_nonempty _ Ho) as Hlen.
  destruct (is_absolute n) eqn:Ea.
  - destruct (is_subdomain n (c_origin c)) eqn:Es; cbn [negb] in H; [|discriminate].
    destruct (c_rel c).
    + unfold relativize in H. rewrite Es in H. apply NameValid.mk_name_ok in H as [-> _].
      apply below_empty. unfold drop_last. apply is_absolute_false_nonempty.
      intros l Hl. apply Hwf. eapply firstn_in_removelast; eauto.
      apply is_subdomain_below, below_split in Es as [_ Hp]. apply prefix_length in Hp.
      rewrite !length_lkey in Hp. pose proof (is_absolute_nonempty _ Ea). lia.
    + injection H as <-. apply is_subdomain_below; auto.
  - unfold derelativize in H. rewrite Ea in H. cbn [negb] in H. unfold concatenate in H. rewrite Ea in H.
    cbn [andb] in H. destruct (mk_name (n ++ c_origin c)) as [y|e|e] eqn:Em.
    + apply NameValid.mk_name_ok in Em as [-> _]. destruct (c_rel c); cbn [negb] in H; injection H as <-.
      * apply below_empty; auto.
      * apply below_split. split.
        -- apply NameValid.is_absolute_app_ne. intros E. rewrite E in Hlen. cbn in Hlen. lia.
        -- unfold lkey. rewrite map_app, rev_app_distr. eexists. reflexivity.
    + destruct (e =? eNameTooLong); discriminate.
    + discriminate.
Qed.

Theorem bounds_eq_spec_hist : forall c h q0 q,
    history_ok c h -> is_absolute (c_origin c) = true ->
    In (apexkey c) (keys (z_nodes (exec c h))) ->
    validate_name c q0 = Ok q -> validk c (ekey q) ->
    exists b, bounds_v c (exec c h) q0 = Ok b /\ bounds_spec c (z_nodes (exec c h)) q b.
Proof. intros c h q0 q Hh. apply bounds_eq_spec_main. apply exec_inv. exact Hh. Qed.

(* histories whose operation names are Name objects are acceptable histories *)
Theorem wf_history_ok : forall c h,
    is_absolute (c_origin c) = true ->
    Forall (fun t => Forall (fun o => wf_labels (top_name o)) (t_ops t)) h -> history_ok c h.
Proof.
  intros c h Ho H. unfold history_ok, txn_ok. eapply Forall_impl; [|exact H].
  intros t Ht. eapply Forall_impl; [|exact Ht]. intros o Hw. apply validate_valid; auto.
Qed.

(* Delegations.get_delegation / is_glue on a zone that satisfies the invariant *)
Theorem ZInv_get_delegation : forall c z q,
    ZInv c z ->
    match get_delegation (z_delegs z) q with
    | (Some cut, sub) =>
        In (ekey cut) (map ekey (delegations_of c (z_nodes z))) /\ is_subdomain q cut = true /\
        sub = strictly_beneath q cut
    | (None, sub) =>
        sub = false /\ forall d0, In d0 (delegations_of c (z_nodes z)) -> is_subdomain q d0 = false
    end /\
    deleg_is_glue (z_delegs z) q = glue_name c (z_nodes z) q.
Proof.
  intros c z q HI. unfold ZInv in HI.
  split; [|rewrite glue_name_occluded; apply (inv_is_glue c _ HI)].
  pose proof (inv_gd c _ HI q) as Hg. cbn [v_nodes v_delegs] in Hg.
  destruct (get_delegation (z_delegs z) q) as [[cut|] sub].
  - destruct Hg as (Hkd & Hb & Hs). split; [apply (inv_deleg_keys c _ HI), Hkd|]. split; [apply is_subdomain_below, Hb|exact Hs].
  - destruct Hg as [Hs Hn]. split; [exact Hs|]. intros d0 Hd0. apply is_subdomain_false_below, Hn.
    apply (inv_deleg_keys c _ HI), in_map, Hd0.
Qed.

Theorem get_delegation_eq_spec_main : forall c h q,
    history_ok c h ->
    let z := exec c h in
    match get_delegation (z_delegs z) q with
    | (Some cut, sub) =>
        In (ekey cut) (map ekey (delegations_of c (z_nodes z))) /\ is_subdomain q cut = true /\
        sub = strictly_beneath q cut
    | (None, sub) =>
        sub = false /\ forall d0, In d0 (delegations_of c (z_nodes z)) -> is_subdomain q d0 = false
    end /\
    deleg_is_glue (z_delegs z) q = glue_name c (z_nodes z) q.
Proof. intros c h q Hh. exact (ZInv_get_delegation c _ q (exec_inv c h Hh)). Qed.

Definition names_wf (h : list txn) : Prop :=
  Forall (fun t => Forall (fun o => wf_labels (top_name o)) (t_ops t)) h.

Theorem incremental_eq_spec_names : forall c h,
    is_absolute (c_origin c) = true -> names_wf h ->
    let z := exec c h in
    (forall n nd, In (n, nd) (z_nodes z) -> nflags nd = flags_of c (z_nodes z) (n, nd)) /\
    map ekey (map fst (z_delegs z)) = map ekey (delegations_of c (z_nodes z)) /\
    increasing (map fst (z_nodes z)).
Proof.
  intros c h Ho Hw z. pose proof (wf_history_ok c h Ho Hw) as Hh.
  destruct (incremental_eq_spec_main c h Hh) as [A B]. split; [exact A|]. split; [exact B|].
  apply iteration_canonical_main; auto.
Qed.
