(* dns/_immutable_ctx.py guard and dns.immutable.constify (Model/SetM.v sections 4 and 5). *)
From DV Require Import Base.Prelude Model.SetM.
Open Scope Z_scope.

Section ActInd.
  Variable P : act -> Prop.
  Hypothesis HSet : forall o k v, P (ASet o k v).
  Hypothesis HDel : forall o k, P (ADel o k).
  Hypothesis HInit : forall o body, Forall P body -> P (AInit o body).
  Hypothesis HRaise : P ARaise.

  Fixpoint act_ind' (a : act) : P a :=
    match a with
    | ASet o k v => HSet o k v
    | ADel o k => HDel o k
    | AInit o body =>
        HInit o body
          ((fix go (l : list act) : Forall P l :=
              match l with
              | [] => Forall_nil P
              | x :: r => Forall_cons x (act_ind' x) (go r)
              end) body)
    | ARaise => HRaise
    end.
End ActInd.

Section PvalInd.
  Variable P : pval -> Prop.
  Hypothesis HInt : forall z, P (VInt z).
  Hypothesis HBytes : forall b, P (VBytes b).
  Hypothesis HBA : forall b, P (VByteArray b).
  Hypothesis HStr : forall b, P (VStr b).
  Hypothesis HNone : P VNone.
  Hypothesis HTuple : forall l, Forall P l -> P (VTuple l).
  Hypothesis HList : forall l, Forall P l -> P (VList l).
  Hypothesis HDict : forall kv, Forall (fun p => P (fst p) /\ P (snd p)) kv -> P (VDict kv).
  Hypothesis HFrozen : forall kv, Forall (fun p => P (fst p) /\ P (snd p)) kv -> P (VFrozen kv).
  Hypothesis HObj : forall z, P (VObj z).

  Fixpoint pval_ind' (v : pval) : P v :=
    let go := fix go (l : list pval) : Forall P l :=
                match l with
                | [] => Forall_nil P
                | x :: r => Forall_cons x (pval_ind' x) (go r)
                end in
    let gokv := fix gokv (l : list (pval * pval)) : Forall (fun p => P (fst p) /\ P (snd p)) l :=
                  match l with
                  | [] => Forall_nil _
                  | (k, x) :: r => Forall_cons (k, x) (conj (pval_ind' k) (pval_ind' x)) (gokv r)
                  end in
    match v with
    | VInt z => HInt z
    | VBytes b => HBytes b
    | VByteArray b => HBA b
    | VStr b => HStr b
    | VNone => HNone
    | VTuple l => HTuple l (go l)
    | VList l => HList l (go l)
    | VDict kv => HDict kv (gokv kv)
    | VFrozen kv => HFrozen kv (gokv kv)
    | VObj z => HObj z
    end.
End PvalInd.

Lemma gact_init g o body :
  gact g (AInit o body) =
  let '(g1, exc) := gbody (mkG (Some o) (gstore g) (glog g)) body in
  (mkG (gctx g) (gstore g1) (glog g1), exc).
Proof.
  cbn [gact].
  assert (H : forall l g0,
    (fix go (g : gst) (l : list act) {struct l} : gst * bool :=
       match l with
       | [] => (g, false)
       | a :: r => let '(g', exc) := gact g a in if exc then (g', true) else go g' r
       end) g0 l = gbody g0 l).
  { induction l as [|a r IH]; intros g0; cbn; [reflexivity|].
    destruct (gact g0 a) as [g' exc]. destruct exc; [reflexivity|apply IH]. }
  rewrite H. reflexivity.
Qed.

(* whatever an action does - including raising - the context variable is back to what it was *)
Theorem gact_ctx a : forall g, gctx (fst (gact g a)) = gctx g.
Proof.
  induction a as [o k v|o k|o body IH|] using act_ind'; intros g.
  - cbn. destruct (ctx_is (gctx g) o); reflexivity.
  - cbn. destruct (ctx_is (gctx g) o); [destruct (st_has (gstore g) o k)|]; reflexivity.
  - rewrite gact_init. destruct (gbody _ body). reflexivity.
  - reflexivity.
Qed.

Theorem grun_ctx l : forall g, gctx (grun g l) = gctx g.
Proof.
  induction l as [|a r IH]; intros g; cbn; [reflexivity|].
  pose proof (gact_ctx a g) as H. destruct (gact g a) as [g' exc]. cbn in H.
  rewrite IH. destruct exc; cbn; exact H.
Qed.

(* setattr / delattr succeed exactly when the running __init__ is the object's own *)
Theorem setattr_guard g o k v :
  gact g (ASet o k v) =
  if ctx_is (gctx g) o then (mkG (gctx g) (st_set (gstore g) o k v) (glog g ++ [N]), false)
  else (mkG (gctx g) (gstore g) (glog g ++ [E eTypeError]), false).
Proof. reflexivity. Qed.

Theorem delattr_guard_refuses g o k :
  ctx_is (gctx g) o = false ->
  gact g (ADel o k) = (mkG (gctx g) (gstore g) (glog g ++ [E eTypeError]), false).
Proof. intros H. cbn. rewrite H. reflexivity. Qed.

(* after any script whatsoever run from the default context, every attribute assignment and
   deletion on every object raises TypeError and changes nothing *)
Theorem setattr_after_init_raises_all l o k v :
  let g := grun (mkG None [] []) l in
  gact g (ASet o k v) = (mkG None (gstore g) (glog g ++ [E eTypeError]), false) /\
  gact g (ADel o k) = (mkG None (gstore g) (glog g ++ [E eTypeError]), false).
Proof.
  cbv zeta. pose proof (grun_ctx l (mkG None [] [])) as H. cbn in H.
  split; cbn; rewrite H; reflexivity.
Qed.

(* inside an __init__ only the object being initialised can be assigned to: a nested
   construction sets the context to the inner object and restores it afterwards *)
Theorem setattr_inside_other_init g o o' k v :
  gctx g = Some o' -> o' <> o ->
  gact g (ASet o k v) = (mkG (gctx g) (gstore g) (glog g ++ [E eTypeError]), false).
Proof.
  intros H Hn. cbn. rewrite H. cbn. destruct (Nat.eqb_spec o' o); [contradiction|reflexivity].
Qed.

(* deeply immutable values *)
Fixpoint imm (v : pval) : bool :=
  match v with
  | VInt _ | VBytes _ | VStr _ | VNone => true
  | VByteArray _ | VList _ | VDict _ | VObj _ => false
  | VTuple l => forallb imm l
  | VFrozen kv => forallb (fun p => imm (fst p) && imm (snd p)) kv
  end.

(* inputs as they occur: dict keys are hashable values of the grammar without mutable content,
   and an immutable.Dict has been built from immutable content (by constify itself) *)
Fixpoint pre (v : pval) : bool :=
  match v with
  | VTuple l | VList l => forallb pre l
  | VDict kv => forallb (fun p => imm (fst p) && pre (snd p)) kv
  | VFrozen kv => forallb (fun p => imm (fst p) && imm (snd p)) kv
  | VObj _ => false      (* constify says nothing about objects it does not know *)
  | _ => true
  end.

Lemma imm_hashable v : imm v = true -> hashable v = true.
Proof.
  induction v as [| | | | |l IH|l IH|kv IH|kv IH|] using pval_ind'; cbn; try congruence.
  intros H. rewrite forallb_forall in *. intros x Hx.
  rewrite Forall_forall in IH. apply IH; auto.
Qed.

Lemma pre_hashable_imm v : pre v = true -> hashable v = true -> imm v = true.
Proof.
  induction v as [| | | | |l IH|l IH|kv IH|kv IH|] using pval_ind'; cbn; try congruence.
  intros Hp Hh. rewrite forallb_forall in *. intros x Hx.
  rewrite Forall_forall in IH. apply IH; auto.
Qed.

Lemma forallb_map {A B} (f : B -> bool) (g : A -> B) l : forallb f (map g l) = forallb (fun x => f (g x)) l.
Proof. induction l; cbn; congruence. Qed.

Theorem constify_imm v : pre v = true -> imm (constify v) = true.
Proof.
  induction v as [| | | | |l IH|l IH|kv IH|kv IH|] using pval_ind'; cbn [constify pre imm]; try congruence.
  - (* tuple *)
    intros Hp. destruct (forallb hashable l) eqn:Eh; cbn [imm].
    + rewrite forallb_forall in *. intros x Hx. apply pre_hashable_imm; auto.
    + rewrite forallb_map. rewrite forallb_forall in *. rewrite Forall_forall in IH. auto.
  - (* list *)
    intros Hp. rewrite forallb_map. rewrite forallb_forall in *. rewrite Forall_forall in IH. auto.
  - (* dict *)
    intros Hp. rewrite forallb_map. rewrite forallb_forall in *. rewrite Forall_forall in IH.
    intros p Hin. cbn [fst snd]. specialize (Hp p Hin). apply andb_true_iff in Hp as [H1 H2].
    rewrite H1. cbn. apply (IH p Hin), H2.
Qed.

Lemma map_id_in {A} (f : A -> A) l : (forall x, In x l -> f x = x) -> map f l = l.
Proof. induction l as [|a l IH]; cbn; intros H; [reflexivity|]. rewrite H, IH; auto. Qed.

(* immutable values are returned as they are *)
Theorem constify_id v : imm v = true -> constify v = v.
Proof.
  induction v as [| | | | |l IH|l IH|kv IH|kv IH|] using pval_ind'; cbn [constify imm]; try congruence.
  intros H. assert (Hh : forallb hashable l = true).
  { rewrite forallb_forall in *. intros x Hx. apply imm_hashable; auto. }
  rewrite Hh. reflexivity.
Qed.

Corollary constify_idempotent v : pre v = true -> constify (constify v) = constify v.
Proof. intros H. apply constify_id, constify_imm, H. Qed.

Theorem as_bytes_imm enc ml eok v r : as_bytes enc ml eok v = Ok r -> exists b, r = VBytes b.
Proof.
  unfold as_bytes.
  destruct (match v with VStr b => if enc then Some b else None | VByteArray b => Some b
                       | VBytes b => Some b | _ => None end) as [b|]; [|discriminate].
  destruct (match ml with Some m => zlen b >? m | None => false end); [discriminate|].
  destruct (negb eok && (zlen b =? 0)); [discriminate|].
  intros E; inversion E. eauto.
Qed.

Lemma as_bytes_imm' enc ml eok v r : as_bytes enc ml eok v = Ok r -> imm r = true.
Proof. intros E. destruct (as_bytes_imm _ _ _ _ _ E) as [b ->]. reflexivity. Qed.

Lemma map_res_forall {A B} (f : A -> res B) (P : B -> Prop) l rs :
  (forall x y, f x = Ok y -> P y) -> map_res f l = Ok rs -> Forall P rs.
Proof.
  intros Hf. revert rs. induction l as [|x l IH]; cbn; intros rs E.
  - inversion E. constructor.
  - destruct (f x) as [y| |] eqn:Ex; try discriminate.
    destruct (map_res f l) as [ys| |]; try discriminate.
    inversion E; subst. constructor; [eapply Hf, Ex|apply IH; reflexivity].
Qed.

(* whatever the caller passes (bytearray, list of bytearrays, ...), the field built by
   _as_tuple(value, _as_bytes) is a tuple of bytes: deeply immutable *)
Theorem as_tuple_bytes_imm enc ml eok v r :
  as_tuple (as_bytes enc ml eok) v = Ok r -> imm r = true.
Proof.
  unfold as_tuple.
  destruct (as_bytes enc ml eok v) as [r0| |] eqn:E0;
    [intros [= <-]; cbn; rewrite (as_bytes_imm' _ _ _ _ _ E0); reflexivity|..];
    (* the value itself is refused: its elements are converted one by one *)
    (destruct (elements v) as [l|]; [|discriminate];
     destruct (map_res (as_bytes enc ml eok) l) as [rs| |] eqn:Em; try discriminate;
     intros [= <-]; apply forallb_forall, Forall_forall;
     exact (map_res_forall _ _ l rs (as_bytes_imm' enc ml eok) Em)).
Qed.

(* constify passes objects it does not know through unchanged: a tuple of mutable objects
   (the options of an OPT record are dns.edns.Option objects) stays a tuple of mutable objects *)
Theorem constify_opaque_refuted :
  exists v, hashable v = true /\ imm (constify v) = false.
Proof. exists (VTuple [VObj 0]). split; reflexivity. Qed.
