(* C13 - finite-map lemmas for zones and the effect of Transaction.add / delete_exact with
   single-record RRsets, entry by entry. *)
From DV Require Import Base.Prelude Model.XfrM Proofs.ListFacts Proofs.XfrSets Proofs.XfrSpec.

Lemma key_eqb_eq : forall a b, key_eqb a b = true <-> a = b.
Proof.
  intros [[a1 a2] a3] [[b1 b2] b3]. unfold key_eqb.
  rewrite !andb_true_iff, !Z.eqb_eq. split.
  - intros [[-> ->] ->]. reflexivity.
  - intros H. inversion H. auto.
Qed.

Lemma key_eqb_spec : forall a b, reflect (a = b) (key_eqb a b).
Proof. intros a b. apply iff_reflect. symmetry. apply key_eqb_eq. Qed.

Lemma key_eqb_refl : forall a, key_eqb a a = true.
Proof. intros a. apply key_eqb_eq. reflexivity. Qed.

Lemma key_eqb_neq : forall a b, key_eqb a b = false <-> a <> b.
Proof.
  intros a b. rewrite <- key_eqb_eq. symmetry. apply not_true_iff_false.
Qed.

Lemma key_eqb_sym : forall a b, key_eqb a b = key_eqb b a.
Proof.
  intros a b. destruct (key_eqb_spec a b) as [->|N].
  - symmetry. apply key_eqb_refl.
  - destruct (key_eqb_spec b a); [congruence|reflexivity].
Qed.

Lemma look_zremove : forall z k k', look (zremove k z) k' = if key_eqb k' k then None else look z k'.
Proof.
  induction z as [|[k0 e0] r IH]; intros k k'; cbn [zremove look].
  - destruct (key_eqb k' k); reflexivity.
  - destruct (key_eqb k k0) eqn:H0.
    + apply key_eqb_eq in H0. subst k0. rewrite IH.
      destruct (key_eqb k' k); reflexivity.
    + cbn [look]. rewrite IH. destruct (key_eqb k' k0) eqn:H1; [|reflexivity].
      apply key_eqb_eq in H1. subst k0. rewrite (key_eqb_sym k' k), H0. reflexivity.
Qed.

Lemma look_zput : forall z k e k', look (zput k e z) k' = if key_eqb k' k then Some e else look z k'.
Proof.
  intros z k e k'. unfold zput. cbn [look]. destruct (key_eqb k' k) eqn:H; [reflexivity|].
  rewrite look_zremove, H. reflexivity.
Qed.

Definition zset (k : key) (oe : option entry) (z : zone) : zone :=
  match oe with Some e => zput k e z | None => zremove k z end.

Lemma look_zset : forall z k oe k', look (zset k oe z) k' = if key_eqb k' k then oe else look z k'.
Proof. intros z k [e|] k'; cbn [zset]; [apply look_zput|apply look_zremove]. Qed.

Lemma look_not_in : forall z k, ~ In k (map fst z) -> look z k = None.
Proof.
  induction z as [|[k0 e0] r IH]; intros k H; cbn [look]; [reflexivity|].
  destruct (key_eqb_spec k k0) as [->|_].
  - exfalso. apply H. left; reflexivity.
  - apply IH. intros Hin. apply H. right; exact Hin.
Qed.

Lemma look_in : forall z k e, NoDup (map fst z) -> In (k, e) z -> look z k = Some e.
Proof.
  induction z as [|[k0 e0] r IH]; intros k e Hnd Hin; [destruct Hin|].
  cbn [look]. inversion Hnd; subst. destruct Hin as [Hin|Hin].
  - inversion Hin; subst. rewrite key_eqb_refl. reflexivity.
  - destruct (key_eqb_spec k k0) as [->|_].
    + exfalso. apply H1. apply (in_map fst) in Hin. exact Hin.
    + apply IH; assumption.
Qed.

Lemma rest_wf_look : forall z k e, look z k = Some e -> In (k, e) z.
Proof.
  intros z k e. induction z as [|[k0 e0] r IH]; cbn [look]; [discriminate|].
  destruct (key_eqb_spec k k0) as [->|_].
  - intros H; inversion H; subst. left; reflexivity.
  - intros H. right. apply IH, H.
Qed.

Lemma zeq_refl : forall z, zeq z z. Proof. intros z k; reflexivity. Qed.
Lemma zeq_sym : forall a b, zeq a b -> zeq b a. Proof. intros a b H k; symmetry; apply H. Qed.
Lemma zeq_trans : forall a b c, zeq a b -> zeq b c -> zeq a c.
Proof. intros a b c H1 H2 k; rewrite H1; apply H2. Qed.

Lemma zput_zeq : forall k e a b, zeq a b -> zeq (zput k e a) (zput k e b).
Proof. intros k e a b H k'. rewrite !look_zput, H. reflexivity. Qed.

(* Transaction.add / delete_exact of one record, seen at the entry of its key *)
Definition add1 (e : option entry) (ttl d : Z) : entry :=
  match e with
  | None => (ttl, [d])
  | Some (t, ds) => ((if ttl <? t then ttl else t), ins d ds)
  end.

Definition norm (t : Z) (ds : list Z) : option entry :=
  match ds with [] => None | _ => Some (t, ds) end.

(* None = DeleteNotExact *)
Definition del1 (e : option entry) (d : Z) : option (option entry) :=
  match e with
  | None => None
  | Some (t, ds) => if mem d ds then Some (norm t (diff ds [d])) else None
  end.

Lemma norm_ne : forall t l, l <> [] -> norm t l = Some (t, l).
Proof. intros t [|x l] H; [congruence|reflexivity]. Qed.

(* on entries written norm t l, deleting needs no case for the RRset that becomes empty *)
Lemma del1_norm : forall t l d,
  del1 (norm t l) d = if mem d l then Some (norm t (diff l [d])) else None.
Proof. intros t [|x l] d; reflexivity. Qed.

Lemma clamp_ok : forall t, ttl_ok t -> clamp_ttl t = t.
Proof. intros t [H1 H2]. unfold clamp_ttl. destruct (t >? 2147483647) eqn:E; [|reflexivity]. apply Z.gtb_lt in E. lia. Qed.

Definition plain (r : rr) : Prop :=
  r_class r = cIN /\ r_type r <> tSOA /\ 0 <= r_name r /\ ttl_ok (r_ttl r) /\ is_singleton (r_type r) = false /\
  kind_of (r_type r) (r_covers r) <> 2.

(* dns/node.py keeps CNAME-kind and REGULAR rdatasets apart: storing one kind drops the other *)
(* storing an rdataset under k drops nothing *)
Definition addable (z : zone) (k : key) : Prop := forall k', look z k' <> None -> conflicts k k' = false.
(* no node of z holds both CNAME-kind and REGULAR rdatasets *)
Definition consistent (z : zone) : Prop :=
  forall k k', look z k <> None -> look z k' <> None -> conflicts k k' = false.
(* z has no CNAME-kind rdataset at all *)
Definition quiet (z : zone) : Prop := forall k, look z k <> None -> key_kind k <> 2.

Lemma in_look_some : forall z k e, In (k, e) z -> look z k <> None.
Proof.
  induction z as [|[k0 e0] r IH]; intros k e Hin; [destruct Hin|]. cbn [look].
  destruct (key_eqb k k0) eqn:E; [discriminate|]. destruct Hin as [H|H]; [|eapply IH; exact H].
  inversion H; subst. rewrite key_eqb_refl in E. discriminate.
Qed.

Lemma node_clean_id : forall z k, addable z k -> node_clean k z = z.
Proof.
  intros z k H. unfold node_clean. apply filter_all. intros [k' e] Hin. cbn [fst].
  rewrite (H k' (in_look_some _ _ _ Hin)). reflexivity.
Qed.

Lemma node_put_id : forall z k e, addable z k -> node_put k e z = zput k e z.
Proof. intros z k e H. unfold node_put. rewrite (node_clean_id _ _ H). reflexivity. Qed.

Lemma conflicts_kind : forall k k', key_kind k <> 2 -> key_kind k' <> 2 -> conflicts k k' = false.
Proof.
  intros k k' H1 H2. unfold conflicts. apply Z.eqb_neq in H1, H2. rewrite H1, H2.
  rewrite andb_false_r. cbn. apply andb_false_r.
Qed.

Lemma conflicts_sym : forall k k', conflicts k k' = conflicts k' k.
Proof.
  intros k k'. unfold conflicts. rewrite (Z.eqb_sym (name_of_key k)). f_equal.
  rewrite orb_comm. f_equal; apply andb_comm.
Qed.

Lemma conflicts_refl : forall k, conflicts k k = false.
Proof.
  intros k. unfold conflicts. destruct (key_kind k =? 2) eqn:E2; destruct (key_kind k =? 0) eqn:E0;
    rewrite ?andb_false_r; try reflexivity.
  apply Z.eqb_eq in E2, E0. congruence.
Qed.

Lemma quiet_addable : forall z k, quiet z -> key_kind k <> 2 -> addable z k.
Proof. intros z k Hq Hk k' Hl. apply conflicts_kind; [exact Hk|apply Hq, Hl]. Qed.

Lemma quiet_consistent : forall z, quiet z -> consistent z.
Proof. intros z Hq k k' H1 H2. apply conflicts_kind; apply Hq; assumption. Qed.

Lemma consistent_addable : forall z k, consistent z -> look z k <> None -> addable z k.
Proof. intros z k Hc Hk k' Hk'. apply Hc; assumption. Qed.

Lemma quiet_nil : quiet [].
Proof. intros k H. exfalso. apply H. reflexivity. Qed.

Lemma quiet_zeq : forall a b, zeq a b -> quiet b -> quiet a.
Proof. intros a b H Hq k Hl. apply Hq. rewrite <- H. exact Hl. Qed.

Lemma quiet_zput : forall z k e, quiet z -> key_kind k <> 2 -> quiet (zput k e z).
Proof.
  intros z k e Hq Hk k' Hl. rewrite look_zput in Hl. destruct (key_eqb_spec k' k) as [E|_].
  - subst k'. exact Hk.
  - apply Hq, Hl.
Qed.

Lemma quiet_zremove : forall z k, quiet z -> quiet (zremove k z).
Proof.
  intros z k Hq k' Hl. rewrite look_zremove in Hl. destruct (key_eqb k' k); [exfalso; apply Hl; reflexivity|].
  apply Hq, Hl.
Qed.

Lemma quiet_zset : forall z k oe, quiet z -> look z k <> None -> quiet (zset k oe z).
Proof.
  intros z k [e|] Hq Hk; cbn [zset]; [|apply quiet_zremove, Hq].
  apply quiet_zput; [exact Hq|apply Hq, Hk].
Qed.

Lemma rkey_kind : forall r, key_kind (rkey r) = kind_of (r_type r) (r_covers r).
Proof. reflexivity. Qed.

Lemma soakey_kind : key_kind soakey = 0.
Proof. reflexivity. Qed.

(* a record of any type: storing it must drop nothing, and a singleton type must not be there yet
   (Rdataset.add would replace its rdata) *)
Lemma t_add_single_g : forall z r, r_class r = cIN -> r_type r <> tSOA -> ttl_ok (r_ttl r) ->
  addable z (rkey r) -> (is_singleton (r_type r) = true -> look z (rkey r) = None) ->
  t_add false z (single r) = Ok (zput (rkey r) (add1 (look z (rkey r)) (r_ttl r) (r_data r)) z).
Proof.
  intros z r Hc Ht Httl Ha Hs. unfold t_add, single, skey. cbn [s_class s_type s_name s_ttl s_data s_covers].
  rewrite Hc. cbn [Z.eqb cIN Pos.eqb negb].
  apply Z.eqb_neq in Ht. rewrite Ht. cbn [andb].
  rewrite (clamp_ok _ Httl). unfold rkey in *. rewrite (node_put_id _ _ _ Ha). unfold add1.
  destruct (look z (r_name r, r_type r, r_covers r)) as [[ettl erds]|]; [|reflexivity].
  destruct (is_singleton (r_type r)) eqn:Es; [specialize (Hs eq_refl); discriminate|].
  cbn [fold_left]. rewrite (rds_add_plain _ _ _ Es). reflexivity.
Qed.

Lemma t_add_single : forall z r, plain r -> quiet z ->
  t_add false z (single r) = Ok (zput (rkey r) (add1 (look z (rkey r)) (r_ttl r) (r_data r)) z).
Proof.
  intros z r (Hc & Ht & _ & Httl & Hsg & Hk) Hq. apply t_add_single_g; try assumption; [|congruence].
  apply quiet_addable; assumption.
Qed.

(* the SOA RRset replaces the one that is there *)
Lemma t_add_soa_g : forall tz v, ttl_ok (v_ttl v) -> addable tz soakey ->
  t_add true tz (single (soa_rr v)) = Ok (zput soakey (v_ttl v, [v_soa v]) tz).
Proof.
  intros tz v Httl Ha. unfold t_add, single, soa_rr, skey.
  cbn [s_class s_type s_name s_ttl s_data s_covers r_class r_type r_name r_ttl r_data r_covers].
  rewrite (clamp_ok _ Httl). change (origin, tSOA, 0) with soakey.
  rewrite (node_put_id _ _ _ Ha). reflexivity.
Qed.

Lemma t_add_soa : forall tz v, ttl_ok (v_ttl v) -> quiet tz ->
  t_add true tz (single (soa_rr v)) = Ok (zput soakey (v_ttl v, [v_soa v]) tz).
Proof. intros tz v Httl Hq. apply t_add_soa_g; [exact Httl|apply quiet_addable; [exact Hq|discriminate]]. Qed.

Lemma look_zone_of : forall v k,
  look (zone_of v) k = if key_eqb k soakey then Some (v_ttl v, [v_soa v]) else look (v_rest v) k.
Proof. reflexivity. Qed.

(* every RRset of a well-formed zone is of REGULAR or NEUTRAL kind *)
Lemma rest_wf_quiet : forall z, rest_wf z -> quiet z.
Proof.
  intros z [_ Hf] k Hl. destruct (look z k) as [e|] eqn:E; [|congruence].
  apply rest_wf_look in E. rewrite Forall_forall in Hf. apply Hf in E.
  destruct k as [[n t] c], e as [ttl ds]. cbn in E. cbn. apply E.
Qed.

Lemma zone_of_quiet : forall v, version_wf v -> quiet (zone_of v).
Proof.
  intros v [_ Hr] k Hl. rewrite look_zone_of in Hl. destruct (key_eqb_spec k soakey) as [E|_].
  - subst k. discriminate.
  - apply (rest_wf_quiet _ Hr), Hl.
Qed.

Lemma zeq_zone_of_quiet : forall z v, version_wf v -> zeq z (zone_of v) -> quiet z.
Proof. intros z v Hv Hz. apply (quiet_zeq _ _ Hz), zone_of_quiet, Hv. Qed.

Lemma t_del_single : forall z r, r_class r = cIN -> consistent z ->
  t_delete_exact z (single r) =
  match del1 (look z (rkey r)) (r_data r) with
  | Some oe => Ok (zset (rkey r) oe z)
  | None => Lib eDeleteNotExact
  end.
Proof.
  intros z r Hc Hcons. unfold t_delete_exact, single, skey. cbn [s_class s_type s_name s_ttl s_data s_covers].
  rewrite Hc. cbn [Z.eqb cIN Pos.eqb negb]. unfold rkey, del1.
  destruct (look z (r_name r, r_type r, r_covers r)) as [[ettl erds]|] eqn:El; [|reflexivity].
  rewrite inter_one. destruct (mem (r_data r) erds); [|reflexivity]. cbn [negb].
  unfold norm, zset. destruct (diff erds [r_data r]); [reflexivity|].
  rewrite node_put_id by (apply consistent_addable; [exact Hcons|rewrite El; discriminate]). reflexivity.
Qed.

(* the records of one RRset in a row, as body and zminus list them *)
Definition mk_rr (k : key) (ttl d : Z) : rr :=
  let '(n, t, c) := k in mkRR n cIN t c ttl d.

Lemma rkey_mk_rr : forall k ttl d, rkey (mk_rr k ttl d) = k.
Proof. intros [[n t] c] ttl d. reflexivity. Qed.
Lemma r_ttl_mk_rr : forall k t d, r_ttl (mk_rr k t d) = t. Proof. intros [[? ?] ?] ? ?; reflexivity. Qed.
Lemma r_data_mk_rr : forall k t d, r_data (mk_rr k t d) = d. Proof. intros [[? ?] ?] ? ?; reflexivity. Qed.

Definition add_all (e : option entry) (ttl : Z) (A : list Z) : option entry :=
  fold_left (fun e d => Some (add1 e ttl d)) A e.

Lemma add_all_some : forall A t0 S0 t,
  add_all (Some (t0, S0)) t A =
  Some ((match A with [] => t0 | _ => if t <? t0 then t else t0 end), union S0 A).
Proof.
  unfold add_all, union. induction A as [|d A IH]; intros t0 S0 t; cbn [fold_left]; [reflexivity|].
  cbn [add1]. rewrite IH. f_equal. f_equal.
  destruct A; [reflexivity|]. destruct (t <? t0) eqn:E; [apply min_same|rewrite E; reflexivity].
Qed.

Lemma add_all_none : forall A t,
  add_all None t A = match A with [] => None | _ => Some (t, union [] A) end.
Proof.
  intros [|d A] t; [reflexivity|]. unfold add_all. cbn [fold_left add1].
  change (fold_left (fun e d0 => Some (add1 e t d0)) A (Some (t, [d]))) with (add_all (Some (t, [d])) t A).
  rewrite add_all_some. f_equal. f_equal. destruct A; [reflexivity|apply min_same].
Qed.

Lemma add_all_norm : forall t K t' A S, union K A = S -> S <> [] -> (K <> [] -> t = t') ->
  add_all (norm t K) t' A = Some (t', S).
Proof.
  intros t [|k K] t' A S <- Hne Ht; cbn [norm].
  - rewrite add_all_none. destruct A; [exfalso; apply Hne; reflexivity|reflexivity].
  - rewrite <- Ht by discriminate. rewrite add_all_some. f_equal. f_equal.
    destruct A; [reflexivity|apply min_same].
Qed.

Lemma add_all_fresh : forall t S, ssorted S -> S <> [] -> add_all None t S = Some (t, S).
Proof.
  intros t S Hs Hne. apply (add_all_norm t []); [apply union_nil_sorted, Hs|exact Hne|congruence].
Qed.

(* deleting the records D (distinct, all present) one by one *)
Fixpoint del_all (e : option entry) (D : list Z) : option (option entry) :=
  match D with
  | [] => Some e
  | d :: D' => match del1 e d with Some e' => del_all e' D' | None => None end
  end.

Lemma del_all_norm : forall D t S, NoDup D -> incl D S ->
  del_all (norm t S) D = Some (norm t (diff S D)).
Proof.
  induction D as [|d D IH]; intros t S Hnd Hin; cbn [del_all]; [rewrite diff_nil; reflexivity|].
  inversion Hnd; subst.
  rewrite del1_norm, (proj2 (mem_In d S)) by (apply Hin; left; reflexivity).
  rewrite IH; [rewrite diff_diff; reflexivity|assumption|].
  intros y Hy. apply diff_In. split; [apply Hin; right; exact Hy|].
  cbn. intros [E|[]]. subst. auto.
Qed.
