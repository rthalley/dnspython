(* C10: the B-tree zone's WritableVersion (flags, delegation index, update_glue_flag re-creating the nodes
   beneath a cut) leaves the CONTENT alone: as a store it refines the base WritableVersion model - same result
   for every call of every history, same content under every key.  Hence "identically for plain, versioned and
   B-tree zones" holds for this model of the overrides too. *)
From DV Require Import Base.Prelude Model.NameM Model.TxnM.
From DV Require Import Proofs.NameValid Proofs.NameOrder Proofs.TxnName Proofs.TxnStore Proofs.TxnLow Proofs.TxnSim
                       Proofs.TxnThm.
Open Scope Z_scope.

Definition bcontent (m : bmap) (k : name) : option node :=
  match bmap_get m k with Some bn => Some (bn_rds bn) | None => None end.

Lemma bmap_get_congr m k k' : name_eqb k k' = true -> bmap_get m k = bmap_get m k'.
Proof. exact (kget_congr m k k'). Qed.

(* bmap_set inserts in order *)
Lemma bmap_get_set m k0 v k :
  bmap_get (bmap_set m k0 v) k = if name_eqb k0 k then Some v else bmap_get m k.
Proof.
  induction m as [|[k' v'] m IH]; cbn [bmap_set bmap_get]; [reflexivity|].
  destruct (name_eqb k' k0) eqn:E0; cbn [bmap_get].
  - rewrite (name_eqb_trans_l k' k0 k E0). destruct (name_eqb k0 k); reflexivity.
  - destruct (order k0 k' <? 0); cbn [bmap_get]; [reflexivity|].
    rewrite IH. destruct (name_eqb k' k) eqn:E1; [|reflexivity]. rewrite (name_eqb_other k' k0 k E0 E1). reflexivity.
Qed.

Lemma bmap_get_remove m k0 k :
  bmap_get (bmap_remove m k0) k = if name_eqb k0 k then None else bmap_get m k.
Proof. exact (kget_remove m k0 k). Qed.

(* strictly increasing keys (canonical order): the BTreeDict invariant *)
Fixpoint bsorted (m : bmap) : Prop :=
  match m with
  | [] => True
  | (k, _) :: r => (forall x, In x (map fst r) -> order k x < 0) /\ bsorted r
  end.

Lemma order_lt_not_eq a b : order a b < 0 -> name_eqb b a = false.
Proof.
  intros H. unfold name_eqb. pose proof (order_antisym a b) as A.
  assert ((order a b ?= 0) = Lt) as L by (apply Z.compare_lt_iff; exact H). rewrite L in A. cbn in A.
  apply Z.compare_gt_iff in A. apply Z.eqb_neq. lia.
Qed.

Lemma order_flip a b : ~ order a b < 0 -> name_eqb b a = false -> order b a < 0.
Proof.
  intros H1 H2. destruct (order_total b a) as [H|[H|H]]; [exact H| |contradiction].
  apply name_eqb_iff_ci in H. congruence.
Qed.

Lemma bsorted_in_get m k v : bsorted m -> In (k, v) m -> bmap_get m k = Some v.
Proof.
  induction m as [|[k' v'] m IH]; intros S Hin; [destruct Hin|]. cbn [bmap_get]. destruct S as [S1 S2].
  destruct Hin as [H|H].
  - inversion H; subst. rewrite name_eqb_refl. reflexivity.
  - assert (name_eqb k' k = false) as E.
    { rewrite name_eqb_sym. apply order_lt_not_eq. apply S1. apply in_map_iff. exists (k, v). auto. }
    rewrite E. apply IH; auto.
Qed.

Lemma bmap_set_keys m k v x : In x (map fst (bmap_set m k v)) -> x = k \/ In x (map fst m).
Proof.
  induction m as [|[k' v'] m IH]; cbn [bmap_set map fst].
  - intros [H|[]]; auto.
  - destruct (name_eqb k' k); cbn [map fst In].
    + intros [H|H]; auto.
    + destruct (order k k' <? 0); cbn [map fst In].
      * intros [H|[H|H]]; auto.
      * intros [H|H]; auto. destruct (IH H); auto.
Qed.

Lemma bsorted_set m k v : bsorted m -> bsorted (bmap_set m k v).
Proof.
  induction m as [|[k' v'] m IH]; intros S; cbn [bmap_set]; [cbn; split; [intros x []|exact Logic.I]|].
  destruct S as [S1 S2].
  destruct (name_eqb k' k) eqn:E; [split; assumption|].
  destruct (order k k' <? 0) eqn:L.
  - apply Z.ltb_lt in L. split; [|split; assumption].
    intros x [<-|Hx]; [exact L|]. eapply order_trans_lt; [exact L|]. apply S1. exact Hx.
  - apply Z.ltb_ge in L. split; [|apply IH; exact S2].
    intros x Hx. apply bmap_set_keys in Hx. destruct Hx as [->|Hx]; [|apply S1; exact Hx].
    apply order_flip; [lia|exact E].
Qed.

Lemma bmap_remove_keys m k x : In x (map fst (bmap_remove m k)) -> In x (map fst m).
Proof.
  induction m as [|[k' v'] m IH]; cbn [bmap_remove map fst]; [auto|].
  destruct (name_eqb k' k); cbn [map fst In]; [intros H; right; auto|]. intros [H|H]; auto.
Qed.

Lemma bsorted_remove m k : bsorted m -> bsorted (bmap_remove m k).
Proof.
  induction m as [|[k' v'] m IH]; intros S; cbn [bmap_remove]; [exact Logic.I|]. destruct S as [S1 S2].
  destruct (name_eqb k' k); [auto|]. split; [|auto]. intros x Hx. apply S1. eapply bmap_remove_keys; eauto.
Qed.

Lemma drop_upto_incl n m x : In x (drop_upto n m) -> In x m.
Proof.
  induction m as [|[k v] m IH]; cbn [drop_upto]; [auto|]. destruct (order k n <=? 0); [intros H; right; auto|auto].
Qed.

Lemma snoc_ok {A} (Q : A -> Prop) l x : (forall e, In e l -> Q e) -> Q x -> forall e, In e (l ++ [x]) -> Q e.
Proof. intros H Hx e He. apply in_app_or in He. destruct He as [He|[<-|[]]]; auto. Qed.

Lemma ugf_updates nodes n g : forall after exposed deleg changed updates d' c' u',
  bsorted nodes ->
  (forall e, In e after -> In e nodes) ->
  (forall e, In e updates -> bcontent nodes (fst e) = Some (bn_rds (snd e))) ->
  ugf_loop n g after exposed deleg changed updates = (d', c', u') ->
  (forall e, In e u' -> bcontent nodes (fst e) = Some (bn_rds (snd e))) /\ (changed <> [] -> c' <> []).
Proof.
  induction after as [|[ename bn] r IH]; intros exposed deleg changed updates d' c' u' S Ha Hu; cbn [ugf_loop].
  - intros H; inversion H; subst. auto.
  - destruct (negb (is_subdomain ename n)); [intros H; inversion H; subst; auto|].
    assert (bcontent nodes ename = Some (bn_rds bn)) as Hc.
    { unfold bcontent. rewrite (bsorted_in_get nodes ename bn S (Ha _ (or_introl eq_refl))). reflexivity. }
    assert (forall e, In e r -> In e nodes) as Ha' by (intros e He; apply Ha; right; exact He).
    assert (forall fl e, In e (updates ++ [(ename, mkBn fl (bn_rds bn))]) -> bcontent nodes (fst e) = Some (bn_rds (snd e))) as Hu'
      by (intros fl; apply snoc_ok; [exact Hu|exact Hc]).
    (* the node is copied if this version does not own it yet: same content, one more changed name *)
    set (p := if changed_has changed ename then (bn, changed) else (mkBn 0 (bn_rds bn), changed_add changed ename)).
    assert (bn_rds (fst p) = bn_rds bn /\ (changed <> [] -> snd p <> [])) as [Eb Hc1]
      by (unfold p; destruct (changed_has changed ename); cbn [fst snd bn_rds]; auto using changed_add_ne).
    destruct p as [bn1 changed1]. cbn [fst snd] in Eb, Hc1. rewrite Eb.
    destruct g; [|destruct (match exposed with Some x => is_subdomain ename x | None => false end);
                   [|destruct (node_find (bn_rds bn) cIN tNS 0)]];
      intros H; apply (IH _ _ _ _ _ _ _ S Ha' (Hu' _)) in H; (split; [apply H|intros Hx; apply H, Hc1, Hx]).
Qed.

Lemma fold_set_content updates : forall m k,
  (forall e, In e updates -> bcontent m (fst e) = Some (bn_rds (snd e))) ->
  bcontent (fold_left (fun m0 kn => bmap_set m0 (fst kn) (snd kn)) updates m) k = bcontent m k.
Proof.
  induction updates as [|[e bn] r IH]; intros m k H; cbn [fold_left]; [reflexivity|].
  assert (forall k', bcontent (bmap_set m e bn) k' = bcontent m k') as K.
  { intros k'. unfold bcontent. rewrite bmap_get_set. destruct (name_eqb e k') eqn:E; [|reflexivity].
    pose proof (H (e, bn) (or_introl eq_refl)) as He. cbn [fst snd] in He. unfold bcontent in He.
    rewrite <- (bmap_get_congr m e k' E). destruct (bmap_get m e); inversion He; reflexivity. }
  rewrite IH; [apply K|]. intros x Hx. rewrite K. apply H. right. exact Hx.
Qed.

Lemma fold_set_sorted updates : forall m, bsorted m ->
  bsorted (fold_left (fun m0 kn => bmap_set m0 (fst kn) (snd kn)) updates m).
Proof. induction updates as [|e r IH]; intros m S; cbn [fold_left]; [exact S|]. apply IH. apply bsorted_set. exact S. Qed.

Lemma update_glue_content v n g :
  bsorted (bv_nodes v) ->
  let v' := b_update_glue v n g in
  (forall k, bcontent (bv_nodes v') k = bcontent (bv_nodes v) k) /\ bsorted (bv_nodes v') /\
  (bv_changed v <> [] -> bv_changed v' <> []).
Proof.
  intros S. unfold b_update_glue.
  destruct (ugf_loop n g (drop_upto n (bv_nodes v)) None (bv_deleg v) (bv_changed v) []) as [[d' c'] u'] eqn:E.
  destruct (ugf_updates (bv_nodes v) n g _ _ _ _ _ d' c' u' S (fun e => drop_upto_incl n (bv_nodes v) e) (fun e (H : In e []) => match H with end) E) as [H1 H2].
  cbn [bv_nodes bv_changed]. split; [intros k; apply fold_set_content; exact H1|]. split; [apply fold_set_sorted; exact S|exact H2].
Qed.

(* the store refines the base version model *)
Definition RB (bv : bver) (zv : version) : Prop :=
  bsorted (bv_nodes bv) /\ (forall k, bcontent (bv_nodes bv) k = map_get (v_nodes zv) k) /\
  (bv_changed bv = [] <-> v_changed zv = []).

Definition RPb (bz : bzone) (z : nmap) : Prop := bsorted (fst bz) /\ forall k, bcontent (fst bz) k = map_get z k.

Section BtreeRefines.
  Variable c : cfg.

  Lemma b_node_sim bv zv n : RB bv zv -> b_get_node c bv n = get_node c zv n.
  Proof.
    intros (_ & H & _). unfold b_get_node, get_node. destruct (validate_name c n); cbn [bind]; try reflexivity.
    f_equal. apply H.
  Qed.

  Lemma b_get_sim bv zv n ty cov : RB bv zv -> b_get_rdataset c bv n ty cov = get_rdataset c zv n ty cov.
  Proof. intros H. unfold b_get_rdataset, get_rdataset. rewrite (b_node_sim bv zv n H). reflexivity. Qed.

  (* copy-on-write: afterwards the node at k is there, with the content it had (or none) *)
  Lemma b_cow_spec bv n k :
    validate_name c n = Ok k -> bsorted (bv_nodes bv) ->
    exists v1 nd, b_maybe_cow c bv n = Ok (v1, nd, k) /\
      bn_rds nd = match bcontent (bv_nodes bv) k with Some x => x | None => [] end /\
      (forall k', bcontent (bv_nodes v1) k' = if name_eqb k k' then Some (bn_rds nd) else bcontent (bv_nodes bv) k') /\
      bsorted (bv_nodes v1) /\ bv_changed v1 <> [] /\ bv_deleg v1 = bv_deleg bv.
  Proof.
    intros Ev S. unfold b_maybe_cow. rewrite Ev. cbn [bind]. unfold bcontent.
    destruct (bmap_get (bv_nodes bv) k) as [bn|] eqn:G.
    - destruct (changed_has (bv_changed bv) k) eqn:Ch.
      + eexists _, _. split; [reflexivity|]. cbn [bn_rds bv_nodes bv_changed bv_deleg]. split; [reflexivity|].
        split; [|split; [apply bsorted_set; exact S|split; [eapply changed_has_ne; eauto|reflexivity]]].
        intros k'. rewrite bmap_get_set. destruct (name_eqb k k'); reflexivity.
      + eexists _, _. split; [reflexivity|]. cbn [bn_rds bv_nodes bv_changed bv_deleg]. split; [reflexivity|].
        split; [|split; [apply bsorted_set, bsorted_set; exact S|split; [apply changed_add_ne|reflexivity]]].
        intros k'. rewrite !bmap_get_set. destruct (name_eqb k k'); reflexivity.
    - eexists _, _. split; [reflexivity|]. cbn [bn_rds bv_nodes bv_changed bv_deleg]. split; [reflexivity|].
      split; [|split; [apply bsorted_set, bsorted_set; exact S|split; [apply changed_add_ne|reflexivity]]].
      intros k'. rewrite !bmap_get_set. destruct (name_eqb k k'); reflexivity.
  Qed.

  Lemma RB_content_node bv zv k : RB bv zv ->
    match bcontent (bv_nodes bv) k with Some x => x | None => [] end = match map_get (v_nodes zv) k with Some x => x | None => [] end.
  Proof. intros (_ & H & _). rewrite H. reflexivity. Qed.

  Lemma b_put_sim bv zv n r : RB bv zv -> res_rel RB (b_put_rdataset c bv n r) (put_rdataset c zv n r).
  Proof.
    intros HR. pose proof HR as (S & Hc & Hch). unfold b_put_rdataset, put_rdataset.
    destruct (validate_name c n) as [k| |] eqn:Ev.
    2,3: unfold b_maybe_cow, maybe_cow; rewrite Ev; reflexivity.
    destruct (b_cow_spec bv n k Ev S) as (v1 & nd & -> & Hnd & Hget & S1 & Hne & Hd).
    destruct (cow_spec c zv n k Ev) as (z1 & znd & -> & Hznd & Hzget & Hzne). cbn [bind].
    rewrite (RB_content_node bv zv k HR) in Hnd. rewrite <- Hznd in Hnd.
    (* the optional delegation bookkeeping *)
    match goal with |- context [let '(_, _) := ?X in _] => remember X as p eqn:Eg; destruct p as [v2 fl] end.
    assert ((forall k', bcontent (bv_nodes v2) k' = bcontent (bv_nodes v1) k') /\ bsorted (bv_nodes v2) /\ bv_changed v2 <> []) as (C2 & S2 & N2).
    { destruct ((r_ty r =? tNS) && _); [|inversion Eg; subst; auto].
      destruct (deleg_has (bv_deleg v1) k); [inversion Eg; subst; auto|]. inversion Eg; subst.
      destruct (update_glue_content (mkBver (bv_nodes v1) (deleg_add (bv_deleg v1) k) (bv_changed v1)) k true S1) as (A & B & C).
      split; [exact A|split; [exact B|apply C; exact Hne]]. }
    assert (forall f, forall k', bcontent (bmap_set (bv_nodes v2) k (mkBn f (node_replace (bn_rds nd) r))) k' =
                                map_get (map_set (v_nodes z1) k (node_replace znd r)) k') as CS.
    { intros f k'. unfold bcontent. rewrite bmap_get_set, map_get_set, Hzget.
      destruct (name_eqb k k') eqn:E; [cbn [bn_rds]; rewrite Hnd; reflexivity|].
      fold (bcontent (bv_nodes v2) k'). rewrite C2, Hget, E. apply Hc. }
    destruct (negb _ && _).
    - (* a CNAME evicted the NS rdataset: the delegation is dropped, content untouched *)
      match goal with |- context [b_update_glue ?V k false] =>
        destruct (update_glue_content V k false) as (A & B & C0); [cbn [bv_nodes]; apply bsorted_set; exact S2|] end.
      cbn [res_rel]. split; [exact B|]. split.
      + intros k'. rewrite A. cbn [bv_nodes v_nodes]. apply CS.
      + split; intros H; [|exfalso; apply Hzne; exact H]. exfalso. revert H. apply C0. exact N2.
    - cbn [res_rel]. split; [apply bsorted_set; exact S2|]. split.
      + intros k'. cbn [bv_nodes v_nodes]. apply CS.
      + cbn [bv_changed v_changed]. split; intros H; [contradiction|]. exfalso. apply Hzne. exact H.
  Qed.

  Lemma b_del_rds_sim bv zv n ty cov : RB bv zv -> res_rel RB (b_delete_rdataset c bv n ty cov) (delete_rdataset c zv n ty cov).
  Proof.
    intros HR. pose proof HR as (S & Hc & Hch). unfold b_delete_rdataset, delete_rdataset.
    destruct (validate_name c n) as [k| |] eqn:Ev.
    2,3: unfold b_maybe_cow, maybe_cow; rewrite Ev; reflexivity.
    destruct (b_cow_spec bv n k Ev S) as (v1 & nd & -> & Hnd & Hget & S1 & Hne & Hd).
    destruct (cow_spec c zv n k Ev) as (z1 & znd & -> & Hznd & Hzget & Hzne). cbn [bind].
    rewrite (RB_content_node bv zv k HR) in Hnd. rewrite <- Hznd in Hnd.
    match goal with |- context [let '(_, _) := ?X in _] => remember X as p eqn:Eg; destruct p as [v2 fl] end.
    assert ((forall k', bcontent (bv_nodes v2) k' = bcontent (bv_nodes v1) k') /\ bsorted (bv_nodes v2) /\ bv_changed v2 <> []) as (C2 & S2 & N2).
    { destruct ((ty =? tNS) && _); [|inversion Eg; subst; auto]. inversion Eg; subst.
      destruct (update_glue_content (mkBver (bv_nodes v1) (deleg_discard (bv_deleg v1) k) (bv_changed v1)) k false S1) as (A & B & C).
      split; [exact A|split; [exact B|apply C; exact Hne]]. }
    rewrite Hnd.
    destruct (node_delete znd cIN ty cov) as [|x rds'] eqn:D.
    - (* the emptied node is dropped on both sides *)
      unfold bmap_del, map_del, map_has. rewrite Hzget, name_eqb_refl.
      assert (bcontent (bv_nodes v2) k = Some (bn_rds nd)) as Gk by (rewrite C2, Hget, name_eqb_refl; reflexivity).
      unfold bcontent in Gk. destruct (bmap_get (bv_nodes v2) k); [|discriminate]. cbn [bind res_rel].
      split; [apply bsorted_remove; exact S2|]. split.
      + intros k'. cbn [bv_nodes v_nodes]. unfold bcontent. rewrite bmap_get_remove, map_get_remove, Hzget.
        destruct (name_eqb k k') eqn:E; [reflexivity|]. fold (bcontent (bv_nodes v2) k'). rewrite C2, Hget, E. apply Hc.
      + cbn [bv_changed v_changed]. split; intros H; [contradiction|]. exfalso. apply Hzne. exact H.
    - cbn [res_rel]. split; [apply bsorted_set; exact S2|]. split.
      + intros k'. cbn [bv_nodes v_nodes]. unfold bcontent. rewrite bmap_get_set, map_get_set, Hzget.
        destruct (name_eqb k k') eqn:E; [reflexivity|]. fold (bcontent (bv_nodes v2) k'). rewrite C2, Hget, E. apply Hc.
      + cbn [bv_changed v_changed]. split; intros H; [contradiction|]. exfalso. apply Hzne. exact H.
  Qed.

  Lemma b_del_name_sim bv zv n : RB bv zv -> res_rel RB (b_delete_node c bv n) (delete_node c zv n).
  Proof.
    intros HR. pose proof HR as (S & Hc & Hch). unfold b_delete_node, delete_node.
    destruct (validate_name c n) as [k| |]; cbn [bind res_rel]; auto.
    unfold map_has. rewrite <- Hc. unfold bcontent.
    destruct (bmap_get (bv_nodes bv) k) as [bn|] eqn:G; cbn [res_rel]; [|exact HR].
    match goal with |- context [bmap_remove (bv_nodes ?X) k] => remember X as v2 eqn:Eg end.
    assert ((forall k', bcontent (bv_nodes v2) k' = bcontent (bv_nodes bv) k') /\ bsorted (bv_nodes v2)) as (C2 & S2).
    { destruct (_ =? 0); [subst; auto|]. subst.
      destruct (update_glue_content (mkBver (bv_nodes bv) (deleg_discard (bv_deleg bv) k) (bv_changed bv)) k false S) as (A & B & _). auto. }
    split; [apply bsorted_remove; exact S2|]. split.
    - intros k'. cbn [bv_nodes v_nodes]. unfold bcontent. rewrite bmap_get_remove, map_get_remove.
      destruct (name_eqb k k'); [reflexivity|]. fold (bcontent (bv_nodes v2) k'). rewrite C2. apply Hc.
    - cbn [bv_changed v_changed]. split; intros H; exfalso; eapply changed_add_ne; eauto.
  Qed.

  Lemma bstore_sim : store_sim (bstore c) (zstore c) EV RB RPb false (fun _ => True).
  Proof.
    split.
    - intros s1 s2 (H1 & H2 & _). split; assumption.
    - intros s1 s2 n1 n2 ty cov HR [-> _]. apply b_get_sim; auto.
    - intros s1 s2 n ty cov r _ G. split; [exact (get_cls c _ _ _ _ _ G)|exact Logic.I].
    - intros s1 s2 n1 n2 r HR [-> _] _ _. apply b_put_sim; auto.
    - intros s1 s2 n1 n2 HR [-> _]. apply b_del_name_sim; auto.
    - intros s1 s2 n1 n2 ty cov HR [-> _]. apply b_del_rds_sim; auto.
    - intros s1 s2 n1 n2 HR [-> _]. cbn [s_exists bstore zstore]. rewrite (b_node_sim s1 s2 n2 HR). reflexivity.
    - intros s1 s2 n1 n2 HR [-> _]. apply b_node_sim; auto.
    - intros s1 s2 (_ & _ & [H1 H2]). cbn [s_changed bstore zstore].
      destruct (bv_changed s1), (v_changed s2); auto; [specialize (H1 eq_refl)|specialize (H2 eq_refl)]; discriminate.
    - discriminate.
  Qed.

  (* Every history on a B-tree zone: the overrides give the same result for every call as the base
     WritableVersion, and the same content under every key after every transaction. *)
  Theorem btree_refines_value h bz z :
    Forall spec_valid h -> RPb bz z ->
    Forall2 (ROut RPb) (btree_hist c h bz) (impl_hist c h z).
  Proof.
    apply (sim_valid_hist _ _ c _ _ bstore_sim).
    intros z1 z2 b [H1 H2]. cbn [s_begin bstore zstore]. destruct b.
    - split; [exact Logic.I|split; [reflexivity|split; reflexivity]].
    - split; [exact H1|split; [exact H2|split; reflexivity]].
  Qed.
End BtreeRefines.

Lemma RPb_empty : RPb ([], []) [].
Proof. split; [exact Logic.I|reflexivity]. Qed.
