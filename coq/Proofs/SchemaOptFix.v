(* OPT / EDNS options: the normalisation performed by the option classes is idempotent, hence
   whatever the reader accepts is in normal form, encodes, and its encoding is a fixed point of
   decode-then-encode.  (For EDE this needs that the reader strips ALL trailing NULs of the text,
   /repo commit e554dd4.) *)
From DV Require Import Base.Prelude Model.NameM Model.SchemaM Model.SchemaHand
  Proofs.SchemaName Proofs.SchemaCodec Proofs.SchemaThm Proofs.SchemaFix Proofs.SchemaReenc Proofs.SchemaHandOrigin Proofs.SchemaHandThm Proofs.ListFacts.
Open Scope Z_scope.

(* ECS masking is idempotent and keeps the length *)
Lemma mask_bits_idem : forall x n, 0 <= n <= 8 -> mask_bits (mask_bits x n) n = mask_bits x n.
Proof.
  intros x n Hn. unfold mask_bits.
  assert (Hp : 0 < 2 ^ (8 - n)) by (apply Z.pow_pos_nonneg; lia).
  rewrite Z.div_mul by lia. reflexivity.
Qed.

Lemma mask_last_length : forall a k, length (mask_last a k) = length a.
Proof.
  intros a k. unfold mask_last. destruct (k =? 0); [reflexivity|].
  destruct (rev a) as [|l r] eqn:E.
  - apply (f_equal (@length Z)) in E. rewrite rev_length in E. cbn in E. rewrite E. reflexivity.
  - cbn [rev]. rewrite app_length, rev_length. cbn [length].
    apply (f_equal (@length Z)) in E. rewrite rev_length in E. cbn [length] in E. lia.
Qed.

Lemma mask_last_idem : forall a k, 0 <= k <= 8 -> mask_last (mask_last a k) k = mask_last a k.
Proof.
  intros a k Hk. unfold mask_last. destruct (k =? 0) eqn:Ek; [reflexivity|].
  destruct (rev a) as [|l r] eqn:E.
  - reflexivity.
  - rewrite rev_involutive. rewrite mask_bits_idem by lia. reflexivity.
Qed.

(* the normal form is a fixed point of the normalisation, and no longer than the input *)
Lemma opt_norm_spec : forall ot d p, opt_norm ot d = Some p -> opt_norm ot p = Some p /\ (length p <= length d)%nat.
Proof.
  intros ot d p H. unfold opt_norm in *.
  destruct (ot =? 8).
  - destruct d as [|f1 [|f2 [|src [|scope addr]]]]; try discriminate.
    match type of H with context [if ?c then _ else _] => destruct c eqn:Hc end; [|discriminate].
    injection H as <-.
    assert (Hm : 0 <= src mod 8 <= 8) by (pose proof (Z.mod_pos_bound src 8 ltac:(lia)); lia).
    pose proof (mask_last_length addr (src mod 8)) as Hl.
    unfold zlen. rewrite Hl. fold (zlen addr). rewrite Hc, mask_last_idem by exact Hm. cbn [length]. split; [reflexivity|lia].
  - destruct (ot =? 15).
    + destruct d as [|c1 [|c2 text]]; try discriminate.
      destruct (utf8 (strip0 text)) eqn:Hu; [|discriminate]. injection H as <-.
      rewrite strip0_idem, Hu. pose proof (strip0_length text). cbn [length]. split; [reflexivity|lia].
    + destruct (ot =? 10).
      * match type of H with context [if ?c then _ else _] => destruct c eqn:Hc end; [|discriminate].
        injection H as <-. rewrite Hc. auto.
      * destruct ((22 <=? ot) && (ot <=? 25)).
        -- destruct (utf8 d) eqn:Hu; [|discriminate]. injection H as <-. rewrite Hu. auto.
        -- injection H as <-. auto.
Qed.

Lemma opt_norm_idem : forall ot d p, opt_norm ot d = Some p -> opt_norm ot p = Some p.
Proof. intros ot d p H. apply (opt_norm_spec ot d p H). Qed.

Lemma strip0_length_le : forall b, (length (strip0 b) <= length b)%nat.
Proof. apply strip0_length. Qed.

Lemma opt_norm_length : forall ot d p, opt_norm ot d = Some p -> (length p <= length d)%nat.
Proof. intros ot d p H. apply (opt_norm_spec ot d p H). Qed.

(* every decoded option row is valid, in normal form and short enough to encode *)
Definition opt_row_enc_ok (r : list sval) : bool :=
  match r with [VI ot; VB p] => zlen p <? 65536 | _ => false end.

Lemma opt_items_dec_ok : forall fuel wire e c items c',
  all_bytes wire = true -> (e <= length wire)%nat -> (c <= e)%nat ->
  opt_items_dec fuel wire e c = Ok (items, c') ->
  forallb opt_row_ok items = true /\ forallb opt_row_enc_ok items = true.
Proof.
  induction fuel as [|f IH]; intros wire e c items c' Hb He Hc H; cbn [opt_items_dec] in H.
  - destruct (Nat.leb e c); [|discriminate]. injection H as <- _. split; reflexivity.
  - destruct (Nat.leb_spec e c); [injection H as <- _; split; reflexivity|].
    inv_bind H. destruct x as [ot c1]. apply get_u_inv in E as (-> & L1 & Bot); auto.
    inv_bind H. destruct x as [ol c2]. apply get_u_inv in E as (-> & L2 & Bol); auto.
    cbn [fst snd] in *. change (pow256 2) with 65536 in *.
    destruct (Nat.ltb_spec (e - (c + 2 + 2)) (Z.to_nat ol)) as [|Hfit]; [discriminate|].
    inv_bind H. rename x into payload. inv_bind H. destruct x as [rest c3]. injection H as <- _.
    assert (Hpay : opt_payload_ok ot payload = true /\ zlen payload < 65536).
    { unfold opt_payload_ok. destruct (ot =? 18).
      - destruct (get_name wire None false (c + 2 + 2 + Z.to_nat ol) (c + 2 + 2)) as [[n k]| |] eqn:En; try discriminate.
        apply get_name_none in En as [Habs Hval].
        destruct (Nat.eqb k (c + 2 + 2 + Z.to_nat ol)); [|discriminate]. injection E as <-.
        pose proof (from_wire_plain n [] [] Hval Habs) as Hp. cbn [app length] in Hp. rewrite app_nil_r in Hp.
        rewrite Hp, Nat.eqb_refl, zlist_eqb_refl.
        destruct (validate_labels_ok n Hval Habs) as [_ Hwl]. unfold zlen. rewrite NameWire.wire_labels_length. split; [reflexivity|lia].
      - inv_bind E. destruct x as [d c4]. cbn [fst] in E.
        apply get_bytes_slice in E1 as (_ & _ & _ & Lend); [|lia|lia].
        destruct (opt_norm ot d) as [q|] eqn:En; [|discriminate]. injection E as <-.
        rewrite (opt_norm_idem _ _ _ En), zlist_eqb_refl. apply opt_norm_length in En. unfold zlen. split; [reflexivity|lia]. }
    destruct Hpay as [Hp1 Hp2].
    destruct (IH wire e (c + 2 + 2 + Z.to_nat ol)%nat rest c3 Hb He ltac:(lia) E0) as [I1 I2].
    cbn [forallb opt_row_ok opt_row_enc_ok fst]. rewrite Hp1, I1, I2.
    split; [replace ((0 <=? ot) && (ot <=? 65535)) with true by lia|replace (zlen payload <? 65536) with true by lia]; reflexivity.
Qed.

Lemma opt_items_enc_total : forall items,
  forallb opt_row_ok items = true -> forallb opt_row_enc_ok items = true ->
  exists b, opt_items_enc items = Ok b.
Proof.
  induction items as [|r rr IH]; intros H1 H2; [cbn; eauto|].
  cbn [forallb] in H1, H2. apply andb_prop in H1 as [R1 H1]. apply andb_prop in H2 as [R2 H2].
  apply opt_row_inv in R1 as (ot & p & -> & Hot & _). cbn [opt_row_enc_ok] in R2.
  destruct (IH H1 H2) as [b Eb]. cbn [opt_items_enc].
  replace ((0 <=? ot) && (ot <? 65536) && (zlen p <? 65536)) with true by lia.
  rewrite Eb. cbn [bind]. eauto.
Qed.

(* the validity test on the reader's own output is redundant: it cannot fail *)
Theorem opt_decoded_in_normal_form : forall fuel wire e c items c',
  all_bytes wire = true -> (e <= length wire)%nat -> (c <= e)%nat ->
  opt_items_dec fuel wire e c = Ok (items, c') -> opt_valid [VL items] = true.
Proof. intros. unfold opt_valid. eapply opt_items_dec_ok; eauto. Qed.

(* second half of C02 for OPT: the reader's output is in normal form, it encodes, and the encoding
   is a fixed point of decode-then-encode *)
Theorem opt_fixed_point_thm : forall wire cur rdlen vs,
  all_bytes wire = true ->
  hand_decode_rdata HOpt None wire cur rdlen = Ok vs ->
  exists w', hand_encode_rdata HOpt None vs = Ok w' /\
             hand_decode_rdata HOpt None w' 0 (length w') = Ok vs.
Proof.
  intros wire cur rdlen vs Hb H. apply hand_decode_ok in H as (Hle & Hd & Hv). cbn [hand_dec hand_valid] in Hd, Hv.
  unfold opt_dec in Hd. inv_bind Hd. destruct x as [items c]. injection Hd as <- _.
  destruct (opt_items_dec_ok _ wire (cur + rdlen)%nat cur items c Hb Hle ltac:(lia) E) as [I1 I2].
  destruct (opt_items_enc_total items I1 I2) as [w' Ew].
  exists w'. exact (hand_fixed_point HOpt [VL items] w' Logic.I Hv Ew).
Qed.
