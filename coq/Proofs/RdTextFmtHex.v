(* NID / L64: the 64-bit value as four groups of four hexadecimal digits joined by ":" - the text is kept
   verbatim by the record and only validated (parse_formatted_hex); a validated text is one tokenizer
   word, and the text built from 8 octets by the constructors is valid. *)
From DV Require Import Base.Prelude Model.NameM Model.TokM Model.RdTextM.
From DV Require Import Proofs.TokEsc Proofs.TokWords Proofs.TokHex.
Open Scope Z_scope.

Lemma hexdigit_char_safe c : is_hexdigit c = true -> safe c = true.
Proof.
  unfold is_hexdigit. intros H. apply safe_char; lia.
Qed.

Lemma colon_safe : safe 58 = true.
Proof. reflexivity. Qed.

Lemma hexdigit_is_hex v : 0 <= v < 16 -> is_hexdigit (hexdigit v) = true.
Proof. intros Hv. unfold is_hexdigit, hexdigit. destruct (v <? 10) eqn:E; lia. Qed.

Theorem fmthex_word t : fmthex_ok t = true -> forallb safe t = true /\ t <> [].
Proof.
  unfold fmthex_ok. intros H. apply andb_true_iff in H as [HL H]. apply Nat.eqb_eq in HL.
  do 19 (destruct t as [|? t]; [discriminate|]). destruct t; [|discriminate]. split; [|discriminate].
  cbn [pfh_loop firstn skipn is_nil forallb orb] in H.
  repeat match type of H with
         | (if ?b then _ else _) = true => let E := fresh "E" in destruct b eqn:E; try discriminate
         end.
  repeat match goal with
         | E : negb _ = false |- _ => apply negb_false_iff in E
         | E : (_ && _) = true |- _ => apply andb_true_iff in E; destruct E
         | E : (_ =? 58) = true |- _ => apply Z.eqb_eq in E; subst
         end.
  cbn [forallb].
  repeat match goal with
         | E : is_hexdigit ?c = true |- _ => rewrite (hexdigit_char_safe c E); clear E
         end.
  reflexivity.
Qed.

Theorem fmthex_of_bytes_ok b : all_bytes b = true -> length b = 8%nat -> fmthex_ok (fmthex_of_bytes b) = true.
Proof.
  intros Hb HL. do 8 (destruct b as [|? b]; [discriminate|]). destruct b; [|discriminate].
  cbn [all_bytes forallb] in Hb.
  repeat match type of Hb with (_ && _) = true => apply andb_true_iff in Hb; destruct Hb as [? Hb] end.
  repeat match goal with E : is_byte _ = true |- _ => apply is_byte_range in E end.
  unfold fmthex_of_bytes, wordbreak, hexlify. change (4 <=? 0) with false. cbv iota. change (Z.to_nat 4) with 4%nat.
  cbn [flat_map app length chunks_fuel firstn skipn join_sep].
  unfold fmthex_ok. cbn [length Nat.eqb andb pfh_loop firstn skipn is_nil forallb orb].
  rewrite !hexdigit_is_hex by dlia. cbn [andb negb]. change (58 =? 58) with true. cbv iota. reflexivity.
Qed.
