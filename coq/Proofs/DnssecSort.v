(* Python's sorted() (modelled as stable insertion sort) returns the unique sorted permutation;
   sortedness of filters, of appends and of lists with pairwise distinct keys. *)
From Coq Require Import Permutation Sorted.
From DV Require Import Base.Prelude Model.NameM Model.DnssecM Proofs.NameOrder Proofs.DnssecRef Proofs.ListFacts.
Open Scope Z_scope.

Section Generic.
  Context {A : Type} (lt : A -> A -> bool) (le : A -> A -> Prop).
  Hypothesis lt_le : forall x y, lt x y = true -> le x y.
  Hypothesis nlt_ge : forall x y, lt x y = false -> le y x.
  Hypothesis le_trans : forall x y z, le x y -> le y z -> le x z.

  Lemma ins_sorted_perm x : forall l, Permutation (x :: l) (ins_sorted lt x l).
  Proof.
    induction l as [|y r IH]; cbn; [reflexivity|].
    destruct (lt x y); [reflexivity|].
    rewrite perm_swap. now apply perm_skip.
  Qed.

  Lemma ins_sorted_sorted x : forall l, StronglySorted le l -> StronglySorted le (ins_sorted lt x l).
  Proof.
    induction l as [|y r IH]; intros Hs; cbn.
    - repeat constructor.
    - inversion Hs as [|? ? Hr Hy]; subst. destruct (lt x y) eqn:E.
      + constructor; [exact Hs|]. constructor; [now apply lt_le|].
        eapply Forall_impl; [|exact Hy]. intros z Hz. eapply le_trans; eauto.
      + constructor; [now apply IH|].
        eapply Permutation_Forall; [apply ins_sorted_perm|]. constructor; [now apply nlt_ge|exact Hy].
  Qed.

  Lemma py_sorted_acc : forall l acc,
    StronglySorted le acc ->
    Permutation (acc ++ l) (fold_left (fun a x => ins_sorted lt x a) l acc)
    /\ StronglySorted le (fold_left (fun a x => ins_sorted lt x a) l acc).
  Proof.
    induction l as [|x r IH]; intros acc Hs; cbn [fold_left].
    - rewrite app_nil_r. split; [reflexivity|exact Hs].
    - destruct (IH (ins_sorted lt x acc) (ins_sorted_sorted x acc Hs)) as [P S]. split; [|exact S].
      rewrite <- P. rewrite <- Permutation_middle.
      change (x :: acc ++ r) with ((x :: acc) ++ r). apply Permutation_app_tail. apply ins_sorted_perm.
  Qed.

  Lemma py_sorted_spec l : Permutation l (py_sorted lt l) /\ StronglySorted le (py_sorted lt l).
  Proof. exact (py_sorted_acc l [] (SSorted_nil le)). Qed.
  Lemma py_sorted_perm l : Permutation l (py_sorted lt l).
  Proof. apply py_sorted_spec. Qed.
  Lemma py_sorted_sorted l : StronglySorted le (py_sorted lt l).
  Proof. apply py_sorted_spec. Qed.

  (* uniqueness of the sorted permutation; antisymmetry is only needed among the members *)
  Lemma sorted_perm_unique : forall l1 l2,
    (forall x y, In x l1 -> In y l1 -> le x y -> le y x -> x = y) ->
    StronglySorted le l1 -> StronglySorted le l2 -> Permutation l1 l2 -> l1 = l2.
  Proof.
    induction l1 as [|x r IH]; intros l2 An S1 S2 P.
    - apply Permutation_nil in P. now subst.
    - destruct l2 as [|y r2]; [apply Permutation_sym, Permutation_nil in P; discriminate|].
      apply StronglySorted_inv in S1 as [Sr Hx]. apply StronglySorted_inv in S2 as [Sr2 Hy].
      rewrite Forall_forall in Hx, Hy.
      assert (x = y).
      { assert (In x (y :: r2)) as [->|Hin] by (eapply Permutation_in; [exact P|now left]); [reflexivity|].
        assert (In y (x :: r)) as [->|Hin2] by (eapply Permutation_in; [symmetry; exact P|now left]); [reflexivity|].
        apply An; [now left|now right|auto|auto]. }
      subst y. f_equal. apply IH; auto; [|eapply Permutation_cons_inv; eauto].
      intros a b Ha Hb. apply An; now right.
  Qed.

  Lemma sorted_filter (p : A -> bool) l : StronglySorted le l -> StronglySorted le (filter p l).
  Proof.
    induction 1 as [|x r Hr IH Hx]; cbn [filter]; [constructor|].
    destruct (p x); [|exact IH]. constructor; [exact IH|].
    apply Forall_forall. intros y Hy. apply filter_In in Hy as [Hy _]. rewrite Forall_forall in Hx. auto.
  Qed.
End Generic.

(* a sorted permutation of records with pairwise distinct keys is strictly sorted *)
Lemma sorted_strict_keys {A B} (le slt : A -> A -> Prop) (k : A -> B) l l' :
  Permutation l l' -> StronglySorted le l' -> NoDup (map k l) ->
  (forall x y, In x l -> In y l -> le x y -> k x <> k y -> slt x y) ->
  StronglySorted slt l'.
Proof.
  intros P S N H.
  assert (N' : NoDup (map k l')) by (eapply Permutation_NoDup; [apply Permutation_map; exact P|exact N]).
  assert (H' : forall x y, In x l' -> In y l' -> le x y -> k x <> k y -> slt x y)
    by (intros x y Hx Hy; apply H; eapply Permutation_in; try apply Permutation_sym; eauto).
  clear - S N' H'. induction S as [|x r Hr IH Hx]; [constructor|].
  cbn [map] in N'. inversion N' as [|? ? Nx Nr]; subst. constructor.
  - apply IH; [exact Nr|]. intros a b Ha Hb. apply H'; now right.
  - apply Forall_forall. intros y Hy. rewrite Forall_forall in Hx. apply H'; [now left|now right|auto|].
    intros E. apply Nx. rewrite E. now apply in_map.
Qed.

Lemma bytes_lt_le x y : bytes_lt x y = true -> bytes_le x y.
Proof. unfold bytes_lt, bytes_le. destruct (cmp_bytes x y); congruence. Qed.
Lemma bytes_nlt_ge x y : bytes_lt x y = false -> bytes_le y x.
Proof. unfold bytes_lt, bytes_le. rewrite (cmp_bytes_anti x y). destruct (cmp_bytes x y); cbn; congruence. Qed.
Lemma bytes_le_trans x y z : bytes_le x y -> bytes_le y z -> bytes_le x z.
Proof.
  unfold bytes_le. intros H1 H2.
  destruct (cmp_bytes x y) eqn:E1; [apply cmp_bytes_eq in E1; now subst| |congruence].
  destruct (cmp_bytes y z) eqn:E2; [apply cmp_bytes_eq in E2; subst; now rewrite E1| |congruence].
  now rewrite (cmp_bytes_trans _ _ _ E1 E2).
Qed.
Lemma bytes_le_antisym x y : bytes_le x y -> bytes_le y x -> x = y.
Proof.
  unfold bytes_le. rewrite (cmp_bytes_anti x y). intros H1 H2.
  destruct (cmp_bytes x y) eqn:E; [now apply cmp_bytes_eq|cbn in H2; congruence|congruence].
Qed.

(* sorted(rdatas) is the canonical order of RFC 4034 6.3 *)
Theorem sort_bytes_canonical l : is_canonical_order l (sort_bytes l).
Proof. exact (py_sorted_spec bytes_lt bytes_le bytes_lt_le bytes_nlt_ge bytes_le_trans l). Qed.

Theorem canonical_order_unique l s1 s2 :
  is_canonical_order l s1 -> is_canonical_order l s2 -> s1 = s2.
Proof.
  intros [P1 S1] [P2 S2]. apply (sorted_perm_unique bytes_le); auto using bytes_le_antisym.
  now rewrite <- P1.
Qed.
