(* C10: the abstraction function.  A well-formed node map (no duplicate key, validated keys, no empty
   node, one rdataset per (type, covers)) denotes the reference store `abs c m`; well-formedness is an
   invariant of every public call; hence  abs (impl_hist h z) ~ spec_hist h (abs z)  for every
   well-formed zone z, not only for the zones already known to be related to some store. *)
From DV Require Import Base.Prelude Model.NameM Model.TxnM.
From DV Require Import Proofs.NameValid Proofs.NameOrder Proofs.NameRel.
From DV Require Import Proofs.TxnName Proofs.TxnStore Proofs.TxnLow Proofs.TxnSim Proofs.TxnThm.
Open Scope Z_scope.

Definition key_ok (c : cfg) (k : name) : Prop := Valid k /\ validate_name c k = Ok k.

Fixpoint nodupk (m : nmap) : Prop :=
  match m with
  | [] => True
  | (k, _) :: r => map_get r k = None /\ nodupk r
  end.

Definition node_ok (nd : node) : Prop := nd <> [] /\ node_wf nd.

Definition zwf (c : cfg) (m : nmap) : Prop :=
  nodupk m /\ Forall (fun kn => key_ok c (fst kn) /\ node_ok (snd kn)) m.

Definition abs_key (c : cfg) (k : name) : name := if c_rel c then k ++ c_origin c else k.

Definition abs (c : cfg) (m : nmap) : list entry :=
  flat_map (fun kn => map (mkEntry (abs_key c (fst kn))) (snd kn)) m.

(* what _validate_name returns is a fixed point of _validate_name *)
Lemma validate_key_ok c n k : wfc c -> Valid n -> validate_name c n = Ok k -> key_ok c k.
Proof.
  intros W Vn Ev. pose proof W as [Vo Ao]. pose proof (validate_name_spec c n W Vn) as H. rewrite Ev in H.
  destruct (canon c n) as [a| |]; try contradiction.
  destruct H as (r & s & -> & Hs & Ar & -> & _ & V & A & Sd). unfold key_ok, validate_name.
  destruct (c_rel c).
  - assert (Valid (r ++ c_origin c)) as V' by (eapply Valid_ci; [|exact V]; apply ci_equal_app; [reflexivity|exact Hs]).
    split; [eapply Valid_prefix; eauto|]. rewrite Ar, derelativize_relative, (mk_name_valid _ V') by exact Ar. reflexivity.
  - split; [exact V|]. rewrite A, Sd. reflexivity.
Qed.

(* a stored key denotes the owner abs_key *)
Lemma key_ok_canon c k : wfc c -> key_ok c k -> canon c k = Ok (abs_key c k) /\ key_rel c k (abs_key c k).
Proof.
  intros W [Vk Hk]. pose proof W as [Vo Ao]. split.
  - pose proof (validate_name_spec c k W Vk) as H. rewrite Hk in H.
    destruct (canon c k) as [a| |]; try contradiction. destruct H as (r & s & -> & Hs & Ar & Ek & Hrel & _ & A & _).
    unfold abs_key. destruct (c_rel c); [|rewrite <- Ek; reflexivity].
    subst k. destruct (Hrel Ar) as [_ ->]. reflexivity.
  - unfold key_rel, abs_key. destruct (c_rel c); [apply ck_app|rewrite app_nil_r; reflexivity].
Qed.

Lemma entries_at_map a a0 nd : entries_at a (map (mkEntry a0) nd) = if name_eqb a0 a then nd else [].
Proof.
  unfold entries_at, at_name. induction nd as [|r nd IH]; cbn [map filter e_name]; [destruct (name_eqb a0 a); reflexivity|].
  destruct (name_eqb a0 a) eqn:E; cbn [map e_rds]; [rewrite IH; reflexivity|exact IH].
Qed.

Lemma abs_cons c k nd m : abs c ((k, nd) :: m) = map (mkEntry (abs_key c k)) nd ++ abs c m.
Proof. reflexivity. Qed.

Lemma zwf_get c m k nd : zwf c m -> map_get m k = Some nd -> node_ok nd.
Proof.
  intros [_ H]. induction m as [|[k' v'] m IH]; cbn [map_get]; [discriminate|].
  inversion H; subst. destruct (name_eqb k' k); [intros E; inversion E; subst; cbn in *; tauto|auto].
Qed.

(* the abstraction holds, for the owner a key denotes, the node stored under that key *)
Lemma entries_at_abs c m k a :
  wfc c -> zwf c m -> key_rel c k a ->
  entries_at a (abs c m) = match map_get m k with Some nd => nd | None => [] end.
Proof.
  intros W [Hnd Hall] KR. induction m as [|[k0 nd0] m IH]; [reflexivity|].
  destruct Hnd as [Hn0 Hnd]. inversion Hall as [|? ? [K0 _] Hall']; subst. cbn [fst snd] in *.
  destruct (key_ok_canon c k0 W K0) as [_ KR0].
  rewrite abs_cons, entries_at_app, entries_at_map, (IH Hnd Hall'). cbn [map_get].
  rewrite <- (key_rel_eqb c k0 (abs_key c k0) k a KR0 KR).
  destruct (name_eqb k0 k) eqn:E; [|reflexivity].
  rewrite <- (map_get_congr m k0 k E), Hn0. apply app_nil_r.
Qed.

Lemma RP_abs c m : wfc c -> zwf c m -> RP c m (abs c m).
Proof.
  intros W Hz.
  assert (forall n k a, Valid n -> validate_name c n = Ok k -> canon c n = Ok a ->
            map_get m k = opt_node (entries_at a (abs c m))) as Hm.
  { intros n k a Vn Ev Ec. pose proof (validate_canon c n W Vn) as VC. rewrite Ev, Ec in VC. destruct VC as (KR & _).
    rewrite (entries_at_abs c m k a W Hz KR). destruct (map_get m k) as [nd|] eqn:G; [|reflexivity].
    destruct (zwf_get c m k nd Hz G) as [Ne _]. destruct nd; [contradiction|reflexivity]. }
  split; [exact Hm|split; [|reflexivity]].
  (* an owner that holds anything is the owner of a stored key, and holds the node stored there *)
  intros a. cbn [rs_entries]. destruct (existsb (at_name a) (abs c m)) eqn:Ex.
  - apply existsb_exists in Ex. destruct Ex as (e & He & Ea).
    apply in_flat_map in He. destruct He as ([k0 nd0] & Hin & He). apply in_map_iff in He. destruct He as (r & <- & _).
    pose proof (proj1 (Forall_forall _ _) (proj2 Hz) _ Hin) as [K0 _]. unfold at_name in Ea. cbn [fst snd e_name] in *.
    destruct (key_ok_canon c k0 W K0) as [Ca _]. destruct K0 as [Vk Hk].
    specialize (Hm k0 k0 _ Vk Hk Ca). rewrite (entries_at_congr _ a _ Ea) in Hm.
    destruct (entries_at a (abs c m)); [apply node_wf_nil|]. exact (proj2 (zwf_get c m k0 _ Hz Hm)).
  - rewrite existsb_entries in Ex. destruct (entries_at a (abs c m)); [apply node_wf_nil|discriminate].
Qed.

Lemma map_get_none_set m k0 v k : name_eqb k0 k = false -> map_get m k = None -> map_get (map_set m k0 v) k = None.
Proof. intros E H. rewrite map_get_set, E. exact H. Qed.

Lemma nodupk_set m k v : nodupk m -> nodupk (map_set m k v).
Proof.
  induction m as [|[k' v'] m IH]; intros H; cbn [map_set nodupk]; [auto|].
  destruct H as [H1 H2]. destruct (name_eqb k' k) eqn:E; cbn [nodupk]; [auto|].
  split; [|auto]. apply map_get_none_set; [|exact H1]. rewrite name_eqb_sym. exact E.
Qed.

Lemma nodupk_remove m k : nodupk m -> nodupk (map_remove m k).
Proof.
  induction m as [|[k' v'] m IH]; intros H; cbn [map_remove nodupk]; [auto|].
  destruct H as [H1 H2]. destruct (name_eqb k' k) eqn:E; cbn [nodupk]; [auto|].
  split; [|auto]. rewrite map_get_remove. destruct (name_eqb k k'); [reflexivity|exact H1].
Qed.

Lemma forall_set (Q : name * node -> Prop) m k v :
  Forall Q m -> (forall k', name_eqb k' k = true -> In k' (map fst m) -> Q (k', v)) -> Q (k, v) -> Forall Q (map_set m k v).
Proof.
  induction m as [|[k' v'] m IH]; intros F H1 H2; cbn [map_set]; [repeat constructor; auto|].
  inversion F; subst. destruct (name_eqb k' k) eqn:E.
  - constructor; [apply H1; [exact E|left; reflexivity]|assumption].
  - constructor; [assumption|]. apply IH; auto. intros k'' E' Hin. apply H1; [exact E'|right; exact Hin].
Qed.

Lemma forall_remove (Q : name * node -> Prop) m k : Forall Q m -> Forall Q (map_remove m k).
Proof.
  induction m as [|[k' v'] m IH]; intros F; cbn [map_remove]; [constructor|].
  inversion F; subst. destruct (name_eqb k' k); [auto|constructor; auto].
Qed.

Lemma zwf_set c m k nd : zwf c m -> key_ok c k -> node_ok nd -> zwf c (map_set m k nd).
Proof.
  intros [H1 H2] Hk Hn. split; [apply nodupk_set; exact H1|].
  apply forall_set; [exact H2| |split; auto].
  intros k' _ Hin. cbn [fst snd]. split; [|exact Hn].
  apply in_map_iff in Hin. destruct Hin as ([k1 v1] & <- & Hin). eapply Forall_forall in H2; eauto. cbn in H2. tauto.
Qed.

Lemma zwf_remove c m k : zwf c m -> zwf c (map_remove m k).
Proof. intros [H1 H2]. split; [apply nodupk_remove|apply forall_remove]; assumption. Qed.

Section Ops.
  Variable c : cfg.
  Hypothesis W : wfc c.

  Definition vwf (v : version) : Prop := zwf c (v_nodes v).

  (* copy-on-write enters the node under its own key: overwriting or deleting that key afterwards gives
     what it would have given before *)
  Lemma cow_nodes v n k :
    validate_name c n = Ok k ->
    exists v1 nd, maybe_cow c v n = Ok (v1, nd, k) /\
      nd = match map_get (v_nodes v) k with Some x => x | None => [] end /\
      (forall x, map_set (v_nodes v1) k x = map_set (v_nodes v) k x) /\
      map_remove (v_nodes v1) k = map_remove (v_nodes v) k.
  Proof.
    intros Ev. unfold maybe_cow. rewrite Ev. cbn [bind].
    destruct (map_get (v_nodes v) k) as [nd|] eqn:G; [destruct (changed_has (v_changed v) k)|];
      eexists _, _; (split; [reflexivity|split; [reflexivity|]]); cbn [v_nodes];
      split; intros; rewrite ?map_set_set, ?map_remove_set; reflexivity.
  Qed.

  Lemma put_wf v n r v' : vwf v -> Valid n -> r_cls r = cIN -> put_rdataset c v n r = Ok v' -> vwf v'.
  Proof.
    intros Hv Vn Cr. unfold put_rdataset.
    destruct (validate_name c n) as [k|e|e] eqn:Ev; [|unfold maybe_cow; rewrite Ev; discriminate..].
    destruct (cow_nodes v n k Ev) as (v1 & nd & -> & Hnd & Hset & _). cbn [bind].
    intros [= <-]. unfold vwf. cbn [v_nodes]. rewrite Hset.
    assert (node_wf nd) as Wn
      by (subst nd; destruct (map_get (v_nodes v) k) eqn:G; [eapply zwf_get; eauto|apply node_wf_nil]).
    apply zwf_set; [exact Hv|exact (validate_key_ok c n k W Vn Ev)|].
    split; [|apply node_replace_wf; auto]. rewrite node_replace_filter by auto. destruct (filter _ nd); discriminate.
  Qed.

  Lemma del_rds_wf v n ty cov v' : vwf v -> Valid n -> delete_rdataset c v n ty cov = Ok v' -> vwf v'.
  Proof.
    intros Hv Vn. unfold delete_rdataset.
    destruct (validate_name c n) as [k|e|e] eqn:Ev; [|unfold maybe_cow; rewrite Ev; discriminate..].
    destruct (cow_nodes v n k Ev) as (v1 & nd & -> & Hnd & Hset & Hrem). cbn [bind].
    assert (node_wf nd) as Wn
      by (subst nd; destruct (map_get (v_nodes v) k) eqn:G; [eapply zwf_get; eauto|apply node_wf_nil]).
    destruct (node_delete nd cIN ty cov) as [|x nd'] eqn:D.
    - unfold map_del. destruct (map_has (v_nodes v1) k); cbn [bind]; [|discriminate].
      intros [= <-]. unfold vwf. cbn [v_nodes]. rewrite Hrem. apply zwf_remove; exact Hv.
    - intros [= <-]. unfold vwf. cbn [v_nodes]. rewrite Hset.
      apply zwf_set; [exact Hv|exact (validate_key_ok c n k W Vn Ev)|].
      split; [discriminate|]. rewrite <- D, node_delete_filter by exact Wn. apply node_wf_filter; exact Wn.
  Qed.

  Lemma del_name_wf v n v' : vwf v -> delete_node c v n = Ok v' -> vwf v'.
  Proof.
    intros Hv. unfold delete_node. destruct (validate_name c n) as [k| |]; cbn [bind]; try discriminate.
    destruct (map_has (v_nodes v) k); intros H; inversion H; subst; [apply zwf_remove|]; exact Hv.
  Qed.
End Ops.

Theorem impl_zwf c h z :
  wfc c -> Forall spec_valid h -> zwf c z -> Forall (fun x => zwf c (snd x)) (impl_hist c h z).
Proof.
  intros W V Hz. unfold impl_hist.
  apply (run_hist_inv (zstore c) c Valid (vwf c) (zwf c) (fun _ => True) closed_True Valid_nil);
    auto using hist_valid_rel, spec_valid_or_iter, hist_ok_True.
  - intros z0 b H. cbn. unfold vwf. cbn. destruct b; [split; constructor|exact H].
  - intros s n ty cov r _ G. split; [exact (get_cls c _ _ _ _ _ G)|exact Logic.I].
  - intros s n r s' Hs Vn Cr _. apply put_wf; auto.
  - intros s n s' Hs Vn. apply del_name_wf; auto.
  - intros s n ty cov s' Hs Vn. apply del_rds_wf; auto.
Qed.

(* two reference stores that look the same to every reader *)
Definition store_equiv (c : cfg) (l1 l2 : list entry) : Prop :=
  forall n, Valid n -> ref_node c l1 n = ref_node c l2 n.

(* abs (impl_hist h z) ~ spec_hist h (abs z), with equal results, for every well-formed zone z *)
Theorem refines_abs c h z :
  wfc c -> Forall spec_valid h -> zwf c z ->
  Forall2 (fun x y => fst x = fst y /\ zwf c (snd x) /\ store_equiv c (abs c (snd x)) (snd y))
          (impl_hist c h z) (spec_hist c h (abs c z)).
Proof.
  intros W V Hz.
  pose proof (refines_hist c h z (abs c z) W V (RP_abs c z W Hz)) as Rf.
  pose proof (impl_zwf c h z W V Hz) as Zf.
  revert Zf. induction Rf as [|x y hx hy [Hxy Hp] Rf IH]; intros Zf; [constructor|].
  inversion Zf; subst. constructor; [|apply IH; assumption].
  split; [exact Hxy|]. split; [assumption|].
  intros n Vn. rewrite <- (RP_observe c (snd x) (abs c (snd x)) n W Vn (RP_abs c (snd x) W H1)).
  apply RP_observe; auto.
Qed.

(* structural form of "empty nodes removed": no node of a reachable zone is empty, under any key *)
Corollary no_empty_node_anywhere c h z :
  wfc c -> Forall spec_valid h -> zwf c z ->
  Forall (fun x => Forall (fun kn => snd kn <> []) (snd x)) (impl_hist c h z).
Proof.
  intros W V Hz. pose proof (impl_zwf c h z W V Hz) as Zf.
  eapply Forall_impl; [|exact Zf]. intros x [_ H]. eapply Forall_impl; [|exact H]. intros kn (_ & [Hn _]). exact Hn.
Qed.

Lemma zwf_nil c : zwf c [].
Proof. split; constructor. Qed.

(* ---------------------------------------------------------------- iteration counts (OIter)
   iterate_names / iterate_rdatasets of a well-formed version count exactly the distinct owners and the
   records of its abstraction - the one observation that `refines` leaves out *)
Lemma distinct_names_mem l : forall a,
  existsb (fun x => name_eqb x a) (distinct_names l) = existsb (at_name a) l.
Proof.
  induction l as [|e l IH]; intros a; cbn [distinct_names existsb]; [reflexivity|].
  destruct (existsb (fun x => name_eqb x (e_name e)) (distinct_names l)) eqn:M.
  - rewrite IH. destruct (at_name a e) eqn:E; [|reflexivity]. cbn [orb].
    rewrite IH in M. rewrite <- M. apply existsb_ext. intros x. unfold at_name in *. symmetry.
    apply name_eqb_trans_r. exact E.
  - cbn [existsb]. rewrite IH. reflexivity.
Qed.

Lemma distinct_names_same_owner a nd l :
  nd <> [] -> existsb (at_name a) l = false ->
  distinct_names (map (mkEntry a) nd ++ l) = a :: distinct_names l.
Proof.
  intros Hn Hl. induction nd as [|r nd IH]; [contradiction|]. cbn [map app distinct_names e_name].
  destruct nd as [|r2 nd].
  - cbn [map app]. rewrite distinct_names_mem, Hl. reflexivity.
  - rewrite IH by discriminate. cbn [existsb]. rewrite name_eqb_refl. reflexivity.
Qed.

Theorem iter_counts_abs c m ch d :
  wfc c -> zwf c m -> s_count (zstore c) (mkVer m ch) = s_count (rstore c) (mkRst (abs c m) d).
Proof.
  intros W [Hnd Hall]. cbn [s_count zstore rstore v_nodes rs_entries]. f_equal.
  - (* names *)
    unfold zlen. f_equal. induction m as [|[k0 nd0] m IH]; [reflexivity|].
    destruct Hnd as [Hn0 Hnd]. inversion Hall as [|? ? [K0 [Ne0 _]] Hall']; subst. cbn [fst snd] in *.
    rewrite abs_cons, distinct_names_same_owner; [cbn [length]; rewrite (IH Hnd Hall'); reflexivity|exact Ne0|].
    (* no other node belongs to the same owner *)
    destruct (key_ok_canon c k0 W K0) as [_ KR0].
    rewrite existsb_entries, (entries_at_abs c m k0 _ W (conj Hnd Hall') KR0), Hn0. reflexivity.
  - (* rdatasets *)
    clear Hnd Hall. induction m as [|[k0 nd0] m IH]; [reflexivity|].
    rewrite abs_cons. cbn [fold_right snd]. rewrite IH. unfold zlen. rewrite app_length, map_length. lia.
Qed.
