(* C20: put_rdataset, delete_rdataset and delete_node preserve the invariant (including
   the eviction of the NS rdataset of a delegation point by a CNAME); the deletions never hit the
   KeyError of `del self.nodes[name]`. *)
From DV Require Import Base.Prelude Model.NameM Model.BTZoneM
     Proofs.BTZoneOrder Proofs.BTZoneList Proofs.BTZoneSpec Proofs.BTZoneInv
     Proofs.BTZoneMaster Proofs.BTZoneOps Proofs.BTZoneOps2.
Open Scope Z_scope.

Theorem put_inv : forall c v n t x,
    Inv c v -> validk c (K n) -> Inv c (put_rdataset c v n t x).
Proof.
  intros c v n t x HI Hv. unfold put_rdataset.
  destruct (maybe_cow c v n) as [[l1 d1 ch1] nd] eqn:Ec.
  destruct (cow_spec c v n _ nd HI Hv Ec) as (_ & HI1 & (n0 & E0 & Hin0) & _).
  cbn [v_nodes v_delegs v_changed] in *.
  pose proof (inv_sn c _ HI1) as S1. cbn [v_nodes] in S1.
  destruct (inv_entry c _ HI1 n n0 nd Hin0 E0) as (_ & Hf & Hnd & Hm). cbn [v_nodes v_delegs] in Hf, Hm.
  destruct (flagspec_tests (is_apex c n) (occluded c l1 n) (has_ns nd)) as (T1 & T2 & _).
  rewrite <- Hf in T1, T2. rewrite T1.
  destruct ((t =? tNS) && (negb (is_apex c n) && negb (occluded c l1 n))) eqn:Eb.
  - (* NS at a name that is neither the origin nor glue: a delegation point *)
    apply andb_true_iff in Eb as [Et Eb]. apply andb_true_iff in Eb as [Ha Ho].
    apply Z.eqb_eq in Et. subst t. apply negb_true_iff in Ha, Ho.
    rewrite Ha, Ho in Hf, Hm. cbn [negb andb] in Hm.
    replace (Z.lor (nflags nd) fDELEGATION) with fDELEGATION by (rewrite Hf; destruct (has_ns nd); reflexivity).
    cbn [v_nodes v_delegs v_changed]. rewrite Hm.
    destruct (has_ns nd) eqn:Hh; cbn [negb].
    + (* it was one already *)
      cbn [v_nodes v_delegs v_changed nflags nrds]. rewrite has_ns_replace_ns, andb_false_r.
      rewrite al_update_idem.
      apply (Inv_update c l1 d1 ch1 _ n n0 nd _ HI1 Hv Hin0 E0); [symmetry; exact Hf|apply rds_replace_nodup, Hnd|].
      right. right. rewrite Hh. apply has_ns_replace_ns.
    + (* a new one: index it, mark its subtree as glue *)
      destruct (Inv_cover c l1 d1 ch1 _ n n0 (mkNode fDELEGATION (nrds nd)) HI1 Hv Ha Ho
                          (al_update_sorted l1 n _ S1) (D_update l1 n n0 nd _ S1 Hin0 E0) E0)
        as (l3 & d3 & ch3 & Eu & S3 & Hin3 & HK).
      rewrite Eu. cbn [v_nodes v_delegs v_changed nflags nrds]. rewrite has_ns_replace_ns, andb_false_r.
      apply (HK _ _ _ (al_update_sorted l3 n _ S3) (D_update l3 n n0 _ _ S3 Hin3 E0));
        [apply has_ns_replace_ns|reflexivity|apply rds_replace_nodup, Hnd].
  - (* the name does not become a delegation point *)
    cbn [v_nodes v_delegs v_changed nflags nrds]. rewrite T2.
    destruct (negb (is_apex c n) && negb (occluded c l1 n) && has_ns nd &&
              negb (has_ns (mkNode (nflags nd) (rds_replace t x (nrds nd))))) eqn:Ec2.
    + (* a CNAME evicted the NS rdataset of a delegation point *)
      apply andb_true_iff in Ec2 as [Ec2 Hnf]. apply negb_true_iff in Hnf.
      rewrite <- Hm in Ec2. pose proof (proj1 (al_mem_iff d1 n) Ec2) as Hkd.
      rewrite Hm in Ec2. apply andb_true_iff in Ec2 as [Ec2 Hh]. apply andb_true_iff in Ec2 as [Ha Ho].
      apply negb_true_iff in Ha, Ho.
      replace (Z.land (nflags nd) (Z.lnot fDELEGATION)) with 0 by (rewrite Hf, Ha, Ho, Hh; reflexivity).
      destruct (Inv_expose c l1 d1 ch1 _ n n0 (mkNode 0 (rds_replace t x (nrds nd))) HI1 Hv Hkd
                           (al_update_sorted l1 n _ S1) (D_update l1 n n0 nd _ S1 Hin0 E0) E0)
        as (l3 & d3 & ch3 & Eu & S3 & Hin3 & HK).
      rewrite Eu. apply (HK l3 (Some (n0, _)) ch3 S3 (D_refl l3 n n0 _ S3 Hin3 E0)); intros e [= <-]; cbn [fst snd].
      * split; [exact E0|apply rds_replace_nodup, Hnd].
      * split; [exact Hnf|reflexivity].
    + (* it is a delegation point afterwards iff it was one *)
      assert (Hcase : is_apex c n = true \/ occluded c l1 n = true \/
                      has_ns (mkNode (nflags nd) (rds_replace t x (nrds nd))) = has_ns nd).
      { destruct (t =? tNS) eqn:Et.
        - cbn [andb] in Eb. destruct (is_apex c n), (occluded c l1 n); auto; discriminate.
        - apply Z.eqb_neq in Et. rewrite (has_ns_replace_other t x _ nd Et) in *.
          destruct (kind t =? 2); [|auto].
          destruct (is_apex c n), (occluded c l1 n), (has_ns nd); auto; discriminate. }
      apply (Inv_update c l1 d1 ch1 _ n n0 nd _ HI1 Hv Hin0 E0); [reflexivity|apply rds_replace_nodup, Hnd|exact Hcase].
Qed.

Theorem delete_rdataset_inv : forall c v n t,
    Inv c v -> validk c (K n) -> exists v', delete_rdataset c v n t = Ok v' /\ Inv c v'.
Proof.
  intros c v n t HI Hv. unfold delete_rdataset.
  destruct (maybe_cow c v n) as [[l1 d1 ch1] nd] eqn:Ec.
  destruct (cow_spec c v n _ nd HI Hv Ec) as (_ & HI1 & (n0 & E0 & Hin0) & _).
  cbn [v_nodes v_delegs v_changed] in *.
  pose proof (inv_sn c _ HI1) as S1. cbn [v_nodes] in S1.
  destruct (inv_entry c _ HI1 n n0 nd Hin0 E0) as (_ & Hf & Hnd & Hm). cbn [v_nodes v_delegs] in Hf, Hm.
  destruct ((t =? tNS) && al_mem n d1) eqn:Eb.
  - (* the NS rdataset of a delegation point *)
    apply andb_true_iff in Eb as [Et Em]. apply Z.eqb_eq in Et. subst t.
    pose proof (proj1 (al_mem_iff d1 n) Em) as Hkd.
    rewrite Em in Hm. symmetry in Hm. apply andb_true_iff in Hm as [Hm Hns]. apply andb_true_iff in Hm as [Ha Ho].
    apply negb_true_iff in Ha, Ho. rewrite Ha, Ho, Hns in Hf.
    replace (Z.land (nflags nd) (Z.lnot fDELEGATION)) with 0 by (rewrite Hf; reflexivity).
    destruct (Inv_expose c l1 d1 ch1 _ n n0 (mkNode 0 (nrds nd)) HI1 Hv Hkd (al_update_sorted l1 n _ S1)
                         (D_update l1 n n0 nd _ S1 Hin0 E0) E0)
      as (l3 & d3 & ch3 & Eu & S3 & Hin3 & HK).
    rewrite Eu. cbn [v_nodes v_delegs v_changed nflags nrds].
    destruct (rds_remove tNS (nrds nd)) as [|r0 rr] eqn:Er.
    + (* the node becomes empty and is deleted *)
      destruct (al_del_present l3 n n0 _ Hin3 E0) as [l4 Ed]. rewrite Ed. eexists. split; [reflexivity|].
      apply (HK l4 None _ (proj1 (al_del_some _ _ _ S3 Ed)) (D_del l3 l4 n S3 Ed)); intros e [=].
    + eexists. split; [reflexivity|]. rewrite <- Er.
      apply (HK _ (Some (n0, _)) _ (al_update_sorted l3 n _ S3) (D_update l3 n n0 _ _ S3 Hin3 E0));
        intros e [= <-]; cbn [fst snd nflags nrds].
      * split; [exact E0|apply rds_remove_nodup, Hnd].
      * split; [apply has_ns_remove_ns, Hnd|reflexivity].
  - (* anything else: n is a delegation point afterwards iff it was one *)
    cbn [v_nodes v_delegs v_changed].
    assert (Hcase : is_apex c n = true \/ occluded c l1 n = true \/
                    has_ns (mkNode (nflags nd) (rds_remove t (nrds nd))) = has_ns nd).
    { destruct (t =? tNS) eqn:Et; [|right; right; apply has_ns_remove_other, Z.eqb_neq, Et].
      apply Z.eqb_eq in Et. subst t. cbn [andb] in Eb. rewrite (has_ns_remove_ns _ _ Hnd).
      rewrite Eb in Hm. destruct (is_apex c n), (occluded c l1 n), (has_ns nd); auto; discriminate. }
    destruct (rds_remove t (nrds nd)) as [|r0 rr] eqn:Er; cbn [nrds].
    + destruct (al_del_present l1 n n0 nd Hin0 E0) as [l4 Ed]. rewrite Ed. eexists. split; [reflexivity|].
      apply (Inv_remove c l1 d1 ch1 _ n n0 nd l4 HI1 Hv Hin0 E0 Ed).
      destruct Hcase as [H|[H|H]]; auto.
    + eexists. split; [reflexivity|]. rewrite <- Er in *.
      apply (Inv_update c l1 d1 ch1 _ n n0 nd _ HI1 Hv Hin0 E0); [reflexivity|apply rds_remove_nodup, Hnd|exact Hcase].
Qed.

Theorem delete_node_inv : forall c v n,
    Inv c v -> validk c (K n) -> exists v', delete_node c v n = Ok v' /\ Inv c v'.
Proof.
  intros c [l d ch] n HI Hv. unfold delete_node. cbn [v_nodes v_delegs v_changed].
  pose proof (inv_sn c _ HI) as S. cbn [v_nodes] in S.
  destruct (al_get n l) as [nd|] eqn:G; [|eexists; split; [reflexivity|exact HI]].
  destruct (al_get_some _ _ _ G) as (n0 & Hin0 & E0).
  destruct (inv_entry c _ HI n n0 nd Hin0 E0) as (_ & Hf & _ & Hm). cbn [v_nodes v_delegs] in Hf, Hm.
  destruct (flagspec_tests (is_apex c n) (occluded c l n) (has_ns nd)) as (_ & T2 & _).
  rewrite <- Hf, <- Hm in T2. rewrite T2.
  destruct (al_mem n d) eqn:Em.
  - (* a delegation point *)
    destruct (Inv_expose c l d ch l n n0 nd HI Hv (proj1 (al_mem_iff d n) Em) S (D_refl l n n0 nd S Hin0 E0) E0)
      as (l3 & d3 & ch3 & Eu & S3 & Hin3 & HK).
    rewrite Eu. cbn [v_nodes v_delegs v_changed].
    destruct (al_del_present l3 n n0 nd Hin3 E0) as [l4 Ed]. rewrite Ed. eexists. split; [reflexivity|].
    apply (HK l4 None _ (proj1 (al_del_some _ _ _ S3 Ed))
              (D_del l3 l4 n S3 Ed)); intros e [=].
  - cbn [v_nodes v_delegs v_changed].
    destruct (al_del_present l n n0 nd Hin0 E0) as [l4 Ed]. rewrite Ed. eexists. split; [reflexivity|].
    apply (Inv_remove c l d ch _ n n0 nd l4 HI Hv Hin0 E0 Ed).
    destruct (is_apex c n), (occluded c l n), (has_ns nd); auto; discriminate.
Qed.
