(* Names inside records: the text printed by Name.to_styled_text is one tokenizer word (with
   backslash pairs), never the generic-syntax marker `\#`; choose_relativity keeps names valid. *)
From DV Require Import Base.Prelude Model.NameM Model.TokM Model.RdTextM.
From DV Require Import Proofs.NameValid Proofs.NameText Proofs.TokEsc Proofs.TokWords Proofs.TokShape.
Open Scope Z_scope.

(* units of one escaped octet of a name, and its first two characters *)
Lemma name_esc_octet_units c : 0 <= c < 256 ->
  units (NameM.esc_octet c) /\ NameM.esc_octet c <> [] /\
  (forall r, exists a t, NameM.esc_octet c ++ r = a :: t /\ (a <> 92 \/ exists b t', t = b :: t' /\ b <> 35)).
Proof.
  intros Hc. unfold NameM.esc_octet.
  destruct (escaped c) eqn:E.
  - assert (c = 34 \/ c = 40 \/ c = 41 \/ c = 46 \/ c = 59 \/ c = 92 \/ c = 64 \/ c = 36) as H.
    { unfold escaped in E. lia. }
    split; [apply un_pair; [lia|constructor]|]. split; [discriminate|].
    intros r. exists 92, (c :: r). split; [reflexivity|]. right. exists c, r. split; [reflexivity|lia].
  - assert (c <> 34 /\ c <> 40 /\ c <> 41 /\ c <> 46 /\ c <> 59 /\ c <> 92 /\ c <> 64 /\ c <> 36) as H.
    { unfold escaped in E. lia. }
    destruct ((c >? 32) && (c <? 127)) eqn:E2.
    + split; [apply un_safe; [apply safe_char; lia|constructor]|]. split; [discriminate|].
      intros r. exists c, r. split; [reflexivity|]. left. lia.
    + split.
      * apply un_pair; [dlia|]. apply un_safe; [apply safe_char; dlia|].
        apply un_safe; [apply safe_char; dlia|constructor].
      * split; [discriminate|]. intros r. eexists _, _. split; [reflexivity|]. right.
        eexists _, _. split; [reflexivity|]. dlia.
Qed.

Lemma name_escapify_units l : Forall (fun c => 0 <= c < 256) l -> units (NameM.escapify l).
Proof.
  induction 1 as [|c l Hc _ IH]; [constructor|]. unfold NameM.escapify in *. cbn [flat_map].
  apply units_app; [apply name_esc_octet_units, Hc|exact IH].
Qed.

Lemma join_dot_units (ls : list (list Z)) : Forall units ls -> units (join_dot ls).
Proof.
  induction 1 as [|x ls Hx _ IH]; [constructor|]. destruct ls as [|y ls]; [exact Hx|].
  change (join_dot (x :: y :: ls)) with (x ++ 46 :: join_dot (y :: ls)).
  apply units_app; [exact Hx|]. apply un_safe; [reflexivity|exact IH].
Qed.

(* the printed name: one non-empty word that is not `\#` *)
Theorem name_text_word (n : name) : Valid n -> AllBytes n ->
  units (NameM.to_text n) /\ NameM.to_text n <> [] /\ zlist_eqb (NameM.to_text n) [92; 35] = false.
Proof.
  intros V HB. unfold name, label in *.
  destruct n as [|x n]; [split; [apply un_safe; [reflexivity|constructor]|split; [discriminate|reflexivity]]|].
  destruct x as [|c x].
  { destruct n as [|y n]; [split; [apply un_safe; [reflexivity|constructor]|split; [discriminate|reflexivity]]|].
    exfalso. eapply Valid_head_nonempty; eauto. }
  change (NameM.to_text ((c :: x) :: n)) with (join_dot (map NameM.escapify ((c :: x) :: n))).
  split.
  - apply join_dot_units. apply Forall_map. eapply Forall_impl; [|exact HB].
    intros l Hl. apply name_escapify_units, Hl.
  - assert (Hc : 0 <= c < 256) by (inversion HB as [|? ? H1 _]; inversion H1; assumption).
    destruct (name_esc_octet_units c Hc) as (_ & _ & Hh).
    assert (exists r, join_dot (map NameM.escapify ((c :: x) :: n)) = NameM.esc_octet c ++ r) as [r Er].
    { cbn [map]. unfold NameM.escapify at 1. cbn [flat_map].
      destruct (map NameM.escapify n) as [|y ys].
      - cbn [join_dot]. eexists. reflexivity.
      - change (join_dot ((NameM.esc_octet c ++ flat_map NameM.esc_octet x) :: y :: ys))
          with ((NameM.esc_octet c ++ flat_map NameM.esc_octet x) ++ 46 :: join_dot (y :: ys)).
        rewrite <- app_assoc. eexists. reflexivity. }
    rewrite Er. destruct (Hh r) as (a & t & Et & Ha). rewrite Et.
    split; [discriminate|].
    destruct Ha as [Ha|(b & t' & -> & Hb)].
    + cbn [zlist_eqb]. replace (a =? 92) with false by lia. reflexivity.
    + cbn [zlist_eqb]. replace (b =? 35) with false by lia. rewrite andb_false_r. reflexivity.
Qed.

(* choose_relativity keeps names valid and made of octets *)
Lemma AllBytes_firstn k (n : name) : AllBytes n -> AllBytes (firstn k n).
Proof.
  unfold AllBytes. revert k. induction n as [|l n IH]; intros k H; [destruct k; constructor|].
  destruct k; [constructor|]. inversion H; subst. cbn [firstn]. constructor; [assumption|apply IH; assumption].
Qed.

Definition oAllBytes (o : option name) : Prop := match o with Some x => AllBytes x | None => True end.

Lemma choose_relativity_ok n o rel n1 : Valid n -> AllBytes n -> oAllBytes o ->
  choose_relativity n o rel = Ok n1 -> Valid n1 /\ AllBytes n1.
Proof.
  intros V HB HO. unfold choose_relativity.
  destruct o as [[|x o']|]; [intros E; inversion E; subst; auto| |intros E; inversion E; subst; auto].
  cbn [oAllBytes] in HO. destruct rel.
  - unfold relativize. destruct (is_subdomain n (x :: o')).
    + intros E. apply mk_name_ok in E as [-> V1]. split; [exact V1|]. unfold drop_last. apply AllBytes_firstn, HB.
    + intros E; inversion E; subst; auto.
  - unfold derelativize. destruct (negb (is_absolute n)).
    + unfold concatenate. destruct (is_absolute n && (0 <? zlen (x :: o'))); [discriminate|].
      intros E. apply mk_name_ok in E as [-> V1]. split; [exact V1|]. apply AllBytes_app; assumption.
    + intros E; inversion E; subst; auto.
Qed.

(* the text of a name under a style: one word, never `\#` *)
Lemma styled_name_word st n t : Valid n -> AllBytes n -> oAllBytes (s_origin st) ->
  name_to_styled_text st n = Ok t -> uword t /\ zlist_eqb t [92; 35] = false.
Proof.
  intros V HB HO. unfold name_to_styled_text.
  destruct (choose_relativity n (s_origin st) (s_relativize st)) as [n1| |] eqn:E; cbn [bind]; try discriminate.
  intros H. inversion H; subst t. destruct (choose_relativity_ok _ _ _ _ V HB HO E) as [V1 B1].
  destruct (name_text_word n1 V1 B1) as (Hu & Hne & Hh). repeat split; assumption.
Qed.

(* the name-level effect of printing under a style and parsing under a context *)
Definition name_path (st : style) (c : pctx) (n : name) : res name :=
  do n1 <- choose_relativity n (s_origin st) (s_relativize st);
  do n2 <- (if is_absolute n1 then Ok n1
            else match p_origin c with Some o => mk_name (n1 ++ o) | None => Ok n1 end);
  choose_relativity n2 (relto_or_origin c) (p_relativize c).

Theorem as_name_printed st c n text he : Valid n -> AllBytes n -> oAllBytes (s_origin st) ->
  name_to_styled_text st n = Ok text ->
  as_name c (mkTok tIDENT text he None) = name_path st c n.
Proof.
  intros V HB HO. unfold name_to_styled_text, name_path.
  destruct (choose_relativity n (s_origin st) (s_relativize st)) as [n1| |] eqn:E; cbn [bind]; try discriminate.
  intros H. inversion H; subst text. clear H.
  destruct (choose_relativity_ok _ _ _ _ V HB HO E) as [V1 B1].
  unfold as_name, is_identifier. cbn [ttype tvalue]. replace (tIDENT =? tIDENT) with true by reflexivity.
  cbn [negb]. rewrite text_roundtrip_origin by assumption. reflexivity.
Qed.
