(* C08 + C03: the truncated result parses back to the prefix message. *)
From DV Require Import Base.Prelude Model.NameM Model.MessageM.
From DV Require Import Proofs.NameOrder Proofs.NameValid Proofs.NameRel Proofs.NameWire Proofs.NameCompress.
From DV Require Import Proofs.MessageName Proofs.MessageRender Proofs.MessageRead Proofs.MessageRoundtrip Proofs.MessageRoundtrip2.
From DV Require Import Proofs.MessageSize Proofs.MessageTrunc Proofs.MessageRoundtrip3.
Open Scope Z_scope.

Lemma keys_fresh_prefix : forall l1 l2 S, keys_fresh S (l1 ++ l2) -> keys_fresh S l1.
Proof.
  induction l1 as [|rs l1 IH]; intros l2 S H; [exact Logic.I|].
  cbn [app keys_fresh] in *. destruct H as (A & B). split; [exact A|]. eapply IH. exact B.
Qed.

Lemma Forall_prefix {A} (P : A -> Prop) l1 l2 : Forall P (l1 ++ l2) -> Forall P l1.
Proof. intros H. apply Forall_app in H. tauto. Qed.

Lemma opcode_tc f : opcode_from_flags (Z.lor f fTC) = opcode_from_flags f.
Proof.
  unfold opcode_from_flags, fTC. rewrite Z.land_lor_distr_l. change (Z.land 512 30720) with 0.
  rewrite Z.lor_0_r. reflexivity.
Qed.

Lemma WfMsg_cut o m q1 q2 a1 a2 u1 u2 d1 d2 fl :
  WfMsg o m -> mq m = q1 ++ q2 -> man m = a1 ++ a2 -> mau m = u1 ++ u2 -> mad m = d1 ++ d2 ->
  (fl = mflags m \/ fl = Z.lor (mflags m) fTC) ->
  WfMsg o (cut_msg m fl q1 a1 u1 d1).
Proof.
  intros [W0 WQ WA WU WD KA KU KD WO] EQ EA EU ED HF.
  rewrite EQ in WQ. rewrite EA in WA, KA. rewrite EU in WU, KU. rewrite ED in WD, KD.
  constructor; cbn [cut_msg mflags mq man mau mad mopt].
  - destruct HF as [->| ->]; [exact W0|rewrite opcode_tc; exact W0].
  - eapply Forall_prefix; exact WQ.
  - eapply Forall_prefix; exact WA.
  - eapply Forall_prefix; exact WU.
  - eapply Forall_prefix; exact WD.
  - eapply keys_fresh_prefix; exact KA.
  - eapply keys_fresh_prefix; exact KU.
  - eapply keys_fresh_prefix; exact KD.
  - exact WO.
Qed.

(* prefer_truncation, for every padding block size: the result parses; it holds a prefix of the record sets in
   section order; TC is set exactly when the cut lies before the additional section; OPT (with the padding option)
   and TSIG are kept *)
Theorem trunc_parses_pad_lemma o pad m ms rp w :
  org_ok o -> WfMsg o m -> wf_tsig m -> to_wire m o ms rp true pad = Ok w ->
  exists q1 q2 a1 a2 u1 u2 d1 d2 m',
    mq m = q1 ++ q2 /\ man m = a1 ++ a2 /\ mau m = u1 ++ u2 /\ mad m = d1 ++ d2 /\
    (q2 <> [] -> a1 = [] /\ u1 = [] /\ d1 = []) /\ (a2 <> [] -> u1 = [] /\ d1 = []) /\ (u2 <> [] -> d1 = []) /\
    from_wire w o po0 = Ok m' /\
    msg_equiv_p pad m' (cut_msg m (if cut_before q2 a2 u2 then Z.lor (mflags m) fTC else mflags m) q1 a1 u1 d1).
Proof.
  intros OO WF WT H.
  destruct (trunc_prefix_lemma _ _ _ _ _ _ H) as (q1 & q2 & a1 & a2 & u1 & u2 & d1 & d2 & EQ & EA & EU & ED & C1 & C2 & C3 & R).
  set (fl := if cut_before q2 a2 u2 then Z.lor (mflags m) fTC else mflags m) in *.
  assert (WC : WfMsg o (cut_msg m fl q1 a1 u1 d1)).
  { eapply WfMsg_cut; try eassumption. unfold fl. destruct (cut_before q2 a2 u2); auto. }
  destruct (render_parse_lemma o OO pad _ _ _ _ WC WT R) as (m' & F & E & _).
  exists q1, q2, a1, a2, u1, u2, d1, d2, m'. auto 12.
Qed.

Theorem trunc_parses_lemma o m ms rp w :
  org_ok o -> WfMsg o m -> wf_tsig m -> to_wire m o ms rp true 0 = Ok w ->
  exists q1 q2 a1 a2 u1 u2 d1 d2 m',
    mq m = q1 ++ q2 /\ man m = a1 ++ a2 /\ mau m = u1 ++ u2 /\ mad m = d1 ++ d2 /\
    (q2 <> [] -> a1 = [] /\ u1 = [] /\ d1 = []) /\ (a2 <> [] -> u1 = [] /\ d1 = []) /\ (u2 <> [] -> d1 = []) /\
    from_wire w o po0 = Ok m' /\
    msg_equiv_t m' (cut_msg m (if cut_before q2 a2 u2 then Z.lor (mflags m) fTC else mflags m) q1 a1 u1 d1).
Proof.
  intros OO WF WT H.
  destruct (trunc_parses_pad_lemma o 0 m ms rp w OO WF WT H)
    as (q1 & q2 & a1 & a2 & u1 & u2 & d1 & d2 & m' & A1 & A2 & A3 & A4 & A5 & A6 & A7 & A8 & A9).
  exists q1, q2, a1, a2, u1, u2, d1, d2, m'. apply msg_equiv_p0 in A9. auto 12.
Qed.
