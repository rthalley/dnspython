(* C09: equivalent spellings of one record line; records outside the origin. *)
From DV Require Import Base.Prelude Model.NameM Model.ZoneTextM Proofs.ZoneTextBase Proofs.ZoneTextInv Proofs.ListFacts.
Open Scope Z_scope.

Lemma upper_digit c : is_digit c = true -> upper c = c.
Proof.
  unfold is_digit, upper. intros H. apply andb_true_iff in H as [H1 H2].
  apply Z.leb_le in H1, H2.
  replace (97 <=? c) with false by (symmetry; apply Z.leb_gt; lia). reflexivity.
Qed.

Lemma class_from_text_digit c r : is_digit c = true -> class_from_text (c :: r) = None.
Proof.
  intros H. pose proof (upper_digit c H) as Hu.
  unfold is_digit in H. apply andb_true_iff in H as [H1 H2]. apply Z.leb_le in H1, H2.
  unfold class_from_text, upper_l. cbn [map]. rewrite Hu.
  unfold class_names, assoc_l, sCLASS. cbn [zlist_eqb is_prefix].
  repeat match goal with
         | |- context [c =? ?k] => replace (c =? k) with false by (symmetry; apply Z.eqb_neq; lia)
         | |- context [?k =? c] => replace (k =? c) with false by (symmetry; apply Z.eqb_neq; lia)
         end.
  reflexivity.
Qed.

Lemma class_not_ttl v k : class_from_text v = Some k -> ttl_from_text v = Lib eBadTTL.
Proof.
  destruct v as [|c r]; [discriminate|].
  intros H. destruct (is_digit c) eqn:E.
  - rewrite class_from_text_digit in H by exact E. discriminate.
  - apply ttl_from_text_nondigit. exact E.
Qed.

Lemma respell_ttl_class_order_fields c s co zo n tv cv t rest lerr :
  ttl_from_text tv = Ok t ->
  class_from_text cv = Some (c_class c) ->
  rr_fields c s co zo n (TId tv :: TId cv :: rest) lerr =
  rr_fields c s co zo n (TId cv :: TId tv :: rest) lerr.
Proof.
  intros Ht Hc. unfold rr_fields. cbn [get_ident bind].
  rewrite Ht, (class_not_ttl _ _ Hc). cbn [get_ident bind]. rewrite Hc, Z.eqb_refl. cbn [negb].
  cbn [get_ident bind]. rewrite Ht. reflexivity.
Qed.

(* the tokens after the owner field (spelled, or inherited) only matter through rr_fields *)
Lemma rr_line_fields_congr c s (ov : option (list Z)) t toks t' toks' lerr :
  (forall s1 co zo n, rr_fields c s1 co zo n (t :: toks) lerr = rr_fields c s1 co zo n (t' :: toks') lerr) ->
  rr_line c s (match ov with Some _ => false | None => true end)
    (match ov with Some v => [TId v] | None => [] end ++ t :: toks) lerr =
  rr_line c s (match ov with Some _ => false | None => true end)
    (match ov with Some v => [TId v] | None => [] end ++ t' :: toks') lerr.
Proof.
  intros Hf. unfold rr_line.
  destruct (corigin s) as [co|]; [|reflexivity].
  destruct ov as [v|]; cbn [app]; [destruct (as_name true v (Some co) false None) as [n| |]|];
    cbn [bind]; try reflexivity;
    (destruct (lastname _); [|reflexivity]); (destruct (zorigin _); [|reflexivity]);
    (destruct (negb _); [reflexivity|]);
    (destruct (if c_rel c then _ else _); cbn [bind]; try reflexivity); apply Hf.
Qed.

(* "<owner> <ttl> <class> ..." and "<owner> <class> <ttl> ..." load alike, with an explicit or
   an inherited owner *)
Theorem respell_ttl_class_order_proof c s tv cv t rest lerr :
  ttl_from_text tv = Ok t ->
  class_from_text cv = Some (c_class c) ->
  (forall ov, rr_line c s false (TId ov :: TId tv :: TId cv :: rest) lerr =
              rr_line c s false (TId ov :: TId cv :: TId tv :: rest) lerr) /\
  rr_line c s true (TId tv :: TId cv :: rest) lerr = rr_line c s true (TId cv :: TId tv :: rest) lerr.
Proof.
  intros Ht Hc.
  split; [intros ov; apply (rr_line_fields_congr c s (Some ov))|apply (rr_line_fields_congr c s None)];
    intros; eapply respell_ttl_class_order_fields; eauto.
Qed.

Lemma set_last_same s n : lastname s = Some n -> set_last s n = s.
Proof. destruct s; cbn. intros ->. reflexivity. Qed.

Theorem respell_owner_proof c s co ov n t toks lerr :
  corigin s = Some co ->
  lastname s = Some n ->
  as_name true ov (Some co) false None = Ok n ->
  rr_line c s false (TId ov :: t :: toks) lerr = rr_line c s true (t :: toks) lerr.
Proof.
  intros Hco Hl Hn. unfold rr_line. rewrite Hco, Hn. cbn [bind].
  rewrite (set_last_same _ _ Hl). reflexivity.
Qed.

(* a record line whose owner is not inside the zone origin only moves `last_name` ... *)
Theorem outside_origin_line_proof c s co zo ov n toks :
  corigin s = Some co -> zorigin s = Some zo ->
  as_name true ov (Some co) false None = Ok n ->
  is_subdomain n zo = false ->
  rr_line c s false (TId ov :: toks) false = Ok (set_last s n).
Proof.
  intros Hco Hzo Hn Hs. unfold rr_line. rewrite Hco, Hn. cbn [bind].
  st_simpl. rewrite Hzo, Hs. reflexivity.
Qed.

(* ... and `last_name` is irrelevant for a following line that names its owner *)
Theorem last_name_irrelevant_proof c s m toks lerr t :
  rr_line c (set_last s m) false (t :: toks) lerr = rr_line c s false (t :: toks) lerr.
Proof.
  unfold rr_line. st_simpl.
  destruct (corigin s) as [co|]; [|reflexivity].
  destruct t as [v|v]; [|reflexivity].
  destruct (as_name true v (Some co) false None) as [n| |]; reflexivity.
Qed.

(* every name of the loaded zone comes from a name inside the origin *)
Definition in_zone (rel : bool) (zo k : name) : Prop :=
  exists nabs, is_subdomain nabs zo = true /\
               (if rel then lift_name true (relativize nabs zo) else Ok nabs) = Ok k.

Lemma zset_keys z n nd k : In k (map fst (zset z n nd)) -> In k (map fst z) \/ k = n.
Proof.
  induction z as [|[k' nd'] z IH]; cbn [zset map fst].
  - cbn. intros [H|[]]. right; symmetry; exact H.
  - destruct (name_eqb k' n); cbn [map fst In].
    + intros [H|H]; [left; left; exact H|left; right; exact H].
    + intros [H|H]; [left; left; exact H|]. destruct (IH H) as [H'|H']; [left; right; exact H'|right; exact H'].
Qed.

Lemma txn_add_keys zo rel z n ttl ty rd z' k :
  txn_add zo rel z n ttl ty rd = Ok z' -> In k (map fst z') -> In k (map fst z) \/ k = n.
Proof.
  unfold txn_add. destruct (_ && _ && _); [discriminate|].
  intros H. apply bind_ok in H as (u & _ & H). inversion H; subst; clear H.
  unfold zput. destruct (zfind z n).
  - apply zset_keys.
  - rewrite map_app, in_app_iff. cbn. intros [H|[H|[]]]; [left; exact H|right; symmetry; exact H].
Qed.

Lemma adds_in_zone rel zo z z' :
  adds rel zo z z' -> Forall (in_zone rel zo) (map fst z) -> Forall (in_zone rel zo) (map fst z').
Proof.
  induction 1 as [|z nabs n ttl ty rd z' z'' Hs Hn Ha Hr IH]; [auto|].
  intros Hz. apply IH. apply Forall_forall. intros k Hk.
  destruct (txn_add_keys _ _ _ _ _ _ _ _ _ Ha Hk) as [H|H]; [|subst k].
  - rewrite Forall_forall in Hz. auto.
  - exists nabs. auto.
Qed.

Theorem loaded_names_inside_proof c text o z :
  from_text c text = Ok (o, z) ->
  z = [] \/ exists zo, o = Some zo /\ Forall (in_zone (c_rel c) zo) (map fst z).
Proof.
  intros H. apply from_text_loaded in H as [H|(zo & Ho & Ha)]; [left; exact H|right; subst o].
  exists zo. split; [reflexivity|]. eapply adds_in_zone; eauto. constructor.
Qed.

(* the same for read_rrsets: the store is untouched, only `last_name` moves *)
Theorem rrsets_outside_origin_proof c zo s ov n toks :
  as_name true ov (Some zo) false None = Ok n ->
  is_subdomain n zo = false ->
  rrs_line c zo s false (TId ov :: toks) false =
  Ok (mkrr (Some n) (rr_lttl s) (rr_lttl_known s) (rr_dttl s) (rr_dttl_known s) (rr_store s)).
Proof.
  intros Hn Hs. unfold rrs_line. rewrite Hn. cbn [bind]. rewrite Hs. reflexivity.
Qed.
