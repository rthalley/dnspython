(* C13 - a secondary refreshing its zone: make_query on the zone as it is, extract_serial_from_query,
   the server's answer for that serial, the transfer. *)
From DV Require Import Base.Prelude Model.XfrM Proofs.XfrSets Proofs.XfrSpec Proofs.XfrZone Proofs.XfrDiff
  Proofs.XfrSafety Proofs.XfrBasic Proofs.XfrRun Proofs.XfrSteps Proofs.XfrGeneral Proofs.XfrOrder.

(* the query is built from the zone's current SOA serial, and the serial read back from the query
   (the one the transfer is then based on) is that serial *)
Theorem refresh_query_serial : forall z table qt s s2 c z',
  refresh1 z table = Ok (qt, s, s2, c, z') ->
  s = zone_serial z /\ s2 = s /\ qt = (match zone_serial z with Some _ => tIXFR | None => tAXFR end).
Proof.
  intros z table qt s s2 c z' H. unfold refresh1, make_query in H. cbn [Z.eqb bind] in H.
  destruct (zone_serial z) as [zs|]; cbn [bind extract_serial Z.eqb tIXFR tAXFR Pos.eqb negb] in H.
  - destruct (inbound_xfr z tIXFR (Some zs) false (pick table (Some zs))) as [r n]. inversion H; subst. auto.
  - destruct (inbound_xfr z tAXFR None false (pick table None)) as [r n]. inversion H; subst. auto.
Qed.

Lemma zone_serial_zeq : forall z v, zeq z (zone_of v) -> zone_serial z = Some (v_serial v).
Proof.
  intros z v H. unfold zone_serial. change (origin, tSOA, 0) with soakey. rewrite H, look_zone_of, key_eqb_refl.
  reflexivity.
Qed.

(* one refresh of a zone with serial s = Some zs (IXFR query) / s = None (no SOA yet: AXFR query), when the
   transfer of the server's answer converges to v *)
Lemma refresh1_run : forall z table s v, zone_serial z = s ->
  let qt := match s with Some _ => tIXFR | None => tAXFR end in
  (exists z' n, inbound_xfr z qt s false (pick table s) = (Done z', n) /\ zeq z' (zone_of v)) ->
  exists z', refresh1 z table = Ok (qt, s, s, 0, z')
             /\ zeq z' (zone_of v) /\ zone_serial z' = Some (v_serial v).
Proof.
  intros z table s v Hs qt (z' & n & Hrun & Hz'). exists z'. split; [|split; [exact Hz'|apply zone_serial_zeq, Hz']].
  unfold refresh1, make_query. rewrite Hs. subst qt.
  destruct s; cbn [Z.eqb bind extract_serial tIXFR tAXFR Pos.eqb negb]; rewrite Hrun; reflexivity.
Qed.

Lemma pick_row : forall table k ws, find_row table k = Some ws -> pick table k = ws.
Proof. intros table k ws H. unfold pick. rewrite H. reflexivity. Qed.

Lemma pick_default : forall table k ws, find_row table k = None -> find_row table None = Some ws -> pick table k = ws.
Proof. intros table k ws H H0. unfold pick. rewrite H, H0. reflexivity. Qed.

(* an incremental refresh: the zone equals v0, the server answers the serial of v0 with a valid
   IXFR response (any record order, any division into messages) leading to vn: afterwards the zone
   equals vn, and the next query will carry vn's serial *)
Theorem refresh_converges : forall v0 chain z table recs ws,
  chain_ok v0 chain -> zeq z (zone_of v0) ->
  find_row table (Some (v_serial v0)) = Some ws ->
  ixfr_response v0 chain recs -> chunking tIXFR recs ws ->
  exists z', refresh1 z table = Ok (tIXFR, Some (v_serial v0), Some (v_serial v0), 0, z')
             /\ zeq z' (zone_of (last chain v0))
             /\ zone_serial z' = Some (v_serial (last chain v0)).
Proof.
  intros v0 chain z table recs ws Hok Hz Hrow Hresp Hch. apply (refresh1_run z table (Some (v_serial v0))); [apply zone_serial_zeq, Hz|].
  rewrite (pick_row _ _ _ Hrow). apply (ixfr_converges_any_order v0 chain z recs ws); assumption.
Qed.

(* a full refresh: the zone has no SOA yet (AXFR query), the server sends the whole zone *)
Theorem refresh_full : forall v z table recs ws,
  version_wf v -> zone_serial z = None ->
  find_row table None = Some ws ->
  axfr_response v recs -> chunking tAXFR recs ws ->
  exists z', refresh1 z table = Ok (tAXFR, None, None, 0, z')
             /\ zeq z' (zone_of v) /\ zone_serial z' = Some (v_serial v).
Proof.
  intros v z table recs ws Hv Hs Hrow Hresp Hch. apply (refresh1_run z table None); [exact Hs|].
  rewrite (pick_row _ _ _ Hrow). apply (axfr_converges_any_order v z None recs ws); assumption.
Qed.

(* the server has no history for the client's serial and answers the IXFR query AXFR-style *)
Theorem refresh_axfr_style : forall v z zs table recs ws,
  version_wf v -> v_rest v <> [] -> zone_serial z = Some zs ->
  v_serial v <> zs -> serial_lt (v_serial v) zs = false ->
  find_row table (Some zs) = None -> find_row table None = Some ws ->
  axfr_response v recs -> chunking tIXFR recs ws ->
  exists z', refresh1 z table = Ok (tIXFR, Some zs, Some zs, 0, z')
             /\ zeq z' (zone_of v) /\ zone_serial z' = Some (v_serial v).
Proof.
  intros v z zs table recs ws Hv Hne Hs Hser Hlt Hrow Hrow0 Hresp Hch. apply (refresh1_run z table (Some zs)); [exact Hs|].
  rewrite (pick_default _ _ _ Hrow Hrow0). apply (axfr_style_ixfr_converges_any_order v z zs recs ws); assumption.
Qed.

(* dns.query.inbound_xfr with udp_mode TRY_FIRST: the server answers the UDP query with its bare SOA
   ("retry over TCP"), then the transfer over TCP converges to vn.
   With udp_mode ONLY the UseTCP error is reported and the zone is untouched. *)
Lemma try_first_tcp : forall v0 vn z tbu tbt wu ws,
  zeq z (zone_of v0) -> v_serial vn <> v_serial v0 -> serial_lt (v_serial vn) (v_serial v0) = false ->
  find_row tbu (Some (v_serial v0)) = Some [wu] ->
  header_ok tIXFR wu -> w_records wu = [soa_rr vn] ->
  find_row tbt (Some (v_serial v0)) = Some ws ->
  (exists z' n, inbound_xfr z tIXFR (Some (v_serial v0)) false ws = (Done z', n) /\ zeq z' (zone_of vn)) ->
  (exists z', xfr_top z 1 tbu tbt = Ok (0, z') /\ zeq z' (zone_of vn))
  /\ xfr_top z 2 tbu tbt = Ok (eUseTCP, z).
Proof.
  intros v0 vn z tbu tbt wu ws Hz Hser Hlt Hu Hwu Hru Ht (z' & n & Hrun & Hz').
  pose proof (use_tcp_signalled z (v_serial v0) wu [] (soa_rr vn) Hwu Hru (conj eq_refl eq_refl) Hser Hlt) as UDP.
  assert (TOP : forall mode, xfr_top z mode tbu tbt = xfr_core false z tIXFR (Some (v_serial v0)) mode tbu tbt).
  { intros mode. unfold xfr_top, make_query. rewrite (zone_serial_zeq z v0 Hz). reflexivity. }
  rewrite !TOP. unfold xfr_core. cbn [Z.eqb tIXFR Pos.eqb negb andb]. change (xfr_run false) with inbound_xfr.
  rewrite (pick_row _ _ _ Hu), (pick_row _ _ _ Ht), UDP, Hrun. split; [exists z'; split; [reflexivity|exact Hz']|reflexivity].
Qed.

Theorem try_first_falls_back : forall v0 chain z tbu tbt wu recs ws,
  chain_ok v0 chain -> zeq z (zone_of v0) ->
  find_row tbu (Some (v_serial v0)) = Some [wu] ->
  header_ok tIXFR wu -> w_records wu = [soa_rr (last chain v0)] ->
  find_row tbt (Some (v_serial v0)) = Some ws ->
  ixfr_response v0 chain recs -> chunking tIXFR recs ws ->
  (exists z', xfr_top z 1 tbu tbt = Ok (0, z') /\ zeq z' (zone_of (last chain v0)))
  /\ xfr_top z 2 tbu tbt = Ok (eUseTCP, z).
Proof.
  intros v0 chain z tbu tbt wu recs ws Hok Hz Hu Hwu Hru Ht Hresp Hch.
  destruct (chain_ok_g_serial _ _ (chain_ok_ok_g _ _ Hok)) as [Hser Hlt].
  apply (try_first_tcp v0 (last chain v0) z tbu tbt wu ws); try assumption.
  apply (ixfr_converges_any_order v0 chain z recs ws); assumption.
Qed.

(* a whole sequence of incremental refreshes *)
Inductive refresh_plan : version -> list (list (option Z * list wmsg)) -> version -> Prop :=
| rp_nil : forall v, refresh_plan v [] v
| rp_cons : forall v chain table recs ws rest vfin,
    chain_ok v chain ->
    find_row table (Some (v_serial v)) = Some ws ->
    ixfr_response v chain recs -> chunking tIXFR recs ws ->
    refresh_plan (last chain v) rest vfin ->
    refresh_plan v (table :: rest) vfin.

Definition refresh_ok (r : res (Z * option Z * option Z * Z * zone)) : Prop :=
  exists s z', r = Ok (tIXFR, Some s, Some s, 0, z').

Definition final_zone (z : zone) (rs : list (res (Z * option Z * option Z * Z * zone))) : zone :=
  match last rs (Ok (0, None, None, 0, z)) with
  | Ok (_, _, _, _, z') => z'
  | _ => z
  end.

Lemma final_zone_cons : forall z q s s2 c z' rs, Forall refresh_ok rs ->
  final_zone z (Ok (q, s, s2, c, z') :: rs) = final_zone z' rs.
Proof.
  intros z q s s2 c z' rs Hall. destruct rs as [|r rs _] using rev_ind; [reflexivity|].
  unfold final_zone. rewrite app_comm_cons, !last_last.
  apply Forall_app in Hall. destruct Hall as [_ Hr]. inversion Hr as [|? ? (s0 & zl & ->) _]. reflexivity.
Qed.

(* refreshes each of which takes the zone from one version to the next *)
Inductive plan (P : version -> list (option Z * list wmsg) -> version -> Prop) :
  version -> list (list (option Z * list wmsg)) -> version -> Prop :=
| plan_nil : forall v, plan P v [] v
| plan_cons : forall v table w rest vfin, P v table w -> plan P w rest vfin -> plan P v (table :: rest) vfin.

Lemma plan_converges : forall (P : version -> list (option Z * list wmsg) -> version -> Prop) v tables vfin,
  (forall v table w z, P v table w -> zeq z (zone_of v) ->
     exists z', refresh1 z table = Ok (tIXFR, Some (v_serial v), Some (v_serial v), 0, z') /\ zeq z' (zone_of w)) ->
  plan P v tables vfin -> forall z, zeq z (zone_of v) ->
  length (refreshes z tables) = length tables
  /\ Forall refresh_ok (refreshes z tables)
  /\ zeq (final_zone z (refreshes z tables)) (zone_of vfin).
Proof.
  intros P v tables vfin HP Hp. induction Hp as [v|v table w rest vfin Hst Hp IH]; intros z Hz.
  - cbn. split; [reflexivity|]. split; [constructor|exact Hz].
  - destruct (HP v table w z Hst Hz) as [z' [Hr Hz']].
    cbn [refreshes]. rewrite Hr.
    destruct (IH z' Hz') as (Hlen & Hall & Hfin).
    split; [cbn [length]; rewrite Hlen; reflexivity|].
    split; [constructor; [exists (v_serial v), z'; reflexivity|exact Hall]|].
    rewrite final_zone_cons by exact Hall. exact Hfin.
Qed.

Theorem refreshes_converge : forall v tables vfin, refresh_plan v tables vfin ->
  forall z, zeq z (zone_of v) ->
  length (refreshes z tables) = length tables
  /\ Forall refresh_ok (refreshes z tables)
  /\ zeq (final_zone z (refreshes z tables)) (zone_of vfin).
Proof.
  intros v tables vfin Hp.
  apply (plan_converges (fun v table w => exists chain recs ws, w = last chain v /\ chain_ok v chain /\
           find_row table (Some (v_serial v)) = Some ws /\ ixfr_response v chain recs /\ chunking tIXFR recs ws)).
  - intros v1 table w z (chain & recs & ws & -> & Hok & Hrow & Hresp & Hch) Hz.
    destruct (refresh_converges v1 chain z table recs ws Hok Hz Hrow Hresp Hch) as (z' & H1 & H2 & _). eauto.
  - induction Hp; econstructor; eauto 10.
Qed.

(* dns.query.inbound_xfr: which transports are used and what is reported (decision table) *)
Definition tcp_outcome (kr : bool) (z : zone) (qt : Z) (s : option Z) (tbt : list (option Z * list wmsg)) : res (Z * zone) :=
  Ok (result_code (fst (xfr_run kr z qt s false (pick tbt s))), result_zone (fst (xfr_run kr z qt s false (pick tbt s)))).

Theorem inbound_xfr_decision_table : forall kr z qt s mode tbu tbt,
  (* an AXFR query, or udp_mode NEVER: TCP only, the UDP table is never consulted *)
  ((qt <> tIXFR \/ mode = 0) -> xfr_core kr z qt s mode tbu tbt = tcp_outcome kr z qt s tbt) /\
  (* an IXFR query with udp_mode TRY_FIRST / ONLY: UDP first *)
  (qt = tIXFR -> mode <> 0 ->
     let u := fst (xfr_run kr z qt s true (pick tbu s)) in
     (forall z', u = Done z' -> xfr_core kr z qt s mode tbu tbt = Ok (0, z')) /\
     (forall e z', u = Error e z' -> e <> eUseTCP -> xfr_core kr z qt s mode tbu tbt = Ok (e, z')) /\
     (forall z', u = Error eUseTCP z' -> mode = 2 -> xfr_core kr z qt s mode tbu tbt = Ok (eUseTCP, z')) /\
     (forall z', u = Error eUseTCP z' -> mode <> 2 -> xfr_core kr z qt s mode tbu tbt = tcp_outcome kr z qt s tbt)).
Proof.
  intros kr z qt s mode tbu tbt. unfold xfr_core, tcp_outcome. split.
  - intros [Hq|Hm].
    + apply Z.eqb_neq in Hq. rewrite Hq. cbn [andb]. destruct (xfr_run kr z qt s false (pick tbt s)); reflexivity.
    + subst mode. cbn [Z.eqb negb]. rewrite andb_false_r. destruct (xfr_run kr z qt s false (pick tbt s)); reflexivity.
  - intros Hq Hm. apply Z.eqb_eq in Hq. apply Z.eqb_neq in Hm. rewrite Hq, Hm. cbn [negb andb].
    destruct (xfr_run kr z qt s true (pick tbu s)) as [u n]. cbn [fst].
    repeat split.
    + intros z' ->. reflexivity.
    + intros e z' -> He. apply Z.eqb_neq in He. rewrite He. reflexivity.
    + intros z' -> ->. reflexivity.
    + intros z' -> Hm2. apply Z.eqb_neq in Hm2. rewrite Hm2. cbn [Z.eqb eUseTCP Pos.eqb].
      destruct (xfr_run kr z qt s false (pick tbt s)); reflexivity.
Qed.

(* whatever the mode and the tables: an error code is reported only with the zone untouched *)
Theorem xfr_core_error_leaves_zone : forall kr z qt s mode tbu tbt c z',
  xfr_core kr z qt s mode tbu tbt = Ok (c, z') -> c <> 0 -> z' = z.
Proof.
  intros kr z qt s mode tbu tbt c z' H Hc. unfold xfr_core in H.
  assert (TCP : forall r n, xfr_run kr z qt s false (pick tbt s) = (r, n) ->
                Ok (result_code r, result_zone r) = Ok (c, z') -> z' = z).
  { intros r n Hr E. inversion E; subst. destruct r as [zr|e zr]; cbn in *; [congruence|].
    eapply error_leaves_zone_t; exact Hr. }
  destruct ((qt =? tIXFR) && negb (mode =? 0)).
  - destruct (xfr_run kr z qt s true (pick tbu s)) as [u n] eqn:Hu. destruct u as [zu|e zu].
    + inversion H; subst. congruence.
    + assert (zu = z) by (eapply error_leaves_zone_t; exact Hu). subst zu.
      destruct (e =? eUseTCP).
      * destruct (mode =? 2); [inversion H; reflexivity|].
        destruct (xfr_run kr z qt s false (pick tbt s)) as [r n2] eqn:Hr. eapply TCP; [reflexivity|exact H].
      * inversion H; reflexivity.
  - destruct (xfr_run kr z qt s false (pick tbt s)) as [r n2] eqn:Hr. eapply TCP; [reflexivity|exact H].
Qed.

(* the query side: make_query with an explicit serial / keyring, then extract_serial_from_query *)
Theorem query_serial_table : forall zs ser,
  match make_query zs ser with
  | Ok (qt, s) =>
      extract_serial (qt, s) = Ok s /\
      match ser with
      | None => qt = tAXFR /\ s = None                                        (* serial=None forces AXFR *)
      | Some n =>
          if n =? 0 then match zs with
                         | Some z0 => qt = tIXFR /\ s = Some z0               (* 0: the zone's serial *)
                         | None => qt = tAXFR /\ s = None                     (* no SOA yet: AXFR *)
                         end
          else qt = tIXFR /\ s = Some n /\ 0 < n < two32                      (* an explicit base serial *)
      end
  | Internal _ => exists n, ser = Some n /\ n <> 0 /\ ~ (0 < n < two32)      (* ValueError: out of range *)
  | Lib _ => False
  end.
Proof.
  intros zs ser. unfold make_query. destruct ser as [n|]; [|cbn; auto].
  destruct (n =? 0) eqn:E0.
  - destruct zs; cbn; auto.
  - destruct ((0 <? n) && (n <? two32)) eqn:Er.
    + apply andb_true_iff in Er. destruct Er as [H1 H2]. apply Z.ltb_lt in H1. apply Z.ltb_lt in H2.
      cbn [extract_serial]. cbn. repeat split; auto.
    + exists n. apply Z.eqb_neq in E0. split; [reflexivity|]. split; [exact E0|].
      intros [H1 H2]. apply Z.ltb_lt in H1. apply Z.ltb_lt in H2. rewrite H1, H2 in Er. discriminate.
Qed.
