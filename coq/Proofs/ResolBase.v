(* The resolver state machine of Model/ResolM.v, one specification per function (what
   next_nameserver, query_result, next_request and step return, as terms over the state they were
   given), and the invariant principles for `loop` and `resolve_with`. *)
From DV Require Import Base.Prelude Model.NameM Model.ResolM Proofs.ResolChain.
Open Scope Z_scope.

Section LoopInd.
Variables (sc : nat -> outcome) (c : cfg) (start : Z).
Variable P : st -> env -> Prop.
Variable Q : final -> st -> env -> Prop.
Hypothesis Hstep : forall s e s' e', P s e -> step sc c start s e = inl (s', e') -> P s' e'.
Hypothesis Hfin : forall s e f s' e', P s e -> step sc c start s e = inr (f, s', e') -> Q f s' e'.

Lemma loop_ind : forall fuel s e f s' e',
  P s e -> loop fuel sc c start s e = (f, s', e') -> f <> FFuel -> Q f s' e'.
Proof.
  induction fuel as [|fuel IH]; intros s e f s' e' HP HL HF; simpl in HL.
  - inversion HL; subst. congruence.
  - destruct (step sc c start s e) as [[s1 e1]|[[f1 s1] e1]] eqn:ES.
    + apply (IH s1 e1); auto. eapply Hstep; eauto.
    + inversion HL; subst. eapply Hfin; eauto.
Qed.
End LoopInd.

(* the state handed back with the server to ask: the rest of the round and the next back-off *)
Definition serving (s : st) (ns : server) (tcp : bool) (cur : list server) (bo : Z) : st :=
  {| s_qnames := s_qnames s; s_qname := s_qname s; s_nx := s_nx s; s_nameservers := s_nameservers s;
     s_current := cur; s_errors := s_errors s; s_nameserver := Some ns; s_tcp_attempt := tcp;
     s_retry_with_tcp := false; s_have_request := s_have_request s; s_backoff := bo;
     s_cache := s_cache s |}.

(* the three ways a server is chosen, with: tcp, the sleep before the query, the rest of the round,
   the next back-off *)
Inductive choice (c : cfg) (s : st) (ns : server) : bool -> Z -> list server -> Z -> Prop :=
| by_retry : s_retry_with_tcp s = true -> s_nameserver s = Some ns -> sv_maxsize ns = false ->
    choice c s ns true 0 (s_current s) (s_backoff s)
| in_round cur : s_retry_with_tcp s = false -> s_current s = ns :: cur ->
    choice c s ns (c_tcp c || sv_maxsize ns) 0 cur (s_backoff s)
| rearmed cur : s_retry_with_tcp s = false -> s_current s = [] -> s_nameservers s = ns :: cur ->
    choice c s ns (c_tcp c || sv_maxsize ns) (s_backoff s) cur (Z.min (s_backoff s * 2) 2000).

Lemma next_nameserver_spec : forall c s,
  match next_nameserver c s with
  | NSOk s1 ns tcp backoff =>
      exists cur bo, s1 = serving s ns tcp cur bo /\ choice c s ns tcp backoff cur bo
  | NSNone s1 => s1 = s /\ s_retry_with_tcp s = false /\ s_current s = [] /\ s_nameservers s = []
  | NSInt _ =>
      s_retry_with_tcp s = true /\ forall ns, s_nameserver s = Some ns -> sv_maxsize ns = true
  end.
Proof.
  intros c s. unfold next_nameserver, pop_server. destruct (s_retry_with_tcp s) eqn:ER.
  - destruct (s_nameserver s) as [ns|] eqn:EN; [destruct (sv_maxsize ns) eqn:EM|].
    + split; [reflexivity|]. intros ns' E. congruence.
    + eexists _, _. split; [reflexivity|]. apply by_retry; assumption.
    + split; [reflexivity|discriminate].
  - destruct (s_current s) as [|ns cur] eqn:EC; [destruct (s_nameservers s) as [|ns cur] eqn:ES|].
    + auto.
    + eexists _, _. split; [rewrite <- ES; reflexivity|]. apply rearmed; assumption.
    + eexists _, _. split; [reflexivity|]. apply in_round; assumption.
Qed.

(* does the observed reply make query_result take the server out of the mix? *)
Definition drops (c : cfg) (tcp : bool) (r : oreply) : bool :=
  match r with
  | OExn k =>
      match exn_of_class k with
      | XFormError | XEOF | XOSError | XNotImpl => true
      | XTruncated => tcp
      | XTimeout | XOther => false
      end
  | OMsg m =>
      if m_rcode m =? rcNOERROR then
        match resolve_chaining m with Ok _ => false | _ => true end
      else if m_rcode m =? rcNXDOMAIN then
        match resolve_chaining m with Ok _ => false | _ => true end
      else if m_rcode m =? rcYXDOMAIN then false
      else negb (m_rcode m =? rcSERVFAIL) || negb (c_retry_servfail c)
  end.

Definition is_trunc (r : oreply) : bool :=
  match r with OExn k => match exn_of_class k with XTruncated => true | _ => false end | OMsg _ => false end.

(* the terminal classes of a reply *)
Definition accepts (r : oreply) : option chaining :=
  match r with
  | OMsg m => if m_rcode m =? rcNOERROR then match resolve_chaining m with Ok ch => Some ch | _ => None end else None
  | OExn _ => None
  end.

Definition nx_accepts (r : oreply) : option chaining :=
  match r with
  | OMsg m => if m_rcode m =? rcNXDOMAIN then match resolve_chaining m with Ok ch => Some ch | _ => None end else None
  | OExn _ => None
  end.

Definition is_yx (r : oreply) : bool :=
  match r with OMsg m => negb (m_rcode m =? rcNOERROR) && negb (m_rcode m =? rcNXDOMAIN) && (m_rcode m =? rcYXDOMAIN) | OExn _ => false end.

(* an acceptable NXDOMAIN reply is in no other class *)
Lemma nx_accepts_only : forall c tcp r, nx_accepts r <> None ->
  accepts r = None /\ is_yx r = false /\ is_trunc r = false /\ drops c tcp r = false.
Proof.
  intros c tcp [k|m] H; simpl in *; [congruence|].
  destruct (Z.eqb_spec (m_rcode m) rcNXDOMAIN) as [E|]; [|congruence].
  rewrite E. simpl. destruct (resolve_chaining m); tauto.
Qed.

Lemma make_answer_ok : forall q t k m sv now src a,
  make_answer q t k m sv now src = Ok a ->
  exists ch, resolve_chaining m = Ok ch /\
    a_qname a = q /\ a_rdtype a = t /\ a_rdclass a = k /\ a_canonical a = ch_canonical ch /\
    a_rrset a = ch_answer ch /\ a_min_ttl a = ch_min_ttl ch /\
    a_expiration a = now + 1000 * ch_min_ttl ch /\ a_server a = sv /\
    a_ncnames a = zlen (ch_cnames ch) /\ a_rcode a = m_rcode m /\ a_src a = src.
Proof.
  intros. unfold make_answer in H. destruct (resolve_chaining m) as [ch|e|e]; simpl in H; try discriminate.
  inversion H; subst; clear H. exists ch. simpl. repeat split; auto.
Qed.

Lemma make_answer_err : forall q t k m sv now src,
  (forall a, make_answer q t k m sv now src <> Ok a) ->
  forall ch, resolve_chaining m <> Ok ch.
Proof.
  intros. intro HC. unfold make_answer in H. rewrite HC in H. simpl in H. eapply H; eauto.
Qed.

(* list.remove: the first server with that id goes *)
Lemma remove_server_split : forall x l l', remove_server x l = Some l' ->
  exists a y b, l = a ++ y :: b /\ l' = a ++ b /\ sv_id y = sv_id x.
Proof.
  induction l as [|y r IH]; intros l' H; simpl in H; [discriminate|].
  destruct (Z.eqb_spec (sv_id y) (sv_id x)) as [E|_].
  - injection H as <-. exists [], y, r. auto.
  - destruct (remove_server x r) as [r'|]; [|discriminate]. injection H as <-.
    destruct (IH r' eq_refl) as (a & z & b & -> & -> & E). exists (y :: a), z, b. auto.
Qed.

Lemma err_then_drop_cases : forall s ns code,
  (exists s', err_then_drop s ns code = QCont s') \/
  (err_then_drop s ns code = QInt iValueError /\ remove_server ns (s_nameservers s) = None).
Proof.
  intros. unfold err_then_drop. destruct (remove_server ns (s_nameservers s)); eauto.
Qed.

(* the bookkeeping of an accepted NOERROR reply: the answer built from it, and where it is cached *)
Definition answered (c : cfg) (s : st) (now src : Z) (r : oreply) (ns : server) (s' : st) (a : answer) : Prop :=
  exists m, r = OMsg m /\ accepts r <> None /\
    make_answer (s_qname s) (c_rdtype c) (c_rdclass c) m (Some (sv_id ns)) now src = Ok a /\
    s_cache s' = (if c_cache c
                  then cache_put (s_cache s) {| k_name := s_qname s; k_type := c_rdtype c; k_class := c_rdclass c |} a
                  else s_cache s).

(* what query_result returns, per class of reply.  QCont: either the server was dropped, or nothing
   but the error list and the retry flag changed. *)
Lemma query_result_spec : forall c s now src r ns, s_nameserver s = Some ns ->
  match query_result c s now src r with
  | QCont s' =>
      accepts r = None /\ nx_accepts r = None /\ is_yx r = false /\
      exists nss errs,
        s' = upd s nss errs (s_retry_with_tcp s || is_trunc r && negb (s_tcp_attempt s)) (s_nx s) (s_cache s) /\
        if drops c (s_tcp_attempt s) r then remove_server ns (s_nameservers s) = Some nss
        else nss = s_nameservers s
  | QAnswer s' a => answered c s now src r ns s' a /\ (a_rrset a <> None \/ c_raise c = false)
  | QNoAnswer s' a => answered c s now src r ns s' a /\ a_rrset a = None /\ c_raise c = true
  | QNext s' =>
      exists m a, r = OMsg m /\ nx_accepts r <> None /\
        make_answer (s_qname s) tANY cIN m None now src = Ok a /\
        s' = upd s (s_nameservers s) (s_errors s) (s_retry_with_tcp s) (nx_set (s_nx s) (s_qname s) src)
               (if c_cache c
                then cache_put (s_cache s) {| k_name := s_qname s; k_type := tANY; k_class := c_rdclass c |} a
                else s_cache s)
  | QYX s' => is_yx r = true /\ accepts r = None /\ nx_accepts r = None /\ s_nx s' = s_nx s /\ s_cache s' = s_cache s
  | QInt _ => remove_server ns (s_nameservers s) = None
  end.
Proof.
  intros c s now src r ns EN. unfold query_result. rewrite EN.
  (* the two shapes of a QCont: after a drop, and with the server kept *)
  assert (Drop : forall code (P : qres -> Prop),
            (forall nss, remove_server ns (s_nameservers s) = Some nss ->
               P (QCont (upd s nss (s_errors s ++ [mk_err s ns code]) (s_retry_with_tcp s) (s_nx s) (s_cache s)))) ->
            (remove_server ns (s_nameservers s) = None -> P (QInt iValueError)) ->
            P (err_then_drop s ns code)).
  { intros code P H1 H2. unfold err_then_drop. destruct (remove_server ns (s_nameservers s)); auto. }
  destruct r as [k|m]; simpl.
  - destruct (exn_of_class k); [| | | |destruct (s_tcp_attempt s)| |];
      try (apply Drop; [intros nss ER|trivial]);
      (split; [reflexivity|]); (split; [reflexivity|]); (split; [reflexivity|]); eexists _, _;
      (split; [unfold err_only; f_equal; destruct (s_retry_with_tcp s); reflexivity|]); auto.
  - destruct (Z.eqb_spec (m_rcode m) rcNOERROR) as [E0|E0].
    + rewrite E0. simpl. unfold make_answer.
      destruct (resolve_chaining m) as [ch|e|e] eqn:ERC; simpl.
      * set (a := {| a_qname := s_qname s |}). set (s1 := if c_cache c then _ else s).
        assert (HA : answered c s now src (OMsg m) ns s1 a).
        { exists m. simpl. rewrite E0, ERC. simpl. unfold make_answer. rewrite ERC.
          split; [reflexivity|]. split; [discriminate|]. split; [reflexivity|].
          subst s1. destruct (c_cache c); reflexivity. }
        destruct (ch_answer ch) eqn:EA; simpl; [|destruct (c_raise c); simpl]; (split; [exact HA|]).
        -- left. simpl. congruence.
        -- auto.
        -- auto.
      * apply Drop; [intros nss ER|trivial]. repeat (split; [reflexivity|]). eexists _, _.
        split; [f_equal; symmetry; apply orb_false_r|]. exact ER.
      * destruct (chain_no_internal _ _ ERC).
    + simpl.
      destruct (Z.eqb_spec (m_rcode m) rcNXDOMAIN) as [E3|E3].
      * unfold make_answer. destruct (resolve_chaining m) as [ch|e|e] eqn:ERC; simpl.
        -- eexists m, _. rewrite ERC. simpl.
           split; [reflexivity|]. split; [discriminate|]. split; reflexivity.
        -- apply Drop; [intros nss ER|trivial]. repeat (split; [reflexivity|]). eexists _, _.
           split; [f_equal; symmetry; apply orb_false_r|]. exact ER.
        -- destruct (chain_no_internal _ _ ERC).
      * destruct (m_rcode m =? rcYXDOMAIN); [simpl; auto|].
        destruct (negb (m_rcode m =? rcSERVFAIL) || negb (c_retry_servfail c));
          [apply Drop; [intros nss ER|trivial]|]; repeat (split; [reflexivity|]); eexists _, _;
          (split; [unfold err_only; f_equal; symmetry; apply orb_false_r|]); auto.
Qed.

(* what skipping candidates (cached NXDOMAIN) leaves untouched *)
Definition frame (s s0 : st) : Prop :=
  s_have_request s0 = s_have_request s /\ s_nameservers s0 = s_nameservers s /\ s_cache s0 = s_cache s.

(* next_request walks the candidate names: those with a cached NXDOMAIN are skipped (recorded in
   s_nx), the first other one is answered from the cache or armed.  `R s sk s0` is any relation
   between the state before and the state after skipping `sk` that holds when nothing was skipped
   and is kept by one more skip. *)
Section NextRequest.
Variables (c : cfg) (now : Z) (R : st -> list name -> st -> Prop).
Hypothesis R_nil : forall s s0, frame s s0 -> s_nx s0 = s_nx s -> R s [] s0.
Hypothesis R_skip : forall s s1 q a sk s0,
  c_cache c = true ->
  cache_get (s_cache s) {| k_name := q; k_type := tANY; k_class := c_rdclass c |} now = Some a ->
  a_rcode a = rcNXDOMAIN ->
  frame s s1 -> s_nx s1 = nx_set (s_nx s) q (a_src a) -> R s1 sk s0 -> R s (q :: sk) s0.

Definition cache_hit (qnames : list name) (s s' : st) (a : answer) : Prop :=
  exists sk q rest, qnames = sk ++ q :: rest /\ R s sk s' /\ c_cache c = true /\
    cache_get (s_cache s) {| k_name := q; k_type := c_rdtype c; k_class := c_rdclass c |} now = Some a.

Lemma next_request_spec : forall qnames s,
  match next_request c s qnames now with
  | NRequest s' => exists sk q rest s0, qnames = sk ++ q :: rest /\ s' = arm c s0 q rest /\ R s sk s0
  | NAnswer s' a => cache_hit qnames s s' a /\ (a_rrset a <> None \/ c_raise c = false)
  | NNoAnswer s' a => cache_hit qnames s s' a /\ a_rrset a = None /\ c_raise c = true
  | NNXDOMAIN s' => R s qnames s'
  end.
Proof.
  assert (Here : forall s q rest, R s [] (with_qname s q rest)).
  { intros. apply R_nil; [split; [|split]|]; reflexivity. }
  induction qnames as [|q rest IH]; intros s; simpl.
  { apply R_nil; [split; [|split]|]; reflexivity. }
  assert (Arm : exists sk q' rest' s0, q :: rest = sk ++ q' :: rest' /\
                  arm c (with_qname s q rest) q rest = arm c s0 q' rest' /\ R s sk s0).
  { exists [], q, rest, (with_qname s q rest). auto. }
  destruct (c_cache c) eqn:EC; [|exact Arm].
  destruct (cache_get _ {| k_type := c_rdtype c |} now) as [a|] eqn:EG.
  - assert (Hit : cache_hit (q :: rest) s (with_qname s q rest) a).
    { exists [], q, rest. auto. }
    destruct (a_rrset a) eqn:ERR; simpl; [|destruct (c_raise c) eqn:ER]; simpl; auto.
    split; [exact Hit|]. left. congruence.
  - destruct (cache_get _ {| k_type := tANY |} now) as [a|] eqn:EA; [|exact Arm].
    destruct (Z.eqb_spec (a_rcode a) rcNXDOMAIN) as [ER|]; [|exact Arm].
    set (s1 := with_nx _ _).
    assert (Skip : forall sk s0, R s1 sk s0 -> R s (q :: sk) s0).
    { intros sk s0. apply (R_skip s s1 q a); auto. split; [|split]; reflexivity. }
    assert (Hit : forall s' a', cache_hit rest s1 s' a' -> cache_hit (q :: rest) s s' a').
    { intros s' a' (sk & q' & rest' & -> & HR & H). exists (q :: sk), q', rest'. auto. }
    specialize (IH s1). destruct (next_request c s1 rest now) as [s'|s' a'|s' a'|s'].
    + destruct IH as (sk & q' & rest' & s0 & -> & -> & HR). exists (q :: sk), q', rest', s0. auto.
    + destruct IH. auto.
    + destruct IH. auto.
    + auto.
Qed.
End NextRequest.

(* the light form: which name is armed, from what state *)
Lemma next_request_request : forall c qnames s now s',
  next_request c s qnames now = NRequest s' ->
  exists sk q rest s0, qnames = sk ++ q :: rest /\ s' = arm c s0 q rest /\ frame s s0.
Proof.
  intros c qnames s now s' H.
  assert (S := next_request_spec c now (fun s _ s0 => frame s s0) ltac:(auto)
                 ltac:(intros ? ? ? ? ? ? _ _ _ (F1 & F2 & F3) _ (G1 & G2 & G3); repeat split; congruence)
                 qnames s).
  rewrite H in S. destruct S as (sk & q & rest & s0 & S). eauto.
Qed.

Definition mk_event (s : st) (e : env) (ns : server) (tcp : bool) (backoff bo T : Z) (ob : oreply) (clock2 : Z) : event :=
  {| ev_server := sv_id ns; ev_tcp := tcp; ev_backoff := backoff; ev_timeout := T;
     ev_qname := s_qname s; ev_idx := e_pos e; ev_start := e_clock e + backoff; ev_end := clock2;
     ev_left := length (s_qnames s); ev_level := bo; ev_obs := ob |}.

Definition question_of (c : cfg) (s : st) : question :=
  {| q_name := s_qname s; q_class := c_rdclass c; q_type := c_rdtype c |}.

Definition after_query (e : env) (ev : event) : env :=
  {| e_clock := ev_end ev; e_pos := S (e_pos e); e_trace := e_trace e ++ [ev] |}.

Section Step.
Variables (sc : nat -> outcome) (c : cfg) (start : Z).

(* one query of the loop: the server chosen, the timeout granted, what came back and when; s1 is
   the state query_result will be given *)
Definition asked (s : st) (e : env) (s1 : st) (ns : server) (ev : event) : Prop :=
  exists tcp backoff cur bo T ob clock2,
    s1 = serving s ns tcp cur bo /\ ev = mk_event s e ns tcp backoff bo T ob clock2 /\
    choice c s ns tcp backoff cur bo /\
    compute_timeout start (c_lifetime c) (c_timeout c) (e_clock e + backoff) = inl T /\
    observe (face (sc (e_pos e)) tcp) T (e_clock e + backoff) (question_of c s) = (ob, clock2).

Definition result_of (s1 : st) (ev : event) : qres :=
  query_result c s1 (ev_end ev) (Z.of_nat (ev_idx ev)) (ev_obs ev).

(* after the query the loop goes on: same candidate, or the next one after an NXDOMAIN *)
Inductive continues (s1 : st) (ev : event) (s' : st) : Prop :=
| c_cont : result_of s1 ev = QCont s' -> continues s1 ev s'
| c_next s2 : result_of s1 ev = QNext s2 ->
    next_request c s2 (s_qnames s2) (ev_end ev) = NRequest s' -> continues s1 ev s'.

(* ... or the resolution ends with the reply *)
Inductive ends (s1 : st) (ev : event) : final -> st -> Prop :=
| e_answer s' a : result_of s1 ev = QAnswer s' a -> ends s1 ev (FAnswer a) s'
| e_noanswer s' a : result_of s1 ev = QNoAnswer s' a -> ends s1 ev (FNoAnswer a) s'
| e_yx s' : result_of s1 ev = QYX s' -> ends s1 ev FYXDOMAIN s'
| e_int k : result_of s1 ev = QInt k -> ends s1 ev (FInternal k) s1
| e_next s2 r f s' : result_of s1 ev = QNext s2 ->
    next_request c s2 (s_qnames s2) (ev_end ev) = r -> after_next c r = inr (f, s') -> ends s1 ev f s'.

(* the resolution ends without a query *)
Inductive gives_up (s : st) (e : env) : final -> st -> env -> Prop :=
| g_assert k : s_retry_with_tcp s = true -> (forall ns, s_nameserver s = Some ns -> sv_maxsize ns = true) ->
    gives_up s e (FInternal k) s e
| g_none : s_retry_with_tcp s = false -> s_current s = [] -> s_nameservers s = [] ->
    gives_up s e (FNoNameservers (s_errors s)) s e
| g_lifetime ns tcp backoff cur bo d :
    choice c s ns tcp backoff cur bo ->
    compute_timeout start (c_lifetime c) (c_timeout c) (e_clock e + backoff) = inr d ->
    gives_up s e (FLifetime (s_errors s) d) (serving s ns tcp cur bo)
             {| e_clock := e_clock e + backoff; e_pos := e_pos e; e_trace := e_trace e |}.

Lemma step_spec : forall s e,
  match step sc c start s e with
  | inl (s', e') => exists s1 ns ev, asked s e s1 ns ev /\ continues s1 ev s' /\ e' = after_query e ev
  | inr (f, s', e') =>
      gives_up s e f s' e' \/ exists s1 ns ev, asked s e s1 ns ev /\ ends s1 ev f s' /\ e' = after_query e ev
  end.
Proof.
  intros s e. unfold step. pose proof (next_nameserver_spec c s) as N.
  destruct (next_nameserver c s) as [s1 ns tcp backoff|s1|k].
  - destruct N as (cur & bo & -> & HC).
    destruct (compute_timeout _ _ _ _) as [T|d] eqn:ET; [|left; exact (g_lifetime s e _ _ _ _ _ _ HC ET)].
    destruct (observe _ _ _ _) as [ob clock2] eqn:EO.
    set (s1 := serving s ns tcp cur bo). set (ev := mk_event s e ns tcp backoff bo T ob clock2).
    assert (A : asked s e s1 ns ev) by (exists tcp, backoff, cur, bo, T, ob, clock2; auto).
    change (query_result c s1 clock2 (Z.of_nat (e_pos e)) ob) with (result_of s1 ev).
    change {| e_clock := clock2; e_pos := _; e_trace := _ |} with (after_query e ev).
    assert (C : forall s', continues s1 ev s' ->
                  exists s2 ns0 ev0, asked s e s2 ns0 ev0 /\ continues s2 ev0 s' /\ after_query e ev = after_query e ev0)
      by eauto 7.
    assert (E : forall f s', ends s1 ev f s' ->
                  gives_up s e f s' (after_query e ev) \/
                  exists s2 ns0 ev0, asked s e s2 ns0 ev0 /\ ends s2 ev0 f s' /\ after_query e ev = after_query e ev0)
      by (right; eauto 7).
    destruct (result_of s1 ev) as [s2|s2 a|s2|s2 a|s2|k] eqn:EQ;
      [apply C, c_cont, EQ|apply E, e_answer, EQ| |apply E, e_noanswer, EQ|apply E, e_yx, EQ|apply E, e_int, EQ].
    change clock2 with (ev_end ev).
    destruct (next_request c s2 (s_qnames s2) (ev_end ev)) eqn:ER; simpl;
      [apply C; eapply c_next; eassumption|apply E; eapply e_next; [exact EQ|exact ER|reflexivity]..].
  - destruct N as (-> & R1 & R2 & R3). left. apply g_none; assumption.
  - destruct N as (R1 & R2). left. apply g_assert; assumption.
Qed.

(* the two ways the loop goes on, as terms over the state s1 the query was made from: the reply is
   in no terminal class and the server is kept or dropped; or it is an acceptable NXDOMAIN and the
   next candidate without cached NXDOMAIN is armed *)
Lemma continues_cases : forall s1 ns ev s', continues s1 ev s' -> s_nameserver s1 = Some ns ->
  (accepts (ev_obs ev) = None /\ nx_accepts (ev_obs ev) = None /\ is_yx (ev_obs ev) = false /\
   exists nss errs,
     s' = upd s1 nss errs (s_retry_with_tcp s1 || is_trunc (ev_obs ev) && negb (s_tcp_attempt s1))
            (s_nx s1) (s_cache s1) /\
     if drops c (s_tcp_attempt s1) (ev_obs ev) then remove_server ns (s_nameservers s1) = Some nss
     else nss = s_nameservers s1)
  \/
  (nx_accepts (ev_obs ev) <> None /\
   exists sk q rest s0, s_qnames s1 = sk ++ q :: rest /\ s' = arm c s0 q rest /\
     s_have_request s0 = s_have_request s1 /\ s_nameservers s0 = s_nameservers s1).
Proof.
  intros s1 ns ev s' HC EN.
  pose proof (query_result_spec c s1 (ev_end ev) (Z.of_nat (ev_idx ev)) (ev_obs ev) ns EN) as Q.
  fold (result_of s1 ev) in Q. destruct HC as [HQ|s2 HQ HR]; rewrite HQ in Q.
  - left. exact Q.
  - right. destruct Q as (m & a & _ & Hnx & _ & ->). split; [exact Hnx|].
    apply next_request_request in HR. destruct HR as (sk & q & rest & s0 & HR & -> & F1 & F2 & _).
    exists sk, q, rest, s0. auto.
Qed.

Lemma step_no_fuel : forall s e f s' e', step sc c start s e = inr (f, s', e') -> f <> FFuel.
Proof.
  intros s e f s' e' H. pose proof (step_spec s e) as S. rewrite H in S.
  destruct S as [G|(s1 & ns & ev & _ & E & _)]; [destruct G; discriminate|].
  destruct E as [| | | |s2 r f s' _ _ E]; try discriminate.
  destruct r; simpl in E; inversion E; discriminate.
Qed.
End Step.

(* Invariants indexed by the queries made so far.  I holds when the first request is armed and is
   kept by an iteration that goes on; F holds of the result: when the cache answers at once, when an
   iteration gives up without a query, and when a reply ends the resolution. *)
Section Resolution.
Variables (sc : nat -> outcome) (c : cfg) (ch : cache) (e : env).
Variable I : list event -> st -> env -> Prop.
Variable F : list event -> final -> st -> env -> Prop.
Hypothesis Hinit : forall s1, next_request c (init_st c ch) (c_qnames c) (e_clock e) = NRequest s1 -> I [] s1 e.
Hypothesis Hhit : forall r f s1, next_request c (init_st c ch) (c_qnames c) (e_clock e) = r ->
  after_next c r = inr (f, s1) -> F [] f s1 e.
Hypothesis Hstep : forall tr s0 e0 s1 ns ev s', I tr s0 e0 ->
  asked sc c (e_clock e) s0 e0 s1 ns ev -> continues c s1 ev s' -> I (tr ++ [ev]) s' (after_query e0 ev).
Hypothesis Hstop : forall tr s0 e0 f s' e', I tr s0 e0 -> gives_up c (e_clock e) s0 e0 f s' e' -> F tr f s' e'.
Hypothesis Hend : forall tr s0 e0 s1 ns ev f s', I tr s0 e0 ->
  asked sc c (e_clock e) s0 e0 s1 ns ev -> ends c s1 ev f s' -> F (tr ++ [ev]) f s' (after_query e0 ev).

Theorem resolution_ind : forall fuel f s' e',
  resolve_with fuel sc c ch e = (f, s', e') -> f <> FFuel ->
  exists new, e_trace e' = e_trace e ++ new /\ F new f s' e'.
Proof.
  intros fuel f s' e' H HF. unfold resolve_with in H.
  destruct (next_request c (init_st c ch) (c_qnames c) (e_clock e)) as [s1| | |] eqn:ER;
    [|injection H as <- <- <-; exists []; rewrite app_nil_r; split; [reflexivity|];
      eapply Hhit; reflexivity..].
  simpl in H.
  refine (loop_ind sc c (e_clock e)
            (fun s0 e0 => exists tr, e_trace e0 = e_trace e ++ tr /\ I tr s0 e0)
            (fun f s' e' => exists new, e_trace e' = e_trace e ++ new /\ F new f s' e')
            _ _ fuel s1 e f s' e' _ H HF).
  - intros s0 e0 s2 e2 (tr & HT & HI) HS. pose proof (step_spec sc c (e_clock e) s0 e0) as S.
    rewrite HS in S. destruct S as (s3 & ns & ev & HA & HC & ->).
    exists (tr ++ [ev]). simpl. rewrite HT, app_assoc. eauto.
  - intros s0 e0 f0 s2 e2 (tr & HT & HI) HS. pose proof (step_spec sc c (e_clock e) s0 e0) as S.
    rewrite HS in S. destruct S as [G|(s3 & ns & ev & HA & HE & ->)].
    + exists tr. split; [destruct G; exact HT|eauto].
    + exists (tr ++ [ev]). simpl. rewrite HT, app_assoc. eauto.
  - exists []. rewrite app_nil_r. auto.
Qed.
End Resolution.
