(* RFC 3597 generic form: GenericRdata.to_styled_text with any hex chunk size and any separator
   made of blanks is read back by dns.rdata.from_text as the same octets, both for an unknown type
   (GenericRdata.from_text) and for a known type (generic syntax branch: wire extracted, decoded by
   the type's from_wire, re-encoded and compared). *)
From DV Require Import Base.Prelude Model.TokM Proofs.ListFacts Proofs.TokEsc Proofs.TokWords Proofs.TokShape Proofs.TokDec Proofs.TokHex.
Open Scope Z_scope.

Definition hash_tok : token := mkTok tIDENT [92; 35] true None.

(* the token `\#` followed by a blank *)
Lemma get0_hash r :
  get0 (mkSt (92 :: 35 :: 32 :: r) 0%nat false None) = Ok (hash_tok, mkSt (32 :: r) 0%nat false None).
Proof.
  exact (get0_word_q false [] [92; 35] (32 :: r) eq_refl (un_pair 35 [] ltac:(discriminate) un_nil)
           ltac:(discriminate) (word_end_blank r)).
Qed.

(* everything after the `\#` token *)
Lemma generic_tail d chunk sep rest :
  all_bytes d = true -> forallb is_blank sep = true -> line_end rest ->
  let st1 := mkSt (32 :: dec (zlen d) ++ 32 :: styled_hexify d chunk sep ++ rest) 0%nat false None in
  exists te st3, is_eol_or_eof te = true /\ ungot st3 = Some te /\
    (do ls <- get_int st1 10;
     let '(len, st2) := ls in
     do hs <- concatenate_remaining_identifiers st2 true;
     let '(hex, st3) := hs in
     do hexb <- utf8_encode hex;
     do data <- unhexlify hexb;
     if negb (zlen data =? len) then Lib eSyntax else Ok (data, st3)) = Ok (d, st3).
Proof.
  intros Hd Hsep Hrest st1. subst st1.
  destruct (hexlify_safe d Hd) as [Hs Ha].
  (* the length *)
  assert (Hn : 0 <= zlen d) by (unfold zlen; lia). unfold get_int.
  change (mkSt (32 :: dec (zlen d) ++ 32 :: styled_hexify d chunk sep ++ rest) 0%nat false None)
    with (stq false ([32] ++ dec (zlen d) ++ 32 :: styled_hexify d chunk sep ++ rest)).
  rewrite (get_unescaped_tok _ _ _ (get0_word_q false [32] (dec (zlen d)) (32 :: styled_hexify d chunk sep ++ rest) eq_refl
                                      (units_safe _ (dec_safe _ Hn)) (dec_nonempty _) (word_end_blank _)) (dec_safe _ Hn)).
  cbn [bind fst snd]. rewrite as_int_dec by exact Hn. cbn [bind].
  (* the hex chunks *)
  assert (Hch : chunked (hexlify d) (32 :: styled_hexify d chunk sep)).
  { apply ch_blank; [reflexivity|]. apply wordbreak_chunked; assumption. }
  change (stq false (32 :: styled_hexify d chunk sep ++ rest))
    with (mkSt ((32 :: styled_hexify d chunk sep) ++ rest) 0%nat false None).
  destruct (concatenate_chunked _ _ rest true Hch Hrest (or_introl eq_refl)) as (te & st3 & H1 & H2 & E).
  rewrite E. cbn [bind]. rewrite utf8_ascii by exact Ha. cbn [bind].
  rewrite unhexlify_hexlify by exact Hd. cbn [bind]. rewrite Z.eqb_refl. cbn [negb].
  exists te, st3. split; [exact H1|]. split; [exact H2|reflexivity].
Qed.

Lemma generic_text_shape d chunk sep rest :
  generic_to_text d chunk sep ++ rest
  = 92 :: 35 :: 32 :: dec (zlen d) ++ 32 :: styled_hexify d chunk sep ++ rest.
Proof. unfold generic_to_text. cbn [app]. rewrite <- !app_assoc. reflexivity. Qed.

Theorem generic_roundtrip_unknown d chunk sep rest :
  all_bytes d = true -> forallb is_blank sep = true -> line_end rest ->
  rdata_from_text_generic (generic_to_text d chunk sep ++ rest) = Ok d.
Proof.
  intros Hd Hsep Hrest. unfold rdata_from_text_generic, generic_from_text, init.
  rewrite generic_text_shape, get0_hash. cbn [bind]. unfold hash_tok at 1 2, is_identifier. cbn [ttype tvalue].
  replace (tIDENT =? tIDENT) with true by reflexivity. rewrite zlist_eqb_refl. cbn [negb orb].
  destruct (generic_tail d chunk sep rest Hd Hsep Hrest) as (te & st3 & H1 & H2 & E).
  cbv zeta in E. rewrite E. cbn [bind fst snd].
  destruct (get_eol_ungot st3 te H2 H1) as (st' & E2). rewrite E2. reflexivity.
Qed.

(* known type: fw = the type's from_wire (all exceptions already wrapped), tw = its to_wire *)
Theorem generic_roundtrip_known {V} (ft : tstate -> res (V * tstate))
        (fw : list Z -> res V) (tw : V -> res (list Z)) (v : V) (w : list Z) chunk sep rest :
  tw v = Ok w -> fw w = Ok v ->
  all_bytes w = true -> forallb is_blank sep = true -> line_end rest ->
  rdata_from_text ft fw tw (generic_to_text w chunk sep ++ rest) = Ok v.
Proof.
  intros Htw Hfw Hd Hsep Hrest. unfold rdata_from_text, init.
  rewrite generic_text_shape, get0_hash. cbn [bind]. unfold unget at 1. cbn [ungot bind inp multiline quoting].
  unfold hash_tok at 1 2, is_identifier at 1. cbn [ttype tvalue].
  replace (tIDENT =? tIDENT) with true by reflexivity. rewrite zlist_eqb_refl. cbn [andb].
  unfold generic_from_text. unfold get0 at 1, get at 1. cbn [ungot].
  unfold hash_tok, is_identifier. cbn [ttype tvalue].
  change (tIDENT =? tWS) with false. change (tIDENT =? tCOMMENT) with false.
  change (tIDENT =? tIDENT) with true. cbv iota.
  cbn [bind inp multiline quoting ttype tvalue]. rewrite ?zlist_eqb_refl.
  change (tIDENT =? tIDENT) with true. cbn [negb orb].
  destruct (generic_tail w chunk sep rest Hd Hsep Hrest) as (te & st3 & H1 & H2 & E).
  cbv zeta in E. rewrite E. cbn [bind]. rewrite Hfw. cbn [bind]. rewrite Htw. cbn [bind].
  rewrite zlist_eqb_refl. cbn [negb bind fst snd].
  destruct (get_eol_ungot st3 te H2 H1) as (st' & E2). rewrite E2. reflexivity.
Qed.

(* instance: TXT-like types in generic syntax *)
Lemma txt_wire_roundtrip_acc strings : Forall (fun s => all_bytes s = true /\ zlen s <= 255) strings ->
  forall fuel acc, (length (txt_to_wire strings) < fuel)%nat ->
  txt_wire_loop fuel (txt_to_wire strings) acc = Ok (rev acc ++ strings).
Proof.
  induction strings as [|s ss IH]; intros Hss fuel acc Hf.
  - destruct fuel; [cbn in Hf; lia|]. cbn. rewrite app_nil_r. reflexivity.
  - inversion Hss as [|? ? [Hb Hl] Hss']; subst.
    destruct fuel; [cbn in Hf; lia|].
    unfold txt_to_wire in *. cbn [flat_map app txt_wire_loop].
    cbn [flat_map app length] in Hf. rewrite !app_length in Hf.
    replace (Z.to_nat (zlen s)) with (length s) by (unfold zlen; lia).
    rewrite app_length.
    replace (length s + length (flat_map (fun s0 : list Z => zlen s0 :: s0) ss) <? length s)%nat with false
      by (symmetry; apply Nat.ltb_ge; lia).
    rewrite skipn_app, skipn_all, Nat.sub_diag, firstn_app, firstn_all, Nat.sub_diag. cbn [skipn firstn app].
    rewrite app_nil_r. rewrite IH by (auto; lia). cbn [rev]. rewrite <- app_assoc. reflexivity.
Qed.

Lemma txt_to_wire_bytes strings : Forall (fun s => all_bytes s = true /\ zlen s <= 255) strings ->
  all_bytes (txt_to_wire strings) = true.
Proof.
  induction 1 as [|s ss [Hb Hl] _ IH]; [reflexivity|].
  unfold txt_to_wire, all_bytes in *. cbn [flat_map]. rewrite forallb_app. cbn [forallb].
  rewrite Hb, IH. unfold is_byte, zlen in *. replace ((0 <=? Z.of_nat (length s)) && (Z.of_nat (length s) <? 256)) with true by lia.
  reflexivity.
Qed.

Theorem txt_generic_roundtrip strings chunk sep rest :
  strings <> [] -> Forall (fun s => all_bytes s = true /\ zlen s <= 255) strings ->
  forallb is_blank sep = true -> line_end rest ->
  rdata_from_text_txt (generic_to_text (txt_to_wire strings) chunk sep ++ rest) = Ok strings.
Proof.
  intros Hne Hss Hsep Hrest. unfold rdata_from_text_txt.
  apply generic_roundtrip_known with (w := txt_to_wire strings); try assumption; [reflexivity| |].
  - unfold txt_from_wire. rewrite txt_wire_roundtrip_acc by (auto; lia). cbn [bind rev app].
    destruct strings; [congruence|reflexivity].
  - apply txt_to_wire_bytes, Hss.
Qed.
