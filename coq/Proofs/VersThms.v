(* C11 - what an operation can do to the state, the invariant on every history, and the theorems. *)
From DV Require Import Base.Prelude Model.VersM Proofs.VersInv.
From Coq Require Import Sorting.Sorted.
Import VersM.

Local Open Scope Z_scope.

Definition lookup (o : op) (vs : list version) : option version :=
  match o with
  | OpenLatest => last_opt vs
  | OpenId i => find_id_rev i (rev vs)
  | OpenSerial x => find_serial_rev x (rev vs)
  | _ => None
  end.

Lemma find_id_rev_in i l v : find_id_rev i l = Some v -> In v l /\ vid v = i.
Proof.
  induction l as [|a l IH]; cbn; [discriminate|].
  destruct (vid a =? i) eqn:E.
  - intros H; inversion H; subst. split; [left; reflexivity|lia].
  - intros H. destruct (IH H). split; [right|]; assumption.
Qed.

(* reader(serial=) scans from the newest end and stops at the first version carrying that serial *)
Lemma find_serial_rev_split x l v : find_serial_rev x l = Some v ->
  serial_of (vcont v) = Some x /\
  exists l1 l2, l = l1 ++ v :: l2 /\ forall u, In u l1 -> serial_of (vcont u) <> Some x.
Proof.
  induction l as [|a l IH]; cbn; [discriminate|].
  assert (Hskip : serial_of (vcont a) <> Some x -> find_serial_rev x l = Some v ->
            serial_of (vcont v) = Some x /\
            exists l1 l2, a :: l = l1 ++ v :: l2 /\ forall u, In u l1 -> serial_of (vcont u) <> Some x).
  { intros Ha H. destruct (IH H) as [Hv [l1 [l2 [-> Hn]]]]. split; [exact Hv|].
    exists (a :: l1), l2. split; [reflexivity|]. intros u [<-|Hu]; [exact Ha|apply Hn; exact Hu]. }
  destruct (serial_of (vcont a)) as [s'|] eqn:Es; [|apply Hskip; discriminate].
  destruct (s' =? x) eqn:E; [|apply Hskip; intros X; inversion X; lia].
  intros H; inversion H; subst. split; [rewrite Es; f_equal; lia|].
  exists [], l. split; [reflexivity|intros u []].
Qed.

Lemma lookup_spec o vs v : lookup o vs = Some v ->
  In v vs /\ match o with
             | OpenLatest => last_opt vs = Some v
             | OpenId j => vid v = j
             | OpenSerial x => serial_of (vcont v) = Some x
             | _ => False
             end.
Proof.
  destruct o; cbn; try discriminate; intros H.
  - split; [apply last_opt_in|]; exact H.
  - apply find_id_rev_in in H. rewrite <- in_rev in H. exact H.
  - apply find_serial_rev_split in H. destruct H as [Hs [l1 [l2 [E _]]]]. split; [|exact Hs].
    apply in_rev. rewrite E. apply in_elt.
Qed.

Definition policy_of (o : op) : option pol :=
  match o with
  | SetPolicy p => Some p
  | SetMax None => Some pol_never
  | SetMax (Some n) => if n <? 1 then None else Some (pol_max n)
  | _ => None
  end.

(* the state on which _prune_versions_unlocked is called *)
Inductive staged (s : st) : op -> st -> Prop :=
| st_close h : h <? next_h s = true -> has_reader h (readers s) = true ->
    staged s (Close h) (mkSt (versions s) (remove_reader h (readers s)) (policy s) (wtxn s) (next_h s) (hist s))
| st_commit w : wtxn s = Some w -> wchanged w = true ->
    staged s WCommit (mkSt (versions s ++ [mkV (wid w) (wcont w)]) (readers s) (policy s) None (next_h s)
                           (hist s ++ [mkV (wid w) (wcont w)]))
| st_policy o p : policy_of o = Some p ->
    staged s o (mkSt (versions s) (readers s) p (wtxn s) (next_h s) (hist s)).

Lemma staged_step s o s0 : staged s o s0 -> step s o = pruning s0.
Proof.
  destruct 1 as [h E1 E2|w E1 E2|o p E].
  - cbn [step]. rewrite E1, E2. reflexivity.
  - cbn [step]. rewrite E1, E2. reflexivity.
  - destruct o as [| | | | | | | | | |[n|]|p']; try discriminate; cbn [step policy_of] in *.
    + destruct (n <? 1); [discriminate|]. injection E as <-. reflexivity.
    + injection E as <-. reflexivity.
    + injection E as <-. reflexivity.
Qed.

Lemma staged_pre s o s0 : Inv s -> staged s o s0 -> Pre s0.
Proof.
  intros H St. pose proof (inv_versions_sorted s H) as Hsv.
  destruct H as [Hsh [d Ed] Hne Hpin Hh Hnd Hw _].
  destruct St as [h _ _|w Ew _|o p _]; constructor; cbn; try assumption; try (exists d; exact Ed).
  - intros r Hr. apply Hpin, (in_remove_reader _ _ _ Hr).
  - intros r Hr. apply Hh, (in_remove_reader _ _ _ Hr).
  - apply nodup_remove_reader, Hnd.
  - (* the new id is next_id of the deque, which is next_id of the whole history *)
    apply sorted_snoc; [exact Hsh|]. intros x Hx. cbn. rewrite (Hw w Ew).
    rewrite <- (next_id_suffix d) by exact Hne. rewrite <- Ed. apply next_id_gt; assumption.
  - exists d. rewrite Ed. symmetry. apply app_assoc.
  - destruct (versions s); discriminate.
  - intros r Hr. destruct (Hpin r Hr) as [v [Hv E]]. exists v. split; [apply in_or_app; left; exact Hv|exact E].
  - discriminate.
Qed.

Definition wtxn_op (o : op) : bool :=
  match o with WBegin _ | WPut _ _ | WDel _ | WCommit | WRollback => true | _ => false end.

(* an operation is refused on purpose, registers a reader on a retained version, only touches
   the write transaction, or edits the state and prunes it *)
Inductive outcome (s : st) (o : op) : res (st * result) -> Prop :=
| out_lib e : outcome s o (Lib e)
| out_open v : lookup o (versions s) = Some v ->
    outcome s o (Ok (fst (register s v), ROpened (next_h s) (vid v) (vcont v)))
| out_wtxn wt : wtxn_op o = true -> (forall w, wt = Some w -> wid w = next_id (versions s)) ->
    outcome s o (Ok (mkSt (versions s) (readers s) (policy s) wt (next_h s) (hist s), RUnit))
| out_pruned s0 vs' : staged s o s0 -> prunes (policy s0) (versions s0) (readers s0) vs' ->
    Inv (with_versions s0 vs') -> outcome s o (Ok (with_versions s0 vs', RUnit)).

(* the pruning operations never fail *)
Lemma staged_ok s o s0 : Inv s -> staged s o s0 ->
  exists vs', step s o = Ok (with_versions s0 vs', RUnit) /\ Inv (with_versions s0 vs') /\
              prunes (policy s0) (versions s0) (readers s0) vs'.
Proof.
  intros H St. rewrite (staged_step _ _ _ St).
  destruct (pruning_spec s0 (staged_pre _ _ _ H St)) as [vs' [E [Hp Hi]]]. eauto.
Qed.

Lemma staged_outcome s o s0 : Inv s -> staged s o s0 -> outcome s o (step s o).
Proof.
  intros H St. destruct (staged_ok _ _ _ H St) as [vs' [-> [Hi Hp]]]. apply out_pruned; assumption.
Qed.

Theorem step_outcome s o : Inv s -> outcome s o (step s o).
Proof.
  intros H.
  destruct o as [|i|x|i x|h|repl|k v|k| | |n|p].
  - cbn. destruct (inv_last s H) as [v E]. rewrite E. exact (out_open s OpenLatest v E).
  - cbn. destruct (find_id_rev i (rev (versions s))) as [v|] eqn:E; [|constructor]. exact (out_open s (OpenId i) v E).
  - cbn. destruct (find_serial_rev x (rev (versions s))) as [v|] eqn:E; [|constructor].
    exact (out_open s (OpenSerial x) v E).
  - constructor.
  - destruct (h <? next_h s) eqn:E1; [destruct (has_reader h (readers s)) eqn:E2|].
    + exact (staged_outcome _ _ _ H (st_close s h E1 E2)).
    + cbn. rewrite E1, E2. constructor.
    + cbn. rewrite E1. constructor.
  - cbn. destruct (wtxn s); constructor; [reflexivity|]. intros w E. inversion E. reflexivity.
  - cbn. destruct (wtxn s) as [w|] eqn:Ew; constructor; [reflexivity|]. intros w' E. inversion E. apply (inv_wid s H w Ew).
  - cbn. destruct (wtxn s) as [w|] eqn:Ew; constructor; [reflexivity|]. intros w' E. inversion E. apply (inv_wid s H w Ew).
  - destruct (wtxn s) as [w|] eqn:Ew; [destruct (wchanged w) eqn:Ec|].
    + exact (staged_outcome _ _ _ H (st_commit s w Ew Ec)).
    + cbn. rewrite Ew, Ec. constructor; [reflexivity|discriminate].
    + cbn. rewrite Ew. constructor.
  - cbn. destruct (wtxn s); constructor; [reflexivity|discriminate].
  - destruct (policy_of (SetMax n)) as [p|] eqn:E; [exact (staged_outcome _ _ _ H (st_policy s _ p E))|].
    destruct n as [n|]; [|discriminate]. cbn in *. destruct (n <? 1); [constructor|discriminate].
  - exact (staged_outcome _ _ _ H (st_policy s (SetPolicy p) p eq_refl)).
Qed.

Lemma step_ok s o s' r : Inv s -> step s o = Ok (s', r) -> outcome s o (Ok (s', r)).
Proof. intros H E. rewrite <- E. apply step_outcome, H. Qed.

Theorem step_inv s o s' r : Inv s -> step s o = Ok (s', r) -> Inv s'.
Proof.
  intros H E. pose proof (step_ok _ _ _ _ H E) as X. inversion X as [|v Hv|wt _ Hw|s0 vs' _ _ Hi]; subst.
  - apply register_inv; [exact H|apply (lookup_spec _ _ _ Hv)].
  - apply inv_set_wtxn; assumption.
  - exact Hi.
Qed.

(* the asserts and deque index operations of the code never fail *)
Theorem step_no_internal s o e : Inv s -> step s o <> Internal e.
Proof. intros H E. pose proof (step_outcome s o H) as X. rewrite E in X. inversion X. Qed.

Lemma step_st_inv s o : Inv s -> Inv (step_st s o).
Proof.
  intros H. unfold step_st. destruct (step s o) as [[s' r]|e|e] eqn:E; try exact H.
  eapply step_inv; [exact H|exact E].
Qed.

Lemma run_ops_inv ops : forall s, Inv s -> Inv (run_ops s ops).
Proof.
  induction ops as [|o ops IH]; intros s H; [exact H|].
  cbn. apply IH. apply step_st_inv. exact H.
Qed.

Theorem reachable_inv ops : Inv (run_ops init ops).
Proof. apply run_ops_inv. apply init_inv. Qed.

(* the operations of readers and the changes of policy leave the write transaction, the history and the
   newest version alone; they register one reader on a retained version, or return nothing and keep
   the readers or (Close) remove one *)
Lemma reader_op_spec s o s' r : Inv s -> wtxn_op o = false -> step s o = Ok (s', r) ->
  wtxn s' = wtxn s /\ hist s' = hist s /\ last_opt (versions s') = last_opt (versions s) /\
  ((exists v, In v (versions s) /\ r = ROpened (next_h s) (vid v) (vcont v) /\
              readers s' = readers s ++ [mkR (next_h s) (vid v)] /\ next_h s' = next_h s + 1) \/
   (r = RUnit /\ next_h s' = next_h s /\
    (readers s' = readers s \/ exists h, o = Close h /\ readers s' = remove_reader h (readers s)))).
Proof.
  intros H Ho E. pose proof (step_ok _ _ _ _ H E) as X. inversion X as [|v Hv|wt Hop _|s0 vs' St Hp _]; subst.
  - cbn. repeat split. left. exists v. repeat split. apply (lookup_spec _ _ _ Hv).
  - congruence.
  - cbn. rewrite (prunes_last _ _ _ _ Hp). destruct St; try discriminate; cbn; repeat split; right; eauto 6.
Qed.

(* a commit that changed something never fails when the transaction carries the next id *)
Lemma commit_ok s w : Inv s -> wtxn s = Some w -> wchanged w = true ->
  exists s', step s WCommit = Ok (s', RUnit) /\ Inv s' /\ wtxn s' = None /\
             hist s' = hist s ++ [mkV (wid w) (wcont w)] /\ last_opt (versions s') = Some (mkV (wid w) (wcont w)) /\
             readers s' = readers s /\ next_h s' = next_h s.
Proof.
  intros H Ew Ec. destruct (staged_ok _ _ _ H (st_commit s w Ew Ec)) as [vs' [E [Hi Hp]]].
  apply prunes_last in Hp. cbn in Hp. rewrite last_opt_app in Hp.
  eexists. split; [exact E|]. split; [exact Hi|]. cbn. auto.
Qed.

Lemma step_hist s o s' r : Inv s -> step s o = Ok (s', r) -> exists new, hist s' = hist s ++ new.
Proof.
  intros H E. assert (Hsame : exists new, hist s = hist s ++ new) by (exists []; symmetry; apply app_nil_r).
  pose proof (step_ok _ _ _ _ H E) as X. inversion X as [|v _|wt _ _|s0 vs' St _ _]; subst; try exact Hsame.
  destruct St; cbn; try exact Hsame. eexists. reflexivity.
Qed.

Lemma run_ops_hist ops : forall s, Inv s -> exists new, hist (run_ops s ops) = hist s ++ new.
Proof.
  induction ops as [|o ops IH]; intros s H; [exists []; symmetry; apply app_nil_r|].
  change (run_ops s (o :: ops)) with (run_ops (step_st s o) ops).
  destruct (IH (step_st s o) (step_st_inv s o H)) as [n2 ->].
  unfold step_st. destruct (step s o) as [[s' r]|e|e] eqn:E; try (exists n2; reflexivity).
  destruct (step_hist _ _ _ _ H E) as [n1 ->]. exists (n1 ++ n2). symmetry. apply app_assoc.
Qed.

Lemma find_reader_in h rs r : find_reader h rs = Some r -> In r rs /\ rh r = h.
Proof.
  induction rs as [|a rs IH]; cbn; [discriminate|].
  destruct (rh a =? h) eqn:E.
  - intros X; inversion X; subst. split; [left; reflexivity|lia].
  - intros X. destruct (IH X). split; [right|]; assumption.
Qed.

Lemma find_reader_snoc h rs r x : find_reader h rs = Some r -> find_reader h (rs ++ [x]) = Some r.
Proof.
  induction rs as [|a rs IH]; cbn; [discriminate|].
  destruct (rh a =? h); [tauto|exact IH].
Qed.

Lemma find_reader_remove h h' rs : h' <> h -> find_reader h (remove_reader h' rs) = find_reader h rs.
Proof.
  intros Hne. induction rs as [|a rs IH]; cbn; [reflexivity|].
  destruct (rh a =? h') eqn:E1.
  - destruct (rh a =? h) eqn:E2; [lia|reflexivity].
  - cbn. destruct (rh a =? h); [reflexivity|exact IH].
Qed.

(* a reader still registered in a later state reads what it read: its version is pinned there,
   and ids are unique over the whole history *)
Lemma read_preserved s s' h c :
  Inv s -> Inv s' -> (exists new, hist s' = hist s ++ new) ->
  (forall r, find_reader h (readers s) = Some r -> find_reader h (readers s') = Some r) ->
  read s h = Some c -> read s' h = Some c.
Proof.
  intros H H' [new Eh] Hfr. unfold read.
  destruct (find_reader h (readers s)) as [r|] eqn:Er; [|discriminate]. rewrite (Hfr r eq_refl).
  destruct (find_version (rvid r) (versions s)) as [v|] eqn:Ev; [|discriminate].
  apply find_version_in in Ev. destruct Ev as [Hv Ei].
  destruct (inv_pinned s' H' r) as [v' [Hv' Ei']]; [apply (find_reader_in h), Hfr, eq_refl|].
  assert (v' = v); [|subst v'].
  { apply (sorted_unique (hist s')); [apply (inv_hist_sorted s' H')| | |lia].
    - destruct (inv_suffix s' H') as [d ->]. apply in_or_app. right. exact Hv'.
    - rewrite Eh. destruct (inv_suffix s H) as [d ->]. apply in_or_app. left. apply in_or_app. right. exact Hv. }
  rewrite <- Ei, (find_version_sorted _ _ (inv_versions_sorted s' H') Hv'). tauto.
Qed.

Lemma step_read_stable s o h c :
  Inv s -> read s h = Some c -> o <> Close h -> read (step_st s o) h = Some c.
Proof.
  intros H Hr Hne. unfold step_st. destruct (step s o) as [[s' res]|e|e] eqn:E; try exact Hr.
  apply (read_preserved s); [exact H|exact (step_inv _ _ _ _ H E)|exact (step_hist _ _ _ _ H E)| |exact Hr].
  pose proof (step_ok _ _ _ _ H E) as X. inversion X as [|v _|wt _ _|s0 vs' St _ _]; subst; cbn.
  - intros r. apply find_reader_snoc.
  - tauto.
  - destruct St as [h0 _ _| |]; cbn; try tauto. rewrite find_reader_remove; [tauto|congruence].
Qed.

Theorem snapshot_stable_from ops : forall s h c,
  Inv s -> read s h = Some c -> ~ In (Close h) ops -> read (run_ops s ops) h = Some c.
Proof.
  induction ops as [|o ops IH]; intros s h c H Hr Hn; [exact Hr|].
  cbn in *. apply IH; [apply step_st_inv; exact H| |tauto].
  apply step_read_stable; [exact H|exact Hr|]. intros ->. tauto.
Qed.

(* what a successful open returns is what the reader reads from then on *)
Lemma read_registered s v : Inv s -> In v (versions s) ->
  read (fst (register s v)) (next_h s) = Some (vcont v).
Proof.
  intros H Hv. unfold read. cbn.
  assert (Hf : find_reader (next_h s) (readers s ++ [mkR (next_h s) (vid v)]) = Some (mkR (next_h s) (vid v))).
  { pose proof (inv_handles s H) as Hh. induction (readers s) as [|a rs IH]; cbn.
    - rewrite Z.eqb_refl. reflexivity.
    - destruct (rh a =? next_h s) eqn:E.
      + specialize (Hh a (or_introl eq_refl)). lia.
      + apply IH. intros r Hr. apply Hh. right. exact Hr. }
  rewrite Hf. cbn. rewrite (find_version_sorted _ _ (inv_versions_sorted s H) Hv). reflexivity.
Qed.

Theorem open_reads_requested s o s' h i c :
  Inv s -> step s o = Ok (s', ROpened h i c) ->
  read s' h = Some c /\
  exists v, In v (versions s) /\ vid v = i /\ vcont v = c /\
    match o with
    | OpenLatest => last_opt (versions s) = Some v
    | OpenId j => i = j
    | OpenSerial x => serial_of c = Some x
    | _ => False
    end.
Proof.
  intros H E. pose proof (step_ok _ _ _ _ H E) as X. inversion X as [|v Hv| |]; subst.
  destruct (lookup_spec _ _ _ Hv) as [Hin Ho].
  split; [apply read_registered; assumption|]. exists v. repeat split; assumption.
Qed.

(* whatever an operation removed from the deque was removed by the loop of
   _prune_versions_unlocked: oldest first, each below least_kept and approved by the policy *)
Theorem prune_sound s o s' r : Inv s -> step s o = Ok (s', r) ->
  versions s' = versions s \/
  exists vs0 least, (vs0 = versions s \/ exists nv, vs0 = versions s ++ [nv] /\ hist s' = hist s ++ [nv]) /\
     least_kept vs0 (readers s') = Ok least /\ pruned (policy s') least vs0 (versions s').
Proof.
  intros H E. pose proof (step_ok _ _ _ _ H E) as X. inversion X as [|v _|wt _ _|s0 vs' St [least Hp] _]; subst;
    [left; reflexivity..|right].
  exists (versions s0), least. split; [|exact Hp]. destruct St; cbn; eauto.
Qed.

(* a commit that changed something publishes exactly one version whose id exceeds every id ever used *)
Theorem commit_id_fresh s s' r w :
  Inv s -> wtxn s = Some w -> wchanged w = true -> step s WCommit = Ok (s', r) ->
  hist s' = hist s ++ [mkV (wid w) (wcont w)] /\ forall v, In v (hist s) -> vid v < wid w.
Proof.
  intros H Ew Hc. cbn [step]. rewrite Ew, Hc.
  destruct (prune _ _ _); cbn; try discriminate. intros X; inversion X; subst. cbn.
  split; [reflexivity|]. intros v Hv. rewrite (inv_wid s H w Ew), <- (hist_next_id s H).
  apply next_id_gt; [apply (inv_hist_sorted s H)|exact Hv].
Qed.

(* reader(serial=) picks the NEWEST retained version carrying that serial *)
Theorem open_serial_newest s x s' h i c :
  Inv s -> step s (OpenSerial x) = Ok (s', ROpened h i c) ->
  forall v', In v' (versions s) -> serial_of (vcont v') = Some x -> vid v' <= i.
Proof.
  intros H. cbn [step]. destruct (find_serial_rev x (rev (versions s))) as [v|] eqn:E; [|discriminate].
  intros X. inversion X; subst. clear X. intros v' Hv' Hs.
  destruct (find_serial_rev_split _ _ _ E) as [_ [l1 [l2 [El Hn]]]].
  assert (Evs : versions s = (rev l2 ++ [v]) ++ rev l1).
  { rewrite <- (rev_involutive (versions s)), El, rev_app_distr. cbn. reflexivity. }
  pose proof (inv_versions_sorted s H) as Hsort. rewrite Evs in Hsort, Hv'.
  apply in_app_or in Hv'. destruct Hv' as [Hv'|Hv'].
  - apply sorted_app in Hsort. apply (sorted_last_max (rev l2 ++ [v])); [apply Hsort|apply last_opt_app|exact Hv'].
  - exfalso. apply (Hn v'); [apply in_rev; exact Hv'|exact Hs].
Qed.

Definition after (ops : list op) : st := run_ops init ops.

Lemma after_app ops1 ops2 : after (ops1 ++ ops2) = run_ops (after ops1) ops2.
Proof. unfold after, run_ops. apply fold_left_app. Qed.

Lemma T_ids_strictly_increase ops1 ops2 :
  StronglySorted Z.lt (map vid (hist (after (ops1 ++ ops2)))) /\
  exists new, hist (after (ops1 ++ ops2)) = hist (after ops1) ++ new.
Proof.
  split; [apply (inv_hist_sorted _ (reachable_inv (ops1 ++ ops2)))|].
  rewrite after_app. apply run_ops_hist, reachable_inv.
Qed.

Lemma T_retained_contiguous_suffix ops :
  exists dropped, hist (after ops) = dropped ++ versions (after ops).
Proof. apply (inv_suffix _ (reachable_inv ops)). Qed.

Lemma T_newest_retained ops :
  exists v, last_opt (versions (after ops)) = Some v /\ last_opt (hist (after ops)) = Some v.
Proof.
  destruct (inv_last _ (reachable_inv ops)) as [v E]. exists v. split; [exact E|].
  apply inv_last_hist; [apply reachable_inv|exact E].
Qed.

Lemma T_pinned_retained ops r :
  In r (readers (after ops)) -> exists v, In v (versions (after ops)) /\ vid v = rvid r.
Proof. apply (inv_pinned _ (reachable_inv ops)). Qed.

Lemma T_prune_maximal ops v rest :
  versions (after ops) = v :: rest ->
  rest = [] \/ (exists r, In r (readers (after ops)) /\ rvid r <= vid v) \/
  policy (after ops) (versions (after ops)) v = false.
Proof. apply (inv_maximal _ (reachable_inv ops)). Qed.

Lemma T_prune_sound ops o s' r :
  step (after ops) o = Ok (s', r) ->
  versions s' = versions (after ops) \/
  exists vs0 least,
    (vs0 = versions (after ops) \/
     exists nv, vs0 = versions (after ops) ++ [nv] /\ hist s' = hist (after ops) ++ [nv]) /\
    least_kept vs0 (readers s') = Ok least /\ pruned (policy s') least vs0 (versions s').
Proof. apply prune_sound. apply reachable_inv. Qed.

Lemma T_snapshot_stable ops1 ops2 h c :
  read (after ops1) h = Some c -> ~ In (Close h) ops2 -> read (after (ops1 ++ ops2)) h = Some c.
Proof.
  intros Hr Hn. rewrite after_app. apply snapshot_stable_from; [apply reachable_inv|exact Hr|exact Hn].
Qed.

Lemma T_open_reads_requested ops o s' h i c :
  step (after ops) o = Ok (s', ROpened h i c) ->
  read s' h = Some c /\
  exists v, In v (versions (after ops)) /\ vid v = i /\ vcont v = c /\
    match o with
    | OpenLatest => last_opt (versions (after ops)) = Some v
    | OpenId j => i = j
    | OpenSerial x => serial_of c = Some x
    | _ => False
    end.
Proof. apply open_reads_requested. apply reachable_inv. Qed.

Lemma T_no_internal_error ops o e : step (after ops) o <> Internal e.
Proof. apply step_no_internal. apply reachable_inv. Qed.

Lemma T_commit_id_fresh ops s' r w :
  wtxn (after ops) = Some w -> wchanged w = true -> step (after ops) WCommit = Ok (s', r) ->
  hist s' = hist (after ops) ++ [mkV (wid w) (wcont w)] /\ forall v, In v (hist (after ops)) -> vid v < wid w.
Proof. apply commit_id_fresh. apply reachable_inv. Qed.

Lemma T_open_serial_newest ops x s' h i c :
  step (after ops) (OpenSerial x) = Ok (s', ROpened h i c) ->
  forall v', In v' (versions (after ops)) -> serial_of (vcont v') = Some x -> vid v' <= i.
Proof. apply open_serial_newest. apply reachable_inv. Qed.
