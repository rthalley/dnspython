(* Message-level form of "altered messages never verify": two wire messages that the reader
   accepts as validated under the same key, request MAC and MAC value either carry identical
   authenticated content or exhibit a collision of the truncated keyed hash. *)
From DV Require Import Base.Prelude Proofs.ListFacts.
From DV Require Model.NameM.
From DV Require Import Model.TsigM Proofs.TsigSpec Proofs.TsigLemmas Proofs.TsigInj Proofs.TsigReader.
Open Scope Z_scope.

Lemma get_uint_bound : forall w e p n v p',
  all_bytes w = true -> get_uint w e p n = Ok (v, p') -> 0 <= v < 256 ^ Z.of_nat n.
Proof.
  intros w e p n v p' A G. unfold get_uint, get_bytes in G.
  destruct (Nat.ltb (e - p) n); cbn [bind] in G; [discriminate|]. cbn [fst snd] in G.
  assert (v = be_val (firstn n (skipn p w)) 0) by congruence. subst v.
  pose proof (be_val_bound (firstn n (skipn p w)) 0) as B.
  assert (L : (length (firstn n (skipn p w)) <= n)%nat) by apply firstn_le_length.
  destruct B as [B1 B2].
  { intros x Hx. apply In_firstn, In_skipn in Hx. eapply all_bytes_In; eassumption. }
  { lia. }
  split; [assumption|].
  eapply Z.lt_le_trans; [exact B2|]. rewrite Z.add_0_l, Z.mul_1_l.
  apply Z.pow_le_mono_r; lia.
Qed.

Lemma get_counted2_len : forall w e p b p',
  all_bytes w = true -> get_counted2 w e p = Ok (b, p') -> zlen b < 65536.
Proof.
  intros w e p b p' A G. unfold get_counted2 in G.
  dbind G as vq U. destruct vq as [v q]. apply get_uint_bound in U; [|assumption].
  cbn [fst snd] in G. unfold get_bytes in G.
  destruct (Nat.ltb (e - q) (Z.to_nat v)); [discriminate|]. apply Ok_inj in G.
  assert (b = firstn (Z.to_nat v) (skipn q w)) by congruence. subst b.
  unfold zlen. pose proof (firstn_le_length (Z.to_nat v) (skipn q w)). lia.
Qed.

Lemma tsig_from_wire_wf : forall w e p rd,
  all_bytes w = true -> tsig_from_wire w e p = Ok rd -> tsig_wf rd.
Proof.
  intros w e p rd A T. unfold tsig_from_wire in T.
  match type of T with context [wrap_formerror ?x] => destruct x as [[t q]| |] eqn:X end;
    cbn [wrap_formerror bind] in T; [|destruct (is_formerror e0); discriminate|discriminate].
  cbn [fst snd] in T. destruct (Nat.eqb q e); [|discriminate]. apply Ok_inj in T as <-.
  dbind X as ap N. dbind X as tp Q1. dbind X as fp Q2. dbind X as mp Q3. dbind X as ip Q4. dbind X as ep Q5.
  dbind X as op O. destruct op as [ot oq]. dbind X as t' M. apply Ok_inj in X.
  replace t with t' by congruence. eapply mk_tsig_wf; [exact M|]. eapply get_counted2_len; eassumption.
Qed.

Section WithH.
  Variable H : hashid -> bytes -> bytes -> bytes.

  Lemma read_tamper_needs_collision_lemma :
    forall origin1 origin2 k rmac ctx multi w1 now1 m1 owner1 rd1 w2 now2 m2 owner2 rd2,
      (ctx = None \/ multi = false) ->
      all_bytes w1 = true -> all_bytes w2 = true ->
      read_gen H origin1 w1 (KR_Key k) rmac ctx multi now1 = Ok m1 -> m_tsig m1 = Some (owner1, rd1) ->
      read_gen H origin2 w2 (KR_Key k) rmac ctx multi now2 = Ok m2 -> m_tsig m2 = Some (owner2, rd2) ->
      t_mac rd1 = t_mac rd2 ->
      exists body1 start1 body2 start2 ad1 ad2 h sz,
        m_recs m1 = body1 ++ [(3, TSIG, ANY, start1)] /\ m_recs m2 = body2 ++ [(3, TSIG, ANY, start2)] /\
        get_adcount w1 = Ok ad1 /\ get_adcount w2 = Ok ad2 /\
        assoc_name hashes (kalg k) = Some (h, sz) /\
        let d1 := rfc8945_input (omac rmac) (t_oid rd1) (rfc_received_message w1 ad1 start1) (vars_of k rd1 (t_time rd1)) in
        let d2 := rfc8945_input (omac rmac) (t_oid rd2) (rfc_received_message w2 ad2 start2) (vars_of k rd2 (t_time rd2)) in
        ((length (skipn 2 (rfc_received_message w1 ad1 start1)) = length (skipn 2 (rfc_received_message w2 ad2 start2))
          \/ length (t_other rd1) = length (t_other rd2)) ->
         authenticated w1 ad1 start1 rd1 = authenticated w2 ad2 start2 rd2
         \/ (d1 <> d2 /\
             rfc_truncate (trunc_of sz) (H h (ksecret k) d1) = rfc_truncate (trunc_of sz) (H h (ksecret k) d2))).
  Proof.
    intros until rd2. intros F A1 A2 R1 T1 R2 T2 M.
    apply read_ok in R1 as (body1 & _ & [(_ & N1 & _) | (o1 & r1 & start1 & Rc1 & S1 & _ & D1)]); [congruence|].
    apply read_ok in R2 as (body2 & _ & [(_ & N2 & _) | (o2 & r2 & start2 & Rc2 & S2 & _ & D2)]); [congruence|].
    rewrite T1 in S1. rewrite T2 in S2. inversion S1; subst o1 r1. inversion S2; subst o2 r2.
    destruct D1 as ((e1 & p1 & P1) & ko1 & FK1 & V1). destruct D2 as ((e2 & p2 & P2) & ko2 & FK2 & V2).
    cbn [find_key] in FK1, FK2. inversion FK1; subst ko1. inversion FK2; subst ko2.
    apply tsig_from_wire_wf in P1; [|assumption]. apply tsig_from_wire_wf in P2; [|assumption].
    destruct (tamper_needs_collision_lemma H k rmac ctx multi w1 owner1 rd1 now1 start1 _ w2 owner2 rd2 now2 start2 _
                F A1 A2 P1 P2 V1 V2 M) as (ad1 & ad2 & h & sz & G1 & G2 & Hh & Concl).
    exists body1, start1, body2, start2, ad1, ad2, h, sz. repeat split; assumption.
  Qed.
End WithH.

Lemma nth_error_firstn_lt : forall (A : Type) (l : list A) n p, (p < n)%nat -> nth_error (firstn n l) p = nth_error l p.
Proof.
  intros A l. induction l as [|x l IH]; intros n p L.
  - rewrite firstn_nil. reflexivity.
  - destruct n; [lia|]. destruct p; [reflexivity|]. cbn. apply IH. lia.
Qed.

Lemma nth_error_skipn_add : forall (A : Type) (l : list A) n p, nth_error (skipn n l) p = nth_error l (n + p).
Proof.
  intros A l. induction l as [|x l IH]; intros n p.
  - rewrite skipn_nil. destruct p, n; reflexivity.
  - destruct n; [reflexivity|]. cbn. apply IH.
Qed.

(* octet p of the received wire, 2 <= p < 10 or 12 <= p < tsig_start, is octet p of the message
   that RFC 8945 4.3.2 digests (octets 0-1 are replaced by the original id, 10-11 by ARCOUNT-1) *)
Lemma received_message_octet : forall (wire : bytes) ad start p,
  (10 <= length wire)%nat ->
  ((p < 10)%nat \/ (12 <= p < start)%nat) ->
  nth_error (rfc_received_message wire ad start) p = nth_error wire p.
Proof.
  intros wire ad start p L [P|P]; unfold rfc_received_message.
  - rewrite nth_error_app1 by (rewrite firstn_length_le; lia).
    apply nth_error_firstn_lt. exact P.
  - rewrite nth_error_app2 by (rewrite firstn_length_le; lia).
    rewrite firstn_length_le by lia.
    rewrite nth_error_app2 by (rewrite be_length; lia). rewrite be_length.
    rewrite nth_error_firstn_lt by lia. rewrite nth_error_skipn_add. f_equal. lia.
Qed.

(* hence: two received messages (same cut point) that differ in such an octet have different
   authenticated content, whatever the rest is *)
Lemma altered_octet_changes_authenticated_lemma :
  forall (w1 w2 : bytes) ad1 ad2 start rd1 rd2 p,
    (10 <= length w1)%nat -> (10 <= length w2)%nat ->
    ((2 <= p < 10)%nat \/ (12 <= p < start)%nat) ->
    nth_error w1 p <> nth_error w2 p ->
    authenticated w1 ad1 start rd1 <> authenticated w2 ad2 start rd2.
Proof.
  intros w1 w2 ad1 ad2 start rd1 rd2 p L1 L2 P D E. unfold authenticated in E.
  assert (S : skipn 2 (rfc_received_message w1 ad1 start) = skipn 2 (rfc_received_message w2 ad2 start))
    by congruence.
  apply D.
  rewrite <- (received_message_octet w1 ad1 start p L1) by (destruct P; [left|right]; lia).
  rewrite <- (received_message_octet w2 ad2 start p L2) by (destruct P; [left|right]; lia).
  replace p with (2 + (p - 2))%nat by (destruct P; lia).
  rewrite <- !nth_error_skipn_add. now rewrite S.
Qed.

(* ARCOUNT is authenticated too (as ARCOUNT - 1) *)
Lemma altered_arcount_changes_authenticated_lemma :
  forall (w1 w2 : bytes) ad1 ad2 start1 start2 rd1 rd2,
    (10 <= length w1)%nat -> (10 <= length w2)%nat ->
    0 < ad1 < 65536 -> 0 < ad2 < 65536 -> ad1 <> ad2 ->
    authenticated w1 ad1 start1 rd1 <> authenticated w2 ad2 start2 rd2.
Proof.
  intros w1 w2 ad1 ad2 start1 start2 rd1 rd2 L1 L2 A1 A2 D E. unfold authenticated in E.
  assert (S : skipn 2 (rfc_received_message w1 ad1 start1) = skipn 2 (rfc_received_message w2 ad2 start2))
    by congruence.
  unfold rfc_received_message in S.
  assert (F : forall (w : bytes) (x : octets), (10 <= length w)%nat ->
              skipn 2 (firstn 10 w ++ x) = skipn 2 (firstn 10 w) ++ x).
  { intros w x Lw. rewrite skipn_app. rewrite firstn_length_le by lia. reflexivity. }
  rewrite !F in S by assumption.
  apply app_inj_len in S as [_ S].
  2:{ rewrite !skipn_length, !firstn_length_le by lia. reflexivity. }
  apply app_inj_len in S as [S _]; [|now rewrite !be_length].
  apply be_inj in S; lia.
Qed.
