(* C09: reading a text line by line; the fields of a printed record line as blank-separated pieces. *)
From DV Require Import Base.Prelude Model.NameM Model.ZoneTextM Proofs.ZoneTextBase Proofs.ZoneTextLex
  Proofs.ZoneTextParens.
Open Scope Z_scope.

Definition line_reads (c : cfg) (s : rstate) (line : list Z) (s' : rstate) : Prop :=
  forall rest f, read_loop (S f) c s (line ++ 10 :: rest) = read_loop f c s' rest.

Inductive lines_read (c : cfg) : rstate -> list (list Z) -> rstate -> Prop :=
| lr_nil s : lines_read c s [] s
| lr_cons s l s1 ls s2 :
    line_reads c s l s1 -> lines_read c s1 ls s2 -> lines_read c s (l :: ls) s2.

Lemma lines_read_app c s a s1 b s2 :
  lines_read c s a s1 -> lines_read c s1 b s2 -> lines_read c s (a ++ b) s2.
Proof. induction 1; cbn [app]; intros; [assumption|]. econstructor; eauto. Qed.

Definition text_of (ls : list (list Z)) : list Z := concat (map (fun l => l ++ [10]) ls).

Lemma read_loop_lines c : forall ls s s',
  lines_read c s ls s' -> forall f, (length ls < f)%nat -> read_loop f c s (text_of ls) = Ok s'.
Proof.
  induction 1 as [s|s l s1 ls s2 Hl Hr IH]; intros f Hf.
  - destruct f as [|f]; [lia|]. unfold text_of. cbn [map concat read_loop lex starts_ws process_line eol_ok bind].
    reflexivity.
  - destruct f as [|f]; [cbn in Hf; lia|].
    unfold text_of. cbn [map concat]. rewrite <- app_assoc. cbn [app].
    rewrite Hl. apply IH. cbn in Hf. lia.
Qed.

Lemma length_text_of ls : (length ls <= length (text_of ls))%nat.
Proof.
  unfold text_of. induction ls as [|l ls IH]; cbn [map concat length]; [lia|].
  rewrite !app_length. cbn [length]. lia.
Qed.

(* a line made of clean, separated pieces is read as its tokens *)
Lemma line_reads_pieces c s ps s' :
  sep_ok ps = true ->
  process_line c s (starts_ws (render ps ++ [10])) (toks_of ps) false = Ok s' ->
  line_reads c s (render ps) s'.
Proof.
  intros Hs Hp rest f. cbn [read_loop].
  rewrite (lex_render ps [] rest Hs). cbn [rev app].
  rewrite (starts_ws_any _ rest []), Hp. reflexivity.
Qed.

(* the last piece is not a token *)
Fixpoint ends_ok (ps : list piece) : bool :=
  match ps with
  | [] => true
  | [Tk _] => false
  | _ :: r => ends_ok r
  end.

Lemma sep_ok_app a b : sep_ok a = true -> ends_ok a = true -> sep_ok b = true -> sep_ok (a ++ b) = true.
Proof.
  induction a as [|p a IH]; intros Ha He Hb; [exact Hb|].
  destruct p as [n|t].
  - cbn [app sep_ok] in *. apply IH; assumption.
  - cbn [app sep_ok] in *.
    apply andb_true_iff in Ha as [Ha Hr]. apply andb_true_iff in Ha as [Hc Hn].
    destruct a as [|p' a']; [discriminate|].
    rewrite Hc. cbn [app]. destruct p' as [[|k]|t']; try discriminate. cbn [andb].
    apply IH; assumption.
Qed.

Lemma ends_ok_app a b : ends_ok b = true -> b <> [] -> ends_ok (a ++ b) = true.
Proof.
  intros Hb Hne. induction a as [|p a IH]; [exact Hb|].
  cbn [app]. assert (Hne' : a ++ b <> []) by (intro H; apply app_eq_nil in H; tauto).
  destruct (a ++ b) as [|q l] eqn:E; [congruence|]. destruct p; exact IH.
Qed.

(* pieces that are well separated, end in a blank (or are empty) and hold the tokens toks *)
Definition fields (ps : list piece) (toks : list tok) : Prop :=
  toks_of ps = toks /\ sep_ok ps = true /\ ends_ok ps = true.

Lemma fields_app a ka b kb : fields a ka -> fields b kb -> fields (a ++ b) (ka ++ kb).
Proof.
  intros (<- & Sa & Ea) (<- & Sb & Eb). split; [apply toks_of_app|]. split; [apply sep_ok_app; assumption|].
  destruct b; [rewrite app_nil_r; exact Ea|apply ends_ok_app; [exact Eb|discriminate]].
Qed.

(* an optional identifier between blanks, at least one after it *)
Definition fieldp (k : nat) (t : option (list Z)) (m : nat) : list piece :=
  match t with Some t => [Sp k; Tk (TId t); Sp (S m)] | None => [Sp k] end.

Lemma fields_fieldp k t m : (forall v, t = Some v -> id_clean v = true) ->
  fields (fieldp k t m) (match t with Some t => [TId t] | None => [] end).
Proof.
  intros H. destruct t as [v|]; repeat split. cbn. rewrite (H v eq_refl). reflexivity.
Qed.

(* justify(token + " ", a), or justify("", a) for an omitted field; flush left when a <= 0 *)
Lemma justify_field t a : exists k m,
  justify (match t with Some t => t ++ [32] | None => [] end) a = render (fieldp k t m) /\
  (a <= 0 -> t <> None -> k = O).
Proof.
  unfold justify, spaces. destruct t as [t|].
  - destruct (Z.eqb_spec a 0); [exists O, O|destruct (Z.ltb_spec a 0); [exists O|exists (Z.to_nat (a - zlen (t ++ [32]))), O]].
    + split; [cbn; rewrite ?app_nil_r; reflexivity|reflexivity].
    + eexists. split; [cbn [fieldp render render_tok repeat app]; rewrite app_nil_r, <- app_assoc; reflexivity|reflexivity].
    + split; [cbn [fieldp render render_tok repeat app]; rewrite ?app_nil_r; reflexivity|lia].
  - destruct (a =? 0); [exists O|destruct (a <? 0); eexists]; exists O; (split; [cbn; rewrite ?app_nil_r; reflexivity|congruence]).
Qed.

(* the type field and the blank that follows it: justify(type, a) + " " *)
Lemma justify_type t a : exists k m, forall rest,
  justify t a ++ 32 :: rest = render (fieldp k (Some t) m) ++ rest.
Proof.
  unfold justify, spaces.
  destruct (a =? 0); [exists O, O|destruct (a <? 0); [exists O|exists (Z.to_nat (a - zlen t)), O]];
    try eexists; intros rest; cbn [fieldp render render_tok app]; rewrite ?app_nil_r, <- ?app_assoc;
    try reflexivity.
  cbn [repeat]. rewrite repeat_cons, <- app_assoc. reflexivity.
Qed.

(* the blank owner field of a de-duplicated line *)
Lemma justify_blank a : a <= 0 -> exists k, justify blank4 a = render (fieldp (S k) None 0).
Proof.
  intros H. unfold justify, blank4, spaces.
  destruct (Z.eqb_spec a 0); [exists 3%nat; reflexivity|].
  replace (a <? 0) with true by (symmetry; apply Z.ltb_lt; lia).
  exists (3 + Z.to_nat (- a - zlen [32; 32; 32; 32]))%nat. cbn [fieldp render]. rewrite app_nil_r.
  apply (repeat_app 32 4).
Qed.
