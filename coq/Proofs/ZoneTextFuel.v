(* C09: the fuel of read_loop.  The lexer consumes at least one character per logical line, so
   length text + 1 iterations always suffice: with that much fuel the result does not depend on
   the fuel, and the out-of-fuel marker is never produced by the loop. *)
From DV Require Import Base.Prelude Model.NameM Model.ZoneTextM Proofs.ZoneTextBase Proofs.ZoneTextInv.
Open Scope Z_scope.

Lemma lex_rest : forall t ml m acc toks term rest,
  lex t ml m acc = (toks, term, rest) ->
  (length rest <= length t)%nat /\ (term = TEol -> (length rest < length t)%nat).
Proof.
  induction t as [|c r IH]; intros ml m acc toks term rest H.
  - cbn [lex] in H. destruct m; destruct ml; inversion H; subst; cbn; split; try lia; discriminate.
  - cbn [lex] in H.
    assert (Hrec : forall ml' m' acc', lex r ml' m' acc' = (toks, term, rest) ->
              (length rest <= length (c :: r))%nat /\ (term = TEol -> (length rest < length (c :: r))%nat)).
    { intros ml' m' acc' H'. destruct (IH _ _ _ _ _ _ H') as [H1 H2]. cbn [length]. split; [lia|intros E; specialize (H2 E); lia]. }
    assert (Hret : forall acc' tm, (rev acc', tm, r) = (toks, term, rest) ->
              (length rest <= length (c :: r))%nat /\ (term = TEol -> (length rest < length (c :: r))%nat)).
    { intros acc' tm H'. inversion H'; subst. cbn [length]. split; lia. }
    destruct m;
      repeat match type of H with
             | (if ?b then _ else _) = _ => destruct b
             | match ?x with _ => _ end = _ => destruct x
             end; eauto.
Qed.

(* with at least length text + 1 iterations the fuel is irrelevant *)
Theorem read_loop_fuel_irrelevant_proof c : forall f1 f2 text s,
  (length text < f1)%nat -> (length text < f2)%nat ->
  read_loop f1 c s text = read_loop f2 c s text.
Proof.
  induction f1 as [|f1 IH]; intros f2 text s H1 H2; [lia|].
  destruct f2 as [|f2]; [lia|]. cbn [read_loop].
  destruct (lex text 0 MSkip []) as [[toks term] rest] eqn:E.
  destruct (lex_rest _ _ _ _ _ _ _ E) as [Hle Hlt].
  destruct (process_line c s (starts_ws text) toks _) as [s'| |]; cbn [bind]; try reflexivity.
  destruct term; try reflexivity.
  specialize (Hlt eq_refl). apply IH; lia.
Qed.

(* the loop itself never runs out of fuel: an out-of-fuel result could only come from a line *)
Theorem read_loop_never_starves_proof c : forall f text s,
  (length text < f)%nat ->
  read_loop f c s text = Internal iFuelZ ->
  exists s' lead toks lerr, process_line c s' lead toks lerr = Internal iFuelZ.
Proof.
  induction f as [|f IH]; intros text s Hf H; [lia|]. cbn [read_loop] in H.
  destruct (lex text 0 MSkip []) as [[toks term] rest] eqn:E.
  destruct (lex_rest _ _ _ _ _ _ _ E) as [Hle Hlt].
  destruct (process_line c s (starts_ws text) toks _) as [s'|e|e] eqn:Ep; cbn [bind] in H.
  - destruct term; try discriminate. specialize (Hlt eq_refl). apply (IH rest s'); [lia|exact H].
  - discriminate.
  - inversion H; subst. eauto.
Qed.

From DV Require Import Proofs.NameValid Proofs.NameText.

Definition NoFuel {A} (r : res A) : Prop := r <> Internal iFuelZ.

Lemma nf_bind {A B} (r : res A) (f : A -> res B) :
  NoFuel r -> (forall a, r = Ok a -> NoFuel (f a)) -> NoFuel (bind r f).
Proof.
  unfold NoFuel. destruct r as [a|e|e]; cbn; intros H Hf; [apply Hf; reflexivity|discriminate|].
  intros X. apply H. inversion X. reflexivity.
Qed.

Lemma nf_ok {A} (a : A) : NoFuel (Ok a). Proof. discriminate. Qed.
Lemma nf_lib {A} e : NoFuel (@Lib A e). Proof. discriminate. Qed.

(* nf_walk descends through binds, matches and lets.  What is left at the leaves is Ok, Lib, an
   Internal other than the fuel marker, or a call settled by a lemma of the hint database nf
   (or by an induction hypothesis). *)
Create HintDb nf.
Ltac nf_walk :=
  repeat first
    [ apply nf_ok | apply nf_lib | solve [auto with nf nocore]
    | lazymatch goal with
      | |- NoFuel (bind _ _) => apply nf_bind; [|intros ? ?]
      | |- NoFuel (match ?x with _ => _ end) => destruct x
      | |- NoFuel (Internal ?k) => unfold NoFuel; try unfold k; discriminate
      end
    | progress cbv zeta ].

Lemma ttl_loop_nf : forall t total cur need, NoFuel (ttl_loop t total cur need).
Proof. induction t as [|c t IH]; intros; cbn [ttl_loop]; nf_walk. Qed.
#[local] Hint Resolve ttl_loop_nf : nf.

Lemma ttl_nf t : NoFuel (ttl_from_text t).
Proof. unfold ttl_from_text. nf_walk. Qed.

Lemma ttl_not_internal t e : ttl_from_text t <> Internal e.
Proof.
  assert (H : forall t total cur need e, ttl_loop t total cur need <> Internal e).
  { induction t0 as [|c0 t0 IH]; intros; cbn [ttl_loop];
      repeat match goal with |- (if ?b then _ else _) <> _ => destruct b end; try discriminate; apply IH. }
  unfold ttl_from_text.
  destruct (match t with [] => Lib eBadTTL | _ => _ end) as [total|e0|e0] eqn:E; cbn [bind];
    [destruct (_ || _)| |]; try discriminate.
  destruct t; [discriminate E|]. destruct (all_digits _); [discriminate E|]. exfalso. eapply H; eauto.
Qed.

Lemma py_int_nf cur : NoFuel (py_int cur).
Proof. unfold py_int. nf_walk. Qed.
#[local] Hint Resolve py_int_nf : nf.

Lemma grange_loop_nf : forall t a b cur st, NoFuel (grange_loop t a b cur st).
Proof. induction t as [|c t IH]; intros; cbn [grange_loop]; nf_walk. Qed.
#[local] Hint Resolve grange_loop_nf : nf.

Lemma grange_nf t : NoFuel (grange_from_text t).
Proof. unfold grange_from_text. rewrite minus_match. nf_walk. Qed.

Lemma mk_name_nf n : NoFuel (mk_name n).
Proof. unfold NoFuel. apply mk_name_never_internal. Qed.

(* lift_name of a computation that has no Internal result and no library error with the code
   of the fuel marker *)
Lemma lift_name_nf {A} esc (r : res A) :
  (forall e, r <> Internal e) -> (forall e, r = Lib e -> e <> iFuelZ) -> NoFuel (lift_name esc r).
Proof.
  intros Hi Hl. unfold lift_name, NoFuel. destruct r as [a|e|e]; [discriminate| |exfalso; eapply Hi; reflexivity].
  unfold name_err. repeat match goal with |- (if ?b then _ else _) <> _ => destruct b end; try discriminate.
  intros H. inversion H. eapply Hl; eauto.
Qed.

Lemma mk_name_lib n e : mk_name n = Lib e -> e <> iFuelZ.
Proof. intros H. apply mk_name_error in H. destruct H as [-> | [-> | ->]]; discriminate. Qed.

Lemma from_text_lib v o e : NameM.from_text v o = Lib e -> e <> iFuelZ.
Proof. intros H. apply from_text_error in H. destruct H as [->|[-> | [-> | ->]]]; discriminate. Qed.

Lemma choose_relativity_props n o rl :
  (forall e, choose_relativity n o rl <> Internal e) /\ (forall e, choose_relativity n o rl = Lib e -> e <> iFuelZ).
Proof.
  unfold choose_relativity. destruct o as [[|x o']|]; [split; intros; discriminate| |split; intros; discriminate].
  destruct rl.
  - unfold relativize. destruct (is_subdomain n (x :: o')); [|split; intros; discriminate].
    split; [intros; apply mk_name_never_internal|intros e; apply mk_name_lib].
  - unfold derelativize, concatenate. destruct (negb (is_absolute n)); [|split; intros; discriminate].
    destruct (is_absolute n && _); [split; intros e; [discriminate|intros H; inversion H; discriminate]|].
    split; [intros; apply mk_name_never_internal|intros e; apply mk_name_lib].
Qed.

Lemma relativize_nf esc n o : NoFuel (lift_name esc (relativize n o)).
Proof.
  apply lift_name_nf; intros e; unfold relativize; destruct (is_subdomain n o);
    first [apply mk_name_never_internal|apply mk_name_lib|discriminate].
Qed.

Lemma from_text_lift_nf esc v o : NoFuel (lift_name esc (NameM.from_text v o)).
Proof. apply lift_name_nf; [intros e; apply from_text_no_internal|intros e; apply from_text_lib]. Qed.

Lemma as_name_nf esc v o rl rto : NoFuel (as_name esc v o rl rto).
Proof.
  unfold as_name. apply nf_bind.
  - apply from_text_lift_nf.
  - intros n _. apply lift_name_nf; apply choose_relativity_props.
Qed.
#[local] Hint Resolve relativize_nf from_text_lift_nf as_name_nf : nf.

(* tok_unescape recurses on the tail after a \DDD escape: induction on the length *)
Lemma tok_unescape_nf s : NoFuel (tok_unescape s).
Proof.
  remember (length s) as n eqn:Hn. assert (Hl : (length s <= n)%nat) by lia. clear Hn. revert s Hl.
  induction n as [|n IH]; intros s Hl; (destruct s as [|c r]; [apply nf_ok|]); cbn [length] in Hl; [lia|].
  cbn [tok_unescape]. nf_walk; apply IH; cbn [length] in *; lia.
Qed.
#[local] Hint Resolve tok_unescape_nf : nf.

Lemma unescape_all_nf : forall vs, NoFuel (unescape_all vs).
Proof. induction vs as [|v vs IH]; cbn [unescape_all]; nf_walk. Qed.

Lemma strs_go_nf : forall toks,
  NoFuel ((fix go (l : list tok) : res (list (list Z)) :=
             match l with
             | [] => Ok []
             | t :: l' => do b <- tok_unescape (tokval t);
                          if zlen b >? 255 then Lib eSyntax else do rest <- go l'; Ok (b :: rest)
             end) toks).
Proof. induction toks as [|t toks IH]; nf_walk. Qed.
#[local] Hint Resolve unescape_all_nf strs_go_nf : nf.

Lemma parse_fields_nf : forall ks toks co rel zo, NoFuel (parse_fields ks toks co rel zo).
Proof. induction ks as [|k ks IH]; intros; cbn [parse_fields]; [|destruct k]; nf_walk. Qed.

Lemma parse_generic_nf toks : NoFuel (parse_generic toks).
Proof. unfold parse_generic. nf_walk. Qed.

Lemma wire_fields_nf ks bs rel zo : NoFuel (wire_fields ks bs rel zo).
Proof. revert bs. induction ks as [|k ks IH]; intros bs; cbn [wire_fields]; [|destruct k]; nf_walk. Qed.
#[local] Hint Resolve parse_fields_nf parse_generic_nf wire_fields_nf : nf.

Lemma parse_rdata_nf ty toks lerr co rel zo : NoFuel (parse_rdata ty toks lerr co rel zo).
Proof.
  unfold parse_rdata. destruct (tbl_by_code type_table ty) as [[m ks]|]; [rewrite generic_match|]; nf_walk.
Qed.

Lemma txn_add_nf zo rel z n ttl ty rd : NoFuel (txn_add zo rel z n ttl ty rd).
Proof. unfold txn_add, cname_check. nf_walk. Qed.

Lemma get_ident_nf toks : NoFuel (get_ident toks).
Proof. unfold get_ident. nf_walk. Qed.
#[local] Hint Resolve parse_rdata_nf txn_add_nf get_ident_nf : nf.

Lemma rr_fields_nf c s co zo n toks lerr : NoFuel (rr_fields c s co zo n toks lerr).
Proof. unfold rr_fields. nf_walk. Qed.

Lemma eol_ok_nf lerr s : NoFuel (eol_ok lerr s).
Proof. unfold eol_ok. nf_walk. Qed.
#[local] Hint Resolve rr_fields_nf eol_ok_nf : nf.

Lemma rr_line_nf c s lead toks lerr : NoFuel (rr_line c s lead toks lerr).
Proof. unfold rr_line. nf_walk. Qed.

Lemma gen_loop_nf c co zo lhs rhs lm rm ttl ty step : forall count i s,
  NoFuel (gen_loop count i step c s co zo lhs rhs lm rm ttl ty).
Proof. induction count as [|k IH]; intros i s; cbn [gen_loop]; nf_walk. Qed.

Lemma parse_modify_nf side : NoFuel (parse_modify side).
Proof. unfold parse_modify. nf_walk. Qed.
#[local] Hint Resolve rr_line_nf gen_loop_nf parse_modify_nf grange_nf : nf.

Lemma generate_line_nf c s toks lerr : NoFuel (generate_line c s toks lerr).
Proof. unfold generate_line. nf_walk. Qed.
#[local] Hint Resolve generate_line_nf : nf.

Lemma process_line_nf c s lead toks lerr : NoFuel (process_line c s lead toks lerr).
Proof.
  unfold process_line. destruct lead, toks as [|t rest]; try rewrite dollar_match; nf_walk.
Qed.

(* with length text + 1 iterations the reader never answers "out of fuel" *)
Theorem read_loop_fuel_sufficient_proof c f text s :
  (length text < f)%nat -> read_loop f c s text <> Internal iFuelZ.
Proof.
  intros Hf H. destruct (read_loop_never_starves_proof c f text s Hf H) as (s' & lead & toks & lerr & Hp).
  exact (process_line_nf c s' lead toks lerr Hp).
Qed.
