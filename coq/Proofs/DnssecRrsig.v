(* _make_rrsig_signature_data = RFC 4034 3.1.8.1 signed data, with the wildcard label
   reduction of RFC 4035 5.3.2 and the canonical RR order of RFC 4034 6.3. *)
From Coq Require Import Permutation Sorted.
From DV Require Import Base.Prelude Model.NameM Model.DnssecM.
From DV Require Import Proofs.NameValid Proofs.NameOrder Proofs.DnssecRef Proofs.DnssecCanon Proofs.DnssecSort.
Open Scope Z_scope.

Lemma rfc_expand_abs n origin a : rfc_expand n origin = Ok a -> is_absolute a = true.
Proof.
  unfold rfc_expand. destruct (is_absolute n) eqn:E; [intros H; inversion H; now subst|].
  destruct origin as [o|]; [|discriminate]. destruct (is_absolute o) eqn:Eo; [|discriminate].
  destruct (wire_length n + wire_length o >? 255); [discriminate|].
  intros H; inversion H; subst. destruct o as [|x o']; [discriminate|].
  now rewrite is_absolute_app.
Qed.

(* if not n.is_absolute(): n = n.derelativize(origin) *)
Lemma absolutize_rfc n origin a :
  rfc_expand n origin = Ok a -> Valid a -> absolutize n origin = Ok a.
Proof.
  unfold absolutize, rfc_expand. destruct (is_absolute n) eqn:E; [auto|].
  destruct origin as [o|]; [|discriminate]. destruct (is_absolute o); [|discriminate].
  destruct (wire_length n + wire_length o >? 255); [discriminate|].
  intros H Hv; inversion H; subst. unfold derelativize, concatenate. rewrite E. cbn [negb andb].
  now apply mk_name_valid.
Qed.

Lemma absolutize_no_origin n : is_absolute n = false -> absolutize n None = Lib eValidationFailure.
Proof. intros E. unfold absolutize. now rewrite E. Qed.

Lemma to_wire_abs n canon : is_absolute n = true -> to_wire n None canon = Ok (rfc_name_wire canon n).
Proof. intros H. unfold to_wire. now rewrite H. Qed.

Lemma header_length r : length (rrsig_header r) = 18%nat.
Proof. reflexivity. Qed.

(* wire[:18] of the RRSIG rdata is the fixed part, whatever the signer name is *)
Lemma rrsig_prefix r origin signer :
  rfc_expand (r_signer r) origin = Ok signer ->
  exists w, rrsig_to_wire r origin false = Ok w /\ firstn 18 w = rrsig_header r.
Proof.
  intros Hs. unfold rrsig_to_wire. rewrite to_wire_rfc, Hs. cbn [bind].
  eexists; (split; [reflexivity|]).
  change 18%nat with (length (rrsig_header r) + 0)%nat. rewrite firstn_app_2. cbn [firstn].
  apply app_nil_r.
Qed.

Lemma from_text_star s : from_text [42] (Some s) = mk_name ([42] :: s).
Proof. reflexivity. Qed.

Lemma wire_length_prefix_ge2 (p : name) :
  p <> [] -> Forall (fun l => l <> []) p -> 2 <= wire_length p.
Proof.
  destruct p as [|l p]; [congruence|]. intros _ H. inversion H as [|? ? Hl _]; subst.
  rewrite wire_length_cons. pose proof (wire_length_nonneg p).
  destruct l; [congruence|]. unfold zlen. cbn [length]. lia.
Qed.

Lemma Valid_star_suffix (p : name) x b :
  p <> [] -> Valid (p ++ x :: b) -> Valid ([42] :: x :: b).
Proof.
  intros Hp Hv. pose proof (Valid_app_r _ _ Hv) as (S1 & S2 & S3).
  pose proof (Valid_app_l_nonempty _ _ _ Hv) as Hne.
  destruct Hv as (_ & V2 & _). rewrite wire_length_app in V2.
  pose proof (wire_length_prefix_ge2 p Hp Hne).
  repeat split.
  - constructor; [cbn; lia|exact S1].
  - rewrite wire_length_cons. change (zlen [42]) with 1. lia.
  - rewrite removelast_cons2. constructor; [discriminate|exact S3].
Qed.

(* Name.split at a depth strictly inside a valid name *)
Lemma split_inside n d : Valid n -> 0 < d < zlen n ->
  split n d = Ok (firstn (length n - Z.to_nat d) n, skipn (length n - Z.to_nat d) n).
Proof.
  intros V Hd. unfold split, drop_last, take_last.
  replace (d =? 0) with false by lia. replace (d =? zlen n) with false by lia.
  replace ((d <? 0) || (d >? zlen n)) with false by lia.
  rewrite <- (firstn_skipn (length n - Z.to_nat d) n) in V.
  now rewrite (mk_name_valid _ (Valid_prefix _ _ V)), (mk_name_valid _ (Valid_app_r _ _ V)).
Qed.

Lemma wild_owner_model owner labels :
  Valid owner -> is_absolute owner = true -> 0 <= labels -> labels <= rfc_label_count owner ->
  (if labels <? zlen owner - 1
   then do ps <- split owner (labels + 1); from_text [42] (Some (snd ps))
   else Ok owner) = Ok (rfc_wildcard_owner owner labels)
  /\ Valid (rfc_wildcard_owner owner labels)
  /\ is_absolute (rfc_wildcard_owner owner labels) = true.
Proof.
  intros Hv Ha H0 Hle. unfold rfc_wildcard_owner, rfc_label_count in *.
  destruct (labels <? zlen owner - 1) eqn:E; [|auto]. apply Z.ltb_lt in E.
  rewrite split_inside by (exact Hv || lia). cbn [bind snd]. rewrite from_text_star.
  replace (Z.to_nat (zlen owner - 1 - labels)) with (length owner - Z.to_nat (labels + 1))%nat by (unfold zlen; lia).
  set (k := (length owner - Z.to_nat (labels + 1))%nat).
  assert (Hk : (1 <= k < length owner)%nat) by (unfold k, zlen in *; lia).
  pose proof (firstn_skipn k owner) as Esplit.
  destruct (skipn k owner) as [|x b] eqn:Es.
  { apply (f_equal (@length _)) in Es. rewrite skipn_length in Es. cbn in Es. lia. }
  assert (Hp : firstn k owner <> []).
  { intros Z0. apply (f_equal (@length _)) in Z0. rewrite firstn_length in Z0. cbn in Z0. lia. }
  rewrite <- Esplit in Hv, Ha.
  pose proof (Valid_star_suffix _ _ _ Hp Hv) as Hvs.
  split; [now apply mk_name_valid|]. split; [exact Hvs|].
  rewrite is_absolute_cons. now rewrite is_absolute_app in Ha.
Qed.

Lemma map_res_ext {A B} (f g : A -> res B) l :
  Forall (fun x => f x = g x) l -> map_res f l = map_res g l.
Proof. induction 1 as [|x r Hx _ IH]; cbn; [reflexivity|]. now rewrite Hx, IH. Qed.

Lemma map_res_frames rrnamebuf rrfixed : forall l,
  Forall (fun c => zlen c < 65536) l ->
  map_res (rr_frame rrnamebuf rrfixed) l
  = Ok (map (fun rd => rrnamebuf ++ rrfixed ++ u16 (zlen rd) ++ rd) l).
Proof.
  induction 1 as [|c r Hc _ IH]; cbn [map_res map]; [reflexivity|].
  unfold rr_frame at 1, pack_len16, in_range.
  assert (0 <= zlen c) by (unfold zlen; lia).
  replace ((0 <=? zlen c) && (zlen c <? 65536)) with true by lia.
  cbn [bind]. now rewrite IH.
Qed.

Definition labels_ok (owner : name) (labels : Z) : Prop :=
  0 <= labels <= rfc_label_count owner /\
  (is_wild owner = true -> labels = rfc_label_count owner - 1).

(* up to the label checks: both names made absolute, wire[:18] of the RRSIG rdata, the canonical signer *)
Lemma make_rrsig_data_names tbl r rrname rdclass rdtype rdatas origin signer owner :
  rfc_expand (r_signer r) origin = Ok signer -> Valid signer ->
  rfc_expand rrname origin = Ok owner -> Valid owner ->
  make_rrsig_data tbl r rrname rdclass rdtype rdatas origin =
  if is_wild owner && negb (r_labels r =? zlen owner - 2) then Lib eValidationFailure
  else if zlen owner - 1 <? r_labels r then Lib eValidationFailure
  else
    do rrname <- (if r_labels r <? zlen owner - 1
                  then do ps <- split owner (r_labels r + 1); from_text [42] (Some (snd ps))
                  else Ok owner);
    do rrnamebuf <- to_wire rrname None true;
    do rds <- map_res (fun fs => digestable tbl rdclass rdtype fs origin) rdatas;
    do frames <- map_res (rr_frame rrnamebuf (u16 rdtype ++ u16 rdclass ++ u32 (r_ottl r))) (sort_bytes rds);
    Ok (rrsig_header r ++ rfc_name_wire true signer ++ concat frames).
Proof.
  intros Es Vs Eo Vo. unfold make_rrsig_data.
  rewrite (absolutize_rfc _ _ _ Es Vs). cbn [bind].
  destruct (rrsig_prefix r origin signer Es) as (w & Ew & Fw). rewrite Ew. cbn [bind]. rewrite Fw.
  rewrite (to_wire_abs signer true (rfc_expand_abs _ _ _ Es)). cbn [bind].
  now rewrite (absolutize_rfc _ _ _ Eo Vo).
Qed.

Theorem make_rrsig_data_eq_rfc (tbl : list entry) :
  forallb flag_ok tbl = true ->
  forall r rrname rdclass rdtype rdatas origin signer owner canon sorted,
    rfc_expand (r_signer r) origin = Ok signer -> Valid signer ->
    rfc_expand rrname origin = Ok owner -> Valid owner ->
    labels_ok owner (r_labels r) ->
    Forall (fun fs => arity_ok tbl rdclass rdtype fs = true) rdatas ->
    map_res (fun fs => rfc4034_canonical_rdata rdtype fs origin) rdatas = Ok canon ->
    Forall (fun c => zlen c < 65536) canon ->
    is_canonical_order canon sorted ->
    make_rrsig_data tbl r rrname rdclass rdtype rdatas origin
    = Ok (rfc_rrsig_input (r_covered r) (r_alg r) (r_labels r) (r_ottl r) (r_exp r) (r_inc r) (r_tag r)
                          signer owner rdclass rdtype sorted).
Proof.
  intros Htbl r rrname rdclass rdtype rdatas origin signer owner canon sorted
         Es Vs Eo Vo [[L0 L1] Lw] Har Hcanon Hlen Hsorted.
  rewrite (make_rrsig_data_names _ _ _ _ _ _ _ _ _ Es Vs Eo Vo).
  pose proof (rfc_expand_abs _ _ _ Eo) as Ao. unfold rfc_label_count in *.
  replace (is_wild owner && negb (r_labels r =? zlen owner - 2)) with false.
  2:{ destruct (is_wild owner) eqn:W; [|reflexivity]. specialize (Lw eq_refl). cbn [andb]. lia. }
  replace (zlen owner - 1 <? r_labels r) with false by lia.
  destruct (wild_owner_model owner (r_labels r) Vo Ao L0 L1) as (Ew2 & Vw & Aw).
  rewrite Ew2. cbn [bind].
  rewrite (to_wire_abs _ true Aw). cbn [bind].
  rewrite (map_res_ext _ (fun fs => rfc4034_canonical_rdata rdtype fs origin)).
  2:{ eapply Forall_impl; [|exact Har]. intros fs Hfs. now apply digestable_eq_rfc. }
  rewrite Hcanon. cbn [bind].
  assert (Hs : sort_bytes canon = sorted)
    by (eapply canonical_order_unique; [apply sort_bytes_canonical|exact Hsorted]).
  rewrite Hs.
  rewrite map_res_frames.
  2:{ destruct Hsorted as [P _]. eapply Permutation_Forall; eauto. }
  cbn [bind]. f_equal. unfold rfc_rrsig_input, rfc_rrsig_rdata, rrsig_header.
  rewrite <- flat_map_concat_map, <- !app_assoc. repeat f_equal.
Qed.

(* RFC 4035 5.3.1: an RRSIG whose labels field exceeds the owner's label count is refused *)
Theorem make_rrsig_data_rejects_long_labels tbl r rrname rdclass rdtype rdatas origin signer owner :
  rfc_expand (r_signer r) origin = Ok signer -> Valid signer ->
  rfc_expand rrname origin = Ok owner -> Valid owner ->
  rfc_label_count owner < r_labels r ->
  make_rrsig_data tbl r rrname rdclass rdtype rdatas origin = Lib eValidationFailure.
Proof.
  intros Es Vs Eo Vo Hl. rewrite (make_rrsig_data_names _ _ _ _ _ _ _ _ _ Es Vs Eo Vo).
  unfold rfc_label_count in Hl.
  destruct (is_wild owner && negb (r_labels r =? zlen owner - 2)); [reflexivity|].
  now replace (zlen owner - 1 <? r_labels r) with true by lia.
Qed.

(* a relative owner or signer without an origin is refused with ValidationFailure *)
Theorem make_rrsig_data_needs_origin tbl r rrname rdclass rdtype rdatas :
  is_absolute (r_signer r) = false ->
  make_rrsig_data tbl r rrname rdclass rdtype rdatas None = Lib eValidationFailure.
Proof. intros H. unfold make_rrsig_data. now rewrite absolutize_no_origin. Qed.

Theorem wildcard_reduction_spec owner labels :
  Valid owner -> is_absolute owner = true -> 0 <= labels <= rfc_label_count owner ->
  rfc_wildcard_owner owner labels =
    (if labels =? rfc_label_count owner then owner
     else [42] :: skipn (length owner - 1 - Z.to_nat labels) owner)
  /\ Valid (rfc_wildcard_owner owner labels).
Proof.
  intros Hv Ha [H0 H1]. split.
  - unfold rfc_wildcard_owner, rfc_label_count in *.
    destruct (labels =? zlen owner - 1) eqn:E.
    + replace (labels <? zlen owner - 1) with false by lia. reflexivity.
    + replace (labels <? zlen owner - 1) with true by lia. f_equal. f_equal. unfold zlen in *. lia.
  - now destruct (wild_owner_model owner labels Hv Ha H0 H1) as (_ & V & _).
Qed.

(* RFC 4034 3.1.3: the labels field does not count a leading "*"; a wildcard owner with any other
   labels value is refused *)
Theorem make_rrsig_data_rejects_wild_mismatch tbl r rrname rdclass rdtype rdatas origin signer owner :
  rfc_expand (r_signer r) origin = Ok signer -> Valid signer ->
  rfc_expand rrname origin = Ok owner -> Valid owner ->
  is_wild owner = true -> r_labels r <> rfc_label_count owner - 1 ->
  make_rrsig_data tbl r rrname rdclass rdtype rdatas origin = Lib eValidationFailure.
Proof.
  intros Es Vs Eo Vo Hw Hl. rewrite (make_rrsig_data_names _ _ _ _ _ _ _ _ _ Es Vs Eo Vo).
  unfold rfc_label_count in Hl. rewrite Hw.
  now replace (r_labels r =? zlen owner - 2) with false by lia.
Qed.
