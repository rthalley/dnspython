(* C09: the per-name premise of zone_roundtrip (owner_ok / origin_ok) follows from the name
   theorems of C01 / C06 for every valid name, in the default name style (names printed as stored);
   the spellings `n`, `n.origin.` and `@` of a name read alike. *)
From DV Require Import Base.Prelude Model.NameM Model.ZoneTextM.
From DV Require Import Proofs.NameValid Proofs.NameText Proofs.NameTok Proofs.NameOrder Proofs.NameRel.
From DV Require Import Proofs.ZoneTextBase Proofs.ZoneTextLex Proofs.ZoneTextRecord Proofs.ZoneTextRoundtrip.
Open Scope Z_scope.

Lemma clean_id_clean_go w : clean w -> id_clean_go w false = true.
Proof.
  induction 1 as [|c w Hd H92 Hw IH|c w H10 Hw IH]; cbn [id_clean_go].
  - reflexivity.
  - replace (c =? 92) with false by (symmetry; apply Z.eqb_neq; exact H92).
    change (is_delim c) with (tok_delim c). rewrite Hd. exact IH.
  - cbn [Z.eqb Pos.eqb]. replace (c =? 10) with false by (symmetry; apply Z.eqb_neq; exact H10). exact IH.
Qed.

Lemma to_text_id_clean n : AllBytes n -> id_clean (to_text n) = true.
Proof.
  intros HB. destruct (to_text_clean n HB) as [Hc Hne].
  unfold id_clean. destruct (to_text n) eqn:E; [congruence|]. apply clean_id_clean_go. exact Hc.
Qed.

(* how the text of a name begins *)
Lemma to_text_head (n : name) :
  (exists h, (h = 64 \/ h = 46) /\ exists r, to_text n = h :: r) \/ exists c r, to_text n = esc_octet c ++ r.
Proof.
  unfold name, label in *.
  destruct n as [|[|c x] n]; [left; exists 64; split; [auto|eexists; reflexivity]| |right; exists c].
  - left. exists 46. split; [auto|]. destruct n as [|y n]; [eexists; reflexivity|].
    change (to_text ([] :: y :: n)) with ([] ++ 46 :: join_dot (map escapify (y :: n))). eexists; reflexivity.
  - change (to_text ((c :: x) :: n)) with (join_dot (map escapify ((c :: x) :: n))).
    destruct n as [|y n].
    + cbn [map join_dot]. unfold escapify. cbn [flat_map]. eauto.
    + change (join_dot (map escapify ((c :: x) :: y :: n)))
        with (escapify (c :: x) ++ 46 :: join_dot (map escapify (y :: n))).
      unfold escapify at 1. cbn [flat_map]. rewrite <- app_assoc. eauto.
Qed.

Lemma to_text_not_dollar (n : name) : not_dollar (to_text n).
Proof.
  unfold not_dollar. rewrite dollar_match.
  destruct (to_text_head n) as [(h & Hh & r & ->)|(c & r & ->)]; [destruct Hh; subst; exact Logic.I|].
  unfold esc_octet. destruct (escaped c) eqn:E; [exact Logic.I|].
  destruct (_ && _); [|exact Logic.I]. cbn [app]. destruct (Z.eqb_spec c 36); [subst; discriminate E|exact Logic.I].
Qed.

(* the text of a name is never the RFC 3597 marker "\#" *)
Lemma to_text_not_hash (n : name) : to_text n <> [92; 35].
Proof.
  destruct (to_text_head n) as [(h & Hh & r & ->)|(c & r & ->)]; [destruct Hh; subst; discriminate|].
  unfold esc_octet. destruct (escaped c) eqn:E; [|destruct (_ && _)]; cbn [app]; intros H; inversion H; subst;
    discriminate E.
Qed.

Section Names.
  Variable c : cfg.
  Variable st : style.
  Variable zo : name.
  Hypothesis Hzo : Valid zo /\ AllBytes zo /\ is_absolute zo = true.
  (* names are printed as they are stored *)
  Hypothesis Hplain : st_origin st = None.

  Lemma name_text_plain n : name_text (st_origin st) (st_relativize st) false n = Ok (to_text n).
  Proof. rewrite Hplain. reflexivity. Qed.

  Lemma origin_ok_valid : origin_ok zo.
  Proof.
    destruct Hzo as (V & B & A). unfold origin_ok, as_name.
    rewrite (text_roundtrip zo V B). cbn [lift_name bind choose_relativity].
    split; [reflexivity|]. split; [exact A|apply to_text_id_clean; exact B].
  Qed.

  (* a relativized zone: the stored name is relative, the owner is name + origin *)
  Lemma owner_ok_relativized n :
    c_rel c = true -> Valid n -> AllBytes n -> is_absolute n = false -> Valid (n ++ zo) ->
    owner_ok c st zo n (to_text n) (n ++ zo).
  Proof.
    intros Hr V B A Vn. destruct Hzo as (Vz & Bz & Az).
    destruct (derel_rel n zo V Vz A Az Vn) as [Hd Hrel].
    assert (Habs : is_absolute (n ++ zo) = true).
    { destruct zo as [|z0 z']; [discriminate|]. rewrite is_absolute_app. exact Az. }
    unfold owner_ok. split; [apply name_text_plain|].
    split; [apply to_text_id_clean; exact B|]. split; [apply to_text_not_dollar|].
    split.
    - unfold as_name. rewrite (text_roundtrip_origin n (Some zo) V B), A.
      rewrite (mk_name_valid _ Vn). cbn [lift_name bind].
      rewrite (choose_derel_abs _ _ Habs). reflexivity.
    - split.
      + apply is_subdomain_iff. split; [rewrite Habs, Az; reflexivity|apply ci_suffix_app].
      + rewrite Hr, Hrel. reflexivity.
  Qed.

  (* an absolute zone: the stored name is the owner *)
  Lemma owner_ok_absolute n :
    c_rel c = false -> Valid n -> AllBytes n -> is_absolute n = true -> is_subdomain n zo = true ->
    owner_ok c st zo n (to_text n) n.
  Proof.
    intros Hr V B A Hs.
    unfold owner_ok. split; [apply name_text_plain|].
    split; [apply to_text_id_clean; exact B|]. split; [apply to_text_not_dollar|].
    split.
    - unfold as_name. rewrite (text_roundtrip_origin n (Some zo) V B), A. cbn [lift_name bind].
      rewrite (choose_derel_abs _ _ A). reflexivity.
    - split; [exact Hs|]. rewrite Hr. reflexivity.
  Qed.
End Names.

(* the relative spelling `n` and the absolute spelling `n.origin.` are the same name for the reader *)
Lemma from_text_rel_abs (n o : name) :
  Valid n -> AllBytes n -> is_absolute n = false ->
  AllBytes o -> is_absolute o = true -> Valid (n ++ o) ->
  NameM.from_text (to_text n) (Some o) = Ok (n ++ o) /\
  NameM.from_text (to_text (n ++ o)) (Some o) = Ok (n ++ o).
Proof.
  intros V B A Bo Ao Vn.
  assert (Habs : is_absolute (n ++ o) = true).
  { destruct o as [|z0 z']; [discriminate|]. rewrite is_absolute_app. exact Ao. }
  split.
  - rewrite (text_roundtrip_origin n (Some o) V B), A. apply mk_name_valid. exact Vn.
  - rewrite (text_roundtrip_origin (n ++ o) (Some o) Vn (AllBytes_app _ _ B Bo)), Habs. reflexivity.
Qed.

(* "@" is the current origin *)
Lemma from_text_at (o : name) : Valid o -> AllBytes o -> is_absolute o = true ->
  NameM.from_text [64] (Some o) = NameM.from_text (to_text o) (Some o).
Proof.
  intros V B A. rewrite (text_roundtrip_origin o (Some o) V B), A.
  cbn. apply mk_name_valid. exact V.
Qed.

(* ... so a record line may spell its owner either way *)
Theorem respell_origin_relative_proof c s co (n : name) toks lerr :
  corigin s = Some co ->
  Valid n -> AllBytes n -> is_absolute n = false ->
  AllBytes co -> is_absolute co = true -> Valid (n ++ co) ->
  rr_line c s false (TId (to_text n) :: toks) lerr =
  rr_line c s false (TId (to_text (n ++ co)) :: toks) lerr.
Proof.
  intros Hco V B A Bo Ao Vn.
  destruct (from_text_rel_abs n co V B A Bo Ao Vn) as [H1 H2].
  unfold rr_line, as_name. rewrite Hco, H1, H2. reflexivity.
Qed.

Theorem respell_origin_at_proof c s co toks lerr :
  corigin s = Some co -> Valid co -> AllBytes co -> is_absolute co = true ->
  rr_line c s false (TId [64] :: toks) lerr = rr_line c s false (TId (to_text co) :: toks) lerr.
Proof.
  intros Hco V B A. unfold rr_line, as_name. rewrite Hco, (from_text_at co V B A). reflexivity.
Qed.

(* the same inside rdata: a name field (NS, CNAME, MX, SOA, ...) *)
Theorem respell_rdata_name_relative_proof (n co : name) rel zo ks toks :
  Valid n -> AllBytes n -> is_absolute n = false ->
  AllBytes co -> is_absolute co = true -> Valid (n ++ co) ->
  parse_fields (KName :: ks) (TId (to_text n) :: toks) co rel zo =
  parse_fields (KName :: ks) (TId (to_text (n ++ co)) :: toks) co rel zo.
Proof.
  intros V B A Bo Ao Vn.
  destruct (from_text_rel_abs n co V B A Bo Ao Vn) as [H1 H2].
  cbn [parse_fields]. unfold as_name. rewrite H1, H2. reflexivity.
Qed.

(* a decision procedure for AllBytes, for examples *)
Lemma AllBytes_dec (n : name) : forallb all_bytes n = true -> AllBytes n.
Proof.
  intros H. unfold AllBytes. apply Forall_forall. intros l Hl.
  rewrite forallb_forall in H. specialize (H l Hl). unfold all_bytes in H.
  apply Forall_forall. intros x Hx. rewrite forallb_forall in H. specialize (H x Hx).
  unfold is_byte in H. apply andb_true_iff in H as [H1 H2]. apply Z.leb_le in H1. apply Z.ltb_lt in H2. lia.
Qed.
