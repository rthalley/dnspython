(* C17 - the runs the harness observes (`hrun`, `hrun_g`: harness operations incl. "build an
   Answer now and put it") are the runs the theorems quantify over (`wrun`/`grun` on items):
   every harness operation is one or two items, with the same result, world and ghost. *)
From DV Require Import Base.Prelude Model.CacheM Model.CacheAnsM Model.CacheSpecM Proofs.CacheBasic Proofs.CacheSpec Proofs.ListFacts.

Section Obs.
  Context {St : Type}.
  Variable step : call -> St -> clk -> res (ret * St * clk).
  Variable gupd : call -> St -> ret -> St -> lghost -> lghost.

  (* the items a harness operation stands for, from world w *)
  Definition items_of_hop (h : hop) (w : St * Z) : res (list item) :=
    match h with
    | HAdv d => Ok [Adv d]
    | HCall c ds => Ok [Call c ds]
    | HPutAns key mk ds =>
        let (t, k1) := tick (mkClk (snd w) ds) in
        do a <- mk t; Ok [Adv (t - snd w); Call (Put key a) (pend k1)]
    end.

  Lemma hstep_g_items : forall h w g r w' g',
    hstep_g step gupd h w g = Ok (r, w', g') ->
    exists its, items_of_hop h w = Ok its /\ grun step gupd its w g = Ok (g', w') /\
                hstep step h w = Ok (r, w').
  Proof.
    intros h [s n] g r w' g' H. destruct h as [c ds|key mk ds|d]; cbn [hstep_g hstep items_of_hop fst snd] in *.
    - apply bind_ok in H as ([[r0 s'] k'] & E & H). injection H as <- <- <-.
      eexists. split; [reflexivity|]. cbn [grun wstep fst snd]. rewrite E. auto.
    - (* the answer is built at the first reading t: time advances to t, then the put runs on
         what is left of the increments *)
      destruct (tick (mkClk n ds)) as [t k1] eqn:Et.
      apply bind_ok in H as (a & Em & H). apply bind_ok in H as ([[r0 s'] k'] & E & H).
      injection H as <- <- <-. rewrite Em. eexists. split; [reflexivity|].
      cbn [grun wstep fst snd bind gnext].
      replace (mkClk (n + (t - n)) (pend k1)) with k1; [rewrite E; auto|].
      pose proof (tick_now _ _ _ Et). destruct k1. cbn in *. f_equal. lia.
    - inversion H; subst. eexists. split; [reflexivity|]. cbn. auto.
  Qed.

  (* a monotone harness operation stands for monotone items *)
  Definition mono_hop (h : hop) : Prop :=
    match h with HAdv d => 0 <= d | HCall _ ds | HPutAns _ _ ds => nonneg ds end.

  Lemma items_of_hop_mono : forall h w its, mono_hop h -> items_of_hop h w = Ok its -> mono its.
  Proof.
    intros h [s n] its Hm H. destruct h as [c ds|key mk ds|d]; cbn [items_of_hop snd] in H.
    - inversion H; subst. apply Forall_cons; [exact Hm|apply Forall_nil].
    - destruct (tick (mkClk n ds)) as [t k1] eqn:Et. destruct (tick_spec _ _ _ Et Hm) as (A & _ & Hq).
      destruct (mk t); inversion H; subst.
      repeat apply Forall_cons; [cbn in *; lia|exact Hq|apply Forall_nil].
    - inversion H; subst. apply Forall_cons; [exact Hm|apply Forall_nil].
  Qed.
End Obs.
