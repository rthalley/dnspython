(* Value semantics of records: Rdata.__eq__ / __ne__ / __hash__ / _cmp of Model/SetM.v. *)
From DV Require Import Base.Prelude Model.SetM Proofs.ListFacts.
From DV Require Proofs.NameOrder.
Open Scope Z_scope.

(* the early exits of __eq__ as one conjunction *)
Lemma rd_eqb_andb a b :
  rd_eqb a b = (rcls a =? rcls b) && (rtyp a =? rtyp b) && Bool.eqb (rrel a) (rrel b)
               && zlist_eqb (rdig a) (rdig b).
Proof.
  unfold rd_eqb.
  destruct (rcls a =? rcls b), (rtyp a =? rtyp b), (Bool.eqb (rrel a) (rrel b)); reflexivity.
Qed.

Theorem rd_eqb_iff a b :
  rd_eqb a b = true <->
  rcls a = rcls b /\ rtyp a = rtyp b /\ rrel a = rrel b /\ rdig a = rdig b.
Proof.
  rewrite rd_eqb_andb, !andb_true_iff, !Z.eqb_eq, eqb_true_iff, zlist_eqb_eq.
  split; [intros [[[? ?] ?] ?]|intros (? & ? & ? & ?)]; auto.
Qed.

Lemma rd_eqb_refl a : rd_eqb a a = true.
Proof. apply rd_eqb_iff. auto. Qed.

Lemma rd_eqb_sym a b : rd_eqb a b = rd_eqb b a.
Proof.
  apply eq_true_iff_eq. rewrite !rd_eqb_iff. split; intros (? & ? & ? & ?); auto.
Qed.

Lemma rd_eqb_trans a b c : rd_eqb a b = true -> rd_eqb b c = true -> rd_eqb a c = true.
Proof.
  rewrite !rd_eqb_iff. intros (A1 & A2 & A3 & A4) (B1 & B2 & B3 & B4).
  rewrite A1, A2, A3, A4. auto.
Qed.

Theorem rd_neb_negb a b : rd_neb a b = negb (rd_eqb a b).
Proof.
  unfold rd_neb, rd_eqb.
  destruct (negb (rcls a =? rcls b) || negb (rtyp a =? rtyp b)); reflexivity.
Qed.

Theorem rd_hash_congr a b : rd_eqb a b = true -> rd_hashkey a = rd_hashkey b.
Proof. intros H. apply rd_eqb_iff in H. apply H. Qed.

(* RFC 4034 6.3: RDATA as a left-justified unsigned octet sequence in which the absence of an
   octet sorts before a zero octet *)
Inductive lex_lt : list Z -> list Z -> Prop :=
| lex_nil : forall y b, lex_lt [] (y :: b)
| lex_head : forall x y a b, x < y -> lex_lt (x :: a) (y :: b)
| lex_tail : forall x a b, lex_lt a b -> lex_lt (x :: a) (x :: b).

Lemma cmp_bytes_lt a b : cmp_bytes a b = Lt <-> lex_lt a b.
Proof.
  revert b. induction a as [|x a IH]; destruct b as [|y b]; cbn.
  - split; [discriminate|inversion 1].
  - split; [constructor|reflexivity].
  - split; [discriminate|inversion 1].
  - destruct (Z.compare_spec x y) as [->|H|H].
    + rewrite IH. split; [constructor; assumption|].
      inversion 1; subst; [lia|assumption].
    + split; [constructor; assumption|reflexivity].
    + split; [discriminate|]. inversion 1; subst; lia.
Qed.

Lemma lex_lt_trans a b c : lex_lt a b -> lex_lt b c -> lex_lt a c.
Proof.
  intros H. revert c. induction H; intros c Hc; inversion Hc; subst;
    try (constructor; auto; lia).
Qed.

Lemma lex_lt_irrefl a : ~ lex_lt a a.
Proof. induction a; inversion 1; subst; [lia|auto]. Qed.

Definition cmp_le (a b : rdata) : Prop := rd_cmp a b <= 0.

Lemma rd_cmp_range a b : rd_cmp a b = -1 \/ rd_cmp a b = 0 \/ rd_cmp a b = 1.
Proof.
  unfold rd_cmp. destruct (negb (Bool.eqb (rrel a) (rrel b))); [destruct (rrel a); auto|].
  destruct (cmp_bytes (rdig a) (rdig b)); auto.
Qed.

Theorem rd_cmp_antisym a b : rd_cmp b a = - rd_cmp a b.
Proof.
  unfold rd_cmp. rewrite (NameOrder.cmp_bytes_anti (rdig a) (rdig b)).
  destruct (rrel a), (rrel b), (cmp_bytes (rdig a) (rdig b)); reflexivity.
Qed.

(* _cmp compares a key, relativity (relative first) then octets, and is 0 exactly on equal keys *)
Lemma rd_cmp_zero_key a b :
  rd_cmp a b = 0 <-> rrel a = rrel b /\ rdig a = rdig b.
Proof.
  unfold rd_cmp. rewrite <- NameOrder.cmp_bytes_eq.
  destruct (rrel a), (rrel b), (cmp_bytes (rdig a) (rdig b)); cbn;
    split; auto; try discriminate; intros [[=] [=]].
Qed.

Theorem rd_cmp_zero_iff a b :
  rcls a = rcls b -> rtyp a = rtyp b -> (rd_cmp a b = 0 <-> rd_eqb a b = true).
Proof.
  intros Hc Ht. rewrite rd_cmp_zero_key, rd_eqb_iff.
  split; [intros []|intros (_ & _ & ? & ?)]; auto.
Qed.

(* equal records are one member of a set, hash alike and compare equal *)
Lemma rd_eqb_collapse x y :
  rd_eqb x y = true -> sadd rd_eqb y [x] = [x] /\ rd_hashkey x = rd_hashkey y /\ rd_cmp x y = 0.
Proof.
  intros E. split; [unfold sadd, mem; cbn; rewrite E; reflexivity|].
  split; [apply rd_hash_congr, E|].
  apply rd_cmp_zero_iff; [| |exact E]; apply rd_eqb_iff in E; tauto.
Qed.

(* canonical RDATA octet order between records of the same relativity *)
Theorem rd_cmp_canonical a b :
  rrel a = rrel b -> (rd_cmp a b = -1 <-> lex_lt (rdig a) (rdig b)).
Proof.
  intros H. unfold rd_cmp. rewrite H, eqb_reflx. cbn. rewrite <- cmp_bytes_lt.
  destruct (cmp_bytes (rdig a) (rdig b)); split; congruence.
Qed.

Theorem rd_cmp_relative_first a b : rrel a = true -> rrel b = false -> rd_cmp a b = -1.
Proof. intros Ha Hb. unfold rd_cmp. rewrite Ha, Hb. reflexivity. Qed.

Lemma rd_cmp_lt_iff a b :
  rd_cmp a b = -1 <->
  (rrel a = true /\ rrel b = false) \/ (rrel a = rrel b /\ lex_lt (rdig a) (rdig b)).
Proof.
  split.
  - intros H. destruct (rrel a) eqn:Ra, (rrel b) eqn:Rb; auto;
      [right|unfold rd_cmp in H; rewrite Ra, Rb in H; discriminate|right];
      (split; [reflexivity|]; apply rd_cmp_canonical; [congruence|exact H]).
  - intros [[Ha Hb]|[Hr Hl]]; [apply rd_cmp_relative_first|apply rd_cmp_canonical]; assumption.
Qed.

Theorem rd_cmp_lt_trans a b c : rd_cmp a b = -1 -> rd_cmp b c = -1 -> rd_cmp a c = -1.
Proof.
  rewrite !rd_cmp_lt_iff.
  intros [[A1 A2]|[A1 A2]] [[B1 B2]|[B1 B2]]; try congruence.
  - left. split; congruence.
  - left. split; congruence.
  - right. split; [congruence|]. eapply lex_lt_trans; eassumption.
Qed.

(* records with equal keys compare alike against anything *)
Lemma rd_cmp_key_l a a' b : rd_cmp a a' = 0 -> rd_cmp a b = rd_cmp a' b.
Proof. intros H. apply rd_cmp_zero_key in H as [R D]. unfold rd_cmp. rewrite R, D. reflexivity. Qed.

Lemma rd_cmp_key_r a b b' : rd_cmp b b' = 0 -> rd_cmp a b = rd_cmp a b'.
Proof. intros H. apply rd_cmp_zero_key in H as [R D]. unfold rd_cmp. rewrite R, D. reflexivity. Qed.

(* <= is a total preorder whose equivalence is == (on records of one class and type) *)
Theorem rd_cmp_le_trans a b c : rd_cmp a b <= 0 -> rd_cmp b c <= 0 -> rd_cmp a c <= 0.
Proof.
  intros H1 H2.
  destruct (rd_cmp_range a b) as [E1|[E1|E1]]; [| |lia].
  2:{ rewrite (rd_cmp_key_l a b c E1). exact H2. }
  destruct (rd_cmp_range b c) as [E2|[E2|E2]]; [| |lia].
  - rewrite (rd_cmp_lt_trans _ _ _ E1 E2). lia.
  - rewrite <- (rd_cmp_key_r a b c E2). exact H1.
Qed.

Theorem rd_cmp_total a b : rd_cmp a b <= 0 \/ rd_cmp b a <= 0.
Proof. rewrite (rd_cmp_antisym a b). lia. Qed.

(* the rich comparisons are the sign tests of _cmp, and are defined exactly between records
   of the same class and type *)
Theorem rd_rich_spec w a b :
  rcls a = rcls b -> rtyp a = rtyp b ->
  rd_rich w a b = Ok (match w with
                      | RLt => rd_cmp a b <? 0
                      | RLe => rd_cmp a b <=? 0
                      | RGe => rd_cmp a b >=? 0
                      | RGt => rd_cmp a b >? 0
                      end).
Proof.
  intros Hc Ht. unfold rd_rich. rewrite Hc, Ht, !Z.eqb_refl. reflexivity.
Qed.

(* everything the property says about record ordering, in one statement *)
Theorem rd_order_total_spec :
  (forall a b, rd_cmp b a = - rd_cmp a b) /\
  (forall a b c, rd_cmp a b <= 0 -> rd_cmp b c <= 0 -> rd_cmp a c <= 0) /\
  (forall a b, rd_cmp a b <= 0 \/ rd_cmp b a <= 0) /\
  (forall a b, rcls a = rcls b -> rtyp a = rtyp b -> (rd_cmp a b = 0 <-> rd_eqb a b = true)) /\
  (forall a b, rrel a = rrel b -> (rd_cmp a b < 0 <-> lex_lt (rdig a) (rdig b))).
Proof.
  repeat split.
  - apply rd_cmp_antisym.
  - apply rd_cmp_le_trans.
  - apply rd_cmp_total.
  - apply rd_cmp_zero_iff; assumption.
  - apply rd_cmp_zero_iff; assumption.
  - intros Hlt. apply rd_cmp_canonical; [assumption|].
    destruct (rd_cmp_range a b) as [E|[E|E]]; lia.
  - intros Hl. apply rd_cmp_canonical in Hl; [lia|assumption].
Qed.
