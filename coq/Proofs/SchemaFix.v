(* Second half of C02: whatever decode_rdata accepts from arbitrary octets is a record whose own
   encoding exists and is a fixed point of decode-then-encode.  Generic in the origin and in what
   is known of a decoded name; instantiated here for "no origin". *)
From DV Require Import Base.Prelude Model.NameM Model.SchemaM Proofs.SchemaName Proofs.SchemaCodec Proofs.SchemaThm.
Open Scope Z_scope.

(* names produced by from_wire are absolute and valid *)
Lemma fw_go_shape : forall w fuel p big acc ls p',
  fw_go w fuel p big acc = Ok (ls, p') -> exists acc', ls = rev acc' ++ [[]].
Proof.
  induction fuel as [|f IH]; intros p big acc ls p' H; cbn [fw_go] in H; [discriminate|].
  destruct (NameM.get_u8 w p) as [[count p1]| |]; try discriminate.
  destruct (count =? 0).
  - injection H as <- <-. exists acc. reflexivity.
  - destruct (count <? 64).
    + destruct (NameM.get_bytes w p1 (Z.to_nat count)) as [[l p2]| |]; try discriminate.
      eapply IH; eauto.
    + destruct (192 <=? count); [|discriminate].
      destruct (NameM.get_u8 w p1) as [[lo p2]| |]; try discriminate.
      destruct (Nat.leb big (Z.to_nat ((count - 192) * 256 + lo))); [discriminate|].
      destruct (Nat.ltb (length w) (Z.to_nat ((count - 192) * 256 + lo))); [discriminate|].
      eapply IH; eauto.
Qed.

Lemma from_wire_abs_valid : forall w s n c,
  NameM.from_wire w s = Ok (n, c) -> is_absolute n = true /\ validate_labels n = Ok tt.
Proof.
  intros w s n c H. unfold NameM.from_wire in H.
  destruct (Nat.ltb (length w) s); [discriminate|].
  destruct (fw_go w (fw_fuel w s) {| cur := s; furthest := s |} s []) as [[ls p]| |] eqn:E; try discriminate.
  apply fw_go_shape in E as [acc' ->].
  unfold mk_name in H.
  destruct (validate_labels (rev acc' ++ [[]])) as [[]| |] eqn:Ev; cbn [bind] in H; try discriminate.
  injection H as <- <-. split; [apply (NameValid.is_absolute_last _ [])|exact Ev].
Qed.

Lemma get_name_none : forall w rel e c n c',
  get_name w None rel e c = Ok (n, c') -> is_absolute n = true /\ validate_labels n = Ok tt.
Proof.
  intros w rel e c n c' H. unfold get_name in H.
  destruct (NameM.from_wire (firstn e w) c) as [[n0 c0]| |] eqn:Ef; try discriminate.
  apply from_wire_abs_valid in Ef. destruct rel; injection H as <- _; exact Ef.
Qed.

Section Decoded.
  Variable oo : option name.
  Variable NOK : bool -> name -> Prop.
  (* valid values whose names satisfy NOK always encode *)
  Hypothesis Henc : forall rel v, NOK rel v -> exists b, NameM.to_wire v oo false = Ok b.

  Lemma nok_s_encodes : forall f v, sfld_wf f = true -> valid_s f v = true -> nok_s NOK f v -> exists b, enc_s oo f v = Ok b.
  Proof.
    intros [w m|n|w lo hi|rel] [z|x|nm] Hwf Hv Hn; cbn in Hv; try discriminate; unfold sfld_wf in Hwf; cbn [enc_s].
    - replace ((0 <=? z) && (z <? pow256 w)) with true by lia. eauto.
    - eauto.
    - unfold len_in in Hv. replace (zlen x <? pow256 w) with true by lia. eauto.
    - exact (Henc rel nm Hn).
  Qed.

  Lemma nok_row_encodes : forall fs vs, forallb sfld_wf fs = true -> valid_row fs vs = true -> nok_row NOK fs vs ->
    exists b, enc_row oo fs vs = Ok b.
  Proof.
    induction fs as [|f fr IH]; intros [|v vr] Hwf Hv Hn; cbn in Hv; try discriminate.
    - cbn. eauto.
    - cbn [forallb] in Hwf. apply andb_prop in Hwf as [W1 W2]. apply andb_prop in Hv as [V1 V2].
      destruct Hn as [N1 N2].
      destruct (nok_s_encodes f v W1 V1 N1) as [b1 E1]. destruct (IH vr W2 V2 N2) as [b2 E2].
      cbn [enc_row]. rewrite E1, E2. cbn. eauto.
  Qed.

  Lemma nok_rows_encodes : forall row rows, forallb sfld_wf row = true -> forallb (valid_row row) rows = true ->
    Forall (nok_row NOK row) rows -> exists b, enc_rows oo row rows = Ok b.
  Proof.
    induction rows as [|r rr IH]; intros Hwf Hv Hn.
    - cbn. eauto.
    - cbn [forallb] in Hv. apply andb_prop in Hv as [V1 V2]. inversion Hn; subst.
      destruct (nok_row_encodes row r Hwf V1 H1) as [b1 E1]. destruct (IH Hwf V2 H2) as [b2 E2].
      cbn [enc_rows]. rewrite E1, E2. cbn. eauto.
  Qed.

  Lemma nok_f_encodes : forall f v, last_wf f = true -> valid_f f v = true -> nok_f NOK f v -> exists b, enc_f oo f v = Ok b.
  Proof.
    intros [s|lo|n|hi|m a row] [x|rows] Hwf Hv Hn; cbn in Hv; try discriminate; cbn [enc_f].
    - apply nok_s_encodes; assumption.
    - destruct x; try discriminate. eauto.
    - destruct x; try discriminate. eauto.
    - destruct x as [|x|]; try discriminate. destruct x as [|c x']; [eauto|].
      cbn [last_wf] in Hwf. cbn [enc_s pow256]. replace (zlen (c :: x') <? 256 * 1) with true by lia. eauto.
    - apply andb_prop in Hv as [Hv _]. apply andb_prop in Hv as [Hv _].
      apply row_wf_inv in Hwf as [Hwf _]. apply nok_rows_encodes; assumption.
  Qed.

  Lemma nok_fields_encodes : forall fs vs, schema_wf fs = true -> valid_fields fs vs = true -> nok_fields NOK fs vs ->
    exists b, enc_fields oo fs vs = Ok b.
  Proof.
    induction fs as [|f fr IH]; intros [|v vr] Hwf Hv Hn; cbn in Hv; try discriminate.
    - cbn. eauto.
    - apply andb_prop in Hv as [V1 V2]. destruct Hn as [N1 N2].
      apply schema_wf_cons in Hwf as (L1 & L2 & _).
      destruct (nok_f_encodes f v L1 V1 N1) as [b1 E1]. destruct (IH vr L2 V2 N2) as [b2 E2].
      cbn [enc_fields]. rewrite E1, E2. cbn. eauto.
  Qed.

  (* a property of decoded names lifts to all decoded values *)
  Hypothesis Hget : forall w rel e c v c', get_name w oo rel e c = Ok (v, c') -> NOK rel v.

  Lemma dec_s_nok : forall w f e c v c', dec_s w oo f e c = Ok (v, c') -> nok_s NOK f v.
  Proof.
    intros w [wd m|n|wd lo hi|rel] e c v c' H; cbn [dec_s] in H.
    - inv_bind H. injection H as <- <-. exact Logic.I.
    - inv_bind H. injection H as <- <-. exact Logic.I.
    - inv_bind H. inv_bind H. injection H as <- <-. exact Logic.I.
    - inv_bind H. injection H as <- <-. destruct x as [n c1]. cbn. eapply Hget; eauto.
  Qed.

  Lemma dec_row_nok : forall w fs e c vs c', dec_row w oo fs e c = Ok (vs, c') -> nok_row NOK fs vs.
  Proof.
    induction fs as [|f fr IH]; intros e c vs c' H; cbn [dec_row] in H.
    - injection H as <- <-. exact Logic.I.
    - inv_bind H. inv_bind H. injection H as <- <-. destruct x as [v c1], x0 as [vr c2]. cbn [fst snd] in *.
      split; [eapply dec_s_nok; eauto|eapply IH; eauto].
  Qed.

  Lemma dec_rows_nok : forall w fuel row e c rows c',
    dec_rows w oo fuel row e c = Ok (rows, c') -> Forall (nok_row NOK row) rows.
  Proof.
    induction fuel as [|f IH]; intros row e c rows c' H; cbn [dec_rows] in H.
    - destruct (Nat.leb e c); [|discriminate]. injection H as <- <-. constructor.
    - destruct (Nat.leb e c); [injection H as <- <-; constructor|].
      inv_bind H. inv_bind H. injection H as <- <-. destruct x as [r c1], x0 as [rr c2]. cbn [fst snd] in *.
      constructor; [eapply dec_row_nok; eauto|eapply IH; eauto].
  Qed.

  Lemma dec_f_nok : forall w f e c v c', dec_f w oo f e c = Ok (v, c') -> nok_f NOK f v.
  Proof.
    intros w [s|lo|n|hi|m a row] e c v c' H; cbn [dec_f] in H.
    - inv_bind H. injection H as <- <-. destruct x. eapply dec_s_nok; eauto.
    - inv_bind H. injection H as <- <-. exact Logic.I.
    - inv_bind H. injection H as <- <-. exact Logic.I.
    - destruct (Nat.ltb c e).
      + inv_bind H. injection H as <- <-. exact Logic.I.
      + injection H as <- <-. exact Logic.I.
    - inv_bind H. injection H as <- <-. destruct x. cbn [fst]. eapply dec_rows_nok; eauto.
  Qed.

  Lemma dec_fields_nok : forall w fs e c vs c', dec_fields w oo fs e c = Ok (vs, c') -> nok_fields NOK fs vs.
  Proof.
    induction fs as [|f fr IH]; intros e c vs c' H; cbn [dec_fields] in H.
    - injection H as <- <-. exact Logic.I.
    - inv_bind H. inv_bind H. injection H as <- <-. destruct x as [v c1], x0 as [vr c2]. cbn [fst snd] in *.
      split; [eapply dec_f_nok; eauto|eapply IH; eauto].
  Qed.

  (* ... and, when such names are read back unchanged, the encoding decodes to the record *)
  Hypothesis Hname : forall rel n b W e c R,
    NOK rel n -> NameM.to_wire n oo false = Ok b -> sees W e c (b ++ R) ->
    get_name W oo rel e c = Ok (n, (c + length b)%nat).

  Theorem fixed_point_gen : forall fs ck wire cur rdlen vs,
    schema_wf fs = true ->
    decode_rdata oo fs ck wire cur rdlen = Ok vs ->
    exists w', encode_rdata oo fs ck vs = Ok w' /\ decode_rdata oo fs ck w' 0 (length w') = Ok vs.
  Proof.
    intros fs ck wire cur rdlen vs Hwf Hd. apply decode_rdata_ok in Hd as (_ & Hd & Hv).
    apply dec_fields_nok in Hd. pose proof Hv as Hvf. apply andb_prop in Hvf as [Hvf _].
    destruct (nok_fields_encodes fs vs Hwf Hvf Hd) as [w' Ew]. exists w'.
    exact (framed_fixed_point (fun W => dec_fields W oo fs) _ _ _ (schema_reads oo NOK Hname fs ck Hwf) vs w' Hd Hv Ew).
  Qed.
End Decoded.

(* no origin: decoded names are absolute (and valid) *)
Definition abs_name (rel : bool) (n : name) : Prop := is_absolute n = true.

Lemma abs_name_encodes : forall rel v, abs_name rel v -> exists b, NameM.to_wire v None false = Ok b.
Proof. intros rel v H. unfold NameM.to_wire. rewrite H. eauto. Qed.

Lemma dec_rows_abs : forall w fuel row endp cur rows c,
  dec_rows w None fuel row endp cur = Ok (rows, c) -> Forall (nok_row abs_name row) rows.
Proof. apply dec_rows_nok. intros w rel e c v c' H. eapply get_name_none; eauto. Qed.

Lemma enc_fields_total : forall fs vs,
  schema_wf fs = true -> valid_fields fs vs = true -> nok_fields abs_name fs vs ->
  exists b, enc_fields None fs vs = Ok b.
Proof. exact (nok_fields_encodes None abs_name abs_name_encodes). Qed.

Theorem schema_fixed_point_none : forall fs ck wire cur rdlen vs,
  schema_wf fs = true ->
  decode_rdata None fs ck wire cur rdlen = Ok vs ->
  exists w', encode_rdata None fs ck vs = Ok w' /\
             decode_rdata None fs ck w' 0 (length w') = Ok vs /\
             (forall vs', decode_rdata None fs ck w' 0 (length w') = Ok vs' ->
                          encode_rdata None fs ck vs' = Ok w').
Proof.
  intros fs ck wire cur rdlen vs Hwf Hd.
  destruct (fixed_point_gen None (fun _ n => is_absolute n = true /\ validate_labels n = Ok tt)) with (4 := Hwf) (5 := Hd)
    as (w' & He & Hr).
  - intros rel v [H _]. exact (abs_name_encodes rel v H).
  - apply get_name_none.
  - intros rel n b W e c R [_ H]. apply hname_none, H.
  - exists w'. split; [exact He|]. split; [exact Hr|]. intros vs' Hd'. congruence.
Qed.
