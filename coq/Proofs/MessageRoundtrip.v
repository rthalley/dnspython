(* Render-then-parse, section by section: a section loop that fitted leaves a chain of records (or questions) on the
   wire (sec_chain, one induction for questions, ordinary record sets and update record sets); the reader's index
   regroups a chain into the record sets (regroup_sec). *)
From DV Require Import Base.Prelude Model.NameM Model.MessageM.
From DV Require Import Proofs.ListFacts Proofs.NameOrder Proofs.NameValid Proofs.NameRel Proofs.NameWire Proofs.NameCompress.
From DV Require Import Proofs.MessageName Proofs.MessageRender Proofs.MessageRead.
Open Scope Z_scope.

(* r with another table: re-rendering runs on the same state against a table with ci-equal keys *)
Definition with_tbl (r : rst) (tq : ctable) : rst := set_out r (out r) tq.

(* a tracked write that fitted, seen from any octets `file` of the same length as the output so far (the output
   with its final header); any emitter that yields the same octets from the other table takes the same step *)
Lemma tracked_step (E : emitter) sec n r r' file :
  ext_em E -> TblBelow r -> zlen file = zlen (out r) -> tracked E sec n r = Ok (false, r') ->
  rsec r <= sec /\
  exists em,
    E (zlen file) (tbl r) = Ok (em, tbl r') /\ zlen (file ++ em) = zlen (out r') /\ TblBelow r' /\
    r' = inc_count (set_out (set_rsec r sec) (out r ++ em) (tbl r')) sec n /\
    forall (E' : emitter) tq tq', E' (zlen file) tq = Ok (em, tq') ->
      tracked E' sec n (with_tbl r tq) = Ok (false, with_tbl r' tq').
Proof.
  intros X TB Hz H.
  destruct (tracked_spec _ _ _ _ _ _ X TB H) as (Hs & em & new & HE & F & [(_ & Hfit & ->)|(Hb & _)]); [|discriminate].
  split; [exact Hs|]. exists em. rewrite Hz. cbn [out tbl inc_count set_out].
  split; [exact HE|]. split; [rewrite !zlen_app; lia|]. split; [apply TblBelow_step; assumption|]. split; [reflexivity|].
  intros E' tq tq' HE'. unfold tracked. rewrite set_section_le by (cbn; exact Hs). cbn [bind out tbl with_tbl set_out set_rsec].
  rewrite HE'. cbn [bind fst snd]. unfold track_end. cbn [out maxsz set_out set_rsec with_tbl]. rewrite zlen_app.
  destruct (Z.gtb_spec (zlen (out r) + zlen em) (maxsz r)); [lia|]. reflexivity.
Qed.

Section WithOrigin.
Variable o : option name.
Hypothesis OO : org_ok o.

Record rrd := mkD { d_owner : name; d_ty : Z; d_cl : Z; d_ttl : Z; d_fs : list fld; d_rd : rdata }.

Inductive Chain (w : list Z) : nat -> list rrd -> nat -> Prop :=
| ch_nil off : (off <= length w)%nat -> Chain w off [] off
| ch_cons off d mid ds end_ :
    (exists abs', RRreads o o w off abs' (d_owner d) (d_ty d) (d_cl d) (d_ttl d) (d_fs d) (d_rd d) mid) ->
    Chain w mid ds end_ -> Chain w off (d :: ds) end_.

Lemma Chain_app_w w more off ds end_ : Chain w off ds end_ -> Chain (w ++ more) off ds end_.
Proof.
  induction 1.
  - constructor. rewrite app_length. lia.
  - econstructor; [destruct H as (abs' & H); exists abs'; apply RRreads_app; exact H|exact IHChain].
Qed.

Lemma Chain_app w off ds1 mid ds2 end_ :
  Chain w off ds1 mid -> Chain w mid ds2 end_ -> Chain w off (ds1 ++ ds2) end_.
Proof. induction 1; intros H2; [exact H2|]. cbn [app]. econstructor; [eassumption|auto]. Qed.

Lemma Chain_end w off ds end_ : Chain w off ds end_ -> (off <= end_ <= length w)%nat.
Proof.
  induction 1; [lia|]. destruct H as (abs' & c1 & rdl & A & B & C & _). lia.
Qed.

Definition ordinary (d : rrd) : Prop :=
  d_ty d <> tOPT /\ d_ty d <> tTSIG /\ schema_of (d_cl d) (d_ty d) = Some (d_fs d) /\
  0 <= d_ttl d <= 2147483647.

(* the reader's state update for one ordinary RR *)
Definition apply_d (sec : Z) (fu : bool) (m : msg) (d : rrd) : msg :=
  set_sec m sec (find_add (get_sec m sec) (d_owner d) (d_cl d) (d_ty d) (rd_covers (d_ty d) (d_rd d)) None fu
                          (fun rs => rrset_add rs (d_rd d) (d_ttl d))).

Lemma get_section_chain w ext sec count : forall ds off end_ i fu m,
  Chain w off ds end_ -> Forall ordinary ds ->
  get_section (w ++ ext) o po0 false sec count i (length ds) off fu m
  = Ok (end_, fu, fold_left (apply_d sec fu) ds m).
Proof.
  induction ds as [|d ds IH]; intros off end_ i fu m C O.
  - inversion C; subst. reflexivity.
  - inversion C as [|? ? mid ? ? R C']; subst. inversion O as [|? ? (O1 & O2 & O3 & O4) O']; subst.
    cbn [length get_section].
    destruct R as (abs' & R).
    rewrite (get_rr_ordinary o w off abs' _ _ _ _ _ _ mid ext sec count i fu m R O1 O2 O3 O4). cbn [bind].
    rewrite (IH mid end_ (S i) fu _ C' O'). reflexivity.
Qed.

Lemma get_section_split wire og po iu sec count : forall a b i cur fu m,
  get_section wire og po iu sec count i (a + b) cur fu m =
  do r <- get_section wire og po iu sec count i a cur fu m;
  get_section wire og po iu sec count (i + a) b (fst (fst r)) (snd (fst r)) (snd r).
Proof.
  induction a as [|a IH]; intros b i cur fu m.
  - cbn [Nat.add get_section bind fst snd]. rewrite Nat.add_0_r. reflexivity.
  - cbn [Nat.add get_section].
    destruct (get_rr wire og po iu sec count i cur fu m) as [[[cur' fu'] m']| |]; cbn [bind]; try reflexivity.
    rewrite IH. replace (S i + a)%nat with (i + S a)%nat by lia. reflexivity.
Qed.

Lemma Forall2_len {A B} (R : A -> B -> Prop) l1 l2 : Forall2 R l1 l2 -> length l1 = length l2.
Proof. induction 1; cbn; congruence. Qed.

Definition desc_of (owner : name) (ty cl ttl : Z) (fs : list fld) (d : rrd) (rd : rdata) : Prop :=
  d_ty d = ty /\ d_cl d = cl /\ d_ttl d = ttl /\ d_fs d = fs /\
  ci_equal (d_owner d) owner /\ name_wf o (d_owner d) /\
  rdata_ci (d_rd d) rd /\ Forall (piece_wf o) (d_rd d) /\ shaped fs (d_rd d).

(* the records of one record set; any owner whose labels agree with those of the first record where they were
   written literally may be written in its place (the reader names the set after its first record) *)
Lemma rrs_em_chain fs owner Lown ty cl ttl :
  name_wf o owner -> full_labels owner o = Ok Lown -> name_ok Lown -> forall rds file t em t',
  TableSound file t ->
  Forall (fun rd => Forall (piece_wf o) rd /\ shaped fs rd) rds ->
  rrs_em owner ty cl ttl rds o true (zlen file) t = Ok (em, t') ->
  TableSound (file ++ em) t' /\
  exists ds, Chain (file ++ em) (length file) ds (length (file ++ em)) /\
             Forall2 (desc_of owner ty cl ttl fs) ds rds /\
    (forall d, hd_error ds = Some d -> exists X, full_labels (d_owner d) o = Ok X /\ lsim t X Lown) /\
    (forall tq ownq Lq, tbl_ci tq t -> full_labels ownq o = Ok Lq -> lsim t Lq Lown ->
       exists tq', rrs_em ownq ty cl ttl (map d_rd ds) o true (zlen file) tq = Ok (em, tq') /\ tbl_ci tq' t').
Proof.
  intros NO HFo NOL. induction rds as [|rd rds IH]; intros file t em t' TS HF H.
  - injection H as <- <-. rewrite app_nil_r. split; [exact TS|].
    exists []. split; [constructor; lia|]. split; [constructor|]. split; [discriminate|].
    intros tq ownq Lq TC _ _. exists tq. split; [reflexivity|exact TC].
  - cbn [rrs_em] in H. apply bind_ok in H. destruct H as ([e1 t1] & H1 & H).
    apply bind_ok in H. destruct H as ([e2 t2] & H2 & H). injection H as <- <-. cbn [fst snd] in *.
    inversion HF as [|? ? (PO & S) HF']; subst.
    destruct (rr_em_read_o o fs owner Lown ty cl ttl rd true true file t e1 t1 OO TS NO HFo NOL PO S H1)
      as (TS1 & abs' & owner' & X & rd' & CI1 & NO1 & HFX & SX & CI2 & PO2 & S2 & RR & RE1).
    rewrite <- zlen_app in H2.
    destruct (IH (file ++ e1) t1 e2 t2 TS1 HF' H2) as (TS2 & ds & CH & F2 & _ & RE2).
    rewrite <- app_assoc in TS2, CH. split; [exact TS2|].
    exists (mkD owner' ty cl ttl fs rd' :: ds). split; [|split; [|split]].
    + econstructor; [|exact CH]. exists abs'. rewrite app_assoc. apply RRreads_app. exact RR.
    + constructor; [|exact F2]. unfold desc_of. cbn [d_owner d_ty d_cl d_ttl d_fs d_rd]. auto 10.
    + intros d Hd. injection Hd as <-. exists X. split; [exact HFX|exact SX].
    + intros tq ownq Lq TC HFq SLq.
      destruct (RE1 tq ownq Lq TC HFq SLq) as (tq1 & E1 & TC1).
      destruct (ext_rr_em _ _ _ _ _ _ _ _ _ _ _ _ _ H1) as (new1 & -> & _).
      destruct (RE2 tq1 ownq Lq TC1 HFq (lsim_mono _ _ _ _ SLq)) as (tq' & E2 & TC').
      exists tq'. split; [|exact TC']. cbn [rrs_em map d_rd]. rewrite E1. cbn [bind fst snd].
      rewrite <- zlen_app. rewrite E2. reflexivity.
Qed.

(* a record set of sections 1..3 of an ordinary (non-update) message *)
Definition NoDupRd (rds : list rdata) : Prop :=
  ForallOrdPairs (fun a b => rdata_eqb a b = false) rds.

Definition wf_rrset (rs : rrset) : Prop :=
  name_wf o (rname rs) /\ rdeleting rs = None /\ rrds rs <> [] /\
  rtype rs <> tOPT /\ rtype rs <> tTSIG /\
  0 <= rttl rs <= 2147483647 /\
  (exists fs, schema_of (rclass rs) (rtype rs) = Some fs /\
              Forall (fun rd => Forall (piece_wf o) rd /\ shaped fs rd) (rrds rs)) /\
  Forall (fun rd => rd_covers (rtype rs) rd = rcovers rs) (rrds rs) /\
  NoDupRd (rrds rs) /\
  (is_singleton (rtype rs) = true -> length (rrds rs) = 1%nat).

Definition rs_fs (rs : rrset) : list fld :=
  match schema_of (rclass rs) (rtype rs) with Some fs => fs | None => [] end.

Inductive SecDesc : list rrset -> list rrd -> Prop :=
| sd_nil : SecDesc [] []
| sd_cons rs l ds1 ds2 :
    Forall2 (desc_of (rname rs) (rtype rs) (rclass rs) (rttl rs) (rs_fs rs)) ds1 (rrds rs) ->
    SecDesc l ds2 -> SecDesc (rs :: l) (ds1 ++ ds2).

(* the record set the reader rebuilds from the records ds of rs *)
Definition rebuilt_rs (rs : rrset) (ds : list rrd) : rrset :=
  mkRR (match ds with d :: _ => d_owner d | [] => rname rs end) (rclass rs) (rtype rs) (rcovers rs) None (rttl rs)
       (map d_rd ds).

Inductive Rebuilt : list rrset -> list rrd -> list rrset -> Prop :=
| rb_nil : Rebuilt [] [] []
| rb_cons rs l ds1 ds2 l2 :
    length ds1 = length (rrds rs) -> Rebuilt l ds2 l2 -> Rebuilt (rs :: l) (ds1 ++ ds2) (rebuilt_rs rs ds1 :: l2).

Lemma rrset_em_chain rs file t em t' :
  TableSound file t -> wf_rrset rs ->
  rrset_em rs o true (zlen file) t = Ok (em, t') ->
  TableSound (file ++ em) t' /\
  exists ds, Chain (file ++ em) (length file) ds (length (file ++ em)) /\
             Forall2 (desc_of (rname rs) (rtype rs) (rclass rs) (rttl rs) (rs_fs rs)) ds (rrds rs) /\
             rrset_count rs = zlen ds /\
             (forall tq, tbl_ci tq t ->
                exists tq', rrset_em (rebuilt_rs rs ds) o true (zlen file) tq = Ok (em, tq') /\ tbl_ci tq' t').
Proof.
  intros TS (NO & DEL & NE & _ & _ & _ & (fs & HS & HF) & _) H.
  unfold rrset_em, wclass in H. rewrite DEL in H. unfold rs_fs. rewrite HS.
  destruct (rrds rs) as [|rd rds] eqn:E; [congruence|]. rewrite <- E in *.
  destruct (name_wf_full o (rname rs) OO NO) as (Lown & HFo & NOL).
  destruct (rrs_em_chain fs _ Lown _ _ _ NO HFo NOL _ _ _ _ _ TS HF H) as (TS' & ds & CH & F2 & HD & RE).
  split; [exact TS'|]. exists ds. split; [exact CH|]. split; [exact F2|].
  split; [unfold rrset_count; rewrite E, <- E; unfold zlen; f_equal; symmetry; exact (Forall2_len _ _ _ F2)|].
  intros tq TC. destruct ds as [|d ds']; [rewrite E in F2; inversion F2|].
  destruct (HD d eq_refl) as (X & HFX & SX).
  exact (RE tq (d_owner d) X TC HFX SX).
Qed.

Definition count_of (r : rst) (sec : Z) : Z :=
  if sec =? 0 then cq r else if sec =? 1 then can r else if sec =? 2 then cau r else cad r.

Lemma count_of_inc r sec n s : 0 <= sec <= 3 -> 0 <= s <= 3 ->
  count_of (inc_count r sec n) s = count_of r s + (if s =? sec then n else 0).
Proof.
  intros H1 H2. unfold count_of. cbn [cq can cau cad inc_count].
  assert (sec = 0 \/ sec = 1 \/ sec = 2 \/ sec = 3) as [->|[->|[->| ->]]] by lia;
    assert (s = 0 \/ s = 1 \/ s = 2 \/ s = 3) as [->|[->|[->| ->]]] by lia; cbn [Z.eqb Pos.eqb]; lia.
Qed.

(* One section loop of Message.to_wire when nothing overflows, for any kind of entry: mk is the tracked write of an
   entry, W its well-formedness, Ch what the reader finds on the wire, D how that describes the entries, R the entries
   the reader rebuilds from it.  `file` is any octet string of the same length as the output so far. *)
Section SecChain.
Variable sec : Z.
Hypothesis Hsec : 0 <= sec <= 3.
Variable X : Type.
Variable Ch : list Z -> nat -> list X -> nat -> Prop.
Variable mk : rrset -> step.
Variable W : rrset -> Prop.
Variable D : list rrset -> list X -> Prop.
Variable R : list rrset -> list X -> list rrset -> Prop.
Hypothesis Ch_nil : forall w off, (off <= length w)%nat -> Ch w off [] off.
Hypothesis Ch_app : forall w more off xs1 mid xs2 end_,
  Ch w off xs1 mid -> Ch (w ++ more) mid xs2 end_ -> Ch (w ++ more) off (xs1 ++ xs2) end_.
Hypothesis mk_sec : forall rs, s_sec (mk rs) = sec.
Hypothesis mk_ext : forall rs, ext_step (mk rs).
Hypothesis D_nil : D [] [].
Hypothesis R_nil : forall l2, R [] [] l2 -> l2 = [].
Hypothesis read1 : forall rs l file t em t',
  W rs -> TableSound file t -> s_em (mk rs) (zlen file) t = Ok (em, t') ->
  TableSound (file ++ em) t' /\
  exists xs1, Ch (file ++ em) (length file) xs1 (length (file ++ em)) /\ s_n (mk rs) = zlen xs1 /\
    (forall xs2, D l xs2 -> D (rs :: l) (xs1 ++ xs2)) /\
    (forall xs2 l2, R (rs :: l) (xs1 ++ xs2) l2 ->
       exists rs2 l2', l2 = rs2 :: l2' /\ R l xs2 l2' /\ s_n (mk rs2) = s_n (mk rs) /\
         forall tq, tbl_ci tq t -> exists tq', s_em (mk rs2) (zlen file) tq = Ok (em, tq') /\ tbl_ci tq' t').

Lemma sec_chain : forall l r r' file,
  zlen file = zlen (out r) -> TableSound file (tbl r) -> TblBelow r -> Forall W l ->
  tracks (map mk l) r = Ok (false, r') ->
  exists em xs,
    out r' = out r ++ em /\ TableSound (file ++ em) (tbl r') /\ TblBelow r' /\
    Ch (file ++ em) (length file) xs (length (file ++ em)) /\ D l xs /\
    count_of r' sec = count_of r sec + zlen xs /\
    (forall s, 0 <= s <= 3 -> s <> sec -> count_of r' s = count_of r s) /\
    rsec r <= rsec r' <= Z.max (rsec r) sec /\
    (forall l2 tq, R l xs l2 -> tbl_ci tq (tbl r) ->
       exists tq', tracks (map mk l2) (with_tbl r tq) = Ok (false, with_tbl r' tq') /\ tbl_ci tq' (tbl r')).
Proof.
  induction l as [|rs l IH]; intros r r' file Hz TS TB WF H.
  - injection H as <-. exists [], []. rewrite !app_nil_r.
    split; [reflexivity|]. split; [exact TS|]. split; [exact TB|]. split; [apply Ch_nil; lia|]. split; [exact D_nil|].
    split; [change (zlen (@nil X)) with 0; lia|]. split; [reflexivity|]. split; [lia|].
    intros l2 tq RB TC. rewrite (R_nil _ RB). exists tq. split; [destruct r; reflexivity|exact TC].
  - cbn [map tracks] in H. apply bind_ok in H. destruct H as ([b1 r1] & H1 & H). cbn [fst snd] in H.
    destruct b1; [discriminate|]. inversion WF as [|? ? W1 WF']; subst. unfold run_step in H1. rewrite mk_sec in H1.
    destruct (tracked_step _ _ _ _ _ file (mk_ext rs) TB Hz H1) as (Hs & em1 & HE & Hz1 & TB1 & Er1 & SIM).
    destruct (read1 rs l file (tbl r) em1 _ W1 TS HE) as (TS1 & xs1 & CH1 & Hcnt & DC & RC).
    destruct (IH r1 r' (file ++ em1) Hz1 TS1 TB1 WF' H) as (em2 & xs2 & O2 & TS2 & TB2 & CH2 & D2 & C2 & C2' & RS & RE2).
    assert (O1 : out r1 = out r ++ em1) by (rewrite Er1; reflexivity).
    assert (S1 : rsec r1 = sec) by (rewrite Er1; reflexivity).
    assert (Hc1 : forall s, 0 <= s <= 3 -> count_of r1 s = count_of r s + (if s =? sec then zlen xs1 else 0)).
    { intros s Hr. rewrite Er1, count_of_inc, Hcnt by assumption. reflexivity. }
    exists (em1 ++ em2), (xs1 ++ xs2). rewrite <- app_assoc in TS2, CH2.
    split; [rewrite O2, O1, <- app_assoc; reflexivity|]. split; [exact TS2|]. split; [exact TB2|].
    split; [rewrite app_assoc; eapply Ch_app; [exact CH1|rewrite <- app_assoc; exact CH2]|].
    split; [apply DC; exact D2|].
    split; [rewrite C2, Hc1, Z.eqb_refl, zlen_app by exact Hsec; lia|].
    split; [intros s Hr Hne; rewrite (C2' s Hr Hne), Hc1 by exact Hr; destruct (Z.eqb_spec s sec); [contradiction|lia]|].
    split; [lia|].
    intros l2 tq RB TC. destruct (RC xs2 l2 RB) as (rs2 & l2' & -> & RB' & En & RE1).
    destruct (RE1 tq TC) as (tq1 & E1 & TC1).
    destruct (RE2 l2' tq1 RB' TC1) as (tq' & T2 & TC').
    exists tq'. split; [|exact TC']. cbn [map tracks]. unfold run_step. rewrite mk_sec, En, (SIM _ _ _ E1). exact T2.
Qed.
End SecChain.

Lemma rr_chain_x sec : 1 <= sec <= 3 -> forall l r r' file,
  zlen file = zlen (out r) -> TableSound file (tbl r) -> TblBelow r -> Forall wf_rrset l ->
  tracks (map (rr_step o sec) l) r = Ok (false, r') ->
  exists em ds,
    out r' = out r ++ em /\ TableSound (file ++ em) (tbl r') /\ TblBelow r' /\
    Chain (file ++ em) (length file) ds (length (file ++ em)) /\ SecDesc l ds /\
    count_of r' sec = count_of r sec + zlen ds /\
    (forall s, 0 <= s <= 3 -> s <> sec -> count_of r' s = count_of r s) /\
    rsec r <= rsec r' <= Z.max (rsec r) sec /\
    (forall l2 tq, Rebuilt l ds l2 -> tbl_ci tq (tbl r) ->
       exists tq', tracks (map (rr_step o sec) l2) (with_tbl r tq) = Ok (false, with_tbl r' tq') /\ tbl_ci tq' (tbl r')).
Proof.
  intros Hsec. apply (sec_chain sec ltac:(lia) rrd Chain (rr_step o sec) wf_rrset SecDesc Rebuilt).
  - intros. constructor. assumption.
  - intros w more off xs1 mid xs2 end_ C1 C2. exact (Chain_app _ _ _ _ _ _ (Chain_app_w _ _ _ _ _ C1) C2).
  - reflexivity.
  - intros rs. apply ext_rrset_em.
  - constructor.
  - intros l2 RB. inversion RB. reflexivity.
  - intros rs l file t em t' W1 TS HE.
    destruct (rrset_em_chain rs file t em t' TS W1 HE) as (TS' & ds & CH & F2 & Hc & RE).
    split; [exact TS'|]. exists ds. split; [exact CH|]. split; [exact Hc|]. split; [intros; constructor; assumption|].
    intros xs2 l2 RB. inversion RB as [|rs0 l0 da db l2' Hlen RB' E1 E2 E3]; subst.
    apply app_inj_len in E2; [|rewrite Hlen; symmetry; eapply Forall2_len; exact F2]. destruct E2 as (-> & ->).
    exists (rebuilt_rs rs ds), l2'. split; [reflexivity|]. split; [exact RB'|]. split; [|exact RE].
    cbn [s_n rr_step]. rewrite Hc. unfold rrset_count, rebuilt_rs. cbn [rrds].
    destruct ds as [|d0 ds']; [|cbn [map]; unfold zlen; cbn [length]; rewrite map_length; reflexivity].
    destruct W1 as (_ & _ & NE & _). apply Forall2_len in F2. destruct (rrds rs); [congruence|discriminate].
Qed.

Lemma add_rrsets_chain sec : forall l r r' file,
  1 <= sec <= 3 ->
  zlen file = zlen (out r) -> TableSound file (tbl r) -> TblBelow r -> Forall wf_rrset l ->
  add_rrsets o sec l r = Ok (false, r') ->
  exists em ds,
    out r' = out r ++ em /\ TableSound (file ++ em) (tbl r') /\ TblBelow r' /\
    Chain (file ++ em) (length file) ds (length (file ++ em)) /\ SecDesc l ds /\
    count_of r' sec = count_of r sec + zlen ds /\
    (forall s, 0 <= s <= 3 -> s <> sec -> count_of r' s = count_of r s) /\
    rflags r' = rflags r /\ maxsz r' = maxsz r /\ reserved r' = reserved r /\ padded r' = padded r /\
    rsec r <= rsec r' <= Z.max (rsec r) sec.
Proof.
  intros l r r' file Hsec Hz TS TB WF H. rewrite add_rrsets_tracks in H.
  destruct (tracks_keeps _ _ _ _ H) as (K1 & K2 & K3 & K4 & _).
  destruct (rr_chain_x sec Hsec l r r' file Hz TS TB WF H) as (em & ds & A1 & A2 & A3 & A4 & A5 & A6 & A7 & A8 & _).
  exists em, ds. auto 15.
Qed.

Lemma wire_labels_canon_ci n n' : ci_equal n n' -> wire_labels true n = wire_labels true n'.
Proof.
  unfold ci_equal. revert n'. induction n as [|l n IH]; intros [|l' n'] H; try discriminate; [reflexivity|].
  cbn [map] in H. injection H as H1 H2. rewrite !wire_labels_cons. rewrite H1. f_equal.
  - unfold zlen. f_equal. apply (f_equal (@length Z)) in H1. unfold lower_l in H1. rewrite !map_length in H1. exact H1.
  - f_equal. apply IH. exact H2.
Qed.

Lemma piece_digest_ci a b : piece_ci a b -> piece_digest a = piece_digest b.
Proof.
  assert (N : forall x y, ci_equal x y -> piece_digest (PN x) = piece_digest (PN y)).
  { intros x y H. cbn [piece_digest].
    rewrite (ci_equal_absolute _ _ H), (wire_labels_canon_ci _ _ H), (wire_labels_canon_ci (x ++ [[]]) (y ++ [[]])); [reflexivity|].
    apply ci_equal_app; [exact H|reflexivity]. }
  destruct a as [x|x|x|x]; destruct b as [y|y|y|y]; cbn [piece_ci]; intros H; try contradiction;
    [subst; reflexivity|exact (N x y H)|exact (N x y H)|subst; reflexivity].
Qed.

Lemma rd_digest_ci a b : rdata_ci a b -> rd_digest a = rd_digest b.
Proof.
  intros H. unfold rd_digest.
  assert (E : map piece_digest a = map piece_digest b).
  { induction H; [reflexivity|]. cbn [map]. f_equal; [apply piece_digest_ci; assumption|assumption]. }
  rewrite E. reflexivity.
Qed.

Lemma rdata_eqb_ci a a' b b' : rdata_ci a' a -> rdata_ci b' b -> rdata_eqb a' b' = rdata_eqb a b.
Proof. intros H1 H2. unfold rdata_eqb. rewrite (rd_digest_ci _ _ H1), (rd_digest_ci _ _ H2). reflexivity. Qed.

Lemma rd_covers_ci ty a b : rdata_ci a b -> rd_covers ty a = rd_covers ty b.
Proof.
  intros H. unfold rd_covers. destruct (is_sigtype ty); [|reflexivity].
  destruct H as [|x y a b Hxy H]; [reflexivity|].
  destruct x; destruct y; cbn [piece_ci] in Hxy; try contradiction; try reflexivity. subst. reflexivity.
Qed.

Definition rrset_equiv (a b : rrset) : Prop :=
  ci_equal (rname a) (rname b) /\ rclass a = rclass b /\ rtype a = rtype b /\
  rcovers a = rcovers b /\ rdeleting a = rdeleting b /\ rttl a = rttl b /\
  Forall2 rdata_ci (rrds a) (rrds b).

Definition step_sec (S : list rrset) (d : rrd) : list rrset :=
  find_add S (d_owner d) (d_cl d) (d_ty d) (rd_covers (d_ty d) (d_rd d)) None false
           (fun rs => rrset_add rs (d_rd d) (d_ttl d)).

Definition key_of_match (rs s : rrset) : bool :=
  key_match (rname rs) (rclass rs) (rtype rs) (rcovers rs) (rdeleting rs) s.

Lemma upd_first_none {A} (p : A -> bool) f l : Forall (fun x => p x = false) l -> upd_first p f l = None.
Proof. induction 1 as [|x l Hx _ IH]; [reflexivity|]. cbn [upd_first]. rewrite Hx, IH. reflexivity. Qed.

Lemma find_add_fresh S n c t cov del f :
  Forall (fun s => key_match n c t cov del s = false) S ->
  find_add S n c t cov del false f = S ++ [f (mkRR n c t cov del 0 [])].
Proof.
  intros H. unfold find_add. rewrite upd_first_none; [reflexivity|].
  apply Forall_rev. exact H.
Qed.

Lemma find_add_last S cur n c t cov del f :
  key_match n c t cov del cur = true ->
  find_add (S ++ [cur]) n c t cov del false f = S ++ [f cur].
Proof.
  intros H. unfold find_add. rewrite rev_app_distr. cbn [rev app upd_first]. rewrite H.
  cbn [rev]. rewrite rev_involutive. reflexivity.
Qed.

Lemma rrset_add_nonempty cur rd ttl :
  rrds cur <> [] ->
  rrset_add cur rd ttl =
    set_rds cur (if ttl <? rttl cur then ttl else rttl cur)
            (let rds := if is_singleton (rtype cur) then [] else rrds cur in
             if existsb (rdata_eqb rd) rds then rds else rds ++ [rd]).
Proof. intros H. unfold rrset_add. destruct (rrds cur); [congruence|reflexivity]. Qed.

Lemma zlist_eqb_sym : forall a b, zlist_eqb a b = zlist_eqb b a.
Proof. induction a as [|u a IHa]; destruct b as [|v b]; cbn; try reflexivity. rewrite Z.eqb_sym, IHa. reflexivity. Qed.

Lemma rdata_eqb_sym a b : rdata_eqb a b = rdata_eqb b a.
Proof. unfold rdata_eqb. rewrite zlist_eqb_sym. f_equal. destruct (fst (rd_digest a)), (fst (rd_digest b)); reflexivity. Qed.

(* NoDupRd compares digests, which do not see the case of names *)
Lemma NoDupRd_ci a b : Forall2 rdata_ci a b -> NoDupRd b -> NoDupRd a.
Proof.
  unfold NoDupRd. induction 1 as [|x y a b Hxy F IH]; intros ND; [constructor|].
  inversion ND as [|? ? Hy ND']; subst. constructor; [|apply IH; exact ND'].
  clear - Hxy F Hy. induction F as [|u v a b Huv _ IHF]; [constructor|].
  inversion Hy; subst. constructor; [rewrite (rdata_eqb_ci _ _ _ _ Hxy Huv); assumption|auto].
Qed.

Lemma NoDupRd_mid l y r : NoDupRd (l ++ y :: r) -> existsb (rdata_eqb y) l = false.
Proof.
  unfold NoDupRd. induction l as [|x l IH]; intros ND; [reflexivity|]. cbn [app] in ND.
  inversion ND as [|? ? Hx ND']; subst. apply Forall_app in Hx. destruct Hx as (_ & Hx). apply Forall_inv in Hx.
  cbn [existsb]. rewrite (IH ND'), rdata_eqb_sym, Hx. reflexivity.
Qed.

(* the key under which the reader files a record of rs is the key of rs *)
Lemma desc_key rs fs d rd s :
  desc_of (rname rs) (rtype rs) (rclass rs) (rttl rs) fs d rd ->
  rd_covers (rtype rs) rd = rcovers rs -> rdeleting rs = None ->
  key_match (d_owner d) (d_cl d) (d_ty d) (rd_covers (d_ty d) (d_rd d)) None s = key_of_match rs s.
Proof.
  intros (D1 & D2 & _ & _ & D5 & _ & D7 & _) COV DEL.
  rewrite D1, D2, (rd_covers_ci _ _ _ D7), COV. unfold key_of_match, key_match.
  rewrite DEL, (name_eqb_ci _ _ _ _ eq_refl D5). reflexivity.
Qed.

Lemma desc_of_rdata_ci owner ty cl ttl fs ds rds :
  Forall2 (desc_of owner ty cl ttl fs) ds rds -> Forall2 rdata_ci (map d_rd ds) rds.
Proof.
  induction 1 as [|d rd ds rds (_ & _ & _ & _ & _ & _ & D7 & _) _ IH]; constructor; [exact D7|exact IH].
Qed.

(* a new rdata for the record set that ends the section *)
Lemma step_sec_last S cur ttl got d :
  key_match (d_owner d) (d_cl d) (d_ty d) (rd_covers (d_ty d) (d_rd d)) None cur = true ->
  d_ttl d = ttl -> got <> [] -> is_singleton (rtype cur) = false ->
  existsb (rdata_eqb (d_rd d)) got = false ->
  step_sec (S ++ [set_rds cur ttl got]) d = S ++ [set_rds cur ttl (got ++ [d_rd d])].
Proof.
  intros K T NE SG EX. unfold step_sec. rewrite find_add_last by exact K. rewrite rrset_add_nonempty by exact NE.
  cbn [set_rds rname rclass rtype rcovers rdeleting rttl rrds]. rewrite T, Z.ltb_irrefl, SG. cbn zeta. rewrite EX. reflexivity.
Qed.

(* further records of rs, added to a section that ends with the rdatas `got` of rs read so far *)
Lemma regroup_inner rs fs S cur :
  rdeleting rs = None -> key_of_match rs cur = true ->
  forall ds rds got,
  Forall2 (desc_of (rname rs) (rtype rs) (rclass rs) (rttl rs) fs) ds rds ->
  Forall (fun rd => rd_covers (rtype rs) rd = rcovers rs) rds ->
  (ds <> [] -> is_singleton (rtype cur) = false) ->
  got <> [] -> NoDupRd (got ++ map d_rd ds) ->
  fold_left step_sec ds (S ++ [set_rds cur (rttl rs) got]) = S ++ [set_rds cur (rttl rs) (got ++ map d_rd ds)].
Proof.
  intros DEL K. induction ds as [|d ds IH]; intros rds got F2 COV SG NE ND; cbn [map fold_left].
  - rewrite app_nil_r. reflexivity.
  - inversion F2 as [|? rd ? rds0 D F2']; subst. inversion COV as [|? ? COV1 COV']; subst.
    rewrite (step_sec_last S cur (rttl rs) got d).
    + rewrite (IH rds0 (got ++ [d_rd d]) F2' COV'), <- app_assoc; [reflexivity| | |].
      * intros _. apply SG. discriminate.
      * destruct got; discriminate.
      * rewrite <- app_assoc. exact ND.
    + rewrite (desc_key rs fs d rd cur D COV1 DEL). exact K.
    + apply D.
    + exact NE.
    + apply SG. discriminate.
    + exact (NoDupRd_mid _ _ _ ND).
Qed.

Lemma key_match_equiv rs s s' : rrset_equiv s' s -> key_of_match rs s' = key_of_match rs s.
Proof.
  intros (E1 & E2 & E3 & E4 & E5 & _). unfold key_of_match, key_match.
  rewrite E2, E3, E4, E5. rewrite (name_eqb_ci _ _ _ _ E1 eq_refl). reflexivity.
Qed.

(* the first record of rs opens a new record set at the end of the section, the others join it *)
Lemma regroup_rrset rs ds S :
  wf_rrset rs ->
  Forall2 (desc_of (rname rs) (rtype rs) (rclass rs) (rttl rs) (rs_fs rs)) ds (rrds rs) ->
  Forall (fun s => key_of_match rs s = false) S ->
  rrset_equiv (rebuilt_rs rs ds) rs /\ fold_left step_sec ds S = S ++ [rebuilt_rs rs ds].
Proof.
  intros (_ & DEL & NE & _ & _ & _ & _ & COV & ND & SG) F2 FR.
  pose proof (desc_of_rdata_ci _ _ _ _ _ _ _ F2) as CI. apply (NoDupRd_ci _ _ CI) in ND.
  destruct (rrds rs) as [|rd rds0] eqn:E; [congruence|].
  inversion F2 as [|d ? ds0 ? D F2']; subst. inversion COV as [|? ? COV1 COV']; subst.
  pose proof D as (D1 & D2 & D3 & _ & D5 & _ & D7 & _).
  split.
  - unfold rrset_equiv, rebuilt_rs. cbn [rname rclass rtype rcovers rdeleting rttl rrds]. rewrite E, DEL. auto 10.
  - cbn [fold_left].
    transitivity (fold_left step_sec ds0 (S ++ [set_rds (rebuilt_rs rs [d]) (rttl rs) [d_rd d]])).
    { f_equal. unfold step_sec. rewrite find_add_fresh.
      - rewrite D1, D2, D3, (rd_covers_ci _ _ _ D7), COV1. reflexivity.
      - eapply Forall_impl; [|exact FR]. intros s Hs. rewrite (desc_key rs _ d rd s D COV1 DEL). exact Hs. }
    apply (regroup_inner rs (rs_fs rs) S (rebuilt_rs rs [d]) DEL) with (rds := rds0) (got := [d_rd d]); try assumption.
    + unfold key_of_match, key_match, rebuilt_rs. cbn [rname rclass rtype rcovers rdeleting]. rewrite DEL, !Z.eqb_refl.
      cbn [odel_eqb andb]. rewrite !andb_true_r. apply name_eqb_iff_ci. exact D5.
    + intros Hne. change (is_singleton (rtype rs) = false). destruct (is_singleton (rtype rs)); [|reflexivity].
      specialize (SG eq_refl). destruct rds0; [inversion F2'; subst; congruence|discriminate SG].
    + discriminate.
Qed.

Fixpoint keys_fresh (S l : list rrset) : Prop :=
  match l with
  | [] => True
  | rs :: l' => Forall (fun s => key_of_match rs s = false) S /\ keys_fresh (S ++ [rs]) l'
  end.

Lemma regroup_sec : forall l ds S S0,
  SecDesc l ds -> Forall wf_rrset l -> Forall2 rrset_equiv S S0 -> keys_fresh S0 l ->
  exists l', Forall2 rrset_equiv l' l /\ fold_left step_sec ds S = S ++ l' /\ Rebuilt l ds l'.
Proof.
  induction l as [|rs l IH]; intros ds S S0 SD WF EQ KF.
  - inversion SD; subst. exists []. split; [constructor|]. split; [|constructor]. cbn. rewrite app_nil_r. reflexivity.
  - inversion SD as [|? ? ds1 ds2 F2 SD']; subst. inversion WF as [|? ? W1 WF']; subst.
    destruct KF as (K1 & K2). rewrite fold_left_app.
    destruct (regroup_rrset rs ds1 S W1 F2) as (Er & E1).
    { clear - K1 EQ. induction EQ as [|s s0 S S0 Hs _ IHS]; [constructor|].
      inversion K1; subst. constructor; [|apply IHS; assumption].
      rewrite (key_match_equiv rs s0 s Hs). assumption. }
    rewrite E1.
    destruct (IH ds2 (S ++ [rebuilt_rs rs ds1]) (S0 ++ [rs]) SD' WF') as (l' & El & E2 & RB2).
    + apply Forall2_app; [exact EQ|]. constructor; [exact Er|constructor].
    + exact K2.
    + exists (rebuilt_rs rs ds1 :: l'). split; [constructor; assumption|]. split; [rewrite E2, <- app_assoc; reflexivity|].
      constructor; [eapply Forall2_len; exact F2|exact RB2].
Qed.

Lemma get_set_sec m sec x : 0 <= sec <= 3 -> get_sec (set_sec m sec x) sec = x.
Proof.
  intros H. assert (sec = 0 \/ sec = 1 \/ sec = 2 \/ sec = 3) as [Hs|[Hs|[Hs|Hs]]] by lia; subst sec; reflexivity.
Qed.
Lemma set_set_sec m sec x y : set_sec (set_sec m sec x) sec y = set_sec m sec y.
Proof.
  unfold set_sec. cbn [mid mflags mq man mau mad mopt mtsig].
  destruct (sec =? 0); destruct (sec =? 1); destruct (sec =? 2); destruct (sec =? 3); reflexivity.
Qed.

Lemma set_get_sec m sec : 0 <= sec <= 3 -> set_sec m sec (get_sec m sec) = m.
Proof.
  intros H. destruct m. assert (sec = 0 \/ sec = 1 \/ sec = 2 \/ sec = 3) as [Hs|[Hs|[Hs|Hs]]] by lia; subst sec; reflexivity.
Qed.

Lemma fold_apply_d_eq sec ds : 0 <= sec <= 3 -> forall m,
  fold_left (apply_d sec false) ds m = set_sec m sec (fold_left step_sec ds (get_sec m sec)).
Proof.
  intros Hs. induction ds as [|d ds IH]; intros m; cbn [fold_left].
  - symmetry. apply set_get_sec. exact Hs.
  - rewrite IH. unfold apply_d. rewrite get_set_sec by exact Hs. rewrite set_set_sec. reflexivity.
Qed.

Definition QReads (w : list Z) (off : nat) (n' : name) (ty cl : Z) (end_ : nat) : Prop :=
  (end_ <= length w)%nat /\ (off < end_)%nat /\
  forall ext, exists c1 : nat,
    (c1 + 4 = end_)%nat /\
    get_name (w ++ ext) o (length (w ++ ext)) off = Ok (n', c1) /\
    rd_u16 (w ++ ext) (length (w ++ ext)) c1 = Ok ty /\
    rd_u16 (w ++ ext) (length (w ++ ext)) (c1 + 2) = Ok cl.

Lemma QReads_app w more off n' ty cl end_ : QReads w off n' ty cl end_ -> QReads (w ++ more) off n' ty cl end_.
Proof.
  intros (A & B & C). split; [rewrite app_length; lia|]. split; [exact B|].
  intros ext. rewrite <- app_assoc. apply C.
Qed.

Lemma q_em_read n ty cl file t em t' :
  TableSound file t -> name_wf o n -> q_em o n ty cl (zlen file) t = Ok (em, t') ->
  TableSound (file ++ em) t' /\
  exists n', ci_equal n' n /\ name_wf o n' /\ QReads (file ++ em) (length file) n' ty cl (length (file ++ em)) /\
    (forall tq, tbl_ci tq t -> exists tq', q_em o n' ty cl (zlen file) tq = Ok (em, tq') /\ tbl_ci tq' t').
Proof.
  intros TS NO H. apply q_em_split in H. destruct H as (e1 & H1 & R1 & R2 & ->).
  destruct (nm_em_read o n true file t e1 t' OO TS NO H1) as (TS1 & n' & CI & _ & NW' & RDn & REn).
  split; [rewrite app_assoc; apply TableSound_app; exact TS1|]. exists n'. split; [exact CI|]. split; [exact NW'|]. split.
  - split; [lia|]. split; [rewrite !app_length; cbn [length MessageM.u16]; lia|].
    intros ext. exists (length (file ++ e1)). split; [rewrite !app_length; cbn [length MessageM.u16]; lia|].
    rewrite (app_assoc file e1), <- (app_assoc (file ++ e1)).
    split; [apply RDn; rewrite !app_length; lia|].
    destruct (sits_app _ _ _ _ (sits_here (file ++ e1) (MessageM.u16 ty ++ MessageM.u16 cl) ext)) as (S1 & S2).
    split; apply rd_u16_sits; try assumption; rewrite !app_length; cbn [length MessageM.u16]; lia.
  - intros tq TC. destruct (REn tq TC) as (tq1 & E1 & TC1). exists tq1. split; [|exact TC1].
    unfold q_em. rewrite E1, (pack16_range _ R1), (pack16_range _ R2). reflexivity.
Qed.

Record qd := mkQ { q_name : name; q_ty : Z; q_cl : Z }.

Inductive QChain (w : list Z) : nat -> list qd -> nat -> Prop :=
| qc_nil off : (off <= length w)%nat -> QChain w off [] off
| qc_cons off q mid qs end_ :
    QReads w off (q_name q) (q_ty q) (q_cl q) mid -> QChain w mid qs end_ -> QChain w off (q :: qs) end_.

Lemma QChain_app_w w more off qs end_ : QChain w off qs end_ -> QChain (w ++ more) off qs end_.
Proof.
  induction 1.
  - constructor. rewrite app_length. lia.
  - econstructor; [apply QReads_app; eassumption|assumption].
Qed.

Lemma QChain_app w more off qs1 mid qs2 end_ :
  QChain w off qs1 mid -> QChain (w ++ more) mid qs2 end_ -> QChain (w ++ more) off (qs1 ++ qs2) end_.
Proof. induction 1; intros H2; [exact H2|]. cbn [app]. econstructor; [apply QReads_app; eassumption|auto]. Qed.

Lemma QChain_end w off qs end_ : QChain w off qs end_ -> (off <= end_ <= length w)%nat.
Proof. induction 1; [lia|]. destruct H as (A & B & _). lia. Qed.

Definition qrec (q : qd) : rrset := mkRR (q_name q) (q_cl q) (q_ty q) 0 None 0 [].
Definition add_q (m : msg) (q : qd) : msg := set_sec m 0 (mq m ++ [qrec q]).

Lemma get_question_chain w ext : forall qs off end_ m,
  QChain w off qs end_ ->
  get_question (w ++ ext) o false (length qs) off m = Ok (end_, fold_left add_q qs m).
Proof.
  induction qs as [|q qs IH]; intros off end_ m C.
  - inversion C; subst. reflexivity.
  - inversion C as [|? ? mid ? ? R C']; subst. cbn [length get_question].
    destruct R as (_ & _ & R). destruct (R ext) as (c1 & Hc & Hn & Ht & Hcl).
    rewrite Hn. cbn [bind fst snd]. rewrite Ht, Hcl. cbn [bind].
    unfold parse_rr_header. cbn [negb bind].
    replace (c1 + 4)%nat with mid by lia.
    rewrite (IH mid end_ _ C'). reflexivity.
Qed.

Definition q_desc (rs : rrset) (q : qd) : Prop :=
  ci_equal (q_name q) (rname rs) /\ name_wf o (q_name q) /\ q_ty q = rtype rs /\ q_cl q = rclass rs.

Lemma q_chain : forall l r r' file,
  zlen file = zlen (out r) -> TableSound file (tbl r) -> TblBelow r ->
  Forall (fun rs => name_wf o (rname rs)) l ->
  tracks (map (q_step o) l) r = Ok (false, r') ->
  exists em qs,
    out r' = out r ++ em /\ TableSound (file ++ em) (tbl r') /\ TblBelow r' /\
    QChain (file ++ em) (length file) qs (length (file ++ em)) /\ Forall2 q_desc l qs /\
    count_of r' 0 = count_of r 0 + zlen qs /\
    (forall s, 0 <= s <= 3 -> s <> 0 -> count_of r' s = count_of r s) /\
    rsec r <= rsec r' <= Z.max (rsec r) 0 /\
    (forall l2 tq, l2 = map qrec qs -> tbl_ci tq (tbl r) ->
       exists tq', tracks (map (q_step o) l2) (with_tbl r tq) = Ok (false, with_tbl r' tq') /\ tbl_ci tq' (tbl r')).
Proof.
  apply (sec_chain 0 ltac:(lia) qd QChain (q_step o) (fun rs => name_wf o (rname rs)) (fun l qs => Forall2 q_desc l qs)
                   (fun _ qs l2 => l2 = map qrec qs)).
  - intros. constructor. assumption.
  - exact QChain_app.
  - reflexivity.
  - intros rs. apply ext_q_em.
  - constructor.
  - intros l2 ->. reflexivity.
  - intros rs l file t em t' W1 TS HE.
    destruct (q_em_read _ _ _ file t em t' TS W1 HE) as (TS1 & n' & CI & NO' & QR & RE1).
    split; [exact TS1|]. exists [mkQ n' (rtype rs) (rclass rs)].
    split; [econstructor; [exact QR|constructor; lia]|]. split; [reflexivity|].
    split; [intros xs2 D2; constructor; [unfold q_desc; cbn; auto|exact D2]|].
    intros xs2 l2 ->. eexists _, _. split; [reflexivity|]. split; [reflexivity|]. split; [reflexivity|exact RE1].
Qed.

(* an option in the octets its class renders: REPORTCHANNEL carries an uncompressed absolute name, every
   other code is a fixed point of MessageM.opt_dec *)
Definition opt_wf (cd : Z * list Z) : Prop :=
  if fst cd =? 18 then exists n, name_ok n /\ snd cd = wire_labels false n
  else opt_dec (fst cd) (snd cd) = Ok (snd cd).
Definition opts_ok (os : list (Z * list Z)) : Prop := Forall opt_wf os.

Lemma opts_loop_read w : forall os wb fuel endp cur acc,
  opts_wire os = Ok wb -> opts_ok os -> sits w cur wb -> endp = (cur + length wb)%nat -> (length wb < fuel)%nat ->
  opts_loop w fuel endp cur acc = Ok (rev acc ++ os).
Proof.
  induction os as [|[code data] os IH]; intros wb fuel endp cur acc H OK S -> Hf; (destruct fuel; [lia|]); cbn [opts_loop].
  - injection H as <-. cbn [length]. rewrite Nat.add_0_r, Nat.leb_refl, app_nil_r. reflexivity.
  - cbn [opts_wire] in H. apply bind_ok in H. destruct H as (h1 & E1 & H). apply bind_ok in H. destruct H as (h2 & E2 & H).
    apply bind_ok in H. destruct H as (rest & E3 & H). injection H as <-.
    apply pack16_ok in E1, E2. destruct E1 as (-> & R1). destruct E2 as (-> & R2).
    inversion OK as [|? ? O1 OK']; subst. cbn [fst snd] in O1.
    apply sits_app in S. destruct S as (S1 & S). apply sits_app in S. destruct S as (S2 & S).
    apply sits_app in S. destruct S as (S3 & S4). rewrite !app_length in *. cbn [length MessageM.u16] in *.
    replace (cur + 2 + 2)%nat with (cur + 4)%nat in * by lia.
    destruct (Nat.leb_spec (cur + (2 + (2 + (length data + length rest)))) cur); [lia|].
    rewrite (rd_u16_sits _ _ _ _ S1), (rd_u16_sits _ _ _ _ S2) by lia. cbn [bind]. rewrite zlen_to_nat.
    rewrite (rd_bytes_sits _ _ _ _ S3) by lia. cbn [bind].
    assert (ED : (if code =? 18
                  then do nc <- nm_from_wire w (cur + 4 + length data) (cur + 4);
                       if Nat.eqb (snd nc) (cur + 4 + length data) then Ok (wire_labels false (fst nc)) else Lib eFormError
                  else opt_dec code data) = Ok data).
    { unfold opt_wf in O1. cbn [fst snd] in O1. destruct (code =? 18); [|exact O1].
      destruct O1 as (n & NO & ->). rewrite (nm_plain_read _ _ _ n NO S3) by lia.
      cbn [bind fst snd]. rewrite Nat.eqb_refl. reflexivity. }
    rewrite ED. cbn [bind].
    rewrite (IH rest fuel _ (cur + 4 + length data)%nat _ E3 OK' S4) by lia. cbn [rev]. rewrite <- app_assoc. reflexivity.
Qed.

Lemma ci_root n : ci_equal n [[]] -> n = [[]].
Proof.
  unfold ci_equal. destruct n as [|l [|l2 n]]; cbn; intros H; try discriminate.
  injection H as H. destruct l; [reflexivity|discriminate].
Qed.

Lemma get_rr_opt iu w off abs' owner' cl ttl wb os end_ ext count i fu m :
  RRreads o o w off abs' owner' tOPT cl ttl [FRest] [PB wb] end_ -> ci_equal owner' [[]] ->
  opts_wire os = Ok wb -> opts_ok os -> mopt m = None ->
  get_rr (w ++ ext) o po0 iu 3 count i off fu m = Ok (end_, fu, set_opt m (mkOpt ttl cl os)).
Proof.
  intros (c1 & rdl & A & B & C & D & E) CI HW OK HM.
  destruct (E ext) as (EH & ED). apply ci_root in CI. subst owner'.
  unfold get_rr. rewrite EH. cbn [bind]. cbn [Z.eqb Pos.eqb tOPT orb].
  unfold parse_special_rr_header. cbn [Z.eqb Pos.eqb tOPT negb orb]. rewrite HM.
  change (name_eqb [[]] [[]]) with true. cbn [negb orb bind].
  rewrite Nat2Z.id.
  destruct (Nat.ltb_spec (length (w ++ ext) - (c1 + 10)) rdl); [rewrite app_length in *; lia|].
  (* FRest returned wb, so wb sits between c1 + 10 and end_ *)
  specialize (ED []). cbn [dec_fields] in ED. apply bind_ok in ED. destruct ED as (b & Hb & ED).
  cbn [rev app] in ED. injection ED as ->.
  unfold rd_bytes in Hb. destruct (Nat.ltb (end_ - (c1 + 10)) (end_ - (c1 + 10))); [discriminate|].
  injection Hb as Hb. replace (end_ - (c1 + 10))%nat with rdl in Hb by lia.
  assert (Hwb : length wb = rdl) by (rewrite <- Hb, firstn_length, skipn_length, app_length; lia).
  change (tOPT =? tOPT) with true. cbv iota.
  rewrite (opts_loop_read _ os wb (S rdl) _ (c1 + 10)%nat [] HW OK); [rewrite A; reflexivity| |lia|lia].
  unfold sits. rewrite Hwb. exact Hb.
Qed.

Definition tsig_fs : list fld := [FNameA; FFix 8; FCnt16; FFix 2; FMax16 4095; FCnt16].

Record WfMsg (m : msg) : Prop := mkWf {
  wf_notupdate : (opcode_from_flags (mflags m) =? 5) = false;
  wf_q : Forall (fun rs => name_wf o (rname rs)) (mq m);
  wf_an : Forall wf_rrset (man m);
  wf_au : Forall wf_rrset (mau m);
  wf_ad : Forall wf_rrset (mad m);
  wf_keys_an : keys_fresh [] (man m);
  wf_keys_au : keys_fresh [] (mau m);
  wf_keys_ad : keys_fresh [] (mad m);
  wf_opt : match mopt m with Some oo => opts_ok (oopts oo) /\ name_wf o [[]] | None => True end }.

Definition hdr_bytes (id flags c0 c1 c2 c3 : Z) : list Z :=
  MessageM.u16 id ++ MessageM.u16 flags ++ MessageM.u16 c0 ++ MessageM.u16 c1 ++ MessageM.u16 c2 ++ MessageM.u16 c3.

Lemma write_header_full id r r' :
  write_header id r = Ok r' ->
  r' = set_out r (hdr_bytes id (rflags r) (cq r) (can r) (cau r) (cad r) ++ skipn 12 (out r)) (tbl r) /\
  0 <= id <= 65535 /\ 0 <= rflags r <= 65535 /\ 0 <= cq r <= 65535 /\ 0 <= can r <= 65535 /\
  0 <= cau r <= 65535 /\ 0 <= cad r <= 65535.
Proof.
  intros H. apply write_header_iff in H. destruct H as (R & ->). split; [reflexivity|exact R].
Qed.

Lemma SecDesc_ordinary : forall l ds, SecDesc l ds -> Forall wf_rrset l -> Forall ordinary ds.
Proof.
  induction 1 as [|rs l ds1 ds2 F2 SD IH]; intros WF; [constructor|].
  inversion WF as [|? ? W1 WF']; subst. apply Forall_app. split; [|apply IH; exact WF'].
  destruct W1 as (_ & _ & _ & T1 & T2 & TTL & (fs & HS & _) & _).
  clear - F2 T1 T2 TTL HS. induction F2 as [|d rd ds rds (D1 & D2 & D3 & D4 & _) _ IHF]; constructor; [|exact IHF].
  unfold ordinary. rewrite D1, D2, D3, D4. unfold rs_fs. rewrite HS. auto.
Qed.

(* the OPT record written by add_opt (no padding) *)
Lemma add_opt_chain (oo : optrec) os ts r r' file :
  name_wf o [[]] ->
  zlen file = zlen (out r) -> TableSound file (tbl r) -> TblBelow r ->
  add_opt o oo 0 os ts r = Ok (false, r') ->
  exists em wb abs' owner',
    r' = inc_count (set_out (set_rsec r 3) (out r ++ em) (tbl r')) 3 1 /\ TblBelow r' /\
    opts_wire (oopts oo) = Ok wb /\ ci_equal owner' [[]] /\
    RRreads o o (file ++ em) (length file) abs' owner' tOPT (opayload oo) (oflags oo) [FRest] [PB wb] (length (file ++ em)) /\
    TableSound (file ++ em) (tbl r') /\
    (forall tq, tbl_ci tq (tbl r) ->
       exists tq', add_opt o oo 0 os ts (with_tbl r tq) = Ok (false, with_tbl r' tq') /\ tbl_ci tq' (tbl r')).
Proof.
  intros NW Hz TS TB H. unfold add_opt in H. cbn [Z.eqb] in H.
  apply bind_ok in H. destruct H as (rs & HR & H). unfold opt_rrset in HR.
  apply bind_ok in HR. destruct HR as (wb & HW & HR). injection HR as <-.
  rewrite add_rrset_tracked in H.
  destruct (tracked_step _ _ _ _ _ file (ext_rrset_em _ _ _) TB Hz H) as (_ & em & HE & _ & TB' & Er & SIM).
  unfold rrset_em, wclass in HE. cbn [rrds rdeleting rname rtype rclass rttl] in HE. rewrite rrs_em_one in HE.
  destruct (name_wf_full o [[]] OO NW) as (Lr & HFr & NOr).
  destruct (rr_em_read_o o [FRest] [[]] Lr tOPT (opayload oo) (oflags oo) [PB wb] true true file (tbl r) em _ OO TS NW HFr NOr
              (Forall_cons (PB wb) Logic.I (Forall_nil _)) (sh_rest wb) HE)
    as (TS1 & abs' & owner' & X & rd' & CI1 & _ & _ & _ & CI2 & _ & _ & RR & RE1).
  apply rdata_ci_inv in CI2. destruct CI2 as (p' & r0 & -> & C0 & ->). inversion C0; subst.
  exists em, wb, abs', owner'. do 6 (split; [assumption|]).
  intros tq TC. destruct (RE1 tq [[]] Lr TC HFr (lsim_refl _ _)) as (tq1 & E1 & TC1). exists tq1. split; [|exact TC1].
  unfold add_opt, opt_rrset. cbn [Z.eqb]. rewrite HW. cbn [bind]. rewrite add_rrset_tracked. apply SIM.
  unfold rrset_em, wclass. cbn [rrds rdeleting rname rtype rclass rttl]. rewrite rrs_em_one. exact E1.
Qed.

End WithOrigin.
