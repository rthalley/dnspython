(* C13 - a dropped / duplicated addition-section SOA: the additions are then taken as deletions of
   records that are not there. *)
From DV Require Import Base.Prelude Model.XfrM Proofs.XfrSets Proofs.XfrSpec Proofs.XfrZone Proofs.XfrDiff
  Proofs.XfrSafety Proofs.XfrBasic Proofs.XfrRun Proofs.XfrSteps Proofs.XfrGeneral Proofs.XfrIxfr Proofs.XfrAxfr Proofs.XfrPerm
  Proofs.XfrGlue Proofs.XfrSections Proofs.XfrSoaFaults.

(* the zone after the deletions of a difference a -> b, entry by entry *)
Lemma diff_dels_look : forall a b z z1, rest_wf a -> rest_wf b ->
  (forall k, k <> soakey -> look z k = look a k) ->
  dels z (zminus a b) = Some z1 ->
  forall k, k <> soakey -> look z1 k = after_del (look a k) (look b k).
Proof.
  intros a b z z1 Ha Hb Hz Hd.
  destruct (diff_apply0 a b z (rest_wf_wf0 _ Ha) (rest_wf_wf0 _ Hb) Hz) as (z1' & Hd' & _ & H & _).
  rewrite Hd in Hd'. inversion Hd'; subst. exact H.
Qed.

(* a record that the difference a -> b adds is not in the zone once the deletions are done: it would
   have been in a *)
Lemma added_absent : forall a b z z1 r, rest_wf a -> rest_wf b ->
  (forall k, k <> soakey -> look z k = look a k) ->
  dels z (zminus a b) = Some z1 -> In r (zminus b a) ->
  del1 (look z1 (rkey r)) (r_data r) = None.
Proof.
  intros a b z z1 r Ha Hb Hz Hd Hin. unfold zminus in Hin. apply filter_In in Hin. destruct Hin as [Hbody Hnot].
  apply negb_true_iff in Hnot.
  destruct (body_in_look0 b r (rest_wf_wf0 _ Hb) Hbody) as (Sb & Hlb & Hdb & Hk & _).
  rewrite (diff_dels_look a b z z1 Ha Hb Hz Hd _ Hk), Hlb.
  unfold has_rr in Hnot.
  destruct (look a (rkey r)) as [[t Sa]|] eqn:Ea; [|reflexivity].
  destruct (after_del _ _) as [[t' S']|] eqn:EA; [|reflexivity].
  cbn [del1]. destruct (mem (r_data r) S') eqn:Hm; [exfalso|reflexivity].
  destruct (after_del_in _ _ _ _ _ _ EA (proj1 (mem_In _ _) Hm)) as (HinSa & Hc).
  cbn [has_in] in Hc. apply andb_true_iff in Hc. destruct Hc as [Ht _]. apply Z.eqb_eq in Ht.
  rewrite <- Ht, Z.eqb_refl, (proj2 (mem_In _ _) HinSa) in Hnot. discriminate.
Qed.

(* hence, on a zone that is version a, the first record that a -> b adds cannot be deleted once the
   deletions of a -> b are done *)
Lemma first_added_absent : forall a b r A' z1, version_wf a -> version_wf b ->
  zminus (v_rest b) (v_rest a) = r :: A' -> zeq z1 (zone_of a) ->
  exists z2, dels z1 (erase (zminus (v_rest a) (v_rest b))) = Some z2 /\ plain r /\
             del1 (look z2 (rkey r)) (r_data r) = None.
Proof.
  intros a b r A' z1 [_ Hra] [_ Hrb] HA Hl. pose proof (zeq_rest _ _ Hl) as Hl'.
  destruct (diff_apply (v_rest a) (v_rest b) z1 Hra Hrb Hl') as [z2 [Hd2 _]].
  assert (Hin : In r (zminus (v_rest b) (v_rest a))) by (rewrite HA; left; reflexivity).
  exists z2. rewrite (erase_plain_id _ (zminus_plain _ _ Hra)). split; [exact Hd2|]. split.
  - apply (proj1 (Forall_forall _ _) (zminus_plain _ (v_rest a) Hrb)), Hin.
  - apply (added_absent (v_rest a) (v_rest b) z1 z2 r Hra Hrb Hl' Hd2 Hin).
Qed.

Section AddStart.
Variables (v0 : version) (c1 : list version) (b : version) (c2 : list version).
Let chain := c1 ++ b :: c2.
Let a := last c1 v0.
Let fin := last chain v0.
Hypothesis Hok : chain_ok v0 chain.

(* the SOA that starts the ADDITION section of a -> b is dropped, and that section adds something:
   its first added record is taken as a deletion of a record that is not there *)
Theorem ixfr_dropped_addstart_rejected : forall r A' rest z0 ws,
  zminus (v_rest b) (v_rest a) = r :: A' -> zeq z0 (zone_of v0) ->
  chunking tIXFR (soa_rr fin :: diff_seqs v0 c1 ++ soa_rr a :: zminus (v_rest a) (v_rest b) ++ r :: rest) ws ->
  exists n, inbound_xfr z0 tIXFR (Some (v_serial v0)) false ws = (Error eDeleteNotExact z0, n).
Proof.
  intros r A' rest z0 ws HA Hz Hch.
  destruct (chain_prefix_secs v0 c1 b c2 Hok z0 Hz) as (Hq0 & Hsk & z1 & Hap & Hl & Hwa & Hwb & Hsa).
  destruct (chain_ok_g_serial _ _ (chain_ok_ok_g _ _ Hok)) as [Hser Hlt].
  destruct (first_added_absent a b r A' z1 Hwa Hwb HA Hl) as (z2 & Hd2 & Hpl & Habs).
  rewrite <- secs_stream_of in Hch.
  exact (ixfr_delete_rejected fin (secs_of v0 c1) a _ r rest z0 z1 z2 (v_serial v0) ws Hsk Hap Hq0
           (eq_sym (end_serial_of c1 v0)) Hsa (plain_okrec _ (zminus_plain _ _ (proj2 Hwa))) Hd2 Hpl Habs Hser Hlt Hch).
Qed.

(* the SOA that starts the addition section of a -> b is sent TWICE (b is not the last version) and the
   section adds something: the second copy starts a deletion section, and the first added record is taken
   as a deletion of a record that is not there; whatever follows it *)
Lemma ixfr_duplicated_addstart_first : forall r A' rest z0 ws,
  c2 <> [] -> zminus (v_rest b) (v_rest a) = r :: A' -> zeq z0 (zone_of v0) ->
  chunking tIXFR (soa_rr fin :: diff_seqs v0 c1 ++ soa_rr a :: zminus (v_rest a) (v_rest b) ++
                  soa_rr b :: soa_rr b :: r :: rest) ws ->
  exists n, inbound_xfr z0 tIXFR (Some (v_serial v0)) false ws = (Error eDeleteNotExact z0, n).
Proof.
  intros r A' rest z0 ws Hc2 HA Hz Hch.
  destruct (chain_prefix_secs v0 c1 b c2 Hok z0 Hz) as (Hq0 & Hsk & z1 & Hap & Hl & Hwa & Hwb & Hsa).
  destruct (chain_ok_g_serial _ _ (chain_ok_ok_g _ _ Hok)) as [Hser Hlt].
  destruct (first_added_absent a b r A' z1 Hwa Hwb HA Hl) as (z2 & Hd2 & Hpl & Habs).
  assert (Hsb : v_soa b <> v_soa fin).
  { pose proof Hok as (_ & _ & _ & Hsoa & _).
    intros E. apply (Hsoa b); [|unfold v_serial; rewrite E; reflexivity]. right. unfold chain.
    rewrite removelast_app by discriminate. apply in_or_app. right. destruct c2; [congruence|left; reflexivity]. }
  (* up to the second copy the stream is well formed: the sections of c1, then a -> b with no additions *)
  set (s1 := mkSect a (zminus (v_rest a) (v_rest b)) b []).
  set (zb := zput soakey (v_ttl b, [v_soa b]) z2).
  assert (Hsk2 : skel_ok (v_serial v0) fin (secs_of v0 c1 ++ [s1])).
  { apply skel_ok_app. split; [exact Hsk|]. rewrite end_serial_of.
    exact (conj eq_refl (conj Hsa (conj (proj1 Hwb) (conj (plain_okrec _ (zminus_plain _ _ (proj2 Hwa))) (conj (Forall_nil _) Logic.I))))). }
  assert (Hap2 : apply_secs z0 (secs_of v0 c1 ++ [s1]) = Some zb).
  { rewrite apply_secs_app, Hap. cbn [apply_secs s1 c_dels c_new c_adds]. rewrite Hd2. reflexivity. }
  apply (ixfr_delete_rejected fin (secs_of v0 c1 ++ [s1]) b [] r rest z0 zb zb (v_serial v0) ws
           Hsk2 Hap2 Hq0); try assumption.
  - rewrite end_serial_app. reflexivity.
  - constructor.
  - reflexivity.
  - unfold zb. rewrite look_zput.
    assert (Hk : key_eqb (rkey r) soakey = false).
    { apply key_eqb_neq. destruct Hpl as (_ & Ht & _). intros E. unfold rkey, soakey in E. inversion E. congruence. }
    rewrite Hk. exact Habs.
  - rewrite secs_stream_app, secs_stream_of. cbn [secs_stream s1 c_old c_dels c_new c_adds].
    repeat (first [rewrite <- app_assoc | progress cbn [app] | rewrite app_nil_r]). exact Hch.
Qed.

(* the same with the rest of the stream as the server would have sent it *)
Theorem ixfr_duplicated_addstart_rejected : forall r A' nx tail z0 ws,
  c2 <> [] -> ttl_ok (v_ttl nx) ->
  zminus (v_rest b) (v_rest a) = r :: A' -> zeq z0 (zone_of v0) ->
  chunking tIXFR (soa_rr fin :: diff_seqs v0 c1 ++ soa_rr a :: zminus (v_rest a) (v_rest b) ++
                  soa_rr b :: soa_rr b :: (r :: A') ++ soa_rr nx :: tail) ws ->
  exists n, inbound_xfr z0 tIXFR (Some (v_serial v0)) false ws = (Error eDeleteNotExact z0, n).
Proof.
  intros r A' nx tail z0 ws Hc2 _ HA Hz Hch. exact (ixfr_duplicated_addstart_first r A' _ z0 ws Hc2 HA Hz Hch).
Qed.
End AddStart.
