(* Word-level behaviour of Tokenizer.get outside quotes.  Between two fields of a record the tokenizer is
   in one of two states: after a word (the input continues with the separating blank) or after a quoted
   string (the closing quote is still pending, `quoting` is set).  From both, a run of "safe" characters
   and backslash pairs that is followed by a delimiter or the end of input is returned as one IDENTIFIER
   token, and the end of the line as EOL / EOF; concatenate_remaining_identifiers over blank-separated
   chunks returns their concatenation. *)
From DV Require Import Base.Prelude Model.TokM Proofs.TokEsc.
Open Scope Z_scope.

Definition safe (c : Z) : bool := negb (is_delim false c) && negb (c =? 92).
Definition is_blank (c : Z) : bool := (c =? 32) || (c =? 9).

(* the input after a word: end of input or a delimiter *)
Definition word_end (r : list Z) : Prop := r = [] \/ exists c r', r = c :: r' /\ is_delim false c = true.

(* end of line / end of input *)
Definition line_end (rest : list Z) : Prop := rest = [] \/ exists r, rest = 10 :: r.

Lemma safe_char c : c <> 32 -> c <> 9 -> c <> 10 -> c <> 59 -> c <> 40 -> c <> 41 -> c <> 34 -> c <> 92 ->
  safe c = true.
Proof. unfold safe, is_delim. lia. Qed.

Lemma safe_not_bs c : safe c = true -> (92 =? c) = false.
Proof. unfold safe. lia. Qed.

Lemma blank_is_delim b : is_blank b = true -> is_delim false b = true.
Proof. unfold is_blank, is_delim. lia. Qed.

Lemma word_end_blank r : word_end (32 :: r).
Proof. right. exists 32, r. split; reflexivity. Qed.

Lemma line_end_word_end r : line_end r -> word_end r.
Proof. intros [->|[x ->]]; [left; reflexivity|right; exists 10, x; split; reflexivity]. Qed.

(* characters of a word that is also its own UTF-8 encoding *)
Definition wordc (c : Z) : Prop := safe c = true /\ 0 <= c < 128.

Lemma wordc_word l : Forall wordc l -> forallb safe l = true /\ all_ascii l = true.
Proof.
  unfold all_ascii. induction 1 as [|c l [Hs Hr] _ [I1 I2]]; [split; reflexivity|]. cbn [forallb].
  rewrite Hs, I1, I2. split; [reflexivity|lia].
Qed.

Lemma forallb_word (p : Z -> bool) l : (forall c, p c = true -> wordc c) -> forallb p l = true ->
  forallb safe l = true /\ all_ascii l = true.
Proof. intros Hp H. apply wordc_word, Forall_forall. intros c Hc. rewrite forallb_forall in H. auto. Qed.

(* a word that may contain backslash pairs (names, `\#`) *)
Inductive units : list Z -> Prop :=
| un_nil : units []
| un_safe c w : safe c = true -> units w -> units (c :: w)
| un_pair c w : c <> 10 -> units w -> units (92 :: c :: w).

Lemma units_safe w : forallb safe w = true -> units w.
Proof.
  induction w as [|c w IH]; intros H; [constructor|].
  cbn [forallb] in H. apply andb_true_iff in H as [Hc H]. apply un_safe; auto.
Qed.

Lemma units_app a b : units a -> units b -> units (a ++ b).
Proof. induction 1; intros Hb; cbn [app]; [exact Hb|apply un_safe; auto|apply un_pair; auto]. Qed.

Definition has_bs (w : list Z) : bool := existsb (Z.eqb 92) w.

Lemma has_bs_safe w : forallb safe w = true -> has_bs w = false.
Proof.
  induction w as [|c w IH]; intros H; [reflexivity|]. cbn [forallb] in H.
  apply andb_true_iff in H as [Hc H]. unfold has_bs in *. cbn [existsb].
  rewrite safe_not_bs by exact Hc. apply IH, H.
Qed.

(* the main loop over a word *)
Lemma gl_safe f wc c r ml tok tt he : safe c = true ->
  get_loop (S f) wc (c :: r) ml false tok tt he = get_loop f wc r ml false (c :: tok) tt he.
Proof.
  unfold safe. intros H. apply andb_true_iff in H as [H1 H2].
  apply negb_true_iff in H1. apply negb_true_iff in H2.
  cbn [get_loop]. rewrite H1, H2. cbn [andb]. reflexivity.
Qed.

Lemma gl_bs_pair f wc c r ml tok tt he : c <> 10 ->
  get_loop (S f) wc (92 :: c :: r) ml false tok tt he = get_loop f wc r ml false (c :: 92 :: tok) tt true.
Proof. intros Hc. cbn [get_loop is_delim]. replace (c =? 10) with false by lia. reflexivity. Qed.

Lemma gl_units w : units w -> forall f wc r ml tok tt he,
  exists f', (f <= f')%nat /\
    get_loop (length w + f) wc (w ++ r) ml false tok tt he
    = get_loop f' wc r ml false (rev w ++ tok) tt (he || has_bs w).
Proof.
  induction 1 as [|c w Hc Hw IH|c w Hc Hw IH]; intros f wc r ml tok tt he.
  - exists f. split; [lia|]. unfold has_bs. cbn [existsb]. rewrite orb_false_r. reflexivity.
  - cbn [length app Nat.add]. rewrite gl_safe by exact Hc.
    destruct (IH f wc r ml (c :: tok) tt he) as (f' & Hf & E). rewrite E.
    exists f'. split; [exact Hf|]. cbn [rev]. rewrite <- app_assoc.
    unfold has_bs. cbn [existsb]. rewrite safe_not_bs by exact Hc. reflexivity.
  - cbn [length app Nat.add]. rewrite gl_bs_pair by exact Hc.
    replace (S (length w + f)) with (length w + S f)%nat by lia.
    destruct (IH (S f) wc r ml (c :: 92 :: tok) tt true) as (f' & Hf & E). rewrite E.
    exists f'. split; [lia|]. cbn [rev]. rewrite <- !app_assoc.
    unfold has_bs. cbn [existsb]. rewrite orb_true_r. reflexivity.
Qed.

Lemma gl_word_end f wc r ml tok tt he : word_end r -> tok <> [] ->
  get_loop (S f) wc r ml false tok tt he = Ok (mkTok tt (rev tok) he None, (r, ml, false)).
Proof.
  intros Hr Htok. destruct tok as [|x tok]; [congruence|].
  destruct Hr as [->|(c & r' & -> & Hc)].
  - cbn [get_loop is_nil andb]. unfold finish. cbn [is_nil andb bind]. reflexivity.
  - cbn [get_loop]. rewrite Hc. cbn [is_nil andb]. unfold finish. cbn [is_nil andb bind]. reflexivity.
Qed.

(* under surplus fuel k: a word, the end of the line *)
Lemma gl_word_any w r k wc : units w -> w <> [] -> word_end r ->
  get_loop (S (length (w ++ r)) + k) wc (w ++ r) 0%nat false [] tIDENT false
  = Ok (mkTok tIDENT w (has_bs w) None, (r, 0%nat, false)).
Proof.
  intros Hw Hne Hr. rewrite app_length.
  replace (S (length w + length r) + k)%nat with (length w + S (length r + k))%nat by lia.
  destruct (gl_units w Hw (S (length r + k)) wc r 0%nat [] tIDENT false) as (f' & Hf & E).
  rewrite E. destruct f' as [|f']; [lia|]. rewrite app_nil_r.
  rewrite gl_word_end, rev_involutive; [reflexivity|exact Hr|].
  intros E0. apply (f_equal (@rev Z)) in E0. rewrite rev_involutive in E0. exact (Hne E0).
Qed.

Lemma gl_end_any rest k wc : line_end rest ->
  exists t i, is_eol_or_eof t = true /\ tesc t = false /\ (length i <= length rest)%nat /\
    get_loop (S (length rest) + k) wc rest 0%nat false [] tIDENT false = Ok (t, (i, 0%nat, false)).
Proof.
  intros [->|[r ->]].
  - exists (mkTok tEOF [] false None), []. repeat split; reflexivity.
  - exists (mkTok tEOL [10] false None), r. repeat split; try reflexivity. cbn [length]. lia.
Qed.

Lemma skip_ws_blanks bl r ml : forallb is_blank bl = true ->
  skip_ws ml (bl ++ r) = (length bl + fst (skip_ws ml r), snd (skip_ws ml r))%nat.
Proof.
  induction bl as [|c bl IH]; intros H.
  - cbn [app length Nat.add]. destruct (skip_ws ml r); reflexivity.
  - cbn [forallb] in H. apply andb_true_iff in H as [Hc H]. unfold is_blank in Hc.
    cbn [app skip_ws]. rewrite Hc. rewrite IH by exact H. reflexivity.
Qed.

Lemma skip_ws_safe c r ml : safe c = true -> skip_ws ml (c :: r) = (0%nat, c :: r).
Proof.
  unfold safe, is_delim. intros H. cbn [skip_ws].
  replace (c =? 32) with false by lia. replace (c =? 9) with false by lia. replace (c =? 10) with false by lia.
  reflexivity.
Qed.

Lemma skip_ws_units w r : units w -> w <> [] -> skip_ws 0 (w ++ r) = (0%nat, w ++ r).
Proof. intros [|c w' Hc _|c w' _ _] Hne; [congruence|apply skip_ws_safe, Hc|reflexivity]. Qed.

Lemma skip_ws_line_end rest : line_end rest -> skip_ws 0 rest = (0%nat, rest).
Proof. intros [->|[r ->]]; reflexivity. Qed.

Definition pend (q : bool) : list Z := if q then [34] else [].
Definition stq (q : bool) (r : list Z) : tstate := mkSt (pend q ++ r) 0%nat q None.

Definition lift_gl (x : res gl_res) : res (token * tstate) :=
  match x with
  | Ok (t, (i, ml, q)) => Ok (t, mkSt i ml q None)
  | Lib e => Lib e
  | Internal e => Internal e
  end.

(* get() from either state, after the blanks: the main loop runs on X with enough fuel (with the quote
   pending, its first iteration closes the string and skips the blanks) *)
Lemma get0_stq q bl X : forallb is_blank bl = true -> skip_ws 0 X = (0%nat, X) ->
  get0 (stq q (bl ++ X))
  = lift_gl (get_loop (S (length X) + (if q then length bl else 0)) false X 0%nat false [] tIDENT false).
Proof.
  intros Hbl HX. unfold get0, get, stq. cbn [ungot]. unfold get_fresh. cbn [multiline inp quoting].
  destruct q; cbn [pend app].
  - change (skip_ws 0 (34 :: bl ++ X)) with (0%nat, 34 :: bl ++ X). cbn [andb]. unfold get_fuel. cbn [length].
    change (get_loop (S (S (length (bl ++ X)))) false (34 :: bl ++ X) 0 true [] tIDENT false)
      with (get_loop (S (length (bl ++ X))) false (snd (skip_ws 0 (bl ++ X))) 0 false [] tIDENT false).
    rewrite skip_ws_blanks by exact Hbl. rewrite HX. cbn [snd]. rewrite app_length.
    replace (S (length bl + length X)) with (S (length X) + length bl)%nat by lia. reflexivity.
  - rewrite skip_ws_blanks by exact Hbl. rewrite HX. cbn [fst snd andb]. unfold get_fuel.
    rewrite Nat.add_0_r. reflexivity.
Qed.

Theorem get0_word_q q bl w r : forallb is_blank bl = true -> units w -> w <> [] -> word_end r ->
  get0 (stq q (bl ++ w ++ r)) = Ok (mkTok tIDENT w (has_bs w) None, stq false r).
Proof.
  intros Hbl Hw Hne Hr. rewrite get0_stq by (auto using skip_ws_units).
  rewrite gl_word_any by assumption. reflexivity.
Qed.

Theorem get0_end_q_len q bl rest : forallb is_blank bl = true -> line_end rest ->
  exists t st, is_eol_or_eof t = true /\ tesc t = false /\ ungot st = None /\
    (length (inp st) <= length rest)%nat /\
    get0 (stq q (bl ++ rest)) = Ok (t, st).
Proof.
  intros Hbl Hr. rewrite get0_stq by (auto using skip_ws_line_end).
  destruct (gl_end_any rest (if q then length bl else 0%nat) false Hr) as (t & i & H1 & H3 & H4 & E).
  rewrite E. exists t, (mkSt i 0%nat false None). repeat split; assumption.
Qed.

Lemma eol_not_ident t : is_eol_or_eof t = true -> is_identifier t = false.
Proof. unfold is_eol_or_eof, is_identifier, tEOL, tEOF, tIDENT. lia. Qed.

Theorem get0_end_q q bl rest : forallb is_blank bl = true -> line_end rest ->
  exists t st, is_eol_or_eof t = true /\ is_identifier t = false /\ tesc t = false /\ ungot st = None /\
    get0 (stq q (bl ++ rest)) = Ok (t, st).
Proof.
  intros Hbl Hr. destruct (get0_end_q_len q bl rest Hbl Hr) as (t & st & H1 & H3 & H4 & _ & E).
  exists t, st. auto using eol_not_ident.
Qed.

(* chunked w t: the text t is the word w cut into non-empty safe pieces with blanks in between
   (and possibly before/after) *)
Inductive chunked : list Z -> list Z -> Prop :=
| ch_nil : chunked [] []
| ch_blank b w t : is_blank b = true -> chunked w t -> chunked w (b :: t)
| ch_word u w t : u <> [] -> forallb safe u = true ->
    (t = [] \/ exists b t', t = b :: t' /\ is_blank b = true) ->
    chunked w t -> chunked (u ++ w) (u ++ t).

Lemma cri_unfold f st acc :
  cri_loop (S f) st acc
  = (do ts <- get_unescaped st;
     let '(t, st1) := ts in
     if is_eol_or_eof t then do st2 <- unget st1 t; Ok (acc, st2)
     else if negb (is_identifier t) then Lib eSyntax
     else cri_loop f st1 (acc ++ tvalue t)).
Proof. reflexivity. Qed.

Lemma chunked_length w t : chunked w t -> (length w <= length t)%nat.
Proof. induction 1; cbn [length]; rewrite ?app_length; lia. Qed.

(* what follows a chunk, in front of the rest of the line *)
Lemma chunk_word_end t rest : (t = [] \/ exists b t', t = b :: t' /\ is_blank b = true) -> line_end rest ->
  word_end (t ++ rest).
Proof.
  intros [->|(b & t' & -> & Hb)] Hr; [apply line_end_word_end, Hr|].
  right. exists b, (t' ++ rest). split; [reflexivity|apply blank_is_delim, Hb].
Qed.

(* from either inter-field state, a run of blanks already seen in front *)
Lemma chunked_cri w t : chunked w t -> forall q bl rest fuel acc,
  forallb is_blank bl = true -> line_end rest -> (length t < fuel)%nat ->
  exists te st, is_eol_or_eof te = true /\ ungot st = Some te /\
    cri_loop fuel (stq q (bl ++ t ++ rest)) acc = Ok (acc ++ w, st).
Proof.
  induction 1 as [|b w t Hb Hch IH|u w t Hu Hsafe Ht Hch IH]; intros q bl rest fuel acc Hbl Hrest Hfuel.
  - destruct fuel as [|f]; [cbn in Hfuel; lia|].
    rewrite cri_unfold. unfold get_unescaped. cbn [app].
    destruct (get0_end_q_len q bl rest Hbl Hrest) as (te & st & H1 & H3 & H4 & _ & E).
    rewrite E. cbn [bind fst snd]. unfold unescape. rewrite H3. cbn [negb bind]. rewrite H1.
    unfold unget. rewrite H4. cbn [bind].
    do 2 eexists. split; [exact H1|]. split; [|rewrite app_nil_r; reflexivity]. reflexivity.
  - specialize (IH q (bl ++ [b]) rest fuel acc).
    rewrite <- app_assoc in IH. cbn [app] in IH. cbn [app]. apply IH.
    + rewrite forallb_app, Hbl. cbn [forallb]. rewrite Hb. reflexivity.
    + exact Hrest.
    + cbn [length] in Hfuel. lia.
  - destruct fuel as [|f]; [cbn in Hfuel; lia|].
    rewrite cri_unfold, <- app_assoc. unfold get_unescaped.
    rewrite get0_word_q by (auto using units_safe, chunk_word_end).
    cbn [bind fst snd]. unfold unescape. cbn [tesc]. rewrite has_bs_safe by exact Hsafe. cbn [negb bind].
    change (is_eol_or_eof (mkTok tIDENT u false None)) with false.
    change (is_identifier (mkTok tIDENT u false None)) with true. cbn [negb tvalue app].
    rewrite app_length in Hfuel.
    destruct (IH false [] rest f (acc ++ u) eq_refl Hrest ltac:(destruct u; [congruence|cbn [length] in Hfuel; lia]))
      as (te & st & H1 & H2 & E).
    cbn [app] in E. rewrite E. do 2 eexists. split; [exact H1|]. split; [exact H2|].
    rewrite app_assoc. reflexivity.
Qed.

Theorem concatenate_chunked w t rest allow_empty :
  chunked w t -> line_end rest -> (allow_empty = true \/ w <> []) ->
  exists te st, is_eol_or_eof te = true /\ ungot st = Some te /\
    concatenate_remaining_identifiers (mkSt (t ++ rest) 0%nat false None) allow_empty = Ok (w, st).
Proof.
  intros Hch Hrest Hne. unfold concatenate_remaining_identifiers, rem_fuel. cbn [inp].
  destruct (chunked_cri w t Hch false [] rest (S (S (length (t ++ rest)))) [] eq_refl Hrest
              ltac:(rewrite app_length; lia)) as (te & st & H1 & H2 & E).
  change (stq false ([] ++ t ++ rest)) with (mkSt (t ++ rest) 0%nat false None) in E. rewrite E. cbn [bind fst app].
  replace (negb (allow_empty || negb (is_nil w))) with false.
  2:{ destruct Hne as [->|Hw]; [reflexivity|]. destruct w; [congruence|]. cbn. rewrite orb_true_r. reflexivity. }
  do 2 eexists. split; [exact H1|]. split; [exact H2|]. reflexivity.
Qed.
