(* Bitmap.from_rdtypes: the blocks decode to exactly the set of (non-zero) types given, in a
   well-formed encoding (RFC 4034 4.1.2: windows increasing, 1..32 octets, no trailing zero octet). *)
From Coq Require Import Permutation Sorted.
From DV Require Import Base.Prelude Model.NameM Model.DnssecM Proofs.DnssecRef Proofs.DnssecSort Proofs.ListFacts.
Open Scope Z_scope.

Lemma sort_ints_perm l : Permutation l (sort_ints l).
Proof.
  apply (py_sorted_perm Z.ltb Z.le); intros; lia.
Qed.
Lemma sort_ints_sorted l : StronglySorted Z.le (sort_ints l).
Proof.
  apply (py_sorted_sorted Z.ltb Z.le); intros; lia.
Qed.

(* bit j of an octet of the encoding is bit 7-j of the number: bit 0 is the most significant *)
Lemma bit_set_zero j : bit_set 0 j = false.
Proof. apply Z.testbit_0_l. Qed.

Lemma octet_inj o1 o2 :
  0 <= o1 < 256 -> 0 <= o2 < 256 -> (forall j, (j < 8)%nat -> bit_set o1 j = bit_set o2 j) -> o1 = o2.
Proof.
  intros H1 H2 Hb. apply Z.bits_inj'. intros n Hn. destruct (Z.lt_ge_cases n 8).
  - specialize (Hb (Z.to_nat (7 - n)) ltac:(lia)). unfold bit_set in Hb.
    now replace (Z.of_nat (7 - Z.to_nat (7 - n))) with n in Hb by lia.
  - change 256 with (2 ^ 8) in H1, H2.
    rewrite <- (Z.mod_small o1 (2 ^ 8)), <- (Z.mod_small o2 (2 ^ 8)) by assumption.
    now rewrite !Z.mod_pow2_bits_high by lia.
Qed.

(* 0x80 >> b is the octet whose only bit is b *)
Lemma shiftr_128 b : (b < 8)%nat -> Z.shiftr 128 (Z.of_nat b) = 2 ^ (7 - Z.of_nat b).
Proof.
  intros Hb. rewrite Z.shiftr_div_pow2 by lia. change 128 with (2 ^ 7). symmetry. apply Z.pow_sub_r; lia.
Qed.

Lemma bit_set_lor o b j : (b < 8)%nat -> (j < 8)%nat ->
  bit_set (Z.lor o (Z.shiftr 128 (Z.of_nat b))) j = bit_set o j || Nat.eqb j b.
Proof.
  intros Hb Hj. unfold bit_set. rewrite Z.lor_spec, shiftr_128, Z.pow2_bits_eqb by lia. f_equal.
  destruct (Nat.eqb_spec j b), (Z.eqb_spec (7 - Z.of_nat b) (Z.of_nat (7 - j))); reflexivity || lia.
Qed.

Lemma lor_range a b n : 0 <= n -> 0 <= a < 2 ^ n -> 0 <= b < 2 ^ n -> 0 <= Z.lor a b < 2 ^ n.
Proof.
  intros Hn Ha Hb. split; [apply Z.lor_nonneg; lia|].
  replace (Z.lor a b) with (Z.lor a b mod 2 ^ n); [apply Z.mod_pos_bound; lia|].
  rewrite <- Z.land_ones, Z.land_lor_distr_l, !Z.land_ones by exact Hn. now rewrite !Z.mod_small.
Qed.

Lemma lor_octet_range o b : 0 <= o < 256 -> (b < 8)%nat -> 0 <= Z.lor o (Z.shiftr 128 (Z.of_nat b)) < 256.
Proof.
  intros Ho Hb. apply (lor_range _ _ 8); [lia|exact Ho|]. rewrite shiftr_128 by exact Hb.
  split; [apply Z.pow_nonneg|apply Z.pow_lt_mono_r]; lia.
Qed.

Lemma nth_set_nth : forall (l : list Z) k v i,
  (k < length l)%nat -> nth i (set_nth k v l) 0 = if Nat.eqb i k then v else nth i l 0.
Proof.
  induction l as [|x l IH]; intros k v i Hk; [cbn in Hk; lia|].
  destruct k as [|k]; destruct i as [|i]; cbn [set_nth nth Nat.eqb]; try reflexivity.
  apply IH. cbn in Hk. lia.
Qed.

Lemma set_nth_length : forall (l : list Z) k v, length (set_nth k v l) = length l.
Proof. induction l as [|x l IH]; intros [|k] v; cbn; auto. Qed.

Lemma Forall_set_nth (Q : Z -> Prop) : forall l k v, Forall Q l -> Q v -> Forall Q (set_nth k v l).
Proof.
  induction l as [|x l IH]; intros [|k] v Hl Hv; cbn; auto; inversion Hl; subst; constructor; auto.
Qed.

Lemma nth_firstn : forall (l : list Z) k i, (i < k)%nat -> nth i (firstn k l) 0 = nth i l 0.
Proof.
  induction l as [|x l IH]; intros [|k] [|i] H; cbn; try reflexivity; try lia.
  apply IH. lia.
Qed.

Lemma last_firstn : forall (l : list Z) k, (1 <= k <= length l)%nat -> last (firstn k l) 0 = nth (k - 1) l 0.
Proof.
  induction l as [|x l IH]; intros k Hk; [cbn in Hk; lia|].
  destruct k as [|[|k]]; [lia|reflexivity|].
  cbn [length] in Hk. replace (S (S k) - 1)%nat with (S k) by lia. cbn [nth].
  specialize (IH (S k) ltac:(lia)). replace (S k - 1)%nat with k in IH by lia. rewrite <- IH.
  cbn [firstn]. destruct l as [|y l]; [cbn in Hk; lia|]. reflexivity.
Qed.

Lemma nth_octet (l : bytes) i : Forall (fun o => 0 <= o < 256) l -> 0 <= nth i l 0 < 256.
Proof. intros H. revert i. induction H as [|x l Hx _ IH]; intros [|i]; cbn; auto; lia. Qed.

Lemma octet_types_in w i o t :
  In t (octet_types w i o) <->
  exists j, (j < 8)%nat /\ bit_set o j = true /\ t = w * 256 + Z.of_nat i * 8 + Z.of_nat j.
Proof.
  unfold octet_types. rewrite in_map_iff. split.
  - intros (j & <- & Hj). apply filter_In in Hj as [Hs Hb]. apply in_seq in Hs. exists j. repeat split; auto; lia.
  - intros (j & Hj & Hb & ->). exists j. split; [reflexivity|]. apply filter_In. split; [apply in_seq; lia|exact Hb].
Qed.

Lemma octet_types_bit w i o j : (j < 8)%nat ->
  (bit_set o j = true <-> In (w * 256 + Z.of_nat i * 8 + Z.of_nat j) (octet_types w i o)).
Proof.
  intros Hj. rewrite octet_types_in. split; [eauto|]. intros (j' & _ & Hb & E). now replace j with j' by lia.
Qed.

Lemma block_types_in : forall bm w i0 t,
  In t (block_types w i0 bm) <->
  exists i j, (i < length bm)%nat /\ (j < 8)%nat /\ bit_set (nth i bm 0) j = true /\
              t = w * 256 + Z.of_nat (i0 + i) * 8 + Z.of_nat j.
Proof.
  induction bm as [|o r IH]; intros w i0 t; cbn [block_types].
  - split; [intros []|intros (i & j & H & _); cbn in H; lia].
  - rewrite in_app_iff, octet_types_in, IH. split.
    + intros [(j & Hj & Hb & ->)|(i & j & Hi & Hj & Hb & ->)].
      * exists 0%nat, j. cbn [nth length]. repeat split; auto; lia.
      * exists (S i), j. cbn [nth length]. repeat split; auto; lia.
    + intros (i & j & Hi & Hj & Hb & ->). destruct i as [|i]; cbn [nth length] in *.
      * left. exists j. repeat split; auto; lia.
      * right. exists i, j. repeat split; auto; lia.
Qed.

Lemma block_types_bounds w i0 bm t : In t (block_types w i0 bm) ->
  w * 256 + Z.of_nat i0 * 8 <= t < w * 256 + Z.of_nat (i0 + length bm) * 8.
Proof. rewrite block_types_in. intros (i & j & Hi & Hj & _ & ->). lia. Qed.

Lemma bitmap_types_cons w bm r : bitmap_types ((w, bm) :: r) = block_types w 0 bm ++ bitmap_types r.
Proof. reflexivity. Qed.

Lemma bitmap_types_snoc ws w bm : bitmap_types (ws ++ [(w, bm)]) = bitmap_types ws ++ block_types w 0 bm.
Proof. unfold bitmap_types. rewrite flat_map_app. cbn. now rewrite app_nil_r. Qed.

Lemma si_cons x l : (forall y, In y l -> x < y) -> strictly_increasing l -> strictly_increasing (x :: l).
Proof. intros H S. split; [|exact S]. destruct l; [exact Logic.I|apply H; now left]. Qed.

Lemma si_head_min : forall l x, strictly_increasing (x :: l) -> forall y, In y l -> x < y.
Proof.
  induction l as [|z l IH]; intros x [H1 H2] y Hy; [destruct Hy|].
  destruct Hy as [<-|Hy]; [exact H1|]. assert (z < y) by (apply IH; auto). lia.
Qed.

Lemma si_app a b :
  strictly_increasing a -> strictly_increasing b -> (forall x y, In x a -> In y b -> x < y) ->
  strictly_increasing (a ++ b).
Proof.
  intros Sa Sb H. induction a as [|x a IH]; [exact Sb|]. cbn [app]. apply si_cons.
  - intros y Hy. apply in_app_or in Hy as [Hy|Hy]; [now apply (si_head_min a)|apply H; [now left|exact Hy]].
  - apply IH; [apply Sa|]. intros u v Hu. apply H. now right.
Qed.

Lemma octet_types_si w i o : strictly_increasing (octet_types w i o).
Proof.
  unfold octet_types. generalize 0%nat, 8%nat. intros k n. revert k.
  induction n as [|n IH]; intros k; cbn [seq filter]; [exact Logic.I|].
  destruct (bit_set o k); [|apply IH]. cbn [map]. apply si_cons; [|apply IH].
  intros y Hy. apply in_map_iff in Hy as (j & <- & Hj). apply filter_In in Hj as [Hj _]. apply in_seq in Hj. lia.
Qed.

Lemma block_types_si : forall bm w i, strictly_increasing (block_types w i bm).
Proof.
  induction bm as [|o r IH]; intros w i; cbn [block_types]; [exact Logic.I|].
  apply si_app; [apply octet_types_si|apply IH|]. intros x y Hx Hy.
  apply octet_types_in in Hx as (j & Hj & _ & ->). apply block_types_bounds in Hy. lia.
Qed.

Lemma bitmap_types_si : forall ws last,
  windows_increasing last ws -> Forall block_wf ws ->
  strictly_increasing (bitmap_types ws) /\ forall t, In t (bitmap_types ws) -> (last + 1) * 256 <= t.
Proof.
  induction ws as [|[w bm] r IH]; intros last Hw Hb; [split; [exact Logic.I|intros ? []]|].
  destruct Hw as [H1 H2]. inversion Hb as [|? ? (_ & (_ & L) & _) Hr]; subst. cbn [snd] in L.
  destruct (IH w H2 Hr) as [S2 G2]. rewrite bitmap_types_cons. split.
  - apply si_app; [apply block_types_si|exact S2|]. intros x y Hx Hy.
    apply block_types_bounds in Hx. apply G2 in Hy. lia.
  - intros t Ht. apply in_app_or in Ht as [Ht|Ht]; [apply block_types_bounds in Ht|apply G2 in Ht]; lia.
Qed.

Lemma strictly_increasing_ext : forall a b,
  strictly_increasing a -> strictly_increasing b -> (forall t, In t a <-> In t b) -> a = b.
Proof.
  induction a as [|x a IH]; intros [|y b] Sa Sb H;
    [reflexivity|destruct (proj2 (H y)); now left|destruct (proj1 (H x)); now left|].
  pose proof (si_head_min _ _ Sa) as Ma. pose proof (si_head_min _ _ Sb) as Mb.
  assert (x = y).
  { destruct (proj1 (H x) (or_introl eq_refl)) as [E|Hx]; [now symmetry|].
    destruct (proj2 (H y) (or_introl eq_refl)) as [E|Hy]; [exact E|]. apply Mb in Hx. apply Ma in Hy. lia. }
  subst y. f_equal. apply IH; [apply Sa|apply Sb|]. intros t. split; intros Ht.
  - destruct (proj1 (H t) (or_intror Ht)) as [<-|?]; [apply Ma in Ht; lia|assumption].
  - destruct (proj2 (H t) (or_intror Ht)) as [<-|?]; [apply Mb in Ht; lia|assumption].
Qed.

(* the loop's own de-duplication of a sorted list, starting from prior_rdtype *)
Fixpoint dedup_from (prior : Z) (l : list Z) : list Z :=
  match l with
  | [] => []
  | x :: r => if x =? prior then dedup_from prior r else x :: dedup_from x r
  end.

Lemma dedup_from_spec : forall l prior,
  StronglySorted Z.le l -> Forall (fun x => prior <= x) l ->
  (forall t, In t (dedup_from prior l) <-> In t l /\ t <> prior) /\ strictly_increasing (dedup_from prior l).
Proof.
  induction l as [|x r IH]; intros prior Hs Hp; [cbn; intuition|].
  apply StronglySorted_inv in Hs as [Hr Hx]. inversion Hp as [|? ? Hpx Hpr]; subst.
  cbn [dedup_from]. destruct (Z.eqb_spec x prior) as [->|E].
  - destruct (IH prior Hr Hpr) as (M & S). split; [|exact S]. intros t. rewrite M. cbn [In]. intuition congruence.
  - destruct (IH x Hr Hx) as (M & S). rewrite Forall_forall in Hx. split.
    + intros t. cbn [In]. rewrite M. split.
      * intros [<-|[Ht Hn]]; [split; [now left|exact E]|]. split; [now right|]. apply Hx in Ht. lia.
      * intros [[<-|Ht] Hn]; [now left|]. destruct (Z.eq_dec t x); auto.
    + apply si_cons; [|exact S]. intros y Hy. apply M in Hy as [Hy Hn]. apply Hx in Hy. lia.
Qed.

(* the window being filled (number w, octets bm) and the finished blocks ws hold the types P *)
Record Cur (w : Z) (bm : list Z) (ws : list (Z * bytes)) (P : list Z) : Prop := {
  cur_len : length bm = 32%nat;
  cur_bytes : Forall (fun o => 0 <= o < 256) bm;
  cur_bits : forall i j, (i < 32)%nat -> (j < 8)%nat ->
      (bit_set (nth i bm 0) j = true <-> In (w * 256 + Z.of_nat i * 8 + Z.of_nat j) P);
  cur_old : forall t, In t (bitmap_types ws) <-> In t P /\ t / 256 < w;
  cur_inc : windows_increasing (-1) ws;
  cur_lt : Forall (fun wb => fst wb < w) ws;
  cur_blk : Forall block_wf ws }.

(* P: the distinct types consumed so far, ascending; prior_rdtype is the largest of them *)
Record Inv (s : bst) (P : list Z) : Prop := {
  inv_cur : Cur (b_window s) (b_bitmap s) (b_windows s) P;
  inv_si : strictly_increasing P;
  inv_le : forall u, In u P -> 1 <= u <= b_prior s;
  inv_prior : P = [] /\ b_prior s = 0 /\ b_octets s = 0
              \/ In (b_prior s) P /\ b_octets s = b_prior s mod 256 / 8 + 1;
  inv_max : b_prior s <= 65535;
  inv_win : b_window s = b_prior s / 256 }.

(* an all-zero bitmap for a window beyond every type seen *)
Lemma cur_fresh w ws P :
  (forall u, In u P -> u / 256 < w) -> (forall t, In t (bitmap_types ws) <-> In t P) ->
  windows_increasing (-1) ws -> Forall (fun wb => fst wb < w) ws -> Forall block_wf ws ->
  Cur w (repeat 0 32) ws P.
Proof.
  intros Hw Hm Hi Hl Hb. constructor; auto.
  - apply Forall_forall. intros o Ho. apply repeat_spec in Ho. lia.
  - intros i j _ _. rewrite nth_repeat, bit_set_zero. split; [discriminate|]. intros Hu. apply Hw in Hu. (Z.to_euclidean_division_equations; lia).
  - intros t. rewrite Hm. split; [|tauto]. auto.
Qed.

Lemma inv_init : Inv bm_init [].
Proof.
  constructor; cbn; try tauto; try lia.
  apply cur_fresh; [intros ? []|reflexivity|exact Logic.I|constructor|constructor].
Qed.

(* the bit of type t, under Cur for t's window *)
Lemma cur_bit w bm ws P t : Cur w bm ws P -> 0 <= t -> t / 256 = w ->
  (bit_set (nth (Z.to_nat (t mod 256 / 8)) bm 0) (Z.to_nat (t mod 256 mod 8)) = true <-> In t P).
Proof.
  intros C H0 Hw. rewrite (cur_bits _ _ _ _ C) by (Z.to_euclidean_division_equations; lia).
  now replace (w * 256 + Z.of_nat (Z.to_nat (t mod 256 / 8)) * 8 + Z.of_nat (Z.to_nat (t mod 256 mod 8))) with t by (Z.to_euclidean_division_equations; lia).
Qed.

Lemma windows_increasing_snoc : forall ws last w bm,
  windows_increasing last ws -> Forall (fun wb => fst wb < w) ws -> last < w ->
  windows_increasing last (ws ++ [(w, bm)]).
Proof.
  induction ws as [|[w0 b0] r IH]; intros last w bm H1 H2 H3; cbn [app windows_increasing]; [auto|].
  destruct H1 as [H1 H1']. inversion H2; subst. cbn [fst] in *. split; [exact H1|]. apply IH; auto.
Qed.

(* the first k octets of the window being filled decode to the types of P in that window,
   once k covers the highest of them *)
Lemma cur_block w bm ws P k :
  Cur w bm ws P -> (k <= 32)%nat ->
  (forall t, In t P -> 0 <= t /\ (t / 256 = w -> t mod 256 / 8 < Z.of_nat k)) ->
  forall t, In t (block_types w 0 (firstn k bm)) <-> In t P /\ t / 256 = w.
Proof.
  intros C Hk Hcov t. rewrite block_types_in.
  replace (length (firstn k bm)) with k by (rewrite firstn_length, (cur_len _ _ _ _ C); lia). split.
  - intros (i & j & Hi & Hj & Hb & ->). rewrite nth_firstn in Hb by exact Hi.
    apply (cur_bits _ _ _ _ C) in Hb; [|lia|exact Hj]. cbn [Nat.add]. split; [exact Hb|(Z.to_euclidean_division_equations; lia)].
  - intros [Ht Hq]. destruct (Hcov t Ht) as [H0 Hlt]. specialize (Hlt Hq).
    exists (Z.to_nat (t mod 256 / 8)), (Z.to_nat (t mod 256 mod 8)).
    rewrite nth_firstn by (Z.to_euclidean_division_equations; lia). repeat split; [(Z.to_euclidean_division_equations; lia)|(Z.to_euclidean_division_equations; lia)| |cbn [Nat.add]; (Z.to_euclidean_division_equations; lia)].
    now apply (cur_bit _ _ _ _ _ C).
Qed.

Lemma flush_spec s P :
  Inv s P ->
  (forall t, In t (bitmap_types (bm_flush s)) <-> In t P)
  /\ windows_increasing (-1) (bm_flush s)
  /\ Forall block_wf (bm_flush s)
  /\ Forall (fun wb => fst wb <= b_window s) (bm_flush s).
Proof.
  intros I. pose proof (inv_cur _ _ I) as C. pose proof C as [Len By _ Old Inc Lt Blk]. unfold bm_flush.
  assert (Lt' : Forall (fun wb => fst wb <= b_window s) (b_windows s))
    by (eapply Forall_impl; [|exact Lt]; intros wb; cbn; lia).
  destruct (inv_prior _ _ I) as [(-> & _ & ->)|(Hin & Ho)].
  { split; [intros t; rewrite Old; cbn; tauto|auto]. }
  pose proof (inv_le _ _ I) as Hle. pose proof (Hle _ Hin) as Hpr. pose proof (inv_max _ _ I) as Hmax.
  pose proof (inv_win _ _ I) as Hw.
  replace (negb (b_octets s =? 0)) with true by (Z.to_euclidean_division_equations; lia).
  set (oct := Z.to_nat (b_octets s)).
  assert (Hoct : (1 <= oct <= 32)%nat) by (unfold oct; (Z.to_euclidean_division_equations; lia)).
  assert (Hblk := cur_block _ _ _ _ oct C (proj2 Hoct)).
  assert (Hlen : length (firstn oct (b_bitmap s)) = oct) by (rewrite firstn_length, Len; lia).
  split; [|split; [|split]].
  - intros t. rewrite bitmap_types_snoc, in_app_iff, Hblk, Old.
    2:{ intros u Hu. apply Hle in Hu. unfold oct. (Z.to_euclidean_division_equations; lia). }
    split; [tauto|]. intros Ht. apply Hle in Ht as Hr.
    destruct (Z.eq_dec (t / 256) (b_window s)); [right; tauto|left; split; [exact Ht|(Z.to_euclidean_division_equations; lia)]].
  - apply windows_increasing_snoc; [exact Inc|exact Lt|(Z.to_euclidean_division_equations; lia)].
  - apply Forall_app. split; [exact Blk|]. constructor; [|constructor].
    unfold block_wf. cbn [fst snd]. rewrite Hlen. split; [(Z.to_euclidean_division_equations; lia)|]. split; [lia|]. split.
    + apply Forall_firstn, By.
    + rewrite last_firstn by (rewrite Len; lia). intros Hz.
      (* the last octet kept holds the bit of prior_rdtype *)
      apply (cur_bit _ _ _ _ _ C) in Hin; [|lia|lia].
      replace (Z.to_nat (b_prior s mod 256 / 8)) with (oct - 1)%nat in Hin by (unfold oct; lia).
      rewrite Hz, bit_set_zero in Hin. discriminate.
  - apply Forall_app. split; [exact Lt'|]. constructor; [cbn; lia|constructor].
Qed.

Lemma cur_flush s P w : Inv s P -> b_window s < w -> Cur w (repeat 0 32) (bm_flush s) P.
Proof.
  intros I Hw. destruct (flush_spec s P I) as (Fm & Fi & Fb & Fl). rewrite (inv_win _ _ I) in Hw.
  apply cur_fresh; auto.
  - intros u Hu. apply (inv_le _ _ I) in Hu. (Z.to_euclidean_division_equations; lia).
  - eapply Forall_impl; [|exact Fl]. intros wb; cbn. rewrite (inv_win _ _ I). lia.
Qed.

(* bitmap[byte] |= 0x80 >> bit for a type t of window w beyond the types seen *)
Lemma cur_set w bm ws P t :
  Cur w bm ws P -> 0 <= t -> t / 256 = w ->
  Cur w (set_nth (Z.to_nat (t mod 256 / 8))
           (Z.lor (nth (Z.to_nat (t mod 256 / 8)) bm 0) (Z.shiftr 128 (t mod 256 mod 8))) bm) ws (P ++ [t]).
Proof.
  intros [Len By Bits Old Inc Lt Blk] H0 Hw.
  set (i := Z.to_nat (t mod 256 / 8)). set (b := Z.to_nat (t mod 256 mod 8)).
  replace (t mod 256 mod 8) with (Z.of_nat b) by (unfold b; (Z.to_euclidean_division_equations; lia)).
  assert (Ht : t = w * 256 + Z.of_nat i * 8 + Z.of_nat b) by (unfold i, b; (Z.to_euclidean_division_equations; lia)).
  assert (Hi : (i < 32)%nat) by (unfold i; (Z.to_euclidean_division_equations; lia)). assert (Hb : (b < 8)%nat) by (unfold b; (Z.to_euclidean_division_equations; lia)).
  clearbody i b. constructor; auto.
  - now rewrite set_nth_length.
  - apply Forall_set_nth; [exact By|]. apply lor_octet_range; [now apply nth_octet|exact Hb].
  - intros i' j Hi' Hj. rewrite nth_set_nth, in_app_iff by lia. cbn [In].
    destruct (Nat.eqb_spec i' i) as [->|Ne].
    + rewrite bit_set_lor, orb_true_iff, Bits, Nat.eqb_eq by assumption.
      assert (t = w * 256 + Z.of_nat i * 8 + Z.of_nat j <-> j = b) by lia. tauto.
    + rewrite Bits by assumption. assert (t <> w * 256 + Z.of_nat i' * 8 + Z.of_nat j) by lia. tauto.
  - intros u. rewrite Old, in_app_iff. cbn [In]. assert (t = u -> ~ u / 256 < w) by (intros <-; lia). tauto.
Qed.

Lemma inv_set s P t w bm ws :
  Inv s P -> b_prior s < t <= 65535 -> w = t / 256 -> Cur w bm ws P ->
  Inv {| b_window := w; b_octets := t mod 256 / 8 + 1; b_prior := t;
         b_bitmap := set_nth (Z.to_nat (t mod 256 / 8))
                       (Z.lor (nth (Z.to_nat (t mod 256 / 8)) bm 0) (Z.shiftr 128 (t mod 256 mod 8))) bm;
         b_windows := ws |} (P ++ [t]).
Proof.
  intros I Ht -> C. pose proof (inv_le _ _ I) as Hle.
  assert (H0 : 0 <= b_prior s) by (destruct (inv_prior _ _ I) as [(_ & -> & _)|[Hin _]]; [lia|apply Hle in Hin; lia]).
  constructor; cbn [b_window b_octets b_prior b_bitmap b_windows]; try lia.
  - apply cur_set; [exact C|lia|reflexivity].
  - apply si_app; [apply (inv_si _ _ I)|cbn; auto|]. intros x y Hx [<-|[]]. apply Hle in Hx. lia.
  - intros u Hu. apply in_app_or in Hu as [Hu|[<-|[]]]; [apply Hle in Hu|]; lia.
  - right. split; [apply in_or_app; right; now left|reflexivity].
Qed.

Lemma bm_step_skip s t : t = b_prior s -> bm_step s t = s.
Proof. intros ->. unfold bm_step. now rewrite Z.eqb_refl. Qed.

Lemma bm_step_prior s t : t <> b_prior s -> b_prior (bm_step s t) = t.
Proof. intros E. unfold bm_step. destruct (Z.eqb_spec t (b_prior s)); [contradiction|]. now destruct (negb _). Qed.

Lemma bm_step_inv s P t : Inv s P -> b_prior s < t <= 65535 -> Inv (bm_step s t) (P ++ [t]).
Proof.
  intros I Ht. unfold bm_step. replace (t =? b_prior s) with false by lia. cbv zeta.
  destruct (Z.eqb_spec (t / 256) (b_window s)) as [E|E]; cbn [negb].
  - apply (inv_set s P t _ _ _ I Ht (eq_sym E) (inv_cur _ _ I)).
  - apply (inv_set s P t _ _ _ I Ht eq_refl). apply cur_flush; [exact I|].
    rewrite (inv_win _ _ I) in *. (Z.to_euclidean_division_equations; lia).
Qed.

Lemma bm_loop_inv : forall l s P,
  Inv s P -> StronglySorted Z.le l -> Forall (fun x => b_prior s <= x <= 65535) l ->
  Inv (fold_left bm_step l s) (P ++ dedup_from (b_prior s) l).
Proof.
  induction l as [|x r IH]; intros s P I Hs Hb; [now rewrite app_nil_r|].
  apply StronglySorted_inv in Hs as [Hr Hx]. inversion Hb as [|? ? Hbx Hbr]; subst.
  cbn [fold_left dedup_from]. destruct (Z.eqb_spec x (b_prior s)) as [E|E].
  - rewrite (bm_step_skip s x E). now apply IH.
  - specialize (IH (bm_step s x) (P ++ [x]) (bm_step_inv s P x I ltac:(lia)) Hr).
    rewrite (bm_step_prior s x E), <- app_assoc in IH. apply IH.
    rewrite Forall_forall in *. intros y Hy. specialize (Hx y Hy). specialize (Hbr y Hy). lia.
Qed.

(* Bitmap.__init__ accepts what the loop built *)
Lemma bm_check_wf : forall ws last,
  windows_increasing last ws -> Forall block_wf ws -> bm_check last ws = true.
Proof.
  induction ws as [|[w bm] r IH]; intros last Hi Hb; [reflexivity|].
  destruct Hi as [H1 H2]. inversion Hb as [|? ? Hw Hr]; subst.
  destruct Hw as ((W0 & W1) & (L0 & L1) & _). cbn [fst snd] in *.
  cbn [bm_check]. rewrite (IH w H2 Hr). unfold zlen.
  replace (w <=? last) with false by lia. replace (w >? 256) with false by lia.
  replace (Z.of_nat (length bm) =? 0) with false by lia.
  replace (Z.of_nat (length bm) >? 32) with false by lia. reflexivity.
Qed.

(* the type set the RFC encoding stands for: the distinct non-zero members, ascending *)
Definition type_set (ts : list Z) : list Z := dedup_from 0 (sort_ints ts).

Lemma type_set_spec ts :
  Forall (fun t => 0 <= t <= 65535) ts ->
  strictly_increasing (type_set ts) /\ (forall t, In t (type_set ts) <-> In t ts /\ t <> 0).
Proof.
  intros H. unfold type_set.
  assert (Hf : Forall (fun x => 0 <= x) (sort_ints ts)).
  { eapply Permutation_Forall; [apply sort_ints_perm|]. eapply Forall_impl; [|exact H]. intros; cbn in *; lia. }
  destruct (dedup_from_spec (sort_ints ts) 0 (sort_ints_sorted ts) Hf) as (M & S).
  split; [exact S|]. intros t. rewrite M. split; intros [Hin Hn]; (split; [|exact Hn]).
  - eapply Permutation_in; [symmetry; apply sort_ints_perm|exact Hin].
  - eapply Permutation_in; [apply sort_ints_perm|exact Hin].
Qed.

Theorem from_rdtypes_exact ts :
  Forall (fun t => 0 <= t <= 65535) ts ->
  exists ws, from_rdtypes ts = Ok ws /\ bitmap_wf ws /\ bitmap_types ws = type_set ts.
Proof.
  intros H. unfold from_rdtypes.
  assert (I : Inv (fold_left bm_step (sort_ints ts) bm_init) (type_set ts)).
  { apply (bm_loop_inv _ bm_init [] inv_init (sort_ints_sorted ts)).
    eapply Permutation_Forall; [apply sort_ints_perm|exact H]. }
  destruct (flush_spec _ _ I) as (Fm & Fi & Fb & _).
  eexists. rewrite (bm_check_wf _ _ Fi Fb). split; [reflexivity|]. split; [split; assumption|].
  apply strictly_increasing_ext; [apply (bitmap_types_si _ (-1) Fi Fb)|apply (inv_si _ _ I)|exact Fm].
Qed.

Corollary from_rdtypes_members ts :
  Forall (fun t => 0 <= t <= 65535) ts ->
  exists ws, from_rdtypes ts = Ok ws /\ bitmap_wf ws /\ strictly_increasing (bitmap_types ws) /\
             forall t, In t (bitmap_types ws) <-> In t ts /\ t <> 0.
Proof.
  intros H. destruct (from_rdtypes_exact ts H) as (ws & E & W & T). exists ws.
  destruct (type_set_spec ts H) as (S & M). rewrite T. auto.
Qed.

Lemma octet_types_inj w i o1 o2 :
  0 <= o1 < 256 -> 0 <= o2 < 256 -> octet_types w i o1 = octet_types w i o2 -> o1 = o2.
Proof.
  intros H1 H2 E. apply octet_inj; auto. intros j Hj. apply eq_true_iff_eq.
  now rewrite !(octet_types_bit w i) , E by exact Hj.
Qed.

Lemma octet_nonzero_types w i o : 0 <= o < 256 -> o <> 0 -> octet_types w i o <> [].
Proof.
  intros Ho Hn E. apply Hn, (octet_inj o 0 Ho); [lia|]. intros j Hj.
  rewrite bit_set_zero. apply not_true_is_false. rewrite (octet_types_bit w i), E by exact Hj. intros [].
Qed.

Lemma block_types_nonempty w : forall (bm : bytes) k,
  Forall (fun o => 0 <= o < 256) bm -> last bm 0 <> 0 -> block_types w k bm <> [].
Proof.
  induction bm as [|o r IH]; intros k F L E; [now apply L|].
  inversion F as [|? ? Fo Fr]; subst. cbn [block_types] in E. apply app_eq_nil in E as [Eo Er].
  destruct r as [|o' r']; [exact (octet_nonzero_types w k o Fo L Eo)|].
  exact (IH (S k) Fr L Er).
Qed.

(* two concatenations split at the same bound are equal part by part *)
Lemma app_split_bound (l1 l2 m1 m2 : list Z) B :
  l1 ++ l2 = m1 ++ m2 ->
  (forall x, In x l1 -> x < B) -> (forall x, In x l2 -> B <= x) ->
  (forall x, In x m1 -> x < B) -> (forall x, In x m2 -> B <= x) ->
  l1 = m1 /\ l2 = m2.
Proof.
  revert m1. induction l1 as [|x l1 IH]; intros [|y m1] E L1 G2 M1 N2; cbn [app] in E.
  - auto.
  - subst l2. specialize (G2 y (or_introl eq_refl)). specialize (M1 y (or_introl eq_refl)). lia.
  - subst m2. specialize (N2 x (or_introl eq_refl)). specialize (L1 x (or_introl eq_refl)). lia.
  - injection E as -> E.
    destruct (IH m1 E (fun z Hz => L1 z (or_intror Hz)) G2 (fun z Hz => M1 z (or_intror Hz)) N2) as [-> ->]. auto.
Qed.

Lemma block_types_inj w : forall bm1 bm2 i,
  Forall (fun o => 0 <= o < 256) bm1 -> Forall (fun o => 0 <= o < 256) bm2 ->
  (bm1 <> [] -> last bm1 0 <> 0) -> (bm2 <> [] -> last bm2 0 <> 0) ->
  block_types w i bm1 = block_types w i bm2 -> bm1 = bm2.
Proof.
  induction bm1 as [|o1 r1 IH]; intros [|o2 r2] i F1 F2 L1 L2 E; [reflexivity| | |].
  - symmetry in E. apply block_types_nonempty in E; [destruct E|exact F2|apply L2; discriminate].
  - apply block_types_nonempty in E; [destruct E|exact F1|apply L1; discriminate].
  - inversion F1 as [|? ? Fo1 Fr1]; subst. inversion F2 as [|? ? Fo2 Fr2]; subst. cbn [block_types] in E.
    destruct (app_split_bound _ _ _ _ (w * 256 + Z.of_nat i * 8 + 8) E) as [Eo Er].
    1, 3: intros x Hx; apply octet_types_in in Hx as (j & Hj & _ & ->); lia.
    1, 2: intros x Hx; apply block_types_bounds in Hx; lia.
    apply octet_types_inj in Eo; auto. subst o2. f_equal. apply (IH r2 (S i)); auto.
    + intros N. destruct r1; [congruence|]. apply L1. discriminate.
    + intros N. destruct r2; [congruence|]. apply L2. discriminate.
Qed.

Lemma block_wf_types w bm : block_wf (w, bm) ->
  block_types w 0 bm <> [] /\ forall t, In t (block_types w 0 bm) -> w * 256 <= t < (w + 1) * 256.
Proof.
  intros (_ & (L0 & L1) & F & Ln). cbn [fst snd] in *. split.
  - now apply block_types_nonempty.
  - intros t Ht. apply block_types_bounds in Ht. lia.
Qed.

Theorem bitmap_encoding_unique : forall a b,
  bitmap_wf a -> bitmap_wf b -> bitmap_types a = bitmap_types b -> a = b.
Proof.
  assert (G : forall a b la lb, windows_increasing la a -> Forall block_wf a -> windows_increasing lb b -> Forall block_wf b ->
              bitmap_types a = bitmap_types b -> a = b).
  { induction a as [|[w1 bm1] a IH]; intros [|[w2 bm2] b] la lb Ia Fa Ib Fb E; [reflexivity| | |].
    - inversion Fb as [|? ? Fb1 _]; subst. destruct (block_wf_types _ _ Fb1) as (N & _).
      rewrite bitmap_types_cons in E. symmetry in E. apply app_eq_nil in E as [E _]. contradiction.
    - inversion Fa as [|? ? Fa1 _]; subst. destruct (block_wf_types _ _ Fa1) as (N & _).
      rewrite bitmap_types_cons in E. apply app_eq_nil in E as [E _]. contradiction.
    - destruct Ia as [_ Ia]. destruct Ib as [_ Ib].
      inversion Fa as [|? ? Fa1 Fa']; subst. inversion Fb as [|? ? Fb1 Fb']; subst.
      destruct (block_wf_types _ _ Fa1) as (Na & Ba). destruct (block_wf_types _ _ Fb1) as (Nb & Bb).
      destruct (bitmap_types_si a w1 Ia Fa') as [_ Ra]. destruct (bitmap_types_si b w2 Ib Fb') as [_ Rb].
      rewrite !bitmap_types_cons in E.
      (* the first element decides the window *)
      assert (w1 = w2).
      { destruct (block_types w1 0 bm1) as [|x xs]; [congruence|].
        destruct (block_types w2 0 bm2) as [|y ys]; [congruence|]. injection E as -> _.
        specialize (Ba y (or_introl eq_refl)). specialize (Bb y (or_introl eq_refl)). lia. }
      subst w2.
      destruct (app_split_bound _ _ _ _ ((w1 + 1) * 256) E) as [E1 E2]; auto.
      1: intros x Hx; apply Ba in Hx; lia.
      1: intros x Hx; apply Bb in Hx; lia.
      f_equal; [f_equal|now apply (IH b w1 w1)].
      destruct Fa1 as (_ & _ & Fa1 & Lna). destruct Fb1 as (_ & _ & Fb1 & Lnb).
      apply (block_types_inj w1 bm1 bm2 0%nat); auto. }
  intros a b [Ia Fa] [Ib Fb]. eapply G; eauto.
Qed.

(* hence: any well-formed encoding of the same type set IS what from_rdtypes returns *)
Corollary from_rdtypes_is_the_encoding ts ws' :
  Forall (fun t => 0 <= t <= 65535) ts ->
  bitmap_wf ws' -> bitmap_types ws' = type_set ts -> from_rdtypes ts = Ok ws'.
Proof.
  intros H W T. destruct (from_rdtypes_exact ts H) as (ws & E & Wf & Ty). rewrite E. f_equal.
  apply bitmap_encoding_unique; auto. congruence.
Qed.
