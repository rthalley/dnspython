(* C10: the rdataset-object level.  Frame theorem: whatever a transaction does, every rdataset object and every
   node object that existed when it began is untouched - all in-place methods are applied to objects created
   by the transaction itself (the clone made by Set.union/intersection/difference, the Rdataset copy of an
   ImmutableRdataset in _add, the copy-on-write node).  An edit of a published rdataset in place (e.g.
   `existing.difference_update(...)`) is therefore excluded for this model by a theorem, and the model is
   compared with the real objects (identity and mutability of every rdataset of the universe) on every run. *)
From DV Require Import Base.Prelude Model.NameM Model.TxnM.
From DV Require Import Proofs.NameValid Proofs.TxnName Proofs.TxnStore Proofs.TxnSim Proofs.TxnThm Proofs.TxnHeap.
Open Scope Z_scope.

(* ---------------------------------------------------------------- rdataset objects below a bound
   the store agrees with rh0 on the first b objects (value and mutability): allocation, an in-place method on
   an object at or above b, hence the cloning set operations, keep that *)
Section Agree.
  Variable b : nat.
  Variable rh0 : rheap.

  Lemma ralloc_agree h x imm :
    agree_upto robj0 b rh0 h -> agree_upto robj0 b rh0 (fst (ralloc h x imm)) /\ (b <= snd (ralloc h x imm))%nat.
  Proof. intros H. split; [apply agree_app; exact H|apply H]. Qed.

  Lemma inplace_agree h id f h' :
    agree_upto robj0 b rh0 h -> (b <= id)%nat -> o_inplace h id f = Ok h' -> agree_upto robj0 b rh0 h'.
  Proof.
    intros H Hid. unfold o_inplace. destruct (rimm h id); [discriminate|]. intros [= <-]. apply agree_lset; assumption.
  Qed.

  Lemma setop_agree f h a h' id : agree_upto robj0 b rh0 h -> o_setop f h a = Ok (h', id) -> agree_upto robj0 b rh0 h'.
  Proof.
    intros Hh. unfold o_setop, o_clone.
    destruct (ralloc_agree h (rval h a) false Hh) as [H1 H2].
    destruct (ralloc h (rval h a) false) as [h1 cid] eqn:E. cbn [fst snd] in *.
    destruct (o_inplace h1 cid f) as [h2| |] eqn:Ei; cbn [bind]; try discriminate.
    pose proof (inplace_agree h1 cid f h2 H1 H2 Ei) as H3.
    destruct (rimm h a); intros [= <- <-]; [|exact H3].
    apply (ralloc_agree h2 (rval h2 cid) true H3).
  Qed.

  Lemma wrap_agree ids : forall rh rh' ids',
    o_wrap_rdatasets rh ids = (rh', ids') -> agree_upto robj0 b rh0 rh -> agree_upto robj0 b rh0 rh'.
  Proof.
    induction ids as [|x ids IH]; intros rh rh' ids'; cbn [o_wrap_rdatasets]; [intros [= <- _]; auto|].
    unfold ralloc. destruct (o_wrap_rdatasets (rh ++ [mkRobj (rval rh x) true]) ids) as [rh2 js] eqn:E.
    intros [= <- _] H. apply (IH _ _ _ E), agree_app, H.
  Qed.
End Agree.

Section Frame.
  Variable br : nat.          (* number of rdataset objects when the transaction began *)
  Variable rh0 : rheap.
  Variable bn : nat.          (* number of node objects *)
  Variable nh0 : list onode.

  Definition NF (v : over) : Prop :=
    (forall k nid, changed_has (ov_changed v) k = true -> amap_get (ov_nodes v) k = Some nid -> (bn <= nid)%nat) /\
    (bn <= length (ov_nh v))%nat /\
    (forall i, (i < bn)%nat -> nth i (ov_nh v) [] = nth i nh0 []).

  Definition OI (v : over) : Prop := NF v /\ agree_upto robj0 br rh0 (ov_rh v).

  (* node level: the frame of Proofs/TxnHeap.v *)
  Lemma cow_NF c v n v1 nid k :
    NF v -> o_maybe_cow c v n = Ok (v1, nid, k) -> NF v1 /\ (bn <= nid)%nat /\ ov_rh v1 = ov_rh v.
  Proof.
    intros Hv. unfold o_maybe_cow. destruct (validate_name c n) as [k0| |]; cbn [bind]; try discriminate.
    assert (forall x, NF (mkOver (ov_rh v) (ov_nh v ++ [x]) (amap_set (ov_nodes v) k0 (length (ov_nh v))) (changed_add (ov_changed v) k0))
                      /\ (bn <= length (ov_nh v))%nat /\ ov_rh v = ov_rh v) as Knew
      by (intros x; split; [apply (frame_cow [] bn nh0); exact Hv|split; [apply Hv|reflexivity]]).
    destruct (amap_get (ov_nodes v) k0) as [id0|] eqn:G; [destruct (changed_has (ov_changed v) k0) eqn:Ch|];
      intros [= <- <- <-]; [|apply Knew..].
    split; [exact Hv|]. split; [eapply (proj1 Hv); eauto|reflexivity].
  Qed.

  Lemma NF_with_rh v rh : NF v -> NF (with_rh v rh).
  Proof. intros H. exact H. Qed.

  Lemma put_OI c v n rid v' : OI v -> o_put_rdataset c v n rid = Ok v' -> OI v'.
  Proof.
    intros [Hn Hr]. unfold o_put_rdataset.
    destruct (o_maybe_cow c v n) as [[[v1 nid] k]| |] eqn:Cw; cbn [bind]; try discriminate.
    destruct (cow_NF c v n v1 nid k Hn Cw) as (H1 & Hid & Er).
    intros [= <-]. split; [apply (frame_lset [] bn nh0); assumption|]. cbn [ov_rh]. rewrite Er. exact Hr.
  Qed.

  Lemma del_rds_OI c v n ty cov v' : OI v -> o_delete_rdataset c v n ty cov = Ok v' -> OI v'.
  Proof.
    intros [Hn Hr]. unfold o_delete_rdataset.
    destruct (o_maybe_cow c v n) as [[[v1 nid] k]| |] eqn:Cw; cbn [bind]; try discriminate.
    destruct (cow_NF c v n v1 nid k Hn Cw) as (H1 & Hid & Er). rewrite <- Er in Hr.
    pose proof (frame_lset [] bn nh0 _ _ _ nid (onode_delete (ov_rh v1) (onode_of v1 nid) cIN ty cov) H1 Hid) as H2.
    destruct (onode_delete (ov_rh v1) (onode_of v1 nid) cIN ty cov) as [|x nd']; [|intros [= <-]; split; assumption].
    unfold amap_del. destruct (amap_has (ov_nodes v1) k); cbn [bind]; [|discriminate].
    intros [= <-]. split; [|exact Hr]. apply (frame_remove [] bn nh0 _ _ _ k _ H2). auto.
  Qed.

  Lemma del_name_OI c v n v' : OI v -> o_delete_node c v n = Ok v' -> OI v'.
  Proof.
    intros [Hn Hr]. unfold o_delete_node. destruct (validate_name c n) as [k| |]; cbn [bind]; try discriminate.
    destruct (amap_has (ov_nodes v) k); intros [= <-]; split; try assumption.
    apply (frame_remove [] bn nh0 _ _ _ k _ Hn). apply changed_add_others.
  Qed.

  Lemma add_OI c rep args v v' : OI v -> o_add c rep args v = Ok v' -> OI v'.
  Proof.
    intros [Hn Hr]. unfold o_add. destruct args as [|a rest]; [discriminate|].
    destruct (add_parse a rest) as [[[n r] rest1]| |]; cbn [bind]; try discriminate.
    destruct (negb _); [discriminate|]. destruct (_ && _); [discriminate|]. destruct rest1; [|discriminate].
    destruct (ralloc_agree br rh0 (ov_rh v) r false Hr) as [Hr1 _].
    destruct (ralloc (ov_rh v) r false) as [rh1 rid]. cbn [fst snd] in *.
    assert (OI (with_rh v rh1)) as H1 by (split; assumption).
    destruct rep; cbn [bind]; [apply put_OI; exact H1|].
    destruct (o_get_rdataset c (with_rh v rh1) n (r_ty r) (r_cov r)) as [[e|]| |]; cbn [bind fst snd]; try discriminate;
      [|apply put_OI; exact H1].
    (* the existing rdataset, as a mutable object e' of a store that still agrees below br *)
    destruct (if rimm rh1 e then _ else _) as [[rh4 e']| |] eqn:Ez; cbn [bind]; try discriminate.
    assert (agree_upto robj0 br rh0 rh4) as Hr4.
    { destruct (rimm rh1 e); [|injection Ez as <- _; exact Hr1].
      destruct (ralloc_agree br rh0 rh1 (mkRds (r_cls (rval rh1 e)) (r_ty (rval rh1 e)) (r_cov (rval rh1 e)) 0 []) false Hr1) as [Hr2 Hid2].
      destruct (ralloc rh1 _ false) as [rh2 t]. cbn [fst snd] in *.
      destruct (o_inplace rh2 t _) as [rh3| |] eqn:Ei; cbn [bind] in Ez; try discriminate.
      injection Ez as <- _. eapply inplace_agree; eauto. }
    destruct (o_union rh4 e' (rval rh4 rid)) as [[rh5 u]| |] eqn:Eu; cbn [bind fst snd]; try discriminate.
    apply put_OI. split; [exact Hn|]. eapply setop_agree; eauto.
  Qed.

  Lemma delete_common_OI c exact n ord rest v v' : OI v -> o_delete_common c exact n ord rest v = Ok v' -> OI v'.
  Proof.
    intros Hv. pose proof Hv as [Hn Hr]. unfold o_delete_common. destruct rest; [|discriminate].
    assert ((if exact then do on <- o_get_node c v n; match on with None => Lib eDeleteNotExact | Some _ => o_delete_node c v n end
             else o_delete_node c v n) = Ok v' -> OI v') as K.
    { destruct exact; [|apply del_name_OI; exact Hv].
      destruct (o_get_node c v n) as [[]| |]; cbn [bind]; try discriminate. apply del_name_OI; exact Hv. }
    destruct ord as [[cls ty cov ttl items]|]; [|exact K]. destruct items as [|i items]; [exact K|].
    destruct (negb _); [discriminate|].
    destruct (o_get_rdataset c v n ty cov) as [[e|]| |]; cbn [bind]; try discriminate;
      [|destruct exact; [discriminate|intros [= <-]; exact Hv]].
    (* the exact test works on a clone *)
    destruct (if exact then do w <- o_intersection _ _ _; _ else _) as [rhy| |] eqn:Ey; cbn [bind]; try discriminate.
    assert (agree_upto robj0 br rh0 rhy) as Hy.
    { destruct exact; [|injection Ey as <-; exact Hr].
      destruct (o_intersection (ov_rh v) e _) as [[rhw w]| |] eqn:Ew; cbn [bind fst snd] in Ey; try discriminate.
      destruct (negb _); [discriminate|]. injection Ey as <-. eapply setop_agree; eauto. }
    destruct (o_difference rhy e _) as [[rhd d]| |] eqn:Ed; cbn [bind fst snd]; try discriminate.
    pose proof (setop_agree _ _ _ rhy e rhd d Hy Ed) as Hrd.
    destruct (r_items (rval rhd d)); [apply del_rds_OI|apply put_OI]; split; assumption.
  Qed.

  Lemma delete_OI c exact args v v' : OI v -> o_delete c exact args v = Ok v' -> OI v'.
  Proof.
    intros Hv. unfold o_delete. destruct args as [|a rest]; [discriminate|].
    assert (forall n, (do y <- rdataset_from_args true rest; o_delete_common c exact n (fst y) (snd y) v) = Ok v' -> OI v') as Kc.
    { intros n. destruct (rdataset_from_args true rest) as [[o r1]| |]; cbn [bind]; try discriminate.
      apply delete_common_OI; exact Hv. }
    assert (forall n t rest1, o_delete_bytype c exact n t rest1 v = Ok v' -> OI v') as Kt.
    { intros n t rest1. unfold o_delete_bytype. destruct (make_type t) as [ty| |]; cbn [bind]; try discriminate.
      destruct (match rest1 with [] => _ | _ :: _ => _ end) as [[cov rest2]| |]; cbn [bind]; try discriminate.
      destruct rest2; [|discriminate].
      destruct (o_get_rdataset c v n ty cov) as [ex| |]; cbn [bind]; try discriminate.
      destruct ex; [apply del_rds_OI; exact Hv|destruct exact; [discriminate|intros H; inversion H; subst; exact Hv]]. }
    destruct a; try discriminate.
    - destruct rest as [|t rest1]; [apply Kc|]. destruct (is_type_arg t); [apply Kt|apply Kc].
    - destruct rest as [|t rest1]; [apply Kc|]. destruct (is_type_arg t); [apply Kt|apply Kc].
    - apply delete_common_OI; exact Hv.
  Qed.

  Lemma write_OI f (t t' : txn (S:=over)) :
    (forall s s', OI s -> f s = Ok s' -> OI s') -> OI (t_st t) -> o_write f t = Ok t' -> OI (t_st t').
  Proof.
    intros Hf Ht. unfold o_write. destruct (t_ended t); [discriminate|]. destruct (t_ro t); [discriminate|].
    destruct (f (t_st t)) eqn:E; cbn [bind]; try discriminate. intros H; inversion H; subst. cbn. eauto.
  Qed.

  (* every successful public call keeps the frame *)
  Lemma step_OI c o z (t : txn (S:=over)) x z' t' : OI (t_st t) -> o_step c o z t = Ok (x, z', t') -> OI (t_st t').
  Proof.
    intros Ht. destruct o; cbn [o_step].
    1-4: destruct (o_write _ t) as [t1| |] eqn:Ew; cbn [bind]; try discriminate; intros [= _ _ <-];
         eapply write_OI; [|exact Ht|exact Ew]; intros s s' Hs Hf;
         first [eapply add_OI; [exact Hs|exact Hf]|eapply delete_OI; [exact Hs|exact Hf]].
    - destruct (o_update_serial c value relative n t) as [t1| |] eqn:Eu; cbn [bind]; try discriminate.
      intros H; inversion H; subst. unfold o_update_serial in Eu.
      destruct (t_ended t); [discriminate|]. destruct (value <? 0); [discriminate|].
      destruct (match n with None => _ | Some a => _ end); cbn [bind] in Eu; try discriminate.
      destruct (o_get_rdataset _ _ _ _ _) as [ex| |]; cbn [bind] in Eu; try discriminate. destruct ex as [e0|]; [|discriminate].
      destruct (r_items _) as [|[body serial] ?]; [discriminate|].
      destruct (if relative then _ else _); cbn [bind] in Eu; try discriminate.
      eapply write_OI; [|exact Ht|exact Eu]. intros s s' Hs Hf. eapply add_OI; eauto.
    - destruct (t_ended t); [discriminate|]. destruct (name_of_arg n); cbn [bind]; try discriminate.
      destruct (make_type (AInt ty)); cbn [bind]; try discriminate.
      destruct (make_type (AInt cov)); cbn [bind]; try discriminate.
      destruct (o_get_rdataset _ _ _ _ _); cbn [bind]; intros H; inversion H; subst; auto.
    - destruct (t_ended t); [discriminate|]. destruct (name_of_arg n); cbn [bind]; try discriminate.
      destruct (o_get_node _ _ _); cbn [bind]; intros H; inversion H; subst; auto.
    - destruct (t_ended t); [discriminate|]. intros H; inversion H; subst; auto.
    - destruct (t_ended t); [discriminate|]. intros H; inversion H; subst; auto.
    - destruct (t_ended t); [discriminate|]. destruct (name_of_arg n); cbn [bind]; try discriminate.
      destruct (o_get_node _ _ _); cbn [bind]; intros H; inversion H; subst; auto.
    - unfold o_end. destruct (t_ended t); cbn [bind]; [discriminate|]. intros H; inversion H; subst. exact Ht.
    - unfold o_end. destruct (t_ended t); cbn [bind]; [discriminate|]. intros H; inversion H; subst. exact Ht.
  Qed.
End Frame.

(* the state after the calls of a transaction, when none of them raised *)
Fixpoint o_final (c : cfg) (ops : list op) (z : ozone) (t : txn (S:=over)) : option (txn (S:=over)) :=
  match ops with
  | [] => Some t
  | o :: r => match o_step c o z t with
              | Ok (_, z', t') => o_final c r z' t'
              | _ => None
              end
  end.

Lemma OI_begin mode rh nh m :
  OI (length rh) rh (length nh) nh (t_st (o_open mode (rh, nh, m))).
Proof.
  unfold o_open. destruct (mode =? 2); cbn [t_st o_begin];
    (split; [split; [intros k nid H; discriminate|apply (agree_refl [])]|apply agree_refl]).
Qed.

Lemma o_final_g c ops : forall z t, o_final c ops z t = g_final (o_step c) ops z t.
Proof.
  induction ops as [|o ops IH]; intros z t; cbn [o_final g_final]; [reflexivity|].
  destruct (o_step c o z t) as [[[x z'] t']| |]; auto.
Qed.

(* Whatever calls succeed inside a transaction opened on the published zone (rh, nh, m), every rdataset
   object (value AND mutability flag) and every node object that existed when it began is exactly as it was.
   Commit, rollback, exception exit do not write objects at all (the wrappers made by a versioned commit are
   new objects), so this is all-or-nothing for the published zone and for every older version. *)
Theorem published_rdatasets_never_mutated c rh nh m mode ops t' :
  o_final c ops (rh, nh, m) (o_open mode (rh, nh, m)) = Some t' ->
  (forall i, (i < length rh)%nat -> nth i (ov_rh (t_st t')) robj0 = nth i rh robj0) /\
  (forall i, (i < length nh)%nat -> nth i (ov_nh (t_st t')) [] = nth i nh []).
Proof.
  intros Hf. rewrite o_final_g in Hf.
  assert (OI (length rh) rh (length nh) nh (t_st t')) as ((_ & _ & H1) & (_ & H2)); [|split; assumption].
  refine (g_final_inv _ (fun t => OI _ _ _ _ (t_st t)) ops _ _ _ t' (OI_begin mode rh nh m) Hf).
  intros o z t x z' t0 _. apply step_OI.
Qed.

(* publishing (commit of a versioned / B-tree zone wraps the changed nodes) only allocates *)
Theorem publish_never_mutates c v :
  let '(rh', nh', _) := o_publish c v in
  (forall i, (i < length (ov_rh v))%nat -> nth i rh' robj0 = nth i (ov_rh v) robj0) /\
  (forall i, (i < length (ov_nh v))%nat -> nth i nh' [] = nth i (ov_nh v) []).
Proof.
  unfold o_publish. destruct (c_kind c =? 0); [auto|].
  assert (forall names (rh : rheap) (nh : list onode) m,
            agree_upto robj0 (length (ov_rh v)) (ov_rh v) rh -> agree_upto [] (length (ov_nh v)) (ov_nh v) nh ->
            let '(rh', nh', _) := o_make_immutable names (rh, nh, m) in
            agree_upto robj0 (length (ov_rh v)) (ov_rh v) rh' /\ agree_upto [] (length (ov_nh v)) (ov_nh v) nh') as K.
  { induction names as [|k names IH]; intros rh nh m Hr Hn; cbn [o_make_immutable]; [auto|].
    destruct (amap_get m k) as [nid|]; [|apply IH; assumption].
    destruct (nth nid nh []) as [|x ids] eqn:En; [apply IH; assumption|].
    destruct (o_wrap_rdatasets rh (x :: ids)) as [rh1 ids'] eqn:Ew.
    apply IH; [eapply wrap_agree; eauto|apply agree_app; exact Hn]. }
  specialize (K (ov_changed v) (ov_rh v) (ov_nh v) (ov_nodes v) (agree_refl _ _) (agree_refl _ _)).
  destruct (o_make_immutable (ov_changed v) (ov_rh v, ov_nh v, ov_nodes v)) as [[rh' nh'] m'].
  destruct K as [[_ A] [_ B]]. auto.
Qed.

Lemma o_step_keeps_zone c o z (t : txn (S:=over)) x z' t' :
  is_commit o = false -> o_step c o z t = Ok (x, z', t') -> z' = z.
Proof.
  intros Hc. destruct o; cbn [o_step]; try discriminate Hc;
    try (destruct (o_write _ _); cbn [bind]; intros H; inversion H; reflexivity).
  - destruct (o_update_serial _ _ _ _ _); cbn [bind]; intros H; inversion H; reflexivity.
  - destruct (t_ended t); [discriminate|]. destruct (name_of_arg n); cbn [bind]; try discriminate.
    destruct (make_type (AInt ty)); cbn [bind]; try discriminate.
    destruct (make_type (AInt cov)); cbn [bind]; try discriminate.
    destruct (o_get_rdataset _ _ _ _ _); cbn [bind]; intros H; inversion H; reflexivity.
  - destruct (t_ended t); [discriminate|]. destruct (name_of_arg n); cbn [bind]; try discriminate.
    destruct (o_get_node _ _ _); cbn [bind]; intros H; inversion H; reflexivity.
  - destruct (t_ended t); [discriminate|]. intros H; inversion H; reflexivity.
  - destruct (t_ended t); [discriminate|]. intros H; inversion H; reflexivity.
  - destruct (t_ended t); [discriminate|]. destruct (name_of_arg n); cbn [bind]; try discriminate.
    destruct (o_get_node _ _ _); cbn [bind]; intros H; inversion H; reflexivity.
  - unfold o_end. destruct (t_ended t); cbn [bind]; [discriminate|].
    rewrite andb_false_r. cbn. intros H; inversion H; reflexivity.
Qed.

Lemma o_exit_rollback_keeps c z t : o_exit c false z t = z.
Proof. unfold o_exit, o_end. destruct (t_ended t); [reflexivity|]. rewrite andb_false_r. reflexivity. Qed.

(* an exception injected after any number of calls, or raised by a call, leaves the published triple
   (rdataset objects, node objects, node map) exactly as it was *)
Theorem o_atomic_crash_point c ops : forall k z t, no_commit ops -> snd (o_run_with c ops (Some k) z t) = z.
Proof.
  intros k z t. rewrite o_run_with_g. apply g_crash_point; [apply o_step_keeps_zone|apply o_exit_rollback_keeps].
Qed.

Theorem o_atomic_no_commit c ops : forall z t, no_commit ops -> snd (o_run_manual c ops z t) = z.
Proof.
  intros z t. rewrite o_run_manual_g. apply g_manual_no_commit; [apply o_step_keeps_zone|apply o_exit_rollback_keeps].
Qed.

Theorem o_ended_refuses c o z (t : txn (S:=over)) : t_ended t = true -> o_step c o z t = Lib eAlreadyEnded.
Proof.
  intros He. destruct o; cbn [o_step]; unfold o_write, o_update_serial, o_end; rewrite He; reflexivity.
Qed.
