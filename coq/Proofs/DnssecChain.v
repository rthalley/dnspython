(* sign_zone -> _sign_zone_nsec: the NSEC chain and the set of signed RRsets equal the reference
   (RFC 4035 2.2/2.3): every authoritative name exactly once, in canonical order, next = canonical
   successor, the last one wraps to the origin, names beneath delegations are skipped, exact bitmaps. *)
From Coq Require Import Permutation Sorted.
From DV Require Import Base.Prelude Model.NameM Model.DnssecM Proofs.ListFacts.
From DV Require Import Proofs.NameOrder Proofs.NameValid Proofs.NameRel Proofs.DnssecRef Proofs.DnssecSort
     Proofs.DnssecBitmap Proofs.DnssecOrder.
Open Scope Z_scope.

Fixpoint chain_pairs (present : name -> list Z) (l : list name) : list (name * name * list Z) :=
  match l with
  | a :: ((b :: _) as r) => (a, b, present a) :: chain_pairs present r
  | _ => []
  end.

Lemma chain_pairs_snoc present : forall l m n,
  chain_pairs present ((l ++ [m]) ++ [n]) = chain_pairs present (l ++ [m]) ++ [(m, n, present m)].
Proof.
  induction l as [|a l IH]; intros m n; [reflexivity|].
  cbn [app]. destruct l as [|b l]; [reflexivity|].
  cbn [app chain_pairs] in *. f_equal. apply (IH m n).
Qed.

Lemma rfc_chain_pairs origin apex nodes : forall l m,
  rfc_chain origin apex nodes (l ++ [m])
  = chain_pairs (rfc_present_types apex nodes) (l ++ [m]) ++ [(m, origin, rfc_present_types apex nodes m)].
Proof.
  induction l as [|a l IH]; intros m; [reflexivity|].
  cbn [app rfc_chain]. rewrite IH. destruct l as [|b l]; reflexivity.
Qed.

Lemma nsec_calls_app a b : nsec_calls (a ++ b) = nsec_calls a ++ nsec_calls b.
Proof. unfold nsec_calls. apply flat_map_app. Qed.
Lemma rr_calls_app a b : rr_calls (a ++ b) = rr_calls a ++ rr_calls b.
Proof. unfold rr_calls. apply flat_map_app. Qed.

Lemma filter_snoc {A} (p : A -> bool) l x :
  filter p (l ++ [x]) = if p x then filter p l ++ [x] else filter p l.
Proof. rewrite filter_app. cbn [filter]. destruct (p x); [reflexivity|apply app_nil_r]. Qed.

Lemma name_eqb_diff_abs a b : is_absolute a <> is_absolute b -> name_eqb a b = false.
Proof.
  intros H. destruct (name_eqb a b) eqn:E; [|reflexivity].
  apply name_eqb_iff_ci in E. apply ci_equal_absolute in E. contradiction.
Qed.

Lemma name_eqb_nil n : name_eqb n [] = match n with [] => true | _ => false end.
Proof.
  destruct n as [|l n]; [apply name_eqb_iff_ci; reflexivity|].
  destruct (name_eqb (l :: n) []) eqn:E; [|reflexivity].
  apply name_eqb_iff_ci in E. discriminate.
Qed.

Section Chain.
  Variables (origin apex : name) (relativize : bool) (nodes : list znode) (sorted : list name) (ab : bool).

  Notation types_at := (types_at nodes).
  Notation cut := (rfc_cut apex nodes).
  Notation occl := (rfc_occluded apex nodes sorted).
  Notation present := (rfc_present_types apex nodes).
  Definition pkeep (n : name) : bool := negb (occl n).

  Hypothesis Hdist : ci_distinct sorted.
  Hypothesis Habs : Forall (fun n => is_absolute n = ab) sorted.
  Hypothesis Hsorted : StronglySorted name_le sorted.
  Hypothesis Horigin : is_absolute origin = true.
  Hypothesis Hform : (ab = true /\ apex = origin /\ relativize = false)
                     \/ (ab = false /\ apex = [] /\ relativize = true).
  Hypothesis Htypes : forall n, In n sorted ->
      types_at n <> [] /\ Forall (fun t => 1 <= t <= 65535) (types_at n).

  (* what the loop's delegation variable amounts to *)
  Definition raw_cut (n : name) : bool := has_type (types_at n) tNS && negb (name_eqb n origin).
  Definition deleg_of (n : name) : option name := if raw_cut n then Some n else None.

  Lemma abs_of n : In n sorted -> is_absolute n = ab.
  Proof. intros H. rewrite Forall_forall in Habs. now apply Habs. Qed.

  Lemma truthy_deleg n : In n sorted -> truthy (deleg_of n) = cut n.
  Proof.
    intros Hn. unfold deleg_of, raw_cut, rfc_cut. pose proof (abs_of n Hn) as Ea.
    destruct Hform as [(-> & -> & _)|(-> & -> & _)].
    - destruct (has_type (types_at n) tNS && negb (name_eqb n origin)); [|reflexivity].
      destruct n; [discriminate|reflexivity].
    - rewrite (name_eqb_diff_abs n origin) by congruence. rewrite name_eqb_nil.
      destruct (has_type (types_at n) tNS); destruct n; reflexivity.
  Qed.

  Lemma deleg_subdomain n x : In n sorted ->
    (match deleg_of n with Some (y :: d) => is_subdomain x (y :: d) | _ => false end)
    = cut n && is_subdomain x n.
  Proof.
    intros Hn. rewrite <- (truthy_deleg n Hn). unfold deleg_of.
    destruct (raw_cut n); [|reflexivity]. destruct n; reflexivity.
  Qed.

  Lemma get_node_types n : In n sorted -> exists t ts, get_node nodes n = Some (t :: ts) /\ types_at n = t :: ts.
  Proof.
    intros Hn. destruct (Htypes n Hn) as [Hne _]. unfold DnssecRef.types_at in *.
    destruct (get_node nodes n) as [[|t ts]|]; try congruence. eauto.
  Qed.

  Lemma occluded_iff n :
    occl n = true <->
    exists c, In c sorted /\ cut c = true /\ name_eqb c n = false /\ is_subdomain n c = true.
  Proof.
    unfold rfc_occluded. rewrite existsb_exists. split.
    - intros (c & Hc & Hp). rewrite !andb_true_iff, negb_true_iff in Hp. exists c. tauto.
    - intros (c & Hc & H1 & H2 & H3). exists c. now rewrite H1, H2, H3.
  Qed.

  (* an occluder is a proper ancestor, so it comes earlier in the canonical order *)
  Lemma occluder_before pre n suf c :
    sorted = pre ++ n :: suf -> In c sorted -> name_eqb c n = false -> is_subdomain n c = true -> In c pre.
  Proof.
    intros E Hc Hne Hs. pose proof (proper_ancestor_lt _ _ Hs Hne) as Hlt.
    rewrite E in Hc. apply in_app_or in Hc as [Hc|Hc]; [exact Hc|exfalso].
    assert (Hs' := Hsorted). rewrite E in Hs'. apply StronglySorted_app in Hs' as (_ & S2 & _).
    apply StronglySorted_inv in S2 as [_ Hall].
    destruct Hc as [<-|Hc]; [rewrite order_refl in Hlt; lia|].
    rewrite Forall_forall in Hall. specialize (Hall _ Hc). unfold name_le in Hall.
    apply order_antisym_lt in Hlt. lia.
  Qed.

  Lemma distinct_neq pre n suf x : sorted = pre ++ n :: suf -> In x pre -> name_eqb x n = false.
  Proof.
    intros E Hx. destruct (name_eqb x n) eqn:Eq; [|reflexivity]. exfalso.
    apply name_eqb_iff_ci in Eq. destruct Hdist as [N D].
    assert (x = n) by (apply D; [rewrite E; apply in_or_app; now left|rewrite E; apply in_elt|exact Eq]).
    subst x. rewrite E in N. apply NoDup_remove_2 in N. apply N. apply in_or_app. now left.
  Qed.

  Lemma first_not_occluded n suf : sorted = n :: suf -> occl n = false.
  Proof.
    intros E. apply not_true_is_false. intros H. apply occluded_iff in H as (c & Hc & _ & Hne & Hs).
    exact (occluder_before [] n suf c E Hc Hne Hs).
  Qed.

  (* state of the loop after the names `pre`: m is the last name kept, `after` the names skipped since
     (all below the cut m) *)
  Inductive SInv (pre : list name) (s : sst) : Prop :=
  | SInv_intro (pre1 : list name) (m : name) (after : list name)
      (si_split : pre = pre1 ++ m :: after)
      (si_keep_m : pkeep m = true)
      (si_kept : filter pkeep pre = filter pkeep pre1 ++ [m])
      (si_after_below : Forall (fun x => cut m && is_subdomain x m = true) after)
      (si_last : s_last s = Some m)
      (si_deleg : s_deleg s = deleg_of m)
      (si_last_deleg : s_last_deleg s = cut m)
      (si_rr : rr_calls (s_calls s) = rfc_signed apex nodes (filter pkeep pre))
      (si_nsec : Forall2 nsec_matches (nsec_calls (s_calls s)) (chain_pairs present (filter pkeep pre))).

  (* the loop's skip test is the reference's "below a zone cut" *)
  Lemma skip_iff pre s n suf :
    sorted = pre ++ n :: suf -> SInv pre s ->
    (match s_deleg s with Some (x :: d) => is_subdomain n (x :: d) | _ => false end) = occl n.
  Proof.
    intros E I. destruct I as [pre1 m after Esp Km _ Ab Hl Hd Hld _ _].
    assert (Hm_in : In m sorted) by (rewrite E, Esp; apply in_or_app; left; apply in_elt).
    rewrite Hd, (deleg_subdomain m n Hm_in).
    destruct (cut m && is_subdomain n m) eqn:Em; symmetry.
    - (* model skips -> occluded by m *)
      apply andb_true_iff in Em as [Ec Es]. apply occluded_iff. exists m. repeat split; auto.
      apply (distinct_neq pre n suf m E). rewrite Esp. apply in_elt.
    - (* model does not skip -> not occluded *)
      apply not_true_is_false. intros H. apply occluded_iff in H as (c & Hc & Hcut & Hne & Hs).
      pose proof (occluder_before pre n suf c E Hc Hne Hs) as Hcp.
      rewrite Esp in Hcp. apply in_app_or in Hcp as [Hc1|[<-|Hca]].
      + (* c before m: then m itself would be occluded *)
        assert (Hs_all := Hsorted). rewrite E, Esp, <- app_assoc in Hs_all. cbn [app] in Hs_all.
        apply StronglySorted_app in Hs_all as (_ & S2 & C1).
        assert (Lcm : name_le c m) by (apply C1; [exact Hc1|now left]).
        apply StronglySorted_inv in S2 as [_ Hm_all]. rewrite Forall_forall in Hm_all.
        assert (Lmn : name_le m n) by apply Hm_all, in_elt.
        assert (Hsm : is_subdomain m c = true)
          by (apply (subtree_contiguous c m n); auto; rewrite !abs_of; auto; rewrite E; apply in_elt).
        assert (Hcm : name_eqb c m = false).
        { apply (distinct_neq pre1 m (after ++ n :: suf)); [|exact Hc1]. now rewrite E, Esp, <- app_assoc. }
        unfold pkeep in Km. apply negb_true_iff in Km.
        assert (occl m = true) by (apply occluded_iff; exists c; auto). congruence.
      + (* c = m *)
        rewrite Hcut, Hs in Em. discriminate.
      + (* c after m: c is below the cut m *)
        rewrite Forall_forall in Ab. apply Ab in Hca. apply andb_true_iff in Hca as [Cm Sm].
        rewrite Cm, (is_subdomain_trans _ _ _ Hs Sm) in Em. discriminate.
  Qed.

  (* what one visited name contributes *)
  Lemma sign_rrsets_calls (n : name) (d : option name) (ts : list Z) :
    rr_calls (sign_rrsets n ts d) =
      map (pair n) (filter (fun t => negb (t =? tRRSIG) && (negb (truthy d) || (t =? tDS))) ts)
    /\ nsec_calls (sign_rrsets n ts d) = [].
  Proof.
    induction ts as [|t ts [IH1 IH2]]; [split; reflexivity|].
    unfold sign_rrsets in *. cbn [flat_map filter].
    rewrite rr_calls_app, nsec_calls_app, IH1, IH2.
    destruct (t =? tRRSIG); cbn [negb andb]; [split; reflexivity|].
    destruct (truthy d); cbn [negb andb orb].
    - destruct (t =? tDS); cbn [negb]; split; reflexivity.
    - split; reflexivity.
  Qed.

  Lemma rr_calls_sign n : In n sorted ->
    rr_calls (sign_rrsets n (types_at n) (deleg_of n)) = rfc_signed apex nodes [n]
    /\ nsec_calls (sign_rrsets n (types_at n) (deleg_of n)) = [].
  Proof.
    intros Hn. destruct (sign_rrsets_calls n (deleg_of n) (types_at n)) as [H1 H2].
    split; [|exact H2]. rewrite H1. unfold rfc_signed. cbn [flat_map]. rewrite app_nil_r.
    now rewrite (truthy_deleg n Hn).
  Qed.

  Lemma add_nsec_ok m nx :
    In m sorted -> nx <> [] ->
    exists ws, add_nsec nodes m nx (cut m) = Ok [SignNSEC m nx ws]
               /\ nsec_matches (m, nx, ws) (m, nx, present m).
  Proof.
    intros Hm Hnx. destruct (get_node_types m Hm) as (t & ts & Eg & Et).
    destruct (Htypes m Hm) as [_ Hr]. rewrite Et in Hr.
    unfold add_nsec. rewrite Eg. destruct nx as [|x nx]; [congruence|].
    set (tys := (if cut m then filter (fun x0 => (x0 =? tNS) || (x0 =? tDS)) (t :: ts) else t :: ts) ++ [tRRSIG; tNSEC]).
    assert (Hrange : Forall (fun u => 0 <= u <= 65535) tys).
    { unfold tys. apply Forall_app. split.
      - assert (F : Forall (fun u => 0 <= u <= 65535) (t :: ts)) by (eapply Forall_impl; [|exact Hr]; cbn; intros; lia).
        destruct (cut m); [|exact F]. apply Forall_forall. intros u Hu. apply filter_In in Hu as [Hu _].
        rewrite Forall_forall in F. now apply F.
      - repeat constructor; unfold tRRSIG, tNSEC; lia. }
    destruct (from_rdtypes_members tys Hrange) as (ws & Ews & Wf & Si & Mem).
    exists ws. fold tys. rewrite Ews. cbn [bind]. split; [reflexivity|].
    assert (Ep : present m = tys) by (unfold rfc_present_types, tys; now rewrite Et).
    unfold nsec_matches, is_type_set. cbn [fst snd]. rewrite Ep.
    split; [reflexivity|]. split; [reflexivity|]. split; [exact Wf|]. split; [exact Si|exact Mem].
  Qed.

  Lemma rfc_signed_app a b : rfc_signed apex nodes (a ++ b) = rfc_signed apex nodes a ++ rfc_signed apex nodes b.
  Proof. unfold rfc_signed. apply flat_map_app. Qed.

  Definition sst_init : sst := {| s_deleg := None; s_last := None; s_last_deleg := false; s_calls := [] |}.

  Lemma sz_step_first n suf :
    sorted = n :: suf -> exists s', sz_step nodes origin sst_init n = Ok s' /\ SInv [n] s'.
  Proof.
    intros E. assert (Hn : In n sorted) by (rewrite E; now left).
    unfold sz_step, sst_init. cbn [s_deleg s_last s_last_deleg s_calls bind app].
    fold (types_at n). change (if has_type (types_at n) tNS && negb (name_eqb n origin) then Some n else None) with (deleg_of n).
    eexists. split; [reflexivity|].
    destruct (rr_calls_sign n Hn) as [R1 R2].
    assert (Kn : pkeep n = true) by (unfold pkeep; now rewrite (first_not_occluded n suf E)).
    apply (SInv_intro [n] _ [] n []); cbn [s_deleg s_last s_last_deleg s_calls]; auto.
    - cbn [filter]. now rewrite Kn.
    - apply truthy_deleg; exact Hn.
    - rewrite app_nil_r. cbn [filter]. rewrite Kn. exact R1.
    - rewrite app_nil_r, R2. cbn [filter]. rewrite Kn. constructor.
  Qed.

  Lemma later_nonempty pre n suf : sorted = pre ++ n :: suf -> pre <> [] -> n <> [].
  Proof.
    intros E Hp ->. destruct pre as [|x pre]; [congruence|].
    assert (Hx : In x sorted) by (rewrite E; now left).
    assert (Hn : In [] sorted) by (rewrite E; apply in_elt).
    assert (Eab : ab = false) by (rewrite <- (abs_of [] Hn); reflexivity).
    assert (Hs' := Hsorted). rewrite E in Hs'. cbn [app] in Hs'. apply StronglySorted_inv in Hs' as [_ Hall].
    rewrite Forall_forall in Hall. specialize (Hall [] (in_elt _ _ _)).
    apply name_le_nil in Hall; [|rewrite (abs_of x Hx); exact Eab]. subst x.
    pose proof (distinct_neq ([] :: pre) [] suf [] E ltac:(now left)) as Hne.
    rewrite name_eqb_nil in Hne. discriminate.
  Qed.

  Lemma sz_step_inv pre s n suf :
    sorted = pre ++ n :: suf -> pre <> [] -> SInv pre s ->
    exists s', sz_step nodes origin s n = Ok s' /\ SInv (pre ++ [n]) s'.
  Proof.
    intros E Hp I. pose proof (skip_iff pre s n suf E I) as Hskip.
    assert (Hn : In n sorted) by (rewrite E; apply in_elt).
    destruct I as [pre1 m after Esp Km Hf Ab Hl Hd Hld Hrr Hns].
    assert (Hm : In m sorted) by (rewrite E, Esp; apply in_or_app; left; apply in_elt).
    unfold sz_step. rewrite Hskip. destruct (occl n) eqn:Eo.
    - (* beneath a delegation: continue *)
      exists s. split; [reflexivity|].
      assert (Hsub : cut m && is_subdomain n m = true) by (rewrite <- (deleg_subdomain m n Hm), <- Hd; exact Hskip).
      assert (Kn : pkeep n = false) by (unfold pkeep; now rewrite Eo).
      apply (SInv_intro _ _ pre1 m (after ++ [n])); auto.
      + rewrite Esp, <- app_assoc. reflexivity.
      + now rewrite filter_snoc, Kn.
      + apply Forall_app. split; [exact Ab|constructor; [exact Hsub|constructor]].
      + now rewrite filter_snoc, Kn.
      + now rewrite filter_snoc, Kn.
    - (* an authoritative name *)
      fold (types_at n). change (if has_type (types_at n) tNS && negb (name_eqb n origin) then Some n else None) with (deleg_of n).
      rewrite Hl, Hld.
      destruct (add_nsec_ok m n Hm (later_nonempty pre n suf E Hp)) as (ws & Ea & Mt).
      rewrite Ea. cbn [bind]. eexists. split; [reflexivity|].
      destruct (rr_calls_sign n Hn) as [R1 R2].
      assert (Kn : pkeep n = true) by (unfold pkeep; now rewrite Eo).
      apply (SInv_intro _ _ pre n []); cbn [s_deleg s_last s_last_deleg s_calls]; auto.
      + now rewrite filter_snoc, Kn.
      + apply truthy_deleg; exact Hn.
      + rewrite !rr_calls_app, Hrr, R1. cbn [rr_calls flat_map app]. rewrite app_nil_r.
        now rewrite filter_snoc, Kn, rfc_signed_app.
      + rewrite !nsec_calls_app, R2. cbn [nsec_calls flat_map app].
        rewrite filter_snoc, Kn, Hf, chain_pairs_snoc.
        apply Forall2_app; [rewrite <- Hf; exact Hns|]. constructor; [exact Mt|constructor].
  Qed.

  Lemma sz_loop_inv : forall suf pre s,
    sorted = pre ++ suf -> pre <> [] -> SInv pre s ->
    exists s', sz_loop nodes origin s suf = Ok s' /\ SInv sorted s'.
  Proof.
    induction suf as [|n suf IH]; intros pre s E Hp I.
    - rewrite app_nil_r in E. subst pre. exists s. split; [reflexivity|exact I].
    - destruct (sz_step_inv pre s n suf E Hp I) as (s1 & E1 & I1).
      cbn [sz_loop]. rewrite E1. cbn [bind].
      apply (IH (pre ++ [n]) s1); [rewrite <- app_assoc; exact E|destruct pre; discriminate|exact I1].
  Qed.

  Hypothesis Hsoa : has_type (types_at apex) tSOA = true.
  Hypothesis Hperm : Permutation (map fst nodes) sorted.

  Lemma has_soa_apex : has_soa origin relativize nodes = has_type (types_at apex) tSOA.
  Proof.
    unfold has_soa, DnssecRef.types_at.
    destruct Hform as [(_ & -> & ->)|(_ & -> & ->)]; now destruct (get_node _ _).
  Qed.

  Lemma sorted_cons : exists n0 suf0, sorted = n0 :: suf0.
  Proof.
    destruct sorted as [|n0 suf0] eqn:Es; [|eauto]. exfalso.
    apply Permutation_sym, Permutation_nil in Hperm.
    unfold DnssecRef.types_at in Hsoa. destruct nodes; [cbn in Hsoa; discriminate|discriminate].
  Qed.

  Lemma sz_loop_all : exists s', sz_loop nodes origin sst_init sorted = Ok s' /\ SInv sorted s'.
  Proof.
    destruct sorted_cons as (n0 & suf0 & Es).
    destruct (sz_step_first n0 suf0 Es) as (s1 & E1 & I1).
    destruct (sz_loop_inv suf0 [n0] s1 Es ltac:(discriminate) I1) as (s' & El & I).
    exists s'. split; [|exact I]. rewrite Es. cbn [sz_loop]. rewrite E1. cbn [bind]. exact El.
  Qed.

  Theorem sign_zone_nsec_eq_rfc :
    exists calls, sign_zone_nsec origin relativize nodes = Ok calls
      /\ rr_calls calls = rfc_signed apex nodes (rfc_secure apex nodes sorted)
      /\ Forall2 nsec_matches (nsec_calls calls) (rfc_chain origin apex nodes (rfc_secure apex nodes sorted)).
  Proof.
    unfold sign_zone_nsec. rewrite has_soa_apex, Hsoa. cbn [negb].
    assert (Hsn : sort_names (map fst nodes) = sorted).
    { symmetry. apply sorted_names_unique; auto using sort_names_sorted.
      rewrite <- Hperm. apply sort_names_perm. }
    rewrite Hsn. fold sst_init.
    destruct sz_loop_all as (s' & El & I). rewrite El. cbn [bind].
    destruct I as [pre1 m after Esp Km Hf Ab Hl Hd Hld Hrr Hns].
    assert (Hm : In m sorted) by (rewrite Esp; apply in_elt).
    rewrite Hl, Hld.
    assert (Ho : origin <> []) by (intros Eo; rewrite Eo in Horigin; discriminate).
    destruct (add_nsec_ok m origin Hm Ho) as (ws & Ea & Mt).
    rewrite Ea. cbn [bind]. eexists. split; [reflexivity|].
    unfold rfc_secure.
    change (filter (fun n => negb (occl n)) sorted) with (filter pkeep sorted).
    split.
    - rewrite rr_calls_app, Hrr. cbn. now rewrite app_nil_r.
    - rewrite nsec_calls_app. cbn [nsec_calls flat_map app].
      rewrite Hf, rfc_chain_pairs. apply Forall2_app; [rewrite <- Hf; exact Hns|].
      constructor; [exact Mt|constructor].
  Qed.
End Chain.

(* the chain visits exactly the names it is given, in that order, each once *)
Lemma rfc_chain_owners origin apex nodes : forall l,
  map (fun e => fst (fst e)) (rfc_chain origin apex nodes l) = l.
Proof. induction l as [|a l IH]; cbn [rfc_chain map fst]; [reflexivity|]. now rewrite IH. Qed.

(* the last entry wraps to the origin, every other entry points to the following owner *)
Lemma rfc_chain_next origin apex nodes : forall l,
  map (fun e => snd (fst e)) (rfc_chain origin apex nodes l) = match l with [] => [] | _ :: r => r ++ [origin] end.
Proof.
  induction l as [|a l IH]; [reflexivity|]. cbn [rfc_chain map fst snd]. rewrite IH.
  destruct l; reflexivity.
Qed.

Lemma Forall2_owners got ref :
  Forall2 nsec_matches got ref ->
  map (fun e => fst (fst e)) got = map (fun e => fst (fst e)) ref
  /\ map (fun e => snd (fst e)) got = map (fun e => snd (fst e)) ref.
Proof.
  induction 1 as [|g r gs rs (H1 & H2 & _) _ [IH1 IH2]]; [split; reflexivity|].
  cbn [map]. rewrite H1, H2, IH1, IH2. split; reflexivity.
Qed.

Theorem nsec_owners_exact origin apex relativize nodes sorted ab :
  ci_distinct sorted ->
  Forall (fun n => is_absolute n = ab) sorted ->
  StronglySorted name_le sorted ->
  is_absolute origin = true ->
  (ab = true /\ apex = origin /\ relativize = false) \/ (ab = false /\ apex = [] /\ relativize = true) ->
  (forall n, In n sorted ->
     types_at nodes n <> [] /\ Forall (fun t => 1 <= t <= 65535) (types_at nodes n)) ->
  has_type (types_at nodes apex) tSOA = true ->
  Permutation (map fst nodes) sorted ->
  exists calls, sign_zone_nsec origin relativize nodes = Ok calls /\
    let owners := map (fun e => fst (fst e)) (nsec_calls calls) in
    let nexts := map (fun e => snd (fst e)) (nsec_calls calls) in
    (* exactly the names that are not beneath a zone cut, each once, in canonical order *)
    owners = rfc_secure apex nodes sorted /\ NoDup owners /\ StronglySorted name_le owners /\
    (forall n, In n owners <-> In n sorted /\ rfc_occluded apex nodes sorted n = false) /\
    (* next = the following owner; the last one wraps to the origin *)
    nexts = match owners with [] => [] | _ :: r => r ++ [origin] end.
Proof.
  intros Hd Ha Hs Ho Hf Ht Hsoa Hp.
  destruct (sign_zone_nsec_eq_rfc origin apex relativize nodes sorted ab Hd Ha Hs Ho Hf Ht Hsoa Hp)
    as (calls & E & _ & F2).
  exists calls. split; [exact E|]. cbv zeta.
  destruct (Forall2_owners _ _ F2) as [Eo En]. rewrite Eo, En, rfc_chain_owners, rfc_chain_next.
  unfold rfc_secure. split; [reflexivity|]. split; [apply NoDup_filter; apply Hd|].
  split; [now apply sorted_filter|]. split; [|reflexivity].
  intros n. rewrite filter_In, negb_true_iff. tauto.
Qed.
