(* C17 - lemmas about the insertion-ordered dict (dget/dset/ddel) and the list-level LRU
   specification (afind/aremove/atrim), plus the zipped (node id, entry) lists used by the
   refinement relation. *)
From DV Require Import Base.Prelude Model.CacheM Proofs.ListFacts.

Section Dict.
Context {V : Type}.
Implicit Types d : list (Z * V).

Lemma dget_dset : forall d k v k', dget (dset d k v) k' = if k =? k' then Some v else dget d k'.
Proof.
  induction d as [|[x w] d IH]; intros k v k'; cbn.
  - destruct (k =? k'); reflexivity.
  - destruct (x =? k) eqn:E1; cbn.
    + apply Z.eqb_eq in E1; subst x. destruct (k =? k'); reflexivity.
    + rewrite IH. destruct (x =? k') eqn:E2; [|reflexivity].
      apply Z.eqb_eq in E2; subst x. rewrite Z.eqb_sym, E1. reflexivity.
Qed.

Lemma dget_in : forall d k, dget d k <> None <-> In k (dkeys d).
Proof.
  unfold dkeys. induction d as [|[x w] d IH]; intros k; cbn.
  - split; [congruence|tauto].
  - destruct (x =? k) eqn:E.
    + apply Z.eqb_eq in E. split; [auto|discriminate].
    + apply Z.eqb_neq in E. rewrite IH. split; [auto|]. intros [H|H]; [congruence|auto].
Qed.

Lemma dget_none_notin : forall d k, dget d k = None -> ~ In k (dkeys d).
Proof. intros d k H Hin. apply dget_in in Hin. congruence. Qed.

Lemma dkeys_dset : forall d k v x, In x (dkeys (dset d k v)) <-> x = k \/ In x (dkeys d).
Proof.
  unfold dkeys. induction d as [|[y w] d IH]; intros k v x; cbn.
  - split; [intros [<-|[]]; auto|intros [->|[]]; auto].
  - destruct (Z.eqb_spec y k) as [->|E]; cbn; [|rewrite IH; split; intros [H|[H|H]]; auto].
    split; [intros [<-|H]|intros [->|H]]; auto.
Qed.

Lemma nodup_dset : forall d k v, NoDup (dkeys d) -> NoDup (dkeys (dset d k v)).
Proof.
  pose proof dkeys_dset as DK. unfold dkeys in *.
  induction d as [|[y w] d IH]; intros k v H; cbn.
  - constructor; [tauto|constructor].
  - cbn in H. apply NoDup_cons_iff in H. destruct H as [H1 H2].
    destruct (y =? k) eqn:E; cbn.
    + apply Z.eqb_eq in E; subst y. constructor; auto.
    + apply Z.eqb_neq in E. constructor; [|apply IH; auto].
      rewrite DK. intros [->|H]; [congruence|auto].
Qed.

Lemma length_dset_new : forall d k v, dget d k = None -> length (dset d k v) = S (length d).
Proof.
  induction d as [|[y w] d IH]; intros k v H; cbn in *; [reflexivity|].
  destruct (y =? k); [discriminate|]. cbn. rewrite IH; auto.
Qed.

Lemma ddel_some : forall d k v, dget d k = Some v -> exists d', ddel d k = Some d'.
Proof.
  induction d as [|[y w] d IH]; intros k v H; cbn in *; [discriminate|].
  destruct (y =? k); [eauto|]. destruct (IH _ _ H) as [d' ->]. eauto.
Qed.

Lemma ddel_none : forall d k, dget d k = None -> ddel d k = None.
Proof.
  induction d as [|[y w] d IH]; intros k H; cbn in *; [reflexivity|].
  destruct (y =? k); [discriminate|]. rewrite IH; auto.
Qed.

Lemma ddel_spec : forall d k d', ddel d k = Some d' -> NoDup (dkeys d) ->
  (forall k', dget d' k' = if k =? k' then None else dget d k') /\
  NoDup (dkeys d') /\ length d = S (length d') /\ (forall x, In x (dkeys d') -> In x (dkeys d)).
Proof.
  pose proof dget_in as DI. unfold dkeys in *.
  induction d as [|[y w] d IH]; intros k d' H Hnd; cbn in *; [discriminate|].
  apply NoDup_cons_iff in Hnd. destruct Hnd as [Hy Hnd].
  destruct (Z.eqb_spec y k) as [->|E].
  - injection H as <-. repeat split; auto.
    intros k'. destruct (Z.eqb_spec k k') as [<-|]; [|reflexivity].
    destruct (dget d k) eqn:E3; [|reflexivity]. exfalso. apply Hy, DI. congruence.
  - destruct (ddel d k) as [r|] eqn:Er; [|discriminate]. injection H as <-.
    destruct (IH _ _ Er Hnd) as (A & B & C & D). cbn. repeat split.
    + intros k'. rewrite A. destruct (Z.eqb_spec y k') as [<-|]; [|reflexivity].
      destruct (Z.eqb_spec k y); [congruence|reflexivity].
    + constructor; auto.
    + congruence.
    + intros x [->|Hx]; auto.
Qed.
End Dict.

Definition zent := (nat * aent)%type.
Definition zkey (z : zent) : Z := e_key (snd z).

Fixpoint zfind (k : Z) (zs : list zent) : option zent :=
  match zs with
  | [] => None
  | z :: r => if zkey z =? k then Some z else zfind k r
  end.

Lemma afind_zfind : forall zs k, afind (map snd zs) k = option_map snd (zfind k zs).
Proof.
  induction zs as [|z zs IH]; intros k; cbn; [reflexivity|].
  unfold zkey. destruct (e_key (snd z) =? k); [reflexivity|apply IH].
Qed.

Lemma zfind_split : forall zs k z, zfind k zs = Some z ->
  exists z1 z2, zs = z1 ++ z :: z2 /\ zkey z = k /\ zfind k z1 = None.
Proof.
  induction zs as [|y zs IH]; intros k z H; cbn in H; [discriminate|].
  destruct (zkey y =? k) eqn:E.
  - inversion H; subst y. exists [], zs. apply Z.eqb_eq in E. auto.
  - destruct (IH _ _ H) as [z1 [z2 [-> [A B]]]]. exists (y :: z1), z2. cbn. rewrite E. auto.
Qed.

Lemma zfind_none_notin : forall zs k, zfind k zs = None <-> ~ In k (map zkey zs).
Proof.
  induction zs as [|y zs IH]; intros k; cbn; [tauto|].
  destruct (zkey y =? k) eqn:E.
  - apply Z.eqb_eq in E. split; [discriminate|tauto].
  - apply Z.eqb_neq in E. rewrite IH. tauto.
Qed.

Lemma zfind_app_none : forall z1 z2 k, zfind k z1 = None -> zfind k (z1 ++ z2) = zfind k z2.
Proof.
  induction z1 as [|y z1 IH]; intros z2 k H; cbn in *; [reflexivity|].
  destruct (zkey y =? k); [discriminate|auto].
Qed.

Lemma zfind_app_some : forall z1 z2 k z, zfind k z1 = Some z -> zfind k (z1 ++ z2) = Some z.
Proof.
  induction z1 as [|y z1 IH]; intros z2 k z H; cbn in *; [discriminate|].
  destruct (zkey y =? k); auto.
Qed.

Lemma zfind_remove : forall z1 z z2 k',
  NoDup (map zkey (z1 ++ z :: z2)) ->
  zfind k' (z1 ++ z2) = if zkey z =? k' then None else zfind k' (z1 ++ z :: z2).
Proof.
  intros z1 z z2 k' Hnd.
  rewrite map_app in Hnd. cbn in Hnd.
  destruct (zkey z =? k') eqn:E.
  - apply Z.eqb_eq in E. subst k'. apply NoDup_remove_2 in Hnd.
    apply zfind_none_notin. rewrite map_app. exact Hnd.
  - destruct (zfind k' z1) as [w|] eqn:E1.
    + rewrite !(zfind_app_some _ _ _ _ E1). reflexivity.
    + rewrite !zfind_app_none by auto. cbn. rewrite E. reflexivity.
Qed.

Lemma aremove_split : forall z1 z z2,
  zfind (zkey z) z1 = None ->
  aremove (map snd (z1 ++ z :: z2)) (zkey z) = map snd (z1 ++ z2).
Proof.
  induction z1 as [|y z1 IH]; intros z z2 H; cbn in *.
  - unfold zkey. rewrite Z.eqb_refl. reflexivity.
  - fold (zkey y). destruct (zkey y =? zkey z) eqn:E; [discriminate|]. rewrite IH; auto.
Qed.

Lemma aremove_absent : forall l k, afind l k = None -> aremove l k = l.
Proof.
  induction l as [|e l IH]; intros k H; cbn in *; [reflexivity|].
  destruct (e_key e =? k); [discriminate|]. rewrite IH; auto.
Qed.

Definition akeys (l : list aent) : list Z := map e_key l.

Lemma akeys_aremove_incl : forall l k x, In x (akeys (aremove l k)) -> In x (akeys l).
Proof.
  induction l as [|e l IH]; intros k x H; cbn in *; [auto|].
  destruct (e_key e =? k); cbn in *; [auto|]. destruct H; eauto.
Qed.

Lemma nodup_aremove : forall l k, NoDup (akeys l) -> NoDup (akeys (aremove l k)).
Proof.
  induction l as [|e l IH]; intros k H; cbn in *; [constructor|].
  apply NoDup_cons_iff in H. destruct H as [H1 H2].
  destruct (e_key e =? k); [auto|]. cbn. constructor; [|auto].
  intros Hin. apply H1. eapply akeys_aremove_incl; eauto.
Qed.

Lemma aremove_notin : forall l k, NoDup (akeys l) -> ~ In k (akeys (aremove l k)).
Proof.
  induction l as [|e l IH]; intros k H; cbn in *; [tauto|].
  apply NoDup_cons_iff in H. destruct H as [H1 H2].
  destruct (e_key e =? k) eqn:E.
  - apply Z.eqb_eq in E; subst k. auto.
  - apply Z.eqb_neq in E. cbn. intros [H|H]; [auto|]. eapply IH; eauto.
Qed.

Lemma afind_in : forall l k, afind l k <> None <-> In k (akeys l).
Proof.
  induction l as [|e l IH]; intros k; cbn; [split; [congruence|tauto]|].
  destruct (e_key e =? k) eqn:E.
  - apply Z.eqb_eq in E. split; [auto|discriminate].
  - apply Z.eqb_neq in E. rewrite IH. split; [auto|]. intros [H|H]; [congruence|auto].
Qed.

Lemma afind_key : forall l k e, afind l k = Some e -> e_key e = k /\ In e l.
Proof.
  induction l as [|x l IH]; intros k e H; cbn in *; [discriminate|].
  destruct (e_key x =? k) eqn:E.
  - inversion H; subst. apply Z.eqb_eq in E. auto.
  - destruct (IH _ _ H); auto.
Qed.

Lemma afind_aremove : forall l k k', NoDup (akeys l) ->
  afind (aremove l k) k' = if k =? k' then None else afind l k'.
Proof.
  induction l as [|e l IH]; intros k k' H; cbn in *.
  - destruct (k =? k'); reflexivity.
  - apply NoDup_cons_iff in H. destruct H as [H1 H2].
    destruct (e_key e =? k) eqn:E.
    + apply Z.eqb_eq in E; subst k. destruct (e_key e =? k') eqn:E2; [|reflexivity].
      apply Z.eqb_eq in E2; subst k'. destruct (afind l (e_key e)) eqn:E3; [|reflexivity].
      exfalso. apply H1. apply afind_in. congruence.
    + cbn. rewrite IH by auto. destruct (e_key e =? k') eqn:E2; [|reflexivity].
      apply Z.eqb_eq in E2; subst k'. rewrite Z.eqb_sym, E. reflexivity.
Qed.

Lemma nodup_firstn : forall {A} n (l : list A), NoDup l -> NoDup (firstn n l).
Proof.
  intros A n. induction n as [|n IH]; intros l H; cbn; [constructor|].
  destruct l as [|x l]; [constructor|]. apply NoDup_cons_iff in H. destruct H as [H1 H2].
  constructor; [|auto]. intros Hin. apply H1. eapply In_firstn. exact Hin.
Qed.
