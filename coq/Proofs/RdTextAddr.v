(* Address text codecs (dns/ipv4.py, dns/ipv6.py): inet_aton (inet_ntoa a) = a for every 4 / 16
   octet string.  The per-octet facts and the zero-run search over the 256 zero patterns of eight chunks are
   finite sweeps (vm_compute); a 16-bit chunk is handled through its four hex digits; the structure (split on
   '.', ':' ; the `::` zero run; embedded IPv4) is proved by induction / case analysis. *)
From DV Require Import Base.Prelude Model.NameM Model.TokM Model.RdTextM.
From DV Require Import Proofs.ListFacts Proofs.TokEsc Proofs.TokWords Proofs.TokDec Proofs.TokHex Proofs.TokGeneric.
Open Scope Z_scope.

Definition no_sep (sep : Z) (w : list Z) : bool := forallb (fun c => negb (c =? sep)) w.

Lemma split_on_word sep w : no_sep sep w = true -> forall r cur,
  split_on sep (w ++ sep :: r) cur = (rev cur ++ w) :: split_on sep r [].
Proof.
  induction w as [|c w IH]; intros Hw r cur.
  - cbn [app split_on]. rewrite Z.eqb_refl, app_nil_r. reflexivity.
  - cbn [no_sep forallb] in Hw. apply andb_true_iff in Hw as [Hc Hw]. apply negb_true_iff in Hc.
    cbn [app split_on]. rewrite Hc. rewrite IH by exact Hw. cbn [rev]. rewrite <- app_assoc. reflexivity.
Qed.

Lemma split_on_last sep w : no_sep sep w = true -> forall cur, split_on sep w cur = [rev cur ++ w].
Proof.
  induction w as [|c w IH]; intros Hw cur.
  - cbn. rewrite app_nil_r. reflexivity.
  - cbn [no_sep forallb] in Hw. apply andb_true_iff in Hw as [Hc Hw]. apply negb_true_iff in Hc.
    cbn [split_on]. rewrite Hc. rewrite IH by exact Hw. cbn [rev]. rewrite <- app_assoc. reflexivity.
Qed.

Definition octet_ok (n : Z) : bool :=
  ipv4_part_ok (dec n) && (dec_value (dec n) 0 =? n) && no_sep 46 (dec n) && no_sep 58 (dec n) && all_ascii (dec n).

Lemma octet_ok_all : forallb octet_ok (map Z.of_nat (seq 0 256)) = true.
Proof. vm_compute. reflexivity. Qed.

Lemma octet_facts n : 0 <= n < 256 ->
  ipv4_part_ok (dec n) = true /\ dec_value (dec n) 0 = n /\ no_sep 46 (dec n) = true
  /\ no_sep 58 (dec n) = true /\ all_ascii (dec n) = true.
Proof.
  intros Hn. pose proof octet_ok_all as H. rewrite forallb_forall in H. specialize (H n).
  assert (Hin : In n (map Z.of_nat (seq 0 256))).
  { rewrite <- (Z2Nat.id n) by lia. apply in_map. apply in_seq. lia. }
  specialize (H Hin). unfold octet_ok in H.
  apply andb_true_iff in H as [H A5]. apply andb_true_iff in H as [H A4]. apply andb_true_iff in H as [H A3].
  apply andb_true_iff in H as [A1 A2]. apply Z.eqb_eq in A2. repeat split; assumption.
Qed.

Lemma all_ascii_app a b : all_ascii a = true -> all_ascii b = true -> all_ascii (a ++ b) = true.
Proof. unfold all_ascii. intros. rewrite forallb_app. apply andb_true_iff. split; assumption. Qed.

Theorem ipv4_roundtrip_b a0 a1 a2 a3 :
  0 <= a0 < 256 -> 0 <= a1 < 256 -> 0 <= a2 < 256 -> 0 <= a3 < 256 ->
  ipv4_aton_b (dec a0 ++ 46 :: dec a1 ++ 46 :: dec a2 ++ 46 :: dec a3) = Ok [a0; a1; a2; a3].
Proof.
  intros H0 H1 H2 H3.
  destruct (octet_facts a0 H0) as (P0 & V0 & D0 & _ & _). destruct (octet_facts a1 H1) as (P1 & V1 & D1 & _ & _).
  destruct (octet_facts a2 H2) as (P2 & V2 & D2 & _ & _). destruct (octet_facts a3 H3) as (P3 & V3 & D3 & _ & _).
  unfold ipv4_aton_b.
  rewrite split_on_word by exact D0. rewrite split_on_word by exact D1. rewrite split_on_word by exact D2.
  rewrite split_on_last by exact D3. cbn [rev app length Nat.eqb negb forallb map].
  rewrite P0, P1, P2, P3. cbn [andb negb]. rewrite V0, V1, V2, V3.
  replace (a0 <=? 255) with true by lia. replace (a1 <=? 255) with true by lia.
  replace (a2 <=? 255) with true by lia. replace (a3 <=? 255) with true by lia. reflexivity.
Qed.

Theorem ipv4_roundtrip a : all_bytes a = true -> length a = 4%nat ->
  exists t, ipv4_ntoa a = Ok t /\ ipv4_aton t = Ok a.
Proof.
  intros Hb Hl. destruct a as [|a0 [|a1 [|a2 [|a3 [|? ?]]]]]; try discriminate.
  cbn [all_bytes forallb] in Hb. repeat (apply andb_true_iff in Hb as [? Hb]).
  repeat match goal with H : is_byte _ = true |- _ => apply is_byte_range in H end.
  eexists. split; [reflexivity|]. unfold ipv4_aton.
  destruct (octet_facts a0 ltac:(assumption)) as (_ & _ & _ & _ & A0).
  destruct (octet_facts a1 ltac:(assumption)) as (_ & _ & _ & _ & A1).
  destruct (octet_facts a2 ltac:(assumption)) as (_ & _ & _ & _ & A2).
  destruct (octet_facts a3 ltac:(assumption)) as (_ & _ & _ & _ & A3).
  rewrite utf8_ascii.
  - cbn [bind]. apply ipv4_roundtrip_b; assumption.
  - repeat (apply all_ascii_app; [assumption|]; change (all_ascii (46 :: ?x)) with (all_ascii ([46] ++ x));
            apply all_ascii_app; [reflexivity|]). assumption.
Qed.

Lemma split_on_nonempty sep s cur : exists x r, split_on sep s cur = x :: r.
Proof. revert cur. induction s as [|c s IH]; intros cur; cbn [split_on]; [eauto|]. destruct (c =? sep); eauto. Qed.

Lemma join_split : forall s cur, join_colon (split_on 58 s cur) = rev cur ++ s.
Proof.
  induction s as [|c s IH]; intros cur.
  - cbn. rewrite app_nil_r. reflexivity.
  - cbn [split_on]. destruct (c =? 58) eqn:E.
    + apply Z.eqb_eq in E. subst c.
      destruct (split_on_nonempty 58 s []) as (x & r & Ex). specialize (IH []). rewrite Ex in *.
      change (join_colon (rev cur :: x :: r)) with (rev cur ++ 58 :: join_colon (x :: r)).
      rewrite IH. reflexivity.
    + rewrite IH. cbn [rev]. rewrite <- app_assoc. reflexivity.
Qed.

Lemma no_sep_rev sep w : no_sep sep w = true -> no_sep sep (rev w) = true.
Proof.
  unfold no_sep. rewrite !forallb_forall. intros H x Hx. apply H. apply in_rev. exact Hx.
Qed.

Lemma split_last_colon_app w c : no_sep 58 c = true ->
  split_last_colon (w ++ 58 :: c) = Some (w, c).
Proof.
  intros Hc. unfold split_last_colon. rewrite rev_app_distr. cbn [rev]. rewrite <- app_assoc. cbn [app].
  rewrite split_on_word by (apply no_sep_rev, Hc). cbn [rev app].
  destruct (split_on_nonempty 58 (rev w) []) as (x & r & E). rewrite E. rewrite <- E.
  rewrite join_split. cbn [rev app]. rewrite !rev_involutive. reflexivity.
Qed.

Lemma starts_with_cons_ne p c r : p <> c -> starts_with [p] (c :: r) = false.
Proof. intros H. unfold starts_with. cbn. replace (c =? p) with false by lia. reflexivity. Qed.

Lemma no_sep_head sep c w : no_sep sep (c :: w) = true -> c <> sep.
Proof. unfold no_sep. cbn [forallb]. intros H. apply andb_true_iff in H as [H _]. apply negb_true_iff in H. lia. Qed.

Lemma ends_with_app_ne p w c : c <> [] -> no_sep p c = true -> forall q, ends_with (q ++ [p]) (w ++ c) = false.
Proof.
  intros Hne Hc q. unfold ends_with. rewrite !rev_app_distr. cbn [rev app].
  pose proof (no_sep_rev p c Hc) as Hr. destruct (rev c) as [|x xs] eqn:E.
  - exfalso. apply Hne. rewrite <- (rev_involutive c), E. reflexivity.
  - apply no_sep_head in Hr. unfold starts_with. cbn [app length firstn zlist_eqb].
    replace (x =? p) with false by lia. reflexivity.
Qed.

Lemma canon_step c r l se : c <> [] -> (length c <= 4)%nat ->
  canon_chunks (c :: r) l se = (do rs <- canon_chunks r l se; Ok (pad4 c ++ fst rs, snd rs)).
Proof.
  intros Hne Hl. destruct c as [|x c]; [congruence|]. cbn [canon_chunks].
  replace (Nat.ltb 4 (length (x :: c))) with false by (symmetry; apply Nat.ltb_ge; exact Hl). reflexivity.
Qed.

Lemma canon_gap r l : canon_chunks ([] :: r) l false
  = (do rs <- canon_chunks r l true; Ok (concat (repeat [48; 48; 48; 48] (8 - l + 1)) ++ fst rs, snd rs)).
Proof. reflexivity. Qed.

(* IPv6: the zero-run search depends on the zero pattern only; finite sweep *)
Fixpoint zrun_loop_p (p : list bool) (i : Z) (bs bl st : Z) (lz : bool) : Z * Z * Z * bool :=
  match p with
  | [] => (bs, bl, st, lz)
  | z :: r =>
      if negb z then
        if lz then
          let cur := i - st in
          if cur >? bl then zrun_loop_p r (i + 1) st cur st false
          else zrun_loop_p r (i + 1) bs bl st false
        else zrun_loop_p r (i + 1) bs bl st lz
      else if negb lz then zrun_loop_p r (i + 1) bs bl i true
      else zrun_loop_p r (i + 1) bs bl st lz
  end.

Definition zrun_p (p : list bool) : Z * Z :=
  let '(bs, bl, st, lz) := zrun_loop_p p 0 0 0 (-1) false in
  if lz then let cur := 8 - st in if cur >? bl then (st, cur) else (bs, bl) else (bs, bl).

Lemma zrun_loop_pattern cs : forall i bs bl st lz,
  zrun_loop cs i bs bl st lz = zrun_loop_p (map is_zero_chunk cs) i bs bl st lz.
Proof.
  induction cs as [|c cs IH]; intros; [reflexivity|]. cbn [zrun_loop map zrun_loop_p].
  destruct (is_zero_chunk c); cbn [negb]; destruct lz; cbn [negb]; try apply IH.
  destruct (i - st >? bl); apply IH.
Qed.

Lemma zrun_pattern cs : zrun cs = zrun_p (map is_zero_chunk cs).
Proof. unfold zrun, zrun_p. rewrite zrun_loop_pattern. reflexivity. Qed.

Fixpoint all_bools (n : nat) : list (list bool) :=
  match n with
  | O => [[]]
  | S k => flat_map (fun t => [true :: t; false :: t]) (all_bools k)
  end.

Lemma all_bools_in p : In p (all_bools (length p)).
Proof.
  induction p as [|b p IH]; [left; reflexivity|]. cbn [length all_bools]. apply in_flat_map.
  exists p. split; [exact IH|]. destruct b; [left|right; left]; reflexivity.
Qed.

Definition zrun_good (p : list bool) : bool :=
  let '(bs, bl) := zrun_p p in
  (bl <=? 1) || ((0 <=? bs) && (2 <=? bl) && (bs + bl <=? 8)
                 && forallb (fun b => b) (firstn (Z.to_nat bl) (skipn (Z.to_nat bs) p))).

Lemma zrun_good_all : forallb zrun_good (all_bools 8) = true.
Proof. vm_compute. reflexivity. Qed.

Lemma zrun_spec p : length p = 8%nat -> zrun_good p = true.
Proof.
  intros H. pose proof zrun_good_all as G. rewrite forallb_forall in G. apply G. rewrite <- H. apply all_bools_in.
Qed.

Definition chunk_of (v : Z) : list Z := strip0 (hex4 v).

Record chunk_facts (v : Z) (c : list Z) : Prop := {
  cf_ne : c <> [];
  cf_len : (length c <= 4)%nat;
  cf_colon : no_sep 58 c = true;
  cf_dot : no_sep 46 c = true;
  cf_ascii : all_ascii c = true;
  cf_pad : pad4 c = hex4 v;
  cf_zero : is_zero_chunk c = (v =? 0);
  cf_ffff : zlist_eqb c [102; 102; 102; 102] = (v =? 65535);
  cf_safe : forallb safe c = true }.

(* the characters 0-9a-f: ASCII, safe in a tokenizer word, and none of the separators of address texts *)
Definition hexchar (c : Z) : bool := ((48 <=? c) && (c <=? 57)) || ((97 <=? c) && (c <=? 102)).

Lemma hexdigit_char d : 0 <= d < 16 ->
  hexchar (hexdigit d) = true /\ (hexdigit d =? 48) = (d =? 0) /\ (hexdigit d =? 102) = (d =? 15).
Proof. intros Hd. unfold hexchar, hexdigit. destruct (d <? 10) eqn:E; lia. Qed.

Lemma hexchars_nosep sep c : (sep <? 48) || (sep =? 58) = true -> forallb hexchar c = true -> no_sep sep c = true.
Proof.
  intros Hs H. unfold no_sep. rewrite forallb_forall in *. intros x Hx. specialize (H x Hx). unfold hexchar in H. lia.
Qed.

Lemma hexchars_word c : forallb hexchar c = true -> all_ascii c = true /\ forallb safe c = true.
Proof.
  intros H. unfold all_ascii. rewrite !forallb_forall in *.
  split; intros x Hx; specialize (H x Hx); unfold hexchar in H; [lia|]. unfold safe, is_delim. lia.
Qed.

Lemma strip0_chars P s : forallb P s = true -> forallb P (strip0 s) = true.
Proof.
  induction s as [|c [|c2 s] IH]; intros H; [exact H|exact H|]. cbn [strip0]. destruct (c =? 48); [|exact H].
  apply IH. cbn [forallb] in H. apply andb_true_iff in H as [_ H]. exact H.
Qed.

Lemma chunk_hexchars v : 0 <= v < 65536 -> forallb hexchar (chunk_of v) = true.
Proof.
  intros Hv. apply strip0_chars. unfold hex4. cbn [forallb].
  destruct (hexdigit_char (v / 4096)) as [-> _]; [dlia|]. destruct (hexdigit_char ((v / 256) mod 16)) as [-> _]; [dlia|].
  destruct (hexdigit_char ((v / 16) mod 16)) as [-> _]; [dlia|]. destruct (hexdigit_char (v mod 16)) as [-> _]; [dlia|].
  reflexivity.
Qed.

(* leading zeros are dropped down to the last digit: four shapes, by the first non-zero hex digit *)
Lemma chunk_facts_of v : 0 <= v < 65536 -> chunk_facts v (chunk_of v).
Proof.
  intros Hv. pose proof (chunk_hexchars v Hv) as Hc.
  destruct (hexchars_word _ Hc) as [Ha Hs].
  pose proof (hexchars_nosep 58 _ eq_refl Hc) as H58. pose proof (hexchars_nosep 46 _ eq_refl Hc) as H46.
  revert Hc Ha Hs H58 H46. unfold chunk_of, hex4.
  set (d3 := v / 4096). set (d2 := (v / 256) mod 16). set (d1 := (v / 16) mod 16). set (d0 := v mod 16).
  assert (Ev : v = d3 * 4096 + d2 * 256 + d1 * 16 + d0 /\ 0 <= d3 < 16 /\ 0 <= d2 < 16 /\ 0 <= d1 < 16 /\ 0 <= d0 < 16)
    by (unfold d3, d2, d1, d0; dlia).
  destruct Ev as (Ev & R3 & R2 & R1 & R0).
  destruct (hexdigit_char d3 R3) as (_ & Z3 & _). destruct (hexdigit_char d2 R2) as (_ & Z2 & _).
  destruct (hexdigit_char d1 R1) as (_ & Z1 & _).
  assert (E4 : hex4 v = [hexdigit d3; hexdigit d2; hexdigit d1; hexdigit d0]) by reflexivity.
  clearbody d3 d2 d1 d0. cbn [strip0]. rewrite Z3, Z2, Z1.
  destruct (d3 =? 0) eqn:E3; [destruct (d2 =? 0) eqn:E2; [destruct (d1 =? 0) eqn:E1|]|];
    intros Hc Ha Hs H58 H46; (constructor; [discriminate|cbn [length]; lia|assumption|assumption|assumption| | | |assumption]);
    unfold pad4, is_zero_chunk; cbn [length Nat.sub repeat app zlist_eqb]; rewrite ?andb_false_r, ?andb_true_r, ?E4;
    clear E4 Hc Ha Hs H58 H46.
  (* a chunk of two or more digits is not "0", one of fewer than four is not "ffff" *)
  all: try (symmetry; apply Z.eqb_neq; lia).
  (* pad4 restores the zeros that were dropped *)
  1, 3, 4, 5: repeat (f_equal; try (symmetry; apply Z.eqb_eq; assumption)).
  - rewrite (proj1 (proj2 (hexdigit_char d0 R0))). f_equal. lia.
  - rewrite (proj2 (proj2 (hexdigit_char d3 R3))), (proj2 (proj2 (hexdigit_char d2 R2))),
      (proj2 (proj2 (hexdigit_char d1 R1))), (proj2 (proj2 (hexdigit_char d0 R0))).
    apply eq_true_iff_eq. rewrite !andb_true_iff, !Z.eqb_eq. lia.
Qed.

(* two octets of the address are the four hex digits of the chunk *)
Lemma hex4_bytes hi lo : 0 <= hi < 256 -> 0 <= lo < 256 ->
  hex4 (hi * 256 + lo) = [hexdigit (hi / 16); hexdigit (hi mod 16); hexdigit (lo / 16); hexdigit (lo mod 16)].
Proof.
  intros H1 H2. unfold hex4.
  replace ((hi * 256 + lo) / 4096) with (hi / 16) by dlia.
  replace (((hi * 256 + lo) / 256) mod 16) with (hi mod 16) by dlia.
  replace (((hi * 256 + lo) / 16) mod 16) with (lo / 16) by dlia.
  replace ((hi * 256 + lo) mod 16) with (lo mod 16) by dlia. reflexivity.
Qed.

Definition CF (vs : list Z) (cs : list (list Z)) : Prop := Forall2 chunk_facts vs cs.

Lemma CF_colon vs cs : CF vs cs -> Forall (fun c => no_sep 58 c = true) cs.
Proof. induction 1 as [|v c vs cs H _ IH]; constructor; [apply (cf_colon _ _ H)|exact IH]. Qed.

Lemma split_join_app cs : Forall (fun c => no_sep 58 c = true) cs -> cs <> [] -> forall r,
  split_on 58 (join_colon cs ++ 58 :: r) [] = cs ++ split_on 58 r [].
Proof.
  induction 1 as [|c cs Hc Hcs IH]; intros Hne r; [congruence|].
  destruct cs as [|c2 cs].
  - cbn [join_colon app]. rewrite split_on_word by exact Hc. reflexivity.
  - change (join_colon (c :: c2 :: cs)) with (c ++ 58 :: join_colon (c2 :: cs)).
    rewrite <- app_assoc. cbn [app]. rewrite split_on_word by exact Hc. cbn [rev app].
    rewrite IH by discriminate. reflexivity.
Qed.

Lemma split_join cs : Forall (fun c => no_sep 58 c = true) cs -> cs <> [] ->
  split_on 58 (join_colon cs) [] = cs.
Proof.
  induction 1 as [|c cs Hc Hcs IH]; intros Hne; [congruence|].
  destruct cs as [|c2 cs].
  - cbn [join_colon]. rewrite split_on_last by exact Hc. reflexivity.
  - change (join_colon (c :: c2 :: cs)) with (c ++ 58 :: join_colon (c2 :: cs)).
    rewrite split_on_word by exact Hc. cbn [rev app]. rewrite IH by discriminate. reflexivity.
Qed.

(* a non-empty join starts with a character that is not ':' ... *)
Lemma join_head vs cs : CF vs cs -> cs <> [] -> exists x t, join_colon cs = x :: t /\ x <> 58.
Proof.
  intros H Hne. destruct H as [|v c vs cs Hc H]; [congruence|].
  pose proof (cf_ne _ _ Hc) as N. pose proof (cf_colon _ _ Hc) as C.
  destruct c as [|x c]; [congruence|]. apply no_sep_head in C.
  destruct cs as [|c2 cs]; [exists x, c; auto|].
  change (join_colon ((x :: c) :: c2 :: cs)) with ((x :: c) ++ 58 :: join_colon (c2 :: cs)).
  cbn [app]. eauto.
Qed.

(* ... and ends with its last chunk *)
Lemma join_last vs cs : CF vs cs -> cs <> [] ->
  exists w v c, chunk_facts v c /\ join_colon cs = w ++ c /\ (w = [] \/ exists w', w = w' ++ [58]).
Proof.
  induction 1 as [|v c vs cs Hc H IH]; intros Hne; [congruence|].
  destruct cs as [|c2 cs].
  - exists [], v, c. cbn [join_colon app]. auto.
  - destruct (IH ltac:(discriminate)) as (w & v' & c' & F & E & Hw).
    change (join_colon (c :: c2 :: cs)) with (c ++ 58 :: join_colon (c2 :: cs)). rewrite E.
    exists (c ++ 58 :: w), v', c'. split; [exact F|]. split; [rewrite <- app_assoc; reflexivity|].
    right. destruct Hw as [->|[w' ->]]; [exists c; reflexivity|exists (c ++ 58 :: w')]. rewrite <- app_assoc. reflexivity.
Qed.

Lemma not_dotted c : no_sep 46 c = true -> is_dotted_quad c = false.
Proof. intros H. unfold is_dotted_quad. rewrite split_on_last by exact H. reflexivity. Qed.

Lemma canon_facts vs cs : CF vs cs -> forall r l se,
  canon_chunks (cs ++ r) l se
  = (do rs <- canon_chunks r l se; Ok (concat (map hex4 vs) ++ fst rs, snd rs)).
Proof.
  induction 1 as [|v c vs cs Hc H IH]; intros r l se.
  - cbn [app map concat]. destruct (canon_chunks r l se) as [[x y]| |]; reflexivity.
  - cbn [app]. rewrite canon_step by (apply (cf_ne _ _ Hc) || apply (cf_len _ _ Hc)). rewrite IH.
    destruct (canon_chunks r l se) as [[x y]| |]; cbn [bind fst snd]; try reflexivity.
    rewrite (cf_pad _ _ Hc). cbn [map concat]. rewrite <- app_assoc. reflexivity.
Qed.

Lemma CF_length vs cs : CF vs cs -> length vs = length cs.
Proof. induction 1; cbn; congruence. Qed.

Lemma CF_ascii vs cs : CF vs cs -> all_ascii (join_colon cs) = true.
Proof.
  induction 1 as [|v c vs cs Hc H IH]; [reflexivity|]. destruct cs as [|c2 cs]; [apply (cf_ascii _ _ Hc)|].
  change (join_colon (c :: c2 :: cs)) with (c ++ [58] ++ join_colon (c2 :: cs)).
  apply all_ascii_app; [apply (cf_ascii _ _ Hc)|]. apply all_ascii_app; [reflexivity|exact IH].
Qed.

(* no `::`: all eight chunks are written *)
Lemma ipv6_aton_plain vs cs : CF vs cs -> length cs = 8%nat ->
  ipv6_aton_b (join_colon cs) = match unhexlify (concat (map hex4 vs)) with Ok d => Ok d | _ => Lib eSyntax end.
Proof.
  intros H L. assert (Hne : cs <> []) by (destruct cs; [discriminate|discriminate]).
  destruct (join_head vs cs H Hne) as (x & t & Ej & Hx).
  destruct (join_last vs cs H Hne) as (w & v & c & F & El & Hw).
  set (T := join_colon cs) in *.
  assert (N0 : is_nil T = false) by (rewrite Ej; reflexivity).
  pose proof (ends_with_app_ne 58 w c (cf_ne _ _ F) (cf_colon _ _ F) []) as EW1. cbn [app] in EW1.
  pose proof (ends_with_app_ne 58 w c (cf_ne _ _ F) (cf_colon _ _ F) [58]) as EW2. cbn [app] in EW2.
  rewrite <- El in EW1, EW2.
  assert (SW1 : starts_with [58] T = false) by (rewrite Ej; apply starts_with_cons_ne; congruence).
  assert (SW2 : starts_with [58; 58] T = false)
    by (rewrite Ej; unfold starts_with; cbn; replace (x =? 58) with false by lia; reflexivity).
  assert (EQ : zlist_eqb T [58; 58] = false)
    by (rewrite Ej; cbn [zlist_eqb]; replace (x =? 58) with false by lia; reflexivity).
  assert (Hq : match split_last_colon T with
               | Some (pre, quad) => if is_dotted_quad quad then
                     do v0 <- ipv4_aton_b quad;
                     match v0 with [v0; v1; v2; v3] => Ok (pre ++ 58 :: hex2 v0 ++ hex2 v1 ++ 58 :: hex2 v2 ++ hex2 v3) | _ => Lib eSyntax end
                   else Ok T
               | None => Ok T end = Ok T).
  { destruct Hw as [->|[w' ->]].
    - cbn [app] in El. rewrite El. unfold split_last_colon. rewrite split_on_last by (apply no_sep_rev, (cf_colon _ _ F)).
      reflexivity.
    - rewrite El. rewrite <- app_assoc. cbn [app]. rewrite split_last_colon_app by (apply (cf_colon _ _ F)).
      rewrite not_dotted by (apply (cf_dot _ _ F)). reflexivity. }
  unfold ipv6_aton_b. rewrite N0, EW1, SW1, EQ. cbn [andb]. rewrite Hq. cbn [bind]. rewrite SW2, EW2.
  unfold T. rewrite split_join by (eauto using CF_colon). rewrite L. cbn [Nat.ltb Nat.leb].
  replace (canon_chunks cs 8 false) with (canon_chunks (cs ++ []) 8 false) by (rewrite app_nil_r; reflexivity).
  rewrite (canon_facts vs cs H). cbn [canon_chunks bind fst snd andb].
  rewrite app_nil_r. reflexivity.
Qed.

(* the part of inet_aton after the text has been cut into chunks *)
Definition aton_back (chunks : list (list Z)) : res (list Z) :=
  let l := length chunks in
  if Nat.ltb 8 l then Lib eSyntax
  else
    do cs <- canon_chunks chunks l false;
    if Nat.ltb l 8 && negb (snd cs) then Lib eSyntax
    else match unhexlify (fst cs) with Ok d => Ok d | _ => Lib eSyntax end.

Definition zeros4 (n : nat) : list Z := concat (repeat [48; 48; 48; 48] n).

Lemma aton_back_gap vpre pre vsuf suf : CF vpre pre -> CF vsuf suf -> (length pre + length suf <= 6)%nat ->
  aton_back (pre ++ [] :: suf)
  = match unhexlify (concat (map hex4 vpre) ++ zeros4 (8 - length pre - length suf) ++ concat (map hex4 vsuf)) with
    | Ok d => Ok d | _ => Lib eSyntax end.
Proof.
  intros Hp Hs Hl. unfold aton_back. rewrite app_length. cbn [length].
  replace (Nat.ltb 8 (length pre + S (length suf))) with false by (symmetry; apply Nat.ltb_ge; lia).
  rewrite (canon_facts vpre pre Hp). rewrite canon_gap.
  replace (suf) with (suf ++ []) at 1 by apply app_nil_r. rewrite (canon_facts vsuf suf Hs).
  cbn [canon_chunks bind fst snd negb]. rewrite andb_false_r. rewrite app_nil_r.
  replace (8 - (length pre + S (length suf)) + 1)%nat with (8 - length pre - length suf)%nat by lia.
  reflexivity.
Qed.

Lemma removelast_app2 {A} (w : list A) (x y : A) : removelast (w ++ [x; y]) = w ++ [x].
Proof. induction w as [|a w IH]; [reflexivity|]. cbn [app]. rewrite <- IH. destruct (w ++ [x; y]) eqn:E; [destruct w; discriminate|reflexivity]. Qed.

Lemma ends_with_app p w : ends_with p (w ++ p) = true.
Proof.
  unfold ends_with, starts_with. rewrite rev_app_distr, firstn_app, Nat.sub_diag, firstn_all. cbn [firstn].
  rewrite app_nil_r. apply zlist_eqb_refl.
Qed.

Lemma starts_with_app p w : starts_with p (p ++ w) = true.
Proof. unfold starts_with. rewrite firstn_app, Nat.sub_diag, firstn_all. cbn [firstn]. rewrite app_nil_r. apply zlist_eqb_refl. Qed.

(* the front end of inet_aton is transparent for a text without dotted quad and without the
   special first/last colon forms: what remains is the split *)
Lemma ipv6_aton_front T T' :
  is_nil T = false ->
  (ends_with [58] T && negb (ends_with [58; 58] T)) = false ->
  (starts_with [58] T && negb (starts_with [58; 58] T)) = false ->
  zlist_eqb T [58; 58] = false ->
  (forall pre quad, split_last_colon T = Some (pre, quad) -> is_dotted_quad quad = false) ->
  (if starts_with [58; 58] T then tl T else if ends_with [58; 58] T then removelast T else T) = T' ->
  ipv6_aton_b T = aton_back (split_on 58 T' []).
Proof.
  intros N E1 E2 E3 Hq ET. unfold ipv6_aton_b. rewrite N, E1, E2, E3.
  destruct (split_last_colon T) as [[pre quad]|] eqn:Es.
  - rewrite (Hq pre quad eq_refl). cbn [bind]. rewrite ET. reflexivity.
  - cbn [bind]. rewrite ET. reflexivity.
Qed.

Theorem ipv6_aton_gap vpre pre vsuf suf : CF vpre pre -> CF vsuf suf ->
  (length pre + length suf <= 6)%nat ->
  ipv6_aton_b (join_colon pre ++ [58; 58] ++ join_colon suf)
  = match unhexlify (concat (map hex4 vpre) ++ zeros4 (8 - length pre - length suf) ++ concat (map hex4 vsuf)) with
    | Ok d => Ok d | _ => Lib eSyntax end.
Proof.
  intros Hp Hs Hl. destruct pre as [|p0 pre']; destruct suf as [|s0 suf'].
  1: { (* "::" alone *) inversion Hp. inversion Hs. vm_compute. reflexivity. }
  all: rewrite <- (aton_back_gap _ _ _ _ Hp Hs Hl).
  - (* ::suffix *)
    destruct (join_head _ _ Hs ltac:(discriminate)) as (x & t & Ej & Hx).
    destruct (join_last _ _ Hs ltac:(discriminate)) as (w & v & c & F & El & Hw).
    set (J := join_colon (s0 :: suf')) in *. change (join_colon [] ++ [58; 58] ++ J) with (58 :: 58 :: J).
    transitivity (aton_back (split_on 58 (58 :: J) [])); [apply ipv6_aton_front|].
    + reflexivity.
    + pose proof (ends_with_app_ne 58 (58 :: 58 :: w) c (cf_ne _ _ F) (cf_colon _ _ F) []) as E. cbn [app] in E.
      rewrite <- El in E. cbn [app] in E. rewrite E. reflexivity.
    + reflexivity.
    + rewrite Ej. cbn [zlist_eqb]. rewrite !Z.eqb_refl. reflexivity.
    + intros pre quad Hq. rewrite El in Hq. destruct Hw as [->|[w' ->]].
      * cbn [app] in Hq. change (58 :: 58 :: c) with ([58] ++ 58 :: c) in Hq.
        rewrite split_last_colon_app in Hq by (apply (cf_colon _ _ F)). inversion Hq; subst.
        apply not_dotted, (cf_dot _ _ F).
      * replace (58 :: 58 :: (w' ++ [58]) ++ c) with ((58 :: 58 :: w') ++ 58 :: c) in Hq
          by (cbn [app]; rewrite <- app_assoc; reflexivity).
        rewrite split_last_colon_app in Hq by (apply (cf_colon _ _ F)). inversion Hq; subst.
        apply not_dotted, (cf_dot _ _ F).
    + reflexivity.
    + cbn [split_on]. rewrite Z.eqb_refl. unfold J. rewrite split_join by (eauto using CF_colon; discriminate).
      reflexivity.
  - (* prefix:: *)
    destruct (join_head _ _ Hp ltac:(discriminate)) as (x & t & Ej & Hx).
    set (J := join_colon (p0 :: pre')) in *. change (J ++ [58; 58] ++ join_colon []) with (J ++ [58; 58] ++ []).
    rewrite app_nil_r.
    transitivity (aton_back (split_on 58 (J ++ [58]) [])); [apply ipv6_aton_front|].
    + rewrite Ej. reflexivity.
    + rewrite (ends_with_app [58; 58] J). cbn [negb]. apply andb_false_r.
    + rewrite Ej. cbn [app]. rewrite starts_with_cons_ne by congruence. reflexivity.
    + rewrite Ej. cbn [app zlist_eqb]. replace (x =? 58) with false by lia. reflexivity.
    + intros pre quad Hq. replace (J ++ [58; 58]) with ((J ++ [58]) ++ 58 :: []) in Hq by (rewrite <- app_assoc; reflexivity).
      rewrite split_last_colon_app in Hq by reflexivity. inversion Hq; subst. reflexivity.
    + replace (starts_with [58; 58] (J ++ [58; 58])) with false
        by (rewrite Ej; unfold starts_with; cbn; replace (x =? 58) with false by lia; reflexivity).
      rewrite (ends_with_app [58; 58] J). apply removelast_app2.
    + unfold J. change ([58]) with (58 :: @nil Z). rewrite split_join_app by (eauto using CF_colon; discriminate).
      reflexivity.
  - (* prefix::suffix *)
    destruct (join_head _ _ Hp ltac:(discriminate)) as (x & t & Ej & Hx).
    destruct (join_last _ _ Hs ltac:(discriminate)) as (w & v & c & F & El & Hw).
    set (J := join_colon (p0 :: pre')) in *. set (K := join_colon (s0 :: suf')) in *.
    transitivity (aton_back (split_on 58 (J ++ [58; 58] ++ K) [])); [apply ipv6_aton_front|].
    + rewrite Ej. reflexivity.
    + pose proof (ends_with_app_ne 58 (J ++ [58; 58] ++ w) c (cf_ne _ _ F) (cf_colon _ _ F) []) as E. cbn [app] in E.
      rewrite El. replace (J ++ [58; 58] ++ w ++ c) with ((J ++ 58 :: 58 :: w) ++ c) by (cbn [app]; rewrite <- app_assoc; reflexivity).
      rewrite E. reflexivity.
    + rewrite Ej. cbn [app]. rewrite starts_with_cons_ne by congruence. reflexivity.
    + rewrite Ej. cbn [app zlist_eqb]. replace (x =? 58) with false by lia. reflexivity.
    + intros pre quad Hq. rewrite El in Hq. destruct Hw as [->|[w' ->]].
      * cbn [app] in Hq. replace (J ++ 58 :: 58 :: c) with ((J ++ [58]) ++ 58 :: c) in Hq by (rewrite <- app_assoc; reflexivity).
        rewrite split_last_colon_app in Hq by (apply (cf_colon _ _ F)). inversion Hq; subst.
        apply not_dotted, (cf_dot _ _ F).
      * replace (J ++ [58; 58] ++ (w' ++ [58]) ++ c) with ((J ++ 58 :: 58 :: w') ++ 58 :: c) in Hq
          by (cbn [app]; rewrite <- !app_assoc; reflexivity).
        rewrite split_last_colon_app in Hq by (apply (cf_colon _ _ F)). inversion Hq; subst.
        apply not_dotted, (cf_dot _ _ F).
    + replace (starts_with [58; 58] (J ++ [58; 58] ++ K)) with false
        by (rewrite Ej; unfold starts_with; cbn; replace (x =? 58) with false by lia; reflexivity).
      pose proof (ends_with_app_ne 58 (J ++ [58; 58] ++ w) c (cf_ne _ _ F) (cf_colon _ _ F) [58]) as E. cbn [app] in E.
      rewrite El. replace (J ++ [58; 58] ++ w ++ c) with ((J ++ 58 :: 58 :: w) ++ c) by (cbn [app]; rewrite <- app_assoc; reflexivity).
      rewrite E. rewrite <- app_assoc. reflexivity.
    + unfold J, K. cbn [app]. rewrite split_join_app by (eauto using CF_colon; discriminate).
      cbn [split_on]. rewrite Z.eqb_refl. rewrite split_join by (eauto using CF_colon; discriminate). reflexivity.
Qed.

Lemma hex2_colon b : 0 <= b < 256 -> no_sep 58 (hex2 b) = true.
Proof.
  intros Hb. apply hexchars_nosep; [reflexivity|]. unfold hex2. cbn [forallb].
  destruct (hexdigit_char (b / 16)) as [-> _]; [dlia|]. destruct (hexdigit_char (b mod 16)) as [-> _]; [dlia|]. reflexivity.
Qed.

Lemma no_sep_app sep a b : no_sep sep a = true -> no_sep sep b = true -> no_sep sep (a ++ b) = true.
Proof. unfold no_sep. intros. rewrite forallb_app. apply andb_true_iff. split; assumption. Qed.

Lemma part_ok_digits p : ipv4_part_ok p = true -> negb (is_nil p) && forallb is_decimal p = true.
Proof. unfold ipv4_part_ok. intros H. apply andb_true_iff in H as [H _]. exact H. Qed.

Definition v4text (b0 b1 b2 b3 : Z) : list Z := dec b0 ++ 46 :: dec b1 ++ 46 :: dec b2 ++ 46 :: dec b3.

Lemma v4text_facts b0 b1 b2 b3 : 0 <= b0 < 256 -> 0 <= b1 < 256 -> 0 <= b2 < 256 -> 0 <= b3 < 256 ->
  no_sep 58 (v4text b0 b1 b2 b3) = true /\ is_dotted_quad (v4text b0 b1 b2 b3) = true /\
  all_ascii (v4text b0 b1 b2 b3) = true /\
  (forall w q, ends_with (q ++ [58]) (w ++ v4text b0 b1 b2 b3) = false) /\
  exists x t, v4text b0 b1 b2 b3 = x :: t /\ x <> 58.
Proof.
  intros H0 H1 H2 H3.
  destruct (octet_facts b0 H0) as (P0 & _ & D0 & C0 & A0). destruct (octet_facts b1 H1) as (P1 & _ & D1 & C1 & A1).
  destruct (octet_facts b2 H2) as (P2 & _ & D2 & C2 & A2). destruct (octet_facts b3 H3) as (P3 & _ & D3 & C3 & A3).
  unfold v4text. split; [|split; [|split; [|split]]].
  - repeat (apply no_sep_app; [assumption|]; change (no_sep 58 (46 :: ?x)) with (no_sep 58 ([46] ++ x));
            apply no_sep_app; [reflexivity|]). assumption.
  - unfold is_dotted_quad. rewrite split_on_word by exact D0. rewrite split_on_word by exact D1.
    rewrite split_on_word by exact D2. rewrite split_on_last by exact D3. cbn [rev app length Nat.eqb forallb andb].
    rewrite (part_ok_digits _ P0), (part_ok_digits _ P1), (part_ok_digits _ P2), (part_ok_digits _ P3). reflexivity.
  - repeat (apply all_ascii_app; [assumption|]; change (all_ascii (46 :: ?x)) with (all_ascii ([46] ++ x));
            apply all_ascii_app; [reflexivity|]). assumption.
  - intros w q.
    replace (w ++ dec b0 ++ 46 :: dec b1 ++ 46 :: dec b2 ++ 46 :: dec b3)
      with ((w ++ dec b0 ++ 46 :: dec b1 ++ 46 :: dec b2 ++ [46]) ++ dec b3)
      by (rewrite <- !app_assoc; cbn [app]; rewrite <- !app_assoc; cbn [app]; rewrite <- !app_assoc; reflexivity).
    apply ends_with_app_ne; [|exact C3]. apply part_ok_digits in P3. destruct (dec b3); [discriminate|discriminate].
  - apply part_ok_digits in P0. destruct (dec b0) as [|x t] eqn:E; [discriminate|].
    exists x, (t ++ 46 :: dec b1 ++ 46 :: dec b2 ++ 46 :: dec b3). split; [reflexivity|]. apply (no_sep_head 58 x t C0).
Qed.

Lemma hexlify_app a b : hexlify (a ++ b) = hexlify a ++ hexlify b.
Proof. unfold hexlify. apply flat_map_app. Qed.

Lemma pad4_4 a b c d : pad4 [a; b; c; d] = [a; b; c; d].
Proof. reflexivity. Qed.

(* "::" + dotted quad   and   "::ffff:" + dotted quad *)
Theorem ipv6_aton_embedded (mapped : bool) b0 b1 b2 b3 :
  0 <= b0 < 256 -> 0 <= b1 < 256 -> 0 <= b2 < 256 -> 0 <= b3 < 256 ->
  ipv6_aton_b ((if mapped then [58; 58; 102; 102; 102; 102; 58] else [58; 58]) ++ v4text b0 b1 b2 b3)
  = Ok (repeat 0 10 ++ (if mapped then [255; 255] else [0; 0]) ++ [b0; b1; b2; b3]).
Proof.
  intros H0 H1 H2 H3. destruct (v4text_facts b0 b1 b2 b3 H0 H1 H2 H3) as (VC & VQ & _ & VE & (x & t & Ex & Hx)).
  set (V := v4text b0 b1 b2 b3) in *.
  pose proof (hex2_colon b0 H0) as X0. pose proof (hex2_colon b1 H1) as X1.
  pose proof (hex2_colon b2 H2) as X2. pose proof (hex2_colon b3 H3) as X3.
  assert (R : ipv4_aton_b V = Ok [b0; b1; b2; b3]) by (apply ipv4_roundtrip_b; assumption).
  assert (U : unhexlify (hexlify (repeat 0 10 ++ (if mapped then [255; 255] else [0; 0]) ++ [b0; b1; b2; b3]))
              = Ok (repeat 0 10 ++ (if mapped then [255; 255] else [0; 0]) ++ [b0; b1; b2; b3])).
  { apply unhexlify_hexlify. destruct mapped; cbn [repeat app all_bytes forallb]; unfold is_byte;
      repeat (apply andb_true_iff; split); try reflexivity; lia. }
  unfold ipv6_aton_b. destruct mapped.
  - replace (is_nil ([58; 58; 102; 102; 102; 102; 58] ++ V)) with false by reflexivity.
    pose proof (VE [58; 58; 102; 102; 102; 102; 58] []) as E1. cbn [app] in E1. cbn [app]. rewrite E1.
    change (starts_with [58] (58 :: 58 :: 102 :: 102 :: 102 :: 102 :: 58 :: V)) with true.
    change (starts_with [58; 58] (58 :: 58 :: 102 :: 102 :: 102 :: 102 :: 58 :: V)) with true.
    change (zlist_eqb (58 :: 58 :: 102 :: 102 :: 102 :: 102 :: 58 :: V) [58; 58]) with false. cbn [andb negb].
    change (58 :: 58 :: 102 :: 102 :: 102 :: 102 :: 58 :: V) with ([58; 58; 102; 102; 102; 102] ++ 58 :: V).
    rewrite split_last_colon_app by exact VC. rewrite VQ, R. cbn [bind app].
    change (starts_with [58; 58] (58 :: 58 :: 102 :: 102 :: 102 :: 102 :: 58 :: hex2 b0 ++ hex2 b1 ++ 58 :: hex2 b2 ++ hex2 b3)) with true.
    cbn [tl].
    change (58 :: 102 :: 102 :: 102 :: 102 :: 58 :: hex2 b0 ++ hex2 b1 ++ 58 :: hex2 b2 ++ hex2 b3)
      with ([] ++ 58 :: [102; 102; 102; 102] ++ 58 :: (hex2 b0 ++ hex2 b1) ++ 58 :: hex2 b2 ++ hex2 b3).
    rewrite split_on_word by reflexivity. rewrite split_on_word by reflexivity.
    rewrite split_on_word by (apply no_sep_app; assumption). rewrite split_on_last by (apply no_sep_app; assumption).
    unfold hex2. cbn [rev app length Nat.ltb Nat.leb canon_chunks bind fst snd negb andb Nat.sub Nat.add repeat concat pad4].
    change (match unhexlify (hexlify [0; 0; 0; 0; 0; 0; 0; 0; 0; 0; 255; 255; b0; b1; b2; b3]) with Ok d => Ok d | _ => Lib eSyntax end
            = Ok [0; 0; 0; 0; 0; 0; 0; 0; 0; 0; 255; 255; b0; b1; b2; b3]).
    cbn [repeat app] in U. rewrite U. reflexivity.
  - replace (is_nil ([58; 58] ++ V)) with false by reflexivity.
    pose proof (VE [58; 58] []) as E1. cbn [app] in E1. cbn [app]. rewrite E1.
    change (starts_with [58] (58 :: 58 :: V)) with true. change (starts_with [58; 58] (58 :: 58 :: V)) with true.
    replace (zlist_eqb (58 :: 58 :: V) [58; 58]) with false by (rewrite Ex; reflexivity). cbn [andb negb].
    change (58 :: 58 :: V) with ([58] ++ 58 :: V).
    rewrite split_last_colon_app by exact VC. rewrite VQ, R. cbn [bind app].
    change (starts_with [58; 58] (58 :: 58 :: hex2 b0 ++ hex2 b1 ++ 58 :: hex2 b2 ++ hex2 b3)) with true.
    cbn [tl].
    change (58 :: hex2 b0 ++ hex2 b1 ++ 58 :: hex2 b2 ++ hex2 b3)
      with ([] ++ 58 :: (hex2 b0 ++ hex2 b1) ++ 58 :: hex2 b2 ++ hex2 b3).
    rewrite split_on_word by reflexivity.
    rewrite split_on_word by (apply no_sep_app; assumption). rewrite split_on_last by (apply no_sep_app; assumption).
    unfold hex2. cbn [rev app length Nat.ltb Nat.leb canon_chunks bind fst snd negb andb Nat.sub Nat.add repeat concat pad4].
    change (match unhexlify (hexlify [0; 0; 0; 0; 0; 0; 0; 0; 0; 0; 0; 0; b0; b1; b2; b3]) with Ok d => Ok d | _ => Lib eSyntax end
            = Ok [0; 0; 0; 0; 0; 0; 0; 0; 0; 0; 0; 0; b0; b1; b2; b3]).
    cbn [repeat app] in U. rewrite U. reflexivity.
Qed.

Lemma Forall2_firstn {A B} (R : A -> B -> Prop) n : forall l1 l2, Forall2 R l1 l2 -> Forall2 R (firstn n l1) (firstn n l2).
Proof. induction n as [|n IH]; intros l1 l2 H; [constructor|]. destruct H; cbn [firstn]; constructor; auto. Qed.

Lemma Forall2_skipn {A B} (R : A -> B -> Prop) n : forall l1 l2, Forall2 R l1 l2 -> Forall2 R (skipn n l1) (skipn n l2).
Proof. induction n as [|n IH]; intros l1 l2 H; [exact H|]. destruct H; cbn [skipn]; [constructor|auto]. Qed.

Lemma zero_run_hex vs : forallb (fun v => v =? 0) vs = true -> concat (map hex4 vs) = zeros4 (length vs).
Proof.
  induction vs as [|v vs IH]; intros H; [reflexivity|]. cbn [forallb] in H. apply andb_true_iff in H as [Hv H].
  apply Z.eqb_eq in Hv. subst v. cbn [map concat length]. rewrite IH by exact H. reflexivity.
Qed.

Lemma CF_of vs : Forall (fun v => 0 <= v < 65536) vs -> CF vs (map chunk_of vs).
Proof. induction 1 as [|v vs Hv _ IH]; cbn [map]; constructor; [apply chunk_facts_of, Hv|exact IH]. Qed.

Lemma map_zero_chunk vs : Forall (fun v => 0 <= v < 65536) vs ->
  map is_zero_chunk (map chunk_of vs) = map (fun v => v =? 0) vs.
Proof.
  induction 1 as [|v vs Hv _ IH]; [reflexivity|]. cbn [map]. rewrite IH. f_equal. apply (cf_zero _ _ (chunk_facts_of v Hv)).
Qed.

Lemma ipv6_aton_ascii t : all_ascii t = true -> ipv6_aton t = ipv6_aton_b t.
Proof. intros H. unfold ipv6_aton. rewrite utf8_ascii by exact H. reflexivity. Qed.

Theorem ipv6_roundtrip a : all_bytes a = true -> length a = 16%nat ->
  exists t, ipv6_ntoa a = Ok t /\ ipv6_aton t = Ok a.
Proof.
  intros Hb Hl.
  destruct a as [|b0 [|b1 [|b2 [|b3 [|b4 [|b5 [|b6 [|b7 [|b8 [|b9 [|b10 [|b11 [|b12 [|b13 [|b14 [|b15 [|? ?]]]]]]]]]]]]]]]]];
    try discriminate.
  cbn [all_bytes forallb] in Hb. repeat (apply andb_true_iff in Hb as [? Hb]).
  repeat match goal with H : is_byte _ = true |- _ => apply is_byte_range in H end.
  set (a := [b0; b1; b2; b3; b4; b5; b6; b7; b8; b9; b10; b11; b12; b13; b14; b15]).
  set (vs := [b0 * 256 + b1; b2 * 256 + b3; b4 * 256 + b5; b6 * 256 + b7; b8 * 256 + b9; b10 * 256 + b11;
              b12 * 256 + b13; b14 * 256 + b15]).
  assert (Hvs : Forall (fun v => 0 <= v < 65536) vs) by (unfold vs; repeat constructor; lia).
  assert (Hhex : concat (map hex4 vs) = hexlify a).
  { unfold vs, a. cbn [map concat app]. rewrite !hex4_bytes by assumption. reflexivity. }
  assert (Hun : unhexlify (hexlify a) = Ok a).
  { apply unhexlify_hexlify. unfold a, all_bytes. cbn [forallb]. unfold is_byte.
    repeat (apply andb_true_iff; split); try reflexivity; lia. }
  pose proof (CF_of vs Hvs) as HCF. set (cs := map chunk_of vs) in *.
  assert (Lcs : length cs = 8%nat) by reflexivity.
  unfold ipv6_ntoa. change (length a) with 16%nat. cbn [Nat.eqb negb].
  change (map (fun v => strip0 (hex4 v)) (pairs16 a)) with cs.
  rewrite zrun_pattern. unfold cs at 1. rewrite map_zero_chunk by exact Hvs.
  pose proof (zrun_spec (map (fun v => v =? 0) vs) eq_refl) as G. unfold zrun_good in G.
  destruct (zrun_p (map (fun v => v =? 0) vs)) as [bs bl].
  destruct (bl >? 1) eqn:Ebl.
  2:{ (* no run of two or more zero chunks *)
      exists (join_colon cs). split; [reflexivity|].
      rewrite ipv6_aton_ascii by (apply (CF_ascii vs cs HCF)).
      rewrite (ipv6_aton_plain vs cs HCF Lcs), Hhex, Hun. reflexivity. }
  replace (bl <=? 1) with false in G by lia. cbn [orb] in G.
  apply andb_true_iff in G as [G Gz]. apply andb_true_iff in G as [G G3]. apply andb_true_iff in G as [G1 G2].
  set (nbs := Z.to_nat bs) in *. set (nbl := Z.to_nat bl) in *.
  assert (Hn : (2 <= nbl /\ nbs + nbl <= 8)%nat) by (unfold nbs, nbl; lia).
  (* the chunks of the run are zero *)
  assert (Gz' : forallb (fun v => v =? 0) (firstn nbl (skipn nbs vs)) = true).
  { fold nbs nbl in Gz. rewrite skipn_map, firstn_map in Gz. rewrite forallb_forall in *. intros v Hv.
    apply (Gz (v =? 0)). apply in_map_iff. exists v. split; [reflexivity|exact Hv]. }
  (* decomposition of values and chunks *)
  set (vpre := firstn nbs vs). set (vmid := firstn nbl (skipn nbs vs)). set (vsuf := skipn (nbs + nbl) vs).
  assert (Dv : vs = vpre ++ vmid ++ vsuf).
  { unfold vpre, vmid, vsuf. rewrite skipn_add. rewrite (firstn_skipn nbl). apply (eq_sym (firstn_skipn nbs vs)). }
  assert (Lmid : length vmid = nbl).
  { unfold vmid. rewrite firstn_length, skipn_length. change (length vs) with 8%nat. lia. }
  assert (Hcanon : concat (map hex4 vpre) ++ zeros4 nbl ++ concat (map hex4 vsuf) = hexlify a).
  { rewrite <- Hhex. rewrite Dv at 1. rewrite !map_app, !concat_app. rewrite (zero_run_hex vmid Gz'), Lmid. reflexivity. }
  destruct ((bs =? 0) && ((bl =? 6) || (bl =? 5) && zlist_eqb (nth 5 cs []) [102; 102; 102; 102])) eqn:Eemb.
  - (* embedded IPv4 *)
    apply andb_true_iff in Eemb as [E0 E1]. assert (bs = 0) by lia. subst bs.
    change (skipn 12 a) with [b12; b13; b14; b15]. cbn [ipv4_ntoa bind].
    destruct (v4text_facts b12 b13 b14 b15) as (_ & _ & VA & _); try assumption.
    destruct (bl =? 6) eqn:E6.
    + assert (bl = 6) by lia. subst bl. eexists. split; [reflexivity|].
      rewrite ipv6_aton_ascii by (apply all_ascii_app; [reflexivity|exact VA]).
      change (dec b12 ++ 46 :: dec b13 ++ 46 :: dec b14 ++ 46 :: dec b15) with (v4text b12 b13 b14 b15).
      rewrite (ipv6_aton_embedded false) by assumption.
      unfold vmid, nbl, nbs, vs in Gz'. cbn [Z.to_nat Pos.to_nat Pos.iter_op Nat.add skipn firstn forallb] in Gz'.
      repeat (apply andb_true_iff in Gz' as [? Gz']).
      repeat match goal with H : (_ =? 0) = true |- _ => apply Z.eqb_eq in H end.
      assert (b0 = 0 /\ b1 = 0 /\ b2 = 0 /\ b3 = 0 /\ b4 = 0 /\ b5 = 0 /\ b6 = 0 /\ b7 = 0 /\ b8 = 0 /\ b9 = 0 /\ b10 = 0 /\ b11 = 0)
        as (-> & -> & -> & -> & -> & -> & -> & -> & -> & -> & -> & ->) by lia.
      reflexivity.
    + cbn [orb] in E1. apply andb_true_iff in E1 as [E5 Ef]. assert (bl = 5) by lia. subst bl.
      eexists. split; [reflexivity|].
      rewrite ipv6_aton_ascii by (apply all_ascii_app; [reflexivity|exact VA]).
      change (dec b12 ++ 46 :: dec b13 ++ 46 :: dec b14 ++ 46 :: dec b15) with (v4text b12 b13 b14 b15).
      rewrite (ipv6_aton_embedded true) by assumption.
      unfold vmid, nbl, nbs, vs in Gz'. cbn [Z.to_nat Pos.to_nat Pos.iter_op Nat.add skipn firstn forallb] in Gz'.
      repeat (apply andb_true_iff in Gz' as [? Gz']).
      repeat match goal with H : (_ =? 0) = true |- _ => apply Z.eqb_eq in H end.
      change (nth 5 cs []) with (chunk_of (b10 * 256 + b11)) in Ef.
      rewrite (cf_ffff _ _ (chunk_facts_of (b10 * 256 + b11) ltac:(lia))) in Ef. apply Z.eqb_eq in Ef.
      assert (b0 = 0 /\ b1 = 0 /\ b2 = 0 /\ b3 = 0 /\ b4 = 0 /\ b5 = 0 /\ b6 = 0 /\ b7 = 0 /\ b8 = 0 /\ b9 = 0 /\ b10 = 255 /\ b11 = 255)
        as (-> & -> & -> & -> & -> & -> & -> & -> & -> & -> & -> & ->) by lia.
      reflexivity.
  - (* the general `::` form *)
    replace (Z.to_nat (bs + bl)) with (nbs + nbl)%nat by (unfold nbs, nbl; lia).
    set (pre := firstn nbs cs). set (suf := skipn (nbs + nbl) cs).
    assert (Hpre : CF vpre pre) by (apply Forall2_firstn, HCF).
    assert (Hsuf : CF vsuf suf) by (apply Forall2_skipn, HCF).
    assert (Lpre : length pre = nbs) by (unfold pre; rewrite firstn_length; change (length cs) with 8%nat; lia).
    assert (Lsuf : length suf = (8 - nbs - nbl)%nat) by (unfold suf; rewrite skipn_length; change (length cs) with 8%nat; lia).
    exists (join_colon pre ++ [58; 58] ++ join_colon suf). split; [reflexivity|].
    rewrite ipv6_aton_ascii
      by (apply all_ascii_app; [apply (CF_ascii _ _ Hpre)|apply all_ascii_app; [reflexivity|apply (CF_ascii _ _ Hsuf)]]).
    rewrite (ipv6_aton_gap vpre pre vsuf suf Hpre Hsuf) by (rewrite Lpre, Lsuf; lia).
    rewrite Lpre, Lsuf. replace (8 - nbs - (8 - nbs - nbl))%nat with nbl by lia. rewrite Hcanon, Hun. reflexivity.
Qed.

(* the printed addresses are single tokenizer words *)
Lemma safe_app a b : forallb safe a = true -> forallb safe b = true -> forallb safe (a ++ b) = true.
Proof. intros. rewrite forallb_app. apply andb_true_iff. split; assumption. Qed.

Lemma v4text_safe b0 b1 b2 b3 : 0 <= b0 -> 0 <= b1 -> 0 <= b2 -> 0 <= b3 ->
  forallb safe (v4text b0 b1 b2 b3) = true /\ v4text b0 b1 b2 b3 <> [].
Proof.
  intros. unfold v4text. split.
  - repeat (apply safe_app; [apply dec_safe; assumption|]; change (forallb safe (46 :: ?x)) with (forallb safe ([46] ++ x));
            apply safe_app; [reflexivity|]). apply dec_safe. assumption.
  - pose proof (dec_nonempty b0). destruct (dec b0); [congruence|discriminate].
Qed.

Theorem ipv4_ntoa_word a t : all_bytes a = true -> ipv4_ntoa a = Ok t -> forallb safe t = true /\ t <> [].
Proof.
  intros Hb. destruct a as [|a0 [|a1 [|a2 [|a3 [|? ?]]]]]; cbn [ipv4_ntoa]; try discriminate.
  cbn [all_bytes forallb] in Hb. repeat (apply andb_true_iff in Hb as [? Hb]).
  repeat match goal with H : is_byte _ = true |- _ => apply is_byte_range in H end.
  intros E. inversion E. apply (v4text_safe a0 a1 a2 a3); lia.
Qed.

Lemma join_safe vs cs : CF vs cs -> forallb safe (join_colon cs) = true.
Proof.
  induction 1 as [|v c vs cs Hc H IH]; [reflexivity|]. destruct cs as [|c2 cs]; [apply (cf_safe _ _ Hc)|].
  change (join_colon (c :: c2 :: cs)) with (c ++ [58] ++ join_colon (c2 :: cs)).
  apply safe_app; [apply (cf_safe _ _ Hc)|]. apply safe_app; [reflexivity|exact IH].
Qed.

Lemma pairs16_range a : all_bytes a = true -> Forall (fun v => 0 <= v < 65536) (pairs16 a).
Proof.
  revert a. fix IH 1. intros [|hi [|lo r]] H; cbn [pairs16]; try constructor.
  - cbn [all_bytes forallb] in H. apply andb_true_iff in H as [H1 H]. apply andb_true_iff in H as [H2 _].
    apply is_byte_range in H1. apply is_byte_range in H2. lia.
  - apply IH. cbn [all_bytes forallb] in H. apply andb_true_iff in H as [_ H]. apply andb_true_iff in H as [_ H]. exact H.
Qed.

Theorem ipv6_ntoa_word a t : all_bytes a = true -> ipv6_ntoa a = Ok t -> forallb safe t = true /\ t <> [].
Proof.
  intros Hb. unfold ipv6_ntoa. destruct (Nat.eqb (length a) 16) eqn:EL; cbn [negb]; [|discriminate].
  pose proof (CF_of _ (pairs16_range a Hb)) as HCF.
  change (map (fun v => strip0 (hex4 v)) (pairs16 a)) with (map chunk_of (pairs16 a)).
  set (cs := map chunk_of (pairs16 a)) in *.
  assert (Hne : cs <> []).
  { unfold cs. destruct a as [|x0 [|x1 r]]; [discriminate EL|discriminate EL|cbn [pairs16 map]; discriminate]. }
  destruct (zrun cs) as [bs bl].
  destruct (bl >? 1).
  - destruct ((bs =? 0) && ((bl =? 6) || (bl =? 5) && zlist_eqb (nth 5 cs []) [102; 102; 102; 102])).
    + destruct (ipv4_ntoa (skipn 12 a)) as [v4| |] eqn:E4; cbn [bind]; try discriminate.
      assert (Hs : all_bytes (skipn 12 a) = true).
      { unfold all_bytes in *. rewrite forallb_forall in *. intros x Hx. apply Hb. eapply In_skipn; eauto. }
      destruct (ipv4_ntoa_word _ _ Hs E4) as [S4 N4]. intros E. inversion E. split.
      * apply safe_app; [destruct (bl =? 6); reflexivity|exact S4].
      * destruct (bl =? 6); discriminate.
    + intros E. inversion E. split.
      * apply safe_app; [apply (join_safe _ _ (Forall2_firstn _ _ _ _ HCF))|].
        change (58 :: 58 :: join_colon (skipn (Z.to_nat (bs + bl)) cs)) with ([58; 58] ++ join_colon (skipn (Z.to_nat (bs + bl)) cs)).
        apply safe_app; [reflexivity|apply (join_safe _ _ (Forall2_skipn _ _ _ _ HCF))].
      * destruct (join_colon (firstn (Z.to_nat bs) cs)); discriminate.
  - intros E. inversion E. split; [apply (join_safe _ _ HCF)|].
    destruct (join_head _ _ HCF Hne) as (x & r & Ej & _). rewrite Ej. discriminate.
Qed.
