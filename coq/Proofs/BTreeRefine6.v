(* C19 - the two models agree on every history: the store-level model run by the harness
   (BTreeStoreM.run: value-level world and store world side by side, compared at every store
   operation) never reports a difference, and equals the value-level run, for every history of
   the operations of BTreeHistory.vop. *)
From DV Require Import Base.Prelude Proofs.ListFacts Model.BTreeM Model.BTreeStoreM Proofs.BTreeBase Proofs.BTreeWf Proofs.BTreeInsert
  Proofs.BTreeLookup Proofs.BTreeDelete Proofs.BTreeTop Proofs.BTreeCursor Proofs.BTreeHistory
  Proofs.BTreeStore Proofs.BTreeIsolation Proofs.BTreeRefine Proofs.BTreeRefine4 Proofs.BTreeRefine5.

(* how a step of the value-level world is compared with an operation on its list of trees *)
Definition agrees (p : world * obs) (q : list btree * obs) : Prop :=
  w_trees (fst p) = fst q /\ snd p = snd q.

Lemma agrees_upto (c : bool) p q : agrees p q -> w_trees (fst p) = fst q /\ (c = true -> snd p = snd q).
Proof. intros (H1 & H2). auto. Qed.

Lemma mutate_v w i b r : agrees (mutate w i b r) (v_mutate (w_trees w) i r).
Proof. destruct r as [(b' & o)| |]; split; reflexivity. Qed.

(* the trees after a mutation do not depend on how its result is reported *)
Lemma mutate_trees {A} w i b (c : res (btree * A)) (f g : A -> obs) :
  w_trees (fst (mutate w i b (do (b', o) <- c; Ok (b', f o)))) = fst (v_mutate (w_trees w) i (do (b', o) <- c; Ok (b', g o))).
Proof. destruct c as [(b' & o)| |]; reflexivity. Qed.

Lemma with_tree_v w ti f g :
  (forall b, nth_error (w_trees w) ti = Some b -> agrees (f ti b) (g ti b)) ->
  agrees (with_tree w (Z.of_nat ti) f) (v_with (w_trees w) (Z.of_nat ti) g).
Proof.
  intros H. unfold with_tree, v_with. rewrite Nat2Z.id.
  destruct (nth_error (w_trees w) ti) as [b|]; [now apply H|split; reflexivity].
Qed.

Lemma new_v w t io :
  agrees (match new_btree (Z.to_nat t) (bool_of io) with
          | Ok b => (mkW (w_trees w ++ [b]) (w_cursors w), N)
          | r => (w, obs_err r)
          end)
         (vexec (w_trees w) (SNew t io)).
Proof. unfold new_btree. cbn [vexec vexec_prim]. destruct (Z.to_nat t <? 3)%nat; split; reflexivity. Qed.

Lemma clone_v w b io :
  agrees (match clone_btree b io with
          | Ok b' => (mkW (w_trees w ++ [b']) (w_cursors w), N)
          | r => (w, obs_err r)
          end)
         (if b_immut b then (w_trees w ++ [mkB (b_t b) (b_root b) (b_size b) false io], N)
          else (w_trees w, Prelude.E eNotImmutable)).
Proof. unfold clone_btree. destruct (b_immut b); split; reflexivity. Qed.

Lemma v_with_some ts i b g : nth_error ts i = Some b -> v_with ts (Z.of_nat i) g = g i b.
Proof. intros H. unfold v_with. now rewrite Nat2Z.id, H. Qed.

Lemma v_first_spec ts i b : nth_error ts i = Some b -> bwf b -> v_first ts (Z.of_nat i) = hd_error (elements (b_root b)).
Proof.
  intros H Hb. unfold v_first. rewrite Nat2Z.id, H. rewrite (minimum_root (b_t b) (b_root b) (proj1 Hb)).
  destruct (elements (b_root b)); reflexivity.
Qed.

Lemma v_lookup_spec ts i b k : nth_error ts i = Some b -> bwf b -> v_lookup ts (Z.of_nat i) k = find_sorted k (elements (b_root b)).
Proof. intros H Hb. unfold v_lookup. rewrite Nat2Z.id, H. now rewrite (get_element_spec b k Hb). Qed.

Lemma v_del2 ts i b k : nth_error ts i = Some b ->
  vexec_prim ts (SDel (Z.of_nat i) k None 2) = v_mutate ts i (do (b', o) <- delete_btree b k None; Ok (b', N)).
Proof. intros H. cbn [vexec_prim]. now rewrite (v_with_some ts i b _ H). Qed.

Lemma v_clear_frozen i : forall fuel ts b, nth_error ts i = Some b -> b_immut b = true -> v_clear fuel ts (Z.of_nat i) = ts.
Proof.
  induction fuel as [|f IH]; intros ts b H Him; [reflexivity|]. cbn [v_clear].
  destruct (v_first ts (Z.of_nat i)) as [e|]; [|reflexivity].
  rewrite (v_del2 ts i b _ H), (proj2 (frozen_rejects_proof b e false (fst e) None Him)). cbn [bind v_mutate fst]. eapply IH; eauto.
Qed.

Lemma v_clear_mut i : forall l fuel ts b,
  nth_error ts i = Some b -> bwf b -> b_immut b = false -> elements (b_root b) = l -> (length l < fuel)%nat ->
  exists b', clear_loop fuel b = Ok b' /\ sclear_loop fuel b = Ok b' /\ v_clear fuel ts (Z.of_nat i) = set_nth i b' ts.
Proof.
  induction l as [|x l IH]; intros fuel ts b H Hb Him He Hf; (destruct fuel as [|f]; [cbn in Hf; lia|]);
    cbn [clear_loop sclear_loop v_clear]; rewrite (v_first_spec ts i b H Hb), (first_element_spec b Hb), He; cbn [bind hd_error].
  - exists b. now rewrite (set_nth_same _ _ _ H).
  - rewrite (get_element_spec b _ Hb), He, find_sorted_hd. cbn [bind].
    destruct (delete_btree_spec_proof b (fst x) None Hb Him) as (b1 & Hd & Hb1 & He1 & Him1 & Ht1).
    rewrite He, find_sorted_hd in Hd, He1. cbn [dspec after_del] in Hd, He1. rewrite del_sorted_hd in He1.
    rewrite Hd. cbn [bind]. rewrite (v_del2 ts i b _ H), Hd. cbn [bind v_mutate fst].
    assert (Hi : (i < length ts)%nat) by (apply nth_error_Some; congruence).
    destruct (IH f (set_nth i b1 ts) b1 (nth_set_nth_eq _ _ _ Hi) Hb1 Him1 He1 ltac:(cbn in Hf; lia)) as (b' & Hc & Hsc & Hv).
    exists b'. rewrite Hv, set_nth_set_nth. auto.
Qed.

(* clear() and set.clear() with the fuel the harness model gives them: both loops end alike, and
   deleting the first key until none is left does to the trees what `mutate` does with their result *)
Lemma v_clear_spec ts i b : nth_error ts i = Some b -> bwf b ->
  match elements (b_root b) with
  | [] => v_clear (S (v_size ts (Z.of_nat i))) ts (Z.of_nat i) = ts
  | _ => exists r, clear_loop (S (Z.to_nat (b_size b))) b = r /\ sclear_loop (S (Z.to_nat (b_size b))) b = r /\
           v_clear (S (v_size ts (Z.of_nat i))) ts (Z.of_nat i) = fst (v_mutate ts i (do b' <- r; Ok (b', N)))
  end.
Proof.
  intros H Hb. unfold v_size. rewrite Nat2Z.id, H.
  destruct (elements (b_root b)) as [|x l] eqn:He.
  - cbn [v_clear]. now rewrite (v_first_spec ts i b H Hb), He.
  - destruct (b_immut b) eqn:Him.
    + rewrite (v_clear_frozen i _ _ b H Him).
      destruct (clear_frozen b x l (Z.to_nat (b_size b)) Hb Him He) as (-> & ->). eauto.
    + destruct (v_clear_mut i (x :: l) (S (Z.to_nat (b_size b))) ts b H Hb Him He) as (b' & -> & -> & ->); [|eauto].
      destruct Hb as (_ & ->). rewrite He. unfold zlen. rewrite Nat2Z.id. lia.
Qed.

(* an operation on a tree that is not there changes nothing *)
Lemma vexec_missing ts y i : target y = Some i -> nth_error ts i = None -> fst (vexec ts y) = ts.
Proof.
  intros Ht H. destruct y; inversion Ht; subst i; cbn [vexec vexec_prim fst v_clear];
    unfold v_with, v_lookup, v_first; rewrite H; reflexivity.
Qed.

Lemma with_tree_vexec w ti f y :
  target y = Some ti ->
  (forall b, nth_error (w_trees w) ti = Some b -> w_trees (fst (f ti b)) = fst (vexec (w_trees w) y)) ->
  w_trees (fst (with_tree w (Z.of_nat ti) f)) = fst (vexec (w_trees w) y).
Proof.
  intros Ht H. unfold with_tree. rewrite Nat2Z.id. destruct (nth_error (w_trees w) ti) as [b|] eqn:E; [now apply H|].
  symmetry. now apply (vexec_missing _ y ti).
Qed.

(* The opcodes of `step` fall into three kinds.  Those the store does not see leave the trees
   alone.  The store operations are `vexec_prim` under `with_tree`, output included.  The mixins
   (pop, popitem, clear, setdefault, remove, set.pop, set.clear) test the tree and then mutate it
   as a primitive does; their outputs differ from those of `vexec`, which the harness does not compare. *)
Lemma step_vexec x w : (forall i b, nth_error (w_trees w) i = Some b -> bwf b) ->
  match decode (enc x) with
  | Some y => w_trees (fst (step w (enc x))) = fst (vexec (w_trees w) y) /\
              (is_store_op (enc x) = true -> snd (step w (enc x)) = snd (vexec (w_trees w) y))
  | None => w_trees (fst (step w (enc x))) = w_trees w /\ is_store_op (enc x) = false
  end.
Proof.
  intros Hb. destruct x; unfold enc, nz, bz; cbv beta iota delta [decode step is_store_op].
  (* not seen by the store (reads, cursors, iterators, drop): whatever branch `step` takes, it returns the trees of w *)
  all: try (split; [|reflexivity]; unfold with_tree, with_cursor;
            repeat (match goal with |- context [match ?e with _ => _ end] => destruct e end); reflexivity).
  (* store primitives: new; insert, delete, d[k] = v, del d[k], add, discard, update (a mutation); freeze; clone, copy *)
  all: try (apply agrees_upto; first [apply new_v | apply with_tree_v; intros b _; first [apply mutate_v | apply clone_v | split; reflexivity]]).
  (* mixins, on a tree b that is there *)
  all: (split; [|intros H; discriminate H]); apply with_tree_vexec; [exact (f_equal Some (Nat2Z.id ti))|];
    intros b Eb; pose proof (Hb _ _ Eb) as Hbw; cbn [vexec fst].
  - (* pop *)
    rewrite (get_element_spec b k Hbw), (v_lookup_spec _ _ _ k Eb Hbw).
    destruct (find_sorted k (elements (b_root b))); [|reflexivity]. rewrite (v_del2 _ _ _ _ Eb). apply mutate_trees.
  - (* popitem *)
    rewrite (first_element_spec b Hbw), (v_first_spec _ _ _ Eb Hbw).
    destruct (elements (b_root b)) as [|x l] eqn:He; [reflexivity|]. cbn [hd_error].
    rewrite (get_element_spec b _ Hbw), He, find_sorted_hd, (v_del2 _ _ _ _ Eb). apply mutate_trees.
  - (* clear *)
    rewrite (first_element_spec b Hbw). pose proof (v_clear_spec _ _ _ Eb Hbw) as Hc.
    destruct (elements (b_root b)); [now rewrite Hc|]. destruct Hc as (r & -> & _ & ->). apply mutate_v.
  - (* setdefault *)
    rewrite (get_element_spec b k Hbw), (v_lookup_spec _ _ _ k Eb Hbw).
    destruct (find_sorted k (elements (b_root b))); [reflexivity|].
    cbn [vexec_prim]. rewrite (v_with_some _ _ _ _ Eb). apply mutate_trees.
  - (* set.remove *)
    rewrite (get_element_spec b k Hbw), (v_lookup_spec _ _ _ k Eb Hbw).
    destruct (find_sorted k (elements (b_root b))); [|reflexivity]. rewrite (v_del2 _ _ _ _ Eb). apply mutate_trees.
  - (* set.pop *)
    rewrite (first_element_spec b Hbw), (v_first_spec _ _ _ Eb Hbw).
    destruct (elements (b_root b)) as [|x l]; [reflexivity|]. cbn [hd_error]. rewrite (v_del2 _ _ _ _ Eb). apply mutate_trees.
  - (* set.clear *)
    rewrite (first_element_spec b Hbw). pose proof (v_clear_spec _ _ _ Eb Hbw) as Hc.
    destruct (elements (b_root b)); [now rewrite Hc|]. destruct Hc as (r & _ & -> & ->). apply mutate_v.
Qed.

Lemma obs_eqb_refl : forall a, obs_eqb a a = true.
Proof.
  fix IH 1. destruct a; cbn; try apply Z.eqb_refl; try apply zlist_eqb_refl; try reflexivity.
  revert l. fix IHl 1. destruct l; [reflexivity|]. rewrite IH. cbn. apply IHl.
Qed.

Lemma steps2_cons sw w x r :
  steps2 sw w (enc x :: r) =
  let '(w', o) := step w (enc x) in
  let '(sw', so) := sstep sw (enc x) in
  (if is_store_op (enc x) then (if obs_eqb o so then o else Prelude.E eStoreDiffers) else o) :: steps2 sw' w' r.
Proof. cbn [steps2]. destruct (step w (enc x)) as (w' & o). destruct (sstep sw (enc x)) as (sw' & so). destruct x; reflexivity. Qed.

(* one operation of a history: the two worlds stay related, and the comparison finds no difference *)
Lemma steps2_op sw w x r : SR sw (w_trees w) ->
  steps2 sw w (enc x :: r) = snd (step w (enc x)) :: steps2 (fst (sstep sw (enc x))) (fst (step w (enc x))) r /\
  SR (fst (sstep sw (enc x))) (w_trees (fst (step w (enc x)))).
Proof.
  intros HSR. rewrite steps2_cons.
  pose proof (step_vexec x w (fun i b => SR_bwf sw _ i b HSR)) as Hv.
  destruct (step w (enc x)) as (w' & o) eqn:Es. destruct (sstep sw (enc x)) as (sw' & so) eqn:Ess.
  unfold sstep in Ess. cbn [fst snd] in *.
  destruct (decode (enc x)) as [y|].
  - destruct Hv as (Htr & Hout). destruct (exec_sim _ _ _ _ _ HSR Ess) as (HSR' & Hso).
    rewrite <- Htr in HSR'. split; [|assumption]. f_equal.
    destruct (is_store_op (enc x)); [|reflexivity]. rewrite Hso, <- (Hout eq_refl). now rewrite obs_eqb_refl.
  - destruct Hv as (Htr & Hno). inversion Ess; subst sw' so. rewrite Hno, Htr. auto.
Qed.

Lemma steps2_steps xs : forall sw w, SR sw (w_trees w) -> steps2 sw w (map enc xs) = steps w (map enc xs).
Proof.
  induction xs as [|x r IH]; intros sw w HSR; [reflexivity|]. cbn [map steps].
  destruct (steps2_op sw w x (map enc r) HSR) as (-> & HSR'). destruct (step w (enc x)) as (w' & o). cbn [fst snd] in *.
  now rewrite (IH _ w' HSR').
Qed.

(* the store-level model run by the harness never reports a difference (eStoreDiffers) between
   the store world and the value-level world, and its observations are those of the value-level
   model - hence (history_refines) those of the sorted-list reference *)
Theorem store_run_proof xs :
  BTreeStoreM.run (L (I 0 :: map enc xs)) = BTreeM.run (L (I 0 :: map enc xs)).
Proof.
  unfold BTreeStoreM.run, BTreeM.run. f_equal. apply steps2_steps.
  cbn [w_trees]. apply SR_empty.
Qed.

Theorem store_run_reference_proof xs :
  BTreeStoreM.run (L (I 0 :: map enc xs)) = L (rsteps (mkRW [] []) xs).
Proof. rewrite store_run_proof. unfold BTreeM.run. now rewrite history_refines_proof. Qed.
