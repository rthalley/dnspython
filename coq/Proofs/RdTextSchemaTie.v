(* Tie to the C02 wire model (Model/SchemaM.v): for the self-delimiting field kinds, and one rest-of-line field
   (hex, base64, NSAP, TXT strings) at the end, the value that from_text returns is a valid value of the corresponding SchemaM wire field, so the C02 encoder
   (encode_rdata = the constructor checks followed by to_wire) does not stop at its validation step. *)
From DV Require Import Base.Prelude Model.NameM Model.TokM Model.RdTextM.
From DV Require Model.SchemaM.
From DV Require Import Proofs.NameValid Proofs.RdText Proofs.RdTextRel Proofs.RdTextWire.
Open Scope Z_scope.

Definition width (m : Z) : nat :=
  if m <=? 255 then 1 else if m <=? 65535 then 2 else if m <=? 4294967295 then 4 else 6.

Definition to_sfld (f : tfield) : option SchemaM.sfld :=
  match f with
  | FDec m => Some (SchemaM.FU (width m) m)
  | FTtl => Some (SchemaM.FU 4 MAX_TTL)
  | FAlg => Some (SchemaM.FU 1 255)
  | FEnum k => Some (SchemaM.FU (width (enum_max k)) (enum_max k))
  | FIntC m => Some (SchemaM.FU (width m) m)
  | FSigTime => Some (SchemaM.FU 4 4294967295)
  | FOct16 => Some (SchemaM.FU 2 65535)
  | FWksProto => Some (SchemaM.FU 1 255)
  | FQStr _ ctormax _ => if ctormax =? 255 then Some (SchemaM.FCounted 1 0 255) else None
  | FHexTok => Some (SchemaM.FCounted 1 0 255)
  | FB32 => Some (SchemaM.FCounted 1 0 255)
  | FTag => Some (SchemaM.FCounted 1 0 255)
  | FGposStr => Some (SchemaM.FCounted 1 0 255)
  | FName => Some (SchemaM.FName true)
  | FNameNoRel => Some (SchemaM.FName false)
  | _ => None
  end.

Definition to_sval (v : tval) : option SchemaM.sval :=
  match v with
  | VInt z => Some (SchemaM.VI z)
  | VBytes b => Some (SchemaM.VB b)
  | VName n => Some (SchemaM.VN n)
  | _ => None
  end.

Definition shape_of (s : SchemaM.sfld) (v : tval) : Prop :=
  match s, v with
  | SchemaM.FU _ _, VInt _ => True
  | SchemaM.FCounted _ _ _, VBytes _ => True
  | SchemaM.FName _, VName _ => True
  | _, _ => False
  end.

(* the constructor of the value follows from the field *)
Lemma parse_shape c f st raw st' v s : to_sfld f = Some s ->
  parse_field c f st = Ok (raw, st') -> ctor_field f raw = Ok v -> shape_of s v.
Proof.
  intros Hs H Hc.
  destruct f; cbn [to_sfld] in Hs; try discriminate;
    try (destruct (ctormax =? 255) eqn:Ec; [|discriminate]);
    inversion Hs; subst s; clear Hs; cbn [parse_field] in H; steps H; inversion H; subst; clear H;
    cbn [ctor_field] in Hc; steps Hc; inversion Hc; subst; exact Logic.I.
Qed.

Theorem tie_field c f st raw st' v s : to_sfld f = Some s ->
  parse_field c f st = Ok (raw, st') -> ctor_field f raw = Ok v ->
  exists x, to_sval v = Some x /\ SchemaM.valid_s s x = true.
Proof.
  intros Hs H Hc. pose proof (parse_shape c f st raw st' v s Hs H Hc) as Hsh.
  destruct (parse_field_wire c f st raw st' v H Hc) as [He Hx].
  destruct f; cbn [to_sfld] in Hs; try discriminate;
    try (destruct (ctormax =? 255) eqn:Ec; [|discriminate]);
    inversion Hs; subst s; clear Hs;
    destruct v; cbn [shape_of] in Hsh; try contradiction;
    cbn [val_encodable] in He; cbn [wire_extra] in Hx;
    (eexists; split; [reflexivity|]); cbn [SchemaM.valid_s]; unfold SchemaM.len_in; try lia.
  all: try (apply validate_iff in Hx; rewrite Hx; reflexivity).
  all: try (apply Z.eqb_eq in Ec); unfold zlen in *; lia.
Qed.

Fixpoint seq_z (n : nat) (s : Z) : list Z := match n with O => [] | S k => s :: seq_z k (s + 1) end.

(* whole records: self-delimiting fields, then possibly one field that runs to the end *)
Definition to_fld (f : tfield) : option SchemaM.fld :=
  match to_sfld f with
  | Some s => Some (SchemaM.FS s)
  | None =>
      match f with
      | FHexRest | FB64Rest _ | FNsap | FB64RestE => Some (SchemaM.FRemaining 0)
      | FTxtRest => Some (SchemaM.FRepeat true false [SchemaM.FCounted 1 0 255])
      | _ => None
      end
  end.

Definition to_val (f : tfield) (v : tval) : option SchemaM.val :=
  match f, v with
  | FTxtRest, VStrs l => Some (SchemaM.VL (map (fun s => [SchemaM.VB s]) l))
  | FTxtRest, _ => None
  | _, _ => match to_sval v with Some x => Some (SchemaM.VS x) | None => None end
  end.

Fixpoint to_fields (fs : list tfield) : option (list SchemaM.fld) :=
  match fs with
  | [] => Some []
  | f :: r => match to_fld f, to_fields r with
              | Some s, Some t => Some (s :: t)
              | _, _ => None
              end
  end.

Fixpoint to_vals (fs : list tfield) (vs : list tval) : option (list SchemaM.val) :=
  match fs, vs with
  | [], [] => Some []
  | f :: fr, v :: r => match to_val f v, to_vals fr r with
                       | Some x, Some t => Some (x :: t)
                       | _, _ => None
                       end
  | _, _ => None
  end.

Lemma tie_fld c f st raw st' v : parse_field c f st = Ok (raw, st') -> ctor_field f raw = Ok v ->
  forall g, to_fld f = Some g -> exists x, to_val f v = Some x /\ SchemaM.valid_f g x = true.
Proof.
  intros H Hc g Hg. unfold to_fld in Hg. destruct (to_sfld f) as [s|] eqn:Es.
  - inversion Hg; subst g. destruct (tie_field c f st raw st' v s Es H Hc) as (x & X1 & X2).
    exists (SchemaM.VS x). split; [|exact X2]. unfold to_val. rewrite X1.
    destruct f; try reflexivity. cbn [to_sfld] in Es. discriminate.
  - destruct (parse_field_wire c f st raw st' v H Hc) as [He Hx].
    destruct f; try discriminate; inversion Hg; subst g; clear Hg; cbn [parse_field] in H; try unfold rest_bytes in H;
      steps H; inversion H; subst; injection Hc as <-; (eexists; split; [reflexivity|]); cbn [SchemaM.valid_f];
      try (apply Z.leb_le; unfold zlen; lia).
    (* FTxtRest *)
    destruct Hx as [Hne Hl]. apply andb_true_iff. split; [apply andb_true_iff; split|reflexivity].
    + apply forallb_forall. intros row Hr. apply in_map_iff in Hr as (s0 & <- & Hs0). rewrite Forall_forall in Hl.
      specialize (Hl s0 Hs0). cbn [SchemaM.valid_row SchemaM.valid_s]. unfold SchemaM.len_in, zlen in *. lia.
    + cbn [negb orb]. rewrite map_length. destruct l; [congruence|reflexivity].
Qed.

Lemma tie_fields : forall fs vs,
  Forall2 (fun f v => forall g, to_fld f = Some g -> exists x, to_val f v = Some x /\ SchemaM.valid_f g x = true) fs vs ->
  forall wfs, to_fields fs = Some wfs -> exists xs, to_vals fs vs = Some xs /\ SchemaM.valid_fields wfs xs = true.
Proof.
  induction 1 as [|f v fs vs Hf _ IH]; intros wfs Hw; cbn [to_fields] in Hw.
  - injection Hw as <-. exists []. split; reflexivity.
  - destruct (to_fld f) as [s|] eqn:Es; [|discriminate]. destruct (to_fields fs) as [t|]; [|discriminate]. injection Hw as <-.
    destruct (Hf s eq_refl) as (x & X1 & X2). destruct (IH t eq_refl) as (xs & Y1 & Y2).
    exists (x :: xs). cbn [to_vals SchemaM.valid_fields]. rewrite X1, Y1, X2, Y2. split; reflexivity.
Qed.

(* accepted by from_text => the C02 encoder passes its constructor-validation step and proceeds to the octets *)
Theorem text_then_schema_encoder c fs chk st vs st' wfs origin :
  to_fields fs = Some wfs -> class_from_text c fs chk st = Ok (vs, st') ->
  exists xs, to_vals fs vs = Some xs /\
    SchemaM.encode_rdata origin wfs SchemaM.CkNone xs = SchemaM.enc_fields origin wfs xs.
Proof.
  intros Hw H. destruct (class_from_text_fields _ _ _ _ _ _ H) as (raws & E1 & E2).
  destruct (tie_fields fs vs (fields_forall2 c _ (tie_fld c) fs st raws st' vs E1 E2) wfs Hw) as (xs & X1 & X2).
  exists xs. split; [exact X1|]. unfold SchemaM.encode_rdata, SchemaM.validate. rewrite X2. reflexivity.
Qed.

(* the types of the table this covers *)
Definition tie_types : list Z :=
  filter (fun t => match schema_of t with Some fs => match to_fields fs with Some _ => true | None => false end | None => false end)
         (seq_z 300 0 ++ [32769; 196609]).
