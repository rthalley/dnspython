(* C08: what the tail of Message.to_wire appends is what was reserved for it - the OPT record exactly, plus the
   padding; the TSIG record at most - so that with padding the final length, TSIG included, is a multiple of
   the block size. *)
From DV Require Import Base.Prelude Model.NameM Model.MessageM.
From DV Require Import Proofs.ListFacts Proofs.NameOrder Proofs.NameValid Proofs.NameRel Proofs.NameWire Proofs.NameCompress.
From DV Require Import Proofs.MessageName Proofs.MessageRender Proofs.MessageSize.
Open Scope Z_scope.


Lemma tbl_get_root t : NoRootKey t -> tbl_get t [[]] = None.
Proof.
  induction 1 as [|[k v] t Hk _ IH]; [reflexivity|]. cbn [tbl_get fst] in *.
  destruct (name_eqb k [[]]) eqn:E; [|exact IH].
  apply name_eqb_iff_ci in E. unfold ci_equal in E. apply (f_equal (@length label)) in E.
  rewrite !map_length in E. cbn [length] in E. unfold zlen in Hk. unfold name, label in *. lia.
Qed.

Lemma fold_shift (os : list (Z * list Z)) a :
  fold_left (fun acc cd => acc + zlen (snd cd) + 4) os a = a + fold_left (fun acc cd => acc + zlen (snd cd) + 4) os 0.
Proof.
  revert a. induction os as [|cd os IH]; intros a; cbn [fold_left]; [lia|].
  rewrite IH. rewrite (IH (0 + zlen (snd cd) + 4)). lia.
Qed.

Lemma opts_wire_len : forall os wb,
  opts_wire os = Ok wb -> zlen wb = fold_left (fun acc cd => acc + zlen (snd cd) + 4) os 0.
Proof.
  induction os as [|[c d] os IH]; intros wb H.
  - injection H as <-. reflexivity.
  - cbn [opts_wire] in H. apply bind_ok in H. destruct H as (h1 & E1 & H). apply bind_ok in H. destruct H as (h2 & E2 & H).
    apply bind_ok in H. destruct H as (rest & E3 & H). injection H as <-.
    apply pack16_len in E1, E2. rewrite !zlen_app, E1, E2, (IH _ E3). cbn [fold_left snd].
    rewrite (fold_shift os (0 + zlen d + 4)). lia.
Qed.

(* root owner (one octet: no table entry is the root), ten octets of fixed fields, the options *)
Lemma opt_em_len o origin pos t em t' rs :
  NoRootKey t -> opt_rrset o = Ok rs -> rrset_em rs origin true pos t = Ok (em, t') ->
  zlen em = 11 + fold_left (fun acc cd => acc + zlen (snd cd) + 4) (oopts o) 0.
Proof.
  intros KL HR H. unfold opt_rrset in HR. apply bind_ok in HR. destruct HR as (wb & HW & HR). injection HR as <-.
  unfold rrset_em, wclass in H. cbn [rrds rdeleting rname rtype rclass rttl rrs_em] in H.
  apply bind_ok in H. destruct H as ([e1 t1] & H1 & H). cbn [bind fst snd] in H. injection H as <- <-.
  rewrite app_nil_r. apply rr_em_split in H1. destruct H1 as (e0 & t0 & e2 & H0 & H2 & _ & _ & _ & _ & ->).
  cbn [rd_em bind fst snd] in H2. injection H2 as <- _. rewrite app_nil_r.
  unfold nm_em, full_labels in H0. cbn [is_absolute bind] in H0.
  change (mk_name [[]]) with (@Ok name [[]]) in H0. cbn [bind tw_em] in H0. rewrite (tbl_get_root t KL) in H0.
  injection H0 as <- _. rewrite <- (opts_wire_len _ _ HW). rewrite !zlen_app, !zlen_cons.
  unfold zlen. cbn [length MessageM.u16 MessageM.u32]. lia.
Qed.

(* the padding option's data, as Renderer.add_opt computes it *)
Definition padding (pad size : Z) : list Z :=
  if size mod pad =? 0 then [] else repeat 0 (Z.to_nat (pad - size mod pad)).

Lemma padding_len pad size : 0 < pad -> (size + zlen (padding pad size)) mod pad = 0.
Proof.
  intros Hp. unfold padding. destruct (Z.eqb_spec (size mod pad) 0) as [E|E]; [rewrite Z.add_0_r; exact E|].
  pose proof (Z.mod_pos_bound size pad Hp). unfold zlen. rewrite repeat_length, Z2Nat.id by lia.
  replace (size + (pad - size mod pad)) with (pad * (size / pad + 1)) by (pose proof (Z.div_mod size pad); lia).
  rewrite Z.mul_comm. apply Z.mod_mul. lia.
Qed.

(* Renderer.add_opt appends exactly the reserved octets and the padding, or finds that they do not fit *)
Lemma add_opt_len m o oo pad ts eff r b r' :
  mopt m = Some oo -> SInv eff r -> add_opt o oo pad (compute_opt_reserve m pad) ts r = Ok (b, r') ->
  let n := compute_opt_reserve m pad +
           (if pad =? 0 then 0 else zlen (padding pad (zlen (out r) + compute_opt_reserve m pad + ts))) in
  SInv eff r' /\
  if b then maxsz r < zlen (out r) + n
  else zlen (out r') = zlen (out r) + n /\ padded r' = (if pad =? 0 then padded r else true) /\ maxsz r' = maxsz r.
Proof.
  intros HO I H n. destruct (add_opt_SInv _ _ _ _ _ _ _ _ _ I H) as (I' & _). split; [exact I'|].
  rewrite add_opt_tracked in H. apply bind_ok in H. destruct H as (rs & HRS & H).
  set (r1 := if pad =? 0 then r else set_padded r) in *.
  assert (F1 : out r1 = out r /\ tbl r1 = tbl r /\ maxsz r1 = maxsz r /\ padded r1 = if pad =? 0 then padded r else true)
    by (unfold r1; destruct (pad =? 0); auto).
  destruct F1 as (O1 & T1 & M1 & P1). destruct I as (_ & _ & TB & KL & _).
  assert (TB1 : TblBelow r1) by (unfold TblBelow; rewrite O1, T1; exact TB).
  destruct (tracked_spec _ _ _ _ _ _ (ext_rrset_em _ _ _) TB1 H) as (_ & em & new & HE & _ & X).
  rewrite O1, T1, M1 in *. pose proof (opt_em_len _ _ _ _ _ _ _ KL HRS HE) as Lo.
  assert (Eo : compute_opt_reserve m pad
               = 11 + fold_left (fun acc cd => acc + zlen (snd cd) + 4) (oopts oo) 0 + (if pad =? 0 then 0 else 4))
    by (unfold compute_opt_reserve; rewrite HO, fold_shift; lia).
  assert (En : zlen em = n).
  { unfold n, padding. rewrite Eo at 1. destruct (pad =? 0); [lia|].
    cbn [oopts] in Lo. rewrite fold_left_app in Lo. cbn [fold_left snd] in Lo. lia. }
  destruct X as [(-> & _ & ->)|(-> & Hbig & _)]; [|lia].
  cbn [out padded maxsz inc_count set_out set_rsec]. rewrite zlen_app, P1, M1. split; [lia|auto].
Qed.

(* emission without compression depends on neither position nor table *)
Definition nc_em (E : emitter) : Prop :=
  forall pos t em t', E pos t = Ok (em, t') -> t' = t /\ forall pos' t2, E pos' t2 = Ok (em, t2).

Lemma nc_seq E1 E2 : nc_em E1 -> nc_em E2 -> nc_em (seq_em E1 E2).
Proof.
  intros X1 X2 pos t em t' H. apply seq_em_ok in H. destruct H as (e1 & t1 & e2 & H1 & H2 & ->).
  destruct (X1 _ _ _ _ H1) as (-> & I1). destruct (X2 _ _ _ _ H2) as (-> & I2). split; [reflexivity|].
  intros pos' t2. unfold seq_em. rewrite I1. cbn [bind fst snd]. rewrite I2. reflexivity.
Qed.

Lemma nm_em_nc n o : nc_em (nm_em n o false).
Proof.
  unfold nm_em. intros pos t em t' H. apply bind_ok in H. destruct H as (labels & HL & H). injection H as <- <-.
  split; [reflexivity|]. intros pos' t2. rewrite HL. reflexivity.
Qed.

Lemma rd_em_nc : forall rd o, nc_em (rd_em rd o false).
Proof.
  induction rd as [|p r IH]; intros o.
  - intros pos t em t' H. injection H as <- <-. split; reflexivity.
  - intros pos t em t' H. rewrite rd_em_cons in H. apply (nc_seq (piece_em p o false) (rd_em r o false)) in H.
    + destruct H as (-> & H). split; [reflexivity|]. intros. rewrite rd_em_cons. apply H.
    + destruct p; try apply nm_em_nc. intros ? ? ? ? E. injection E as <- <-. split; reflexivity.
    + apply IH.
Qed.

Lemma rr_em_nc kn ty cl ttl rd o pos t em t' :
  rr_em kn ty cl ttl rd o None false false pos t = Ok (em, t') -> is_absolute kn = true ->
  rr_em kn ty cl ttl rd None None false false 0 [] = Ok (em, []).
Proof.
  intros H A. apply rr_em_split in H. destruct H as (e1 & t1 & e2 & H1 & H2 & L & R1 & R2 & R3 & ->).
  unfold nm_em in H1. rewrite (full_labels_abs_origin kn o A) in H1. fold (nm_em kn None false pos t) in H1.
  exact (rr_em_join _ _ _ _ _ _ _ _ _ _ _ _ _ _ _ (proj2 (nm_em_nc _ _ _ _ _ _ H1) _ _) (proj2 (rd_em_nc _ _ _ _ _ _ H2) _ _) L R1 R2 R3).
Qed.

Lemma tsig_reserve_spec m kn rd tr :
  mtsig m = Some (kn, rd) -> compute_tsig_reserve m = Ok tr ->
  is_absolute kn = true /\ exists et, rr_em kn tTSIG cANY 0 rd None None false false 0 [] = Ok (et, []) /\ tr = zlen et.
Proof.
  intros HT H. unfold compute_tsig_reserve in H. rewrite HT in H.
  apply bind_ok in H. destruct H as ([[f t] n] & HW & H). injection H as <-. cbn [fst].
  rewrite rrset_to_wire_em in HW. apply bind_ok in HW. destruct HW as ([f' t'] & HR & HW). injection HW as <- <- _.
  unfold run_em in HR. apply bind_ok in HR. destruct HR as ([em t2] & HE & HR). cbn [fst snd app] in HR. injection HR as <- <-.
  unfold rrset_em, tsig_rrset, wclass in HE. cbn [rrds rdeleting rname rtype rclass rttl rrs_em] in HE.
  change (zlen (@nil Z)) with 0 in HE.
  apply bind_ok in HE. destruct HE as ([e1 t1] & H1 & HE). cbn [bind fst snd] in HE. injection HE as <- <-.
  rewrite app_nil_r.
  assert (A : is_absolute kn = true).
  { apply rr_em_split in H1. destruct H1 as (x & ? & ? & H0 & _). unfold nm_em, full_labels in H0.
    destruct (is_absolute kn); [reflexivity|discriminate]. }
  split; [exact A|]. exists e1. split; [|reflexivity].
  exact (rr_em_nc _ _ _ _ _ _ _ _ _ _ H1 A).
Qed.

Lemma tsig_reserve_make m kn rd et t :
  mtsig m = Some (kn, rd) -> rr_em kn tTSIG cANY 0 rd None None false false 0 [] = Ok (et, t) ->
  compute_tsig_reserve m = Ok (zlen et).
Proof.
  intros HM H. unfold compute_tsig_reserve. rewrite HM. rewrite rrset_to_wire_em. unfold run_em, rrset_em, tsig_rrset, wclass.
  cbn [rrds rdeleting rname rtype rclass rttl rrs_em]. change (zlen (@nil Z)) with 0. rewrite H. cbn [bind fst snd app].
  rewrite app_nil_r. reflexivity.
Qed.

Lemma wire_labels_pos (n : name) : n <> [] -> 1 <= zlen (wire_labels false n).
Proof. destruct n as [|l r]; [congruence|]. intros _. rewrite wire_labels_cons, zlen_cons. pose proof (zlen_nonneg (l ++ wire_labels false r)). lia. Qed.

(* compression never makes a name longer: a pointer (2 octets) only replaces a suffix of at least two labels *)
Lemma tw_em_le : forall L pos t, NoRootKey t -> zlen (fst (tw_em L pos t)) <= zlen (wire_labels false L).
Proof.
  induction L as [|l r IH]; intros pos t KL; [cbn; lia|].
  cbn [tw_em]. rewrite wire_labels_cons, (zlen_cons (zlen l)), zlen_app. destruct (tbl_get t (l :: r)) as [p|] eqn:E.
  - cbn [fst]. change (zlen (NameM.u16 (49152 + p))) with 2.
    destruct (tbl_get_some _ _ _ E) as (k & I & Eq). apply name_eqb_iff_ci in Eq. apply ci_equal_length in Eq.
    unfold NoRootKey in KL. rewrite Forall_forall in KL. specialize (KL _ I). cbn [fst] in KL.
    assert (r <> []). { intros ->. unfold zlen in KL. cbn [length] in *. lia. }
    pose proof (wire_labels_pos r H). pose proof (zlen_nonneg l). lia.
  - cbn [fst]. rewrite (zlen_cons (zlen l)), zlen_app.
    match goal with |- context [tw_em r _ ?t'] => assert (KL' : NoRootKey t') end.
    { destruct (Z.ltb_spec 1 (zlen (l :: r))); cbn [andb]; [|exact KL]. destruct (pos <=? 16383); [|exact KL].
      apply Forall_app. split; [exact KL|]. constructor; [cbn [fst]; exact H|constructor]. }
    pose proof (IH (pos + 1 + zlen l) _ KL'). lia.
Qed.

(* Renderer._write_tsig appends at most the reserved octets (exactly those after padding, when the record is written
   without compression), or finds that they do not fit *)
Lemma write_tsig_len m o kn rd tr eff r b r' :
  mtsig m = Some (kn, rd) -> compute_tsig_reserve m = Ok tr -> SInv eff r -> write_tsig o kn rd r = Ok (b, r') ->
  exists n, 0 <= n <= tr /\ (padded r = true -> n = tr) /\
    if b then maxsz r < zlen (out r) + n else zlen (out r') = zlen (out r) + n /\ cad r' = cad r + 1.
Proof.
  intros HT TR I H. destruct (tsig_reserve_spec m kn rd tr HT TR) as (A & et0 & HE0 & ->).
  rewrite write_tsig_eq in H. apply bind_ok in H. destruct H as ([b1 r1] & H1 & H). cbn [fst snd] in H.
  destruct I as (I12 & _ & TB & KL & _).
  destruct (tracked_spec _ _ _ _ _ _ (ext_rr_em _ _ _ _ _ _ _ _ _) TB H1) as (_ & et & new & HE & _ & X).
  exists (zlen et). pose proof (zlen_nonneg et).
  assert (LE : zlen et <= zlen et0 /\ (padded r = true -> zlen et = zlen et0)).
  { destruct (padded r); cbn [negb] in HE.
    - pose proof (rr_em_nc _ _ _ _ _ _ _ _ _ _ HE A) as HE'. rewrite HE0 in HE'. injection HE' as <-. split; [lia|reflexivity].
    - split; [|discriminate]. apply rr_em_split in HE. destruct HE as (e1 & t1 & e2 & N1 & D1 & _ & _ & _ & _ & ->).
      apply rr_em_split in HE0. destruct HE0 as (f1 & u1 & f2 & M1 & M2 & _ & _ & _ & _ & ->).
      rewrite (proj2 (rd_em_nc _ _ _ _ _ _ D1)) in M2. injection M2 as <- _.
      unfold nm_em in N1, M1. rewrite (full_labels_abs_origin kn o A) in N1.
      destruct (full_labels kn None) as [L| |]; cbn [bind] in *; try discriminate.
      injection M1 as <- _. replace e1 with (fst (tw_em L (zlen (out r)) (tbl r))) by (injection N1 as ->; reflexivity).
      rewrite !zlen_app. pose proof (tw_em_le L (zlen (out r)) (tbl r) KL). lia. }
  split; [lia|]. split; [exact (proj2 LE)|].
  destruct X as [(-> & _ & ->)|(-> & Hbig & ->)]; [|injection H as <- _; lia].
  apply bind_ok in H. destruct H as (c & _ & H). injection H as <- <-.
  cbn [out cad inc_count set_out set_rsec Z.eqb Pos.eqb]. rewrite zlen_patch16, zlen_app by (rewrite ?zlen_app; lia). lia.
Qed.

(* the tail of Message.to_wire appends what was reserved *)
Lemma finish_len m o pad tr eff r3 r :
  SInv eff r3 -> compute_tsig_reserve m = Ok tr -> finish m o pad (compute_opt_reserve m pad) tr r3 = Ok r ->
  exists plen tlen,
    zlen (out r) = zlen (out r3) + compute_opt_reserve m pad + plen + tlen /\ 0 <= tlen <= tr /\
    match mopt m with
    | Some _ => pad <> 0 -> plen = zlen (padding pad (zlen (out r3) + compute_opt_reserve m pad + tr)) /\ tlen = tr
    | None => plen = 0
    end /\ (pad = 0 -> plen = 0).
Proof.
  intros I TR H. apply finish_iff in H. destruct H as (r5 & r6 & R5 & R6 & H).
  destruct (release_SInv _ _ I) as (I4 & _). set (r4 := release_reserved r3) in *.
  assert (X5 : exists plen, SInv eff r5 /\ zlen (out r5) = zlen (out r3) + compute_opt_reserve m pad + plen /\
               match mopt m with
               | Some _ => pad <> 0 -> plen = zlen (padding pad (zlen (out r3) + compute_opt_reserve m pad + tr)) /\ padded r5 = true
               | None => plen = 0
               end /\ (pad = 0 -> plen = 0)).
  { destruct (mopt m) as [oo|] eqn:EO.
    - destruct (add_opt_len m o oo pad tr eff r4 false _ EO I4 R5) as (I5 & Z5 & P5 & _).
      change (out r4) with (out r3) in *. eexists. split; [exact I5|]. split; [rewrite Z.add_assoc in Z5; exact Z5|].
      destruct (Z.eqb_spec pad 0); split; try contradiction; auto.
    - subst r5. exists 0. split; [exact I4|]. unfold compute_opt_reserve. rewrite EO. change (out r4) with (out r3).
      split; [lia|auto]. }
  destruct X5 as (plen & I5 & Z5 & P5 & P0).
  destruct (write_header_SInv _ _ _ _ I5 R6) as (I6 & (_ & _ & PD6 & _) & Z6).
  destruct (mtsig m) as [[kn rd]|] eqn:ET.
  - destruct H as (r7 & A7 & H).
    destruct (write_tsig_len m o kn rd tr eff r6 false r7 ET TR I6 A7) as (tlen & T1 & T2 & Z7 & _).
    destruct (write_tsig_SInv _ _ _ _ _ _ _ I6 A7) as (I7 & _).
    destruct (write_header_SInv _ _ _ _ I7 H) as (_ & _ & Z8).
    exists plen, tlen. split; [lia|]. split; [exact T1|]. split; [|exact P0].
    destruct (mopt m); [|exact P5]. intros Hp. destruct (P5 Hp) as (-> & PD5). split; [reflexivity|]. apply T2. congruence.
  - subst r. unfold compute_tsig_reserve in TR. rewrite ET in TR. injection TR as <-.
    exists plen, 0. split; [lia|]. split; [lia|]. split; [|exact P0].
    destruct (mopt m); [|exact P5]. intros Hp. destruct (P5 Hp) as (-> & _). auto.
Qed.

Theorem pad_multiple_lemma m origin ms rp prefer pad o w :
  0 < pad -> mopt m = Some o -> to_wire m origin ms rp prefer pad = Ok w -> zlen w mod pad = 0.
Proof.
  intros Hp HO H.
  destruct (to_wire_stages _ _ _ _ _ _ _ H) as (r & tr & r2 & b4 & s4 & r3 & -> & ST & _ & _ & FIN & _ & _ & I3).
  apply start_iff in ST. destruct ST as (TR & _).
  destruct (finish_len _ _ _ _ _ _ _ I3 TR FIN) as (plen & tlen & Z & _ & P & _). rewrite HO in P.
  destruct (P ltac:(lia)) as (-> & ->). rewrite Z.
  replace (zlen (out r3) + compute_opt_reserve m pad + zlen (padding pad (zlen (out r3) + compute_opt_reserve m pad + tr)) + tr)
    with (zlen (out r3) + compute_opt_reserve m pad + tr + zlen (padding pad (zlen (out r3) + compute_opt_reserve m pad + tr))) by lia.
  apply padding_len. exact Hp.
Qed.
