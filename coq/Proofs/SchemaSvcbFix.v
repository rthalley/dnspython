(* SVCB / HTTPS: whatever the reader accepts (after the dict semantics "last value wins") encodes,
   and the encoding decodes to the same record: fixed point of decode-then-encode. *)
From DV Require Import Base.Prelude Model.NameM Model.SchemaM Model.SchemaHand
  Proofs.SchemaName Proofs.SchemaCodec Proofs.SchemaThm Proofs.SchemaFix Proofs.SchemaHandOrigin Proofs.SchemaHandThm.
Open Scope Z_scope.

Lemma svcb_params_enc_total : forall ps,
  forallb svcb_param_row_ok ps = true -> exists b, svcb_params_enc ps = Ok b.
Proof.
  induction ps as [|r rr IH]; intros H; [cbn; eauto|].
  cbn [forallb] in H. apply andb_prop in H as [Hr H2].
  apply svcb_param_row_inv in Hr as (k & raw & -> & Hk & Hl & _).
  destruct (IH H2) as [b Eb]. cbn [svcb_params_enc].
  replace ((0 <=? k) && (k <? 65536) && (zlen raw <? 65536)) with true by lia.
  rewrite Eb. cbn [bind]. eauto.
Qed.

Theorem svcb_fixed_point_thm : forall wire cur rdlen vs,
  hand_decode_rdata HSvcb None wire cur rdlen = Ok vs ->
  exists w', hand_encode_rdata HSvcb None vs = Ok w' /\
             hand_decode_rdata HSvcb None w' 0 (length w') = Ok vs.
Proof.
  intros wire cur rdlen vs H. apply hand_decode_ok in H as (_ & Hd & Hv). cbn [hand_dec hand_valid] in Hd, Hv.
  unfold svcb_dec in Hd.
  inv_bind Hd. destruct x as [prio c1]. inv_bind Hd. destruct x as [tgt c2]. cbn [fst snd] in Hd.
  destruct ((prio =? 0) && negb (Nat.eqb (cur + rdlen - c2) 0)) eqn:Ealias; [discriminate|].
  inv_bind Hd. destruct x as [ps c3]. injection Hd as <- _. cbn [fst snd] in *.
  apply get_name_none in E0 as [Habs Hval].
  (* AliasMode: no parameters were read *)
  assert (Hal : prio <> 0 \/ dedupe_last ps = []).
  { destruct (prio =? 0) eqn:Ep; [|left; lia]. right.
    apply negb_false_iff, Nat.eqb_eq in Ealias. cbn [svcb_params_dec] in E1.
    destruct (Nat.leb_spec (cur + rdlen) c2); [|lia]. injection E1 as <- _. reflexivity. }
  pose proof Hv as Hv'. unfold svcb_valid in Hv'.
  do 2 apply andb_prop in Hv' as [Hv' _]. apply andb_prop in Hv' as [Hv' Hrows].
  destruct (svcb_params_enc_total _ Hrows) as [p Ep].
  assert (Ew : svcb_enc None [VS (VI prio); VS (VN tgt); VL (dedupe_last ps)] = Ok (be_encode 2 prio ++ wire_labels false tgt ++ p)).
  { cbn [svcb_enc]. replace ((0 <=? prio) && (prio <? 65536)) with true by lia.
    unfold NameM.to_wire. rewrite Habs. cbn [bind]. rewrite Ep. reflexivity. }
  eexists. exact (hand_fixed_point HSvcb [VS (VI prio); VS (VN tgt); VL (dedupe_last ps)] _ (conj Hval Hal) Hv Ew).
Qed.
