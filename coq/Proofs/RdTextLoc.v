(* LOC (dns/rdtypes/ANY/LOC.py): coordinates with their optional minutes / seconds / milliseconds, the altitude
   and the three sizes printed with format(x / 100.0, "0.2f") and read back with float(t) * 100.0, in IEEE-754
   double arithmetic (Model/RdTextM.v: round_q and friends, compared with CPython's float on every run). *)
From DV Require Import Base.Prelude Model.NameM Model.TokM Model.RdTextM.
From DV Require Import Proofs.TokEsc Proofs.TokTxt Proofs.TokWords Proofs.TokDec Proofs.TokShape Proofs.TokGeneric
     Proofs.RdTextAddr Proofs.RdTextTypes Proofs.RdTextTail Proofs.RdTextApl.
Open Scope Z_scope.
Set Warnings "-abstract-large-number".

Lemma dec_value_app x : forall y a, dec_value (x ++ y) a = dec_value y (dec_value x a).
Proof. induction x as [|c x IH]; intros y a; [reflexivity|]. cbn [app dec_value]. apply IH. Qed.

Lemma pad2_facts b : 0 <= b < 100 ->
  forallb is_decimal (pad2 b) = true /\ zlen (pad2 b) = 2 /\ forall a, dec_value (pad2 b) a = a * 100 + b.
Proof.
  intros Hb. unfold pad2. split; [|split; [reflexivity|]].
  - cbn [forallb]. unfold is_decimal. replace ((48 <=? 48 + b / 10) && (48 + b / 10 <=? 57)) with true by dlia.
    replace ((48 <=? 48 + b mod 10) && (48 + b mod 10 <=? 57)) with true by dlia. reflexivity.
  - intros a. cbn [dec_value]. dlia.
Qed.

Lemma pad3_facts b : 0 <= b <= 999 ->
  forallb is_decimal (pad3 b) = true /\ length (pad3 b) = 3%nat /\ dec_value (pad3 b) 0 = b.
Proof.
  intros Hb. pose proof (dec_decimal b (proj1 Hb)) as D. pose proof (dec_value_dec b (proj1 Hb)) as V. unfold pad3.
  destruct (b <? 10) eqn:E1; [|destruct (b <? 100) eqn:E2].
  - rewrite forallb_app, app_length, dec_value_app, D, (dec_length b 0) by (cbn; lia). auto.
  - change (48 :: dec b) with ([48] ++ dec b). rewrite forallb_app, app_length, dec_value_app, D, (dec_length b 1) by (cbn; lia). auto.
  - rewrite (dec_length b 2) by (cbn; lia). auto.
Qed.

Lemma rdiv_even_nonneg n d : 0 <= n -> 0 < d -> 0 <= rdiv_even n d.
Proof.
  intros Hn Hd. unfold rdiv_even. assert (0 <= n / d) by (apply Z.div_pos; lia).
  destruct ((2 * (n mod d) >? d) || ((2 * (n mod d) =? d) && Z.odd (n / d))); lia.
Qed.

Lemma pow2_pos k : 0 < 2 ^ k \/ k < 0.
Proof. destruct (Z_lt_le_dec k 0); [right; assumption|left; apply Z.pow_pos_nonneg; lia]. Qed.

Lemma dbl_q_pos x : 0 <= dm x -> 0 <= fst (dbl_q x) /\ 0 < snd (dbl_q x).
Proof.
  intros Hm. unfold dbl_q. destruct (de x >=? 0) eqn:E; cbn [fst snd].
  - split; [|lia]. apply Z.mul_nonneg_nonneg; [exact Hm|]. apply Z.pow_nonneg. lia.
  - split; [exact Hm|]. apply Z.pow_pos_nonneg; lia.
Qed.

Lemma round_q_dm neg n d : 0 <= n -> 0 < d -> 0 <= dm (the_dbl (round_q neg n d)).
Proof.
  intros Hn Hd. unfold round_q. destruct (n =? 0); [cbn; lia|].
  destruct (scaled n d (pick_exp n d)) as [sn sd] eqn:Es.
  assert (Hs : 0 <= sn /\ 0 < sd).
  { unfold scaled in Es. destruct (pick_exp n d >=? 0) eqn:Ee; inversion Es; subst.
    - split; [lia|]. apply Z.mul_pos_pos; [lia|apply Z.pow_pos_nonneg; lia].
    - split; [|lia]. apply Z.mul_nonneg_nonneg; [lia|apply Z.pow_nonneg; lia]. }
  pose proof (rdiv_even_nonneg sn sd (proj1 Hs) (proj2 Hs)) as Hr.
  destruct (rdiv_even sn sd =? p53); cbn [fst snd].
  - destruct (pick_exp n d + 1 >? 971); cbn [the_dbl dm]; unfold p52; lia.
  - destruct (pick_exp n d >? 971); cbn [the_dbl dm]; lia.
Qed.

Definition fmt_R (d : dbl) : Z := let '(n, q) := dbl_q d in rdiv_even (n * 100) q.

Lemma fmt_R_nonneg d : 0 <= dm d -> 0 <= fmt_R d.
Proof.
  intros Hm. unfold fmt_R. destruct (dbl_q_pos d Hm) as [A B]. destruct (dbl_q d) as [n q]. cbn [fst snd] in *.
  apply rdiv_even_nonneg; lia.
Qed.

Lemma format_2f_eq d : format_2f d = (if dneg d then [45] else []) ++ dec (fmt_R d / 100) ++ [46] ++ pad2 (fmt_R d mod 100).
Proof. unfold format_2f, fmt_R. destruct (dbl_q d) as [n q]. reflexivity. Qed.

Definition numc (c : Z) : bool := is_decimal c || (c =? 46) || (c =? 45) || (c =? 109).

Lemma numc_safe t : forallb numc t = true -> forallb safe t = true.
Proof.
  intros H. apply forallb_forall. intros c Hc. rewrite forallb_forall in H. specialize (H c Hc).
  unfold numc, is_decimal in H. apply safe_char; lia.
Qed.

Lemma decimal_numc s : forallb is_decimal s = true -> forallb numc s = true.
Proof.
  intros H. apply forallb_forall. intros c Hc. rewrite forallb_forall in H. unfold numc. rewrite (H c Hc). reflexivity.
Qed.

(* float() of [-]digits.digits *)
Lemma float_of_decimal (neg : bool) ip fp : forallb is_decimal ip = true -> ip <> [] -> forallb is_decimal fp = true ->
  float_of_text ((if neg then [45] else []) ++ ip ++ 46 :: fp) = Ok (round_q neg (dec_value (ip ++ fp) 0) (10 ^ zlen fp)).
Proof.
  intros Hi Hne Hf. destruct ip as [|c0 r0]; [congruence|].
  assert (Hc0 : 48 <= c0 <= 57) by (cbn [forallb] in Hi; unfold is_decimal in Hi; lia).
  assert (Hsplit : split_once 46 ((c0 :: r0) ++ 46 :: fp) = Some (c0 :: r0, fp))
    by (apply split_once_app, decimal_nosep; [left; reflexivity|exact Hi]).
  unfold float_of_text. destruct neg; cbn [app].
  - change (45 =? 45) with true. cbv iota. change (c0 :: r0 ++ 46 :: fp) with ((c0 :: r0) ++ 46 :: fp).
    rewrite Hsplit, Hi, Hf. reflexivity.
  - replace (c0 =? 45) with false by lia. replace (c0 =? 43) with false by lia.
    change (c0 :: r0 ++ 46 :: fp) with ((c0 :: r0) ++ 46 :: fp). rewrite Hsplit, Hi, Hf. reflexivity.
Qed.

(* float(format(x, "0.2f")) is the correctly rounded value of the printed decimal *)
Lemma float_of_format d : 0 <= dm d ->
  float_of_text (format_2f d) = Ok (round_q (dneg d) (fmt_R d) 100) /\ forallb numc (format_2f d) = true.
Proof.
  intros Hm. pose proof (fmt_R_nonneg d Hm) as HR. rewrite format_2f_eq. set (R := fmt_R d) in *.
  assert (Ha : 0 <= R / 100) by (apply Z.div_pos; lia).
  assert (Hb : 0 <= R mod 100 < 100) by (apply Z.mod_pos_bound; lia).
  destruct (pad2_facts (R mod 100) Hb) as (P1 & P2 & P3). pose proof (dec_decimal (R / 100) Ha) as D1. split.
  - change ([46] ++ pad2 (R mod 100)) with (46 :: pad2 (R mod 100)).
    rewrite (float_of_decimal _ _ _ D1 (dec_nonempty _) P1), dec_value_app, dec_value_dec, P3, P2 by exact Ha.
    do 2 f_equal. dlia.
  - rewrite !forallb_app, (decimal_numc _ D1), (decimal_numc _ P1). destruct (dneg d); reflexivity.
Qed.

Definition num_reparse (x : dbl) : fval :=
  let y := the_dbl (fdiv100 x) in fmul100 (round_q (dneg y) (fmt_R y) 100).

Lemma fdiv100_dm x : 0 <= dm x -> 0 <= dm (the_dbl (fdiv100 x)).
Proof.
  intros Hm. unfold fdiv100. destruct (dbl_q_pos x Hm) as [A B]. destruct (dbl_q x) as [n q]. cbn [fst snd] in *.
  apply round_q_dm; lia.
Qed.

Theorem loc_meters_text x : 0 <= dm x ->
  loc_meters (meters_text x) = Ok (num_reparse x) /\ forallb safe (meters_text x) = true /\ meters_text x <> [].
Proof.
  intros Hm. pose proof (fdiv100_dm x Hm) as Hy. destruct (float_of_format _ Hy) as [F N].
  unfold meters_text. split; [|split].
  - unfold loc_meters. rewrite rev_app_distr. cbn [rev app]. change (109 =? 109) with true. cbv iota.
    rewrite rev_involutive. rewrite F. reflexivity.
  - apply numc_safe. rewrite forallb_app, N. reflexivity.
  - destruct (format_2f (the_dbl (fdiv100 x))); discriminate.
Qed.

Lemma isdecimal_dec n : 0 <= n -> isdecimal_str (dec n) = true.
Proof. exact (dec_isdecimal n). Qed.

Definition secs_text (s ms : Z) : list Z := dec s ++ 46 :: pad3 ms.

Lemma secs_facts s ms : 0 <= s -> 0 <= ms <= 999 ->
  forallb safe (secs_text s ms) = true /\ secs_text s ms <> [] /\ isdecimal_str (secs_text s ms) = false /\
  existsb (Z.eqb 46) (secs_text s ms) = true /\ split_on 46 (secs_text s ms) [] = [dec s; pad3 ms].
Proof.
  intros Hs Hms. destruct (pad3_facts ms Hms) as (P1 & P2 & P3). pose proof (dec_decimal s Hs) as D.
  unfold secs_text. split; [|split; [|split; [|split]]].
  - apply numc_safe. rewrite forallb_app. cbn [forallb]. rewrite (decimal_numc _ D), (decimal_numc _ P1). reflexivity.
  - destruct (dec s); discriminate.
  - unfold isdecimal_str. rewrite forallb_app. cbn [forallb]. change (is_decimal 46) with false. rewrite andb_false_r, andb_false_r. reflexivity.
  - rewrite existsb_app. cbn [existsb]. change (46 =? 46) with true. rewrite orb_true_r. reflexivity.
  - rewrite split_on_word by (apply dec_ns; [exact Hs|left; reflexivity]). cbn [rev app].
    rewrite split_on_last by (apply decimal_nosep; [left; reflexivity|exact P1]). reflexivity.
Qed.

Definition coord_wf (cd : Z * Z * Z * Z * Z) : Prop :=
  let '(d, m, s, ms, sign) := cd in 0 <= d /\ 0 <= m /\ 0 <= s /\ 0 <= ms <= 999 /\ (sign = 1 \/ sign = -1).

Lemma coord_parse cd hpos hneg tail stX : coord_wf cd -> hpos <> hneg -> safe hpos = true -> safe hneg = true ->
  let '(d, m, s, ms, sign) := cd in
  get0 stX = Ok (utok (dec d),
                 stq false ([32] ++ dec m ++ ([32] ++ secs_text s ms ++ ([32] ++ [if sign >? 0 then hpos else hneg] ++ (32 :: tail))))) ->
  loc_coord stX hpos hneg = Ok (cd, stq false (32 :: tail)).
Proof.
  destruct cd as [[[[d m] s] ms] sign]. intros (Hd & Hm & Hs & Hms & Hsign) Hne Sp Sn HX.
  destruct (secs_facts s ms Hs Hms) as (F1 & F2 & F3 & F4 & F5). destruct (pad3_facts ms Hms) as (P1 & P2 & P3).
  set (h := if sign >? 0 then hpos else hneg) in *.
  assert (Sh : forallb safe [h] = true) by (unfold h; destruct (sign >? 0); cbn [forallb]; rewrite ?Sp, ?Sn; reflexivity).
  set (r3 := 32 :: tail) in *. set (r2 := [32] ++ [h] ++ r3) in *. set (r1 := [32] ++ secs_text s ms ++ r2) in *.
  assert (W1 : word_end r1) by apply word_end_blank. assert (W2 : word_end r2) by apply word_end_blank.
  assert (W3 : word_end r3) by apply word_end_blank.
  unfold loc_coord. rewrite (get_int_from d stX _ Hd HX). cbn [bind fst snd].
  rewrite (get_string_word false [32] (dec m) r1 eq_refl (dec_safe m Hm) (dec_nonempty m) W1). cbn [bind fst snd].
  rewrite (isdecimal_dec m Hm). rewrite (dec_value_dec m Hm).
  unfold r1 at 1. rewrite (get_string_word false [32] (secs_text s ms) r2 eq_refl F1 F2 W2). cbn [bind fst snd].
  rewrite F4, F5. rewrite (isdecimal_dec s Hs). cbn [negb]. rewrite P2.
  change (Nat.eqb 3 0 || Nat.ltb 3 3) with false. rewrite P1. cbn [negb orb].
  change (Nat.eqb 3 1) with false. change (Nat.eqb 3 2) with false. cbv iota.
  unfold r2 at 1. rewrite (get_string_word false [32] [h] r3 eq_refl Sh ltac:(discriminate) W3). cbn [bind fst snd].
  rewrite (dec_value_dec s Hs), P3. replace (1 * ms) with ms by lia.
  unfold h. destruct Hsign as [-> | ->]; cbn [Z.gtb Z.compare].
  - cbn [zlist_eqb]. replace (hpos =? hneg) with false by lia. cbn [andb]. rewrite Z.eqb_refl. reflexivity.
  - cbn [zlist_eqb]. rewrite Z.eqb_refl. reflexivity.
Qed.

Definition loc_sizes_default (sz hp vp : dbl) : bool :=
  dbl_eqb sz loc_default_size && dbl_eqb hp loc_default_hprec && dbl_eqb vp loc_default_vprec.

Definition loc_ok (la lo : Z * Z * Z * Z * Z) (alt : Z) (sz hp vp : dbl) : Prop :=
  coord_wf la /\ coord_wf lo /\ loc_coord_ok la 90 = true /\ loc_coord_ok lo 180 = true /\
  -10000000 <= alt < 4284967296 /\
  (exists a', num_reparse (the_dbl (dbl_of_Z alt)) = FFin a' /\ dbl_round a' = alt) /\
  0 <= dm sz /\ 0 <= dm hp /\ 0 <= dm vp /\
  (loc_sizes_default sz hp vp = false ->
     (exists s, loc_norm (num_reparse sz) = Ok s) /\ (exists s, loc_norm (num_reparse hp) = Ok s)
     /\ (exists s, loc_norm (num_reparse vp) = Ok s)).

(* the value the wire form of a re-read size has (loc_norm succeeds under loc_ok) *)
Definition norm_dbl (x : fval) : dbl := match loc_norm x with Ok d => d | _ => mkD false 0 (-1074) end.

(* what from_text returns: the sizes re-read from their two-decimal text and cut to one digit times a power of ten *)
Definition loc_expect (la lo : Z * Z * Z * Z * Z) (alt : Z) (sz hp vp : dbl) : tval :=
  if loc_sizes_default sz hp vp then VLoc la lo alt sz hp vp
  else VLoc la lo alt (norm_dbl (num_reparse sz)) (norm_dbl (num_reparse hp)) (norm_dbl (num_reparse vp)).

Lemma default_sizes_ok : loc_norm (FFin loc_default_size) = Ok loc_default_size /\ loc_norm (FFin loc_default_hprec) = Ok loc_default_hprec
  /\ loc_norm (FFin loc_default_vprec) = Ok loc_default_vprec.
Proof. repeat split; vm_compute; reflexivity. Qed.

Lemma dbl_eqb_eq a b : dbl_eqb a b = true -> dm b <> 0 -> a = b.
Proof.
  unfold dbl_eqb. destruct a as [na ma ea], b as [nb mb eb]. cbn [dm de dneg]. intros H Hb.
  apply andb_true_iff in H as [H H3]. apply andb_true_iff in H as [H1 H2]. apply Z.eqb_eq in H1. apply Z.eqb_eq in H2. subst.
  apply orb_true_iff in H3 as [H3|H3]; [apply Bool.eqb_prop in H3; subst; reflexivity|apply Z.eqb_eq in H3; congruence].
Qed.

Lemma grl3 z1 z2 z3 R : forallb safe z1 = true -> z1 <> [] -> forallb safe z2 = true -> z2 <> [] ->
  forallb safe z3 = true -> z3 <> [] -> word_end R ->
  get_remaining (stq false ([32] ++ z1 ++ ([32] ++ z2 ++ ([32] ++ z3 ++ R)))) 3 = Ok ([utok z1; utok z2; utok z3], stq false R).
Proof.
  intros S1 N1 S2 N2 S3 N3 HR. unfold get_remaining, rem_fuel, stq. cbn [inp pend app length].
  change (mkSt (32 :: z1 ++ 32 :: z2 ++ 32 :: z3 ++ R) 0 false None) with (stq false ([32] ++ z1 ++ ([32] ++ z2 ++ ([32] ++ z3 ++ R)))).
  rewrite grl_unfold_m.
  rewrite (get0_word_q false [32] z1 ([32] ++ z2 ++ ([32] ++ z3 ++ R)) eq_refl (units_safe _ S1) N1 (word_end_blank _)).
  cbn [bind]. change (is_eol_or_eof (mkTok tIDENT z1 (has_bs z1) None)) with false. cbv iota.
  change (negb (3 =? 0) && (zlen [mkTok tIDENT z1 (has_bs z1) None] =? 3)) with false. cbv iota.
  rewrite grl_unfold_m.
  rewrite (get0_word_q false [32] z2 ([32] ++ z3 ++ R) eq_refl (units_safe _ S2) N2 (word_end_blank _)).
  cbn [bind]. change (is_eol_or_eof (mkTok tIDENT z2 (has_bs z2) None)) with false. cbv iota.
  change (negb (3 =? 0) && (zlen [mkTok tIDENT z2 (has_bs z2) None; mkTok tIDENT z1 (has_bs z1) None] =? 3)) with false. cbv iota.
  assert (Hf : exists f, length (z1 ++ 32 :: z2 ++ 32 :: z3 ++ R) = S f).
  { destruct z1; [congruence|]. cbn [app length]. eexists. reflexivity. }
  destruct Hf as (f & Ef). rewrite Ef. rewrite grl_unfold_m.
  rewrite (get0_word_q false [32] z3 R eq_refl (units_safe _ S3) N3 HR).
  cbn [bind]. change (is_eol_or_eof (mkTok tIDENT z3 (has_bs z3) None)) with false. cbv iota.
  change (negb (3 =? 0) && (zlen [mkTok tIDENT z3 (has_bs z3) None; mkTok tIDENT z2 (has_bs z2) None; mkTok tIDENT z1 (has_bs z1) None] =? 3)) with true.
  cbv iota. reflexivity.
Qed.

Lemma meters_token x : 0 <= dm x ->
  (do u <- unescape (utok (meters_text x)); loc_meters (tvalue u)) = Ok (num_reparse x).
Proof.
  intros Hm. destruct (loc_meters_text x Hm) as (E & S & N). rewrite unescape_utok by exact S. exact E.
Qed.

Definition loc_tail (sz hp vp : dbl) (R : list Z) : list Z :=
  if loc_sizes_default sz hp vp then R
  else [32] ++ meters_text sz ++ ([32] ++ meters_text hp ++ ([32] ++ meters_text vp ++ R)).

Definition hemi (sign pos neg : Z) : Z := if sign >? 0 then pos else neg.

(* the printed record after its first token *)
Definition loc_rest (m1 s1 ms1 sg1 d2 m2 s2 ms2 sg2 alt : Z) (sz hp vp : dbl) (R : list Z) : list Z :=
  [32] ++ dec m1 ++ ([32] ++ secs_text s1 ms1 ++ ([32] ++ [hemi sg1 78 83] ++ (32 ::
    (dec d2 ++ ([32] ++ dec m2 ++ ([32] ++ secs_text s2 ms2 ++ ([32] ++ [hemi sg2 69 87] ++ (32 ::
       (meters_text (the_dbl (dbl_of_Z alt)) ++ loc_tail sz hp vp R))))))))).

Lemma loc_text_shape d1 m1 s1 ms1 sg1 d2 m2 s2 ms2 sg2 alt sz hp vp R :
  loc_to_text (d1, m1, s1, ms1, sg1) (d2, m2, s2, ms2, sg2) alt sz hp vp ++ R
  = dec d1 ++ loc_rest m1 s1 ms1 sg1 d2 m2 s2 ms2 sg2 alt sz hp vp R.
Proof.
  unfold loc_rest, loc_to_text, coord_text, secs_text, loc_tail, hemi, loc_sizes_default.
  destruct (dbl_eqb sz loc_default_size && dbl_eqb hp loc_default_hprec && dbl_eqb vp loc_default_vprec);
    repeat (rewrite <- ?app_assoc; cbn [app]); reflexivity.
Qed.

Theorem loc_after_first d1 m1 s1 ms1 sg1 d2 m2 s2 ms2 sg2 alt sz hp vp R stX :
  loc_ok (d1, m1, s1, ms1, sg1) (d2, m2, s2, ms2, sg2) alt sz hp vp -> line_end R ->
  get0 stX = Ok (utok (dec d1), stq false (loc_rest m1 s1 ms1 sg1 d2 m2 s2 ms2 sg2 alt sz hp vp R)) ->
  exists st, loc_from_text stX = Ok (loc_expect (d1, m1, s1, ms1, sg1) (d2, m2, s2, ms2, sg2) alt sz hp vp, st) /\
    (at_eol st \/ st = stq false R).
Proof.
  intros (W1 & W2 & C1 & C2 & Halt & (a' & Ea & Ra) & M1 & M2 & M3 & Hsz) HR HX.
  set (A := meters_text (the_dbl (dbl_of_Z alt))) in *. set (T := loc_tail sz hp vp R) in *.
  assert (Md : 0 <= dm (the_dbl (dbl_of_Z alt))) by (unfold dbl_of_Z; apply round_q_dm; lia).
  destruct (loc_meters_text _ Md) as (EA & SA & NA). fold A in EA, SA, NA.
  assert (WT : word_end T).
  { unfold T, loc_tail. destruct (loc_sizes_default sz hp vp); [apply line_end_word_end, HR|apply word_end_blank]. }
  unfold loc_from_text. unfold loc_rest, hemi in HX.
  set (rest2 := [32] ++ dec m2 ++ ([32] ++ secs_text s2 ms2 ++ ([32] ++ [if sg2 >? 0 then 69 else 87] ++ (32 :: (A ++ T))))) in *.
  pose proof (coord_parse (d1, m1, s1, ms1, sg1) 78 83 (dec d2 ++ rest2) stX W1 ltac:(lia) eq_refl eq_refl) as P1. cbv beta iota in P1.
  rewrite (P1 HX). cbn [bind fst snd].
  (* longitude: its first token *)
  assert (Hd2 : 0 <= d2) by (destruct W2 as (H & _); exact H).
  pose proof (get0_word_q false [32] (dec d2) rest2 eq_refl (units_safe _ (dec_safe d2 Hd2)) (dec_nonempty d2) (word_end_blank _)) as G2.
  pose proof (coord_parse (d2, m2, s2, ms2, sg2) 69 87 (A ++ T) (stq false (32 :: dec d2 ++ rest2)) W2 ltac:(lia) eq_refl eq_refl) as P2.
  cbv beta iota in P2. rewrite (P2 G2). cbn [bind fst snd].
  change (32 :: (A ++ T)) with ([32] ++ A ++ T).
  rewrite (get_string_word false [32] A T eq_refl SA NA WT). cbn [bind fst snd]. rewrite EA. cbn [bind]. rewrite Ea. cbn [bind].
  rewrite Ra.
  unfold T, loc_tail, loc_expect. destruct (loc_sizes_default sz hp vp) eqn:Edef.
  - (* default sizes: nothing follows the altitude *)
    unfold get_remaining, rem_fuel. rewrite grl_unfold_m.
    destruct (get0_end_q false [] R eq_refl HR) as (te & st & H1 & H2 & H3 & H4 & E). cbn [app] in E. rewrite E. cbn [bind].
    rewrite H1. unfold unget. rewrite H4. cbn [bind rev fst snd map_res nth].
    destruct default_sizes_ok as (D1 & D2 & D3). rewrite D1, D2, D3. cbn [bind].
    rewrite C1, C2. cbn [negb orb]. replace ((alt <? -10000000) || (alt >=? 4284967296)) with false by lia.
    unfold loc_sizes_default in Edef. apply andb_true_iff in Edef as [Edef E3]. apply andb_true_iff in Edef as [E1 E2].
    rewrite (dbl_eqb_eq _ _ E1 ltac:(vm_compute; discriminate)), (dbl_eqb_eq _ _ E2 ltac:(vm_compute; discriminate)),
            (dbl_eqb_eq _ _ E3 ltac:(vm_compute; discriminate)).
    eexists. split; [reflexivity|]. left. exists te. split; [reflexivity|exact H1].
  - destruct (Hsz eq_refl) as ((k1 & K1) & (k2 & K2) & (k3 & K3)).
    destruct (loc_meters_text sz M1) as (_ & S1 & N1). destruct (loc_meters_text hp M2) as (_ & S2 & N2).
    destruct (loc_meters_text vp M3) as (_ & S3 & N3).
    rewrite (grl3 _ _ _ R S1 N1 S2 N2 S3 N3 (line_end_word_end R HR)). cbn [bind fst snd map_res].
    rewrite (meters_token sz M1), (meters_token hp M2), (meters_token vp M3). cbn [bind nth].
    unfold norm_dbl. rewrite K1, K2, K3. cbn [bind]. rewrite C1, C2. cbn [negb orb].
    replace ((alt <? -10000000) || (alt >=? 4284967296)) with false by lia.
    eexists. split; [reflexivity|]. right. reflexivity.
Qed.

(* the numbers that occur in records read from wire *)
(* sizes: base * 10^exponent centimetres, base and exponent 0..9 (RFC 1876): the two-decimal text is read back to
   exactly the same value *)
Definition wire_size (b e : Z) : dbl := the_dbl (round_q false (b * 10 ^ e) 1).

Definition size_rt_ok (be : Z * Z) : bool :=
  let x := wire_size (fst be) (snd be) in
  match loc_norm (num_reparse x) with
  | Ok y => (dm y =? dm x) && (de y =? de x) && Bool.eqb (dneg y) (dneg x) && (0 <=? dm x)
  | _ => false
  end.

Definition all_sizes : list (Z * Z) := flat_map (fun b => map (fun e => (b, e)) [0; 1; 2; 3; 4; 5; 6; 7; 8; 9]) [0; 1; 2; 3; 4; 5; 6; 7; 8; 9].

Lemma wire_sizes_roundtrip : forallb size_rt_ok all_sizes = true.
Proof. vm_compute. reflexivity. Qed.

Theorem wire_size_roundtrip b e : 0 <= b <= 9 -> 0 <= e <= 9 ->
  loc_norm (num_reparse (wire_size b e)) = Ok (wire_size b e) /\ 0 <= dm (wire_size b e).
Proof.
  intros Hb He. pose proof wire_sizes_roundtrip as G. rewrite forallb_forall in G. specialize (G (b, e)).
  assert (Hin : In (b, e) all_sizes).
  { unfold all_sizes. apply in_flat_map. exists b. split.
    - cbn [In]. lia.
    - apply in_map_iff. exists e. split; [reflexivity|]. cbn [In]. lia. }
  specialize (G Hin). unfold size_rt_ok in G. cbn [fst snd] in G.
  destruct (loc_norm (num_reparse (wire_size b e))) as [y| |]; try discriminate.
  apply andb_true_iff in G as [G G4]. apply andb_true_iff in G as [G G3]. apply andb_true_iff in G as [G1 G2].
  split; [|lia]. f_equal. destruct y as [ny my ey], (wire_size b e) as [nx mx ex]. cbn [dm de dneg] in *.
  apply Z.eqb_eq in G1. apply Z.eqb_eq in G2. apply Bool.eqb_prop in G3. subst. reflexivity.
Qed.

(* altitude: see Proofs/RdTextLocAlt.v (error bounds on the correctly rounded operations, whole wire range) *)
