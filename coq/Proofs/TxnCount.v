(* C10: the iterate calls inside the refinement.  iterate_names / iterate_rdatasets count the names and the
   rdatasets of the private state; to relate these counts the simulation relation is strengthened with the
   structural well-formedness of the node map (Proofs/TxnAbs.v) and with "every owner stored by the reference
   store is a canonical absolute name".  Then every history - iterate calls included - gives the same results
   on the zone model and on the reference store. *)
From DV Require Import Base.Prelude Model.NameM Model.TxnM.
From DV Require Import Proofs.NameValid Proofs.NameOrder Proofs.NameRel.
From DV Require Import Proofs.TxnName Proofs.TxnStore Proofs.TxnLow Proofs.TxnSim Proofs.TxnThm Proofs.TxnAbs.
Open Scope Z_scope.

Lemma filter_length_split {A} (p : A -> bool) l :
  length l = (length (filter p l) + length (filter (fun x => negb (p x)) l))%nat.
Proof. induction l as [|x l IH]; cbn; [reflexivity|]. destruct (p x); cbn; lia. Qed.

Lemma entries_at_length a l : length (entries_at a l) = length (filter (at_name a) l).
Proof. unfold entries_at. apply map_length. Qed.

Lemma existsb_drop_other a0 a l :
  name_eqb a0 a = false ->
  existsb (at_name a) (filter (fun e => negb (at_name a0 e)) l) = existsb (at_name a) l.
Proof. intros E. rewrite !existsb_entries, entries_at_drop, E. reflexivity. Qed.

(* the number of distinct owners: one for the class of a0 if present, plus the others *)
Lemma distinct_names_drop a0 l :
  length (distinct_names l) =
  ((if existsb (at_name a0) l then 1 else 0) + length (distinct_names (filter (fun e => negb (at_name a0 e)) l)))%nat.
Proof.
  induction l as [|e l IH]; [reflexivity|]. cbn [distinct_names existsb filter].
  destruct (at_name a0 e) eqn:Ea; cbn [negb orb].
  - (* e belongs to the class of a0 *)
    rewrite distinct_names_mem.
    assert (existsb (at_name (e_name e)) l = existsb (at_name a0) l) as ->.
    { apply existsb_ext. intros x. unfold at_name in *. apply name_eqb_trans_r. exact Ea. }
    destruct (existsb (at_name a0) l); [exact IH|cbn [length]; rewrite IH; reflexivity].
  - cbn [distinct_names]. rewrite !distinct_names_mem.
    rewrite existsb_drop_other by (unfold at_name in Ea; rewrite name_eqb_sym; exact Ea).
    destruct (existsb (at_name (e_name e)) l); [exact IH|cbn [length]; rewrite IH; lia].
Qed.

Section Count.
  Variable c : cfg.
  Hypothesis W : wfc c.

  (* every owner in the reference store is a canonical absolute name *)
  Definition centries (l : list entry) : Prop :=
    Forall (fun e => Valid (e_name e) /\ canon c (e_name e) = Ok (e_name e)) l.

  Definition same_per_owner (l1 l2 : list entry) : Prop :=
    forall a, Valid a -> canon c a = Ok a -> entries_at a l1 = entries_at a l2.

  Lemma centries_filter p l : centries l -> centries (filter p l).
  Proof.
    intros H. apply Forall_forall. intros x Hx. apply filter_In in Hx. eapply Forall_forall in H; [exact H|tauto].
  Qed.

  Lemma entries_at_self e l : In e l -> entries_at (e_name e) l <> [].
  Proof.
    intros Hin H. assert (In (e_rds e) (entries_at (e_name e) l)) as K; [|rewrite H in K; exact K].
    unfold entries_at. apply in_map. apply filter_In. split; [exact Hin|apply name_eqb_refl].
  Qed.

  (* a store that holds nothing for any canonical owner is empty *)
  Lemma same_per_owner_nil l : centries l -> same_per_owner [] l -> l = [].
  Proof.
    intros C S. destruct l as [|e l]; [reflexivity|]. exfalso. inversion C as [|? ? [Ve Ce] _]; subst.
    apply (entries_at_self e (e :: l)); [left; reflexivity|]. rewrite <- (S (e_name e) Ve Ce). reflexivity.
  Qed.

  Lemma same_per_owner_counts n : forall l1 l2,
    (length l1 <= n)%nat -> centries l1 -> centries l2 -> same_per_owner l1 l2 ->
    length l1 = length l2 /\ length (distinct_names l1) = length (distinct_names l2).
  Proof.
    induction n as [|n IH]; intros l1 l2 Hn C1 C2 S.
    - destruct l1; [|cbn in Hn; lia]. rewrite (same_per_owner_nil l2 C2 S). auto.
    - destruct l1 as [|e l1].
      + rewrite (same_per_owner_nil l2 C2 S). auto.
      + inversion C1 as [|? ? [Ve Ce] C1']; subst. set (a0 := e_name e) in *.
        set (d := fun x : entry => negb (at_name a0 x)).
        assert (same_per_owner (filter d (e :: l1)) (filter d l2)) as S'.
        { intros a Va Ca. unfold d. rewrite !entries_at_drop. destruct (name_eqb a0 a); [reflexivity|apply S; auto]. }
        assert (length (filter d (e :: l1)) <= n)%nat as Hn'.
        { unfold d at 1. cbn [filter]. unfold at_name at 1. fold a0. rewrite name_eqb_refl. cbn [negb].
          pose proof (filter_length_split d l1) as K. cbn [length] in Hn. change (length (filter d l1) <= n)%nat. lia. }
        destruct (IH _ _ Hn' (centries_filter d _ C1) (centries_filter d _ C2) S') as [L1 L2].
        pose proof (S a0 Ve Ce) as Sa.
        split.
        * rewrite (filter_length_split (at_name a0) (e :: l1)), (filter_length_split (at_name a0) l2).
          fold d. rewrite <- !entries_at_length, Sa, L1. reflexivity.
        * rewrite (distinct_names_drop a0 (e :: l1)), (distinct_names_drop a0 l2). fold d. rewrite L2.
          rewrite !existsb_entries, Sa. reflexivity.
  Qed.

  Definition R2 (v : version) (s : rstate) : Prop := R c v s /\ zwf c (v_nodes v) /\ centries (rs_entries s).
  Definition RP2 (z : nmap) (l : list entry) : Prop := RP c z l /\ zwf c z /\ centries l.

  Lemma opt_node_inj l1 l2 : opt_node l1 = opt_node l2 -> l1 = l2.
  Proof. destruct l1, l2; cbn; intros H; inversion H; reflexivity. Qed.

  Lemma centries_abs m : zwf c m -> centries (abs c m).
  Proof.
    intros [_ H]. unfold abs. induction m as [|[k nd] m IH]; [constructor|].
    inversion H as [|? ? [K _] H2]; subst. cbn [flat_map fst snd]. apply Forall_app. split; [|apply IH; exact H2].
    destruct (key_ok_canon c k W K) as [Ca _]. destruct K as [Vk _].
    apply Forall_forall. intros e He. apply in_map_iff in He. destruct He as (r & <- & _). cbn [e_name].
    split; [eapply canon_valid; eauto|eapply canon_idem; eauto].
  Qed.

  Theorem R2_count v s : R2 v s -> s_count (zstore c) v = s_count (rstore c) s.
  Proof.
    intros (HR & Hz & Hc).
    destruct v as [m ch], s as [l d]. cbn [v_nodes rs_entries] in *.
    rewrite (iter_counts_abs c m ch d W Hz). cbn [s_count rstore rs_entries].
    assert (same_per_owner (abs c m) l) as S.
    { intros a Va Ca.
      pose proof (validate_canon c a W Va) as VC. rewrite Ca in VC.
      destruct (validate_name c a) as [k| |] eqn:Ev; try contradiction.
      destruct HR as (Hm & _). destruct (RP_abs c m W Hz) as (Hm' & _). cbn [v_nodes rs_entries] in *.
      apply opt_node_inj. rewrite <- (Hm a k a Va Ev Ca), <- (Hm' a k a Va Ev Ca). reflexivity. }
    destruct (same_per_owner_counts (length (abs c m)) (abs c m) l (Nat.le_refl _) (centries_abs m Hz) Hc S) as [L1 L2].
    unfold zlen. rewrite L1, L2. reflexivity.
  Qed.

  Lemma r_put_centries s n r s' : Valid n -> centries (rs_entries s) -> r_put c s n r = Ok s' -> centries (rs_entries s').
  Proof.
    intros Vn Hc. unfold r_put. destruct (canon c n) as [a| |] eqn:Ca; cbn [bind]; try discriminate.
    intros H; inversion H; subst. cbn [rs_entries]. apply Forall_app. split; [apply centries_filter; exact Hc|].
    constructor; [|constructor]. cbn [e_name]. split; [eapply canon_valid; eauto|eapply canon_idem; eauto].
  Qed.

  Lemma r_del_name_centries s n s' : centries (rs_entries s) -> r_del_name c s n = Ok s' -> centries (rs_entries s').
  Proof.
    intros Hc. unfold r_del_name. destruct (canon c n); cbn [bind]; try discriminate.
    destruct (existsb _ _); intros H; inversion H; subst; [apply centries_filter|]; exact Hc.
  Qed.

  Lemma r_del_rds_centries s n ty cov s' : centries (rs_entries s) -> r_del_rds c s n ty cov = Ok s' -> centries (rs_entries s').
  Proof.
    intros Hc. unfold r_del_rds. destruct (canon c n); cbn [bind]; try discriminate.
    intros H; inversion H; subst. apply centries_filter; exact Hc.
  Qed.

  Lemma sim2_put v s n r : R2 v s -> Valid n -> r_cls r = cIN -> res_rel R2 (put_rdataset c v n r) (r_put c s n r).
  Proof.
    intros (HR & Hz & Hc) Vn Cr. pose proof (sim_put c W v s n r HR Vn Cr) as SP.
    destruct (put_rdataset c v n r) as [v'| |] eqn:E1, (r_put c s n r) as [s'| |] eqn:E2; cbn in SP |- *; try contradiction; auto.
    split; [exact SP|split; [eapply put_wf; eauto|eapply r_put_centries; eauto]].
  Qed.

  Lemma sim2_del_name v s n : R2 v s -> Valid n -> res_rel R2 (delete_node c v n) (r_del_name c s n).
  Proof.
    intros (HR & Hz & Hc) Vn. pose proof (sim_del_name c W v s n HR Vn) as SP.
    destruct (delete_node c v n) as [v'| |] eqn:E1, (r_del_name c s n) as [s'| |] eqn:E2; cbn in SP |- *; try contradiction; auto.
    split; [exact SP|split; [eapply del_name_wf; eauto|eapply r_del_name_centries; eauto]].
  Qed.

  Lemma sim2_del_rds v s n ty cov : R2 v s -> Valid n -> res_rel R2 (delete_rdataset c v n ty cov) (r_del_rds c s n ty cov).
  Proof.
    intros (HR & Hz & Hc) Vn. pose proof (sim_del_rds c W v s n ty cov HR Vn) as SP.
    destruct (delete_rdataset c v n ty cov) as [v'| |] eqn:E1, (r_del_rds c s n ty cov) as [s'| |] eqn:E2;
      cbn in SP |- *; try contradiction; auto.
    split; [exact SP|split; [eapply del_rds_wf; eauto|eapply r_del_rds_centries; eauto]].
  Qed.
End Count.

Definition op_valid_it (o : op) : Prop := match o with OIter => True | _ => op_valid o end.
Definition spec_valid_it (x : txnspec) : Prop := Forall op_valid_it (x_ops x).

Lemma hist_valid_it h : Forall spec_valid_it h -> Forall (fun x => Forall (op_valid_or_iter true) (x_ops x)) h.
Proof.
  intros F. eapply Forall_impl; [|exact F]. intros x Hx. eapply Forall_impl; [|exact Hx].
  intros o Ho. destruct o; try (left; exact Ho). right. auto.
Qed.

(* The refinement with every observation of a transaction inside: add / replace / delete / delete_exact /
   update_serial / get / get_node / name_exists / changed / iterate_names / iterate_rdatasets / commit /
   rollback, any argument forms, any abort point. *)
Theorem refines_iter c h z l :
  wfc c -> Forall spec_valid_it h -> RP2 c z l ->
  Forall2 (ROut (RP2 c)) (impl_hist c h z) (spec_hist c h l).
Proof.
  intros W F HP. unfold impl_hist, spec_hist.
  apply (sim_run_hist (zstore c) (rstore c) c c EV (R2 c) (RP2 c) true (fun _ => True) closed_True EV_empty (EV_origin Valid c));
    auto using hist_valid_rel, hist_valid_it, hist_ok_True.
  - split.
    + intros s1 s2 (H1 & H2 & H3). split; [apply sim_publish; exact H1|split; [exact H2|exact H3]].
    + intros s1 s2 n1 n2 ty cov [HR _] [-> Vn]. apply sim_get; auto.
    + intros s1 s2 n ty cov r _ G. split; [exact (r_get_cls c _ _ _ _ _ G)|exact Logic.I].
    + intros s1 s2 n1 n2 r HR [-> Vn] Hc _. apply sim2_put; auto.
    + intros s1 s2 n1 n2 HR [-> Vn]. apply sim2_del_name; auto.
    + intros s1 s2 n1 n2 ty cov HR [-> Vn]. apply sim2_del_rds; auto.
    + intros s1 s2 n1 n2 [HR _] [-> Vn]. apply sim_exists; auto.
    + intros s1 s2 n1 n2 [HR _] [-> Vn]. apply sim_node; auto.
    + intros s1 s2 [HR _]. apply sim_changed; auto.
    + intros _ s1 s2 HR. apply R2_count; auto.
  - intros z1 z2 b (H1 & H2 & H3). cbn [s_begin zstore rstore]. destruct b.
    + split; [apply RP_nil|split; [apply zwf_nil|constructor]].
    + split; [exact H1|split; [exact H2|exact H3]].
Qed.

Lemma RP2_empty c : RP2 c [] [].
Proof. split; [apply RP_nil|split; [apply zwf_nil|constructor]]. Qed.

(* every well-formed zone is related to its abstraction *)
Lemma RP2_abs c m : wfc c -> zwf c m -> RP2 c m (abs c m).
Proof. intros W H. split; [apply RP_abs; auto|split; [exact H|apply centries_abs; auto]]. Qed.
