(* The size limit of Message.to_wire: the rendering depends on max_size / request_payload only through
   the effective limit; without prefer_truncation the result at another limit is the same octets or
   TooBig, decided by what the section loops and the result need (by the length alone without TSIG),
   and always the same at a larger limit.
   With prefer_truncation TooBig is not raised when the reserves fit; a padded rendering is the unpadded
   rendering of the message that carries the padding option; the known findings as theorems. *)
From DV Require Import Base.Prelude Model.NameM Model.MessageM.
From DV Require Import Proofs.ListFacts Proofs.NameOrder Proofs.NameValid Proofs.NameRel Proofs.NameWire Proofs.NameCompress.
From DV Require Import Proofs.MessageName Proofs.MessageRender Proofs.MessageRead Proofs.MessageRoundtrip Proofs.MessageRoundtrip2.
From DV Require Import Proofs.MessageSize Proofs.MessagePad Proofs.MessageTrunc Proofs.MessageRoundtrip3 Proofs.MessageTruncParse Proofs.MessageUpdate Proofs.MessageRerender.
Open Scope Z_scope.

Definition clamp (x : Z) : Z := if x <? 512 then 512 else if x >? 65535 then 65535 else x.

Lemma eff_limit_clamp ms rp :
  eff_limit ms rp = clamp (if ms =? 0 then (if rp =? 0 then 65535 else rp) else ms).
Proof. reflexivity. Qed.

Lemma to_wire_eff m o ms rp ms' rp' pf pad :
  eff_limit ms rp = eff_limit ms' rp' -> to_wire m o ms rp pf pad = to_wire m o ms' rp' pf pad.
Proof. intros H. unfold to_wire, to_wire_st. rewrite H. reflexivity. Qed.

Lemma clamp_idem x : clamp (clamp x) = clamp x.
Proof.
  unfold clamp. destruct (Z.ltb_spec x 512); [reflexivity|].
  destruct (Z.gtb_spec x 65535); [reflexivity|].
  destruct (Z.ltb_spec x 512); [lia|]. destruct (Z.gtb_spec x 65535); [lia|reflexivity].
Qed.

Lemma clamp_nz x : (clamp x =? 0) = false.
Proof. apply Z.eqb_neq. unfold clamp. destruct (Z.ltb_spec x 512); [lia|]. destruct (Z.gtb_spec x 65535); lia. Qed.

(* Message.to_wire(max_size=0) uses the request payload, else 65535; limits below 512 / above 65535 are
   clamped; the payload advertised by the message's own OPT record plays no role *)
Theorem limit_defaulting_lemma m o ms rp pf pad :
  to_wire m o ms rp pf pad =
  to_wire m o (clamp (if ms =? 0 then (if rp =? 0 then 65535 else rp) else ms)) 0 pf pad.
Proof.
  apply to_wire_eff. rewrite !eff_limit_clamp. rewrite clamp_nz. rewrite clamp_idem. reflexivity.
Qed.

(* the state a under other limits: max_size x, reserved v, and padded flag p *)
Definition relimit (a : rst) (x v : Z) (p : bool) : rst :=
  mkRst (out a) (tbl a) (cq a) (can a) (cau a) (cad a) (rsec a) (rflags a) x v p.

(* a write that fitted under one limit fits under another exactly when its end is within it *)
Lemma tracked_relimit E sec n a a' x v p :
  tracked E sec n a = Ok (false, a') ->
  zlen (out a') <= maxsz a /\
  (zlen (out a') <= x -> tracked E sec n (relimit a x v p) = Ok (false, relimit a' x v p)) /\
  (x < zlen (out a') -> exists r, tracked E sec n (relimit a x v p) = Ok (true, r)).
Proof.
  unfold tracked. intros H. apply bind_ok in H. destruct H as (r1 & S & H).
  apply set_section_spec in S. destruct S as (-> & Hs).
  rewrite set_section_le by exact Hs. cbn [bind out tbl relimit set_rsec] in *.
  destruct (E (zlen (out a)) (tbl a)) as [[em t']| |]; cbn [bind fst snd] in *; try discriminate.
  unfold track_end in *. cbn [out maxsz set_out set_rsec relimit] in *.
  destruct (Z.gtb_spec (zlen (out a ++ em)) (maxsz a)); [discriminate|]. injection H as <-.
  cbn [out inc_count set_out]. split; [assumption|]. split; intros Hx.
  - destruct (Z.gtb_spec (zlen (out a ++ em)) x); [lia|]. reflexivity.
  - destruct (Z.gtb_spec (zlen (out a ++ em)) x); [|lia]. eexists. reflexivity.
Qed.

Lemma tracks_relimit x v p : forall l a a',
  tracks l a = Ok (false, a') ->
  (l = [] \/ zlen (out a') <= maxsz a) /\
  (l = [] \/ zlen (out a') <= x -> tracks l (relimit a x v p) = Ok (false, relimit a' x v p)) /\
  (zlen (out a) <= x < zlen (out a') -> exists r, tracks l (relimit a x v p) = Ok (true, r)).
Proof.
  induction l as [|s l IH]; intros a a' H.
  - injection H as <-. split; [auto|]. split; [reflexivity|lia].
  - cbn [tracks] in *. apply bind_ok in H. destruct H as ([b1 a1] & H1 & H). cbn [fst snd] in H.
    destruct b1; [discriminate|]. unfold run_step in *.
    destruct (tracked_relimit _ _ _ _ _ x v p H1) as (F1 & T1 & T2). destruct (IH a1 a' H) as (F & I1 & I2).
    destruct (tracked_keeps _ _ _ _ _ _ H1) as (M1 & _ & _ & _ & G1). destruct (tracks_keeps _ _ _ _ H) as (_ & _ & _ & _ & G).
    assert (Fa : zlen (out a') <= maxsz a) by (destruct F as [->|F]; [injection H as <-|]; lia).
    split; [right; exact Fa|]. split.
    + intros [E|Hx]; [discriminate|]. rewrite T1 by lia. cbn [bind fst snd]. apply I1. right. exact Hx.
    + intros Hx. destruct (Z.le_gt_cases (zlen (out a1)) x) as [L|L].
      * rewrite T1 by exact L. cbn [bind fst snd]. apply I2. lia.
      * destruct (T2 ltac:(lia)) as (r & Hr). rewrite Hr. cbn [bind fst snd]. eauto.
Qed.

Lemma write_header_relimit id a a' x v p : write_header id a = Ok a' -> write_header id (relimit a x v p) = Ok (relimit a' x v p).
Proof. intros H. apply write_header_iff in H. destruct H as (R & ->). apply write_header_iff. split; [exact R|reflexivity]. Qed.

(* the reserves under another limit *)
Lemma start_relimit m e e' pad tr r2 :
  start m e pad = Ok (tr, r2) -> compute_opt_reserve m pad + tr <= e' ->
  start m e' pad = Ok (tr, relimit r2 (e' - compute_opt_reserve m pad - tr) (compute_opt_reserve m pad + tr) false) /\
  maxsz r2 = e - compute_opt_reserve m pad - tr /\ zlen (out r2) = 12.
Proof.
  intros H Hle. apply start_iff in H. destruct H as (TR & Htr & _ & ->). split; [apply start_iff; auto|split; reflexivity].
Qed.

(* the OPT and TSIG writes of the tail of Message.to_wire under another limit: the padded flag goes along *)
Lemma add_opt_relimit o oo pad os ts a a' x :
  add_opt o oo pad os ts a = Ok (false, a') ->
  zlen (out a) <= zlen (out a') /\
  (zlen (out a') <= x -> add_opt o oo pad os ts (relimit a x 0 (padded a)) = Ok (false, relimit a' x 0 (padded a'))) /\
  (x < zlen (out a') -> exists q, add_opt o oo pad os ts (relimit a x 0 (padded a)) = Ok (true, q)).
Proof.
  intros A. rewrite add_opt_tracked in A |- *. change (out (relimit a x 0 (padded a))) with (out a).
  apply bind_ok in A. destruct A as (rs & HRS & A). rewrite HRS. cbn [bind].
  destruct (tracked_keeps _ _ _ _ _ _ A) as (_ & _ & P & _ & G). rewrite P.
  destruct (pad =? 0).
  - destruct (tracked_relimit _ _ _ _ _ x 0 (padded a) A) as (_ & T & B). split; [exact G|split; [exact T|exact B]].
  - destruct (tracked_relimit _ _ _ _ _ x 0 true A) as (_ & T & B). split; [exact G|split; [exact T|exact B]].
Qed.

Lemma write_tsig_relimit o kn rd a a' x :
  write_tsig o kn rd a = Ok (false, a') -> 12 <= zlen (out a) ->
  zlen (out a) <= zlen (out a') /\
  (zlen (out a') <= x -> write_tsig o kn rd (relimit a x 0 (padded a)) = Ok (false, relimit a' x 0 (padded a'))) /\
  (x < zlen (out a') -> exists q, write_tsig o kn rd (relimit a x 0 (padded a)) = Ok (true, q)).
Proof.
  intros A H12. rewrite write_tsig_eq in A |- *. cbn [padded relimit].
  apply bind_ok in A. destruct A as ([b8 s8] & A8 & A). cbn [fst snd] in A.
  destruct b8; [discriminate|]. apply bind_ok in A. destruct A as (c & PC & A). injection A as <-.
  destruct (tracked_keeps _ _ _ _ _ _ A8) as (_ & _ & P8 & _ & G8).
  destruct (tracked_relimit _ _ _ _ _ x 0 (padded a) A8) as (_ & T & B).
  cbn [out padded set_out]. rewrite zlen_patch16 by lia. rewrite P8. split; [exact G8|]. split; intros Hx.
  - rewrite (T Hx). cbn [bind fst snd cad relimit]. rewrite PC. reflexivity.
  - destruct (B Hx) as (q & ->). exists q. reflexivity.
Qed.

(* the tail of Message.to_wire under another limit: the output only grows from stage to stage, so when the
   result is within the limit every intermediate length is as well, and otherwise the first stage that
   exceeds it raises TooBig *)
Lemma finish_relimit m o pad ores tr s4 r x v e' :
  finish m o pad ores tr s4 = Ok r -> x + v = e' -> 12 <= zlen (out s4) ->
  if zlen (out r) <=? e'
  then exists r', finish m o pad ores tr (relimit s4 x v (padded s4)) = Ok r' /\ out r' = out r
  else zlen (out s4) <= e' -> finish m o pad ores tr (relimit s4 x v (padded s4)) = Lib eTooBig.
Proof.
  intros H HX H12. apply finish_iff in H. destruct H as (r5 & r6 & R5 & R6 & H).
  assert (E4 : release_reserved (relimit s4 x v (padded s4)) = relimit (release_reserved s4) e' 0 (padded (release_reserved s4)))
    by (rewrite <- HX; reflexivity).
  unfold finish. cbv zeta. rewrite E4. clear E4.
  set (r4 := release_reserved s4) in *. change (out s4) with (out r4) in *.
  assert (S5 : zlen (out r4) <= zlen (out r5) /\
               (zlen (out r5) <= e' ->
                match mopt m with
                | Some oo => do br <- add_opt o oo pad ores tr (relimit r4 e' 0 (padded r4)); raise_if_big br
                | None => Ok (relimit r4 e' 0 (padded r4))
                end = Ok (relimit r5 e' 0 (padded r5))) /\
               (zlen (out r4) <= e' < zlen (out r5) ->
                match mopt m with
                | Some oo => do br <- add_opt o oo pad ores tr (relimit r4 e' 0 (padded r4)); raise_if_big br
                | None => Ok (relimit r4 e' 0 (padded r4))
                end = Lib eTooBig)).
  { destruct (mopt m); [|subst r5; split; [lia|split; [reflexivity|lia]]].
    destruct (add_opt_relimit _ _ _ _ _ _ _ e' R5) as (G & T & B). split; [exact G|]. split; intros Hx.
    - rewrite (T Hx). reflexivity.
    - destruct (B ltac:(lia)) as (q & ->). reflexivity. }
  destruct S5 as (G5 & T5 & B5).
  assert (H125 : 12 <= zlen (out r5)) by lia.
  destruct (write_header_spec _ _ _ H125 R6) as (Z6 & _ & _ & _ & P6 & _).
  pose proof (write_header_relimit _ _ _ e' 0 (padded r5) R6) as W6.
  assert (S7 : zlen (out r6) <= zlen (out r) /\
               (zlen (out r) <= e' ->
                exists r', match mtsig m with
                           | Some (kn, rd) => do br <- write_tsig o kn rd (relimit r6 e' 0 (padded r5)); do r7 <- raise_if_big br; write_header (mid m) r7
                           | None => Ok (relimit r6 e' 0 (padded r5))
                           end = Ok r' /\ out r' = out r) /\
               (zlen (out r6) <= e' < zlen (out r) ->
                match mtsig m with
                | Some (kn, rd) => do br <- write_tsig o kn rd (relimit r6 e' 0 (padded r5)); do r7 <- raise_if_big br; write_header (mid m) r7
                | None => Ok (relimit r6 e' 0 (padded r5))
                end = Lib eTooBig)).
  { destruct (mtsig m) as [[kn rd]|]; [|subst r; split; [lia|split; [eauto|lia]]].
    destruct H as (r7 & A7 & H). destruct (write_tsig_relimit _ _ _ _ _ e' A7 ltac:(lia)) as (G7 & T7 & B7). rewrite P6 in T7, B7.
    assert (H127 : 12 <= zlen (out r7)) by lia. destruct (write_header_spec _ _ _ H127 H) as (Z8 & _).
    split; [lia|]. split; intros Hx.
    - rewrite T7 by lia. cbn [bind raise_if_big fst snd]. rewrite (write_header_relimit _ _ _ e' 0 (padded r7) H). eauto.
    - destruct (B7 ltac:(lia)) as (q & ->). reflexivity. }
  destruct S7 as (G7 & T7 & B7).
  destruct (Z.leb_spec (zlen (out r)) e') as [L|L].
  - rewrite T5 by lia. cbn [bind]. rewrite W6. cbn [bind]. exact (T7 L).
  - intros L4. destruct (Z.le_gt_cases (zlen (out r5)) e') as [L5|L5].
    + rewrite (T5 L5). cbn [bind]. rewrite W6. cbn [bind]. apply B7. lia.
    + rewrite B5 by lia. reflexivity.
Qed.

(* a run without prefer_truncation in which everything fitted, replayed under another limit that the section
   loops respect: the same octets if they fit, TooBig otherwise *)
Lemma to_wire_replay m o ms' rp' pad e tr r2 s4 r :
  start m e pad = Ok (tr, r2) -> tracks (body_steps o m) r2 = Ok (false, s4) ->
  finish m o pad (compute_opt_reserve m pad) tr s4 = Ok r ->
  compute_opt_reserve m pad + tr <= eff_limit ms' rp' ->
  (body_steps o m = [] \/ zlen (out s4) <= eff_limit ms' rp' - compute_opt_reserve m pad - tr) ->
  if zlen (out r) <=? eff_limit ms' rp' then to_wire m o ms' rp' false pad = Ok (out r)
  else zlen (out s4) <= eff_limit ms' rp' -> to_wire m o ms' rp' false pad = Lib eTooBig.
Proof.
  intros ST S4 FIN Hres Hbody. unfold to_wire. rewrite to_wire_st_eq.
  pose proof (proj1 (start_iff _ _ _ _ _) ST) as (_ & _ & _ & E2).
  destruct (start_relimit _ _ (eff_limit ms' rp') _ _ _ ST Hres) as (ST' & M2 & O2). rewrite ST'. cbn [bind fst snd].
  destruct (tracks_relimit (eff_limit ms' rp' - compute_opt_reserve m pad - tr) (compute_opt_reserve m pad + tr) false _ _ _ S4) as (_ & T & _).
  rewrite T by exact Hbody. unfold overflow. cbn [bind fst snd].
  destruct (tracks_keeps _ _ _ _ S4) as (_ & _ & P4 & _ & G4). rewrite E2 in P4. cbn [padded] in P4. rewrite <- P4.
  pose proof (finish_relimit _ _ _ _ _ _ _ (eff_limit ms' rp' - compute_opt_reserve m pad - tr) (compute_opt_reserve m pad + tr)
                (eff_limit ms' rp') FIN ltac:(lia) ltac:(lia)) as X.
  destruct (zlen (out r) <=? eff_limit ms' rp').
  - destruct X as (r' & E1 & E3). rewrite E1. cbn [bind]. rewrite E3. reflexivity.
  - intros L4. rewrite (X L4). reflexivity.
Qed.

(* without prefer_truncation a rendering that succeeds at one limit is the rendering at every larger limit *)
Theorem limit_monotone_lemma m o ms rp ms' rp' pad w :
  to_wire m o ms rp false pad = Ok w -> eff_limit ms rp <= eff_limit ms' rp' ->
  to_wire m o ms' rp' false pad = Ok w.
Proof.
  intros H Hle. pose proof (size_bound_lemma _ _ _ _ _ _ _ H) as SB.
  destruct (to_wire_stages _ _ _ _ _ _ _ H) as (r & tr & r2 & b4 & s4 & r3 & -> & ST & S4 & R3 & FIN & _).
  destruct b4; [discriminate|]. injection R3 as <-.
  pose proof (proj1 (start_iff _ _ _ _ _) ST) as (_ & _ & Hres & E2).
  (* the section loops fitted under the first limit: that part of tracks_relimit does not depend on the other limit *)
  destruct (tracks_relimit 0 0 false _ _ _ S4) as (F & _). rewrite E2 in F. cbn [maxsz] in F.
  pose proof (to_wire_replay _ _ ms' rp' _ _ _ _ _ _ ST S4 FIN ltac:(lia) ltac:(destruct F; [left; assumption|right; lia])) as X.
  destruct (Z.leb_spec (zlen (out r)) (eff_limit ms' rp')); [exact X|lia].
Qed.

(* without prefer_truncation, the limits at which a rendering succeeds: those that leave room for what the
   section loops need beside the reserves, and for the result (which padding may make longer than that) *)
Theorem limit_exact_lemma m o ms rp pad w tr :
  to_wire m o ms rp false pad = Ok w -> compute_tsig_reserve m = Ok tr ->
  exists need, zlen w <= need <= zlen w + tr /\
    forall ms' rp', compute_opt_reserve m pad + tr + 12 <= eff_limit ms' rp' ->
      to_wire m o ms' rp' false pad = if need <=? eff_limit ms' rp' then Ok w else Lib eTooBig.
Proof.
  intros H TR0.
  destruct (to_wire_stages _ _ _ _ _ _ _ H) as (r & tr' & r2 & b4 & s4 & r3 & -> & ST & S4 & R3 & FIN & _ & I4 & _).
  destruct b4; [discriminate|]. injection R3 as <-.
  pose proof (proj1 (start_iff _ _ _ _ _) ST) as (TR & Htr & _ & E2).
  assert (tr' = tr) by congruence. subst tr'. pose proof (compute_opt_reserve_nonneg m pad) as NN.
  destruct (finish_len _ _ _ _ _ _ _ I4 TR FIN) as (plen & tlen & LW & Ht & P & P0).
  assert (Hp : 0 <= plen).
  { destruct (Z.eq_dec pad 0) as [E|E]; [rewrite (P0 E); lia|].
    destruct (mopt m); [rewrite (proj1 (P E)); apply zlen_nonneg|lia]. }
  exists (Z.max (zlen (out s4) + compute_opt_reserve m pad + tr) (zlen (out r))). split; [lia|].
  intros ms' rp' HR0.
  pose proof (to_wire_replay _ _ ms' rp' _ _ _ _ _ _ ST S4 FIN ltac:(lia)) as X.
  destruct (Z.leb_spec (Z.max (zlen (out s4) + compute_opt_reserve m pad + tr) (zlen (out r))) (eff_limit ms' rp')) as [L|L].
  - specialize (X ltac:(right; lia)). destruct (Z.leb_spec (zlen (out r)) (eff_limit ms' rp')); [exact X|lia].
  - destruct (Z.le_gt_cases (zlen (out s4) + compute_opt_reserve m pad + tr) (eff_limit ms' rp')) as [Lb|Lb].
    + specialize (X ltac:(right; lia)). destruct (Z.leb_spec (zlen (out r)) (eff_limit ms' rp')); [lia|]. apply X. lia.
    + unfold to_wire. rewrite to_wire_st_eq.
      destruct (start_relimit _ _ (eff_limit ms' rp') _ _ _ ST ltac:(lia)) as (ST' & M2 & O2). rewrite ST'. cbn [bind fst snd].
      destruct (tracks_relimit (eff_limit ms' rp' - compute_opt_reserve m pad - tr) (compute_opt_reserve m pad + tr) false _ _ _ S4) as (_ & _ & B).
      destruct (B ltac:(lia)) as (q & ->). reflexivity.
Qed.

(* without TSIG (and padding) the length of the result alone decides *)
Theorem toobig_exact_lemma m o ms rp ms' rp' w :
  mtsig m = None -> to_wire m o ms rp false 0 = Ok w ->
  compute_opt_reserve m 0 + 12 <= eff_limit ms' rp' ->
  to_wire m o ms' rp' false 0 = if zlen w <=? eff_limit ms' rp' then Ok w else Lib eTooBig.
Proof.
  intros NT H HR0.
  assert (TR : compute_tsig_reserve m = Ok 0) by (unfold compute_tsig_reserve; rewrite NT; reflexivity).
  destruct (limit_exact_lemma _ _ _ _ _ _ _ H TR) as (need & Hn & X).
  replace need with (zlen w) in X by lia. apply X. lia.
Qed.

Lemma WfUpd_cut o m z a1 a2 u1 u2 d1 d2 fl :
  WfUpd o m z -> man m = a1 ++ a2 -> mau m = u1 ++ u2 -> mad m = d1 ++ d2 ->
  (fl = mflags m \/ fl = Z.lor (mflags m) fTC) ->
  WfUpd o (cut_msg m fl (mq m) a1 u1 d1) z.
Proof.
  intros [WU WZ WN WT WC WA WUu WD WO] EA EU ED HF.
  rewrite EA in WA. rewrite EU in WUu. rewrite ED in WD.
  constructor; cbn [cut_msg mflags mq man mau mad mopt]; try assumption.
  - destruct HF as [->| ->]; [exact WU|rewrite opcode_tc; exact WU].
  - eapply Forall_prefix; exact WA.
  - eapply Forall_prefix; exact WUu.
  - eapply Forall_prefix; exact WD.
Qed.

(* prefer_truncation for a dynamic update: when the zone section fits (it always does unless the
   reserved OPT/TSIG octets leave less room than one question), the result parses back to the update
   cut to a prefix of its prerequisite / update / additional record sets, for every padding block size *)
Theorem trunc_parses_update_lemma o pad m z ms rp w :
  org_ok o -> WfUpd o m z -> wf_tsig m -> to_wire m o ms rp true pad = Ok w ->
  exists q1 q2 a1 a2 u1 u2 d1 d2,
    mq m = q1 ++ q2 /\ man m = a1 ++ a2 /\ mau m = u1 ++ u2 /\ mad m = d1 ++ d2 /\
    (q2 <> [] -> a1 = [] /\ u1 = [] /\ d1 = []) /\ (a2 <> [] -> u1 = [] /\ d1 = []) /\ (u2 <> [] -> d1 = []) /\
    (q2 = [] ->
     exists m', from_wire w o po0 = Ok m' /\
       msg_equiv_p pad m' (cut_msg m (if cut_before q2 a2 u2 then Z.lor (mflags m) fTC else mflags m) q1 a1 u1 d1)).
Proof.
  intros OO WF WT H.
  destruct (trunc_prefix_lemma _ _ _ _ _ _ H) as (q1 & q2 & a1 & a2 & u1 & u2 & d1 & d2 & EQ & EA & EU & ED & C1 & C2 & C3 & R).
  exists q1, q2, a1, a2, u1, u2, d1, d2. repeat (split; [assumption|]).
  intros Q2. subst q2. rewrite app_nil_r in EQ. subst q1.
  set (fl := if cut_before [] a2 u2 then Z.lor (mflags m) fTC else mflags m) in *.
  assert (WC : WfUpd o (cut_msg m fl (mq m) a1 u1 d1) z).
  { eapply WfUpd_cut; try eassumption. unfold fl. destruct (cut_before [] a2 u2); auto. }
  destruct (update_parse_lemma o OO pad _ z _ _ _ WC WT R) as (m' & F & E & _). eauto.
Qed.

(* no emitter fails with TooBig of its own: that error only comes from the size check *)
Lemma vl_loop_err : forall ls total i j e, vl_loop ls total i j = Lib e -> e = eLabelTooLong.
Proof.
  induction ls as [|l r IH]; intros total i j e H; cbn [vl_loop] in H; [discriminate|].
  destruct (zlen l >? 63); [injection H as <-; reflexivity|]. eapply IH. exact H.
Qed.

Lemma mk_name_err n e : mk_name n = Lib e -> e <> eTooBig.
Proof.
  unfold mk_name, validate_labels. destruct (vl_loop n 0 None 0) as [[total i]| |] eqn:V.
  - destruct (total >? 255); [intros H; injection H as <-; discriminate|].
    destruct i as [k|]; [|discriminate]. destruct (Nat.eqb k (length n - 1)); [discriminate|].
    intros H; injection H as <-; discriminate.
  - apply vl_loop_err in V. subst. intros H; injection H as <-; discriminate.
  - discriminate.
Qed.

Definition no_tb (E : emitter) : Prop := forall pos t, E pos t <> Lib eTooBig.

Lemma no_tb_seq E1 E2 : no_tb E1 -> no_tb E2 -> no_tb (seq_em E1 E2).
Proof.
  intros X1 X2 pos t H. unfold seq_em in H.
  destruct (E1 pos t) as [[e1 t1]| |] eqn:A; cbn [bind fst snd] in H; [|injection H as ->; exact (X1 _ _ A)|discriminate].
  destruct (E2 (pos + zlen e1) t1) as [[e2 t2]| |] eqn:B; cbn [bind] in H; [discriminate|injection H as ->; exact (X2 _ _ B)|discriminate].
Qed.

Lemma no_tb_nm n o c : no_tb (nm_em n o c).
Proof.
  intros pos t H. unfold nm_em, full_labels in H.
  assert (X : forall ls, (do lb <- mk_name ls; Ok (if c then tw_em lb pos t else (wire_labels false lb, t))) <> Lib eTooBig).
  { intros ls E. destruct (mk_name ls) as [lb| |] eqn:M; cbn [bind] in E; try discriminate.
    injection E as ->. exact (mk_name_err _ _ M eq_refl). }
  destruct (is_absolute n); [exact (X _ H)|]. destruct o as [org|]; [|discriminate].
  destruct (is_absolute org); [exact (X _ H)|discriminate].
Qed.

Lemma no_tb_rd : forall ps o c, no_tb (rd_em ps o c).
Proof.
  induction ps as [|p r IH]; intros o c pos t H; [discriminate|]. rewrite rd_em_cons in H.
  refine (no_tb_seq _ _ _ (IH o c) pos t H). destruct p; try apply no_tb_nm. intros ? ?; discriminate.
Qed.

Lemma pack16_no_lib v e : pack16 v <> Lib e.
Proof. unfold pack16. destruct (_ && _); discriminate. Qed.
Lemma pack32_no_lib v e : pack32 v <> Lib e.
Proof. unfold pack32. destruct (_ && _); discriminate. Qed.

Lemma no_tb_rr owner ty cl ttl rd oo ro oc rc : no_tb (rr_em owner ty cl ttl rd oo ro oc rc).
Proof.
  intros pos t H. unfold rr_em in H.
  destruct (nm_em owner oo oc pos t) as [[e1 t1]| |] eqn:E1; cbn [bind fst snd] in H; try discriminate.
  2:{ injection H as ->. exact (no_tb_nm _ _ _ _ _ E1). }
  destruct (pack16 ty) as [h1| |] eqn:P1; cbn [bind] in H; try discriminate; [|exfalso; exact (pack16_no_lib _ _ P1)].
  destruct (pack16 cl) as [h2| |] eqn:P2; cbn [bind] in H; try discriminate; [|exfalso; exact (pack16_no_lib _ _ P2)].
  destruct (pack32 ttl) as [h3| |] eqn:P3; cbn [bind] in H; try discriminate; [|exfalso; exact (pack32_no_lib _ _ P3)].
  destruct (rd_em rd ro rc (pos + zlen e1 + 10) t1) as [[e2 t2]| |] eqn:E2; cbn [bind fst snd] in H; try discriminate.
  - destruct (zlen e2 >? 65535); discriminate.
  - injection H as ->. exact (no_tb_rd _ _ _ _ _ E2).
Qed.

Lemma no_tb_rrs : forall rds owner ty cl ttl o c, no_tb (rrs_em owner ty cl ttl rds o c).
Proof.
  induction rds as [|rd r IH]; intros owner ty cl ttl o c; [intros ? ?; discriminate|].
  exact (no_tb_seq _ _ (no_tb_rr owner ty cl ttl rd o o c c) (IH owner ty cl ttl o c)).
Qed.

Lemma no_tb_rrset rs o c : no_tb (rrset_em rs o c).
Proof. unfold rrset_em. intros pos t H. destruct (rrds rs); [exact (no_tb_rr _ _ _ _ _ _ _ _ _ _ _ H)|exact (no_tb_rrs _ _ _ _ _ _ _ _ _ H)]. Qed.

Lemma no_tb_q o n ty cl : no_tb (q_em o n ty cl).
Proof.
  intros pos t H. unfold q_em in H.
  destruct (nm_em n o true pos t) as [[e1 t1]| |] eqn:E1; cbn [bind fst snd] in H; try discriminate.
  2:{ injection H as ->. exact (no_tb_nm _ _ _ _ _ E1). }
  destruct (pack16 ty) eqn:P1; cbn [bind] in H; try discriminate; [|exact (pack16_no_lib _ _ P1)].
  destruct (pack16 cl) eqn:P2; cbn [bind] in H; try discriminate. exact (pack16_no_lib _ _ P2).
Qed.

Lemma tracked_no_tb E sec n r : no_tb E -> tracked E sec n r <> Lib eTooBig.
Proof.
  intros X H. unfold tracked, set_section in H.
  destruct (rsec r =? sec); [|destruct (rsec r >? sec); [discriminate|]]; cbn [bind out tbl set_rsec] in H;
    (destruct (E (zlen (out r)) (tbl r)) as [[em t']| |] eqn:EE; cbn [bind fst snd] in H; try discriminate;
     [destruct (track_end _ _) as [[|] r2]; discriminate|injection H as ->; exact (X _ _ EE)]).
Qed.

Lemma tracks_no_tb : forall l r, Forall (fun s => no_tb (s_em s)) l -> tracks l r <> Lib eTooBig.
Proof.
  induction l as [|s l IH]; intros r X H; [discriminate|]. inversion X as [|? ? X1 X']; subst. cbn [tracks] in H.
  destruct (run_step s r) as [[b1 r1]| |] eqn:T; cbn [bind fst snd] in H; try discriminate.
  - destruct b1; [discriminate|]. exact (IH _ X' H).
  - injection H as ->. exact (tracked_no_tb _ _ _ _ X1 T).
Qed.

Lemma secs_steps_no_tb o q a u d : Forall (fun s => no_tb (s_em s)) (secs_steps o q a u d).
Proof.
  unfold secs_steps. rewrite !Forall_app, !Forall_map. repeat split; apply Forall_forall; intros rs _;
    first [apply no_tb_q|apply no_tb_rrset].
Qed.

Lemma write_header_no_lib id r e : write_header id r <> Lib e.
Proof.
  unfold write_header. intros H.
  destruct (pack16 id) eqn:P0; cbn [bind] in H; try discriminate; [|exact (pack16_no_lib _ _ P0)].
  destruct (pack16 (rflags r)) eqn:P1; cbn [bind] in H; try discriminate; [|exact (pack16_no_lib _ _ P1)].
  destruct (pack16 (cq r)) eqn:P2; cbn [bind] in H; try discriminate; [|exact (pack16_no_lib _ _ P2)].
  destruct (pack16 (can r)) eqn:P3; cbn [bind] in H; try discriminate; [|exact (pack16_no_lib _ _ P3)].
  destruct (pack16 (cau r)) eqn:P4; cbn [bind] in H; try discriminate; [|exact (pack16_no_lib _ _ P4)].
  destruct (pack16 (cad r)) eqn:P5; cbn [bind] in H; try discriminate. exact (pack16_no_lib _ _ P5).
Qed.

Lemma opts_wire_no_lib : forall os e, opts_wire os <> Lib e.
Proof.
  induction os as [|[c d] os IH]; intros e H; [discriminate|]. cbn [opts_wire] in H.
  destruct (pack16 c) eqn:P1; cbn [bind] in H; try discriminate; [|exact (pack16_no_lib _ _ P1)].
  destruct (pack16 (zlen d)) eqn:P2; cbn [bind] in H; try discriminate; [|exact (pack16_no_lib _ _ P2)].
  destruct (opts_wire os) eqn:O; cbn [bind] in H; try discriminate. injection H as ->. exact (IH _ eq_refl).
Qed.

Lemma add_opt_no_tb o oo pad os ts r : add_opt o oo pad os ts r <> Lib eTooBig.
Proof.
  rewrite add_opt_tracked. intros H. destruct (opt_rrset _) as [rs| |] eqn:HRS; cbn [bind] in H; try discriminate.
  - exact (tracked_no_tb _ _ _ _ (no_tb_rrset _ _ _) H).
  - unfold opt_rrset in HRS. destruct (opts_wire _) eqn:OW; cbn [bind] in HRS; try discriminate.
    injection HRS as ->. exact (opts_wire_no_lib _ _ OW).
Qed.

Lemma write_tsig_no_tb o kn rd r : write_tsig o kn rd r <> Lib eTooBig.
Proof.
  rewrite write_tsig_eq. intros H.
  destruct (tracked _ 3 1 r) as [[b1 r1]| |] eqn:T; cbn [bind fst snd] in H; try discriminate.
  - destruct b1; [discriminate|]. destruct (pack16 _) eqn:PC; cbn [bind] in H; try discriminate. exact (pack16_no_lib _ _ PC).
  - injection H as ->. exact (tracked_no_tb _ _ _ _ (no_tb_rr _ _ _ _ _ _ _ _ _) T).
Qed.

Lemma tsig_reserve_nonneg m tr : compute_tsig_reserve m = Ok tr -> 0 <= tr.
Proof.
  unfold compute_tsig_reserve. destruct (mtsig m) as [[kn rd]|]; [|intros H; injection H as <-; lia].
  intros H. apply bind_ok in H. destruct H as (x & _ & H). injection H as <-. apply zlen_nonneg.
Qed.

(* without padding the tail of Message.to_wire appends at most what was reserved for it: when that fits,
   it does not raise TooBig *)
Lemma finish_no_tb m o tr e r3 :
  compute_tsig_reserve m = Ok tr -> SInv e r3 ->
  zlen (out r3) + compute_opt_reserve m 0 + tr <= e ->
  finish m o 0 (compute_opt_reserve m 0) tr r3 <> Lib eTooBig.
Proof.
  intros TR0 I3 F4 H. pose proof (tsig_reserve_nonneg _ _ TR0) as Htr. pose proof (compute_opt_reserve_nonneg m 0) as NN.
  set (ores := compute_opt_reserve m 0) in *. unfold finish in H.
  destruct (release_SInv _ _ I3) as (I4r & M4r). set (r4 := release_reserved r3) in *. change (out r3) with (out r4) in F4.
  (* the OPT record fits *)
  assert (X5 : forall x, match mopt m with
                         | Some o0 => do br <- add_opt o o0 0 ores tr r4; raise_if_big br
                         | None => Ok r4 end = x -> x <> Lib eTooBig /\
                         forall r5, x = Ok r5 -> SInv e r5 /\ maxsz r5 = e /\ zlen (out r5) + tr <= e).
  { intros x <-. destruct (mopt m) as [oo|] eqn:EO; [|split; [discriminate|intros r5 E; injection E as <-; split; [exact I4r|lia]]].
    destruct (add_opt o oo 0 ores tr r4) as [[b5 s5]| |] eqn:A5; cbn [bind]; [|split; [|discriminate]|split; discriminate].
    - destruct (add_opt_len m o oo 0 tr e r4 b5 s5 EO I4r A5) as (I5 & L5). cbn [Z.eqb] in L5. fold ores in L5.
      destruct b5; [lia|]. unfold raise_if_big. cbn [fst snd]. split; [discriminate|].
      intros r5 E. injection E as <-. destruct L5 as (L5 & _ & M5). split; [exact I5|lia].
    - intros E. injection E as ->. exact (add_opt_no_tb _ _ _ _ _ _ A5). }
  destruct (X5 _ eq_refl) as (N5 & F5). destruct (match mopt m with Some _ => _ | None => _ end) as [r5| |]; cbn [bind] in H;
    [|congruence|discriminate].
  destruct (F5 r5 eq_refl) as (I5 & M5 & L5).
  destruct (write_header (mid m) r5) as [r6| |] eqn:R6; cbn [bind] in H; [|exact (write_header_no_lib _ _ _ R6)|discriminate].
  destruct (write_header_SInv _ _ _ _ I5 R6) as (I6 & (M6 & _) & Z6).
  destruct (mtsig m) as [[kn rd]|] eqn:ET; [|discriminate].
  destruct (write_tsig o kn rd r6) as [[b7 s7]| |] eqn:A7; cbn [bind] in H;
    [|injection H as ->; exact (write_tsig_no_tb _ _ _ _ A7)|discriminate].
  destruct (write_tsig_len m o kn rd tr e r6 b7 s7 ET TR0 I6 A7) as (n & Hn & _ & L7).
  destruct b7; [lia|]. unfold raise_if_big in H. cbn [fst snd bind] in H.
  exact (write_header_no_lib _ _ _ H).
Qed.

(* when the reserved octets leave room for the empty message, what was reserved fits in the end *)
Theorem trunc_no_toobig_lemma m o ms rp tr :
  compute_tsig_reserve m = Ok tr ->
  compute_opt_reserve m 0 + tr + 12 <= eff_limit ms rp ->
  to_wire m o ms rp true 0 <> Lib eTooBig.
Proof.
  intros TR0 HR0 H. set (e := eff_limit ms rp) in *.
  pose proof (tsig_reserve_nonneg _ _ TR0) as Htr. pose proof (compute_opt_reserve_nonneg m 0) as NN.
  set (ores := compute_opt_reserve m 0) in *.
  unfold to_wire in H. rewrite to_wire_st_eq in H. fold e ores in H.
  assert (ST : start m e 0 = Ok (tr, mkRst (repeat 0 12) [] 0 0 0 0 0 (mflags m) (e - ores - tr) (ores + tr) false))
    by (apply start_iff; repeat split; try assumption; lia).
  rewrite ST in H. cbn [bind fst snd] in H.
  pose proof (start_SInv _ _ _ _ _ ST) as I2.
  destruct (tracks (body_steps o m) _) as [[b4 s4]| |] eqn:S4; cbn [bind] in H;
    [|injection H as ->; exact (tracks_no_tb _ _ (secs_steps_no_tb _ _ _ _ _) S4)|discriminate].
  pose proof (tracks_SInv _ _ _ _ _ (secs_steps_ext _ _ _ _ _) I2 S4) as I4.
  destruct (tracks_keeps _ _ _ _ S4) as (M4 & _). cbn [maxsz] in M4.
  assert (X3 : exists r3, overflow true (b4, s4) = Ok r3 /\ SInv e r3 /\ maxsz r3 = e - ores - tr).
  { unfold overflow. cbn [fst snd]. destruct b4; [destruct (rsec s4 <? 3)|]; eexists; split; try reflexivity; auto. }
  destruct X3 as (r3 & E3 & I3 & M3). rewrite E3 in H. cbn [bind] in H.
  destruct (finish m o 0 ores tr r3) as [r| |] eqn:FIN; cbn [bind] in H; [discriminate| |discriminate]. injection H as ->.
  refine (finish_no_tb m o tr e r3 TR0 I3 _ FIN). destruct I3 as (_ & K2 & _). fold ores. lia.
Qed.

(* a padded, unsigned rendering is the unpadded rendering of the message with the padding option *)
Theorem padded_explicit_lemma m o ms rp pad w o1 :
  mtsig m = None -> mopt m = Some o1 -> to_wire m o ms rp false pad = Ok w ->
  exists sz, to_wire (set_opt m (pad_opt o1 pad sz)) o ms rp false 0 = Ok w.
Proof.
  intros NT EO H. pose proof (eff_limit_range ms rp) as He.
  destruct (to_wire_stages _ _ _ _ _ _ _ H) as (r & tr & r2 & b4 & s4 & r3 & -> & ST & S4 & R3 & FIN & _ & I4 & _).
  set (e := eff_limit ms rp) in *. destruct b4; [discriminate|]. injection R3 as <-.
  pose proof (proj1 (start_iff _ _ _ _ _) ST) as (TR & _ & _ & E2).
  assert (tr = 0) by (unfold compute_tsig_reserve in TR; rewrite NT in TR; congruence). subst tr.
  destruct (tracks_keeps _ _ _ _ S4) as (_ & _ & _ & _ & G4).
  (* the padded run: the OPT record with the padding option, then the header *)
  apply finish_iff in FIN. rewrite NT, EO in FIN. destruct FIN as (s5 & r6 & A5 & R6 & ->).
  destruct (release_SInv _ _ I4) as (I4r & _). set (r4 := release_reserved s4) in *.
  destruct (add_opt_len m o o1 pad 0 e r4 false s5 EO I4r A5) as (I5 & L5 & _ & M5). change (maxsz r4) with (maxsz s4 + reserved s4) in M5.
  set (sz := zlen (out r4) + compute_opt_reserve m pad + 0) in *. exists sz. set (m2 := set_opt m (pad_opt o1 pad sz)).
  assert (L5' : zlen (out s5) <= e) by (destruct I5 as (_ & B & _ & _ & C & D); destruct I4 as (_ & _ & _ & _ & C4 & _); lia).
  (* the reserve of the explicit message is the length of the padded OPT record *)
  assert (EQ : compute_opt_reserve m2 0 = compute_opt_reserve m pad + (if pad =? 0 then 0 else zlen (padding pad sz))).
  { unfold compute_opt_reserve, m2, pad_opt, padding. cbn [mopt set_opt]. rewrite EO. destruct (pad =? 0); [cbn [Z.eqb]; lia|].
    cbn [oopts Z.eqb]. rewrite fold_left_app. cbn [fold_left snd]. lia. }
  pose proof (compute_opt_reserve_nonneg m pad). pose proof (zlen_nonneg (out s4)). change (out r4) with (out s4) in L5.
  (* the unpadded run *)
  unfold to_wire. rewrite to_wire_st_eq. fold e. change (mflags m2) with (mflags m).
  assert (ST2 : start m2 e 0 = Ok (0, relimit r2 (e - compute_opt_reserve m2 0 - 0) (compute_opt_reserve m2 0 + 0) false)).
  { rewrite E2. apply start_iff. split; [unfold compute_tsig_reserve; change (mtsig m2) with (mtsig m); rewrite NT; reflexivity|].
    split; [lia|]. split; [lia|reflexivity]. }
  rewrite ST2. cbn [bind fst snd]. change (body_steps o m2) with (body_steps o m).
  destruct (tracks_relimit (e - compute_opt_reserve m2 0 - 0) (compute_opt_reserve m2 0 + 0) false _ _ _ S4) as (_ & T & _).
  rewrite T by (right; lia). unfold overflow, finish. cbn [bind fst snd]. change (mtsig m2) with (mtsig m). rewrite NT.
  change (mopt m2) with (Some (pad_opt o1 pad sz)). change (mid m2) with (mid m).
  rewrite add_opt_pad in A5. unfold add_opt in A5 |- *. cbn [Z.eqb] in A5 |- *.
  apply bind_ok in A5. destruct A5 as (rs & HRS & A5). fold sz in HRS. rewrite HRS. cbn [bind]. rewrite add_rrset_tracked in A5 |- *.
  destruct (tracked_relimit _ _ _ _ _ e 0 false A5) as (_ & T5 & _).
  replace (release_reserved (relimit s4 (e - compute_opt_reserve m2 0 - 0) (compute_opt_reserve m2 0 + 0) false)) with (relimit (pad_st r4 pad) e 0 false)
    by (unfold release_reserved, relimit, pad_st, set_limits; destruct (pad =? 0); cbn; f_equal; lia).
  rewrite T5 by exact L5'. cbn [bind fst snd]. unfold raise_if_big. cbn [fst snd bind].
  rewrite (write_header_relimit _ _ _ e 0 false R6). reflexivity.
Qed.

Lemma to_wire_nopt m o ms rp pf pad : mopt m = None -> to_wire m o ms rp pf pad = to_wire m o ms rp pf 0.
Proof. intros H. unfold to_wire, to_wire_st, compute_opt_reserve. rewrite H. reflexivity. Qed.

(* a padded rendering of an unsigned message: the parsed message (which carries the padding option) renders,
   without padding, to the same octets *)
Theorem rerender_identical_padded_lemma o pad m ms rp w m' :
  org_ok o -> WfMsg o m -> mtsig m = None ->
  to_wire m o ms rp false pad = Ok w -> from_wire w o po0 = Ok m' ->
  to_wire m' o ms rp false 0 = Ok w.
Proof.
  intros OO WF NT H HF.
  assert (WT : forall x, mtsig x = None -> wf_tsig x) by (intros x Hx; unfold wf_tsig; rewrite Hx; exact Logic.I).
  destruct (mopt m) as [o1|] eqn:EO.
  - destruct (padded_explicit_lemma m o ms rp pad w o1 NT EO H) as (sz & H2).
    set (m2 := set_opt m (pad_opt o1 pad sz)) in *.
    assert (WF2 : WfMsg o m2).
    { destruct WF as [W0 WQ WA WU WD KA KU KD WO]. constructor; try assumption.
      cbn [mopt m2 set_opt]. rewrite EO in WO. destruct WO as (WO1 & WO2). split; [apply pad_opt_ok; exact WO1|exact WO2]. }
    exact (rerender_identical_lemma o m2 ms rp w m' OO WF2 (WT m2 NT) H2 HF).
  - rewrite (to_wire_nopt m o ms rp false pad EO) in H.
    exact (rerender_identical_lemma o m ms rp w m' OO WF (WT m NT) H HF).
Qed.

(* refuted strengthenings (the known findings, as theorems) *)
(* C08-reserve-valueerror: when the reserved OPT (+TSIG) octets alone exceed the limit, Renderer.reserve raises
   ValueError: neither TooBig nor a truncated message, even with prefer_truncation *)
Definition big_opt_msg : msg :=
  mkMsg 1 0 [mkRR [[97]; []] 1 1 0 None 0 []] [] [] [] (Some (mkOpt 0 1232 [(65001, repeat 0 600)])) None.

Lemma toobig_or_truncated_refuted_lemma :
  exists m, to_wire m None 512 0 true 0 = Internal iValueError /\ to_wire m None 512 0 false 0 = Internal iValueError /\
            exists w, to_wire m None 65535 0 false 0 = Ok w.
Proof. exists big_opt_msg. split; [vm_compute; reflexivity|]. split; [vm_compute; reflexivity|]. eexists. vm_compute. reflexivity. Qed.

(* C03-update-meta-class-spelling: an update whose empty prerequisite is spelled (class ANY, deleting = None), as
   UpdateMessage.present(name) builds it, renders to the octets of the normal form (zone class, deleting = ANY);
   the reader returns the normal form, which is not the message that was rendered *)
Definition meta_spelled_update : msg :=
  mkMsg 8 10240 [mkRR [[101; 120]; []] 1 6 0 None 0 []]
        [mkRR [[97]; [101; 120]; []] 255 255 0 None 0 []] [] [] None None.

Lemma update_meta_spelling_refuted_lemma :
  exists m w m', to_wire m None 0 0 false 0 = Ok w /\ from_wire w None po0 = Ok m' /\
                 map rclass (man m') <> map rclass (man m) /\ to_wire m' None 0 0 false 0 = Ok w.
Proof.
  exists meta_spelled_update. eexists. eexists. split; [vm_compute; reflexivity|]. split; [vm_compute; reflexivity|].
  split; [vm_compute; discriminate|vm_compute; reflexivity].
Qed.

(* the recorded finding C08-reserve-valueerror, as a class of inputs: whenever the OPT reserve exceeds the effective limit, or the TSIG reserve exceeds what the OPT reserve left
   of it, Message.to_wire raises the ValueError of Renderer.reserve - with and without prefer_truncation -
   instead of TooBig *)
Lemma reserve_valueerror_lemma m o ms rp prefer pad :
  (eff_limit ms rp < compute_opt_reserve m pad \/
   exists t, compute_tsig_reserve m = Ok t /\ eff_limit ms rp - compute_opt_reserve m pad < t) ->
  to_wire m o ms rp prefer pad = Internal iValueError.
Proof.
  intros H. unfold to_wire, to_wire_st. cbv zeta.
  pose proof (compute_opt_reserve_nonneg m pad) as NN.
  unfold reserve at 1. cbn [maxsz reserved].
  destruct (Z.ltb_spec (compute_opt_reserve m pad) 0) as [|_]; [lia|].
  destruct (Z.gtb_spec (compute_opt_reserve m pad) (eff_limit ms rp)) as [G|G]; [reflexivity|].
  destruct H as [H|(t & ET & H)]; [lia|].
  cbn [bind]. rewrite ET. cbn [bind]. unfold reserve. cbn [maxsz reserved set_limits].
  destruct (Z.ltb_spec t 0) as [|_]; [reflexivity|].
  destruct (Z.gtb_spec t (eff_limit ms rp - compute_opt_reserve m pad)) as [|G2]; [reflexivity|lia].
Qed.
