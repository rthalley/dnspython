(* Zone._compute_digest (ZONEMD, SIMPLE scheme): what is fed to the hash is the RFC 8976 3.3/3.4
   serialisation: every RR of the zone except the apex ZONEMD RRset and its RRSIG, sorted by
   canonical owner, type, canonical RDATA, each as owner|type|class|TTL|RDLENGTH|RDATA. *)
From Coq Require Import Permutation Sorted.
From DV Require Import Base.Prelude Model.NameM Model.DnssecM Proofs.ListFacts.
From DV Require Import Proofs.NameOrder Proofs.NameValid Proofs.DnssecRef Proofs.DnssecCanon Proofs.DnssecSort
     Proofs.DnssecRrsig Proofs.DnssecOrder.
Open Scope Z_scope.

(* f made total by a default: where map_res f l succeeds its result is map (unres f d) l *)
Definition unres {A B} (f : A -> res B) (d : B) (x : A) : B := match f x with Ok y => y | _ => d end.

Lemma map_res_ok {A B} (f : A -> res B) (d : B) : forall l l',
  map_res f l = Ok l' -> l' = map (unres f d) l /\ forall x, In x l -> f x = Ok (unres f d x).
Proof.
  induction l as [|x r IH]; intros l' H; cbn in H.
  - inversion H. split; [reflexivity|intros ? []].
  - destruct (f x) as [y| |] eqn:E; cbn in H; try discriminate.
    destruct (map_res f r) as [ys| |] eqn:Er; cbn in H; try discriminate. inversion H; subst.
    destruct (IH ys eq_refl) as [-> Hall]. split.
    + cbn [map]. f_equal. unfold unres. now rewrite E.
    + intros z [<-|Hz]; [unfold unres; now rewrite E|now apply Hall].
Qed.

Lemma map_res_total {A B} (f : A -> res B) (g : A -> B) : forall l,
  (forall x, In x l -> f x = Ok (g x)) -> map_res f l = Ok (map g l).
Proof.
  induction l as [|x r IH]; intros H; [reflexivity|].
  cbn [map_res map]. rewrite (H x (or_introl eq_refl)). cbn [bind].
  rewrite IH by (intros z Hz; apply H; now right). reflexivity.
Qed.

Lemma sorted_flat_map {A B} (R : A -> A -> Prop) (leB : B -> B -> Prop) (f : A -> list B) : forall l,
  StronglySorted R l ->
  (forall x, In x l -> StronglySorted leB (f x)) ->
  (forall x y, In x l -> In y l -> R x y -> forall u v, In u (f x) -> In v (f y) -> leB u v) ->
  StronglySorted leB (flat_map f l).
Proof.
  induction l as [|x r IH]; intros Hs Hin Hc; [constructor|].
  apply StronglySorted_inv in Hs as [Hr Hx]. cbn [flat_map]. apply StronglySorted_app.
  split; [apply Hin; now left|]. split.
  - apply IH; auto; [intros; apply Hin; now right|]. intros a b Ha Hb. apply Hc; now right.
  - intros u v Hu Hv. apply in_flat_map in Hv as (y & Hy & Hv). rewrite Forall_forall in Hx.
    apply (Hc x y); auto; [now left|now right].
Qed.

Lemma sorted_map {A B} (leA : A -> A -> Prop) (leB : B -> B -> Prop) (f : A -> B) l :
  (forall x y, leA x y -> leB (f x) (f y)) -> StronglySorted leA l -> StronglySorted leB (map f l).
Proof.
  intros H. induction 1 as [|x r Hr IH Hx]; cbn [map]; constructor; auto.
  apply Forall_map. eapply Forall_impl; [|exact Hx]. auto.
Qed.

Lemma filter_flat_map {A B} (p : B -> bool) (f : A -> list B) l :
  filter p (flat_map f l) = flat_map (fun x => filter p (f x)) l.
Proof. induction l as [|x r IH]; [reflexivity|]. cbn [flat_map]. now rewrite filter_app, IH. Qed.

Lemma flat_map_concat_map {A B} (f : A -> list B) l : flat_map f l = concat (map f l).
Proof. apply List.flat_map_concat_map. Qed.

Lemma flat_map_filter {A B} (p : A -> bool) (f : A -> list B) l :
  flat_map f (filter p l) = flat_map (fun x => if p x then f x else []) l.
Proof.
  induction l as [|x r IH]; [reflexivity|]. cbn [filter flat_map]. destruct (p x); cbn [flat_map app]; now rewrite IH.
Qed.

Lemma filter_const {A} (p : A -> bool) b l : (forall x, In x l -> p x = b) -> filter p l = if b then l else [].
Proof.
  induction l as [|x r IH]; intros H; [now destruct b|]. cbn [filter].
  rewrite (H x (or_introl eq_refl)), IH by (intros; apply H; now right). now destruct b.
Qed.

(* one level of the reference: map_res, then concat *)
Lemma map_res_concat {A B} (f : A -> res (list B)) (g : A -> list B) l out :
  (forall x y, In x l -> f x = Ok y -> y = g x) ->
  (do ls <- map_res f l; Ok (concat ls)) = Ok out ->
  out = flat_map g l /\ forall x, In x l -> f x = Ok (g x).
Proof.
  intros Hg H. destruct (map_res f l) as [ls| |] eqn:E; cbn [bind] in H; try discriminate.
  injection H as <-. destruct (map_res_ok f [] l ls E) as [-> Hall].
  assert (Hx : forall x, In x l -> unres f [] x = g x) by (intros x Hx; apply (Hg x); auto).
  split.
  - rewrite flat_map_concat_map. f_equal. apply map_ext_in. exact Hx.
  - intros x Hin. rewrite <- (Hx x Hin). now apply Hall.
Qed.

Lemma flat_map_perm_pointwise {A B} (f g : A -> list B) : forall l,
  (forall x, In x l -> Permutation (f x) (g x)) -> Permutation (flat_map f l) (flat_map g l).
Proof.
  induction l as [|x r IH]; intros H; [constructor|]. cbn [flat_map].
  apply Permutation_app; [apply H; now left|apply IH; intros; apply H; now right].
Qed.

Lemma flat_map_perm {A B} (f g : A -> list B) l l' :
  Permutation l l' -> (forall x, In x l -> Permutation (f x) (g x)) ->
  Permutation (flat_map f l) (flat_map g l').
Proof.
  intros P H. etransitivity; [apply flat_map_perm_pointwise; exact H|]. now apply Permutation_flat_map.
Qed.

Lemma concat_map_cond {A B} (p : A -> bool) (h : A -> list B) l :
  concat (map (fun x => if p x then [] else h x) l) = concat (map h (filter (fun x => negb (p x)) l)).
Proof.
  induction l as [|x r IH]; [reflexivity|]. cbn [map concat filter].
  destruct (p x); cbn [negb]; [exact IH|]. cbn [map concat]. now rewrite IH.
Qed.

Lemma concat_map_flat {A B C} (w : B -> list C) (f : A -> list B) l :
  concat (map w (flat_map f l)) = concat (map (fun x => concat (map w (f x))) l).
Proof.
  induction l as [|x r IH]; [reflexivity|]. cbn [flat_map map concat].
  now rewrite map_app, concat_app, IH.
Qed.

(* two RDATAs that start with different 16-bit values compare like those values *)
Lemma cmp_u16_lt a b ra rb :
  0 <= a < 65536 -> 0 <= b < 65536 -> a < b -> cmp_bytes (u16 a ++ ra) (u16 b ++ rb) = Lt.
Proof.
  intros Ha Hb Hlt. unfold u16. cbn [app cmp_bytes].
  destruct (a / 256 ?= b / 256) eqn:E1.
  - apply Z.compare_eq in E1. destruct (a mod 256 ?= b mod 256) eqn:E2; [|reflexivity|].
    + apply Z.compare_eq in E2. (Z.to_euclidean_division_equations; lia).
    + apply Z.compare_gt_iff in E2. (Z.to_euclidean_division_equations; lia).
  - reflexivity.
  - apply Z.compare_gt_iff in E1. (Z.to_euclidean_division_equations; lia).
Qed.

Lemma filter_perm {A} (p : A -> bool) l l' : Permutation l l' -> Permutation (filter p l) (filter p l').
Proof.
  induction 1 as [|x l l' P IH|x y l|l l' l'' P1 IH1 P2 IH2]; cbn [filter].
  - constructor.
  - destruct (p x); auto.
  - destruct (p x), (p y); try reflexivity. apply perm_swap.
  - etransitivity; eauto.
Qed.

Section Z.
  Variables (tbl : list entry) (origin : name) (relativize : bool) (nodes : list (name * list zrds)).
  Definition zapex : name := if relativize then [] else origin.

  Definition cr (rds : zrds) (fs : list field) : bytes :=
    unres (fun fs => rfc4034_canonical_rdata (z_type rds) fs (Some origin)) [] fs.
  Definition mkrr (owner : name) (rds : zrds) (c : bytes) : zrr :=
    {| q_owner := owner; q_type := z_type rds; q_covers := z_covers rds; q_class := z_class rds;
       q_ttl := z_ttl rds; q_rdata := c |}.
  Definition excl (owner : name) (rds : zrds) : bool :=
    name_eqb owner zapex && ((z_type rds =? tZONEMD) || (z_covers rds =? tZONEMD)).
  Definition rds_key (r : zrds) : Z * Z := (z_type r, z_covers r).
  (* the records in the order the implementation hashes them *)
  Definition rds_L (owner : name) (rds : zrds) : list zrr :=
    map (mkrr owner rds) (sort_bytes (map (cr rds) (z_rdatas rds))).
  Definition node_L (nd : name * list zrds) : list zrr :=
    flat_map (rds_L (fst nd)) (filter (fun rds => negb (excl (fst nd) rds)) (py_sorted rds_key_lt (snd nd))).
  Definition sorted_nodes := py_sorted (fun a b : name * list zrds => name_lt (fst a) (fst b)) nodes.
  Definition zone_L : list zrr := flat_map node_L sorted_nodes.

  Hypothesis Htbl : forallb flag_ok tbl = true.
  Hypothesis Hdist : ci_distinct (map fst nodes).
  Hypothesis Hkeys : forall nd, In nd nodes -> NoDup (map rds_key (snd nd)).
  (* a node keys its rdatasets by (type, covers); covers is the type covered for RRSIG rdatasets (the
     first field of their RDATA) and 0 for all others *)
  Hypothesis Hcov0 : forall nd rds, In nd nodes -> In rds (snd nd) -> z_type rds <> tRRSIG -> z_covers rds = 0.
  Hypothesis Hsig : forall nd rds fs, In nd nodes -> In rds (snd nd) -> In fs (z_rdatas rds) ->
      z_type rds = tRRSIG ->
      0 <= z_covers rds < 65536 /\ exists rest, cr rds fs = u16 (z_covers rds) ++ rest.
  Hypothesis Harity : forall nd rds fs, In nd nodes -> In rds (snd nd) -> In fs (z_rdatas rds) ->
      arity_ok tbl (z_class rds) (z_type rds) fs = true.
  Hypothesis Hlen : forall nd rds fs, In nd nodes -> In rds (snd nd) -> In fs (z_rdatas rds) ->
      zlen (cr rds fs) < 65536.
  Hypothesis Howner : forall nd, In nd nodes -> exists a, rfc_expand (fst nd) (Some origin) = Ok a.
  Variable all : list zrr.
  Hypothesis Hcanon : rfc_zone_rrs origin nodes = Ok all.

  (* the reference, with total functions *)
  Definition rds_all (owner : name) (rds : zrds) : list zrr := map (mkrr owner rds) (map (cr rds) (z_rdatas rds)).
  Definition node_all (nd : name * list zrds) : list zrr := flat_map (rds_all (fst nd)) (snd nd).

  Lemma rds_rrs_ok owner rds l :
    rfc_rds_rrs origin owner rds = Ok l ->
    l = rds_all owner rds /\
    forall fs, In fs (z_rdatas rds) -> rfc4034_canonical_rdata (z_type rds) fs (Some origin) = Ok (cr rds fs).
  Proof.
    unfold rfc_rds_rrs. intros H.
    destruct (map_res _ (z_rdatas rds)) as [cs| |] eqn:E; cbn [bind] in H; try discriminate.
    inversion H; subst. destruct (map_res_ok _ [] _ _ E) as [-> Hall]. split; [reflexivity|exact Hall].
  Qed.

  Lemma node_rrs_ok nd l : rfc_node_rrs origin nd = Ok l ->
    l = node_all nd /\
    forall rds, In rds (snd nd) -> rfc_rds_rrs origin (fst nd) rds = Ok (rds_all (fst nd) rds).
  Proof.
    intros E. apply (map_res_concat _ (rds_all (fst nd)) (snd nd) l); [|exact E].
    intros rds y _ Ey. now apply rds_rrs_ok in Ey.
  Qed.

  Lemma zone_rrs_ok ns l : rfc_zone_rrs origin ns = Ok l ->
    l = flat_map node_all ns /\ forall nd, In nd ns -> rfc_node_rrs origin nd = Ok (node_all nd).
  Proof.
    intros E. apply (map_res_concat _ node_all ns l); [|exact E].
    intros nd y _ Ey. now apply node_rrs_ok in Ey.
  Qed.

  Lemma all_eq : all = flat_map node_all nodes.
  Proof. exact (proj1 (zone_rrs_ok nodes all Hcanon)). Qed.
  Lemma canon_ok nd rds fs : In nd nodes -> In rds (snd nd) -> In fs (z_rdatas rds) ->
    rfc4034_canonical_rdata (z_type rds) fs (Some origin) = Ok (cr rds fs).
  Proof.
    intros Hn Hr Hf. apply (proj2 (zone_rrs_ok nodes all Hcanon)) in Hn.
    apply node_rrs_ok in Hn as [_ Hn]. apply Hn, rds_rrs_ok in Hr as [_ Hr]. now apply Hr.
  Qed.

  Definition nd_le (a b : name * list zrds) : Prop := name_le (fst a) (fst b).
  Definition nd_lt (a b : name * list zrds) : Prop := order (fst a) (fst b) < 0.
  Definition key_le (a b : zrds) : Prop := rds_key_lt b a = false.
  Definition key_lt (a b : zrds) : Prop := rds_key_lt a b = true.

  Lemma sorted_nodes_spec : Permutation nodes sorted_nodes /\ StronglySorted nd_le sorted_nodes.
  Proof.
    apply (py_sorted_spec _ nd_le); unfold nd_le; intros.
    - now apply name_lt_le. - now apply name_nlt_ge. - eapply name_le_trans; eauto.
  Qed.
  Lemma in_sorted_nodes nd : In nd sorted_nodes -> In nd nodes.
  Proof. intros H. eapply Permutation_in; [symmetry; apply sorted_nodes_spec|exact H]. Qed.

  Lemma sorted_nodes_strict : StronglySorted nd_lt sorted_nodes.
  Proof.
    destruct Hdist as [N D]. destruct sorted_nodes_spec as [P S].
    apply (sorted_strict_keys nd_le nd_lt fst nodes _ P S N).
    intros x y Hx Hy Hle Hne. unfold nd_le, nd_lt, name_le in *.
    destruct (Z.eq_dec (order (fst x) (fst y)) 0) as [E|E]; [|lia]. exfalso. apply Hne.
    apply eq_iff_ci in E. apply D; auto using in_map.
  Qed.

  Lemma rds_sorted_spec rdss :
    Permutation rdss (py_sorted rds_key_lt rdss) /\ StronglySorted key_le (py_sorted rds_key_lt rdss).
  Proof. apply (py_sorted_spec _ key_le); unfold key_le, rds_key_lt; intros; lia. Qed.
  Lemma rds_sorted_strict rdss : NoDup (map rds_key rdss) -> StronglySorted key_lt (py_sorted rds_key_lt rdss).
  Proof.
    intros N. destruct (rds_sorted_spec rdss) as [P S].
    apply (sorted_strict_keys key_le key_lt rds_key rdss _ P S N).
    intros x y _ _ Hle Hne. unfold key_le, key_lt, rds_key_lt, rds_key in *.
    destruct (Z.eq_dec (z_type x) (z_type y)) as [Et|Et]; [|lia].
    destruct (Z.eq_dec (z_covers x) (z_covers y)) as [Ec|Ec]; [|lia]. congruence.
  Qed.

  (* what the implementation feeds to the hash *)
  Lemma owner_wire nd : In nd nodes ->
    to_wire (fst nd) (Some origin) true = Ok (rfc_name_wire true (rfc_owner_abs origin (fst nd))).
  Proof.
    intros Hn. destruct (Howner nd Hn) as [a Ea]. rewrite to_wire_rfc, Ea. cbn [bind]. f_equal. f_equal.
    unfold rfc_expand, rfc_owner_abs in *. destruct (is_absolute (fst nd)); [congruence|].
    destruct (is_absolute origin); [|discriminate].
    destruct (wire_length (fst nd) + wire_length origin >? 255); [discriminate|congruence].
  Qed.

  Lemma zd_rdataset_out nd rds : In nd nodes -> In rds (snd nd) ->
    zd_rdataset tbl origin (rfc_name_wire true (rfc_owner_abs origin (fst nd))) rds
    = Ok (concat (map (rfc_rr_wire origin) (rds_L (fst nd) rds))).
  Proof.
    intros Hn Hr. unfold zd_rdataset.
    rewrite (map_res_total _ (cr rds)).
    2:{ intros fs Hf. rewrite (digestable_eq_rfc tbl Htbl) by (eapply Harity; eauto). eapply canon_ok; eauto. }
    cbn [bind]. rewrite map_res_frames.
    2:{ eapply Permutation_Forall; [apply sort_bytes_canonical|]. apply Forall_forall. intros c Hc.
        apply in_map_iff in Hc as (fs & <- & Hf). eapply Hlen; eauto. }
    cbn [bind]. f_equal. unfold rds_L. rewrite map_map. reflexivity.
  Qed.

  Lemma zd_node_out nd : In nd nodes ->
    zd_node tbl origin zapex nd = Ok (concat (map (rfc_rr_wire origin) (node_L nd))).
  Proof.
    intros Hn. pose proof (owner_wire nd Hn) as Hw. pose proof (zd_rdataset_out nd) as Hrd.
    unfold node_L. destruct nd as [n rdss]. cbn [fst snd] in *. unfold zd_node.
    rewrite Hw. cbn [bind].
    rewrite (map_res_total _ (fun rds => if excl n rds then []
                                         else concat (map (rfc_rr_wire origin) (rds_L n rds)))).
    2:{ intros rds Hr. assert (Hr' : In rds rdss) by (eapply Permutation_in; [symmetry; apply rds_sorted_spec|exact Hr]).
        unfold excl. destruct (name_eqb n zapex && ((z_type rds =? tZONEMD) || (z_covers rds =? tZONEMD))); [reflexivity|].
        now apply Hrd. }
    cbn [bind]. f_equal. rewrite concat_map_cond.
    now rewrite (concat_map_flat (C:=Z) (rfc_rr_wire origin)).
  Qed.

  Lemma compute_digest_out halg scheme : (halg = 1 \/ halg = 2) -> scheme = 1 ->
    compute_digest_input tbl origin relativize nodes halg scheme = Ok (concat (map (rfc_rr_wire origin) zone_L)).
  Proof.
    intros Hh ->. unfold compute_digest_input.
    replace (negb ((halg =? 1) || (halg =? 2))) with false by (destruct Hh as [-> | ->]; reflexivity).
    cbn [Z.eqb Pos.eqb negb]. fold zapex. fold sorted_nodes.
    rewrite (map_res_total _ (fun nd => concat (map (rfc_rr_wire origin) (node_L nd)))).
    2:{ intros nd Hn. apply zd_node_out. now apply in_sorted_nodes. }
    cbn [bind]. f_equal. unfold zone_L. now rewrite (concat_map_flat (C:=Z) (rfc_rr_wire origin)).
  Qed.

  Lemma included_mkrr nd rds c : In nd nodes -> In rds (snd nd) ->
    rfc_zonemd_included zapex (mkrr (fst nd) rds c) = negb (excl (fst nd) rds).
  Proof.
    intros Hn Hr. unfold rfc_zonemd_included, excl, mkrr. cbn [q_owner q_type q_covers]. f_equal. f_equal. f_equal.
    destruct (z_type rds =? tRRSIG) eqn:E; [reflexivity|]. cbn [andb].
    rewrite (Hcov0 nd rds Hn Hr) by (apply Z.eqb_neq; exact E). reflexivity.
  Qed.

  Lemma node_perm nd : In nd nodes ->
    Permutation (node_L nd) (filter (rfc_zonemd_included zapex) (node_all nd)).
  Proof.
    intros Hn. unfold node_L, node_all. rewrite filter_flat_map.
    transitivity (flat_map (rds_L (fst nd)) (filter (fun rds => negb (excl (fst nd) rds)) (snd nd))).
    { apply Permutation_flat_map, Permutation_sym, filter_perm, rds_sorted_spec. }
    rewrite flat_map_filter. apply flat_map_perm_pointwise. intros rds Hr.
    rewrite (filter_const _ (negb (excl (fst nd) rds))).
    2:{ intros x Hx. apply in_map_iff in Hx as (c & <- & _). now apply included_mkrr. }
    destruct (excl (fst nd) rds); cbn [negb]; [reflexivity|].
    apply Permutation_map, Permutation_sym, sort_bytes_canonical.
  Qed.

  Lemma zone_perm : Permutation zone_L (filter (rfc_zonemd_included zapex) all).
  Proof.
    rewrite all_eq, filter_flat_map. unfold zone_L. apply Permutation_sym.
    apply flat_map_perm; [apply sorted_nodes_spec|]. intros nd Hn. apply Permutation_sym. now apply node_perm.
  Qed.

  Lemma in_rds_L owner rds u : In u (rds_L owner rds) ->
    q_owner u = owner /\ q_type u = z_type rds /\ exists fs, In fs (z_rdatas rds) /\ q_rdata u = cr rds fs.
  Proof.
    unfold rds_L. intros H. apply in_map_iff in H as (c & <- & Hc). cbn. repeat split.
    assert (In c (map (cr rds) (z_rdatas rds))) by (eapply Permutation_in; [symmetry; apply sort_bytes_canonical|exact Hc]).
    apply in_map_iff in H as (fs & <- & Hf). eauto.
  Qed.

  Lemma node_sorted nd : In nd nodes -> StronglySorted rfc_rr_le (node_L nd).
  Proof.
    intros Hn. unfold node_L.
    assert (Hsub : forall rds, In rds (filter (fun rds => negb (excl (fst nd) rds)) (py_sorted rds_key_lt (snd nd))) -> In rds (snd nd)).
    { intros rds H. apply filter_In in H as [H _]. eapply Permutation_in; [symmetry; apply rds_sorted_spec|exact H]. }
    apply (sorted_flat_map key_lt).
    - apply sorted_filter. apply rds_sorted_strict. now apply Hkeys.
    - intros rds _. unfold rds_L. apply (sorted_map bytes_le); [|apply sort_bytes_canonical].
      intros x y Hxy. right. cbn. split; [apply order_refl|]. right. split; [reflexivity|exact Hxy].
    - intros a b Ha Hb Hab u v Hu Hv. apply Hsub in Ha, Hb.
      apply in_rds_L in Hu as (Ou & Tu & fu & Hfu & Ru). apply in_rds_L in Hv as (Ov & Tv & fv & Hfv & Rv).
      right. rewrite Ou, Ov, Tu, Tv, Ru, Rv. split; [apply order_refl|].
      unfold key_lt, rds_key_lt in Hab.
      destruct (Z.eq_dec (z_type a) (z_type b)) as [Et|Et]; [|left; lia].
      right. split; [exact Et|].
      assert (Hc : z_covers a < z_covers b) by lia.
      destruct (Z.eq_dec (z_type a) tRRSIG) as [Es|Es].
      + destruct (Hsig nd a fu Hn Ha Hfu Es) as (Ra & ra & Ea).
        destruct (Hsig nd b fv Hn Hb Hfv ltac:(congruence)) as (Rb & rb' & Eb).
        unfold bytes_le. rewrite Ea, Eb, cmp_u16_lt by lia. discriminate.
      + exfalso. rewrite (Hcov0 nd a Hn Ha Es), (Hcov0 nd b Hn Hb ltac:(congruence)) in Hc. lia.
  Qed.

  Lemma in_node_L nd u : In u (node_L nd) -> q_owner u = fst nd.
  Proof.
    unfold node_L. intros H. apply in_flat_map in H as (rds & _ & Hu). now apply in_rds_L in Hu as (O & _).
  Qed.

  Lemma zone_sorted : StronglySorted (rfc_rr_le) zone_L.
  Proof.
    unfold zone_L. apply (sorted_flat_map nd_lt).
    - apply sorted_nodes_strict.
    - intros nd Hn. apply node_sorted. now apply in_sorted_nodes.
    - intros x y _ _ Hxy u v Hu Hv. left. rewrite (in_node_L x u Hu), (in_node_L y v Hv). exact Hxy.
  Qed.

  Theorem compute_digest_eq_rfc halg scheme :
    (halg = 1 \/ halg = 2) -> scheme = 1 ->
    exists input, compute_digest_input tbl origin relativize nodes halg scheme = Ok input
                  /\ is_zonemd_input origin zapex nodes input.
  Proof.
    intros Hh Hs. eexists. split; [apply compute_digest_out; assumption|].
    exists all, zone_L. repeat split; [exact Hcanon|apply zone_perm|apply zone_sorted].
  Qed.
End Z.
