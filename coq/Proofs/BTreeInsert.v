(* C19 - insertion: insert_nonfull with pre-emptive split and in-order optimisation keeps the
   tree well-formed and inserts into the in-order traversal like a sorted association list. *)
From DV Require Import Base.Prelude Model.BTreeM Proofs.BTreeBase Proofs.BTreeWf.

Ltac len_lia := cbn [n_elts] in *; rewrite ?app_length in *; cbn [length] in *; lia.

Section INS.
Variable t : nat.
Hypothesis Ht : (3 <= t)%nat.
Notation wfn := (wfn t).

Lemma opt_loop_spec fuel : forall h ea pe eb ka l r kb,
  length ka = length ea ->
  wfn (t_min t) h l -> wfn (t_min t) h r -> (t_max t - length (n_elts l) < fuel)%nat ->
  exists l' pe' r',
    opt_loop fuel t (Node false (ea ++ pe :: eb) (ka ++ l :: r :: kb)) (length ka)
      = Ok (Node false (ea ++ pe' :: eb) (ka ++ l' :: r' :: kb)) /\
    wfn (t_min t) h l' /\ wfn (t_min t) h r' /\
    elements l' ++ pe' :: elements r' = elements l ++ pe :: elements r.
Proof.
  induction fuel as [|f IH]; intros h ea pe eb ka l r kb H1 Hl Hr Hf; [lia|].
  cbn [opt_loop n_kids]. rewrite split_at_app by reflexivity. cbn [bind].
  destruct (Nat.ltb_spec (length (n_elts l)) (t_max t)) as [Hlt|Hge]; [|exists l, pe, r; auto].
  destruct (Nat.eq_dec (length (n_elts r)) (t_min t)) as [Hm|Hm].
  - rewrite (try_right_steal_min t Ht _ _ ka l r kb h) by (auto; now apply split_at_app). cbn [bind]. exists l, pe, r. auto.
  - destruct (try_right_steal_spec t Ht h ea pe eb ka l r kb H1 Hl Hr Hlt Hm)
      as (l' & re & r' & -> & Hl' & Hr' & Hll & He & _). cbn [bind].
    destruct (IH h ea re eb ka l' r' kb H1 Hl' Hr') as (l2 & pe2 & r2 & -> & ? & ? & He2); [lia|].
    exists l2, pe2, r2. repeat split; try assumption. congruence.
Qed.

Lemma optimize_spec lo h p i :
  wfn lo (S h) p -> n_leaf p = false -> (i <= length (n_elts p))%nat ->
  exists p', optimize_in_order_insertion t p i = Ok p' /\ wfn lo (S h) p' /\ elements p' = elements p /\
             length (n_elts p') = length (n_elts p).
Proof.
  intros Hw Hnl Hi. destruct i as [|li]; [exists p; auto|].
  destruct p as [lf es ks]. cbn in Hnl. subst lf. cbn [n_elts] in Hi.
  pose proof Hw as (_ & Hk & _)%wfn_node_inv.
  destruct (list_split_at es li) as (ea & [|pe eb] & -> & <-); [lia|rewrite app_nil_r in Hi; lia|].
  destruct (kids_at2 ea pe eb ks Hk) as (ka & l & r & kb & -> & H1 & H3). rewrite <- H1.
  cbn [optimize_in_order_insertion n_kids]. rewrite split_at_app by reflexivity. cbn [bind].
  destruct (Nat.eqb_spec (length (n_elts l)) (t_max t)); [eauto|].
  destruct (wfn_kids2 t _ _ _ _ _ _ _ Hw) as (Hl & Hr).
  destruct (opt_loop_spec (S (t_max t)) h ea pe eb ka l r kb) as (l' & pe' & r' & -> & Hl' & Hr' & He);
    try assumption; [lia|].
  eexists. split; [reflexivity|]. split; [eapply wfn_replace2; eassumption|]. split.
  - rewrite !elements_split2 by assumption. now rewrite He.
  - cbn. rewrite !app_length. reflexivity.
Qed.

(* g bounds the growth of the node itself *)
Definition ins_ok (lo h : nat) (n : tree) (e : elt) (g : nat) (r : res (tree * option elt)) : Prop :=
  exists n', r = Ok (n', find_sorted (fst e) (elements n)) /\ wfn lo h n' /\
             elements n' = ins_sorted e (elements n) /\
             (length (n_elts n) <= length (n_elts n') <= length (n_elts n) + g)%nat.

Definition rec_ok (rec : tree -> res (tree * option elt)) (e : elt) (h' : nat) : Prop :=
  forall c, wfn (t_min t) h' c -> (length (n_elts c) < t_max t)%nat -> ksorted (elements c) ->
            ins_ok (t_min t) h' c e 1 (rec c).

Lemma ins_ok_weaken lo h n e g g' r : (g <= g')%nat -> ins_ok lo h n e g r -> ins_ok lo h n e g' r.
Proof. intros Hg (n' & ? & ? & ? & ?). exists n'. repeat split; try assumption; lia. Qed.

(* n1 is n after the split of a child: the same traversal, one key more *)
Lemma ins_ok_split lo h n n1 e r :
  elements n1 = elements n -> length (n_elts n1) = S (length (n_elts n)) ->
  ins_ok lo h n1 e 0 r -> ins_ok lo h n e 1 r.
Proof.
  intros He Hl (n' & -> & Hw & He' & Hl'). exists n'. rewrite <- He. repeat split; try assumption; lia.
Qed.

(* the three ways an iteration ends without splitting a child: the key is in the node, ... *)
Lemma ins_here io rec again lo h lf ea v eb ks e :
  let n := Node lf (ea ++ (fst e, v) :: eb) ks in
  wfn lo h n -> ksorted (elements n) -> ins_ok lo h n e 0 (ins_iter t io rec again n e).
Proof.
  intros n Hw Hs. pose proof (node_es_sorted t Ht _ _ _ Hw Hs) as Hes. cbn [n n_elts] in Hes.
  unfold n, ins_iter. rewrite search_hit by assumption. cbn [bind]. rewrite split_at_app by reflexivity. cbn [bind].
  destruct (node_at_elt t _ _ _ _ _ _ _ Hw) as (A & B & HAB).
  unfold n in Hs. rewrite (proj1 (HAB _)) in Hs. apply ksorted_mid in Hs as (HA & HB & _).
  exists (Node lf (ea ++ e :: eb) ks). rewrite !(proj1 (HAB _)), find_sorted_at, ins_sorted_at by assumption.
  repeat split; [apply HAB|len_lia..].
Qed.

(* ... the node is a leaf with room, ... *)
Lemma ins_leaf io rec again lo ea eb e :
  let n := Node true (ea ++ eb) [] in
  wfn lo 1 n -> ksorted (ea ++ eb) -> all_lt ea (fst e) -> all_gt eb (fst e) -> (length (ea ++ eb) < t_max t)%nat ->
  ins_ok lo 1 n e 1 (ins_iter t io rec again n e).
Proof.
  intros n Hw Hs Hlt Hgt Hlen. apply (wfn_len t Ht) in Hw. cbn [n n_elts] in Hw.
  unfold n, ins_iter. rewrite search_miss by assumption. cbn [bind]. rewrite insert_at_app by reflexivity.
  exists (Node true (ea ++ e :: eb) []). cbn [elements].
  rewrite (find_sorted_in_mid ea [] eb), (ins_sorted_in_mid ea [] eb) by assumption.
  repeat split; [constructor|..]; len_lia.
Qed.

(* ... or the child to descend into has room *)
Lemma ins_below io rec again lo h ea eb ka c kb e :
  let n := Node false (ea ++ eb) (ka ++ c :: kb) in
  length ka = length ea -> length kb = length eb -> wfn lo (S h) n -> ksorted (elements n) ->
  all_lt ea (fst e) -> all_gt eb (fst e) -> (length (n_elts c) < t_max t)%nat -> rec_ok rec e h ->
  ins_ok lo (S h) n e 0 (ins_iter t io rec again n e).
Proof.
  intros n H1 H2 Hw Hs Hlt Hgt Hroom Hrec.
  destruct (kid_bounds t _ _ _ _ _ _ _ (fst e) H1 H2 Hw Hs Hlt Hgt) as (Hc & Hcs & HA & HB).
  pose proof (node_es_sorted t Ht _ _ _ Hw Hs) as Hes. cbn [n n_elts] in Hes.
  unfold n at 2, ins_iter. rewrite search_miss by assumption. cbn [bind]. rewrite split_at_app by assumption. cbn [bind].
  rewrite (is_maximal_ok t Ht _ _ _ Hc). cbn [bind]. destruct (Nat.eqb_spec (length (n_elts c)) (t_max t)); [lia|].
  destruct (Hrec c Hc Hroom Hcs) as (c' & -> & Hc' & Hec & Hlc). cbn [bind].
  set (n' := Node false (ea ++ eb) (ka ++ c' :: kb)).
  assert (Hn' : wfn lo (S h) n') by (eapply wfn_replace1; eassumption).
  assert (He' : elements n' = ins_sorted e (elements n)).
  { unfold n, n'. now rewrite !elements_split, Hec, ins_sorted_in_mid by assumption. }
  unfold ins_ok. replace (find_sorted (fst e) (elements n)) with (find_sorted (fst e) (elements c))
    by (unfold n; now rewrite elements_split, find_sorted_in_mid by assumption).
  destruct io.
  - destruct (optimize_spec lo h n' (length ea) Hn' eq_refl) as (p' & -> & Hwp & Hep & Hlp); [unfold n'; len_lia|]. cbn [bind].
    exists p'. rewrite Hep, Hlp. repeat split; try assumption; cbn; lia.
  - exists n'. repeat split; try assumption; cbn; lia.
Qed.

(* after the split of a child: the key is the new separator m, or belongs to one of the halves l, r *)
Lemma ins_halves io rec again lo h ea m eb ka l r kb e :
  let n := Node false (ea ++ m :: eb) (ka ++ l :: r :: kb) in
  length ka = length ea -> length kb = length eb -> wfn lo (S h) n -> ksorted (elements n) ->
  all_lt ea (fst e) -> all_gt eb (fst e) ->
  (length (n_elts l) < t_max t)%nat -> (length (n_elts r) < t_max t)%nat -> rec_ok rec e h ->
  ins_ok lo (S h) n e 0 (ins_iter t io rec again n e).
Proof.
  intros n H1 H2 Hw Hs Hlt Hgt Hl Hr Hrec.
  destruct (Z.lt_trichotomy (fst e) (fst m)) as [Hkm|[Hkm|Hkm]].
  - apply (ins_below io rec again lo h ea (m :: eb) ka l (r :: kb)); cbn [length]; auto. now constructor.
  - destruct m as [mk mv]. cbn [fst] in Hkm. subst mk. now apply ins_here.
  - unfold n in *. change (ea ++ m :: eb) with (ea ++ [m] ++ eb) in *. change (ka ++ l :: r :: kb) with (ka ++ [l] ++ r :: kb) in *.
    rewrite !app_assoc in *.
    apply (ins_below io rec again lo h (ea ++ [m]) eb (ka ++ [l]) r kb); auto; [now rewrite !last_length, H1|].
    apply all_lt_app. split; [assumption|]. now repeat constructor.
Qed.

(* the parent adopts the halves of the child it has just split *)
Lemma adopt_split ea eb ka l m r kb :
  length ka = length ea -> ksorted (ea ++ eb) -> all_lt ea (fst m) -> all_gt eb (fst m) ->
  (length (ea ++ eb) < t_max t)%nat ->
  adopt t (Node false (ea ++ eb) (ka ++ l :: kb)) l m r (length ea)
  = Ok (Node false (ea ++ m :: eb) (ka ++ l :: r :: kb)).
Proof.
  intros H1 Hes Hlt Hgt Hlen. unfold adopt, is_maximal. cbn [n_elts].
  destruct (Nat.ltb_spec (t_max t) (length (ea ++ eb))); [lia|]. cbn [bind].
  destruct (Nat.eqb_spec (length (ea ++ eb)) (t_max t)); [lia|].
  rewrite search_miss by assumption. cbn [bind]. rewrite insert_at_app by reflexivity.
  destruct (ka ++ l :: kb) eqn:Ekl; [destruct ka; discriminate|]. rewrite <- Ekl.
  rewrite <- H1, nth_error_app_mid, Nat.eqb_refl.
  change (ka ++ l :: kb) with (ka ++ [l] ++ kb). rewrite app_assoc, insert_at_app by apply last_length.
  now rewrite <- app_assoc.
Qed.

Lemma ins_spec io e : forall fuel h, (h <= fuel)%nat -> forall lo n,
  wfn lo h n -> (length (n_elts n) < t_max t)%nat -> ksorted (elements n) ->
  ins_ok lo h n e 1 (ins t fuel io n e).
Proof.
  induction fuel as [|f IH]; intros h Hf lo n Hw Hlen Hs.
  { pose proof (wfn_pos t Ht _ _ _ Hw). lia. }
  cbn [ins]. rewrite (is_maximal_ok t Ht _ _ _ Hw). cbn [bind].
  destruct (Nat.eqb_spec (length (n_elts n)) (t_max t)); [lia|].
  set (rec := fun c => ins t f io c e).
  assert (Hrec : forall h', (h' < h)%nat -> rec_ok rec e h').
  { intros h' Hh c Hc Hcl Hcs. apply (IH h'); [lia|assumption..]. }
  pose proof (node_es_sorted t Ht _ _ _ Hw Hs) as Hes.
  destruct (key_view_of t Ht (fst e) lo h n Hw Hs)
    as [h lf ea v eb ks A B _ _ _ _ _|ea eb _ Hlt Hgt|h ea eb ka c kb Hsr Hlt Hgt H1 H2 Hc Hcs _ _];
    cbn [n_elts] in Hlen, Hes.
  - eapply ins_ok_weaken; [|now apply ins_here]. lia.
  - now apply ins_leaf.
  - pose proof (wfn_len t Ht _ _ _ Hc) as Hcl.
    destruct (Nat.eq_dec (length (n_elts c)) (t_max t)) as [Hfull|Hroom].
    2:{ eapply ins_ok_weaken; [|apply ins_below; auto; lia]. lia. }
    (* pre-emptive split of the full child, then one more iteration *)
    unfold ins_iter at 1. rewrite Hsr. cbn [bind]. rewrite split_at_app by assumption. cbn [bind].
    rewrite (is_maximal_ok t Ht _ _ _ Hc), Hfull, Nat.eqb_refl. cbn [bind].
    destruct (split_node_spec t Ht h c Hc Hfull) as (l & m & r & -> & Hl & Hr & Hll & Hrl & Hec). cbn [bind].
    destruct (kid_sorted ea eb ka c kb H1 H2 Hs) as (_ & _ & _ & _ & Hbound).
    destruct (Hbound m) as (Hm1 & Hm2); [rewrite Hec; apply in_elt|].
    rewrite adopt_split by assumption. cbn [bind].
    set (n1 := Node false (ea ++ m :: eb) (ka ++ l :: r :: kb)).
    assert (Hn1 : wfn lo (S h) n1) by (eapply wfn_split_kid; eassumption).
    assert (He1 : elements n1 = elements (Node false (ea ++ eb) (ka ++ c :: kb))).
    { unfold n1. now rewrite elements_split2, elements_split, Hec by assumption. }
    apply (ins_ok_split lo (S h) _ n1); [exact He1|cbn [n1 n_elts]; rewrite !app_length; apply Nat.add_succ_r|].
    assert (Hs1 : ksorted (elements n1)) by now rewrite He1.
    pose proof (t_min_lt_max t Ht) as Htm.
    apply ins_halves; auto; lia.
Qed.

(* the root may hold fewer than t-1 keys; an internal root holds at least one *)
Definition root_lo (n : tree) : nat := if n_leaf n then 0%nat else 1%nat.
Definition wfr (h : nat) (n : tree) : Prop := wfn (root_lo n) h n.

Lemma wfr_of lo h n : wfn lo h n -> (n_leaf n = false -> (1 <= length (n_elts n))%nat) -> wfr h n.
Proof.
  intros Hw Hl. eapply (wfn_lo t Ht); [exact Hw|]. unfold root_lo. destruct (n_leaf n); [lia|auto].
Qed.

Lemma grow_root_spec h root :
  wfr h root ->
  exists h1 root1, grow_root t root = Ok root1 /\ wfr h1 root1 /\ elements root1 = elements root /\
                   (length (n_elts root1) < t_max t)%nat.
Proof.
  intros Hw. unfold wfr, root_lo in Hw. unfold grow_root. rewrite (is_maximal_ok t Ht _ _ _ Hw). cbn [bind].
  pose proof (wfn_len t Ht _ _ _ Hw) as Hl.
  destruct (Nat.eqb_spec (length (n_elts root)) (t_max t)) as [Hmax|Hmax].
  - assert (Hw' : wfn (t_min t) h root).
    { eapply (wfn_lo t Ht); [exact Hw|]. pose proof (t_min_lt_max t Ht). lia. }
    destruct (split_node_spec t Ht h root Hw' Hmax) as (l & m & r & -> & Hlw & Hrw & Hll & Hrl & He). cbn [bind].
    unfold adopt, is_maximal. cbn [n_elts length].
    destruct (Nat.ltb_spec (t_max t) 0); [lia|]. cbn [bind].
    destruct (Nat.eqb_spec 0 (t_max t)) as [H0|H0]; [unfold t_max in H0; lia|].
    cbn. exists (S h), (Node false [m] [l; r]). split; [reflexivity|].
    split; [|split].
    + unfold wfr, root_lo. cbn [n_leaf]. constructor; cbn; [unfold t_max; lia|reflexivity|]. repeat constructor; assumption.
    + rewrite He. reflexivity.
    + cbn. unfold t_max. lia.
  - exists h, root. repeat split; try assumption. lia.
Qed.

Theorem insert_tree_spec io h root e :
  wfr h root -> ksorted (elements root) ->
  exists h' root',
    insert_tree t io root e = Ok (root', find_sorted (fst e) (elements root)) /\
    wfr h' root' /\ ksorted (elements root') /\
    elements root' = ins_sorted e (elements root).
Proof.
  intros Hw Hs. unfold insert_tree.
  destruct (grow_root_spec h root Hw) as (h1 & root1 & -> & Hw1 & He1 & Hl1). cbn [bind].
  unfold wfr in Hw1. rewrite (wfn_depth t _ _ _ Hw1).
  destruct (ins_spec io e h1 h1 (le_n _) _ root1 Hw1 Hl1) as (n' & -> & Hw' & He' & Hl').
  { now rewrite He1. }
  rewrite He1 in *. exists h1, n'. split; [reflexivity|]. split; [|split; [|assumption]].
  - unfold wfr, root_lo. now rewrite (wfn_same_leaf t _ _ _ _ _ Hw' Hw1).
  - rewrite He'. now apply ins_sorted_sorted.
Qed.

End INS.
