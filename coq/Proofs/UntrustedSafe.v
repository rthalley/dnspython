(* C04, wire side: ExceptionWrapper closes every per-type parser; dns.rdata.from_wire and the
   message reader raise only the documented library errors; continue_on_error records. *)
From DV Require Import Base.Prelude Model.NameM Model.ParserM Model.UntrustedM
                       Proofs.NameValid Proofs.ParserSafe.
Open Scope Z_scope.

(* ExceptionWrapper *)
(* for ANY inner computation: only a value, or an instance of the wrapper's class, comes out;
   the parser state is whatever the inner computation left *)
Theorem wrap_closes {A} (cls : Z) (fam : Z -> bool) (m : M A) (s : pstate) :
  fam cls = true ->
  match wrap cls fam m s with
  | (Val a, s') => m s = (Val a, s')
  | (Exn (XLib e), s') => fam e = true /\ snd (m s) = s'
  | (Exn (XInt _), _) => False
  end.
Proof.
  intros Hc. unfold wrap. destruct (m s) as [[a|[e|e]] s1]; cbn; auto.
  destruct (fam e) eqn:E; cbn; auto.
Qed.

Theorem wrap_res_closes {A} (cls : Z) (fam : Z -> bool) (r : res A) :
  fam cls = true ->
  match wrap_res cls fam r with
  | Ok a => r = Ok a
  | Lib e => fam e = true
  | Internal _ => False
  end.
Proof.
  intros Hc. unfold wrap_res. destruct r as [a|e|e]; auto. destruct (fam e) eqn:E; auto.
Qed.

(* which classes the wrapper converts: everything that is not an instance *)
Lemma wrap_converts {A} cls fam (m : M A) s e s' :
  m s = (Exn (XLib e), s') -> fam e = false -> wrap cls fam m s = (Exn (XLib cls), s').
Proof. intros H F. unfold wrap. rewrite H, F. reflexivity. Qed.

Lemma wrap_converts_internal {A} cls fam (m : M A) s e s' :
  m s = (Exn (XInt e), s') -> wrap cls fam m s = (Exn (XLib cls), s').
Proof. intros H. unfold wrap. rewrite H. reflexivity. Qed.

Lemma is_form_FormError : is_form eFormError = true.
Proof. reflexivity. Qed.
Lemma is_syntax_Syntax : is_syntax eSyntax = true.
Proof. reflexivity. Qed.

Section Wire.
  Variable wire : list Z.
  Hypothesis Hwire : bytes_ok wire.

  (* API discipline of a per-type parser: whatever it returns or raises (Python-level exceptions
     included) it leaves the parser inside the message, with its end restored and furthest not
     decreased.  Every function built from the Parser methods has this property; it says nothing
     about WHICH exception is raised. *)
  Definition tame {A} (lo : Z) (m : M A) : Prop :=
    forall s, wfl wire lo s ->
      wfl wire lo (snd (m s)) /\ pend (snd (m s)) = pend s /\ pfur s <= pfur (snd (m s)).
  Definition api_disciplined {A} (m : M A) : Prop := forall lo, 0 <= lo -> tame lo m.

  Definition isFormFam (e : Z) : Prop := is_form e = true.

  Lemma nameerr_form e : isNameErr e -> isFormFam e.
  Proof.
    unfold isNameErr, isNameWireErr, isFormFam.
    intros [[H|[H|H]]|H]; subst; reflexivity.
  Qed.
  Lemma form_formfam e : isForm e -> isFormFam e.
  Proof. intros ->. reflexivity. Qed.

  (* dns.rdata.from_wire_parser around an arbitrary disciplined per-type parser *)
  Lemma good_wrapped lo (m : M unit) s :
    tame lo m -> wfl wire lo s ->
    good wire lo isFormFam s (wrap eFormError is_form m s) (fun _ _ => True).
  Proof.
    intros T W. specialize (T s W). unfold wrap, good.
    destruct (m s) as [[a|[e|e]] s1]; cbn in T |- *.
    - destruct T as (? & ? & ?). auto.
    - destruct T as (? & ? & ?). destruct (is_form e) eqn:E; cbn; unfold isFormFam; auto.
    - destruct T as (? & ? & ?). unfold isFormFam. auto.
  Qed.

  Definition okcode (e : Z) : Prop := is_form e = true \/ e = eUnknownTSIGKey.
  (* invariant of the reader's bookkeeping: every recorded error is a library error with an
     offset between the end of the header and the end of the message *)
  Definition MI (m : mstate) : Prop :=
    Forall (fun eo => okcode (fst eo) /\ 12 <= snd eo <= zlen wire) (ms_errors m).

  Definition mgood {A} (lo : Z) (s : pstate) (r : out A * mstate * pstate)
             (Q : A -> mstate -> pstate -> Prop) : Prop :=
    match r with
    | (Val a, m', s') => wfl wire lo s' /\ pend s' = pend s /\ pfur s <= pfur s' /\ MI m' /\ Q a m' s'
    | (Exn (XLib e), m', s') => okcode e /\ wfl wire lo s' /\ pend s' = pend s /\ pfur s <= pfur s' /\ MI m'
    | (Exn (XInt _), _, _) => False
    end.

  Lemma mgood_weaken {A} lo s (r : out A * mstate * pstate) (Q Q' : A -> mstate -> pstate -> Prop) :
    mgood lo s r Q ->
    (forall a m' s', wfl wire lo s' -> pend s' = pend s -> MI m' -> Q a m' s' -> Q' a m' s') ->
    mgood lo s r Q'.
  Proof.
    unfold mgood. destruct r as [[[a|[e|e]] m'] s']; intros H HQ; auto.
    destruct H as (? & ? & ? & ? & ?). auto 10.
  Qed.

  (* what holds from s1 on holds from s, if s1 was reached from s *)
  Lemma mgood_from {A} lo s s1 (r : out A * mstate * pstate) (Q : A -> mstate -> pstate -> Prop) :
    pend s1 = pend s -> pfur s <= pfur s1 -> mgood lo s1 r Q -> mgood lo s r Q.
  Proof.
    unfold mgood, wfl. destruct r as [[[b|[e|e]] m2] s2]; auto; intros E F H; decompose [and] H;
      repeat split; auto; lia.
  Qed.

  Lemma mgood_bind {A B} lo s m0 (c : MM A) (k : A -> MM B) Q1 (Q2 : B -> mstate -> pstate -> Prop) :
    mgood lo s (c m0 s) Q1 ->
    (forall a m1 s1, wfl wire lo s1 -> pend s1 = pend s -> pfur s <= pfur s1 -> MI m1 -> Q1 a m1 s1 ->
                     mgood lo s1 (k a m1 s1) Q2) ->
    mgood lo s (mmbind c k m0 s) Q2.
  Proof.
    unfold mmbind. destruct (c m0 s) as [[[a|[e|e]] m1] s1]; intros H K; auto.
    destruct H as (W & E & F & I & Q). apply (mgood_from lo s s1 _ _ E F), K; auto.
  Qed.

  Lemma mgood_ret {A} lo s m0 (a : A) (Q : A -> mstate -> pstate -> Prop) :
    wfl wire lo s -> MI m0 -> Q a m0 s -> mgood lo s (mret a m0 s) Q.
  Proof. unfold mgood, mret. intros. repeat split; auto; try lia; apply H. Qed.

  Lemma mgood_raise {A} lo s m0 e (Q : A -> mstate -> pstate -> Prop) :
    wfl wire lo s -> MI m0 -> okcode e -> mgood lo s (mraise (XLib e) m0 s) Q.
  Proof. unfold mgood, mraise. intros. repeat split; auto; try lia; apply H. Qed.

  (* a Parser method inside the reader *)
  Lemma mgood_lift_bind {A B} lo s m0 (c : M A) (k : A -> MM B) (P : Z -> Prop) Q1 (Q2 : B -> mstate -> pstate -> Prop) :
    good wire lo P s (c s) Q1 -> (forall e, P e -> okcode e) -> MI m0 ->
    (forall a s1, wfl wire lo s1 -> pend s1 = pend s -> pfur s <= pfur s1 -> Q1 a s1 -> mgood lo s1 (k a m0 s1) Q2) ->
    mgood lo s (mmbind (liftP c) k m0 s) Q2.
  Proof.
    intros G HP I K. apply (mgood_bind lo s m0 (liftP c) k (fun a m' s' => m' = m0 /\ Q1 a s')).
    - unfold good, mgood, liftP in *. destruct (c s) as [[a|[e|e]] s1]; auto; destruct G as (? & ? & ? & ?); auto 10.
    - intros a m1 s1 W E F _ [-> Q]. auto.
  Qed.

  (* the reader's own steps (upd, getm, getp) run by computation *)
  Lemma mgood_upd_bind {B} lo s m0 f (k : unit -> MM B) (Q : B -> mstate -> pstate -> Prop) :
    mgood lo s (k tt (f m0) s) Q -> mgood lo s (mmbind (upd f) k m0 s) Q.
  Proof. exact (fun H => H). Qed.

  Lemma mgood_getm_bind {B} lo s m0 (k : mstate -> MM B) (Q : B -> mstate -> pstate -> Prop) :
    mgood lo s (k m0 m0 s) Q -> mgood lo s (mmbind getm k m0 s) Q.
  Proof. exact (fun H => H). Qed.

  Lemma mgood_getp_bind {B} lo s m0 (k : pstate -> MM B) (Q : B -> mstate -> pstate -> Prop) :
    mgood lo s (k s m0 s) Q -> mgood lo s (mmbind getp k m0 s) Q.
  Proof. exact (fun H => H). Qed.

  (* try / except Exception: the handler sees a library error and the state at the raise *)
  Lemma mgood_catch {A} lo s m0 (c : MM A) (h : exn -> MM A) (Q : A -> mstate -> pstate -> Prop) :
    mgood lo s (c m0 s) Q ->
    (forall e m1 s1, okcode e -> wfl wire lo s1 -> pend s1 = pend s -> pfur s <= pfur s1 -> MI m1 ->
                     mgood lo s1 (h (XLib e) m1 s1) Q) ->
    mgood lo s (catch c h m0 s) Q.
  Proof.
    unfold catch. destruct (c m0 s) as [[[a|[e|e]] m1] s1]; intros H K; auto; try contradiction.
    destruct H as (Pe & W & E & F & I). apply (mgood_from lo s s1 _ _ E F), K; auto.
  Qed.

  (* MI is about ms_errors only *)
  Lemma MI_add_q q m : MI m -> MI (add_q q m). Proof. auto. Qed.
  Lemma MI_add_trace t m : MI m -> MI (add_trace t m). Proof. auto. Qed.
  Lemma MI_add_err e off m : MI m -> okcode e -> 12 <= off <= zlen wire -> MI (add_err (e, off) m).
  Proof. intros I Pe Ho. unfold MI, add_err. cbn. constructor; auto. Qed.

  Section Reader.
    Variable rdparse : Z -> Z -> M unit.
    Hypothesis rd_api : forall c t, api_disciplined (rdparse c t).

    Lemma okcode_form e : isFormFam e -> okcode e.
    Proof. left. assumption. Qed.
    Lemma okcode_name e : isNameErr e -> okcode e.
    Proof. intros H. left. apply nameerr_form, H. Qed.
    Lemma okcode_isForm e : isForm e -> okcode e.
    Proof. intros ->. left. reflexivity. Qed.

    Lemma mgood_traced lo c t s m0 :
      0 <= lo -> wfl wire lo s -> MI m0 ->
      mgood lo s (traced_rdata rdparse c t m0 s) (fun _ _ _ => True).
    Proof.
      intros Hlo W I. unfold traced_rdata, rdata_from_wire_parser.
      pose proof (good_wrapped lo (rdparse c t) s (rd_api c t lo Hlo) W) as G.
      unfold good in G. unfold mgood.
      destruct (wrap eFormError is_form (rdparse c t) s) as [[a|[e|e]] s1]; auto;
        destruct G as (? & ? & ? & ?); auto 10 using okcode_form.
    Qed.

    Lemma mgood_mrestrict {A} lo size (body : MM A) s m0 (Q : A -> mstate -> pstate -> Prop) :
      0 <= lo -> wfl wire lo s -> MI m0 -> 0 <= size ->
      (forall s0, wfl wire lo s0 -> pend s0 = pcur s + size -> pcur s0 = pcur s -> pfur s0 = pfur s ->
                  mgood lo s0 (body m0 s0) Q) ->
      mgood lo s (mrestrict_to size body m0 s)
            (fun a m' s' => pcur s' = pcur s + size /\ pcur s' <= pend s').
    Proof.
      intros Hlo W I Hs Hb. pose proof W as (Hc & He & Hf). unfold mrestrict_to, remaining.
      destruct (size <? 0) eqn:E1; [lia|].
      destruct (size >? pend s - pcur s) eqn:E2.
      - cbn. repeat split; auto; try lia. left; reflexivity.
      - assert (W0 : wfl wire lo (set_end s (pcur s + size))) by (unfold wfl, set_end; cbn; repeat split; lia).
        specialize (Hb _ W0 eq_refl eq_refl eq_refl).
        destruct (body m0 (set_end s (pcur s + size))) as [[[a|[e|e]] m1] s1]; cbn in Hb |- *.
        + destruct Hb as ((Hc1 & He1 & Hf1) & E & F & I1 & Qa). cbn in E, F.
          destruct (pcur s1 =? pend s1) eqn:E3; cbn.
          * unfold wfl; cbn. repeat split; auto; lia.
          * unfold wfl; cbn. repeat split; auto; try lia. left; reflexivity.
        + destruct Hb as (Pe & (Hc1 & He1 & Hf1) & E & F & I1). cbn in E, F. unfold wfl; cbn. repeat split; auto; lia.
        + contradiction.
    Qed.

    (* the header checks neither read nor record anything: a value or FormError / BadEDNS / BadTSIG *)
    Lemma mgood_parse_rr_header lo section rdclass rdtype s m0 :
      wfl wire lo s -> MI m0 ->
      mgood lo s (parse_rr_header section rdclass rdtype m0 s) (fun _ m' s' => m' = m0 /\ s' = s).
    Proof.
      intros W I. unfold parse_rr_header. apply mgood_getm_bind.
      assert (F : forall A (Q : A -> mstate -> pstate -> Prop), mgood lo s (mraise (XLib eFormError) m0 s) Q)
        by (intros; apply mgood_raise; auto; left; reflexivity).
      destruct (ms_update m0); cbn [negb]; [|apply mgood_ret; auto].
      destruct (section =? 0); [destruct (_ || _); [apply F|apply mgood_ret; auto]|].
      destruct (zone_classes m0); [apply F|]. destruct (_ || _); apply mgood_ret; auto.
    Qed.

    Lemma mgood_parse_special lo section count position nm rdclass rdtype s m0 :
      wfl wire lo s -> MI m0 ->
      mgood lo s (parse_special_rr_header section count position nm rdclass rdtype m0 s)
            (fun _ m' s' => m' = m0 /\ s' = s).
    Proof.
      intros W I. unfold parse_special_rr_header. apply mgood_getm_bind.
      destruct (rdtype =? tOPT); (destruct (_ || _); [apply mgood_raise; auto; left; reflexivity|apply mgood_ret; auto]).
    Qed.

    (* _get_question *)
    Lemma mgood_get_question lo : forall n s m0,
      0 <= lo -> wfl wire lo s -> MI m0 ->
      mgood lo s (get_question wire n m0 s) (fun _ _ _ => True).
    Proof.
      induction n as [|n IH]; intros s m0 Hlo W I; cbn [get_question]; [apply mgood_ret; auto|].
      eapply mgood_lift_bind; [apply good_get_name; auto|apply okcode_name|auto|]. intros qn s1 W1 E1 F1 _.
      eapply mgood_lift_bind; [apply (good_get_struct wire Hwire lo [2; 2]); auto|apply okcode_isForm|auto|].
      { repeat constructor; lia. }
      intros h s2 W2 E2 F2 (Hl & _).
      destruct h as [|rdtype [|rdclass [|? ?]]]; cbn in Hl; try discriminate.
      eapply mgood_bind; [apply mgood_parse_rr_header; auto|].
      intros hd m3 s3 W3 E3 F3 I3 (-> & ->).
      apply mgood_upd_bind, IH; auto.
    Qed.

    (* one record of a section, under any options *)
    Lemma mgood_get_rr lo o section count i fu s m0 :
      12 <= lo -> wfl wire lo s -> MI m0 ->
      mgood lo s (get_rr wire rdparse o section count i fu m0 s) (fun _ _ _ => True).
    Proof.
      intros Hlo W I. unfold get_rr.
      eapply mgood_lift_bind; [apply good_get_name; auto; lia|apply okcode_name|auto|]. intros nm s1 W1 E1 F1 _.
      eapply mgood_lift_bind; [apply (good_get_struct wire Hwire lo [2; 2; 4; 2]); auto; try lia|apply okcode_isForm|auto|].
      { repeat constructor; lia. }
      intros h s2 W2 E2 F2 (Hl & Hnn & _).
      destruct h as [|rdtype [|rdclass [|ttl [|rdlen [|? ?]]]]]; cbn in Hl; try discriminate.
      assert (Hrdlen : 0 <= rdlen) by (do 3 apply Forall_inv_tail in Hnn; exact (Forall_inv Hnn)).
      eapply mgood_bind.
      { instantiate (1 := fun _ m' s' => m' = m0 /\ s' = s2).
        destruct ((rdtype =? tOPT) || (rdtype =? tTSIG));
          [apply mgood_parse_special; auto|apply mgood_parse_rr_header; auto]. }
      intros [[rdclass' deleting] empty] m3 s3 W3 E3 F3 I3 (-> & ->).
      apply mgood_getp_bind, mgood_catch.
      - eapply mgood_bind.
        { instantiate (1 := fun _ _ _ => True).
          destruct empty.
          - destruct (rdlen >? 0); [apply mgood_raise; auto; left; reflexivity|apply mgood_ret; auto].
          - eapply mgood_bind.
            + eapply mgood_mrestrict; auto; try lia.
              intros s0 W0 _ _ _. apply mgood_traced; auto; lia.
            + intros [] m5 s5 W5 E5 F5 I5 _. apply mgood_ret; auto. }
        intros have_rd m5 s5 W5 E5 F5 I5 _.
        destruct (rdtype =? tOPT); [apply mgood_upd_bind, mgood_ret; auto|].
        destruct (rdtype =? tTSIG); [|apply mgood_upd_bind, mgood_ret; auto].
        destruct (negb (ttl =? 0)); [apply mgood_raise; auto; left; reflexivity|].
        destruct (negb (o_keyring_false o)); [apply mgood_raise; auto; right; reflexivity|].
        apply mgood_upd_bind, mgood_ret; auto.
      - (* continue_on_error: the error is recorded and the parser moved behind the rdata *)
        intros e m5 s5 Pe W5 E5 F5 I5. cbn [code_of].
        destruct (o_coe o); [|apply mgood_raise; auto].
        apply mgood_getp_bind, mgood_upd_bind.
        assert (I6 : MI (add_err (e, pcur s5) m5)) by (apply MI_add_err; auto; destruct W5 as (? & ? & ?); lia).
        eapply mgood_lift_bind; [apply good_seek; auto|apply okcode_isForm|exact I6|].
        { destruct W2 as (? & ? & ?). lia. }
        intros [] s8 W8 E8 F8 _. apply mgood_ret; auto.
    Qed.

    Lemma mgood_get_section lo o orps section count s m0 :
      12 <= lo -> wfl wire lo s -> MI m0 ->
      mgood lo s (get_section wire rdparse o orps section count m0 s) (fun _ _ _ => True).
    Proof.
      unfold get_section. generalize (Z.to_nat count) 0 orps. intros n. revert s m0.
      induction n as [|n IH]; intros s m0 i fu Hlo W I; cbn [get_section_loop]; [apply mgood_ret; auto|].
      eapply mgood_bind; [apply mgood_get_rr; auto|].
      intros fu' m1 s1 W1 E1 F1 I1 _. apply IH; auto.
    Qed.

    (* the try block of _WireReader.read *)
    Lemma mgood_read_sections o orps qc an au ad s m0 :
      wfl wire 12 s -> MI m0 ->
      mgood 12 s (read_sections wire rdparse o orps qc an au ad m0 s) (fun _ _ _ => True).
    Proof.
      intros W I. unfold read_sections.
      eapply mgood_bind; [apply mgood_get_question; auto; lia|].
      intros [] m2 s2 W2 E2 F2 I2 _.
      destruct (o_qonly o); [apply mgood_ret; auto|].
      eapply mgood_bind; [apply mgood_get_section; auto; lia|].
      intros [] m3 s3 W3 E3 F3 I3 _.
      eapply mgood_bind; [apply mgood_get_section; auto; lia|].
      intros [] m4 s4 W4 E4 F4 I4 _.
      eapply mgood_bind; [apply mgood_get_section; auto; lia|].
      intros [] m5 s5 W5 E5 F5 I5 _.
      apply mgood_getp_bind.
      destruct (_ && _); [apply mgood_raise; auto; left; reflexivity|apply mgood_ret; auto].
    Qed.

    (* its except clause: with continue_on_error nothing is raised, the failure is appended to
       errors with the parser offset *)
    Lemma catch_read_handler coe s m0 (c : MM unit) :
      mgood 12 s (c m0 s) (fun _ _ _ => True) ->
      match catch c (read_handler coe) m0 s with
      | (Val _, m', _) => MI m'
      | (Exn (XLib e), m', _) => okcode e /\ MI m' /\ coe = false
      | (Exn (XInt _), _, _) => False
      end.
    Proof.
      intros H. unfold catch, mgood, read_handler in *.
      destruct (c m0 s) as [[[a|[e|e]] m1] s1]; try contradiction.
      - destruct H as (_ & _ & _ & I & _). exact I.
      - destruct H as (Pe & W & _ & _ & I). destruct coe; cbn.
        + apply MI_add_err; auto. destruct W as (? & ? & ?). lia.
        + auto.
    Qed.

    Definition s_init : pstate := mkP 0 (zlen wire) 0.

    Lemma MI_ms0 : MI ms0.
    Proof. constructor. Qed.

    (* _WireReader.read *)
    Lemma read_spec o :
      match read wire rdparse o ms0 s_init with
      | (Val _, m, _) => MI m
      | (Exn (XLib e), m, _) => MI m /\ okcode e /\ (o_coe o = true -> e = eShortHeader)
      | (Exn (XInt _), _, _) => False
      end.
    Proof.
      pose proof (zlen_nonneg wire) as Hz.
      unfold read. unfold mmbind at 1. unfold getp at 1.
      destruct (remaining s_init <? 12) eqn:E12.
      { cbn. split; [apply MI_ms0|]. split; [left; reflexivity|auto]. }
      (* remaining >= 12: the header read cannot fail *)
      apply Z.ltb_ge in E12. change (remaining s_init) with (zlen wire - 0) in E12.
      unfold mmbind at 1. unfold liftP at 1. unfold get_struct, mbind, get_bytes.
      change (calcsize [2; 2; 2; 2; 2; 2]) with 12. change (remaining s_init) with (zlen wire - 0). cbn [Z.ltb Z.compare].
      replace (12 >? zlen wire - 0) with false by lia.
      destruct (unpack_ok [2; 2; 2; 2; 2; 2] (slice wire (pcur s_init) 12)) as (h & -> & Hl & _);
        [repeat constructor; lia|apply slice_bytes, Hwire|apply slice_len; cbn; lia|].
      destruct h as [|id [|flags [|qc [|an [|au [|ad [|? ?]]]]]]]; try discriminate.
      unfold ret, mmbind at 1, upd at 1.
      match goal with |- context [catch ?c ?h ?m1 ?s1] =>
        assert (W12 : wfl wire 12 s1) by (unfold wfl; cbn; lia);
        pose proof (catch_read_handler (o_coe o) s1 m1 c (mgood_read_sections _ _ _ _ _ _ s1 m1 W12 MI_ms0)) as K;
        destruct (catch c h m1 s1) as [[[a|[e|e]] m2] s2]
      end; auto.
      destruct K as (Pe & I2 & Hcoe). split; auto. split; auto. intros Hc'. congruence.
    Qed.

    (* dns.message.from_wire: a message, or ShortHeader / a FormError-family error / the documented
       UnknownTSIGKey / Truncated (only when requested) - never a Python-level exception, for an
       arbitrary (disciplined) per-type parser and every option combination *)
    Theorem message_from_wire_family o :
      match message_from_wire wire rdparse o with
      | (Val _, m) => MI m
      | (Exn (XLib e), m) => MI m /\ (okcode e \/ (e = eTruncated /\ o_raise_trunc o = true))
      | (Exn (XInt _), _) => False
      end.
    Proof.
      unfold message_from_wire. pose proof (read_spec o) as R. fold s_init.
      destruct (read wire rdparse o ms0 s_init) as [[[a|[e|e]] m] s]; try contradiction.
      - destruct (tc_set m && o_raise_trunc o) eqn:E; auto.
        split; auto. right. apply andb_true_iff in E as [_ E]. auto.
      - destruct R as (I & Pe & _).
        destruct (is_form e && ms_have m && tc_set m && o_raise_trunc o) eqn:E.
        + split; auto. right. apply andb_true_iff in E as [_ E]. auto.
        + auto.
    Qed.

    (* continue_on_error: once the header has been read nothing is raised (the requested
       truncation signal excepted); every failure is in `errors` with an offset inside the
       message and after the header *)
    Theorem continue_on_error_records o :
      o_coe o = true ->
      match message_from_wire wire rdparse o with
      | (Val _, m) => MI m
      | (Exn (XLib e), _) => e = eShortHeader \/ (e = eTruncated /\ o_raise_trunc o = true)
      | (Exn (XInt _), _) => False
      end.
    Proof.
      intros Hcoe. unfold message_from_wire. pose proof (read_spec o) as R. fold s_init.
      destruct (read wire rdparse o ms0 s_init) as [[[a|[e|e]] m] s]; try contradiction.
      - destruct (tc_set m && o_raise_trunc o) eqn:E; auto.
        right. apply andb_true_iff in E as [_ E]. auto.
      - destruct R as (I & Pe & Hs). specialize (Hs Hcoe). subst e.
        destruct (is_form eShortHeader && ms_have m && tc_set m && o_raise_trunc o) eqn:E.
        + right. apply andb_true_iff in E as [_ E]. auto.
        + left. reflexivity.
    Qed.
  End Reader.
End Wire.
