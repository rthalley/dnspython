(* C13 - incremental transfers between versions of any content (singleton types, CNAME-kind RRsets, names
   changing between a CNAME and other data) whose sections list their records in ANY order
   (RFC 1995 does not fix the order inside a deletion or an addition section). *)
From DV Require Import Base.Prelude Model.XfrM Proofs.XfrSets Proofs.XfrSpec Proofs.XfrZone Proofs.XfrDiff
  Proofs.XfrSafety Proofs.XfrBasic Proofs.XfrRun Proofs.XfrSteps Proofs.XfrGeneral Proofs.XfrIxfr Proofs.XfrAxfr Proofs.XfrPerm
  Proofs.XfrGlue Proofs.XfrGeneralAxfr.
From Coq Require Import Sorting.Permutation.

(* one difference sequence, the records of each section in any order *)
Lemma section_run_perm : forall a b D A, version_wf_g a -> version_wf_g b ->
  Permutation D (zminus (v_rest a) (v_rest b)) -> Permutation A (zminus (v_rest b) (v_rest a)) ->
  sec_runs a b (soa_rr a :: D ++ soa_rr b :: A).
Proof.
  intros a b D A Ha Hb PD PA. apply section_run_g; try assumption.
  { eapply Permutation_Forall; [apply Permutation_sym, PD|apply zminus_rec_g, Ha]. }
  intros tz Hz. pose proof (zsorted_zeq _ _ Hz (zsorted_zone_of a Ha)) as Hs.
  destruct (diff_apply_perm (v_rest a) (v_rest b) tz D A (v_ttl b) (v_soa b) (proj1 (proj2 Ha)) (proj1 (proj2 Hb)) Hs
              (zeq_rest _ _ Hz) PD (perm_same_set _ _ PA)) as (z1 & Hd & Hz1 & Hadd).
  exists z1. split; [exact Hd|]. split; [exact Hz1|]. intros k. rewrite Hadd, look_zone_of. reflexivity.
Qed.

(* the general form of a valid IXFR response between versions of any content: the records of every
   section in any order (no repetitions: a repeated singleton record would not be idempotent) *)
Inductive ixfr_seqs_p : version -> list version -> list rr -> Prop :=
| seqsp_nil : forall v, ixfr_seqs_p v [] []
| seqsp_cons : forall v w rest D A tail,
    Permutation D (zminus (v_rest v) (v_rest w)) ->
    Permutation A (zminus (v_rest w) (v_rest v)) ->
    ixfr_seqs_p w rest tail ->
    ixfr_seqs_p v (w :: rest) (soa_rr v :: D ++ soa_rr w :: A ++ tail).

Definition ixfr_response_p (v0 : version) (chain : list version) (recs : list rr) : Prop :=
  exists mid, ixfr_seqs_p v0 chain mid /\
              recs = soa_rr (last chain v0) :: mid ++ [soa_rr (last chain v0)].

Lemma ixfr_seqs_p_runs : forall v0 chain mid, ixfr_seqs_p v0 chain mid ->
  version_wf_g v0 -> Forall version_wf_g chain -> chain_runs v0 chain mid.
Proof.
  intros v0 chain mid HS. induction HS as [v|v w rest D A tail PD PA HS IH]; intros Hv Hch; [constructor|].
  inversion Hch; subst. rewrite seqs_app. constructor; [apply section_run_perm; assumption|apply IH; assumption].
Qed.

Lemma ixfr_seqs_p_canonical : forall chain v0, ixfr_seqs_p v0 chain (diff_seqs v0 chain).
Proof.
  induction chain as [|w chain IH]; intros v0; cbn [diff_seqs]; [constructor|].
  unfold diff_seq. cbn [app]. rewrite <- app_assoc. cbn [app].
  apply seqsp_cons; [apply Permutation_refl|apply Permutation_refl|apply IH].
Qed.

Theorem ixfr_converges_general_any_order : forall v0 chain z0 recs ws,
  chain_ok_g v0 chain -> zeq z0 (zone_of v0) -> ixfr_response_p v0 chain recs -> chunking tIXFR recs ws ->
  exists z' n, inbound_xfr z0 tIXFR (Some (v_serial v0)) false ws = (Done z', n)
               /\ zeq z' (zone_of (last chain v0)).
Proof.
  intros v0 chain z0 recs ws Hok Hz [mid [HS ->]] Hch.
  apply (ixfr_chain_converges v0 chain z0 mid ws Hok Hz); [|exact Hch]. apply ixfr_seqs_p_runs; [exact HS| |]; apply Hok.
Qed.

(* AXFR of a version of any content, the body in any order *)
Theorem axfr_converges_general_any_order : forall v z0 ser B ws,
  version_wf_g v -> Permutation B (body (v_rest v)) ->
  chunking tAXFR (soa_rr v :: B ++ [soa_rr v]) ws ->
  exists z' n, inbound_xfr z0 tAXFR ser false ws = (Done z', n) /\ zeq z' (zone_of v).
Proof. exact axfr_converges_g. Qed.
