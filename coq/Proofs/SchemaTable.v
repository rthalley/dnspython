(* From the generated table to the generic theorems: an entry that satisfies entry_ok has a
   reader that decodes exactly like its writer's field list (no origin), so round trip and
   fixed point hold between the type's own _to_wire side and from_wire_parser side. *)
From DV Require Import Base.Prelude Model.NameM Model.SchemaM Proofs.SchemaName Proofs.SchemaCodec
  Proofs.SchemaThm Proofs.SchemaFix.
Open Scope Z_scope.

(* fields equal up to the origin flag of names decode alike without origin *)
Lemma sfld_eqb_spec : forall a b, sfld_eqb a b = true ->
  a = b \/ exists r r', a = FName r /\ b = FName r'.
Proof.
  intros [w m|n|w lo hi|r] [w' m'|n'|w' lo' hi'|r'] H; cbn in H; try discriminate.
  - apply andb_prop in H as [H1 H2]. apply Nat.eqb_eq in H1. apply Z.eqb_eq in H2. left; congruence.
  - apply Nat.eqb_eq in H. left; congruence.
  - apply andb_prop in H as [H H3]. apply andb_prop in H as [H1 H2].
    apply Nat.eqb_eq in H1. apply Z.eqb_eq in H2. apply Z.eqb_eq in H3. left; congruence.
  - right; eauto.
Qed.

Lemma get_name_none_rel : forall w r r' e c, get_name w None r e c = get_name w None r' e c.
Proof. intros. unfold get_name. destruct (NameM.from_wire (firstn e w) c) as [[n k]| |]; destruct r, r'; reflexivity. Qed.

Lemma dec_s_sim : forall w a b e c, sfld_eqb a b = true -> dec_s w None a e c = dec_s w None b e c.
Proof.
  intros w a b e c H. destruct (sfld_eqb_spec a b H) as [->|(r & r' & -> & ->)]; [reflexivity|].
  cbn [dec_s]. rewrite (get_name_none_rel w r r'). reflexivity.
Qed.

Lemma valid_s_sim : forall a b v, sfld_eqb a b = true -> valid_s a v = valid_s b v.
Proof.
  intros a b v H. destruct (sfld_eqb_spec a b H) as [->|(r & r' & -> & ->)]; reflexivity.
Qed.

Lemma dec_row_sim : forall w a b e c, row_eqb a b = true -> dec_row w None a e c = dec_row w None b e c.
Proof.
  induction a as [|x a IH]; intros [|y b] e c H; cbn in H; try discriminate; [reflexivity|].
  apply andb_prop in H as [H1 H2]. cbn [dec_row]. rewrite (dec_s_sim w x y e c H1).
  destruct (dec_s w None y e c) as [[v c1]| |]; cbn [bind fst snd]; try reflexivity.
  rewrite (IH b e c1 H2). reflexivity.
Qed.

Lemma valid_row_sim : forall a b vs, row_eqb a b = true -> valid_row a vs = valid_row b vs.
Proof.
  induction a as [|x a IH]; intros [|y b] vs H; cbn in H; try discriminate; [reflexivity|].
  apply andb_prop in H as [H1 H2]. destruct vs as [|v vr]; [reflexivity|].
  cbn [valid_row]. rewrite (valid_s_sim x y v H1), (IH b vr H2). reflexivity.
Qed.

Lemma dec_rows_sim : forall w fuel a b e c, row_eqb a b = true ->
  dec_rows w None fuel a e c = dec_rows w None fuel b e c.
Proof.
  induction fuel as [|f IH]; intros a b e c H; cbn [dec_rows]; [reflexivity|].
  destruct (Nat.leb e c); [reflexivity|].
  rewrite (dec_row_sim w a b e c H).
  destruct (dec_row w None b e c) as [[r c1]| |]; cbn [bind fst snd]; try reflexivity.
  rewrite (IH a b e c1 H). reflexivity.
Qed.

Lemma dec_f_sim : forall w a b e c, fld_eqb a b = true -> dec_f w None a e c = dec_f w None b e c.
Proof.
  intros w [s|lo|n|hi|m a row] [s'|lo'|n'|hi'|m' a' row'] e c H; cbn in H; try discriminate; cbn [dec_f].
  - rewrite (dec_s_sim w s s' e c H). reflexivity.
  - reflexivity.
  - reflexivity.
  - reflexivity.
  - apply andb_prop in H as [H H3]. rewrite (dec_rows_sim w _ row row' e c H3). reflexivity.
Qed.

Lemma valid_f_sim : forall a b v, fld_eqb a b = true -> valid_f a v = valid_f b v.
Proof.
  intros [s|lo|n|hi|m a row] [s'|lo'|n'|hi'|m' a' row'] v H; cbn in H; try discriminate; cbn [valid_f].
  - destruct v; [apply valid_s_sim; assumption|reflexivity].
  - apply Z.eqb_eq in H. subst. reflexivity.
  - apply Nat.eqb_eq in H. subst. reflexivity.
  - apply Z.eqb_eq in H. subst. reflexivity.
  - apply andb_prop in H as [H H3]. apply andb_prop in H as [H1 H2].
    apply eqb_prop in H1. apply eqb_prop in H2. subst.
    destruct v as [|rows]; [reflexivity|].
    replace (forallb (valid_row row) rows) with (forallb (valid_row row') rows); [reflexivity|].
    induction rows as [|r rr IHr]; [reflexivity|]. cbn [forallb]. rewrite IHr.
    rewrite (valid_row_sim row row' r H3). reflexivity.
Qed.

Lemma dec_fields_sim : forall w a b e c, sides_eqb a b = true ->
  dec_fields w None (map fst a) e c = dec_fields w None (map fst b) e c.
Proof.
  induction a as [|[x s] a IH]; intros [|[y t] b] e c H; cbn in H; try discriminate; [reflexivity|].
  apply andb_prop in H as [H H3]. apply andb_prop in H as [H1 H2].
  cbn [map fst dec_fields]. rewrite (dec_f_sim w x y e c H1).
  destruct (dec_f w None y e c) as [[v c1]| |]; cbn [bind fst snd]; try reflexivity.
  rewrite (IH b e c1 H3). reflexivity.
Qed.

Lemma valid_fields_sim : forall a b vs, sides_eqb a b = true ->
  valid_fields (map fst a) vs = valid_fields (map fst b) vs.
Proof.
  induction a as [|[x s] a IH]; intros [|[y t] b] vs H; cbn in H; try discriminate; [reflexivity|].
  apply andb_prop in H as [H H3]. apply andb_prop in H as [H1 H2].
  cbn [map fst]. destruct vs as [|v vr]; [reflexivity|].
  cbn [valid_fields]. rewrite (valid_f_sim x y v H1), (IH b vr H3). reflexivity.
Qed.

Lemma decode_rdata_sim : forall a b ck w c l, sides_eqb a b = true ->
  decode_rdata None (map fst a) ck w c l = decode_rdata None (map fst b) ck w c l.
Proof.
  intros. unfold decode_rdata, validate.
  rewrite (dec_fields_sim w a b _ _ H).
  destruct (dec_fields w None (map fst b) (c + l) c) as [[vs c1]| |]; cbn [bind fst snd]; try reflexivity.
  rewrite (valid_fields_sim a b vs H). reflexivity.
Qed.

(* a final `get_remaining() + exact length` reads like a fixed-size field *)
Lemma dec_fields_app1 : forall w o pre f e c,
  dec_fields w o (pre ++ [f]) e c =
  (do vc <- dec_fields w o pre e c; do xc <- dec_f w o f e (snd vc); Ok (fst vc ++ [fst xc], snd xc)).
Proof.
  induction pre as [|g pre IH]; intros f e c; cbn [app dec_fields bind fst snd].
  - destruct (dec_f w o f e c) as [[v c1]| |]; reflexivity.
  - destruct (dec_f w o g e c) as [[v c1]| |]; cbn [bind fst snd]; try reflexivity.
    rewrite IH. destruct (dec_fields w o pre e c1) as [[vs c2]| |]; cbn [bind fst snd]; try reflexivity.
    destruct (dec_f w o f e c2) as [[x c3]| |]; reflexivity.
Qed.

Lemma dec_fields_length : forall w o fs e c vs c', dec_fields w o fs e c = Ok (vs, c') -> length vs = length fs.
Proof.
  induction fs as [|f fr IH]; intros e c vs c' H; cbn [dec_fields] in H.
  - injection H as <- <-. reflexivity.
  - inv_bind H. inv_bind H. injection H as <- <-. destruct x0 as [vr c2]. cbn [fst length]. f_equal. eapply IH; eauto.
Qed.

Lemma valid_fields_app1 : forall pre f vs v, length vs = length pre ->
  valid_fields (pre ++ [f]) (vs ++ [v]) = valid_fields pre vs && valid_f f v.
Proof.
  induction pre as [|g pre IH]; intros f [|x vs] v H; cbn in H; try discriminate.
  - cbn. rewrite andb_true_r. reflexivity.
  - cbn [app valid_fields]. rewrite IH by lia. rewrite andb_assoc. reflexivity.
Qed.

Lemma firstn_skipn_length : forall (w : list Z) c k, (c + k <= length w)%nat -> length (firstn k (skipn c w)) = k.
Proof. intros. rewrite firstn_length, skipn_length. lia. Qed.

Lemma decode_rdata_remn : forall o pre n ck w c l,
  decode_rdata o (pre ++ [FS (FFixed n)]) ck w c l = decode_rdata o (pre ++ [FRemN n]) ck w c l.
Proof.
  intros. unfold decode_rdata.
  destruct (Nat.ltb_spec (length w) c) as [|Hc]; [reflexivity|].
  destruct (Nat.ltb_spec (length w - c) l) as [|Hl]; [reflexivity|].
  cbv zeta. rewrite !dec_fields_app1.
  destruct (dec_fields w o pre (c + l) c) as [[vs c1]| |] eqn:Ep; cbn [bind fst snd]; try reflexivity.
  pose proof (dec_fields_length _ _ _ _ _ _ _ Ep) as Hlen.
  cbn [dec_f dec_s]. unfold get_bytes.
  destruct (Nat.ltb_spec (c + l - c1) (c + l - c1)) as [|_]; [lia|].
  destruct (Nat.ltb_spec (c + l - c1) n) as [Hlt|Hge]; cbn [bind fst snd];
    unfold validate; rewrite ?valid_fields_app1 by assumption; cbn [valid_f valid_s].
  - (* fewer than n octets left: the fixed read fails, the exact-length test fails *)
    destruct (Nat.le_gt_cases c1 (c + l)) as [Hle|Hgt].
    + rewrite (firstn_skipn_length w c1 (c + l - c1)) by lia.
      destruct (Nat.eqb_spec (c + l - c1) n); [lia|]. rewrite andb_false_r. reflexivity.
    + replace (c + l - c1)%nat with 0%nat by lia. cbn [firstn length].
      destruct (Nat.eqb_spec 0 n); [lia|]. rewrite andb_false_r. reflexivity.
  - destruct (Nat.le_gt_cases c1 (c + l)) as [Hle|Hgt].
    + rewrite (firstn_skipn_length w c1 (c + l - c1)) by lia.
      rewrite (firstn_skipn_length w c1 n) by lia. rewrite Nat.eqb_refl.
      destruct (Nat.eqb_spec (c + l - c1) n) as [Heq|Hne].
      * rewrite Heq. replace (c1 + n)%nat with (c + l)%nat by lia. reflexivity.
      * rewrite andb_false_r. cbn [andb negb].
        destruct (valid_fields pre vs && true && check_ok ck (vs ++ [VS (VB (firstn n (skipn c1 w)))])); cbn [negb]; [|reflexivity].
        destruct (Nat.eqb_spec (c1 + n) (c + l)); [lia|reflexivity].
    + (* c1 beyond the end (n = 0): both sides fail the final position test *)
      assert (n = 0%nat) by lia. subst n.
      replace (c + l - c1)%nat with 0%nat by lia. rewrite Nat.add_0_r. reflexivity.
Qed.

Lemma norm_last_map : forall r,
  map fst (norm_last r) = map fst r \/
  exists pre n, map fst r = pre ++ [FRemN n] /\ map fst (norm_last r) = pre ++ [FS (FFixed n)].
Proof.
  induction r as [|[f s] r IH]; [left; reflexivity|].
  destruct r as [|y r'].
  - destruct f; try (left; reflexivity). right. exists [], n. split; reflexivity.
  - assert (E : norm_last ((f, s) :: y :: r') = (f, s) :: norm_last (y :: r')) by (destruct f; reflexivity).
    rewrite E. cbn [map fst]. destruct IH as [IH|(pre & n & H1 & H2)].
    + left. f_equal. exact IH.
    + right. exists (f :: pre), n. cbn [map fst] in H1, H2. rewrite H1, H2. split; reflexivity.
Qed.

Lemma decode_rdata_norm_last : forall o r ck w c l,
  decode_rdata o (map fst (norm_last r)) ck w c l = decode_rdata o (map fst r) ck w c l.
Proof.
  intros. destruct (norm_last_map r) as [->|(pre & n & -> & ->)]; [reflexivity|].
  apply decode_rdata_remn.
Qed.

Lemma entry_ok_decode : forall e w r ck wire c l,
  entry_ok e = true -> e_codec e = CSchema w r ck ->
  decode_rdata None (map fst r) ck wire c l = decode_rdata None (map fst w) ck wire c l.
Proof.
  intros e w r ck wire c l Hok Hc. unfold entry_ok in Hok. rewrite Hc in Hok.
  apply andb_prop in Hok as [Hok _]. apply andb_prop in Hok as [Hok _]. apply andb_prop in Hok as [Hs _].
  rewrite <- decode_rdata_norm_last. symmetry. apply decode_rdata_sim. exact Hs.
Qed.

Lemma entry_ok_wf : forall e w r ck, entry_ok e = true -> e_codec e = CSchema w r ck -> schema_wf (map fst w) = true.
Proof.
  intros e w r ck Hok Hc. unfold entry_ok in Hok. rewrite Hc in Hok.
  apply andb_prop in Hok as [Hok _]. apply andb_prop in Hok as [Hok _]. apply andb_prop in Hok as [_ H]. exact H.
Qed.

Theorem table_roundtrip_none : forall tbl e w r ck vs b A P,
  forallb entry_ok tbl = true -> In e tbl -> e_codec e = CSchema w r ck ->
  encode_rdata None (map fst w) ck vs = Ok b ->
  decode_rdata None (map fst r) ck (A ++ b ++ P) (length A) (length b) = Ok vs.
Proof.
  intros tbl e w r ck vs b A P Ht Hin Hc He.
  rewrite forallb_forall in Ht. specialize (Ht e Hin).
  rewrite (entry_ok_decode e w r ck _ _ _ Ht Hc).
  apply schema_roundtrip_none; [eapply entry_ok_wf; eauto|exact He].
Qed.

Theorem table_fixed_point_none : forall tbl e w r ck wire cur rdlen vs,
  forallb entry_ok tbl = true -> In e tbl -> e_codec e = CSchema w r ck ->
  decode_rdata None (map fst r) ck wire cur rdlen = Ok vs ->
  exists w', encode_rdata None (map fst w) ck vs = Ok w' /\
             decode_rdata None (map fst r) ck w' 0 (length w') = Ok vs /\
             (forall vs', decode_rdata None (map fst r) ck w' 0 (length w') = Ok vs' ->
                          encode_rdata None (map fst w) ck vs' = Ok w').
Proof.
  intros tbl e w r ck wire cur rdlen vs Ht Hin Hc Hd.
  rewrite forallb_forall in Ht. specialize (Ht e Hin).
  rewrite (entry_ok_decode e w r ck _ _ _ Ht Hc) in Hd.
  destruct (schema_fixed_point_none _ _ _ _ _ _ (entry_ok_wf e w r ck Ht Hc) Hd) as (w' & H1 & H2 & H3).
  exists w'. split; [exact H1|]. rewrite (entry_ok_decode e w r ck _ _ _ Ht Hc). split; [exact H2|exact H3].
Qed.

(* unknown types (GenericRdata) are the one-field schema [Remaining] *)
Lemma generic_entry_ok : entry_ok (mk_ent 0 0 generic_codec) = true.
Proof. reflexivity. Qed.

(* Which types may compress embedded names (RFC 3597 section 4):
   NS MD MF CNAME SOA MB MG MR PTR MINFO MX (RFC 1035) and, in dnspython, SRV and NAPTR - all of
   them are down-cased in the DNSSEC canonical form, so case-insensitive compression keeps a
   rendered record equal to the original.  The translator reports for every type whether its
   writer hands the compression table to a name (name_compress) and how many such name writes
   exist in classes that must not do so (helpers and hand-modelled codecs included). *)
Definition may_compress : list Z := [2; 3; 4; 5; 6; 7; 8; 9; 12; 14; 15; 33; 35].

Definition compress_ok (flags : list (Z * Z * bool)) (stray_sites : nat) : bool :=
  forallb (fun x => let '(_, t, c) := x in negb c || existsb (Z.eqb t) may_compress) flags
  && Nat.eqb stray_sites 0.
