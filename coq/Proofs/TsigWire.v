(* Wire-level "every message it signs validates under the same key", for the TSIG record:
   when the reader arrives at the TSIG RR that sign_message appended (the records before it
   are skipped independently of the TSIG), it reads back the same owner and rdata and
   dns.tsig.validate accepts, for every keyed hash H. *)
From DV Require Import Base.Prelude Proofs.ListFacts.
From DV Require Model.NameM.
From DV Require Import Proofs.NameValid Proofs.NameWire.
From DV Require Import Model.TsigM Proofs.TsigSpec Proofs.TsigLemmas Proofs.TsigInj Proofs.TsigReader
        Proofs.TsigStream Proofs.TsigSender Proofs.TsigTamper Proofs.TsigCodec.
Open Scope Z_scope.

Lemma wire_split_ar : forall (wire : bytes) a b,
  slice wire 10 12 = [a; b] -> wire = firstn 10 wire ++ [a; b] ++ skipn 12 wire.
Proof.
  intros wire a b S. unfold slice in S. change (12 - 10)%nat with 2%nat in S.
  rewrite <- (firstn_skipn 10 wire) at 1. f_equal.
  rewrite <- (firstn_skipn 2 (skipn 10 wire)). rewrite S. rewrite <- skipn_add. reflexivity.
Qed.

Lemma tsig_rr_inv : forall owner t rr,
  tsig_rr owner t = Ok rr ->
  NameM.is_absolute owner = true /\ NameM.is_absolute (t_alg t) = true
  /\ zlen (t_mac t) < 65536 /\ zlen (t_other t) < 65536.
Proof.
  intros owner t rr RR. unfold tsig_rr, NameM.to_wire in RR.
  destruct (NameM.is_absolute owner); cbn [bind] in RR; [|discriminate].
  dbind RR as rdw TW. unfold tsig_to_wire, NameM.to_wire in TW.
  destruct (NameM.is_absolute (t_alg t)); cbn [bind] in TW; [|discriminate].
  destruct (in_u16 (t_fudge t) && in_u16 (zlen (t_mac t))) eqn:X; cbn [negb] in TW; [|discriminate].
  destruct (in_u16 (t_oid t) && in_u16 (t_error t) && in_u16 (zlen (t_other t))) eqn:Y; cbn [negb] in TW; [|discriminate].
  unfold in_u16 in X, Y. repeat split; lia.
Qed.

(* the message sign_message builds from `wire` (ARCOUNT plus one, the record rr appended): what the reader
   sees as ARCOUNT, and what validate digests once it has taken rr off and ARCOUNT back down *)
Lemma arcount_bumped : forall (wire rr : bytes) ad,
  all_bytes wire = true -> (12 <= length wire)%nat -> get_adcount wire = Ok ad ->
  let pre := slice wire 0 10 ++ u16 (ad + 1) ++ skipn 12 wire in
  length pre = length wire /\ get_adcount (pre ++ rr) = Ok (ad + 1) /\ ad + 1 <> 0
  /\ strip_tsig (pre ++ rr) (ad + 1) (length pre) = wire.
Proof.
  intros wire rr ad AB L12 AD pre. unfold get_adcount in AD.
  destruct (slice wire 10 12) as [|a [|b [|]]] eqn:S; try discriminate. apply Ok_inj in AD as <-.
  pose proof (wire_split_ar wire a b S) as WS.
  assert (Ba : 0 <= a < 256 /\ 0 <= b < 256).
  { split; apply (all_bytes_In wire); auto; rewrite WS; apply in_or_app; right; cbn; auto. }
  change (slice wire 0 10) with (firstn 10 wire) in pre.
  assert (Lh : length (firstn 10 wire) = 10%nat) by (apply firstn_length_le; lia).
  set (h := firstn 10 wire) in *. set (t := skipn 12 wire) in *. clearbody h t. clear S AB L12. subst wire.
  split; [unfold pre; now rewrite !app_length|]. split; [|split; [lia|]];
    unfold pre, get_adcount, strip_tsig, slice; rewrite <- !app_assoc.
  - rewrite (skipn_app_exact h _ 10) by exact Lh. cbn [u16 app firstn Nat.sub]. f_equal. (Z.to_euclidean_division_equations; lia).
  - rewrite skipn_O, (firstn_app_exact h _ (10 - 0)) by exact Lh.
    replace (a * 256 + b + 1 - 1) with (a * 256 + b) by lia.
    replace (u16 (a * 256 + b)) with [a; b] by (unfold u16; f_equal; [|f_equal]; (Z.to_euclidean_division_equations; lia)).
    f_equal. f_equal.
    rewrite (app_assoc h _ (t ++ rr)), (skipn_app_exact (h ++ u16 _) _ 12) by (rewrite app_length, Lh; reflexivity).
    apply firstn_app_exact. rewrite !app_length, Lh. cbn [u16 length]. lia.
Qed.

Section WithH.
  Variable H : hashid -> bytes -> bytes -> bytes.

  Lemma signed_rr_reads_back_validated_lemma :
    forall wire k rd now rmac ctx multi out rd' c' now2 count st,
      sign_message H wire k (kname k) rd now rmac ctx multi = Ok (out, rd', c') ->
      Valid (kname k) -> Valid (t_alg rd) ->
      all_bytes wire = true -> (12 <= length wire)%nat ->
      t_error rd = 0 -> NameM.name_eqb (kalg k) (t_alg rd) = true ->
      rfc_time_ok now2 now (t_fudge rd) ->
      r_pos st = length wire -> r_ctx st = ctx -> r_origin st = None ->
      get_rr H out (KR_Key k) rmac now2 multi 3 count (count - 1) st
      = Ok {| r_pos := length out; r_tsig := Some (kname k, rd'); r_ctx := c';
              r_recs := (3, TSIG, ANY, length wire) :: r_recs st; r_opt := r_opt st; r_origin := None |}.
  Proof.
    intros until st. intros SM Vk Va AB L12 Er Al Ti Pos Cx ON.
    apply sign_message_inv in SM as (SG & ad & rr & AD & RR & ->).
    destruct (arcount_bumped wire rr ad AB L12 AD) as (LP & GA & NZ & ST). cbv zeta in LP, GA, ST.
    set (pre := slice wire 0 10 ++ u16 (ad + 1) ++ skipn 12 wire) in *.
    replace (slice wire 0 10 ++ u16 (ad + 1) ++ skipn 12 wire ++ rr) with (pre ++ rr)
      by (unfold pre; now rewrite <- !app_assoc).
    (* the rdata sign produced is well-formed *)
    pose proof (tsig_rr_inv _ _ _ RR) as (Ak & Aa & Lm & Lo).
    assert (OKt : tsig_ok rd').
    { pose proof SG as SG'. apply sign_inv in SG' as (cd & _ & M & _).
      apply mk_tsig_inv in M as (-> & Rt & Rf & Ro & Re).
      unfold tsig_ok. cbn [t_alg t_time t_fudge t_mac t_oid t_error t_other] in *.
      split; [exact Va|]. repeat split; auto; lia. }
    rewrite (get_rr_on_tsig_rr H pre (kname k) rd' rr (KR_Key k) rmac now2 multi count st Vk Ak OKt RR)
      by (assumption || (rewrite Pos; symmetry; exact LP)).
    cbn [find_key bind]. rewrite Cx.
    rewrite (sign_then_validate_lemma H wire k rd now rmac ctx multi rd' c' (pre ++ rr) (length pre)
               (ad + 1) now2 SG GA NZ ST Er Al Ti).
    cbn [bind]. now rewrite LP.
  Qed.
End WithH.

Section WholeRead.
  Variable H : hashid -> bytes -> bytes -> bytes.

  (* the record loop of one section, n records starting at index i0 *)
  Fixpoint get_section_n (w : bytes) (kr : keyring) (rmac : bytes) (now : Z) (multi : bool)
           (section count i0 : Z) (n : nat) (st : rst) : res rst :=
    match n with
    | O => Ok st
    | S n' =>
        do st' <- get_rr H w kr rmac now multi section count i0 st;
        get_section_n w kr rmac now multi section count (i0 + 1) n' st'
    end.

  Lemma get_section_as_n : forall rem w kr rmac now multi section count st,
    get_section H w kr rmac now multi section count rem st
    = get_section_n w kr rmac now multi section count (count - Z.of_nat rem) rem st.
  Proof.
    induction rem; intros; cbn [get_section get_section_n]; [reflexivity|].
    destruct (get_rr H w kr rmac now multi section count (count - Z.of_nat (S rem)) st); cbn [bind]; try reflexivity.
    rewrite IHrem. f_equal. lia.
  Qed.

  Lemma get_section_n_snoc : forall n w kr rmac now multi section count i0 st,
    get_section_n w kr rmac now multi section count i0 (n + 1) st
    = (do st' <- get_section_n w kr rmac now multi section count i0 n st;
       get_rr H w kr rmac now multi section count (i0 + Z.of_nat n) st').
  Proof.
    induction n; intros; cbn [get_section_n Nat.add].
    - rewrite Z.add_0_r. cbn [bind]. destruct (get_rr H w kr rmac now multi section count i0 st); reflexivity.
    - destruct (get_rr H w kr rmac now multi section count i0 st); cbn [bind]; try reflexivity.
      rewrite IHn. replace (i0 + 1 + Z.of_nat n) with (i0 + Z.of_nat (S n)) by lia. reflexivity.
  Qed.

  (* records before the last one of a section never are the TSIG: context and tsig untouched *)
  Lemma get_section_n_prefix_keeps : forall n w kr rmac now multi section count i0 st st',
    i0 + Z.of_nat n <= count - 1 ->
    get_section_n w kr rmac now multi section count i0 n st = Ok st' ->
    r_tsig st' = r_tsig st /\ r_ctx st' = r_ctx st /\ r_origin st' = r_origin st.
  Proof.
    induction n; intros until st'; intros B E; cbn [get_section_n] in E.
    - apply Ok_inj in E as <-. auto.
    - dbind E as st1 G.
      apply get_rr_ok in G as [O [(ty & cl & _ & _ & T & C) | (_ & IL & _)]]; [|lia].
      apply IHn in E as (T' & C' & O'); [|lia]. repeat split; congruence.
  Qed.

  (* The message `out` that sign_message produced, read back: if the part of `out` before the
     TSIG RR parses (questions, ANSWER, AUTHORITY and the ADDITIONAL records before the TSIG,
     ending where the TSIG RR starts), the whole read succeeds, validated, with the signer's
     follow-up context. *)
  Lemma read_signed_message_lemma :
    forall wire k rd now rmac ctx multi out rd' c' now2 fl qd an au ad p s1 s2 s3,
      sign_message H wire k (kname k) rd now rmac ctx multi = Ok (out, rd', c') ->
      Valid (kname k) -> Valid (t_alg rd) ->
      all_bytes wire = true -> (12 <= length wire)%nat ->
      t_error rd = 0 -> NameM.name_eqb (kalg k) (t_alg rd) = true ->
      rfc_time_ok now2 now (t_fudge rd) ->
      (* the header of `out` and the records before the TSIG RR *)
      get_uint out (length out) 2 2 = Ok fl -> get_uint out (length out) 4 2 = Ok qd ->
      get_uint out (length out) 6 2 = Ok an -> get_uint out (length out) 8 2 = Ok au ->
      get_uint out (length out) 10 2 = Ok ad ->
      ((fst fl / 2048) mod 16 =? 5) = false ->
      get_question out (Z.to_nat (fst qd)) 12 = Ok p ->
      get_section H out (KR_Key k) rmac now2 multi 1 (fst an) (Z.to_nat (fst an))
        {| r_pos := p; r_tsig := None; r_ctx := ctx; r_recs := []; r_opt := false; r_origin := None |} = Ok s1 ->
      get_section H out (KR_Key k) rmac now2 multi 2 (fst au) (Z.to_nat (fst au)) s1 = Ok s2 ->
      1 <= fst ad ->
      get_section_n out (KR_Key k) rmac now2 multi 3 (fst ad) 0 (Z.to_nat (fst ad - 1)) s2 = Ok s3 ->
      r_pos s3 = length wire ->
      read H out (KR_Key k) rmac ctx multi now2
      = Ok {| m_had_tsig := true; m_tsig := Some (kname k, rd'); m_ctx := c';
              m_recs := rev ((3, TSIG, ANY, length wire) :: r_recs s3) |}.
  Proof.
    intros until s3. intros SM Vk Va AB L12 Er Al Ti Hfl Hqd Han Hau Had Op Q S1 S2 A1 S3 Pos.
    assert (LO : (12 <= length out)%nat).
    { pose proof SM as SM'. apply sign_message_inv in SM' as (_ & ad0 & rr & _ & _ & ->).
      rewrite !app_length. change (slice wire 0 10) with (firstn 10 wire).
      rewrite firstn_length_le by lia. rewrite skipn_length. unfold u16. cbn [length]. lia. }
    (* contexts before the TSIG record *)
    apply get_section_ok in S1 as S1'. destruct S1' as (n1 & _ & [(_ & T1 & C1) | (Bad & _)]); [|discriminate].
    apply get_section_ok in S2 as S2'. destruct S2' as (n2 & _ & [(_ & T2 & C2) | (Bad & _)]); [|discriminate].
    cbn [r_tsig r_ctx] in T1, C1.
    pose proof S3 as S3'. apply get_section_n_prefix_keeps in S3' as (T3 & C3 & O3); [|rewrite Z2Nat.id by lia; lia].
    assert (OR : r_origin s3 = None).
    { apply get_section_origin in S2. apply get_section_origin in S1. cbn [r_origin] in S1. congruence. }
    assert (CX : r_ctx s3 = ctx) by congruence.
    assert (TX : r_tsig s3 = None) by congruence.
    (* the last ADDITIONAL record *)
    pose proof (signed_rr_reads_back_validated_lemma H wire k rd now rmac ctx multi out rd' c' now2 (fst ad) s3
                  SM Vk Va AB L12 Er Al Ti Pos CX OR) as LAST.
    unfold read, read_gen.
    destruct (Nat.ltb_spec (length out) 12) as [Bad|_]; [lia|].
    rewrite Hfl, Hqd, Han, Hau, Had. cbn [bind]. rewrite Op. rewrite Q. cbn [bind].
    rewrite S1. cbn [bind]. rewrite S2. cbn [bind].
    rewrite get_section_as_n.
    replace (Z.to_nat (fst ad)) with (Z.to_nat (fst ad - 1) + 1)%nat by lia.
    replace (fst ad - Z.of_nat (Z.to_nat (fst ad - 1) + 1)) with 0 by lia.
    rewrite get_section_n_snoc. rewrite S3. cbn [bind].
    replace (0 + Z.of_nat (Z.to_nat (fst ad - 1))) with (fst ad - 1) by lia.
    rewrite LAST. cbn [bind r_pos r_tsig r_ctx r_recs].
    rewrite Nat.eqb_refl. cbn [negb].
    destruct c' as [c1|]; [|reflexivity].
    rewrite andb_false_r. reflexivity.
  Qed.
End WholeRead.
