(* Type mnemonics (dns/rdatatype.py) and the text form of type bitmaps (NSEC, CSYNC):
   RdataType.from_text (RdataType.to_text v) = v for all 65536 values (the mnemonic tables by evaluation, the
   numeric forms TYPEnnn by the decimal lemmas of TokDec), the mnemonics are tokenizer words, and the tokens of
   Bitmap.to_text are read back by Bitmap.from_text as the windows.  The same for the other mnemonic
   enumerations of RdTextM.enum_kind (enum_facts), octal numbers (octal_facts) and NSAP hex (nsap_roundtrip). *)
From DV Require Import Base.Prelude Model.NameM Model.TokM Model.RdTextM.
From DV Require Import Proofs.ListFacts Proofs.TokEsc Proofs.TokTxt Proofs.TokWords Proofs.TokDec Proofs.TokHex Proofs.TokShape Proofs.TokGeneric
     Proofs.RdTextAddr Proofs.RdTextBitmap.
Open Scope Z_scope.

(* Every kind prints a value as its mnemonic if it has one and as prefix ++ decimal otherwise ("TYPE" for
   record types, no prefix elsewhere).  The mnemonics are a finite table, checked by evaluation; for the
   numeric form the only question is whether the table look-up on the way back could take it for a
   mnemonic, and a table passes [numeric_name_ok] if any name of that form is the numeric form of its
   own value. *)
Definition numeric_name_ok (P : list Z) (r : list Z * Z) : bool :=
  let s := skipn (length P) (fst r) in
  negb (starts_with P (fst r) && negb (is_nil s) && forallb is_decimal s)
  || (zlist_eqb (fst r) (P ++ dec (snd r)) && (0 <=? snd r)).

Lemma dec_inj v x : 0 <= v -> 0 <= x -> dec v = dec x -> v = x.
Proof. intros Hv Hx E. rewrite <- (dec_value_dec v Hv), <- (dec_value_dec x Hx), E. reflexivity. Qed.

Lemma assoc_text_numeric P T v x : forallb (numeric_name_ok P) T = true -> 0 <= v ->
  assoc_text (P ++ dec v) T = Some x -> x = v.
Proof.
  intros HT Hv. induction T as [|[n y] T IH]; [discriminate|].
  cbn [forallb] in HT. apply andb_true_iff in HT as [Hr HT]. cbn [assoc_text].
  destruct (zlist_eqb (P ++ dec v) n) eqn:E; [|auto].
  apply zlist_eqb_eq in E. subst n. intros [= ->]. unfold numeric_name_ok in Hr. cbn [fst snd] in Hr.
  rewrite starts_with_app, skipn_app, skipn_all, Nat.sub_diag in Hr. cbn [skipn app] in Hr.
  rewrite (dec_decimal v Hv) in Hr. destruct (dec v) eqn:Ed; [apply dec_nonempty in Ed; contradiction|].
  cbn [is_nil negb andb orb] in Hr. apply andb_true_iff in Hr as [Hn Hx].
  apply zlist_eqb_eq, app_inv_head in Hn. symmetry. apply dec_inj; [lia|lia|congruence].
Qed.

Lemma assoc_text_in k t v : assoc_text k t = Some v -> In v (map snd t).
Proof.
  induction t as [|[n x] t IH]; cbn [assoc_text]; [discriminate|].
  destruct (zlist_eqb k n); [intros H; inversion H; left; reflexivity|intros H; right; apply IH, H].
Qed.

(* every value of a mnemonic table satisfies a bound that holds for all its entries *)
Lemma assoc_text_range k t v lo hi : forallb (fun x => (lo <=? x) && (x <=? hi)) (map snd t) = true ->
  assoc_text k t = Some v -> lo <= v <= hi.
Proof. intros R H. apply assoc_text_in in H. rewrite forallb_forall in R. specialize (R v H). lia. Qed.

Lemma assoc_value_none v T : ~ In v (map snd T) -> assoc_value v T = None.
Proof.
  induction T as [|[n x] T IH]; intros H; [reflexivity|]. cbn [assoc_value]. cbn [map snd In] in H.
  destruct (x =? v) eqn:E; [apply Z.eqb_eq in E; tauto|]. apply IH. tauto.
Qed.

(* digits are no lower-case letters, no '-', and no mnemonic *)
Lemma upper_decimal s : forallb is_decimal s = true -> map upper_c s = s.
Proof.
  induction s as [|c s IH]; [reflexivity|]. cbn [forallb map]. intros H. apply andb_true_iff in H as [Hc Hs].
  rewrite IH by exact Hs. unfold is_decimal in Hc. unfold upper_c. replace ((97 <=? c) && (c <=? 122)) with false by lia.
  reflexivity.
Qed.

Lemma decimal_no_dash s : forallb is_decimal s = true -> existsb (Z.eqb 45) s = false.
Proof.
  induction s as [|c s IH]; [reflexivity|]. cbn [forallb existsb]. intros H. apply andb_true_iff in H as [Hc Hs].
  rewrite IH by exact Hs. unfold is_decimal in Hc. replace (45 =? c) with false by lia. reflexivity.
Qed.

Lemma decimal_not_name s n : forallb is_decimal s = true -> forallb is_decimal n = false -> zlist_eqb s n = false.
Proof. intros Hs Hn. destruct (zlist_eqb s n) eqn:E; [|reflexivity]. apply zlist_eqb_eq in E. congruence. Qed.

Definition enum_prefix (k : enum_kind) : list Z := match k with KType => [84; 89; 80; 69] | _ => [] end.

(* the values that are printed as a mnemonic *)
Definition enum_named (k : enum_kind) : list Z :=
  match k with
  | KType => map snd rdtype_names
  | KScheme => [1]
  | KCtype => map snd ctype_table
  | KAlgMn => map snd alg_table
  | KAlgNum => []
  | KRcode => 16 :: map snd rcode_table
  end.

Lemma enum_print_numeric k v : 0 <= v <= enum_max k -> ~ In v (enum_named k) ->
  enum_print k v = Ok (enum_prefix k ++ dec v).
Proof.
  intros Hv Hn. destruct k; cbn [enum_max enum_named enum_prefix enum_print app] in *.
  - unfold rdtype_to_text. rewrite assoc_value_none by exact Hn.
    replace ((v <? 0) || (v >? 65535)) with false by lia. reflexivity.
  - replace (v =? 1) with false by (cbn [In] in Hn; lia). reflexivity.
  - rewrite assoc_value_none by exact Hn. reflexivity.
  - rewrite assoc_value_none by exact Hn. reflexivity.
  - reflexivity.
  - cbn [In] in Hn. replace (v =? 16) with false by lia. rewrite assoc_value_none by tauto. reflexivity.
Qed.

Lemma tables_numeric_ok :
  forallb (numeric_name_ok [84; 89; 80; 69]) rdtype_names = true /\ forallb (numeric_name_ok []) ctype_table = true
  /\ forallb (numeric_name_ok []) alg_table = true /\ forallb (numeric_name_ok []) rcode_table = true.
Proof. vm_compute. auto. Qed.

(* mnemonic look-up, then the decimal number below a bound: Scheme, Algorithm and Rcode from_text *)
Lemma enum_from_text_numeric T (bound : Z) (other : res Z) v :
  forallb (numeric_name_ok []) T = true -> 0 <= v <= bound ->
  match assoc_text (dec v) T with
  | Some x => Ok x
  | None => if negb (is_nil (dec v)) && forallb is_decimal (dec v)
            then (if dec_value (dec v) 0 >? bound then Internal iValueError else Ok (dec_value (dec v) 0))
            else other
  end = Ok v.
Proof.
  intros HT Hv. destruct (assoc_text (dec v) T) as [x|] eqn:E.
  - f_equal. apply (assoc_text_numeric [] T v x HT); [lia|exact E].
  - rewrite dec_isdecimal, dec_value_dec by lia. replace (v >? bound) with false by lia. reflexivity.
Qed.

Lemma enum_parse_numeric k v : 0 <= v <= enum_max k -> enum_parse k (enum_prefix k ++ dec v) = Ok v.
Proof.
  intros Hv. destruct tables_numeric_ok as (Ty & Tc & Ta & Tr).
  pose proof (dec_decimal v ltac:(lia)) as Hd.
  destruct k; cbn [enum_max enum_prefix enum_parse] in *.
  - unfold rdtype_from_text. rewrite map_app, (upper_decimal _ Hd).
    change (map upper_c [84; 89; 80; 69]) with [84; 89; 80; 69].
    destruct (assoc_text ([84; 89; 80; 69] ++ dec v) rdtype_names) as [x|] eqn:E.
    { f_equal. apply (assoc_text_numeric _ _ v x Ty); [lia|exact E]. }
    rewrite existsb_app, (decimal_no_dash _ Hd). cbn [existsb Z.eqb orb].
    rewrite starts_with_app. cbn [skipn app]. rewrite Hd, dec_value_dec by lia.
    destruct (dec v) eqn:Ed; [apply dec_nonempty in Ed; contradiction|]. cbn [is_nil negb andb].
    replace (v >? 65535) with false by lia. reflexivity.
  - cbn [app]. rewrite (upper_decimal _ Hd), decimal_not_name by (exact Hd || reflexivity).
    apply (enum_from_text_numeric [] 255 _ v eq_refl Hv).
  - cbn [app]. destruct (assoc_text (dec v) ctype_table) as [x|] eqn:E.
    + f_equal. apply (assoc_text_numeric [] _ v x Tc); [lia|exact E].
    + rewrite py_int_dec by lia. reflexivity.
  - cbn [app]. unfold alg_from_text. rewrite (upper_decimal _ Hd). apply (enum_from_text_numeric _ 255 _ v Ta Hv).
  - cbn [app]. unfold alg_from_text. rewrite (upper_decimal _ Hd). apply (enum_from_text_numeric _ 255 _ v Ta Hv).
  - cbn [app]. unfold rcode_from_text. rewrite (upper_decimal _ Hd). apply (enum_from_text_numeric _ 4095 _ v Tr Hv).
Qed.

Definition enum_ok (k : enum_kind) (v : Z) : bool :=
  match enum_print k v with
  | Ok w => negb (is_nil w) && forallb safe w
            && match enum_parse k w with Ok v' => v' =? v | _ => false end
  | _ => false
  end.

Lemma enum_named_ok : forallb (fun k => forallb (enum_ok k) (enum_named k)) [KType; KScheme; KCtype; KAlgMn; KAlgNum; KRcode] = true.
Proof. vm_compute. reflexivity. Qed.

Theorem enum_facts k v : 0 <= v <= enum_max k ->
  exists w, enum_print k v = Ok w /\ w <> [] /\ forallb safe w = true /\ enum_parse k w = Ok v /\ enum_ctor k v = Ok v.
Proof.
  intros Hv.
  assert (Hc : enum_ctor k v = Ok v)
    by (unfold enum_ctor; replace ((v <? 0) || (v >? enum_max k)) with false by lia; reflexivity).
  destruct (in_dec Z.eq_dec v (enum_named k)) as [Hin|Hn].
  - assert (H : enum_ok k v = true).
    { pose proof enum_named_ok as G. rewrite forallb_forall in G.
      specialize (G k ltac:(destruct k; cbn; tauto)). rewrite forallb_forall in G. exact (G v Hin). }
    unfold enum_ok in H. destruct (enum_print k v) as [w| |]; try discriminate. exists w.
    apply andb_true_iff in H as [H H3]. apply andb_true_iff in H as [H1 H2].
    destruct (enum_parse k w) as [v'| |]; try discriminate. apply Z.eqb_eq in H3. subst v'.
    repeat split; try assumption. intros E. rewrite E in H1. discriminate.
  - exists (enum_prefix k ++ dec v). split; [apply enum_print_numeric; assumption|].
    split; [intros E; apply app_eq_nil in E as [_ E]; exact (dec_nonempty v E)|].
    split; [|split; [apply enum_parse_numeric, Hv|exact Hc]].
    rewrite forallb_app, dec_safe by lia. destruct k; reflexivity.
Qed.

(* CH A: the 16-bit address printed in octal reads back through get_uint16(base=8) *)
Theorem octal_facts v : 0 <= v <= 65535 ->
  print_base 8 v <> [] /\ forallb safe (print_base 8 v) = true /\
  as_uint max16 (mkTok tIDENT (print_base 8 v) false None) 8 = Ok v.
Proof.
  intros Hv. split; [apply print_base_nonempty|].
  split; [apply print_base_safe; lia|apply as_uint_print_base; unfold max16; lia].
Qed.

(* dns.rdatatype.to_text / from_text: the KType instance *)
Theorem rdtype_facts v : 0 <= v < 65536 ->
  exists n, rdtype_to_text v = Ok n /\ n <> [] /\ forallb safe n = true /\ rdtype_from_text n = Ok v.
Proof.
  intros Hv. destruct (enum_facts KType v ltac:(cbn [enum_max]; lia)) as (w & E1 & E2 & E3 & E4 & _).
  exists w. repeat split; assumption.
Qed.

(* the text of a bitmap is a sequence of blank-prefixed words *)
Definition spaced (names : list (list Z)) : list Z := flat_map (fun n => 32 :: n) names.

Lemma join_sp_spaced names : names <> [] -> 32 :: join_sp names = spaced names.
Proof.
  induction names as [|n names IH]; intros Hne; [congruence|]. destruct names as [|n2 names].
  - cbn [join_sp spaced flat_map]. rewrite app_nil_r. reflexivity.
  - change (join_sp (n :: n2 :: names)) with (n ++ 32 :: join_sp (n2 :: names)).
    rewrite IH by discriminate. unfold spaced. cbn [flat_map]. reflexivity.
Qed.

Definition names_of (types : list Z) (names : list (list Z)) : Prop :=
  Forall2 (fun t n => n <> [] /\ forallb safe n = true /\ rdtype_from_text n = Ok t) types names.

Lemma map_res_names types : Forall (fun t => 0 <= t < 65536) types ->
  exists names, map_res rdtype_to_text types = Ok names /\ names_of types names.
Proof.
  induction 1 as [|t types Ht _ IH]; [exists []; split; [reflexivity|constructor]|].
  destruct IH as (names & E & F). destruct (rdtype_facts t Ht) as (n & E1 & N1 & S1 & R1).
  exists (n :: names). cbn [map_res]. rewrite E1. cbn [bind]. rewrite E. cbn [bind].
  split; [reflexivity|constructor; auto].
Qed.

Lemma names_of_app a b na nb : names_of a na -> names_of b nb -> names_of (a ++ b) (na ++ nb).
Proof. unfold names_of. apply Forall2_app. Qed.

Lemma bitmap_text_shape ws lo : canon_from lo ws -> -1 <= lo ->
  exists names, bitmap_to_text ws = Ok (spaced names) /\ names_of (bitmap_types ws) names.
Proof.
  revert lo. induction ws as [|[w bm] ws IH]; intros lo Hc Hlo; [exists []; split; [reflexivity|constructor]|].
  cbn [canon_from fst] in Hc. destruct Hc as (Hlt & (Hr & Hne & Hl32 & Hb & Hlast) & Hc). cbn [fst snd] in *.
  destruct (IH w Hc ltac:(lia)) as (names2 & E2 & F2).
  destruct (window_types_facts w bm 0) as [_ Hrange].
  assert (Hty : Forall (fun t => 0 <= t < 65536) (window_types w 0 bm)).
  { apply Forall_forall. intros t Ht. specialize (Hrange t Ht). unfold zlen in *. lia. }
  destruct (map_res_names _ Hty) as (names1 & E1 & F1).
  pose proof (window_types_nonempty w bm Hne Hb Hlast 0) as Hwt.
  exists (names1 ++ names2). cbn [bitmap_to_text fst snd]. rewrite E1. cbn [bind]. rewrite E2. cbn [bind]. split.
  - assert (names1 <> []) by (intros ->; inversion F1 as [Hx|]; congruence).
    change (32 :: join_sp names1 ++ spaced names2) with ((32 :: join_sp names1) ++ spaced names2).
    rewrite join_sp_spaced by assumption. unfold spaced. rewrite flat_map_app. reflexivity.
  - cbn [bitmap_types flat_map fst snd]. apply names_of_app; assumption.
Qed.

Definition word_tok (n : list Z) : token := mkTok tIDENT n false None.

Lemma spaced_word_end names rest : line_end rest -> word_end (spaced names ++ rest).
Proof.
  intros Hr. destruct names as [|n names].
  - cbn. destruct Hr as [->|[r ->]]; [left; reflexivity|right; exists 10, r; split; reflexivity].
  - right. exists 32, (n ++ spaced names ++ rest). split; [|reflexivity].
    unfold spaced. cbn [flat_map app]. rewrite <- app_assoc. reflexivity.
Qed.

Lemma spaced_length ts : (length ts <= length (spaced ts))%nat.
Proof. induction ts as [|t ts IH]; cbn [spaced flat_map length]; [lia|]. rewrite app_length. cbn [length]. unfold spaced in IH. lia. Qed.

Lemma token_types types names : names_of types names -> Forall (fun t => t <> 0) types ->
  map_res bitmap_token_type (map word_tok names) = Ok types.
Proof.
  intros H. induction H as [|t n types names (Hne & Hs & Hr) _ IH]; intros Hnz; [reflexivity|].
  inversion Hnz; subst. cbn [map map_res]. unfold bitmap_token_type at 1. unfold word_tok at 1. unfold unescape.
  cbn [tesc negb bind tvalue].
  rewrite Hr. cbn [bind]. replace (t =? 0) with false by lia. rewrite IH by assumption. reflexivity.
Qed.

(* the printed types are not 0 when type 0 is not set *)
Lemma bitmap_types_nonzero ws : canon_from (-1) ws -> no_type0 ws -> Forall (fun t => t <> 0) (bitmap_types ws).
Proof.
  intros Hc H0. destruct ws as [|[w bm] ws]; [constructor|].
  cbn [canon_from fst] in Hc. destruct Hc as (Hlt & (Hr & Hne & Hl32 & Hb & Hlast) & Hc). cbn [fst snd] in *.
  cbn [bitmap_types flat_map fst snd]. apply Forall_app. split.
  - destruct (Z.eq_dec w 0) as [->|Hw].
    + destruct bm as [|b bm']; [congruence|]. cbn [no_type0] in H0. specialize (H0 eq_refl).
      cbn [window_types]. apply Forall_app. split.
      * apply Forall_forall. intros t Ht. unfold byte_types in Ht. apply in_flat_map in Ht as (j & Hj & Ht).
        destruct (bit_set b j) eqn:Eb; [|contradiction]. destruct Ht as [<-|[]].
        cbn in Hj. intros E. assert (j = 0) by lia. subst j. congruence.
      * destruct (window_types_facts 0 bm' (0 + 1)) as [_ Hrange]. apply Forall_forall. intros t Ht.
        specialize (Hrange t Ht). lia.
    + destruct (window_types_facts w bm 0) as [_ Hrange]. apply Forall_forall. intros t Ht. specialize (Hrange t Ht). lia.
  - destruct (bitmap_types_sorted ws w Hc) as [_ Hlow]. apply Forall_forall. intros t Ht.
    specialize (Hlow t Ht). lia.
Qed.

Lemma hexdigit_not_dot v : 0 <= v < 16 -> (hexdigit v =? 46) = false.
Proof. intros Hv. unfold hexdigit. destruct (v <? 10); lia. Qed.

Lemma hexlify_nsap b : all_bytes b = true ->
  filter (fun c => negb (c =? 46)) (hexlify b) = hexlify b /\ Nat.even (length (hexlify b)) = true.
Proof.
  induction b as [|x b IH]; intros Hb; [split; reflexivity|].
  apply all_bytes_cons in Hb as [Hx Hb].
  destruct (IH Hb) as [I1 I2]. unfold hexlify in *. cbn [flat_map app filter length].
  rewrite !hexdigit_not_dot by dlia. cbn [negb]. rewrite I1. split; [reflexivity|exact I2].
Qed.

Theorem nsap_roundtrip b : all_bytes b = true ->
  nsap_from_text ([48; 120] ++ hexlify b) = Ok b /\ forallb safe ([48; 120] ++ hexlify b) = true.
Proof.
  intros Hb. destruct (hexlify_nsap b Hb) as [F E]. destruct (Proofs.TokHex.hexlify_safe b Hb) as [S A]. split.
  - unfold nsap_from_text. cbn [app]. change (starts_with [48; 120] (48 :: 120 :: hexlify b)) with true.
    cbn [negb skipn]. rewrite F, E. cbn [negb]. rewrite utf8_ascii by exact A. cbn [bind].
    apply Proofs.TokHex.unhexlify_hexlify, Hb.
  - cbn [app forallb]. rewrite S. reflexivity.
Qed.
