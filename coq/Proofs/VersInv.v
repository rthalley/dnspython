(* C11 - invariants of the version bookkeeping model (Model/VersM.v), for all histories. *)
From DV Require Import Base.Prelude Model.VersM Proofs.ListFacts.
From Coq Require Import Sorting.Sorted.
Import VersM.

Local Open Scope Z_scope.

Lemma last_opt_cons2 {A} (a b : A) (l : list A) : last_opt (a :: b :: l) = last_opt (b :: l).
Proof. reflexivity. Qed.

Lemma last_opt_app {A} (l : list A) (x : A) : last_opt (l ++ [x]) = Some x.
Proof.
  induction l as [|a l IH]; [reflexivity|].
  cbn [app last_opt]. rewrite IH. destruct l; reflexivity.
Qed.

Lemma last_opt_spec {A} (l : list A) :
  match last_opt l with Some x => exists l', l = l' ++ [x] | None => l = [] end.
Proof. destruct l using rev_ind; [reflexivity|]. rewrite last_opt_app. eauto. Qed.

Lemma last_opt_none {A} (l : list A) : last_opt l = None -> l = [].
Proof. intros H. pose proof (last_opt_spec l) as S. rewrite H in S. exact S. Qed.

Lemma last_opt_some {A} (l : list A) (x : A) : last_opt l = Some x -> exists l', l = l' ++ [x].
Proof. intros H. pose proof (last_opt_spec l) as S. rewrite H in S. exact S. Qed.

Lemma last_opt_in {A} (l : list A) (x : A) : last_opt l = Some x -> In x l.
Proof. intros H. destruct (last_opt_some _ _ H) as [l' ->]. apply in_elt. Qed.

Lemma last_opt_app_r {A} (d l : list A) : l <> [] -> last_opt (d ++ l) = last_opt l.
Proof.
  destruct l using rev_ind; [congruence|]. intros _. rewrite app_assoc, !last_opt_app. reflexivity.
Qed.

Lemma min_list_le x l : min_list x l <= x.
Proof.
  revert x. induction l as [|y l IH]; intros x; cbn; [lia|].
  specialize (IH (Z.min x y)). lia.
Qed.

Lemma min_list_le_in x l y : In y l -> min_list x l <= y.
Proof.
  revert x. induction l as [|z l IH]; intros x; cbn; [tauto|].
  intros [->|H]; [|apply IH; exact H].
  pose proof (min_list_le (Z.min x y) l). lia.
Qed.

Lemma min_list_in x l : min_list x l = x \/ In (min_list x l) l.
Proof.
  revert x. induction l as [|z l IH]; intros x; cbn; [left; reflexivity|].
  destruct (IH (Z.min x z)) as [H|H]; [|tauto].
  rewrite H. destruct (Z.min_spec x z) as [[_ ->]|[_ ->]]; auto.
Qed.

Definition ids (vs : list version) : list Z := map vid vs.
Definition sorted (vs : list version) : Prop := StronglySorted Z.lt (ids vs).

Lemma sorted_app a b :
  sorted (a ++ b) <-> sorted a /\ sorted b /\ forall x y, In x a -> In y b -> vid x < vid y.
Proof.
  unfold sorted, ids. induction a as [|z a IH]; cbn.
  - split; [intros H; repeat split; [constructor|exact H|tauto]|tauto].
  - split.
    + intros H. inversion H as [|? ? Hs Hz]; subst. apply IH in Hs. destruct Hs as [Ha [Hb Hab]].
      rewrite map_app, Forall_app, !Forall_forall in Hz. destruct Hz as [Hza Hzb].
      repeat split; [constructor; [exact Ha|apply Forall_forall; exact Hza]|exact Hb|].
      intros x y [<-|Hx] Hy; [apply Hzb, in_map; exact Hy|apply Hab; assumption].
    + intros [Ha [Hb Hab]]. inversion Ha as [|? ? Hs Hz]; subst. constructor.
      * apply IH. repeat split; [exact Hs|exact Hb|]. intros x y Hx. apply Hab. right. exact Hx.
      * rewrite map_app. apply Forall_app. split; [exact Hz|].
        apply Forall_forall. intros i Hi. apply in_map_iff in Hi. destruct Hi as [y [<- Hy]].
        apply Hab; [left; reflexivity|exact Hy].
Qed.

Lemma sorted_snoc vs v : sorted vs -> (forall x, In x vs -> vid x < vid v) -> sorted (vs ++ [v]).
Proof.
  intros Hs Hlt. apply sorted_app. repeat split; [exact Hs|repeat constructor|].
  intros x y Hx [<-|[]]. apply Hlt. exact Hx.
Qed.

Lemma sorted_last_max vs v x : sorted vs -> last_opt vs = Some v -> In x vs -> vid x <= vid v.
Proof.
  intros Hs Hl Hx. destruct (last_opt_some _ _ Hl) as [l' ->].
  apply in_app_or in Hx. destruct Hx as [Hx|[->|[]]]; [|lia].
  apply sorted_app in Hs. destruct Hs as [_ [_ Hlt]]. apply Z.lt_le_incl, Hlt; [exact Hx|left; reflexivity].
Qed.

(* the oldest version is the newest only in a deque of one *)
Lemma sorted_head_last v rest vl :
  sorted (v :: rest) -> last_opt (v :: rest) = Some vl -> vid vl <= vid v -> rest = [].
Proof.
  intros Hs Hl Hle. destruct rest as [|b rest]; [reflexivity|]. exfalso.
  rewrite last_opt_cons2 in Hl. apply (sorted_app [v]) in Hs. destruct Hs as [_ [_ Hlt]].
  specialize (Hlt v vl (or_introl eq_refl) (last_opt_in _ _ Hl)). lia.
Qed.

Lemma sorted_unique vs x y : sorted vs -> In x vs -> In y vs -> vid x = vid y -> x = y.
Proof.
  intros Hs Hx Hy E. apply in_split in Hx. destruct Hx as [l1 [l2 ->]].
  apply sorted_app in Hs. destruct Hs as [_ [Hs H1]].
  apply (sorted_app [x]) in Hs. destruct Hs as [_ [_ H2]].
  apply in_app_or in Hy. destruct Hy as [Hy|[Hy|Hy]]; [|exact Hy|].
  - specialize (H1 y x Hy (or_introl eq_refl)). lia.
  - specialize (H2 x y (or_introl eq_refl) Hy). lia.
Qed.

Lemma find_version_in vs i v : find_version i vs = Some v -> In v vs /\ vid v = i.
Proof.
  induction vs as [|a vs IH]; cbn; [discriminate|].
  destruct (vid a =? i) eqn:E.
  - intros H; inversion H; subst. split; [left; reflexivity|lia].
  - intros H. destruct (IH H). split; [right|]; assumption.
Qed.

Lemma find_version_sorted vs v : sorted vs -> In v vs -> find_version (vid v) vs = Some v.
Proof.
  intros Hs Hin. induction vs as [|a vs IH]; cbn; [destruct Hin|].
  destruct (vid a =? vid v) eqn:E.
  - f_equal. apply (sorted_unique (a :: vs)); [assumption|left; reflexivity|assumption|lia].
  - destruct Hin as [->|Hin]; [lia|]. apply IH; [|assumption].
    apply (sorted_app [a]) in Hs. tauto.
Qed.

Lemma find_version_snoc i vs v x : find_version i vs = Some v -> find_version i (vs ++ [x]) = Some v.
Proof.
  induction vs as [|a vs IH]; cbn; [discriminate|].
  destruct (vid a =? i); [tauto|exact IH].
Qed.

Lemma next_id_gt vs x : sorted vs -> In x vs -> vid x < next_id vs.
Proof.
  intros Hs Hx. unfold next_id. destruct (last_opt vs) as [v|] eqn:E.
  - pose proof (sorted_last_max _ _ _ Hs E Hx). lia.
  - apply last_opt_none in E. subst. destruct Hx.
Qed.

Lemma next_id_suffix d vs : vs <> [] -> next_id (d ++ vs) = next_id vs.
Proof. intros H. unfold next_id. rewrite last_opt_app_r by exact H. reflexivity. Qed.

(* the graph of the loop (prune_loop_spec): the result is a suffix; what was dropped was below least_kept
   and approved by the policy when it was the oldest; what remains is not prunable *)
Inductive pruned (p : pol) (least : Z) : list version -> list version -> Prop :=
| pruned_stop vs v rest : vs = v :: rest -> ((vid v <? least) && p vs v = false) -> pruned p least vs vs
| pruned_drop v rest vs' : vid v < least -> p (v :: rest) v = true -> pruned p least rest vs' ->
                           pruned p least (v :: rest) vs'.

Lemma prune_loop_spec p least vs vs' : prune_loop p least vs = Ok vs' <-> pruned p least vs vs'.
Proof.
  split.
  - revert vs'. induction vs as [|v rest IH]; cbn; intros vs' H; [discriminate|].
    destruct ((vid v <? least) && p (v :: rest) v) eqn:E.
    + apply andb_true_iff in E. destruct E as [E1 E2]. apply pruned_drop; [lia|assumption|].
      apply IH. exact H.
    + inversion H; subst. eapply pruned_stop; [reflexivity|exact E].
  - induction 1 as [vs v rest -> Hc|v rest vs' Hlt Hp _ IH]; cbn.
    + rewrite Hc. reflexivity.
    + rewrite Hp, (proj2 (Z.ltb_lt _ _) Hlt). exact IH.
Qed.

Lemma pruned_inv p least vs vs' : pruned p least vs vs' ->
  exists d v rest, vs = d ++ vs' /\ Forall (fun x => vid x < least) d /\
                   vs' = v :: rest /\ (vid v <? least) && p vs' v = false.
Proof.
  induction 1 as [vs v rest -> Hc|v rest vs' Hlt Hp _ IH].
  - exists [], v, rest. repeat split; [constructor|exact Hc].
  - destruct IH as [d [v' [rest' [-> [Hd Hv]]]]]. exists (v :: d), v', rest'.
    repeat split; [constructor; assumption|apply Hv..].
Qed.

(* the loop cannot run off the deque when some version is at or above least_kept *)
Lemma prune_loop_ok p least vs : (exists v, In v vs /\ least <= vid v) ->
  exists vs', prune_loop p least vs = Ok vs'.
Proof.
  induction vs as [|a vs IH]; intros [v [Hin Hle]]; [destruct Hin|].
  cbn. destruct ((vid a <? least) && p (a :: vs) a) eqn:E; [|eexists; reflexivity].
  apply andb_true_iff in E. destruct E as [E _]. apply IH.
  destruct Hin as [->|Hin]; [lia|]. exists v. split; assumption.
Qed.

Lemma least_kept_spec vs rs vlast :
  sorted vs -> last_opt vs = Some vlast ->
  (forall r, In r rs -> exists v, In v vs /\ vid v = rvid r) ->
  exists least, least_kept vs rs = Ok least /\ least <= vid vlast /\
                (forall r, In r rs -> least <= rvid r) /\
                (rs = [] -> least = vid vlast) /\
                (rs <> [] -> exists r, In r rs /\ rvid r = least).
Proof.
  intros Hs Hl Hp. unfold least_kept. destruct rs as [|r rs].
  - rewrite Hl. exists (vid vlast). repeat split; [lia|intros r []|congruence].
  - exists (min_list (rvid r) (map rvid rs)). repeat split; [| |discriminate|intros _].
    + destruct (Hp r (or_introl eq_refl)) as [v [Hv E]].
      pose proof (sorted_last_max _ _ _ Hs Hl Hv). pose proof (min_list_le (rvid r) (map rvid rs)). lia.
    + intros r' [->|Hr']; [apply min_list_le|]. apply min_list_le_in, in_map, Hr'.
    + destruct (min_list_in (rvid r) (map rvid rs)) as [E|Hin].
      * exists r. split; [left; reflexivity|symmetry; exact E].
      * apply in_map_iff in Hin. destruct Hin as [r' [E Hr']]. exists r'. split; [right; exact Hr'|exact E].
Qed.

Record Inv (s : st) : Prop := mkInv {
  inv_hist_sorted : sorted (hist s);
  inv_suffix : exists dropped, hist s = dropped ++ versions s;
  inv_nonempty : versions s <> [];
  inv_pinned : forall r, In r (readers s) -> exists v, In v (versions s) /\ vid v = rvid r;
  inv_handles : forall r, In r (readers s) -> rh r < next_h s;
  inv_handles_nodup : NoDup (map rh (readers s));
  inv_wid : forall w, wtxn s = Some w -> wid w = next_id (versions s);
  (* nothing prunable is left: the oldest retained version is the newest, or pinned, or kept by the policy *)
  inv_maximal : forall v rest, versions s = v :: rest ->
                rest = [] \/ (exists r, In r (readers s) /\ rvid r <= vid v) \/ policy s (versions s) v = false
}.

Lemma inv_versions_sorted s : Inv s -> sorted (versions s).
Proof.
  intros H. destruct (inv_suffix s H) as [d E]. pose proof (inv_hist_sorted s H) as Hs.
  rewrite E in Hs. apply sorted_app in Hs. tauto.
Qed.

Lemma inv_last s : Inv s -> exists v, last_opt (versions s) = Some v.
Proof.
  intros H. destruct (last_opt (versions s)) eqn:E; [eexists; reflexivity|].
  apply last_opt_none in E. destruct (inv_nonempty s H E).
Qed.

Lemma inv_last_hist s v : Inv s -> last_opt (versions s) = Some v -> last_opt (hist s) = Some v.
Proof.
  intros H Hl. destruct (inv_suffix s H) as [d E]. rewrite E.
  rewrite last_opt_app_r; [exact Hl|apply (inv_nonempty s H)].
Qed.

Lemma hist_next_id s : Inv s -> next_id (hist s) = next_id (versions s).
Proof.
  intros H. destruct (inv_suffix s H) as [d E]. rewrite E. apply next_id_suffix, (inv_nonempty s H).
Qed.

Lemma init_inv : Inv init.
Proof.
  constructor; cbn; try tauto; try discriminate.
  - repeat constructor.
  - exists []. reflexivity.
  - constructor.
  - intros v rest H. inversion H. left. reflexivity.
Qed.

(* Close, a commit that changed something and a change of policy first edit the state and then prune it.
   The edited state satisfies the invariant except that something prunable may be left. *)
Record Pre (s : st) : Prop := mkPre {
  pre_hist_sorted : sorted (hist s);
  pre_suffix : exists dropped, hist s = dropped ++ versions s;
  pre_nonempty : versions s <> [];
  pre_pinned : forall r, In r (readers s) -> exists v, In v (versions s) /\ vid v = rvid r;
  pre_handles : forall r, In r (readers s) -> rh r < next_h s;
  pre_handles_nodup : NoDup (map rh (readers s));
  pre_wid : forall w, wtxn s = Some w -> wid w = next_id (versions s)
}.

Definition with_versions (s : st) (vs : list version) : st :=
  mkSt vs (readers s) (policy s) (wtxn s) (next_h s) (hist s).

Definition pruning (s : st) : res (st * result) :=
  do vs <- prune (policy s) (versions s) (readers s); Ok (with_versions s vs, RUnit).

Definition prunes (p : pol) (vs : list version) (rs : list reader) (vs' : list version) : Prop :=
  exists least, least_kept vs rs = Ok least /\ pruned p least vs vs'.

Lemma prunes_suffix p vs rs vs' : prunes p vs rs vs' -> vs' <> [] /\ exists d, vs = d ++ vs'.
Proof.
  intros [least [_ Hpr]]. destruct (pruned_inv _ _ _ _ Hpr) as [d [v [rest [E [_ [-> _]]]]]].
  split; [discriminate|exists d; exact E].
Qed.

Lemma prunes_last p vs rs vs' : prunes p vs rs vs' -> last_opt vs' = last_opt vs.
Proof. intros Hp. destruct (prunes_suffix _ _ _ _ Hp) as [Hne [d ->]]. symmetry. apply last_opt_app_r, Hne. Qed.

Theorem pruning_spec s : Pre s ->
  exists vs', pruning s = Ok (with_versions s vs', RUnit) /\
              prunes (policy s) (versions s) (readers s) vs' /\ Inv (with_versions s vs').
Proof.
  intros [Hsh [dr Eh] Hne Hpin Hh Hnd Hw].
  assert (Hs : sorted (versions s)) by (rewrite Eh in Hsh; apply sorted_app in Hsh; tauto).
  destruct (last_opt (versions s)) as [vl|] eqn:Hl; [|apply last_opt_none in Hl; contradiction].
  destruct (least_kept_spec _ _ vl Hs Hl Hpin) as [least [Hk [Hle [Hrs [Hnil Hcons]]]]].
  destruct (prune_loop_ok (policy s) least (versions s)) as [vs' Hloop].
  { exists vl. split; [apply last_opt_in; exact Hl|exact Hle]. }
  pose proof (proj1 (prune_loop_spec _ _ _ _) Hloop) as Hpr.
  destruct (pruned_inv _ _ _ _ Hpr) as [d [v [rest [E [Hd [Evs' Hc]]]]]]. rewrite Forall_forall in Hd.
  assert (Hne' : vs' <> []) by (rewrite Evs'; discriminate).
  exists vs'. split; [|split].
  - unfold pruning, prune. destruct (versions s); [contradiction|]. rewrite Hk. cbn [bind]. rewrite Hloop. reflexivity.
  - exists least. split; assumption.
  - constructor; cbn; try assumption.
    + exists (dr ++ d). rewrite Eh, E, app_assoc. reflexivity.
    + intros r Hr. destruct (Hpin r Hr) as [x [Hx Ex]]. exists x. split; [|exact Ex].
      rewrite E in Hx. apply in_app_or in Hx. destruct Hx as [Hx|Hx]; [|exact Hx].
      specialize (Hd x Hx). specialize (Hrs r Hr). lia.
    + intros w Ew. rewrite (Hw w Ew), E. apply next_id_suffix. exact Hne'.
    + (* the loop stopped at v: it is at or above least_kept, or the policy keeps it *)
      rewrite Evs'. intros ? ? X. injection X as <- <-. rewrite <- Evs'.
      apply andb_false_iff in Hc. destruct Hc as [Hc|Hc]; [|tauto].
      destruct (readers s) as [|r0 rs0].
      * left. rewrite (Hnil eq_refl) in Hc. rewrite E in Hs, Hl. apply sorted_app in Hs.
        rewrite last_opt_app_r in Hl by exact Hne'. rewrite Evs' in Hs, Hl.
        eapply sorted_head_last; [apply Hs|exact Hl|lia].
      * right. left. destruct Hcons as [r [Hr Er]]; [discriminate|]. exists r. split; [exact Hr|lia].
Qed.

Lemma in_remove_reader h rs r : In r (remove_reader h rs) -> In r rs.
Proof.
  induction rs as [|a rs IH]; cbn; [tauto|].
  destruct (rh a =? h); [intros H; right; exact H|].
  intros [->|H]; [left; reflexivity|right; apply IH; exact H].
Qed.

Lemma nodup_remove_reader h rs : NoDup (map rh rs) -> NoDup (map rh (remove_reader h rs)).
Proof.
  induction rs as [|a rs IH]; cbn; intros H; [constructor|].
  inversion H; subst. destruct (rh a =? h); [assumption|].
  cbn. constructor; [|apply IH; assumption].
  intros Hin. apply H2. apply in_map_iff in Hin. destruct Hin as [r [E Hr]].
  apply in_map_iff. exists r. split; [exact E|]. eapply in_remove_reader; exact Hr.
Qed.

Lemma register_inv s v : Inv s -> In v (versions s) -> Inv (fst (register s v)).
Proof.
  intros H Hv. destruct H. constructor; cbn; try assumption.
  - intros r Hr. apply in_app_or in Hr. destruct Hr as [Hr|[<-|[]]]; [auto|].
    exists v. split; [exact Hv|reflexivity].
  - intros r Hr. apply in_app_or in Hr. destruct Hr as [Hr|[<-|[]]]; [|cbn; lia].
    specialize (inv_handles0 r Hr). lia.
  - rewrite map_app. cbn. apply NoDup_snoc; [exact inv_handles_nodup0|].
    intros Hin. apply in_map_iff in Hin. destruct Hin as [r [E Hr]].
    specialize (inv_handles0 r Hr). lia.
  - intros v0 rest E. destruct (inv_maximal0 v0 rest E) as [H|[[r [Hr Hle]]|H]]; [tauto| |tauto].
    right. left. exists r. split; [apply in_or_app; left; exact Hr|exact Hle].
Qed.

Lemma inv_set_wtxn s wt :
  Inv s -> (forall w, wt = Some w -> wid w = next_id (versions s)) ->
  Inv (mkSt (versions s) (readers s) (policy s) wt (next_h s) (hist s)).
Proof. intros H Hw. destruct H. constructor; cbn; assumption. Qed.
