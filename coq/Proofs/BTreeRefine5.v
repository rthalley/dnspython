(* C19 - refinement, world level: every history of store operations (new / insert / delete /
   freeze / clone and the collections.abc mixins) on the store-level model - nodes with ids and
   creator tags, in-place writes, maybe_cow - is simulated by the same history on value-level
   trees (BTreeM's insert_element / delete_btree / get / minimum).  Every tree of the store
   represents (`rep`: tree-shaped footprint, node by node) its value-level tree, the outputs are
   equal, and in particular the ghost ownership check of the store delete never fires. *)
From DV Require Import Base.Prelude Model.BTreeM Model.BTreeStoreM Proofs.BTreeBase Proofs.BTreeWf Proofs.BTreeInsert
  Proofs.BTreeLookup Proofs.BTreeDelete Proofs.BTreeTop Proofs.BTreeCursor Proofs.BTreeHistory
  Proofs.BTreeStore Proofs.BTreeIsolation Proofs.BTreeRefine Proofs.BTreeRefine2 Proofs.BTreeRefine3 Proofs.BTreeRefine4.

Definition v_with (ts : list btree) (ti : Z) (f : nat -> btree -> list btree * obs) : list btree * obs :=
  match nth_error ts (Z.to_nat ti) with
  | Some b => f (Z.to_nat ti) b
  | None => (ts, Prelude.E eBadCase)
  end.

Definition v_mutate (ts : list btree) (i : nat) (r : res (btree * obs)) : list btree * obs :=
  match r with
  | Ok (b', o) => (set_nth i b' ts, o)
  | Lib e => (ts, Prelude.E e)
  | Internal e => (ts, Prelude.E e)
  end.

Definition vexec_prim (ts : list btree) (x : sop) : list btree * obs :=
  match x with
  | SNew t io =>
      if (Z.to_nat t <? 3)%nat then (ts, Prelude.E eBadT)
      else (ts ++ [mkB (Z.to_nat t) (Node true [] []) 0 false (bool_of io)], N)
  | SIns ti k v io report =>
      v_with ts ti (fun i b =>
        v_mutate ts i (do (b', o) <- insert_element b (k, v) (match io with Some x => x | None => b_inorder b end);
                       Ok (b', if report then obs_of_oelt o else N)))
  | SDel ti k exact mode =>
      v_with ts ti (fun i b =>
        v_mutate ts i (do (b', o) <- delete_btree b k exact;
                       Ok (b', match mode with
                               | O => obs_of_dout o
                               | S O => match o with DDel _ => N | _ => Prelude.E eKey end
                               | _ => N
                               end)))
  | SFreeze ti => v_with ts ti (fun i b => (set_nth i (make_immutable b) ts, N))
  | SClone ti io =>
      v_with ts ti (fun i b =>
        if b_immut b then (ts ++ [mkB (b_t b) (b_root b) (b_size b) false io], N) else (ts, Prelude.E eNotImmutable))
  | _ => (ts, N)
  end.

Definition v_lookup (ts : list btree) (ti k : Z) : option elt :=
  match nth_error ts (Z.to_nat ti) with
  | Some b => match get_element b k with Ok o => o | _ => None end
  | None => None
  end.

Definition v_first (ts : list btree) (ti : Z) : option elt :=
  match nth_error ts (Z.to_nat ti) with
  | Some b => match minimum (b_root b) with Ok e => Some e | _ => None end
  | None => None
  end.

Fixpoint v_clear (fuel : nat) (ts : list btree) (ti : Z) : list btree :=
  match fuel with
  | O => ts
  | S f => match v_first ts ti with
           | Some e => v_clear f (fst (vexec_prim ts (SDel ti (fst e) None 2))) ti
           | None => ts
           end
  end.

Definition v_size (ts : list btree) (ti : Z) : nat :=
  match nth_error ts (Z.to_nat ti) with Some b => Z.to_nat (b_size b) | None => O end.

Definition vexec (ts : list btree) (x : sop) : list btree * obs :=
  match x with
  | SPop ti k => match v_lookup ts ti k with Some _ => vexec_prim ts (SDel ti k None 2) | None => (ts, N) end
  | SPopFirst ti => match v_first ts ti with Some e => vexec_prim ts (SDel ti (fst e) None 2) | None => (ts, N) end
  | SClear ti => (v_clear (S (v_size ts ti)) ts ti, N)
  | SSetDefault ti k v => match v_lookup ts ti k with Some _ => (ts, N) | None => vexec_prim ts (SIns ti k v None false) end
  | _ => vexec_prim ts x
  end.

Fixpoint vexecs (ts : list btree) (xs : list sop) : list btree :=
  match xs with
  | [] => ts
  | x :: r => vexecs (fst (vexec ts x)) r
  end.

Lemma rep_vis (anc : nat -> nat -> Prop) (anc_trans : forall a b d, anc a b -> anc b d -> anc a d) s :
  store_ok anc s -> forall id tr fp, rep s id tr fp -> forall k, vis anc s k id -> forall x, In x fp -> vis anc s k x.
Proof.
  intros Hok.
  apply (rep_mind s (fun id tr fp _ => forall k, vis anc s k id -> forall x, In x fp -> vis anc s k x)
           (fun ids trs fps _ => forall k, Forall (vis anc s k) ids -> forall x, In x (concat fps) -> vis anc s k x)).
  - intros id n kids fps Hn Hlk Hr IH Hnd k Hv x [<-|Hx]; [assumption|].
    apply (IH k); [|assumption]. destruct Hv as (n' & Hn' & Ha). assert (n' = n) by congruence. subst n'.
    eapply Forall_impl; [|apply (Hok id n Hn)]. intros a Hva. eapply vis_trans; eauto.
  - intros k _ x [].
  - intros kid ks tr trs fp fps Hr IH Hrs IHs k HF x Hx. inversion HF; subst. cbn [concat] in Hx.
    apply in_app_iff in Hx as [Hx|Hx]; eauto.
Qed.

Definition same_nodes (s s' : store) (fp : list nat) : Prop := forall y, In y fp -> nth_error s' y = nth_error s y.

(* every node a tree reaches was created by the tree or by an older, frozen one *)
Lemma footprint_visible sw k sb tr fp :
  WI sw -> nth_error (sw_trees sw) k = Some sb -> rep (sw_store sw) (sb_root sb) tr fp ->
  forall y, In y fp -> visw (sw_trees sw) (sw_store sw) k y.
Proof.
  intros (Hok & Htr) Hk Hr y Hy. destruct (Htr k sb Hk) as (_ & Hv).
  exact (rep_vis _ (ancw_trans _) _ Hok _ _ _ Hr k Hv y Hy).
Qed.

(* a step written by a tree that is not frozen leaves what every other tree reaches *)
Lemma ext_same_nodes sw i s' k sb tr fp :
  WI sw -> nth_error (sw_trees sw) k = Some sb -> rep (sw_store sw) (sb_root sb) tr fp ->
  frw (sw_trees sw) i = false -> i <> k ->
  ext i (sw_store sw) s' -> same_nodes (sw_store sw) s' fp.
Proof.
  intros HW Hk Hr Hfr Hne (_ & He) y Hy. destruct (footprint_visible sw k sb tr fp HW Hk Hr y Hy) as (n & Hn & Ha).
  rewrite Hn. apply (proj1 (He y n Hn)). intros Hc.
  destruct Ha as [Heq|(Hlt & Hf)]; [congruence|]. rewrite Hc in Hf. congruence.
Qed.

Definition SR (sw : sworld) (ts : list btree) : Prop :=
  WI sw /\ length (sw_trees sw) = length ts /\
  forall k sb b, nth_error (sw_trees sw) k = Some sb -> nth_error ts k = Some b ->
                 tree_sr (sw_store sw) sb b /\ bwf b.

Lemma SR_empty : SR (mkSW [] []) [].
Proof. split; [apply WI_empty|]. split; [reflexivity|]. intros k sb b H. destruct k; discriminate. Qed.

Lemma SR_tree sw ts i : SR sw ts ->
  match nth_error (sw_trees sw) i, nth_error ts i with
  | Some sb, Some b => tree_sr (sw_store sw) sb b /\ bwf b /\ sb_cr sb = i
  | None, None => True
  | _, _ => False
  end.
Proof.
  intros ((Hok & Htr) & Hlen & Hrel).
  destruct (nth_error (sw_trees sw) i) as [sb|] eqn:E1; destruct (nth_error ts i) as [b|] eqn:E2.
  - destruct (Hrel i sb b E1 E2). destruct (Htr i sb E1). auto.
  - apply nth_error_None in E2. assert (i < length (sw_trees sw))%nat by (apply nth_error_Some; congruence). lia.
  - apply nth_error_None in E1. assert (i < length ts)%nat by (apply nth_error_Some; congruence). lia.
  - exact Logic.I.
Qed.

Lemma SR_bwf sw ts i b : SR sw ts -> nth_error ts i = Some b -> bwf b.
Proof.
  intros HSR H. pose proof (SR_tree sw ts i HSR) as Ht. rewrite H in Ht.
  destruct (nth_error (sw_trees sw) i); [|contradiction]. apply Ht.
Qed.

Lemma SR_rep sw ts k sb : SR sw ts -> nth_error (sw_trees sw) k = Some sb ->
  exists b fp, nth_error ts k = Some b /\ rep (sw_store sw) (sb_root sb) (b_root b) fp.
Proof.
  intros HSR H. pose proof (SR_tree sw ts k HSR) as Ht. rewrite H in Ht.
  destruct (nth_error ts k) as [b|]; [|contradiction]. destruct Ht as ((_ & _ & _ & _ & fp & Hr) & _). eauto.
Qed.

(* tree i gets a new handle and a new value; the store may change where the other trees do not look *)
Lemma SR_set sw ts i sb b s' sb' b' :
  SR sw ts -> nth_error (sw_trees sw) i = Some sb -> nth_error ts i = Some b ->
  WI (mkSW s' (set_nth i sb' (sw_trees sw))) ->
  (forall k sbk tr fp, k <> i -> nth_error (sw_trees sw) k = Some sbk ->
     rep (sw_store sw) (sb_root sbk) tr fp -> rep s' (sb_root sbk) tr fp) ->
  tree_sr s' sb' b' -> bwf b' ->
  SR (mkSW s' (set_nth i sb' (sw_trees sw))) (set_nth i b' ts).
Proof.
  intros (HW & Hlen & Hrel) Hsb Hb HW' Hfrm Hsr' Hbwf'.
  split; [assumption|]. cbn [sw_trees sw_store]. split; [now rewrite !length_set_nth|].
  intros k sbk bk Hk1 Hk2. destruct (Nat.eq_dec i k) as [<-|Hne].
  - rewrite nth_set_nth_eq in Hk1 by (apply nth_error_Some; congruence).
    rewrite nth_set_nth_eq in Hk2 by (apply nth_error_Some; congruence).
    inversion Hk1; inversion Hk2; subst. auto.
  - rewrite nth_set_nth_ne in Hk1 by assumption. rewrite nth_set_nth_ne in Hk2 by assumption.
    destruct (Hrel k sbk bk Hk1 Hk2) as ((H1 & H2 & H3 & H4 & fp & Hr) & Hbk). split; [|assumption].
    repeat split; try assumption. exists fp. apply (Hfrm k sbk _ fp); auto.
Qed.

Lemma SR_mutate sw ts i sb b s' sb' b' :
  SR sw ts -> nth_error (sw_trees sw) i = Some sb -> nth_error ts i = Some b ->
  sb_immut sb = false ->
  WI (mkSW s' (set_nth i sb' (sw_trees sw))) ->
  ext i (sw_store sw) s' ->
  tree_sr s' sb' b' -> bwf b' ->
  SR (mkSW s' (set_nth i sb' (sw_trees sw))) (set_nth i b' ts).
Proof.
  intros HSR Hsb Hb Him HW' He. apply (SR_set sw ts i sb b); try assumption.
  intros k sbk tr fp Hne Hk Hr. eapply rep_frame; [exact Hr|].
  apply (ext_same_nodes sw i s' k sbk tr fp (proj1 HSR) Hk Hr); [|congruence|exact He].
  unfold frw. now rewrite Hsb.
Qed.

(* a new tree, in a store that has at most grown *)
Lemma SR_app sw ts s' sb b :
  SR sw ts -> WI (mkSW s' (sw_trees sw ++ [sb])) -> fr (sw_store sw) s' [] -> tree_sr s' sb b -> bwf b ->
  SR (mkSW s' (sw_trees sw ++ [sb])) (ts ++ [b]).
Proof.
  intros (HW & Hlen & Hrel) HW' Hfr Hsr Hbwf. split; [assumption|]. cbn [sw_trees sw_store].
  split; [rewrite !app_length; cbn; lia|].
  intros k sbk bk Hk1 Hk2. destruct (Nat.lt_ge_cases k (length (sw_trees sw))).
  - rewrite nth_error_app1 in Hk1 by assumption. rewrite nth_error_app1 in Hk2 by lia.
    destruct (Hrel k sbk bk Hk1 Hk2) as ((H1 & H2 & H3 & H4 & fp & Hr) & Hb). split; [|assumption].
    repeat split; try assumption. exists fp. eapply rep_fr; [exact Hr|exact Hfr|]. intros x _ [].
  - apply nth_snoc_inv in Hk1 as [(_ & ->)|Hk1]; [|apply nth_error_None in H; congruence].
    apply nth_snoc_inv in Hk2 as [(_ & ->)|Hk2]; [auto|]. rewrite Hlen in H. apply nth_error_None in H. congruence.
Qed.

(* `ext c s s'` (Proofs/BTreeStore.v): nothing disappears, no creator tag ever changes, and every
   node NOT tagged c is exactly as before.  Every operation on tree i satisfies it with c = i; the
   operations without a target (new tree, clone) only allocate. *)
Definition wtag (w : sworld) (x : sop) : nat :=
  match target x with Some i => i | None => length (sw_trees w) end.

Lemma ext_alloc c s n : ext c s (s ++ [n]).
Proof.
  split; [rewrite app_length; lia|]. intros id m Hm.
  assert (id < length s)%nat by (apply nth_error_Some; congruence).
  rewrite nth_error_app1 by assumption. split; [auto|eauto].
Qed.

(* a mutating call of tree i either leaves the world alone, or i is not frozen and writes as i *)
Lemma s_mutate_writes w i b r w' o :
  nth_error (sw_trees w) i = Some b ->
  (forall s' b' o', r = Ok (s', b', o') -> sb_immut b = false /\ ext i (sw_store w) s') ->
  s_mutate w i r = (w', o) ->
  sw_store w' = sw_store w \/ (frw (sw_trees w) i = false /\ ext i (sw_store w) (sw_store w')).
Proof.
  intros Hb Hr H. unfold s_mutate in H. destruct r as [((s' & b') & o')|e|e]; inversion H; subst; auto.
  right. destruct (Hr _ _ _ eq_refl). unfold frw. rewrite Hb. auto.
Qed.

Lemma exec_prim_writes sw x sw' o :
  WI sw -> exec_prim sw x = (sw', o) ->
  sw_store sw' = sw_store sw \/
  (frw (sw_trees sw) (wtag sw x) = false /\ ext (wtag sw x) (sw_store sw) (sw_store sw')).
Proof.
  intros (Hok & Htr) H. unfold wtag. destruct x; cbn [exec_prim target] in *.
  6-9: inversion H; auto.
  2-5: apply s_with_tree_inv in H as [->|(b & Eb & H)]; [now left|]; destruct (Htr _ b Eb) as (Hcb & Hvb).
  - unfold s_new, alloc in H. destruct (Z.to_nat t <? 3)%nat; inversion H; subst; [now left|right].
    split; [unfold frw; now rewrite (proj2 (nth_error_None _ _)) by lia|apply ext_alloc].
  - apply (s_mutate_writes _ _ _ _ _ _ Eb) in H; [exact H|]. intros s' b' o' Er.
    unbind Er as ((s1 & b1) & oe) eqn:Ei. inversion Er; subst.
    split; [exact (s_insert_element_mutable _ _ _ _ _ Ei)|].
    apply (s_insert_element_ok _ (ancw_refl _) (ancw_trans _) _ _ _ _ _ _ _ _ Hok Hvb Hcb Ei).
  - apply (s_mutate_writes _ _ _ _ _ _ Eb) in H; [exact H|]. intros s' b' o' Er.
    unbind Er as ((s1 & b1) & od) eqn:Ei. inversion Er; subst.
    split; [exact (s_delete_mutable _ _ _ _ _ Ei)|].
    apply (s_delete_ok _ (ancw_refl _) (ancw_trans _) _ _ _ _ _ _ _ _ Hok Hvb Hcb Ei).
  - inversion H. now left.
  - unfold s_clone in H. destruct (sb_immut b); inversion H; now left.
Qed.

Lemma exec_prim_ext sw x sw' o :
  WI sw -> exec_prim sw x = (sw', o) -> ext (wtag sw x) (sw_store sw) (sw_store sw').
Proof. intros HW H. destruct (exec_prim_writes _ _ _ _ HW H) as [->|(_ & He)]; [apply ext_refl|exact He]. Qed.

(* a fresh empty leaf is the empty tree *)
Lemma tree_sr_new s c t io :
  tree_sr (s ++ [mkS c true [] []]) (mkSB t (length s) c 0 false io) (mkB t (Node true [] []) 0 false io).
Proof.
  unfold tree_sr. cbn [sb_t sb_size sb_immut sb_inorder sb_root b_t b_size b_immut b_inorder b_root].
  repeat split. exists (length s :: concat []).
  apply (rep_build _ _ (mkS c true [] []) true [] [] []); try reflexivity; [apply nth_alloc|constructor|].
  cbn. constructor; [intros []|constructor].
Qed.

Lemma exec_prim_sim sw ts x sw' o :
  SR sw ts -> exec_prim sw x = (sw', o) ->
  SR sw' (fst (vexec_prim ts x)) /\ o = snd (vexec_prim ts x).
Proof.
  intros HSR H. pose proof HSR as (HW & _).
  destruct (exec_prim_isolated sw x sw' o HW H) as (HW' & _). pose proof (exec_prim_ext sw x sw' o HW H) as He.
  destruct x; cbn [exec_prim vexec_prim wtag target] in *.
  6-9: inversion H; subst; auto.
  2-5: unfold s_with_tree in H; unfold v_with; pose proof (SR_tree sw ts (Z.to_nat ti) HSR) as Ht;
       destruct (nth_error (sw_trees sw) (Z.to_nat ti)) as [sb|] eqn:Esb; destruct (nth_error ts (Z.to_nat ti)) as [b|] eqn:Eb;
       try contradiction; [destruct Ht as (Hsr & Hbwf & Hcr); pose proof Hsr as (H1 & H2 & H3 & H4 & Hfp)|inversion H; subst; auto].
  - (* new tree *)
    unfold s_new, alloc in H. destruct (Z.to_nat t <? 3)%nat eqn:Et; inversion H; subst sw' o; [auto|]. clear H.
    cbn [fst snd]. split; [|reflexivity]. apply SR_app; try assumption; [apply alloc_fr|apply tree_sr_new|].
    split; [|reflexivity]. cbn [b_t b_root]. apply wf_empty. apply Nat.ltb_ge in Et. lia.
  - (* insert *)
    rewrite H4 in H. set (io' := match io with Some x => x | None => b_inorder b end) in *.
    destruct (b_immut b) eqn:Eim.
    + unfold s_insert_element in H. rewrite H3 in H. rewrite (proj1 (frozen_rejects_proof b (k, v) io' 0 None Eim)).
      cbn [bind s_mutate v_mutate] in *. inversion H; subst. auto.
    + destruct (insert_element_spec_proof b (k, v) io' Hbwf Eim) as (b' & Hi & Hbwf' & _).
      destruct (insert_element_sim (Z.to_nat ti) _ _ _ _ _ _ _ Hcr Hsr Hi) as (s' & sb' & Hsi & Hsr' & Hcr').
      rewrite Hsi in H. rewrite Hi. cbn [bind s_mutate v_mutate fst snd] in *. inversion H; subst sw' o. clear H.
      split; [|reflexivity]. eapply SR_mutate; eauto; congruence.
  - (* delete *)
    destruct (b_immut b) eqn:Eim.
    + unfold s_delete in H. rewrite H3 in H. rewrite (proj2 (frozen_rejects_proof b (k, 0) false k exact Eim)).
      cbn [bind s_mutate v_mutate] in *. inversion H; subst. auto.
    + destruct (delete_btree_spec_proof b k exact Hbwf Eim) as (b' & Hi & Hbwf' & _).
      destruct (delete_sim (Z.to_nat ti) _ _ _ _ _ _ _ Hcr Hsr (proj1 Hbwf) Hi) as (s' & sb' & Hsi & Hsr' & Hcr').
      rewrite Hsi in H. rewrite Hi. cbn [bind s_mutate v_mutate fst snd] in *. inversion H; subst sw' o. clear H.
      split; [|reflexivity]. eapply SR_mutate; eauto; congruence.
  - (* freeze *)
    inversion H; subst sw' o. clear H. cbn [fst snd]. split; [|reflexivity].
    apply (SR_set sw ts _ sb b); auto. unfold tree_sr, make_immutable; cbn; auto.
  - (* clone *)
    unfold s_clone in H. rewrite H3 in H. destruct (b_immut b); inversion H; subst sw' o; [|auto]. clear H.
    cbn [fst snd]. split; [|reflexivity]. apply SR_app; try assumption; [apply fr_refl|unfold tree_sr; cbn; auto].
Qed.

Lemma lookup_sim sw ts ti k : SR sw ts -> s_lookup sw ti k = v_lookup ts ti k.
Proof.
  intros HSR. unfold s_lookup, v_lookup. pose proof (SR_tree sw ts (Z.to_nat ti) HSR) as Ht.
  destruct (nth_error (sw_trees sw) (Z.to_nat ti)) as [sb|]; destruct (nth_error ts (Z.to_nat ti)) as [b|]; try contradiction; [|reflexivity].
  destruct Ht as ((_ & _ & _ & _ & fp & Hr) & Hbwf & _).
  rewrite (get_element_spec b k Hbwf).
  pose proof (get_element_spec b k Hbwf) as Hg. unfold get_element in Hg.
  assert (Hd : (depth (b_root b) <= S (length (sw_store sw)))%nat).
  { pose proof (rep_depth_le _ _ _ _ Hr). pose proof (fp_le_store _ _ _ _ Hr). lia. }
  rewrite (get_sim _ k _ (S (length (sw_store sw))) _ _ _ _ Hd Hr Hg). reflexivity.
Qed.

Lemma first_sim sw ts ti : SR sw ts -> s_first sw ti = v_first ts ti.
Proof.
  intros HSR. unfold s_first, v_first. pose proof (SR_tree sw ts (Z.to_nat ti) HSR) as Ht.
  destruct (nth_error (sw_trees sw) (Z.to_nat ti)) as [sb|]; destruct (nth_error ts (Z.to_nat ti)) as [b|]; try contradiction; [|reflexivity].
  destruct Ht as ((_ & _ & _ & _ & fp & Hr) & ((Ht3 & (h & Hw) & Hs) & _) & _).
  destruct (b_root b) as [lf es ks] eqn:Eroot. destruct lf.
  - destruct (rep_root _ _ _ _ _ _ Hr) as (n & Hn & Hl & He).
    cbn [s_minimum minimum]. rewrite (sget_some _ _ _ Hn). cbn [bind]. rewrite Hl, He. destruct es; reflexivity.
  - unfold wfr, root_lo in Hw. cbn [n_leaf] in Hw.
    destruct (minimum_spec (b_t b) Ht3 h 1 _ Hw (le_n _)) as (e & rest & Hm & _). rewrite Hm.
    assert (Hd : (h <= S (length (sw_store sw)))%nat).
    { pose proof (rep_depth_le _ _ _ _ Hr). pose proof (fp_le_store _ _ _ _ Hr). rewrite (wfn_depth _ _ _ _ Hw) in *. lia. }
    rewrite (minimum_sim (b_t b) Ht3 (sw_store sw) (S (length (sw_store sw))) h 1 _ _ fp e Hw Hd Hr Hm). reflexivity.
Qed.

Lemma size_sim sw ts ti : SR sw ts -> tree_size sw ti = v_size ts ti.
Proof.
  intros HSR. unfold tree_size, v_size. pose proof (SR_tree sw ts (Z.to_nat ti) HSR) as Ht.
  destruct (nth_error (sw_trees sw) (Z.to_nat ti)) as [sb|]; destruct (nth_error ts (Z.to_nat ti)) as [b|]; try contradiction; [|reflexivity].
  destruct Ht as ((_ & -> & _) & _). reflexivity.
Qed.

Lemma clear_sim ti : forall fuel sw ts, SR sw ts -> SR (s_clear fuel sw ti) (v_clear fuel ts ti).
Proof.
  induction fuel as [|f IH]; intros sw ts HSR; [assumption|]. cbn [s_clear v_clear].
  rewrite (first_sim sw ts ti HSR). destruct (v_first ts ti) as [e|]; [|assumption].
  destruct (exec_prim sw (SDel ti (fst e) None 2)) as (sw1 & o1) eqn:E1. cbn [fst].
  apply IH. exact (proj1 (exec_prim_sim _ _ _ _ _ HSR E1)).
Qed.

Theorem exec_sim sw ts x sw' o :
  SR sw ts -> exec sw x = (sw', o) ->
  SR sw' (fst (vexec ts x)) /\ o = snd (vexec ts x).
Proof.
  intros HSR H. destruct x; cbn [exec vexec] in *; try (exact (exec_prim_sim _ _ _ _ _ HSR H)).
  - rewrite (lookup_sim sw ts ti k HSR) in H. destruct (v_lookup ts ti k).
    + exact (exec_prim_sim _ _ _ _ _ HSR H).
    + inversion H; subst. auto.
  - rewrite (first_sim sw ts ti HSR) in H. destruct (v_first ts ti).
    + exact (exec_prim_sim _ _ _ _ _ HSR H).
    + inversion H; subst. auto.
  - injection H as Hsw Ho. subst sw' o. split; [|reflexivity].
    change (SR (s_clear (S (tree_size sw ti)) sw ti) (v_clear (S (v_size ts ti)) ts ti)).
    rewrite (size_sim sw ts ti HSR). now apply clear_sim.
  - rewrite (lookup_sim sw ts ti k HSR) in H. destruct (v_lookup ts ti k).
    + inversion H; subst. auto.
    + exact (exec_prim_sim _ _ _ _ _ HSR H).
Qed.

Lemma execs_sim xs : forall sw ts, SR sw ts -> SR (execs sw xs) (vexecs ts xs).
Proof.
  induction xs as [|x r IH]; intros sw ts HSR; [assumption|]. cbn [execs vexecs]. apply IH.
  destruct (exec sw x) as (sw' & o) eqn:E. cbn [fst]. exact (proj1 (exec_sim _ _ _ _ _ HSR E)).
Qed.

Theorem store_refines_proof xs : SR (execs (mkSW [] []) xs) (vexecs [] xs).
Proof. apply execs_sim, SR_empty. Qed.

(* only exceptions the Python code really raises (or the harness's bad-case marker) come out:
   never an internal model error - in particular not the ghost ownership check *)
Definition lib_errors : list Z := [eImmutable; eKey; eMismatch; eNoMatch; eNotImmutable; eBadT; eBadCase].

Lemma vexec_prim_errors ts x e :
  (forall i b, nth_error ts i = Some b -> bwf b) -> snd (vexec_prim ts x) = Prelude.E e -> In e lib_errors.
Proof.
  intros Hb H. destruct x; cbn [vexec_prim] in H; try discriminate.
  1: destruct (Z.to_nat t <? 3)%nat; cbn in H; [|discriminate]; inversion H; cbn; tauto.
  all: unfold v_with in H; destruct (nth_error ts (Z.to_nat ti)) as [b|] eqn:Eb; [pose proof (Hb _ _ Eb) as Hbwf|inversion H; cbn; tauto].
  - (* insert: refused by a frozen tree, else it succeeds *)
    destruct (b_immut b) eqn:Eim; [rewrite (proj1 (frozen_rejects_proof b (k, v) _ 0 None Eim)) in H; inversion H; cbn; tauto|].
    destruct (insert_element_spec_proof b (k, v) (match io with Some x => x | None => b_inorder b end) Hbwf Eim) as (b' & Hi & _).
    rewrite Hi in H. cbn in H.
    destruct report; [|discriminate]. destruct (find_sorted k (elements (b_root b))); discriminate.
  - (* delete: likewise; KeyError, or the mismatch errors of delete_exact, by the mode of reporting *)
    destruct (b_immut b) eqn:Eim; [rewrite (proj2 (frozen_rejects_proof b (k, 0) false k exact Eim)) in H; inversion H; cbn; tauto|].
    destruct (delete_btree_spec_proof b k exact Hbwf Eim) as (b' & Hi & _).
    rewrite Hi in H. cbn [bind v_mutate snd] in H.
    destruct mode as [|[|]]; [| |discriminate];
      destruct (dspec exact (find_sorted k (elements (b_root b)))); cbn in H; try discriminate; inversion H; cbn; tauto.
  - discriminate.
  - destruct (b_immut b); [discriminate|]. inversion H; cbn; tauto.
Qed.

Lemma vexec_errors ts x e :
  (forall i b, nth_error ts i = Some b -> bwf b) -> snd (vexec ts x) = Prelude.E e -> In e lib_errors.
Proof.
  intros Hb H. destruct x; cbn [vexec] in H; try (exact (vexec_prim_errors ts _ e Hb H)).
  - destruct (v_lookup ts ti k); [exact (vexec_prim_errors ts _ e Hb H)|discriminate].
  - destruct (v_first ts ti); [exact (vexec_prim_errors ts _ e Hb H)|discriminate].
  - discriminate.
  - destruct (v_lookup ts ti k); [discriminate|exact (vexec_prim_errors ts _ e Hb H)].
Qed.

(* the store world is an image of the value-level trees: same parameters, and reading the store
   from a tree's root pointer (abs) gives exactly the value-level tree *)
Definition represents (sw : sworld) (ts : list btree) : Prop :=
  length (sw_trees sw) = length ts /\
  forall k sb b, nth_error (sw_trees sw) k = Some sb -> nth_error ts k = Some b ->
    sb_t sb = b_t b /\ sb_size sb = b_size b /\ sb_immut sb = b_immut b /\ sb_inorder sb = b_inorder b /\
    bwf b /\
    exists fuel, forall f, (fuel <= f)%nat -> abs f (sw_store sw) (sb_root sb) = Some (b_root b).

Lemma SR_represents sw ts : SR sw ts -> represents sw ts.
Proof.
  intros (_ & Hlen & Hrel). split; [assumption|]. intros k sb b H1 H2.
  destruct (Hrel k sb b H1 H2) as ((Ha & Hb & Hc & Hd & fp & Hr) & Hbwf).
  repeat split; try assumption; try apply Hbwf. exact (rep_abs _ _ _ _ Hr).
Qed.

(* one operation in any world related by SR to value-level trees: the outcome represents what
   `vexec` computes, the output is the same and no internal error, and no other tree is touched *)
Theorem exec_refines w ts x w' o :
  SR w ts -> exec w x = (w', o) ->
  represents w ts /\
  represents w' (fst (vexec ts x)) /\
  o = snd (vexec ts x) /\
  (forall e, o = Prelude.E e -> In e lib_errors) /\
  forall k bk, target x <> Some k -> nth_error (sw_trees w) k = Some bk ->
    nth_error (sw_trees w') k = Some bk /\
    forall fuel, abs fuel (sw_store w') (sb_root bk) = abs fuel (sw_store w) (sb_root bk).
Proof.
  intros HSR H. destruct (exec_sim w ts x w' o HSR H) as (HSR' & Ho).
  split; [now apply SR_represents|]. split; [now apply SR_represents|]. split; [assumption|]. split.
  - intros e He. apply (vexec_errors ts x e (fun i b => SR_bwf w ts i b HSR)). congruence.
  - exact (proj2 (exec_isolated w x w' o (proj1 HSR) H)).
Qed.

(* Copy-on-write isolation, full statement. *)
Theorem cow_isolated_full xs x w' o :
  let w := execs (mkSW [] []) xs in
  let ts := vexecs [] xs in
  exec w x = (w', o) ->
  represents w ts /\
  represents w' (fst (vexec ts x)) /\
  o = snd (vexec ts x) /\
  (forall e, o = Prelude.E e -> In e lib_errors) /\
  forall k bk, target x <> Some k -> nth_error (sw_trees w) k = Some bk ->
    nth_error (sw_trees w') k = Some bk /\
    forall fuel, abs fuel (sw_store w') (sb_root bk) = abs fuel (sw_store w) (sb_root bk).
Proof.
  intros w ts. exact (exec_refines w ts x w' o (store_refines_proof xs)).
Qed.

(* the ghost check in particular *)
Corollary ghost_check_never_fires xs x :
  snd (exec (execs (mkSW [] []) xs) x) <> Prelude.E eForeign.
Proof.
  destruct (exec (execs (mkSW [] []) xs) x) as (w' & o) eqn:E. cbn [snd]. intros ->.
  destruct (cow_isolated_full xs x w' _ E) as (_ & _ & _ & Herr & _).
  specialize (Herr eForeign eq_refl). cbn in Herr.
  repeat (destruct Herr as [Herr|Herr]; [discriminate Herr|]). exact Herr.
Qed.

Theorem store_represents_proof xs : represents (execs (mkSW [] []) xs) (vexecs [] xs).
Proof. apply SR_represents, store_refines_proof. Qed.
