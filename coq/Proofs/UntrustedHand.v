(* C04 for the irregular record types that C02 models by hand (Model/SchemaHand.v: HIP, IPSECKEY,
   AMTRELAY, APL, SVCB/HTTPS, LOC, OPT with every EDNS option class): dns.rdata.from_wire on
   arbitrary octets returns a record that consumed exactly rdlen, or a FormError-family error;
   the `while parser.remaining() > 0` loops terminate within the model's fuel. *)
From DV Require Import Base.Prelude Model.NameM Model.SchemaM Model.SchemaHand Model.UntrustedM
                       Proofs.NameValid Proofs.SchemaCodec Proofs.SchemaTotal.
From DV Require Proofs.ParserSafe Proofs.UntrustedSchema.
From DV Require Import Proofs.UntrustedEnds.
Open Scope Z_scope.

Definition Good {A} (r : res A) : Prop :=
  match r with Ok _ => True | Lib e => is_form e = true | Internal _ => False end.

Lemma good_ok {A} (a : A) : Good (Ok a). Proof. exact Logic.I. Qed.
Lemma good_form {A} : Good (@Lib A eFormError). Proof. reflexivity. Qed.
(* the two halves: the error classes (UntrustedSchema) and C02's totality theorems *)
Lemma good_of {A} (r : res A) : UntrustedSchema.FormOnly r -> (forall x, r <> Internal x) -> Good r.
Proof. intros F N. destruct r as [a|e|x]; [exact Logic.I|exact F|]. exfalso. eapply N; reflexivity. Qed.

Section Hand.
  Variable w : list Z.
  Hypothesis Hw : ParserSafe.bytes_ok w.

  Lemma good_get_bytes e c n : Good (SchemaM.get_bytes w e c n).
  Proof. apply good_of; [apply UntrustedSchema.fo_get_bytes|apply get_bytes_lib]. Qed.

  Lemma good_get_u e c n : Good (get_u w e c n).
  Proof. unfold get_u. apply ends_seq; [apply good_get_bytes|intros; exact Logic.I]. Qed.

  Lemma get_u_cur e c n v c' : get_u w e c n = Ok (v, c') -> c' = (c + n)%nat.
  Proof.
    unfold get_u. intros H. inv_bind H. inversion H; subst. destruct x as [l c1]. cbn.
    eapply get_bytes_cur; eauto.
  Qed.

  Lemma good_get_name o rel e c : Good (SchemaM.get_name w o rel e c).
  Proof. apply good_of; [apply UntrustedSchema.fo_get_name; exact Hw|apply get_name_lib]. Qed.

  Lemma good_dec_rows_names o fuel e c : (e - c < fuel)%nat -> Good (dec_rows w o fuel [FName true] e c).
  Proof.
    intros Hf. apply good_of; [apply UntrustedSchema.fo_dec_rows; exact Hw|].
    intros x. apply dec_rows_lib; [discriminate|reflexivity|exact Hf].
  Qed.

  Lemma good_hip o e c : Good (hip_dec w o e c).
  Proof.
    unfold hip_dec.
    apply ends_seq; [apply good_get_u|]; intros lh.
    apply ends_seq; [apply good_get_u|]; intros alg.
    apply ends_seq; [apply good_get_u|]; intros lk.
    apply ends_seq; [apply good_get_bytes|]; intros hit.
    apply ends_seq; [apply good_get_bytes|]; intros key.
    apply ends_seq; [apply good_dec_rows_names; lia|]; intros; exact Logic.I.
  Qed.

  Lemma good_gw o gt e c : Good (gw_dec w o gt e c).
  Proof.
    unfold gw_dec.
    destruct (gt =? 0); [exact Logic.I|].
    destruct (gt =? 1); [apply ends_seq; [apply good_get_bytes|intros; exact Logic.I]|].
    destruct (gt =? 2); [apply ends_seq; [apply good_get_bytes|intros; exact Logic.I]|].
    destruct (gt =? 3); [apply ends_seq; [apply good_get_name|intros; exact Logic.I]|reflexivity].
  Qed.

  Lemma good_ipseckey o e c : Good (ipseckey_dec w o e c).
  Proof.
    unfold ipseckey_dec.
    apply ends_seq; [apply good_get_u|]; intros prec.
    apply ends_seq; [apply good_get_u|]; intros gt.
    apply ends_seq; [apply good_get_u|]; intros alg.
    apply ends_seq; [apply good_gw|]; intros gw.
    apply ends_seq; [apply good_get_bytes|]; intros; exact Logic.I.
  Qed.

  Lemma good_amtrelay o e c : Good (amtrelay_dec w o e c).
  Proof.
    unfold amtrelay_dec.
    apply ends_seq; [apply good_get_u|]; intros prec.
    apply ends_seq; [apply good_get_u|]; intros rt. cbv zeta.
    apply ends_seq; [apply good_gw|]; intros; exact Logic.I.
  Qed.

  Lemma good_apl_item e c : Good (apl_item_dec w e c).
  Proof.
    unfold apl_item_dec.
    apply ends_seq; [apply good_get_u|]; intros fam.
    apply ends_seq; [apply good_get_u|]; intros pre.
    apply ends_seq; [apply good_get_u|]; intros afd. cbv zeta.
    apply ends_seq; [apply good_get_bytes|]; intros; exact Logic.I.
  Qed.

  Lemma apl_item_progress e c v c' : apl_item_dec w e c = Ok (v, c') -> (c + 4 <= c')%nat.
  Proof.
    unfold apl_item_dec. intros H.
    inv_bind H. inv_bind H. inv_bind H. cbv zeta in H. inv_bind H. inversion H; subst.
    destruct x as [v1 c1], x0 as [v2 c2], x1 as [v3 c3], x2 as [b c4]. cbn [fst snd] in *.
    apply get_u_cur in E. apply get_u_cur in E0. apply get_u_cur in E1. apply get_bytes_cur in E2. lia.
  Qed.

  Lemma good_apl_items : forall fuel e c, (e - c < fuel)%nat -> Good (apl_items_dec fuel w e c).
  Proof.
    induction fuel as [|f IH]; intros e c Hf; cbn [apl_items_dec].
    - destruct (Nat.leb_spec e c); [exact Logic.I|lia].
    - destruct (Nat.leb_spec e c); [exact Logic.I|].
      eapply ends_bind; [apply ends_eq, good_apl_item|]. intros [v c1] [E _].
      destruct (negb (apl_item_valid (fst (v, c1)))); [reflexivity|].
      apply apl_item_progress in E.
      apply ends_seq; [apply IH; cbn; lia|intros; exact Logic.I].
  Qed.

  Lemma good_apl o e c : Good (apl_dec w o e c).
  Proof. unfold apl_dec. apply ends_seq; [apply good_apl_items; lia|intros; exact Logic.I]. Qed.

  Lemma good_svcb_params : forall fuel e c prior, (e - c < fuel)%nat -> Good (svcb_params_dec fuel w e c prior).
  Proof.
    induction fuel as [|f IH]; intros e c prior Hf; cbn [svcb_params_dec].
    - destruct (Nat.leb_spec e c); [exact Logic.I|lia].
    - destruct (Nat.leb_spec e c); [exact Logic.I|].
      eapply ends_bind; [apply ends_eq, good_get_u|]. intros [k c1] [E1 _]. cbn [fst snd].
      destruct (k <? prior); [reflexivity|].
      eapply ends_bind; [apply ends_eq, good_get_u|]. intros [vl c2] [E2 _]. cbn [fst snd].
      eapply ends_bind; [apply ends_eq, good_get_bytes|]. intros [raw c3] [E3 _]. cbn [fst snd].
      destruct (negb (svcb_param_ok k raw)); [reflexivity|].
      apply get_u_cur in E1. apply get_u_cur in E2. apply get_bytes_cur in E3.
      apply ends_seq; [apply IH; lia|intros; exact Logic.I].
  Qed.

  Lemma good_svcb o e c : Good (svcb_dec w o e c).
  Proof.
    unfold svcb_dec.
    apply ends_seq; [apply good_get_u|]; intros prio.
    apply ends_seq; [apply good_get_name|]; intros tgt.
    match goal with |- _ (if ?b then _ else _) => destruct b; [reflexivity|] end.
    apply ends_seq; [apply good_svcb_params; lia|intros; exact Logic.I].
  Qed.

  Lemma good_loc_size b : Good (loc_decode_size b).
  Proof. unfold loc_decode_size. cbv zeta. destruct (_ >? 9); [reflexivity|]. destruct (_ >? 9); [reflexivity|exact Logic.I]. Qed.

  Lemma good_loc o e c : Good (loc_dec w o e c).
  Proof.
    unfold loc_dec.
    do 7 (apply ends_seq; [apply good_get_u|]; intros ?).
    repeat match goal with |- _ (if ?b then _ else _) => destruct b; [reflexivity|] end.
    do 3 (apply ends_seq; [apply good_loc_size|]; intros ?). exact Logic.I.
  Qed.

  Lemma good_opt_items : forall fuel e c, (e - c < fuel)%nat -> Good (opt_items_dec fuel w e c).
  Proof.
    induction fuel as [|f IH]; intros e c Hf; cbn [opt_items_dec].
    - destruct (Nat.leb_spec e c); [exact Logic.I|lia].
    - destruct (Nat.leb_spec e c); [exact Logic.I|].
      eapply ends_bind; [apply ends_eq, good_get_u|]. intros [ot c1] [E1 _]. cbn [fst snd].
      eapply ends_bind; [apply ends_eq, good_get_u|]. intros [ol c2] [E2 _]. cbn [fst snd].
      destruct (Nat.ltb_spec (e - c2) (Z.to_nat ol)); [reflexivity|]. cbv zeta.
      apply get_u_cur in E1. apply get_u_cur in E2.
      apply ends_seq.
      + destruct (ot =? 18).
        * pose proof (good_get_name None false (c2 + Z.to_nat ol)%nat c2) as G.
          destruct (SchemaM.get_name w None false (c2 + Z.to_nat ol) c2) as [[n c3]|x|x]; cbn in G |- *; auto.
          destruct (Nat.eqb c3 (c2 + Z.to_nat ol)); [exact Logic.I|reflexivity].
        * apply ends_seq; [apply good_get_bytes|]. intros d.
          destruct (opt_norm ot (fst d)); [exact Logic.I|reflexivity].
      + intros payload. apply ends_seq; [apply IH; lia|intros; exact Logic.I].
  Qed.

  Lemma good_opt o e c : Good (opt_dec w o e c).
  Proof. unfold opt_dec. apply ends_seq; [apply good_opt_items; lia|intros; exact Logic.I]. Qed.

  Lemma good_hand_dec h o e c : Good (hand_dec h w o e c).
  Proof.
    destruct h; cbn [hand_dec];
      [apply good_hip|apply good_ipseckey|apply good_amtrelay|apply good_apl|apply good_svcb|apply good_loc|apply good_opt].
  Qed.
End Hand.

(* dns.rdata.from_wire for HIP, IPSECKEY, AMTRELAY, APL, SVCB, HTTPS, LOC, OPT on arbitrary octets *)
Theorem hand_from_wire_family h o wire cur rdlen :
  ParserSafe.bytes_ok wire ->
  match hand_decode_rdata h o wire cur rdlen with
  | Ok vs => hand_valid h vs = true /\ (cur + rdlen <= length wire)%nat
  | Lib e => is_form e = true
  | Internal _ => False
  end.
Proof.
  intros Hw. unfold hand_decode_rdata.
  destruct (Nat.ltb_spec (length wire) cur); [reflexivity|].
  destruct (Nat.ltb_spec (length wire - cur) rdlen); [reflexivity|]. cbv zeta.
  pose proof (good_hand_dec wire Hw h o (cur + rdlen)%nat cur) as G.
  destruct (hand_dec h wire o (cur + rdlen) cur) as [[vs c]|e|e]; cbn [bind fst snd]; cbn in G; auto.
  destruct (hand_valid h vs) eqn:V; cbn [negb]; [|reflexivity].
  destruct (Nat.eqb c (cur + rdlen)); [split; [exact V|lia]|reflexivity].
Qed.

(* "every value returned can be rendered to wire again": the accepted record's own to_wire exists
   (C02's per-type fixed-point theorems) *)
From DV Require Proofs.SchemaHandThm Proofs.SchemaOptFix Proofs.SchemaAplFix Proofs.SchemaLocFix Proofs.SchemaSvcbFix.

Lemma bytes_ok_all_bytes l : ParserSafe.bytes_ok l -> all_bytes l = true.
Proof.
  intros H. unfold all_bytes. apply forallb_forall. intros x Hx.
  eapply Forall_forall in H; eauto. unfold is_byte. cbn beta in H. apply andb_true_iff. split; lia.
Qed.

Theorem hand_from_wire_renders h wire cur rdlen vs :
  ParserSafe.bytes_ok wire ->
  hand_decode_rdata h None wire cur rdlen = Ok vs ->
  exists w', hand_encode_rdata h None vs = Ok w'.
Proof.
  intros Hw H. pose proof (bytes_ok_all_bytes wire Hw) as Hb.
  destruct h.
  - destruct (SchemaHandThm.hip_fixed_point_thm wire cur rdlen vs Hb H) as (w' & E & _). eauto.
  - destruct (SchemaHandThm.ipseckey_fixed_point_thm wire cur rdlen vs H) as (w' & E & _). eauto.
  - destruct (SchemaHandThm.amtrelay_fixed_point_thm wire cur rdlen vs H) as (w' & E & _). eauto.
  - pose proof (hand_from_wire_family HApl None wire cur rdlen Hw) as F. rewrite H in F.
    destruct F as [V _]. cbn [hand_valid] in V.
    destruct vs as [|[s|items] [|? ?]]; try discriminate.
    destruct (SchemaAplFix.apl_fixed_point_thm items V) as (w' & E & _). eauto.
  - destruct (SchemaSvcbFix.svcb_fixed_point_thm wire cur rdlen vs H) as (w' & E & _). eauto.
  - destruct (SchemaLocFix.loc_fixed_point_thm wire cur rdlen vs Hb H) as (w' & E & _). eauto.
  - destruct (SchemaOptFix.opt_fixed_point_thm wire cur rdlen vs Hb H) as (w' & E & _). eauto.
Qed.
