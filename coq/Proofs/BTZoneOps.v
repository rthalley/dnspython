(* C20: the steps the WritableVersion operations are made of: what the list primitives
   do to a node list, update_glue_flag after a change at one name, a delegation point that
   appears or goes, _maybe_cow_with_name. *)
From DV Require Import Base.Prelude Model.NameM Model.BTZoneM
     Proofs.BTZoneOrder Proofs.BTZoneList Proofs.BTZoneSpec Proofs.BTZoneWalk Proofs.BTZoneInv
     Proofs.BTZoneMaster.
Open Scope Z_scope.

Lemma D_refl : forall (l : nodes_t) n n0 nd,
    sorted l -> In (n0, nd) l -> K n0 = K n -> Desc l l n (Some (n0, nd)) idtr.
Proof.
  intros l n n0 nd S Hin E k' v'. unfold idtr. split.
  - intros H. destruct (key_eq_dec (K k') (K n)) as [Ek|Ek].
    + right. split; auto. f_equal. eapply sorted_functional; eauto. congruence.
    + left. split; auto. exists v'. auto.
  - intros [[_ (nd1 & H & ->)]|[H _]]; auto. injection H as <- <-; auto.
Qed.

Lemma D_refl_none : forall (l : nodes_t) n, al_get n l = None -> Desc l l n None idtr.
Proof.
  intros l n G k' v'. unfold idtr. apply al_get_none in G. split.
  - intros H. left. split; [|exists v'; auto]. intros E. apply G. rewrite <- E. eapply in_keys; eauto.
  - intros [[_ (nd1 & H & ->)]|[H _]]; auto. discriminate.
Qed.

Lemma D_set : forall (l : nodes_t) n x, sorted l -> Desc l (al_set n x l) n (Some (n, x)) idtr.
Proof.
  intros l n x S k' v'. unfold idtr. rewrite al_set_in by auto. split.
  - intros [H|[H Hn]]; [right; injection H as <- <-; auto|]. left. split; auto. exists v'; auto.
  - intros [[Hn (nd1 & H & ->)]|[H _]]; auto. injection H as <- <-. left; auto.
Qed.

Lemma D_update : forall (l : nodes_t) n n0 x0 x,
    sorted l -> In (n0, x0) l -> K n0 = K n -> Desc l (al_update n x l) n (Some (n0, x)) idtr.
Proof.
  intros l n n0 x0 x S Hin E k' v'. unfold idtr. rewrite al_update_in by auto. split.
  - intros [(v0 & H & Ek & ->)|[H Hn]]; [right|left; eauto]. split; [|exact Ek].
    pose proof (sorted_functional l k' v0 n0 x0 S H Hin) as E'. injection E' as -> _; congruence.
  - intros [[Hn (nd & H & ->)]|[H Ek]]; [right; auto|]. injection H as <- <-. left. eauto.
Qed.

Lemma D_del : forall (l l' : nodes_t) n, sorted l -> al_del n l = Some l' -> Desc l l' n None idtr.
Proof.
  intros l l' n S H k' v'. unfold idtr. rewrite (proj2 (al_del_some _ _ _ S H)). split.
  - intros [Hin Hn]. left. eauto.
  - intros [[Hn (nd & Hin & ->)]|[[=] _]]. auto.
Qed.

Lemma D_trans_walk : forall (l l2 l3 : nodes_t) n en (trw : name -> node -> node),
    Desc l l2 n en idtr ->
    (forall k nd', In (k, nd') l3 <-> exists nd, In (k, nd) l2 /\ nd' = trw k nd) ->
    (forall k nd, K k = K n -> trw k nd = nd) ->
    Desc l l3 n en trw.
Proof.
  intros l l2 l3 n en trw D H3 Hn k' v'. rewrite H3. split.
  - intros (nd & Hin & ->). apply D in Hin as [[Hk (nd0 & Hin & ->)]|[He Hk]].
    + left. split; auto. exists nd0. auto.
    + right. rewrite Hn by auto. auto.
  - intros [[Hk (nd & Hin & ->)]|[He Hk]].
    + exists nd. split; auto. apply D. left. split; auto. exists nd; auto.
    + exists v'. split; [apply D; right; auto|]. rewrite Hn; auto.
Qed.

Lemma Desc_trans : forall (l l1 l2 : nodes_t) n e1 e2 tr,
    Desc l l1 n e1 tr -> Desc l1 l2 n e2 idtr -> Desc l l2 n e2 tr.
Proof.
  intros l l1 l2 n e1 e2 tr D1 D2 k' v'. rewrite (D2 k' v'). unfold idtr. split.
  - intros [[Hk (nd & Hin & ->)]|H]; [|right; exact H].
    apply D1 in Hin as [H|[_ E]]; [left; exact H|congruence].
  - intros [[Hk (nd & Hin & ->)]|H]; [|right; exact H].
    left. split; [exact Hk|]. exists (tr k' nd). split; [apply D1; left; eauto|reflexivity].
Qed.

(* changes at n after which n is a delegation point iff it was one *)
Lemma Inv_update : forall c l d ch ch' n n0 nd nd',
    Inv c (mkVer l d ch) -> validk c (K n) -> In (n0, nd) l -> K n0 = K n ->
    nflags nd' = nflags nd -> NoDup (map fst (nrds nd')) ->
    is_apex c n = true \/ occluded c l n = true \/ has_ns nd' = has_ns nd ->
    Inv c (mkVer (al_update n nd' l) d ch').
Proof.
  intros c l d ch ch' n n0 nd nd' HI Hv Hin E0 Hfl Hnd Hcase.
  pose proof (inv_sn c _ HI) as S. destruct (inv_entry c _ HI n n0 nd Hin E0) as (G & Hf & _). cbn [v_nodes] in *.
  apply (Inv_same c l d ch _ n (Some (n0, nd')) idtr HI (al_update_sorted l n nd' S)
                  (D_update l n n0 nd nd' S Hin E0) (fun _ _ => eq_refl) Hv).
  - intros e [= <-]. auto.
  - reflexivity.
  - rewrite G. exact Hcase.
  - intros e [= <-]. cbn [snd]. rewrite (flagspec_same _ _ _ _ Hcase), Hfl. exact Hf.
Qed.

Lemma Inv_remove : forall c l d ch ch' n n0 nd l',
    Inv c (mkVer l d ch) -> validk c (K n) -> In (n0, nd) l -> K n0 = K n -> al_del n l = Some l' ->
    is_apex c n = true \/ occluded c l n = true \/ has_ns nd = false ->
    Inv c (mkVer l' d ch').
Proof.
  intros c l d ch ch' n n0 nd l' HI Hv Hin E0 Ed Hcase.
  pose proof (inv_sn c _ HI) as S. destruct (inv_entry c _ HI n n0 nd Hin E0) as (G & _). cbn [v_nodes] in *.
  apply (Inv_same c l d ch l' n None idtr HI (proj1 (al_del_some _ _ _ S Ed))
                  (D_del l l' n S Ed) (fun _ _ => eq_refl) Hv);
    try (intros e [=]); [reflexivity|].
  rewrite G. cbn [option_map hns]. intuition congruence.
Qed.

(* update_glue_flag on a list that has been changed at n only *)
Lemma ugf_Desc : forall (l l2 : nodes_t) (d2 : delegs_t) ch n g en,
    sorted l2 -> Desc l l2 n en idtr ->
    exists sub l3 ch3,
      update_glue_flag (mkVer l2 d2 ch) n g = mkVer l3 (walk_d g sub None d2) ch3 /\
      sorted sub /\ (forall k v, In (k, v) sub <-> In (k, v) l /\ strictly_beneath k n = true) /\
      sorted l3 /\ Desc l l3 n en (sub_tr n (fun k nd => wflags g None sub (k, nd))).
Proof.
  intros l l2 d2 ch n g en S D. destruct (ugf_walk l2 d2 ch n g S) as (sub & ch3 & Ss & Hsub & E).
  rewrite (walk_ups_spec g sub None Ss) in E by (intros ? [=]).
  destruct (apply_updates_map l2 sub (fun k => strictly_beneath k n)
              (fun e => mkNode (wflags g None sub e) (nrds (snd e))) S Ss Hsub) as [S3 H3].
  eexists sub, _, ch3. split; [exact E|]. split; [exact Ss|]. split; [|split; [exact S3|]].
  - intros k v. rewrite Hsub. split; intros [Hin Hs]; (split; [|exact Hs]).
    + apply D in Hin as [[_ (nd & Hin & ->)]|[_ Hk]]; [exact Hin|]. rewrite (not_sb_self k n Hk) in Hs. discriminate.
    + apply D. left. split; [intros Hk; rewrite (not_sb_self k n Hk) in Hs; discriminate|]. exists v. auto.
  - apply (D_trans_walk l l2 _ n en _ D H3). intros k nd Hk. unfold sub_tr. rewrite (not_sb_self k n Hk). reflexivity.
Qed.

Lemma subtree_keys : forall (l sub : nodes_t) n,
    (forall k v, In (k, v) sub <-> In (k, v) l /\ strictly_beneath k n = true) ->
    forall y, In y (keys sub) <-> In y (keys l) /\ sbelow y (K n).
Proof.
  intros l sub n H y. split.
  - intros Hy. apply keys_in in Hy as (k & v & Hin & <-). apply H in Hin as [Hin Hs].
    split; [eapply in_keys; eauto|apply strictly_beneath_iff, Hs].
  - intros [Hy Hs]. apply keys_in in Hy as (k & v & Hin & <-). apply (in_keys _ k v), H.
    split; [exact Hin|apply strictly_beneath_iff, Hs].
Qed.

(* a new delegation point covers its subtree:
   l2 is the node list changed at n only; once the walk is through, any further change at n
   that leaves an NS owner with the DELEGATION flag there gives a good version *)
Lemma Inv_cover : forall c l1 d1 ch1 l2 n n0 x,
    Inv c (mkVer l1 d1 ch1) -> validk c (K n) -> is_apex c n = false -> occluded c l1 n = false ->
    sorted l2 -> Desc l1 l2 n (Some (n0, x)) idtr -> K n0 = K n ->
    exists l3 d3 ch3,
      update_glue_flag (mkVer l2 (al_set n tt d1) ch1) n true = mkVer l3 d3 ch3 /\
      sorted l3 /\ In (n0, x) l3 /\
      forall l4 nd0 ch4,
        sorted l4 -> Desc l3 l4 n (Some (n0, nd0)) idtr ->
        has_ns nd0 = true -> nflags nd0 = fDELEGATION -> NoDup (map fst (nrds nd0)) ->
        Inv c (mkVer l4 d3 ch4).
Proof.
  intros c l1 d1 ch1 l2 n n0 x HI Hv Ha Ho S2 D E0.
  pose proof (inv_sd c _ HI) as Sd1. cbn [v_delegs] in Sd1.
  destruct (ugf_Desc l1 l2 (al_set n tt d1) ch1 n true _ S2 D) as (sub & l3 & ch3 & E & Ss & Hsub & S3 & D3).
  eexists l3, _, ch3. split; [exact E|]. split; [exact S3|]. split; [apply D3; auto|].
  intros l4 nd0 ch4 S4 D4 Hns Hf Hnd.
  destruct (walk_d_true sub None _ (al_set_sorted d1 n tt Sd1)) as [Sd3 Hd3].
  apply (Inv_new_top c l1 d1 ch1 l4 n _ _ HI S4 (Desc_trans _ _ _ _ _ _ _ D3 D4) (sub_tr_rds n _) Hv)
    with (n0 := n0) (nd0 := nd0); auto.
  - intros e [= <-]. auto.
  - intros k nd _ _. unfold sub_tr. destruct (strictly_beneath k n); reflexivity.
  - intros y. rewrite Hd3, (al_set_keys d1 n tt Sd1), (subtree_keys l1 sub n Hsub). split.
    + intros [[->|Hy] Hn]; [left; reflexivity|right]. split; [exact Hy|]. intros Hs. apply Hn.
      split; [apply (inv_deleg_keys_nodes c _ HI), Hy|exact Hs].
    + intros [->|[Hy Hn]]; (split; [auto|]); intros [_ Hs]; [eapply sbelow_irrefl; eauto|auto].
Qed.

(* a delegation point that goes exposes its subtree *)
Lemma covered_inner : forall (l sub : nodes_t) n,
    (forall k v, In (k, v) sub <-> In (k, v) l /\ strictly_beneath k n = true) ->
    forall k, covered None sub k = inner l n k.
Proof.
  intros l sub n H k. unfold covered, inner. cbn [cov orb]. apply Bool.eq_true_iff_eq.
  rewrite !existsb_exists. split; intros ([m nd] & Hin & Hx); exists (m, nd); cbn [fst snd] in *.
  - apply H in Hin as [Hin Hs]. rewrite Hs, andb_true_r. auto.
  - apply andb_true_iff in Hx as [Hx H3]. apply andb_true_iff in Hx as [H1 H2].
    split; [apply H; auto|rewrite H1, H3; reflexivity].
Qed.

Lemma Inv_expose : forall c l1 d1 ch1 l2 n n0 x,
    Inv c (mkVer l1 d1 ch1) -> validk c (K n) -> In (K n) (keys d1) ->
    sorted l2 -> Desc l1 l2 n (Some (n0, x)) idtr -> K n0 = K n ->
    exists l3 d3 ch3,
      update_glue_flag (mkVer l2 (al_discard n d1) ch1) n false = mkVer l3 d3 ch3 /\
      sorted l3 /\ In (n0, x) l3 /\
      forall l4 en ch4,
        sorted l4 -> Desc l3 l4 n en idtr ->
        (forall e, en = Some e -> K (fst e) = K n /\ NoDup (map fst (nrds (snd e)))) ->
        (forall e, en = Some e -> has_ns (snd e) = false /\ nflags (snd e) = 0) ->
        Inv c (mkVer l4 d3 ch4).
Proof.
  intros c l1 d1 ch1 l2 n n0 x HI Hv Hkd S2 D E0.
  pose proof (inv_sd c _ HI) as Sd1. cbn [v_delegs] in Sd1.
  destruct (ugf_Desc l1 l2 (al_discard n d1) ch1 n false _ S2 D) as (sub & l3 & ch3 & E & Ss & Hsub & S3 & D3).
  eexists l3, _, ch3. split; [exact E|]. split; [exact S3|]. split; [apply D3; auto|].
  intros l4 en ch4 S4 D4 Hen He.
  destruct (walk_d_false sub None _ Ss (proj1 (al_discard_spec d1 n Sd1))) as [Sd3 Hd3]; [intros ? [=]|].
  pose proof (covered_inner l1 sub n Hsub) as Hcov.
  apply (Inv_del_top c l1 d1 ch1 l4 n en _ HI S4 (Desc_trans _ _ _ _ _ _ _ D3 D4) (sub_tr_rds n _) Hv Hen); auto.
  - intros k nd _ _. unfold sub_tr, wflags. rewrite Hcov. destruct (strictly_beneath k n); reflexivity.
  - intros y. rewrite Hd3, (al_discard_keys d1 n Sd1). split.
    + intros [H|(k & v & Hin & <- & Hns & Hc)]; [left; exact H|]. apply Hsub in Hin as [Hin Hs].
      right. exists k, v. rewrite <- Hcov. repeat split; auto; apply strictly_beneath_iff, Hs.
    + intros [H|(k & v & Hin & <- & Hs & Hns & Hi)]; [left; exact H|].
      right. exists k, v. rewrite Hcov. repeat split; auto. apply Hsub. split; [exact Hin|apply strictly_beneath_iff, Hs].
Qed.

(* the btreezone override of _maybe_cow_with_name: the flags of the (possibly new) node are derived from the index *)
Definition cow_flags (c : cfg) (d : delegs_t) (n : name) (x : node) : node :=
  if is_origin c n then mkNode (Z.lor (nflags x) fORIGIN) (nrds x)
  else if deleg_is_glue d n then mkNode (Z.lor (nflags x) fGLUE) (nrds x)
  else if al_mem n d then mkNode (Z.lor (nflags x) fDELEGATION) (nrds x)
  else x.

Lemma maybe_cow_eq : forall c v n,
    maybe_cow c v n =
    let '(v1, nd) :=
      match al_get n (v_nodes v) with
      | Some nd0 =>
          if name_in n (v_changed v) then (v, nd0)
          else (mkVer (al_set n (mkNode 0 (nrds nd0)) (v_nodes v)) (v_delegs v) (changed_add n (v_changed v)),
                mkNode 0 (nrds nd0))
      | None =>
          (mkVer (al_set n (mkNode 0 []) (v_nodes v)) (v_delegs v) (changed_add n (v_changed v)), mkNode 0 [])
      end in
    (mkVer (al_update n (cow_flags c (v_delegs v1) n nd) (v_nodes v1)) (v_delegs v1) (v_changed v1),
     cow_flags c (v_delegs v1) n nd).
Proof. reflexivity. Qed.

(* a node that carries no flags yet, or the right ones, gets the right ones *)
Lemma cow_flags_spec : forall c l d ch n x,
    Inv c (mkVer l d ch) -> has_ns x = hns (al_get n l) ->
    nflags x = 0 \/ nflags x = flagspec (is_apex c n) (occluded c l n) (has_ns x) ->
    nflags (cow_flags c d n x) = flagspec (is_apex c n) (occluded c l n) (has_ns x) /\
    nrds (cow_flags c d n x) = nrds x.
Proof.
  intros c l d ch n x HI Hh Hf.
  pose proof (inv_is_glue c _ HI n) as Hg. pose proof (inv_mem_b c _ HI n) as Hm. cbn [v_nodes v_delegs] in Hg, Hm.
  unfold cow_flags. rewrite is_origin_apex, Hg, Hm, <- Hh.
  destruct (is_apex c n), (occluded c l n), (has_ns x); cbn [negb andb nflags nrds];
    (split; [|reflexivity]); destruct Hf as [-> | ->]; reflexivity.
Qed.

(* the three branches of _maybe_cow_with_name end alike: lm is the node list with the node x
   (the old node, its copy, or a new empty node) at n *)
Lemma cow_finish : forall c l d ch lm chm n n1 x,
    Inv c (mkVer l d ch) -> validk c (K n) ->
    sorted lm -> Desc l lm n (Some (n1, x)) idtr -> K n1 = K n ->
    nrds x = match al_get n l with Some nd0 => nrds nd0 | None => [] end ->
    nflags x = 0 \/ nflags x = flagspec (is_apex c n) (occluded c l n) (has_ns x) ->
    let nd := cow_flags c d n x in
    Inv c (mkVer (al_update n nd lm) d chm) /\
    (exists n0, K n0 = K n /\ In (n0, nd) (al_update n nd lm)) /\ nrds nd = nrds x.
Proof.
  intros c l d ch lm chm n n1 x HI Hv Sm D E Hr Hf nd.
  assert (Hh : has_ns x = hns (al_get n l) /\ NoDup (map fst (nrds x))).
  { unfold has_ns. rewrite Hr. destruct (al_get n l) as [nd0|] eqn:G; [|split; [reflexivity|constructor]].
    split; [reflexivity|]. apply al_get_some in G as (m & Hin & _). exact (inv_nd c _ HI m nd0 Hin). }
  destruct Hh as [Hh Hnd]. destruct (cow_flags_spec c l d ch n x HI Hh Hf) as [Hfl Hrds]. fold nd in Hfl, Hrds.
  assert (Hx : In (n1, x) lm) by (apply D; auto).
  pose proof (Desc_trans _ _ _ _ _ _ _ D (D_update lm n n1 x nd Sm Hx E)) as D'.
  split; [|split; [|exact Hrds]].
  - apply (Inv_same c l d ch _ n _ idtr HI (al_update_sorted lm n nd Sm) D' (fun _ _ => eq_refl) Hv).
    + intros e [= <-]. split; [exact E|]. cbn [snd]. rewrite Hrds. exact Hnd.
    + reflexivity.
    + right. right. cbn [option_map snd hns]. rewrite (has_ns_rds nd x Hrds). exact Hh.
    + intros e [= <-]. cbn [snd]. rewrite (has_ns_rds nd x Hrds). exact Hfl.
  - exists n1. split; [exact E|]. apply D'. auto.
Qed.

Lemma cow_spec : forall c v n v1 nd,
    Inv c v -> validk c (K n) -> maybe_cow c v n = (v1, nd) ->
    v_delegs v1 = v_delegs v /\ Inv c v1 /\
    (exists n0, K n0 = K n /\ In (n0, nd) (v_nodes v1)) /\
    nrds nd = match al_get n (v_nodes v) with Some nd0 => nrds nd0 | None => [] end.
Proof.
  intros c [l d ch] n v1 nd HI Hv H. rewrite maybe_cow_eq in H. cbn [v_nodes v_delegs v_changed] in *.
  pose proof (inv_sn c _ HI) as S. cbn [v_nodes] in S.
  destruct (al_get n l) as [nd0|] eqn:G; [destruct (name_in n ch)|]; injection H as <- <-; cbn [v_nodes v_delegs];
    (split; [reflexivity|]).
  - (* the node was already copied in this version *)
    pose proof G as G0. apply al_get_some in G0 as (n0 & Hin0 & E0).
    apply (cow_finish c l d ch l ch n n0 nd0 HI Hv S (D_refl l n n0 nd0 S Hin0 E0) E0); [rewrite G; reflexivity|].
    right. apply (inv_entry c _ HI n n0 nd0 Hin0 E0).
  - (* copy on write: a new node object with the same rdatasets *)
    apply (cow_finish c l d ch _ _ n n (mkNode 0 (nrds nd0)) HI Hv (al_set_sorted l n _ S) (D_set l n _ S) eq_refl);
      [rewrite G; reflexivity|left; reflexivity].
  - (* a new, empty node *)
    apply (cow_finish c l d ch _ _ n n (mkNode 0 []) HI Hv (al_set_sorted l n _ S) (D_set l n _ S) eq_refl);
      [rewrite G; reflexivity|left; reflexivity].
Qed.
