(* Round trips of the hand codecs that contain names (HIP, IPSECKEY, AMTRELAY, SVCB/HTTPS) for an
   arbitrary origin: generic in what is required of a name so that get_name gives it back
   (Section variables as in SchemaCodec.RoundTrip), instantiated for an absolute origin. *)
From DV Require Import Base.Prelude Model.NameM Model.SchemaM Model.SchemaHand
  Proofs.SchemaName Proofs.SchemaCodec Proofs.SchemaThm Proofs.SchemaOrigin Proofs.ListFacts.
Open Scope Z_scope.

Lemma hand_decode_ok : forall h o W cur rdlen vs,
  hand_decode_rdata h o W cur rdlen = Ok vs <->
  (cur + rdlen <= length W)%nat /\ hand_dec h W o (cur + rdlen) cur = Ok (vs, (cur + rdlen)%nat) /\
  hand_valid h vs = true.
Proof. intros. exact (framed_ok (fun W => hand_dec h W o) (hand_valid h) W cur rdlen vs). Qed.

Lemma sees_get_u : forall W e c w z R, sees W e c (be_encode w z ++ R) -> 0 <= z < pow256 w ->
  get_u W e c w = Ok (z, (c + w)%nat) /\ sees W e (c + w) R.
Proof.
  intros W e c w z R Hs Hz. unfold get_u.
  destruct (sees_get_bytes _ _ _ _ _ w Hs (be_encode_length w z)) as [-> Hs']. cbn [bind fst snd].
  rewrite be_decode_encode by assumption. auto.
Qed.

Lemma u8_ok_range : forall z, u8_ok z = true -> 0 <= z < pow256 1.
Proof. intros z H. unfold u8_ok in H. cbn. lia. Qed.

Lemma to_nat_zlen {A} (l : list A) : Z.to_nat (zlen l) = length l.
Proof. unfold zlen. lia. Qed.

(* what the constructors accept *)
Lemma hip_valid_inv : forall vs, hip_valid vs = true ->
  exists hit alg key srv, vs = [VS (VB hit); VS (VI alg); VS (VB key); VL srv] /\
    zlen hit <= 255 /\ 0 <= alg <= 255 /\ zlen key <= 65535 /\ forallb (valid_row [FName true]) srv = true.
Proof.
  intros vs H. unfold hip_valid in H. shape H.
  apply andb_prop in H as [H Hsrv]. do 4 eexists. repeat split; try eassumption; lia.
Qed.

(* the gateway type of a valid gateway is 0..3 *)
Lemma gw_valid_type : forall gt g, gw_valid gt g = true -> 0 <= gt <= 3.
Proof.
  intros gt [[z|x|n]|[|r rows]] H; cbn [gw_valid] in H; try discriminate; try lia.
Qed.

Lemma ipseckey_valid_inv : forall vs, ipseckey_valid vs = true ->
  exists prec gt alg gw key, vs = [VS (VI prec); VS (VI gt); VS (VI alg); gw; VS (VB key)] /\
    u8_ok prec = true /\ u8_ok gt = true /\ u8_ok alg = true /\ gw_valid gt gw = true.
Proof.
  intros vs H. unfold ipseckey_valid in H. shape H.
  apply andb_prop in H as [H Hgw]. apply andb_prop in H as [H Ha]. apply andb_prop in H as [Hp Hg].
  do 5 eexists. eauto.
Qed.

Lemma amtrelay_valid_inv : forall vs, amtrelay_valid vs = true ->
  exists prec d ty gw, vs = [VS (VI prec); VS (VI d); VS (VI ty); gw] /\
    u8_ok prec = true /\ (d = 0 \/ d = 1) /\ 0 <= ty <= 3 /\ gw_valid ty gw = true.
Proof.
  intros vs H. unfold amtrelay_valid in H. shape H.
  apply andb_prop in H as [H Hgw]. apply andb_prop in H as [H _]. apply andb_prop in H as [Hp Hd].
  pose proof (gw_valid_type _ _ Hgw). do 4 eexists. repeat split; try eassumption; lia.
Qed.

Lemma svcb_param_row_inv : forall r, svcb_param_row_ok r = true ->
  exists k raw, r = [VI k; VB raw] /\ 0 <= k <= 65535 /\ zlen raw <= 65535 /\ svcb_param_ok k raw = true.
Proof.
  intros r H. unfold svcb_param_row_ok in H. shape H.
  apply andb_prop in H as [H Hok]. do 2 eexists. repeat split; try eassumption; lia.
Qed.

Lemma svcb_params_rt : forall ps b fuel W e c prior,
  forallb svcb_param_row_ok ps = true -> strictly_asc prior (svcb_keys ps) = true ->
  svcb_params_enc ps = Ok b -> (length b < fuel)%nat -> sees W e c b ->
  svcb_params_dec fuel W e c prior = Ok (ps, e).
Proof.
  induction ps as [|r rr IH]; intros b fuel W e c prior Hv Hasc He Hf Hs; pose proof (sees_end _ _ _ _ Hs) as Hend.
  - apply Ok_inj in He as <-. cbn [length] in Hend. rewrite Nat.add_0_r in Hend. subst e.
    destruct fuel; cbn [svcb_params_dec]; rewrite Nat.leb_refl; reflexivity.
  - cbn [forallb] in Hv. apply andb_prop in Hv as [Hr Hv2].
    apply svcb_param_row_inv in Hr as (k & raw & -> & Hk & Hlen & Hok). cbn [svcb_params_enc] in He.
    replace ((0 <=? k) && (k <? 65536) && (zlen raw <? 65536)) with true in He by lia.
    inv_bind He. apply Ok_inj in He as <-. rename x into rest.
    cbn [svcb_keys flat_map app strictly_asc] in Hasc. apply andb_prop in Hasc as [Hpk Hasc2].
    pose proof (NameValid.zlen_nonneg raw). rewrite !app_length, !be_encode_length in Hf, Hend.
    destruct fuel as [|fuel']; [lia|]. cbn [svcb_params_dec].
    destruct (Nat.leb_spec e c); [lia|].
    destruct (sees_get_u _ _ _ 2 _ _ Hs) as [-> Hs1]; [cbn; lia|]. cbn [bind fst snd].
    replace (k <? prior) with false by lia.
    destruct (sees_get_u _ _ _ 2 _ _ Hs1) as [-> Hs2]; [cbn; lia|]. cbn [bind fst snd].
    destruct (sees_get_bytes _ _ _ _ _ _ Hs2 (eq_sym (to_nat_zlen raw))) as [-> Hs3]. cbn [bind fst snd].
    rewrite Hok. cbn [negb]. rewrite (IH rest fuel' W e _ k Hv2 Hasc2 E ltac:(lia) Hs3). reflexivity.
Qed.

(* keys already strictly ascending: "the last value wins" changes nothing *)
Lemma dedupe_last_asc : forall ps prior,
  forallb svcb_param_row_ok ps = true -> strictly_asc prior (svcb_keys ps) = true -> dedupe_last ps = ps.
Proof.
  induction ps as [|r rr IH]; intros prior Hv Hasc; [reflexivity|].
  cbn [forallb] in Hv. apply andb_prop in Hv as [Hr Hv2].
  apply svcb_param_row_inv in Hr as (k & raw & -> & _).
  cbn [svcb_keys flat_map app strictly_asc] in Hasc. apply andb_prop in Hasc as [_ Hasc2].
  specialize (IH k Hv2 Hasc2). destruct rr as [|r2 rr']; [reflexivity|].
  cbn [forallb] in Hv2. apply andb_prop in Hv2 as [Hr2 _].
  apply svcb_param_row_inv in Hr2 as (k2 & raw2 & -> & _).
  cbn [svcb_keys flat_map app strictly_asc] in Hasc2. apply andb_prop in Hasc2 as [Hkk _].
  change (dedupe_last ([VI k; VB raw] :: [VI k2; VB raw2] :: rr'))
    with (if k =? k2 then dedupe_last ([VI k2; VB raw2] :: rr') else [VI k; VB raw] :: dedupe_last ([VI k2; VB raw2] :: rr')).
  replace (k =? k2) with false by lia. rewrite IH. reflexivity.
Qed.

Section HandOrigin.
  Variable o : option name.
  Variable NOK : bool -> name -> Prop.
  Hypothesis Hname : forall rel n b W e c R,
    NOK rel n -> NameM.to_wire n o false = Ok b -> sees W e c (b ++ R) ->
    get_name W o rel e c = Ok (n, (c + length b)%nat).

  Definition gw_nok (g : val) : Prop := match g with VS (VN n) => NOK true n | _ => True end.
  Definition hip_nok (vs : list val) : Prop :=
    match vs with [_; _; _; VL srv] => Forall (nok_row NOK [FName true]) srv | _ => True end.
  Definition ipseckey_nok (vs : list val) : Prop := match vs with [_; _; _; gw; _] => gw_nok gw | _ => True end.
  Definition amtrelay_nok (vs : list val) : Prop := match vs with [_; _; _; gw] => gw_nok gw | _ => True end.

  Lemma hip_reads : forall vs b W e c,
    hip_nok vs -> hip_valid vs = true -> hip_enc o vs = Ok b -> sees W e c b ->
    hip_dec W o e c = Ok (vs, e).
  Proof.
    intros vs b W e c Hn Hv He Hs.
    apply hip_valid_inv in Hv as (hit & alg & key & srv & -> & Hh & Ha & Hk & Hsrv).
    cbn [hip_enc hip_nok] in He, Hn. pose proof (NameValid.zlen_nonneg hit). pose proof (NameValid.zlen_nonneg key).
    replace ((zlen hit <? 256) && (0 <=? alg) && (alg <? 256) && (zlen key <? 65536)) with true in He by lia.
    inv_bind He. apply Ok_inj in He as <-. rename x into s. unfold hip_dec.
    destruct (sees_get_u _ _ _ 1 _ _ Hs) as [-> Hs1]; [cbn; lia|]. cbn [bind fst snd].
    destruct (sees_get_u _ _ _ 1 _ _ Hs1) as [-> Hs2]; [cbn; lia|]. cbn [bind fst snd].
    destruct (sees_get_u _ _ _ 2 _ _ Hs2) as [-> Hs3]; [cbn; lia|]. cbn [bind fst snd].
    destruct (sees_get_bytes _ _ _ _ _ _ Hs3 (eq_sym (to_nat_zlen hit))) as [-> Hs4]. cbn [bind fst snd].
    destruct (sees_get_bytes _ _ _ _ _ _ Hs4 (eq_sym (to_nat_zlen key))) as [-> Hs5]. cbn [bind fst snd].
    pose proof (sees_end _ _ _ _ Hs5).
    rewrite (dec_rows_rt o NOK Hname [FName true] srv s _ W e _) by (try assumption; try discriminate; try reflexivity; lia).
    reflexivity.
  Qed.

  Lemma gw_rt : forall gt g b W e c R,
    gw_nok g -> gw_valid gt g = true -> gw_enc o g = Ok b -> sees W e c (b ++ R) ->
    gw_dec W o gt e c = Ok (g, (c + length b)%nat).
  Proof.
    intros gt g b W e c R Hn Hv He Hs. unfold gw_dec.
    destruct g as [[z|x|n]|[|r rows]]; cbn [gw_valid gw_enc] in Hv, He; try discriminate.
    - (* address octets *)
      apply Ok_inj in He as <-.
      apply orb_prop in Hv as [Hv|Hv]; apply andb_prop in Hv as [Hg Hl];
        apply Z.eqb_eq in Hg; apply Nat.eqb_eq in Hl; subst gt; cbn [Z.eqb Pos.eqb];
        destruct (sees_get_bytes _ _ _ _ _ _ Hs Hl) as [-> _]; rewrite Hl; reflexivity.
    - (* name *)
      apply andb_prop in Hv as [Hg _]. apply Z.eqb_eq in Hg. subst gt. cbn [Z.eqb Pos.eqb].
      rewrite (Hname true n b W e c R Hn He Hs). reflexivity.
    - (* none *)
      apply Z.eqb_eq in Hv. subst gt. apply Ok_inj in He as <-. cbn. rewrite Nat.add_0_r. reflexivity.
  Qed.

  Lemma ipseckey_reads : forall vs b W e c,
    ipseckey_nok vs -> ipseckey_valid vs = true -> ipseckey_enc o vs = Ok b -> sees W e c b ->
    ipseckey_dec W o e c = Ok (vs, e).
  Proof.
    intros vs b W e c Hn Hv He Hs.
    apply ipseckey_valid_inv in Hv as (prec & gt & alg & gw & key & -> & Hp & Hg & Ha & Hgw).
    cbn [ipseckey_enc ipseckey_nok] in He, Hn. rewrite Hp, Hg, Ha in He. cbn [andb] in He.
    inv_bind He. apply Ok_inj in He as <-. rename x into g. unfold ipseckey_dec.
    destruct (sees_get_u _ _ _ 1 _ _ Hs (u8_ok_range _ Hp)) as [-> Hs1]. cbn [bind fst snd].
    destruct (sees_get_u _ _ _ 1 _ _ Hs1 (u8_ok_range _ Hg)) as [-> Hs2]. cbn [bind fst snd].
    destruct (sees_get_u _ _ _ 1 _ _ Hs2 (u8_ok_range _ Ha)) as [-> Hs3]. cbn [bind fst snd].
    rewrite (gw_rt gt gw g W e _ key Hn Hgw E Hs3). cbn [bind fst snd].
    rewrite (sees_get_rest W e _ key (sees_skip _ _ _ _ _ _ Hs3 eq_refl)). reflexivity.
  Qed.

  Lemma amtrelay_reads : forall vs b W e c,
    amtrelay_nok vs -> amtrelay_valid vs = true -> amtrelay_enc o vs = Ok b -> sees W e c b ->
    amtrelay_dec W o e c = Ok (vs, e).
  Proof.
    intros vs b W e c Hn Hv He Hs.
    apply amtrelay_valid_inv in Hv as (prec & d & ty & gw & -> & Hp & Hd & Hty & Hgw).
    cbn [amtrelay_enc amtrelay_nok] in He, Hn.
    assert (Hu : u8_ok (ty + 128 * d) = true) by (unfold u8_ok; lia).
    rewrite Hp, Hu in He. cbn [andb] in He.
    inv_bind He. apply Ok_inj in He as <-. rename x into g. unfold amtrelay_dec.
    destruct (sees_get_u _ _ _ 1 _ _ Hs (u8_ok_range _ Hp)) as [-> Hs1]. cbn [bind fst snd].
    destruct (sees_get_u _ _ _ 1 _ _ Hs1 (u8_ok_range _ Hu)) as [-> Hs2]. cbn [bind fst snd].
    replace ((ty + 128 * d) mod 128) with ty by (apply (Z.mod_unique_pos _ _ d); lia).
    replace ((ty + 128 * d) / 128) with d by (apply (Z.div_unique_pos _ _ _ ty); lia).
    pose proof (sees_end _ _ _ _ Hs2) as Hend. rewrite <- (app_nil_r g) in Hs2.
    rewrite (gw_rt ty gw g W e _ [] Hn Hgw E Hs2), <- Hend. reflexivity.
  Qed.

  (* AliasMode (priority 0) admits no parameters on the wire: the reader refuses them although the
     constructor does not - such values are outside the statement *)
  Definition svcb_good (vs : list val) : Prop :=
    match vs with
    | [VS (VI prio); VS (VN target); VL ps] => NOK true target /\ (prio <> 0 \/ ps = [])
    | _ => True
    end.

  Lemma svcb_reads : forall vs b W e c,
    svcb_good vs -> svcb_valid vs = true -> svcb_enc o vs = Ok b -> sees W e c b ->
    svcb_dec W o e c = Ok (vs, e).
  Proof.
    intros vs b W e c Hg Hv He Hs. unfold svcb_valid in Hv. shape Hv.
    rename z into prio, n into target, rows into ps. destruct Hg as [Hn Halias].
    apply andb_prop in Hv as [Hv _]. apply andb_prop in Hv as [Hv Hasc]. apply andb_prop in Hv as [Hv Hrows].
    apply andb_prop in Hv as [Hv _]. cbn [svcb_enc] in He.
    replace ((0 <=? prio) && (prio <? 65536)) with true in He by lia.
    inv_bind He. inv_bind He. apply Ok_inj in He as <-. rename x into t, x0 into p. unfold svcb_dec.
    destruct (sees_get_u _ _ _ 2 _ _ Hs) as [-> Hs1]; [cbn; lia|]. cbn [bind fst snd].
    rewrite (Hname true target t W e _ p Hn E Hs1). cbn [bind fst snd].
    apply sees_skip with (n := length t) in Hs1; [|reflexivity]. pose proof (sees_end _ _ _ _ Hs1) as Hend.
    replace ((prio =? 0) && negb (Nat.eqb (e - (c + 2 + length t)) 0)) with false.
    2:{ destruct Halias as [Hne| ->]; [lia|]. injection E0 as <-. cbn [length] in Hend.
        replace (e - (c + 2 + length t))%nat with 0%nat by lia. symmetry. apply andb_false_r. }
    rewrite (svcb_params_rt ps p _ W e _ (-1) Hrows Hasc E0) by (assumption || lia). cbn [bind fst snd].
    rewrite (dedupe_last_asc ps (-1) Hrows Hasc). reflexivity.
  Qed.

  Theorem hip_roundtrip_gen : forall vs b A P,
    hip_nok vs -> hand_encode_rdata HHip o vs = Ok b ->
    hand_decode_rdata HHip o (A ++ b ++ P) (length A) (length b) = Ok vs.
  Proof. exact (framed_roundtrip (fun W => hip_dec W o) hip_valid (hip_enc o) hip_nok hip_reads). Qed.

  Theorem ipseckey_roundtrip_gen : forall vs b A P,
    ipseckey_nok vs -> hand_encode_rdata HIpseckey o vs = Ok b ->
    hand_decode_rdata HIpseckey o (A ++ b ++ P) (length A) (length b) = Ok vs.
  Proof. exact (framed_roundtrip (fun W => ipseckey_dec W o) ipseckey_valid (ipseckey_enc o) ipseckey_nok ipseckey_reads). Qed.

  Theorem amtrelay_roundtrip_gen : forall vs b A P,
    amtrelay_nok vs -> hand_encode_rdata HAmtrelay o vs = Ok b ->
    hand_decode_rdata HAmtrelay o (A ++ b ++ P) (length A) (length b) = Ok vs.
  Proof. exact (framed_roundtrip (fun W => amtrelay_dec W o) amtrelay_valid (amtrelay_enc o) amtrelay_nok amtrelay_reads). Qed.

  Theorem svcb_roundtrip_gen : forall prio target ps b A P,
    NOK true target -> (prio <> 0 \/ ps = []) ->
    hand_encode_rdata HSvcb o [VS (VI prio); VS (VN target); VL ps] = Ok b ->
    hand_decode_rdata HSvcb o (A ++ b ++ P) (length A) (length b) = Ok [VS (VI prio); VS (VN target); VL ps].
  Proof.
    intros prio target ps b A P Hn Ha.
    exact (framed_roundtrip (fun W => svcb_dec W o) svcb_valid (svcb_enc o) svcb_good svcb_reads
             [VS (VI prio); VS (VN target); VL ps] b A P (conj Hn Ha)).
  Qed.
End HandOrigin.

(* an absolute origin *)
Theorem hip_roundtrip_origin_thm : forall o vs b A P,
  is_absolute o = true -> hip_nok (nok_origin o) vs ->
  hand_encode_rdata HHip (Some o) vs = Ok b ->
  hand_decode_rdata HHip (Some o) (A ++ b ++ P) (length A) (length b) = Ok vs.
Proof. intros o vs b A P Ho. apply hip_roundtrip_gen. apply hname_origin. exact Ho. Qed.

Theorem ipseckey_roundtrip_origin_thm : forall o vs b A P,
  is_absolute o = true -> ipseckey_nok (nok_origin o) vs ->
  hand_encode_rdata HIpseckey (Some o) vs = Ok b ->
  hand_decode_rdata HIpseckey (Some o) (A ++ b ++ P) (length A) (length b) = Ok vs.
Proof. intros o vs b A P Ho. apply ipseckey_roundtrip_gen. apply hname_origin. exact Ho. Qed.

Theorem amtrelay_roundtrip_origin_thm : forall o vs b A P,
  is_absolute o = true -> amtrelay_nok (nok_origin o) vs ->
  hand_encode_rdata HAmtrelay (Some o) vs = Ok b ->
  hand_decode_rdata HAmtrelay (Some o) (A ++ b ++ P) (length A) (length b) = Ok vs.
Proof. intros o vs b A P Ho. apply amtrelay_roundtrip_gen. apply hname_origin. exact Ho. Qed.

Theorem svcb_roundtrip_origin_thm : forall o prio target ps b A P,
  is_absolute o = true -> nok_origin o true target -> (prio <> 0 \/ ps = []) ->
  hand_encode_rdata HSvcb (Some o) [VS (VI prio); VS (VN target); VL ps] = Ok b ->
  hand_decode_rdata HSvcb (Some o) (A ++ b ++ P) (length A) (length b) = Ok [VS (VI prio); VS (VN target); VL ps].
Proof. intros o prio target ps b A P Ho. apply svcb_roundtrip_gen. apply hname_origin. exact Ho. Qed.

(* APL, LOC and OPT contain no origin-relative name (REPORTCHANNEL is read with get_name() without
   origin): their codecs do not depend on the origin at all, so the theorems stated for `None`
   hold for every origin *)
Theorem hand_origin_irrelevant_thm : forall h o wire cur rdlen vs,
  (h = HApl \/ h = HLoc \/ h = HOpt) ->
  hand_decode_rdata h o wire cur rdlen = hand_decode_rdata h None wire cur rdlen /\
  hand_encode_rdata h o vs = hand_encode_rdata h None vs.
Proof. intros h o wire cur rdlen vs [->|[->| ->]]; split; reflexivity. Qed.
