(* C04, text side: name text, TTLs, $GENERATE ranges, token unescaping and Tokenizer.get end in a
   value or in the library's syntax-error family; each of them terminates (structural recursion or
   proved fuel). *)
From DV Require Import Base.Prelude Model.NameM Model.ParserM Model.UntrustedM Proofs.NameValid Proofs.UntrustedEnds.
From DV Require Model.TokM.
Open Scope Z_scope.

(* dns.name.from_text *)
Definition isNameTextErr (e : Z) : Prop :=
  e = eBadEscape \/ e = eEmptyLabel \/ e = eLabelTooLong \/ e = eNameTooLong.

Lemma ft_loop_family : forall t L lab esc ed tot, ends any isNameTextErr none (ft_loop t L lab esc ed tot).
Proof.
  induction t as [|c t IH]; intros L lab esc ed tot; cbn [ft_loop]; [exact Logic.I|].
  destruct esc.
  - destruct ed as [|ed'].
    + destruct (is_digit c); apply IH.
    + destruct (negb (is_digit c)); [left; reflexivity|].
      destruct ed' as [|[|?]]; try apply IH.
      destruct (tot * 10 + (c - 48) >? 255); [left; reflexivity|apply IH].
  - destruct (c =? 46).
    + destruct lab; [right; left; reflexivity|apply IH].
    + destruct (c =? 92); apply IH.
Qed.

Lemma mk_name_family ls :
  match mk_name ls with
  | Ok n => n = ls /\ Valid n
  | Lib e => e = eLabelTooLong \/ e = eNameTooLong \/ e = eEmptyLabel
  | Internal _ => False
  end.
Proof.
  destruct (mk_name ls) as [n|e|e] eqn:E.
  - apply mk_name_ok in E. destruct E as [-> V]. auto.
  - unfold mk_name in E. destruct (validate_labels ls) as [[]|e'|e'] eqn:V; inversion E; subst.
    apply validate_error in V. destruct V as [(-> & _) | [(-> & _) | (-> & _)]]; auto.
  - exfalso. eapply mk_name_never_internal; eauto.
Qed.

Lemma mk_name_text_family ls : ends Valid isNameTextErr none (mk_name ls).
Proof.
  eapply ends_mono; [apply mk_name_family| | |auto]; unfold isNameTextErr; intuition.
Qed.

Lemma relativize_family n o : ends any isNameTextErr none (relativize n o).
Proof. unfold relativize. destruct (is_subdomain n o); [eapply ends_any, mk_name_text_family|exact Logic.I]. Qed.

Lemma choose_relativity_family n o rel : ends any isNameTextErr none (choose_relativity n o rel).
Proof.
  unfold choose_relativity. destruct o as [[|x o']|]; try exact Logic.I.
  destruct rel; [apply relativize_family|].
  unfold derelativize. destruct (negb (is_absolute n)) eqn:E; [|exact Logic.I].
  unfold concatenate. apply negb_true_iff in E. rewrite E. eapply ends_any, mk_name_text_family.
Qed.

(* the test `text == '.'` *)
Lemma dot_P {A} (P : A -> Prop) (a b : A) l : P a -> P b -> P (match l with [46] => a | _ => b end).
Proof.
  intros Ha Hb. destruct l as [|[|p|p] l]; auto. do 6 (destruct p as [p|p|]; auto). destruct l; auto.
Qed.

(* every character string: a valid name or one of the four documented errors *)
Theorem name_from_text_family text origin :
  match from_text text origin with
  | Ok n => Valid n
  | Lib e => isNameTextErr e
  | Internal _ => False
  end.
Proof.
  unfold from_text. apply dot_P; [apply mk_name_text_family|].
  apply ends_seq; [|intros; apply mk_name_text_family].
  destruct (match text with [64] => [] | _ => text end) as [|c t]; [exact Logic.I|].
  pose proof (ft_loop_family (c :: t) [] [] false 0%nat 0) as F.
  destruct (ft_loop (c :: t) [] [] false 0 0) as [[[labels lab] []]|e|e]; try exact F. left; reflexivity.
Qed.

(* dns.ttl.from_text *)
Section Ttl.
  Variable dval : Z -> option Z.

  Lemma ttl_loop_family : forall s total current nd,
    ends any (fun e => e = eBadTTL) none (ttl_loop dval s total current nd).
  Proof.
    induction s as [|c s IH]; intros total current nd; cbn [ttl_loop].
    - destruct (negb (current =? 0)); [reflexivity|exact Logic.I].
    - destruct (dval c); [apply IH|].
      destruct nd; [reflexivity|].
      repeat match goal with |- context [if ?b then _ else _] => destruct b; [apply IH|] end.
      reflexivity.
  Qed.

  (* any string, any digit classifier: a TTL inside [0, 2^32-1] or BadTTL *)
  Theorem ttl_from_text_family s :
    match ttl_from_text dval s with
    | Ok v => 0 <= v <= MAX_TTL
    | Lib e => e = eBadTTL
    | Internal _ => False
    end.
  Proof.
    unfold ttl_from_text. apply ends_seq.
    - destruct s as [|c s']; [reflexivity|].
      destruct (forallb (is_dec dval) (c :: s')); [|apply ttl_loop_family].
      destruct (zlen (c :: s') >? MAX_STR_DIGITS); [reflexivity|exact Logic.I].
    - intros v. destruct ((v <? 0) || (v >? MAX_TTL)) eqn:E; [reflexivity|].
      apply orb_false_iff in E as [E1 E2]. cbn [ends]. lia.
  Qed.
End Ttl.

(* dns.grange.from_text and its guard in zonefile._generate_line *)
(* called directly it does leak Python exceptions ... *)
Theorem grange_unguarded_refuted :
  grange_from_text dval_run [49; 45] = Internal iValueError           (* "1-"  : int('') *)
  /\ grange_from_text dval_run [49; 47; 50] = Internal iAssertGr       (* "1/2" : assert start >= 0 *)
  /\ grange_from_text dval_run [49; 45; 50; 47; 48] = Internal iAssertGr.  (* "1-2/0": assert step >= 1 *)
Proof. repeat split; vm_compute; reflexivity. Qed.

(* ... which is why _generate_line wraps it in `except Exception: raise SyntaxError` *)
Theorem generate_range_closes dval s :
  match generate_range dval s with
  | Ok (start, stop, step) => True
  | Lib e => e = eSyntax
  | Internal _ => False
  end.
Proof.
  unfold generate_range. destruct (grange_from_text dval s) as [[[a b] c]|e|e]; auto.
Qed.

(* zonefile.Reader.read: the directive test *)
Theorem line_kind_total t d : exists k, line_kind t d = Ok k /\ 0 <= k <= 4.
Proof.
  unfold line_kind.
  repeat match goal with |- context [if ?b then _ else _] => destruct b; [eexists; split; [reflexivity|lia]|] end.
  destruct (TokM.tvalue t) as [|c ?]; [eexists; split; [reflexivity|lia]|].
  destruct ((c =? 36) && d); eexists; (split; [reflexivity|lia]).
Qed.

(* the code of the snapshot (token.value[0]) failed on the empty quoted string *)
Theorem line_kind_prefix_refuted :
  line_kind_prefix (TokM.mkTok TokM.tQUOTED [] false None) true = Internal iIndexError.
Proof. reflexivity. Qed.

(* Token.unescape / Token.unescape_to_bytes *)
Definition isEscErr (e : Z) : Prop := e = TokM.eUnexpectedEnd \/ e = TokM.eSyntax.

(* str.encode() fails on lone surrogates only *)
Definition no_surrogate (c : Z) : Prop := ~ (55296 <= c <= 57343).

Lemma utf8_cp_family c :
  ends any none (fun e => e = TokM.iUnicodeEncode /\ ~ no_surrogate c) (TokM.utf8_cp c).
Proof.
  unfold TokM.utf8_cp, no_surrogate.
  destruct (c <? 128); [exact Logic.I|]. destruct (c <? 2048); [exact Logic.I|].
  destruct ((55296 <=? c) && (c <=? 57343)) eqn:E; [split; [reflexivity|lia]|].
  destruct (c <? 65536); exact Logic.I.
Qed.

(* The decoders with the digit test the code really uses (str.isdecimal(), int(c)), for EVERY
   classifier dval: an escape takes one, two or four characters, so the induction is on the length. *)
Section Esc.
  Variable dval : Z -> option Z.

  Lemma ue_loop_g_family : forall v acc, ends any isEscErr none (ue_loop_g dval v acc).
  Proof.
    induction v as [v IH] using (induction_ltof1 _ (@length Z)); unfold ltof in IH. intros acc.
    destruct v as [|c r]; [exact Logic.I|]. cbn [ue_loop_g].
    destruct (c =? 92); [|apply IH; cbn; lia].
    destruct r as [|c1 r1]; [left; reflexivity|].
    destruct (dval c1); [|apply IH; cbn; lia].
    destruct r1 as [|c2 [|c3 r3]]; try (left; reflexivity).
    destruct (dval c2); [|right; reflexivity]. destruct (dval c3); [|right; reflexivity]. cbv zeta.
    destruct (_ >? 255); [right; reflexivity|apply IH; cbn; lia].
  Qed.

  Lemma ub_loop_g_family : forall v acc,
    ends any isEscErr (fun e => e = TokM.iUnicodeEncode /\ ~ Forall no_surrogate v) (ub_loop_g dval v acc).
  Proof.
    induction v as [v IH] using (induction_ltof1 _ (@length Z)); unfold ltof in IH. intros acc.
    destruct v as [|c r]; [exact Logic.I|]. cbn [ub_loop_g].
    (* the rest r' of the string; a code point c0 encoded on the way *)
    assert (Tl : forall r' acc', (length r' < length (c :: r))%nat -> (Forall no_surrogate (c :: r) -> Forall no_surrogate r') ->
                 ends any isEscErr (fun e => e = TokM.iUnicodeEncode /\ ~ Forall no_surrogate (c :: r)) (ub_loop_g dval r' acc')).
    { intros r' acc' Hr Hs. eapply ends_mono; [apply IH, Hr|auto|auto|]. intros e [E N]. auto. }
    assert (Cp : forall c0 r' acc', (length r' < length (c :: r))%nat ->
                 (Forall no_surrogate (c :: r) -> no_surrogate c0 /\ Forall no_surrogate r') ->
                 ends any isEscErr (fun e => e = TokM.iUnicodeEncode /\ ~ Forall no_surrogate (c :: r))
                      match TokM.utf8_cp c0 with
                      | Ok b => ub_loop_g dval r' (rev b ++ acc') | Lib e => Lib e | Internal e => Internal e
                      end).
    { intros c0 r' acc' Hr Hs. pose proof (utf8_cp_family c0) as C.
      destruct (TokM.utf8_cp c0); [apply Tl; [exact Hr|apply Hs]|contradiction|].
      destruct C as [E N]. split; [exact E|]. intros F. apply N, Hs, F. }
    destruct (c =? 92).
    - destruct r as [|c1 r1]; [left; reflexivity|].
      destruct (dval c1).
      + destruct r1 as [|c2 [|c3 r3]]; try (left; reflexivity).
        destruct (dval c2); [|right; reflexivity]. destruct (dval c3); [|right; reflexivity]. cbv zeta.
        destruct (_ >? 255); [right; reflexivity|]. apply Tl; [cbn; lia|].
        intros F. exact (Forall_inv_tail (Forall_inv_tail (Forall_inv_tail (Forall_inv_tail F)))).
      + apply Cp; [cbn; lia|]. intros F. apply Forall_inv_tail in F. split; [exact (Forall_inv F)|exact (Forall_inv_tail F)].
    - apply Cp; [cbn; lia|]. intros F. split; [exact (Forall_inv F)|exact (Forall_inv_tail F)].
  Qed.
End Esc.

(* with the ASCII classifier these are the decoders of the shared model TokM *)
Lemma ue_ascii_agrees : forall v acc, ue_loop_g dval_ascii v acc = TokM.ue_loop v acc.
Proof.
  induction v as [v IH] using (induction_ltof1 _ (@length Z)); unfold ltof in IH. intros acc.
  destruct v as [|c r]; [reflexivity|]. cbn [ue_loop_g TokM.ue_loop].
  destruct (c =? 92); [|apply IH; cbn; lia].
  destruct r as [|c1 r1]; [reflexivity|]. unfold dval_ascii.
  destruct (TokM.is_decimal c1); [|apply IH; cbn; lia].
  destruct r1 as [|c2 [|c3 r3]]; try reflexivity.
  destruct (TokM.is_decimal c2), (TokM.is_decimal c3); cbn [andb negb]; try reflexivity.
  cbv zeta. destruct (_ >? 255); [reflexivity|apply IH; cbn; lia].
Qed.

Lemma ub_ascii_agrees : forall v acc, ub_loop_g dval_ascii v acc = TokM.ub_loop v acc.
Proof.
  induction v as [v IH] using (induction_ltof1 _ (@length Z)); unfold ltof in IH. intros acc.
  destruct v as [|c r]; [reflexivity|]. cbn [ub_loop_g TokM.ub_loop].
  destruct (c =? 92); [|destruct (TokM.utf8_cp c); try reflexivity; apply IH; cbn; lia].
  destruct r as [|c1 r1]; [reflexivity|]. unfold dval_ascii.
  destruct (TokM.is_decimal c1); [|destruct (TokM.utf8_cp c1); try reflexivity; apply IH; cbn; lia].
  destruct r1 as [|c2 [|c3 r3]]; try reflexivity.
  destruct (TokM.is_decimal c2), (TokM.is_decimal c3); cbn [andb negb]; try reflexivity.
  cbv zeta. destruct (_ >? 255); [reflexivity|apply IH; cbn; lia].
Qed.

Theorem unescape_family t :
  match TokM.unescape t with
  | Ok _ => True
  | Lib e => isEscErr e
  | Internal _ => False
  end.
Proof.
  unfold TokM.unescape. destruct (negb (TokM.tesc t)); [exact Logic.I|].
  apply ends_seq; [|intros; exact Logic.I]. rewrite <- ue_ascii_agrees. apply ue_loop_g_family.
Qed.

Theorem unescape_to_bytes_family t :
  Forall no_surrogate (TokM.tvalue t) ->
  match TokM.unescape_to_bytes t with
  | Ok _ => True
  | Lib e => isEscErr e
  | Internal _ => False
  end.
Proof.
  intros Hs. unfold TokM.unescape_to_bytes. apply ends_seq; [|intros; exact Logic.I].
  rewrite <- ub_ascii_agrees. eapply ends_mono; [apply ub_loop_g_family|auto|auto|].
  intros e [_ N]. exact (N Hs).
Qed.

(* a lone surrogate does reach UnicodeEncodeError when the token method is called directly;
   dns.rdata.from_text runs it under ExceptionWrapper(SyntaxError) *)
Theorem unescape_to_bytes_surrogate_refuted :
  TokM.unescape_to_bytes (TokM.mkTok TokM.tQUOTED [55296] false None) = Internal TokM.iUnicodeEncode.
Proof. reflexivity. Qed.

Theorem unescape_to_bytes_wrapped t :
  match wrap_res eSyntax is_syntax (TokM.unescape_to_bytes t) with
  | Ok _ => True
  | Lib e => is_syntax e = true
  | Internal _ => False
  end.
Proof.
  unfold wrap_res. destruct (TokM.unescape_to_bytes t) as [a|e|e]; auto.
  destruct (is_syntax e) eqn:E; auto.
Qed.

(* Tokenizer.get *)
Lemma skip_ws_count ml : forall i,
  (length (snd (TokM.skip_ws ml i)) + fst (TokM.skip_ws ml i) = length i)%nat.
Proof.
  induction i as [|c r IH]; cbn; [reflexivity|].
  destruct ((c =? 32) || (c =? 9)); [|destruct ((c =? 10) && TokM.ml_on ml); [|cbn; lia]];
    destruct (TokM.skip_ws ml r); cbn in *; lia.
Qed.

Lemma skip_ws_len ml i : (length (snd (TokM.skip_ws ml i)) <= length i)%nat.
Proof. pose proof (skip_ws_count ml i). lia. Qed.

Lemma read_comment_len : forall i acc, (length (snd (TokM.read_comment i acc)) <= length i)%nat.
Proof.
  induction i as [|c r IH]; intros acc; cbn; [lia|].
  destruct (c =? 10); cbn; [lia|]. specialize (IH (c :: acc)). lia.
Qed.

Definition isTokErr (e : Z) : Prop := e = TokM.eSyntax \/ e = TokM.eUnexpectedEnd.

(* 1 while no character of the token has been read *)
Definition at_start (tok : list Z) (tt : Z) : nat :=
  if TokM.is_nil tok && negb (tt =? TokM.tQUOTED) then 1%nat else 0%nat.

(* the main loop: the fuel S(length input) is never exhausted; it hands back no more input than
   it got, and at the start of a token it consumes the first character *)
Lemma get_loop_spec : forall fuel wc i ml q tok tt he, (length i < fuel)%nat ->
  ends (fun '(_, (rest, _, _)) => (length rest <= length i - at_start tok tt)%nat) isTokErr none
       (TokM.get_loop fuel wc i ml q tok tt he).
Proof.
  induction fuel as [|f IH]; intros wc i ml q tok tt he Hl; [lia|].
  (* another turn of the loop, on j *)
  assert (W : forall j n, (length j <= n)%nat -> (length j < f)%nat -> forall wc ml q tok tt he,
              ends (fun '(_, (rest, _, _)) => (length rest <= n)%nat) isTokErr none (TokM.get_loop f wc j ml q tok tt he)).
  { intros j n Hj Hn wc' ml' q' tok' tt' he'. eapply ends_mono; [apply IH; lia| |auto|auto].
    intros [t [[rest a] b]]. cbn. lia. }
  (* leaving it with X unread *)
  assert (Fin : forall tok tt (X : list Z) n (ml' : nat) (q' : bool), (length X <= n)%nat ->
              ends (fun '(_, (rest, _, _)) => (length rest <= n)%nat) isTokErr none
                   (do t <- TokM.finish tok tt he ml; Ok (t, (X, ml', q')))).
  { intros tok' tt' X n ml' q' HX. unfold TokM.finish.
    destruct (_ && _); [destruct ml; [exact HX|left; reflexivity]|exact HX]. }
  cbn [TokM.get_loop]. unfold at_start. destruct i as [|c r].
  - destruct q; [right; reflexivity|]. destruct (_ && _); apply Fin; cbn; lia.
  - cbn [length] in *. destruct (TokM.is_delim q c).
    + destruct (TokM.is_nil tok && negb (tt =? TokM.tQUOTED)); [|apply Fin; cbn; lia].
      destruct (c =? 40). { pose proof (skip_ws_len (S ml) r). apply W; lia. }
      destruct (c =? 41). { destruct ml as [|ml']; [left; reflexivity|]. pose proof (skip_ws_len ml' r). apply W; lia. }
      destruct (c =? 34). { pose proof (skip_ws_len ml r). destruct (negb q); apply W; lia. }
      destruct (c =? 10); [cbn; lia|].
      destruct (c =? 59); [|apply Fin; lia].
      pose proof (read_comment_len r []) as Hc.
      destruct (TokM.read_comment r []) as [cm rest]. cbn [snd] in Hc.
      destruct wc; [cbn; lia|].
      destruct rest as [|x rest']; (destruct ml; [cbn in *; lia|]); [left; reflexivity|].
      pose proof (skip_ws_len (S ml) rest'). cbn [length] in Hc. apply W; lia.
    + destruct (q && (c =? 10)); [left; reflexivity|].
      assert (length r <= S (length r) - (if TokM.is_nil tok && negb (tt =? TokM.tQUOTED)%Z then 1 else 0))%nat
        by (destruct (_ && _); lia).
      destruct (c =? 92); [|apply W; lia].
      destruct r as [|c2 r2]; [right; reflexivity|].
      destruct ((c2 =? 10) && negb q); [right; reflexivity|]. apply W; cbn in *; lia.
Qed.

(* the token returned at end of input is EOF *)
Lemma get_loop_nil fuel wc ml q he t rest ml' q' :
  TokM.get_loop fuel wc [] ml q [] TokM.tIDENT he = Ok (t, (rest, ml', q')) -> TokM.ttype t = TokM.tEOF /\ rest = [].
Proof.
  destruct fuel as [|f]; cbn [TokM.get_loop]; [discriminate|].
  destruct q; [discriminate|]. unfold TokM.finish. cbn.
  destruct ml; cbn [bind]; [|discriminate]. intros H; inversion H; subst. split; reflexivity.
Qed.

(* a fresh token costs input, unless it is EOF *)
Lemma get_fresh_spec st wl wc :
  ends (fun '(t, st') => TokM.ungot st' = None /\
          (length (TokM.inp st') + (if (TokM.ttype t =? TokM.tEOF)%Z then 0 else 1) <= length (TokM.inp st))%nat)
       isTokErr none (TokM.get_fresh st wl wc).
Proof.
  unfold TokM.get_fresh.
  pose proof (skip_ws_count (TokM.multiline st) (TokM.inp st)) as Hc.
  destruct (TokM.skip_ws (TokM.multiline st) (TokM.inp st)) as [skipped i1]. cbn [fst snd] in Hc.
  destruct (wl && negb (Nat.eqb skipped 0)) eqn:E.
  - apply andb_true_iff in E as [_ E]. apply negb_true_iff, Nat.eqb_neq in E. cbn. split; [reflexivity|lia].
  - pose proof (get_loop_spec (TokM.get_fuel i1) wc i1 (TokM.multiline st) (TokM.quoting st) [] TokM.tIDENT false
                  (Nat.lt_succ_diag_r _)) as H.
    destruct (TokM.get_loop _ wc i1 _ _ [] TokM.tIDENT false) as [[t [[i2 ml] q]]|e|e] eqn:G; try exact H.
    cbn in H |- *. split; [reflexivity|]. destruct i1 as [|c r].
    + apply get_loop_nil in G as [-> ->]. cbn. lia.
    + destruct (TokM.ttype t =? TokM.tEOF); cbn in *; lia.
Qed.

(* Tokenizer.get, any state, any flags: a token, SyntaxError or UnexpectedEnd; terminates *)
Theorem tokenizer_get_family st wl wc :
  match TokM.get st wl wc with
  | Ok _ => True
  | Lib e => isTokErr e
  | Internal _ => False
  end.
Proof.
  assert (F : forall st, ends any isTokErr none (TokM.get_fresh st wl wc)) by (intros; eapply ends_any, get_fresh_spec).
  unfold TokM.get. destruct (TokM.ungot st) as [ut|]; [|apply F].
  destruct (TokM.ttype ut =? TokM.tWS); [destruct wl; [exact Logic.I|apply F]|].
  destruct (TokM.ttype ut =? TokM.tCOMMENT); [|exact Logic.I].
  destruct wc; [exact Logic.I|apply F].
Qed.
