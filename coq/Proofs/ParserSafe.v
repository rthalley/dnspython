(* Safety of the Parser model: every primitive of dns/wirebase.py, started in a well-formed state
   on a string of octets, ends in a value or in FormError - never in a Python-level exception -
   and keeps the state well formed; name decoding terminates (the fuel of the model is never
   exhausted) and fails only with FormError / BadPointer / BadLabelType / NameTooLong. *)
From DV Require Import Base.Prelude Model.NameM Model.ParserM Proofs.NameValid.
Open Scope Z_scope.

Definition bytes_ok (l : list Z) : Prop := Forall (fun b => 0 <= b < 256) l.

Lemma bytes_ok_firstn l n : bytes_ok l -> bytes_ok (firstn n l).
Proof. intros H. rewrite <- (firstn_skipn n l) in H. apply Forall_app in H. apply H. Qed.

Lemma bytes_ok_skipn l n : bytes_ok l -> bytes_ok (skipn n l).
Proof. intros H. rewrite <- (firstn_skipn n l) in H. apply Forall_app in H. apply H. Qed.

Lemma be_decode_acc l : forall a, 0 <= a -> bytes_ok l -> 0 <= fold_left (fun a b => a * 256 + b) l a.
Proof.
  induction l as [|b l IH]; intros a Ha Hb; cbn; auto.
  inversion Hb; subst. apply IH; auto. nia.
Qed.

Lemma be_decode_nonneg l : bytes_ok l -> 0 <= be_decode l.
Proof. intros. apply be_decode_acc; auto; lia. Qed.

Lemma calcsize_nonneg ws : Forall (fun w => 0 <= w) ws -> 0 <= calcsize ws.
Proof. induction 1; cbn; [lia|]. unfold calcsize in *. cbn. lia. Qed.

Lemma unpack_ok : forall ws data,
  Forall (fun w => 0 <= w) ws -> bytes_ok data -> zlen data = calcsize ws ->
  exists vs, unpack ws data = Some vs /\ length vs = length ws /\ Forall (fun v => 0 <= v) vs.
Proof.
  induction ws as [|w ws IH]; intros data Hws Hb Hl.
  - cbn in Hl. destruct data; [|unfold zlen in Hl; cbn in Hl; lia]. exists []. cbn. auto.
  - inversion Hws as [|? ? Hw Hws']; subst. cbn [unpack].
    assert (Hc : calcsize (w :: ws) = w + calcsize ws) by reflexivity.
    pose proof (calcsize_nonneg ws Hws') as Hn.
    destruct (zlen data <? w) eqn:E; [lia|].
    destruct (IH (skipn (Z.to_nat w) data)) as (vs & Hu & Hlen & Hnn); auto.
    + apply bytes_ok_skipn; auto.
    + unfold zlen in *. rewrite skipn_length. lia.
    + rewrite Hu. eexists. split; [reflexivity|]. split; [cbn; lia|].
      constructor; auto. apply be_decode_nonneg. apply bytes_ok_firstn; auto.
Qed.

(* Name.relativize of a valid name cannot fail: a prefix of a valid name is valid *)
Lemma relativize_valid_ok n o : Valid n -> exists m, relativize n o = Ok m.
Proof.
  intros V. unfold relativize. destruct (is_subdomain n o); [|eauto].
  assert (V' : Valid (drop_last (length o) n)).
  { unfold drop_last. apply (Valid_prefix _ (skipn (length n - length o) n)).
    rewrite firstn_skipn. exact V. }
  eexists. apply mk_name_valid. exact V'.
Qed.

Section Safe.
  Variable wire : list Z.
  Hypothesis Hwire : bytes_ok wire.

  (* well-formed parser state above a low-water mark lo: offsets inside the message, current and
     furthest not below lo.  (lo = 0 for a fresh parser; lo = 12 once a message header is read.) *)
  Definition wfl (lo : Z) (s : pstate) : Prop :=
    lo <= pcur s <= zlen wire /\ 0 <= pend s <= zlen wire /\ lo <= pfur s <= zlen wire.
  Definition wf := wfl 0.

  Lemma wfl_weaken lo lo' s : lo' <= lo -> wfl lo s -> wfl lo' s.
  Proof. unfold wfl. intros. lia. Qed.

  (* the outcome of a computation started in s: Val with postcondition Q, or a library error
     satisfying P; never a Python-level exception.  In both outcomes the state stays well formed,
     keeps its end, and furthest has not decreased *)
  Definition good {A} (lo : Z) (P : Z -> Prop) (s : pstate) (r : out A * pstate) (Q : A -> pstate -> Prop) : Prop :=
    match r with
    | (Val a, s') => wfl lo s' /\ pend s' = pend s /\ pfur s <= pfur s' /\ Q a s'
    | (Exn (XLib e), s') => P e /\ wfl lo s' /\ pend s' = pend s /\ pfur s <= pfur s'
    | (Exn (XInt _), _) => False
    end.

  Lemma good_weaken {A} lo (P P' : Z -> Prop) s (r : out A * pstate) (Q Q' : A -> pstate -> Prop) :
    good lo P s r Q -> (forall e, P e -> P' e) ->
    (forall a s', wfl lo s' -> pend s' = pend s -> pfur s <= pfur s' -> Q a s' -> Q' a s') ->
    good lo P' s r Q'.
  Proof.
    unfold good. destruct r as [[a|[e|e]] s']; intros H HP HQ; auto.
    - destruct H as (? & ? & ? & ?). auto.
    - destruct H as (? & ? & ? & ?). auto.
  Qed.

  Lemma good_err {A lo} {P P' : Z -> Prop} {s} {r : out A * pstate} {Q} :
    (forall e, P e -> P' e) -> good lo P s r Q -> good lo P' s r Q.
  Proof. intros HP H. eapply good_weaken; [exact H|exact HP|auto]. Qed.

  Lemma good_bind {A B} lo P s (m : M A) (k : A -> M B) Q1 (Q2 : B -> pstate -> Prop) :
    good lo P s (m s) Q1 ->
    (forall a s1, wfl lo s1 -> pend s1 = pend s -> pfur s <= pfur s1 -> Q1 a s1 -> good lo P s1 (k a s1) Q2) ->
    good lo P s (mbind m k s) Q2.
  Proof.
    unfold mbind, good. destruct (m s) as [[a|[e|e]] s1]; intros H K; auto.
    destruct H as (W & E & F & Q). specialize (K a s1 W E F Q).
    destruct (k a s1) as [[b|[e|e]] s2]; auto.
    - destruct K as (? & ? & ? & ?). split; [auto|split; [congruence|split; [lia|auto]]].
    - destruct K as (? & ? & ? & ?). split; [auto|split; [auto|split; [congruence|lia]]].
  Qed.

  Lemma good_ret {A} lo P s (a : A) (Q : A -> pstate -> Prop) : wfl lo s -> Q a s -> good lo P s (ret a s) Q.
  Proof. unfold good, ret. intros W HQ. split; [exact W|split; [reflexivity|split; [lia|exact HQ]]]. Qed.

  Lemma good_raise {A} lo (P : Z -> Prop) s e (Q : A -> pstate -> Prop) : wfl lo s -> P e -> good lo P s (raise (XLib e) s) Q.
  Proof. unfold good, raise. intros W HP. split; [exact HP|split; [exact W|split; [reflexivity|lia]]]. Qed.

  Definition isForm (e : Z) : Prop := e = eFormError.

  Lemma slice_len a n : 0 <= a -> 0 <= n -> a + n <= zlen wire -> zlen (slice wire a n) = n.
  Proof. intros Ha Hn H. unfold slice, zlen in *. rewrite firstn_length, skipn_length. lia. Qed.

  Lemma slice_bytes a n : bytes_ok (slice wire a n).
  Proof. unfold slice. apply bytes_ok_firstn, bytes_ok_skipn, Hwire. Qed.

  (* Parser.get_bytes *)
  Lemma good_get_bytes lo size s :
    0 <= lo -> wfl lo s -> 0 <= size ->
    good lo isForm s (get_bytes wire size s)
         (fun l s' => zlen l = size /\ bytes_ok l /\ pcur s' = pcur s + size /\ pcur s' <= pend s'
                      /\ pfur s' = Z.max (pfur s) (pcur s')).
  Proof.
    intros Hlo (Hc & He & Hf) Hs. unfold get_bytes, remaining.
    destruct (size <? 0) eqn:E1; [lia|].
    destruct (size >? pend s - pcur s) eqn:E2.
    - cbn. unfold isForm, wfl. repeat split; auto; lia.
    - cbn. unfold wfl; cbn. repeat split; try lia.
      + apply slice_len; lia.
      + apply slice_bytes.
  Qed.

  (* Parser.get_struct *)
  Lemma good_get_struct lo ws s :
    0 <= lo -> wfl lo s -> Forall (fun w => 0 <= w) ws ->
    good lo isForm s (get_struct wire ws s)
         (fun vs s' => length vs = length ws /\ Forall (fun v => 0 <= v) vs
                       /\ pcur s' = pcur s + calcsize ws /\ pcur s' <= pend s'
                       /\ pfur s' = Z.max (pfur s) (pcur s')).
  Proof.
    intros Hlo W Hws. unfold get_struct.
    eapply good_bind; [apply good_get_bytes; auto; apply calcsize_nonneg; auto|].
    intros data s1 W1 E1 F1 (Hl & Hb & Hc & Hle & Hfu).
    destruct (unpack_ok ws data Hws Hb Hl) as (vs & Hu & Hlen & Hnn). rewrite Hu.
    apply good_ret; [assumption|]. repeat split; auto.
  Qed.

  Lemma good_get_uint lo w s :
    0 <= lo -> wfl lo s -> 0 <= w ->
    good lo isForm s (get_uint wire w s)
         (fun v s' => 0 <= v /\ pcur s' = pcur s + w /\ pcur s' <= pend s'
                      /\ pfur s' = Z.max (pfur s) (pcur s')).
  Proof.
    intros Hlo W Hw. unfold get_uint.
    eapply good_bind; [apply good_get_struct; auto|].
    intros vs s1 W1 E1 F1 (Hl & Hnn & Hc & Hle & Hfu).
    destruct vs as [|v [|? ?]]; cbn in Hl; try discriminate.
    apply good_ret; [assumption|]. inversion Hnn; subst. unfold calcsize in Hc; cbn in Hc.
    repeat split; auto; lia.
  Qed.

  Lemma good_get_uint48 lo s :
    0 <= lo -> wfl lo s ->
    good lo isForm s (get_uint48 wire s)
         (fun v s' => 0 <= v /\ pcur s' = pcur s + 6 /\ pcur s' <= pend s' /\ pfur s' = Z.max (pfur s) (pcur s')).
  Proof.
    intros Hlo W. unfold get_uint48.
    eapply good_bind; [apply good_get_bytes; auto; lia|].
    intros d s1 W1 E1 F1 (Hl & Hb & Hc & Hle & Hfu). apply good_ret; [assumption|].
    repeat split; auto. apply be_decode_nonneg; auto.
  Qed.

  (* Parser.get_counted_bytes *)
  Lemma good_get_counted lo k s :
    0 <= lo -> wfl lo s -> 0 <= k ->
    good lo isForm s (get_counted_bytes wire k s)
         (fun l s' => bytes_ok l /\ pcur s + k <= pcur s' /\ pcur s' <= pend s' /\ pfur s' = Z.max (pfur s) (pcur s')).
  Proof.
    intros Hlo W Hk. unfold get_counted_bytes.
    eapply good_bind; [apply good_get_bytes; auto|].
    intros lb s1 W1 E1 F1 (Hl & Hb & Hc & Hle & Hfu).
    eapply good_weaken; [apply good_get_bytes; auto; apply be_decode_nonneg; auto| auto |].
    intros l s2 W2 E2 F2 (Hl2 & Hb2 & Hc2 & Hle2 & Hfu2).
    pose proof (be_decode_nonneg lb Hb). repeat split; auto; lia.
  Qed.

  (* Parser.get_remaining needs current <= end (remaining() >= 0) *)
  Lemma good_get_remaining lo s :
    0 <= lo -> wfl lo s -> pcur s <= pend s ->
    good lo isForm s (get_remaining wire s)
         (fun l s' => bytes_ok l /\ zlen l = pend s - pcur s /\ pcur s' = pend s' /\ pfur s' = Z.max (pfur s) (pcur s')
                      /\ pcur s <= pcur s').
  Proof.
    intros Hlo W Hle. unfold get_remaining.
    eapply good_weaken; [apply good_get_bytes; auto; unfold remaining; lia| auto |].
    intros l s' W' E' F' (Hl & Hb & Hc & Hle' & Hfu). unfold remaining in *. repeat split; auto; lia.
  Qed.

  (* Parser.seek: stays above the low-water mark only if the target is *)
  Lemma good_seek lo w s :
    wfl lo s -> (0 <= w -> lo <= w) ->
    good lo isForm s (seek w s) (fun _ s' => pcur s' = w /\ 0 <= w <= pend s' /\ pfur s' = pfur s).
  Proof.
    intros (Hc & He & Hf) Hw. unfold seek.
    destruct ((w <? 0) || (w >? pend s)) eqn:E.
    - cbn. unfold isForm, wfl. repeat split; auto; lia.
    - apply orb_false_iff in E as [E1 E2]. cbn. unfold wfl; cbn. repeat split; auto; lia.
  Qed.

  (* Parser.restrict_to *)
  Lemma good_restrict_to {A} lo (P : Z -> Prop) size (body : M A) s (Q : A -> pstate -> Prop) :
    0 <= lo -> wfl lo s -> 0 <= size -> P eFormError ->
    (forall s0, wfl lo s0 -> pend s0 = pcur s + size -> pcur s0 = pcur s -> pfur s0 = pfur s ->
                good lo P s0 (body s0) Q) ->
    good lo P s (restrict_to size body s)
         (fun a s' => exists s1, Q a s1 /\ s' = set_end s1 (pend s) /\ pcur s1 = pend s1 /\ pend s1 = pcur s + size
                                 /\ pcur s + size <= pend s).
  Proof.
    intros Hlo W Hs HP Hb. pose proof W as (Hc & He & Hf). unfold restrict_to, remaining.
    destruct (size <? 0) eqn:E1; [lia|].
    destruct (size >? pend s - pcur s) eqn:E2.
    - cbn. unfold wfl. repeat split; auto; lia.
    - assert (W0 : wfl lo (set_end s (pcur s + size))) by (unfold wfl, set_end; cbn; repeat split; lia).
      specialize (Hb _ W0 eq_refl eq_refl eq_refl).
      destruct (body (set_end s (pcur s + size))) as [[a|[e|e]] s1]; cbn in Hb |- *.
      + destruct Hb as ((Hc1 & He1 & Hf1) & E & F & Qa). cbn in E, F.
        destruct (pcur s1 =? pend s1) eqn:E3; cbn.
        * unfold wfl; cbn. repeat split; auto; try lia. exists s1. repeat split; auto; lia.
        * unfold wfl; cbn. repeat split; auto; lia.
      + destruct Hb as (Pe & (Hc1 & He1 & Hf1) & E & F). cbn in E, F. unfold wfl; cbn. repeat split; auto; lia.
      + contradiction.
  Qed.

  (* Parser.restore_furthest: the body may wander below the low-water mark (compression
     pointers); `finally: current = furthest` brings the parser back above it *)
  Lemma good_restore_furthest {A} lo (P : Z -> Prop) (body : M A) s (Q : A -> pstate -> Prop) :
    lo <= pfur s ->
    good 0 P s (body s) Q ->
    good lo P s (restore_furthest body s) (fun a s' => exists s1, Q a s1 /\ s' = set_cur s1 (pfur s1)).
  Proof.
    intros Hlo. unfold restore_furthest, good. destruct (body s) as [[a|[e|e]] s1]; auto.
    - intros ((Hc & He & Hf) & E & F & Qa). unfold wfl; cbn. repeat split; auto; try lia. exists s1; auto.
    - intros (Pe & (Hc & He & Hf) & E & F). unfold wfl; cbn. repeat split; auto; lia.
  Qed.

  Definition isNameWireErr (e : Z) : Prop := e = eFormError \/ e = eBadPointer \/ e = eBadLabelType.

  Definition short_label (l : label) : Prop := 0 < zlen l < 64.

  Lemma isForm_name e : isForm e -> isNameWireErr e.
  Proof. unfold isForm, isNameWireErr. auto. Qed.

  (* the loop: terminates within the fuel, produces short non-empty labels followed by the root *)
  Lemma nm_loop_good : forall fuel count biggest acc s,
    wf s -> 0 <= count -> 0 <= biggest -> pcur s <= pend s -> Forall short_label acc ->
    biggest * (pend s + 1) + (pend s - pcur s) < Z.of_nat fuel ->
    good 0 isNameWireErr s (nm_loop wire fuel count biggest acc s)
         (fun ls s' => exists body, ls = body ++ [[]] /\ Forall short_label body
                       /\ (pfur s <= pend s -> pfur s' <= pend s')).
  Proof.
    induction fuel as [|f IH]; intros count biggest acc s W Hcnt Hbig Hle Hacc Hm.
    - exfalso. destruct W as (? & ? & ?). cbn in Hm. nia.
    - cbn [nm_loop].
      destruct (count =? 0) eqn:E0.
      { apply good_ret; auto. exists (rev acc). split; [cbn; reflexivity|].
        split; [apply Forall_rev; auto|]. lia. }
      destruct (count <? 64) eqn:E1.
      { (* ordinary label *)
        eapply good_bind.
        { apply (good_err isForm_name), good_get_bytes; auto; lia. }
        intros l s1 W1 P1 F1 (Hl & Hb & Hc & Hle1 & Hfu).
        eapply good_bind.
        { apply (good_err isForm_name), good_get_uint; auto; lia. }
        intros c s2 W2 P2 F2 (Hc0 & Hc2 & Hle2 & Hfu2).
        eapply good_weaken; [apply IH; auto| auto | ].
        - constructor; auto. unfold short_label. lia.
        - rewrite P2, P1. lia.
        - intros ls s' _ E' _ (body & -> & Hb' & Hg'). exists body. repeat split; auto; lia. }
      destruct (count >=? 192) eqn:E2.
      2:{ apply good_raise; auto. unfold isNameWireErr; auto. }
      (* compression pointer *)
      eapply good_bind.
      { apply (good_err isForm_name), good_get_uint; auto; lia. }
      intros lo s1 W1 P1 F1 (Hlo & Hc1 & Hle1 & Hfu1).
      assert (Hland : 0 <= Z.land count 63) by (apply Z.land_nonneg; left; lia).
      destruct (Z.land count 63 * 256 + lo >=? biggest) eqn:E3.
      { apply good_raise; auto. unfold isNameWireErr; auto. }
      eapply good_bind.
      { apply (good_err isForm_name), good_seek; auto. }
      intros [] s2 W2 P2 F2 (Hc2 & Hr2 & Hfu2).
      eapply good_bind.
      { apply (good_err isForm_name), good_get_uint; auto; lia. }
      intros c s3 W3 P3 F3 (Hc0 & Hc3 & Hle3 & Hfu3).
      eapply good_weaken; [apply IH; auto| auto | ]; try lia.
      + rewrite P3, P2, P1 in *. nia.
      + intros ls s' _ E' _ (body & -> & Hb' & Hg'). exists body. repeat split; auto; lia.
  Qed.

  Lemma nm_fuel_enough s :
    wf s -> pcur s + 1 <= pend s ->
    pcur s * (pend s + 1) + (pend s - (pcur s + 1)) < Z.of_nat (nm_fuel s).
  Proof.
    intros (Hc & He & Hf) Hle. unfold nm_fuel. rewrite !Nat2Z.inj_succ, Z2Nat.id by nia. nia.
  Qed.

  Definition isNameErr (e : Z) : Prop := isNameWireErr e \/ e = eNameTooLong.

  Lemma wire_labels_name body :
    Forall short_label body ->
    mk_name (body ++ [[]]) = Ok (body ++ [[]]) \/ mk_name (body ++ [[]]) = Lib eNameTooLong.
  Proof.
    intros Hb. unfold mk_name.
    destruct (validate_labels (body ++ [[]])) as [[]| e | e] eqn:E; auto.
    - right. apply validate_error in E.
      destruct E as [(-> & Hn) | [(-> & _) | (-> & _ & _ & Hn)]]; auto; exfalso; apply Hn.
      + apply Forall_app. split.
        * eapply Forall_impl; [|exact Hb]. unfold short_label. intros; lia.
        * constructor; auto. cbn. lia.
      + rewrite removelast_last. eapply Forall_impl; [|exact Hb].
        unfold short_label. intros l Hl ->. cbn in Hl. lia.
    - exfalso. eapply validate_never_internal; eauto.
  Qed.

  (* dns.name.from_wire_parser: always terminates; a valid name or one of four library errors;
     in every outcome the parser ends at furthest, which has moved forward past lo *)
  Lemma good_from_wire_parser lo s :
    0 <= lo -> wfl lo s ->
    good lo isNameErr s (from_wire_parser wire s)
         (fun n s' => Valid n /\ pcur s' = pfur s' /\ pcur s < pcur s' /\ (pfur s <= pend s -> pcur s' <= pend s')).
  Proof.
    intros Hlo W. unfold from_wire_parser.
    assert (W0 : wf s) by (eapply wfl_weaken; eauto).
    eapply good_bind.
    - apply good_restore_furthest; [destruct W as (? & ? & ?); lia|].
      eapply good_bind.
      + apply (good_err (fun e He => or_introl (isForm_name e He))), good_get_uint; auto; lia.
      + intros c s1 W1 P1 F1 (Hc0 & Hc1 & Hle1 & Hfu1).
        eapply good_weaken; [apply (nm_loop_good (nm_fuel s) c (pcur s) [] s1); auto| intros e He; left; exact He | ].
        * destruct W0 as (? & ? & ?); lia.
        * pose proof (nm_fuel_enough s W0) as Hf. rewrite P1, Hc1. apply Hf. lia.
        * intros ls s' _ E' F' (body & -> & Hb & Hg).
          instantiate (1 := fun ls s' => exists body, ls = body ++ [[]] /\ Forall short_label body /\ pcur s + 1 <= pfur s'
                                                      /\ (pfur s <= pend s -> pfur s' <= pend s')).
          cbn. exists body. repeat split; auto; lia.
    - intros ls s1 W1 P1 F1 (s0 & (body & -> & Hb & Hf & Hg) & ->).
      destruct (wire_labels_name body Hb) as [E|E]; unfold label in *; rewrite E; cbn [lift_res].
      + apply good_ret; [assumption|]. split; [apply mk_name_ok in E; tauto|]. cbn in *. repeat split; auto; lia.
      + apply good_raise; [assumption|]. right. reflexivity.
  Qed.

  (* dns.wire.Parser.get_name(origin) *)
  Lemma good_get_name lo origin s :
    0 <= lo -> wfl lo s ->
    good lo isNameErr s (get_name wire origin s)
         (fun n s' => pcur s' = pfur s' /\ pcur s < pcur s' /\ (pfur s <= pend s -> pcur s' <= pend s')).
  Proof.
    intros Hlo W. unfold get_name.
    eapply good_bind; [apply good_from_wire_parser; auto|].
    intros n s1 W1 P1 F1 (V & Hc & Hlt & Hg).
    destruct origin as [[|x o]|]; try (apply good_ret; auto).
    destruct (relativize_valid_ok n (x :: o) V) as [m ->]. apply good_ret; auto.
  Qed.
End Safe.
