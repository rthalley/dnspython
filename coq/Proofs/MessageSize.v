(* C08: the invariant SInv kept through the stages of Message.to_wire (start, section loops, overflow, finish);
   from it the size bound and that table offsets stay inside the message; the exact rollback of one record set. *)
From DV Require Import Base.Prelude Model.NameM Model.MessageM.
From DV Require Import Proofs.ListFacts Proofs.NameOrder Proofs.NameValid Proofs.NameRel Proofs.NameWire Proofs.NameCompress.
From DV Require Import Proofs.MessageName Proofs.MessageRender.
Open Scope Z_scope.

(* no key of the table is the root name *)
Definition NoRootKey (t : ctable) : Prop := Forall (fun kv => 1 < zlen (fst kv)) t.

(* what holds of the renderer state all along Message.to_wire; eff is the effective limit *)
Definition SInv (eff : Z) (r : rst) : Prop :=
  12 <= zlen (out r) /\ zlen (out r) <= Z.max 12 (maxsz r) /\ TblBelow r /\ NoRootKey (tbl r) /\
  maxsz r + reserved r = eff /\ 0 <= reserved r.

Lemma tracked_SInv E sec n eff r b r' :
  ext_em E -> SInv eff r -> tracked E sec n r = Ok (b, r') ->
  SInv eff r' /\ (b = false -> zlen (out r') <= maxsz r').
Proof.
  intros X (I1 & I2 & I3 & IK & I4 & I5) H.
  destruct (tracked_spec E sec n r b r' X I3 H) as (_ & em & new & HE & F & [(-> & Hfit & ->)|(-> & Hbig & ->)]).
  - pose proof (zlen_nonneg em). pose proof (TblBelow_step r em new I3 F) as TB'.
    unfold SInv, TblBelow. cbn [out tbl maxsz reserved inc_count set_out set_rsec].
    rewrite zlen_app in *. split; [|intros _; lia].
    split; [lia|]. split; [lia|]. split; [exact TB'|]. split; [|split; [exact I4|exact I5]].
    apply Forall_app. split; [exact IK|]. eapply Forall_impl; [|exact F]. cbn beta. intros kv (_ & Hk). exact Hk.
  - unfold SInv, TblBelow. cbn [out tbl maxsz reserved set_rsec]. split; [auto 10|discriminate].
Qed.

Lemma tracks_SInv eff : forall l r b r',
  Forall ext_step l -> SInv eff r -> tracks l r = Ok (b, r') -> SInv eff r'.
Proof.
  induction l as [|s l IH]; intros r b r' X I H.
  - injection H as <- <-. exact I.
  - inversion X as [|? ? X1 X']; subst. cbn [tracks] in H. apply bind_ok in H. destruct H as ([b1 r1] & H1 & H).
    destruct (tracked_SInv _ _ _ _ _ _ _ X1 I H1) as (I' & _). cbn [fst snd] in H. destruct b1.
    + injection H as <- <-. exact I'.
    + exact (IH _ _ _ X' I' H).
Qed.

Lemma eff_limit_range ms rp : 512 <= eff_limit ms rp <= 65535.
Proof.
  unfold eff_limit.
  set (m := if ms =? 0 then if rp =? 0 then 65535 else rp else ms).
  destruct (Z.ltb_spec m 512); [lia|]. destruct (Z.gtb_spec m 65535); lia.
Qed.

Lemma start_SInv m e pad tr r2 : start m e pad = Ok (tr, r2) -> SInv e r2.
Proof.
  intros H. apply start_iff in H. destruct H as (_ & Htr & Hle & ->).
  pose proof (compute_opt_reserve_nonneg m pad).
  unfold SInv, TblBelow, NoRootKey. cbn [out tbl maxsz reserved]. change (zlen (repeat 0 12)) with 12.
  repeat split; try lia; constructor.
Qed.

Lemma zlen_skipn {A} (l : list A) n : (n <= length l)%nat -> zlen (skipn n l) = zlen l - Z.of_nat n.
Proof. intros H. unfold zlen. rewrite skipn_length. lia. Qed.

Lemma write_header_spec id r r' :
  12 <= zlen (out r) -> write_header id r = Ok r' ->
  zlen (out r') = zlen (out r) /\ tbl r' = tbl r /\ maxsz r' = maxsz r /\ reserved r' = reserved r
  /\ padded r' = padded r /\ skipn 12 (out r') = skipn 12 (out r) /\ rsec r' = rsec r /\ rflags r' = rflags r
  /\ cq r' = cq r /\ can r' = can r /\ cau r' = cau r /\ cad r' = cad r.
Proof.
  intros H12 H. apply write_header_iff in H. destruct H as (_ & ->).
  cbn [out tbl maxsz reserved padded set_out rsec rflags cq can cau cad].
  repeat split; try reflexivity.
  rewrite !app_assoc, zlen_app, zlen_skipn by (unfold zlen in H12; lia).
  match goal with |- zlen ?h + _ = _ => change (zlen h) with 12 end. lia.
Qed.

Lemma write_header_SInv id eff r r' :
  SInv eff r -> write_header id r = Ok r' -> SInv eff r' /\ keeps r r' /\ zlen (out r') = zlen (out r).
Proof.
  intros (K1 & K2 & K3 & KK & K4 & K5) H. destruct (write_header_spec _ _ _ K1 H) as (A & B & C & D & P & _ & _ & F & _).
  unfold SInv, keeps, TblBelow. rewrite A, B, C, D, P, F. repeat split; assumption || lia.
Qed.

(* Renderer.add_opt: the padding option is appended, then the record is written like any record set *)
Lemma add_opt_tracked og oo pad os ts r :
  add_opt og oo pad os ts r =
  do rs <- opt_rrset (if pad =? 0 then oo else
                        mkOpt (oflags oo) (opayload oo)
                              (oopts oo ++ [(12, let rem := (zlen (out r) + os + ts) mod pad in
                                                 if rem =? 0 then [] else repeat 0 (Z.to_nat (pad - rem)))]));
  tracked (rrset_em rs og true) 3 (rrset_count rs) (if pad =? 0 then r else set_padded r).
Proof.
  unfold add_opt. destruct (pad =? 0); cbv zeta;
    (destruct (opt_rrset _) as [rs| |]; cbn [bind]; [apply add_rrset_tracked|reflexivity|reflexivity]).
Qed.

Lemma add_opt_SInv o opt pad os ts eff r b r' :
  SInv eff r -> add_opt o opt pad os ts r = Ok (b, r') ->
  SInv eff r' /\ (b = false -> zlen (out r') <= maxsz r') /\ maxsz r' = maxsz r /\ rflags r' = rflags r.
Proof.
  intros I H. rewrite add_opt_tracked in H. apply bind_ok in H. destruct H as (rs & _ & H).
  assert (I' : SInv eff (if pad =? 0 then r else set_padded r)) by (destruct (pad =? 0); exact I).
  destruct (tracked_SInv _ _ _ _ _ _ _ (ext_rrset_em _ _ _) I' H) as (A & B).
  destruct (tracked_keeps _ _ _ _ _ _ H) as (K1 & _ & _ & K4 & _). destruct (pad =? 0); auto.
Qed.

Lemma write_tsig_eq o kn rd r :
  write_tsig o kn rd r =
    do br <- tracked (rr_em kn tTSIG cANY 0 rd o None (negb (padded r)) false) 3 1 r;
    if fst br then Ok br
    else do c <- pack16 (cad (snd br));
         Ok (false, set_out (snd br) (patch16 (out (snd br)) 10 (cad (snd br))) (tbl (snd br))).
Proof.
  unfold write_tsig, tracked.
  destruct (set_section 3 r) as [r1| |]; cbn [bind]; try reflexivity.
  rewrite rr_to_wire_em. unfold run_em.
  destruct (rr_em kn tTSIG cANY 0 rd o None (negb (padded r)) false (zlen (out r1)) (tbl r1)) as [[e1 t1]| |];
    cbn [bind fst snd]; try reflexivity.
  destruct (track_end _ _) as [big r2]. destruct big; reflexivity.
Qed.

Lemma zlen_patch16 f pos v : 0 <= pos -> pos + 2 <= zlen f -> zlen (patch16 f pos v) = zlen f.
Proof.
  intros H0 H. unfold patch16. rewrite !zlen_app. unfold zlen in *.
  rewrite firstn_length, skipn_length. cbn [length MessageM.u16]. lia.
Qed.

Lemma write_tsig_SInv o kn rd eff r b r' :
  SInv eff r -> write_tsig o kn rd r = Ok (b, r') ->
  SInv eff r' /\ (b = false -> zlen (out r') <= maxsz r') /\ maxsz r' = maxsz r.
Proof.
  intros I H. rewrite write_tsig_eq in H. apply bind_ok in H. destruct H as ([b1 r1] & H1 & H).
  destruct (tracked_SInv _ _ _ _ _ _ _ (ext_rr_em _ _ _ _ _ _ _ _ _) I H1) as (I' & B).
  destruct (tracked_keeps _ _ _ _ _ _ H1) as (M & _).
  cbn [fst snd] in H. destruct b1.
  - inversion H; subst. auto.
  - apply bind_ok in H. destruct H as (c & _ & H). inversion H; subst.
    destruct I' as (J1 & J2 & J3 & JK & J4 & J5).
    assert (Hz : zlen (patch16 (out r1) 10 (cad r1)) = zlen (out r1)) by (apply zlen_patch16; lia).
    unfold SInv, TblBelow. cbn [out tbl maxsz reserved set_out]. rewrite Hz.
    split; [auto 10|]. split; [intros _; apply B; reflexivity|exact M].
Qed.

Lemma overflow_SInv eff prefer br r3 : SInv eff (snd br) -> overflow prefer br = Ok r3 -> SInv eff r3.
Proof.
  unfold overflow. intros I H. destruct (fst br); [|injection H as <-; exact I].
  destruct prefer; [|discriminate]. injection H as <-. destruct (rsec (snd br) <? 3); exact I.
Qed.

Lemma release_SInv eff r : SInv eff r -> SInv eff (release_reserved r) /\ maxsz (release_reserved r) = eff.
Proof.
  intros (K1 & K2 & K3 & KK & K4 & K5). unfold release_reserved, SInv, TblBelow.
  cbn [out tbl maxsz reserved set_limits]. repeat split; try lia; assumption.
Qed.

Lemma raise_if_big_ok br r : raise_if_big br = Ok r <-> br = (false, r).
Proof.
  destruct br as [[|] s]; unfold raise_if_big; cbn [fst snd]; split; intros H; try discriminate; injection H as <-; reflexivity.
Qed.

(* the tail of Message.to_wire stage by stage: release, OPT record, header, TSIG record, header again *)
Lemma finish_iff m o pad ores tr r3 r :
  finish m o pad ores tr r3 = Ok r <->
  exists r5 r6,
    match mopt m with
    | Some oo => add_opt o oo pad ores tr (release_reserved r3) = Ok (false, r5)
    | None => r5 = release_reserved r3
    end /\
    write_header (mid m) r5 = Ok r6 /\
    match mtsig m with
    | Some (kn, rd) => exists r7, write_tsig o kn rd r6 = Ok (false, r7) /\ write_header (mid m) r7 = Ok r
    | None => r = r6
    end.
Proof.
  unfold finish. split.
  - intros H. apply bind_ok in H. destruct H as (r5 & R5 & H). apply bind_ok in H. destruct H as (r6 & R6 & H).
    exists r5, r6. split; [|split; [exact R6|]].
    + destruct (mopt m); [|injection R5 as <-; reflexivity].
      apply bind_ok in R5. destruct R5 as (br & A & R5). apply raise_if_big_ok in R5. subst br. exact A.
    + destruct (mtsig m) as [[kn rd]|]; [|injection H as <-; reflexivity].
      apply bind_ok in H. destruct H as (br & A & H). apply bind_ok in H. destruct H as (r7 & R7 & H).
      apply raise_if_big_ok in R7. subst br. exists r7. split; [exact A|exact H].
  - intros (r5 & r6 & A & B & C).
    assert (E : match mopt m with
                | Some oo => do br <- add_opt o oo pad ores tr (release_reserved r3); raise_if_big br
                | None => Ok (release_reserved r3)
                end = Ok r5) by (destruct (mopt m); [rewrite A|subst r5]; reflexivity).
    rewrite E. cbn [bind]. rewrite B. cbn [bind]. destruct (mtsig m) as [[kn rd]|]; [|subst r; reflexivity].
    destruct C as (r7 & C1 & C2). rewrite C1. exact C2.
Qed.

(* after release_reserved the limit is the effective limit again, and what follows stays within it *)
Lemma finish_SInv m o pad ores tr eff r3 r :
  12 <= eff -> SInv eff r3 -> finish m o pad ores tr r3 = Ok r -> SInv eff r /\ zlen (out r) <= eff.
Proof.
  intros He I H. apply finish_iff in H. destruct H as (r5 & r6 & R5 & R6 & H).
  destruct (release_SInv _ _ I) as (J4 & M4).
  assert (J5 : SInv eff r5 /\ maxsz r5 = eff /\ zlen (out r5) <= eff).
  { destruct (mopt m) as [oo|].
    - destruct (add_opt_SInv _ _ _ _ _ _ _ _ _ J4 R5) as (A & B & C & _).
      split; [exact A|]. split; [congruence|]. rewrite <- M4, <- C. apply B. reflexivity.
    - subst r5. split; [exact J4|]. split; [exact M4|]. destruct J4 as (K1 & K2 & _). lia. }
  destruct J5 as (J5 & M5 & Z5).
  destruct (write_header_SInv _ _ _ _ J5 R6) as (J6 & (M6 & _) & Z6).
  destruct (mtsig m) as [[kn rd]|]; [|subst r; split; [exact J6|lia]].
  destruct H as (r7 & A7 & H).
  destruct (write_tsig_SInv _ _ _ _ _ _ _ J6 A7) as (A & B & C).
  destruct (write_header_SInv _ _ _ _ A H) as (J8 & _ & Z8).
  split; [exact J8|]. specialize (B eq_refl). lia.
Qed.

(* the stages of a successful Message.to_wire: every step keeps the output within max(12, max_size) *)
Lemma to_wire_st_stages m o ms rp prefer pad r :
  to_wire_st m o ms rp prefer pad = Ok r ->
  exists tr r2 b4 s4 r3,
    start m (eff_limit ms rp) pad = Ok (tr, r2) /\ tracks (body_steps o m) r2 = Ok (b4, s4) /\
    overflow prefer (b4, s4) = Ok r3 /\ finish m o pad (compute_opt_reserve m pad) tr r3 = Ok r /\
    SInv (eff_limit ms rp) r2 /\ SInv (eff_limit ms rp) s4 /\ SInv (eff_limit ms rp) r3.
Proof.
  intros H. rewrite to_wire_st_eq in H.
  apply bind_ok in H. destruct H as ([tr r2] & ST & H). cbn [fst snd] in H.
  apply bind_ok in H. destruct H as ([b4 s4] & S4 & H). apply bind_ok in H. destruct H as (r3 & R3 & FIN).
  pose proof (start_SInv _ _ _ _ _ ST) as I2.
  pose proof (tracks_SInv _ _ _ _ _ (secs_steps_ext _ _ _ _ _) I2 S4) as I4.
  exists tr, r2, b4, s4, r3. auto 10 using (overflow_SInv _ prefer (b4, s4) r3 I4 R3).
Qed.

Lemma to_wire_stages m o ms rp prefer pad w :
  to_wire m o ms rp prefer pad = Ok w ->
  exists r tr r2 b4 s4 r3, w = out r /\
    start m (eff_limit ms rp) pad = Ok (tr, r2) /\ tracks (body_steps o m) r2 = Ok (b4, s4) /\
    overflow prefer (b4, s4) = Ok r3 /\ finish m o pad (compute_opt_reserve m pad) tr r3 = Ok r /\
    SInv (eff_limit ms rp) r2 /\ SInv (eff_limit ms rp) s4 /\ SInv (eff_limit ms rp) r3.
Proof.
  unfold to_wire. intros H. apply bind_ok in H. destruct H as (r & R & H). injection H as <-.
  destruct (to_wire_st_stages _ _ _ _ _ _ _ R) as (tr & r2 & b4 & s4 & r3 & X). exists r, tr, r2, b4, s4, r3. auto.
Qed.

Theorem to_wire_st_SInv m origin ms rp prefer pad r :
  to_wire_st m origin ms rp prefer pad = Ok r ->
  SInv (eff_limit ms rp) r /\ zlen (out r) <= eff_limit ms rp.
Proof.
  intros H. pose proof (eff_limit_range ms rp) as He.
  destruct (to_wire_st_stages _ _ _ _ _ _ _ H) as (tr & r2 & b4 & s4 & r3 & _ & _ & _ & FIN & _ & _ & I3).
  assert (H12 : 12 <= eff_limit ms rp) by lia. exact (finish_SInv _ _ _ _ _ _ _ _ H12 I3 FIN).
Qed.

Theorem size_bound_lemma m origin ms rp prefer pad w :
  to_wire m origin ms rp prefer pad = Ok w -> zlen w <= eff_limit ms rp.
Proof.
  unfold to_wire. intros H. apply bind_ok in H. destruct H as (r & R & H). inversion H; subst.
  apply (to_wire_st_SInv _ _ _ _ _ _ _ R).
Qed.

(* no compression-table offset lies at or beyond the end of the rendered message *)
Theorem table_inside_lemma m origin ms rp prefer pad r :
  to_wire_st m origin ms rp prefer pad = Ok r -> Forall (fun kv => snd kv < zlen (out r)) (tbl r).
Proof. intros H. destruct (to_wire_st_SInv _ _ _ _ _ _ _ H) as ((_ & _ & T & _) & _). exact T. Qed.

Lemma counts_sum_inc r sec n :
  0 <= sec <= 3 ->
  cq (inc_count r sec n) + can (inc_count r sec n) + cau (inc_count r sec n) + cad (inc_count r sec n)
  = cq r + can r + cau r + cad r + n.
Proof.
  intros Hs. cbn [cq can cau cad inc_count].
  assert (sec = 0 \/ sec = 1 \/ sec = 2 \/ sec = 3) as [->|[->|[->| ->]]] by lia; cbn [Z.eqb Pos.eqb]; lia.
Qed.

(* a record set that does not fit is removed whole: output, table and counts are exactly what
   they were before it (no table entry at or beyond the cut); one that fits is present whole *)
Theorem rollback_whole_rrset_lemma origin sec rs r b r' :
  0 <= sec <= 3 -> TblBelow r -> add_rrset origin sec rs r = Ok (b, r') ->
  exists em new,
    rrset_em rs origin true (zlen (out r)) (tbl r) = Ok (em, tbl r ++ new) /\
    if b then
      zlen (out r) + zlen em > maxsz r /\
      out r' = out r /\ tbl r' = tbl r /\ TblBelow r' /\
      (cq r', can r', cau r', cad r') = (cq r, can r, cau r, cad r)
    else
      zlen (out r') <= maxsz r' /\
      out r' = out r ++ em /\ tbl r' = tbl r ++ new /\ TblBelow r' /\
      cq r' + can r' + cau r' + cad r' = cq r + can r + cau r + cad r + rrset_count rs.
Proof.
  intros Hsec TB H. rewrite add_rrset_tracked in H.
  destruct (tracked_spec _ _ _ _ _ _ (ext_rrset_em _ _ _) TB H) as (_ & em & new & HE & F & [(-> & Hfit & ->)|(-> & Hbig & ->)]).
  - exists em, new. split; [exact HE|]. rewrite counts_sum_inc by exact Hsec.
    cbn [out tbl maxsz inc_count set_out set_rsec cq can cau cad].
    split; [rewrite zlen_app; lia|]. split; [reflexivity|]. split; [reflexivity|].
    split; [unfold TblBelow; cbn [out tbl]; apply TblBelow_step; assumption|reflexivity].
  - exists em, new. split; [exact HE|]. cbn [out tbl set_rsec cq can cau cad].
    split; [exact Hbig|]. repeat split. exact TB.
Qed.

(* the statement of C08 size_bound *)
Lemma size_bound_stmt : forall m origin max_size request_payload prefer_truncation pad w,
  to_wire m origin max_size request_payload prefer_truncation pad = Ok w ->
  zlen w <= eff_limit max_size request_payload /\ 512 <= eff_limit max_size request_payload <= 65535.
Proof. intros. split; [eapply size_bound_lemma; eassumption|apply eff_limit_range]. Qed.
