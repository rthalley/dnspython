(* Instances of the schema round trip: names left as they are, and the relativization choices
   (relativized on output and read back relative / absolute; derelativized on output).
   Also: values accepted from text are within the ranges the wire encoder needs. *)
From DV Require Import Base.Prelude Model.NameM Model.TokM Model.RdTextM.
From DV Require Import Proofs.NameValid Proofs.NameOrder Proofs.NameRel Proofs.NameText Proofs.TokEsc Proofs.TokWords
     Proofs.TokShape Proofs.RdTextName Proofs.RdTextTypes Proofs.RdTextLoc Proofs.RdText.
Open Scope Z_scope.

(* no origin on either side: the values come back unchanged *)
Lemma name_path_asis sty c n :
  s_origin sty = None -> p_origin c = None -> p_relativize_to c = None -> name_path sty c n = Ok n.
Proof.
  intros H1 H2 H3. unfold name_path, relto_or_origin. rewrite H1, H2, H3. cbn [choose_relativity bind].
  destruct (is_absolute n); reflexivity.
Qed.

Lemma names_path_asis sty c l : s_origin sty = None -> p_origin c = None -> p_relativize_to c = None ->
  map_res (name_path sty c) l = Ok l.
Proof.
  intros H1 H2 H3. induction l as [|n l IH]; [reflexivity|]. cbn [map_res].
  rewrite name_path_asis by assumption. cbn [bind]. rewrite IH. reflexivity.
Qed.

(* without any origin the names come back as they are; the only values that change are the three LOC sizes, which
   are read back from their two-decimal text (loc_expect) *)
Definition asis_val (f : tfield) (v : tval) : tval :=
  match f, v with
  | FLocRec, VLoc la lo alt sz hp vp => loc_expect la lo alt sz hp vp
  | _, _ => v
  end.

Fixpoint asis_vals (fs : list tfield) (vs : list tval) : list tval :=
  match fs, vs with
  | f :: fs', v :: vs' => asis_val f v :: asis_vals fs' vs'
  | _, _ => []
  end.

Lemma asis_vals_id fs vs : length fs = length vs -> existsb (fun f => match f with FLocRec => true | _ => false end) fs = false ->
  asis_vals fs vs = vs.
Proof.
  revert vs. induction fs as [|f fs IH]; intros [|v vs] Hl He; cbn [length] in Hl; try discriminate; [reflexivity|].
  cbn [existsb] in He. apply orb_false_iff in He as [E1 E2]. cbn [asis_vals]. rewrite IH by (auto; lia).
  destruct f; try discriminate; reflexivity.
Qed.

Lemma expects_asis sty c : s_origin sty = None -> p_origin c = None -> p_relativize_to c = None ->
  forall fs vs, Forall2 val_ok fs vs -> expects sty c fs vs = Ok (asis_vals fs vs).
Proof.
  intros H1 H2 H3. induction 1 as [|f v fs vs Hv _ IH]; [reflexivity|].
  cbn [expects asis_vals]. rewrite IH.
  destruct f, v; cbn [val_ok] in Hv; try contradiction; cbn [expect bind asis_val]; try reflexivity.
  - rewrite name_path_asis by assumption. reflexivity.
  - rewrite names_path_asis by assumption. reflexivity.
  - rewrite name_path_asis by (assumption || reflexivity). reflexivity.
  - destruct gw; try reflexivity. rewrite name_path_asis by assumption. reflexivity.
  - rewrite name_path_asis by assumption. reflexivity.
Qed.

Theorem record_roundtrip_asis sty c fs chk vs text rest fw tw :
  schema_wf fs -> Forall2 val_ok fs vs -> style_ok sty -> line_end rest ->
  s_origin sty = None -> p_origin c = None -> p_relativize_to c = None ->
  record_to_text sty fs vs = Ok text -> chk (asis_vals fs vs) = Ok tt ->
  record_from_text_gen fw tw c fs chk (text ++ rest) = Ok (asis_vals fs vs).
Proof.
  intros. eapply record_roundtrip; eauto. apply expects_asis; assumption.
Qed.

Definition sty_rel (sty : style) (o : name) (rel : bool) : style :=
  mkStyle (Some o) rel (s_hex_chunk sty) (s_hex_sep sty) (s_b64_chunk sty) (s_b64_sep sty) (s_txt_utf8 sty).

Lemma derel_not_abs r o x : derelativize r (x :: o) = Ok (r ++ x :: o) -> is_absolute r = false.
Proof.
  unfold derelativize. destruct (is_absolute r) eqn:E; [|reflexivity]. cbn [negb].
  intros H. inversion H as [H1]. exfalso.
  apply (f_equal (@length _)) in H1. rewrite app_length in H1. cbn [length] in H1. lia.
Qed.

(* relativized on output under origin o, read back with the same origin:
   relativize=True gives exactly relativize n o; relativize=False gives a name ci-equal to n
   (the origin's own spelling replaces the suffix) *)
Theorem name_path_relout sty n x o (rel_in : bool) :
  Valid n -> Valid (x :: o) -> is_absolute (x :: o) = true -> is_subdomain n (x :: o) = true ->
  exists r, relativize n (x :: o) = Ok r /\ ci_equal (r ++ x :: o) n /\
    name_path (sty_rel sty (x :: o) true) (mkPctx (Some (x :: o)) rel_in None) n
    = Ok (if rel_in then r else r ++ x :: o).
Proof.
  intros Vn Vo Ao Sd. destruct (rel_derel n (x :: o) Vn Sd) as (r & R1 & R2 & R3 & R4 & R5).
  exists r. split; [exact R1|]. split; [exact R5|].
  unfold name_path, sty_rel, relto_or_origin. cbn [s_origin s_relativize p_origin p_relativize p_relativize_to].
  cbn [choose_relativity]. rewrite R1. cbn [bind].
  pose proof (derel_not_abs _ _ _ R4) as Ar. rewrite Ar.
  assert (Vro : Valid (r ++ x :: o)).
  { unfold derelativize, concatenate in R4. rewrite Ar in R4. cbn [negb andb] in R4. apply mk_name_ok in R4. tauto. }
  rewrite (mk_name_valid _ Vro). cbn [bind].
  destruct rel_in.
  - assert (Vr : Valid r) by (eapply Valid_prefix; exact Vro).
    destruct (derel_rel r (x :: o) Vr Vo Ar Ao Vro) as [_ E]. exact E.
  - unfold derelativize. rewrite is_absolute_app, Ao. reflexivity.
Qed.

(* a relative name derelativized on output reads back (no origin needed) as the absolute name *)
Theorem name_path_absout sty r x o :
  Valid (r ++ x :: o) -> is_absolute r = false ->
  name_path (sty_rel sty (x :: o) false) (mkPctx None true None) r = Ok (r ++ x :: o).
Proof.
  intros V Ar. unfold name_path, sty_rel, relto_or_origin.
  cbn [s_origin s_relativize p_origin p_relativize p_relativize_to choose_relativity].
  unfold derelativize, concatenate. rewrite Ar. cbn [negb andb]. rewrite (mk_name_valid _ V). cbn [bind].
  destruct (is_absolute (r ++ x :: o)); reflexivity.
Qed.

(* accepted from text => within the wire field ranges *)
Definition val_encodable (f : tfield) (v : tval) : Prop :=
  match f, v with
  | FDec maxv, VInt z => 0 <= z <= maxv
  | FTtl, VInt z => 0 <= z <= MAX_TTL
  | FQStr _ ctormax _, VBytes b => ctormax = 0 \/ zlen b <= ctormax
  | FAlg, VInt z => 0 <= z <= 255
  | FHexTok, VBytes b => zlen b <= 255
  | FTag, VBytes b => zlen b <= 255
  | FB32, VBytes b => zlen b <= 255
  | FEnum k, VInt z => 0 <= z <= enum_max k
  | FIntC maxv, VInt z => 0 <= z <= maxv
  | FSigTime, VInt z => 0 <= z <= 4294967295
  | FOct16, VInt z => 0 <= z <= 65535
  | FQOpt, VBytes b => zlen b <= 255
  | FHexStr, VBytes b => zlen b <= 255
  | FB64Tok maxlen, VBytes b => zlen b <= maxlen
  | FB64RestOpt, VBytes b => zlen b <= 65535
  | FMac, VBytes b => zlen b <= 65535
  | FOther, VBytes b => zlen b <= 65535
  | FGposStr, VBytes b => zlen b <= 255
  | FKeyRec, VKey f p a _ _ => 0 <= f <= 65535 /\ 0 <= p <= 255 /\ 0 <= a <= 255
  | FWksProto, VInt z => 0 <= z <= 255
  | _, _ => True
  end.

(* a successful chain of `do` / `if` steps read backwards: every step succeeded, every guard went the way that does
   not raise; the equations are kept *)
Ltac steps H :=
  repeat match type of H with
         | (do _ <- ?e; _) = Ok _ =>
             let E := fresh "E" in let x := fresh "x" in
             destruct e as [x| |] eqn:E; cbn [bind] in H; try discriminate H;
             try (lazymatch type of x with (_ * _)%type => destruct x as [? ?]; cbn [fst snd] in H end);
             try (steps E; try injection E as <-)
         | (if ?b then _ else _) = Ok _ => let E := fresh "E" in destruct b eqn:E; try discriminate H
         end.

Lemma dec_value_nonneg s : forall a, 0 <= a -> forallb is_decimal s = true -> 0 <= dec_value s a.
Proof.
  induction s as [|x s IHs]; intros a Ha Hs; [exact Ha|]. cbn [forallb] in Hs. apply andb_true_iff in Hs as [Hx Hs].
  cbn [dec_value]. apply IHs; [unfold is_decimal in Hx; lia|exact Hs].
Qed.

Lemma alg_from_text_range t z : alg_from_text t = Ok z -> 0 <= z <= 255.
Proof.
  unfold alg_from_text. destruct (assoc_text (map upper_c t) alg_table) as [v|] eqn:E; intros H.
  - injection H as <-. exact (assoc_text_range _ alg_table _ 0 255 eq_refl E).
  - steps H. injection H as <-. apply andb_true_iff in E0 as [_ Ed]. pose proof (dec_value_nonneg _ 0 ltac:(lia) Ed). lia.
Qed.

Lemma lor_u16 a b : 0 <= a <= 65535 -> 0 <= b <= 65535 -> 0 <= Z.lor a b <= 65535.
Proof.
  intros Ha Hb. split; [apply Z.lor_nonneg; lia|].
  assert (Z.lor a b < 2 ^ 16); [|lia].
  destruct (Z.eq_dec (Z.lor a b) 0) as [->|Hn]; [lia|].
  apply Z.log2_lt_pow2; [assert (0 <= Z.lor a b) by (apply Z.lor_nonneg; lia); lia|].
  rewrite Z.log2_lor by lia.
  assert (La : Z.log2 a < 16) by (destruct (Z.eq_dec a 0) as [->|]; [cbn; lia|apply Z.log2_lt_pow2; lia]).
  assert (Lb : Z.log2 b < 16) by (destruct (Z.eq_dec b 0) as [->|]; [cbn; lia|apply Z.log2_lt_pow2; lia]).
  lia.
Qed.

Lemma or_mnemonics_range ms : forall acc v, 0 <= acc <= 65535 -> or_mnemonics ms acc = Ok v -> 0 <= v <= 65535.
Proof.
  induction ms as [|m ms IH]; intros acc v Ha H; cbn [or_mnemonics] in H; [inversion H; subst; exact Ha|].
  destruct (assoc_text m legacy_flags) as [x|] eqn:E; try discriminate.
  eapply IH; [|exact H]. apply lor_u16; [exact Ha|]. exact (assoc_text_range _ legacy_flags _ 0 65535 eq_refl E).
Qed.

Lemma as_uint_range m t b v : as_uint m t b = Ok v -> 0 <= v <= m.
Proof. unfold as_uint. intros H. steps H. injection H as <-. lia. Qed.

Lemma get_uint_range m st b n st' : get_uint m st b = Ok (n, st') -> 0 <= n <= m.
Proof. unfold get_uint. intros H. steps H. injection H as <- _. eapply as_uint_range; eauto. Qed.

Lemma get_ttl_range st n st' : get_ttl st = Ok (n, st') -> 0 <= n <= MAX_TTL.
Proof.
  unfold get_ttl. intros H. steps H. injection H as <- _. unfold ttl_from_text in E1. steps E1; injection E1 as <-; lia.
Qed.

(* KEY flags and protocol: a number within the field, or mnemonics from a table of such numbers *)
Lemma key_number_range m names t v : (forall s x, names s = Ok x -> 0 <= x <= m) ->
  key_number_or m names t = Ok v -> 0 <= v <= m.
Proof.
  intros Hn. unfold key_number_or. destruct (as_uint m t 10) as [x| |] eqn:Eu; intros H; try discriminate.
  - injection H as <-. eapply as_uint_range; eauto.
  - steps H. eapply Hn; eauto.
Qed.

Theorem parse_field_encodable c f st raw st' v :
  parse_field c f st = Ok (raw, st') -> ctor_field f raw = Ok v -> val_encodable f v.
Proof.
  intros H Hc. destruct f; cbn [parse_field] in H; try (destruct v; exact Logic.I).
  (* where the constructor's own check gives the bound, whatever was read *)
  all: try (destruct raw; cbn [ctor_field] in Hc; unfold enum_ctor in Hc; steps Hc; inversion Hc; subst; cbn [val_encodable];
            solve [exact Logic.I | lia]).
  (* where the reader gives it *)
  - (* FDec *) steps H. inversion H; subst. injection Hc as <-. eapply get_uint_range; eauto.
  - (* FTtl *) steps H. inversion H; subst. injection Hc as <-. eapply get_ttl_range; eauto.
  - (* FAlg *) steps H. inversion H; subst. cbn [ctor_field] in Hc. steps Hc. injection Hc as <-. eapply alg_from_text_range; eauto.
  - (* FOct16 *) steps H. inversion H; subst. injection Hc as <-. apply get_uint_range in E. unfold max16 in E. exact E.
  - (* FMac *) steps H. inversion H; subst. injection Hc as <-. apply get_uint_range in E. cbn [val_encodable]. unfold max16 in E. lia.
  - (* FOther *) steps H; inversion H; subst; injection Hc as <-; cbn [val_encodable].
    + apply get_uint_range in E. unfold max16 in E. lia.
    + unfold zlen. cbn. lia.
  - (* FKeyRec *)
    unfold key_from_text in H. steps H.
    all: inversion H; subst; cbn [ctor_field] in Hc; steps Hc; injection Hc as <-; cbn [val_encodable].
    all: split; [|split; [|eapply alg_from_text_range; eauto]].
    all: try (eapply (key_number_range max16); [|eassumption]; intros s y Hs; eapply or_mnemonics_range; [|exact Hs]; lia).
    all: eapply (key_number_range max8); [|eassumption]; intros s y Hs; cbv beta in Hs; destruct (assoc_text s key_protocols) eqn:Ek; [injection Hs as <-|discriminate];
      exact (assoc_text_range _ key_protocols _ 0 255 eq_refl Ek).
Qed.

(* names accepted from text satisfy the DNS limits (hence to_wire with an origin cannot fail on length) *)
Theorem as_name_valid c t n : as_name c t = Ok n -> Valid n.
Proof.
  unfold as_name. destruct (negb (is_identifier t)); [discriminate|].
  destruct (NameM.from_text (tvalue t) (p_origin c)) as [n0| |] eqn:E; cbn [bind]; try discriminate.
  assert (V0 : Valid n0).
  { unfold NameM.from_text in E. cbv zeta in E.
    set (T := match tvalue t with [64] => [] | _ => tvalue t end) in E.
    destruct (list_eq_dec Z.eq_dec T [46]) as [HT|HT].
    - rewrite HT in E. apply mk_name_ok in E as [-> V]; exact V.
    - rewrite dot_match in E by exact HT.
      match type of E with (do labels <- ?X; _) = _ => destruct X as [ls| |] end; cbn [bind] in E; try discriminate.
      apply mk_name_ok in E as [-> V]; exact V. }
  intros H. unfold choose_relativity in H.
  destruct (relto_or_origin c) as [[|x o]|]; [inversion H; subst; exact V0| |inversion H; subst; exact V0].
  destruct (p_relativize c).
  - unfold relativize in H. destruct (is_subdomain n0 (x :: o)); [apply mk_name_ok in H as [-> V]; exact V|inversion H; subst; exact V0].
  - unfold derelativize in H. destruct (negb (is_absolute n0)); [|inversion H; subst; exact V0].
    unfold concatenate in H. destruct (is_absolute n0 && (0 <? zlen (x :: o))); [discriminate|].
    apply mk_name_ok in H as [-> V]; exact V.
Qed.
