(* C19 - clone isolation on the store-level model: for every history of store operations the
   world invariant holds, and an operation on one tree leaves the value-level abstraction of
   every other tree (original or clone) unchanged. *)
From DV Require Import Base.Prelude Model.BTreeM Model.BTreeStoreM Proofs.BTreeBase Proofs.BTreeWf Proofs.BTreeStore.

(* creators visible from tree k: k itself and every frozen tree created before it *)
Definition ancw (fr : nat -> bool) (k c : nat) : Prop := c = k \/ ((c < k)%nat /\ fr c = true).

Lemma ancw_refl fr a : ancw fr a a.
Proof. now left. Qed.

Lemma ancw_trans fr a b d : ancw fr a b -> ancw fr b d -> ancw fr a d.
Proof. unfold ancw. intros [->|(H1 & H2)] [->|(H3 & H4)]; auto. right. split; [lia|assumption]. Qed.

Definition frw (trees : list sbtree) (c : nat) : bool :=
  match nth_error trees c with Some b => sb_immut b | None => false end.

Definition visw (trees : list sbtree) := vis (ancw (frw trees)).
Definition okw (trees : list sbtree) := store_ok (ancw (frw trees)).

Definition WI (w : sworld) : Prop :=
  okw (sw_trees w) (sw_store w) /\
  forall k b, nth_error (sw_trees w) k = Some b -> sb_cr b = k /\ visw (sw_trees w) (sw_store w) k (sb_root b).

Definition fr_le (fr fr' : nat -> bool) : Prop := forall c, fr c = true -> fr' c = true.

Lemma ancw_mono fr fr' : fr_le fr fr' -> forall a b, ancw fr a b -> ancw fr' a b.
Proof. intros Hle a b [->|(Hlt & Hf)]; [now left|right; auto]. Qed.

Lemma nth_set_nth_other {A} i j (x : A) l : i <> j -> nth_error (set_nth i x l) j = nth_error l j.
Proof. apply nth_set_nth_ne. Qed.

Lemma frw_le_app trees b : fr_le (frw trees) (frw (trees ++ [b])).
Proof.
  intros c Hc. unfold frw in *. destruct (nth_error trees c) eqn:E; [|discriminate].
  rewrite nth_error_app1; [now rewrite E|]. apply nth_error_Some. congruence.
Qed.

Lemma frw_le_set trees i b b' :
  nth_error trees i = Some b -> (sb_immut b = true -> sb_immut b' = true) -> fr_le (frw trees) (frw (set_nth i b' trees)).
Proof.
  intros Hb Him c Hc. unfold frw in *. destruct (Nat.eq_dec i c) as [<-|Hne].
  - rewrite nth_set_nth_eq by (apply nth_error_Some; congruence). rewrite Hb in Hc. auto.
  - now rewrite nth_set_nth_ne.
Qed.

(* a store step by creator c together with a change of the tree table: every tree of the new
   table is a tree of the old one, or has its index as creator and a root visible from it *)
Lemma WI_step w c s' trees' :
  WI w -> G (ancw (frw (sw_trees w))) c (sw_store w) s' -> fr_le (frw (sw_trees w)) (frw trees') ->
  (forall k b, nth_error trees' k = Some b ->
     nth_error (sw_trees w) k = Some b \/ sb_cr b = k /\ visw (sw_trees w) s' k (sb_root b)) ->
  WI (mkSW s' trees').
Proof.
  intros (Hok & Htr) (Hs' & He) Hle Hnew. pose proof (ancw_mono _ _ Hle) as Hanc.
  split; [exact (store_ok_anc_mono _ _ _ Hanc Hs')|]. intros k b Hk. cbn [sw_trees sw_store].
  destruct (Hnew k b Hk) as [Hold|(Hc & Hv)].
  - destruct (Htr k b Hold) as (Hc & Hv). split; [assumption|].
    eapply vis_anc_mono; [exact Hanc|]. eapply vis_ext; eassumption.
  - split; [assumption|]. eapply vis_anc_mono; eassumption.
Qed.

(* what tree k reads lies in nodes visible from k; a creator c that k does not see owns none of them *)
Lemma abs_frame (anc : nat -> nat -> Prop) (anc_trans : forall a b d, anc a b -> anc b d -> anc a d) c s s' k :
  store_ok anc s -> ~ anc k c -> ext c s s' ->
  forall fuel id, vis anc s k id -> abs fuel s' id = abs fuel s id.
Proof.
  intros Hs Hna He. induction fuel as [|f IH]; intros id Hv; [reflexivity|].
  pose proof Hv as (n & Hn & Ha). assert (Hc : s_cr n <> c) by (intros <-; auto).
  rewrite !abs_S, Hn, (proj1 (proj2 He id n Hn) Hc), (abs_kids_ext f s s' (s_kids n)); [reflexivity|].
  eapply Forall_impl; [exact IH|]. exact (vis_kids anc anc_trans s k id n Hs Hv Hn).
Qed.

(* the tree an operation is applied to *)
Definition target (x : sop) : option nat :=
  match x with
  | SNew _ _ => None
  | SIns ti _ _ _ _ => Some (Z.to_nat ti)
  | SDel ti _ _ _ => Some (Z.to_nat ti)
  | SFreeze ti => Some (Z.to_nat ti)
  | SClone _ _ => None
  | SPop ti _ | SPopFirst ti | SClear ti | SSetDefault ti _ _ => Some (Z.to_nat ti)
  end.

(* exec runs primitive operations, all on the tree the operation names *)
Inductive prim_steps (tg : option nat) : sworld -> sworld -> Prop :=
| prim_steps_refl w : prim_steps tg w w
| prim_steps_cons w y o w1 w' : target y = tg -> exec_prim w y = (w1, o) -> prim_steps tg w1 w' -> prim_steps tg w w'.

Lemma prim_steps_one w y w' o : exec_prim w y = (w', o) -> prim_steps (target y) w w'.
Proof. intros H. eapply prim_steps_cons; [reflexivity|exact H|apply prim_steps_refl]. Qed.

Lemma s_clear_steps ti : forall fuel w, prim_steps (Some (Z.to_nat ti)) w (s_clear fuel w ti).
Proof.
  induction fuel as [|f IH]; intros w; cbn [s_clear]; [apply prim_steps_refl|].
  destruct (s_first w ti) as [e|]; [|apply prim_steps_refl].
  destruct (exec_prim w (SDel ti (fst e) None 2)) as (w1 & o1) eqn:E1.
  cbn [fst]. exact (prim_steps_cons _ _ _ _ _ _ eq_refl E1 (IH w1)).
Qed.

Lemma exec_prim_steps w x w' o : exec w x = (w', o) -> prim_steps (target x) w w'.
Proof.
  intros H. destruct x; cbn [exec] in H; try exact (prim_steps_one _ _ _ _ H).
  - destruct (s_lookup w ti k); [exact (prim_steps_one _ _ _ _ H)|inversion H; apply prim_steps_refl].
  - destruct (s_first w ti); [exact (prim_steps_one _ _ _ _ H)|inversion H; apply prim_steps_refl].
  - apply (f_equal fst) in H. cbn [fst] in H. subst w'. apply s_clear_steps.
  - destruct (s_lookup w ti k); [inversion H; apply prim_steps_refl|exact (prim_steps_one _ _ _ _ H)].
Qed.

Definition untouched (tg : option nat) (w w' : sworld) : Prop :=
  forall k bk, tg <> Some k -> nth_error (sw_trees w) k = Some bk ->
    nth_error (sw_trees w') k = Some bk /\
    forall fuel, abs fuel (sw_store w') (sb_root bk) = abs fuel (sw_store w) (sb_root bk).

Lemma isolated_refl tg w : WI w -> WI w /\ untouched tg w w.
Proof. intros HW. split; [assumption|]. intros k bk _ Hk. auto. Qed.

Lemma untouched_trans tg w1 w2 w3 : untouched tg w1 w2 -> untouched tg w2 w3 -> untouched tg w1 w3.
Proof.
  intros U1 U2 k bk Hne Hk. destruct (U1 k bk Hne Hk) as (Hk1 & Ha1). destruct (U2 k bk Hne Hk1) as (Hk2 & Ha2).
  split; [assumption|]. intros f. now rewrite Ha2, Ha1.
Qed.

(* a store step by a creator c that the other trees cannot see *)
Lemma untouched_step tg w c s' trees' :
  WI w -> ext c (sw_store w) s' ->
  (forall k bk, tg <> Some k -> nth_error (sw_trees w) k = Some bk ->
     nth_error trees' k = Some bk /\ ~ ancw (frw (sw_trees w)) k c) ->
  untouched tg w (mkSW s' trees').
Proof.
  intros (Hok & Htr) He Hk' k bk Hne Hk. destruct (Hk' k bk Hne Hk) as (Hk1 & Hna). split; [assumption|].
  intros fuel. exact (abs_frame _ (ancw_trans _) c _ _ k Hok Hna He fuel _ (proj2 (Htr k bk Hk))).
Qed.

(* a tree appended to the table has the next index as creator; no tree of the table sees that
   index, so what the step writes under it changes nothing they read *)
Lemma snoc_isolated tg w s' b :
  WI w -> G (ancw (frw (sw_trees w))) (length (sw_trees w)) (sw_store w) s' ->
  sb_cr b = length (sw_trees w) -> visw (sw_trees w) s' (length (sw_trees w)) (sb_root b) ->
  WI (mkSW s' (sw_trees w ++ [b])) /\ untouched tg w (mkSW s' (sw_trees w ++ [b])).
Proof.
  intros HW HG Hc Hv. split.
  - apply (WI_step w _ _ _ HW HG (frw_le_app _ _)).
    intros k bk Hk. apply nth_snoc_inv in Hk as [(-> & ->)|Hk]; auto.
  - apply (untouched_step _ w _ _ _ HW (proj2 HG)). intros k bk _ Hk.
    assert (k < length (sw_trees w))%nat by (apply nth_error_Some; congruence).
    split; [now rewrite nth_error_app1|]. intros [Heq|(Hlt & _)]; lia.
Qed.

Lemma s_with_tree_inv w ti f w' o :
  s_with_tree w ti f = (w', o) ->
  w' = w \/ exists b, nth_error (sw_trees w) (Z.to_nat ti) = Some b /\ f (Z.to_nat ti) b = (w', o).
Proof. unfold s_with_tree. destruct (nth_error _ _) as [b|]; [eauto|]. intros H; inversion H; auto. Qed.

(* a mutation by the (not frozen) tree i *)
Lemma s_mutate_isolated w i b r w' o :
  WI w -> nth_error (sw_trees w) i = Some b ->
  (forall s' b' o', r = Ok (s', b', o') ->
     sb_immut b = false /\ G (ancw (frw (sw_trees w))) i (sw_store w) s' /\
     visw (sw_trees w) s' i (sb_root b') /\ sb_cr b' = i /\ sb_immut b' = false) ->
  s_mutate w i r = (w', o) -> WI w' /\ untouched (Some i) w w'.
Proof.
  intros HW Hb Hr H. unfold s_mutate in H.
  destruct r as [((s' & b') & o')|e|e]; inversion H; subst; try now apply isolated_refl.
  destruct (Hr _ _ _ eq_refl) as (Him & HG & Hv & Hcr & _). split.
  - apply (WI_step w i); [assumption|assumption|apply (frw_le_set _ _ b); [assumption|congruence]|].
    intros k bk Hk. apply nth_set_nth_inv in Hk as [(-> & ->)|Hk]; auto.
  - apply (untouched_step _ w i); [assumption|apply HG|]. intros k bk Hne Hk.
    split; [rewrite nth_set_nth_ne; congruence|].
    (* the mutating tree is not frozen, hence not visible from any other tree *)
    intros [Heq|(Hlt & Hf)]; [congruence|]. unfold frw in Hf. rewrite Hb in Hf. congruence.
Qed.

Lemma exec_prim_isolated w x w' o :
  WI w -> exec_prim w x = (w', o) ->
  WI w' /\
  forall k bk, target x <> Some k -> nth_error (sw_trees w) k = Some bk ->
    nth_error (sw_trees w') k = Some bk /\
    forall fuel, abs fuel (sw_store w') (sb_root bk) = abs fuel (sw_store w) (sb_root bk).
Proof.
  intros HW H. change (WI w' /\ untouched (target x) w w'). pose proof HW as (Hok & Htr).
  destruct x; cbn [exec_prim target] in *.
  6-9: inversion H; subst; now apply isolated_refl.   (* not primitive: exec_prim does nothing *)
  2-5: apply s_with_tree_inv in H as [->|(b & Eb & H)]; [now apply isolated_refl|]; destruct (Htr _ b Eb) as (Hcb & Hvb).   (* on an existing tree b *)
  - (* new tree *)
    unfold s_new, alloc in H. destruct (Z.to_nat t <? 3)%nat; inversion H; subst; [now apply isolated_refl|].
    destruct (alloc_G _ (length (sw_trees w)) _ (mkS (length (sw_trees w)) true [] []) Hok eq_refl) as (G1 & Ho1); [constructor|].
    apply snoc_isolated; [assumption|exact G1|reflexivity|]. apply own_vis; [apply ancw_refl|exact Ho1].
  - (* insert *)
    apply (s_mutate_isolated _ _ _ _ _ _ HW Eb) in H; [exact H|]. intros s' b' o' Er.
    unbind Er as ((s1 & b1) & oe) eqn:Ei. inversion Er; subst.
    destruct (s_insert_element_ok _ (ancw_refl _) (ancw_trans _) _ _ _ _ _ _ _ _ Hok Hvb Hcb Ei) as (HG & Hown & Hrest).
    exact (conj (s_insert_element_mutable _ _ _ _ _ Ei) (conj HG (conj (own_vis _ (ancw_refl _) _ _ _ Hown) Hrest))).
  - (* delete *)
    apply (s_mutate_isolated _ _ _ _ _ _ HW Eb) in H; [exact H|]. intros s' b' o' Er.
    unbind Er as ((s1 & b1) & od) eqn:Ei. inversion Er; subst.
    exact (conj (s_delete_mutable _ _ _ _ _ Ei)
                (s_delete_ok _ (ancw_refl _) (ancw_trans _) _ _ _ _ _ _ _ _ Hok Hvb Hcb Ei)).
  - (* freeze: the store stays, so any creator will do for the step *)
    inversion H; subst w' o. split.
    + apply (WI_step w 0); [assumption|apply G_refl, Hok|apply (frw_le_set _ _ b); auto|].
      intros k bk Hk. apply nth_set_nth_inv in Hk as [(-> & ->)|Hk]; auto.
    + intros k bk Hne Hk. split; [|reflexivity]. cbn [sw_trees]. rewrite nth_set_nth_ne; [assumption|congruence].
  - (* clone: the store stays; the clone sees what the frozen original sees, and the original itself *)
    unfold s_clone in H. destruct (sb_immut b) eqn:Him; inversion H; subst; [|now apply isolated_refl].
    apply snoc_isolated; [assumption|apply G_refl, Hok|reflexivity|].
    eapply vis_trans; [apply ancw_trans| |exact Hvb].
    right. split; [apply nth_error_Some; congruence|]. unfold frw. now rewrite Eb.
Qed.

Lemma prim_steps_isolated tg w w' : prim_steps tg w w' -> WI w -> WI w' /\ untouched tg w w'.
Proof.
  induction 1 as [w|w y o w1 w' <- E _ IH]; intros HW; [now apply isolated_refl|].
  destruct (exec_prim_isolated _ _ _ _ HW E) as (HW1 & U1). destruct (IH HW1) as (HW' & U2).
  split; [assumption|]. exact (untouched_trans _ _ _ _ U1 U2).
Qed.

(* the mixin operations are compositions of primitive operations on the same tree *)
Theorem exec_isolated w x w' o :
  WI w -> exec w x = (w', o) ->
  WI w' /\
  forall k bk, target x <> Some k -> nth_error (sw_trees w) k = Some bk ->
    nth_error (sw_trees w') k = Some bk /\
    forall fuel, abs fuel (sw_store w') (sb_root bk) = abs fuel (sw_store w) (sb_root bk).
Proof. intros HW H. exact (prim_steps_isolated _ _ _ (exec_prim_steps _ _ _ _ H) HW). Qed.

Fixpoint execs (w : sworld) (xs : list sop) : sworld :=
  match xs with
  | [] => w
  | x :: r => execs (fst (exec w x)) r
  end.

Lemma WI_empty : WI (mkSW [] []).
Proof.
  split.
  - intros id n Hn. destruct id; discriminate.
  - intros k b Hk. destruct k; discriminate.
Qed.

Lemma WI_execs xs : forall w, WI w -> WI (execs w xs).
Proof.
  induction xs as [|x r IH]; intros w Hw; [assumption|]. cbn [execs]. apply IH.
  destruct (exec w x) as (w' & o) eqn:E. cbn [fst]. now destruct (exec_isolated w x w' o Hw E).
Qed.

Theorem WI_reachable xs : WI (execs (mkSW [] []) xs).
Proof. apply WI_execs, WI_empty. Qed.
