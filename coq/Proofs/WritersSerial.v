(* C12 - the versions side of the protocol: the granted writer works on the latest version
   (its unlocked reads are stable), commits never fail, and the history of versions is the serial
   application of the ended transactions in admission order. *)
From DV Require Import Base.Prelude Model.VersM Model.WritersM Proofs.VersInv Proofs.VersThms Proofs.WritersInv.
Import VersM WritersM.

Local Open Scope Z_scope.

(* _commit_version_unlocked by the granted writer, whose id is the next id: never fails *)
Lemma vstep_commit z id c :
  Inv z -> id = next_id (versions z) ->
  exists z', VersM.step (vz_set_wtxn z (Some (mkW id c true))) WCommit = Ok (z', RUnit) /\
             Inv z' /\ VersM.wtxn z' = None /\ hist z' = hist z ++ [mkV id c] /\
             last_opt (versions z') = Some (mkV id c) /\ readers z' = readers z /\ next_h z' = next_h z.
Proof.
  intros H Eid. apply (commit_ok (vz_set_wtxn z (Some (mkW id c true))) (mkW id c true)); try reflexivity.
  apply inv_set_wtxn; [exact H|]. intros w [= <-]. exact Eid.
Qed.

(* the sections of readers and of set_pruning_policy do not touch the write transaction *)
Lemma sel_op_reader sel : wtxn_op (sel_op sel) = false.
Proof. destruct sel; reflexivity. Qed.

Lemma sec_op_reader c o : sec_op c = Some o -> wtxn_op o = false.
Proof. destruct c; intros [= <-]; reflexivity. Qed.

Fixpoint wfam (p : pc) : bool :=
  match p with
  | Rel nx => wfam nx
  | Acq (CWriterTest _) | Crit (CWriterTest _) | Wait _ | SetupId | SetupBase _ | Body _ _ _ _ => true
  | Acq (CEndWrite _ _ _) | Crit (CEndWrite _ _ _) => true
  | _ => false
  end.

Fixpoint wid_of (p : pc) : option Z :=
  match p with
  | Rel nx => wid_of nx
  | SetupBase id | Body id _ _ _ | Acq (CEndWrite id _ _) | Crit (CEndWrite id _ _) => Some id
  | _ => None
  end.

Fixpoint on_track (pr : prog) (z : VersM.st) (p : pc) : Prop :=
  match p with
  | Rel nx => on_track pr z nx
  | Body id c ch todo => run_edits todo (c, ch) = run_edits (edits_of pr) (base_content pr z, false)
  | Acq (CEndWrite id c cm) | Crit (CEndWrite id c cm) =>
      c = fst (run_edits (edits_of pr) (base_content pr z, false)) /\
      cm = commit_flag pr && snd (run_edits (edits_of pr) (base_content pr z, false))
  | _ => True
  end.

Fixpoint rsnap (p : pc) : option (Z * content) :=
  match p with
  | Rel nx => rsnap nx
  | RBody _ i c => Some (i, c)
  | _ => None
  end.

Lemma wid_act p id : wid_of p = Some id -> act p = true.
Proof. induction p as [[]|[]|nx IH| | | | | |]; cbn; intros H; try discriminate; auto. Qed.

Lemma on_track_inactive pr z z' p : act p = false -> on_track pr z p -> on_track pr z' p.
Proof. induction p as [[]|[]|nx IH| | | | | |]; cbn; intros H; try discriminate; auto. Qed.

Lemma on_track_same_last pr z z' p :
  last_opt (versions z') = last_opt (versions z) -> on_track pr z p -> on_track pr z' p.
Proof.
  intros E. assert (Eb : base_content pr z' = base_content pr z).
  { unfold base_content. rewrite E. reflexivity. }
  induction p as [[]|[]|nx IH| | | | | |]; cbn; rewrite ?Eb; auto.
Qed.

Lemma body_pc_wid pr id c ch todo : wid_of (body_pc pr id c ch todo) = Some id.
Proof. destruct todo; reflexivity. Qed.
Lemma body_pc_wfam pr id c ch todo : wfam (body_pc pr id c ch todo) = true.
Proof. destruct todo; reflexivity. Qed.
Lemma body_pc_rsnap pr id c ch todo : rsnap (body_pc pr id c ch todo) = None.
Proof. destruct todo; reflexivity. Qed.
#[export] Hint Rewrite body_pc_wid body_pc_wfam body_pc_rsnap : body_pc.

Lemma body_pc_track pr z id c ch todo :
  run_edits todo (c, ch) = run_edits (edits_of pr) (base_content pr z, false) ->
  on_track pr z (body_pc pr id c ch todo).
Proof.
  intros E. destruct todo as [|e todo]; cbn; [|exact E].
  cbn in E. rewrite <- E. cbn. split; reflexivity.
Qed.

(* Group C, the versions.  Of a thread: the id a writer read is still the next id, its working copy is
   still derived from the newest version, it runs a writer program; a reader holds a committed version. *)
Definition thrC (pr : nat -> prog) (z : VersM.st) (t : nat) (p : pc) : Prop :=
  (forall id, wid_of p = Some id -> id = next_id (versions z)) /\ on_track (pr t) z p /\
  (wfam p = true -> exists r es cm, pr t = PWriter r es cm) /\
  (forall i c, rsnap p = Some (i, c) -> In (mkV i c) (hist z)).

Record InvC (s : st) : Prop := mkInvC {
  c_inv : Inv (vz s);
  c_nowtxn : VersM.wtxn (vz s) = None;
  c_thr : forall t, thrC (prg s) (vz s) t (pcs s t);
  c_hist : hist (vz s) = serial (map (prg s) (ended s));
  c_adm : granted s = ended s ++ match wtxn s with Some t => [t] | None => [] end
}.

Lemma c_id s : InvC s -> forall t id, wid_of (pcs s t) = Some id -> id = next_id (versions (vz s)).
Proof. intros H t. apply (c_thr s H t). Qed.

Lemma initC progs : InvC (init progs).
Proof.
  constructor; cbn; try reflexivity; [apply init_inv|].
  intros t. unfold thrC. destruct (progs t); cbn; repeat split; try discriminate; eauto.
Qed.

Lemma thrC_same pr z z' t p :
  hist z' = hist z -> last_opt (versions z') = last_opt (versions z) -> thrC pr z t p -> thrC pr z' t p.
Proof.
  intros Eh El [T1 [T2 [T3 T4]]]. unfold thrC, next_id. rewrite Eh, El.
  repeat split; try assumption. eapply on_track_same_last; eassumption.
Qed.

(* a thread that does not own the write transaction does not depend on the newest version *)
Lemma thrC_inactive pr z z' t p :
  act p = false -> (exists new, hist z' = hist z ++ new) -> thrC pr z t p -> thrC pr z' t p.
Proof.
  intros Ha [new Eh] [T1 [T2 [T3 T4]]]. repeat split; try assumption.
  - intros id E. apply wid_act in E. congruence.
  - eapply on_track_inactive; eassumption.
  - intros i c E. rewrite Eh. apply in_or_app. left. apply T4, E.
Qed.

Lemma invC_upd s s' t p' :
  InvC s -> prg s' = prg s -> pcs s' = upd (pcs s) t p' -> ended s' = ended s ->
  granted s' = ended s ++ match wtxn s' with Some t => [t] | None => [] end ->
  Inv (vz s') -> VersM.wtxn (vz s') = None -> hist (vz s') = hist (vz s) ->
  last_opt (versions (vz s')) = last_opt (versions (vz s)) -> thrC (prg s) (vz s') t p' -> InvC s'.
Proof.
  intros H E1 E2 E3 E4 Hi Hw Eh El T. destruct H. constructor; rewrite ?E1, ?E2, ?E3, ?Eh; try assumption.
  apply (upd_threads c_thr0); [exact T|]. intros t' _. apply thrC_same; assumption.
Qed.

Lemma thrC_body pr z t id c ch todo :
  id = next_id (versions z) -> (exists r es cm, pr t = PWriter r es cm) ->
  run_edits todo (c, ch) = run_edits (edits_of (pr t)) (base_content (pr t) z, false) ->
  thrC pr z t (body_pc (pr t) id c ch todo).
Proof.
  intros Eid Hf E. unfold thrC. autorewrite with body_pc.
  split; [intros ? [= <-]; exact Eid|]. split; [apply body_pc_track, E|]. split; [auto|discriminate].
Qed.

(* the unlocked steps of a writer keep its id and its working copy on track *)
Lemma local_carries s t p' l : InvC s -> local s t p' l -> thrC (prg s) (vz s) t p'.
Proof.
  intros H L. pose proof (c_thr s H t) as T.
  destruct L as [c Hpc _|nx Hpc|e Hpc _|Hpc|id Hpc|id c ch Hpc|id c ch e todo Hpc|h i c Hpc|sel Hpc];
    rewrite Hpc in T; try exact T; destruct T as [T1 [T2 [T3 T4]]].  (* a pc of the same meaning: nothing to show *)
  - unfold thrC. cbn. repeat split; try discriminate; [intros ? [= <-]; reflexivity|exact T3].
  - apply thrC_body; [apply T1|apply T3|]; reflexivity.
  - apply thrC_body; [apply T1; reflexivity|apply T3; reflexivity|exact T2].
  - apply thrC_body; [apply T1; reflexivity|apply T3; reflexivity|]. rewrite <- surjective_pairing. exact T2.
  - unfold thrC. cbn. repeat split; discriminate.
Qed.

Lemma invC_wakeup s : InvC s -> InvC (wakeup s).
Proof. intros H. unfold wakeup. destruct (waiters s); [exact H|]. destruct H. constructor; assumption. Qed.

Lemma serial_snoc ps p : serial (ps ++ [p]) = apply_txn (serial ps) p.
Proof. unfold serial. rewrite fold_left_app. reflexivity. Qed.

(* the end of a write transaction appends to the history what the serial specification appends *)
Lemma end_C s t id c cm z :
  InvB s -> InvC s -> pcs s t = Crit (CEndWrite id c cm) -> wtxn s = Some t ->
  (if cm then VersM.step (vz_set_wtxn (vz s) (Some (mkW id c true))) WCommit = Ok (z, RUnit) else z = vz s) ->
  InvC (ended_st s t z).
Proof.
  intros HB H Hpc Hw Hz.
  destruct (c_thr s H t) as [Eid [T [Hf _]]]. rewrite Hpc in *.
  specialize (Eid id eq_refl). destruct (Hf eq_refl) as [r [es [cf Epr]]]. clear Hf.
  rewrite Epr in T. cbn [on_track edits_of commit_flag] in T. destruct T as [Tc Tm].
  destruct (inv_last _ (c_inv s H)) as [vl Hl].
  assert (Hap : apply_txn (hist (vz s)) (prg s t) = if cm then hist (vz s) ++ [mkV id c] else hist (vz s)).
  { rewrite Epr. unfold apply_txn. rewrite (inv_last_hist _ vl (c_inv s H) Hl).
    assert (Eb : (if r then [] else vcont vl) = base_content (PWriter r es cf) (vz s)).
    { unfold base_content. rewrite Hl. destruct r; reflexivity. }
    rewrite Eb. cbv zeta. rewrite (hist_next_id _ (c_inv s H)), <- Eid.
    rewrite Tm at 1. rewrite Tc at 1. reflexivity. }
  assert (Hz' : Inv z /\ VersM.wtxn z = None /\ hist z = apply_txn (hist (vz s)) (prg s t) /\
                exists new, hist z = hist (vz s) ++ new).
  { rewrite Hap. destruct cm.
    - destruct (vstep_commit (vz s) id c (c_inv s H) Eid) as [z' [E [Hi [Hw' [Hh _]]]]].
      rewrite Hz in E. injection E as <-. eauto.
    - subst z. repeat split; [apply H..|]. exists []. symmetry. apply app_nil_r. }
  destruct Hz' as [Hi [Hw' [Hh Hnew]]].
  apply invC_wakeup. constructor; cbn; try assumption.
  - apply (upd_threads (c_thr s H)); [repeat split; discriminate|].
    intros t' Hn. apply thrC_inactive; [|exact Hnew]. apply (others_inactive s t); auto.
  - rewrite Hh, (c_hist s H), map_app. symmetry. apply serial_snoc.
  - rewrite (c_adm s H), Hw. symmetry. apply app_nil_r.
Qed.

(* reader(), _end_read and set_pruning_policy leave the history and the newest version alone *)
Lemma section_C s t o z r nx :
  InvC s -> wtxn_op o = false -> VersM.step (vz s) o = Ok (z, r) ->
  nx = match r with ROpened h i x => RBody h i x | RUnit => Done end ->
  InvC (set_vz (set_pc s t (Rel nx)) z).
Proof.
  intros H Ho E ->. pose proof (step_inv _ _ _ _ (c_inv s H) E) as Hi.
  destruct (reader_op_spec _ _ _ _ (c_inv s H) Ho E) as [Hw [Eh [El Hr]]].
  eapply (invC_upd s _ t); try reflexivity; try assumption; cbn.
  - apply (c_adm s H).
  - rewrite Hw. apply (c_nowtxn s H).
  - destruct Hr as [[v [Hv [-> _]]]|[-> _]]; repeat split; try discriminate.
    intros i c [= <- <-]. rewrite Eh. destruct (inv_suffix _ (c_inv s H)) as [d ->].
    apply in_or_app. right. destruct v; exact Hv.
Qed.

Theorem stepC s t s' : InvB s -> InvC s -> kind s t s' -> InvC s'.
Proof.
  intros HB H K.
  pose proof (c_thr s H t) as T.
  destruct K as [p' l L|ev Hpc Hw He|Hpc Ht|id c cm z Hpc Hw Hz|sel z h i x Hpc E|c o z Hpc Ho E].
  - apply (invC_upd s _ t p' H); try reflexivity; try apply H. exact (local_carries s t p' l H L).
  - (* writer() does not touch the versions, and leaves a pc that carries what the old one did: nothing *)
    rewrite Hpc in T. apply (invC_upd s _ t (Rel SetupId) H); try reflexivity; try exact T; try apply H.
    cbn. rewrite (c_adm s H), Hw, app_nil_r. reflexivity.
  - rewrite Hpc in T. apply (invC_upd s _ t (Rel (Wait (nextev s))) H); try reflexivity; try exact T; apply H.
  - eapply end_C; eassumption.
  - apply (section_C s t (sel_op sel) z (ROpened h i x)); [exact H|apply sel_op_reader|exact E|reflexivity].
  - apply (section_C s t o z RUnit); [exact H|exact (sec_op_reader c o Ho)|exact E|reflexivity].
Qed.
