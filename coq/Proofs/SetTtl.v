(* Rdataset machine: frame property (no aliasing effects; also for the Set machine),
   ImmutableRdataset never changes, and the TTL of every rdataset is the minimum of the TTLs
   merged into it since it was last empty - by induction over operation sequences, with a ghost
   history per register. *)
From DV Require Import Base.Prelude Model.SetM Proofs.SetAlg Proofs.SetRdata Proofs.SetMachine
  Proofs.SetRds.
Open Scope Z_scope.

Lemma nth_assign_same {A} (st st' : list A) d v :
  assign st d v = Some st' -> nth_error st' d = Some v.
Proof.
  unfold assign. destruct (Nat.ltb_spec d (length st)) as [Hlt|_].
  - intros [= <-]. destruct (nth_error st d) eqn:E; [eapply nth_set_nth_same, E|].
    destruct (proj2 (nth_error_Some st d) Hlt E).
  - destruct (Nat.eqb_spec d (length st)) as [->|]; [|discriminate]. intros [= <-].
    rewrite nth_error_app2, Nat.sub_diag by apply Nat.le_refl. reflexivity.
Qed.

(* case analysis on the scrutinee of a match of the goal: dm keeps the equation; cm does not,
   and leaves the binding of a register (assign) to nth_bind_other *)
Ltac cm :=
  match goal with |- context [match ?x with _ => _ end] =>
    lazymatch x with assign _ _ _ => fail | _ => case x; intros end
  end.
Ltac dm := match goal with |- context [match ?x with _ => _ end] => destruct x eqn:? end.

(* the register an operation may write: the bound register of a constructor / copying form,
   or `self` of a mutating method *)
Definition rtarget (op : rop) : option nat :=
  match op with
  | RNew d _ _ _ _ | RNewRR d _ _ _ _ _ | RImm d _ | RToRdataset d _ | RCopy d _ | RFunc _ d _ _
  | RFromList d _ _ _ => Some d
  | RAdd r _ _ | RUpdateTtl r _ | RUpdateTtlText r _ | RAddText r _ _ | RRemove r _ | RDiscard r _
  | RPop r | RClear r | RInpl _ r _ | RDelItem r _ => Some r
  | RPred _ _ _ | RMatch _ _ _ _ | RFullMatch _ _ _ _ _ _ | RLen _ | RIter _ | RContains _ _
  | RGet _ _ => None
  end.

(* registers that are bound anew (the old object is dropped, not mutated) *)
Definition rrebind (op : rop) : option nat :=
  match op with
  | RNew d _ _ _ _ | RNewRR d _ _ _ _ _ | RImm d _ | RToRdataset d _ | RCopy d _ | RFunc _ d _ _
  | RFromList d _ _ _ => Some d
  | _ => None
  end.

(* no operation changes a set it does not name as its target: in particular `other` is never
   modified, whatever the aliasing between the registers *)
Theorem rstep_frame st op r :
  rtarget op <> Some r -> nth_error (fst (rstep st op)) r = nth_error st r.
Proof.
  intros Ht. assert (Hr : forall t, rtarget op = Some t -> t <> r) by (intros t E <-; exact (Ht E)).
  destruct op; cbn [rstep rtarget] in *; unfold upd;
    repeat cm; try reflexivity; first [apply nth_set_nth_other|apply nth_bind_other];
    apply Hr; reflexivity.
Qed.

(* an ImmutableRdataset is never modified: whatever is called on it or with it, the object
   in the register stays the same until the register is bound to a new object *)
Theorem imm_unchanged st op r s :
  nth_error st r = Some s -> kd s = KImm -> rrebind op <> Some r ->
  nth_error (fst (rstep st op)) r = Some s.
Proof.
  intros Hs Hk Hb.
  destruct (rtarget op) as [t|] eqn:Et; [destruct (Nat.eq_dec t r) as [->|Hn]|].
  2,3: rewrite rstep_frame; [exact Hs|rewrite Et; congruence].
  (* a method called on the immutable set itself *)
  destruct op; cbn [rtarget rrebind] in *; try discriminate Et; injection Et as ->;
    try (destruct Hb; reflexivity); cbn [rstep]; rewrite ?Hs, ?Hk; try exact Hs.
  destruct (nth_error st o) as [os|]; [|exact Hs].
  unfold upd, r_inplace. rewrite Hk. eapply nth_set_nth_same, Hs.
Qed.

(* minimum of a non-empty list *)
Fixpoint list_min (d : Z) (l : list Z) : Z :=
  match l with
  | [] => d
  | x :: r => Z.min x (list_min d r)
  end.

Definition hmin (h : list Z) : Z := match h with [] => 0 | x :: r => list_min x r end.

Lemma list_min_cons d x r : list_min d (x :: r) = Z.min x (list_min d r).
Proof. reflexivity. Qed.

Lemma list_min_swap x y r : Z.min y (list_min x r) = Z.min x (list_min y r).
Proof.
  induction r as [|z r IH]; cbn [list_min]; [apply Z.min_comm|].
  rewrite (Z.min_assoc y z), (Z.min_comm y z), <- Z.min_assoc, IH.
  rewrite Z.min_assoc, (Z.min_comm z x), <- Z.min_assoc. reflexivity.
Qed.

Lemma hmin_cons x h : h <> [] -> hmin (x :: h) = Z.min x (hmin h).
Proof.
  destruct h as [|y r]; [congruence|]. intros _. cbn [hmin list_min]. apply list_min_swap.
Qed.

Lemma hmin_app a b : a <> [] -> b <> [] -> hmin (a ++ b) = Z.min (hmin a) (hmin b).
Proof.
  intros Ha Hb. induction a as [|x a IH]; [congruence|].
  destruct a as [|y a'].
  - cbn [app]. rewrite hmin_cons by exact Hb. reflexivity.
  - change ((x :: y :: a') ++ b) with (x :: ((y :: a') ++ b)).
    rewrite hmin_cons by (cbn; discriminate).
    rewrite IH by discriminate. rewrite (hmin_cons x (y :: a')) by discriminate. apply Z.min_assoc.
Qed.

(* The ghost: for every register the list of TTL literals merged into the set since the last
   merge that found it empty (newest first).  It is computed next to the real step from the
   pre-state only; it does not influence the step.
     merge1 : one literal TTL is merged (add(rd, ttl), update_ttl(ttl))
     mergeh : the TTL of another set is merged (union/intersection/update/symmetric difference):
              all the literals that flowed into that set flow into this one *)
Definition merge1 (s : rds) (h : list Z) (t : Z) : list Z := if isempty s then [t] else t :: h.
Definition mergeh (s : rds) (h ho : list Z) : list Z := if isempty s then ho else ho ++ h.

Definition alg_merges (a : alg) : bool := match a with ADiff => false | _ => true end.
Definition inplace_merges (w : inplace) : bool :=
  match inplace_alg w with Some a => alg_merges a | None => true end.

Definition hget (h : list (list Z)) (r : nat) : list Z := nth r h [].

Definition is_mutable (s : rds) : bool := match kd s with KImm => false | _ => true end.

Definition gstep (st : list rds) (h : list (list Z)) (op : rop) : list (list Z) :=
  let ok := match snd (rstep st op) with E _ => false | _ => true end in
  match op with
  | RNew d _ _ _ t0 => match assign h d [t0] with Some h' => if ok then h' else h | None => h end
  | RNewRR d _ _ _ _ _ => match assign h d [0] with Some h' => if ok then h' else h | None => h end
  | RFromList d _ t _ => match assign h d [t] with Some h' => if ok then h' else h | None => h end
  | RImm d r | RCopy d r | RToRdataset d r =>
      match assign h d (hget h r) with Some h' => if ok then h' else h | None => h end
  | RAdd r x (Some t) =>
      match nth_error st r with
      | Some s => if is_mutable s && (cls s =? rcls x) && (typ s =? rtyp x)
                  then set_nth h r (merge1 s (hget h r) t) else h
      | None => h
      end
  | RUpdateTtl r t =>
      match nth_error st r with
      | Some s => if is_mutable s then set_nth h r (merge1 s (hget h r) t) else h
      | None => h
      end
  | RUpdateTtlText r txt =>
      match nth_error st r, TokM.ttl_from_text txt with
      | Some s, Ok t => if is_mutable s then set_nth h r (merge1 s (hget h r) t) else h
      | _, _ => h
      end
  | RAddText r x txt =>
      match nth_error st r, TokM.ttl_from_text txt with
      | Some s, Ok t => if is_mutable s && (cls s =? rcls x) && (typ s =? rtyp x)
                        then set_nth h r (merge1 s (hget h r) t) else h
      | _, _ => h
      end
  | RInpl w r o =>
      match nth_error st r, nth_error st o with
      | Some s, Some _ =>
          if is_mutable s && inplace_merges w && negb (Nat.eqb r o)
          then set_nth h r (mergeh s (hget h r) (hget h o)) else h
      | _, _ => h
      end
  | RFunc w d r o =>
      match nth_error st r with
      | Some s =>
          let hd := if alg_merges (func_alg w) then mergeh s (hget h r) (hget h o) else hget h r in
          match assign h d hd with Some h' => if ok then h' else h | None => h end
      | None => h
      end
  | _ => h
  end.

(* the invariant: histories are non-empty and the TTL is their minimum *)
Definition ttl_ok (s : rds) (hs : list Z) : Prop := hs <> [] /\ ttl s = hmin hs.
Definition ttl_inv (st : list rds) (h : list (list Z)) : Prop := Forall2 ttl_ok st h.

Lemma ttl_ok_fields s s' hs : ttl s' = ttl s -> ttl_ok s hs -> ttl_ok s' hs.
Proof. intros E [H1 H2]. split; [exact H1|congruence]. Qed.

Lemma ttl_ok_merge1 s hs t : ttl_ok s hs -> ttl_ok (update_ttl s t) (merge1 s hs t).
Proof.
  intros [H1 H2]. unfold ttl_ok, merge1. rewrite update_ttl_ttl.
  destruct (isempty s); [split; [discriminate|reflexivity]|].
  split; [discriminate|]. rewrite hmin_cons by exact H1. rewrite H2. apply Z.min_comm.
Qed.

Lemma ttl_ok_mergeh s hs o ho :
  ttl_ok s hs -> ttl_ok o ho -> ttl_ok (update_ttl s (ttl o)) (mergeh s hs ho).
Proof.
  intros [H1 H2] [H3 H4]. unfold ttl_ok, mergeh. rewrite update_ttl_ttl.
  destruct (isempty s); [split; assumption|].
  split; [destruct ho; [congruence|discriminate]|].
  rewrite hmin_app by assumption. rewrite H2, H4. apply Z.min_comm.
Qed.

Lemma ralg_ttl a self other same :
  (same = true -> other = self) ->
  ttl (fst (ralg a self other same)) =
  if alg_merges a && negb same then ttl (update_ttl self (ttl other)) else ttl self.
Proof.
  intros Hsame. destruct same.
  - rewrite (Hsame eq_refl), ralg_aliased. cbn. rewrite andb_false_r. reflexivity.
  - rewrite andb_true_r. destruct a; cbn [ralg alg_merges]; try reflexivity.
    + apply radd_all_ttl.
    + unfold r_sym_update, r_union_update.
      pose proof (radd_all_ttl (items other) (update_ttl self (ttl other))) as H.
      destruct (radd_all _ _) as [s1 [[]| |]]; exact H.
Qed.

Lemma r_inplace_ttl w self other same :
  (same = true -> other = self) ->
  ttl (fst (r_inplace w self other same)) =
  if is_mutable self && inplace_merges w && negb same
  then ttl (update_ttl self (ttl other)) else ttl self.
Proof.
  intros Hsame. unfold r_inplace, is_mutable, inplace_merges.
  destruct (kd self); try reflexivity;
    (destruct (inplace_alg w); [apply ralg_ttl, Hsame|]);
    unfold r_update; rewrite radd_all_ttl;
    (destruct same; [rewrite update_ttl_self|]; reflexivity).
Qed.

Lemma r_func_ttl w self other x :
  r_func w self other = Ok x ->
  ttl x = if alg_merges (func_alg w) then ttl (update_ttl self (ttl other)) else ttl self.
Proof.
  unfold r_func.
  pose proof (ralg_ttl (func_alg w) (rclone self) other false) as H.
  destruct (ralg (func_alg w) (rclone self) other false) as [obj [[]| |]]; try discriminate.
  intros [= <-]. rewrite andb_true_r, !update_ttl_ttl in H.
  rewrite update_ttl_ttl. unfold rclone, isempty in *.
  destruct (kd self); apply H; discriminate.
Qed.

Lemma r_from_list_ttl n t xs x : r_from_list n t xs = Ok x -> ttl x = t.
Proof.
  unfold r_from_list. destruct xs as [|rd0 l]; [discriminate|].
  set (r0 := update_ttl _ _).
  pose proof (radd_all_ttl (rd0 :: l) r0) as H.
  destruct (radd_all r0 (rd0 :: l)) as [r [[]| |]]; try discriminate.
  intros [= <-]. cbn [fst] in H. rewrite H. unfold r0. rewrite update_ttl_ttl. destruct n; reflexivity.
Qed.

Lemma obs_err_ok {A} (r : res A) : (match obs_err r with E _ => false | _ => true end) = true -> exists a, r = Ok a.
Proof. destruct r; cbn; try discriminate. eauto. Qed.

Lemma ttl_inv_get st h r s : ttl_inv st h -> nth_error st r = Some s -> ttl_ok s (hget h r).
Proof. intros H E. unfold hget. eapply Forall2_nth; eassumption. Qed.

(* a method that leaves the TTL alone needs no ghost step *)
Lemma ttl_inv_keep st h r s s' :
  ttl_inv st h -> nth_error st r = Some s -> ttl s' = ttl s -> ttl_inv (set_nth st r s') h.
Proof.
  intros H E Et. rewrite <- (set_nth_nth h r []). apply Forall2_set_nth; [exact H|].
  eapply ttl_ok_fields; [exact Et|]. eapply ttl_inv_get; eassumption.
Qed.

Lemma ttl_inv_merge1 st h r s s' t :
  ttl_inv st h -> nth_error st r = Some s -> ttl s' = ttl (update_ttl s t) ->
  ttl_inv (set_nth st r s') (set_nth h r (merge1 s (hget h r) t)).
Proof.
  intros H E Et. apply Forall2_set_nth; [exact H|].
  eapply ttl_ok_fields; [exact Et|]. apply ttl_ok_merge1. eapply ttl_inv_get; eassumption.
Qed.

Lemma ttl_inv_mergeh st h r o s os s' :
  ttl_inv st h -> nth_error st r = Some s -> nth_error st o = Some os ->
  ttl s' = ttl (update_ttl s (ttl os)) ->
  ttl_inv (set_nth st r s') (set_nth h r (mergeh s (hget h r) (hget h o))).
Proof.
  intros H Es Eo Et. apply Forall2_set_nth; [exact H|].
  eapply ttl_ok_fields; [exact Et|]. apply ttl_ok_mergeh; eapply ttl_inv_get; eassumption.
Qed.

(* Rdataset.add on a mutable rdataset, with the ghost step of RAdd / RAddText *)
Lemma ttl_inv_radd st h r s x ottl :
  ttl_inv st h -> nth_error st r = Some s ->
  ttl_inv (set_nth st r (fst (radd s x ottl)))
          (match ottl with
           | Some t => if compatb s x then set_nth h r (merge1 s (hget h r) t) else h
           | None => h
           end).
Proof.
  intros H Es. pose proof (radd_ttl s x ottl) as Et.
  destruct ottl as [t|]; [destruct (compatb s x)|].
  - eapply ttl_inv_merge1; [exact H|exact Es|]. rewrite Et. symmetry. apply update_ttl_ttl.
  - eapply ttl_inv_keep; eassumption.
  - eapply ttl_inv_keep; [exact H|exact Es|]. rewrite Et. destruct (compatb s x); reflexivity.
Qed.

(* binding a register: the ghost binds the same register when the step succeeds *)
Lemma ttl_inv_bind st h d x hs :
  ttl_inv st h -> ttl_ok x hs ->
  ttl_inv (fst (match assign st d x with Some st' => (st', N) | None => bad st end))
          (match assign h d hs with
           | Some h' => if match snd (match assign st d x with Some st' => (st', N) | None => bad st end)
                           with E _ => false | _ => true end then h' else h
           | None => h
           end).
Proof.
  intros H Hx. destruct (assign st d x) as [st'|] eqn:E.
  - destruct (Forall2_assign _ _ _ _ _ _ _ H Hx E) as (h' & -> & I). exact I.
  - destruct (assign h d hs); exact H.
Qed.

(* ... and leaves everything alone when it raises *)
Lemma ttl_inv_nobind st h d hs :
  ttl_inv st h ->
  ttl_inv st (match assign h d hs with Some h' => if false then h' else h | None => h end).
Proof. intros H. destruct (assign h d hs); exact H. Qed.

(* one step of the machine together with its ghost keeps the invariant *)
Theorem rstep_ttl st h op :
  ttl_inv st h -> ttl_inv (fst (rstep st op)) (gstep st h op).
Proof.
  intros H. destruct op; cbn [rstep gstep];
    (* methods without a ghost step change members at most *)
    try lazymatch goal with |- ttl_inv _ h =>
      destruct (nth_error st r) eqn:Es; repeat cm;
      first [exact H|eapply ttl_inv_keep; [exact H|exact Es|reflexivity]] end.
  - (* RNew *) apply ttl_inv_bind; [exact H|]. split; [discriminate|reflexivity].
  - (* RNewRR *) apply ttl_inv_bind; [exact H|]. split; [discriminate|reflexivity].
  - (* RImm *)
    destruct (nth_error st r) as [s|] eqn:Es; [|exact (ttl_inv_nobind _ _ _ _ H)].
    apply ttl_inv_bind; [exact H|]. exact (ttl_inv_get st h r s H Es).
  - (* RToRdataset *)
    destruct (nth_error st r) as [s|] eqn:Es; [|exact (ttl_inv_nobind _ _ _ _ H)].
    destruct (kd s); try exact (ttl_inv_nobind _ _ _ _ H).
    destruct (r_to_rdataset s) as [x| |] eqn:Er; try exact (ttl_inv_nobind _ _ _ _ H).
    apply ttl_inv_bind; [exact H|].
    eapply ttl_ok_fields; [exact (r_from_list_ttl _ _ _ _ Er)|exact (ttl_inv_get st h r s H Es)].
  - (* RFromList *)
    destruct (r_from_list n t xs) as [x| |] eqn:Er; try exact (ttl_inv_nobind _ _ _ _ H).
    apply ttl_inv_bind; [exact H|]. split; [discriminate|exact (r_from_list_ttl _ _ _ _ Er)].
  - (* RAdd *)
    destruct (nth_error st r) as [s|] eqn:Es; [|destruct ottl; exact H].
    unfold is_mutable. destruct (kd s); try (destruct ottl; exact H);
      exact (ttl_inv_radd st h r s x ottl H Es).
  - (* RUpdateTtl *)
    destruct (nth_error st r) as [s|] eqn:Es; [|exact H].
    unfold is_mutable. destruct (kd s); try exact H;
      (eapply ttl_inv_merge1; [exact H|exact Es|reflexivity]).
  - (* RUpdateTtlText *)
    destruct (nth_error st r) as [x|] eqn:Es; [|exact H].
    unfold is_mutable. destruct (kd x), (TokM.ttl_from_text s) as [t| |]; try exact H;
      (eapply ttl_inv_merge1; [exact H|exact Es|reflexivity]).
  - (* RAddText: add(rd, ttl) once the class, the type and the text have been accepted *)
    destruct (nth_error st r) as [s0|] eqn:Es; [|exact H].
    destruct (TokM.ttl_from_text s) as [t| |];
      [|destruct (kd s0), (cls s0 =? rcls x), (typ s0 =? rtyp x); exact H..].
    generalize (ttl_inv_radd st h r s0 x (Some t) H Es). unfold is_mutable, compatb.
    destruct (kd s0), (cls s0 =? rcls x), (typ s0 =? rtyp x); intros R; first [exact H|exact R].
  - (* RCopy *)
    destruct (nth_error st r) as [s|] eqn:Es; [|exact (ttl_inv_nobind _ _ _ _ H)].
    apply ttl_inv_bind; [exact H|].
    eapply ttl_ok_fields; [|exact (ttl_inv_get st h r s H Es)].
    unfold r_copy, rclone. destruct (kd s); reflexivity.
  - (* RInpl *)
    destruct (nth_error st r) as [s|] eqn:Es; [|exact H].
    destruct (nth_error st o) as [os|] eqn:Eo; [|exact H].
    pose proof (r_inplace_ttl w s os (Nat.eqb r o) (same_reg st r o s os Es Eo)) as Et.
    destruct (is_mutable s && inplace_merges w && negb (Nat.eqb r o)).
    + eapply ttl_inv_mergeh; eassumption.
    + eapply ttl_inv_keep; eassumption.
  - (* RFunc *)
    destruct (nth_error st r) as [s|] eqn:Es; [|exact H].
    destruct (nth_error st o) as [os|] eqn:Eo; [|exact (ttl_inv_nobind _ _ _ _ H)].
    destruct (r_func w s os) as [x| |] eqn:Ef; try exact (ttl_inv_nobind _ _ _ _ H).
    apply ttl_inv_bind; [exact H|].
    pose proof (r_func_ttl w s os x Ef) as Et.
    destruct (alg_merges (func_alg w)); (eapply ttl_ok_fields; [exact Et|]);
      [apply ttl_ok_mergeh|]; eapply ttl_inv_get; eassumption.
Qed.

(* run the machine with its ghost *)
Fixpoint rexec_g (st : list rds) (h : list (list Z)) (ops : list rop) : list rds * list (list Z) :=
  match ops with
  | [] => (st, h)
  | op :: r => rexec_g (fst (rstep st op)) (gstep st h op) r
  end.

Lemma rexec_g_fst ops : forall st h, fst (rexec_g st h ops) = rexec st ops.
Proof. induction ops as [|op ops IH]; intros st h; cbn; [reflexivity|apply IH]. Qed.

(* for every operation sequence: the TTL of every rdataset is the minimum of the TTLs merged
   into it since it was last empty *)
Theorem ttl_is_min_all ops :
  forall st h, ttl_inv st h -> ttl_inv (rexec st ops) (snd (rexec_g st h ops)).
Proof.
  induction ops as [|op ops IH]; intros st h H; cbn; [exact H|].
  apply IH, rstep_ttl, H.
Qed.

(* the merged values are literals of the operation sequence: the TTL never comes from nowhere *)
Definition op_literals (op : rop) : list Z :=
  match op with
  | RNew _ _ _ _ t0 => [t0]
  | RNewRR _ _ _ _ _ _ => [0]
  | RFromList _ _ t _ => [t]
  | RAdd _ _ (Some t) => [t]
  | RUpdateTtl _ t => [t]
  | RUpdateTtlText _ txt | RAddText _ _ txt =>
      match TokM.ttl_from_text txt with Ok t => [t] | _ => [] end
  | _ => []
  end.

Definition hist_from (lits : list Z) (h : list (list Z)) : Prop :=
  Forall (fun hs => incl hs lits) h.

Lemma hist_get lits h r : hist_from lits h -> incl (hget h r) lits.
Proof.
  intros H. unfold hget. destruct (nth_in_or_default r h (@nil Z)) as [Hin| ->]; [|apply incl_nil_l].
  unfold hist_from in H. rewrite Forall_forall in H. apply H, Hin.
Qed.

Lemma incl_merge1 s hs t lits : incl hs lits -> In t lits -> incl (merge1 s hs t) lits.
Proof. intros H Ht. unfold merge1. destruct (isempty s); auto using incl_cons, incl_nil_l. Qed.

Lemma incl_mergeh s hs ho lits : incl hs lits -> incl ho lits -> incl (mergeh s hs ho) lits.
Proof. intros H Ho. unfold mergeh. destruct (isempty s); auto using incl_app. Qed.

(* a ghost step writes histories made of older histories and the literals of the operation *)
Lemma gstep_literals st h op lits :
  hist_from lits h -> hist_from (lits ++ op_literals op) (gstep st h op).
Proof.
  intros H0.
  assert (H : forall X, hist_from (lits ++ X) h)
    by (intros X; eapply Forall_impl; [|exact H0]; intros hs Hh; apply incl_appl, Hh).
  assert (Hg : forall X r, incl (hget h r) (lits ++ X)) by (intros X r; apply hist_get, H).
  assert (Hl : forall t, In t (lits ++ [t])) by (intros t; apply in_or_app; right; left; reflexivity).
  destruct op; cbn [gstep op_literals]; try apply H; repeat dm; try apply H;
    first [eapply Forall_assign; [apply H| |eassumption]|apply Forall_set_nth; [apply H|]];
    try destruct (alg_merges _); auto using incl_merge1, incl_mergeh, incl_cons, incl_nil_l.
Qed.

Theorem ttl_literals ops : forall st h lits,
  hist_from lits h ->
  hist_from (lits ++ flat_map op_literals ops) (snd (rexec_g st h ops)).
Proof.
  induction ops as [|op ops IH]; intros st h lits H; cbn.
  - rewrite app_nil_r. exact H.
  - rewrite app_assoc. apply IH, gstep_literals, H.
Qed.

(* the headline: after any operation sequence from the empty machine, the TTL of every
   rdataset is the minimum of a non-empty list of TTL literals of that sequence - the ones
   merged into it (directly or through other sets) since it was last empty *)
Theorem ttl_is_min_of_merged ops r s :
  nth_error (rexec [] ops) r = Some s ->
  exists hs, hs = hget (snd (rexec_g [] [] ops)) r /\ hs <> [] /\ ttl s = hmin hs /\
             forall t, In t hs -> In t (flat_map op_literals ops).
Proof.
  intros E. eexists. split; [reflexivity|].
  destruct (ttl_inv_get _ _ r s (ttl_is_min_all ops [] [] (Forall2_nil _)) E) as [H1 H2].
  split; [exact H1|]. split; [exact H2|].
  exact (hist_get _ _ r (ttl_literals ops [] [] [] (Forall_nil _))).
Qed.

(* the same frame property for the dns.set.Set machine *)

Definition starget (op : sop) : option nat :=
  match op with
  | SNew d _ | SCopy d _ | SFunc _ d _ _ => Some d
  | SAdd r _ | SRemove r _ | SDiscard r _ | SPop r | SClear r | SInpl _ r _ | SUpdateList r _
  | SDelItem r _ | SDelSlice r _ _ _ => Some r
  | SPred _ _ _ | SLen _ | SIter _ | SContains _ _ | SGet _ _ | SGetSlice _ _ _ _ => None
  end.

Theorem sstep_frame st op r :
  starget op <> Some r -> nth_error (fst (sstep st op)) r = nth_error st r.
Proof.
  intros Ht. assert (Hr : forall t, starget op = Some t -> t <> r) by (intros t E <-; exact (Ht E)).
  destruct op; cbn [sstep starget] in *;
    repeat cm; try reflexivity; first [apply nth_set_nth_other|apply nth_bind_other];
    apply Hr; reflexivity.
Qed.
