(* Readers of the tokenizer as the field parsers use them, on texts whose shape is known: one more word after
   a token, and the blank-separated words that run to the end of the line (HIP rendezvous servers, APL items,
   WKS ports, type mnemonics). *)
From DV Require Import Base.Prelude Model.NameM Model.TokM Model.RdTextM.
From DV Require Import Proofs.NameValid Proofs.NameText Proofs.TokEsc Proofs.TokTxt Proofs.TokWords Proofs.TokShape
     Proofs.TokGeneric Proofs.TokDec Proofs.TokHex Proofs.RdTextName Proofs.RdTextAddr Proofs.RdTextBitmap Proofs.RdTextTypes.
Open Scope Z_scope.

Lemma wordbreak_nil c s : wordbreak [] c s = [].
Proof. unfold wordbreak. destruct (c <=? 0); reflexivity. Qed.

Lemma dec_uword n : 0 <= n -> uword (dec n) /\ zlist_eqb (dec n) [92; 35] = false.
Proof.
  intros Hn. pose proof (dec_safe n Hn) as Hs.
  split; [split; [apply units_safe, Hs|apply dec_nonempty]|apply safe_word_not_hash, Hs].
Qed.

(* a number, a word or a name as the next token *)
Lemma get_uint_from n m stX s1 : 0 <= n <= m ->
  get0 stX = Ok (utok (dec n), s1) -> get_uint m stX 10 = Ok (n, s1).
Proof.
  intros Hn HX. unfold get_uint. rewrite (get_unescaped_tok stX (dec n) s1 HX) by (apply dec_safe; lia).
  cbn [bind fst snd]. rewrite as_uint_dec by lia. reflexivity.
Qed.

Lemma get_int_from n stX s1 : 0 <= n -> get0 stX = Ok (utok (dec n), s1) -> get_int stX 10 = Ok (n, s1).
Proof.
  intros Hn HX. unfold get_int. rewrite (get_unescaped_tok stX (dec n) s1 HX) by (apply dec_safe; lia).
  cbn [bind fst snd]. rewrite as_int_dec by lia. reflexivity.
Qed.

Lemma get_uint_word q bl n m rest : forallb is_blank bl = true -> 0 <= n <= m -> word_end rest ->
  get_uint m (stq q (bl ++ dec n ++ rest)) 10 = Ok (n, stq false rest).
Proof.
  intros Hbl Hn Hr. destruct (dec_uword n (proj1 Hn)) as [[Hu Hne] _].
  apply get_uint_from; [exact Hn|apply get0_word_q; assumption].
Qed.

Lemma get_string_word q bl w rest : forallb is_blank bl = true -> forallb safe w = true -> w <> [] -> word_end rest ->
  get_string (stq q (bl ++ w ++ rest)) 0 = Ok (w, stq false rest).
Proof. intros Hbl Hs Hne Hr. apply get_string_tok; [apply get0_word_q; auto using units_safe|exact Hs]. Qed.

Lemma get_name_word c q bl w rest : forallb is_blank bl = true -> units w -> w <> [] -> word_end rest ->
  get_name c (stq q (bl ++ w ++ rest)) = (do n <- as_name c (utok w); Ok (n, stq false rest)).
Proof.
  intros Hbl Hu Hne Hr. unfold get_name. rewrite (get0_word_q q bl w rest Hbl Hu Hne Hr). reflexivity.
Qed.

(* words to the end of the line *)
Lemma grl_uwords ws : Forall uword ws ->
  forall q rest fuel acc, line_end rest -> (length ws < fuel)%nat ->
  exists st, at_eol st /\
    get_remaining_loop fuel (stq q (spaced ws ++ rest)) 0 acc = Ok (rev acc ++ map utok ws, st).
Proof.
  induction 1 as [|n ws [Hu Hne] _ IH]; intros q rest fuel acc Hrest Hfuel.
  - destruct fuel as [|f]; [cbn in Hfuel; lia|].
    destruct (get0_end_q_len q [] rest eq_refl Hrest) as (t & st & Ht & _ & Hug & _ & E). cbn [app] in E.
    cbn [spaced flat_map app]. rewrite grl_unfold. rewrite E. cbn [bind]. rewrite Ht. unfold unget. rewrite Hug. cbn [bind].
    eexists. split; [|cbn [map]; rewrite app_nil_r; reflexivity]. exists t. split; [reflexivity|exact Ht].
  - destruct fuel as [|f]; [cbn in Hfuel; lia|]. cbn [length] in Hfuel.
    unfold spaced. cbn [flat_map]. fold (spaced ws).
    replace (((32 :: n) ++ spaced ws) ++ rest) with ([32] ++ n ++ (spaced ws ++ rest))
      by (cbn [app]; rewrite <- app_assoc; reflexivity).
    rewrite grl_unfold.
    rewrite (get0_word_q q [32] n (spaced ws ++ rest) eq_refl Hu Hne (spaced_word_end ws rest Hrest)).
    cbn [bind]. change (is_eol_or_eof (mkTok tIDENT n (has_bs n) None)) with false. cbv iota.
    destruct (IH false rest f (utok n :: acc) Hrest ltac:(lia)) as (st & H1 & E).
    fold (utok n). rewrite E. exists st. split; [exact H1|].
    cbn [rev map]. rewrite <- app_assoc. reflexivity.
Qed.

(* the first word t of the list may or may not have its own blank in front: bl takes it *)
Lemma first_tok_words t ts R q bl :
  uword t -> zlist_eqb t [92; 35] = false -> Forall uword ts -> line_end R -> forallb is_blank bl = true ->
  first_tok (stq q (bl ++ t ++ spaced ts ++ R))
    (fun stX => exists st, get_remaining stX 0 = Ok (map utok (t :: ts), st) /\ at_eol st).
Proof.
  intros Ht Hh Hts HR Hbl. apply first_tok_word; [exact Hbl|exact Ht|exact Hh|apply spaced_word_end, HR|].
  intros stX HX HL.
  destruct (grl_uwords ts Hts false R (S (length (inp stX))) [utok t] HR) as (st & Hst & E).
  { pose proof (spaced_length ts). rewrite app_length in HL. lia. }
  exists st. split; [|exact Hst]. unfold get_remaining, rem_fuel. rewrite grl_unfold, HX. cbn [bind].
  change (is_eol_or_eof (utok t)) with false. cbv iota. exact E.
Qed.

Lemma first_tok_no_words R q bl : line_end R -> forallb is_blank bl = true ->
  first_tok (stq q (bl ++ R)) (fun stX => exists st, get_remaining stX 0 = Ok ([], st) /\ at_eol st).
Proof. intros HR Hbl. apply first_tok_end; [exact Hbl|exact HR|]. intros t s stX HX He _ Hu. eapply get_remaining_eol; eauto. Qed.

Lemma first_tok_spaced ts R q bl :
  Forall uword ts -> zlist_eqb (hd [] ts) [92; 35] = false -> line_end R -> forallb is_blank bl = true ->
  first_tok (stq q (bl ++ spaced ts ++ R))
    (fun stX => exists st, get_remaining stX 0 = Ok (map utok ts, st) /\ at_eol st).
Proof.
  intros Hts Hh HR Hbl. destruct Hts as [|t ts Ht Hts]; [apply first_tok_no_words; assumption|].
  replace (bl ++ spaced (t :: ts) ++ R) with ((bl ++ [32]) ++ t ++ spaced ts ++ R)
    by (unfold spaced; cbn [flat_map app]; rewrite <- !app_assoc; reflexivity).
  apply first_tok_words; try assumption. rewrite forallb_app, Hbl. reflexivity.
Qed.

Lemma safe_hd_not_hash ts : Forall (fun t => forallb safe t = true) ts -> zlist_eqb (hd [] ts) [92; 35] = false.
Proof. intros [|t r Ht _]; [reflexivity|apply safe_word_not_hash, Ht]. Qed.

(* the printed names are words, and reading them back is name_path on each *)
Lemma names_texts sty l : Forall (fun n => Valid n /\ AllBytes n) l -> oAllBytes (s_origin sty) ->
  forall ts, map_res (name_to_styled_text sty) l = Ok ts ->
  Forall uword ts /\ zlist_eqb (hd [] ts) [92; 35] = false /\
  forall c, map_res (as_name c) (map utok ts) = map_res (name_path sty c) l.
Proof.
  intros Hl HO. induction Hl as [|n l [V HB] _ IH]; intros ts E.
  - inversion E; subst. repeat split; constructor.
  - cbn [map_res] in E.
    destruct (name_to_styled_text sty n) as [t| |] eqn:E1; cbn [bind] in E; try discriminate.
    destruct (map_res (name_to_styled_text sty) l) as [ts'| |] eqn:E2; cbn [bind] in E; try discriminate.
    inversion E; subst ts. destruct (IH ts' eq_refl) as (I1 & _ & I2).
    destruct (styled_name_word sty n t V HB HO E1) as [Hw Hh].
    split; [constructor; assumption|]. split; [exact Hh|]. intros c. cbn [map map_res]. unfold utok at 1.
    rewrite (as_name_printed sty c n t (has_bs t) V HB HO E1). rewrite I2. reflexivity.
Qed.

Lemma map_res_nil_inv {A B} (f : A -> res B) l : map_res f l = Ok [] -> l = [].
Proof.
  destruct l as [|a l]; [reflexivity|]. cbn [map_res]. destruct (f a); cbn [bind]; try discriminate.
  destruct (map_res f l); cbn [bind]; discriminate.
Qed.
