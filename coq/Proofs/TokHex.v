(* Hex and base64 fields: decode (encode d) = d for every octet string, the alphabets contain no
   tokenizer delimiter, and _wordbreak with any chunk size and a separator made of blanks
   produces a text that concatenate_remaining_identifiers reads back as the unbroken string. *)
From DV Require Import Base.Prelude Model.TokM Proofs.TokWords Proofs.TokEsc Proofs.ListFacts.
Open Scope Z_scope.

Lemma hexval_digit v : 0 <= v < 16 -> hexval (hexdigit v) = Some v.
Proof.
  intros Hv. unfold hexval, hexdigit, digit_val.
  destruct (v <? 10) eqn:E.
  - replace ((48 <=? 48 + v) && (48 + v <=? 57)) with true by lia.
    replace (48 + v - 48 <? 16) with true by lia. f_equal. lia.
  - replace ((48 <=? 87 + v) && (87 + v <=? 57)) with false by lia.
    replace ((97 <=? 87 + v) && (87 + v <=? 122)) with true by lia.
    replace (87 + v - 87 <? 16) with true by lia. f_equal. lia.
Qed.

Theorem unhexlify_hexlify d : all_bytes d = true -> unhexlify (hexlify d) = Ok d.
Proof.
  induction d as [|b d IH]; intros Hd; [reflexivity|]. apply all_bytes_cons in Hd as [Hb Hd].
  unfold hexlify in *. cbn [flat_map app unhexlify].
  rewrite !hexval_digit by dlia. rewrite IH by exact Hd. cbn [bind]. f_equal. f_equal. dlia.
Qed.

Lemma hexdigit_safe v : 0 <= v < 16 -> safe (hexdigit v) = true /\ 0 <= hexdigit v < 128.
Proof. intros Hv. unfold hexdigit. destruct (v <? 10) eqn:E; (split; [apply safe_char|]; lia). Qed.

Lemma hexlify_safe d : all_bytes d = true ->
  forallb safe (hexlify d) = true /\ all_ascii (hexlify d) = true.
Proof.
  intros Hd. apply wordc_word. induction d as [|b d IH]; [constructor|]. apply all_bytes_cons in Hd as [Hb Hd].
  unfold hexlify in *. cbn [flat_map app]. repeat apply Forall_cons; try (apply hexdigit_safe; dlia). apply IH, Hd.
Qed.

Definition b64_ok (v : Z) : bool :=
  match b64val (b64char v) with
  | Some v' => (v' =? v) && negb (b64char v =? 61) && safe (b64char v)
               && (0 <=? b64char v) && (b64char v <? 128)
  | None => false
  end.

Lemma b64_ok_all : forallb b64_ok (map Z.of_nat (seq 0 64)) = true.
Proof. vm_compute. reflexivity. Qed.

Lemma b64val_char v : 0 <= v < 64 ->
  b64val (b64char v) = Some v /\ (b64char v =? 61) = false /\ safe (b64char v) = true
  /\ 0 <= b64char v < 128.
Proof.
  intros Hv. pose proof (sweep _ 64 b64_ok_all v ltac:(lia)) as H. unfold b64_ok in H.
  destruct (b64val (b64char v)) as [v'|]; [|discriminate].
  repeat (apply andb_true_iff in H as [H ?]).
  apply negb_true_iff in H3. split; [f_equal; lia|]. split; [exact H3|]. split; [assumption|lia].
Qed.

Fixpoint list_ind3 {A} (P : list A -> Prop) (H0 : P []) (H1 : forall a, P [a]) (H2 : forall a b, P [a; b])
         (H3 : forall a b c r, P r -> P (a :: b :: c :: r)) (l : list A) : P l :=
  match l with
  | [] => H0
  | [a] => H1 a
  | [a; b] => H2 a b
  | a :: b :: c :: r => H3 a b c r (list_ind3 P H0 H1 H2 H3 r)
  end.

Lemma b64_step v r qp left pads acc : 0 <= v < 64 ->
  b64dec_loop (b64char v :: r) qp left pads acc
  = match qp with
    | 0%nat => b64dec_loop r 1%nat v 0%nat acc
    | 1%nat => b64dec_loop r 2%nat (v mod 16) 0%nat ((left * 4 + v / 16) :: acc)
    | 2%nat => b64dec_loop r 3%nat (v mod 4) 0%nat ((left * 16 + v / 4) :: acc)
    | _ => b64dec_loop r 0%nat 0 0%nat ((left * 64 + v) :: acc)
    end.
Proof.
  intros Hv. destruct (b64val_char v Hv) as (A & B & _). cbn [b64dec_loop]. rewrite A, B. reflexivity.
Qed.

Lemma b64decode_encode_acc d : all_bytes d = true -> forall acc,
  b64dec_loop (b64encode d) 0%nat 0 0%nat acc = Ok (rev acc ++ d).
Proof.
  induction d as [|a|a b|a b c r IH] using list_ind3; intros Hd acc;
    repeat (apply all_bytes_cons in Hd as [? Hd]); cbn [b64encode]; rewrite ?b64_step by dlia.
  - cbn. rewrite app_nil_r. reflexivity.
  - cbn [b64dec_loop Z.eqb Pos.eqb Nat.leb Nat.add rev]. do 3 f_equal. dlia.
  - cbn [b64dec_loop Z.eqb Pos.eqb Nat.leb Nat.add rev]. rewrite <- app_assoc. cbn [app]. do 3 f_equal; [dlia|f_equal; dlia].
  - rewrite IH by exact Hd. cbn [rev]. rewrite <- !app_assoc. cbn [app]. do 3 f_equal; [dlia|]. f_equal; [dlia|]. f_equal. dlia.
Qed.

Theorem b64decode_b64encode d : all_bytes d = true -> b64decode (b64encode d) = Ok d.
Proof. intros Hd. unfold b64decode. rewrite b64decode_encode_acc by exact Hd. reflexivity. Qed.

Lemma safe61 : safe 61 = true.
Proof. reflexivity. Qed.

Lemma b64encode_safe d : all_bytes d = true ->
  forallb safe (b64encode d) = true /\ all_ascii (b64encode d) = true.
Proof.
  intros Hd. apply wordc_word. assert (P61 : wordc 61) by (split; [reflexivity|lia]).
  assert (C : forall v, 0 <= v < 64 -> wordc (b64char v)) by (intros v Hv; apply (b64val_char v Hv)).
  induction d as [|a|a b|a b c r IH] using list_ind3; [constructor| | |];
    repeat (apply all_bytes_cons in Hd as [? Hd]); cbn [b64encode]; repeat apply Forall_cons; try apply Forall_nil; try (apply C; dlia); auto.
Qed.

(* the encodings of a non-empty octet string: one non-empty ASCII word each *)
Lemma hexlify_word d : all_bytes d = true -> d <> [] ->
  forallb safe (hexlify d) = true /\ all_ascii (hexlify d) = true /\ hexlify d <> [].
Proof. intros Hd Hne. destruct (hexlify_safe d Hd). destruct d; [congruence|]. repeat split; auto. discriminate. Qed.

Lemma b64encode_word d : all_bytes d = true -> d <> [] ->
  forallb safe (b64encode d) = true /\ all_ascii (b64encode d) = true /\ b64encode d <> [].
Proof.
  intros Hd Hne. destruct (b64encode_safe d Hd). destruct d as [|x [|y [|z r]]]; [congruence| | |]; repeat split; auto; discriminate.
Qed.

Lemma chunks_concat n : (0 < n)%nat -> forall f d, (length d <= f)%nat ->
  concat (chunks_fuel f n d) = d /\
  Forall (fun u => u <> [] /\ incl u d) (chunks_fuel f n d).
Proof.
  intros Hn. induction f as [|f IH]; intros d Hf.
  - destruct d; [split; [reflexivity|constructor]|cbn in Hf; lia].
  - cbn [chunks_fuel]. destruct d as [|x d]; [split; [reflexivity|constructor]|].
    destruct (IH (skipn n (x :: d))) as [I1 I2].
    { rewrite skipn_length. cbn [length] in *. lia. }
    split.
    + cbn [concat]. rewrite I1. apply firstn_skipn.
    + constructor.
      * split; [destruct n; [lia|discriminate]|].
        intros y Hy. rewrite <- (firstn_skipn n (x :: d)). apply in_or_app. left. exact Hy.
      * eapply Forall_impl; [|exact I2]. intros u [U1 U2]. split; [exact U1|].
        intros y Hy. rewrite <- (firstn_skipn n (x :: d)). apply in_or_app. right. apply U2, Hy.
Qed.

Lemma chunked_blanks bl w t : forallb is_blank bl = true -> chunked w t -> chunked w (bl ++ t).
Proof.
  induction bl as [|b bl IH]; intros Hbl H; [exact H|].
  cbn [forallb] in Hbl. apply andb_true_iff in Hbl as [Hb Hbl].
  cbn [app]. apply ch_blank; [exact Hb|]. apply IH; assumption.
Qed.

Lemma chunked_single w : forallb safe w = true -> chunked w w.
Proof.
  intros Hw. destruct w as [|c w]; [constructor|].
  rewrite <- (app_nil_r (c :: w)) at 1. rewrite <- (app_nil_r (c :: w)) at 2.
  apply ch_word; [discriminate|exact Hw|left; reflexivity|constructor].
Qed.

Lemma join_chunked sep cs : sep <> [] -> forallb is_blank sep = true ->
  Forall (fun u => u <> [] /\ forallb safe u = true) cs ->
  chunked (concat cs) (join_sep sep cs).
Proof.
  intros Hne Hsep. induction cs as [|x cs IH]; intros Hcs; [constructor|].
  inversion Hcs as [|? ? [Hx1 Hx2] Hcs']; subst.
  destruct cs as [|y cs].
  - cbn [concat join_sep]. rewrite app_nil_r. apply chunked_single, Hx2.
  - change (join_sep sep (x :: y :: cs)) with (x ++ sep ++ join_sep sep (y :: cs)).
    change (concat (x :: y :: cs)) with (x ++ concat (y :: cs)).
    apply ch_word; [exact Hx1|exact Hx2| |].
    + right. destruct sep as [|b sep]; [congruence|]. cbn [forallb] in Hsep.
      apply andb_true_iff in Hsep as [Hb _]. exists b, (sep ++ join_sep (b :: sep) (y :: cs)).
      split; [reflexivity|exact Hb].
    + apply chunked_blanks; [exact Hsep|]. apply IH, Hcs'.
Qed.

Lemma join_nil_concat cs : join_sep [] cs = concat cs.
Proof.
  induction cs as [|x cs IH]; [reflexivity|]. destruct cs as [|y cs].
  - cbn. rewrite app_nil_r. reflexivity.
  - change (join_sep [] (x :: y :: cs)) with (x ++ [] ++ join_sep [] (y :: cs)).
    rewrite IH. reflexivity.
Qed.

Theorem wordbreak_chunked w chunk sep :
  forallb safe w = true -> forallb is_blank sep = true -> chunked w (wordbreak w chunk sep).
Proof.
  intros Hw Hsep. unfold wordbreak. destruct (chunk <=? 0) eqn:E; [apply chunked_single, Hw|].
  destruct (chunks_concat (Z.to_nat chunk) ltac:(lia) (length w) w (le_n _)) as [C1 C2].
  destruct sep as [|b sep].
  - rewrite join_nil_concat, C1. apply chunked_single, Hw.
  - rewrite <- C1 at 1. apply join_chunked; [discriminate|exact Hsep|].
    eapply Forall_impl; [|exact C2]. intros u [U1 U2]. split; [exact U1|].
    rewrite forallb_forall in *. intros y Hy. apply Hw, U2, Hy.
Qed.
