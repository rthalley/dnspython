(* C13 - full transfers (AXFR) of a version with RRsets of any type: singleton types with one rdata,
   CNAME-kind RRsets, every node obeying "CNAME and other data".  The message parser merges the
   records of a later message into RRsets; a singleton RRset has one record in the whole stream, so
   Rdataset.add never replaces anything, and dns/node.py never evicts anything. *)
From DV Require Import Base.Prelude Model.XfrM Proofs.XfrSets Proofs.XfrSpec Proofs.XfrZone Proofs.XfrDiff
  Proofs.XfrSafety Proofs.XfrBasic Proofs.XfrRun Proofs.XfrSteps Proofs.XfrGeneral Proofs.XfrIxfr Proofs.XfrAxfr Proofs.XfrPerm Proofs.XfrGlue.
From Coq Require Import Sorting.Permutation.

Definition rs_ok_g (s : rrset) : Prop :=
  s_class s = cIN /\ s_type s <> tSOA /\ 0 <= s_name s /\ s_data s <> [] /\ ssorted (s_data s).

Lemma skey_type : forall s, (let '(_, ty, _) := skey s in ty) = s_type s.
Proof. reflexivity. Qed.

(* rs_ok_g and once have the bodies of XfrAxfr.rs_ok and XfrAxfr.once: the lemmas of XfrAxfr, stated with those,
   apply to them by conversion *)
Definition once (x : list rr) : Prop :=
  forall pre r post, x = pre ++ r :: post -> is_singleton (r_type r) = true -> ~ In (rkey r) (map rkey pre).

Definition msg_parse_ok_g (g : list rr -> list rrset) : Prop :=
  (forall x r, Forall rec_g x -> r_type r = tSOA -> g (x ++ [r]) = g x ++ [single r]) /\
  (forall x, Forall rec_g x -> once x ->
     Forall rs_ok_g (g x) /\ (forall k, In k (map skey (g x)) -> In k (map rkey x)) /\
     (forall pre s post, g x = pre ++ s :: post -> is_singleton (s_type s) = true -> ~ In (skey s) (map skey pre))) /\
  (forall x tz, Forall rec_g x -> once x -> zsorted tz -> zeq (addrs tz (g x)) (adds tz x)).

Lemma parse_group_true_ok_g : msg_parse_ok_g (group true).
Proof.
  split; [|split].
  - intros x r _ Hr. apply (group_go_after_soa x true [] r [] Hr).
  - intros x Hf Ho. destruct (group_parse true x Hf Ho) as (R1 & R2 & R3 & _). auto.
  - intros x tz Hf Ho. apply (group_parse true x Hf Ho).
Qed.

(* the body of a version, in any order: a singleton RRset has one record *)
Lemma body_once : forall v B, version_wf_g v -> Permutation B (body (v_rest v)) -> once B.
Proof.
  intros v B (_ & Hb & Sb & _) PB pre r post E Es Hin.
  assert (HinB : forall x, In x B -> In x (body (v_rest v))) by (intros x; apply Permutation_in, PB).
  apply in_map_iff in Hin. destruct Hin as [r' [Ek Hr']].
  assert (Hbr : In r (body (v_rest v))) by (apply HinB; rewrite E; apply in_or_app; right; left; reflexivity).
  assert (Hbr' : In r' (body (v_rest v))) by (apply HinB; rewrite E; apply in_or_app; left; exact Hr').
  rewrite <- (body_singleton_eq _ r r' Hb Sb Hbr Hbr' Ek Es) in Hr'.
  assert (Hnd : NoDup B) by (apply (Permutation_NoDup (Permutation_sym PB)), NoDup_body, Hb).
  rewrite E in Hnd. apply (NoDup_split_notin _ _ _ Hnd Hr').
Qed.

Lemma body_rec_g : forall v B, version_wf_g v -> Permutation B (body (v_rest v)) -> Forall rec_g B.
Proof.
  intros v B (_ & Hwf & _) PB. eapply Permutation_Forall; [apply Permutation_sym, PB|].
  rewrite <- zminus_nil. apply zminus_rec_g, Hwf.
Qed.

(* AXFR of a version of any content, the body in any order: any client zone, any division into messages *)
Lemma axfr_converges_g : forall v z0 ser B ws,
  version_wf_g v -> Permutation B (body (v_rest v)) ->
  chunking tAXFR (soa_rr v :: B ++ [soa_rr v]) ws ->
  exists z' n, inbound_xfr z0 tAXFR ser false ws = (Done z', n) /\ zeq z' (zone_of v).
Proof.
  intros v z0 ser B ws Hv PB. pose proof (erase_rec_g_id B (body_rec_g v B Hv PB)) as EB.
  apply axfr_converges_g_with_glue; [exact Hv| |]; rewrite EB; [apply perm_same_set, PB|apply (body_once v B Hv PB)].
Qed.

Theorem axfr_converges_general : forall v z0 ser ws,
  version_wf_g v -> chunking tAXFR (axfr_stream v) ws ->
  exists z' n, inbound_xfr z0 tAXFR ser false ws = (Done z', n) /\ zeq z' (zone_of v).
Proof. intros v z0 ser ws Hv. apply axfr_converges_g; [exact Hv|apply Permutation_refl]. Qed.

(* "ends early" for AXFR of a version of any content: every proper prefix of the stream, in any division
   into messages, is an error and leaves the zone alone *)
Theorem axfr_early_end_rejected_general : forall v z0 ser ws q,
  version_wf_g v -> Forall (header_ok tAXFR) ws -> q <> [] ->
  concat (map w_records ws) ++ q = axfr_stream v ->
  exists e n, inbound_xfr z0 tAXFR ser false ws = (Error e z0, n).
Proof.
  intros v z0 ser ws q Hv Hh Hq Hcat.
  destruct (prefix_chunking _ _ _ _ _ Hh Hcat) as [Hdeg|(c & Hch & Hc)].
  { apply no_first_record; [left; reflexivity|exact Hh|exact Hdeg]. }
  destruct (prefix_snoc _ _ _ _ Hc Hq) as (q' & Hbody & _).
  pose proof (body_rec_g v _ Hv (Permutation_refl _)) as Hpl. pose proof (todo_version v _ Hv (fun r H => H) (body_once v _ Hv (Permutation_refl _))) as Htd.
  rewrite Hbody in Hpl, Htd. apply Forall_app in Hpl. apply todo_prefix in Htd.
  destruct (axfr_eof_g _ v c z0 ser ws (proj2 (proj2 (proj2 Hv))) (proj1 Hpl) Htd Hch) as [n Hn]. eauto.
Qed.
