(* dns.renderer.Renderer used directly: an invariant over arbitrary sequences of add_question / add_rrset /
   reserve / release_reserved / add_opt / write_header / _write_tsig calls with TooBig caught by the caller. *)
From DV Require Import Base.Prelude Model.NameM Model.MessageM.
From DV Require Import Proofs.ListFacts Proofs.NameOrder Proofs.NameValid Proofs.NameRel Proofs.NameWire Proofs.NameCompress.
From DV Require Import Proofs.MessageName Proofs.MessageRender Proofs.MessageRead Proofs.MessageRoundtrip Proofs.MessageRoundtrip2.
From DV Require Import Proofs.MessageSize Proofs.MessagePad Proofs.MessageTrunc Proofs.MessageRoundtrip3.
Open Scope Z_scope.

(* every successful emission keeps the compression table sound (no well-formedness needed) *)
Definition ts_em (E : emitter) : Prop :=
  forall file t em t', TableSound file t -> E (zlen file) t = Ok (em, t') -> TableSound (file ++ em) t'.

Lemma full_labels_ok n o L : full_labels n o = Ok L -> name_ok L.
Proof.
  unfold full_labels. intros H. destruct (is_absolute n) eqn:A.
  - cbn [bind] in H. apply mk_name_ok in H. destruct H as (-> & V). split; assumption.
  - destruct o as [org|]; [|discriminate]. destruct (is_absolute org) eqn:Ao; [|discriminate].
    cbn [bind] in H. apply mk_name_ok in H. destruct H as (-> & V). split; [exact V|].
    destruct org as [|x org']; [discriminate|]. rewrite is_absolute_app. exact Ao.
Qed.

Lemma ts_nm_em n o c : ts_em (nm_em n o c).
Proof.
  intros file t em t' TS H. pose proof H as H0. unfold nm_em in H0. apply bind_ok in H0. destruct H0 as (L & HF & _).
  exact (proj1 (nm_em_sound n o L c file t em t' TS HF (full_labels_ok _ _ _ HF) H)).
Qed.

Lemma ts_seq (E1 E2 : emitter) : ts_em E1 -> ts_em E2 -> ts_em (seq_em E1 E2).
Proof.
  intros X1 X2 file t em t' TS H. apply seq_em_ok in H. destruct H as (e1 & t1 & e2 & H1 & H2 & ->).
  rewrite app_assoc. apply (X2 (file ++ e1) t1 e2 t'); [exact (X1 file t e1 t1 TS H1)|]. rewrite zlen_app. exact H2.
Qed.

Lemma ts_rd_em : forall ps o c, ts_em (rd_em ps o c).
Proof.
  induction ps as [|p r IH]; intros o c file t em t' TS H.
  - injection H as <- <-. rewrite app_nil_r. exact TS.
  - rewrite rd_em_cons in H. refine (ts_seq _ _ _ (IH o c) file t em t' TS H).
    destruct p; try apply ts_nm_em. intros f t0 e t1 T E. injection E as <- <-. apply TableSound_app. exact T.
Qed.

Lemma ts_rr_em owner ty cl ttl rd oo ro oc rc : ts_em (rr_em owner ty cl ttl rd oo ro oc rc).
Proof.
  intros file t em t' TS H.
  destruct (rr_em_split _ _ _ _ _ _ _ _ _ _ _ _ _ H) as (e1 & t1 & e2 & N1 & D1 & _ & _ & _ & _ & ->).
  pose proof (ts_nm_em owner oo oc file t e1 t1 TS N1) as TS1.
  set (hdr := MessageM.u16 ty ++ MessageM.u16 cl ++ MessageM.u32 ttl ++ MessageM.u16 (zlen e2)).
  replace (file ++ e1 ++ MessageM.u16 ty ++ MessageM.u16 cl ++ MessageM.u32 ttl ++ MessageM.u16 (zlen e2) ++ e2)
    with (((file ++ e1) ++ hdr) ++ e2) by (unfold hdr; rewrite <- !app_assoc; reflexivity).
  apply (ts_rd_em rd ro rc ((file ++ e1) ++ hdr) t1 e2 t'); [apply TableSound_app; exact TS1|].
  replace (zlen ((file ++ e1) ++ hdr)) with (zlen file + zlen e1 + 10); [exact D1|].
  rewrite !zlen_app. reflexivity.
Qed.

Lemma ts_rrs_em : forall rds owner ty cl ttl o c, ts_em (rrs_em owner ty cl ttl rds o c).
Proof.
  induction rds as [|rd r IH]; intros owner ty cl ttl o c.
  - intros file t em t' TS H. injection H as <- <-. rewrite app_nil_r. exact TS.
  - exact (ts_seq _ _ (ts_rr_em owner ty cl ttl rd o o c c) (IH owner ty cl ttl o c)).
Qed.

Lemma ts_rrset_em rs o c : ts_em (rrset_em rs o c).
Proof.
  unfold rrset_em. intros file t em t' TS H. destruct (rrds rs).
  - exact (ts_rr_em _ _ _ _ _ _ _ _ _ file t em t' TS H).
  - exact (ts_rrs_em _ _ _ _ _ _ _ file t em t' TS H).
Qed.

Lemma ts_q_em o n ty cl : ts_em (q_em o n ty cl).
Proof.
  intros file t em t' TS H. apply q_em_split in H. destruct H as (e1 & H1 & _ & _ & ->).
  rewrite app_assoc. apply TableSound_app. exact (ts_nm_em n o true file t e1 t' TS H1).
Qed.

Definition counts_sum (r : rst) : Z := cq r + can r + cau r + cad r.

(* e = the max_size the Renderer was created with (maxsz + reserved stays e) *)
Definition AInv (e : Z) (r : rst) : Prop :=
  12 <= zlen (out r) /\ zlen (out r) <= Z.max 12 e /\ TblBelow r /\
  maxsz r + reserved r = e /\ 0 <= reserved r /\
  (forall h, length h = 12%nat -> TableSound (h ++ skipn 12 (out r)) (tbl r)).

Lemma skipn_app_ge {A} (a b : list A) n : (n <= length a)%nat -> skipn n (a ++ b) = skipn n a ++ b.
Proof. intros H. rewrite skipn_app. replace (n - length a)%nat with 0%nat by lia. reflexivity. Qed.

Lemma zlen_ghost (h f : list Z) : length h = 12%nat -> 12 <= zlen f -> zlen (h ++ skipn 12 f) = zlen f.
Proof. intros Hh Hf. rewrite zlen_app. unfold zlen in *. rewrite skipn_length, Hh. lia. Qed.

(* only the sections 0..3 have a count *)
Lemma counts_sum_inc_any r sec n :
  counts_sum (inc_count r sec n) = counts_sum r + (if (0 <=? sec) && (sec <=? 3) then n else 0).
Proof.
  unfold counts_sum. cbn [cq can cau cad inc_count].
  destruct (Z.eqb_spec sec 0), (Z.eqb_spec sec 1), (Z.eqb_spec sec 2), (Z.eqb_spec sec 3), (Z.leb_spec 0 sec), (Z.leb_spec sec 3);
    cbn [andb]; lia.
Qed.

Lemma tracked_AInv E sec n e r b r' :
  ext_em E -> ts_em E -> AInv e r -> tracked E sec n r = Ok (b, r') ->
  AInv e r' /\ padded r' = padded r /\
  counts_sum r' = counts_sum r + (if b then 0 else if (0 <=? sec) && (sec <=? 3) then n else 0).
Proof.
  intros X T (I1 & I2 & I3 & I4 & I5 & I6) H.
  destruct (tracked_spec E sec n r b r' X I3 H) as (_ & em & new & HE & F & [(-> & Hfit & ->)|(-> & Hbig & ->)]).
  - pose proof (zlen_nonneg em). pose proof (TblBelow_step r em new I3 F) as TB'.
    split; [|split; [reflexivity|]].
    + unfold AInv, TblBelow. cbn [out tbl maxsz reserved inc_count set_out set_rsec].
      split; [rewrite zlen_app; lia|]. split; [rewrite zlen_app; lia|]. split; [exact TB'|]. split; [exact I4|]. split; [exact I5|].
      intros h Hh. rewrite skipn_app_ge by (unfold zlen in I1; lia). rewrite app_assoc.
      apply (T (h ++ skipn 12 (out r)) (tbl r) em (tbl r ++ new)); [apply I6; exact Hh|].
      rewrite zlen_ghost by assumption. exact HE.
    + rewrite counts_sum_inc_any. reflexivity.
  - split; [|split; [reflexivity|]].
    + unfold AInv, TblBelow. cbn [out tbl maxsz reserved set_rsec]. auto 10.
    + unfold counts_sum. cbn [cq can cau cad set_rsec]. lia.
Qed.

Definition rop_cnt (op : rop) : Z :=
  match op with
  | RQ _ _ _ => 1
  | RRS s rs => if (0 <=? s) && (s <=? 3) then rrset_count rs else 0
  | ROPT _ _ _ _ => 1
  | RTSIG _ _ => 1
  | _ => 0
  end.

Lemma AInv_set_padded e r : AInv e r -> AInv e (set_padded r).
Proof. intros H. exact H. Qed.

(* the invariant reads the output only through its length and what follows the header, and the two limits
   only through their sum and the sign of the reserve *)
Lemma AInv_frame e r r' :
  zlen (out r') = zlen (out r) -> skipn 12 (out r') = skipn 12 (out r) -> tbl r' = tbl r ->
  maxsz r' + reserved r' = e -> 0 <= reserved r' -> AInv e r -> AInv e r'.
Proof.
  unfold AInv, TblBelow. intros -> -> -> L R (I1 & I2 & I3 & _ & _ & I6). auto 10.
Qed.

Lemma rop_step_AInv origin id e op r b r' :
  AInv e r -> rop_step origin id op r = Ok (b, r') ->
  AInv e r' /\ counts_sum r' = counts_sum r + (if b then 0 else rop_cnt op).
Proof.
  intros I H. destruct op as [n t c|s rs|size| |oo pad os ts| |kn rd]; cbn [rop_step rop_cnt] in *.
  - rewrite add_question_tracked in H.
    destruct (tracked_AInv _ _ _ _ _ _ _ (ext_q_em _ _ _ _) (ts_q_em _ _ _ _) I H) as (A & _ & C). auto.
  - rewrite add_rrset_tracked in H.
    destruct (tracked_AInv _ _ _ _ _ _ _ (ext_rrset_em _ _ _) (ts_rrset_em _ _ _) I H) as (A & _ & C). auto.
  - (* reserve *)
    apply bind_ok in H. destruct H as (r1 & R & H). injection H as <- <-.
    apply reserve_iff in R. destruct R as (B & ->). pose proof I as (_ & _ & _ & I4 & I5 & _).
    split; [|unfold counts_sum; cbn; lia].
    apply (AInv_frame e r); cbn [out tbl maxsz reserved set_limits]; try reflexivity; [lia|lia|exact I].
  - (* release_reserved *)
    injection H as <- <-. pose proof I as (_ & _ & _ & I4 & I5 & _). split; [|unfold counts_sum; cbn; lia].
    apply (AInv_frame e r); unfold release_reserved; cbn [out tbl maxsz reserved set_limits]; try reflexivity; [lia|exact I].
  - (* add_opt *)
    rewrite add_opt_pad in H. unfold add_opt in H. cbn [Z.eqb] in H.
    apply bind_ok in H. destruct H as (rs & HR & H). rewrite add_rrset_tracked in H.
    assert (I' : AInv e (pad_st r pad)) by (unfold pad_st; destruct (pad =? 0); exact I).
    destruct (tracked_AInv _ _ _ _ _ _ _ (ext_rrset_em _ _ _) (ts_rrset_em _ _ _) I' H) as (A & _ & C).
    split; [exact A|]. rewrite C. change ((0 <=? 3) && (3 <=? 3)) with true. cbv iota.
    assert (counts_sum (pad_st r pad) = counts_sum r) by (unfold pad_st; destruct (pad =? 0); reflexivity).
    assert (rrset_count rs = 1).
    { unfold opt_rrset in HR. apply bind_ok in HR. destruct HR as (w & _ & HR). injection HR as <-. reflexivity. }
    destruct b; lia.
  - (* write_header *)
    apply bind_ok in H. destruct H as (r1 & R & H). injection H as <- <-. pose proof I as (I1 & _ & _ & I4 & I5 & _).
    destruct (write_header_spec _ _ _ I1 R) as (A & B & C & D & _ & S12 & _ & _ & Q0 & Q1 & Q2 & Q3).
    split; [|unfold counts_sum; lia].
    apply (AInv_frame e r); try assumption; lia.
  - (* _write_tsig *)
    rewrite write_tsig_eq in H. apply bind_ok in H. destruct H as ([b1 r1] & H1 & H). cbn [fst snd] in H.
    destruct (tracked_AInv _ _ _ _ _ _ _ (ext_rr_em _ _ _ _ _ _ _ _ _) (ts_rr_em _ _ _ _ _ _ _ _ _) I H1) as (A & _ & C).
    change ((0 <=? 3) && (3 <=? 3)) with true in C. cbv iota in C.
    destruct b1.
    + injection H as <- <-. split; [exact A|lia].
    + apply bind_ok in H. destruct H as (c & _ & H). injection H as <- <-. pose proof A as (J1 & _ & _ & J4 & J5 & _).
      split; [|unfold counts_sum in *; cbn [cq can cau cad set_out]; lia].
      apply (AInv_frame e r1); cbn [out tbl maxsz reserved set_out]; try assumption; try reflexivity.
      * apply zlen_patch16; lia.
      * apply skipn_patch16_12. unfold zlen in J1. lia.
Qed.

(* the records accepted by a sequence of calls (TooBig calls count nothing) *)
Fixpoint accepted (origin : option name) (id : Z) (ops : list rop) (r : rst) : Z :=
  match ops with
  | [] => 0
  | op :: rest =>
      match rop_step origin id op r with
      | Ok (big, r') => (if big then 0 else rop_cnt op) + accepted origin id rest r'
      | _ => 0
      end
  end.

Theorem api_invariant_lemma origin id e : forall ops r acc res r',
  AInv e r -> run_rops origin id ops r acc = (res, r') ->
  AInv e r' /\ counts_sum r' = counts_sum r + accepted origin id ops r.
Proof.
  induction ops as [|op ops IH]; intros r acc res r' I H.
  - injection H as _ <-. split; [exact I|cbn; lia].
  - cbn [run_rops accepted] in *. destruct (rop_step origin id op r) as [[b r1]| |] eqn:S.
    + destruct (rop_step_AInv _ _ _ _ _ _ _ I S) as (I1 & C1).
      destruct (IH r1 _ res r' I1 H) as (I2 & C2). split; [exact I2|lia].
    + injection H as _ <-. split; [exact I|lia].
    + injection H as _ <-. split; [exact I|lia].
Qed.

Lemma AInv_init flags ms : AInv ms (mkRst (repeat 0 12) [] 0 0 0 0 0 flags ms 0 false).
Proof.
  unfold AInv, TblBelow. cbn [out tbl maxsz reserved]. change (zlen (repeat 0 12)) with 12.
  split; [lia|]. split; [lia|]. split; [constructor|]. split; [lia|]. split; [lia|]. intros h Hh k v [].
Qed.

(* a Renderer created with max_size, after ANY sequence of calls: the output is at most max(12, max_size)
   octets, the header counts add up to the records accepted, every compression-table offset lies inside
   the output and decodes (in the output as it is, header included) to its key *)
Theorem renderer_api_invariant_lemma origin id flags ms ops res r :
  run_rops origin id ops (mkRst (repeat 0 12) [] 0 0 0 0 0 flags ms 0 false) [] = (res, r) ->
  12 <= zlen (out r) <= Z.max 12 ms /\
  cq r + can r + cau r + cad r = accepted origin id ops (mkRst (repeat 0 12) [] 0 0 0 0 0 flags ms 0 false) /\
  Forall (fun kv => snd kv < zlen (out r)) (tbl r) /\
  TableSound (out r) (tbl r) /\
  (maxsz r + reserved r = ms /\ 0 <= reserved r).
Proof.
  intros H. destruct (api_invariant_lemma origin id ms ops _ _ _ _ (AInv_init flags ms) H) as ((I1 & I2 & I3 & I4 & I5 & I6) & C).
  split; [lia|]. split; [unfold counts_sum in C; cbn [cq can cau cad] in C; lia|]. split; [exact I3|].
  split; [|split; [exact I4|exact I5]].
  specialize (I6 (firstn 12 (out r))). rewrite firstn_skipn in I6. apply I6.
  rewrite firstn_length. unfold zlen in I1. lia.
Qed.

(* EDNS options: what the reader returns is in the form the option classes render *)
Definition octets (l : list Z) : Prop := Forall (fun b => 0 <= b < 256) l.

Lemma rstrip0_idem l : rstrip0 (rstrip0 l) = rstrip0 l.
Proof.
  induction l as [|a l IH]; [reflexivity|].
  change (rstrip0 (a :: l)) with (match rstrip0 l with [] => if a =? 0 then [] else [a] | r' => a :: r' end).
  destruct (rstrip0 l) as [|z l0] eqn:E.
  - destruct (a =? 0) eqn:Ea; [reflexivity|]. cbn. rewrite Ea. reflexivity.
  - change (rstrip0 (a :: z :: l0)) with (match rstrip0 (z :: l0) with [] => if a =? 0 then [] else [a] | r' => a :: r' end).
    rewrite IH. reflexivity.
Qed.

Lemma ecs_mask_idem src p : ecs_mask src (ecs_mask src p) = ecs_mask src p.
Proof.
  unfold ecs_mask. cbv zeta. destruct (src mod 8 =? 0) eqn:E; [reflexivity|].
  rewrite removelast_last, last_last. f_equal. f_equal.
  rewrite <- Z.land_assoc, Z.land_diag. reflexivity.
Qed.

Lemma ecs_mask_len src p : 0 <= src -> zlen p = (src + 7) / 8 -> zlen (ecs_mask src p) = zlen p.
Proof.
  intros H0 HL. unfold ecs_mask. cbv zeta. destruct (src mod 8 =? 0) eqn:E; [reflexivity|].
  apply Z.eqb_neq in E.
  assert (NE : p <> []).
  { intros ->. assert (1 <= src) by (destruct (Z.eq_dec src 0); [subst; cbn in E; (Z.to_euclidean_division_equations; lia)|lia]).
    assert (1 <= (src + 7) / 8) by (apply Z.div_le_lower_bound; lia). cbn in HL. lia. }
  (* only the last octet is replaced *)
  rewrite (app_removelast_last 0 NE) at 3. unfold zlen. rewrite !app_length. reflexivity.
Qed.

(* an option the reader accepted is accepted again, unchanged, when its octets come back *)
Lemma opt_dec_idem code d d' : octets d -> opt_dec code d = Ok d' -> opt_dec code d' = Ok d'.
Proof.
  intros OC. unfold opt_dec.
  destruct (code =? 3); [intros H; injection H as <-; reflexivity|].
  destruct (code =? 10).
  { destruct ((zlen d =? 8) || ((16 <=? zlen d) && (zlen d <=? 40))) eqn:C; [|discriminate].
    intros H; injection H as <-. rewrite C. reflexivity. }
  destruct ((22 <=? code) && (code <=? 25)).
  { destruct (utf8_ok d) eqn:C; [|discriminate]. intros H; injection H as <-. rewrite C. reflexivity. }
  destruct (code =? 15).
  { destruct d as [|a [|b text]]; try discriminate.
    destruct (utf8_ok (rstrip0 text)) eqn:C; [|discriminate]. intros H; injection H as <-.
    rewrite rstrip0_idem, C. reflexivity. }
  destruct (code =? 8).
  { destruct d as [|f1 [|f2 [|src [|scope prefix]]]]; try discriminate.
    destruct (negb ((f1 * 256 + f2 =? 1) || (f1 * 256 + f2 =? 2))) eqn:C1; [discriminate|].
    destruct (negb (zlen prefix =? (src + 7) / 8)) eqn:C2; [discriminate|].
    destruct ((((if f1 * 256 + f2 =? 1 then 32 else 128) <? src) || ((if f1 * 256 + f2 =? 1 then 32 else 128) <? scope))) eqn:C3; [discriminate|].
    intros H; injection H as <-. rewrite C1.
    assert (0 <= src).
    { inversion OC as [|? ? _ O1]; subst. inversion O1 as [|? ? _ O2]; subst. inversion O2 as [|? ? Hs _]; subst. lia. }
    apply Bool.negb_false_iff in C2. apply Z.eqb_eq in C2.
    rewrite (ecs_mask_len src prefix H C2). rewrite C2, Z.eqb_refl. cbn [negb]. rewrite C3, ecs_mask_idem. reflexivity. }
  destruct (code =? 18); [discriminate|].
  intros H; injection H as <-. reflexivity.
Qed.

Lemma octets_rd_bytes wire endp cur n b : octets wire -> rd_bytes wire endp cur n = Ok b -> octets b.
Proof.
  intros OW. unfold rd_bytes. destruct (Nat.ltb (endp - cur) n); [discriminate|]. intros H; injection H as <-.
  unfold octets in *. rewrite <- (firstn_skipn cur wire) in OW. apply Forall_app in OW. destruct OW as (_ & OW).
  rewrite <- (firstn_skipn n (skipn cur wire)) in OW. apply Forall_app in OW. exact (proj1 OW).
Qed.

(* a name the reader returns is absolute (it ends where the root label was read) and valid *)
Lemma nm_lab_abs wire endp jump biggest :
  (forall c f a r, jump c f a = Ok r -> is_absolute (fst r) = true) ->
  forall fl cur fur acc r, nm_lab wire endp jump biggest fl cur fur acc = Ok r -> is_absolute (fst r) = true.
Proof.
  intros HJ. induction fl as [|fl IH]; intros cur fur acc r H; [discriminate|].
  cbn [nm_lab] in H. destruct (rd_u8 wire endp cur) as [count| |]; try discriminate.
  destruct (count =? 0).
  { injection H as <-. cbn [fst rev]. apply is_absolute_app_last. }
  destruct (count <? 64).
  { destruct (rd_bytes wire endp (cur + 1) (Z.to_nat count)) as [l| |]; try discriminate. exact (IH _ _ _ _ H). }
  destruct (192 <=? count); [|discriminate].
  destruct (rd_u8 wire endp (cur + 1)) as [lo| |]; try discriminate.
  destruct (Nat.leb _ _); [discriminate|]. destruct (Nat.ltb _ _); [discriminate|]. exact (HJ _ _ _ _ H).
Qed.

Lemma nm_ptr_abs wire endp : forall fp cur fur biggest acc r,
  nm_ptr wire endp fp cur fur biggest acc = Ok r -> is_absolute (fst r) = true.
Proof.
  induction fp as [|fp IH]; intros cur fur biggest acc r H; [discriminate|].
  cbn [nm_ptr] in H. refine (nm_lab_abs wire endp _ biggest _ _ _ _ _ _ H).
  intros c f a r' HJ. exact (IH _ _ _ _ _ HJ).
Qed.

Lemma nm_from_wire_ok wire endp start nc : nm_from_wire wire endp start = Ok nc -> name_ok (fst nc).
Proof.
  unfold nm_from_wire. destruct (Nat.ltb endp start); [discriminate|].
  destruct (nm_ptr wire endp (S start) start start start []) as [[labels fur]| |] eqn:E; try discriminate.
  intros H. apply bind_ok in H. destruct H as (n & M & H). injection H as <-. cbn [fst].
  apply mk_name_ok in M. destruct M as (-> & V). split; [exact V|].
  exact (nm_ptr_abs _ _ _ _ _ _ _ _ E).
Qed.

Lemma opts_loop_fixed wire : octets wire -> forall fuel endp cur acc os,
  opts_ok acc -> opts_loop wire fuel endp cur acc = Ok os -> opts_ok os.
Proof.
  intros OW. induction fuel as [|f IH]; intros endp cur acc os OA H; [discriminate|].
  cbn [opts_loop] in H. destruct (Nat.leb endp cur).
  { injection H as <-. unfold opts_ok in *. apply Forall_rev. exact OA. }
  apply bind_ok in H. destruct H as (otype & _ & H). apply bind_ok in H. destruct H as (olen & _ & H).
  apply bind_ok in H. destruct H as (data & ED & H). apply bind_ok in H. destruct H as (d & EO & H).
  refine (IH _ _ _ _ (Forall_cons (otype, d) _ OA) H).
  unfold opt_wf. cbn [fst snd]. destruct (otype =? 18).
  - apply bind_ok in EO. destruct EO as (nc & EN & EO). destruct (Nat.eqb _ _); [|discriminate].
    injection EO as <-. exists (fst nc). split; [exact (nm_from_wire_ok _ _ _ _ EN)|reflexivity].
  - exact (opt_dec_idem otype data d (octets_rd_bytes _ _ _ _ _ OW ED) EO).
Qed.

Definition OptInv (m : msg) : Prop :=
  match mopt m with Some oo => opts_ok (oopts oo) | None => True end.

Lemma get_question_optinv wire origin iu : forall k cur m r,
  OptInv m -> get_question wire origin iu k cur m = Ok r -> OptInv (snd r).
Proof.
  induction k as [|k IH]; intros cur m r OI H.
  - injection H as <-. exact OI.
  - cbn [get_question] in H. apply bind_ok in H. destruct H as (nc & _ & H).
    apply bind_ok in H. destruct H as (ty & _ & H). apply bind_ok in H. destruct H as (cl & _ & H).
    apply bind_ok in H. destruct H as ([[[c' t'] dl] em] & _ & H).
    refine (IH _ _ _ _ H). exact OI.
Qed.

Lemma get_rr_optinv wire origin po iu section count i cur fu m r :
  octets wire -> OptInv m -> get_rr wire origin po iu section count i cur fu m = Ok r -> OptInv (snd r).
Proof.
  intros OW OI H. unfold get_rr in H.
  apply bind_ok in H. destruct H as ([[[[[[an n] c1] ty] cl] ttl] rdlen] & _ & H).
  apply bind_ok in H. destruct H as ([[[c' t'] dl] em] & _ & H).
  destruct em.
  { destruct (rdlen >? 0); [discriminate|]. injection H as <-. exact OI. }
  destruct (Nat.ltb _ _); [discriminate|].
  destruct (t' =? tOPT).
  { apply bind_ok in H. destruct H as (os & EO & H). injection H as <-.
    unfold OptInv. cbn [snd set_opt mopt oopts]. apply (opts_loop_fixed wire OW _ _ _ _ _ (Forall_nil _) EO). }
  apply bind_ok in H. destruct H as (rd & _ & H).
  destruct (t' =? tTSIG).
  { destruct (negb (ttl =? 0)); [discriminate|]. destruct (negb (p_keyring_false po)); [discriminate|].
    injection H as <-. exact OI. }
  injection H as <-. exact OI.
Qed.

Lemma get_section_optinv wire origin po iu section count : octets wire -> forall k i cur fu m r,
  OptInv m -> get_section wire origin po iu section count i k cur fu m = Ok r -> OptInv (snd r).
Proof.
  intros OW. induction k as [|k IH]; intros i cur fu m r OI H.
  - injection H as <-. exact OI.
  - cbn [get_section] in H. apply bind_ok in H. destruct H as ([[c2 f2] m2] & E & H).
    apply (IH _ _ _ _ _ (get_rr_optinv _ _ _ _ _ _ _ _ _ _ _ OW OI E) H).
Qed.

(* every message the reader returns carries its EDNS options in the octets their classes render: the options
   hypothesis of render_parse (opts_ok) holds for parsed messages, for every wire and every reader option *)
Lemma parsed_options_wf_lemma wire origin po m :
  octets wire -> from_wire wire origin po = Ok m -> OptInv m.
Proof.
  intros OW H. unfold from_wire in H. destruct (Nat.ltb (length wire) 12); [discriminate|].
  apply bind_ok in H. destruct H as (id & _ & H). apply bind_ok in H. destruct H as (flags & _ & H).
  apply bind_ok in H. destruct H as (qc & _ & H). apply bind_ok in H. destruct H as (anc & _ & H).
  apply bind_ok in H. destruct H as (auc & _ & H). apply bind_ok in H. destruct H as (adc & _ & H).
  cbv zeta in H.
  match type of H with (match ?b with _ => _ end) = _ => destruct b as [mb|e|e] eqn:EB end.
  2: { destruct (_ && _ && _); discriminate. }
  2: discriminate.
  destruct (_ && _); [discriminate|]. injection H as <-.
  apply bind_ok in EB. destruct EB as (q & EQ & EB).
  assert (OQ : OptInv (snd q)) by (refine (get_question_optinv _ _ _ _ _ _ _ _ EQ); exact Logic.I).
  destruct (p_question_only po); [injection EB as <-; exact OQ|].
  apply bind_ok in EB. destruct EB as (a & EA & EB). apply bind_ok in EB. destruct EB as (b & EBB & EB).
  apply bind_ok in EB. destruct EB as (c & EC & EB).
  destruct (_ && _); [discriminate|]. injection EB as <-.
  pose proof (get_section_optinv _ _ _ _ _ _ OW _ _ _ _ _ _ OQ EA) as OA.
  pose proof (get_section_optinv _ _ _ _ _ _ OW _ _ _ _ _ _ OA EBB) as OB.
  exact (get_section_optinv _ _ _ _ _ _ OW _ _ _ _ _ _ OB EC).
Qed.
