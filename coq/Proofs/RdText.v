(* Schema-level text round trip: for every well-formed schema (sequence of fields as used by the
   regular rdata types), every list of field values within the constructor's ranges, every style
   whose chunk separators are blanks and every parsing context, dns.rdata.from_text applied to the
   text produced by to_styled_text returns the values (names mapped by the name-level effect of
   the relativization choices). *)
From DV Require Import Base.Prelude Model.NameM Model.TokM Model.RdTextM.
From DV Require Import Proofs.ListFacts Proofs.NameValid Proofs.NameText Proofs.TokEsc Proofs.TokTxt Proofs.TokWords
     Proofs.TokDec Proofs.TokHex Proofs.TokShape Proofs.TokGeneric Proofs.TokUtf8 Proofs.RdTextName Proofs.RdTextAddr Proofs.RdTextBitmap Proofs.RdTextTypes Proofs.RdTextB32 Proofs.RdTextSig Proofs.RdTextEui Proofs.RdTextFmtHex Proofs.RdTextTail Proofs.RdTextGpos Proofs.RdTextApl Proofs.RdTextWks Proofs.RdTextSvcb Proofs.RdTextLoc Proofs.RdTextLocAlt.
From DV Require Model.SchemaM.
Open Scope Z_scope.

Definition is_rest (f : tfield) : bool :=
  match f with FHexRest | FB64Rest _ | FTxtRest | FBitmap | FQOpt | FNamesRest | FB64RestOpt | FB64RestE | FKeyRec | FAplRest | FWksPorts | FSvcbRec | FLocRec => true | _ => false end.

(* non-empty; the fields that read the rest of the line come last *)
Fixpoint schema_wf (fs : list tfield) : Prop :=
  match fs with
  | [] => False
  | [_] => True
  | f :: r => is_rest f = false /\ schema_wf r
  end.

Definition val_ok (f : tfield) (v : tval) : Prop :=
  match f, v with
  | FDec maxv, VInt z => 0 <= z <= maxv
  | FTtl, VInt z => 0 <= z <= MAX_TTL
  | FQStr tokmax ctormax ne, VBytes b =>
      all_bytes b = true /\ (tokmax = 0 \/ zlen b <= tokmax) /\ (ctormax = 0 \/ zlen b <= ctormax)
      /\ (ne = true -> b <> [])
  | FName, VName n => Valid n /\ AllBytes n
  | FHexRest, VBytes b => all_bytes b = true /\ b <> []
  | FB64Rest _, VBytes b => all_bytes b = true /\ b <> []
  | FTxtRest, VStrs l => l <> [] /\ Forall (fun s => all_bytes s = true /\ zlen s <= 255) l
  | FAddr v6, VBytes b => all_bytes b = true /\ length b = (if v6 then 16 else 4)%nat
  | FHexTok, VBytes b => all_bytes b = true /\ zlen b <= 255
  | FAlg, VInt z => 0 <= z <= 255
  | FTag, VBytes b => b <> [] /\ zlen b <= 255 /\ forallb is_alnum b = true
  | FBitmap, VWindows ws => canon_from (-1) ws /\ no_type0 ws
  | FB32, VBytes b => all_bytes b = true /\ b <> [] /\ zlen b <= 255
  | FEnum k, VInt z => 0 <= z <= enum_max k
  | FNsap, VBytes b => all_bytes b = true
  | FIntC maxv, VInt z => 0 <= z <= maxv
  | FSigTime, VInt z => 0 <= z <= 4294967295
  | FEui n, VBytes b => all_bytes b = true /\ length b = n /\ (0 < n)%nat
  | FFmtHex, VBytes t => fmthex_ok t = true
  | FOct16, VInt z => 0 <= z <= 65535
  | FQOpt, VBytes b => all_bytes b = true /\ zlen b <= 255
  | FHexStr, VBytes b => all_bytes b = true /\ b <> [] /\ zlen b <= 255
  | FB64Tok maxlen, VBytes b => all_bytes b = true /\ b <> [] /\ zlen b <= maxlen
  | FNamesRest, VNames l => Forall (fun n => Valid n /\ AllBytes n) l
  | FNameNoRel, VName n => Valid n /\ AllBytes n
  | FB64RestOpt, VBytes b => all_bytes b = true /\ zlen b <= 65535
  | FB64RestE, VBytes b => all_bytes b = true
  | FMac, VBytes b => all_bytes b = true /\ b <> [] /\ zlen b <= 65535
  | FOther, VBytes b => all_bytes b = true /\ zlen b <= 65535
  | FGposStr, VBytes b => (exists p, SchemaM.parse_float b = Some p) /\ zlen b <= 255
  | FAddr4S, VBytes b => all_bytes b = true /\ length b = 4%nat
  | FWksProto, VInt z => 0 <= z <= 255
  | FWksPorts, VBytes bm => all_bytes bm = true /\ wks_canon bm /\ zlen bm <= 8192
  | FLocRec, VLoc la lo alt sz hp vp => loc_wf la lo alt sz hp vp
  | FSvcbRec, VSvcb p n ps => svcb_ok p n ps
  | FAplRest, VApl items => Forall item_ok items
  | FKeyRec, VKey f p a at_ k =>
      0 <= f <= 65535 /\ 0 <= p <= 255 /\ 0 <= a <= 255 /\ at_ = [] /\ all_bytes k = true /\
      (if Z.land f 49152 =? 49152 then k = [] else k <> [])
  | FGw ipsec, VGw g a gw =>
      0 <= a <= 255 /\ (ipsec = false -> a = 0) /\
      match gw with
      | GwNone => g = 0
      | GwText t => (g = 1 /\ exists b, all_bytes b = true /\ length b = 4%nat /\ ipv4_ntoa b = Ok t)
                    \/ (g = 2 /\ exists b, all_bytes b = true /\ length b = 16%nat /\ ipv6_ntoa b = Ok t)
      | GwName n => g = 3 /\ Valid n /\ AllBytes n
      end
  | _, _ => False
  end.

Definition style_ok (st : style) : Prop :=
  forallb is_blank (s_hex_sep st) = true /\ forallb is_blank (s_b64_sep st) = true /\ oAllBytes (s_origin st).

Definition expect (st : style) (c : pctx) (f : tfield) (v : tval) : res tval :=
  match f, v with
  | FName, VName n => do n' <- name_path st c n; Ok (VName n')
  | FNameNoRel, VName n => do n' <- name_path st (mkPctx None false None) n; Ok (VName n')
  | FNamesRest, VNames l => do l' <- map_res (name_path st c) l; Ok (VNames l')
  | FGw _, VGw g a (GwName n) => do n' <- name_path st c n; Ok (VGw g a (GwName n'))
  | FSvcbRec, VSvcb p n ps => do n' <- name_path st c n; Ok (VSvcb p n' ps)
  | FLocRec, VLoc la lo alt sz hp vp => Ok (loc_expect la lo alt sz hp vp)
  | _, _ => Ok v
  end.

Fixpoint expects (st : style) (c : pctx) (fs : list tfield) (vs : list tval) : res (list tval) :=
  match fs, vs with
  | [], [] => Ok []
  | f :: fs', v :: vs' => do a <- expect st c f v; do b <- expects st c fs' vs'; Ok (a :: b)
  | _, _ => Internal eBadCase
  end.

(* what field_ok says of one field *)
(* where the tokenizer stands after a field that is followed by R: the fields that read the rest of the line
   may have consumed the end-of-line token and pushed it back *)
Definition after_field (f : tfield) (R : list Z) (st : tstate) : Prop :=
  (is_rest f = true /\ at_eol st) \/ exists q bl, forallb is_blank bl = true /\ st = stq q (bl ++ R).

Definition field_read (c : pctx) (f : tfield) (v' : tval) (R : list Z) (stX : tstate) : Prop :=
  exists raw st, parse_field c f stX = Ok (raw, st) /\ ctor_field f raw = Ok v' /\ after_field f R st.

Lemma after_stq f R q : after_field f R (stq q R).
Proof. right. exists q, []. split; reflexivity. Qed.

(* a field printed as one word and read as one token *)
Lemma word_field c f w raw v' R q bl :
  forallb is_blank bl = true -> uword w -> zlist_eqb w [92; 35] = false -> word_end R ->
  (forall stX, get0 stX = Ok (utok w, stq false R) -> parse_field c f stX = Ok (raw, stq false R)) ->
  ctor_field f raw = Ok v' ->
  first_tok (stq q (bl ++ w ++ R)) (field_read c f v' R).
Proof.
  intros Hbl Hw Hh HR Hp Hc. apply first_tok_word; try assumption. intros stX HX _.
  exists raw, (stq false R). split; [exact (Hp stX HX)|]. split; [exact Hc|apply after_stq].
Qed.

Lemma sword_field c f w raw v' R q bl :
  forallb is_blank bl = true -> forallb safe w = true -> w <> [] -> word_end R ->
  (forall stX, get0 stX = Ok (utok w, stq false R) -> parse_field c f stX = Ok (raw, stq false R)) ->
  ctor_field f raw = Ok v' ->
  first_tok (stq q (bl ++ w ++ R)) (field_read c f v' R).
Proof. intros Hbl Hs Hne. apply word_field; [exact Hbl|split; [apply units_safe, Hs|exact Hne]|apply safe_word_not_hash, Hs]. Qed.

(* a field that reads the rest of the line and ends with the end-of-line token pushed back *)
Lemma rest_field c f raw v' R st (P : tstate -> Prop) :
  is_rest f = true -> ctor_field f raw = Ok v' ->
  (forall stX, P stX -> exists st, parse_field c f stX = Ok (raw, st) /\ at_eol st) ->
  first_tok st P -> first_tok st (field_read c f v' R).
Proof.
  intros Hr Hc Hp. apply first_tok_impl. intros stX HX. destruct (Hp stX HX) as (se & E & He).
  exists raw, se. split; [exact E|]. split; [exact Hc|left; split; assumption].
Qed.

Lemma quote_app b R : quote b ++ R = 34 :: escapify b ++ 34 :: R.
Proof. unfold quote. cbn [app]. rewrite <- app_assoc. reflexivity. Qed.

Lemma blanks_snoc bl : forallb is_blank bl = true -> forallb is_blank (bl ++ [32]) = true.
Proof. intros H. rewrite forallb_app, H. reflexivity. Qed.

(* the quoted string as the next token, read by get_string_as_bytes / unescape_to_bytes *)
Lemma unescape_quoted b he : all_bytes b = true ->
  unescape_to_bytes (mkTok tQUOTED (escapify b) he None) = Ok (mkTok tQUOTED b false None).
Proof. intros Hb. unfold unescape_to_bytes. cbn [tvalue ttype]. rewrite unescape_to_bytes_escapify by exact Hb. reflexivity. Qed.

Lemma b64decode_str_encode b : all_bytes b = true -> b64decode_str (b64encode b) = Ok b.
Proof.
  intros Hb. unfold b64decode_str. destruct (b64encode_safe b Hb) as [_ Ha]. unfold all_ascii in Ha. rewrite Ha.
  apply b64decode_b64encode, Hb.
Qed.

Lemma first_tok_join_sp ts R q bl :
  Forall uword ts -> zlist_eqb (hd [] ts) [92; 35] = false -> line_end R -> forallb is_blank bl = true ->
  first_tok (stq q (bl ++ join_sp ts ++ R))
    (fun stX => exists st, get_remaining stX 0 = Ok (map utok ts, st) /\ at_eol st).
Proof.
  intros Hts Hh HR Hbl. destruct Hts as [|t ts Ht Hts]; [apply first_tok_no_words; assumption|].
  rewrite join_sp_cons_spaced, <- app_assoc. apply first_tok_words; assumption.
Qed.

(* from any state whose next token is the first chunk; mk = the value built from the octets *)
Lemma rest_bytes_first decode (mk : list Z -> tval) enc d t : chunked enc t -> forall R q bl,
  enc <> [] -> all_ascii enc = true -> decode enc = Ok d ->
  forallb is_blank bl = true -> line_end R ->
  first_tok (stq q (bl ++ t ++ R)) (fun stX => forall allow, exists st,
    (do hs <- concatenate_remaining_identifiers stX allow; do b <- utf8_encode (fst hs); do d' <- decode b; Ok (mk d', snd hs))
    = Ok (mk d, st) /\ at_eol st).
Proof.
  induction 1 as [|b w t Hb Hch IH|u w t Hu Hsu Ht Hch _]; intros R q bl Hne Hasc Hdec Hbl HR; [congruence| |].
  - replace (bl ++ (b :: t) ++ R) with ((bl ++ [b]) ++ t ++ R) by (rewrite <- app_assoc; reflexivity).
    apply IH; try assumption. rewrite forallb_app, Hbl. cbn [forallb]. rewrite Hb. reflexivity.
  - rewrite <- app_assoc.
    apply first_tok_word; [exact Hbl|split; [apply units_safe, Hsu|exact Hu]|apply safe_word_not_hash, Hsu|
                           apply chunk_word_end; assumption|].
    intros stX HX Hlen allow. unfold concatenate_remaining_identifiers, rem_fuel.
    rewrite cri_unfold, (get_unescaped_tok _ _ _ HX Hsu). cbn [bind app].
    change (is_eol_or_eof (mkTok tIDENT u false None)) with false.
    change (is_identifier (mkTok tIDENT u false None)) with true. cbn [negb tvalue].
    destruct (chunked_cri w t Hch false [] R (S (length (inp stX))) u eq_refl HR) as (te & st3 & H1 & H2 & E3).
    { rewrite app_length in Hlen. lia. }
    cbn [app] in E3. rewrite E3. cbn [bind fst snd].
    replace (is_nil (u ++ w)) with false by (destruct u; [congruence|reflexivity]).
    rewrite orb_true_r. cbn [negb bind fst snd].
    rewrite utf8_ascii by exact Hasc. cbn [bind]. rewrite Hdec. cbn [bind].
    exists st3. split; [reflexivity|exists te; split; assumption].
Qed.

(* decimal algorithm numbers are not mnemonics: finite sweep *)
Definition alg_ok (z : Z) : bool := match alg_from_text (dec z) with Ok v => v =? z | _ => false end.
Lemma alg_ok_all : forallb alg_ok (map Z.of_nat (seq 0 256)) = true.
Proof. vm_compute. reflexivity. Qed.
Lemma alg_dec z : 0 <= z <= 255 -> alg_from_text (dec z) = Ok z.
Proof.
  intros Hz. pose proof (sweep _ 256 alg_ok_all z ltac:(lia)) as H. unfold alg_ok in H.
  destruct (alg_from_text (dec z)) as [v| |]; try discriminate. apply Z.eqb_eq in H. subst. reflexivity.
Qed.

(* alphanumeric octets print as themselves and form a safe ASCII word *)
Lemma alnum_facts b : forallb is_alnum b = true ->
  escapify b = b /\ forallb safe b = true /\ all_ascii b = true.
Proof.
  intros H. split; [|apply (forallb_word is_alnum); [|exact H]; unfold is_alnum; intros c Hc; split; [apply safe_char|]; lia].
  induction b as [|c b IH]; [reflexivity|]. cbn [forallb] in H. apply andb_true_iff in H as [Hc H]. unfold is_alnum in Hc.
  unfold escapify in *. cbn [flat_map]. rewrite (IH H). unfold esc_octet, q_escaped.
  replace ((c =? 34) || (c =? 92)) with false by lia. replace ((c >=? 32) && (c <? 127)) with true by lia. reflexivity.
Qed.

(* the gateway token and what Gateway.from_text (reading + _check) makes of it *)
Lemma gateway_token sty c ipsec g a gw gt v' :
  oAllBytes (s_origin sty) ->
  match gw with
  | GwNone => g = 0
  | GwText t => (g = 1 /\ exists b, all_bytes b = true /\ length b = 4%nat /\ ipv4_ntoa b = Ok t)
                \/ (g = 2 /\ exists b, all_bytes b = true /\ length b = 16%nat /\ ipv6_ntoa b = Ok t)
  | GwName n => g = 3 /\ Valid n /\ AllBytes n
  end ->
  (match gw with GwNone => Ok [46] | GwText t => Ok t | GwName n => name_to_styled_text sty n end) = Ok gt ->
  expect sty c (FGw ipsec) (VGw g a gw) = Ok v' ->
  uword gt /\ 0 <= g <= 3 /\
  forall X, word_end X ->
    (if (g =? 0) || (g =? 1) || (g =? 2)
     then do ts <- get_string (stq false ([32] ++ gt ++ X)) 0; do v <- gw_check g a (GwText (fst ts)); Ok (v, snd ts)
     else if g =? 3 then do ns <- get_name c (stq false ([32] ++ gt ++ X)); do v <- gw_check g a (GwName (fst ns)); Ok (v, snd ns)
     else Lib eSyntax) = Ok (v', stq false X).
Proof.
  intros HO Hgw Egt He. cbn [expect] in He. destruct gw as [|t|n].
  - subst g. injection Egt as <-. injection He as <-. split; [split; [apply units_safe; reflexivity|discriminate]|].
    split; [lia|]. intros X HX. cbn [Z.eqb orb]. rewrite get_string_word by (auto; discriminate). reflexivity.
  - injection Egt as <-. injection He as <-.
    assert (Hw : (g = 1 \/ g = 2) /\ forallb safe t = true /\ t <> [] /\ gw_check g a (GwText t) = Ok (VGw g a (GwText t))).
    { destruct Hgw as [(-> & b & Hb & Hl & Ent)|(-> & b & Hb & Hl & Ent)].
      - destruct (ipv4_roundtrip b Hb Hl) as (t' & E1 & E2). rewrite Ent in E1. injection E1 as <-.
        destruct (ipv4_ntoa_word b t Hb Ent). unfold gw_check. cbn [Z.eqb]. rewrite E2. auto.
      - destruct (ipv6_roundtrip b Hb Hl) as (t' & E1 & E2). rewrite Ent in E1. injection E1 as <-.
        destruct (ipv6_ntoa_word b t Hb Ent). unfold gw_check. cbn [Z.eqb]. rewrite E2. auto. }
    destruct Hw as (Hg & Hs & Hne & Ec). split; [split; [apply units_safe, Hs|exact Hne]|]. split; [lia|].
    intros X HX. replace ((g =? 0) || (g =? 1) || (g =? 2)) with true by lia.
    rewrite get_string_word by auto. cbn [bind fst snd]. rewrite Ec. reflexivity.
  - destruct Hgw as (-> & V & HB).
    destruct (name_path sty c n) as [n'| |] eqn:E2; cbn [bind] in He; try discriminate. injection He as <-.
    destruct (styled_name_word sty n gt V HB HO Egt) as [[Hu Hne] _]. split; [split; assumption|]. split; [lia|].
    intros X HX. cbn [Z.eqb orb]. rewrite get_name_word by auto. unfold utok.
    rewrite (as_name_printed sty c n gt (has_bs gt) V HB HO Egt), E2. reflexivity.
Qed.

(* KEY after its first token: protocol and algorithm, and the key unless the flags say NOKEY *)
Lemma key_after_flags sty kf kp ka kk R stX :
  forallb is_blank (s_b64_sep sty) = true -> line_end R ->
  0 <= kf <= 65535 -> 0 <= kp <= 255 -> 0 <= ka <= 255 -> all_bytes kk = true ->
  (if Z.land kf 49152 =? 49152 then kk = [] else kk <> []) ->
  get0 stX = Ok (utok (dec kf), stq false ([32] ++ dec kp ++ [32] ++ dec ka ++ [32] ++
                                         styled_base64ify kk (s_b64_chunk sty) (s_b64_sep sty) ++ R)) ->
  exists st, key_from_text stX = Ok (VKey kf kp 0 (dec ka) kk, st) /\ after_field FKeyRec R st.
Proof.
  intros Hbs HR Hf Hpr Hal Hk Hnk HX. set (K := styled_base64ify kk (s_b64_chunk sty) (s_b64_sep sty)) in *.
  destruct (dec_uword kp (proj1 Hpr)) as [[Hup Hnp] _].
  unfold key_from_text. rewrite HX. cbn [bind fst snd].
  unfold key_number_or at 1. rewrite utok_safe by (apply dec_safe; lia). rewrite (as_uint_dec max16 kf) by (unfold max16; lia). cbn [bind].
  rewrite (get0_word_q false [32] (dec kp) ([32] ++ dec ka ++ [32] ++ K ++ R) eq_refl Hup Hnp (word_end_blank _)). cbn [bind fst snd].
  unfold key_number_or. rewrite has_bs_safe by (apply dec_safe; lia). rewrite (as_uint_dec max8 kp) by (unfold max8; lia).
  cbn [bind]. rewrite (get_string_word false [32] (dec ka) ([32] ++ K ++ R) eq_refl (dec_safe ka (proj1 Hal)) (dec_nonempty ka) (word_end_blank _)).
  cbn [bind fst snd]. destruct (Z.land kf 49152 =? 49152); cbn [negb].
  - (* NOKEY: nothing is read after the algorithm; the printed blank remains *)
    subst kk. unfold K, styled_base64ify. change (b64encode []) with (@nil Z). rewrite wordbreak_nil.
    eexists. split; [reflexivity|]. right. exists false, [32]. split; reflexivity.
  - destruct (b64encode_word kk Hk Hnk) as (Hs & Ha & Hne).
    pose proof (rest_bytes_first b64decode (VKey kf kp 0 (dec ka)) (b64encode kk) kk K
                  (wordbreak_chunked _ _ _ Hs Hbs) R false [32] Hne Ha (b64decode_b64encode kk Hk) eq_refl HR) as G.
    apply first_tok_self in G. destruct (G false) as (st & E & Hst). exists st. split; [exact E|left; split; [reflexivity|exact Hst]].
Qed.

Lemma field_ok sty c f v ftext v' R q bl :
  style_ok sty -> val_ok f v -> print_field sty f v = Ok ftext -> expect sty c f v = Ok v' ->
  forallb is_blank bl = true -> (if is_rest f then line_end R else word_end R) ->
  first_tok (stq q (bl ++ ftext ++ R)) (field_read c f v' R).
Proof.
  intros (Hhs & Hbs & HO) Hv Hp He Hbl HR.
  destruct f as [maxv| |tokmax ctormax ne| | |sc| |v6| | | | | |k| |maxc| |en| | | | |bmax| | | |ipsec| | | | | | | | | | |];
    destruct v as [z|b|n|l|ws|nl|g a gw|items|la lo lalt lsz lhp lvp|sp sn sps|kf kp ka kat kk];
    cbn [val_ok] in Hv; try contradiction; cbv beta iota delta [print_field] in Hp; cbn [is_rest] in HR;
    try (cbn [expect] in He; injection He as <-); try (apply Ok_inj in Hp; subst ftext).
  - (* FDec *)
    destruct (dec_uword z (proj1 Hv)) as [Hw Hh]. apply word_field with (raw := VInt z); auto.
    intros stX HX. cbn [parse_field]. rewrite (get_uint_from z maxv stX _ Hv HX). reflexivity.
  - (* FTtl *)
    destruct (dec_uword z (proj1 Hv)) as [Hw Hh]. apply word_field with (raw := VInt z); auto.
    intros stX HX. cbn [parse_field]. unfold get_ttl. rewrite (get_unescaped_tok _ _ _ HX) by (apply dec_safe; lia).
    cbn [bind fst snd is_identifier ttype tvalue]. change (tIDENT =? tIDENT) with true. cbn [negb].
    rewrite ttl_from_text_dec by exact Hv. reflexivity.
  - (* FQStr *)
    destruct Hv as (Hb & Htm & Hcm & Hne). rewrite quote_app.
    apply first_tok_quoted; [exact Hbl|apply escapify_qbody, Hb|]. intros he stX HX _.
    exists (VBytes b), (stq true R). split; [|split; [|apply after_stq]].
    + cbn [parse_field]. unfold get_string_as_bytes. rewrite HX. cbn [bind fst snd]. rewrite unescape_quoted by exact Hb.
      cbn [bind is_identifier is_quoted ttype tvalue]. change (tQUOTED =? tQUOTED) with true. rewrite orb_true_r. cbn [negb].
      replace (negb (tokmax =? 0) && (zlen b >? tokmax)) with false by (destruct Htm; lia). reflexivity.
    + cbn [ctor_field]. replace (negb (ctormax =? 0) && (zlen b >? ctormax)) with false by (destruct Hcm; lia).
      replace (ne && is_nil b) with false; [reflexivity|].
      destruct ne; [|reflexivity]. destruct b; [exfalso; apply Hne; reflexivity|reflexivity].
  - (* FName *)
    destruct Hv as (V & HB). cbn [expect] in He.
    destruct (name_path sty c n) as [n'| |] eqn:E2; cbn [bind] in He; try discriminate. injection He as <-.
    destruct (styled_name_word sty n ftext V HB HO Hp) as [Hw Hh]. apply word_field with (raw := VName n'); auto.
    intros stX HX. cbn [parse_field]. unfold get_name. rewrite HX. cbn [bind fst snd]. unfold utok.
    rewrite (as_name_printed sty c n ftext _ V HB HO Hp), E2. reflexivity.
  - (* FHexRest *)
    destruct Hv as (Hb & Hne). destruct (hexlify_word b Hb Hne) as (Hs & Ha & Hn0).
    apply rest_field with (raw := VBytes b) (2 := eq_refl)
      (4 := rest_bytes_first unhexlify VBytes (hexlify b) b _ (wordbreak_chunked _ _ _ Hs Hhs) R q bl Hn0 Ha
              (unhexlify_hexlify b Hb) Hbl HR); [reflexivity|].
    intros stX HX. exact (HX false).
  - (* FB64Rest *)
    destruct Hv as (Hb & Hne). destruct (b64encode_word b Hb Hne) as (Hs & Ha & Hn0).
    apply rest_field with (raw := VBytes b) (2 := eq_refl)
      (4 := rest_bytes_first b64decode VBytes (b64encode b) b _ (wordbreak_chunked _ _ _ Hs Hbs) R q bl Hn0 Ha
              (b64decode_b64encode b Hb) Hbl HR); [reflexivity|].
    intros stX HX. exact (HX false).
  - (* FTxtRest *)
    destruct Hv as (Hne & Hss).
    destruct (txt_strings_bodies (txt_body (s_txt_utf8 sty)) l (txt_body_ok _) Hss) as [HB HL].
    apply rest_field with (raw := VStrs l) (2 := eq_refl)
      (4 := txt_bodies_first_tok (map (txt_body (s_txt_utf8 sty)) l) l R q bl ltac:(destruct l; cbn [map]; [congruence|discriminate]) HB HL HR Hbl); [reflexivity|].
    intros stX (st & E & Hst). exists st. split; [|exact Hst]. cbn [parse_field]. rewrite E. reflexivity.
  - (* FAddr *)
    destruct Hv as (Hb & Hl).
    assert (Hrt : (if v6 then ipv6_aton ftext else ipv4_aton ftext) = Ok b /\ forallb safe ftext = true /\ ftext <> []).
    { destruct v6.
      - destruct (ipv6_roundtrip b Hb Hl) as (t & E1 & E2). rewrite E1 in Hp. apply Ok_inj in Hp; subst ftext.
        split; [exact E2|]. apply (ipv6_ntoa_word b t Hb E1).
      - destruct (ipv4_roundtrip b Hb Hl) as (t & E1 & E2). rewrite E1 in Hp. apply Ok_inj in Hp; subst ftext.
        split; [exact E2|]. apply (ipv4_ntoa_word b t Hb E1). }
    destruct Hrt as (Hat & Hs & Hne). apply sword_field with (raw := VBytes ftext); auto.
    + intros stX HX. cbn [parse_field]. rewrite (get_identifier_tok _ _ _ HX Hs). reflexivity.
    + cbn [ctor_field]. rewrite Hat. reflexivity.
  - (* FHexTok *)
    destruct Hv as (Hb & Hl).
    assert (Hc : ctor_field FHexTok (VBytes b) = Ok (VBytes b)) by (cbn [ctor_field]; replace (zlen b >? 255) with false by lia; reflexivity).
    destruct b as [|x b']; cbn [is_nil].
    + apply sword_field with (raw := VBytes []); auto; [discriminate|].
      intros stX HX. cbn [parse_field]. rewrite (get_string_tok _ [45] _ HX eq_refl). reflexivity.
    + destruct (hexlify_word (x :: b') Hb ltac:(discriminate)) as (Hs & Ha & Hne).
      apply sword_field with (raw := VBytes (x :: b')); auto.
      intros stX HX. cbn [parse_field]. rewrite (get_string_tok _ _ _ HX Hs). cbn [bind fst snd].
      replace (zlist_eqb (hexlify (x :: b')) [45]) with false
        by (unfold hexlify; cbn [flat_map app zlist_eqb]; rewrite andb_false_r; reflexivity).
      rewrite utf8_ascii by exact Ha. cbn [bind]. rewrite unhexlify_hexlify by exact Hb. reflexivity.
  - (* FAlg *)
    destruct (dec_uword z (proj1 Hv)) as [Hw Hh]. apply word_field with (raw := VBytes (dec z)); auto.
    + intros stX HX. cbn [parse_field]. rewrite (get_string_tok _ _ _ HX) by (apply dec_safe; lia). reflexivity.
    + cbn [ctor_field]. rewrite (alg_dec z Hv). reflexivity.
  - (* FTag *)
    destruct Hv as (Hne & Hl & Hal). destruct (alnum_facts b Hal) as (He1 & Hs & Ha). rewrite He1.
    apply sword_field with (raw := VBytes b); auto.
    + intros stX HX. cbn [parse_field]. rewrite (get_string_tok _ _ _ HX Hs). cbn [bind fst snd].
      rewrite utf8_ascii by exact Ha. reflexivity.
    + cbn [ctor_field]. replace (zlen b >? 255) with false by lia. rewrite Hal. destruct b; [congruence|reflexivity].
  - (* FBitmap *)
    destruct Hv as (Hcan & H0). destruct (bitmap_text_shape ws (-1) Hcan ltac:(lia)) as (names & Eb & Fn).
    rewrite Eb in Hp. apply Ok_inj in Hp; subst ftext.
    assert (Hns : Forall (fun n => forallb safe n = true) names /\ Forall uword names /\ map utok names = map word_tok names).
    { clear - Fn. induction Fn as [|t n ts ns (A & B & _) _ (I1 & I2 & I3)]; [repeat split; constructor|]. cbn [map].
      rewrite utok_safe, I3 by exact B.
      split; [constructor; assumption|]. split; [constructor; [split; [apply units_safe, B|exact A]|exact I2]|reflexivity]. }
    destruct Hns as (Hsafe & Hw & Etok).
    apply rest_field with (raw := VWindows ws) (2 := eq_refl)
      (4 := first_tok_spaced names R q bl Hw (safe_hd_not_hash _ Hsafe) HR Hbl); [reflexivity|].
    intros stX (st & E & Hst). exists st. split; [|exact Hst]. cbn [parse_field]. rewrite E. cbn [bind fst snd].
    rewrite Etok, (token_types _ _ Fn (bitmap_types_nonzero ws Hcan H0)). cbn [bind].
    rewrite (bitmap_text_roundtrip ws Hcan H0). reflexivity.
  - (* FB32 *)
    destruct Hv as (Hb & Hne & Hl). destruct (b32hex_word b Hb Hne) as [Hs Hn0].
    apply sword_field with (raw := VBytes b); auto.
    + intros stX HX. cbn [parse_field]. rewrite (get_string_tok _ _ _ HX Hs). cbn [bind fst snd].
      rewrite b32hex_roundtrip by exact Hb. reflexivity.
    + cbn [ctor_field]. replace (zlen b >? 255) with false by lia. reflexivity.
  - (* FEnum *)
    destruct (enum_facts k z Hv) as (w & Ew & Hne & Hs & Epar & Ector). rewrite Ew in Hp. apply Ok_inj in Hp; subst ftext.
    apply sword_field with (raw := VInt z); auto.
    + intros stX HX. cbn [parse_field]. rewrite (get_string_tok _ _ _ HX Hs). cbn [bind fst snd]. rewrite Epar. reflexivity.
    + cbn [ctor_field]. rewrite Ector. reflexivity.
  - (* FNsap *)
    destruct (nsap_roundtrip b Hv) as [Ert Hs].
    apply sword_field with (raw := VBytes b); auto; [discriminate|].
    intros stX HX. cbn [parse_field]. rewrite (get_string_tok _ _ _ HX Hs). cbn [bind fst snd]. rewrite Ert. reflexivity.
  - (* FIntC *)
    destruct (dec_uword z (proj1 Hv)) as [Hw Hh]. apply word_field with (raw := VInt z); auto.
    + intros stX HX. cbn [parse_field]. rewrite (get_int_from z stX _ (proj1 Hv) HX). reflexivity.
    + cbn [ctor_field]. replace ((z <? 0) || (z >? maxc)) with false by lia. reflexivity.
  - (* FSigTime *)
    destruct (sigtime_roundtrip z Hv) as (Ert & Hs & Hne). apply sword_field with (raw := VInt z); auto.
    + intros stX HX. cbn [parse_field]. rewrite (get_string_tok _ _ _ HX Hs). cbn [bind fst snd]. rewrite Ert. reflexivity.
    + cbn [ctor_field]. replace ((z <? 0) || (z >? 4294967295)) with false by lia. reflexivity.
  - (* FEui *)
    destruct Hv as (Hb & Hl & Hn). destruct (eui_roundtrip en b Hb Hl Hn) as (Ert & Hs & Hne).
    apply sword_field with (raw := VBytes b); auto.
    + intros stX HX. cbn [parse_field]. rewrite (get_string_tok _ _ _ HX Hs). cbn [bind fst snd]. rewrite Ert. reflexivity.
    + cbn [ctor_field]. rewrite Hl, Nat.eqb_refl. reflexivity.
  - (* FFmtHex *)
    destruct (fmthex_word b Hv) as (Hs & Hne). apply sword_field with (raw := VBytes b); auto.
    + intros stX HX. cbn [parse_field]. rewrite (get_identifier_tok _ _ _ HX Hs). reflexivity.
    + cbn [ctor_field]. rewrite Hv. reflexivity.
  - (* FOct16 *)
    destruct (octal_facts z Hv) as (Hne & Hs & Ert). apply sword_field with (raw := VInt z); auto.
    intros stX HX. cbn [parse_field]. unfold get_uint. rewrite (get_unescaped_tok _ _ _ HX Hs). cbn [bind fst snd].
    rewrite Ert. reflexivity.
  - (* FQOpt *)
    destruct Hv as (Hb & Hl).
    assert (Hc : ctor_field FQOpt (VBytes b) = Ok (VBytes b)) by (cbn [ctor_field]; replace (zlen b >? 255) with false by lia; reflexivity).
    destruct b as [|x b']; cbn [is_nil].
    + (* no subaddress: the next token is the end of the line *)
      apply rest_field with (raw := VBytes []) (2 := Hc) (4 := first_tok_end q bl R _ Hbl HR (fun t s stX HX He _ Hu => get_remaining_eol stX 1 t s HX He Hu));
        [reflexivity|].
      intros stX (st & E & Hst). exists st. split; [|exact Hst]. cbn [parse_field]. rewrite E. reflexivity.
    + replace (bl ++ (32 :: quote (x :: b')) ++ R) with ((bl ++ [32]) ++ quote (x :: b') ++ R) by (rewrite <- app_assoc; reflexivity).
      rewrite quote_app. apply first_tok_quoted; [apply blanks_snoc, Hbl|apply escapify_qbody, Hb|]. intros he stX HX _.
      exists (VBytes (x :: b')), (stq true R). split; [|split; [exact Hc|apply after_stq]].
      cbn [parse_field]. unfold get_remaining, rem_fuel. rewrite grl_unfold_m, HX. cbn [bind].
      change (is_eol_or_eof (mkTok tQUOTED (escapify (x :: b')) he None)) with false. cbv iota zeta.
      change (negb (1 =? 0) && (zlen [mkTok tQUOTED (escapify (x :: b')) he None] =? 1)) with true. cbv iota.
      cbn [rev app bind fst snd]. rewrite unescape_quoted by exact Hb. reflexivity.
  - (* FHexStr *)
    destruct Hv as (Hb & Hne & Hl). destruct (hexlify_word b Hb Hne) as (Hs & Ha & Hn0).
    apply sword_field with (raw := VBytes b); auto.
    + intros stX HX. cbn [parse_field]. rewrite (get_string_tok _ _ _ HX Hs). cbn [bind fst snd].
      rewrite utf8_ascii by exact Ha. cbn [bind]. rewrite unhexlify_hexlify by exact Hb. reflexivity.
    + cbn [ctor_field]. replace (zlen b >? 255) with false by lia. reflexivity.
  - (* FB64Tok *)
    destruct Hv as (Hb & Hne & Hl). destruct (b64encode_word b Hb Hne) as (Hs & Ha & Hn0).
    apply sword_field with (raw := VBytes b); auto.
    + intros stX HX. cbn [parse_field]. rewrite (get_string_tok _ _ _ HX Hs). cbn [bind fst snd].
      rewrite utf8_ascii by exact Ha. cbn [bind]. rewrite b64decode_b64encode by exact Hb. reflexivity.
    + cbn [ctor_field]. replace (zlen b >? bmax) with false by lia. reflexivity.
  - (* FNamesRest *)
    cbn [expect] in He.
    destruct (map_res (name_to_styled_text sty) nl) as [ts| |] eqn:Ets; cbn [bind] in Hp; try discriminate. apply Ok_inj in Hp; subst ftext.
    fold (spaced ts).
    destruct (map_res (name_path sty c) nl) as [nl'| |] eqn:Enp; cbn [bind] in He; try discriminate. injection He as <-.
    destruct (names_texts sty nl Hv HO ts Ets) as (Hw & Hh & Hback).
    apply rest_field with (raw := VNames nl') (2 := eq_refl) (4 := first_tok_spaced ts R q bl Hw Hh HR Hbl); [reflexivity|].
    intros stX (st & E & Hst). exists st. split; [|exact Hst]. cbn [parse_field]. rewrite E. cbn [bind fst snd].
    rewrite Hback, Enp. reflexivity.
  - (* FNameNoRel *)
    destruct Hv as (V & HB). cbn [expect] in He.
    destruct (name_path sty (mkPctx None false None) n) as [n'| |] eqn:E2; cbn [bind] in He; try discriminate. injection He as <-.
    destruct (styled_name_word sty n ftext V HB HO Hp) as [Hw Hh]. apply word_field with (raw := VName n'); auto.
    intros stX HX. cbn [parse_field]. unfold get_name. rewrite HX. cbn [bind fst snd]. unfold utok.
    rewrite (as_name_printed sty _ n ftext _ V HB HO Hp), E2. reflexivity.
  - (* FB64RestOpt *)
    destruct Hv as (Hb & Hl).
    assert (Hc : ctor_field FB64RestOpt (VBytes b) = Ok (VBytes b)) by (cbn [ctor_field]; replace (zlen b >? 65535) with false by lia; reflexivity).
    destruct b as [|x b']; cbn [is_nil].
    + apply rest_field with (raw := VBytes []) (2 := Hc) (4 := first_tok_end q bl R _ Hbl HR (cri_eol)); [reflexivity|].
      intros stX (st & E & Hst). exists st. split; [|exact Hst]. cbn [parse_field]. rewrite E. reflexivity.
    + destruct (b64encode_word (x :: b') Hb ltac:(discriminate)) as (Hs & Ha & Hne).
      replace (bl ++ (32 :: b64encode (x :: b')) ++ R) with ((bl ++ [32]) ++ b64encode (x :: b') ++ R) by (rewrite <- app_assoc; reflexivity).
      apply rest_field with (raw := VBytes (x :: b')) (2 := Hc)
        (4 := rest_bytes_first b64decode VBytes _ (x :: b') _ (chunked_single _ Hs) R q (bl ++ [32]) Hne Ha
                (b64decode_b64encode _ Hb) (blanks_snoc bl Hbl) HR); [reflexivity|].
      intros stX HX. exact (HX true).
  - (* FGw *)
    destruct Hv as (Ha & Ha0 & Hgw).
    destruct (match gw with GwNone => Ok [46] | GwText t => Ok t | GwName n => name_to_styled_text sty n end) as [gt| |] eqn:Egt;
      cbn [bind] in Hp; try discriminate. apply Ok_inj in Hp; subst ftext.
    destruct (gateway_token sty c ipsec g a gw gt v' HO Hgw Egt He) as ([Hu Hne] & Hg03 & Hread).
    destruct (dec_uword g ltac:(lia)) as [Hwg Hhg].
    rewrite <- app_assoc. cbn [app]. rewrite <- app_assoc. apply first_tok_word; [exact Hbl|exact Hwg|exact Hhg|apply word_end_blank|]. intros stX HX _.
    exists v', (stq false R). split; [|split; [destruct v'; reflexivity|apply after_stq]].
    cbn [parse_field]. rewrite (get_uint_from g max8 stX _ ltac:(unfold max8; lia) HX). cbn [bind fst snd].
    replace (if ipsec then get_uint max8 (stq false (32 :: (if ipsec then dec a ++ [32] else []) ++ gt ++ R)) 10
             else if g >? 127 then Lib eSyntax else Ok (0, stq false (32 :: (if ipsec then dec a ++ [32] else []) ++ gt ++ R)))
      with (@Ok (Z * tstate) (a, stq false ([32] ++ gt ++ R))); [cbn [bind fst snd]; exact (Hread R HR)|].
    destruct ipsec.
    + rewrite <- app_assoc. symmetry.
      exact (get_uint_word false [32] a max8 ([32] ++ gt ++ R) eq_refl ltac:(unfold max8; lia) (word_end_blank _)).
    + replace (g >? 127) with false by lia. rewrite (Ha0 eq_refl). reflexivity.
  - (* FB64RestE *)
    destruct b as [|x b'].
    + unfold styled_base64ify. change (b64encode []) with (@nil Z). rewrite wordbreak_nil.
      apply rest_field with (raw := VBytes []) (2 := eq_refl) (4 := first_tok_end q bl R _ Hbl HR (cri_eol)); [reflexivity|].
      intros stX (st & E & Hst). exists st. split; [|exact Hst]. cbn [parse_field]. rewrite E. reflexivity.
    + destruct (b64encode_word (x :: b') Hv ltac:(discriminate)) as (Hs & Ha & Hne).
      apply rest_field with (raw := VBytes (x :: b')) (2 := eq_refl)
        (4 := rest_bytes_first b64decode VBytes _ (x :: b') _ (wordbreak_chunked _ _ _ Hs Hbs) R q bl Hne Ha
                (b64decode_b64encode _ Hv) Hbl HR); [reflexivity|].
      intros stX HX. exact (HX true).
  - (* FMac *)
    destruct Hv as (Hb & Hne & Hl). destruct (b64encode_word b Hb Hne) as (Hs & Ha & Hn0).
    assert (Hn : 0 <= zlen b <= max16) by (unfold zlen, max16 in *; lia). destruct (dec_uword (zlen b) (proj1 Hn)) as [Hw Hh].
    rewrite <- !app_assoc. apply first_tok_word; [exact Hbl|exact Hw|exact Hh|apply word_end_blank|]. intros stX HX _.
    exists (VBytes b), (stq false R). split; [|split; [reflexivity|apply after_stq]].
    cbn [parse_field]. rewrite (get_uint_from _ max16 stX _ Hn HX). cbn [bind fst snd].
    rewrite (get_string_word false [32] (b64encode b) R eq_refl Hs Hn0 HR). cbn [bind fst snd].
    rewrite (b64decode_str_encode b Hb). cbn [bind]. rewrite Z.eqb_refl. reflexivity.
  - (* FOther *)
    destruct Hv as (Hb & Hl).
    assert (Hn : 0 <= zlen b <= max16) by (unfold zlen, max16 in *; lia). destruct (dec_uword (zlen b) (proj1 Hn)) as [Hw Hh].
    rewrite <- !app_assoc. destruct b as [|x b']; cbn [is_nil app].
    + apply word_field with (raw := VBytes []); auto. intros stX HX. cbn [parse_field].
      rewrite (get_uint_from _ max16 stX _ Hn HX). reflexivity.
    + destruct (b64encode_word (x :: b') Hb ltac:(discriminate)) as (Hs & Ha & Hn0).
      apply first_tok_word; [exact Hbl|exact Hw|exact Hh|apply word_end_blank|]. intros stX HX _.
      exists (VBytes (x :: b')), (stq false R). split; [|split; [reflexivity|apply after_stq]].
      cbn [parse_field]. rewrite (get_uint_from _ max16 stX _ Hn HX). cbn [bind fst snd].
      replace (zlen (x :: b') >? 0) with true by (unfold zlen; cbn [length]; symmetry; apply Z.gtb_lt; lia).
      change (32 :: b64encode (x :: b') ++ R) with ([32] ++ b64encode (x :: b') ++ R).
      rewrite (get_string_word false [32] (b64encode (x :: b')) R eq_refl Hs Hn0 HR). cbn [bind fst snd].
      rewrite (b64decode_str_encode _ Hb). cbn [bind]. rewrite Z.eqb_refl. reflexivity.
  - (* FGposStr *)
    destruct Hv as ((p & Hpf) & Hl). destruct (float_string_word b p Hpf) as (Hs & Ha & Hne).
    apply sword_field with (raw := VBytes b); auto.
    + intros stX HX. cbn [parse_field]. rewrite (get_string_tok _ _ _ HX Hs). reflexivity.
    + cbn [ctor_field]. rewrite utf8_ascii by exact Ha. cbn [bind]. replace (zlen b >? 255) with false by lia. reflexivity.
  - (* FAddr4S *)
    destruct Hv as (Hb & Hl). destruct (ipv4_roundtrip b Hb Hl) as (t & E1 & E2). rewrite E1 in Hp. apply Ok_inj in Hp; subst ftext.
    destruct (ipv4_ntoa_word b t Hb E1) as [Hs Hne]. apply sword_field with (raw := VBytes t); auto.
    + intros stX HX. cbn [parse_field]. rewrite (get_string_tok _ _ _ HX Hs). reflexivity.
    + cbn [ctor_field]. rewrite E2. reflexivity.
  - (* FWksProto *)
    destruct (dec_uword z (proj1 Hv)) as [Hw Hh]. apply word_field with (raw := VInt z); auto.
    + intros stX HX. cbn [parse_field]. rewrite (get_string_tok _ _ _ HX) by (apply dec_safe; lia). cbn [bind fst snd].
      rewrite dec_isdecimal, dec_value_dec by lia. reflexivity.
    + cbn [ctor_field]. replace ((z <? 0) || (z >? 255)) with false by lia. reflexivity.
  - (* FWksPorts *)
    destruct Hv as (Hb & Hcan & Hl).
    destruct (wks_tokens (wks_ports b) (wks_ports_range b Hl)) as (Hw & Hsafe & Hback).
    apply rest_field with (raw := VBytes b) (2 := eq_refl)
      (4 := first_tok_join_sp _ R q bl Hw (safe_hd_not_hash _ Hsafe) HR Hbl); [reflexivity|].
    intros stX (st & E & Hst). exists st. split; [|exact Hst]. cbn [parse_field]. rewrite E. cbn [bind fst snd].
    rewrite Hback. cbn [bind]. rewrite (wks_bitmap_roundtrip b Hb Hcan). reflexivity.
  - (* FLocRec *)
    destruct la as [[[[d1 m1] s1] ms1] sg1]. destruct lo as [[[[d2 m2] s2] ms2] sg2].
    apply loc_wf_ok in Hv. pose proof Hv as ((Hd1 & _) & _). destruct (dec_uword d1 Hd1) as [Hw Hh].
    rewrite (loc_text_shape d1 m1 s1 ms1 sg1 d2 m2 s2 ms2 sg2 lalt lsz lhp lvp R).
    apply first_tok_word; [exact Hbl|exact Hw|exact Hh|apply word_end_blank|]. intros stX HX _.
    destruct (loc_after_first d1 m1 s1 ms1 sg1 d2 m2 s2 ms2 sg2 lalt lsz lhp lvp R stX Hv HR HX) as (st & E & Hend).
    exists (loc_expect (d1, m1, s1, ms1, sg1) (d2, m2, s2, ms2, sg2) lalt lsz lhp lvp), st.
    split; [exact E|]. split; [unfold loc_expect; destruct (loc_sizes_default lsz lhp lvp); reflexivity|].
    destruct Hend as [Hst| ->]; [left; split; [reflexivity|exact Hst]|apply after_stq].
  - (* FSvcbRec *)
    pose proof Hv as (Hpr & V & HB & _). cbn [expect] in He.
    destruct (name_path sty c sn) as [n'| |] eqn:Enp; cbn [bind] in He; try discriminate. injection He as <-.
    unfold svcb_to_text in Hp.
    destruct (name_to_styled_text sty sn) as [tgt| |] eqn:Etgt; cbn [bind] in Hp; try discriminate.
    destruct (map_res svcb_param_text sps) as [pts| |] eqn:Epts; cbn [bind] in Hp; try discriminate. apply Ok_inj in Hp; subst ftext.
    fold (spaced pts). destruct (dec_uword sp (proj1 Hpr)) as [Hw Hh].
    rewrite <- !app_assoc. apply first_tok_word; [exact Hbl|exact Hw|exact Hh|apply word_end_blank|]. intros stX HX _.
    destruct (svcb_after_priority sty c sp sn n' sps tgt pts R stX Hv HO HR Etgt Enp Epts HX) as (te & st & T1 & T2 & E).
    exists (VSvcb sp n' sps), st. split; [cbn [parse_field]; rewrite E; reflexivity|].
    split; [reflexivity|left; split; [reflexivity|exists te; split; assumption]].
  - (* FAplRest *)
    destruct (map_res apl_item_text items) as [ts| |] eqn:Ets; cbn [bind] in Hp; try discriminate. apply Ok_inj in Hp; subst ftext.
    destruct (apl_items_texts items Hv ts Ets) as (Hw & Hsafe & Hback).
    apply rest_field with (raw := VApl items) (2 := eq_refl)
      (4 := first_tok_join_sp ts R q bl Hw (safe_hd_not_hash _ Hsafe) HR Hbl); [reflexivity|].
    intros stX (st & E & Hst). exists st. split; [|exact Hst]. cbn [parse_field]. rewrite E. cbn [bind fst snd].
    rewrite Hback. reflexivity.
  - (* FKeyRec *)
    destruct Hv as (Hf & Hpr & Hal & -> & Hk & Hnk). destruct (dec_uword kf (proj1 Hf)) as [Hw Hh].
    rewrite <- !app_assoc. apply first_tok_word; [exact Hbl|exact Hw|exact Hh|apply word_end_blank|]. intros stX HX _.
    destruct (key_after_flags sty kf kp ka kk R stX Hbs HR Hf Hpr Hal Hk Hnk HX) as (st & E & Hst).
    exists (VKey kf kp 0 (dec ka) kk), st. split; [exact E|]. split; [cbn [ctor_field]; rewrite (alg_dec ka Hal); reflexivity|exact Hst].
Qed.

Lemma print_fields_cons sty f f2 fs v vs text :
  print_fields sty (f :: f2 :: fs) (v :: vs) = Ok text ->
  exists a b, print_field sty f v = Ok a /\ print_fields sty (f2 :: fs) vs = Ok b /\ text = a ++ field_sep f2 ++ b.
Proof.
  intros H.
  assert (E : print_fields sty (f :: f2 :: fs) (v :: vs)
              = (do a <- print_field sty f v; do b <- print_fields sty (f2 :: fs) vs; Ok (a ++ field_sep f2 ++ b)))
    by (destruct vs; destruct f2; reflexivity).
  rewrite E in H. clear E.
  destruct (print_field sty f v) as [a| |]; cbn [bind] in H; try discriminate.
  destruct (print_fields sty (f2 :: fs) vs) as [b| |]; cbn [bind] in H; try discriminate.
  inversion H. eauto.
Qed.

(* the text of a field that brings its own separator is empty or starts with a blank *)
Lemma tail_text_shape sty f v b : field_sep f = [] -> print_field sty f v = Ok b -> b = [] \/ exists b', b = 32 :: b'.
Proof.
  intros Hs Hp. destruct f; try discriminate; destruct v as [z|x|n|l|ws|nl|g a gw|items|la lo lalt lsz lhp lvp|sp sn sps|kf kp ka kat kk]; try discriminate; cbn [print_field] in Hp.
  - (* FBitmap *) destruct ws as [|w ws]; [inversion Hp; left; reflexivity|]. cbn [bitmap_to_text] in Hp.
    destruct (map_res rdtype_to_text (window_types (fst w) 0 (snd w))); cbn [bind] in Hp; try discriminate.
    destruct (bitmap_to_text ws); cbn [bind] in Hp; try discriminate. inversion Hp. right. eexists. reflexivity.
  - (* FQOpt *) destruct (is_nil x); inversion Hp; [left; reflexivity|right; eexists; reflexivity].
  - (* FNamesRest *) destruct (map_res (name_to_styled_text sty) nl) as [ts| |]; cbn [bind] in Hp; try discriminate.
    inversion Hp. destruct ts as [|t ts]; [left; reflexivity|right; cbn [flat_map app]; eexists; reflexivity].
  - (* FB64RestOpt *) destruct (is_nil x); inversion Hp; [left; reflexivity|right; eexists; reflexivity].
Qed.

Lemma field_sep_cases f : (field_sep f = [32]) \/ (field_sep f = [] /\ is_rest f = true).
Proof. destruct f; auto. Qed.

(* what follows a non-last field is a blank, or (before an empty bitmap) the end of the line *)
Lemma after_field_word_end sty f2 fs vs b rest : line_end rest -> schema_wf (f2 :: fs) ->
  print_fields sty (f2 :: fs) vs = Ok b -> word_end (field_sep f2 ++ b ++ rest).
Proof.
  intros Hr Hwf Hp. destruct (field_sep_cases f2) as [E|[E Er]]; rewrite E; [cbn [app]; apply word_end_blank|].
  destruct fs as [|f3 fs]; [|destruct Hwf as [Hx _]; congruence].
  cbn [app]. destruct vs as [|v [|v2 vs]]; [destruct f2; discriminate| |].
  - cbn [print_fields] in Hp. destruct (tail_text_shape sty f2 v b E Hp) as [->|[b' ->]].
    + cbn [app]. apply line_end_word_end, Hr.
    + cbn [app]. apply word_end_blank.
  - cbn [print_fields] in Hp. destruct (print_field sty f2 v); cbn [bind] in Hp; discriminate.
Qed.

Lemma field_sep_blank f : forallb is_blank (field_sep f) = true.
Proof. destruct f; reflexivity. Qed.

Lemma fields_ok sty c rest : style_ok sty -> line_end rest ->
  forall fs vs text vs' q bl,
  schema_wf fs -> Forall2 val_ok fs vs -> print_fields sty fs vs = Ok text -> expects sty c fs vs = Ok vs' ->
  forallb is_blank bl = true ->
  first_tok (stq q (bl ++ text ++ rest))
    (fun stX => exists raws st, parse_fields c fs stX = Ok (raws, st) /\ ctor_fields fs raws = Ok vs' /\ ends_ok st).
Proof.
  intros Hsty Hrest. induction fs as [|f fs IH]; intros vs text vs' q bl Hwf Hvs Hp He Hbl; [contradiction|].
  inversion Hvs as [|? v ? vs0 Hv Hvs0]; subst. cbn [expects] in He.
  destruct (expect sty c f v) as [v1| |] eqn:Ee; cbn [bind] in He; try discriminate.
  destruct (expects sty c fs vs0) as [vr| |] eqn:Er; cbn [bind] in He; try discriminate. injection He as <-.
  destruct fs as [|f2 fs].
  - (* last field *)
    inversion Hvs0; subst. cbn [print_fields] in Hp. cbn [expects] in Er. injection Er as <-.
    eapply first_tok_impl; [|apply (field_ok sty c f v text v1 rest q bl Hsty Hv Hp Ee Hbl); destruct (is_rest f); auto using line_end_word_end].
    intros stX (raw & se & P1 & Pc & Pe). exists [raw], se. cbn [parse_fields ctor_fields]. rewrite P1. cbn [bind fst snd]. rewrite Pc.
    split; [reflexivity|]. split; [reflexivity|].
    destruct Pe as [[_ Pe]|(q' & bl' & Hbl' & ->)]; [apply at_eol_ends, Pe|apply stq_ends; assumption].
  - (* a field followed by others *)
    destruct Hwf as [Hnr Hwf]. destruct (print_fields_cons _ _ _ _ _ _ _ Hp) as (a & b & Pa & Pb & ->).
    rewrite <- !app_assoc.
    eapply first_tok_impl; [|apply (field_ok sty c f v a v1 (field_sep f2 ++ b ++ rest) q bl Hsty Hv Pa Ee Hbl); rewrite Hnr;
                              exact (after_field_word_end sty f2 fs vs0 b rest Hrest Hwf Pb)].
    intros stX (raw & se & P1 & Pc & Pe). destruct Pe as [[Pe _]|(q' & bl' & Hbl' & ->)]; [congruence|].
    pose proof (first_tok_self _ _ (IH vs0 b vr q' (bl' ++ field_sep f2) Hwf Hvs0 Pb Er
                                     ltac:(rewrite forallb_app, Hbl'; apply field_sep_blank))) as (raws2 & se2 & Q1 & Qc & Q2).
    rewrite <- app_assoc in Q1.
    exists (raw :: raws2), se2. split; [|split; [|exact Q2]].
    + change (parse_fields c (f :: f2 :: fs) stX)
        with (do vs <- parse_field c f stX; do rs <- parse_fields c (f2 :: fs) (snd vs); Ok (fst vs :: fst rs, snd rs)).
      rewrite P1. cbn [bind fst snd]. rewrite Q1. reflexivity.
    + change (ctor_fields (f :: f2 :: fs) (raw :: raws2))
        with (do a <- ctor_field f raw; do b <- ctor_fields (f2 :: fs) raws2; Ok (a :: b)).
      rewrite Pc. cbn [bind]. rewrite Qc. reflexivity.
Qed.

Theorem record_roundtrip sty c fs chk vs text vs' rest fw tw :
  schema_wf fs -> Forall2 val_ok fs vs -> style_ok sty -> line_end rest ->
  record_to_text sty fs vs = Ok text -> expects sty c fs vs = Ok vs' -> chk vs' = Ok tt ->
  record_from_text_gen fw tw c fs chk (text ++ rest) = Ok vs'.
Proof.
  intros Hwf Hvs Hsty Hrest Hp He Hchk. apply rdata_from_text_first_tok.
  eapply first_tok_impl; [|exact (fields_ok sty c rest Hsty Hrest fs vs text vs' false [] Hwf Hvs Hp He eq_refl)].
  intros stX (raws & se & P1 & Pc & Pe). exists se. split; [|exact Pe].
  unfold class_from_text. rewrite P1. cbn [bind fst snd]. rewrite Pc. cbn [bind fst snd]. rewrite Hchk. reflexivity.
Qed.
