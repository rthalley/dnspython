(* C09: an order-independent statement of zone well-formedness; it implies the (order-dependent)
   hypothesis of zone_roundtrip for every order of the names, in particular the printer's. *)
From DV Require Import Base.Prelude Model.NameM Model.ZoneTextM.
From DV Require Import Proofs.NameOrder.
From DV Require Import Proofs.ZoneTextBase Proofs.ZoneTextAcc Proofs.ZoneTextRecord Proofs.ZoneTextRoundtrip.
From Coq Require Import Permutation.
Open Scope Z_scope.

(* the names of a zone are pairwise different (dictionary keys) *)
Inductive keys_distinct : zone -> Prop :=
| kd_nil : keys_distinct []
| kd_cons e z : Forall (fun e' => name_eqb (fst e') (fst e) = false) z -> keys_distinct z ->
                keys_distinct (e :: z).

Lemma keys_distinct_perm a b : Permutation a b -> keys_distinct a -> keys_distinct b.
Proof.
  induction 1 as [|x a b Hp IH|x y a|a b c0 H1 IH1 H2 IH2]; intros H.
  - exact H.
  - inversion H; subst. constructor; [|auto].
    eapply Permutation_Forall; eauto.
  - inversion H as [|? ? Hx Hr]; subst. inversion Hr as [|? ? Hy Hr']; subst.
    inversion Hx as [|? ? Hyx Hx']; subst.
    constructor; [constructor; [rewrite name_eqb_sym; exact Hyx|exact Hy]|].
    constructor; [exact Hx'|exact Hr'].
  - auto.
Qed.

Section Wf.
  Variable c : cfg.
  Variable st : style.
  Variable zo : name.

  (* what must hold of one name of the zone, whatever the other names are *)
  Definition node_wf (e : name * node) : Prop :=
    snd e <> [] /\ (exists v nabs, owner_ok c st zo (fst e) v nabs) /\ rdss_wf c st zo (fst e) [] (snd e).

  Definition zone_wf (z : zone) : Prop := keys_distinct z /\ Forall node_wf z.

  Lemma zone_wf_perm a b : Permutation a b -> zone_wf a -> zone_wf b.
  Proof.
    intros Hp [Hk Hn]. split; [eapply keys_distinct_perm; eauto|eapply Permutation_Forall; eauto].
  Qed.

  Lemma nodes_wf_of_zone_wf : forall rest zdone,
    Forall (fun d => Forall (fun e => name_eqb (fst d) (fst e) = false) rest) zdone ->
    zone_wf rest -> nodes_wf c st zo zdone rest.
  Proof.
    induction rest as [|[n nd] rest IH]; intros zdone Hd [Hk Hn]; cbn [nodes_wf]; [exact Logic.I|].
    inversion Hk as [|? ? Hfr Hk']; subst. inversion Hn as [|? ? Hn1 Hn']; subst.
    destruct Hn1 as (Hne & Hown & Hrw). cbn [fst snd] in *.
    split; [|split; [exact Hne|split; [exact Hown|split; [exact Hrw|]]]].
    - unfold key_fresh. eapply Forall_impl; [|exact Hd]. intros d Hdd. inversion Hdd; subst. assumption.
    - apply IH; [|split; assumption].
      apply Forall_app. split.
      + eapply Forall_impl; [|exact Hd]. intros d Hdd. inversion Hdd; subst. assumption.
      + constructor; [|constructor]. cbn [fst].
        eapply Forall_impl; [|exact Hfr]. intros e He. rewrite name_eqb_sym. exact He.
  Qed.

  Lemma nodes_wf_any_order z z' : Permutation z' z -> zone_wf z -> nodes_wf c st zo [] z'.
  Proof.
    intros Hp Hw. apply nodes_wf_of_zone_wf; [constructor|].
    eapply zone_wf_perm; [symmetry; exact Hp|exact Hw].
  Qed.
End Wf.

Lemma printed_order_perm st nodes : Permutation (printed_order st nodes) nodes.
Proof.
  unfold printed_order. destruct (st_sorted st); [apply ZoneTextSweep.zsort_perm|reflexivity].
Qed.
