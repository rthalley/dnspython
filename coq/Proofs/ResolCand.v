(* Candidate names: the search-list / ndots rule (_get_qnames_to_try) and the order in which the
   resolution asks them. *)
From DV Require Import Base.Prelude Model.NameM Model.ResolM Proofs.ResolBase Proofs.ResolTrace.
Open Scope Z_scope.

Lemma concat_all_spec : forall q sl l,
  concat_all q sl = Ok l -> Forall2 (fun s x => concatenate q s = Ok x) sl l.
Proof.
  induction sl as [|s r IH]; intros l H; simpl in H.
  - inversion H. constructor.
  - destruct (concatenate q s) as [x|e|e] eqn:E; simpl in H; try discriminate.
    destruct (concat_all q r) as [xs|e|e] eqn:E2; simpl in H; try discriminate.
    inversion H; subst. constructor; auto.
Qed.

(* number of dots in the text form of a relative name with at least one label *)
Definition dots (q : name) : Z := zlen q - 1.

Definition effective_search (r : rcfg) (sl : list name) : Prop :=
  (r_search r <> [] -> sl = r_search r) /\
  (r_search r = [] -> name_eqb (r_domain r) root = false -> sl = [r_domain r]) /\
  (r_search r = [] -> name_eqb (r_domain r) root = true -> sl = []).

Lemma search_list_spec : forall r, effective_search r (search_list r).
Proof.
  intros r. unfold effective_search, search_list. destruct (r_search r) as [|x l].
  - split; [congruence|]. split; intros _ H; rewrite H; reflexivity.
  - split; [reflexivity|]. split; intros H; discriminate.
Qed.

Theorem qnames_rule_lemma : forall r qname search l,
  qnames_to_try r qname search = Ok l ->
  let srch := match search with None => r_use_search_by_default r | Some b => b end in
  let nd := match r_ndots r with None => 1 | Some n => n end in
  (is_absolute qname = true -> l = [qname]) /\
  (is_absolute qname = false ->
     exists absq, concatenate qname root = Ok absq /\
       (srch = false -> l = [absq]) /\
       (srch = true ->
          exists sl cands, effective_search r sl /\
            Forall2 (fun s x => concatenate qname s = Ok x) sl cands /\
            (dots qname >= nd -> l = absq :: cands) /\
            (dots qname < nd -> l = cands ++ [absq]))).
Proof.
  intros r qname search l H. unfold qnames_to_try in H. simpl.
  destruct (is_absolute qname) eqn:EA.
  - inversion H; subst. split; [reflexivity|discriminate].
  - split; [discriminate|]. intros _.
    destruct (concatenate qname root) as [absq|e|e] eqn:EC; simpl in H; try discriminate.
    exists absq. split; [reflexivity|].
    destruct (match search with Some b => b | None => r_use_search_by_default r end) eqn:ES.
    + split; [discriminate|]. intros _.
      destruct (concat_all qname (search_list r)) as [cands|e|e] eqn:ECA; simpl in H; try discriminate.
      exists (search_list r), cands. split; [apply search_list_spec|].
      split; [apply concat_all_spec; exact ECA|].
      unfold dots.
      destruct (zlen qname >? match r_ndots r with Some n => n | None => 1 end) eqn:EN; inversion H; subst.
      * split; [reflexivity|]. intros. lia.
      * split; [|reflexivity]. intros. lia.
    + inversion H; subst. split; [reflexivity|discriminate].
Qed.

Section Order.
Variables (sc : nat -> outcome) (c : cfg) (start : Z).

(* the name asked is the candidate with `ev_left` candidates after it *)
Definition cand_at (ev : event) : Prop :=
  exists done rest, c_qnames c = done ++ ev_qname ev :: rest /\ length rest = ev_left ev.

(* candidates are tried in order; the next one only after an acceptable NXDOMAIN reply *)
Definition cand_rel (a b : event) : Prop :=
  (ev_left b <= ev_left a)%nat /\ ((ev_left b < ev_left a)%nat -> nx_accepts (ev_obs a) <> None).

Definition QInv (new : list event) (s : st) (e : env) : Prop :=
  (exists done, c_qnames c = done ++ s_qname s :: s_qnames s) /\
  Forall cand_at new /\ adjacent cand_rel new /\
  (forall a, last_opt new = Some a ->
     (length (s_qnames s) <= ev_left a)%nat /\
     ((length (s_qnames s) < ev_left a)%nat -> nx_accepts (ev_obs a) <> None)).

Definition QFin (new : list event) (f : final) (s' : st) (e' : env) : Prop :=
  Forall cand_at new /\ adjacent cand_rel new.

Lemma qinv_event : forall tr s e s1 ns ev,
  QInv tr s e -> asked sc c start s e s1 ns ev -> Forall cand_at (tr ++ [ev]) /\ adjacent cand_rel (tr ++ [ev]).
Proof.
  intros tr s e s1 ns ev ((done & HD) & HF & HA & HL) (tcp & backoff & cur & bo & T & ob & clock2 & -> & -> & _).
  split.
  - apply Forall_app. split; [exact HF|]. repeat constructor. exists done, (s_qnames s). auto.
  - apply adjacent_snoc; [exact HA|]. exact HL.
Qed.

Lemma qinv_step : forall tr s e s1 ns ev s',
  QInv tr s e -> asked sc c start s e s1 ns ev -> continues c s1 ev s' -> QInv (tr ++ [ev]) s' (after_query e ev).
Proof.
  intros tr s e s1 ns ev s' HI HA HC. destruct (qinv_event _ _ _ _ _ _ HI HA) as (HF' & HA').
  destruct HI as ((done & HD) & _). destruct HA as (tcp & backoff & cur & bo & T & ob & clock2 & -> & -> & _).
  assert (HL : forall s', (exists done, c_qnames c = done ++ s_qname s' :: s_qnames s') ->
                 (length (s_qnames s') <= length (s_qnames s))%nat ->
                 ((length (s_qnames s') < length (s_qnames s))%nat -> nx_accepts ob <> None) ->
                 QInv (tr ++ [mk_event s e ns tcp backoff bo T ob clock2]) s' (after_query e (mk_event s e ns tcp backoff bo T ob clock2))).
  { intros s0 H1 H2 H3. split; [exact H1|]. split; [exact HF'|]. split; [exact HA'|].
    intros a La. rewrite last_opt_snoc in La. injection La as <-. auto. }
  destruct (continues_cases c _ ns _ _ HC eq_refl)
    as [(_ & _ & _ & nss & errs & -> & _)|(Hnx & sk & q & rest & s0 & HR & -> & _)].
  - apply HL; simpl; [eauto|lia|lia].
  - simpl in HR. apply HL; simpl; rewrite ?HR, ?app_length; simpl; [|lia|auto].
    exists (done ++ s_qname s :: sk). rewrite HD, HR, <- app_assoc. reflexivity.
Qed.

Lemma qinv_stop : forall tr s e f s' e', QInv tr s e -> gives_up c start s e f s' e' -> QFin tr f s' e'.
Proof. intros tr s e f s' e' (_ & HF & HA & _) _. split; assumption. Qed.

Lemma qinv_end : forall tr s e s1 ns ev f s',
  QInv tr s e -> asked sc c start s e s1 ns ev -> ends c s1 ev f s' -> QFin (tr ++ [ev]) f s' (after_query e ev).
Proof. intros tr s e s1 ns ev f s' HI HA _. exact (qinv_event _ _ _ _ _ _ HI HA). Qed.
End Order.
