(* Decoding arbitrary octets always terminates with a record or a library error: the fuel of the
   `while parser.remaining() > 0` loops suffices for every well-formed schema (each row consumes
   at least one octet), names come from NameWire.from_wire_total. *)
From DV Require Import Base.Prelude Model.NameM Model.SchemaM Proofs.SchemaCodec.
From DV Require Proofs.NameValid Proofs.NameWire.
Open Scope Z_scope.

(* progress of dns.name.from_wire: at least one octet is consumed *)
Lemma nm_get_bytes_furthest : forall w p n l p',
  NameM.get_bytes w p n = Ok (l, p') -> (furthest p <= furthest p' /\ cur p + n <= furthest p')%nat.
Proof.
  intros w p n l p' H. unfold NameM.get_bytes in H.
  destruct (Nat.ltb (length w - cur p) n); [discriminate|]. injection H as <- <-. cbn [furthest]. lia.
Qed.

Lemma nm_get_u8_furthest : forall w p x p',
  NameM.get_u8 w p = Ok (x, p') -> (furthest p <= furthest p' /\ cur p + 1 <= furthest p')%nat.
Proof.
  intros w p x p' H. unfold NameM.get_u8 in H.
  destruct (NameM.get_bytes w p 1) as [[l q]| |] eqn:E; try discriminate.
  destruct l as [|y [|z l']]; try discriminate. injection H as <- <-.
  eapply nm_get_bytes_furthest; eauto.
Qed.

Lemma fw_go_furthest : forall w fuel p big acc ls p',
  fw_go w fuel p big acc = Ok (ls, p') -> (furthest p <= furthest p' /\ cur p + 1 <= furthest p')%nat.
Proof.
  induction fuel as [|f IH]; intros p big acc ls p' H; cbn [fw_go] in H; [discriminate|].
  destruct (NameM.get_u8 w p) as [[count p1]| |] eqn:E1; try discriminate.
  apply nm_get_u8_furthest in E1 as [F1 G1].
  destruct (count =? 0); [injection H as <- <-; auto|].
  destruct (count <? 64).
  - destruct (NameM.get_bytes w p1 (Z.to_nat count)) as [[l p2]| |] eqn:E2; try discriminate.
    apply nm_get_bytes_furthest in E2 as [F2 _]. apply IH in H as [H _]. lia.
  - destruct (192 <=? count); [|discriminate].
    destruct (NameM.get_u8 w p1) as [[lo p2]| |] eqn:E2; try discriminate.
    apply nm_get_u8_furthest in E2 as [F2 _].
    destruct (Nat.leb big _); [discriminate|]. destruct (Nat.ltb (length w) _); [discriminate|].
    apply IH in H as [H _]. cbn [furthest] in H. lia.
Qed.

Lemma from_wire_progress : forall w s n c, NameM.from_wire w s = Ok (n, c) -> (1 <= c)%nat.
Proof.
  intros w s n c H. unfold NameM.from_wire in H.
  destruct (Nat.ltb (length w) s); [discriminate|].
  destruct (fw_go w (fw_fuel w s) {| cur := s; furthest := s |} s []) as [[ls p]| |] eqn:E; try discriminate.
  apply fw_go_furthest in E as [_ E]. cbn [cur] in E.
  destruct (mk_name ls) as [m| |]; cbn [bind] in H; try discriminate.
  injection H as <- <-. lia.
Qed.

(* no Internal, and progress, field by field *)
Lemma bind_lib {A B} (r : res A) (k : A -> res B) x :
  (forall y, r <> Internal y) -> (forall a, r = Ok a -> k a <> Internal x) -> bind r k <> Internal x.
Proof. intros Hr Hk. destruct r; cbn [bind]; [auto|discriminate|]. intros _. exact (Hr e eq_refl). Qed.

Lemma get_bytes_lib : forall w e c n x, get_bytes w e c n <> Internal x.
Proof. intros. unfold get_bytes. destruct (Nat.ltb (e - c) n); discriminate. Qed.

Lemma get_bytes_cur : forall w e c n b c', get_bytes w e c n = Ok (b, c') -> c' = (c + n)%nat.
Proof. intros w e c n b c' H. unfold get_bytes in H. destruct (Nat.ltb (e - c) n); [discriminate|]. injection H as _ <-. reflexivity. Qed.

Lemma relativize_lib : forall n o x, relativize n o <> Internal x.
Proof.
  intros n o x. unfold relativize. destruct (is_subdomain n o); [|discriminate].
  apply NameValid.mk_name_never_internal.
Qed.

Lemma get_name_lib : forall w o rel e c x, get_name w o rel e c <> Internal x.
Proof.
  intros w o rel e c x. unfold get_name.
  destruct (NameM.from_wire (firstn e w) c) as [[n k]| |] eqn:E; try discriminate.
  - destruct (if rel then o else None) as [[|y o']|]; try discriminate.
    apply bind_lib; [apply relativize_lib|discriminate].
  - exfalso. eapply NameWire.from_wire_total; eauto.
Qed.

Lemma get_name_progress : forall w o rel e c n c', get_name w o rel e c = Ok (n, c') -> (c + 1 <= c')%nat.
Proof.
  intros w o rel e c n c' H. unfold get_name in H.
  destruct (NameM.from_wire (firstn e w) c) as [[m k]| |] eqn:E; try discriminate.
  apply from_wire_progress in E.
  destruct (if rel then o else None) as [[|y o']|]; [|inv_bind H|]; injection H as _ <-; lia.
Qed.

Lemma dec_s_lib : forall w o f e c x, dec_s w o f e c <> Internal x.
Proof.
  intros w o [wd m|n|wd lo hi|rel] e c x; cbn [dec_s];
    repeat (apply bind_lib; [apply get_bytes_lib || apply get_name_lib|intros ? _]); discriminate.
Qed.

Lemma dec_s_progress : forall w o f e c v c',
  sfld_wf f = true -> dec_s w o f e c = Ok (v, c') -> (c + 1 <= c')%nat.
Proof.
  intros w o [wd m|n|wd lo hi|rel] e c v c' Hwf H; cbn [dec_s] in H; apply sfld_wf_width in Hwf.
  - inv_bind H. injection H as _ <-. destruct x. apply get_bytes_cur in E. cbn [snd]. lia.
  - inv_bind H. injection H as _ <-. destruct x. apply get_bytes_cur in E. cbn [snd]. lia.
  - inv_bind H. inv_bind H. injection H as _ <-. destruct x, x0.
    apply get_bytes_cur in E. apply get_bytes_cur in E0. cbn [fst snd] in *. lia.
  - inv_bind H. injection H as _ <-. destruct x. cbn [snd]. eapply get_name_progress; eauto.
Qed.

Lemma dec_row_lib : forall w o fs e c x, dec_row w o fs e c <> Internal x.
Proof.
  induction fs as [|f fr IH]; intros e c x; cbn [dec_row]; [discriminate|].
  apply bind_lib; [apply dec_s_lib|intros ? _]. apply bind_lib; [apply IH|discriminate].
Qed.

Lemma dec_row_mono : forall w o fs e c vs c',
  forallb sfld_wf fs = true -> dec_row w o fs e c = Ok (vs, c') -> (c <= c')%nat.
Proof.
  induction fs as [|f fr IH]; intros e c vs c' Hwf H; cbn [dec_row] in H.
  - injection H as _ <-. lia.
  - cbn [forallb] in Hwf. apply andb_prop in Hwf as [W1 W2].
    inv_bind H. inv_bind H. injection H as _ <-. destruct x as [v c1], x0 as [vr c2]. cbn [fst snd] in *.
    apply dec_s_progress in E; [|assumption]. apply IH in E0; [|assumption]. lia.
Qed.

Lemma dec_row_progress : forall w o fs e c vs c',
  fs <> [] -> forallb sfld_wf fs = true -> dec_row w o fs e c = Ok (vs, c') -> (c + 1 <= c')%nat.
Proof.
  intros w o [|f fr] e c vs c' Hne Hwf H; [congruence|]. cbn [dec_row] in H.
  cbn [forallb] in Hwf. apply andb_prop in Hwf as [W1 W2].
  inv_bind H. inv_bind H. injection H as _ <-. destruct x as [v c1], x0 as [vr c2]. cbn [fst snd] in *.
  apply dec_s_progress in E; [|assumption]. apply dec_row_mono in E0; [|assumption]. lia.
Qed.

(* every row consumes at least one octet, so the fuel of the loop (octets left + 1) suffices *)
Lemma dec_rows_lib : forall w o row, row <> [] -> forallb sfld_wf row = true ->
  forall fuel e c x, (e - c < fuel)%nat -> dec_rows w o fuel row e c <> Internal x.
Proof.
  intros w o row Hne Hwf. induction fuel as [|f IH]; intros e c x Hf; cbn [dec_rows];
    destruct (Nat.leb_spec e c); try discriminate; [lia|].
  apply bind_lib; [apply dec_row_lib|intros [r c1] E]. apply dec_row_progress in E; try assumption.
  apply bind_lib; [intros y; apply IH; cbn [snd]; lia|discriminate].
Qed.

Lemma dec_f_lib : forall w o f e c x, last_wf f = true -> dec_f w o f e c <> Internal x.
Proof.
  intros w o [s|lo|n|hi|m a row] e c x Hwf; cbn [dec_f]; [| | |destruct (Nat.ltb c e); [|discriminate]|];
    (apply bind_lib; [|discriminate]); try apply dec_s_lib; try apply get_bytes_lib.
  apply row_wf_inv in Hwf as [W1 Hne]. intros y. apply dec_rows_lib; auto.
Qed.

Lemma dec_fields_lib : forall w o fs e c x, schema_wf fs = true -> dec_fields w o fs e c <> Internal x.
Proof.
  induction fs as [|f fr IH]; intros e c x Hwf; cbn [dec_fields]; [discriminate|].
  apply schema_wf_cons in Hwf as (L1 & L2 & _).
  apply bind_lib; [intros y; apply dec_f_lib, L1|intros ? _]. apply bind_lib; [intros y; apply IH, L2|discriminate].
Qed.

(* dns.rdata.from_wire on ANY octets, offset, length and origin: a record or a library error *)
Theorem decode_never_internal_thm : forall o fs ck wire cur rdlen x,
  schema_wf fs = true -> decode_rdata o fs ck wire cur rdlen <> Internal x.
Proof.
  intros o fs ck wire cur rdlen x Hwf.
  apply (framed_lib (fun W => dec_fields W o fs)). intros e c y. apply dec_fields_lib, Hwf.
Qed.
