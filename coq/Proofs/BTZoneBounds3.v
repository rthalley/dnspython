(* C20: ImmutableVersion.bounds returns the documented bounds: the cursor part (the
   nearest non-glue nodes on either side of the position that Cursor.seek finds), then
   bounds_eq_spec_main (for a zone that satisfies the invariant). *)
From DV Require Import Base.Prelude Model.NameM Model.BTZoneM
     Proofs.BTZoneOrder Proofs.BTZoneList Proofs.BTZoneSpec Proofs.BTZoneInv
     Proofs.BTZoneMain Proofs.BTZoneBounds2.
Open Scope Z_scope.

Lemma apex_not_occk : forall c v, Inv c v -> ~ occk c (v_nodes v) (apexkey c).
Proof.
  intros c v HI (o & Ho & Hs). destruct Ho as (m & nd & Hin & _ & E).
  assert (validk c o) by (apply (inv_v c v HI); rewrite <- E; eapply in_keys; eauto).
  eapply sbelow_irrefl. eapply sbelow_below_trans; eauto.
Qed.

Lemma inv_node_glue : forall c v n nd, Inv c v -> In (n, nd) (v_nodes v) ->
    node_is_glue nd = occluded c (v_nodes v) n.
Proof.
  intros c v n nd HI Hin. unfold node_is_glue.
  destruct (flagspec_tests (is_apex c n) (occluded c (v_nodes v) n) (has_ns nd)) as (_ & _ & F).
  rewrite <- (inv_flags c v HI n nd Hin) in F. rewrite F.
  destruct (is_apex c n) eqn:Ea; cbn [negb andb]; auto.
  symmetry. apply occluded_false_iff. apply is_apex_key in Ea. rewrite Ea. apply apex_not_occk; auto.
Qed.

Lemma visible_in : forall c l x,
    In x (visible c l) <-> exists nd, In (x, nd) l /\ occluded c l x = false.
Proof.
  intros c l x. unfold visible. rewrite in_map_iff. split.
  - intros ([k nd] & <- & Hin). apply filter_In in Hin as [Hin H]. cbn [fst] in *.
    rewrite glue_name_occluded in H. apply negb_true_iff in H. eauto.
  - intros (nd & Hin & H). exists (x, nd). split; auto. apply filter_In. split; auto. cbn [fst].
    rewrite glue_name_occluded, H. reflexivity.
Qed.

(* the nearest names at or before / after a key q among the names vis *)
Definition is_pred (vis : list name) (q : key) (x : name) : Prop :=
  In x vis /\ kcmp (K x) q <> Gt /\
  forall v, In v vis -> kcmp (K v) q <> Gt -> kcmp (K v) (K x) <> Gt.

Definition is_succ (vis : list name) (q : key) (r : option name) : Prop :=
  match r with
  | Some y => In y vis /\ klt q (K y) /\ forall v, In v vis -> klt q (K v) -> kcmp (K y) (K v) <> Gt
  | None => forall v, In v vis -> ~ klt q (K v)
  end.

(* when no name of vis lies in (t, q], the neighbours of t are those of q *)
Lemma neighbours_shift : forall vis t q x r,
    kcmp t q <> Gt -> (forall v, In v vis -> klt t (K v) -> klt q (K v)) ->
    is_pred vis t x -> is_succ vis t r -> is_pred vis q x /\ is_succ vis q r.
Proof.
  intros vis t q x r Htq Hgap (Hx & Hxt & Hmax) Hr.
  assert (Hle : forall v, In v vis -> kcmp (K v) q <> Gt -> kcmp (K v) t <> Gt).
  { intros v Hv Hq C. apply kcmp_gt_lt in C. apply Hq, kcmp_gt_lt, (Hgap v Hv C). }
  split.
  - split; [exact Hx|]. split; [eapply kcmp_le_trans; eauto|]. intros v Hv Hq. apply Hmax; auto.
  - destruct r as [y|]; cbn [is_succ] in *.
    + destruct Hr as (Hy & Hty & Hmin). split; [exact Hy|]. split; [exact (Hgap y Hy Hty)|].
      intros v Hv Hq. apply Hmin; [exact Hv|]. eapply kcmp_le_lt_trans; eauto.
    + intros v Hv Hq. apply (Hr v Hv). eapply kcmp_le_lt_trans; eauto.
Qed.

Definition all_glue (g : nodes_t) : Prop := forall e, In e g -> node_is_glue (snd e) = true.

Lemma skip_glue_right_spec : forall a,
    match skip_glue_right a with
    | Some r => exists gl rest, a = gl ++ r :: rest /\ all_glue gl /\ node_is_glue (snd r) = false
    | None => all_glue a
    end.
Proof.
  induction a as [|e a IH]; cbn.
  - intros ? [].
  - destruct (node_is_glue (snd e)) eqn:G.
    + destruct (skip_glue_right a) as [r|].
      * destruct IH as (gl & rest & E & Hg & Hr). exists (e :: gl), rest. split; [cbn; congruence|].
        split; auto. intros x [<-|Hx]; auto.
      * intros x [<-|Hx]; auto.
    + exists [], a. split; auto. split; auto. intros ? [].
Qed.

Lemma skip_glue_right_app : forall gl a, all_glue gl -> skip_glue_right (gl ++ a) = skip_glue_right a.
Proof.
  induction gl as [|e gl IH]; intros a H; cbn; auto.
  rewrite (H e) by (left; auto). apply IH. intros x Hx. apply H. right; auto.
Qed.

Lemma skip_glue_left_spec : forall before lft after,
    (exists e, In e (lft :: before) /\ node_is_glue (snd e) = false) ->
    exists gl x rest,
      lft :: before = gl ++ x :: rest /\ all_glue gl /\ node_is_glue (snd x) = false /\
      skip_glue_left lft (before, lft :: after) before = Ok (x, (rest, x :: rev gl ++ after)).
Proof.
  induction before as [|e before IH]; intros lft after Hex.
  - destruct Hex as (e & [<-|[]] & He). exists [], lft, []. cbn. rewrite He. repeat split; auto. intros ? [].
  - cbn [skip_glue_left]. destruct (node_is_glue (snd lft)) eqn:G.
    + destruct (IH e (lft :: after)) as (gl & x & rest & E & Hg & Hx & Hs).
      { destruct Hex as (y & [<-|Hy] & Hy'); [congruence|]. exists y. auto. }
      cbn [snd]. rewrite Hs. exists (lft :: gl), x, rest. split; [cbn; congruence|].
      split; [intros y [<-|Hy]; auto|]. split; auto.
      cbn [rev]. rewrite <- app_assoc. reflexivity.
    + exists [], lft, (e :: before). cbn. repeat split; auto. intros ? [].
Qed.

(* the cursor walk of bounds(): seek, step back over glue, step forward over glue;
   vis are the names of the nodes that are not glue *)
Lemma cursor_neighbours : forall (l : nodes_t) (vis : list name) t b a,
    sorted l -> (forall x, In x vis <-> exists nd, In (x, nd) l /\ node_is_glue nd = false) ->
    c_seek l t = (b, a) -> (exists e, In e b /\ node_is_glue (snd e) = false) ->
    exists left0 b' x cur2,
      b = left0 :: b' /\ skip_glue_left left0 (b', left0 :: a) b' = Ok (x, cur2) /\
      skip_glue_right (snd (snd (c_next cur2))) = skip_glue_right a /\
      is_pred vis (K t) (fst x) /\ is_succ vis (K t) (option_map fst (skip_glue_right a)).
Proof.
  intros l vis t b a S Hvis Hseek Hex. destruct (c_seek_spec l t b a S Hseek) as (Hl & Hb & Ha).
  destruct b as [|left0 b']; [destruct Hex as (? & [] & _)|].
  destruct (skip_glue_left_spec b' left0 a Hex) as (gl & [kx vx] & rest & E & Hgl & Hx & Hs).
  exists left0, b', (kx, vx), (rest, (kx, vx) :: rev gl ++ a).
  split; [reflexivity|]. split; [exact Hs|]. split; [|split].
  - cbn. apply skip_glue_right_app. intros e He. apply Hgl, in_rev, He.
  - (* before x come smaller keys, after it glue and then the keys past t *)
    assert (Hlx : l = rev rest ++ (kx, vx) :: rev gl ++ a).
    { rewrite Hl, E, rev_app_distr. cbn [rev]. rewrite <- !app_assoc. reflexivity. }
    cbn [fst]. split; [apply Hvis; exists vx; split; [rewrite Hlx; apply in_elt|exact Hx]|].
    split; [apply (Hb kx vx); rewrite E; apply in_elt|].
    intros v Hv Hle. apply Hvis in Hv as (nd & Hin & Hg). rewrite Hlx in Hin, S.
    apply in_app_or in Hin as [H|[H|H]]; [| |apply in_app_or in H as [H|H]].
    + apply klt_le, (proj1 (sorted_mid _ _ _ _ S) _ _ H).
    + injection H as <- <-. rewrite kcmp_refl. discriminate.
    + apply in_rev, Hgl in H. cbn [snd] in H. congruence.
    + exfalso. apply Hle, kcmp_gt_lt, (Ha v nd H).
  - (* after the keys up to t come glue, the right neighbour, and larger keys *)
    pose proof (skip_glue_right_spec a) as Hr.
    destruct (skip_glue_right a) as [[kr vr]|]; cbn [option_map fst is_succ].
    + destruct Hr as (gl2 & rest2 & Ea & Hgl2 & Hrg).
      assert (Hlr : l = (rev (left0 :: b') ++ gl2) ++ (kr, vr) :: rest2) by (rewrite Hl, Ea, <- app_assoc; reflexivity).
      split; [apply Hvis; exists vr; split; [rewrite Hlr; apply in_elt|exact Hrg]|].
      split; [apply (Ha kr vr); rewrite Ea; apply in_elt|].
      intros v Hv Hlt. apply Hvis in Hv as (nd & Hin & Hg). rewrite Hlr in Hin, S.
      apply in_app_or in Hin as [H|[H|H]]; [apply in_app_or in H as [H|H]| |].
      * exfalso. apply in_rev in H. apply (Hb v nd H), kcmp_gt_lt, Hlt.
      * apply Hgl2 in H. cbn [snd] in H. congruence.
      * injection H as <- <-. rewrite kcmp_refl. discriminate.
      * apply klt_le, (proj2 (sorted_mid _ _ _ _ S) _ _ H).
    + intros v Hv Hlt. apply Hvis in Hv as (nd & Hin & Hg). rewrite Hl in Hin. apply in_app_or in Hin as [H|H].
      * apply in_rev in H. apply (Hb v nd H), kcmp_gt_lt, Hlt.
      * apply Hr in H. cbn [snd] in H. congruence.
Qed.

(* the part of bounds() after the delegation lookup *)
Definition bounds_core (z : zone) (o q target : name) (is_deleg : bool) : res bounds :=
  let cur := c_seek (z_nodes z) target in
  match c_prev cur with
  | (None, _) => Internal eAssert
  | (Some left0, cur1) =>
      do lc <- skip_glue_left left0 cur1 (fst cur1);
      let '(lft, cur2) := lc in
      let '(_, cur3) := c_next cur2 in
      let rgt := skip_glue_right (snd cur3) in
      let lcmp := fullcompare (fst lft) q in
      let rcommon := match rgt with Some r => common (fst r) q | None => zlen o end in
      let n := Z.max (snd lcmp) rcommon in
      Ok (mkBounds (fst lft) (option_map fst rgt) (py_suffix q n)
                   (fst (fst lcmp) =? rEQUAL) is_deleg)
  end.

Lemma bounds_v_unfold : forall c z q0 o q,
    validate_name c (c_origin c) = Ok o -> validate_name c q0 = Ok q ->
    bounds_v c z q0 =
    let cut := fst (get_delegation (z_delegs z) q) in
    bounds_core z o q (match cut with Some d => d | None => q end)
                (match cut with Some _ => true | None => false end).
Proof.
  intros c z q0 o q Eo Eq. unfold bounds_v. rewrite Eo. cbn [bind]. rewrite Eq. cbn [bind].
  destruct (get_delegation (z_delegs z) q) as [[cut|] sub]; reflexivity.
Qed.

(* the name the cursor seeks: the delegation point above q if there is one, which hides
   everything between itself and q *)
Lemma bounds_target : forall c z q,
    ZInv c z -> validk c (K q) ->
    let l := z_nodes z in
    let cut := fst (get_delegation (z_delegs z) q) in
    let t := match cut with Some d => d | None => q end in
    validk c (K t) /\ kcmp (K t) (K q) <> Gt /\
    (forall v, In v (visible c l) -> klt (K t) (K v) -> klt (K q) (K v)) /\
    match cut with Some _ => true | None => false end =
    existsb (fun d0 => is_subdomain q d0) (delegations_of c l).
Proof.
  intros c z q HI Hvq l. pose proof (inv_gd c _ HI q) as Hg. cbn [v_nodes v_delegs] in Hg.
  destruct (get_delegation (z_delegs z) q) as [[cut|] sub]; cbn [fst].
  - destruct Hg as (Hkd & Hb & _). pose proof (proj1 (inv_d c _ HI (K cut)) Hkd) as [Ho Hno].
    split; [apply (inv_v c _ HI), (inv_deleg_keys_nodes c _ HI), Hkd|]. split; [apply below_kle, Hb|]. split.
    + intros v Hv Hlt. destruct (klt_or_ge (K q) (K v)) as [C|C]; [exact C|exfalso].
      apply visible_in in Hv as (nd & _ & Hocc). apply occluded_false_iff in Hocc. apply Hocc.
      exists (K cut). split; [exact Ho|]. split; [|apply not_eq_sym, klt_neq, Hlt].
      eapply prefix_convex; [apply prefix_refl|exact Hb|apply klt_le, Hlt|exact C].
    + symmetry. apply existsb_exists. apply (inv_deleg_keys c _ HI), in_map_iff in Hkd as (d0 & E0 & Hd0).
      exists d0. split; [exact Hd0|]. apply is_subdomain_below. rewrite E0. exact Hb.
  - destruct Hg as [_ Hn]. split; [exact Hvq|]. split; [rewrite kcmp_refl; discriminate|]. split.
    + intros v _ Hlt. exact Hlt.
    + symmetry. apply not_true_is_false. intros H. apply existsb_exists in H as (d0 & Hd0 & Hs).
      apply (Hn (K d0)); [apply (inv_deleg_keys c _ HI), in_map, Hd0|apply is_subdomain_below, Hs].
Qed.

(* evaluation of the cursor part *)
Lemma bounds_core_eval : forall c z o q t is_deleg,
    ZInv c z -> validk c (K t) -> In (apexkey c) (keys (z_nodes z)) ->
    exists x r,
      is_pred (visible c (z_nodes z)) (K t) x /\ is_succ (visible c (z_nodes z)) (K t) r /\
      bounds_core z o q t is_deleg =
      Ok (mkBounds x r
                   (py_suffix q (Z.max (common x q) (match r with Some y => common y q | None => zlen o end)))
                   (reln x q =? rEQUAL) is_deleg).
Proof.
  intros c z o q t is_deleg HZ Hv Hapex. unfold ZInv in HZ.
  pose proof (inv_sn c _ HZ) as S. cbn [v_nodes] in S.
  pose proof (fun k nd => inv_node_glue c _ k nd HZ) as HG. cbn [v_nodes] in HG.
  assert (Hvis : forall x, In x (visible c (z_nodes z)) <-> exists nd, In (x, nd) (z_nodes z) /\ node_is_glue nd = false).
  { intros x. rewrite visible_in. split; intros (nd & Hin & H); exists nd; rewrite (HG x nd Hin) in *; auto. }
  destruct (c_seek (z_nodes z) t) as [b a] eqn:Es.
  (* the apex is a non-glue node at or before t *)
  apply keys_in in Hapex as (ax & ndx & Hinx & Eax).
  assert (Hex : exists e, In e b /\ node_is_glue (snd e) = false).
  { exists (ax, ndx). split.
    - destruct (c_seek_spec _ _ _ _ S Es) as (El & _ & Ha). rewrite El in Hinx.
      apply in_app_or in Hinx as [H|H]; [apply in_rev, H|]. exfalso.
      apply (below_kle _ _ Hv). rewrite <- Eax. apply kcmp_gt_lt, (Ha ax ndx H).
    - cbn [snd]. rewrite (HG ax ndx Hinx). apply occluded_false_iff. rewrite Eax. apply (apex_not_occk c _ HZ). }
  destruct (cursor_neighbours _ _ t b a S Hvis Es Hex) as (left0 & b' & x & cur2 & -> & Hs & Hr & Hp & Hsu).
  exists (fst x), (option_map fst (skip_glue_right a)). split; [exact Hp|]. split; [exact Hsu|].
  unfold bounds_core. rewrite Es. unfold c_prev. cbn [fst snd]. rewrite Hs. cbn [bind].
  destruct (c_next cur2) as [e3 cur3]. cbn [snd] in Hr. rewrite Hr.
  destruct (skip_glue_right a); reflexivity.
Qed.

Lemma name_le_iff : forall a b, name_le a b = true <-> kcmp (K a) (K b) <> Gt.
Proof. intros. apply order_le_kcmp. Qed.

Lemma name_lt_iff : forall a b, name_lt a b = true <-> klt (K a) (K b).
Proof. intros. apply order_lt_kcmp. Qed.

(* the closest encloser: the suffix of q as long as the longest common-label count that a
   visible name has with q, which the two neighbours of q attain *)
Lemma encloser_spec : forall c (vis : list name) q x r,
    is_absolute (c_origin c) = true -> (forall w, In w vis -> validk c (K w)) -> validk c (K q) ->
    is_pred vis (K q) x -> is_succ vis (K q) r ->
    let n := Z.max (common x q)
                   (match r with Some y => common y q | None => if c_rel c then 0 else zlen (c_origin c) end) in
    In (py_suffix q n) (suffixes q) /\
    (exists w, In w vis /\ is_subdomain w (py_suffix q n) = true) /\
    forall s, In s (suffixes q) -> (exists w, In w vis /\ is_subdomain w s = true) ->
              (length s <= length (py_suffix q n))%nat.
Proof.
  intros c vis q x r Ho Hval Hq (Hx & Hxq & Hmax) Hr n.
  pose proof (Hval x Hx) as Hvx.
  pose proof (common_origin c Ho x q Hvx Hq) as Hox.
  (* no name of vis has more labels in common with q than n *)
  assert (Hn : forall w, In w vis -> common w q <= n).
  { intros w Hw. pose proof (Hval w Hw) as Hvw. destruct (klt_or_ge (K q) (K w)) as [Hlt|Hge].
    - destruct r as [y|]; cbn [is_succ] in Hr; [|exfalso; eapply Hr; eauto].
      destruct Hr as (Hy & Hqy & Hmin).
      pose proof (common_mono c Ho w y q Hvw (Hval y Hy) Hq (or_intror (conj (klt_le _ _ Hqy) (Hmin w Hw Hlt)))).
      unfold n. lia.
    - pose proof (common_mono c Ho w x q Hvw Hvx Hq (or_introl (conj (Hmax w Hw Hge) Hxq))).
      unfold n. lia. }
  (* one of the neighbours attains n *)
  assert (Hw : exists w, In w vis /\ common w q = n).
  { destruct (Z.max_spec (common x q) (match r with Some y => common y q | None => if c_rel c then 0 else zlen (c_origin c) end))
      as [[Hlt Hm]|[Hge Hm]]; fold n in Hm; [|exists x; auto].
    destruct r as [y|]; [|lia]. exists y. split; [apply Hr|symmetry; exact Hm]. }
  destruct Hw as (w & Hw & Ew). pose proof (Hval w Hw) as Hvw.
  pose proof (common_valid c Ho w q Hvw Hq) as Elcp. pose proof (lcp_nonneg (lkey w) (lkey q)) as H0.
  pose proof (lcp_le_r (lkey w) (lkey q)) as Hle. rewrite zlen_lkey in Hle.
  assert (Hlen : length (py_suffix q n) = Z.to_nat n).
  { rewrite py_suffix_skipn by lia. rewrite skipn_length. unfold zlen in *. lia. }
  split; [rewrite py_suffix_skipn by lia; apply skipn_in_suffixes; lia|]. split.
  - exists w. split; [exact Hw|]. apply (sub_suffix_ge c Ho w q Hvw Hq); [lia|].
    intros Er. rewrite Er in Hox. pose proof (is_absolute_nonempty _ Ho). unfold zlen in Hox. lia.
  - intros s Hs (w' & Hw' & Hsub). apply suffixes_skipn in Hs as (k & Hk & ->).
    pose proof (sub_suffix_le c Ho w' q (Hval w' Hw') Hq k Hk Hsub). pose proof (Hn w' Hw').
    rewrite Hlen, skipn_length. lia.
Qed.

Theorem bounds_eq_spec_main : forall c z q0 q,
    ZInv c z -> is_absolute (c_origin c) = true -> In (apexkey c) (keys (z_nodes z)) ->
    validate_name c q0 = Ok q -> validk c (K q) ->
    exists b, bounds_v c z q0 = Ok b /\ bounds_spec c (z_nodes z) q b.
Proof.
  intros c z q0 q HZ Habs Hapex Eq Hvq.
  destruct (validate_origin c Habs) as (o & Eo & Hzo).
  rewrite (bounds_v_unfold c z q0 o q Eo Eq). cbn zeta.
  destruct (bounds_target c z q HZ Hvq) as (Hvt & Htq & Hgap & Hdel). cbn zeta in *.
  set (t := match fst (get_delegation (z_delegs z) q) with Some d => d | None => q end) in *.
  edestruct (bounds_core_eval c z o q t) as (x & r & Hp & Hs & ->); [exact HZ|exact Hvt|exact Hapex|]. rewrite Hzo.
  eexists. split; [reflexivity|].
  destruct (neighbours_shift _ _ _ _ _ Htq Hgap Hp Hs) as [Hpq Hsq].
  assert (Hval : forall w, In w (visible c (z_nodes z)) -> validk c (K w)).
  { intros w Hw. apply visible_in in Hw as (nd & Hin & _). apply (inv_v c _ HZ). eapply in_keys; eauto. }
  pose proof (encloser_spec c _ q x r Habs Hval Hvq Hpq Hsq) as Henc.
  destruct Hpq as (Hx & Hxq & Hmax).
  unfold bounds_spec. cbn [b_left b_right b_encloser b_equal b_deleg].
  split; [|split; [|split; [exact Henc|split]]].
  - split; [exact Hx|]. split; [apply name_le_iff, Hxq|].
    intros v Hv Hle. apply name_le_iff, (Hmax v Hv), name_le_iff, Hle.
  - destruct r as [y|]; cbn [is_succ] in Hsq.
    + destruct Hsq as (Hy & Hqy & Hmin). split; [exact Hy|]. split; [apply name_lt_iff, Hqy|].
      intros v Hv Hlt. apply name_le_iff, (Hmin v Hv), name_lt_iff, Hlt.
    + intros v Hv. apply not_true_is_false. intros Hlt. apply (Hsq v Hv), name_lt_iff, Hlt.
  - apply Bool.eq_true_iff_eq. rewrite reln_equal_ekey, name_eqb_ekey. reflexivity.
  - exact Hdel.
Qed.
