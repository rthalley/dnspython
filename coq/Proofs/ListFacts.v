(* Facts about lists that the standard library lacks, and about the helpers of Base/Prelude.v
   (zlist_eqb, res, bind), each used by several parts of the development. *)
From Coq Require Import Sorted.
From DV Require Import Base.Prelude.

Lemma In_firstn {A} (x : A) n l : In x (firstn n l) -> In x l.
Proof. rewrite <- (firstn_skipn n l) at 2. intros H. apply in_or_app. left. exact H. Qed.

Lemma In_skipn {A} (x : A) n l : In x (skipn n l) -> In x l.
Proof. rewrite <- (firstn_skipn n l) at 2. intros H. apply in_or_app. right. exact H. Qed.

Lemma Forall_firstn {A} (P : A -> Prop) n l : Forall P l -> Forall P (firstn n l).
Proof. rewrite !Forall_forall. intros H x Hx. exact (H x (In_firstn x n l Hx)). Qed.

Lemma Forall_skipn {A} (P : A -> Prop) n l : Forall P l -> Forall P (skipn n l).
Proof. rewrite !Forall_forall. intros H x Hx. exact (H x (In_skipn x n l Hx)). Qed.

Lemma firstn_app_len {A} (a b : list A) : firstn (length a) (a ++ b) = a.
Proof. rewrite firstn_app, firstn_all, Nat.sub_diag. cbn [firstn]. apply app_nil_r. Qed.

Lemma skipn_app_len {A} (a b : list A) : skipn (length a) (a ++ b) = b.
Proof. rewrite skipn_app, skipn_all, Nat.sub_diag. reflexivity. Qed.

Lemma firstn_app_exact {A} (a b : list A) n : length a = n -> firstn n (a ++ b) = a.
Proof. intros <-. apply firstn_app_len. Qed.

Lemma skipn_app_exact {A} (a b : list A) n : length a = n -> skipn n (a ++ b) = b.
Proof. intros <-. apply skipn_app_len. Qed.

Lemma app_inj_len {A} : forall (a c b d : list A), length a = length c -> a ++ b = c ++ d -> a = c /\ b = d.
Proof.
  induction a as [|x a IH]; destruct c as [|y c]; intros b d L H; try discriminate; [auto|].
  cbn in H. injection H as -> H. injection L as L. destruct (IH _ _ _ L H) as [-> ->]. auto.
Qed.

Lemma skipn_add {A} a b (l : list A) : skipn (a + b) l = skipn b (skipn a l).
Proof. revert l. induction a as [|a IH]; intros [|x l]; cbn [Nat.add skipn]; rewrite ?skipn_nil; auto. Qed.

Lemma filter_filter {A} (f g : A -> bool) l : filter f (filter g l) = filter (fun x => f x && g x) l.
Proof.
  induction l as [|x l IH]; [reflexivity|]. cbn [filter]. destruct (g x); cbn [filter].
  - rewrite andb_true_r, IH. reflexivity.
  - rewrite andb_false_r. exact IH.
Qed.

Lemma filter_all {A} (f : A -> bool) l : (forall x, In x l -> f x = true) -> filter f l = l.
Proof. induction l as [|a l IH]; cbn; intros H; [reflexivity|]. rewrite H, IH; auto. Qed.

Lemma rev_repeat {A} (x : A) k : rev (repeat x k) = repeat x k.
Proof.
  induction k as [|k IH]; [reflexivity|]. cbn [repeat rev]. rewrite IH.
  clear. induction k as [|k IH]; [reflexivity|]. cbn [repeat app]. rewrite IH. reflexivity.
Qed.

Lemma NoDup_snoc {A} (l : list A) x : NoDup l -> ~ In x l -> NoDup (l ++ [x]).
Proof.
  intros H Hx. apply NoDup_rev in H. rewrite <- (rev_involutive (l ++ [x])), rev_unit.
  apply NoDup_rev. constructor; [rewrite <- in_rev; exact Hx|exact H].
Qed.

Lemma StronglySorted_app {A} (le : A -> A -> Prop) : forall l1 l2,
  StronglySorted le (l1 ++ l2) <->
  StronglySorted le l1 /\ StronglySorted le l2 /\ forall x y, In x l1 -> In y l2 -> le x y.
Proof.
  induction l1 as [|a l1 IH]; intros l2; cbn [app].
  - split; [intros H; repeat split; [constructor|exact H|intros x y []]|tauto].
  - split.
    + intros H. apply StronglySorted_inv in H as [Hs Ha]. apply IH in Hs as (S1 & S2 & C).
      apply Forall_app in Ha as [Ha1 Ha2]. repeat split; [constructor; assumption|exact S2|].
      intros x y [<-|Hx] Hy; [rewrite Forall_forall in Ha2; now apply Ha2|now apply C].
    + intros (S1 & S2 & C). apply StronglySorted_inv in S1 as [S1 Ha]. constructor.
      * apply IH. repeat split; [exact S1|exact S2|]. intros x y Hx. apply C. now right.
      * apply Forall_app. split; [exact Ha|]. apply Forall_forall. intros y Hy. apply C; [now left|exact Hy].
Qed.

Lemma Forall2_impl {A B} (R1 R2 : A -> B -> Prop) l1 l2 :
  (forall a b, R1 a b -> R2 a b) -> Forall2 R1 l1 l2 -> Forall2 R2 l1 l2.
Proof. intros H; induction 1; constructor; auto. Qed.

Lemma existsb_eqb_In x l : existsb (Z.eqb x) l = true <-> In x l.
Proof.
  rewrite existsb_exists. split; [intros (y & Hy & E); apply Z.eqb_eq in E; subst; exact Hy|].
  intros H. exists x. split; [exact H|apply Z.eqb_refl].
Qed.

Lemma zlist_eqb_eq a b : zlist_eqb a b = true <-> a = b.
Proof.
  revert b. induction a as [|x a IH]; destruct b as [|y b]; cbn; try (split; congruence).
  rewrite andb_true_iff, Z.eqb_eq, IH. split; [intros [-> ->]; reflexivity|intros H; inversion H; auto].
Qed.

Lemma zlist_eqb_refl a : zlist_eqb a a = true.
Proof. apply zlist_eqb_eq. reflexivity. Qed.

Lemma Ok_inj {A} (a b : A) : Ok a = Ok b -> a = b.
Proof. congruence. Qed.

Lemma bind_ok {A B} (r : res A) (f : A -> res B) b : bind r f = Ok b -> exists a, r = Ok a /\ f a = Ok b.
Proof. destruct r; cbn [bind]; intros H; try discriminate. eauto. Qed.

(* a check evaluated over 0 .. n-1, read off at one value *)
Lemma sweep (p : Z -> bool) n : forallb p (map Z.of_nat (seq 0 n)) = true -> forall z, 0 <= z < Z.of_nat n -> p z = true.
Proof.
  intros H z Hz. rewrite forallb_forall in H. apply H. rewrite <- (Z2Nat.id z) by lia. apply in_map, in_seq. lia.
Qed.
