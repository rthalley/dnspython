(* C13 - AXFR: the result is exactly what was received; first record not the zone's SOA. *)
From DV Require Import Base.Prelude Model.XfrM Proofs.XfrSets Proofs.XfrSpec Proofs.XfrZone Proofs.XfrDiff
  Proofs.XfrSafety Proofs.XfrBasic Proofs.XfrRun Proofs.XfrSteps Proofs.XfrGeneral Proofs.XfrAxfr Proofs.XfrPerm Proofs.XfrGlue Proofs.XfrGroup.

(* Whatever the body is (records of the zone, dropped / altered / repeated records, glue): a response
   SOA, B, SOA is applied as the set union of the in-zone records of B; any division into messages,
   including the parser's merging of records into RRsets. *)
Theorem axfr_body_applied : forall fin B z0 ser ws,
  ttl_ok (v_ttl fin) -> Forall okrec B ->
  chunking tAXFR (soa_rr fin :: B ++ [soa_rr fin]) ws ->
  exists z' n, inbound_xfr z0 tAXFR ser false ws = (Done z', n)
               /\ zeq z' (zput soakey (v_ttl fin, [v_soa fin]) (adds [] (erase B))).
Proof.
  intros fin B z0 ser ws Httl HB Hch.
  destruct (axfr_body_glue fin B z0 ser ws Httl HB Hch) as (z' & n & Hn & Hz & _). eauto.
Qed.

(* the same for the AXFR-style answer to an IXFR request (non-empty body) *)
Theorem axfr_style_body_applied : forall fin r c z0 ser ws,
  ttl_ok (v_ttl fin) -> okrec r -> Forall okrec c ->
  v_serial fin <> ser -> serial_lt (v_serial fin) ser = false ->
  chunking tIXFR (soa_rr fin :: (r :: c) ++ [soa_rr fin]) ws ->
  exists z' n, inbound_xfr z0 tIXFR (Some ser) false ws = (Done z', n)
               /\ zeq z' (zput soakey (v_ttl fin, [v_soa fin]) (adds [] (erase (r :: c)))).
Proof.
  intros fin r c z0 ser ws Httl Hr Hc Hs Hlt Hch.
  destruct (axfr_style_body_glue fin r c z0 ser ws Httl Hr Hc Hs Hlt Hch) as [n Hn].
  eexists. exists n. split; [exact Hn|apply zeq_refl].
Qed.

(* the first record of the first message is not the zone's SOA (e.g. the first SOA was dropped) *)
Theorem first_record_not_soa_rejected : forall z rdt ser udp w ws r0 rest,
  header_ok rdt w -> w_records w = r0 :: rest -> (rdt = tAXFR /\ udp = false \/ rdt = tIXFR /\ ser <> None) ->
  (r_name r0 <> origin \/ r_type r0 <> tSOA) ->
  exists e, (e = eNoAnswer \/ e = eFirstNotSOA) /\
            inbound_xfr z rdt ser udp (w :: ws) = (Error e z, 0%nat).
Proof.
  intros z rdt ser udp w ws r0 rest Hh Hr Hrdt Hbad.
  destruct (init_ok z rdt ser udp Hrdt) as (s & Hi & Hp & Hsoa & Hrq & Hrd).
  unfold inbound_xfr, xfr_run. rewrite Hi. rewrite drive_cons by exact Hrq.
  unfold process_message, from_wire. cbn [m_rcode m_question m_answer m_tsig].
  destruct Hh as [Hrc Hq]. rewrite Hrc. cbn [Z.eqb negb].
  set (sx := match txn s with None => set_txn s (Some (if incremental s then pub s else [])) | Some _ => s end).
  assert (Hx : pub sx = z /\ soa sx = None /\ rdtype sx = rdt) by (subst sx; destruct (txn s); cbn; auto).
  destruct Hx as (Hpx & Hsx & Hrx). rewrite Hrx.
  rewrite (header_ok_question rdt w (conj Hrc Hq)). rewrite Hsx.
  destruct (group_head (rdt =? tIXFR) r0 rest) as (h & rs & Hg & Hhn & Hht). rewrite Hr, Hg, Hhn, Hht.
  destruct (r_name r0 =? origin) eqn:En; cbn [negb].
  - destruct Hbad as [Hb|Hb]; [apply Z.eqb_eq in En; congruence|].
    apply Z.eqb_neq in Hb. rewrite Hb. cbn [negb cont]. exists eFirstNotSOA. rewrite Hpx. auto.
  - cbn [cont]. exists eNoAnswer. rewrite Hpx. auto.
Qed.
