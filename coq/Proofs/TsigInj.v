(* The RFC 8945 digest input determines the authenticated fields (injectivity), hence an
   accepted message that differs from the signed one in an authenticated field exhibits a
   collision of the (truncated) keyed hash on two distinct inputs.  No assumption on H. *)
From DV Require Import Base.Prelude Proofs.ListFacts.
From DV Require Model.NameM.
From DV Require Import Model.TsigM Proofs.TsigSpec Proofs.TsigLemmas.
Open Scope Z_scope.

Lemma app_inv_len_r : forall (A : Type) (a b c d : list A),
  a ++ b = c ++ d -> length b = length d -> a = c /\ b = d.
Proof.
  intros A a b c d E L. apply app_inj_len; [|assumption].
  apply (f_equal (@length A)) in E. rewrite !app_length in E. lia.
Qed.

(* a fixed-width field in front *)
Lemma be_app_inj : forall n a b (r1 r2 : octets),
  0 <= a < 256 ^ Z.of_nat n -> 0 <= b < 256 ^ Z.of_nat n ->
  be n a ++ r1 = be n b ++ r2 -> a = b /\ r1 = r2.
Proof.
  intros n a b r1 r2 Ha Hb E. apply app_inj_len in E as [E1 E2]; [|now rewrite !be_length].
  split; [now apply (be_inj n)|exact E2].
Qed.

(* the well-formedness the TSIG rdata constructor guarantees *)
Definition vars_wf (oid : Z) (v : tsig_variables) : Prop :=
  0 <= oid < 65536 /\ 0 <= v_time v < 281474976710656 /\ 0 <= v_fudge v < 65536
  /\ 0 <= v_error v < 65536 /\ olen (v_other v) < 65536.

(* 4.3.2: original id and message octets, for messages of the same length *)
Lemma dns_message_inj : forall oid1 oid2 w1 w2 (r1 r2 : octets),
  0 <= oid1 < 65536 -> 0 <= oid2 < 65536 -> length (skipn 2 w1) = length (skipn 2 w2) ->
  rfc_dns_message oid1 w1 ++ r1 = rfc_dns_message oid2 w2 ++ r2 ->
  oid1 = oid2 /\ skipn 2 w1 = skipn 2 w2 /\ r1 = r2.
Proof.
  unfold rfc_dns_message. intros oid1 oid2 w1 w2 r1 r2 O1 O2 L E. rewrite <- !app_assoc in E.
  apply be_app_inj in E as [Eo E]; [|lia|lia]. apply app_inj_len in E as [Ew Er]; auto.
Qed.

(* 4.3.3 after the two names: time, fudge, error, other length and other data *)
Lemma vars_tail_inj : forall oid1 oid2 v1 v2,
  vars_wf oid1 v1 -> vars_wf oid2 v2 ->
  be 6 (v_time v1) ++ be 2 (v_fudge v1) ++ be 2 (v_error v1) ++ be 2 (olen (v_other v1)) ++ v_other v1
  = be 6 (v_time v2) ++ be 2 (v_fudge v2) ++ be 2 (v_error v2) ++ be 2 (olen (v_other v2)) ++ v_other v2 ->
  v_time v1 = v_time v2 /\ v_fudge v1 = v_fudge v2 /\ v_error v1 = v_error v2 /\ v_other v1 = v_other v2.
Proof.
  intros oid1 oid2 v1 v2 (_ & T1 & F1 & E1 & L1) (_ & T2 & F2 & E2 & L2) E.
  apply be_app_inj in E as [Et E]; [|lia|lia]. apply be_app_inj in E as [Ef E]; [|lia|lia].
  apply be_app_inj in E as [Ee E]; [|lia|lia]. apply be_app_inj in E as [_ Eo]; [|unfold olen in *; lia..].
  auto.
Qed.

(* Same receiver key (canonical name and algorithm name), same request MAC, same shape (the
   digested messages or the other-data fields have the same length): equal inputs force equal
   original id, message octets, time, fudge, error and other data. *)
Lemma rfc_input_injective : forall rm oid1 oid2 w1 w2 v1 v2,
  canonical_name (v_name v1) = canonical_name (v_name v2) ->
  canonical_name (v_alg v1) = canonical_name (v_alg v2) ->
  (length (skipn 2 w1) = length (skipn 2 w2) \/ length (v_other v1) = length (v_other v2)) ->
  vars_wf oid1 v1 -> vars_wf oid2 v2 ->
  rfc8945_input rm oid1 w1 v1 = rfc8945_input rm oid2 w2 v2 ->
  oid1 = oid2 /\ skipn 2 w1 = skipn 2 w2 /\ v_time v1 = v_time v2 /\ v_fudge v1 = v_fudge v2
  /\ v_error v1 = v_error v2 /\ v_other v1 = v_other v2.
Proof.
  intros rm oid1 oid2 w1 w2 v1 v2 Kn An Sh W1 W2 E.
  unfold rfc8945_input in E. apply app_inv_head in E.
  unfold rfc_tsig_variables in E. rewrite Kn, An in E.
  assert (LEN : length (skipn 2 w1) = length (skipn 2 w2)).
  { destruct Sh as [S|S]; [exact S|]. apply (f_equal (@length Z)) in E. unfold rfc_dns_message in E.
    repeat rewrite app_length in E. rewrite !be_length in E. lia. }
  apply dns_message_inj in E as (Eo & Ew & E); [|apply W1|apply W2|exact LEN].
  do 4 apply app_inv_head in E. apply (vars_tail_inj _ _ _ _ W1 W2) in E. auto.
Qed.

(* the request MAC is bound: two inputs that differ only in the request MAC are different *)
Lemma rfc_input_request_mac_injective : forall rm1 rm2 oid w v,
  (forall m, rm1 = Some m -> olen m < 65536) -> (forall m, rm2 = Some m -> olen m < 65536) ->
  rfc8945_input rm1 oid w v = rfc8945_input rm2 oid w v -> rm1 = rm2.
Proof.
  intros rm1 rm2 oid w v L1 L2 E. unfold rfc8945_input in E.
  apply app_inv_tail in E.
  destruct rm1 as [m1|], rm2 as [m2|]; unfold rfc_request_mac in E.
  - assert (LEN : length m1 = length m2).
    { apply (f_equal (@length Z)) in E. rewrite !app_length, !be_length in E. lia. }
    apply app_inv_len_r in E as [_ ->]; auto.
  - apply (f_equal (@length Z)) in E. rewrite app_length, be_length in E. cbn in E. lia.
  - apply (f_equal (@length Z)) in E. rewrite app_length, be_length in E. cbn in E. lia.
  - reflexivity.
Qed.

Lemma omac_inj : forall a b, omac a = omac b -> a = b.
Proof. intros [|x a] [|y b]; cbn; intros E; try discriminate; congruence. Qed.

Definition tsig_wf (rd : tsig) : Prop :=
  0 <= t_oid rd < 65536 /\ 0 <= t_time rd < 281474976710656 /\ 0 <= t_fudge rd < 65536
  /\ 0 <= t_error rd < 65536 /\ zlen (t_other rd) < 65536.

Lemma mk_tsig_wf : forall a t f m o e ot r, mk_tsig a t f m o e ot = Ok r -> zlen ot < 65536 -> tsig_wf r.
Proof.
  intros a t f m o e ot r M L. apply mk_tsig_inv in M as (-> & Rt & Rf & Ro & Re).
  unfold tsig_wf. cbn. lia.
Qed.

Lemma tsig_wf_vars : forall k rd, tsig_wf rd -> vars_wf (t_oid rd) (vars_of k rd (t_time rd)).
Proof. intros k rd W. exact W. Qed.

Section WithH.
  Variable H : hashid -> bytes -> bytes -> bytes.

  (* the authenticated content of a received message, as RFC 8945 4.3 defines it: the message
     before the TSIG RR from octet 2 on (ARCOUNT decremented), original id, time, fudge,
     error, other data; key name and algorithm are the receiver's *)
  Definition authenticated (wire : bytes) (adcount : Z) (start : nat) (rd : tsig) :=
    (skipn 2 (rfc_received_message wire adcount start), t_oid rd, t_time rd, t_fudge rd,
     t_error rd, t_other rd).

  (* Two messages accepted under the same key, request MAC and MAC value: either their
     authenticated content is identical, or the keyed hash collides (after truncation) on the
     two distinct RFC inputs. *)
  Lemma tamper_needs_collision_lemma :
    forall k rmac ctx multi wire1 owner1 rd1 now1 start1 r1 wire2 owner2 rd2 now2 start2 r2,
      (ctx = None \/ multi = false) ->
      all_bytes wire1 = true -> all_bytes wire2 = true ->
      tsig_wf rd1 -> tsig_wf rd2 ->
      validate H wire1 k owner1 rd1 now1 rmac start1 ctx multi = Ok r1 ->
      validate H wire2 k owner2 rd2 now2 rmac start2 ctx multi = Ok r2 ->
      t_mac rd1 = t_mac rd2 ->
      exists ad1 ad2 h sz,
        get_adcount wire1 = Ok ad1 /\ get_adcount wire2 = Ok ad2 /\
        assoc_name hashes (kalg k) = Some (h, sz) /\
        let d1 := rfc8945_input (omac rmac) (t_oid rd1) (rfc_received_message wire1 ad1 start1) (vars_of k rd1 (t_time rd1)) in
        let d2 := rfc8945_input (omac rmac) (t_oid rd2) (rfc_received_message wire2 ad2 start2) (vars_of k rd2 (t_time rd2)) in
        ((length (skipn 2 (rfc_received_message wire1 ad1 start1)) = length (skipn 2 (rfc_received_message wire2 ad2 start2))
          \/ length (t_other rd1) = length (t_other rd2)) ->
         authenticated wire1 ad1 start1 rd1 = authenticated wire2 ad2 start2 rd2
         \/ (d1 <> d2 /\
             rfc_truncate (trunc_of sz) (H h (ksecret k) d1) = rfc_truncate (trunc_of sz) (H h (ksecret k) d2))).
  Proof.
    intros until r2. intros F A1 A2 W1 W2 V1 V2 M.
    apply (validate_accepts_mac_is_rfc H) in V1 as (ad1 & h1 & sz1 & P1 & Hh1 & M1); try assumption.
    apply (validate_accepts_mac_is_rfc H) in V2 as (ad2 & h2 & sz2 & P2 & Hh2 & M2); try assumption.
    rewrite Hh1 in Hh2. inversion Hh2; subst h2 sz2. clear Hh2.
    exists ad1, ad2, h1, sz1.
    destruct P1 as (G1 & _). destruct P2 as (G2 & _).
    repeat split; try assumption.
    intros d1 d2 Sh.
    destruct (list_eq_dec Z.eq_dec d1 d2) as [E|NE].
    - left. unfold d1, d2 in E.
      pose proof (rfc_input_injective (omac rmac) (t_oid rd1) (t_oid rd2) _ _
                    (vars_of k rd1 (t_time rd1)) (vars_of k rd2 (t_time rd2))
                    eq_refl eq_refl Sh (tsig_wf_vars k rd1 W1) (tsig_wf_vars k rd2 W2) E)
        as (Eo & Ew & Et & Ef & Ee & Eot).
      cbn in Et, Ef, Ee, Eot. unfold authenticated. congruence.
    - right. split; [exact NE|]. fold d1 in M1. fold d2 in M2. congruence.
  Qed.

  (* signed under (k1, rmac1), accepted under (k2, rmac2), the digested part of the received message
     being the signed one: the receiver's keyed hash of the receiver's input is the signer's keyed
     hash of the signer's input *)
  Lemma sign_validate_macs :
    forall wire k1 k2 rd t rmac1 rmac2 ctx multi rd' c' wire' start adcount now owner r,
      (ctx = None \/ multi = false) ->
      all_bytes wire' = true ->
      sign H wire k1 rd (Some t) rmac1 ctx multi = Ok (rd', c') ->
      get_adcount wire' = Ok adcount ->
      rfc_received_message wire' adcount start = wire ->
      validate H wire' k2 owner rd' now rmac2 start ctx multi = Ok r ->
      exists h1 sz1 h2 sz2,
        assoc_name hashes (kalg k1) = Some (h1, sz1) /\ assoc_name hashes (kalg k2) = Some (h2, sz2) /\
        rfc_truncate (trunc_of sz2)
          (H h2 (ksecret k2) (rfc8945_input (omac rmac2) (t_oid rd) wire (vars_of k2 rd t)))
        = rfc_truncate (trunc_of sz1)
            (H h1 (ksecret k1) (rfc8945_input (omac rmac1) (t_oid rd) wire (vars_of k1 rd t)))
        /\ (tsig_wf rd' -> forall k, vars_wf (t_oid rd) (vars_of k rd t)).
  Proof.
    intros until r. intros F A S G W V.
    apply (sign_mac_is_rfc H) in S as (h1 & sz1 & Hh1 & Ms & Ft & Fa & Ff & Fo & Fe & Fot); [|assumption].
    apply (validate_accepts_mac_is_rfc H) in V as (ad & h2 & sz2 & P & Hh2 & Mv); try assumption.
    destruct P as (G' & _). rewrite G in G'. apply Ok_inj in G' as <-. rewrite W in Mv.
    assert (VE : forall k, vars_of k rd' (t_time rd') = vars_of k rd t).
    { intros k. unfold vars_of. now rewrite Ft, Ff, Fe, Fot. }
    rewrite VE, Fo in Mv. exists h1, sz1, h2, sz2.
    split; [exact Hh1|]. split; [exact Hh2|]. split; [congruence|].
    intros Wf k. rewrite <- Fo, <- VE. exact Wf.
  Qed.

  (* a response is bound to the request MAC: validating with a different request MAC than the
     one the signer used succeeds only on a collision *)
  Lemma wrong_request_mac_lemma :
    forall wire k rd t rmac1 rmac2 ctx multi rd' c' wire' start adcount now owner r,
      (ctx = None \/ multi = false) ->
      all_bytes wire' = true ->
      zlen rmac1 < 65536 -> zlen rmac2 < 65536 ->
      sign H wire k rd (Some t) rmac1 ctx multi = Ok (rd', c') ->
      get_adcount wire' = Ok adcount ->
      rfc_received_message wire' adcount start = wire ->
      rmac1 <> rmac2 ->
      validate H wire' k owner rd' now rmac2 start ctx multi = Ok r ->
      exists h sz,
        assoc_name hashes (kalg k) = Some (h, sz) /\
        let d1 := rfc8945_input (omac rmac1) (t_oid rd) wire (vars_of k rd t) in
        let d2 := rfc8945_input (omac rmac2) (t_oid rd) wire (vars_of k rd t) in
        d1 <> d2 /\
        rfc_truncate (trunc_of sz) (H h (ksecret k) d1) = rfc_truncate (trunc_of sz) (H h (ksecret k) d2).
  Proof.
    intros until r. intros F A L1 L2 S G W NE V.
    destruct (sign_validate_macs _ _ _ _ _ _ _ _ _ _ _ _ _ _ _ _ _ F A S G W V)
      as (h & sz & h2 & sz2 & Hh & Hh2 & M & _).
    rewrite Hh in Hh2. injection Hh2 as <- <-.
    exists h, sz. split; [assumption|]. intros d1 d2. split; [|symmetry; exact M].
    intro E. unfold d1, d2 in E. apply rfc_input_request_mac_injective in E.
    - apply omac_inj in E. contradiction.
    - intros m Hm. destruct rmac1; inversion Hm; subst. exact L1.
    - intros m Hm. destruct rmac2; inversion Hm; subst. exact L2.
  Qed.
End WithH.
