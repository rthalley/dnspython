(* The TSIG path of the message reader (Model/TsigM.v read/get_section/get_rr):
   a message is read successfully only if a TSIG record, when present, is the last record of
   the ADDITIONAL section with class ANY, and then exactly dns.tsig.validate decided; unsigned
   envelopes of a multi-message exchange are appended whole to the running context. *)
From DV Require Import Base.Prelude Proofs.ListFacts.
From DV Require Model.NameM.
From DV Require Import Model.TsigM Proofs.TsigSpec Proofs.TsigLemmas.
Open Scope Z_scope.

Definition rrec := (Z * Z * Z * nat)%type.
Definition rec_section (r : rrec) : Z := fst (fst (fst r)).
Definition rec_type (r : rrec) : Z := snd (fst (fst r)).
Definition rec_class (r : rrec) : Z := snd (fst r).
Definition rec_start (r : rrec) : nat := snd r.
Definition not_tsig (r : rrec) : Prop := rec_type r <> TSIG.

Section WithH.
  Variable H : hashid -> bytes -> bytes -> bytes.

  (* what happened when validation was due for the TSIG record (owner, rd) starting at `start` *)
  Definition decided (w : bytes) (kr : keyring) (rmac : bytes) (now : Z) (multi : bool)
             (owner : name) (rd : tsig) (start : nat) (ctx ctx' : option hctx) : Prop :=
    (exists e p, tsig_from_wire w e p = Ok rd) /\
    exists ko, find_key kr owner (t_alg rd) = Ok ko /\
      match ko with
      | Some k => validate H w k owner rd now rmac start ctx multi = Ok ctx'
      | None => ctx' = ctx
      end.

  Lemma get_rr_ok : forall w kr rmac now multi section count i st st',
    get_rr H w kr rmac now multi section count i st = Ok st' ->
    r_origin st' = r_origin st /\
    ((exists ty cl, ty <> TSIG /\ r_recs st' = (section, ty, cl, r_pos st) :: r_recs st
                    /\ r_tsig st' = r_tsig st /\ r_ctx st' = r_ctx st)
     \/ (section = 3 /\ i = count - 1 /\
         exists owner rd, r_recs st' = (3, TSIG, ANY, r_pos st) :: r_recs st
           /\ r_tsig st' = Some (owner, rd)
           /\ decided w kr rmac now multi owner rd (r_pos st) (r_ctx st) (r_ctx st'))).
  Proof.
    intros until st'. intros E. unfold get_rr in E.
    dbind E as np Qn. dbind E as nrel Qr. dbind E as tp Qt. dbind E as cp Qc. dbind E as lp Ql. dbind E as dp Qd.
    destruct (fst tp =? OPT) eqn:EO.
    { apply Z.eqb_eq in EO.
      destruct (negb (section =? 3) || r_opt st || negb (NameM.name_eqb nrel NameM.root)); [discriminate|].
      destruct (Nat.ltb _ _); [discriminate|].
      dbind E as u Qo. apply Ok_inj in E as <-. split; [reflexivity|left].
      exists (fst tp), (fst cp). rewrite EO. split; [discriminate|]. auto. }
    destruct (fst tp =? TSIG) eqn:ET.
    - destruct (section =? 3) eqn:S3; cbn [negb orb] in E; [|discriminate].
      destruct (fst cp =? ANY) eqn:CA; cbn [negb orb] in E; [|discriminate].
      destruct (i =? count - 1) eqn:IL; cbn [negb] in E; [|discriminate].
      apply Z.eqb_eq in S3, CA, IL, ET.
      destruct (Nat.ltb _ _); [discriminate|].
      dbind E as t Qrd.
      destruct (fst lp =? 0) eqn:TT; cbn [negb] in E; [|discriminate].
      dbind E as o Qk. dbind E as cx Qv. apply Ok_inj in E as <-. split; [reflexivity|right].
      cbn [r_recs r_tsig r_ctx]. split; [assumption|]. split; [assumption|].
      exists (fst np), t. rewrite S3, ET, CA. split; [reflexivity|]. split; [reflexivity|].
      split; [eexists; eexists; exact Qrd|].
      exists o. split; [assumption|].
      destruct o as [k|]; [assumption|]. congruence.
    - destruct (Nat.ltb _ _); [discriminate|]. apply Ok_inj in E as <-. split; [reflexivity|left].
      exists (fst tp), (fst cp). apply Z.eqb_neq in ET. auto.
  Qed.

  (* the origin is a constant of the read *)
  Lemma get_rr_origin : forall w kr rmac now multi section count i st st',
    get_rr H w kr rmac now multi section count i st = Ok st' -> r_origin st' = r_origin st.
  Proof. intros until st'. intros E. now apply get_rr_ok in E. Qed.

  Lemma get_section_origin : forall rem w kr rmac now multi section count st st',
    get_section H w kr rmac now multi section count rem st = Ok st' -> r_origin st' = r_origin st.
  Proof.
    induction rem; intros until st'; intros E; cbn [get_section] in E.
    - inversion E. reflexivity.
    - dbind E as st1 Q. apply get_rr_origin in Q. apply IHrem in E. congruence.
  Qed.

  (* a TSIG header anywhere but at the very end of ADDITIONAL with class ANY: BadTSIG, before
     anything of the record's rdata is looked at *)
  Lemma get_rr_misplaced_formerror : forall w kr rmac now multi section count i st np nrel tp cp lp dp,
    get_name w (length w) (r_pos st) = Ok np ->
    (match r_origin st with Some o => NameM.relativize (fst np) o | None => Ok (fst np) end) = Ok nrel ->
    get_uint w (length w) (snd np) 2 = Ok tp ->
    get_uint w (length w) (snd tp) 2 = Ok cp ->
    get_uint w (length w) (snd cp) 4 = Ok lp ->
    get_uint w (length w) (snd lp) 2 = Ok dp ->
    fst tp = TSIG ->
    (section <> 3 \/ fst cp <> ANY \/ i <> count - 1) ->
    get_rr H w kr rmac now multi section count i st = Lib eBadTSIG /\ is_formerror eBadTSIG = true.
  Proof.
    intros until dp. intros N R T C L D Ty Mis. split; [|reflexivity]. unfold get_rr.
    rewrite N. cbn [bind]. rewrite R. cbn [bind]. rewrite T. cbn [bind]. rewrite C. cbn [bind].
    rewrite L. cbn [bind]. rewrite D. cbn [bind].
    rewrite Ty. change (TSIG =? OPT) with false. change (TSIG =? TSIG) with true. cbn iota.
    now replace (negb (section =? 3) || negb (fst cp =? ANY) || negb (i =? count - 1)) with true by lia.
  Qed.

  Lemma get_section_ok : forall rem w kr rmac now multi section count st st',
    get_section H w kr rmac now multi section count rem st = Ok st' ->
    exists body, Forall not_tsig body /\
      ((r_recs st' = body ++ r_recs st /\ r_tsig st' = r_tsig st /\ r_ctx st' = r_ctx st)
       \/ (section = 3 /\ exists owner rd start,
             r_recs st' = (3, TSIG, ANY, start) :: body ++ r_recs st
             /\ r_tsig st' = Some (owner, rd)
             /\ decided w kr rmac now multi owner rd start (r_ctx st) (r_ctx st'))).
  Proof.
    induction rem; intros until st'; intros E; cbn [get_section] in E.
    - inversion E; subst. exists []. split; [constructor|]. left. auto.
    - dbind E as st1 Q. apply get_rr_ok in Q as [_ [(ty & cl & NT & R & T & C) | (S3 & IL & owner & rd & R & T & D)]].
      + apply IHrem in E as (body & F & Cases).
        exists (body ++ [(section, ty, cl, r_pos st)]). split.
        { apply Forall_app. split; [assumption|]. constructor; [exact NT|constructor]. }
        destruct Cases as [(R' & T' & C') | (S3 & owner & rd & start & R' & T' & D)].
        * left. split; [now rewrite R', R, <- app_assoc|split; congruence].
        * right. split; [assumption|]. exists owner, rd, start.
          split; [now rewrite R', R, <- app_assoc|]. split; [assumption|]. rewrite <- C. exact D.
      + (* the TSIG record is the last one: rem = 0 *)
        assert (rem = O) by lia. subst rem. cbn [get_section] in E. inversion E; subst st'.
        exists []. split; [constructor|]. right. split; [assumption|]. exists owner, rd, (r_pos st).
        split; [rewrite R; reflexivity|]. split; assumption.
  Qed.

  Definition ctx_after_unsigned (ctx : option hctx) (multi : bool) (w : bytes) : option hctx :=
    match ctx with
    | Some c => if multi then Some (update c w) else Some c
    | None => None
    end.

  (* everything the property says about a message that was read without error *)
  Lemma read_ok : forall origin w kr rmac ctx multi now m,
    read_gen H origin w kr rmac ctx multi now = Ok m ->
    exists body,
      Forall not_tsig body /\
      ((m_recs m = body /\ m_tsig m = None /\ m_had_tsig m = false
        /\ m_ctx m = ctx_after_unsigned ctx multi w)
       \/ (exists owner rd start,
             m_recs m = body ++ [(3, TSIG, ANY, start)]
             /\ m_tsig m = Some (owner, rd) /\ m_had_tsig m = true
             /\ decided w kr rmac now multi owner rd start ctx (m_ctx m))).
  Proof.
    intros until m. intros E. unfold read_gen in E.
    destruct (Nat.ltb (length w) 12); [discriminate|].
    dbind E as fl Q0. dbind E as qd Q1. dbind E as an Q2. dbind E as au Q3. dbind E as ad Q4.
    destruct (_ =? 5); [discriminate|].
    dbind E as p Qq. dbind E as s1 Q5. dbind E as s2 Q6. dbind E as s3 Q7.
    destruct (Nat.eqb (r_pos s3) (length w)); cbn [negb] in E; [|discriminate].
    apply get_section_ok in Q5 as (n1 & F1 & [(R1 & T1 & X1) | (Bad & _)]); [|discriminate].
    apply get_section_ok in Q6 as (n2 & F2 & [(R2 & T2 & X2) | (Bad & _)]); [|discriminate].
    apply get_section_ok in Q7 as (n3 & F3 & C3).
    cbn [r_recs r_tsig r_ctx] in *. rewrite app_nil_r in R1.
    inversion E; subst m; clear E. cbn [m_recs m_tsig m_had_tsig m_ctx].
    exists (rev n1 ++ rev n2 ++ rev n3). split.
    { repeat (apply Forall_app; split); apply Forall_rev; assumption. }
    destruct C3 as [(R3 & T3 & X3) | (_ & owner & rd & start & R3 & T3 & D)];
      rewrite R3, R2, R1; cbn [rev]; rewrite !rev_app_distr.
    - left. rewrite T3, T2, T1. split; [now rewrite !app_assoc|]. split; [reflexivity|]. split; [reflexivity|].
      rewrite X3, X2, X1. unfold ctx_after_unsigned. destruct ctx; [|reflexivity].
      cbn [andb negb]. now rewrite andb_true_r.
    - right. exists owner, rd, start. rewrite T3. split.
      { now rewrite !app_assoc. }
      split; [reflexivity|]. split; [reflexivity|].
      rewrite X2, X1 in D.
      destruct (r_ctx s3) as [c|] eqn:RC.
      + rewrite andb_false_r. exact D.
      + exact D.
  Qed.

  (* in a successfully read message a TSIG record is the last record, in ADDITIONAL, class ANY *)
  Lemma tsig_only_last : forall origin w kr rmac ctx multi now m i r,
    read_gen H origin w kr rmac ctx multi now = Ok m ->
    nth_error (m_recs m) i = Some r -> rec_type r = TSIG ->
    i = (length (m_recs m) - 1)%nat /\ rec_section r = 3 /\ rec_class r = ANY.
  Proof.
    intros until r. intros E N T.
    apply read_ok in E as (body & F & [(R & _) | (owner & rd & start & R & _)]).
    - rewrite R in N. apply nth_error_In in N. rewrite Forall_forall in F. apply F in N. contradiction.
    - rewrite R in N |- *. rewrite app_length. cbn [length].
      destruct (Nat.lt_ge_cases i (length body)) as [Lt|Ge].
      + rewrite nth_error_app1 in N by assumption. apply nth_error_In in N.
        rewrite Forall_forall in F. apply F in N. contradiction.
      + rewrite nth_error_app2 in N by assumption.
        destruct (i - length body)%nat as [|j] eqn:J.
        * cbn in N. inversion N; subst r. cbn. split; [lia|auto].
        * cbn in N. destruct j; discriminate.
  Qed.
End WithH.
