(* NSEC / NSEC3 / CSYNC type bitmaps (dns/rdtypes/util.py Bitmap): the list of types printed by
   Bitmap.to_text, read back by Bitmap.from_rdtypes, gives the same windows - for every canonical
   bitmap (RFC 4034 4.1.2: windows in increasing order, 1..32 octets each, no trailing zero octet;
   type 0 is not representable in text). *)
From Coq Require Import Sorted.
From DV Require Import Base.Prelude Model.NameM Model.TokM Model.RdTextM Proofs.ListFacts Proofs.TokEsc.
Open Scope Z_scope.

(* per-octet facts: finite sweep over 256 values *)
Definition mask (j : Z) : Z := Z.shiftr 128 j.

Definition octet_bits_ok (b : Z) : bool :=
  (fold_left (fun acc j => if bit_set b j then Z.lor acc (mask j) else acc) [0; 1; 2; 3; 4; 5; 6; 7] 0 =? b).

Lemma octet_bits_all : forallb octet_bits_ok (map Z.of_nat (seq 0 256)) = true.
Proof. vm_compute. reflexivity. Qed.

Lemma octet_bits b : 0 <= b < 256 ->
  fold_left (fun acc j => if bit_set b j then Z.lor acc (mask j) else acc) [0; 1; 2; 3; 4; 5; 6; 7] 0 = b.
Proof.
  intros Hb. apply Z.eqb_eq. exact (sweep _ 256 octet_bits_all b ltac:(lia)).
Qed.

(* an octet none of whose bits is set is 0, and only such an octet prints no type *)
Lemma no_bits_zero b : 0 <= b < 256 -> existsb (bit_set b) [0; 1; 2; 3; 4; 5; 6; 7] = false -> b = 0.
Proof.
  intros Hb He. rewrite <- (octet_bits b Hb).
  assert (G : forall js a, existsb (bit_set b) js = false ->
                fold_left (fun acc j => if bit_set b j then Z.lor acc (mask j) else acc) js a = a); [|apply G, He].
  induction js as [|j js IH]; intros a E; [reflexivity|]. cbn [existsb] in E. apply orb_false_iff in E as [Hj E].
  cbn [fold_left]. rewrite Hj. apply IH, E.
Qed.

Lemma byte_types_nil base b : byte_types base b = [] -> existsb (bit_set b) [0; 1; 2; 3; 4; 5; 6; 7] = false.
Proof.
  unfold byte_types. generalize [0; 1; 2; 3; 4; 5; 6; 7]. intros js. induction js as [|j js IH]; intros E; [reflexivity|].
  cbn [flat_map existsb] in *. destruct (bit_set b j); [discriminate|]. apply IH, E.
Qed.

Lemma set_nth_app pre x suf f :
  set_nth (length pre) f (pre ++ x :: suf) = pre ++ f x :: suf.
Proof. induction pre as [|y pre IH]; [reflexivity|]. cbn [length app set_nth]. rewrite IH. reflexivity. Qed.

(* the types of the current window *)
(* what the loop does to the 32-octet bitmap for a type of the current window *)
Definition setbit (B : list Z) (t : Z) : list Z :=
  set_nth (Z.to_nat (t mod 256 / 8)) (fun x => Z.lor x (mask ((t mod 256) mod 8))) B.

Lemma last_cons_default {A} (x : A) l d d' : last (x :: l) d = last (x :: l) d'.
Proof. revert x. induction l as [|y l IH]; intros x; [reflexivity|]. exact (IH y). Qed.

(* ascending types of window w, all above the prior type: no reset, no duplicate; the octet count is that of the
   last type *)
Lemma frt_in_window w r acc : forall ts o p B, StronglySorted Z.lt (p :: ts) -> Forall (fun t => t / 256 = w) ts ->
  frt_loop (ts ++ r) w o p B acc
  = frt_loop r w (match ts with [] => o | _ => last ts 0 mod 256 / 8 + 1 end) (last ts p) (fold_left setbit ts B) acc.
Proof.
  induction ts as [|t ts IH]; intros o p B Hs Hw; [reflexivity|].
  apply StronglySorted_inv in Hs as [Hs' Hlt]. pose proof (Forall_inv Hlt) as Hpt. pose proof (Forall_inv Hw) as Ht.
  cbn [app frt_loop]. replace (t =? p) with false by lia. rewrite Ht, Z.eqb_refl. cbn [negb andb].
  rewrite IH by (eauto using Forall_inv_tail). destruct ts as [|z ts]; [reflexivity|].
  rewrite (last_cons_default z ts t p). reflexivity.
Qed.

(* the bits of one octet, then of the octets of a window, land where they came from *)
Lemma setbits_octet w i b pre suf : 0 <= i < 32 -> length pre = Z.to_nat i -> forall js x, (forall j, In j js -> 0 <= j < 8) ->
  fold_left setbit (flat_map (fun j => if bit_set b j then [w * 256 + i * 8 + j] else []) js) (pre ++ x :: suf)
  = pre ++ fold_left (fun a j => if bit_set b j then Z.lor a (mask j) else a) js x :: suf.
Proof.
  intros Hi Hl. induction js as [|j js IH]; intros x Hjs; [reflexivity|]. cbn [flat_map fold_left].
  assert (Hj : 0 <= j < 8) by (apply Hjs; left; reflexivity).
  destruct (bit_set b j); cbn [app fold_left]; [|apply IH; intros; apply Hjs; right; assumption].
  unfold setbit at 2.
  replace ((w * 256 + i * 8 + j) mod 256 / 8) with i by dlia. replace (((w * 256 + i * 8 + j) mod 256) mod 8) with j by dlia.
  rewrite <- Hl, set_nth_app. apply IH. intros; apply Hjs; right; assumption.
Qed.

Lemma setbits_window w : forall bm i pre, 0 <= i -> i + zlen bm <= 32 -> length pre = Z.to_nat i -> all_bytes bm = true ->
  fold_left setbit (window_types w i bm) (pre ++ repeat 0 (Z.to_nat (32 - i)))
  = pre ++ bm ++ repeat 0 (Z.to_nat (32 - i - zlen bm)).
Proof.
  induction bm as [|b bm IH]; intros i pre Hi Hlen Hl Hb.
  - unfold zlen. cbn [window_types fold_left app length]. do 3 f_equal. lia.
  - apply all_bytes_cons in Hb as [Hb0 Hb]. unfold zlen in *. cbn [length] in Hlen. rewrite Nat2Z.inj_succ in Hlen.
    cbn [window_types]. rewrite fold_left_app.
    replace (Z.to_nat (32 - i)) with (S (Z.to_nat (32 - (i + 1)))) by lia. cbn [repeat]. unfold byte_types.
    rewrite setbits_octet, octet_bits by (cbn [In]; lia).
    replace (pre ++ b :: repeat 0 (Z.to_nat (32 - (i + 1)))) with ((pre ++ [b]) ++ repeat 0 (Z.to_nat (32 - (i + 1))))
      by (rewrite <- app_assoc; reflexivity).
    rewrite IH by (rewrite ?app_length; cbn [length]; lia || assumption).
    rewrite <- app_assoc. cbn [app length]. do 4 f_equal. lia.
Qed.

Lemma sorted8 : StronglySorted Z.lt [0; 1; 2; 3; 4; 5; 6; 7].
Proof. repeat (constructor; [|repeat constructor; lia]). constructor. Qed.

(* the types of a window are in its range, ascending *)
Lemma byte_types_range base b t : In t (byte_types base b) -> base <= t < base + 8.
Proof.
  unfold byte_types. intros H. apply in_flat_map in H as (j & Hj & Ht). cbn in Hj.
  destruct (bit_set b j); [|contradiction]. destruct Ht as [<-|[]]. lia.
Qed.

Lemma sorted_app (a b : list Z) m : StronglySorted Z.lt a -> StronglySorted Z.lt b ->
  (forall x, In x a -> x < m) -> (forall y, In y b -> m <= y) -> StronglySorted Z.lt (a ++ b).
Proof.
  intros Ha Hb H1 H2. apply StronglySorted_app. repeat split; [exact Ha|exact Hb|].
  intros x y Hx Hy. specialize (H1 x Hx). specialize (H2 y Hy). lia.
Qed.

Lemma byte_types_sorted base b : StronglySorted Z.lt (byte_types base b).
Proof.
  unfold byte_types.
  assert (G : forall js, StronglySorted Z.lt js ->
            StronglySorted Z.lt (flat_map (fun j => if bit_set b j then [base + j] else []) js)
            /\ forall t, In t (flat_map (fun j => if bit_set b j then [base + j] else []) js) -> exists j, In j js /\ t = base + j).
  { induction 1 as [|j js Hs IH Hlt]; [split; [constructor|intros t []]|]. destruct IH as [I1 I2]. cbn [flat_map]. split.
    - destruct (bit_set b j); [|exact I1]. cbn [app]. constructor; [exact I1|].
      apply Forall_forall. intros t Ht. destruct (I2 t Ht) as (k & Hk & ->). rewrite Forall_forall in Hlt.
      specialize (Hlt k Hk). lia.
    - intros t Ht. apply in_app_or in Ht as [Ht|Ht].
      + destruct (bit_set b j); [|contradiction]. destruct Ht as [<-|[]]. exists j. split; [left; reflexivity|reflexivity].
      + destruct (I2 t Ht) as (k & Hk & ->). exists k. split; [right; exact Hk|reflexivity]. }
  apply (G _ sorted8).
Qed.

Lemma window_types_facts w bm : forall i,
  StronglySorted Z.lt (window_types w i bm) /\
  forall t, In t (window_types w i bm) -> w * 256 + i * 8 <= t < w * 256 + (i + zlen bm) * 8.
Proof.
  induction bm as [|b bm IH]; intros i; [split; [constructor|intros t []]|].
  destruct (IH (i + 1)) as [I1 I2]. cbn [window_types]. unfold zlen in *. cbn [length]. rewrite Nat2Z.inj_succ. split.
  - apply (sorted_app _ _ (w * 256 + (i + 1) * 8)); [apply byte_types_sorted|exact I1| |].
    + intros x Hx. apply byte_types_range in Hx. lia.
    + intros y Hy. specialize (I2 y Hy). lia.
  - intros t Ht. apply in_app_or in Ht as [Ht|Ht].
    + apply byte_types_range in Ht. lia.
    + specialize (I2 t Ht). lia.
Qed.

(* insertion sort leaves an ascending list alone *)
Lemma sort_sorted l : StronglySorted Z.lt l -> sort_z l = l.
Proof.
  induction 1 as [|x l Hs IH Hx]; [reflexivity|]. unfold sort_z in *. cbn [fold_right]. rewrite IH.
  destruct l as [|y l]; [reflexivity|]. cbn [insert_sorted]. inversion Hx; subst.
  replace (x <=? y) with true by lia. reflexivity.
Qed.

Definition canon_window (wb : bwindow) : Prop :=
  0 <= fst wb < 256 /\ snd wb <> [] /\ zlen (snd wb) <= 32 /\ all_bytes (snd wb) = true /\ last (snd wb) 0 <> 0.

(* window numbers strictly increasing, all above lo *)
Fixpoint canon_from (lo : Z) (ws : list bwindow) : Prop :=
  match ws with
  | [] => True
  | wb :: r => lo < fst wb /\ canon_window wb /\ canon_from (fst wb) r
  end.

Definition finish_windows (st : Z * Z * list Z * list bwindow) : list bwindow :=
  let '(window, octets, bitmap, acc) := st in
  if negb (octets =? 0) then acc ++ [(window, firstn (Z.to_nat octets) bitmap)] else acc.

(* a window whose last octet is not zero prints at least one type, and its first type is in the window *)
Lemma window_types_nonempty w bm : bm <> [] -> all_bytes bm = true -> last bm 0 <> 0 -> forall i,
  window_types w i bm <> [].
Proof.
  induction bm as [|b bm IH]; intros Hne Hb Hlast i; [congruence|].
  apply all_bytes_cons in Hb as [Hb0 Hb].
  cbn [window_types]. destruct bm as [|b2 bm'].
  - cbn [last] in Hlast. cbn [window_types]. rewrite app_nil_r.
    intros E. apply Hlast, no_bits_zero; [exact Hb0|exact (byte_types_nil _ _ E)].
  - intros E. apply app_eq_nil in E as [_ E]. revert E. apply IH; [discriminate|exact Hb|exact Hlast].
Qed.

Lemma last_app_ne {A} (a b : list A) d : b <> [] -> last (a ++ b) d = last b d.
Proof.
  intros Hb. induction a as [|x a IH]; [reflexivity|]. cbn [app]. rewrite <- IH. destruct (a ++ b) eqn:E; [|reflexivity].
  apply app_eq_nil in E as [_ E]. congruence.
Qed.

Lemma last_in {A} (l : list A) d : l <> [] -> In (last l d) l.
Proof.
  induction l as [|x l IH]; intros H; [congruence|]. destruct l as [|y l]; [left; reflexivity|].
  right. apply IH. discriminate.
Qed.

(* the last type of a window lies in its last octet *)
Lemma window_types_last w : forall bm i d, bm <> [] -> all_bytes bm = true -> last bm 0 <> 0 ->
  w * 256 + (i + zlen bm - 1) * 8 <= last (window_types w i bm) d < w * 256 + (i + zlen bm) * 8.
Proof.
  induction bm as [|b bm IH]; intros i d Hne Hb Hlast; [congruence|]. apply all_bytes_cons in Hb as [Hb0 Hb].
  cbn [window_types]. unfold zlen in *. cbn [length]. rewrite Nat2Z.inj_succ. destruct bm as [|b2 bm'].
  - cbn [window_types last length] in *. rewrite app_nil_r.
    assert (Hn : byte_types (w * 256 + i * 8) b <> []) by (intros E; apply Hlast, no_bits_zero; [exact Hb0|exact (byte_types_nil _ _ E)]).
    pose proof (byte_types_range _ _ _ (last_in _ d Hn)). lia.
  - rewrite last_app_ne by (apply window_types_nonempty; [discriminate|exact Hb|exact Hlast]).
    specialize (IH (i + 1) d ltac:(discriminate) Hb Hlast). lia.
Qed.

(* the types of one canonical window, from the freshly reset bitmap *)
Lemma frt_one_window w bm r o p acc : 0 <= w -> bm <> [] -> zlen bm <= 32 -> all_bytes bm = true -> last bm 0 <> 0 ->
  (forall t, In t (window_types w 0 bm) -> p < t) ->
  exists p', p' < (w + 1) * 256 /\
    frt_loop (window_types w 0 bm ++ r) w o p (repeat 0 32) acc
    = frt_loop r w (zlen bm) p' (bm ++ repeat 0 (Z.to_nat (32 - zlen bm))) acc.
Proof.
  intros Hw Hne Hl32 Hb Hlast Hp. destruct (window_types_facts w bm 0) as [W1 W2].
  pose proof (window_types_nonempty w bm Hne Hb Hlast 0) as Hwt.
  pose proof (window_types_last w bm 0 p Hne Hb Hlast) as Hlp. pose proof (window_types_last w bm 0 0 Hne Hb Hlast) as Hl0.
  exists (last (window_types w 0 bm) p). split; [lia|].
  rewrite frt_in_window.
  - change (repeat 0 32) with ([] ++ repeat 0 (Z.to_nat (32 - 0))).
    rewrite (setbits_window w bm 0 [] ltac:(lia) ltac:(lia) eq_refl Hb). cbn [app].
    replace (32 - 0 - zlen bm) with (32 - zlen bm) by lia.
    assert (Hz : 0 < zlen bm) by (destruct bm; [congruence|unfold zlen; cbn [length]; lia]).
    destruct (window_types w 0 bm); [congruence|]. f_equal. dlia.
  - constructor; [exact W1|apply Forall_forall, Hp].
  - apply Forall_forall. intros t Ht. specialize (W2 t Ht). dlia.
Qed.

(* entering a new window: the reset can be done before looking at the type *)
Lemma frt_enter t r w w' o p B acc : t / 256 = w' -> w' <> w -> t <> p ->
  frt_loop (t :: r) w o p B acc
  = frt_loop (t :: r) w' o p (repeat 0 32)
      (if negb (o =? 0) then acc ++ [(w, firstn (Z.to_nat o) B)] else acc).
Proof.
  intros Ht Hw Hp. cbn [frt_loop]. replace (t =? p) with false by lia. rewrite Ht.
  replace (w' =? w) with false by lia. rewrite Z.eqb_refl. cbn [negb andb]. reflexivity.
Qed.

(* what is appended when a window of zlen bm octets is left *)
Lemma window_flushed (bm : list Z) w rest (acc : list bwindow) : bm <> [] ->
  (if negb (zlen bm =? 0) then acc ++ [(w, firstn (Z.to_nat (zlen bm)) (bm ++ rest))] else acc) = acc ++ [(w, bm)].
Proof.
  intros Hne. replace (zlen bm =? 0) with false by (destruct bm; [congruence|reflexivity]).
  cbn [negb]. replace (Z.to_nat (zlen bm)) with (length bm) by (unfold zlen; lia). rewrite firstn_app_len. reflexivity.
Qed.

Lemma frt_windows ws : forall w o p B acc,
  canon_from w ws -> 0 <= w -> p < (w + 1) * 256 ->
  finish_windows (frt_loop (bitmap_types ws) w o p B acc)
  = (if negb (o =? 0) then acc ++ [(w, firstn (Z.to_nat o) B)] else acc) ++ ws.
Proof.
  induction ws as [|[w' bm] ws IH]; intros w o p B acc Hc Hw Hp.
  - cbn [bitmap_types flat_map frt_loop finish_windows]. rewrite app_nil_r. reflexivity.
  - cbn [canon_from fst] in Hc. destruct Hc as (Hlt & (Hr & Hne & Hl32 & Hb & Hlast) & Hc). cbn [fst snd] in *.
    cbn [bitmap_types flat_map fst snd]. fold (bitmap_types ws).
    pose proof (window_types_nonempty w' bm Hne Hb Hlast 0) as Hwt.
    destruct (window_types_facts w' bm 0) as [_ Hrange].
    assert (Hpt : forall t, In t (window_types w' 0 bm) -> p < t) by (intros t Ht; specialize (Hrange t Ht); lia).
    destruct (window_types w' 0 bm) as [|t rest] eqn:Et; [congruence|].
    specialize (Hrange t (or_introl eq_refl)). rewrite <- app_comm_cons.
    rewrite (frt_enter t (rest ++ bitmap_types ws) w w' o p B acc) by (specialize (Hpt t (or_introl eq_refl)); dlia).
    rewrite app_comm_cons, <- Et.
    destruct (frt_one_window w' bm (bitmap_types ws) o p (if negb (o =? 0) then acc ++ [(w, firstn (Z.to_nat o) B)] else acc)
                ltac:(lia) Hne Hl32 Hb Hlast ltac:(rewrite Et; exact Hpt)) as (p' & Hp' & E).
    rewrite E, (IH w' _ p' _ _ Hc ltac:(lia) Hp'), window_flushed, <- app_assoc by exact Hne. reflexivity.
Qed.

(* all printed types are positive when type 0 is not set *)
Definition no_type0 (ws : list bwindow) : Prop :=
  match ws with
  | (w, b :: _) :: _ => w = 0 -> bit_set b 0 = false
  | _ => True
  end.

Lemma bitmap_types_sorted ws : forall lo, canon_from lo ws ->
  StronglySorted Z.lt (bitmap_types ws) /\ forall t, In t (bitmap_types ws) -> (lo + 1) * 256 <= t.
Proof.
  induction ws as [|[w bm] ws IH]; intros lo Hc; [split; [constructor|intros t []]|].
  cbn [canon_from fst] in Hc. destruct Hc as (Hlt & (Hr & Hne & Hl32 & Hb & Hlast) & Hc). cbn [fst snd] in *.
  destruct (IH w Hc) as [I1 I2]. destruct (window_types_facts w bm 0) as [W1 W2].
  cbn [bitmap_types flat_map fst snd].
  change (flat_map (fun w0 : bwindow => window_types (fst w0) 0 (snd w0)) ws) with (bitmap_types ws). split.
  - apply (sorted_app _ _ ((w + 1) * 256)); [exact W1|exact I1| |exact I2].
    intros x Hx. specialize (W2 x Hx). lia.
  - intros t Ht. apply in_app_or in Ht as [Ht|Ht]; [specialize (W2 t Ht); lia|specialize (I2 t Ht); lia].
Qed.

Theorem bitmap_text_roundtrip ws :
  canon_from (-1) ws -> no_type0 ws -> from_rdtypes (bitmap_types ws) = ws.
Proof.
  intros Hc H0. unfold from_rdtypes.
  destruct (bitmap_types_sorted ws (-1) Hc) as [Hs _]. rewrite sort_sorted by exact Hs.
  change (let '(window, octets, bitmap, acc) := frt_loop (bitmap_types ws) 0 0 0 (repeat 0 32) [] in
          if negb (octets =? 0) then acc ++ [(window, firstn (Z.to_nat octets) bitmap)] else acc)
    with (finish_windows (frt_loop (bitmap_types ws) 0 0 0 (repeat 0 32) [])).
  destruct ws as [|[w bm] ws]; [reflexivity|].
  cbn [canon_from fst] in Hc. destruct Hc as (Hlt & (Hr & Hne & Hl32 & Hb & Hlast) & Hc). cbn [fst snd] in *.
  destruct (Z.eq_dec w 0) as [->|Hw0].
  - (* the first window is window 0: no reset happens *)
    unfold bitmap_types at 1. cbn [flat_map fst snd]. fold (bitmap_types ws).
    destruct (frt_one_window 0 bm (bitmap_types ws) 0 0 [] ltac:(lia) Hne Hl32 Hb Hlast) as (p' & Hp' & E).
    { (* type 0 is not set *)
      destruct bm as [|b bm']; [congruence|]. cbn [no_type0] in H0. specialize (H0 eq_refl). cbn [window_types].
      intros t Ht. apply in_app_or in Ht as [Ht|Ht].
      - unfold byte_types in Ht. apply in_flat_map in Ht as (j & Hj & Ht). destruct (bit_set b j) eqn:Ej; [|contradiction].
        destruct Ht as [<-|[]]. assert (j <> 0) by congruence. cbn [In] in Hj. lia.
      - destruct (window_types_facts 0 bm' (0 + 1)) as [_ R]. specialize (R t Ht). lia. }
    rewrite E, (frt_windows ws 0 _ p' _ [] Hc ltac:(lia) Hp'), window_flushed by exact Hne. reflexivity.
  - etransitivity; [apply (frt_windows ((w, bm) :: ws) 0 0 0 (repeat 0 32) []); [|lia|lia]|reflexivity].
    cbn [canon_from fst]. split; [lia|]. split; [|exact Hc].
    unfold canon_window. cbn [fst snd]. repeat split; try assumption; lia.
Qed.
