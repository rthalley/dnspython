(* The concrete per-type parsers of the model satisfy the API discipline the reader theorems assume
   (non-vacuity), dns.rdata.from_wire, and the position of the parser after each record. *)
From DV Require Import Base.Prelude Model.NameM Model.ParserM Model.UntrustedM
                       Proofs.NameValid Proofs.ParserSafe Proofs.ParserProg Proofs.UntrustedSafe.
Open Scope Z_scope.

Section Dec.
  Variable wire : list Z.
  Hypothesis Hwire : bytes_ok wire.

  Notation tame := (tame wire).

  (* tame is closed under the monad operations and holds of the Parser methods; the per-type
     parsers are built from these, and the hint database says so *)
  Lemma tame_ret {A} lo (a : A) : tame lo (ret a).
  Proof. intros s W. cbn. split; [exact W|split; [reflexivity|lia]]. Qed.

  Lemma tame_raise {A} lo x : tame lo (@raise A x).
  Proof. exact (tame_ret lo x). Qed.

  Lemma tame_bind {A B} lo (m : M A) (k : A -> M B) :
    tame lo m -> (forall a, tame lo (k a)) -> tame lo (mbind m k).
  Proof.
    intros Hm Hk s W. specialize (Hm s W). unfold mbind.
    destruct (m s) as [[a|x] s1]; cbn in Hm |- *; auto.
    destruct Hm as (W1 & E1 & F1). specialize (Hk a s1 W1).
    destruct Hk as (W2 & E2 & F2). repeat split; auto; try congruence; try lia; apply W2.
  Qed.

  (* a test of the parser state, as in `while parser.remaining() > 0` *)
  Lemma tame_if {A} lo (c : pstate -> bool) (m1 m2 : M A) :
    tame lo m1 -> tame lo m2 -> tame lo (fun s => if c s then m1 s else m2 s).
  Proof. intros H1 H2 s W. destruct (c s); auto. Qed.

  Lemma tame_of_good {A} lo (m : M A) P (Q : pstate -> A -> pstate -> Prop) :
    (forall s, wfl wire lo s -> good wire lo P s (m s) (Q s)) -> tame lo m.
  Proof.
    intros H s W. specialize (H s W). unfold good in H.
    destruct (m s) as [[a|[e|e]] s1]; cbn; [| |contradiction]; destruct H as (? & ? & ? & ?); auto.
  Qed.

  Lemma tame_get_bytes lo size : 0 <= lo -> tame lo (get_bytes wire size).
  Proof.
    intros Hlo. destruct (Z_lt_le_dec size 0) as [Hn|Hn].
    - intros s W. unfold get_bytes. destruct (size <? 0) eqn:E; [|lia]. apply (tame_ret lo tt s W).
    - eapply tame_of_good. intros s W. apply good_get_bytes; auto.
  Qed.

  Lemma tame_get_remaining lo : 0 <= lo -> tame lo (get_remaining wire).
  Proof. intros Hlo s W. apply (tame_get_bytes lo (remaining s) Hlo s W). Qed.

  Lemma tame_get_name lo origin : 0 <= lo -> tame lo (get_name wire origin).
  Proof. intros Hlo. eapply tame_of_good. intros s W. apply good_get_name; auto. Qed.

  (* `with parser.restrict_to(size)` around a tame body is tame, and when it returns normally the
     parser stands exactly behind the window *)
  Lemma restrict_to_frame {A} lo size (body : M A) s : 0 <= lo -> tame lo body -> wfl wire lo s ->
    let r := restrict_to size body s in
    wfl wire lo (snd r) /\ pend (snd r) = pend s /\ pfur s <= pfur (snd r) /\
    (forall a, fst r = Val a -> 0 <= size /\ pcur (snd r) = pcur s + size /\ pcur (snd r) <= pend s).
  Proof.
    intros Hlo Hb W. pose proof W as (Hc & He & Hf). unfold restrict_to, remaining.
    destruct (size <? 0) eqn:E1; [cbn; repeat split; auto; try lia; discriminate|].
    destruct (size >? pend s - pcur s) eqn:E2; [cbn; repeat split; auto; try lia; discriminate|].
    assert (W0 : wfl wire lo (set_end s (pcur s + size))) by (unfold wfl, set_end; cbn; repeat split; lia).
    specialize (Hb _ W0).
    destruct (body (set_end s (pcur s + size))) as [[a|x] s1]; [destruct (pcur s1 =? pend s1) eqn:E3|];
      cbn in Hb |- *; unfold wfl in *; cbn; repeat split; try lia; discriminate.
  Qed.

  Lemma tame_restrict_to {A} lo size (body : M A) : 0 <= lo -> tame lo body -> tame lo (restrict_to size body).
  Proof. intros Hlo Hb s W. destruct (restrict_to_frame lo size body s Hlo Hb W) as (? & ? & ? & _). auto. Qed.

  Lemma tame_ext {A} lo (m m' : M A) : (forall s, m s = m' s) -> tame lo m' -> tame lo m.
  Proof. intros E H s W. rewrite E. apply H; auto. Qed.

  Create HintDb tame discriminated.
  Hint Resolve tame_ret tame_raise tame_get_bytes tame_get_remaining tame_get_name tame_restrict_to : tame.
  Hint Extern 1 (tame _ (mbind _ _)) => apply tame_bind; [|intros ?] : tame.
  Hint Extern 1 (tame _ (if ?b then _ else _)) => destruct b : tame.
  Hint Extern 1 (tame _ (match ?x with _ => _ end)) => destruct x : tame.
  Hint Unfold get_struct get_uint get_uint48 get_uint16 get_counted_bytes : tame.
  Ltac tame_by := autounfold with tame; auto 30 with tame nocore.

  Lemma tame_txt_loop lo : 0 <= lo -> forall fuel n, tame lo (txt_loop wire fuel n).
  Proof.
    intros Hlo. induction fuel as [|f IH]; intros n; cbn [txt_loop]; [apply tame_raise|].
    apply (tame_if lo (fun s => remaining s >? 0) (dom _ <- get_counted_bytes wire 1; txt_loop wire f (S n)) (ret n)); tame_by.
  Qed.

  Lemma tame_dec_txt lo : 0 <= lo -> tame lo (dec_txt wire).
  Proof.
    intros Hlo s W. unfold dec_txt.
    apply (tame_bind lo (txt_loop wire (S (Z.to_nat (remaining s))) 0%nat)
                     (fun n => match n with O => raise (XInt iValueError) | _ => ret tt end)); auto.
    - apply tame_txt_loop; auto.
    - intros [|?]; [apply tame_raise|apply tame_ret].
  Qed.

  Lemma tame_dec_option lo otype : 0 <= lo -> tame lo (dec_option wire otype).
  Proof. intros Hlo. unfold dec_option, dec_ecs, dec_cookie, dec_ede, dec_text_option. tame_by. Qed.

  Lemma tame_opt_loop lo : 0 <= lo -> forall fuel, tame lo (opt_loop wire fuel).
  Proof.
    intros Hlo. induction fuel as [|f IH]; cbn [opt_loop]; [apply tame_raise|].
    pose proof (tame_dec_option lo) as O.
    apply (tame_if lo (fun s => remaining s >? 0) _ (ret tt)). 2: apply tame_ret. tame_by.
  Qed.

  Lemma tame_dec_opt lo : 0 <= lo -> tame lo (dec_opt wire).
  Proof. intros Hlo s W. unfold dec_opt. apply tame_opt_loop; auto. Qed.

  (* the instance used by `run`: every modelled per-type parser is disciplined *)
  Theorem dec_rdata_disciplined origin rdclass rdtype : api_disciplined wire (dec_rdata wire origin rdclass rdtype).
  Proof.
    intros lo Hlo. pose proof (tame_dec_txt lo Hlo) as T. pose proof (tame_dec_opt lo Hlo) as O.
    unfold dec_rdata, dec_soa, dec_tsig. tame_by.
  Qed.

  (* dns.rdata.from_wire *)
  Section Rdata.
    Variable rdparse : Z -> Z -> M unit.
    Hypothesis rd_api : forall c t, api_disciplined wire (rdparse c t).

    Theorem rdata_from_wire_family rdclass rdtype current rdlen :
      0 <= rdlen ->
      match rdata_from_wire wire rdparse rdclass rdtype current rdlen with
      | (Val _, s) => pcur s = current + rdlen /\ current + rdlen <= zlen wire
      | (Exn (XLib e), _) => is_form e = true
      | (Exn (XInt _), _) => False
      end.
    Proof.
      intros Hr. unfold rdata_from_wire.
      pose proof (parser_init_spec wire current) as Hi.
      destruct (parser_init wire current) as [s0|x]; [|subst x; reflexivity].
      destruct Hi as (W & Hf & Hc & Hle & He).
      pose proof (good_restrict_to wire 0 (isFormFam) rdlen
                    (rdata_from_wire_parser rdparse rdclass rdtype) s0 (fun _ _ => True)
                    ltac:(lia) W Hr eq_refl) as G.
      unfold good in G.
      match type of G with ?X -> _ => assert (HX : X) end.
      { intros s1 W1 _ _ _. unfold rdata_from_wire_parser. apply good_wrapped; auto. apply rd_api. lia. }
      specialize (G HX).
      destruct (restrict_to rdlen (rdata_from_wire_parser rdparse rdclass rdtype) s0) as [[a|[e|e]] s1]; auto.
      - destruct G as (_ & _ & _ & (s2 & _ & -> & C & E & L)). cbn. lia.
      - destruct G as (P & _). exact P.
    Qed.
  End Rdata.

  Section Position.
    Variable rdparse : Z -> Z -> M unit.
    Hypothesis rd_api : forall c t, api_disciplined wire (rdparse c t).

    Lemma parse_rr_header_state section rdclass rdtype m s :
      snd (parse_rr_header section rdclass rdtype m s) = s /\ snd (fst (parse_rr_header section rdclass rdtype m s)) = m.
    Proof.
      unfold parse_rr_header, mmbind, getm, mret, mraise. cbn.
      repeat match goal with |- context [if ?b then _ else _] => destruct b end; cbn; auto.
      all: destruct (zone_classes m); cbn; auto.
      all: repeat match goal with |- context [if ?b then _ else _] => destruct b end; cbn; auto.
    Qed.

    Lemma parse_special_state section count position nm rdclass rdtype m s :
      snd (parse_special_rr_header section count position nm rdclass rdtype m s) = s
      /\ snd (fst (parse_special_rr_header section count position nm rdclass rdtype m s)) = m.
    Proof.
      unfold parse_special_rr_header, mmbind, getm, mret, mraise. cbn.
      repeat match goal with |- context [if ?b then _ else _] => destruct b end; cbn; auto.
    Qed.

    (* `with parser.restrict_to(rdlen): rd = dns.rdata.from_wire_parser(...)` returning normally
       leaves the parser exactly at rdata_start + rdlen *)
    Lemma mrestrict_traced_position rdclass rdtype rdlen m s a m' s' :
      wfl wire 0 s -> 0 <= rdlen ->
      mrestrict_to rdlen (traced_rdata rdparse rdclass rdtype) m s = (Val a, m', s') ->
      pcur s' = pcur s + rdlen.
    Proof.
      intros W Hr. pose proof W as (Hc & He & Hf). unfold mrestrict_to, remaining.
      destruct (rdlen <? 0) eqn:E1; [lia|].
      destruct (rdlen >? pend s - pcur s) eqn:E2; [discriminate|].
      assert (W0 : wfl wire 0 (set_end s (pcur s + rdlen))) by (unfold wfl, set_end; cbn; repeat split; lia).
      unfold traced_rdata, rdata_from_wire_parser, wrap.
      pose proof (rd_api rdclass rdtype 0 ltac:(lia) _ W0) as (W1 & P1 & F1).
      destruct (rdparse rdclass rdtype (set_end s (pcur s + rdlen))) as [[u|[e|e]] s1]; cbn in P1, W1, F1 |- *.
      - destruct (pcur s1 =? pend s1) eqn:E3; [|discriminate].
        intros X; inversion X; subst. cbn. lia.
      - destruct (is_form e); discriminate.
      - discriminate.
    Qed.

    Theorem get_rr_position o section count i fu m0 s nm s1 rdtype rdclass ttl rdlen s2 r m' s' :
      get_name wire None s = (Val nm, s1) ->
      get_struct wire [2; 2; 4; 2] s1 = (Val [rdtype; rdclass; ttl; rdlen], s2) ->
      wfl wire 0 s2 -> 0 <= rdlen ->
      get_rr wire rdparse o section count i fu m0 s = (Val r, m', s') ->
      pcur s' = pcur s2 + rdlen.
    Proof.
      intros H1 H2 W2 Hr. unfold get_rr.
      unfold mmbind at 1. unfold liftP at 1. rewrite H1.
      unfold mmbind at 1. unfold liftP at 1. rewrite H2.
      unfold mmbind at 1.
      set (hdr := (if (rdtype =? tOPT) || (rdtype =? tTSIG)
                   then parse_special_rr_header section count i nm rdclass rdtype
                   else parse_rr_header section rdclass rdtype) m0 s2).
      assert (Hh : snd hdr = s2 /\ snd (fst hdr) = m0).
      { unfold hdr. destruct ((rdtype =? tOPT) || (rdtype =? tTSIG));
          [apply parse_special_state|apply parse_rr_header_state]. }
      destruct hdr as [[[[[rdclass' deleting] empty]|x] mh] sh]; cbn in Hh; destruct Hh as [-> ->]; [|discriminate].
      unfold mmbind at 1. unfold getp at 1. unfold catch.
      (* the try body *)
      match goal with |- (match ?body m0 s2 with _ => _ end) = _ -> _ => destruct (body m0 s2) as [[[v|x] mb] sb] eqn:EB end.
      - (* no exception: the rdata was consumed exactly *)
        intros X; inversion X; subst; clear X.
        revert EB. unfold mmbind at 1.
        match goal with |- (match ?first m0 s2 with _ => _ end) = _ -> _ => destruct (first m0 s2) as [[[hv|x] m4] s4] eqn:EF end; [|discriminate].
        assert (P4 : pcur s4 = pcur s2 + rdlen).
        { destruct empty.
          - destruct (rdlen >? 0) eqn:E0; [discriminate|]. unfold mret in EF. inversion EF; subst. lia.
          - revert EF. unfold mmbind at 1.
            destruct (mrestrict_to rdlen (traced_rdata rdparse rdclass' rdtype) m0 s2) as [[[u|x] m3] s3] eqn:ER; [|discriminate].
            unfold mret. intros X; inversion X; subst.
            eapply mrestrict_traced_position; eauto. }
        (* the bookkeeping after it does not move the parser *)
        repeat match goal with |- (if ?b then _ else _) _ _ = _ -> _ => destruct b end; try discriminate;
          unfold mmbind, upd, mret; intros X; inversion X; subst; exact P4.
      - (* an exception: only continue_on_error returns normally, after seek(rdata_start + rdlen) *)
        destruct (o_coe o); [|discriminate].
        unfold mmbind, getp, upd, liftP, seek, mret. cbn.
        destruct ((pcur s2 + rdlen <? 0) || (pcur s2 + rdlen >? pend sb)); [discriminate|].
        intros X; inversion X; subst. reflexivity.
    Qed.
  End Position.
  (* hypothesis-free instance: the executable reader of `run` (the one the correspondence ties
     to dns.message.from_wire) never ends in a Python-level exception *)
  Theorem message_from_wire_concrete (origin : option name) bits :
    match message_from_wire wire (dec_rdata wire origin) (opts_of_bits bits) with
    | (Exn (XInt _), _) => False
    | (Exn (XLib e), m) =>
        (is_form e = true \/ e = eUnknownTSIGKey) \/ (e = eTruncated /\ o_raise_trunc (opts_of_bits bits) = true)
    | (Val _, m) => True
    end.
  Proof.
    pose proof (message_from_wire_family wire Hwire (dec_rdata wire origin)
                  (fun c t => dec_rdata_disciplined origin c t) (opts_of_bits bits)) as H.
    destruct (message_from_wire wire (dec_rdata wire origin) (opts_of_bits bits)) as [[a|[e|e]] m]; auto.
    destruct H as (_ & H). exact H.
  Qed.
End Dec.
