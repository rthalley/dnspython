(* Accepted from text => encodable, for every field of every modelled type: whatever dns.rdata.from_text
   returns for a schema type satisfies the conditions under which the type's _to_wire cannot fail
   (struct.pack ranges, the `assert l < 256` of counted strings, window / octet counts of type bitmaps,
   address and name conversions that are repeated by _to_wire).
   At the end, what Props/C05.v cites about the table RdTextM.schema_of: every schema of the table is well formed
   (schema_table_wf_all), hence the schema round trip of Proofs/RdText.v holds for every type of the table
   (record_roundtrip_type); and the empty rest-of-line field that does not read back (empty_rest_refuted). *)
From DV Require Import Base.Prelude Model.NameM Model.TokM Model.RdTextM.
From DV Require Import Proofs.NameValid Proofs.TokEsc Proofs.RdTextName Proofs.RdTextAddr Proofs.RdTextBitmap Proofs.RdTextTypes Proofs.RdText Proofs.RdTextRel.
Open Scope Z_scope.

Definition win_ok (w : bwindow) : Prop := 0 <= fst w <= 255 /\ (1 <= length (snd w) <= 32)%nat.

Definition wire_extra (f : tfield) (v : tval) : Prop :=
  match f, v with
  | FName, VName n => Valid n
  | FNameNoRel, VName n => Valid n
  | FNamesRest, VNames l => Forall Valid l
  | FTxtRest, VStrs l => l <> [] /\ Forall (fun s => zlen s <= 255) l
  | FBitmap, VWindows ws => Forall win_ok ws
  | FAddr v6, VBytes b => exists t, (if v6 then ipv6_aton t else ipv4_aton t) = Ok b
  | FEui n, VBytes b => length b = n
  | FFmtHex, VBytes t => fmthex_ok t = true
  | FGw _, VGw g a gw =>
      0 <= g <= 3 /\ 0 <= a <= 255 /\
      match gw with
      | GwNone => g = 0
      | GwText t => (g = 1 /\ exists b, ipv4_aton t = Ok b) \/ (g = 2 /\ exists b, ipv6_aton t = Ok b)
      | GwName n => g = 3 /\ Valid n
      end
  | FSvcbRec, VSvcb p n _ => 0 <= p <= 65535 /\ Valid n
  | FAplRest, VApl items =>      (* struct "!HBB": family, prefix; `assert l < 128` for the address *)
      Forall (fun it : aplitem => let '(f, _, a, p) := it in 0 <= f <= 65535 /\ 0 <= p <= 255) items
  | _, _ => True
  end.

Definition wire_ok (f : tfield) (v : tval) : Prop := val_encodable f v /\ wire_extra f v.

Lemma map_res_forall {A B} (f : A -> res B) (P : B -> Prop) : (forall a b, f a = Ok b -> P b) ->
  forall l r, map_res f l = Ok r -> Forall P r.
Proof.
  intros Hf. induction l as [|a l IH]; intros r H; cbn [map_res] in H; [injection H as <-; constructor|].
  steps H. injection H as <-. constructor; eauto.
Qed.

Lemma txt_strings_len toks : forall l, txt_strings toks = Ok l -> Forall (fun s => zlen s <= 255) l.
Proof.
  induction toks as [|t toks IH]; intros l H; cbn [txt_strings] in H; [inversion H; constructor|].
  steps H. injection H as <-. constructor; [lia|apply IH; reflexivity].
Qed.

Lemma rdtype_from_text_range t v : rdtype_from_text t = Ok v -> 0 <= v <= 65535.
Proof.
  unfold rdtype_from_text.
  destruct (assoc_text (map upper_c t) rdtype_names) as [x|] eqn:E1;
    [intros H; injection H as <-; exact (assoc_text_range _ rdtype_names _ 0 65535 eq_refl E1)|].
  destruct (existsb (Z.eqb 45) (map upper_c t));
    [destruct (assoc_text (replace_char 45 95 (map upper_c t)) rdtype_names) as [x|] eqn:E2;
       [intros H; injection H as <-; exact (assoc_text_range _ rdtype_names _ 0 65535 eq_refl E2)|]|].
  all: intros H; steps H; apply andb_true_iff in E as [_ E3]; pose proof (dec_value_nonneg _ 0 ltac:(lia) E3);
    replace v with (dec_value (skipn 4 (map upper_c t)) 0) by congruence; lia.
Qed.

Lemma token_type_range t v : bitmap_token_type t = Ok v -> 0 <= v <= 65535.
Proof. unfold bitmap_token_type. intros H. steps H. injection H as <-. eapply rdtype_from_text_range; eauto. Qed.

Lemma insert_sorted_forall (P : Z -> Prop) x l : P x -> Forall P l -> Forall P (insert_sorted x l).
Proof.
  intros Hx. induction 1 as [|y l Hy Hl IH]; cbn [insert_sorted]; [repeat constructor; exact Hx|].
  destruct (x <=? y); repeat constructor; auto.
Qed.

Lemma sort_z_forall (P : Z -> Prop) l : Forall P l -> Forall P (sort_z l).
Proof. induction 1 as [|x l Hx Hl IH]; [constructor|]. cbn [sort_z fold_right]. apply insert_sorted_forall; assumption. Qed.

Lemma set_nth_length i f l : length (set_nth i f l) = length l.
Proof. revert i. induction l as [|x l IH]; intros [|i]; cbn [set_nth length]; auto. Qed.

Lemma frt_loop_ok ts : Forall (fun t => 0 <= t <= 65535) ts ->
  forall window octets prior bitmap acc,
  0 <= window <= 255 -> 0 <= octets <= 32 -> length bitmap = 32%nat -> Forall win_ok acc ->
  match frt_loop ts window octets prior bitmap acc with
  | (w, o, b, a) => 0 <= w <= 255 /\ 0 <= o <= 32 /\ length b = 32%nat /\ Forall win_ok a
  end.
Proof.
  induction 1 as [|t ts Ht _ IH]; intros window octets prior bitmap acc Hw Ho Hb Ha; cbn [frt_loop]; [auto|].
  destruct (t =? prior); [apply IH; assumption|]. cbv zeta.
  apply IH.
  - dlia.
  - dlia.
  - rewrite set_nth_length. destruct (negb (t / 256 =? window)); [apply repeat_length|exact Hb].
  - destruct (negb (t / 256 =? window) && negb (octets =? 0)) eqn:E; [|exact Ha].
    apply Forall_app. split; [exact Ha|]. constructor; [|constructor].
    unfold win_ok. cbn [fst snd]. rewrite firstn_length, Hb. apply andb_true_iff in E as [_ E]. split; lia.
Qed.

Lemma from_rdtypes_ok ts : Forall (fun t => 0 <= t <= 65535) ts -> Forall win_ok (from_rdtypes ts).
Proof.
  intros H. unfold from_rdtypes.
  pose proof (frt_loop_ok (sort_z ts) (sort_z_forall _ _ H) 0 0 0 (repeat 0 32) [] ltac:(lia) ltac:(lia)
                (repeat_length _ _) (Forall_nil _)) as G.
  destruct (frt_loop (sort_z ts) 0 0 0 (repeat 0 32) []) as [[[w o] b] a]. destruct G as (G1 & G2 & G3 & G4).
  destruct (negb (o =? 0)) eqn:E; [|exact G4].
  apply Forall_app. split; [exact G4|]. constructor; [|constructor].
  unfold win_ok. cbn [fst snd]. rewrite firstn_length, G3. split; lia.
Qed.

Lemma get_name_valid c st n st' : get_name c st = Ok (n, st') -> Valid n.
Proof. unfold get_name. intros H. steps H. injection H as <- _. eapply as_name_valid; eauto. Qed.

Lemma apl_ctor_range f n a p it : apl_ctor f n a p = Ok it -> let '(f', _, _, p') := it in 0 <= f' <= 65535 /\ 0 <= p' <= 255.
Proof. unfold apl_ctor. intros H. steps H; injection H as <-; lia. Qed.

Lemma apl_item_range t it : apl_item_of_token t = Ok it -> let '(f, _, _, p) := it in 0 <= f <= 65535 /\ 0 <= p <= 255.
Proof.
  unfold apl_item_of_token. intros H. steps H. destruct (tvalue _) as [|c r0]; [discriminate|].
  destruct (split_once 58 _) as [[fam rest]|]; [|discriminate]. destruct (py_int 10 fam) as [fv|]; [|discriminate].
  destruct (split_once 47 rest) as [[ad pfx]|]; [|discriminate]. destruct (py_int 10 pfx) as [pv|]; [|discriminate].
  eapply apl_ctor_range; eauto.
Qed.

Theorem parse_field_wire c f st raw st' v :
  parse_field c f st = Ok (raw, st') -> ctor_field f raw = Ok v -> wire_ok f v.
Proof.
  intros H Hc. split; [eapply parse_field_encodable; eauto|].
  destruct f; cbn [parse_field] in H; try (destruct v; exact Logic.I).
  - (* FName *) steps H. inversion H; subst. injection Hc as <-. eapply get_name_valid; eauto.
  - (* FTxtRest *)
    unfold txt_from_text in H. steps H. inversion H; subst. injection Hc as <-. cbn [wire_extra].
    split; [intros ->; discriminate|eapply txt_strings_len; eauto].
  - (* FAddr *) steps H. inversion H; subst. cbn [ctor_field] in Hc. steps Hc; injection Hc as <-; eexists; exact E0.
  - (* FBitmap *)
    steps H. inversion H; subst. injection Hc as <-. apply from_rdtypes_ok.
    eapply map_res_forall; [exact token_type_range|eauto].
  - (* FEui *) steps H. inversion H; subst. cbn [ctor_field] in Hc. steps Hc. injection Hc as <-. apply Nat.eqb_eq, negb_false_iff, E1.
  - (* FFmtHex *) steps H. inversion H; subst. cbn [ctor_field] in Hc. steps Hc. injection Hc as <-. exact E0.
  - (* FNamesRest *)
    steps H. inversion H; subst. injection Hc as <-. eapply map_res_forall; [exact (as_name_valid c)|eauto].
  - (* FNameNoRel *) steps H. inversion H; subst. injection Hc as <-. eapply get_name_valid; eauto.
  - (* FGw *)
    destruct (get_uint max8 st 10) as [[g s1]| |] eqn:Eg; cbn [bind fst snd] in H; try discriminate.
    assert (Ha : exists a s2, (if ipsec then get_uint max8 s1 10 else if g >? 127 then Lib eSyntax else Ok (0, s1)) = Ok (a, s2)
                             /\ 0 <= a <= 255).
    { destruct ipsec.
      - destruct (get_uint max8 s1 10) as [[a s2]| |] eqn:Ea; cbn [bind] in H; try discriminate.
        exists a, s2. split; [reflexivity|]. exact (get_uint_range _ _ _ _ _ Ea).
      - destruct (g >? 127); cbn [bind] in H; try discriminate. exists 0, s1. split; [reflexivity|lia]. }
    destruct Ha as (a & s2 & Ea & Har). rewrite Ea in H. cbn [bind fst snd] in H.
    assert (Hv : exists gw, gw_check g a gw = Ok raw /\ match gw with GwName n => Valid n | _ => True end).
    { steps H; inversion H; subst; eexists; (split; [eassumption|]); [exact Logic.I|eapply get_name_valid; eauto]. }
    destruct Hv as (gw & Ec & Hn). injection Hc as <-. apply get_uint_range in Eg. unfold max8 in Eg.
    unfold gw_check in Ec. destruct gw as [|t|n]; steps Ec; injection Ec as <-; cbn [wire_extra]; (split; [lia|]); (split; [lia|]).
    + lia.
    + left. split; [lia|eauto].
    + right. split; [lia|eauto].
    + split; [lia|exact Hn].
  - (* FSvcbRec *)
    destruct (svcb_from_text c st) as [[[[p n] ps] s4]| |] eqn:E; cbn [bind] in H; try discriminate.
    injection H as <- _. injection Hc as <-. unfold svcb_from_text in E.
    steps E; injection E as <- <- _ _; (split; [apply get_uint_range in E0; unfold max16 in E0; exact E0|eapply get_name_valid; eauto]).
  - (* FAplRest *)
    steps H. inversion H; subst. injection Hc as <-. eapply map_res_forall; [exact apl_item_range|eauto].
Qed.

Lemma fields_forall2 c (P : tfield -> tval -> Prop) :
  (forall f st raw st' v, parse_field c f st = Ok (raw, st') -> ctor_field f raw = Ok v -> P f v) ->
  forall fs st raws st' vs, parse_fields c fs st = Ok (raws, st') -> ctor_fields fs raws = Ok vs -> Forall2 P fs vs.
Proof.
  intros HP. induction fs as [|f fs IH]; intros st raws st' vs H Hc; cbn [parse_fields] in H.
  - injection H as <- _. injection Hc as <-. constructor.
  - steps H. injection H as <- _. cbn [ctor_fields] in Hc. steps Hc. injection Hc as <-. constructor; eauto.
Qed.

Lemma class_from_text_fields c fs chk st vs st' : class_from_text c fs chk st = Ok (vs, st') ->
  exists raws, parse_fields c fs st = Ok (raws, st') /\ ctor_fields fs raws = Ok vs.
Proof. unfold class_from_text. intros H. steps H. injection H as <- <-. eauto. Qed.

Theorem class_from_text_wire c fs chk st vs st' :
  class_from_text c fs chk st = Ok (vs, st') -> Forall2 wire_ok fs vs.
Proof.
  intros H. destruct (class_from_text_fields _ _ _ _ _ _ H) as (raws & E1 & E2).
  exact (fields_forall2 c wire_ok (parse_field_wire c) fs st raws st' vs E1 E2).
Qed.

(* statements used as they are by Props/C05.v *)
From DV Require Import Proofs.TokWords Proofs.TokHex.

Lemma chunked_wordbreak_roundtrip w chunk sep rest allow_empty :
  forallb safe w = true -> forallb is_blank sep = true ->
  (rest = [] \/ exists r, rest = 10 :: r) -> (allow_empty = true \/ w <> []) ->
  exists te st, is_eol_or_eof te = true /\ ungot st = Some te /\
    concatenate_remaining_identifiers (mkSt (wordbreak w chunk sep ++ rest) 0%nat false None) allow_empty
    = Ok (w, st).
Proof.
  intros Hw Hs Hr Hne.
  apply concatenate_chunked; [apply wordbreak_chunked; assumption|exact Hr|exact Hne].
Qed.

Lemma alphabets_safe d : all_bytes d = true ->
  forallb safe (hexlify d) = true /\ forallb safe (b64encode d) = true.
Proof. intros H. split; [apply (hexlify_safe d H)|apply (b64encode_safe d H)]. Qed.

Lemma schema_table_wf_all rdtype fs : schema_of rdtype = Some fs -> schema_wf fs.
Proof.
  unfold schema_of.
  repeat match goal with
         | |- (if ?b then _ else _) = _ -> _ => destruct b; [intros H; inversion H; subst; cbn; tauto|]
         end.
  discriminate.
Qed.

Lemma record_roundtrip_type rdtype fs sty c vs text vs' rest fw tw :
  schema_of rdtype = Some fs ->
  Forall2 val_ok fs vs -> style_ok sty -> (rest = [] \/ exists r, rest = 10 :: r) ->
  record_to_text sty fs vs = Ok text -> expects sty c fs vs = Ok vs' -> schema_chk rdtype vs' = Ok tt ->
  record_from_text_gen fw tw c fs (schema_chk rdtype) (text ++ rest) = Ok vs'.
Proof.
  intros Hs Hv Hst Hr Hp He Hc.
  exact (record_roundtrip sty c fs (schema_chk rdtype) vs text vs' rest fw tw (schema_table_wf_all rdtype fs Hs) Hv Hst Hr Hp He Hc).
Qed.

Lemma empty_rest_refuted :
  exists fs vs text, schema_of 44 = Some fs /\ record_to_text (mkStyle None false 128 [32] 32 [32] false) fs vs = Ok text /\
    record_from_text (mkPctx None true None) fs (schema_chk 44) (text ++ [10]) <> Ok vs.
Proof.
  exists [u8; u8; FHexRest], [VInt 1; VInt 1; VBytes []], [49; 32; 49; 32].
  split; [reflexivity|]. split; [reflexivity|]. vm_compute. discriminate.
Qed.
