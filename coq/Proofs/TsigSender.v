(* The sending side of a multi-message exchange (sign_stream: Message.to_wire(multi=True,
   tsig_ctx=previous) for signed envelopes, ctx.update(wire) for unsigned ones): every signed
   envelope carries the RFC 8945 5.3.1 MAC.  Together with Proofs/TsigStream.v both ends are
   tied to the same specification. *)
From DV Require Import Base.Prelude.
From DV Require Model.NameM.
From DV Require Import Model.TsigM Proofs.TsigSpec Proofs.TsigLemmas Proofs.TsigReader Proofs.TsigStream.
Open Scope Z_scope.

Section Sender.
  Variable H : hashid -> bytes -> bytes -> bytes.
  Variable k : key.
  Variable rmac : bytes.

  (* one signed envelope: the MAC is that of the RFC input for the running state, and the context handed
     on matches the state after it *)
  Lemma sign_running : forall ctx run w rd now rd' c',
    ctx_matches k ctx run ->
    sign H w k rd (Some now) rmac ctx true = Ok (rd', c') ->
    (exists h sz,
       assoc_name hashes (kalg k) = Some (h, sz) /\
       t_mac rd' = rfc_truncate (trunc_of sz) (H h (ksecret k)
         (match run with
          | None => rfc8945_input (omac rmac) (t_oid rd) w (vars_of k rd now)
          | Some (p, u) => rfc8945_input_subsequent p u (t_oid rd) w now (t_fudge rd)
          end)))
    /\ ctx_matches k c' (Some (t_mac rd', [])).
  Proof.
    intros ctx run w rd now rd' c' CM SG.
    destruct ctx as [c|], run as [[p u]|]; try contradiction.
    - destruct CM as (Dd & Dk & Dh).
      apply (sign_mac_subsequent H) in SG as (M & c1 & -> & D1).
      split; [|now apply ctx_matches_signed].
      exists (c_hash c), (c_size c). split; [assumption|].
      now rewrite M, Dk, (subsequent_input _ _ _ _ _ _ _ Dd).
    - pose proof SG as SG'. apply sign_inv in SG' as (c & _ & Mk & MS).
      apply mk_tsig_fields in Mk as (_ & _ & _ & Fm & _). rewrite <- Fm in MS.
      apply maybe_start_digest_multi in MS as (c1 & -> & D1).
      apply (sign_mac_is_rfc H) in SG as (h & sz & Hh & M & _); [|now left].
      split; [exists h, sz; auto|now apply ctx_matches_signed].
  Qed.

  (* what the signed envelope looks like: the message, ARCOUNT + 1, the TSIG RR of rd' *)
  Definition signed_envelope (w : bytes) (rd' : tsig) (out : bytes) : Prop :=
    exists ad rr, get_adcount w = Ok ad /\ tsig_rr (kname k) rd' = Ok rr
                  /\ out = slice w 0 10 ++ u16 (ad + 1) ++ skipn 12 w ++ rr.

  Fixpoint sender_spec (run : running) (ms : list (bytes * option (tsig * Z))) (outs : list bytes) : Prop :=
    match ms, outs with
    | [], [] => True
    | (w, None) :: ms', o :: outs' => o = w /\ sender_spec (run_unsigned run w) ms' outs'
    | (w, Some (rd, now)) :: ms', o :: outs' =>
        exists rd' h sz,
          signed_envelope w rd' o
          /\ assoc_name hashes (kalg k) = Some (h, sz)
          /\ t_time rd' = now /\ t_fudge rd' = t_fudge rd /\ t_oid rd' = t_oid rd
          /\ t_error rd' = t_error rd /\ t_other rd' = t_other rd
          /\ t_mac rd' = rfc_truncate (trunc_of sz) (H h (ksecret k)
               (match run with
                | None => rfc8945_input (omac rmac) (t_oid rd) w (vars_of k rd now)
                | Some (p, u) => rfc8945_input_subsequent p u (t_oid rd) w now (t_fudge rd)
                end))
          /\ sender_spec (Some (t_mac rd', [])) ms' outs'
    | _, _ => False
    end.

  Lemma sign_stream_is_rfc_lemma : forall ms outs ctx run,
    ctx_matches k ctx run ->
    sign_stream H ms k rmac ctx = map Ok outs ->
    sender_spec run ms outs.
  Proof.
    induction ms as [|[w [[rd now]|]] ms IH]; intros outs ctx run CM E.
    - destruct outs; [exact Logic.I|discriminate].
    - cbn [sign_stream] in E.
      destruct (sign_message H w k (kname k) rd now rmac ctx true) as [[[o rd'] c']| |] eqn:SM.
      2,3: destruct outs as [|o0 [|]]; cbn in E; discriminate.
      destruct outs as [|o0 outs]; [discriminate|]. cbn [map] in E.
      inversion E as [[Eo Erest]]. subst o0. clear E.
      apply sign_message_inv in SM as (SG & ad & rr & AD & RR & ->).
      cbn [sender_spec].
      pose proof (sign_fields _ _ _ _ _ _ _ _ _ _ SG) as (Ft & Fa & Ff & Fo & Fe & Fot).
      destruct (sign_running _ _ _ _ _ _ _ CM SG) as ((h & sz & Hh & M) & CM').
      exists rd', h, sz. split; [exists ad, rr; auto|]. split; [assumption|].
      repeat (split; [assumption|]). apply (IH outs c'); assumption.
    - cbn [sign_stream] in E.
      destruct outs as [|o0 outs]; [discriminate|]. cbn [map] in E.
      inversion E as [[Eo Erest]]. subst o0. cbn [sender_spec]. split; [reflexivity|].
      apply (IH outs (match ctx with Some c => Some (update c w) | None => None end)); [|exact Erest].
      now apply ctx_matches_unsigned.
  Qed.
End Sender.
