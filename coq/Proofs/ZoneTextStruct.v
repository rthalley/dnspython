(* C09: zone_roundtrip with purely structural hypotheses, for zones over the modelled types
   (field-list types, RRSIG, unknown types in RFC 3597 form) and the default name style. *)
From DV Require Import Base.Prelude Model.NameM Model.ZoneTextM.
From DV Require Import Proofs.NameValid Proofs.NameText.
From DV Require Import Proofs.ZoneTextBase Proofs.ZoneTextAcc Proofs.ZoneTextRecord Proofs.ZoneTextSweep
  Proofs.ZoneTextRoundtrip Proofs.ZoneTextNames Proofs.ZoneTextWf Proofs.ZoneTextRdata.
From Coq Require Import Permutation.
Open Scope Z_scope.

Lemma tbl_code_range ty m ks : tbl_by_code type_table ty = Some (m, ks) ->
  0 <= ty <= 65535 /\ (ty =? 24) = false.
Proof.
  intros E. apply tbl_by_code_In in E. apply (proj1 (Forall_forall _ _) type_table_ok) in E. tauto.
Qed.

Section Struct.
  Variable c : cfg.
  Variable st : style.
  Variable zo : name.
  Hypothesis Hzo : Valid zo /\ AllBytes zo /\ is_absolute zo = true.
  Hypothesis Hplain : st_origin st = None.
  Local Notation rel := (c_rel c).

  (* an owner name as the zone stores it *)
  Definition owner_stored_ok (n : name) : Prop :=
    Valid n /\ AllBytes n /\
    if rel then is_absolute n = false /\ Valid (n ++ zo)
    else is_absolute n = true /\ is_subdomain n zo = true.

  (* one record of a modelled type: a field-list type, RRSIG (first field = covered type), or an
     unknown type in the RFC 3597 form with non-empty data *)
  Definition rd_struct (ty cov : Z) (rd : rdata) : Prop :=
    (exists m ks, tbl_by_code type_table ty = Some (m, ks) /\ ty <> tRRSIG /\ cov = 0 /\ rdata_fits rel zo ks rd) \/
    (ty = tRRSIG /\ 0 <= cov <= 65535 /\ exists rest, rd = VInt cov :: rest /\ rdata_fits rel zo rrsig_tail rest) \/
    (tbl_by_code type_table ty = None /\ (ty =? 24) = false /\ cov = 0 /\
     exists n h, rd = [VTok [92; 35]; VInt n; VRest [h]] /\ 0 < n /\ hex_lower h = true /\ zlen h = 2 * n).

  Lemma rd_struct_ok ty cov rd : rd_struct ty cov rd ->
    covers_of ty rd = cov /\ exists toks, rdata_ok c st zo ty rd toks.
  Proof.
    intros [(m & ks & Htbl & Hrr & Hc & Hf)|[(Ety & Hc & rest & Erd & Hf)|(Htbl & H24 & Hc & n & h & Erd & Hn & Hh & Hl)]].
    - destruct (tbl_code_range _ _ _ Htbl) as [_ H24]. split.
      + unfold covers_of. replace (ty =? tRRSIG) with false by (symmetry; apply Z.eqb_neq; exact Hrr).
        rewrite H24. symmetry. exact Hc.
      + exists (rd_toks rd). eapply rdata_ok_fits_proof; eauto.
    - subst ty rd. split; [reflexivity|].
      eexists. apply rdata_ok_rrsig_proof; eauto.
    - subst rd cov. split.
      + unfold covers_of. rewrite H24.
        destruct (Z.eqb_spec ty tRRSIG) as [E|E]; [subst ty; discriminate Htbl|reflexivity].
      + eexists. apply rdata_ok_generic_proof; eauto.
  Qed.

  Fixpoint rdatas_struct (ty cov : Z) (rdone rds : list rdata) : Prop :=
    match rds with
    | [] => True
    | rd :: r =>
        rd_struct ty cov rd /\
        existsb (rdata_eqb (canon_names ty) rd) rdone = false /\
        rdatas_struct ty cov (rdone ++ [rd]) r
    end.

  Definition rds_struct (n : name) (r : rdataset) : Prop :=
    0 <= rtype r <= 65535 /\
    rdatas r <> [] /\ 0 <= rttl r <= MAX_TTL /\ soa_ok zo rel n (rtype r) /\
    (is_singleton (rtype r) = true -> exists rd, rdatas r = [rd]) /\
    rdatas_struct (rtype r) (rcovers r) [] (rdatas r).

  Fixpoint rdss_struct (n : name) (ndone rest : node) : Prop :=
    match rest with
    | [] => True
    | r :: rest' =>
        rds_fresh ndone (rtype r) (rcovers r) /\ compat ndone (rds_kind r) /\ rds_struct n r /\
        rdss_struct n (ndone ++ [r]) rest'
    end.

  Definition node_struct (e : name * node) : Prop :=
    snd e <> [] /\ owner_stored_ok (fst e) /\ rdss_struct (fst e) [] (snd e).

  Definition zone_struct (z : zone) : Prop := keys_distinct z /\ Forall node_struct z.

  Lemma rdatas_wf_struct ty cov : forall rds rdone,
    rdatas_struct ty cov rdone rds -> rdatas_wf c st zo ty cov rdone rds.
  Proof.
    induction rds as [|rd rds IH]; intros rdone H; cbn [rdatas_wf]; [exact Logic.I|].
    destruct H as (Hf & Hd & Hr). destruct (rd_struct_ok _ _ _ Hf) as [Hcov Hok].
    split; [exact Hcov|]. split; [exact Hd|]. split; [exact Hok|]. apply IH. exact Hr.
  Qed.

  Lemma rdss_wf_struct n : forall rest ndone, rdss_struct n ndone rest -> rdss_wf c st zo n ndone rest.
  Proof.
    induction rest as [|r rest IH]; intros ndone H; cbn [rdss_wf]; [exact Logic.I|].
    destruct H as (Hf & Hc & (Hty & Hne & Httl & Hsoa & Hsing & Hrd) & Hrest).
    split; [exact Hf|]. split; [exact Hc|]. split; [|apply IH; exact Hrest].
    unfold rds_wf. split; [exact Hne|]. split; [exact Httl|].
    split; [exact Hty|]. split; [exact Hsoa|]. split; [exact Hsing|].
    apply rdatas_wf_struct. exact Hrd.
  Qed.

  Lemma node_wf_struct e : node_struct e -> node_wf c st zo e.
  Proof.
    intros (Hne & (V & B & Ho) & Hr). unfold node_wf. split; [exact Hne|]. split; [|apply rdss_wf_struct; exact Hr].
    assert (Hcases : (c_rel c = true /\ is_absolute (fst e) = false /\ Valid (fst e ++ zo)) \/
                     (c_rel c = false /\ is_absolute (fst e) = true /\ is_subdomain (fst e) zo = true)).
    { destruct (c_rel c); [left|right]; tauto. }
    destruct Hcases as [(Er & A & Vn)|(Er & A & Hs)].
    - exists (to_text (fst e)), (fst e ++ zo). apply owner_ok_relativized; auto.
    - exists (to_text (fst e)), (fst e). apply owner_ok_absolute; auto.
  Qed.

  Lemma zone_wf_struct z : zone_struct z -> zone_wf c st zo z.
  Proof.
    intros [Hk Hn]. split; [exact Hk|]. eapply Forall_impl; [|exact Hn]. intros e. apply node_wf_struct.
  Qed.

  Theorem zone_roundtrip_fields_proof nodes :
    lossless st -> 0 <= c_class c <= 65535 ->
    (c_origin c = Some zo \/ (c_origin c = None /\ st_want_origin st = true)) ->
    zone_struct nodes ->
    (c_check c = true -> check_origin c (Some zo) (printed_order st nodes) = Ok tt) ->
    exists text,
      zone_text st (mkpz (Some zo) (c_rel c) (c_class c) nodes) = Ok text /\
      from_text c text = Ok (match printed_order st nodes with [] => c_origin c | _ => Some zo end,
                             printed_order st nodes).
  Proof.
    intros Hl Hcl Ho Hs Hchk.
    apply (zone_roundtrip_proof c st zo Hl Hcl nodes (printed_order st nodes) eq_refl Ho).
    - intros _. apply origin_ok_valid. exact Hzo.
    - apply (nodes_wf_any_order c st zo nodes).
      + apply printed_order_perm.
      + apply zone_wf_struct. exact Hs.
    - exact Hchk.
  Qed.
End Struct.
