(* C20: the canonical order of dns.name (NameM.fullcompare) as a lexicographic order on
   keys; subdomains are key prefixes; the subtree of a name is an interval of the order. *)
From DV Require Import Base.Prelude Model.NameM Proofs.NameValid Proofs.NameOrder.
Open Scope Z_scope.

Section Lex.
  Context {A : Type} (c : A -> A -> comparison).
  Hypothesis c_eq : forall x y, c x y = Eq <-> x = y.
  Hypothesis c_anti : forall x y, c y x = CompOpp (c x y).
  Hypothesis c_trans : forall x y z, c x y = Lt -> c y z = Lt -> c x z = Lt.

  Fixpoint lexc (a b : list A) : comparison :=
    match a, b with
    | [], [] => Eq
    | [], _ :: _ => Lt
    | _ :: _, [] => Gt
    | x :: a', y :: b' => match c x y with Eq => lexc a' b' | r => r end
    end.

  Lemma c_refl : forall x, c x x = Eq.
  Proof. intros; apply c_eq; reflexivity. Qed.

  (* the same function as NameOrder.lex, whose order facts carry over *)
  Lemma lexc_lex : forall a b, lexc a b = lex c a b.
  Proof. induction a as [|x a IH]; destruct b as [|y b]; cbn; try reflexivity. rewrite IH. reflexivity. Qed.

  Lemma lexc_eq : forall a b, lexc a b = Eq <-> a = b.
  Proof. intros a b. rewrite lexc_lex. apply lex_eq, c_eq. Qed.

  Lemma lexc_refl : forall a, lexc a a = Eq.
  Proof. intros; apply lexc_eq; reflexivity. Qed.

  Lemma lexc_anti : forall a b, lexc b a = CompOpp (lexc a b).
  Proof. intros a b. rewrite !lexc_lex. apply lex_anti, c_anti. Qed.

  Lemma lexc_trans : forall a b d, lexc a b = Lt -> lexc b d = Lt -> lexc a d = Lt.
  Proof. intros a b d. rewrite !lexc_lex. apply lex_trans; [exact c_eq|exact c_trans]. Qed.

  Lemma lexc_gt_lt : forall a b, lexc a b = Gt <-> lexc b a = Lt.
  Proof. intros. rewrite (lexc_anti a b). destruct (lexc a b); cbn; split; congruence. Qed.

  Lemma lexc_le_lt_trans : forall a b d, lexc a b <> Gt -> lexc b d = Lt -> lexc a d = Lt.
  Proof.
    intros a b d H1 H2. destruct (lexc a b) eqn:E; try congruence.
    - apply lexc_eq in E; subst; auto.
    - eapply lexc_trans; eauto.
  Qed.

  Lemma lexc_lt_le_trans : forall a b d, lexc a b = Lt -> lexc b d <> Gt -> lexc a d = Lt.
  Proof.
    intros a b d H1 H2. destruct (lexc b d) eqn:E; try congruence.
    - apply lexc_eq in E; subst; auto.
    - eapply lexc_trans; eauto.
  Qed.

  Lemma lexc_le_trans : forall a b d, lexc a b <> Gt -> lexc b d <> Gt -> lexc a d <> Gt.
  Proof.
    intros a b d H1 H2. destruct (lexc b d) eqn:E; try congruence.
    - apply lexc_eq in E; subst; auto.
    - rewrite (lexc_le_lt_trans _ _ _ H1 E). discriminate.
  Qed.

  Lemma lexc_app_r : forall p s, lexc p (p ++ s) <> Gt.
  Proof.
    induction p as [|x p IH]; intros s; cbn.
    - destruct s; discriminate.
    - rewrite c_refl. apply IH.
  Qed.

  Lemma lexc_app_lt : forall p s, s <> [] -> lexc p (p ++ s) = Lt.
  Proof.
    induction p as [|x p IH]; intros s Hs; cbn.
    - destruct s; congruence.
    - rewrite c_refl. apply IH; auto.
  Qed.

  Lemma lexc_app_same : forall p a b, lexc (p ++ a) (p ++ b) = lexc a b.
  Proof. induction p as [|x p IH]; intros; cbn; auto. rewrite c_refl. auto. Qed.

  (* the subtree of p is convex: between two names under p everything is under p *)
  Lemma lexc_convex : forall p s1 s2 b,
      lexc (p ++ s1) b <> Gt -> lexc b (p ++ s2) <> Gt -> exists s, b = p ++ s.
  Proof.
    induction p as [|x p IH]; intros s1 s2 b H1 H2.
    - exists b; reflexivity.
    - destruct b as [|y b]; cbn in *; [congruence|].
      destruct (c x y) eqn:E1; try congruence.
      + apply c_eq in E1; subst y. rewrite c_refl in H2.
        destruct (IH _ _ _ H1 H2) as [s Hs]. exists s. subst; reflexivity.
      + rewrite c_anti, E1 in H2. cbn in H2. congruence.
  Qed.

  (* once past the subtree of p, never under p again *)
  Lemma lexc_past_subtree : forall p b d,
      lexc p b = Lt -> (forall s, b <> p ++ s) -> lexc b d <> Gt -> forall s, d <> p ++ s.
  Proof.
    intros p b d H1 H2 H3 s Hd. subst d.
    assert (Hb : lexc (p ++ []) b <> Gt) by (rewrite app_nil_r, H1; discriminate).
    destruct (lexc_convex _ _ _ _ Hb H3) as [s' Hs']. eapply H2; eauto.
  Qed.
End Lex.

Definition key := list label.
Definition kcmp : key -> key -> comparison := lexc cmp_bytes.
Definition key_eq_dec : forall a b : key, {a = b} + {a <> b} := list_eq_dec (list_eq_dec Z.eq_dec).

Lemma kcmp_eq : forall a b, kcmp a b = Eq <-> a = b.
Proof. exact (lexc_eq cmp_bytes cmp_bytes_eq). Qed.
Lemma kcmp_refl : forall a, kcmp a a = Eq.
Proof. exact (lexc_refl cmp_bytes cmp_bytes_eq). Qed.
Lemma kcmp_anti : forall a b, kcmp b a = CompOpp (kcmp a b).
Proof. exact (lexc_anti cmp_bytes cmp_bytes_anti). Qed.
Lemma kcmp_trans : forall a b d, kcmp a b = Lt -> kcmp b d = Lt -> kcmp a d = Lt.
Proof. exact (lexc_trans cmp_bytes cmp_bytes_eq cmp_bytes_trans). Qed.
Lemma kcmp_gt_lt : forall a b, kcmp a b = Gt <-> kcmp b a = Lt.
Proof. exact (lexc_gt_lt cmp_bytes cmp_bytes_anti). Qed.
Lemma kcmp_le_lt_trans : forall a b d, kcmp a b <> Gt -> kcmp b d = Lt -> kcmp a d = Lt.
Proof. exact (lexc_le_lt_trans cmp_bytes cmp_bytes_eq cmp_bytes_trans). Qed.
Lemma kcmp_lt_le_trans : forall a b d, kcmp a b = Lt -> kcmp b d <> Gt -> kcmp a d = Lt.
Proof. exact (lexc_lt_le_trans cmp_bytes cmp_bytes_eq cmp_bytes_trans). Qed.
Lemma kcmp_le_trans : forall a b d, kcmp a b <> Gt -> kcmp b d <> Gt -> kcmp a d <> Gt.
Proof. exact (lexc_le_trans cmp_bytes cmp_bytes_eq cmp_bytes_trans). Qed.
Lemma kcmp_app_r : forall p s, kcmp p (p ++ s) <> Gt.
Proof. exact (lexc_app_r cmp_bytes cmp_bytes_eq). Qed.
Lemma kcmp_app_lt : forall p s, s <> [] -> kcmp p (p ++ s) = Lt.
Proof. exact (lexc_app_lt cmp_bytes cmp_bytes_eq). Qed.
Lemma kcmp_app_same : forall p a b, kcmp (p ++ a) (p ++ b) = kcmp a b.
Proof. exact (lexc_app_same cmp_bytes cmp_bytes_eq). Qed.
Lemma kcmp_convex : forall p s1 s2 b,
    kcmp (p ++ s1) b <> Gt -> kcmp b (p ++ s2) <> Gt -> exists s, b = p ++ s.
Proof. exact (lexc_convex cmp_bytes cmp_bytes_eq cmp_bytes_anti). Qed.
Lemma kcmp_past_subtree : forall p b d,
    kcmp p b = Lt -> (forall s, b <> p ++ s) -> kcmp b d <> Gt -> forall s, d <> p ++ s.
Proof. exact (lexc_past_subtree cmp_bytes cmp_bytes_eq cmp_bytes_anti). Qed.

(* the labels from the root down, lower-cased *)
Definition lkey (n : name) : key := rev (map lower_l n).
(* with the relativity in front: relative names sort before absolute ones *)
Definition ekey (n : name) : key := (if is_absolute n then [1] else [0]) :: lkey n.

Definition prefix (p a : key) : Prop := exists s, a = p ++ s.

Lemma prefix_refl : forall a, prefix a a.
Proof. intros; exists []; rewrite app_nil_r; reflexivity. Qed.

Lemma prefix_trans : forall a b d, prefix a b -> prefix b d -> prefix a d.
Proof. intros a b d [s1 H1] [s2 H2]. exists (s1 ++ s2). subst. rewrite app_assoc. reflexivity. Qed.

Lemma prefix_length : forall p a, prefix p a -> (length p <= length a)%nat.
Proof. intros p a [s H]; subst. rewrite app_length. lia. Qed.

Lemma prefix_antisym : forall a b, prefix a b -> prefix b a -> a = b.
Proof.
  intros a b [s1 H1] [s2 H2]. subst b.
  rewrite <- app_assoc in H2. rewrite <- (app_nil_r a) in H2 at 1.
  apply app_inv_head in H2. symmetry in H2. apply app_eq_nil in H2 as [-> _].
  rewrite app_nil_r; reflexivity.
Qed.

Lemma prefix_comparable : forall p q a, prefix p a -> prefix q a -> prefix p q \/ prefix q p.
Proof.
  induction p as [|x p IH]; intros q a Hp Hq.
  - left. exists q; reflexivity.
  - destruct q as [|y q]; [right; exists (x :: p); reflexivity|].
    destruct Hp as [s1 H1], Hq as [s2 H2]. subst a. cbn in H2. injection H2 as <- H2.
    destruct (IH q (p ++ s1)) as [[s Hs]|[s Hs]].
    + exists s1; reflexivity.
    + exists s2; auto.
    + left. exists s. subst; reflexivity.
    + right. exists s. subst; reflexivity.
Qed.

Lemma prefix_kcmp_le : forall p a, prefix p a -> kcmp p a <> Gt.
Proof. intros p a [s H]; subst. apply kcmp_app_r. Qed.

Lemma prefix_kcmp_lt : forall p a, prefix p a -> p <> a -> kcmp p a = Lt.
Proof.
  intros p a [s H] Hne; subst. apply kcmp_app_lt. intros ->. rewrite app_nil_r in Hne. congruence.
Qed.

Lemma prefix_convex : forall p a b d,
    prefix p a -> prefix p d -> kcmp a b <> Gt -> kcmp b d <> Gt -> prefix p b.
Proof. intros p a b d [s1 H1] [s2 H2] Hab Hbd. subst. eapply kcmp_convex; eauto. Qed.

Lemma prefix_past : forall p b d, kcmp p b = Lt -> ~ prefix p b -> kcmp b d <> Gt -> ~ prefix p d.
Proof.
  intros p b d H1 H2 H3 [s Hs].
  eapply (kcmp_past_subtree p b d H1); eauto. intros s' Hb. apply H2. exists s'; auto.
Qed.

Lemma fc_nil_l : forall (lb : label) rb, zlen (@nil label) - zlen (lb :: rb) <? 0 = true.
Proof. intros. rewrite zlen_cons. pose proof (zlen_nonneg rb). unfold zlen at 1; cbn [length]. apply Z.ltb_lt. lia. Qed.

Lemma fc_nil_r : forall (la : label) ra,
    (zlen (la :: ra) - zlen (@nil label) <? 0 = false) /\ (zlen (la :: ra) - zlen (@nil label) >? 0 = true).
Proof.
  intros. rewrite zlen_cons. pose proof (zlen_nonneg ra). unfold zlen at 2 4; cbn [length].
  split; [apply Z.ltb_ge | apply Z.gtb_lt]; lia.
Qed.

Lemma fc_cons : forall (la lb : label) ra rb, zlen (la :: ra) - zlen (lb :: rb) = zlen ra - zlen rb.
Proof. intros. rewrite !zlen_cons. lia. Qed.

Lemma prefix_cons : forall (x : label) p a, prefix (x :: p) (x :: a) <-> prefix p a.
Proof.
  intros. split; intros [s H]; exists s.
  - cbn in H. inversion H. auto.
  - cbn. rewrite H. reflexivity.
Qed.

(* the order, the "at or beneath" relation and equality that fc_loop computes *)
Lemma fc_loop_spec : forall ra rb nl,
    let r := fst (fc_loop ra rb (zlen ra - zlen rb) nl) in
    (snd r ?= 0) = kcmp (map lower_l ra) (map lower_l rb) /\
    (((fst r =? rSUB) || (fst r =? rEQUAL)) = true <-> prefix (map lower_l rb) (map lower_l ra)) /\
    ((fst r =? rEQUAL) = true <-> map lower_l ra = map lower_l rb).
Proof.
  unfold kcmp.
  induction ra as [|la ra IH]; intros [|lb rb] nl; cbn [fc_loop map lexc].
  - split; [reflexivity|]. split; split; intros _; try reflexivity. apply prefix_refl.
  - rewrite fc_nil_l. cbn. split; [reflexivity|]. split; (split; [discriminate|]); [intros [s H]|]; discriminate.
  - destruct (fc_nil_r la ra) as [-> ->]. cbn. split; [reflexivity|]. split; split; try discriminate; auto.
    intros _. eexists. reflexivity.
  - destruct (cmp_bytes (lower_l la) (lower_l lb)) eqn:E.
    1: { apply cmp_bytes_eq in E. rewrite E, fc_cons, prefix_cons.
         destruct (IH rb (nl + 1)) as (I1 & I2 & I3). split; [exact I1|]. split; [exact I2|].
         rewrite I3. split; [congruence|]. intros H; inversion H; auto. }
    (* the first labels differ: the order is theirs, and neither name is at or beneath the other *)
    all: assert (lower_l la <> lower_l lb) by (intros Heq; apply cmp_bytes_eq in Heq; congruence);
      split; [reflexivity|]; split; (split; [destruct (nl >? 0); discriminate|]); [intros [s Hs]|intros Hs]; inversion Hs; congruence.
Qed.

(* the number of leading labels two keys share *)
Fixpoint lcp (a b : key) : Z :=
  match a, b with
  | x :: a', y :: b' => match cmp_bytes x y with Eq => 1 + lcp a' b' | _ => 0 end
  | _, _ => 0
  end.

Lemma fc_loop_common : forall ra rb ld nl,
    snd (fc_loop ra rb ld nl) = nl + lcp (map lower_l ra) (map lower_l rb).
Proof.
  induction ra as [|la ra IH]; intros rb ld nl.
  - destruct rb; cbn [fc_loop map lcp]; destruct (ld <? 0); try destruct (ld >? 0); cbn; lia.
  - destruct rb as [|lb rb]; cbn [fc_loop map lcp].
    + destruct (ld <? 0); try destruct (ld >? 0); cbn; lia.
    + destruct (cmp_bytes (lower_l la) (lower_l lb)) eqn:E; cbn; try lia.
      rewrite IH. lia.
Qed.

Lemma zlen_rev : forall {A} (l : list A), zlen (rev l) = zlen l.
Proof. intros. unfold zlen. rewrite rev_length. reflexivity. Qed.

Lemma lkey_rev : forall n, map lower_l (rev n) = lkey n.
Proof. intros. unfold lkey. rewrite map_rev. reflexivity. Qed.

(* names of different relativity are unrelated; relative ones sort first *)
Lemma fullcompare_spec : forall a b,
    (order a b ?= 0) = kcmp (ekey a) (ekey b) /\
    (is_subdomain a b = true <-> prefix (ekey b) (ekey a)) /\
    ((reln a b =? rEQUAL) = true <-> ekey a = ekey b).
Proof.
  intros a b. unfold order, is_subdomain, reln, fullcompare, ekey.
  rewrite <- (zlen_rev a), <- (zlen_rev b), <- !lkey_rev.
  destruct (fc_loop_spec (rev a) (rev b) 0) as (H1 & H2 & H3).
  destruct (is_absolute a), (is_absolute b); cbn [Bool.eqb negb fst snd].
  2,3: split; [reflexivity|]; split; (split; [discriminate|]); [intros [s H]|]; discriminate.
  all: split; [exact H1|]; split; [exact (iff_trans H2 (iff_sym (prefix_cons _ _ _)))|];
    apply (iff_trans H3); split; [intros E; f_equal; exact E|]; intros H; injection H as H; exact H.
Qed.

Lemma order_kcmp : forall a b, (order a b ?= 0) = kcmp (ekey a) (ekey b).
Proof. intros. apply fullcompare_spec. Qed.

Lemma is_subdomain_prefix : forall a b, is_subdomain a b = true <-> prefix (ekey b) (ekey a).
Proof. intros. apply fullcompare_spec. Qed.

Lemma reln_equal_ekey : forall a b, (reln a b =? rEQUAL) = true <-> ekey a = ekey b.
Proof. intros. apply fullcompare_spec. Qed.

Lemma name_eqb_ekey : forall a b, name_eqb a b = true <-> ekey a = ekey b.
Proof.
  intros a b. unfold name_eqb. rewrite Z.eqb_eq, <- Z.compare_eq_iff, order_kcmp. apply kcmp_eq.
Qed.

Lemma false_iff : forall (b : bool) (P : Prop), (b = true <-> P) -> (b = false <-> ~ P).
Proof. intros b P H. rewrite <- H. destruct b; split; congruence. Qed.

Lemma name_eqb_false_ekey : forall a b, name_eqb a b = false <-> ekey a <> ekey b.
Proof. intros. apply false_iff, name_eqb_ekey. Qed.

Lemma name_eqb_ext : forall a a' b b', ekey a = ekey a' -> ekey b = ekey b' -> name_eqb a b = name_eqb a' b'.
Proof. intros a a' b b' E1 E2. apply Bool.eq_true_iff_eq. rewrite !name_eqb_ekey, E1, E2. reflexivity. Qed.

Lemma order_lt_kcmp : forall a b, (order a b <? 0) = true <-> kcmp (ekey a) (ekey b) = Lt.
Proof. intros. rewrite <- order_kcmp, Z.ltb_lt, Z.compare_lt_iff. reflexivity. Qed.

Lemma order_le_kcmp : forall a b, (order a b <=? 0) = true <-> kcmp (ekey a) (ekey b) <> Gt.
Proof. intros. rewrite <- order_kcmp, Z.leb_le, Z.compare_le_iff. reflexivity. Qed.

Lemma order_eq_kcmp : forall a b, (order a b =? 0) = true <-> kcmp (ekey a) (ekey b) = Eq.
Proof. intros. rewrite <- order_kcmp, Z.eqb_eq, Z.compare_eq_iff. reflexivity. Qed.

Lemma order_gt_kcmp : forall a b, 0 < order a b <-> kcmp (ekey b) (ekey a) = Lt.
Proof. intros. rewrite <- kcmp_gt_lt, <- order_kcmp, Z.compare_gt_iff. reflexivity. Qed.

Lemma common_lcp : forall a b,
    common a b = if Bool.eqb (is_absolute a) (is_absolute b) then lcp (lkey a) (lkey b) else 0.
Proof.
  intros a b. unfold common, fullcompare.
  destruct (is_absolute a) eqn:Ea; destruct (is_absolute b) eqn:Eb; cbn [Bool.eqb negb fst snd]; auto.
  - rewrite fc_loop_common, !lkey_rev. lia.
  - rewrite fc_loop_common, !lkey_rev. lia.
Qed.

#[global] Arguments ekey : simpl never.
#[global] Arguments kcmp : simpl never.
#[global] Arguments lkey : simpl never.
