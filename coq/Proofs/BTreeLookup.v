(* C19 - lookup (get = find_sorted on the traversal); `wf`, the invariant the statements of
   Props/C19.v are written with (3 <= t, the shape predicate wfr of BTreeInsert for some height, keys
   sorted), and wf_b_iff: the executable check BTreeM.wf_b decides it. *)
From DV Require Import Base.Prelude Model.BTreeM Proofs.BTreeBase Proofs.BTreeWf Proofs.BTreeInsert.

Section LOOKUP.
Variable t : nat.
Hypothesis Ht : (3 <= t)%nat.
Notation wfn := (wfn t).

Lemma get_spec k : forall fuel h, (h <= fuel)%nat -> forall lo n,
  wfn lo h n -> ksorted (elements n) -> get fuel n k = Ok (find_sorted k (elements n)).
Proof.
  induction fuel as [|f IH]; intros h Hf lo n Hw Hs.
  { pose proof (wfn_pos t Ht _ _ _ Hw). lia. }
  destruct (key_view_of t Ht k lo h n Hw Hs)
    as [h lf ea v eb ks A B Hsr HA HB Hel _|ea eb Hsr Hlt Hgt|h ea eb ka c kb Hsr _ _ H1 H2 Hc Hcs HA HB];
    cbn [get]; rewrite Hsr; cbn [bind].
  - rewrite split_at_app by reflexivity. cbn [bind]. now rewrite Hel, find_sorted_at.
  - cbn [elements]. now rewrite (find_sorted_in_mid ea [] eb).
  - rewrite split_at_app by assumption. cbn [bind]. rewrite (IH h) with (lo := t_min t); [|lia|assumption..].
    now rewrite elements_split, find_sorted_in_mid.
Qed.

Lemma wf_node_iff : forall h isroot n,
  wf_node t h isroot n = true <-> wfn (if isroot then root_lo n else t_min t) h n.
Proof.
  assert (Hpos : (1 <= t_min t)%nat) by (unfold t_min; lia).
  induction h as [|h IH]; intros isroot [lf es ks]; cbn [wf_node].
  { rewrite andb_false_r. split; [discriminate|inversion 1]. }
  unfold root_lo. cbn [n_leaf]. rewrite !andb_true_iff, orb_true_iff, !Nat.leb_le. destruct lf.
  - rewrite andb_true_iff, Nat.eqb_eq. split.
    + intros ((H1 & H2) & -> & Hk). destruct ks; [|discriminate]. constructor.
      destruct isroot, H2; try discriminate; lia.
    + intros ([= ->] & -> & Hb)%wfn_leaf_inv. destruct isroot; repeat split; lia.
  - rewrite !andb_true_iff, negb_true_iff, Nat.eqb_neq, Nat.eqb_eq, Nat.leb_le, forallb_forall. split.
    + intros ((H1 & H2) & ((Hh & H1') & Hk) & Hall). constructor; [|assumption|].
      * destruct isroot, H2; try discriminate; lia.
      * apply Forall_forall. intros c Hc. now apply (IH false c), Hall.
    + intros (Hb & Hk & Hall)%wfn_node_inv. repeat split; try (destruct isroot; lia).
      * destruct ks as [|c ks]; [discriminate|]. apply Forall_inv, (wfn_pos t Ht) in Hall. lia.
      * intros c Hc. apply (IH false c). rewrite Forall_forall in Hall. now apply Hall.
Qed.

End LOOKUP.

(* the property-level invariant: a well-formed, key-sorted B-tree with parameter t *)
Definition wf (t : nat) (n : tree) : Prop :=
  (3 <= t)%nat /\ (exists h, wfr t h n) /\ ksorted (elements n).

Theorem wf_b_iff t n : wf_b t n = true <-> wf t n.
Proof.
  unfold wf_b, wf. rewrite !andb_true_iff, Nat.leb_le, sorted_keys_iff. split.
  - intros ((Ht & Hn) & Hs). repeat split; try assumption. exists (depth n).
    now apply (wf_node_iff t Ht (depth n) true n).
  - intros (Ht & (h & Hw) & Hs). repeat split; try assumption.
    unfold wfr in Hw. rewrite (wfn_depth t _ _ _ Hw). now apply (wf_node_iff t Ht h true n).
Qed.
