(* C20: the derived state is a function of the content - two histories (e.g. two load orders)
   that end with the same names and rdatasets end with the same flags and the same index. *)
From DV Require Import Base.Prelude Model.NameM Model.BTZoneM
     Proofs.BTZoneOrder Proofs.BTZoneList Proofs.BTZoneSpec Proofs.BTZoneInv Proofs.BTZoneMain.
Open Scope Z_scope.

(* same names (up to case) carrying the same rdataset lists, position by position *)
Definition same_content (l1 l2 : nodes_t) : Prop :=
  Forall2 (fun e1 e2 => K (fst e1) = K (fst e2) /\ nrds (snd e1) = nrds (snd e2)) l1 l2.

Lemma same_content_in : forall l1 l2, same_content l1 l2 ->
    forall k1 nd1, In (k1, nd1) l1 -> exists k2 nd2, In (k2, nd2) l2 /\ K k1 = K k2 /\ nrds nd1 = nrds nd2.
Proof.
  induction 1 as [|[a x] [b y] l1 l2 [E1 E2] H IH]; intros k1 nd1 Hin; [destruct Hin|].
  destruct Hin as [Hin|Hin].
  - injection Hin as <- <-. exists b, y. cbn in *. split; auto.
  - destruct (IH _ _ Hin) as (k2 & nd2 & H2 & H3). exists k2, nd2. split; [right|]; tauto.
Qed.

Lemma same_content_sym : forall l1 l2, same_content l1 l2 -> same_content l2 l1.
Proof. induction 1 as [|? ? ? ? [E1 E2]]; constructor; auto. Qed.

Lemma same_content_owner : forall c l1 l2, same_content l1 l2 -> forall k, owner c l1 k -> owner c l2 k.
Proof.
  intros c l1 l2 H k (m & nd & Hin & Hns & E).
  destruct (same_content_in _ _ H _ _ Hin) as (m2 & nd2 & Hin2 & Ek & Er).
  exists m2, nd2. rewrite <- (ns_owner_ext c m m2 nd nd2 Ek Er). repeat split; auto. congruence.
Qed.

Theorem ZInv_same_content : forall c z1 z2,
    ZInv c z1 -> ZInv c z2 -> same_content (z_nodes z1) (z_nodes z2) ->
    Forall2 (fun e1 e2 => nflags (snd e1) = nflags (snd e2)) (z_nodes z1) (z_nodes z2) /\
    map K (map fst (z_delegs z1)) = map K (map fst (z_delegs z2)).
Proof.
  intros c z1 z2 H1 H2 Hs.
  destruct (ZInv_eq_spec c z1 H1) as [F1 D1]. destruct (ZInv_eq_spec c z2 H2) as [F2 D2].
  set (l1 := z_nodes z1) in *. set (l2 := z_nodes z2) in *.
  assert (Hown : forall k, owner c l1 k <-> owner c l2 k).
  { intros k. split; apply same_content_owner; auto. apply same_content_sym; auto. }
  assert (Hocc : forall n, occluded c l1 n = occluded c l2 n) by (intros; apply occluded_owner_ext; auto).
  split.
  - assert (G : forall a b, same_content a b -> (forall e, In e a -> In e l1) -> (forall e, In e b -> In e l2) ->
                Forall2 (fun e1 e2 => nflags (snd e1) = nflags (snd e2)) a b).
    { induction 1 as [|[k1 n1] [k2 n2] a b [E1 E2] H IH]; intros Ha Hb; constructor.
      - cbn [fst snd] in *. rewrite (F1 k1 n1) by (apply Ha; left; auto). rewrite (F2 k2 n2) by (apply Hb; left; auto).
        rewrite !flags_of_eq. rewrite (is_apex_ext c k1 k2), (occluded_ext c l1 k1 k2), Hocc by auto.
        unfold has_ns. rewrite E2. reflexivity.
      - apply IH; intros; [apply Ha|apply Hb]; right; auto. }
    apply G; auto.
  - rewrite D1, D2. apply ksorted_unique.
    + apply delegations_of_sorted. apply (inv_sn c _ H1).
    + apply delegations_of_sorted. apply (inv_sn c _ H2).
    + intros k. rewrite !delegations_of_in, (Hown k), (occk_owner_ext c _ _ Hown k). reflexivity.
Qed.

Theorem derived_state_function_of_content_main : forall c h1 h2,
    history_ok c h1 -> history_ok c h2 ->
    same_content (z_nodes (exec c h1)) (z_nodes (exec c h2)) ->
    Forall2 (fun e1 e2 => nflags (snd e1) = nflags (snd e2)) (z_nodes (exec c h1)) (z_nodes (exec c h2)) /\
    map K (map fst (z_delegs (exec c h1))) = map K (map fst (z_delegs (exec c h2))).
Proof. intros c h1 h2 H1 H2. apply (ZInv_same_content c); apply exec_inv; assumption. Qed.
