(* Properties of the sequence of queries issued by one resolution:
   - a server that was taken out of the mix is never asked again (whole resolution),
   - a truncated UDP reply is followed by exactly one TCP query to the same server for the same name,
   - list.remove / the assertions of next_nameserver never fail. *)
From DV Require Import Base.Prelude Model.NameM Model.ResolM Proofs.ResolBase Proofs.ResolTerm.
Open Scope Z_scope.

Definition ids (l : list server) : list Z := map sv_id l.

Lemma remove_server_ids : forall x l l',
  remove_server x l = Some l' ->
  (forall i, In i (ids l) <-> i = sv_id x \/ In i (ids l')) /\
  (NoDup (ids l) -> NoDup (ids l') /\ ~ In (sv_id x) (ids l')).
Proof.
  intros x l l' H. apply remove_server_split in H. destruct H as (a & y & b & -> & -> & <-).
  unfold ids. rewrite !map_app. simpl. split.
  - intros i. rewrite !in_app_iff. simpl. intuition congruence.
  - apply NoDup_remove.
Qed.

Lemma remove_server_some : forall x l, In (sv_id x) (ids l) -> remove_server x l <> None.
Proof.
  induction l as [|y r IH]; intros H; simpl in *; [tauto|].
  destruct (Z.eqb_spec (sv_id y) (sv_id x)) as [E|E]; [discriminate|].
  destruct H as [H|H]; [congruence|]. destruct (remove_server x r); [discriminate|]. exact (IH H).
Qed.

Lemma FOP_snoc : forall {A} (R : A -> A -> Prop) l x,
  ForallOrdPairs R l -> Forall (fun a => R a x) l -> ForallOrdPairs R (l ++ [x]).
Proof.
  intros A R l x H. induction H as [|a l Ha Hl IH]; intros HF; simpl.
  - constructor; constructor.
  - inversion HF; subst. constructor; auto.
    apply Forall_app. split; auto.
Qed.

Lemma FOP_impl : forall {A} (R S : A -> A -> Prop) l,
  (forall a b, R a b -> S a b) -> ForallOrdPairs R l -> ForallOrdPairs S l.
Proof.
  intros A R S l H HF. induction HF as [|a l Ha Hl IH]; constructor; auto.
  eapply Forall_impl; [|exact Ha]. intros b Hb. apply H. exact Hb.
Qed.

Fixpoint adjacent {A} (R : A -> A -> Prop) (l : list A) : Prop :=
  match l with
  | a :: (b :: _) as r => R a b /\ adjacent R r
  | _ => True
  end.

Definition last_opt {A} (l : list A) : option A :=
  match rev l with [] => None | a :: _ => Some a end.

Lemma last_opt_snoc : forall {A} (l : list A) x, last_opt (l ++ [x]) = Some x.
Proof. intros. unfold last_opt. rewrite rev_app_distr. reflexivity. Qed.

Lemma last_opt_cons : forall {A} (a b : A) l, last_opt (a :: b :: l) = last_opt (b :: l).
Proof.
  intros. unfold last_opt. simpl. destruct (rev l ++ [b]) eqn:E.
  - destruct (rev l); discriminate.
  - reflexivity.
Qed.

Lemma adjacent_snoc : forall {A} (R : A -> A -> Prop) l x,
  adjacent R l -> (forall a, last_opt l = Some a -> R a x) -> adjacent R (l ++ [x]).
Proof.
  intros A R. induction l as [|a l IH]; intros x HA HL; simpl; auto.
  destruct l as [|b l].
  - simpl. split; auto.
  - simpl in HA. destruct HA as [HR HA]. simpl. split; auto.
    apply IH; auto. intros a0 H0. apply HL. rewrite last_opt_cons. exact H0.
Qed.

(* a truncated UDP reply does not cost the server its place *)
Lemma trunc_udp_kept : forall c tcp r, is_trunc r && negb tcp = true -> drops c tcp r = false.
Proof.
  intros c tcp [k|m] H; simpl in *; [|discriminate].
  destruct (exn_of_class k); try discriminate. destruct tcp; [discriminate|reflexivity].
Qed.

Section Trace.
Variables (sc : nat -> outcome) (c : cfg) (start : Z).

Definition ev_drops (ev : event) : bool := drops c (ev_tcp ev) (ev_obs ev).
Definition ev_trunc_udp (ev : event) : bool := is_trunc (ev_obs ev) && negb (ev_tcp ev).

Definition never_reasked (tr : list event) : Prop :=
  ForallOrdPairs (fun a b => ev_drops a = true -> ev_server b <> ev_server a) tr.

Definition BInv (new : list event) (s : st) (e : env) : Prop :=
  s_have_request s = true /\
  NoDup (ids (s_nameservers s)) /\ NoDup (ids (s_current s)) /\
  incl (ids (s_current s)) (ids (s_nameservers s)) /\
  (forall ns, s_nameserver s = Some ns -> ~ In (sv_id ns) (ids (s_current s))) /\
  (s_retry_with_tcp s = true -> exists ns, s_nameserver s = Some ns /\
     In (sv_id ns) (ids (s_nameservers s)) /\ sv_maxsize ns = false) /\
  (forall ev, In ev new -> ev_drops ev = true -> ~ In (ev_server ev) (ids (s_nameservers s))) /\
  never_reasked new.

Definition BFin (new : list event) (f : final) (s' : st) (e' : env) : Prop :=
  never_reasked new /\ forall k, f <> FInternal k.

(* the server chosen is alive and not in the rest of the round, so asking it is no re-asking *)
Lemma binv_choice : forall tr s e ns tcp backoff cur bo ev,
  BInv tr s e -> choice c s ns tcp backoff cur bo -> ev_server ev = sv_id ns ->
  NoDup (ids cur) /\ incl (ids cur) (ids (s_nameservers s)) /\
  ~ In (sv_id ns) (ids cur) /\ In (sv_id ns) (ids (s_nameservers s)) /\
  (tcp = false -> sv_maxsize ns = false) /\ never_reasked (tr ++ [ev]).
Proof.
  intros tr s e ns tcp backoff cur0 bo ev (B0 & B1 & B2 & B3 & B4 & B5 & B6 & B7) HC HS.
  assert (HT : c_tcp c || sv_maxsize ns = false -> sv_maxsize ns = false).
  { intros HT. apply orb_false_iff in HT. tauto. }
  assert (H : NoDup (ids cur0) /\ incl (ids cur0) (ids (s_nameservers s)) /\
              ~ In (sv_id ns) (ids cur0) /\ In (sv_id ns) (ids (s_nameservers s)) /\
              (tcp = false -> sv_maxsize ns = false)).
  { destruct HC as [R1 R2 R3|cur R1 R2|cur R1 R2 R3].
    - destruct (B5 R1) as (n1 & E1 & X & _). assert (n1 = ns) by congruence. subst n1.
      repeat split; auto.
    - rewrite R2 in B2, B3. simpl in B2, B3. inversion B2; subst.
      repeat split; auto. + intros i Hi. apply B3. right. exact Hi. + apply B3. left. reflexivity.
    - rewrite R3 in *. simpl in B1. inversion B1; subst.
      repeat split; auto. + intros i Hi. right. exact Hi. + left. reflexivity. }
  destruct H as (C1 & C2 & C3 & C4 & C5). repeat split; auto.
  apply FOP_snoc; [exact B7|]. apply Forall_forall. intros a Ha Hd HX.
  apply (B6 a Ha Hd). rewrite <- HX, HS. exact C4.
Qed.

Lemma binv_step : forall tr s e s1 ns ev s',
  BInv tr s e -> asked sc c start s e s1 ns ev -> continues c s1 ev s' -> BInv (tr ++ [ev]) s' (after_query e ev).
Proof.
  intros tr s e s1 ns ev s' HB (tcp & backoff & cur & bo & T & ob & clock2 & -> & -> & HCh & _) HC.
  destruct (binv_choice _ _ _ _ _ _ _ _ (mk_event s e ns tcp backoff bo T ob clock2) HB HCh eq_refl)
    as (C1 & C2 & C3 & C4 & C5 & C6).
  destruct HB as (B0 & B1 & _ & _ & _ & _ & B6 & _).
  assert (B6' : forall nss, incl (ids nss) (ids (s_nameservers s)) ->
                  (drops c tcp ob = true -> ~ In (sv_id ns) (ids nss)) ->
                  forall a, In a (tr ++ [mk_event s e ns tcp backoff bo T ob clock2]) -> ev_drops a = true ->
                  ~ In (ev_server a) (ids nss)).
  { intros nss Hi He a Ha Hd. apply in_app_or in Ha. destruct Ha as [Ha|[<-|[]]]; [|exact (He Hd)].
    intros HI. exact (B6 a Ha Hd (Hi _ HI)). }
  destruct (continues_cases c _ ns _ _ HC eq_refl)
    as [(_ & _ & _ & nss & errs & -> & HD)|(Hnx & sk & q & rest & s0 & _ & -> & F1 & F2)]; simpl in *.
  - split; [exact B0|].
    destruct (drops c tcp ob) eqn:ED.
    + destruct (remove_server_ids _ _ _ HD) as (A1 & A2). destruct (A2 B1) as (A3 & A4).
      assert (HT : is_trunc ob && negb tcp = false).
      { destruct (is_trunc ob && negb tcp) eqn:ET; [|reflexivity]. apply (trunc_udp_kept c) in ET. congruence. }
      rewrite HT. repeat split; auto; try discriminate.
      * intros i Hi. destruct (proj1 (A1 i) (C2 i Hi)); [subst i; tauto|assumption].
      * intros n0 E. injection E as <-. exact C3.
      * apply B6'; [|auto]. intros i Hi. apply A1. auto.
    + subst nss. repeat split; auto.
      * intros n0 E. injection E as <-. exact C3.
      * intros Hr. exists ns. repeat split; auto. apply C5.
        apply andb_true_iff in Hr. destruct Hr as [_ Hr]. apply negb_true_iff in Hr. exact Hr.
      * apply B6'; [apply incl_refl|discriminate].
  - unfold BInv. simpl. rewrite F1, B0, F2.
    repeat split; auto; try discriminate. + apply incl_refl.
    + apply B6'; [apply incl_refl|]. rewrite (proj2 (proj2 (proj2 (nx_accepts_only c tcp _ Hnx)))). discriminate.
Qed.

Lemma binv_stop : forall tr s e f s' e', BInv tr s e -> gives_up c start s e f s' e' -> BFin tr f s' e'.
Proof.
  intros tr s e f s' e' (_ & _ & _ & _ & _ & B5 & _ & B7) G. split; [exact B7|].
  destruct G as [k R1 R2| |]; try discriminate.
  destruct (B5 R1) as (n & E & _ & E2). rewrite (R2 n E) in E2. discriminate.
Qed.

Lemma binv_end : forall tr s e s1 ns ev f s',
  BInv tr s e -> asked sc c start s e s1 ns ev -> ends c s1 ev f s' -> BFin (tr ++ [ev]) f s' (after_query e ev).
Proof.
  intros tr s e s1 ns ev f s' HB (tcp & backoff & cur & bo & T & ob & clock2 & -> & -> & HCh & _) HE.
  destruct (binv_choice _ _ _ _ _ _ _ _ (mk_event s e ns tcp backoff bo T ob clock2) HB HCh eq_refl)
    as (_ & _ & _ & C4 & _ & C6).
  split; [exact C6|]. intros k.
  destruct HE as [| | |k' HQ|s2 r f s' _ _ E]; try discriminate.
  - pose proof (query_result_spec c (serving s ns tcp cur bo) clock2 (Z.of_nat (e_pos e)) ob ns eq_refl) as Q.
    unfold result_of in HQ. simpl in HQ. rewrite HQ in Q. destruct (remove_server_some _ _ C4 Q).
  - destruct r; inversion E; discriminate.
Qed.

Definition tc_retry_rel (a b : event) : Prop :=
  ev_trunc_udp a = true ->
  ev_server b = ev_server a /\ ev_tcp b = true /\ ev_backoff b = 0 /\ ev_qname b = ev_qname a.

(* after a truncated UDP reply the retry is pending, for a server that is not always-TCP, and the
   lifetime is not over: the retry, which does not sleep, will be sent *)
Definition TCInv (new : list event) (s : st) (e : env) : Prop :=
  adjacent tc_retry_rel new /\
  forall a, last_opt new = Some a -> ev_trunc_udp a = true ->
    s_retry_with_tcp s = true /\
    (exists ns, s_nameserver s = Some ns /\ sv_id ns = ev_server a /\ sv_maxsize ns = false) /\
    s_qname s = ev_qname a /\ start <= e_clock e /\ e_clock e - start < c_lifetime c.

Definition TCFin (new : list event) (f : final) (s' : st) (e' : env) : Prop :=
  adjacent tc_retry_rel new /\
  forall a, last_opt new = Some a -> ev_trunc_udp a = true -> exists k, f = FInternal k.

Lemma observe_trunc : forall o T clock q ob clock2,
  observe o T clock q = (ob, clock2) -> is_trunc ob = true -> clock2 = clock + o_dur o /\ o_dur o < T.
Proof.
  intros o T clock q ob clock2 H HT. unfold observe in H.
  destruct (is_timeout_reply (o_reply o) || (o_dur o >=? T)) eqn:E.
  - inversion H; subst. simpl in HT. discriminate.
  - inversion H; subst. apply orb_false_iff in E. destruct E as [_ E]. split; auto. lia.
Qed.

Lemma tcinv_event : forall tr s e ns tcp backoff cur bo T ob clock2,
  TCInv tr s e -> choice c s ns tcp backoff cur bo ->
  adjacent tc_retry_rel (tr ++ [mk_event s e ns tcp backoff bo T ob clock2]).
Proof.
  intros tr s e ns tcp backoff cur0 bo T ob clock2 (HA & HL) HC.
  apply adjacent_snoc; [exact HA|]. intros a La Ta.
  destruct (HL a La Ta) as (R & (n1 & E1 & E2 & _) & Q & _).
  destruct HC as [_ R2 _|cur R1 _|cur R1 _ _]; [|congruence..].
  assert (n1 = ns) by congruence. subst n1. simpl. auto.
Qed.

Hypothesis Hdur : forall i, 0 <= o_dur (sc i).

Lemma tcinv_step : forall tr s e s1 ns ev s',
  TInv c start s e -> TCInv tr s e -> asked sc c start s e s1 ns ev -> continues c s1 ev s' ->
  TCInv (tr ++ [ev]) s' (after_query e ev).
Proof.
  intros tr s e s1 ns ev s' HT HI HA HC.
  destruct (asked_times sc c start Hdur _ _ _ _ _ HA HT) as ((T1 & T2 & T3) & T4 & _).
  destruct HT as (_ & _ & _ & I4 & _).
  destruct HA as (tcp & backoff & cur & bo & T & ob & clock2 & -> & -> & HCh & _ & HO).
  split; [eapply tcinv_event; eassumption|].
  intros a La Ta. rewrite last_opt_snoc in La. injection La as <-.
  pose proof Ta as Ta'. apply andb_true_iff in Ta'. destruct Ta' as [Ta1 Ta2]. apply negb_true_iff in Ta2.
  simpl in *. destruct (observe_trunc _ _ _ _ _ _ HO Ta1) as (O3 & O4).
  destruct (continues_cases c _ ns _ _ HC eq_refl) as [(_ & _ & _ & nss & errs & -> & _)|(Hnx & _)]; simpl in *.
  - split; [exact Ta|].
    split; [|split; [reflexivity|lia]].
    exists ns. repeat split. clear - HCh Ta2. revert Ta2.
    destruct HCh; intros Ta2; [discriminate|apply orb_false_iff in Ta2; tauto..].
  - destruct (nx_accepts_only c tcp _ Hnx) as (_ & _ & N & _). congruence.
Qed.

Lemma tcinv_stop : forall tr s e f s' e', TCInv tr s e -> gives_up c start s e f s' e' -> TCFin tr f s' e'.
Proof.
  intros tr s e f s' e' (HA & HL) G. split; [exact HA|]. intros a La Ta.
  destruct (HL a La Ta) as (R & _ & _ & C1 & C2).
  destruct G as [k _ _|R1 _ _|ns tcp backoff cur bo d HC HT]; [eauto|congruence|].
  destruct HC; [|congruence..]. destruct (compute_timeout_inr _ _ _ _ _ HT); lia.
Qed.

Lemma tcinv_end : forall tr s e s1 ns ev f s',
  TCInv tr s e -> asked sc c start s e s1 ns ev -> ends c s1 ev f s' -> TCFin (tr ++ [ev]) f s' (after_query e ev).
Proof.
  intros tr s e s1 ns ev f s' HI (tcp & backoff & cur & bo & T & ob & clock2 & -> & -> & HCh & _) HE.
  split; [eapply tcinv_event; eassumption|].
  intros a La Ta. rewrite last_opt_snoc in La. injection La as <-.
  apply andb_true_iff in Ta. destruct Ta as [Ta _]. simpl in Ta.
  pose proof (query_result_spec c (serving s ns tcp cur bo) clock2 (Z.of_nat (e_pos e)) ob ns eq_refl) as Q.
  destruct HE as [s' a HQ|s' a HQ|s' HQ|k HQ|s2 r f s' HQ _ _]; unfold result_of in HQ; simpl in HQ; rewrite HQ in Q.
  - destruct Q as ((m & -> & _) & _). discriminate.
  - destruct Q as ((m & -> & _) & _). discriminate.
  - destruct Q as (Q & _). destruct ob; discriminate.
  - eauto.
  - destruct Q as (m & _ & -> & _). discriminate.
Qed.
End Trace.
