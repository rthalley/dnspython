(* Quoted character-strings: _escapify, then Tokenizer.get and Token.unescape_to_bytes give the
   same octets back, for every octet string.  Per-octet facts (case analysis over esc_octet,
   arithmetic by lia) lifted by induction over the string.  Also here: the code-point path
   Token.unescape + encode (agrees on ASCII, codepoint_path_refuted beyond), and `qbody`, the
   shape of a quoted-string body that Tokenizer.get takes as one token. *)
From DV Require Import Base.Prelude Model.TokM Proofs.ListFacts.
Open Scope Z_scope.

(* lia for goals with / and mod by a numeral *)
Ltac dlia := Z.to_euclidean_division_equations; lia.

Lemma is_byte_range c : is_byte c = true -> 0 <= c < 256.
Proof. unfold is_byte. lia. Qed.

Lemma all_bytes_cons c s : all_bytes (c :: s) = true -> 0 <= c < 256 /\ all_bytes s = true.
Proof. intros H. apply andb_true_iff in H as [Hc Hs]. split; [apply is_byte_range, Hc|exact Hs]. Qed.

Inductive esc_shape (c : Z) : list Z -> Prop :=
| es_pair : (c = 34 \/ c = 92) -> esc_shape c [92; c]
| es_plain : 32 <= c < 127 -> c <> 34 -> c <> 92 -> esc_shape c [c]
| es_ddd d1 d2 d3 : (0 <= c < 32 \/ 127 <= c < 256) ->
    d1 = 48 + c / 100 -> d2 = 48 + (c / 10) mod 10 -> d3 = 48 + c mod 10 ->
    esc_shape c [92; d1; d2; d3].

Lemma esc_octet_shape c : 0 <= c < 256 -> esc_shape c (esc_octet c).
Proof.
  intros Hc. unfold esc_octet, q_escaped.
  destruct (c =? 34) eqn:E1; [apply es_pair; lia|].
  destruct (c =? 92) eqn:E2; [apply es_pair; lia|]. cbn [orb].
  destruct (c >=? 32) eqn:E3; destruct (c <? 127) eqn:E4; cbn [andb];
    try (apply es_plain; lia); eapply es_ddd; try reflexivity; lia.
Qed.

(* the three digits of \DDD are decimal and spell the octet *)
Lemma ddd_digits c : 0 <= c < 256 ->
  is_decimal (48 + c / 100) = true /\ is_decimal (48 + (c / 10) mod 10) = true /\ is_decimal (48 + c mod 10) = true /\
  (48 + c / 100 - 48) * 100 + (48 + (c / 10) mod 10 - 48) * 10 + (48 + c mod 10 - 48) = c.
Proof. unfold is_decimal. dlia. Qed.

Lemma ub_ddd c t acc : 0 <= c < 256 ->
  ub_loop (92 :: 48 + c / 100 :: 48 + (c / 10) mod 10 :: 48 + c mod 10 :: t) acc = ub_loop t (c :: acc).
Proof.
  intros Hc. destruct (ddd_digits c Hc) as (D1 & D2 & D3 & V). cbn [ub_loop]. change (92 =? 92) with true.
  cbv zeta. rewrite D1, D2, D3, V. replace (c >? 255) with false by lia. reflexivity.
Qed.

Lemma ub_step c t acc : 0 <= c < 256 ->
  ub_loop (esc_octet c ++ t) acc = ub_loop t (c :: acc).
Proof.
  intros Hc. destruct (esc_octet_shape c Hc) as [H|H1 H2 H3|d1 d2 d3 H -> -> ->]; [| |apply ub_ddd, Hc].
  - cbn [app ub_loop]. change (92 =? 92) with true.
    replace (is_decimal c) with false by (unfold is_decimal; lia).
    unfold utf8_cp. replace (c <? 128) with true by lia. reflexivity.
  - cbn [app ub_loop]. replace (c =? 92) with false by lia.
    unfold utf8_cp. replace (c <? 128) with true by lia. reflexivity.
Qed.

Lemma ub_escapify s : all_bytes s = true -> forall t acc,
  ub_loop (escapify s ++ t) acc = ub_loop t (rev s ++ acc).
Proof.
  induction s as [|c s IH]; intros Hs t acc; [reflexivity|]. apply all_bytes_cons in Hs as [Hc Hs].
  unfold escapify in *. cbn [flat_map rev]. rewrite <- !app_assoc, ub_step, IH by assumption. reflexivity.
Qed.

Theorem unescape_to_bytes_escapify s : all_bytes s = true ->
  ub_loop (escapify s) [] = Ok s.
Proof.
  intros Hs. rewrite <- (app_nil_r (escapify s)). rewrite ub_escapify by exact Hs.
  cbn [ub_loop]. rewrite app_nil_r, rev_involutive. reflexivity.
Qed.

(* Token.unescape (code points) then str.encode(): only octets < 128 come back *)
Lemma ue_step c t acc : 0 <= c < 256 ->
  ue_loop (esc_octet c ++ t) acc = ue_loop t (c :: acc).
Proof.
  intros Hc. destruct (esc_octet_shape c Hc) as [H|H1 H2 H3|d1 d2 d3 H -> -> ->].
  - cbn [app ue_loop]. change (92 =? 92) with true.
    replace (is_decimal c) with false by (unfold is_decimal; lia). reflexivity.
  - cbn [app ue_loop]. replace (c =? 92) with false by lia. reflexivity.
  - destruct (ddd_digits c Hc) as (D1 & D2 & D3 & V). cbn [app ue_loop]. change (92 =? 92) with true.
    cbv zeta. rewrite D1, D2, D3, V. replace (c >? 255) with false by lia. reflexivity.
Qed.

Lemma ue_escapify s : all_bytes s = true -> forall t acc,
  ue_loop (escapify s ++ t) acc = ue_loop t (rev s ++ acc).
Proof.
  induction s as [|c s IH]; intros Hs t acc; [reflexivity|]. apply all_bytes_cons in Hs as [Hc Hs].
  unfold escapify in *. cbn [flat_map rev]. rewrite <- !app_assoc, ue_step, IH by assumption. reflexivity.
Qed.

Lemma unescape_escapify s : all_bytes s = true -> ue_loop (escapify s) [] = Ok s.
Proof.
  intros Hs. rewrite <- (app_nil_r (escapify s)). rewrite ue_escapify by exact Hs.
  cbn [ue_loop]. rewrite app_nil_r, rev_involutive. reflexivity.
Qed.

Definition all_ascii (s : list Z) : bool := forallb (fun c => (0 <=? c) && (c <? 128)) s.

Lemma utf8_ascii s : all_ascii s = true -> utf8_encode s = Ok s.
Proof.
  induction s as [|c s IH]; intros H; [reflexivity|].
  cbn [all_ascii forallb] in H. apply andb_true_iff in H as [Hc Hs].
  cbn [utf8_encode]. unfold utf8_cp. replace (c <? 128) with true by lia.
  cbn [bind]. rewrite IH by exact Hs. reflexivity.
Qed.

(* get_string-style reading (unescape, then encode) of an escapified ASCII string *)
Theorem codepoint_path_ascii s : all_ascii s = true ->
  (do u <- ue_loop (escapify s) []; utf8_encode u) = Ok s.
Proof.
  intros H. assert (Hb : all_bytes s = true).
  { unfold all_bytes, all_ascii in *. rewrite forallb_forall in *. intros x Hx.
    specialize (H x Hx). unfold is_byte. lia. }
  rewrite unescape_escapify by exact Hb. cbn [bind]. apply utf8_ascii, H.
Qed.

(* ... and it is wrong for every octet >= 128: the witness of the HINFO-like asymmetry *)
Theorem codepoint_path_refuted :
  exists s, all_bytes s = true /\ (do u <- ue_loop (escapify s) []; utf8_encode u) <> Ok s.
Proof. exists [200]. split; [reflexivity|]. vm_compute. discriminate. Qed.

(* what may stand there: plain characters and backslash pairs *)
Inductive qbody : list Z -> Prop :=
| qb_nil : qbody []
| qb_plain c w : c <> 34 -> c <> 10 -> c <> 92 -> qbody w -> qbody (c :: w)
| qb_pair c w : qbody w -> qbody (92 :: c :: w).

Lemma qbody_app a b : qbody a -> qbody b -> qbody (a ++ b).
Proof. induction 1; intros Hb; cbn [app]; [exact Hb|apply qb_plain; auto|apply qb_pair; auto]. Qed.

Lemma esc_octet_qbody c : 0 <= c < 256 -> qbody (esc_octet c).
Proof.
  intros Hc. destruct (esc_octet_shape c Hc) as [H|H1 H2 H3|d1 d2 d3 H -> -> ->].
  - apply qb_pair. constructor.
  - apply qb_plain; [lia|lia|lia|constructor].
  - apply qb_pair. apply qb_plain; [dlia|dlia|dlia|]. apply qb_plain; [dlia|dlia|dlia|constructor].
Qed.

Lemma escapify_qbody s : all_bytes s = true -> qbody (escapify s).
Proof.
  induction s as [|c s IH]; intros Hs; [constructor|]. apply all_bytes_cons in Hs as [Hc Hs].
  apply qbody_app; [apply esc_octet_qbody, Hc|apply IH, Hs].
Qed.

(* inside quotes: one loop iteration per plain character, one per backslash pair *)
Lemma gl_plain f wc c r ml tok he :
  c <> 34 -> c <> 10 -> c <> 92 ->
  get_loop (S f) wc (c :: r) ml true tok tQUOTED he = get_loop f wc r ml true (c :: tok) tQUOTED he.
Proof.
  intros H1 H2 H3. cbn [get_loop is_delim].
  replace (c =? 34) with false by lia. replace (c =? 10) with false by lia.
  replace (c =? 92) with false by lia. cbn [andb]. reflexivity.
Qed.

Lemma gl_pair f wc c r ml tok he :
  get_loop (S f) wc (92 :: c :: r) ml true tok tQUOTED he
  = get_loop f wc r ml true (c :: 92 :: tok) tQUOTED true.
Proof. cbn [get_loop is_delim]. change (92 =? 34) with false. cbn [andb negb]. rewrite andb_false_r. reflexivity. Qed.

Lemma gl_qbody b : qbody b -> forall f wc r ml tok he,
  exists f' he', (f <= f')%nat /\
    get_loop (length b + f) wc (b ++ r) ml true tok tQUOTED he
    = get_loop f' wc r ml true (rev b ++ tok) tQUOTED he'.
Proof.
  induction 1 as [|c w H1 H2 H3 Hw IH|c w Hw IH]; intros f wc r ml tok he.
  - exists f, he. split; [lia|reflexivity].
  - cbn [length app Nat.add]. rewrite gl_plain by assumption.
    destruct (IH f wc r ml (c :: tok) he) as (f' & he' & Hf & E). rewrite E.
    exists f', he'. split; [exact Hf|]. cbn [rev]. rewrite <- app_assoc. reflexivity.
  - cbn [length app Nat.add]. rewrite gl_pair.
    replace (S (length w + f)) with (length w + S f)%nat by lia.
    destruct (IH (S f) wc r ml (c :: 92 :: tok) true) as (f' & he' & Hf & E). rewrite E.
    exists f', he'. split; [lia|]. cbn [rev]. rewrite <- !app_assoc. reflexivity.
Qed.

(* closing quote seen with a quoted token in progress: the token ends, the quote is pushed back *)
Lemma gl_close f wc r ml tok he :
  get_loop (S f) wc (34 :: r) ml true tok tQUOTED he
  = Ok (mkTok tQUOTED (rev tok) he None, (34 :: r, ml, true)).
Proof. cbn [get_loop is_delim]. unfold finish. change (34 =? 34) with true. cbn. rewrite andb_false_r. reflexivity. Qed.

(* the body of a quoted string up to and including the token *)
Lemma gl_quoted_body b : qbody b -> forall f wc r ml,
  exists he,
    get_loop (length b + S f) wc (b ++ 34 :: r) ml true [] tQUOTED false
    = Ok (mkTok tQUOTED b he None, (34 :: r, ml, true)).
Proof.
  intros Hb f wc r ml.
  destruct (gl_qbody b Hb (S f) wc (34 :: r) ml [] false) as (f' & he' & Hf & E).
  rewrite E. destruct f' as [|f']; [lia|]. rewrite gl_close. exists he'.
  rewrite app_nil_r, rev_involutive. reflexivity.
Qed.
