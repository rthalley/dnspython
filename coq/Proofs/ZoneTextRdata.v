(* C09: the per-record premise of zone_roundtrip (rdata_ok) holds for every record of the
   modelled field-list types whose fields are in range (names printed as stored). *)
From DV Require Import Base.Prelude Model.NameM Model.ZoneTextM.
From DV Require Import Proofs.NameValid Proofs.NameText Proofs.NameTok Proofs.NameOrder Proofs.NameRel.
From DV Require Import Proofs.ZoneTextBase Proofs.ZoneTextLex Proofs.ZoneTextRead Proofs.ZoneTextRecord Proofs.ZoneTextSweep
  Proofs.ZoneTextRoundtrip Proofs.ZoneTextNames.
Open Scope Z_scope.

Definition plain_char (c : Z) : bool := negb (is_delim c) && negb (c =? 92).
Definition plain_tok (v : list Z) : bool := negb (zlen v =? 0) && forallb plain_char v.

Lemma plain_go_clean v : forallb plain_char v = true -> id_clean_go v false = true.
Proof.
  induction v as [|c v IH]; [reflexivity|]. cbn [forallb id_clean_go]. intros H.
  apply andb_true_iff in H as [Hc Hv]. unfold plain_char in Hc. apply andb_true_iff in Hc as [H1 H2].
  apply negb_true_iff in H2. rewrite H2, H1. apply IH. exact Hv.
Qed.

Lemma plain_unescape v : forallb plain_char v = true -> tok_unescape v = Ok v.
Proof.
  induction v as [|c v IH]; [reflexivity|]. cbn [forallb tok_unescape]. intros H.
  apply andb_true_iff in H as [Hc Hv]. unfold plain_char in Hc. apply andb_true_iff in Hc as [_ H2].
  apply negb_true_iff in H2. rewrite H2, (IH Hv). reflexivity.
Qed.

(* a plain token is a clean identifier, is its own unescaped value, and is not the "\#" marker *)
Lemma plain_tok_facts v : plain_tok v = true ->
  id_clean v = true /\ tok_unescape v = Ok v /\ v <> [92; 35].
Proof.
  unfold plain_tok. intros H. apply andb_true_iff in H as [Hn Hv].
  split; [|split; [apply plain_unescape; exact Hv|intros ->; discriminate Hv]].
  destruct v as [|c v]; [discriminate|]. apply plain_go_clean. exact Hv.
Qed.

Lemma digits_plain v : all_digits v = true -> forallb plain_char v = true.
Proof.
  induction v as [|c v IH]; [reflexivity|]. unfold all_digits. cbn [forallb]. intros H.
  apply andb_true_iff in H as [Hc Hv]. rewrite (IH Hv), andb_true_r.
  unfold is_digit in Hc. apply andb_true_iff in Hc as [H1 H2]. apply Z.leb_le in H1, H2.
  unfold plain_char. rewrite (proj2 (is_delim_false c)) by lia.
  replace (c =? 92) with false by (symmetry; apply Z.eqb_neq; lia). reflexivity.
Qed.

Lemma dec_plain z : 0 <= z -> plain_tok (dec z) = true.
Proof.
  intros Hz. destruct (dec_spec z Hz) as (Ha & _ & Hne).
  unfold plain_tok. rewrite (digits_plain _ Ha), andb_true_r. destruct (dec z); [congruence|reflexivity].
Qed.

(* character-strings: _escapify then unescape_to_bytes *)
Definition is_octet (c : Z) : Prop := 0 <= c < 256.

Lemma tu_esc c r : is_digit c = false ->
  tok_unescape (92 :: c :: r) = (do t <- tok_unescape r; Ok (c :: t)).
Proof. intros H. cbn. rewrite H. reflexivity. Qed.

Lemma tu_plain c r : (c =? 92) = false -> tok_unescape (c :: r) = (do t <- tok_unescape r; Ok (c :: t)).
Proof. intros H. cbn. rewrite H. reflexivity. Qed.

Lemma tu_ddd d1 d2 d3 r : is_digit d1 = true -> is_digit d2 = true -> is_digit d3 = true ->
  tok_unescape (92 :: d1 :: d2 :: d3 :: r) =
  (let cp := (d1 - 48) * 100 + (d2 - 48) * 10 + (d3 - 48) in
   if cp >? 255 then Lib eSyntax else do t <- tok_unescape r; Ok (cp :: t)).
Proof. intros H1 H2 H3. cbn. rewrite H1, H2, H3. reflexivity. Qed.

Lemma qc_esc c r : q_clean_go (92 :: c :: r) false = q_clean_go r false.
Proof. reflexivity. Qed.

Lemma qc_plain c r : (c =? 92) = false -> (c =? 34) = false -> (c =? 10) = false ->
  q_clean_go (c :: r) false = q_clean_go r false.
Proof. intros H1 H2 H3. cbn. rewrite H1, H2, H3. reflexivity. Qed.

(* one octet: its escaped form is read back as the octet, and leaves a quoted string clean *)
Lemma esc_qoctet_rt c r : is_octet c ->
  tok_unescape (esc_qoctet c ++ r) = (do t <- tok_unescape r; Ok (c :: t)) /\
  q_clean_go (esc_qoctet c ++ r) false = q_clean_go r false.
Proof.
  unfold is_octet, esc_qoctet. intros Hc.
  destruct ((c =? 34) || (c =? 92)) eqn:E; [|apply orb_false_iff in E as [E34 E92]; destruct (_ && _) eqn:P];
    cbn [app].
  - rewrite qc_esc, tu_esc; [auto|].
    apply orb_true_iff in E as [E|E]; apply Z.eqb_eq in E; subst; reflexivity.
  - apply andb_true_iff in P as [P _]. apply Z.leb_le in P.
    rewrite tu_plain, qc_plain by first [assumption|apply Z.eqb_neq; lia]. auto.
  - rewrite qc_esc, !qc_plain, tu_ddd by first [apply Z.eqb_neq; (Z.to_euclidean_division_equations; lia)|apply is_digit_char; (Z.to_euclidean_division_equations; lia)]. cbv zeta.
    replace ((48 + c / 100 - 48) * 100 + (48 + (c / 10) mod 10 - 48) * 10 + (48 + c mod 10 - 48)) with c by (Z.to_euclidean_division_equations; lia).
    replace (c >? 255) with false by (symmetry; rewrite Z.gtb_ltb; apply Z.ltb_ge; lia). auto.
Qed.

Lemma quoted_string_roundtrip_proof x : Forall is_octet x ->
  tok_unescape (escapify_q x) = Ok x /\ q_clean (escapify_q x) = true.
Proof.
  unfold q_clean, escapify_q. induction 1 as [|c x Hc _ [IH1 IH2]]; [split; reflexivity|].
  cbn [flat_map]. destruct (esc_qoctet_rt c (flat_map esc_qoctet x) Hc) as [-> ->].
  rewrite IH1. split; [reflexivity|exact IH2].
Qed.

Section Fields.
  Variable rel : bool.
  Variable zo : name.
  Hypothesis Hzo : Valid zo /\ AllBytes zo /\ is_absolute zo = true.

  (* a domain name as a zone stores it: relative = under the origin (relativized zone only),
     absolute and - in a relativized zone - not under the origin *)
  Definition name_field_ok (n : name) : Prop :=
    Valid n /\ AllBytes n /\
    if rel then (is_absolute n = false /\ Valid (n ++ zo)) \/ (is_absolute n = true /\ is_subdomain n zo = false)
    else is_absolute n = true.

  Lemma name_field_rt n : name_field_ok n -> as_name false (to_text n) (Some zo) rel (Some zo) = Ok n.
  Proof.
    intros (V & B & H). destruct Hzo as (Vz & Bz & Az).
    unfold as_name. rewrite (text_roundtrip_origin n (Some zo) V B).
    destruct zo as [|z0 z'] eqn:Ez; [discriminate|]. rewrite <- Ez in *.
    destruct rel.
    - destruct H as [[A Vn]|[A Hs]]; rewrite A.
      + rewrite (mk_name_valid _ Vn). cbn [lift_name bind].
        destruct (derel_rel n zo V Vz A Az Vn) as [_ Hr].
        rewrite Ez. cbn [choose_relativity]. rewrite <- Ez, Hr. reflexivity.
      + cbn [lift_name bind]. rewrite Ez. cbn [choose_relativity]. rewrite <- Ez.
        unfold relativize. rewrite Hs. reflexivity.
    - rewrite H. cbn [lift_name bind]. rewrite (choose_derel_abs n (Some zo) H). reflexivity.
  Qed.

  Definition fval_ok (k : fkind) (f : fval) : Prop :=
    match k, f with
    | KName, VName n => name_field_ok n
    | KTok, VTok v => plain_tok v = true
    | KIPv4, VTok v => plain_tok v = true /\ ipv4_ok v = true
    | KU mx, VInt z => 0 <= z <= mx
    | KTtl, VInt z => 0 <= z <= MAX_TTL
    | _, _ => False
    end.

  Definition fval_tok (f : fval) : tok :=
    match f with
    | VName n => TId (to_text n)
    | VTok v => TId v
    | VInt z => TId (dec z)
    | _ => TId []
    end.

  Fixpoint rdata_fits (ks : list fkind) (rd : rdata) : Prop :=
    match ks, rd with
    | [], [] => True
    | [KStrs], [VStrs l] => l <> [] /\ Forall (fun x => Forall is_octet x /\ zlen x <= 255) l
    | [KRest ae], [VRest l] => Forall (fun v => plain_tok v = true) l /\ (l = [] -> ae = true)
    | k :: ks', f :: rd' =>
        match k with
        | KStrs | KRest _ | KType => False
        | _ => fval_ok k f /\ rdata_fits ks' rd'
        end
    | _, _ => False
    end.

  Fixpoint rd_toks (rd : rdata) : list tok :=
    match rd with
    | [] => []
    | VStrs l :: r => map (fun x => TQ (escapify_q x)) l ++ rd_toks r
    | VRest l :: r => map TId l ++ rd_toks r
    | f :: r => fval_tok f :: rd_toks r
    end.

  (* rdata_fits by cases: the three shapes of its definition *)
  Lemma rdata_fits_ind (P : list fkind -> rdata -> Prop) :
    P [] [] ->
    (forall l, l <> [] -> Forall (fun x => Forall is_octet x /\ zlen x <= 255) l -> P [KStrs] [VStrs l]) ->
    (forall ae l, Forall (fun v => plain_tok v = true) l -> (l = [] -> ae = true) -> P [KRest ae] [VRest l]) ->
    (forall k f ks rd, fval_ok k f -> rdata_fits ks rd -> P ks rd -> P (k :: ks) (f :: rd)) ->
    forall ks rd, rdata_fits ks rd -> P ks rd.
  Proof.
    intros P0 Ps Pr Pc. induction ks as [|k ks IH]; intros [|f rd] H; try (destruct H; fail); [exact P0| |].
    - destruct k, ks; destruct H.
    - destruct k; try (destruct H as [Hf Hr]; apply Pc; auto; fail).
      + destruct ks; destruct H.
      + destruct ks, f, rd; try destruct H. apply Ps; assumption.
      + destruct ks, f, rd; try destruct H. apply Pr; assumption.
  Qed.

  (* the token of a single field *)
  Lemma fval_ok_tok k f : fval_ok k f ->
    exists v, (forall rd, rd_toks (f :: rd) = TId v :: rd_toks rd) /\ id_clean v = true /\ v <> [92; 35] /\
              forall ks toks, parse_fields (k :: ks) (TId v :: toks) zo rel zo =
                              (do rest <- parse_fields ks toks zo rel zo; Ok (f :: rest)).
  Proof.
    destruct k, f; cbn [fval_ok]; try contradiction; intros Hf;
      (eexists; split; [reflexivity|]); cbn [parse_fields tokval].
    - split; [apply to_text_id_clean, Hf|]. split; [apply to_text_not_hash|].
      intros. rewrite (name_field_rt n Hf). reflexivity.
    - destruct (plain_tok_facts v Hf) as (Hc & Hu & Hh). repeat split; try assumption.
      intros. rewrite Hu. reflexivity.
    - destruct Hf as [Hp Hi]. destruct (plain_tok_facts v Hp) as (Hc & Hu & Hh). repeat split; try assumption.
      intros. rewrite Hu. cbn [bind]. rewrite Hi. reflexivity.
    - destruct (plain_tok_facts _ (dec_plain z ltac:(lia))) as (Hc & Hu & Hh). repeat split; try assumption.
      intros. destruct (dec_spec z ltac:(lia)) as (Ha & Hi & Hne). rewrite Hu. cbn [bind]. rewrite Ha, Hi.
      replace (zlen (dec z) =? 0) with false by (unfold zlen; destruct (dec z); [congruence|reflexivity]).
      replace (z <=? max) with true by (symmetry; apply Z.leb_le; lia). reflexivity.
    - destruct (plain_tok_facts _ (dec_plain z ltac:(lia))) as (Hc & Hu & Hh). repeat split; try assumption.
      intros. rewrite Hu. cbn [bind]. rewrite (ttl_from_text_dec z Hf). reflexivity.
  Qed.

  Lemma strs_parse l : Forall (fun x => Forall is_octet x /\ zlen x <= 255) l ->
    (fix go (l0 : list tok) : res (list (list Z)) :=
       match l0 with
       | [] => Ok []
       | t :: l' => do b <- tok_unescape (tokval t);
                    if zlen b >? 255 then Lib eSyntax else do rest <- go l'; Ok (b :: rest)
       end) (map (fun x => TQ (escapify_q x)) l) = Ok l.
  Proof.
    induction 1 as [|x l [Hb Hl] _ IH]; [reflexivity|].
    cbn [map tokval]. rewrite (proj1 (quoted_string_roundtrip_proof x Hb)). cbn [bind].
    replace (zlen x >? 255) with false by (symmetry; rewrite Z.gtb_ltb; apply Z.ltb_ge; lia).
    rewrite IH. reflexivity.
  Qed.

  Lemma all_ids_map l : all_ids (map TId l) = Some l.
  Proof. induction l as [|v l IH]; [reflexivity|]. cbn [map all_ids]. rewrite IH. reflexivity. Qed.

  Lemma parse_fields_fits ks rd : rdata_fits ks rd -> parse_fields ks (rd_toks rd) zo rel zo = Ok rd.
  Proof.
    intros H. pattern ks, rd. revert ks rd H. apply rdata_fits_ind.
    - reflexivity.
    - intros l Hne Hl. cbn [rd_toks]. rewrite app_nil_r. pose proof (strs_parse l Hl) as Hs.
      destruct l; [congruence|]. cbn [map parse_fields] in *. rewrite Hs. reflexivity.
    - intros ae l Hl Hae. cbn [rd_toks parse_fields]. rewrite app_nil_r, all_ids_map.
      destruct l; [rewrite (Hae eq_refl)|]; reflexivity.
    - intros k f ks rd Hf _ IH. destruct (fval_ok_tok k f Hf) as (v & Ht & _ & _ & Hp).
      rewrite Ht, Hp, IH. reflexivity.
  Qed.

  Lemma rd_toks_clean ks rd : rdata_fits ks rd -> forallb tok_clean (rd_toks rd) = true.
  Proof.
    intros H. pattern ks, rd. revert ks rd H. apply rdata_fits_ind.
    - reflexivity.
    - intros l _ Hl. cbn [rd_toks]. rewrite app_nil_r.
      induction Hl as [|x l [Hb _] _ IHl]; [reflexivity|]. cbn [map forallb tok_clean].
      rewrite (proj2 (quoted_string_roundtrip_proof x Hb)), IHl. reflexivity.
    - intros ae l Hl _. cbn [rd_toks]. rewrite app_nil_r.
      induction Hl as [|x l Hx _ IHl]; [reflexivity|]. cbn [map forallb tok_clean].
      destruct (plain_tok_facts x Hx) as (-> & _). exact IHl.
    - intros k f ks rd Hf _ IH. destruct (fval_ok_tok k f Hf) as (v & Ht & Hc & _).
      rewrite Ht. cbn [forallb tok_clean]. rewrite Hc, IH. reflexivity.
  Qed.

  (* no record of a modelled type starts with the "\#" marker *)
  Lemma rd_toks_first ks rd : rdata_fits ks rd -> forall v r, rd_toks rd = TId v :: r -> v <> [92; 35].
  Proof.
    intros H. pattern ks, rd. revert ks rd H. apply rdata_fits_ind.
    - discriminate.
    - intros [|x l]; [congruence|discriminate].
    - intros ae l Hl _ v r. destruct Hl as [|x l Hx _]; [discriminate|].
      intros E. inversion E; subst. apply (plain_tok_facts v Hx).
    - intros k f ks rd Hf _ _ v r. destruct (fval_ok_tok k f Hf) as (v0 & Ht & _ & Hh & _).
      rewrite Ht. intros E. inversion E; subst. exact Hh.
  Qed.
End Fields.

(* for a type of the table, rdata that does not start with "\#" is parsed field by field *)
Lemma parse_rdata_fields ty m ks toks lerr co rel zo :
  tbl_by_code type_table ty = Some (m, ks) ->
  (forall v r, toks = TId v :: r -> v <> [92; 35]) ->
  parse_rdata ty toks lerr co rel zo =
  (do rd <- parse_fields ks toks co rel zo; if lerr then Lib eSyntax else Ok rd).
Proof.
  intros Ht Hn. unfold parse_rdata. rewrite Ht, generic_match.
  destruct toks as [|[v|v] r]; try reflexivity.
  destruct (list_eq_dec Z.eq_dec v [92; 35]) as [E|_]; [destruct (Hn v r eq_refl E)|reflexivity].
Qed.

Section RdataOk.
  Variable c : cfg.
  Variable st : style.
  Variable zo : name.
  Hypothesis Hzo : Valid zo /\ AllBytes zo /\ is_absolute zo = true.
  Hypothesis Hplain : st_origin st = None.
  Let rel := c_rel c.

  Lemma fvals_text_plain rd :
    fvals_text (st_origin st) (st_relativize st) false rd = Ok (map render_tok (rd_toks rd)).
  Proof.
    induction rd as [|f rd IH]; [reflexivity|]. cbn [fvals_text]. rewrite IH. cbn [bind].
    destruct f; cbn [rd_toks fval_tok map render_tok].
    - rewrite Hplain. reflexivity.
    - reflexivity.
    - reflexivity.
    - rewrite map_app, map_map. reflexivity.
    - rewrite map_app, map_map. cbn [render_tok]. rewrite map_id. reflexivity.
  Qed.

  (* the per-record premise of zone_roundtrip, for every in-range record of a modelled type;
     RRSIG is not among them: its first field, the covered type, fits no record *)
  Lemma rdata_ok_fits ty m ks rd :
    tbl_by_code type_table ty = Some (m, ks) -> rdata_fits rel zo ks rd ->
    rdata_ok c st zo ty rd (rd_toks rd).
  Proof.
    intros Htbl Hfit.
    assert (Hrr : ty <> tRRSIG) by (intros ->; cbv in Htbl; inversion Htbl; subst; destruct rd; destruct Hfit).
    unfold rdata_ok. split; [|split].
    - unfold rdata_text. rewrite fvals_text_plain. cbn [bind]. rewrite Htbl.
      assert (E : (ty =? tRRSIG) = false) by (apply Z.eqb_neq; exact Hrr).
      destruct rd as [|f rd']; [reflexivity|].
      destruct f; try reflexivity.
      cbn [rd_toks fval_tok map render_tok]. rewrite E. reflexivity.
    - apply (rd_toks_clean rel zo Hzo ks). exact Hfit.
    - rewrite (parse_rdata_fields _ _ _ _ _ _ _ _ Htbl (rd_toks_first rel zo Hzo ks rd Hfit)).
      fold rel. rewrite (parse_fields_fits rel zo Hzo ks rd Hfit). reflexivity.
  Qed.

  Theorem rdata_ok_fits_proof ty m ks rd :
    tbl_by_code type_table ty = Some (m, ks) -> ty <> tRRSIG ->
    rdata_fits rel zo ks rd ->
    rdata_ok c st zo ty rd (rd_toks rd).
  Proof. intros Htbl _. apply (rdata_ok_fits ty m ks rd Htbl). Qed.
End RdataOk.

(* RRSIG (first field: the covered type, printed as a mnemonic) and the RFC 3597 form
   of unknown types *)
Definition rrsig_tail : list fkind := [KTok; KTok; KTtl; KTok; KTok; KTok; KName; KRest false].

Definition hex_lower (h : list Z) : bool :=
  forallb (fun c => is_digit c || ((97 <=? c) && (c <=? 102))) h.

Lemma hex_lower_facts h : hex_lower h = true ->
  forallb is_hex h = true /\ lower_l h = h /\ forallb plain_char h = true.
Proof.
  induction h as [|c h IH]; [repeat split; reflexivity|]. unfold hex_lower. cbn [forallb]. intros H.
  apply andb_true_iff in H as [Hc Hr]. destruct (IH Hr) as (I1 & I2 & I3).
  assert (Hb : (48 <= c <= 57) \/ (97 <= c <= 102)).
  { apply orb_true_iff in Hc as [Hc|Hc].
    - unfold is_digit in Hc. apply andb_true_iff in Hc as [A B]. apply Z.leb_le in A, B. lia.
    - apply andb_true_iff in Hc as [A B]. apply Z.leb_le in A, B. lia. }
  split; [|split].
  - cbn [forallb]. rewrite I1, andb_true_r. unfold is_hex. rewrite Hc. reflexivity.
  - cbn [lower_l map]. fold (lower_l h). rewrite I2. f_equal. unfold lower.
    replace ((65 <=? c) && (c <=? 90)) with false; [reflexivity|].
    symmetry. apply andb_false_iff. destruct Hb; [left; apply Z.leb_gt; lia|right; apply Z.leb_gt; lia].
  - cbn [forallb]. rewrite I3, andb_true_r. unfold plain_char. rewrite (proj2 (is_delim_false c)) by lia.
    replace (c =? 92) with false by (symmetry; apply Z.eqb_neq; lia). reflexivity.
Qed.

Section RdataOk2.
  Variable c : cfg.
  Variable st : style.
  Variable zo : name.
  Hypothesis Hzo : Valid zo /\ AllBytes zo /\ is_absolute zo = true.
  Hypothesis Hplain : st_origin st = None.
  Local Notation rel := (c_rel c).

  Theorem rdata_ok_rrsig_proof cov rest :
    0 <= cov <= 65535 -> rdata_fits rel zo rrsig_tail rest ->
    rdata_ok c st zo tRRSIG (VInt cov :: rest) (TId (type_to_text cov) :: rd_toks rest).
  Proof.
    intros Hc Hfit. destruct (type_ok_all cov Hc) as ((Hty & _ & _) & Hclean).
    unfold rdata_ok. split; [|split].
    - unfold rdata_text. rewrite (fvals_text_plain st Hplain). cbn [bind].
      cbn [rd_toks fval_tok map render_tok]. reflexivity.
    - cbn [forallb tok_clean]. rewrite Hclean. apply (rd_toks_clean rel zo Hzo rrsig_tail). exact Hfit.
    - rewrite (parse_rdata_fields tRRSIG [82; 82; 83; 73; 71] (KType :: rrsig_tail)); [|reflexivity|].
      + cbn [parse_fields tokval]. rewrite Hty. cbn [bind]. fold rrsig_tail.
        rewrite (parse_fields_fits rel zo Hzo rrsig_tail rest Hfit). reflexivity.
      + intros v r E. inversion E; subst. intros E'. rewrite E' in Hty. discriminate Hty.
  Qed.

  Theorem rdata_ok_generic_proof ty n h :
    tbl_by_code type_table ty = None -> 0 < n -> hex_lower h = true -> zlen h = 2 * n ->
    rdata_ok c st zo ty [VTok [92; 35]; VInt n; VRest [h]] [TId [92; 35]; TId (dec n); TId h].
  Proof.
    intros Htbl Hn Hh Hl. destruct (hex_lower_facts h Hh) as (Hhex & Hlow & Hpl).
    destruct (dec_spec n ltac:(lia)) as (Ha & Hi & Hne).
    destruct (plain_tok_facts _ (dec_plain n ltac:(lia))) as (Hdc & Hdu & _).
    assert (Hhne : h <> []) by (intro E; subst; cbn in Hl; lia).
    unfold rdata_ok. split; [|split].
    - unfold rdata_text. rewrite (fvals_text_plain st Hplain). cbn [bind]. rewrite Htbl.
      cbn [map render_tok join_sp concat]. rewrite app_nil_r. reflexivity.
    - cbn [forallb tok_clean]. rewrite Hdc, andb_true_r.
      destruct h; [congruence|]. apply plain_go_clean. exact Hpl.
    - unfold parse_rdata. rewrite Htbl. unfold parse_generic.
      rewrite Hdu. cbn [bind]. rewrite Ha.
      replace (zlen (dec n) =? 0) with false by (unfold zlen; destruct (dec n); [congruence|reflexivity]).
      cbn [negb andb all_ids unescape_all]. rewrite (plain_unescape _ Hpl). cbn [bind concat]. rewrite app_nil_r.
      rewrite Hhex, Hi, Hl, Z.eqb_refl. cbn [andb]. rewrite Hlow.
      destruct h; [congruence|reflexivity].
  Qed.
End RdataOk2.
