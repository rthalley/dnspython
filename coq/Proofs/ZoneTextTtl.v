(* C09: TTLs with BIND units ("1w2d3h4m5s") read as the sum of their parts. *)
From DV Require Import Base.Prelude Model.NameM Model.ZoneTextM Proofs.ZoneTextBase.
Open Scope Z_scope.

Definition unit_mult (u : Z) : option Z :=
  let c := lower u in
  if c =? 119 then Some 604800 else if c =? 100 then Some 86400 else if c =? 104 then Some 3600
  else if c =? 109 then Some 60 else if c =? 115 then Some 1 else None.

Fixpoint units_text (l : list (Z * Z)) : list Z :=
  match l with
  | [] => []
  | (n, u) :: r => dec n ++ u :: units_text r
  end.

Fixpoint units_value (l : list (Z * Z)) : Z :=
  match l with
  | [] => 0
  | (n, u) :: r => n * (match unit_mult u with Some m => m | None => 0 end) + units_value r
  end.

Lemma ttl_loop_digits : forall ds rest total cur need,
  all_digits ds = true ->
  ttl_loop (ds ++ rest) total cur need =
  ttl_loop rest total (fold_left (fun a c => a * 10 + (c - 48)) ds cur)
           (match ds with [] => need | _ => false end).
Proof.
  induction ds as [|d ds IH]; intros rest total cur need H; [reflexivity|].
  unfold all_digits in H. cbn [forallb] in H. apply andb_true_iff in H as [Hd Hr].
  cbn [app ttl_loop fold_left]. rewrite Hd. rewrite (IH rest total _ false Hr).
  destruct ds; reflexivity.
Qed.

Lemma unit_not_digit u m : unit_mult u = Some m -> is_digit u = false.
Proof.
  unfold unit_mult, is_digit, lower. intros H.
  destruct (48 <=? u) eqn:E1; [|reflexivity]. destruct (u <=? 57) eqn:E2; [|reflexivity].
  apply Z.leb_le in E1, E2. exfalso.
  replace ((65 <=? u) && (u <=? 90)) with false in H
    by (symmetry; apply andb_false_iff; left; apply Z.leb_gt; lia).
  repeat match type of H with context [u =? ?k] => replace (u =? k) with false in H by (symmetry; apply Z.eqb_neq; lia) end.
  discriminate.
Qed.

Lemma ttl_loop_unit u m r total cur :
  unit_mult u = Some m ->
  ttl_loop (u :: r) total cur false = ttl_loop r (total + cur * m) 0 true.
Proof.
  intros H. cbn [ttl_loop]. rewrite (unit_not_digit u m H).
  unfold unit_mult in H. cbv zeta in H.
  destruct (lower u =? 119); [inversion H; reflexivity|].
  destruct (lower u =? 100); [inversion H; reflexivity|].
  destruct (lower u =? 104); [inversion H; reflexivity|].
  destruct (lower u =? 109); [inversion H; reflexivity|].
  destruct (lower u =? 115); [inversion H; subst; rewrite Z.mul_1_r; reflexivity|discriminate].
Qed.

Definition units_ok (l : list (Z * Z)) : Prop :=
  Forall (fun e => 0 <= fst e /\ unit_mult (snd e) <> None) l.

Lemma ttl_loop_units : forall l rest total,
  units_ok l ->
  ttl_loop (units_text l ++ rest) total 0 true = ttl_loop rest (total + units_value l) 0 true.
Proof.
  induction l as [|[n u] l IH]; intros rest total H.
  - cbn. rewrite Z.add_0_r. reflexivity.
  - inversion H as [|? ? [Hn Hu] Hl]; subst. cbn [fst snd] in *.
    destruct (unit_mult u) as [m|] eqn:Em; [|congruence].
    destruct (dec_spec n Hn) as (Ha & Hi & Hne).
    cbn [units_text units_value]. rewrite Em. rewrite <- app_assoc. cbn [app].
    rewrite (ttl_loop_digits (dec n) _ total 0 true Ha).
    destruct (dec n) as [|d0 ds] eqn:Ed; [congruence|].
    change (fold_left (fun a c => a * 10 + (c - 48)) (d0 :: ds) 0) with (int_of_digits (d0 :: ds)).
    rewrite Hi, (ttl_loop_unit u m _ total n Em), (IH rest _ Hl).
    f_equal. lia.
Qed.

Lemma units_not_all_digits l : l <> [] -> units_ok l -> all_digits (units_text l) = false.
Proof.
  destruct l as [|[n u] l]; [congruence|]. intros _ H. inversion H as [|? ? [_ Hu] _]; subst. cbn [snd] in Hu.
  destruct (unit_mult u) as [m|] eqn:Em; [|congruence].
  cbn [units_text]. rewrite all_digits_app. apply andb_false_iff. right.
  unfold all_digits. cbn [forallb]. rewrite (unit_not_digit u m Em). reflexivity.
Qed.

Theorem ttl_units_text_proof l :
  l <> [] -> units_ok l -> 0 <= units_value l <= MAX_TTL ->
  ttl_from_text (units_text l) = Ok (units_value l).
Proof.
  intros Hne Hok Hr. unfold ttl_from_text.
  rewrite (units_not_all_digits l Hne Hok).
  assert (Htext : units_text l <> []).
  { destruct l as [|[n u] l]; [congruence|]. cbn. intro H. apply app_eq_nil in H. destruct H; discriminate. }
  destruct (units_text l) as [|c0 t0] eqn:Et; [congruence|]. rewrite <- Et.
  pose proof (ttl_loop_units l [] 0 Hok) as H. rewrite app_nil_r in H. rewrite H. cbn [ttl_loop Z.eqb negb bind].
  rewrite Z.add_0_l.
  replace (units_value l <? 0) with false by (symmetry; apply Z.ltb_ge; lia).
  replace (units_value l >? MAX_TTL) with false by (symmetry; rewrite Z.gtb_ltb; apply Z.ltb_ge; lia).
  reflexivity.
Qed.
