(* C19 - deletion: balance (steal left / steal right / merge), successor replacement, exact
   deletes; the result is well-formed and its traversal is the sorted-list deletion. *)
From DV Require Import Base.Prelude Model.BTreeM Proofs.BTreeBase Proofs.BTreeWf Proofs.BTreeInsert.

(* what BTree._delete reports, as a function of the reference dictionary *)
Definition dspec (exact : option Z) (found : option elt) : dout :=
  match found, exact with
  | Some x, Some v => if snd x =? v then DDel x else DMismatch
  | Some x, None => DDel x
  | None, Some _ => DNoMatch
  | None, None => DNone
  end.

Definition after_del (key : Z) (o : dout) (l : list elt) : list elt :=
  match o with DDel _ => del_sorted key l | _ => l end.

Fixpoint repl_sorted (k : Z) (e : elt) (l : list elt) : list elt :=
  match l with
  | [] => []
  | (k', v) :: r => if k =? k' then e :: r else (k', v) :: repl_sorted k e r
  end.

Lemma repl_sorted_in_mid a c b k e :
  all_lt a k -> all_gt b k -> repl_sorted k e (a ++ c ++ b) = a ++ repl_sorted k e c ++ b.
Proof.
  intros Ha Hb.
  induction Ha as [|[k' v] a Hk _ IH]; cbn [app repl_sorted].
  2:{ cbn in Hk. destruct (Z.eqb_spec k k'); [lia|now rewrite IH]. }
  induction c as [|[k' v] c IH]; cbn [app repl_sorted].
  2:{ destruct (k =? k'); [reflexivity|]. cbn [app]. now rewrite IH. }
  induction Hb as [|[k' v] b Hk _ IH]; cbn [repl_sorted]; [reflexivity|].
  cbn in Hk. destruct (Z.eqb_spec k k'); [lia|now rewrite IH].
Qed.

Lemma repl_sorted_at a v b k e : all_lt a k -> all_gt b k -> repl_sorted k e (a ++ (k, v) :: b) = a ++ e :: b.
Proof. intros Ha Hb. rewrite (repl_sorted_in_mid a [(k, v)] b) by assumption. cbn. now rewrite Z.eqb_refl. Qed.

Lemma after_del_sorted key o l : ksorted l -> ksorted (after_del key o l).
Proof. destruct o; cbn [after_del]; auto using del_sorted_sorted. Qed.

Lemma after_del_length key exact l :
  let o := dspec exact (find_sorted key l) in
  length l = match o with DDel _ => S (length (after_del key o l)) | _ => length (after_del key o l) end.
Proof.
  pose proof (del_sorted_length key l) as H.
  destruct (find_sorted key l) as [x|], exact as [v|]; cbn; auto. destruct (snd x =? v); cbn; auto.
Qed.

Lemma dspec_found exact x : dspec exact (Some x) = if exact_mismatch exact x then DMismatch else DDel x.
Proof. destruct exact as [v|]; cbn; [destruct (snd x =? v)|]; reflexivity. Qed.

Ltac split_ands := repeat match goal with |- _ /\ _ => split end.

Section DEL.
Variable t : nat.
Hypothesis Ht : (3 <= t)%nat.
Notation wfn := (wfn t).

Lemma sep_bounds ea pe eb ka l r kb :
  length ka = length ea -> length kb = length eb ->
  ksorted (elements (Node false (ea ++ pe :: eb) (ka ++ l :: r :: kb))) ->
  (forall x, In x (elements l) -> fst x < fst pe) /\ (forall x, In x (elements r) -> fst pe < fst x).
Proof.
  intros H1 H2 Hs. rewrite elements_split2 in Hs by assumption.
  apply ksorted_app in Hs as (_ & Hs & _). apply ksorted_app in Hs as (Hs & _ & _).
  apply ksorted_mid in Hs as (Hl & Hr & _). unfold all_lt, all_gt in *. rewrite Forall_forall in *. auto.
Qed.

(* the index of the child that has grown (the one the deletion continues in): one to the left when
   the child was merged into its left sibling *)
Definition grown (p p' : tree) (i : nat) : nat :=
  if (length (n_kids p') <? length (n_kids p))%nat && (0 <? i)%nat then (i - 1)%nat else i.

Lemma grown_same p p' i : length (n_kids p') = length (n_kids p) -> grown p p' i = i.
Proof. intros H. unfold grown. now rewrite H, Nat.ltb_irrefl. Qed.

Lemma grown_merged p p' i : (length (n_kids p') < length (n_kids p))%nat -> grown p p' i = (i - 1)%nat.
Proof. intros H. unfold grown. apply Nat.ltb_lt in H. rewrite H. destruct i; reflexivity. Qed.

(* what balance establishes for the descent for key that stood before child i of p: the same
   traversal, and the child for key now holds more than the minimum *)
Definition rebalanced (h : nat) (key : Z) (i : nat) (p p' : tree) : Prop :=
  exists ea1 eb1 ka1 c1 kb1,
    p' = Node false (ea1 ++ eb1) (ka1 ++ c1 :: kb1) /\
    length ka1 = length ea1 /\ length kb1 = length eb1 /\
    all_lt ea1 key /\ all_gt eb1 key /\
    wfn (length (n_elts p) - 1) (S h) p' /\
    elements p' = elements p /\
    (t_min t < length (n_elts c1))%nat /\
    length ka1 = grown p p' i.

(* the three ways it does so, on two adjacent children l, r and their separator pe *)

Lemma steal_right_rebalanced lo h key ea pe eb ka l r kb :
  let p := Node false (ea ++ pe :: eb) (ka ++ l :: r :: kb) in
  length ka = length ea -> length kb = length eb -> wfn lo (S h) p -> ksorted (elements p) ->
  all_lt ea key -> all_gt (pe :: eb) key ->
  length (n_elts l) = t_min t -> length (n_elts r) <> t_min t ->
  exists p', try_right_steal t p (length ka) = Ok (p', true) /\ rebalanced h key (length ka) p p'.
Proof.
  intros p H1 H2 Hw Hs Hlt Hgt Hlm Hrm. pose proof (t_min_lt_max t Ht) as Htm.
  destruct (wfn_kids2 t _ _ _ _ _ _ _ Hw) as (Hl & Hr).
  destruct (try_right_steal_spec t Ht h ea pe eb ka l r kb H1 Hl Hr) as (l' & re & r' & Hst & Hl' & Hr' & Hll & He & Hin);
    [lia|assumption|].
  eexists. split; [exact Hst|].
  destruct (sep_bounds ea pe eb ka l r kb H1 H2 Hs) as (_ & Hsr). apply Forall_cons_iff in Hgt as (Hpe & Hgt).
  exists ea, (re :: eb), ka, l', (r' :: kb). split_ands; try assumption; try reflexivity.
  - cbn [length]. now rewrite H2.
  - constructor; [specialize (Hsr re Hin); lia|assumption].
  - eapply (wfn_lo t Ht); [eapply wfn_replace2; eassumption|]. unfold p. len_lia.
  - unfold p. rewrite !elements_split2 by assumption. now rewrite He.
  - lia.
  - rewrite grown_same; [reflexivity|]. unfold p. cbn [n_kids]. now rewrite !app_length.
Qed.

Lemma steal_left_rebalanced lo h key ea pe eb ka l r kb :
  let p := Node false (ea ++ pe :: eb) (ka ++ l :: r :: kb) in
  length ka = length ea -> length kb = length eb -> wfn lo (S h) p -> ksorted (elements p) ->
  all_lt (ea ++ [pe]) key -> all_gt eb key ->
  length (n_elts r) = t_min t -> length (n_elts l) <> t_min t ->
  exists p', try_left_steal t p (S (length ka)) = Ok (p', true) /\ rebalanced h key (S (length ka)) p p'.
Proof.
  intros p H1 H2 Hw Hs Hlt Hgt Hrm Hlm. pose proof (t_min_lt_max t Ht) as Htm.
  destruct (wfn_kids2 t _ _ _ _ _ _ _ Hw) as (Hl & Hr).
  destruct (try_left_steal_spec t Ht h ea pe eb ka l r kb H1 Hl Hr) as (l' & le & r' & Hst & Hl' & Hr' & Hrl & He & Hin);
    [lia|assumption|].
  eexists. split; [exact Hst|].
  destruct (sep_bounds ea pe eb ka l r kb H1 H2 Hs) as (Hsl & _). apply all_lt_app in Hlt as (Hlt & (Hpe & _)%Forall_cons_iff).
  exists (ea ++ [le]), eb, (ka ++ [l']), r', kb. split_ands; try assumption.
  - now rewrite <- !app_assoc.
  - now rewrite !last_length, H1.
  - apply all_lt_app. split; [assumption|]. constructor; [specialize (Hsl le Hin); lia|constructor].
  - eapply (wfn_lo t Ht); [eapply wfn_replace2; eassumption|]. unfold p. len_lia.
  - unfold p. rewrite !elements_split2 by assumption. now rewrite He.
  - lia.
  - rewrite grown_same; [apply last_length|]. unfold p. cbn [n_kids]. now rewrite !app_length.
Qed.

Lemma merge_rebalanced lo h key i ea pe eb ka l r kb :
  let p := Node false (ea ++ pe :: eb) (ka ++ l :: r :: kb) in
  length ka = length ea -> length kb = length eb -> wfn lo (S h) p ->
  all_lt ea key -> all_gt eb key ->
  length (n_elts l) = t_min t -> length (n_elts r) = t_min t -> length ka = (i - 1)%nat ->
  exists p', merge p (length ka) = Ok p' /\ rebalanced h key i p p'.
Proof.
  intros p H1 H2 Hw Hlt Hgt Hlm Hrm Hi.
  destruct (wfn_kids2 t _ _ _ _ _ _ _ Hw) as (Hl & Hr).
  destruct (merge_spec t Ht h ea pe eb ka l r kb H1 Hl Hr) as (m & Hmg & Hm & He & Hml); [unfold t_min, t_max in *; lia|].
  eexists. split; [exact Hmg|].
  exists ea, eb, ka, m, kb. split_ands; try assumption; try reflexivity.
  - eapply wfn_merge_parent; eassumption.
  - unfold p. rewrite elements_split, elements_split2 by assumption. now rewrite He.
  - lia.
  - rewrite grown_merged; [assumption|]. unfold p. cbn [n_kids]. rewrite !app_length. cbn [length]. lia.
Qed.

(* child c (index |ka|) is minimal: a right sibling with keys to spare rebalances; a missing or
   minimal one leaves the node as it is *)
Lemma right_steal_cases lo h key ea eb ka c kb :
  let p := Node false (ea ++ eb) (ka ++ c :: kb) in
  length ka = length ea -> length kb = length eb -> wfn lo (S h) p -> ksorted (elements p) ->
  all_lt ea key -> all_gt eb key -> length (n_elts c) = t_min t ->
  (try_right_steal t p (length ka) = Ok (p, false) /\
   match kb with r :: _ => length (n_elts r) = t_min t | [] => True end) \/
  exists p', try_right_steal t p (length ka) = Ok (p', true) /\ rebalanced h key (length ka) p p'.
Proof.
  intros p H1 H2 Hw Hs Hlt Hgt Hc.
  destruct kb as [|r kb]; [left; split; [apply (try_right_steal_last t _ _ ka c), split_at_app|]; reflexivity|].
  destruct eb as [|pe eb]; [discriminate|]. injection H2 as H2.
  destruct (wfn_kids2 t _ _ _ _ _ _ _ Hw) as (_ & Hr).
  destruct (Nat.eq_dec (length (n_elts r)) (t_min t)) as [Hrm|Hrm].
  - left. split; [|exact Hrm]. apply (try_right_steal_min t Ht _ _ ka c r kb h); auto. now apply split_at_app.
  - right. now apply (steal_right_rebalanced lo).
Qed.

Lemma balance_spec lo h key ea eb ka c kb :
  length ka = length ea -> length kb = length eb ->
  wfn lo (S h) (Node false (ea ++ eb) (ka ++ c :: kb)) ->
  (1 <= length (ea ++ eb))%nat ->
  length (n_elts c) = t_min t ->
  ksorted (elements (Node false (ea ++ eb) (ka ++ c :: kb))) ->
  all_lt ea key -> all_gt eb key ->
  exists ea1 eb1 ka1 c1 kb1,
    balance t (Node false (ea ++ eb) (ka ++ c :: kb)) (length ka)
      = Ok (Node false (ea1 ++ eb1) (ka1 ++ c1 :: kb1)) /\
    length ka1 = length ea1 /\ length kb1 = length eb1 /\
    all_lt ea1 key /\ all_gt eb1 key /\
    wfn (length (ea ++ eb) - 1) (S h) (Node false (ea1 ++ eb1) (ka1 ++ c1 :: kb1)) /\
    elements (Node false (ea1 ++ eb1) (ka1 ++ c1 :: kb1)) = elements (Node false (ea ++ eb) (ka ++ c :: kb)) /\
    (t_min t < length (n_elts c1))%nat /\
    length ka1 = grown (Node false (ea ++ eb) (ka ++ c :: kb)) (Node false (ea1 ++ eb1) (ka1 ++ c1 :: kb1)) (length ka).
Proof.
  intros H1 H2 Hw Hne Hc Hs Hlt Hgt.
  enough (exists p', balance t (Node false (ea ++ eb) (ka ++ c :: kb)) (length ka) = Ok p' /\
                     rebalanced h key (length ka) (Node false (ea ++ eb) (ka ++ c :: kb)) p')
    as (p' & Hbal & ea1 & eb1 & ka1 & c1 & kb1 & -> & Hrest) by (exists ea1, eb1, ka1, c1, kb1; split; assumption).
  pose proof (right_steal_cases lo h key ea eb ka c kb H1 H2 Hw Hs Hlt Hgt Hc) as Hrs. cbn zeta in Hrs.
  unfold balance. cbn [n_leaf].
  destruct ka as [|l ka' _] using rev_ind.
  - (* leftmost child: steal from the right sibling or merge with it *)
    rewrite try_left_steal_zero. cbn [bind].
    destruct Hrs as [(-> & Hrm)|(p' & -> & Hp')]; cbn [bind]; [|eauto].
    destruct ea; [|discriminate]. destruct eb as [|pe eb]; [cbn in Hne; lia|]. destruct kb as [|r kb]; [discriminate|].
    injection H2 as H2. apply Forall_cons_iff in Hgt as Hgt'.
    apply (merge_rebalanced lo h key 0 [] pe eb [] c r kb); auto; tauto.
  - (* there is a left sibling l: steal from it, else from the right sibling, else merge with l *)
    destruct ea as [|pe ea' _] using rev_ind; [rewrite last_length in H1; discriminate|].
    rewrite !last_length in *. injection H1 as H1.
    rewrite <- !app_assoc in *. cbn [app] in *.
    destruct (wfn_kids2 t _ _ _ _ _ _ _ Hw) as (Hl & _).
    destruct (Nat.eq_dec (length (n_elts l)) (t_min t)) as [Hlm|Hlm].
    2:{ destruct (steal_left_rebalanced lo h key ea' pe eb ka' l c kb) as (p' & -> & Hp'); auto. cbn [bind]. eauto. }
    rewrite (try_left_steal_min t Ht _ _ ka' l c kb h) by (auto; now apply split_at_app). cbn [bind].
    destruct Hrs as [(-> & _)|(p' & -> & Hp')]; cbn [bind]; [|eauto].
    apply all_lt_app in Hlt as Hlt'.
    apply (merge_rebalanced lo h key (S (length ka')) ea' pe eb ka' l c kb); auto; [tauto|lia].
Qed.

Definition del_ok (h : nat) (n : tree) (key : Z) (exact : option Z) (r : res (tree * dout)) : Prop :=
  let o := dspec exact (find_sorted key (elements n)) in
  exists n', r = Ok (n', o) /\ wfn (length (n_elts n) - 1) h n' /\
             elements n' = after_del key o (elements n).

Definition drec_ok (rec : tree -> Z -> option Z -> res (tree * dout)) (h : nat) : Prop :=
  forall c key exact, wfn (t_min t) h c -> (t_min t < length (n_elts c))%nat -> ksorted (elements c) ->
                      del_ok h c key exact (rec c key exact).

Lemma after_del_in_mid a c b key exact :
  all_lt a key -> all_gt b key ->
  let o := dspec exact (find_sorted key c) in
  after_del key o (a ++ c ++ b) = a ++ after_del key o c ++ b.
Proof.
  intros Ha Hb o. destruct o; cbn [after_del]; try reflexivity. now apply del_sorted_in_mid.
Qed.

Lemma del_tail rec lo h key exact ea eb ka c kb :
  drec_ok rec h ->
  length ka = length ea -> length kb = length eb ->
  wfn lo (S h) (Node false (ea ++ eb) (ka ++ c :: kb)) ->
  (t_min t < length (n_elts c))%nat ->
  ksorted (elements (Node false (ea ++ eb) (ka ++ c :: kb))) ->
  all_lt ea key -> all_gt eb key ->
  let o := dspec exact (find_sorted key (elements (Node false (ea ++ eb) (ka ++ c :: kb)))) in
  exists c', rec c key exact = Ok (c', o) /\
    wfn lo (S h) (Node false (ea ++ eb) (ka ++ c' :: kb)) /\
    elements (Node false (ea ++ eb) (ka ++ c' :: kb)) = after_del key o (elements (Node false (ea ++ eb) (ka ++ c :: kb))).
Proof.
  intros Hrec H1 H2 Hw Hc Hs Hlt Hgt o.
  destruct (kid_bounds t _ _ _ _ _ _ _ key H1 H2 Hw Hs Hlt Hgt) as (Hcw & Hcs & HA & HB).
  destruct (Hrec c key exact Hcw Hc Hcs) as (c' & Hr & Hcw' & Hce).
  assert (Ho : o = dspec exact (find_sorted key (elements c))).
  { unfold o. now rewrite elements_split, find_sorted_in_mid. }
  exists c'. rewrite Ho. split; [assumption|]. split.
  - eapply wfn_replace1; [eassumption|]. eapply (wfn_lo t Ht); [exact Hcw'|].
    pose proof (wfn_len t Ht _ _ _ Hcw'). lia.
  - rewrite !elements_split, Hce by assumption. symmetry. now apply after_del_in_mid.
Qed.

Lemma del_down_spec rec lo h key exact ea eb ka c kb :
  drec_ok rec h ->
  length ka = length ea -> length kb = length eb ->
  wfn lo (S h) (Node false (ea ++ eb) (ka ++ c :: kb)) ->
  (1 <= length (ea ++ eb))%nat ->
  ksorted (elements (Node false (ea ++ eb) (ka ++ c :: kb))) ->
  all_lt ea key -> all_gt eb key ->
  del_ok (S h) (Node false (ea ++ eb) (ka ++ c :: kb)) key exact
         (del_down t rec (Node false (ea ++ eb) (ka ++ c :: kb)) key (length ka) exact).
Proof.
  intros Hrec H1 H2 Hw Hne Hs Hlt Hgt.
  pose proof (wfn_kid t _ _ _ _ _ _ Hw) as Hcw.
  unfold del_down. cbn [n_kids]. rewrite split_at_app by reflexivity. cbn [bind].
  rewrite (is_minimal_ok t Ht _ _ Hcw). cbn [bind].
  pose proof (wfn_len t Ht _ _ _ Hcw) as Hcl.
  destruct (Nat.eqb_spec (length (n_elts c)) (t_min t)) as [Hmin|Hmin]; cbn [bind].
  - (* balance first; the re-search finds the child that has grown *)
    destruct (balance_spec lo h key ea eb ka c kb H1 H2 Hw Hne Hmin Hs Hlt Hgt)
      as (ea1 & eb1 & ka1 & c1 & kb1 & -> & H1' & H2' & Hlt1 & Hgt1 & Hw1 & He1 & Hc1 & _).
    cbn [bind n_elts].
    assert (Hs1 : ksorted (elements (Node false (ea1 ++ eb1) (ka1 ++ c1 :: kb1)))) by now rewrite He1.
    pose proof (node_es_sorted t Ht _ _ _ Hw1 Hs1) as Hes1. cbn [n_elts] in Hes1.
    rewrite search_miss by assumption. cbn [bind].
    rewrite <- H1', split_at_app by reflexivity. cbn [bind].
    pose proof (wfn_kid t _ _ _ _ _ _ Hw1) as Hcw1.
    rewrite (is_minimal_ok t Ht _ _ Hcw1). cbn [bind].
    destruct (Nat.eqb_spec (length (n_elts c1)) (t_min t)); [lia|].
    destruct (del_tail rec _ h key exact ea1 eb1 ka1 c1 kb1 Hrec H1' H2' Hw1 Hc1 Hs1 Hlt1 Hgt1) as (c' & Hr & Hw' & He').
    rewrite He1 in Hr. rewrite Hr. cbn [bind].
    eexists. split; [reflexivity|]. split; [exact Hw'|]. now rewrite He', He1.
  - rewrite split_at_app by reflexivity. cbn [bind].
    destruct (del_tail rec lo h key exact ea eb ka c kb Hrec H1 H2 Hw) as (c' & -> & Hw' & He'); try assumption; [lia|].
    cbn [bind]. eexists. split; [reflexivity|]. split; [|exact He'].
    eapply (wfn_lo t Ht); [exact Hw'|]. cbn [n_elts]. lia.
Qed.

Lemma minimum_spec : forall h lo n, wfn lo h n -> (1 <= lo)%nat ->
  exists e rest, minimum n = Ok e /\ elements n = e :: rest.
Proof.
  induction h as [|h IH]; intros lo n Hw Hlo; inversion Hw as [? [|e es] Hb|? ? [|e es] [|k ks] Hb Hk Hall]; subst;
    try discriminate; try (cbn in Hb; lia).
  - now exists e, es.
  - apply Forall_inv in Hall. destruct (IH _ k Hall) as (m & rest & Hmin & He); [unfold t_min; lia|].
    cbn [minimum]. rewrite Hmin. exists m. eexists. split; [reflexivity|].
    rewrite elements_node. cbn [interleave]. now rewrite He.
Qed.

Lemma replace_key_spec key e : forall fuel h, (h <= fuel)%nat -> forall lo n old,
  wfn lo h n -> ksorted (elements n) -> find_sorted key (elements n) = Some old ->
  exists n', replace_key fuel n key e = Ok (n', old) /\ wfn lo h n' /\
             elements n' = repl_sorted key e (elements n).
Proof.
  induction fuel as [|f IH]; intros h Hf lo n old Hw Hs Hfind.
  { pose proof (wfn_pos t Ht _ _ _ Hw). lia. }
  destruct (key_view_of t Ht key lo h n Hw Hs)
    as [h lf ea v eb ks A B Hsr HA HB Hel Hwx|ea eb Hsr Hlt Hgt|h ea eb ka c kb Hsr _ _ H1 H2 Hc Hcs HA HB];
    cbn [replace_key]; rewrite Hsr; cbn [bind].
  - rewrite split_at_app by reflexivity. cbn [bind].
    rewrite Hel, find_sorted_at in Hfind by assumption. injection Hfind as <-.
    eexists. split; [reflexivity|]. split; [apply Hwx|]. now rewrite !Hel, repl_sorted_at.
  - cbn [elements] in Hfind. rewrite (find_sorted_in_mid ea [] eb) in Hfind by assumption. discriminate.
  - rewrite split_at_app by assumption. cbn [bind].
    rewrite elements_split, find_sorted_in_mid in Hfind by assumption.
    destruct (IH h ltac:(lia) _ c old Hc Hcs Hfind) as (c' & -> & Hc' & Hec). cbn [bind].
    eexists. split; [reflexivity|]. split; [eapply wfn_replace1; eassumption|].
    now rewrite !elements_split, Hec, repl_sorted_in_mid by assumption.
Qed.

(* the key stands in an internal node: its successor, the least element of the child to its
   right, is deleted from there and then put in the key's place *)
Lemma del_succ_spec rec fuel lo h key v ea eb ka cl cr kb :
  let n := Node false (ea ++ (key, v) :: eb) (ka ++ cl :: cr :: kb) in
  drec_ok rec h -> (S h <= fuel)%nat ->
  length ka = length ea -> length kb = length eb -> wfn lo (S h) n -> ksorted (elements n) ->
  exists n',
    (do (_, rk, _) <- split_at (S (length ea)) (ka ++ cl :: cr :: kb);
     do succ <- minimum rk;
     do (n1, o) <- del_down t rec n (fst succ) (S (length ea)) None;
     match o with
     | DDel selt => do (n2, old) <- replace_key fuel n1 key selt; Ok (n2, DDel old)
     | _ => Internal eAssert
     end) = Ok (n', DDel (key, v)) /\
    wfn (length (n_elts n) - 1) (S h) n' /\ elements n' = del_sorted key (elements n).
Proof.
  intros n Hrec Hf H1 H2 Hw Hs.
  destruct (wfn_kids2 t _ _ _ _ _ _ _ Hw) as (_ & Hcrw).
  rewrite <- H1, split_at_snoc. cbn [bind].
  destruct (minimum_spec h _ cr Hcrw) as ([sk sv] & rest & -> & Hcr); [unfold t_min; lia|]. cbn [bind fst].
  (* the traversal around the key and its successor *)
  set (X := zipl ka ea ++ elements cl). set (Y := rest ++ zipr eb kb).
  assert (Hel : elements n = (X ++ [(key, v)]) ++ (sk, sv) :: Y).
  { unfold n, X, Y. rewrite elements_split2, Hcr by assumption. now rewrite <- !app_assoc. }
  pose proof Hs as Hs'. rewrite Hel in Hs'. apply ksorted_mid in Hs' as (HXs & HYs & _). cbn [fst] in HXs, HYs.
  (* the successor is found in the right child and deleted *)
  assert (Hd : del_ok (S h) n sk None (del_down t rec n sk (S (length ka)) None)).
  { destruct (kid_sorted (ea ++ [(key, v)]) eb (ka ++ [cl]) cr kb) as (_ & _ & _ & _ & Hbound);
      [now rewrite !last_length, H1|assumption|now rewrite <- !app_assoc|].
    destruct (Hbound (sk, sv)) as (Hslt & Hsgt); [rewrite Hcr; now left|].
    unfold n. change (ea ++ (key, v) :: eb) with (ea ++ [(key, v)] ++ eb). change (ka ++ cl :: cr :: kb) with (ka ++ [cl] ++ cr :: kb).
    rewrite !app_assoc, <- (last_length ka cl).
    apply (del_down_spec rec lo); rewrite <- ?app_assoc; try assumption; [now rewrite !last_length, H1|len_lia]. }
  destruct Hd as (n1 & -> & Hn1w & Hn1e). cbn [bind].
  assert (Hn1s : ksorted (elements n1)) by (rewrite Hn1e; now apply after_del_sorted).
  rewrite Hel, find_sorted_at in Hn1e |- * by assumption. cbn [dspec after_del] in Hn1e |- *.
  rewrite del_sorted_at in Hn1e by assumption.
  (* the key is still in the tree; the successor takes its place *)
  rewrite <- app_assoc in Hel, Hn1e |- *. cbn [app] in Hel, Hn1e |- *.
  rewrite Hel in Hs. apply ksorted_mid in Hs as (HX & HY & _). cbn [fst] in HX, HY.
  apply Forall_cons_iff in HY as HY'.
  destruct (replace_key_spec key (sk, sv) fuel (S h) Hf _ n1 (key, v) Hn1w Hn1s) as (n2 & -> & Hn2w & Hn2e).
  { rewrite Hn1e. apply find_sorted_at; tauto. }
  cbn [bind]. exists n2. split; [reflexivity|]. split; [exact Hn2w|].
  now rewrite Hn2e, Hn1e, repl_sorted_at, del_sorted_at by tauto.
Qed.

Lemma del_spec : forall fuel h, (h <= fuel)%nat -> forall (isroot : bool) (n : tree) (key : Z) (exact : option Z),
  wfn (if isroot then root_lo n else t_min t) h n ->
  (isroot = false -> (t_min t < length (n_elts n))%nat) ->
  ksorted (elements n) ->
  del_ok h n key exact (del t fuel isroot n key exact).
Proof.
  induction fuel as [|f IH]; intros h Hf isroot n key exact Hw Hnm Hs.
  { pose proof (wfn_pos t Ht _ _ _ Hw). lia. }
  pose proof (wfn_len t Ht _ _ _ Hw) as Hlen.
  assert (Hmn : (if isroot then Ok false else is_minimal t n) = Ok false).
  { destruct isroot; [reflexivity|]. specialize (Hnm eq_refl). unfold is_minimal.
    destruct (Nat.ltb_spec (length (n_elts n)) (t_min t)); [lia|].
    destruct (Nat.eqb_spec (length (n_elts n)) (t_min t)); [lia|reflexivity]. }
  assert (Hrec : forall h', (h' < h)%nat -> drec_ok (fun c k ex => del t f false c k ex) h').
  { intros h' Hh c k ex Hc Hcl Hcs. apply (IH h' ltac:(lia) false c k ex); auto. }
  assert (Hne : n_leaf n = false -> (1 <= length (n_elts n))%nat).
  { intros Hl. unfold root_lo in Hlen. rewrite Hl in Hlen. destruct isroot; [lia|]. specialize (Hnm eq_refl). lia. }
  clear Hlen Hnm. revert Hw. generalize (if isroot then root_lo n else t_min t). intros lo Hw.
  unfold del_ok. cbn zeta.
  destruct (key_view_of t Ht key lo h n Hw Hs)
    as [h lf ea v eb ks A B Hsr HA HB Hel Hwx|ea eb Hsr Hlt Hgt|h ea eb ka c kb Hsr Hlt Hgt H1 H2 _ _ _ _];
    cbn [del]; rewrite Hmn, Hsr; cbn [bind].
  - (* the key is in this node *)
    rewrite split_at_app by reflexivity. cbn [bind].
    rewrite (Hel (key, v)), find_sorted_at, dspec_found by assumption.
    destruct (exact_mismatch exact (key, v)).
    { eexists. split; [reflexivity|]. split; [|apply Hel]. eapply (wfn_lo t Ht); [apply Hwx|]. cbn. lia. }
    cbn [after_del]. rewrite del_sorted_at by assumption.
    destruct lf.
    + destruct (wfn_leaf_inv t _ _ _ _ Hw) as (-> & -> & Hb).
      eexists. split; [reflexivity|]. split; [constructor; len_lia|].
      cbn [elements] in *. apply ksorted_mid in Hs as (Hlt & Hgt & _).
      now rewrite <- (del_sorted_at ea v eb key), Hel, del_sorted_at.
    + apply wfn_inv in Hw as Hi. destruct Hi as (_ & [(? & _)|(_ & h' & -> & Hk & _)]); [discriminate|].
      destruct (kids_at2 ea (key, v) eb ks Hk) as (ka & cl & cr & kb & -> & H1 & H2).
      destruct (del_succ_spec _ (S f) lo h' key v ea eb ka cl cr kb (Hrec h' (le_n _))) as (n' & -> & Hw' & He');
        try assumption.
      exists n'. split; [reflexivity|]. split; [exact Hw'|]. now rewrite He', Hel, del_sorted_at.
  - (* a leaf without the key *)
    cbn [elements]. rewrite (find_sorted_in_mid ea [] eb) by assumption.
    eexists. split; [destruct exact; reflexivity|]. split; [|destruct exact; reflexivity].
    eapply (wfn_lo t Ht); [exact Hw|]. cbn. lia.
  - rewrite <- H1. apply (del_down_spec _ lo); auto.
Qed.

(* the root collapse: an internal root left without keys hands over to its only child *)
Lemma collapse_root_spec lo h n :
  wfn lo h n -> exists h' root', collapse_root n = Ok root' /\ wfr t h' root' /\ elements root' = elements n.
Proof.
  intros Hw. destruct n as [lf [|e es] ks]; cbn [collapse_root].
  2:{ eexists h, _. split; [reflexivity|]. split; [|reflexivity]. apply (wfr_of t Ht lo); [exact Hw|]. cbn. lia. }
  destruct lf.
  - eexists h, _. split; [reflexivity|]. split; [|reflexivity]. apply (wfr_of t Ht lo); [exact Hw|discriminate].
  - inversion Hw as [|? h' ? ? _ Hk Hall]; subst. destruct ks as [|k [|]]; try discriminate. apply Forall_inv in Hall.
    exists h', k. split; [reflexivity|]. split; [|reflexivity].
    apply (wfr_of t Ht (t_min t)); [exact Hall|]. intros _. apply (wfn_len t Ht) in Hall. unfold t_min in Hall. lia.
Qed.

Theorem delete_tree_spec h root key exact :
  wfr t h root -> ksorted (elements root) ->
  let o := dspec exact (find_sorted key (elements root)) in
  exists h' root',
    delete_tree t root key exact = Ok (root', o) /\
    wfr t h' root' /\ ksorted (elements root') /\
    elements root' = after_del key o (elements root).
Proof.
  intros Hw Hs o. unfold delete_tree. unfold wfr in Hw. rewrite (wfn_depth t _ _ _ Hw).
  destruct (del_spec h h (le_n _) true root key exact Hw ltac:(discriminate) Hs) as (n' & -> & Hw' & He').
  cbn [bind]. fold o in He' |- *.
  destruct (collapse_root_spec _ _ _ Hw') as (h' & root' & -> & Hwr & Her). cbn [bind].
  exists h', root'. rewrite Her, He'. auto using after_del_sorted.
Qed.

End DEL.
