(* C10: further invariants - no Python-level exception escapes from the partial operations of the model
   (`del self.nodes[name]`, the assertion in _add), update_serial at the level of the public call, changed()
   is False only while nothing was touched. *)
From DV Require Import Base.Prelude Model.NameM Model.TxnM.
From DV Require Import Proofs.NameValid Proofs.NameOrder Proofs.NameRel.
From DV Require Import Proofs.TxnName Proofs.TxnStore Proofs.TxnLow Proofs.TxnSim Proofs.TxnThm Proofs.TxnIrrel Proofs.TxnSpec Proofs.TxnAbs.
Open Scope Z_scope.

Definition not_internal {A} (r : res A) : Prop := forall e, r <> Internal e.

Lemma ni_ok {A} (a : A) : not_internal (Ok a).
Proof. intros e H; discriminate. Qed.
Lemma ni_lib {A} e : not_internal (@Lib A e).
Proof. intros e' H; discriminate. Qed.
Lemma ni_bind {A B} (x : res A) (f : A -> res B) :
  not_internal x -> (forall a, x = Ok a -> not_internal (f a)) -> not_internal (bind x f).
Proof. intros Hx Hf. destruct x; cbn; [apply Hf; reflexivity|apply ni_lib|exfalso; eapply Hx; reflexivity]. Qed.

#[local] Hint Resolve ni_ok ni_lib : ni.

Lemma to_rdataset_ni r : not_internal (to_rdataset r).
Proof. unfold to_rdataset. destruct (r_items r); auto with ni. Qed.

Lemma rdataset_from_args_ni d args : not_internal (rdataset_from_args d args).
Proof.
  unfold rdataset_from_args. destruct args as [|a rest]; [destruct d; auto with ni|].
  assert (forall x : res (Z * arg * list arg), not_internal x ->
            not_internal (do x0 <- x; let '(ttl, a1, rest1) := x0 in
                          match a1 with
                          | ARdata ty body aux cls => Ok (Some (from_rdata ttl ty body aux cls), rest1)
                          | _ => Lib eTypeError
                          end)) as K.
  { intros x Hx. apply ni_bind; [exact Hx|]. intros [[t a1] r1] _. destruct a1; auto with ni. }
  destruct a; try (apply K; destruct d; auto with ni).
  - auto with ni.
  - apply ni_bind; [apply to_rdataset_ni|auto with ni].
  - destruct (z >? MAX_TTL); auto with ni. destruct rest; auto with ni.
Qed.

(* with deleting=False a successful parse always yields an rdataset: the `assert rdataset is not None` *)
Lemma rdataset_from_args_false_some args o rest : rdataset_from_args false args = Ok (o, rest) -> o <> None.
Proof.
  unfold rdataset_from_args. destruct args as [|a r]; [discriminate|].
  assert (forall x : res (Z * arg * list arg),
            (do x0 <- x; let '(ttl, a1, rest1) := x0 in
             match a1 with
             | ARdata ty body aux cls => Ok (Some (from_rdata ttl ty body aux cls), rest1)
             | _ => Lib eTypeError
             end) = Ok (o, rest) -> o <> None) as K.
  { intros x. destruct x as [[[t a1] r1]| |]; cbn [bind]; try discriminate.
    destruct a1; try discriminate. intros H; inversion H; discriminate. }
  destruct a; try apply K.
  - intros H; inversion H; discriminate.
  - destruct (to_rdataset r0); cbn [bind]; intros H; inversion H; discriminate.
Qed.

Lemma add_parse_ni a rest : not_internal (add_parse a rest).
Proof.
  unfold add_parse. destruct a; auto with ni.
  - destruct (rdataset_from_args false rest) as [[o r1]| |] eqn:E; cbn [bind fst snd]; auto with ni.
    + apply rdataset_from_args_false_some in E. destruct o; [auto with ni|contradiction].
    + exfalso. eapply rdataset_from_args_ni; eauto.
  - destruct (rdataset_from_args false rest) as [[o r1]| |] eqn:E; cbn [bind fst snd]; auto with ni.
    + apply rdataset_from_args_false_some in E. destruct o; [auto with ni|contradiction].
    + exfalso. eapply rdataset_from_args_ni; eauto.
  - apply ni_bind; [apply to_rdataset_ni|auto with ni].
Qed.

Lemma make_type_ni a : not_internal (make_type a).
Proof. destruct a; cbn; auto with ni. destruct (_ || _); auto with ni. Qed.

Section NoInternal.
  Context {P S : Type}.
  Variable st : store P S.
  Variable c : cfg.
  Hypothesis N_get : forall s n ty cov, not_internal (s_get st s n ty cov).
  Hypothesis N_put : forall s n r, not_internal (s_put st s n r).
  Hypothesis N_del_name : forall s n, not_internal (s_del_name st s n).
  Hypothesis N_del_rds : forall s n ty cov, not_internal (s_del_rds st s n ty cov).
  Hypothesis N_exists : forall s n, not_internal (s_exists st s n).
  Hypothesis N_node : forall s n, not_internal (s_node st s n).

  Lemma hl_add_ni rep args s : not_internal (hl_add st c rep args s).
  Proof.
    unfold hl_add. destruct args as [|a rest]; auto with ni.
    apply ni_bind; [apply add_parse_ni|]. intros [[n r] rest1] _.
    destruct (negb _); auto with ni. destruct (_ && _); auto with ni. destruct rest1; auto with ni.
    apply ni_bind; [|intros; apply N_put].
    destruct rep; auto with ni. apply ni_bind; [apply N_get|auto with ni].
  Qed.

  Lemma hl_delete_common_ni exact n ord rest s : not_internal (hl_delete_common st exact n ord rest s).
  Proof.
    unfold hl_delete_common. destruct rest; auto with ni.
    assert (not_internal (if exact then do ex <- s_exists st s n; if negb ex then Lib eDeleteNotExact else s_del_name st s n
                          else s_del_name st s n)) as K.
    { destruct exact; [|apply N_del_name]. apply ni_bind; [apply N_exists|]. intros b _. destruct (negb b); auto with ni. }
    destruct ord as [[cls ty cov ttl items]|]; [|exact K]. destruct items; [exact K|].
    destruct (negb _); auto with ni. apply ni_bind; [apply N_get|]. intros ex _.
    destruct ex; [|destruct exact; auto with ni]. destruct (exact && _); auto with ni.
    destruct (r_items _); auto.
  Qed.

  Lemma hl_delete_ni exact args s : not_internal (hl_delete st exact args s).
  Proof.
    unfold hl_delete. destruct args as [|a rest]; auto with ni.
    assert (forall n, not_internal (do y <- rdataset_from_args true rest; hl_delete_common st exact n (fst y) (snd y) s)) as Kc.
    { intros n. apply ni_bind; [apply rdataset_from_args_ni|]. intros; apply hl_delete_common_ni. }
    assert (forall n t rest1, not_internal (hl_delete_bytype st exact n t rest1 s)) as Kt.
    { intros n t rest1. unfold hl_delete_bytype. apply ni_bind; [apply make_type_ni|]. intros ty _.
      apply ni_bind.
      - destruct rest1; auto with ni. apply ni_bind; [apply make_type_ni|auto with ni].
      - intros [cov rest2] _. destruct rest2; auto with ni. apply ni_bind; [apply N_get|].
        intros ex _. destruct ex; [apply N_del_rds|destruct exact; auto with ni]. }
    destruct a; auto with ni.
    - destruct rest as [|t rest1]; [apply Kc|]. destruct (is_type_arg t); [apply Kt|apply Kc].
    - destruct rest as [|t rest1]; [apply Kc|]. destruct (is_type_arg t); [apply Kt|apply Kc].
    - apply hl_delete_common_ni.
  Qed.

  Lemma hl_write_ni f t : (forall s, not_internal (f s)) -> not_internal (hl_write (S:=S) f t).
  Proof.
    intros H. unfold hl_write. destruct (t_ended t); auto with ni. destruct (t_ro t); auto with ni.
    apply ni_bind; [apply H|auto with ni].
  Qed.

  (* calls whose name argument is a Name or a str (anything else is an AttributeError of the caller) *)
  Definition is_name_arg (a : arg) : bool := match a with AName _ | AStr _ => true | _ => false end.
  Definition op_named (o : op) : Prop :=
    match o with
    | OSerial _ _ (Some a) | OGet a _ _ | OExists a | OGetNode a => is_name_arg a = true
    | _ => True
    end.

  Lemma name_of_arg_ni a : is_name_arg a = true -> not_internal (name_of_arg a).
  Proof. destruct a; cbn; intros H; try discriminate; auto with ni. Qed.

  Theorem step_never_internal o z t : op_named o -> not_internal (step st c o z t).
  Proof.
    intros Hn. destruct o; cbn [step op_named] in *.
    1-4: apply ni_bind; [apply hl_write_ni; intros; (apply hl_add_ni || apply hl_delete_ni)|auto with ni].
    - apply ni_bind; [|auto with ni]. unfold hl_update_serial.
      destruct (t_ended t); auto with ni. destruct (value <? 0); auto with ni.
      apply ni_bind; [destruct n; [apply name_of_arg_ni; exact Hn|auto with ni]|]. intros n0 _.
      apply ni_bind; [apply N_get|]. intros ex _. destruct ex as [e0|]; auto with ni.
      destruct (r_items e0) as [|[body serial] ?]; auto with ni.
      apply ni_bind.
      + destruct relative; auto with ni. unfold serial_add. destruct (_ >? _); auto with ni.
      + intros ser _. apply hl_write_ni. intros; apply hl_add_ni.
    - destruct (t_ended t); auto with ni. apply ni_bind; [apply name_of_arg_ni; exact Hn|]. intros n0 _.
      apply ni_bind; [apply make_type_ni|]. intros ty' _. apply ni_bind; [apply make_type_ni|]. intros cov' _.
      apply ni_bind; [apply N_get|auto with ni].
    - destruct (t_ended t); auto with ni. apply ni_bind; [apply name_of_arg_ni; exact Hn|]. intros n0 _.
      apply ni_bind; [apply N_exists|auto with ni].
    - destruct (t_ended t); auto with ni.
    - destruct (t_ended t); auto with ni. destruct (s_count st (t_st t)). auto with ni.
    - destruct (t_ended t); auto with ni. apply ni_bind; [apply name_of_arg_ni; exact Hn|]. intros n0 _.
      apply ni_bind; [apply N_node|auto with ni].
    - apply ni_bind; [|auto with ni]. unfold hl_end. destruct (t_ended t); auto with ni.
    - apply ni_bind; [|auto with ni]. unfold hl_end. destruct (t_ended t); auto with ni.
  Qed.

  Lemma run_manual_ni ops : forall z t, Forall op_named ops -> Forall not_internal (fst (run_manual st c ops z t)).
  Proof.
    induction ops as [|o ops IH]; intros z t F; cbn [run_manual]; [constructor|].
    inversion F as [|? ? Fo Fr]; subst. pose proof (step_never_internal o z t Fo) as Hs.
    destruct (step st c o z t) as [[[x z'] t']|e|e]; [| |exfalso; eapply Hs; reflexivity];
      rewrite g_cons_fst; constructor; auto with ni.
  Qed.

  Lemma run_with_ni ops : forall fault z t, Forall op_named ops -> Forall not_internal (fst (run_with st c ops fault z t)).
  Proof.
    induction ops as [|o ops IH]; intros [[|k]|] z t F; cbn [run_with fst]; repeat constructor; auto with ni.
    all: inversion F as [|? ? Fo Fr]; subst; pose proof (step_never_internal o z t Fo) as Hs;
      destruct (step st c o z t) as [[[x z'] t']|e|e]; [| |exfalso; eapply Hs; reflexivity];
      rewrite ?g_cons_fst; repeat constructor; auto with ni.
  Qed.

  Definition spec_named (x : txnspec) : Prop := Forall op_named (x_ops x).

  Theorem run_hist_ni h : forall z, Forall spec_named h ->
    Forall (fun x => Forall not_internal (fst x)) (run_hist st c h z).
  Proof.
    induction h as [|x h IH]; intros z F; cbn [run_hist]; [constructor|].
    inversion F as [|? ? Fx Fh]; subst.
    destruct (run_txn st c x z) as [outs z'] eqn:E. constructor; [|apply IH; exact Fh].
    unfold run_txn in E. cbn. destruct (x_style x =? 1).
    - pose proof (run_with_ni (x_ops x) (x_fault x) z (open_txn st (x_mode x) z) Fx) as K. rewrite E in K. exact K.
    - pose proof (run_manual_ni (x_ops x) z (open_txn st (x_mode x) z) Fx) as K. rewrite E in K. exact K.
  Qed.
End NoInternal.

(* the reference store never raises a Python-level exception ... *)
Lemma rstore_ni c :
  (forall s n ty cov, not_internal (s_get (rstore c) s n ty cov)) /\
  (forall s n r, not_internal (s_put (rstore c) s n r)) /\
  (forall s n, not_internal (s_del_name (rstore c) s n)) /\
  (forall s n ty cov, not_internal (s_del_rds (rstore c) s n ty cov)) /\
  (forall s n, not_internal (s_exists (rstore c) s n)) /\
  (forall s n, not_internal (s_node (rstore c) s n)).
Proof.
  repeat split; intros; cbn [s_get s_put s_del_name s_del_rds s_exists s_node rstore];
    unfold r_get, r_put, r_del_name, r_del_rds, r_exists, r_node;
    (apply ni_bind; [intros e; apply canon_never_internal|intros; try destruct (existsb _ _); auto with ni]).
Qed.

(* ... hence neither does the zone model: in particular `del self.nodes[name]` in delete_rdataset never
   fails (the KeyError of the defect fixed by 2d6b3bb cannot come back without breaking this theorem),
   and the assertion in _add never fires *)
Theorem impl_never_internal c h z l :
  wfc c -> Forall spec_valid h -> Forall spec_named h -> RP c z l ->
  Forall (fun x => Forall not_internal (fst x)) (impl_hist c h z).
Proof.
  intros W V Nm HP.
  pose proof (refines_hist c h z l W V HP) as Rf.
  destruct (rstore_ni c) as (N1 & N2 & N3 & N4 & N5 & N6).
  pose proof (run_hist_ni (rstore c) c N1 N2 N3 N4 N5 N6 h l Nm) as Ns. fold (spec_hist c h l) in Ns.
  revert Ns. induction Rf as [|x y hx hy [Hxy _] Rf IH]; intros Ns; [constructor|].
  inversion Ns; subst. constructor; [rewrite Hxy; assumption|apply IH; assumption].
Qed.

Section SerialTable.
  Variable c : cfg.
  Hypothesis W : wfc c.

  Lemma canon_empty : canon c [] = Ok (c_origin c).
  Proof. destruct W as [Vo _]. unfold canon. cbn [is_absolute app]. rewrite (mk_name_valid _ Vo). reflexivity. Qed.

  Lemma origin_ok_empty : origin_ok c [] = true.
  Proof. unfold origin_ok, NameM.empty. rewrite (name_eqb_refl []). destruct (name_eqb [] _), (name_eqb [] _); reflexivity. Qed.

  (* storing the new SOA at the origin *)
  Lemma replace_soa s ttl body ser :
    swf (rs_entries s) ->
    exists s', hl_add (rstore c) c true [AName []; ARds (mkRds cIN tSOA 0 ttl [(body, ser)])] s = Ok s' /\
               r_get c s' [] tSOA 0 = Ok (Some (mkRds cIN tSOA 0 ttl [(body, ser)])).
  Proof.
    intros Hwf. unfold hl_add, add_parse. cbn [rdataset_from_args bind fst snd r_cls r_ty].
    change (cIN =? cIN) with true. change (tSOA =? tSOA) with true. cbn [negb andb]. rewrite origin_ok_empty.
    cbn [negb bind s_put rstore].
    destruct (r_put c s [] (mkRds cIN tSOA 0 ttl [(body, ser)])) as [s'|e|e] eqn:Rp.
    2,3: unfold r_put in Rp; rewrite canon_empty in Rp; discriminate.
    exists s'. split; [reflexivity|].
    rewrite (r_get_put c s [] (mkRds cIN tSOA 0 ttl [(body, ser)]) s' [] (c_origin c) (c_origin c) tSOA 0 Hwf eq_refl canon_empty canon_empty Rp).
    rewrite name_eqb_refl. reflexivity.
  Qed.

  (* Given a writable, open transaction whose zone has an SOA (body, serial) at the origin, update_serial
     (default name) behaves as follows for EVERY value and both modes. *)
  Theorem update_serial_table s body serial items ttl value relative :
    swf (rs_entries s) ->
    r_get c s [] tSOA 0 = Ok (Some (mkRds cIN tSOA 0 ttl ((body, serial) :: items))) ->
    let t := mkTxn s false false in
    let result := hl_update_serial (rstore c) c value relative None t in
    if value <? 0 then result = Lib eValueError
    else if relative && (value >? 2147483647) then result = Lib eValueError
    else
      let sum := if relative then (serial mod 4294967296 + value) mod 4294967296 else value mod 4294967296 in
      exists s', result = Ok (mkTxn s' false false) /\
                 r_get c s' [] tSOA 0 = Ok (Some (mkRds cIN tSOA 0 ttl [(body, bump sum)])).
  Proof.
    intros Hwf G t result. subst t result. unfold hl_update_serial. cbn [t_ended t_st t_ro]. unfold NameM.empty.
    destruct (value <? 0) eqn:E0; [reflexivity|]. cbn [bind s_get rstore]. rewrite G. cbn [bind r_items r_ttl].
    assert (forall ser, exists s',
              hl_write (hl_add (rstore c) c true [AName []; ARds (mkRds cIN tSOA 0 ttl [(body, if ser =? 0 then 1 else ser)])])
                       (mkTxn s false false) = Ok (mkTxn s' false false) /\
              r_get c s' [] tSOA 0 = Ok (Some (mkRds cIN tSOA 0 ttl [(body, bump ser)]))) as K.
    { intros ser. unfold hl_write. cbn [t_ended t_ro t_st].
      destruct (replace_soa s ttl body (if ser =? 0 then 1 else ser) Hwf) as (s' & -> & H2). exists s'. auto. }
    destruct relative; cbn [andb]; [|apply K].
    unfold serial_add. rewrite Z.abs_eq by lia. destruct (value >? 2147483647); [reflexivity|apply K].
  Qed.

  (* no SOA at the origin: KeyError *)
  Theorem update_serial_no_soa s value relative :
    0 <= value -> r_get c s [] tSOA 0 = Ok None ->
    hl_update_serial (rstore c) c value relative None (mkTxn s false false) = Lib eKeyError.
  Proof.
    intros Hv G. unfold hl_update_serial. cbn [t_ended t_st]. unfold NameM.empty.
    destruct (value <? 0) eqn:E0; [lia|]. cbn [bind s_get rstore]. rewrite G. reflexivity.
  Qed.
End SerialTable.

(* On the reference store: when the zone has an SOA at its origin, update_serial(value) (relative, default
   name) succeeds for 0 <= value <= 2^31-1 and afterwards the SOA holds the RFC 1982 sum (1 instead of 0),
   with the TTL and the other fields unchanged. *)
Theorem update_serial_effect c s body serial items ttl value :
  wfc c -> swf (rs_entries s) ->
  r_get c s NameM.empty tSOA 0 = Ok (Some (mkRds cIN tSOA 0 ttl ((body, serial) :: items))) ->
  0 <= value <= 2147483647 ->
  exists s',
    hl_update_serial (rstore c) c value true None (mkTxn s false false) = Ok (mkTxn s' false false) /\
    r_get c s' NameM.empty tSOA 0 =
      Ok (Some (mkRds cIN tSOA 0 ttl [(body, bump ((serial mod 4294967296 + value) mod 4294967296))])).
Proof.
  intros W Hwf G Hv. pose proof (update_serial_table c W s body serial items ttl value true Hwf G) as T.
  cbv zeta in T. destruct (value <? 0) eqn:E0; [lia|]. destruct (value >? 2147483647) eqn:E1; [lia|]. exact T.
Qed.

(* As long as changed() is False the private node map of the version is, literally, the map it started
   from: no call that reports success has altered anything without being recorded. *)
Section Changed.
  Variable c : cfg.

  Definition untouched (m0 : nmap) (v : version) : Prop := v_changed v = [] -> v_nodes v = m0.

  Lemma cow_changed v n v1 nd k : maybe_cow c v n = Ok (v1, nd, k) -> v_changed v1 <> [].
  Proof.
    destruct (validate_name c n) as [k0| |] eqn:Ev; [|unfold maybe_cow; rewrite Ev; discriminate..].
    destruct (cow_spec c v n k0 Ev) as (v1' & nd' & -> & _ & _ & H). intros [= <- _ _]. exact H.
  Qed.

  Lemma put_untouched m0 v n r v' : put_rdataset c v n r = Ok v' -> untouched m0 v'.
  Proof.
    unfold put_rdataset. destruct (maybe_cow c v n) as [[[v1 nd] k]| |] eqn:Cw; cbn [bind]; try discriminate.
    intros H; inversion H; subst. intros E. cbn in E. exfalso. eapply cow_changed; eauto.
  Qed.

  Lemma del_rds_untouched m0 v n ty cov v' : delete_rdataset c v n ty cov = Ok v' -> untouched m0 v'.
  Proof.
    unfold delete_rdataset. destruct (maybe_cow c v n) as [[[v1 nd] k]| |] eqn:Cw; cbn [bind]; try discriminate.
    destruct (node_delete nd cIN ty cov).
    - destruct (map_del (v_nodes v1) k); cbn [bind]; try discriminate.
      intros H; inversion H; subst. intros E. cbn in E. exfalso. eapply cow_changed; eauto.
    - intros H; inversion H; subst. intros E. cbn in E. exfalso. eapply cow_changed; eauto.
  Qed.

  Lemma del_name_untouched m0 v n v' : untouched m0 v -> delete_node c v n = Ok v' -> untouched m0 v'.
  Proof.
    intros U. unfold delete_node. destruct (validate_name c n) as [k| |]; cbn [bind]; try discriminate.
    destruct (map_has (v_nodes v) k); intros H; inversion H; subst; [|exact U].
    intros E. exfalso. exact (changed_add_ne _ _ E).
  Qed.

  (* for any calls, malformed names included *)
  Theorem unchanged_is_untouched mode z ops t' :
    final_txn (zstore c) c ops z (open_txn (zstore c) mode z) = Some t' ->
    s_changed (zstore c) (t_st t') = false ->
    v_nodes (t_st t') = v_nodes (t_st (open_txn (zstore c) mode z)).
  Proof.
    intros Hf Hc. rewrite final_txn_g in Hf.
    apply (g_final_inv _ (fun t => untouched (v_nodes (t_st (open_txn (zstore c) mode z))) (t_st t)) ops) in Hf.
    - apply Hf. cbn [s_changed zstore] in Hc. destruct (v_changed (t_st t')); [reflexivity|discriminate].
    - intros o zz t x z1 t1 _ Ht Es.
      apply (step_inv_state (zstore c) c (untouched (v_nodes (t_st (open_txn (zstore c) mode z))))) with (6 := Es); auto.
      + intros s n ty cov r. apply get_cls.
      + intros s n r s' _ _. apply put_untouched.
      + intros s n s'. apply del_name_untouched.
      + intros s n ty cov s' _. apply del_rds_untouched.
    - intros _. reflexivity.
  Qed.

  Theorem changed_is_truthful mode z ops t' :
    Forall op_valid ops ->
    final_txn (zstore c) c ops z (open_txn (zstore c) mode z) = Some t' ->
    s_changed (zstore c) (t_st t') = false ->
    v_nodes (t_st t') = v_nodes (t_st (open_txn (zstore c) mode z)).
  Proof. intros _. apply unchanged_is_untouched. Qed.
End Changed.
