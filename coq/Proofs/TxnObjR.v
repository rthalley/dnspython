(* C10: the rdataset-object model refines the value-level model (and hence the reference store): same
   results for every call of every history, published zones with the same content.  Part 1: the low-level
   operations, by dereferencing rdataset ids (`ov_deref`) onto the node-object model of Proofs/TxnHeap.v. *)
From DV Require Import Base.Prelude Model.NameM Model.TxnM Proofs.ListFacts.
From DV Require Import Proofs.NameValid Proofs.TxnName Proofs.TxnStore Proofs.TxnLow Proofs.TxnSim Proofs.TxnThm
                       Proofs.TxnIrrel Proofs.TxnSpec Proofs.TxnItems Proofs.TxnAbs Proofs.TxnHeap Proofs.TxnCount Proofs.TxnObj.
Open Scope Z_scope.

Definition nval (rh : rheap) (nd : onode) : node := map (rval rh) nd.
Definition ov_deref (v : over) : hver := mkHver (map (nval (ov_rh v)) (ov_nh v)) (ov_nodes v) (ov_changed v).

Definition rids_ok (rh : rheap) (nh : list onode) : Prop := Forall (Forall (fun i => (i < length rh)%nat)) nh.
(* rh' extends rh: every object of rh is in rh', as it was *)
Definition agree_below (rh rh' : rheap) : Prop := agree_upto robj0 (length rh) rh rh'.

Lemma rval_agree rh rh' i : agree_below rh rh' -> (i < length rh)%nat -> rval rh' i = rval rh i /\ rimm rh' i = rimm rh i.
Proof. intros [_ H] Hi. unfold rval, rimm. rewrite H by exact Hi. auto. Qed.

Lemma nval_agree rh rh' nd : agree_below rh rh' -> Forall (fun i => (i < length rh)%nat) nd -> nval rh' nd = nval rh nd.
Proof.
  intros A F. unfold nval. apply map_ext_in. intros i Hi. eapply Forall_forall in F; eauto. apply (rval_agree rh rh' i A F).
Qed.

Lemma heap_agree rh rh' nh : agree_below rh rh' -> rids_ok rh nh -> map (nval rh') nh = map (nval rh) nh.
Proof.
  intros A F. apply map_ext_in. intros nd Hn. eapply Forall_forall in F; eauto. apply nval_agree; auto.
Qed.

Lemma rids_ok_agree rh rh' nh : agree_below rh rh' -> rids_ok rh nh -> rids_ok rh' nh.
Proof.
  intros [L _] F. eapply Forall_impl; [|exact F]. intros nd Hn. eapply Forall_impl; [|exact Hn]. cbn. intros; lia.
Qed.

Lemma ralloc_below rh x imm : agree_below rh (fst (ralloc rh x imm)).
Proof. apply agree_app, agree_refl. Qed.

Lemma ralloc_val rh x imm : rval (fst (ralloc rh x imm)) (snd (ralloc rh x imm)) = x /\
                            rimm (fst (ralloc rh x imm)) (snd (ralloc rh x imm)) = imm /\
                            (snd (ralloc rh x imm) < length (fst (ralloc rh x imm)))%nat /\
                            snd (ralloc rh x imm) = length rh.
Proof.
  unfold ralloc, rval, rimm. cbn [fst snd]. rewrite app_nth2, Nat.sub_diag by lia. cbn.
  rewrite app_length. cbn. repeat split; lia.
Qed.

Lemma inplace_val rh id f rh' :
  (id < length rh)%nat -> o_inplace rh id f = Ok rh' ->
  rval rh' id = f (rval rh id) /\ rimm rh' id = false /\ length rh' = length rh /\ rimm rh id = false.
Proof.
  intros Hid. unfold o_inplace. destruct (rimm rh id) eqn:Ei; [discriminate|]. intros E; inversion E; subst.
  unfold rval, rimm. rewrite nth_lset_same by exact Hid. cbn. rewrite lset_length. auto.
Qed.

(* Set.union / intersection / difference never fail: a new object holding f(value of a); everything that
   existed is as before *)
Lemma setop_spec f rh a :
  (a < length rh)%nat ->
  exists rh' id, o_setop f rh a = Ok (rh', id) /\
                 agree_below rh rh' /\ rval rh' id = f (rval rh a) /\ (id < length rh')%nat.
Proof.
  intros Ha. unfold o_setop, o_clone.
  pose proof (ralloc_below rh (rval rh a) false) as A1. pose proof (ralloc_val rh (rval rh a) false) as (V1 & I1 & B1 & E1).
  destruct (ralloc rh (rval rh a) false) as [h1 cid]. cbn [fst snd] in *.
  destruct (o_inplace h1 cid f) as [h2| |] eqn:Ei; [|unfold o_inplace in Ei; rewrite I1 in Ei; discriminate..].
  destruct (inplace_val h1 cid f h2 B1 Ei) as (V2 & _ & L2 & _).
  pose proof (inplace_agree _ rh h1 cid f h2 A1 (Nat.eq_le_incl _ _ (eq_sym E1)) Ei) as A2. cbn [bind].
  destruct (rimm rh a).
  - pose proof (ralloc_val h2 (rval h2 cid) true) as (V3 & _ & B3 & _). pose proof (ralloc_below h2 (rval h2 cid) true) as A3.
    destruct (ralloc h2 (rval h2 cid) true) as [h3 j]. cbn [fst snd] in *. exists h3, j. split; [reflexivity|].
    split; [exact (agree_trans robj0 _ _ _ _ A2 A3)|]. rewrite V3, V2, V1. auto.
  - exists h2, cid. split; [reflexivity|]. rewrite V2, V1, L2. auto.
Qed.

(* node list surgery commutes with dereferencing *)
Lemma onode_find_val rh nd cls ty cov :
  match onode_find rh nd cls ty cov with Some i => Some (rval rh i) | None => None end = node_find (nval rh nd) cls ty cov.
Proof.
  unfold nval. induction nd as [|i nd IH]; cbn [onode_find map node_find]; [reflexivity|].
  destruct (rds_match (rval rh i) cls ty cov); [reflexivity|exact IH].
Qed.

Lemma onode_find_in rh nd cls ty cov i : onode_find rh nd cls ty cov = Some i -> In i nd.
Proof.
  induction nd as [|j nd IH]; cbn [onode_find]; [discriminate|].
  destruct (rds_match (rval rh j) cls ty cov); [intros H; inversion H; left; reflexivity|intros H; right; auto].
Qed.

Lemma onode_delete_val rh nd cls ty cov : nval rh (onode_delete rh nd cls ty cov) = node_delete (nval rh nd) cls ty cov.
Proof.
  unfold nval. induction nd as [|i nd IH]; cbn [onode_delete map node_delete]; [reflexivity|].
  destruct (rds_match (rval rh i) cls ty cov); [reflexivity|cbn [map]; rewrite IH; reflexivity].
Qed.

Lemma filter_map_comm {A B} (f : A -> B) (p : B -> bool) l : filter p (map f l) = map f (filter (fun x => p (f x)) l).
Proof. induction l as [|x l IH]; cbn; [reflexivity|]. destruct (p (f x)); cbn; rewrite IH; reflexivity. Qed.

Lemma onode_append_val rh nd rid : nval rh (onode_append rh nd rid) = node_append (nval rh nd) (rval rh rid).
Proof.
  unfold onode_append, node_append, nval. destruct nd as [|i nd]; [reflexivity|].
  change (map (rval rh) (i :: nd)) with (rval rh i :: map (rval rh) nd) at 2.
  cbv iota. change (rval rh i :: map (rval rh) nd) with (map (rval rh) (i :: nd)).
  destruct (classify_rds (rval rh rid)); rewrite map_app; cbn [map]; try reflexivity;
    change (rval rh i :: map (rval rh) nd) with (map (rval rh) (i :: nd));
    rewrite (filter_map_comm (rval rh)); reflexivity.
Qed.

Lemma onode_replace_val rh nd rid : nval rh (onode_replace rh nd rid) = node_replace (nval rh nd) (rval rh rid).
Proof. unfold onode_replace, node_replace. rewrite onode_append_val, onode_delete_val. reflexivity. Qed.

Lemma onode_delete_ids rh nd cls ty cov i : In i (onode_delete rh nd cls ty cov) -> In i nd.
Proof.
  induction nd as [|j nd IH]; cbn [onode_delete]; [auto|].
  destruct (rds_match (rval rh j) cls ty cov); [intros H; right; exact H|]. intros [H|H]; [left; exact H|right; auto].
Qed.

Lemma onode_replace_ids rh nd rid i : In i (onode_replace rh nd rid) -> i = rid \/ In i nd.
Proof.
  unfold onode_replace, onode_append. set (d := onode_delete rh nd _ _ _).
  assert (forall j, In j d -> In j nd) as Hd by (intros j; apply onode_delete_ids).
  destruct d as [|x d'] eqn:Ed; [intros [H|[]]; auto|].
  destruct (classify_rds (rval rh rid)); rewrite in_app_iff; intros [H|[H|[]]]; auto;
    try (apply filter_In in H; destruct H as [H _]); right; apply Hd; exact H.
Qed.

Lemma hnode_deref v nid : hnode (hv_heap (ov_deref v)) nid = nval (ov_rh v) (onode_of v nid).
Proof.
  unfold hnode, ov_deref, onode_of. cbn [hv_heap]. change (@nil rds) with (nval (ov_rh v) []). apply map_nth.
Qed.

Lemma hset_map rh (nh : list onode) i nd : hset (map (nval rh) nh) i (nval rh nd) = map (nval rh) (lset nh i nd).
Proof. revert i. induction nh as [|x nh IH]; intros [|i]; cbn; auto. rewrite IH. reflexivity. Qed.

Definition res_map {A B} (f : A -> B) (r : res A) : res B :=
  match r with Ok a => Ok (f a) | Lib e => Lib e | Internal e => Internal e end.

Section Low.
  Variable c : cfg.

  Lemma o_get_node_deref v n :
    h_get_node c (ov_deref v) n =
    res_map (fun on => match on with Some nid => Some (nval (ov_rh v) (onode_of v nid)) | None => None end) (o_get_node c v n).
  Proof.
    unfold h_get_node, o_get_node. destruct (validate_name c n); cbn [bind res_map]; try reflexivity.
    cbn [hv_nodes ov_deref]. destruct (amap_get (ov_nodes v) a); [rewrite hnode_deref|]; reflexivity.
  Qed.

  Lemma o_get_rdataset_deref v n ty cov :
    h_get_rdataset c (ov_deref v) n ty cov =
    res_map (fun o => match o with Some i => Some (rval (ov_rh v) i) | None => None end) (o_get_rdataset c v n ty cov).
  Proof.
    unfold h_get_rdataset, o_get_rdataset. rewrite o_get_node_deref.
    destruct (o_get_node c v n) as [on| |]; cbn [bind res_map]; try reflexivity.
    destruct on as [nid|]; [|reflexivity]. rewrite <- onode_find_val. reflexivity.
  Qed.

  Lemma o_cow_deref v n :
    h_maybe_cow c (ov_deref v) n = res_map (fun x => (ov_deref (fst (fst x)), snd (fst x), snd x)) (o_maybe_cow c v n).
  Proof.
    unfold h_maybe_cow, o_maybe_cow. destruct (validate_name c n) as [k| |]; cbn [bind res_map]; try reflexivity.
    cbn [hv_nodes hv_changed hv_heap ov_deref]. rewrite map_length.
    destruct (amap_get (ov_nodes v) k) as [nid|].
    - destruct (changed_has (ov_changed v) k); cbn [res_map fst snd]; [reflexivity|].
      unfold ov_deref. cbn [ov_rh ov_nh ov_nodes ov_changed]. rewrite map_app. cbn [map].
      pose proof (hnode_deref v nid) as H. unfold ov_deref in H. cbn [hv_heap] in H. rewrite H. reflexivity.
    - cbn [res_map fst snd]. unfold ov_deref. cbn [ov_rh ov_nh ov_nodes ov_changed]. rewrite map_app. reflexivity.
  Qed.

  Lemma o_put_deref v n rid :
    h_put_rdataset c (ov_deref v) n (rval (ov_rh v) rid) = res_map ov_deref (o_put_rdataset c v n rid).
  Proof.
    unfold h_put_rdataset, o_put_rdataset. rewrite o_cow_deref.
    destruct (o_maybe_cow c v n) as [[[v1 nid] k]| |] eqn:Cw; cbn [bind res_map fst snd]; try reflexivity.
    assert (ov_rh v1 = ov_rh v) as Er.
    { unfold o_maybe_cow in Cw. destruct (validate_name c n); cbn [bind] in Cw; try discriminate.
      destruct (amap_get _ _); [destruct (changed_has _ _)|]; inversion Cw; reflexivity. }
    rewrite hnode_deref, Er, <- onode_replace_val. unfold ov_deref at 2. cbn [ov_rh ov_nh ov_nodes ov_changed].
    cbn [hv_heap hv_nodes hv_changed ov_deref]. rewrite Er, hset_map. reflexivity.
  Qed.

  Lemma amap_del_res (m : hmap) k : amap_del m k = amap_del m k.
  Proof. reflexivity. Qed.

  Lemma o_del_rds_deref v n ty cov :
    h_delete_rdataset c (ov_deref v) n ty cov = res_map ov_deref (o_delete_rdataset c v n ty cov).
  Proof.
    unfold h_delete_rdataset, o_delete_rdataset. rewrite o_cow_deref.
    destruct (o_maybe_cow c v n) as [[[v1 nid] k]| |] eqn:Cw; cbn [bind res_map fst snd]; try reflexivity.
    rewrite hnode_deref, <- onode_delete_val.
    destruct (onode_delete (ov_rh v1) (onode_of v1 nid) cIN ty cov) as [|x nd'] eqn:D.
    - cbn [nval map]. cbn [hv_nodes hv_changed hv_heap ov_deref].
      destruct (amap_del (ov_nodes v1) k) as [m| |]; cbn [bind res_map]; try reflexivity.
      unfold ov_deref. cbn [ov_rh ov_nh ov_nodes ov_changed]. change (@nil rds) with (nval (ov_rh v1) []). rewrite hset_map. reflexivity.
    - change (nval (ov_rh v1) (x :: nd')) with (rval (ov_rh v1) x :: nval (ov_rh v1) nd'). cbn [res_map].
      unfold ov_deref. cbn [ov_rh ov_nh ov_nodes ov_changed hv_heap hv_nodes hv_changed].
      change (rval (ov_rh v1) x :: nval (ov_rh v1) nd') with (nval (ov_rh v1) (x :: nd')). rewrite hset_map. reflexivity.
  Qed.

  Lemma o_del_name_deref v n :
    h_delete_node c (ov_deref v) n = res_map ov_deref (o_delete_node c v n).
  Proof.
    unfold h_delete_node, o_delete_node. destruct (validate_name c n) as [k| |]; cbn [bind res_map]; try reflexivity.
    cbn [hv_nodes ov_deref]. destruct (amap_has (ov_nodes v) k); reflexivity.
  Qed.
End Low.

(* the Rdataset copy of an ImmutableRdataset (`trds.update(existing)`) is a faithful copy *)
Lemma fold_add_plain l : forall x, is_singleton (r_ty x) = false -> NoDup (r_items x ++ l) ->
  fold_left rds_add l x = set_items x (r_items x ++ l).
Proof.
  induction l as [|y l IH]; intros x Hs N; cbn [fold_left].
  - rewrite app_nil_r. destruct x; reflexivity.
  - assert (rds_add x y = set_items x (r_items x ++ [y])) as A.
    { unfold rds_add. rewrite Hs. assert (mem y (r_items x) = false) as M.
      { destruct (mem y (r_items x)) eqn:M; [|reflexivity]. apply mem_In in M. exfalso.
        apply NoDup_remove_2 in N. apply N. apply in_or_app. left. exact M. }
      destruct (r_items x) eqn:E; unfold set_add; [reflexivity|]. rewrite M. reflexivity. }
    rewrite A. rewrite IH.
    + cbn [set_items r_items]. rewrite <- app_assoc. reflexivity.
    + exact Hs.
    + cbn [set_items r_items]. rewrite <- app_assoc. exact N.
Qed.

Lemma copy_id ev :
  items_wf ev ->
  fold_left rds_add (r_items ev) (update_ttl (mkRds (r_cls ev) (r_ty ev) (r_cov ev) 0 []) (r_ttl ev)) = ev.
Proof.
  intros [N S1]. unfold update_ttl. cbn [r_items set_ttl r_cls r_ty r_cov].
  destruct (is_singleton (r_ty ev)) eqn:Sg.
  - specialize (S1 eq_refl). destruct ev as [cls ty cov ttl items]. cbn [r_items r_ty r_cls r_cov r_ttl] in *.
    destruct items as [|a [|b items]]; cbn [fold_left]; [reflexivity| |cbn in S1; lia].
    unfold rds_add. cbn [r_items r_ty set_items]. reflexivity.
  - rewrite fold_add_plain; [destruct ev; reflexivity|exact Sg|exact N].
Qed.

Lemma filter_len_le {A} (p : A -> bool) l : (length (filter p l) <= length l)%nat.
Proof. induction l as [|x l IH]; cbn; [lia|]. destruct (p x); cbn; lia. Qed.

Lemma intersection_wf e r : items_wf e -> items_wf (rds_intersection e r).
Proof.
  intros He. pose proof (update_ttl_wf e (r_ttl r) He) as [N S1]. unfold rds_intersection, items_wf.
  cbn [r_items r_ty set_items]. split; [apply NoDup_filter; exact N|].
  intros Sg. specialize (S1 Sg). eapply Nat.le_trans; [apply filter_len_le|exact S1].
Qed.

Definition rwf (rh : rheap) : Prop := Forall (fun o => items_wf (ro_val o)) rh.

Lemma rwf_val rh i : rwf rh -> (i < length rh)%nat -> items_wf (rval rh i).
Proof. intros H Hi. unfold rval. eapply Forall_forall in H; [exact H|]. apply nth_In. exact Hi. Qed.

Lemma ralloc_rwf rh x imm : rwf rh -> items_wf x -> rwf (fst (ralloc rh x imm)).
Proof. intros H Hx. unfold ralloc. cbn [fst]. apply Forall_app. split; [exact H|constructor; [exact Hx|constructor]]. Qed.

Lemma lset_forall {A} (Q : A -> Prop) l i x : Forall Q l -> Q x -> Forall Q (lset l i x).
Proof. revert i. induction l as [|y l IH]; intros [|i] H Hx; cbn; auto; inversion H; subst; constructor; auto. Qed.

Lemma inplace_rwf rh id f rh' : rwf rh -> (id < length rh)%nat -> (forall x, items_wf x -> items_wf (f x)) ->
  o_inplace rh id f = Ok rh' -> rwf rh'.
Proof.
  intros H Hid Hf. unfold o_inplace. destruct (rimm rh id); [discriminate|]. intros E; inversion E; subst.
  apply lset_forall; [exact H|]. cbn. apply Hf. apply rwf_val; auto.
Qed.

Lemma setop_rwf f rh a rh' id : rwf rh -> (a < length rh)%nat -> (forall x, items_wf x -> items_wf (f x)) ->
  o_setop f rh a = Ok (rh', id) -> rwf rh'.
Proof.
  intros H Ha Hf. unfold o_setop, o_clone.
  pose proof (ralloc_rwf rh (rval rh a) false H (rwf_val rh a H Ha)) as H1.
  pose proof (ralloc_val rh (rval rh a) false) as (_ & _ & B1 & _).
  destruct (ralloc rh (rval rh a) false) as [h1 cid]. cbn [fst snd] in *.
  destruct (o_inplace h1 cid f) as [h2| |] eqn:Ei; cbn [bind]; try discriminate.
  pose proof (inplace_rwf h1 cid f h2 H1 B1 Hf Ei) as H2.
  destruct (inplace_val h1 cid f h2 B1 Ei) as (_ & _ & L2 & _).
  destruct (rimm rh a); intros E; inversion E; subst; [|exact H2].
  apply ralloc_rwf; [exact H2|]. apply rwf_val; [exact H2|lia].
Qed.

(* the relation with the value-level version *)
Definition RO (v : over) (zv : version) : Prop :=
  RSh (ov_deref v) zv /\ rids_ok (ov_rh v) (ov_nh v) /\ rwf (ov_rh v).

Lemma rids_ok_app rh nh nd : rids_ok rh nh -> Forall (fun i => (i < length rh)%nat) nd -> rids_ok rh (nh ++ [nd]).
Proof. intros H Hn. apply Forall_app. split; [exact H|constructor; [exact Hn|constructor]]. Qed.

Lemma rids_ok_nth rh nh nid : rids_ok rh nh -> Forall (fun i => (i < length rh)%nat) (nth nid nh []).
Proof.
  intros H. destruct (Nat.lt_ge_cases nid (length nh)) as [L|L].
  - eapply Forall_forall in H; [exact H|]. apply nth_In. exact L.
  - rewrite nth_overflow by exact L. constructor.
Qed.

Section Front.
  Variable c : cfg.

  Lemma res_rel_map {A B C} (Rl : B -> C -> Prop) (f : A -> B) (x : res A) (y : res C) :
    res_rel Rl (res_map f x) y -> res_rel (fun a c0 => Rl (f a) c0) x y.
  Proof. destruct x, y; cbn; auto. Qed.

  Lemma with_rh_RO v zv rh' : RO v zv -> agree_below (ov_rh v) rh' -> rwf rh' -> RO (with_rh v rh') zv.
  Proof.
    intros (H1 & H2 & H3) A W. split; [|split; [eapply rids_ok_agree; eauto|exact W]].
    unfold ov_deref, with_rh in *. cbn [ov_rh ov_nh ov_nodes ov_changed] in *. rewrite (heap_agree _ _ _ A H2). exact H1.
  Qed.

  Lemma RO_get v zv n ty cov :
    RO v zv ->
    res_map (fun o => match o with Some i => Some (rval (ov_rh v) i) | None => None end) (o_get_rdataset c v n ty cov)
    = get_rdataset c zv n ty cov.
  Proof. intros (H1 & _). rewrite <- o_get_rdataset_deref. apply hsim_get. exact H1. Qed.

  Lemma RO_get_bound v zv n ty cov e : RO v zv -> o_get_rdataset c v n ty cov = Ok (Some e) -> (e < length (ov_rh v))%nat.
  Proof.
    intros (_ & H2 & _). unfold o_get_rdataset. destruct (o_get_node c v n) as [on| |]; cbn [bind]; try discriminate.
    destruct on as [nid|]; [|discriminate]. intros H; inversion H as [F]. apply onode_find_in in F.
    pose proof (rids_ok_nth _ _ nid H2) as K. eapply Forall_forall in K; eauto.
  Qed.

  Lemma RO_node v zv n : RO v zv ->
    res_map (fun on => match on with Some nid => Some (onode_val v nid) | None => None end) (o_get_node c v n) = get_node c zv n.
  Proof. intros (H1 & _). rewrite <- (hsim_node c (ov_deref v) zv n H1), o_get_node_deref. reflexivity. Qed.

  (* copy-on-write touches no rdataset object, and the new node object holds ids the old one held *)
  Lemma o_cow_rids v n v1 nid k :
    rids_ok (ov_rh v) (ov_nh v) -> o_maybe_cow c v n = Ok (v1, nid, k) ->
    ov_rh v1 = ov_rh v /\ rids_ok (ov_rh v) (ov_nh v1).
  Proof.
    intros H2. unfold o_maybe_cow. destruct (validate_name c n); cbn [bind]; try discriminate.
    destruct (amap_get _ _) as [i|]; [destruct (changed_has _ _)|]; intros [= <- _ _]; cbn [ov_rh ov_nh]; split; auto;
      (apply rids_ok_app; [exact H2|]); [apply rids_ok_nth; exact H2|constructor].
  Qed.

  Lemma rids_ok_lset rh nh nid nd :
    rids_ok rh nh -> (forall i, In i nd -> (i < length rh)%nat \/ In i (nth nid nh [])) -> rids_ok rh (lset nh nid nd).
  Proof.
    intros H Hn. apply lset_forall; [exact H|]. apply Forall_forall. intros i Hi. destruct (Hn i Hi) as [L|Hin]; [exact L|].
    pose proof (rids_ok_nth _ _ nid H) as K. eapply Forall_forall in K; eauto.
  Qed.

  Lemma RO_put v zv n rid :
    RO v zv -> (rid < length (ov_rh v))%nat ->
    res_rel RO (o_put_rdataset c v n rid) (put_rdataset c zv n (rval (ov_rh v) rid)).
  Proof.
    intros (H1 & H2 & H3) Hr.
    pose proof (hsim_put c (ov_deref v) zv n (rval (ov_rh v) rid) H1) as S. rewrite o_put_deref in S.
    apply res_rel_map in S.
    destruct (o_put_rdataset c v n rid) as [v'| |] eqn:Ep, (put_rdataset c zv n (rval (ov_rh v) rid)) as [zv'| |];
      cbn in S |- *; try contradiction; auto.
    split; [exact S|].
    unfold o_put_rdataset in Ep. destruct (o_maybe_cow c v n) as [[[v1 nid] k]| |] eqn:Cw; cbn [bind] in Ep; try discriminate.
    destruct (o_cow_rids v n v1 nid k H2 Cw) as [Er Hk]. injection Ep as <-. cbn [ov_rh ov_nh]. rewrite Er.
    split; [|exact H3]. apply rids_ok_lset; [exact Hk|].
    intros i Hi. apply onode_replace_ids in Hi. destruct Hi as [->|Hi]; auto.
  Qed.

  (* storing an object known by its value *)
  Corollary RO_put_val v zv n u x :
    RO v zv -> (u < length (ov_rh v))%nat -> rval (ov_rh v) u = x ->
    res_rel RO (o_put_rdataset c v n u) (put_rdataset c zv n x).
  Proof. intros HR Hu <-. apply RO_put; assumption. Qed.

  Lemma RO_del_rds v zv n ty cov :
    RO v zv -> res_rel RO (o_delete_rdataset c v n ty cov) (delete_rdataset c zv n ty cov).
  Proof.
    intros (H1 & H2 & H3).
    pose proof (hsim_del_rds c (ov_deref v) zv n ty cov H1) as S. rewrite o_del_rds_deref in S.
    apply res_rel_map in S.
    destruct (o_delete_rdataset c v n ty cov) as [v'| |] eqn:Ep, (delete_rdataset c zv n ty cov) as [zv'| |];
      cbn in S |- *; try contradiction; auto.
    split; [exact S|].
    unfold o_delete_rdataset in Ep. destruct (o_maybe_cow c v n) as [[[v1 nid] k]| |] eqn:Cw; cbn [bind] in Ep; try discriminate.
    destruct (o_cow_rids v n v1 nid k H2 Cw) as [Er Hk].
    assert (rids_ok (ov_rh v) (lset (ov_nh v1) nid (onode_delete (ov_rh v1) (onode_of v1 nid) cIN ty cov))) as Hl
      by (apply rids_ok_lset; [exact Hk|]; intros i Hi; right; eapply onode_delete_ids; eauto).
    destruct (onode_delete (ov_rh v1) (onode_of v1 nid) cIN ty cov); [destruct (amap_del (ov_nodes v1) k); try discriminate|];
      injection Ep as <-; cbn [ov_rh ov_nh]; rewrite Er; split; assumption.
  Qed.

  Lemma RO_del_name v zv n : RO v zv -> res_rel RO (o_delete_node c v n) (delete_node c zv n).
  Proof.
    intros (H1 & H2 & H3).
    pose proof (hsim_del_name c (ov_deref v) zv n H1) as S. rewrite o_del_name_deref in S. apply res_rel_map in S.
    destruct (o_delete_node c v n) as [v'| |] eqn:Ep, (delete_node c zv n) as [zv'| |]; cbn in S |- *; try contradiction; auto.
    split; [exact S|]. unfold o_delete_node in Ep. destruct (validate_name c n); cbn [bind] in Ep; try discriminate.
    destruct (amap_has _ _); inversion Ep; subst; cbn [ov_rh ov_nh]; auto.
  Qed.
End Front.

(* _add / _delete on objects vs on values *)
Section FrontEnd.
  Variable c : cfg.

  (* an object-level set operation on a stored rdataset: the store grows, the result is a new object *)
  Lemma RO_setop v zv f rh e :
    RO v zv -> agree_below (ov_rh v) rh -> rwf rh -> (e < length rh)%nat ->
    (forall x, items_wf x -> items_wf (f x)) ->
    exists rh' u, o_setop f rh e = Ok (rh', u) /\
      RO (with_rh v rh') zv /\ rval rh' u = f (rval rh e) /\ (u < length rh')%nat /\ agree_below rh rh'.
  Proof.
    intros HR A W He Hf. destruct (setop_spec f rh e He) as (rh' & u & Es & A2 & V & B).
    exists rh', u. split; [exact Es|]. split; [|auto].
    apply with_rh_RO; [exact HR|eapply (agree_trans robj0); eauto|eapply setop_rwf; eauto].
  Qed.

  Lemma RO_add rep args v zv :
    RO v zv -> Forall arg_items_wf args ->
    res_rel RO (o_add c rep args v) (hl_add (zstore c) c rep args zv).
  Proof.
    intros HR Fw. unfold o_add, hl_add. destruct args as [|a rest]; [reflexivity|].
    destruct (add_parse a rest) as [[[n r] rest1]| |] eqn:Ep; cbn [bind]; try reflexivity.
    pose proof (add_parse_ok items_wf items_wf_closed a rest n r rest1 Fw Ep) as Wr.
    destruct (negb _); [reflexivity|]. destruct (_ && _); [reflexivity|]. destruct rest1; [|reflexivity].
    pose proof HR as (_ & _ & W0).
    pose proof (ralloc_below (ov_rh v) r false) as A1. pose proof (ralloc_val (ov_rh v) r false) as (V1 & _ & B1 & _).
    pose proof (ralloc_rwf (ov_rh v) r false W0 Wr) as W1.
    destruct (ralloc (ov_rh v) r false) as [rh1 rid]. cbn [fst snd] in *.
    pose proof (with_rh_RO v zv rh1 HR A1 W1) as HR1.
    destruct rep; cbn [bind fst snd]; [apply RO_put_val; assumption|].
    cbn [s_get s_put zstore]. rewrite <- (RO_get c (with_rh v rh1) zv n (r_ty r) (r_cov r) HR1).
    destruct (o_get_rdataset c (with_rh v rh1) n (r_ty r) (r_cov r)) as [[e|]| |] eqn:G; cbn [bind res_map fst snd];
      try reflexivity; [|apply RO_put_val; assumption].
    pose proof (RO_get_bound c (with_rh v rh1) zv n _ _ e HR1 G) as Be. cbn [ov_rh with_rh] in Be |- *.
    (* the existing rdataset as a mutable object e' with the same value, in a store rh4 extending rh1 *)
    assert (exists rh4 e', (if rimm rh1 e then _ else Ok (rh1, e)) = Ok (rh4, e') /\
              agree_below rh1 rh4 /\ rwf rh4 /\ (e' < length rh4)%nat /\ rval rh4 e' = rval rh1 e) as (rh4 & e' & -> & A4 & W4 & B4 & V4).
    { destruct (rimm rh1 e); [|exists rh1, e; split; [reflexivity|split; [apply agree_refl|auto]]].
      pose proof (ralloc_below rh1 (mkRds (r_cls (rval rh1 e)) (r_ty (rval rh1 e)) (r_cov (rval rh1 e)) 0 []) false) as A2.
      pose proof (ralloc_val rh1 (mkRds (r_cls (rval rh1 e)) (r_ty (rval rh1 e)) (r_cov (rval rh1 e)) 0 []) false) as (V2 & I2 & B2 & E2).
      assert (rwf (fst (ralloc rh1 (mkRds (r_cls (rval rh1 e)) (r_ty (rval rh1 e)) (r_cov (rval rh1 e)) 0 []) false))) as W2
        by (apply ralloc_rwf; [exact W1|]; split; cbn; [constructor|intros _; lia]).
      destruct (ralloc rh1 _ false) as [rh2 t]. cbn [fst snd] in *.
      destruct (o_inplace rh2 t _) as [rh3| |] eqn:Ein; [|unfold o_inplace in Ein; rewrite I2 in Ein; discriminate..].
      destruct (inplace_val rh2 t _ _ B2 Ein) as (V3 & _ & L3 & _). exists rh3, t. split; [reflexivity|].
      split; [exact (inplace_agree _ rh1 rh2 t _ rh3 A2 (Nat.eq_le_incl _ _ (eq_sym E2)) Ein)|].
      split; [eapply inplace_rwf; [exact W2|exact B2| |exact Ein]; intros x Hx; apply fold_add_wf, update_ttl_wf, Hx|].
      split; [rewrite L3; exact B2|]. rewrite V3, V2. apply copy_id, rwf_val; assumption. }
    cbn [bind]. unfold o_union.
    destruct (RO_setop v zv (fun x => rds_union x (rval rh4 rid)) rh4 e' HR (agree_trans robj0 _ _ _ _ A1 A4) W4 B4
                (fun x Hx => union_wf x _ Hx)) as (rh5 & u & -> & HR5 & V5 & B5 & _).
    cbn [bind fst snd]. apply RO_put_val; [exact HR5|exact B5|].
    cbn [ov_rh with_rh]. rewrite V5, V4. destruct (rval_agree rh1 rh4 rid A4 B1) as [-> _]. rewrite V1. reflexivity.
  Qed.

  Lemma RO_delete_common exact n ord rest v zv :
    RO v zv -> res_rel RO (o_delete_common c exact n ord rest v) (hl_delete_common (zstore c) exact n ord rest zv).
  Proof.
    intros HR. unfold o_delete_common, hl_delete_common. destruct rest; [|reflexivity].
    assert (res_rel RO (if exact then do on <- o_get_node c v n; match on with None => Lib eDeleteNotExact | Some _ => o_delete_node c v n end
                        else o_delete_node c v n)
                       (if exact then do ex <- s_exists (zstore c) zv n; if negb ex then Lib eDeleteNotExact else s_del_name (zstore c) zv n
                        else s_del_name (zstore c) zv n)) as Kname.
    { destruct exact; [|apply RO_del_name; exact HR]. cbn [s_exists s_del_name zstore].
      rewrite <- (RO_node c v zv n HR). destruct (o_get_node c v n) as [on| |]; cbn [bind res_map]; try reflexivity.
      destruct on; cbn [negb]; [apply RO_del_name; exact HR|reflexivity]. }
    destruct ord as [[cls ty cov ttl items]|]; [|exact Kname]. destruct items as [|i items]; [exact Kname|].
    destruct (negb _); [reflexivity|]. cbn [s_get s_put s_del_rds zstore].
    rewrite <- (RO_get c v zv n ty cov HR).
    destruct (o_get_rdataset c v n ty cov) as [[e|]| |] eqn:G; cbn [bind res_map]; try reflexivity;
      [|destruct exact; [reflexivity|exact HR]].
    pose proof (RO_get_bound c v zv n ty cov e HR G) as Be. pose proof HR as (_ & _ & W0).
    set (r := mkRds cls ty cov ttl (i :: items)) in *.
    (* the difference, in any store that extends the one of v (the exact test may have cloned) *)
    assert (forall rhy, agree_below (ov_rh v) rhy -> rwf rhy ->
              res_rel RO (do d <- o_difference rhy e r;
                          match r_items (rval (fst d) (snd d)) with
                          | [] => o_delete_rdataset c (with_rh v (fst d)) n (r_ty (rval (fst d) (snd d))) (r_cov (rval (fst d) (snd d)))
                          | _ => o_put_rdataset c (with_rh v (fst d)) n (snd d)
                          end)
                         (match r_items (rds_difference (rval (ov_rh v) e) r) with
                          | [] => delete_rdataset c zv n (r_ty (rds_difference (rval (ov_rh v) e) r)) (r_cov (rds_difference (rval (ov_rh v) e) r))
                          | _ => put_rdataset c zv n (rds_difference (rval (ov_rh v) e) r)
                          end)) as Kdiff.
    { intros rhy Ay Wy. assert (e < length rhy)%nat as Bey by (destruct Ay; lia). unfold o_difference.
      destruct (RO_setop v zv (fun x => rds_difference x r) rhy e HR Ay Wy Bey (fun x Hx => difference_wf x r Hx))
        as (rhd & d & -> & HRd & Vd & Bd & _).
      cbn [bind fst snd]. destruct (rval_agree (ov_rh v) rhy e Ay Be) as [Ve _]. rewrite Ve in Vd. rewrite Vd.
      destruct (r_items (rds_difference (rval (ov_rh v) e) r)); [apply RO_del_rds; exact HRd|apply RO_put_val; assumption]. }
    destruct exact; cbn [andb bind]; [|apply Kdiff; [apply agree_refl|exact W0]].
    destruct (RO_setop v zv (fun x => rds_intersection x r) (ov_rh v) e HR (agree_refl _ _) W0 Be (fun x Hx => intersection_wf x r Hx))
      as (rhw & w & Ew & HRw & Vw & _ & Aw).
    unfold o_intersection. rewrite Ew. cbn [bind fst snd]. rewrite Vw.
    destruct (negb (rds_eqb (rds_intersection (rval (ov_rh v) e) r) r)); [reflexivity|]. cbn [bind].
    apply Kdiff; [exact Aw|apply HRw].
  Qed.

  Lemma RO_delete_bytype exact n t rest1 v zv :
    RO v zv -> res_rel RO (o_delete_bytype c exact n t rest1 v) (hl_delete_bytype (zstore c) exact n t rest1 zv).
  Proof.
    intros HR. unfold o_delete_bytype, hl_delete_bytype. destruct (make_type t) as [ty| |]; cbn [bind]; try reflexivity.
    destruct (match rest1 with [] => Ok (0, []) | c0 :: rest2 => do cv <- make_type c0; Ok (cv, rest2) end) as [[cov rest2]| |];
      cbn [bind]; try reflexivity.
    destruct rest2; [|reflexivity]. cbn [s_get s_del_rds zstore].
    rewrite <- (RO_get c v zv n ty cov HR).
    destruct (o_get_rdataset c v n ty cov) as [ex| |]; cbn [bind res_map]; try reflexivity.
    destruct ex; [apply RO_del_rds; exact HR|destruct exact; [reflexivity|exact HR]].
  Qed.

  Lemma RO_delete exact args v zv :
    RO v zv -> res_rel RO (o_delete c exact args v) (hl_delete (zstore c) exact args zv).
  Proof.
    intros HR. unfold o_delete, hl_delete. destruct args as [|a rest]; [reflexivity|].
    assert (forall n, res_rel RO (do y <- rdataset_from_args true rest; o_delete_common c exact n (fst y) (snd y) v)
                                 (do y <- rdataset_from_args true rest; hl_delete_common (zstore c) exact n (fst y) (snd y) zv)) as Kc.
    { intros n. destruct (rdataset_from_args true rest) as [[o r1]| |]; cbn [bind fst snd]; try reflexivity.
      apply RO_delete_common; exact HR. }
    destruct a; try reflexivity.
    - destruct rest as [|t rest1]; [apply Kc|]. destruct (is_type_arg t); [apply RO_delete_bytype; exact HR|apply Kc].
    - destruct rest as [|t rest1]; [apply Kc|]. destruct (is_type_arg t); [apply RO_delete_bytype; exact HR|apply Kc].
    - apply RO_delete_common; exact HR.
  Qed.
End FrontEnd.

Section Txns.
  Variable c : cfg.

  Definition RTo (t : txn (S:=over)) (zt : txn (S:=version)) : Prop :=
    RO (t_st t) (t_st zt) /\ t_ro t = t_ro zt /\ t_ended t = t_ended zt.

  (* a published object-level zone and a published value-level zone *)
  Definition RPo (oz : ozone) (z : nmap) : Prop := RO (o_begin oz false) (mkVer z []).

  (* o_write is hl_write at the type of object-level versions *)
  Lemma RO_write f g t zt :
    RTo t zt -> (forall v zv, RO v zv -> res_rel RO (f v) (g zv)) -> res_rel RTo (o_write f t) (hl_write g zt).
  Proof. exact (sim_write RO f g t zt). Qed.

  Lemma RO_count v zv : RO v zv ->
    (zlen (ov_nodes v), fold_right (fun kn acc => zlen (onode_of v (snd kn)) + acc) 0 (ov_nodes v)) = s_count (zstore c) zv.
  Proof.
    intros ((Hn & _) & _). cbn [s_count zstore]. rewrite Hn. unfold deref. cbn [fst snd hv_heap hv_nodes ov_deref].
    f_equal; [unfold zlen; rewrite map_length; reflexivity|].
    induction (ov_nodes v) as [|[k nid] m IH]; cbn [map fold_right fst snd]; [reflexivity|].
    rewrite IH. f_equal. pose proof (hnode_deref v nid) as H. unfold ov_deref in H. cbn [hv_heap] in H.
    rewrite H. unfold zlen, nval. rewrite map_length. reflexivity.
  Qed.

  Lemma RO_changed v zv : RO v zv -> o_changed v = s_changed (zstore c) zv.
  Proof. intros ((_ & Hc & _) & _). unfold o_changed. cbn [s_changed zstore]. rewrite Hc. reflexivity. Qed.

  (* ImmutableVersion wrapping: new objects, same content *)
  Lemma wrap_spec rh ids : forall rh' ids',
    rwf rh -> Forall (fun i => (i < length rh)%nat) ids -> o_wrap_rdatasets rh ids = (rh', ids') ->
    agree_below rh rh' /\ rwf rh' /\ nval rh' ids' = nval rh ids /\ Forall (fun i => (i < length rh')%nat) ids'.
  Proof.
    revert rh. induction ids as [|x ids IH]; intros rh rh' ids' W F; cbn [o_wrap_rdatasets].
    - intros H; inversion H; subst. repeat split; auto.
    - inversion F as [|? ? Fx Fr]; subst.
      pose proof (ralloc_below rh (rval rh x) true) as A1. pose proof (ralloc_val rh (rval rh x) true) as (V1 & _ & B1 & _).
      pose proof (ralloc_rwf rh (rval rh x) true W (rwf_val rh x W Fx)) as W1.
      destruct (ralloc rh (rval rh x) true) as [rh1 j]. cbn [fst snd] in *.
      destruct (o_wrap_rdatasets rh1 ids) as [rh2 js] eqn:E. intros H. injection H as H1 H2. subst rh' ids'.
      assert (Forall (fun i => (i < length rh1)%nat) ids) as Fr1.
      { eapply Forall_impl; [|exact Fr]. cbn. destruct A1. intros; lia. }
      destruct (IH rh1 rh2 js W1 Fr1 E) as (A2 & W2 & V2 & F2).
      split; [eapply (agree_trans robj0); eauto|]. split; [exact W2|]. split.
      + unfold nval in *. cbn [map]. rewrite V2. f_equal.
        * destruct (rval_agree rh1 rh2 j A2 B1) as [-> _]. exact V1.
        * apply map_ext_in. intros i Hi. eapply Forall_forall in Fr; eauto. apply (rval_agree rh rh1 i A1 Fr).
      + constructor; [destruct A2; lia|exact F2].
  Qed.

  Lemma RO_strip v zv : RO v zv -> RO (mkOver (ov_rh v) (ov_nh v) (ov_nodes v) []) (mkVer (v_nodes zv) []).
  Proof. intros ((Hn & _ & Hi & Hd) & H2 & H3). split; [split; [exact Hn|split; [reflexivity|split; assumption]]|split; assumption]. Qed.

  Lemma make_immutable_RPo names : forall rh nh m z,
    RPo (rh, nh, m) z -> RPo (o_make_immutable names (rh, nh, m)) z.
  Proof.
    induction names as [|k names IH]; intros rh nh m z HP; cbn [o_make_immutable]; [exact HP|].
    destruct (amap_get m k) as [nid|] eqn:G; [|apply IH; exact HP].
    destruct (nth nid nh []) as [|x ids] eqn:En; [apply IH; exact HP|].
    destruct HP as ((Hn & Hc & Hi & Hd) & H2 & H3). cbn [o_begin ov_rh ov_nh ov_nodes ov_changed ov_deref hv_heap hv_nodes v_nodes v_changed] in *.
    destruct (o_wrap_rdatasets rh (x :: ids)) as [rh1 ids'] eqn:Ew.
    assert (Forall (fun i => (i < length rh)%nat) (x :: ids)) as Fx by (rewrite <- En; apply rids_ok_nth; exact H2).
    destruct (wrap_spec rh (x :: ids) rh1 ids' H3 Fx Ew) as (A1 & W1 & V1 & F1).
    apply IH. split; [split; [|split; [reflexivity|split]]|split].
    - (* same content *)
      cbn [o_begin ov_rh ov_nh ov_nodes ov_changed ov_deref hv_heap hv_nodes v_nodes].
      rewrite Hn. rewrite map_app. cbn [map]. rewrite (heap_agree rh rh1 nh A1 H2).
      rewrite deref_set. rewrite <- (map_length (nval rh) nh), hnode_app_new, V1, <- En.
      rewrite deref_app by exact Hi.
      (* writing back the value that is already there *)
      assert (map_get (deref (map (nval rh) nh, m)) k = Some (nval rh (nth nid nh []))) as Gk.
      { rewrite deref_get, G. unfold hnode. change (@nil rds) with (nval rh []). rewrite map_nth. reflexivity. }
      symmetry. apply map_set_same. exact Gk.
    - cbn [o_begin ov_rh ov_nh ov_nodes ov_deref hv_heap hv_nodes]. rewrite map_app. cbn [map].
      rewrite (heap_agree rh rh1 nh A1 H2). rewrite <- (map_length (nval rh) nh). apply ids_ok_set. exact Hi.
    - cbn [o_begin ov_nodes ov_deref hv_nodes]. apply nodup_amap_set; [exact Hd|].
      rewrite <- (map_length (nval rh) nh). apply fresh_not_in. exact Hi.
    - cbn [o_begin ov_rh ov_nh]. apply rids_ok_app; [eapply rids_ok_agree; eauto|exact F1].
    - cbn [o_begin ov_rh]. exact W1.
  Qed.

  Lemma RO_publish v zv : RO v zv -> RPo (o_publish c v) (s_publish (zstore c) zv).
  Proof.
    intros HR. pose proof (RO_strip v zv HR) as HS. unfold o_publish. cbn [s_publish zstore].
    destruct (c_kind c =? 0); [exact HS|]. apply make_immutable_RPo. exact HS.
  Qed.

  Lemma RPo_begin oz z b : RPo oz z -> RO (o_begin oz b) (s_begin (zstore c) z b).
  Proof.
    intros HP. destruct oz as [[rh nh] m]. cbn [s_begin zstore o_begin]. destruct b; [|exact HP].
    destruct HP as (_ & H2 & H3). cbn [o_begin ov_rh ov_nh] in *.
    split; [|split; assumption]. split; [reflexivity|split; [reflexivity|split; [intros i []|constructor]]].
  Qed.

  Lemma RO_end commit oz z t zt :
    RPo oz z -> RTo t zt ->
    res_rel (fun a b => RPo (fst a) (fst b) /\ RTo (snd a) (snd b)) (o_end c commit oz t) (hl_end (zstore c) commit z zt).
  Proof.
    intros HP (HR & Hro & Hen). unfold o_end, hl_end. rewrite Hen, Hro, (RO_changed _ _ HR).
    destruct (t_ended zt); [reflexivity|]. cbn [res_rel]. split; cbn [fst snd].
    - destruct (negb (t_ro zt) && commit && s_changed (zstore c) (t_st zt)); [apply RO_publish; exact HR|exact HP].
    - unfold RTo. cbn. auto.
  Qed.

  Definition op_items_ok (o : op) : Prop := op_items_wf o.

  Lemma RO_update_serial value rel nm t zt :
    RTo t zt -> res_rel RTo (o_update_serial c value rel nm t) (hl_update_serial (zstore c) c value rel nm zt).
  Proof.
    intros HT. pose proof HT as (HR & Hro & Hen). unfold o_update_serial, hl_update_serial. rewrite Hen.
    destruct (t_ended zt); [reflexivity|]. destruct (value <? 0); [reflexivity|].
    destruct (match nm with None => Ok NameM.empty | Some a => name_of_arg a end) as [n| |]; cbn [bind]; try reflexivity.
    cbn [s_get zstore]. rewrite <- (RO_get c (t_st t) (t_st zt) n tSOA 0 HR).
    destruct (o_get_rdataset c (t_st t) n tSOA 0) as [ex| |]; cbn [bind res_map]; try reflexivity.
    destruct ex as [e|]; [|reflexivity].
    destruct (r_items (rval (ov_rh (t_st t)) e)) as [|[body serial] ?]; [reflexivity|].
    destruct (if rel then serial_add serial value else Ok (value mod 4294967296)); cbn [bind]; try reflexivity.
    apply RO_write; [exact HT|]. intros v zv Hv. apply RO_add; [exact Hv|].
    constructor; [exact Logic.I|constructor; [|constructor]]. cbn. split; cbn; [repeat constructor; intros []|intros _; lia].
  Qed.

  Lemma RO_step o oz z t zt :
    op_items_wf o -> RPo oz z -> RTo t zt -> res_rel (RStep RPo RTo) (o_step c o oz t) (step (zstore c) c o z zt).
  Proof.
    intros Wo HP HT. pose proof HT as (HR & Hro & Hen).
    destruct o; cbn [o_step step op_items_wf] in *.
    1-4: apply RStep_txn, RO_write; auto; intros; (apply RO_add || apply RO_delete); auto.
    - apply RStep_txn, RO_update_serial; auto.
    - rewrite Hen. destruct (t_ended zt); [reflexivity|].
      destruct (name_of_arg n) as [n0| |]; cbn [bind]; try reflexivity.
      destruct (make_type (AInt ty)) as [ty'| |]; cbn [bind]; try reflexivity.
      destruct (make_type (AInt cov)) as [cov'| |]; cbn [bind]; try reflexivity.
      cbn [s_get zstore]. rewrite <- (RO_get c (t_st t) (t_st zt) n0 ty' cov' HR).
      destruct (o_get_rdataset c (t_st t) n0 ty' cov'); cbn [bind res_map]; try reflexivity. unfold RStep. cbn. auto.
    - rewrite Hen. destruct (t_ended zt); [reflexivity|].
      destruct (name_of_arg n) as [n0| |]; cbn [bind]; try reflexivity.
      cbn [s_exists zstore]. rewrite <- (RO_node c (t_st t) (t_st zt) n0 HR).
      destruct (o_get_node c (t_st t) n0) as [on| |]; cbn [bind res_map]; try reflexivity.
      unfold RStep. cbn. destruct on; auto.
    - rewrite Hen, Hro, (RO_changed _ _ HR). destruct (t_ended zt); [reflexivity|]. unfold RStep. cbn. auto.
    - rewrite Hen. destruct (t_ended zt); [reflexivity|]. rewrite <- (RO_count _ _ HR).
      unfold RStep. cbn [res_rel fst snd]. auto.
    - rewrite Hen. destruct (t_ended zt); [reflexivity|].
      destruct (name_of_arg n) as [n0| |]; cbn [bind]; try reflexivity.
      cbn [s_node zstore]. rewrite <- (RO_node c (t_st t) (t_st zt) n0 HR).
      destruct (o_get_node c (t_st t) n0) as [on| |]; cbn [bind res_map]; try reflexivity.
      unfold RStep. cbn. auto.
    - apply RStep_end, RO_end; auto.
    - apply RStep_end, RO_end; auto.
  Qed.

  Lemma RO_exit clean oz z t zt : RPo oz z -> RTo t zt -> RPo (o_exit c clean oz t) (hl_exit (zstore c) clean z zt).
  Proof.
    intros HP HT. unfold o_exit, hl_exit. pose proof (RO_end clean oz z t zt HP HT) as H.
    destruct (o_end c clean oz t) as [[? ?]| |], (hl_end (zstore c) clean z zt) as [[? ?]| |];
      cbn in *; try contradiction; auto. destruct H. auto.
  Qed.

  Definition ROuto (x : list (res out) * ozone) (y : list (res out) * nmap) : Prop := fst x = fst y /\ RPo (snd x) (snd y).

  Lemma RO_open mode oz z : RPo oz z -> RTo (o_open mode oz) (open_txn (zstore c) mode z).
  Proof.
    intros HP. unfold o_open, open_txn. destruct (mode =? 2); unfold RTo; cbn [t_st t_ro t_ended];
      (split; [apply RPo_begin; exact HP|auto]).
  Qed.

  (* Every history: the rdataset-object model and the value-level model give the same result for every call
     (iterate calls included), and the published objects dereference to the published value. *)
  Theorem obj_refines_value h : forall oz z,
    Forall spec_items_wf h -> RPo oz z ->
    Forall2 ROuto (obj_hist c h oz) (impl_hist c h z).
  Proof.
    intros oz z F HP. unfold impl_hist. rewrite obj_hist_g, run_hist_g.
    apply (g_hist_sim _ _ _ _ _ _ (fun o1 o2 => o1 = o2 /\ op_items_wf o1) RPo RTo);
      auto using RO_exit, RO_open, txn_rel_diag.
    intros o1 o2 z1 z2 t1 t2 [<- Wo]. apply RO_step; exact Wo.
  Qed.
End Txns.

Lemma RPo_empty : RPo ([], [], []) [].
Proof.
  split; [split; [reflexivity|split; [reflexivity|split; [intros i []|constructor]]]|split; constructor].
Qed.

(* what the relation says to an observer: the published objects dereference to the published value *)
Lemma RPo_oderef oz z : RPo oz z -> z = oderef oz.
Proof.
  destruct oz as [[rh nh] m]. intros ((Hn & _) & _). cbn [o_begin ov_deref ov_rh ov_nh ov_nodes v_nodes hv_heap hv_nodes] in Hn.
  rewrite Hn. unfold deref, oderef. cbn [fst snd]. apply map_ext. intros [k nid]. cbn [fst snd]. f_equal.
  unfold hnode, nval. change (@nil rds) with (map (rval rh) []). apply map_nth.
Qed.

(* the whole chain: rdataset objects -> values -> reference store *)
Theorem obj_refines_reference c h oz z l :
  wfc c -> Forall spec_valid h -> Forall spec_items_wf h -> RPo oz z -> RP c z l ->
  Forall2 (fun x y => fst x = fst y /\ exists z', RPo (snd x) z' /\ RP c z' (snd y)) (obj_hist c h oz) (spec_hist c h l).
Proof.
  intros W V Fi HPo HP.
  pose proof (obj_refines_value c h oz z Fi HPo) as R1.
  pose proof (refines_hist c h z l W V HP) as R2.
  pose proof (Forall2_compose _ _ _ _ _ R1 R2) as K.
  eapply Forall2_impl; [|exact K]. intros x y (b & [A1 A2] & [B1 B2]). split; [congruence|]. exists (snd b). auto.
Qed.
