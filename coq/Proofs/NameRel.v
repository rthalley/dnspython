(* C06: the relation / nlabels components of fullcompare, is_subdomain / is_superdomain,
   parent, split, relativize / derelativize. *)
From DV Require Import Base.Prelude Model.NameM Proofs.ListFacts Proofs.NameOrder Proofs.NameValid.
Open Scope Z_scope.

Definition label_eq_dec : forall x y : label, {x = y} + {x <> y} := list_eq_dec Z.eq_dec.

(* length of the longest common prefix of two label sequences *)
Fixpoint lcp (a b : list label) : nat :=
  match a, b with
  | x :: a', y :: b' => if label_eq_dec x y then S (lcp a' b') else O
  | _, _ => O
  end.

(* number of labels of the longest common case-insensitive suffix (independent of fc_loop) *)
Definition common_suffix (a b : name) : nat := lcp (ci_key a) (ci_key b).

(* the relation as a function of the two lengths and the common label count *)
Definition rel_of (la lb k : nat) : Z :=
  if Nat.eqb k la && Nat.eqb k lb then rEQUAL
  else if Nat.eqb k lb then rSUB
  else if Nat.eqb k la then rSUPER
  else if Nat.ltb 0 k then rCOMMON else rNONE.

Lemma lcp_le_l : forall a b, (lcp a b <= length a)%nat.
Proof. induction a; destruct b; cbn; try lia. destruct (label_eq_dec _ _); cbn; [specialize (IHa b)|]; lia. Qed.

Lemma lcp_sym : forall a b, lcp a b = lcp b a.
Proof.
  induction a as [|x a IH]; destruct b as [|y b]; cbn; auto.
  destruct (label_eq_dec x y), (label_eq_dec y x); try congruence.
Qed.

Lemma lcp_le_r : forall a b, (lcp a b <= length b)%nat.
Proof. intros a b. rewrite lcp_sym. apply lcp_le_l. Qed.

Lemma lcp_full_r : forall a b, lcp a b = length b <-> exists q, a = b ++ q.
Proof.
  induction a as [|x a IH]; destruct b as [|y b]; cbn [lcp length].
  - split; eauto. intros _. exists []. reflexivity.
  - split; [discriminate|]. intros [q H]. discriminate.
  - split; eauto. intros _. eexists. reflexivity.
  - destruct (label_eq_dec x y) as [->|n].
    + split.
      * intros H. inversion H as [H1]. apply IH in H1. destruct H1 as [q ->]. exists q. reflexivity.
      * intros [q H]. injection H as Hq. f_equal. apply IH. exists q. exact Hq.
    + split; [discriminate|]. intros [q H]. inversion H. contradiction.
Qed.

(* the loop stops at the first differing label, or when a name is exhausted: then the sign of
   the length difference decides *)
Lemma fc_loop_rel : forall ra rb ld nl,
  let k := lcp (map lower_l ra) (map lower_l rb) in
  fc_loop ra rb ld nl =
    ((if Nat.eqb k (length ra) || Nat.eqb k (length rb)
      then if ld <? 0 then rSUPER else if ld >? 0 then rSUB else rEQUAL
      else if nl + Z.of_nat k >? 0 then rCOMMON else rNONE),
     snd (fst (fc_loop ra rb ld nl)), nl + Z.of_nat k).
Proof.
  induction ra as [|x ra IH]; intros [|y rb] ld nl; cbn [fc_loop map lcp length fst snd];
    rewrite ?Z.add_0_r; try reflexivity.
  destruct (label_eq_dec (lower_l x) (lower_l y)) as [e|ne].
  - rewrite e, cmp_bytes_refl, IH. cbn [fst snd Nat.eqb]. rewrite Nat2Z.inj_succ, Z.add_succ_r, <- Z.add_succ_l.
    reflexivity.
  - destruct (cmp_bytes (lower_l x) (lower_l y)) eqn:E; [apply cmp_bytes_eq in E; contradiction| |];
      rewrite Z.add_0_r; reflexivity.
Qed.

Lemma ci_equal_length a b : ci_equal a b -> length a = length b.
Proof. intros H. apply (f_equal (@length _)) in H. rewrite !map_length in H. exact H. Qed.

(* fullcompare sees its arguments through lower_l only, so everything derived from it respects
   ci_equal in both arguments *)
Lemma fc_loop_ci : forall ra ra' rb rb' ld nl,
  map lower_l ra = map lower_l ra' -> map lower_l rb = map lower_l rb' ->
  fc_loop ra rb ld nl = fc_loop ra' rb' ld nl.
Proof.
  induction ra as [|x ra IH]; intros [|x' ra'] [|y rb] [|y' rb'] ld nl Ha Hb; try discriminate; try reflexivity.
  cbn [map] in Ha, Hb. injection Ha as Hx Ha. injection Hb as Hy Hb.
  cbn [fc_loop]. rewrite Hx, Hy. destruct (cmp_bytes _ _); try reflexivity. apply IH; assumption.
Qed.

Theorem fullcompare_ci a a' b b' : ci_equal a a' -> ci_equal b b' -> fullcompare a b = fullcompare a' b'.
Proof.
  intros Ha Hb. unfold fullcompare, zlen.
  rewrite (ci_equal_absolute _ _ Ha), (ci_equal_absolute _ _ Hb), (ci_equal_length _ _ Ha), (ci_equal_length _ _ Hb).
  destruct (negb _); [reflexivity|]. apply fc_loop_ci; rewrite !map_rev; f_equal; assumption.
Qed.

Lemma name_eqb_ci a a' b b' : ci_equal a a' -> ci_equal b b' -> name_eqb a b = name_eqb a' b'.
Proof. intros Ha Hb. unfold name_eqb, order. rewrite (fullcompare_ci a a' b b' Ha Hb). reflexivity. Qed.

Lemma is_subdomain_ci n n' o : ci_equal n n' -> is_subdomain n o = is_subdomain n' o.
Proof. intros H. unfold is_subdomain, reln. rewrite (fullcompare_ci n n' o o H eq_refl). reflexivity. Qed.

Lemma common_suffix_le_l a b : (common_suffix a b <= length a)%nat.
Proof.
  unfold common_suffix. pose proof (lcp_le_l (ci_key a) (ci_key b)) as H.
  unfold ci_key at 3 in H. rewrite rev_length, map_length in H. exact H.
Qed.

Lemma common_suffix_sym a b : common_suffix a b = common_suffix b a.
Proof. apply lcp_sym. Qed.

Lemma common_suffix_le_r a b : (common_suffix a b <= length b)%nat.
Proof. rewrite common_suffix_sym. apply common_suffix_le_l. Qed.

(* rel_of in the shape the loop computes it *)
Lemma rel_of_loop la lb k : (k <= la)%nat -> (k <= lb)%nat ->
  rel_of la lb k =
    if Nat.eqb k la || Nat.eqb k lb
    then if Z.of_nat la - Z.of_nat lb <? 0 then rSUPER
         else if Z.of_nat la - Z.of_nat lb >? 0 then rSUB else rEQUAL
    else if Z.of_nat k >? 0 then rCOMMON else rNONE.
Proof.
  intros Ha Hb. unfold rel_of.
  destruct (Nat.eqb_spec k la), (Nat.eqb_spec k lb); cbn [andb orb];
    [| | |destruct k; reflexivity];
    destruct (Z.ltb_spec (Z.of_nat la - Z.of_nat lb) 0), (Z.gtb_spec (Z.of_nat la - Z.of_nat lb) 0);
    (reflexivity || lia).
Qed.

(* relation and nlabels against the independent definitions *)
Theorem relation_spec a b :
  is_absolute a = is_absolute b ->
  reln a b = rel_of (length a) (length b) (common_suffix a b) /\
  common a b = Z.of_nat (common_suffix a b).
Proof.
  intros Hab. unfold reln, common, fullcompare. rewrite Hab, eqb_reflx. cbn [negb].
  rewrite fc_loop_rel. cbn [fst snd]. rewrite !map_rev, !rev_length.
  rewrite rel_of_loop by (apply common_suffix_le_l || apply common_suffix_le_r).
  split; reflexivity.
Qed.

Theorem relation_spec_mixed a b :
  is_absolute a <> is_absolute b -> reln a b = rNONE /\ common a b = 0.
Proof.
  intros Hab. unfold reln, common, fullcompare.
  destruct (is_absolute a), (is_absolute b); try congruence; cbn; auto.
Qed.

Lemma rel_of_cases la lb k :
  ((rel_of la lb k =? rSUB) || (rel_of la lb k =? rEQUAL) = true <-> k = lb) /\
  ((rel_of la lb k =? rSUPER) || (rel_of la lb k =? rEQUAL) = true <-> k = la) /\
  (rel_of la lb k = rEQUAL <-> k = la /\ k = lb).
Proof.
  unfold rel_of.
  destruct (Nat.eqb_spec k la), (Nat.eqb_spec k lb); cbn; [| | |destruct k; cbn];
    intuition (discriminate || congruence).
Qed.

(* b is a case-insensitive suffix of a *)
Definition ci_suffix (b a : name) : Prop := exists p s, a = p ++ s /\ ci_equal s b.

Lemma map_eq_app_inv {A B} (f : A -> B) : forall l x y, map f l = x ++ y ->
  exists l1 l2, l = l1 ++ l2 /\ map f l1 = x /\ map f l2 = y.
Proof.
  intros l x. revert l. induction x as [|b x IH]; intros l y H.
  - exists [], l. auto.
  - destruct l as [|a l]; [discriminate|]. cbn in H. inversion H as [[H1 H2]].
    apply IH in H2. destruct H2 as (l1 & l2 & -> & <- & <-). exists (a :: l1), l2. auto.
Qed.

Lemma common_suffix_full a b : common_suffix a b = length b <-> ci_suffix b a.
Proof.
  unfold common_suffix, ci_key, ci_suffix, ci_equal.
  replace (length b) with (length (rev (map lower_l b))) by (rewrite rev_length, map_length; reflexivity).
  rewrite lcp_full_r. split.
  - intros [q H]. apply (f_equal (@rev _)) in H. rewrite rev_app_distr, !rev_involutive in H.
    apply map_eq_app_inv in H. destruct H as (p & s & -> & _ & Hs). eauto.
  - intros (p & s & -> & Hs). exists (rev (map lower_l p)).
    rewrite map_app, rev_app_distr. f_equal. f_equal. exact Hs.
Qed.

Theorem is_subdomain_iff a b :
  is_subdomain a b = true <-> is_absolute a = is_absolute b /\ ci_suffix b a.
Proof.
  unfold is_subdomain.
  destruct (Bool.bool_dec (is_absolute a) (is_absolute b)) as [E|E].
  - destruct (relation_spec a b E) as [-> _].
    rewrite (proj1 (rel_of_cases _ _ _)).
    rewrite common_suffix_full. tauto.
  - destruct (relation_spec_mixed a b E) as [-> _]. cbn. split; [discriminate|tauto].
Qed.

Theorem is_superdomain_flip a b : is_superdomain a b = is_subdomain b a.
Proof.
  unfold is_superdomain, is_subdomain.
  destruct (Bool.bool_dec (is_absolute a) (is_absolute b)) as [E|E].
  - destruct (relation_spec a b E) as [-> _]. destruct (relation_spec b a (eq_sym E)) as [-> _].
    apply eq_true_iff_eq.
    rewrite (proj1 (proj2 (rel_of_cases _ _ _))).
    rewrite (proj1 (rel_of_cases _ _ _)).
    rewrite (common_suffix_sym b a). tauto.
  - destruct (relation_spec_mixed a b E) as [-> _].
    destruct (relation_spec_mixed b a (fun H => E (eq_sym H))) as [-> _]. reflexivity.
Qed.

Corollary is_superdomain_iff a b :
  is_superdomain a b = true <-> is_absolute a = is_absolute b /\ ci_suffix a b.
Proof. rewrite is_superdomain_flip, is_subdomain_iff. intuition congruence. Qed.

Lemma name_eqb_length a b : length a <> length b -> name_eqb a b = false.
Proof.
  intros H. destruct (name_eqb a b) eqn:E; [|reflexivity].
  apply name_eqb_iff_ci, ci_equal_length in E. contradiction.
Qed.

Lemma ci_suffix_refl a : ci_suffix a a.
Proof. exists [], a. split; reflexivity. Qed.

Lemma ci_suffix_app p a : ci_suffix a (p ++ a).
Proof. exists p, a. split; reflexivity. Qed.

(* EQUAL exactly for ci-equal names *)
Theorem reln_equal_iff a b : reln a b = rEQUAL <-> ci_equal a b.
Proof.
  destruct (Bool.bool_dec (is_absolute a) (is_absolute b)) as [E|E].
  - destruct (relation_spec a b E) as [-> _].
    rewrite (proj2 (proj2 (rel_of_cases _ _ _))).
    split.
    + intros [La Lb]. pose proof Lb as F. apply common_suffix_full in F as (p & s & -> & Hs).
      rewrite La, app_length, (ci_equal_length _ _ Hs) in Lb.
      destruct p; [exact Hs|cbn [length] in Lb; lia].
    + intros H. assert (common_suffix a b = length b) as K
        by (apply common_suffix_full; exists [], a; auto).
      split; [rewrite (ci_equal_length _ _ H)|]; exact K.
  - destruct (relation_spec_mixed a b E) as [-> _]. split; [discriminate|].
    intros H. destruct E. apply ci_equal_absolute, H.
Qed.

Lemma is_subdomain_app (p s o : name) :
  ci_equal s o -> is_absolute (p ++ s) = is_absolute s -> is_subdomain (p ++ s) o = true.
Proof.
  intros C A. apply is_subdomain_iff. split; [rewrite A; apply ci_equal_absolute, C|].
  exists p, s. auto.
Qed.

Lemma is_subdomain_suffix (p s o : name) :
  ci_equal s o -> s <> [] -> is_subdomain (p ++ s) o = true.
Proof. intros C Hs. apply is_subdomain_app; [exact C|apply is_absolute_app_ne, Hs]. Qed.

(* how a name stands to one of its own suffixes *)
Lemma suffix_relation (p s : name) : is_absolute (p ++ s) = is_absolute s ->
  is_subdomain (p ++ s) s = true /\ is_superdomain s (p ++ s) = true /\
  common (p ++ s) s = zlen s /\ (p <> [] -> reln (p ++ s) s = rSUB).
Proof.
  intros A. assert (is_subdomain (p ++ s) s = true) as Sd by (apply is_subdomain_app; [reflexivity|exact A]).
  split; [exact Sd|]. split; [rewrite is_superdomain_flip; exact Sd|].
  destruct (relation_spec _ _ A) as [-> ->].
  assert (common_suffix (p ++ s) s = length s) as -> by apply common_suffix_full, ci_suffix_app.
  split; [reflexivity|]. intros Hp. unfold rel_of. rewrite Nat.eqb_refl, app_length.
  destruct (Nat.eqb_spec (length s) (length p + length s)); [destruct p; [congruence|cbn [length] in *; lia]|reflexivity].
Qed.

Theorem parent_spec n p :
  parent n = Ok p ->
  exists l, n = l :: p /\ Valid p /\
    is_subdomain n p = true /\ is_superdomain p n = true /\ common n p = zlen p /\ reln n p = rSUB.
Proof.
  unfold parent, name_eqb, root, empty. destruct ((order n [[]] =? 0) || (order n [] =? 0)) eqn:E; [discriminate|].
  apply orb_false_elim in E as [E1 E2].
  intros H. apply mk_name_ok in H as [-> V].
  destruct n as [|l n]; [rewrite order_refl in E2; discriminate|].
  assert (is_absolute ([l] ++ n) = is_absolute n) as A.
  { destruct n; [|reflexivity]. destruct l; [|reflexivity]. rewrite order_refl in E1. discriminate. }
  destruct (suffix_relation [l] n A) as (Sd & Sp & C & R).
  exists l. split; [reflexivity|]. split; [exact V|]. split; [exact Sd|]. split; [exact Sp|].
  split; [exact C|]. apply R. discriminate.
Qed.

Lemma parent_cons l y (n : name) : Valid (y :: n) -> parent (l :: y :: n) = Ok (y :: n).
Proof.
  intros V. unfold parent. rewrite !name_eqb_length by discriminate. apply mk_name_valid, V.
Qed.

Lemma firstn_skipn_len {A} (l : list A) k : (k <= length l)%nat ->
  length (skipn (length l - k) l) = k.
Proof. intros H. rewrite skipn_length. lia. Qed.

Theorem split_spec n d p s :
  split n d = Ok (p, s) ->
  n = p ++ s /\ zlen s = d /\
  (s <> [] -> is_subdomain n s = true /\ is_superdomain s n = true /\ common n s = d).
Proof.
  assert (forall p s, n = p ++ s -> zlen s = d ->
            n = p ++ s /\ zlen s = d /\
            (s <> [] -> is_subdomain n s = true /\ is_superdomain s n = true /\ common n s = d)) as Fin.
  { intros p0 s0 -> <-. split; [reflexivity|]. split; [reflexivity|]. intros Hs.
    destruct (suffix_relation p0 s0 (is_absolute_app_ne _ _ Hs)) as (? & ? & ? & _). auto. }
  unfold split.
  destruct (Z.eqb_spec d 0) as [->|_]; [intros [= <- <-]; apply Fin; [symmetry; apply app_nil_r|reflexivity]|].
  destruct (Z.eqb_spec d (zlen n)) as [->|_]; [intros [= <- <-]; apply Fin; reflexivity|].
  destruct ((d <? 0) || (d >? zlen n)) eqn:E; [discriminate|]. apply orb_false_elim in E as [E1 E2].
  unfold bind. destruct (mk_name (drop_last _ n)) as [p'| |] eqn:P; try discriminate.
  destruct (mk_name (take_last _ n)) as [s'| |] eqn:S; try discriminate.
  intros [= <- <-]. apply mk_name_ok in P as [-> _], S as [-> _].
  apply Fin; [symmetry; apply firstn_skipn|].
  unfold take_last, zlen in *. rewrite firstn_skipn_len; lia.
Qed.

Lemma ci_equal_label_len : forall a b, ci_equal a b -> map (@length Z) a = map (@length Z) b.
Proof.
  induction a as [|x a IH]; destruct b as [|y b]; intros H; try discriminate; [reflexivity|].
  inversion H as [[H1 H2]]. cbn [map]. f_equal; [|apply IH; exact H2].
  apply (f_equal (@length _)) in H1. unfold lower_l in H1. rewrite !map_length in H1. exact H1.
Qed.

Lemma lower_l_nil_iff l : lower_l l = [] <-> l = [].
Proof. destruct l; cbn; split; congruence. Qed.

Lemma ci_equal_app_inv a b c d : length a = length c -> ci_equal (a ++ b) (c ++ d) -> ci_equal a c /\ ci_equal b d.
Proof.
  unfold ci_equal. rewrite !map_app. intros L H.
  apply app_inj_len in H; [exact H | rewrite !map_length; exact L].
Qed.

Lemma ci_equal_app a b c d : ci_equal a c -> ci_equal b d -> ci_equal (a ++ b) (c ++ d).
Proof. unfold ci_equal. rewrite !map_app. intros H1 H2. f_equal; assumption. Qed.

Lemma validate_labels_ci a b : ci_equal a b -> validate_labels a = validate_labels b.
Proof. intros H. apply validate_labels_lens, ci_equal_label_len, H. Qed.

Lemma Valid_ci a b : ci_equal a b -> Valid a -> Valid b.
Proof. intros H. rewrite <- !validate_iff, (validate_labels_ci a b H). exact (fun V => V). Qed.

Lemma drop_last_app {A} (p s : list A) : drop_last (length s) (p ++ s) = p.
Proof.
  unfold drop_last. rewrite app_length, Nat.add_sub, firstn_app, firstn_all, Nat.sub_diag.
  apply app_nil_r.
Qed.

Lemma derelativize_relative n o : is_absolute n = false -> derelativize n o = mk_name (n ++ o).
Proof. intros H. unfold derelativize, concatenate. rewrite H. reflexivity. Qed.

Lemma derelativize_absolute n o : is_absolute n = true -> derelativize n o = Ok n.
Proof. intros H. unfold derelativize. rewrite H. reflexivity. Qed.

(* relativizing a subdomain of the origin strips the labels standing for the origin; what is
   left is a relative name *)
Lemma relativize_sub (n o : name) : Valid n -> is_subdomain n o = true ->
  exists r o', relativize n o = Ok r /\ n = r ++ o' /\ ci_equal o' o /\ Valid r /\ is_absolute r = false.
Proof.
  intros V Sd. unfold relativize. rewrite Sd.
  apply is_subdomain_iff in Sd as [A (p & s & -> & Hs)].
  assert (Valid p) as Vp by (eapply Valid_prefix; eauto).
  rewrite <- (ci_equal_length _ _ Hs), drop_last_app, (mk_name_valid p Vp).
  exists p, s. split; [reflexivity|]. split; [reflexivity|]. split; [exact Hs|]. split; [exact Vp|].
  destruct s; [|eapply Valid_prefix_relative; eauto].
  destruct o; [|discriminate]. rewrite app_nil_r in A. exact A.
Qed.

(* relativize n o, for n a subdomain of the origin, strips exactly length o labels;
   derelativizing the result restores a name ci-equal to n whose prefix labels are
   byte-identical to those of n.  Holds for every origin, the empty one included. *)
Theorem rel_derel n o :
  Valid n -> is_subdomain n o = true ->
  exists r, relativize n o = Ok r /\ n = r ++ skipn (length r) n /\
    ci_equal (skipn (length r) n) o /\
    derelativize r o = Ok (r ++ o) /\ ci_equal (r ++ o) n.
Proof.
  intros Vn Sd. destruct (relativize_sub n o Vn Sd) as (r & o' & R & -> & Co & _ & Ar).
  exists r. rewrite skipn_app, skipn_all, Nat.sub_diag. cbn [skipn app].
  assert (ci_equal (r ++ o) (r ++ o')) as C by (apply ci_equal_app; [reflexivity|symmetry; exact Co]).
  repeat split; auto.
  rewrite derelativize_relative by exact Ar. apply mk_name_valid. eapply Valid_ci; [symmetry; exact C|exact Vn].
Qed.

(* the converse direction, byte-exact: a relative name derelativized and relativized again *)
Theorem derel_rel r o :
  Valid r -> Valid o -> is_absolute r = false -> is_absolute o = true ->
  Valid (r ++ o) ->
  derelativize r o = Ok (r ++ o) /\ relativize (r ++ o) o = Ok r.
Proof.
  intros Vr Vo Ar Ao V. split.
  - rewrite derelativize_relative by exact Ar. apply mk_name_valid, V.
  - unfold relativize. rewrite is_subdomain_suffix, drop_last_app; [apply mk_name_valid, Vr|reflexivity|].
    intros ->. discriminate.
Qed.

(* outside the origin: relativize leaves the name alone, and so does derelativize for an
   absolute name (a relative name is made absolute - its denotation under the origin) *)
Theorem rel_derel_outside n o :
  is_subdomain n o = false ->
  relativize n o = Ok n /\ (is_absolute n = true -> derelativize n o = Ok n).
Proof.
  intros H. unfold relativize. rewrite H. split; [reflexivity|apply derelativize_absolute].
Qed.
