(* C13 - incremental transfers between versions that may hold RRsets of ANY type: singleton types
   (CNAME, DNAME, NSEC, NXT: one rdata per RRset) and CNAME-kind RRsets (CNAME, RRSIG(CNAME)), provided
   each version obeys "CNAME and other data" (no node with both a CNAME-kind and a regular RRset).
   A name may change from a CNAME to ordinary records (or back) between two versions: the difference
   sequence deletes the old RRsets before it adds the new ones, so dns/node.py never has to evict
   anything and Rdataset.add never replaces a singleton rdata. *)
From DV Require Import Base.Prelude Model.XfrM Proofs.ListFacts Proofs.XfrSets Proofs.XfrSpec Proofs.XfrZone Proofs.XfrDiff
  Proofs.XfrSafety Proofs.XfrBasic Proofs.XfrRun Proofs.XfrSteps.
From Coq Require Import Sorting.Permutation.

Definition rec_g (r : rr) : Prop :=
  r_class r = cIN /\ r_type r <> tSOA /\ 0 <= r_name r /\ ttl_ok (r_ttl r).

Lemma rec_g_in_zone : forall r, rec_g r ->
  (s_type (single r) =? tSOA) && (s_name (single r) =? origin) = false /\ in_zone (s_name (single r)) = true.
Proof.
  intros r (_ & Ht & Hn & _). apply Z.eqb_neq in Ht. cbn [single s_type s_name]. rewrite Ht.
  split; [reflexivity|apply Z.leb_le, Hn].
Qed.

Definition sub_keys (z z' : zone) : Prop := forall k, look z k <> None -> look z' k <> None.

Lemma sub_keys_refl : forall z, sub_keys z z. Proof. intros z k H; exact H. Qed.
Lemma sub_keys_trans : forall a b c, sub_keys a b -> sub_keys b c -> sub_keys a c.
Proof. intros a b c H1 H2 k H. apply H2, H1, H. Qed.

Lemma consistent_sub : forall z z', consistent z' -> sub_keys z z' -> consistent z.
Proof. intros z z' Hc Hs k k' H1 H2. apply Hc; apply Hs; assumption. Qed.

Lemma sub_keys_zset : forall z k oe, look z k <> None -> sub_keys (zset k oe z) z.
Proof.
  intros z k oe Hk k' H. rewrite look_zset in H. destruct (key_eqb k' k) eqn:E; [|exact H].
  apply key_eqb_eq in E. subst. exact Hk.
Qed.

Lemma del1_some_present : forall e d oe, del1 e d = Some oe -> e <> None.
Proof. intros [e|] d oe H; discriminate. Qed.

Lemma dels_sub : forall rs z z', dels z rs = Some z' -> sub_keys z' z.
Proof.
  induction rs as [|r rs IH]; intros z z' H; cbn [dels] in H; [inversion H; apply sub_keys_refl|].
  destruct (del1 (look z (rkey r)) (r_data r)) as [oe|] eqn:E; [|discriminate].
  eapply sub_keys_trans; [apply (IH _ _ H)|]. apply sub_keys_zset. eapply del1_some_present, E.
Qed.

Lemma look_some_in : forall z k, look z k <> None -> In k (map fst z).
Proof.
  induction z as [|[k0 e0] r IH]; intros k H; cbn [look] in H; [congruence|].
  destruct (key_eqb k k0) eqn:E; [left; symmetry; apply key_eqb_eq, E|right; apply IH, H].
Qed.

(* a decision procedure for "CNAME and other data" on a concrete zone *)
Definition consistent_b (z : zone) : bool :=
  forallb (fun k => forallb (fun k' => negb (conflicts k k')) (map fst z)) (map fst z).

Lemma consistent_check : forall z, consistent_b z = true -> consistent z.
Proof.
  intros z H k k' Hk Hk'. unfold consistent_b in H. rewrite forallb_forall in H.
  specialize (H k (look_some_in _ _ Hk)). rewrite forallb_forall in H.
  specialize (H k' (look_some_in _ _ Hk')). apply negb_true_iff, H.
Qed.

Lemma loopn_dels : forall rs p tz tz' rdt inc ser udp so rq, Forall rec_g rs -> consistent tz ->
  dels tz rs = Some tz' ->
  loopn (mkSt p (Some tz) rdt inc ser udp so false false true rq) (map single rs) =
  (mkSt p (Some tz') rdt inc ser udp so false false true rq, None).
Proof.
  induction rs as [|r rs IH]; intros p tz tz' rdt inc ser udp so rq Hf Hq Hd; cbn [map loopn dels] in *.
  - inversion Hd; reflexivity.
  - inversion Hf as [|? ? Hr Hf']; subst. destruct (rec_g_in_zone r Hr) as [H1 H2].
    rewrite (step_rs _ _ _ _ _ _ _ _ _ _ _ H1), H2. cbv zeta. cbn [negb].
    rewrite (t_del_single tz r (proj1 Hr) Hq).
    destruct (del1 (look tz (rkey r)) (r_data r)) as [oe|] eqn:E; [|discriminate]. apply IH; try assumption.
    eapply consistent_sub; [exact Hq|]. apply sub_keys_zset. eapply del1_some_present, E.
Qed.

(* in a deletion section, a record that is not there *)
Lemma step_bad_delete : forall l u p tz cur s0 x, rec_g x -> consistent tz ->
  del1 (look tz (rkey x)) (r_data x) = None ->
  step l (ist u p tz cur s0 false true) (single x) = (ist u p tz cur s0 false true, Some eDeleteNotExact).
Proof.
  intros l u p tz cur s0 x Hg Hc Hdel. destruct (rec_g_in_zone x Hg) as [H1 H2].
  unfold ist. rewrite (step_rs _ _ _ _ _ _ _ _ _ _ _ H1), H2. cbv zeta. cbn [negb].
  rewrite (t_del_single tz x (proj1 Hg) Hc), Hdel. reflexivity.
Qed.

(* every record of the list can be stored without evicting anything and without replacing a singleton *)
Definition adds_ok (z : zone) (rs : list rr) : Prop :=
  forall pre r post, rs = pre ++ r :: post ->
    addable (adds z pre) (rkey r) /\
    (is_singleton (r_type r) = true -> look (adds z pre) (rkey r) = None).

Lemma adds_ok_tail : forall z r rs, adds_ok z (r :: rs) ->
  adds_ok (zput (rkey r) (add1 (look z (rkey r)) (r_ttl r) (r_data r)) z) rs.
Proof. intros z r rs H pre r' post E. apply (H (r :: pre) r' post). rewrite E. reflexivity. Qed.

Lemma loopn_adds : forall rs p tz rdt inc ser udp so rq, Forall rec_g rs -> adds_ok tz rs ->
  loopn (mkSt p (Some tz) rdt inc ser udp so false false false rq) (map single rs) =
  (mkSt p (Some (adds tz rs)) rdt inc ser udp so false false false rq, None).
Proof.
  induction rs as [|r rs IH]; intros p tz rdt inc ser udp so rq Hf Hok; cbn [map loopn adds]; [reflexivity|].
  inversion Hf as [|? ? Hr Hf']; subst. destruct (Hok [] r rs eq_refl) as [Ha Hs]. cbn [adds] in Ha, Hs.
  destruct (rec_g_in_zone r Hr) as [H1 H2]. destruct Hr as (Hc & Ht & _ & Httl).
  rewrite (step_rs _ _ _ _ _ _ _ _ _ _ _ H1), H2. cbv zeta. cbn [negb].
  rewrite (t_add_single_g tz r Hc Ht Httl Ha Hs). apply IH; [assumption|apply adds_ok_tail, Hok].
Qed.

Lemma plain_rec_g : forall rs, Forall plain rs -> Forall rec_g rs.
Proof. intros rs H. eapply Forall_impl; [|exact H]. intros r (A & B & C & D & _). repeat split; assumption || apply D. Qed.

Lemma adds_ok_plain : forall rs z, Forall plain rs -> quiet z -> adds_ok z rs.
Proof.
  intros rs z Hf Hq pre r post E. subst rs. apply Forall_app in Hf. destruct Hf as [Hpre Hr].
  inversion Hr as [|? ? (_ & _ & _ & _ & Hsg & Hk) _]; subst. split; [|congruence].
  apply quiet_addable; [apply quiet_adds; assumption|exact Hk].
Qed.

(* the records D, all of a deletion (dm = true) / addition section, take the transaction from tz to tz' *)
Definition runs_to (dm : bool) (D : list rr) (tz tz' : zone) : Prop :=
  forall u p cur s0, loopn (ist u p tz cur s0 false dm) (map single D) = (ist u p tz' cur s0 false dm, None).

Lemma section_exec : forall u p tz fin a b e D A z1 z2 z3,
  v_soa a <> v_soa fin -> runs_to true D tz z1 -> t_add true z1 (single (soa_rr b)) = Ok z2 -> runs_to false A z2 z3 ->
  loopn (ist u p tz (v_serial a) (single (soa_rr fin)) e false) (map single (soa_rr a :: D ++ soa_rr b :: A)) =
  (ist u p z3 (v_serial b) (single (soa_rr fin)) false false, None).
Proof.
  intros u p tz fin a b e D A z1 z2 z3 Hne HD Hb HA. cbn [map loopn].
  rewrite (step_del_start _ _ _ _ _ _ _ Hne), map_app, loopn_app, HD. cbn [map loopn]. rewrite step_add_start, Hb. apply HA.
Qed.

Lemma section_exec_z : forall u p tz fin a b e D A z1,
  v_soa a <> v_soa fin -> ttl_ok (v_ttl b) -> Forall rec_g D -> Forall rec_g A -> consistent tz ->
  dels tz D = Some z1 -> addable z1 soakey -> adds_ok (zput soakey (v_ttl b, [v_soa b]) z1) A ->
  loopn (ist u p tz (v_serial a) (single (soa_rr fin)) e false) (map single (soa_rr a :: D ++ soa_rr b :: A)) =
  (ist u p (adds (zput soakey (v_ttl b, [v_soa b]) z1) A) (v_serial b) (single (soa_rr fin)) false false, None).
Proof.
  intros u p tz fin a b e D A z1 Hne Httl HD HA Hc Hd Hs Hok.
  apply (section_exec u p tz fin a b e D A z1 (zput soakey (v_ttl b, [v_soa b]) z1) _ Hne);
    [|apply t_add_soa_g; assumption|]; intros u' p' cur s0; [apply loopn_dels|apply loopn_adds]; assumption.
Qed.

(* the records X take a client whose zone is version a to version b *)
Definition sec_runs (a b : version) (X : list rr) : Prop :=
  forall u p tz fin e, v_soa a <> v_soa fin -> zeq tz (zone_of a) ->
  exists tz', loopn (ist u p tz (v_serial a) (single (soa_rr fin)) e false) (map single X) =
              (ist u p tz' (v_serial b) (single (soa_rr fin)) false false, None) /\ zeq tz' (zone_of b).

Inductive chain_runs : version -> list version -> list rr -> Prop :=
| cr_nil : forall v, chain_runs v [] []
| cr_cons : forall v w rest X tail, sec_runs v w X -> chain_runs w rest tail -> chain_runs v (w :: rest) (X ++ tail).

Lemma seqs_app : forall (x : rr) D y A tail, x :: D ++ y :: A ++ tail = (x :: D ++ y :: A) ++ tail.
Proof. intros. cbn [app]. rewrite <- app_assoc. reflexivity. Qed.

Lemma chain_run : forall v0 chain mid, chain_runs v0 chain mid -> forall u p tz fin e,
  (forall v, In v (removelast (v0 :: chain)) -> v_soa v <> v_soa fin) -> zeq tz (zone_of v0) ->
  exists tz', loopn (ist u p tz (v_serial v0) (single (soa_rr fin)) e false) (map single mid) =
              (ist u p tz' (v_serial (last chain v0)) (single (soa_rr fin)) (match chain with [] => e | _ => false end) false, None)
              /\ zeq tz' (zone_of (last chain v0)).
Proof.
  intros v0 chain mid HS. induction HS as [v|v w rest X tail HX HS IH]; intros u p tz fin e Hd Hz.
  - exists tz. auto.
  - destruct (HX u p tz fin e (Hd v (or_introl eq_refl)) Hz) as [tz1 [Hr1 Hz1]].
    destruct (IH u p tz1 fin false) as [tz2 [Hr2 Hz2]]; [intros x Hin; apply Hd; right; exact Hin|exact Hz1|].
    exists tz2. rewrite map_app, loopn_app, Hr1, Hr2.
    assert (E : last (w :: rest) v = last rest w).
    { destruct rest as [|x r']; [reflexivity|]. apply (last_default (x :: r')). discriminate. }
    rewrite E. split; [destruct rest; reflexivity|exact Hz2].
Qed.

Definition single_ok (ke : key * entry) : Prop :=
  let '((n, t, c), (ttl, ds)) := ke in is_singleton t = true -> exists d, ds = [d].

(* every RRset is a non-empty set at or below the origin; a singleton type has one rdata; CNAME and
   other data: no node has both a CNAME-kind and a regular RRset (the apex, which has the SOA,
   therefore has no CNAME) *)
Definition version_wf_g (v : version) : Prop :=
  ttl_ok (v_ttl v) /\ rest_wf0 (v_rest v) /\ Forall single_ok (v_rest v) /\ consistent (zone_of v).

Lemma version_wf_wf_g : forall v, version_wf v -> version_wf_g v.
Proof.
  intros v Hv. pose proof Hv as [Httl Hr]. split; [exact Httl|]. split; [apply rest_wf_wf0, Hr|]. split.
  - destruct Hr as [_ Hf]. eapply Forall_impl; [|exact Hf].
    intros [[[n t] c] [ttl ds]] (_ & _ & _ & _ & _ & Hs & _). cbn. intros E. congruence.
  - apply quiet_consistent, zone_of_quiet, Hv.
Qed.

Lemma body_in_look0 : forall z r, rest_wf0 z -> In r (body z) ->
  exists S0, look z (rkey r) = Some (r_ttl r, S0) /\ In (r_data r) S0 /\ rkey r <> soakey /\ rec_g r.
Proof.
  intros z r Hwf Hin. unfold body in Hin. apply in_flat_map in Hin. destruct Hin as [[k [t ds]] [Hke Hr]].
  rewrite rrs_of_entry_mk in Hr. apply in_map_iff in Hr. destruct Hr as [d [<- Hd]].
  rewrite rkey_mk_rr, r_ttl_mk_rr, r_data_mk_rr. exists ds.
  assert (Hl : look z k = Some (t, ds)) by (apply look_in; [destruct Hwf|]; assumption).
  split; [exact Hl|]. split; [exact Hd|].
  destruct (rest_wf0_entry z k t ds Hwf Hl) as (_ & _ & Httl & Hk & Hn). split; [exact Hk|].
  destruct k as [[n ty] c]. unfold rec_g. cbn in *. split; [reflexivity|]. split; [|split; assumption].
  intros E. apply Hk. unfold soakey. subst ty.
  destruct Hwf as [_ Hf]. rewrite Forall_forall in Hf. apply Hf in Hke. cbn in Hke. destruct Hke as (_ & Ht & _). congruence.
Qed.

Lemma zminus_nil : forall b, zminus b [] = body b.
Proof. intros b. unfold zminus. apply filter_all. intros r _. reflexivity. Qed.

Lemma zminus_rec_g : forall a b, rest_wf0 a -> Forall rec_g (zminus a b).
Proof.
  intros a b Ha. unfold zminus. apply Forall_forall. intros r Hr. apply filter_In in Hr. destruct Hr as [Hr _].
  destruct (body_in_look0 a r Ha Hr) as (_ & _ & _ & _ & H). exact H.
Qed.

Lemma look_single : forall z k t ds, Forall single_ok z -> look z k = Some (t, ds) ->
  is_singleton (let '(_, ty, _) := k in ty) = true -> exists d, ds = [d].
Proof.
  intros z k t ds Hf Hl Hs. apply rest_wf_look in Hl. rewrite Forall_forall in Hf. apply Hf in Hl.
  destruct k as [[n ty] c]. cbn in *. apply Hl, Hs.
Qed.

Lemma rr_ext : forall r r', r_class r = cIN -> r_class r' = cIN -> rkey r = rkey r' ->
  r_ttl r = r_ttl r' -> r_data r = r_data r' -> r = r'.
Proof.
  intros [n c t cv ttl d] [n' c' t' cv' ttl' d']. unfold rkey. cbn. intros -> -> E -> ->. inversion E. reflexivity.
Qed.

Lemma NoDup_app_intro : forall {A} (l1 l2 : list A), NoDup l1 -> NoDup l2 ->
  (forall x, In x l1 -> ~ In x l2) -> NoDup (l1 ++ l2).
Proof.
  induction l1 as [|a l1 IH]; intros l2 H1 H2 Hd; cbn [app]; [exact H2|].
  inversion H1; subst. constructor.
  - rewrite in_app_iff. intros [H|H]; [auto|]. apply (Hd a); [left; reflexivity|exact H].
  - apply IH; [assumption|assumption|]. intros x Hx. apply Hd. right; exact Hx.
Qed.

Lemma NoDup_body : forall z, rest_wf0 z -> NoDup (body z).
Proof.
  induction z as [|[k [t ds]] z IH]; intros [Hnd Hf]; unfold body; cbn [flat_map]; [constructor|].
  inversion Hnd as [|? ? Hni Hnd']; subst. inversion Hf as [|? ? He Hf']; subst.
  rewrite rrs_of_entry_mk. apply NoDup_app_intro.
  - destruct k as [[n ty] c]. cbn in He. destruct He as (_ & _ & _ & _ & Hs).
    apply FinFun.Injective_map_NoDup; [|apply ssorted_NoDup, Hs].
    intros d d' E. cbn in E. inversion E. reflexivity.
  - apply IH. split; assumption.
  - intros x Hx Hx'. apply in_map_iff in Hx. destruct Hx as [d [<- _]].
    fold (body z) in Hx'. destruct (body_in_look0 z _ (conj Hnd' Hf') Hx') as (S0 & Hl & _).
    rewrite rkey_mk_rr in Hl. apply rest_wf_look in Hl. apply Hni. apply (in_map fst) in Hl. exact Hl.
Qed.

Lemma body_singleton_eq : forall z r r', rest_wf0 z -> Forall single_ok z -> In r (body z) -> In r' (body z) ->
  rkey r' = rkey r -> is_singleton (r_type r) = true -> r = r'.
Proof.
  intros z r r' Hz Sz Hr Hr' Ek Hs.
  destruct (body_in_look0 z r Hz Hr) as (S0 & Hl & Hd & _ & Hg).
  destruct (body_in_look0 z r' Hz Hr') as (S1 & Hl' & Hd' & _ & Hg').
  destruct (look_single z (rkey r) _ _ Sz Hl Hs) as [d ->]. destruct Hd as [Hd|[]].
  rewrite Ek, Hl in Hl'. inversion Hl' as [[Et ES]]. subst S1. destruct Hd' as [Hd'|[]].
  apply rr_ext; [apply Hg|apply Hg'|symmetry; exact Ek|exact Et|congruence].
Qed.

(* what the exact deletions leave of an entry is part of the new entry *)
Lemma after_del_some : forall ea eb, wf_oe ea -> after_del ea eb <> None -> eb <> None.
Proof.
  intros ea eb Ha H Eb. subst eb. apply H. destruct ea as [[t Sa]|]; [|reflexivity]. destruct Ha as [Hne _].
  rewrite after_del_kept by exact Hne. cbn [has_in]. rewrite filter_none by reflexivity. reflexivity.
Qed.

(* the additions of a difference a -> b, in any order, never evict and never replace; zb is what the
   deletions left *)
Lemma adds_ok_perm : forall a b zb A,
  rest_wf0 a -> rest_wf0 b -> Forall single_ok a -> Forall single_ok b ->
  (forall k k', (k = soakey \/ look b k <> None) -> (k' = soakey \/ look b k' <> None) -> conflicts k k' = false) ->
  (forall k, k <> soakey -> look zb k = after_del (look a k) (look b k)) ->
  Permutation A (zminus b a) ->
  adds_ok zb A.
Proof.
  intros a b zb A Ha Hb Sa Sb Hcons Hz1 PA pre r post E.
  assert (HinA : forall x, In x A -> In x (body b) /\ has_rr a x = false).
  { intros x Hx. apply (Permutation_in _ PA) in Hx. unfold zminus in Hx. apply filter_In in Hx.
    destruct Hx as [H1 H2]. apply negb_true_iff in H2. auto. }
  assert (Hr : In r A) by (rewrite E; apply in_or_app; right; left; reflexivity).
  destruct (HinA r Hr) as [Hbody Hnot].
  destruct (body_in_look0 b r Hb Hbody) as (S0 & Hlb & Hd0 & Hk & Hrg).
  split.
  - (* nothing to evict: every key present is a key of b (or the SOA), and b is consistent *)
    intros k' Hk'. apply Hcons; [right; rewrite Hlb; discriminate|].
    destruct (key_eqb k' soakey) eqn:Ek; [left; apply key_eqb_eq, Ek|]. apply key_eqb_neq in Ek. right.
    destruct (keys_adds _ _ _ Hk') as [H|H].
    + rewrite (Hz1 _ Ek) in H. apply (after_del_some _ _ (rest_wf0_wf_oe a k' Ha) H).
    + apply in_map_iff in H. destruct H as [r' [<- Hr']].
      assert (Hr'A : In r' A) by (rewrite E; apply in_or_app; left; exact Hr').
      destruct (HinA r' Hr'A) as [Hb' _]. destruct (body_in_look0 b r' Hb Hb') as (S1 & Hl1 & _). rewrite Hl1. discriminate.
  - (* a singleton RRset that is added was deleted (or absent) before, and is added once *)
    intros Hs. rewrite look_adds_fa.
    assert (HS0 : S0 = [r_data r]).
    { destruct (look_single b (rkey r) _ _ Sb Hlb Hs) as [d ->]. destruct Hd0 as [->|[]]. reflexivity. }
    subst S0.
    assert (Hz : look zb (rkey r) = None).
    { rewrite (Hz1 _ Hk), Hlb. unfold after_del. destruct (look a (rkey r)) as [[t Sa0]|] eqn:Ea; [|reflexivity].
      destruct (look_single a (rkey r) _ _ Sa Ea Hs) as [d0 ->].
      unfold has_rr in Hnot. rewrite Ea in Hnot. cbn [filter has_in].
      assert (Hh : (r_ttl r =? t) && mem d0 [r_data r] = false).
      { rewrite Z.eqb_sym. destruct (t =? r_ttl r) eqn:Et; [|reflexivity]. cbn [andb] in *.
        cbn [mem] in *. rewrite orb_false_r in *. rewrite Z.eqb_sym. exact Hnot. }
      rewrite Hh. cbn [negb]. unfold diff. cbn [filter mem]. rewrite Z.eqb_refl. reflexivity. }
    rewrite Hz. apply fa_none. intros r' Hr'.
    destruct (key_eqb (rkey r') (rkey r)) eqn:Ek'; [|reflexivity]. exfalso.
    apply key_eqb_eq in Ek'.
    assert (Hr'A : In r' A) by (rewrite E; apply in_or_app; left; exact Hr').
    rewrite (body_singleton_eq b r r' Hb Sb Hbody (proj1 (HinA r' Hr'A)) Ek' Hs) in E, Hr.
    assert (Hnd : NoDup A).
    { apply (Permutation_NoDup (Permutation_sym PA)). unfold zminus. apply NoDup_filter, NoDup_body, Hb. }
    rewrite E in Hnd. apply NoDup_remove_2 in Hnd. apply Hnd. apply in_or_app. left. exact Hr'.
Qed.

Lemma zone_of_keys : forall v k, look (zone_of v) k <> None <-> (k = soakey \/ look (v_rest v) k <> None).
Proof.
  intros v k. rewrite look_zone_of. destruct (key_eqb k soakey) eqn:E.
  - apply key_eqb_eq in E. split; [intros _; left; exact E|intros _; discriminate].
  - apply key_eqb_neq in E. split; [intros H; right; exact H|intros [H|H]; [congruence|exact H]].
Qed.

Lemma zeq_rest : forall tz v, zeq tz (zone_of v) -> forall k, k <> soakey -> look tz k = look (v_rest v) k.
Proof. intros tz v Hz k Hk. rewrite Hz, look_zone_of. apply key_eqb_neq in Hk. rewrite Hk. reflexivity. Qed.

(* a zone equal to a version, and what deletions leave of it, can take an SOA without evicting anything *)
Lemma addable_soa : forall v z, version_wf_g v -> sub_keys z (zone_of v) -> addable z soakey.
Proof.
  intros v z (_ & _ & _ & C) Hs k' Hk'. apply C; [apply zone_of_keys; left; reflexivity|apply Hs, Hk'].
Qed.

(* one difference sequence between versions of any content, the records of each section in any order;
   Hz says what the deletions and then the additions make of the zone *)
Lemma section_run_g : forall a b D A, version_wf_g a -> version_wf_g b ->
  Forall rec_g D -> Permutation A (zminus (v_rest b) (v_rest a)) ->
  (forall tz, zeq tz (zone_of a) -> exists z1, dels tz D = Some z1 /\
     (forall k, k <> soakey -> look z1 k = after_del (look (v_rest a) k) (look (v_rest b) k)) /\
     zeq (adds (zput soakey (v_ttl b, [v_soa b]) z1) A) (zone_of b)) ->
  sec_runs a b (soa_rr a :: D ++ soa_rr b :: A).
Proof.
  intros a b D A (Hta & Ha & Sa & Ca) (Htb & Hb & Sb & Cb) HD PA Hzone u p tz fin e Hne Hz.
  destruct (Hzone tz Hz) as (z1 & Hd & Hz1 & HzB).
  assert (Hsub : sub_keys tz (zone_of a)) by (intros k Hk; rewrite <- Hz; exact Hk).
  eexists. split; [|exact HzB].
  apply section_exec_z with (z1 := z1); try assumption.
  - eapply Permutation_Forall; [apply Permutation_sym, PA|apply zminus_rec_g, Hb].
  - apply (consistent_sub _ _ Ca Hsub).
  - apply (addable_soa a); [exact (conj Hta (conj Ha (conj Sa Ca)))|]. eapply sub_keys_trans; [apply (dels_sub _ _ _ Hd)|exact Hsub].
  - apply (adds_ok_perm (v_rest a) (v_rest b) _ A Ha Hb Sa Sb); [| |exact PA].
    + intros k k' H1 H2. apply Cb; apply zone_of_keys; assumption.
    + intros k Hk. rewrite look_zput. apply key_eqb_neq in Hk. rewrite Hk. apply Hz1. apply key_eqb_neq, Hk.
Qed.

Lemma diff_seq_runs : forall a b, version_wf_g a -> version_wf_g b -> sec_runs a b (diff_seq a b).
Proof.
  intros a b Ha Hb. apply section_run_g; try assumption; [apply zminus_rec_g, Ha|apply Permutation_refl|].
  intros tz Hz. destruct Ha as (_ & Ha & _). destruct Hb as (_ & Hb & _).
  destruct (diff_apply0 (v_rest a) (v_rest b) tz Ha Hb (zeq_rest _ _ Hz)) as (z1 & Hd & _ & Hz1 & Hadd).
  exists z1. split; [exact Hd|]. split; [exact Hz1|]. intros k. rewrite Hadd, look_zone_of. reflexivity.
Qed.

Lemma diff_seqs_run : forall chain v0, version_wf_g v0 -> Forall version_wf_g chain ->
  chain_runs v0 chain (diff_seqs v0 chain).
Proof.
  induction chain as [|w chain IH]; intros v0 H0 Hc; cbn [diff_seqs]; [constructor|].
  inversion Hc; subst. constructor; [apply diff_seq_runs; assumption|apply IH; assumption].
Qed.

Definition chain_ok_g (v0 : version) (chain : list version) : Prop :=
  chain <> [] /\ version_wf_g v0 /\ Forall version_wf_g chain /\
  (forall v, In v (v0 :: removelast chain) -> v_serial v <> v_serial (last chain v0)) /\
  serial_lt (v_serial (last chain v0)) (v_serial v0) = false.

Lemma chain_ok_ok_g : forall v0 chain, chain_ok v0 chain -> chain_ok_g v0 chain.
Proof.
  intros v0 chain (H1 & H2 & H3 & H4 & H5). split; [exact H1|]. split; [apply version_wf_wf_g, H2|].
  split; [|split; assumption]. eapply Forall_impl; [|exact H3]. apply version_wf_wf_g.
Qed.

(* A valid chain, run after the announced SOA: the client is at the newest version, the transaction not
   yet committed; the announced SOA commits it if it is the last record of its message and is an error
   (answers after final SOA) if it is not *)
Lemma chain_done : forall u v0 chain z0 mid,
  chain_ok_g v0 chain -> zeq z0 (zone_of v0) -> chain_runs v0 chain mid ->
  let fin := last chain v0 in let s0 := single (soa_rr fin) in
  exists tz, let s1 := ist u z0 tz (v_serial fin) s0 false false in
    loopn (ist u z0 z0 (v_serial v0) s0 true false) (map single mid) = (s1, None) /\
    step Last s1 s0 = (mkSt (zput soakey (v_ttl fin, [v_soa fin]) tz) None tIXFR true (v_serial fin) u (Some s0) true false true false, None) /\
    step Mid s1 s0 = (ist u z0 tz (v_serial fin) s0 false true, Some eAfterFinal) /\
    zeq (zput soakey (v_ttl fin, [v_soa fin]) tz) (zone_of fin).
Proof.
  intros u v0 chain z0 mid (Hne & Hv0 & Hch & Hser & _) Hz HS fin s0. subst s0.
  destruct (chain_run _ _ _ HS u z0 z0 fin true) as [tz [Hr Hz']]; [|exact Hz|].
  { destruct chain; [congruence|]. intros x Hin E. apply (Hser x Hin). unfold v_serial. rewrite E. reflexivity. }
  destruct (Forall_last _ chain v0 Hv0 Hch) as (Httl & _ & _ & Cn). fold fin in Httl, Cn.
  exists tz. cbv zeta. split; [destruct chain; [congruence|exact Hr]|].
  rewrite !step_ist_soa, !Z.eqb_refl. cbv zeta. cbn [andb negb].
  rewrite t_add_soa_g; [|exact Httl|]. 2:{ intros k' Hk'. apply Cn; [apply zone_of_keys; left; reflexivity|rewrite <- Hz'; exact Hk']. }
  repeat split. intros k. rewrite look_zput, look_zone_of.
  destruct (key_eqb k soakey) eqn:E; [reflexivity|]. rewrite Hz', look_zone_of, E. reflexivity.
Qed.

Lemma chain_ok_g_serial : forall v0 chain, chain_ok_g v0 chain ->
  v_serial (last chain v0) <> v_serial v0 /\ serial_lt (v_serial (last chain v0)) (v_serial v0) = false.
Proof. intros v0 chain (_ & _ & _ & Hser & Hlt). split; [|exact Hlt]. intros E. apply (Hser v0 (or_introl eq_refl)). auto. Qed.

Lemma chain_ok_g_runs : forall v0 chain, chain_ok_g v0 chain -> chain_runs v0 chain (diff_seqs v0 chain).
Proof. intros v0 chain (_ & H0 & Hc & _). apply diff_seqs_run; assumption. Qed.

(* a valid chain, however each difference sequence is sent, in any division into messages *)
Lemma ixfr_chain_converges : forall v0 chain z0 mid ws,
  chain_ok_g v0 chain -> zeq z0 (zone_of v0) -> chain_runs v0 chain mid ->
  chunking tIXFR (soa_rr (last chain v0) :: mid ++ [soa_rr (last chain v0)]) ws ->
  exists z' n, inbound_xfr z0 tIXFR (Some (v_serial v0)) false ws = (Done z', n)
               /\ zeq z' (zone_of (last chain v0)).
Proof.
  intros v0 chain z0 mid ws Hok Hz HS Hch. destruct (chain_ok_g_serial _ _ Hok) as [Hser Hlt].
  destruct (chain_done false v0 chain z0 mid Hok Hz HS) as (tz & Hl & Hf & _ & Hzf).
  destruct (ixfr_done z0 _ _ Hser Hlt ws mid _ _ _ Hch Hl Hf eq_refl) as [n Hn]. eauto.
Qed.

(* ... in one UDP datagram *)
Lemma udp_chain_converges : forall v0 chain z0 mid w,
  chain_ok_g v0 chain -> zeq z0 (zone_of v0) -> chain_runs v0 chain mid ->
  header_ok tIXFR w -> w_records w = soa_rr (last chain v0) :: mid ++ [soa_rr (last chain v0)] ->
  exists z', inbound_xfr z0 tIXFR (Some (v_serial v0)) true [w] = (Done z', 1%nat)
             /\ zeq z' (zone_of (last chain v0)).
Proof.
  intros v0 chain z0 mid w Hok Hz HS Hw Hr. destruct (chain_ok_g_serial _ _ Hok) as [Hser Hlt].
  destruct (chain_done true v0 chain z0 mid Hok Hz HS) as (tz & Hl & Hf & _ & Hzf).
  rewrite (ixfr_start z0 _ true w [] _ _ Hw Hr Hser Hlt) by (intros _; destruct mid; discriminate).
  rewrite map_app. cbn [map]. rewrite loop_snoc, Hl, Hf. eexists. split; [reflexivity|exact Hzf].
Qed.

(* a proper prefix c of the records that follow the announced SOA runs without error and does not
   complete the transfer *)
Lemma chain_prefix_run : forall u v0 chain z0 mid c q,
  chain_ok_g v0 chain -> zeq z0 (zone_of v0) -> chain_runs v0 chain mid -> q <> [] ->
  c ++ q = mid ++ [soa_rr (last chain v0)] ->
  exists sp, loopn (ist u z0 z0 (v_serial v0) (single (soa_rr (last chain v0))) true false) (map single c) = (sp, None)
             /\ done sp = false.
Proof.
  intros u v0 chain z0 mid c q Hok Hz HS Hq Hc.
  destruct (chain_done u v0 chain z0 mid Hok Hz HS) as (tz & Hl & _).
  destruct (prefix_snoc _ _ _ _ Hc Hq) as (q' & Hmid & _). rewrite Hmid, map_app, loopn_app in Hl.
  destruct (loopn _ (map single c)) as [sp [e|]] eqn:Hp; [discriminate|].
  exists sp. split; [reflexivity|apply (loopn_none_not_done _ _ _ Hl eq_refl)].
Qed.

(* ... hence every proper prefix of the response, in any division into messages: an error, zone untouched *)
Lemma chain_early_end : forall v0 chain z0 mid ws q,
  chain_ok_g v0 chain -> zeq z0 (zone_of v0) -> chain_runs v0 chain mid ->
  Forall (header_ok tIXFR) ws -> q <> [] ->
  concat (map w_records ws) ++ q = soa_rr (last chain v0) :: mid ++ [soa_rr (last chain v0)] ->
  exists e n, inbound_xfr z0 tIXFR (Some (v_serial v0)) false ws = (Error e z0, n).
Proof.
  intros v0 chain z0 mid ws q Hok Hz HS Hh Hq Hcat.
  destruct (prefix_chunking _ _ _ _ _ Hh Hcat) as [Hdeg|(c & Hch & Hc)].
  { apply no_first_record; [right; split; [reflexivity|discriminate]|exact Hh|exact Hdeg]. }
  destruct (chain_ok_g_serial _ _ Hok) as [Hser Hlt].
  destruct (chain_prefix_run false v0 chain z0 mid c q Hok Hz HS Hq Hc) as (sp & Hp & Hdp).
  destruct (ixfr_eof z0 _ _ Hser Hlt ws c sp Hch Hp Hdp) as [k Hk]. eauto.
Qed.

(* Multi-step incremental transfer between versions of any content - CNAME, DNAME, NSEC RRsets, names
   that change between a CNAME and other data - in any division into messages: the client's zone
   becomes the server's newest version. *)
Theorem ixfr_converges_general : forall v0 chain z0 ws,
  chain_ok_g v0 chain -> zeq z0 (zone_of v0) -> chunking tIXFR (ixfr_stream v0 chain) ws ->
  exists z' n, inbound_xfr z0 tIXFR (Some (v_serial v0)) false ws = (Done z', n)
               /\ zeq z' (zone_of (last chain v0)).
Proof.
  intros v0 chain z0 ws Hok Hz. apply (ixfr_chain_converges v0 chain z0 (diff_seqs v0 chain) ws Hok Hz), chain_ok_g_runs, Hok.
Qed.

(* the same stream in one UDP datagram *)
Theorem udp_ixfr_general : forall v0 chain z0 w,
  chain_ok_g v0 chain -> zeq z0 (zone_of v0) ->
  header_ok tIXFR w -> w_records w = ixfr_stream v0 chain ->
  exists z', inbound_xfr z0 tIXFR (Some (v_serial v0)) true [w] = (Done z', 1%nat)
             /\ zeq z' (zone_of (last chain v0)).
Proof.
  intros v0 chain z0 w Hok Hz. apply (udp_chain_converges v0 chain z0 (diff_seqs v0 chain) w Hok Hz), chain_ok_g_runs, Hok.
Qed.

(* every proper prefix of the stream, in any division into messages: an error, zone untouched *)
Theorem ixfr_early_end_rejected_general : forall v0 chain z0 ws q,
  chain_ok_g v0 chain -> zeq z0 (zone_of v0) ->
  Forall (header_ok tIXFR) ws -> q <> [] ->
  concat (map w_records ws) ++ q = ixfr_stream v0 chain ->
  exists e n, inbound_xfr z0 tIXFR (Some (v_serial v0)) false ws = (Error e z0, n).
Proof.
  intros v0 chain z0 ws q Hok Hz. apply (chain_early_end v0 chain z0 (diff_seqs v0 chain) ws q Hok Hz), chain_ok_g_runs, Hok.
Qed.

(* the AXFR-style answer to an IXFR request: a body r :: c of records that can be stored one after the other, and leave room for the SOA *)
Lemma axfr_style_run : forall fin z0 ser r c ws,
  ttl_ok (v_ttl fin) -> Forall rec_g (r :: c) -> adds_ok [] (r :: c) -> addable (adds [] (r :: c)) soakey ->
  v_serial fin <> ser -> serial_lt (v_serial fin) ser = false ->
  chunking tIXFR (soa_rr fin :: (r :: c) ++ [soa_rr fin]) ws ->
  exists n, inbound_xfr z0 tIXFR (Some ser) false ws =
            (Done (zput soakey (v_ttl fin, [v_soa fin]) (adds [] (r :: c))), n).
Proof.
  intros fin z0 ser r c ws Httl HB Hok Hsoa Hs Hlt Hch. inversion HB as [|? ? Hr Hc]; subst.
  assert (Hl : loopn (ist false z0 z0 ser (single (soa_rr fin)) true false) (map single (r :: c)) =
               (ast false tIXFR z0 (adds [] (r :: c)) ser (single (soa_rr fin)), None)).
  { cbn [map loopn adds]. destruct (rec_g_in_zone r Hr) as [H1 H2]. rewrite (step_fallback _ _ _ _ _ _ _ H1), H2. cbn [negb].
    destruct (Hok [] r c eq_refl) as [Ha Hsg]. destruct Hr as (Hcl & Ht & _ & Httl').
    rewrite (t_add_single_g [] r Hcl Ht Httl' Ha Hsg). cbn [res_of]. apply loopn_adds; [exact Hc|apply adds_ok_tail, Hok]. }
  refine (ixfr_done z0 ser fin Hs Hlt ws _ _ _
            (mkSt (zput soakey (v_ttl fin, [v_soa fin]) (adds [] (r :: c))) None tIXFR false ser false
                  (Some (single (soa_rr fin))) true false false false) Hch Hl _ eq_refl).
  rewrite step_ast_soa, Z.eqb_refl, t_add_soa_g by assumption. reflexivity.
Qed.

Lemma body_cons : forall z, rest_wf0 z -> z <> [] -> exists r c, body z = r :: c.
Proof.
  intros [|[k [t ds]] z] [_ Hf] Hne; [congruence|]. inversion Hf as [|? ? He _]; subst.
  unfold body. cbn [flat_map]. rewrite rrs_of_entry_mk. destruct k as [[n ty] c]. cbn in He.
  destruct ds as [|d ds]; [tauto|]. cbn. eauto.
Qed.

(* the whole body of a version can be added to the empty zone without evicting / replacing *)
Lemma adds_ok_body : forall v B, version_wf_g v -> Permutation B (body (v_rest v)) -> adds_ok [] B.
Proof.
  intros v B (_ & Hb & Sb & Cb) PB. rewrite <- zminus_nil in PB.
  apply (adds_ok_perm [] (v_rest v) [] B); try assumption.
  - split; constructor.
  - constructor.
  - intros k k' H1 H2. apply Cb; apply zone_of_keys; assumption.
  - intros k _. reflexivity.
Qed.

Lemma full_target : forall v z', version_wf_g v ->
  zeq z' (zput soakey (v_ttl v, [v_soa v]) (adds [] (body (v_rest v)))) -> zeq z' (zone_of v).
Proof.
  intros v z' (_ & Hwf & _) H k. rewrite H, look_zput, look_zone_of.
  destruct (key_eqb k soakey); [reflexivity|apply adds_body, Hwf].
Qed.

Theorem axfr_style_ixfr_converges_general : forall v z0 ser ws,
  version_wf_g v -> v_rest v <> [] ->
  v_serial v <> ser -> serial_lt (v_serial v) ser = false ->
  chunking tIXFR (axfr_stream v) ws ->
  exists z' n, inbound_xfr z0 tIXFR (Some ser) false ws = (Done z', n) /\ zeq z' (zone_of v).
Proof.
  intros v z0 ser ws Hv Hne Hs Hlt Hch. unfold axfr_stream in Hch. pose proof Hv as (Httl & Hwf & _ & Cv).
  pose proof (adds_ok_body v _ Hv (Permutation_refl _)) as Hok.
  assert (Hpl : Forall rec_g (body (v_rest v))) by (rewrite <- zminus_nil; apply zminus_rec_g, Hwf).
  assert (Hsoa : addable (adds [] (body (v_rest v))) soakey).
  { intros k' Hk'. rewrite (adds_body _ Hwf) in Hk'. apply Cv; apply zone_of_keys; auto. }
  destruct (body_cons _ Hwf Hne) as (r & c & Eb). rewrite Eb in *.
  destruct (axfr_style_run v z0 ser r c ws Httl Hpl Hok Hsoa Hs Hlt Hch) as [n Hn].
  eexists. exists n. split; [exact Hn|]. apply full_target; [exact Hv|]. rewrite Eb. apply zeq_refl.
Qed.
