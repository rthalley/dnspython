(* What the renderer emits is read back by the reader: names (compressed or not, absolute or completed with the
   origin), RDATA by schema, whole RRs.  Octets are located by position (sits), so no statement depends on how
   the wire is split into lists.  Each read-back fact comes with its converse for re-rendering: what was read may
   be written in place of the original against any table with ci-equal keys (lsim, tbl_ci). *)
From DV Require Import Base.Prelude Model.NameM Model.MessageM.
From DV Require Import Proofs.ListFacts Proofs.NameOrder Proofs.NameValid Proofs.NameRel Proofs.NameWire Proofs.NameCompress.
From DV Require Import Proofs.MessageName Proofs.MessageRender.
Open Scope Z_scope.

Definition name_ok (n : name) : Prop := Valid n /\ is_absolute n = true.

(* the octets b sit at offset cur of w *)
Definition sits (w : list Z) (cur : nat) (b : list Z) : Prop := firstn (length b) (skipn cur w) = b.

Lemma sits_here pre b post : sits (pre ++ b ++ post) (length pre) b.
Proof.
  unfold sits. rewrite skipn_app, skipn_all, Nat.sub_diag. cbn [skipn app].
  rewrite firstn_app, firstn_all, Nat.sub_diag. cbn [firstn]. apply app_nil_r.
Qed.

Lemma sits_app w cur a b : sits w cur (a ++ b) -> sits w cur a /\ sits w (cur + length a) b.
Proof.
  unfold sits. rewrite app_length, skipn_add. generalize (skipn cur w) as l.
  induction a as [|x a IH]; intros l H; [split; [reflexivity|exact H]|].
  destruct l as [|y l]; [discriminate|]. injection H as -> H. destruct (IH l H) as (H1 & H2).
  split; [cbn [length firstn]; f_equal; exact H1|exact H2].
Qed.

Lemma rd_bytes_sits w endp cur b : sits w cur b -> (cur + length b <= endp)%nat -> rd_bytes w endp cur (length b) = Ok b.
Proof. intros S H. unfold rd_bytes. destruct (Nat.ltb_spec (endp - cur) (length b)); [lia|]. rewrite S. reflexivity. Qed.

Lemma rd_u8_sits w endp cur x : sits w cur [x] -> (cur + 1 <= endp)%nat -> rd_u8 w endp cur = Ok x.
Proof. intros S H. unfold rd_u8. change 1%nat with (length [x]). rewrite rd_bytes_sits by assumption. reflexivity. Qed.

Lemma u16_decode v : 0 <= v <= 65535 -> (v / 256) * 256 + v mod 256 = v.
Proof. intros H. pose proof (Z.div_mod v 256). lia. Qed.

Lemma rd_u16_sits w endp cur v :
  sits w cur (MessageM.u16 v) -> 0 <= v <= 65535 -> (cur + 2 <= endp)%nat -> rd_u16 w endp cur = Ok v.
Proof.
  intros S Hv H. unfold rd_u16. change 2%nat with (length (MessageM.u16 v)). rewrite rd_bytes_sits by assumption.
  cbn [MessageM.u16]. rewrite u16_decode by exact Hv. reflexivity.
Qed.

Lemma u32_decode v : 0 <= v <= 4294967295 ->
  ((v / 16777216 * 256 + (v / 65536) mod 256) * 256 + (v / 256) mod 256) * 256 + v mod 256 = v.
Proof.
  intros H.
  pose proof (Z.div_mod v 256). pose proof (Z.div_mod (v / 256) 256). pose proof (Z.div_mod (v / 65536) 256).
  replace (v / 65536) with (v / 256 / 256) in * by (rewrite Z.div_div by lia; reflexivity).
  replace (v / 16777216) with (v / 256 / 256 / 256) by (rewrite !Z.div_div by lia; reflexivity).
  lia.
Qed.

Lemma rd_u32_sits w endp cur v :
  sits w cur (MessageM.u32 v) -> 0 <= v <= 4294967295 -> (cur + 4 <= endp)%nat -> rd_u32 w endp cur = Ok v.
Proof.
  intros S Hv H. unfold rd_u32. change 4%nat with (length (MessageM.u32 v)). rewrite rd_bytes_sits by assumption.
  cbn [MessageM.u32]. rewrite u32_decode by exact Hv. reflexivity.
Qed.

Lemma zlen_to_nat {A} (l : list A) : Z.to_nat (zlen l) = length l.
Proof. unfold zlen. apply Nat2Z.id. Qed.

Lemma sits_nth w cur x : sits w cur [x] -> nth_error w cur = Some x.
Proof.
  unfold sits. cbn [length]. revert w. induction cur as [|cur IH]; intros [|y w] H; try discriminate.
  - injection H as ->. reflexivity.
  - apply IH. exact H.
Qed.

Lemma sits_end w cur b : sits w cur b -> b <> [] -> (cur + length b <= length w)%nat.
Proof.
  intros S NE. pose proof (f_equal (@length Z) S) as Hl. rewrite firstn_length, skipn_length in Hl.
  destruct b; [congruence|cbn [length] in *; lia].
Qed.

(* an uncompressed name decodes to itself *)
Lemma Dec_plain_ls w b : forall (ls : list label) cur,
  Forall (fun l => l <> [] /\ zlen l <= 63) ls -> sits w cur (wire_labels false (ls ++ [[]])) ->
  Dec w cur b (ls ++ [[]]) (cur + length (wire_labels false (ls ++ [[]]))).
Proof.
  induction ls as [|l ls IH]; intros cur HF S.
  - apply Dec_root. apply sits_nth. exact S.
  - inversion HF as [|? ? [Hne Hlen] HF']; subst. cbn [app] in *. rewrite wire_labels_cons in *.
    change (zlen l :: l ++ wire_labels false (ls ++ [[]])) with ([zlen l] ++ l ++ wire_labels false (ls ++ [[]])) in S.
    apply sits_app in S. destruct S as (S1 & S). apply sits_app in S. destruct S as (S2 & S3). cbn [length] in S2, S3.
    assert (Hl : (0 < length l)%nat) by (destruct l; [congruence|cbn; lia]).
    pose proof (sits_end _ _ _ S2 Hne) as He.
    specialize (IH _ HF' S3). cbn [length]. rewrite app_length.
    replace (cur + S (length l + length (wire_labels false (ls ++ [[]]))))%nat
      with (Nat.max (cur + 1 + Z.to_nat (zlen l)) (cur + 1 + length l + length (wire_labels false (ls ++ [[]]))))
      by (rewrite zlen_to_nat; lia).
    apply Dec_label with (count := zlen l); rewrite ?zlen_to_nat; try assumption.
    + apply sits_nth. exact S1.
    + unfold zlen in *. lia.
    + symmetry. exact S2.
Qed.

Lemma Dec_plain n w cur b :
  name_ok n -> sits w cur (wire_labels false n) -> Dec w cur b n (cur + length (wire_labels false n)).
Proof.
  intros (V & A). destruct (Valid_absolute_shape n V A) as (ls & -> & HF). apply Dec_plain_ls. exact HF.
Qed.

(* an uncompressed name in place is read as itself *)
Lemma nm_plain_read w endp cur n :
  name_ok n -> sits w cur (wire_labels false n) -> (cur + length (wire_labels false n) <= endp)%nat ->
  nm_from_wire w endp cur = Ok (n, (cur + length (wire_labels false n))%nat).
Proof.
  intros NO S He. set (k := length (wire_labels false n)) in *.
  assert (S' : sits (firstn (cur + k) w) cur (wire_labels false n)).
  { unfold sits. fold k. rewrite <- firstn_skipn_comm, firstn_firstn, Nat.min_id. exact S. }
  rewrite <- (firstn_skipn (cur + k) w).
  apply nm_from_wire_Dec; [exact (Dec_plain n _ cur cur NO S')|exact (proj1 NO)|rewrite firstn_length; lia].
Qed.

Definition org_ok (o : option name) : Prop := match o with Some org => name_ok org | None => True end.

(* a name of a message rendered with origin o: absolute and not below the origin (so that
   parsing with the origin leaves it alone), or relative with name ++ origin valid *)
Definition name_wf (o : option name) (n : name) : Prop :=
  (name_ok n /\ match o with Some org => is_subdomain n org = false | None => True end)
  \/ (exists org, o = Some org /\ is_absolute n = false /\ Valid (n ++ org)).

Definition relz (o : option name) (n : name) : res name :=
  match o with Some org => relativize n org | None => Ok n end.

Lemma ci_cons l a b : ci_equal a b -> ci_equal (l :: a) (l :: b).
Proof. unfold ci_equal. cbn [map]. congruence. Qed.

Lemma name_ok_ci a b : ci_equal a b -> name_ok a -> name_ok b.
Proof. intros C (V & A). split; [exact (Valid_ci _ _ C V)|rewrite <- (ci_equal_absolute _ _ C); exact A]. Qed.

Lemma name_wf_ci o n n' : ci_equal n' n -> name_wf o n -> name_wf o n'.
Proof.
  intros C [(NO & NS)|(org & -> & A & V)].
  - left. split; [exact (name_ok_ci _ _ (eq_sym C) NO)|].
    destruct o; [rewrite (is_subdomain_ci _ _ _ C); exact NS|exact Logic.I].
  - right. exists org. split; [reflexivity|]. split; [rewrite (ci_equal_absolute _ _ C); exact A|].
    eapply Valid_ci; [|exact V]. apply ci_equal_app; [exact (eq_sym C)|reflexivity].
Qed.

(* the labels written for a name: its own when absolute, else completed with the origin *)
Lemma full_labels_abs n o : name_ok n -> full_labels n o = Ok n.
Proof. intros (V & A). unfold full_labels. rewrite A. cbn [bind]. apply mk_name_valid. exact V. Qed.

Lemma full_labels_rel n org : name_ok org -> is_absolute n = false -> Valid (n ++ org) ->
  full_labels n (Some org) = Ok (n ++ org) /\ name_ok (n ++ org).
Proof.
  intros (Vo & Ao) A V. unfold full_labels. rewrite A, Ao. cbn [bind].
  split; [apply mk_name_valid; exact V|]. split; [exact V|].
  destruct org as [|x org']; [discriminate|]. rewrite is_absolute_app. exact Ao.
Qed.

Lemma name_wf_full o n : org_ok o -> name_wf o n ->
  exists L, full_labels n o = Ok L /\ name_ok L.
Proof.
  intros OO [(NO & _)|(org & -> & A & V)].
  - exists n. split; [apply full_labels_abs; exact NO|exact NO].
  - exists (n ++ org). apply full_labels_rel; assumption.
Qed.

(* what the reader makes of decoded labels L' that are ci-equal to the labels L written for n: L' itself when n is
   absolute, else L' without its last labels, which spell the origin *)
Lemma relz_back o n L L' :
  org_ok o -> name_wf o n -> full_labels n o = Ok L -> ci_equal L' L -> name_ok L' ->
  (name_ok n /\ L = n /\ relz o L' = Ok L') \/
  (exists org n' s', o = Some org /\ L = n ++ org /\ L' = n' ++ s' /\ relz o L' = Ok n' /\
     ci_equal n' n /\ is_absolute n' = false /\ Valid (n' ++ org)).
Proof.
  intros OO NW HF CI NO'. destruct NW as [(NO & NS)|(org & -> & A & V)].
  - left. rewrite (full_labels_abs n o NO) in HF. injection HF as <-. split; [exact NO|]. split; [reflexivity|].
    destruct o as [org|]; cbn [relz]; [|reflexivity].
    unfold relativize. rewrite (is_subdomain_ci _ _ _ CI), NS. reflexivity.
  - right. destruct (full_labels_rel n org OO A V) as (HF' & _). rewrite HF' in HF. injection HF as <-. cbn [relz].
    pose proof (ci_equal_length _ _ CI) as Ln. rewrite app_length in Ln.
    rewrite <- (firstn_skipn (length n) L') in CI.
    apply ci_equal_app_inv in CI; [|rewrite firstn_length; lia]. destruct CI as (C1 & C2).
    assert (Sd : is_subdomain L' org = true).
    { apply is_subdomain_iff. split; [rewrite (proj2 NO'); symmetry; exact (proj2 OO)|].
      exists (firstn (length n) L'), (skipn (length n) L'). split; [symmetry; apply firstn_skipn|exact C2]. }
    destruct (rel_derel L' org (proj1 NO') Sd) as (r & HR & E1 & E2 & _).
    assert (Lr : length r = length n).
    { pose proof (ci_equal_length _ _ E2) as L2. rewrite skipn_length in L2.
      pose proof (f_equal (@length label) E1) as E1'. rewrite app_length, skipn_length in E1'. lia. }
    assert (Er : firstn (length n) L' = r).
    { rewrite <- (firstn_skipn (length n) L') in E1 at 1. apply app_inj_len in E1; [exact (proj1 E1)|rewrite firstn_length; lia]. }
    rewrite Er in C1. exists org, r, (skipn (length r) L').
    split; [reflexivity|]. split; [reflexivity|]. split; [exact E1|]. split; [exact HR|]. split; [exact C1|].
    split; [rewrite (ci_equal_absolute _ _ C1); exact A|].
    eapply Valid_ci; [|exact V]. apply ci_equal_app; [exact (eq_sym C1)|reflexivity].
Qed.

Lemma name_back o n L L' :
  org_ok o -> name_wf o n -> full_labels n o = Ok L -> ci_equal L' L -> name_ok L' ->
  exists n', relz o L' = Ok n' /\ ci_equal n' n /\ name_wf o n'.
Proof.
  intros OO NW HF CI NO'.
  destruct (relz_back o n L L' OO NW HF CI NO') as [(_ & -> & HR)|(org & n' & s' & _ & _ & _ & HR & C & _)].
  - exists L'. split; [exact HR|]. split; [exact CI|exact (name_wf_ci o n L' CI NW)].
  - exists n'. split; [exact HR|]. split; [exact C|exact (name_wf_ci o n n' C NW)].
Qed.

Lemma TableSound_app file t em : TableSound file t -> TableSound (file ++ em) t.
Proof.
  intros TS k v I. destruct (TS k v I) as (Hv & ls & h & D & R). split; [exact Hv|].
  exists ls, h. split; [apply Dec_app; exact D|exact R].
Qed.

Lemma nm_read file em ext endp n' :
  name_ok n' -> Dec (file ++ em) (length file) (length file) n' (length (file ++ em)) ->
  (length (file ++ em) <= endp)%nat ->
  nm_from_wire ((file ++ em) ++ ext) endp (length file) = Ok (n', length (file ++ em)).
Proof. intros (V & _) D H. apply nm_from_wire_Dec; assumption. Qed.

Lemma get_name_relz o w endp cur :
  org_ok o -> get_name w o endp cur = do nc <- nm_from_wire w endp cur; do n <- relz o (fst nc); Ok (n, snd nc).
Proof.
  intros OO. unfold get_name, relz. destruct o as [[|x org]|].
  - destruct OO as (_ & A). discriminate.
  - reflexivity.
  - destruct (nm_from_wire w endp cur) as [[n c]| |]; reflexivity.
Qed.

Lemma relz_total o L : org_ok o -> name_ok L -> exists x, relz o L = Ok x.
Proof.
  intros OO (V & A). destruct o as [org|]; cbn [relz]; [|eauto].
  unfold relativize. destruct (is_subdomain L org) eqn:E; [|eauto].
  destruct (rel_derel L org V E) as (r & HR & _). unfold relativize in HR. rewrite E in HR. eauto.
Qed.

(* tables with the same offsets and ci-equal keys *)
Definition tbl_ci (t' t : ctable) : Prop :=
  Forall2 (fun kv' kv => ci_equal (fst kv') (fst kv) /\ snd kv' = snd kv) t' t.

Lemma tbl_ci_refl t : tbl_ci t t.
Proof. induction t as [|[k v] t IH]; constructor; [split; reflexivity|exact IH]. Qed.

Lemma tbl_get_ci t' t n' n : tbl_ci t' t -> ci_equal n' n -> tbl_get t' n' = tbl_get t n.
Proof.
  intros H Hn. induction H as [|[k' v'] [k v] t' t (Hk & Hv) _ IH]; [reflexivity|].
  cbn [tbl_get fst snd] in *. rewrite (name_eqb_ci k' k n' n Hk Hn). subst v'. rewrite IH. reflexivity.
Qed.

(* L' may replace L when writing with table t: same labels wherever they are written literally,
   ci-equal where a pointer is written *)
Fixpoint lsim (t : ctable) (L' L : name) : Prop :=
  match L', L with
  | [], [] => True
  | l' :: r', l :: r =>
      match tbl_get t (l :: r) with
      | Some _ => ci_equal (l' :: r') (l :: r)
      | None => l' = l /\ lsim t r' r
      end
  | _, _ => False
  end.

Lemma lsim_ci t : forall L' L, lsim t L' L -> ci_equal L' L.
Proof.
  induction L' as [|l' r' IH]; intros [|l r] H; cbn [lsim] in H; try contradiction; [reflexivity|].
  destruct (tbl_get t (l :: r)); [exact H|]. destruct H as (-> & H). apply ci_cons, IH, H.
Qed.

Lemma lsim_refl t L : lsim t L L.
Proof.
  induction L as [|l r IH]; [exact Logic.I|]. cbn [lsim]. destruct (tbl_get t (l :: r)); [reflexivity|auto].
Qed.

Lemma tbl_get_app t more n p : tbl_get t n = Some p -> tbl_get (t ++ more) n = Some p.
Proof.
  induction t as [|[k v] t IHt]; [discriminate|]. cbn [app tbl_get].
  destruct (name_eqb k n); [auto|exact IHt].
Qed.

(* growing the table only weakens the requirement *)
Lemma lsim_mono t more : forall L' L, lsim t L' L -> lsim (t ++ more) L' L.
Proof.
  induction L' as [|l' r' IH]; intros [|l r] H; try contradiction; [exact Logic.I|].
  pose proof (lsim_ci t _ _ H) as C. cbn [lsim] in *.
  destruct (tbl_get t (l :: r)) as [p|] eqn:E.
  - rewrite (tbl_get_app t more _ p E). exact H.
  - destruct H as (-> & H). destruct (tbl_get (t ++ more) (l :: r)); [exact C|].
    split; [reflexivity|apply IH; exact H].
Qed.

(* an entry for a longer name does not matter for the shorter suffixes *)
Lemma lsim_longer t k v : forall L' L, (length L < length k)%nat -> lsim t L' L -> lsim (t ++ [(k, v)]) L' L.
Proof. intros L' L _ H. apply lsim_mono. exact H. Qed.

(* writing L' against t' emits what writing L against t emits *)
Lemma tw_em_sim : forall L' L pos t' t,
  tbl_ci t' t -> lsim t L' L ->
  fst (tw_em L' pos t') = fst (tw_em L pos t) /\ tbl_ci (snd (tw_em L' pos t')) (snd (tw_em L pos t)).
Proof.
  induction L' as [|l' r' IH]; intros [|l r] pos t' t TC H; try contradiction; [cbn; auto|].
  pose proof (lsim_ci t _ _ H) as CI. cbn [lsim] in H. cbn [tw_em].
  rewrite (tbl_get_ci t' t _ _ TC CI).
  destruct (tbl_get t (l :: r)) as [p|] eqn:E; [cbn [fst snd]; auto|].
  destruct H as (-> & H).
  assert (Hz : zlen (l :: r') = zlen (l :: r)) by (unfold zlen; f_equal; apply ci_equal_length; exact CI).
  rewrite Hz. cbn [fst snd].
  set (c := (1 <? zlen (l :: r)) && (pos <=? 16383)).
  assert (TC' : tbl_ci (if c then t' ++ [(l :: r', pos)] else t') (if c then t ++ [(l :: r, pos)] else t)).
  { destruct c; [|exact TC]. apply Forall2_app; [exact TC|]. constructor; [|constructor]. cbn [fst snd]. auto. }
  assert (H' : lsim (if c then t ++ [(l :: r, pos)] else t) r' r).
  { destruct c; [apply lsim_mono; exact H|exact H]. }
  destruct (IH r (pos + 1 + zlen l) _ _ TC' H') as (E1 & E2).
  split; [f_equal; f_equal; exact E1|exact E2].
Qed.

Lemma tbl_get_in : forall t k v, In (k, v) t -> exists p, tbl_get t k = Some p.
Proof.
  induction t as [|[k0 v0] t IH]; intros k v H; [contradiction|]. cbn [tbl_get].
  destruct (name_eqb k0 k) eqn:E; [eauto|]. destruct H as [H|H]; [|eapply IH; exact H].
  injection H as -> ->. assert (X : name_eqb k k = true) by (apply name_eqb_iff_ci; reflexivity). congruence.
Qed.

(* where the table has an entry, ci-equal labels will do *)
Lemma lsim_hit t k v x s : In (k, v) t -> ci_equal k s -> ci_equal x s -> lsim t x s.
Proof.
  intros I Ck Cx. destruct (tbl_get_in t k v I) as (p & Hp). rewrite (tbl_get_ci t t _ _ (tbl_ci_refl t) Ck) in Hp.
  destruct x as [|l' r']; destruct s as [|l r]; try (unfold ci_equal in Cx; discriminate); [exact Logic.I|].
  cbn [lsim]. rewrite Hp. exact Cx.
Qed.

Lemma lsim_trans t : forall a b c, lsim t a b -> lsim t b c -> lsim t a c.
Proof.
  induction a as [|la ra IH]; intros [|lb rb] [|lc rc] H1 H2; try contradiction; [exact Logic.I|].
  pose proof (lsim_ci t _ _ H2) as Cbc. cbn [lsim] in *.
  rewrite (tbl_get_ci t t _ _ (tbl_ci_refl t) Cbc) in H1. destruct (tbl_get t (lc :: rc)).
  - eapply eq_trans; eassumption.
  - destruct H1 as (-> & H1). destruct H2 as (-> & H2). split; [reflexivity|]. eapply IH; eassumption.
Qed.

(* the decoded labels agree with the written ones where they were written literally *)
Theorem tw_loop_dec_lsim labels file t file' t' :
  TableSound file t -> Valid labels -> is_absolute labels = true ->
  tw_loop labels false file t = (file', t') ->
  exists em ls,
    file' = file ++ em /\ TableSound file' t' /\
    Dec file' (length file) (length file) ls (length file') /\ lsim t ls labels /\ Valid ls.
Proof.
  intros TS V A L.
  rewrite <- (app_nil_r t) in L.
  destruct (tw_loop_sound false (lsim t)) with (labels := labels) (file := file) (t := t)
    (pend := @nil (name * Z)) (b := length file) (file' := file') (t' := t')
    as (em & new & ls & Ef & Et & D & R & Fnew); auto.
  - apply lsim_refl.
  - intros l ls r H. unfold emit. cbn [lsim]. destruct (tbl_get t (l :: r)); [apply ci_cons, (lsim_ci t), H|auto].
  - apply lsim_trans.
  - (* the table is sound for the finer relation *)
    intros k v I. destruct (TS k v I) as (Hv & ls0 & h0 & D0 & R0). split; [exact Hv|].
    exists ls0, h0. split; [exact D0|exact (lsim_hit t k v ls0 k I eq_refl R0)].
  - intros k v I p s _ Eq. apply name_eqb_iff_ci in Eq. exact (lsim_hit t k v k s I Eq Eq).
  - intros k v I. destruct (TS k v I) as (_ & ls0 & h0 & D0 & _). apply Dec_bounds in D0. lia.
  - intros k v [].
  - rewrite app_nil_r in Et. exists em, ls. split; [exact Ef|]. split; [|split; [exact D|split; [exact R|]]].
    + intros k v I. rewrite Et in I. apply in_app_or in I. destruct I as [I|I].
      * rewrite Ef. exact (TableSound_app _ _ _ TS k v I).
      * rewrite Forall_forall in Fnew. destruct (Fnew _ I) as (Hv & _ & ls0 & h0 & D0 & R0).
        split; [exact Hv|]. exists ls0, h0. split; [exact D0|]. apply lsim_ci in R0. exact R0.
    + eapply Valid_ci; [apply lsim_ci in R; exact (eq_sym R)|exact V].
Qed.

(* one name: what was decoded can be written instead of the original *)
Definition Lsim (c : bool) (t : ctable) (L' L : name) : Prop := if c then lsim t L' L else L' = L.

Lemma Lsim_ci c t L' L : Lsim c t L' L -> ci_equal L' L.
Proof. destruct c; cbn; [apply lsim_ci|intros ->; reflexivity]. Qed.

Lemma Lsim_mono c t more L' L : Lsim c t L' L -> Lsim c (t ++ more) L' L.
Proof. destruct c; cbn; [apply lsim_mono|auto]. Qed.

(* writing the labels L (the name made absolute with the origin) *)
Lemma nm_em_sound_sim n o L c file t em t' :
  TableSound file t -> full_labels n o = Ok L -> name_ok L -> nm_em n o c (zlen file) t = Ok (em, t') ->
  TableSound (file ++ em) t' /\
  exists L', Lsim c t L' L /\ name_ok L' /\
             Dec (file ++ em) (length file) (length file) L' (length (file ++ em)).
Proof.
  intros TS HF NO H. unfold nm_em in H. rewrite HF in H. cbn [bind] in H.
  destruct NO as (V & A). destruct c.
  - pose proof (tw_loop_em L file t) as E. injection H as H. rewrite H in E. cbn [fst snd] in E.
    destruct (tw_loop_dec_lsim L file t _ _ TS V A E) as (em' & ls & Ef & TS' & D & R & Vl).
    split; [exact TS'|]. exists ls. split; [exact R|]. split; [|exact D].
    split; [exact Vl|]. rewrite (ci_equal_absolute _ _ (lsim_ci _ _ _ R)). exact A.
  - injection H as <- <-. split; [apply TableSound_app; exact TS|].
    exists L. split; [reflexivity|]. split; [split; assumption|].
    rewrite app_length. apply Dec_plain; [split; assumption|].
    rewrite <- (app_nil_r (file ++ wire_labels false L)), <- app_assoc. apply sits_here.
Qed.

Lemma nm_em_sound n o L c file t em t' :
  TableSound file t -> full_labels n o = Ok L -> name_ok L -> nm_em n o c (zlen file) t = Ok (em, t') ->
  TableSound (file ++ em) t' /\
  exists L', ci_equal L' L /\ name_ok L' /\
             Dec (file ++ em) (length file) (length file) L' (length (file ++ em)).
Proof.
  intros TS HF NO H. destruct (nm_em_sound_sim n o L c file t em t' TS HF NO H) as (TS' & L' & S & R).
  split; [exact TS'|]. exists L'. split; [exact (Lsim_ci _ _ _ _ S)|exact R].
Qed.

Lemma nm_em_resim n' n o c pos t' t em t1 L' L :
  tbl_ci t' t -> full_labels n o = Ok L -> full_labels n' o = Ok L' -> Lsim c t L' L ->
  nm_em n o c pos t = Ok (em, t1) ->
  exists t1', nm_em n' o c pos t' = Ok (em, t1') /\ tbl_ci t1' t1.
Proof.
  intros TC HF HF' S H. unfold nm_em in *. rewrite HF in H. rewrite HF'. cbn [bind] in *.
  destruct c; cbn [Lsim] in S.
  - destruct (tw_em_sim L' L pos t' t TC S) as (E1 & E2). injection H as H.
    exists (snd (tw_em L' pos t')). rewrite H in E1, E2. cbn [fst snd] in E1, E2.
    split; [|exact E2]. rewrite (surjective_pairing (tw_em L' pos t')). rewrite E1. reflexivity.
  - subst L'. injection H as <- <-. exists t'. split; [reflexivity|exact TC].
Qed.

(* below the prefix, any suffix may be replaced by the one written *)
Lemma lsim_replace_suffix t : forall p' n s' org,
  length p' = length n -> lsim t (p' ++ s') (n ++ org) -> lsim t (p' ++ org) (n ++ org).
Proof.
  induction p' as [|l' r' IH]; intros [|l r] s' org HL H; cbn [length] in HL; try discriminate.
  - cbn [app] in *. apply lsim_refl.
  - cbn [app lsim] in *. destruct (tbl_get t (l :: r ++ org)).
    + change (l' :: r' ++ s') with ((l' :: r') ++ s') in H. change (l :: r ++ org) with ((l :: r) ++ org) in H.
      apply ci_equal_app_inv in H; [|cbn [length]; lia]. destruct H as (H1 & _).
      change (l' :: r' ++ org) with ((l' :: r') ++ org). change (l :: r ++ org) with ((l :: r) ++ org).
      apply ci_equal_app; [exact H1|reflexivity].
    + destruct H as (-> & H). split; [reflexivity|]. apply (IH r s' org); [lia|exact H].
Qed.

(* among ci-equal names the labels written determine the name: a name written without compression comes back as it was *)
Lemma full_labels_inj o n n' L :
  org_ok o -> name_wf o n -> name_wf o n' -> ci_equal n' n -> full_labels n o = Ok L -> full_labels n' o = Ok L -> n' = n.
Proof.
  intros OO NW NW' CI HF HF'.
  destruct NW as [(NO & _)|(org & -> & A & V)]; destruct NW' as [(NO' & _)|(org' & E' & A' & V')].
  - rewrite (full_labels_abs _ _ NO) in HF. rewrite (full_labels_abs _ _ NO') in HF'. congruence.
  - rewrite (ci_equal_absolute _ _ CI), (proj2 NO) in A'. discriminate.
  - rewrite <- (ci_equal_absolute _ _ CI), (proj2 NO') in A. discriminate.
  - injection E' as <-. rewrite (proj1 (full_labels_rel _ _ OO A V)) in HF.
    rewrite (proj1 (full_labels_rel _ _ OO A' V')) in HF'.
    assert (E : n' ++ org = n ++ org) by congruence. apply app_inv_tail in E. exact E.
Qed.

(* the name the reader returns is written with labels X that may replace the original ones: the decoded labels with
   the origin's own spelling of the origin *)
Lemma name_back_sim o n L L' c t :
  org_ok o -> name_wf o n -> full_labels n o = Ok L -> Lsim c t L' L -> name_ok L' ->
  exists n' X, relz o L' = Ok n' /\ ci_equal n' n /\ name_wf o n' /\ full_labels n' o = Ok X /\ Lsim c t X L.
Proof.
  intros OO NW HF S NO'. pose proof (Lsim_ci _ _ _ _ S) as CI.
  destruct (relz_back o n L L' OO NW HF CI NO') as [(_ & -> & HR)|(org & n' & s' & -> & -> & -> & HR & C & A' & V')].
  - exists L', L'. split; [exact HR|]. split; [exact CI|]. split; [exact (name_wf_ci o n L' CI NW)|].
    split; [apply full_labels_abs; exact NO'|exact S].
  - exists n', (n' ++ org). split; [exact HR|]. split; [exact C|]. split; [right; exists org; auto|].
    split; [exact (proj1 (full_labels_rel n' org OO A' V'))|].
    destruct c; cbn [Lsim] in *.
    + exact (lsim_replace_suffix t n' n s' org (ci_equal_length _ _ C) S).
    + apply app_inj_len in S; [|apply ci_equal_length; exact C]. destruct S as (-> & _). reflexivity.
Qed.

(* one name of an rdata or a question: what the reader returns for it, and that it may be written instead *)
Lemma nm_em_read o n cn file t e1 t1 :
  org_ok o -> TableSound file t -> name_wf o n -> nm_em n o cn (zlen file) t = Ok (e1, t1) ->
  TableSound (file ++ e1) t1 /\
  exists n', ci_equal n' n /\ (cn = false -> n' = n) /\ name_wf o n' /\
    (forall ext endp, (length (file ++ e1) <= endp)%nat ->
       get_name ((file ++ e1) ++ ext) o endp (length file) = Ok (n', length (file ++ e1))) /\
    (forall tq, tbl_ci tq t -> exists tq', nm_em n' o cn (zlen file) tq = Ok (e1, tq') /\ tbl_ci tq' t1).
Proof.
  intros OO TS NW H.
  destruct (name_wf_full o n OO NW) as (L & HF & NOL).
  destruct (nm_em_sound_sim _ _ _ _ _ _ _ _ TS HF NOL H) as (TS1 & L' & SL & NO1 & D1).
  destruct (name_back_sim o n L L' _ _ OO NW HF SL NO1) as (n' & X & HRZ & CI1 & NW1 & HFX & SX).
  split; [exact TS1|]. exists n'. split; [exact CI1|]. split; [|split; [exact NW1|split]].
  - intros ->. cbn [Lsim] in SX. subst X. exact (full_labels_inj o n n' L OO NW NW1 CI1 HF HFX).
  - intros ext endp He. rewrite (get_name_relz o _ _ _ OO), (nm_read file e1 ext endp L' NO1 D1 He).
    cbn [bind fst snd]. rewrite HRZ. reflexivity.
  - intros tq TC. exact (nm_em_resim n' n o cn (zlen file) tq t e1 t1 X L TC HF HFX SX H).
Qed.

Definition piece_wf (o : option name) (p : piece) : Prop :=
  match p with PB _ => True | PN n | PU n | PX n => name_wf o n end.

Definition piece_ci (a b : piece) : Prop :=
  match a, b with
  | PB x, PB y => x = y
  | PN x, PN y => ci_equal x y
  | PU x, PU y => ci_equal x y
  | PX x, PX y => x = y
  | _, _ => False
  end.
Definition rdata_ci (a b : rdata) : Prop := Forall2 piece_ci a b.

(* <character-string>s: at least one, each at most 255 octets *)
Definition txt_wire (ss : list (list Z)) : list Z := flat_map (fun s => zlen s :: s) ss.
Definition txt_ok (b : list Z) : Prop :=
  exists ss, ss <> [] /\ Forall (fun s => zlen s <= 255) ss /\ b = txt_wire ss.

(* the pieces of an rdata follow the reader's field list *)
Inductive shaped : list fld -> rdata -> Prop :=
| sh_nil : shaped [] []
| sh_fix n b fs r : length b = n -> shaped fs r -> shaped (FFix n :: fs) (PB b :: r)
| sh_namec n fs r : shaped fs r -> shaped (FNameC :: fs) (PN n :: r)
| sh_nameu n fs r : shaped fs r -> shaped (FNameU :: fs) (PU n :: r)
| sh_namea n fs r : name_ok n -> shaped fs r -> shaped (FNameA :: fs) (PU n :: r)
| sh_rest b : shaped [FRest] [PB b]
| sh_cnt16 d fs r : zlen d <= 65535 -> shaped fs r -> shaped (FCnt16 :: fs) (PB (MessageM.u16 (zlen d) ++ d) :: r)
| sh_max16 mx v fs r : 0 <= v <= mx -> v <= 65535 -> shaped fs r -> shaped (FMax16 mx :: fs) (PB (MessageM.u16 v) :: r)
| sh_txt b : txt_ok b -> shaped [FTxt] [PB b]
| sh_cnt8 d fs r : zlen d <= 255 -> shaped fs r -> shaped (FCnt8 :: fs) (PB (zlen d :: d) :: r)
| sh_rest1 b : b <> [] -> shaped [FRest1] [PB b]
| sh_chk k b : chk k b = true -> shaped [FChk k] [PB b]
| sh_namex n fs r : shaped fs r -> shaped (FNameX :: fs) (PX n :: r)
| sh_gw0 n i mk b fs r : length b = n -> Z.land (nth i b 0) mk = 0 -> shaped fs r ->
    shaped (FGw n i mk :: fs) (PB b :: r)
| sh_gwip n i mk b a fs r : length b = n ->
    (Z.land (nth i b 0) mk = 1 /\ length a = 4%nat) \/ (Z.land (nth i b 0) mk = 2 /\ length a = 16%nat) -> shaped fs r ->
    shaped (FGw n i mk :: fs) (PB b :: PB a :: r)
| sh_gwn n i mk b nm fs r : length b = n -> Z.land (nth i b 0) mk = 3 -> shaped fs r ->
    shaped (FGw n i mk :: fs) (PB b :: PX nm :: r).

(* the shape and the well-formedness of the names do not depend on the case of the names *)
Lemma rdata_ci_inv rd' p r : rdata_ci rd' (p :: r) ->
  exists p' r', rd' = p' :: r' /\ rdata_ci r' r /\
    match p with
    | PB _ | PX _ => p' = p
    | PN n => exists n', p' = PN n' /\ ci_equal n' n
    | PU n => exists n', p' = PU n' /\ ci_equal n' n
    end.
Proof.
  intros H. inversion H as [|p' ? r' ? Hp Hr]; subst. exists p', r'. split; [reflexivity|]. split; [exact Hr|].
  destruct p' as [x|x|x|x]; destruct p as [y|y|y|y]; cbn [piece_ci] in Hp; try contradiction; subst; eauto.
Qed.

Lemma piece_wf_ci o : forall rd' rd, rdata_ci rd' rd -> Forall (piece_wf o) rd -> Forall (piece_wf o) rd'.
Proof.
  induction 1 as [|p' p r' r Hp _ IH]; intros F; [constructor|]. inversion F as [|? ? Fp Fr]; subst.
  constructor; [|exact (IH Fr)].
  destruct p' as [x|x|x|x]; destruct p as [y|y|y|y]; cbn [piece_ci piece_wf] in *; try contradiction; subst;
    try assumption; exact (name_wf_ci o _ _ Hp Fp).
Qed.

Lemma shaped_ci : forall fs rd, shaped fs rd -> forall rd', rdata_ci rd' rd -> shaped fs rd'.
Proof.
  induction 1; intros rd' C; try (inversion C; subst; constructor);
    apply rdata_ci_inv in C; destruct C as (p' & r' & -> & C & E); cbn beta iota in E.
  all: try (destruct E as (n' & -> & E)); try subst p'.
  all: try (constructor; auto; fail).
  - (* FNameA *) constructor; [exact (name_ok_ci _ _ (eq_sym E) H)|auto].
  - inversion C; subst. constructor.
  - inversion C; subst. constructor; assumption.
  - inversion C; subst. constructor; assumption.
  - inversion C; subst. constructor; assumption.
  - apply rdata_ci_inv in C. destruct C as (p' & r2 & -> & C & ->). apply sh_gwip; auto.
  - apply rdata_ci_inv in C. destruct C as (p' & r2 & -> & C & ->). apply sh_gwn; auto.
Qed.

Lemma txt_loop_ok w : forall ss fuel endp cur count,
  Forall (fun s => zlen s <= 255) ss -> sits w cur (txt_wire ss) ->
  endp = (cur + length (txt_wire ss))%nat -> (length (txt_wire ss) < fuel)%nat ->
  txt_loop w fuel endp cur count = Ok (count + length ss)%nat.
Proof.
  induction ss as [|s ss IH]; intros fuel endp cur count HF S -> Hf; (destruct fuel; [lia|]); cbn [txt_loop].
  - cbn [txt_wire flat_map length]. destruct (Nat.leb_spec (cur + 0) cur); [|lia]. f_equal. lia.
  - inversion HF as [|? ? Hs HF']; subst. cbn [txt_wire flat_map] in *. fold (txt_wire ss) in *.
    rewrite app_length in *. cbn [length] in *.
    change (zlen s :: s) with ([zlen s] ++ s) in S. apply sits_app in S. destruct S as (S1 & S3).
    apply sits_app in S1. destruct S1 as (S1 & S2). rewrite app_length in S3. cbn [length] in S2, S3.
    destruct (Nat.leb_spec (cur + (S (length s) + length (txt_wire ss))) cur); [lia|].
    rewrite (rd_u8_sits _ _ _ _ S1) by lia. cbn [bind]. rewrite zlen_to_nat.
    rewrite (rd_bytes_sits _ _ _ _ S2) by lia. cbn [bind].
    rewrite (IH fuel _ (cur + 1 + length s)%nat (S count) HF'); [f_equal; lia| |lia|lia].
    replace (cur + 1 + length s)%nat with (cur + (1 + length s))%nat by lia. exact S3.
Qed.

(* what one field of the reader does when the octets of its piece are in place *)
Section Fields.
Variables (w : list Z) (fs : list fld) (o : option name) (endp cur : nat) (acc : rdata).

Lemma dec_fix b : sits w cur b -> (cur + length b <= endp)%nat ->
  dec_fields w (FFix (length b) :: fs) o endp cur acc = dec_fields w fs o endp (cur + length b) (PB b :: acc).
Proof. intros S H. cbn [dec_fields]. rewrite rd_bytes_sits by assumption. reflexivity. Qed.

(* the fields that take everything up to the end *)
Lemma rd_bytes_rest b : sits w cur b -> endp = (cur + length b)%nat -> rd_bytes w endp cur (endp - cur) = Ok b.
Proof. intros S ->. replace (cur + length b - cur)%nat with (length b) by lia. apply rd_bytes_sits; [exact S|lia]. Qed.

Lemma dec_rest b : sits w cur b -> endp = (cur + length b)%nat ->
  dec_fields w (FRest :: fs) o endp cur acc = dec_fields w fs o endp (cur + length b) (PB b :: acc).
Proof. intros S E. cbn [dec_fields]. rewrite (rd_bytes_rest b S E). rewrite <- E. reflexivity. Qed.

Lemma dec_rest1 b : b <> [] -> sits w cur b -> endp = (cur + length b)%nat ->
  dec_fields w (FRest1 :: fs) o endp cur acc = dec_fields w fs o endp (cur + length b) (PB b :: acc).
Proof.
  intros NE S E. cbn [dec_fields]. rewrite (rd_bytes_rest b S E). rewrite <- E.
  destruct (Nat.eqb_spec (endp - cur) 0); [destruct b; [congruence|cbn [length] in E; lia]|reflexivity].
Qed.

Lemma dec_chk k b : chk k b = true -> sits w cur b -> endp = (cur + length b)%nat ->
  dec_fields w (FChk k :: fs) o endp cur acc = dec_fields w fs o endp (cur + length b) (PB b :: acc).
Proof. intros C S E. cbn [dec_fields]. rewrite (rd_bytes_rest b S E). cbn [bind]. rewrite C, <- E. reflexivity. Qed.

Lemma dec_txt b : txt_ok b -> sits w cur b -> endp = (cur + length b)%nat ->
  dec_fields w (FTxt :: fs) o endp cur acc = dec_fields w fs o endp (cur + length b) (PB b :: acc).
Proof.
  intros (ss & NE & HF & ->) S E. cbn [dec_fields]. rewrite (txt_loop_ok w ss _ endp cur 0%nat HF S E) by lia.
  cbn [bind]. rewrite (rd_bytes_rest _ S E), <- E. destruct ss; [congruence|reflexivity].
Qed.

Lemma dec_cnt16 d : zlen d <= 65535 -> sits w cur (MessageM.u16 (zlen d) ++ d) -> (cur + (2 + length d) <= endp)%nat ->
  dec_fields w (FCnt16 :: fs) o endp cur acc
  = dec_fields w fs o endp (cur + length (MessageM.u16 (zlen d) ++ d)) (PB (MessageM.u16 (zlen d) ++ d) :: acc).
Proof.
  intros Hd S H. destruct (sits_app _ _ _ _ S) as (S1 & S2). cbn [dec_fields]. pose proof (zlen_nonneg d).
  rewrite (rd_u16_sits _ _ _ _ S1) by lia. cbn [bind]. rewrite zlen_to_nat.
  rewrite (rd_bytes_sits _ _ _ _ S2) by (cbn [length MessageM.u16]; lia). cbn [bind].
  change (2 + length d)%nat with (length (MessageM.u16 (zlen d) ++ d)). rewrite rd_bytes_sits by assumption.
  cbn [bind]. f_equal. cbn [length MessageM.u16 app]. lia.
Qed.

Lemma dec_cnt8 d : zlen d <= 255 -> sits w cur (zlen d :: d) -> (cur + (1 + length d) <= endp)%nat ->
  dec_fields w (FCnt8 :: fs) o endp cur acc = dec_fields w fs o endp (cur + length (zlen d :: d)) (PB (zlen d :: d) :: acc).
Proof.
  intros Hd S H. destruct (sits_app w cur [zlen d] d S) as (S1 & _). cbn [dec_fields].
  rewrite (rd_u8_sits _ _ _ _ S1) by lia. cbn [bind]. rewrite zlen_to_nat.
  change (1 + length d)%nat with (length (zlen d :: d)). rewrite rd_bytes_sits by assumption.
  cbn [bind]. f_equal. cbn [length]. lia.
Qed.

Lemma dec_max16 mx v : 0 <= v <= mx -> v <= 65535 -> sits w cur (MessageM.u16 v) -> (cur + 2 <= endp)%nat ->
  dec_fields w (FMax16 mx :: fs) o endp cur acc = dec_fields w fs o endp (cur + 2) (PB (MessageM.u16 v) :: acc).
Proof.
  intros Hv Hv2 S H. cbn [dec_fields]. rewrite (rd_u16_sits _ _ _ _ S) by lia. cbn [bind].
  change 2%nat with (length (MessageM.u16 v)) at 1. rewrite rd_bytes_sits by assumption. cbn [bind].
  destruct (Z.gtb_spec v mx); [lia|reflexivity].
Qed.

(* a gateway field: its header, then what the gateway type selects *)
Lemma dec_gw n i mk b : sits w cur b -> length b = n -> (cur + n <= endp)%nat ->
  dec_fields w (FGw n i mk :: fs) o endp cur acc =
  let t := Z.land (nth i b 0) mk in
  if t =? 0 then dec_fields w fs o endp (cur + n) (PB b :: acc)
  else if t =? 1 then dec_fields w (FFix 4 :: fs) o endp (cur + n) (PB b :: acc)
  else if t =? 2 then dec_fields w (FFix 16 :: fs) o endp (cur + n) (PB b :: acc)
  else if t =? 3 then dec_fields w (FNameX :: fs) o endp (cur + n) (PB b :: acc)
  else Lib eFormError.
Proof.
  intros S <- H. cbn [dec_fields]. rewrite rd_bytes_sits by assumption. cbn [bind]. cbv zeta.
  destruct (Z.land (nth i b 0) mk =? 0); [reflexivity|].
  destruct (Z.land (nth i b 0) mk =? 1); [reflexivity|]. destruct (Z.land (nth i b 0) mk =? 2); reflexivity.
Qed.
End Fields.

(* the rest of a reader run: wire, end of the rdata, position, pieces read so far *)
Definition kont := list Z -> nat -> nat -> rdata -> res (rdata * nat).

Section ReadBack.
Variable o : option name.
Variable c : bool.

(* k reads back the emission of rd: it returns pieces that differ from rd at most in the case of names,
   and which render to the same octets against every table with ci-equal keys *)
Definition RB (k : kont) (rd : rdata) : Prop :=
  forall file t em t',
    TableSound file t -> Forall (piece_wf o) rd -> rd_em rd o c (zlen file) t = Ok (em, t') ->
    TableSound (file ++ em) t' /\
    exists rd', rdata_ci rd' rd /\
      (forall ext acc,
        k ((file ++ em) ++ ext) (length (file ++ em)) (length file) acc = Ok (rev acc ++ rd', length (file ++ em))) /\
      (forall tq, tbl_ci tq t -> exists tq', rd_em rd' o c (zlen file) tq = Ok (em, tq') /\ tbl_ci tq' t').

Lemma RB_nil : RB (fun _ _ cur acc => Ok (rev acc, cur)) [].
Proof.
  intros file t em t' TS _ H. injection H as <- <-. rewrite app_nil_r. split; [exact TS|]. exists [].
  split; [constructor|]. split; [intros; rewrite app_nil_r; reflexivity|]. intros tq TC. exists tq. split; [reflexivity|exact TC].
Qed.

(* a piece of literal octets; when it is the last piece it extends to the end *)
Lemma RB_lit (k k' : kont) b r :
  (forall w endp cur acc, sits w cur b -> (cur + length b <= endp)%nat -> (r = [] -> endp = (cur + length b)%nat) ->
     k w endp cur acc = k' w endp (cur + length b)%nat (PB b :: acc)) ->
  RB k' r -> RB k (PB b :: r).
Proof.
  intros Hk IH file t em t' TS PO H. rewrite rd_em_cons in H. apply seq_em_ok in H.
  destruct H as (e1 & t1 & e2 & H1 & H2 & ->). injection H1 as <- <-. inversion PO as [|? ? _ PO']; subst.
  rewrite <- zlen_app in H2.
  destruct (IH (file ++ b) t e2 t' (TableSound_app _ _ _ TS) PO' H2) as (TS' & rd' & CI & RD & RE).
  rewrite <- app_assoc in TS'. split; [exact TS'|]. exists (PB b :: rd').
  split; [constructor; [reflexivity|exact CI]|]. split.
  - intros ext acc. rewrite Hk.
    + rewrite (app_assoc file b e2), <- (app_length file b), RD. cbn [rev]. rewrite <- app_assoc. reflexivity.
    + rewrite <- !app_assoc. apply sits_here.
    + rewrite !app_length. lia.
    + intros ->. injection H2 as <- _. rewrite app_nil_r, app_length. reflexivity.
  - intros tq TC. destruct (RE tq TC) as (tq' & E & TC'). exists tq'. split; [|exact TC'].
    rewrite rd_em_cons. unfold seq_em. cbn [piece_em bind fst snd]. rewrite <- zlen_app, E. reflexivity.
Qed.

Lemma RB_last (k : kont) b :
  (forall w endp cur acc, sits w cur b -> endp = (cur + length b)%nat ->
     k w endp cur acc = Ok (rev (PB b :: acc), (cur + length b)%nat)) ->
  RB k [PB b].
Proof. intros Hk. refine (RB_lit k _ b [] _ RB_nil). intros w endp cur acc Sb _ E. exact (Hk w endp cur acc Sb (E eq_refl)). Qed.

(* a name piece mk n, written as the name n against the origin og with compression cn and read with og *)
Lemma RB_name og (k k' : kont) (mk : name -> piece) cn n r :
  org_ok og ->
  (forall x, ci_equal x n -> forall pos t, piece_em (mk x) o c pos t = nm_em x og cn pos t) ->
  (piece_wf o (mk n) -> name_wf og n) ->
  (forall x, ci_equal x n -> (cn = false -> x = n) -> piece_ci (mk x) (mk n)) ->
  (forall w endp cur acc, k w endp cur acc = do nc <- get_name w og endp cur; k' w endp (snd nc) (mk (fst nc) :: acc)) ->
  RB k' r -> RB k (mk n :: r).
Proof.
  intros OG Hem Hwf Hci Hk IH file t em t' TS PO H. rewrite rd_em_cons in H. apply seq_em_ok in H.
  destruct H as (e1 & t1 & e2 & H1 & H2 & ->). inversion PO as [|? ? NW PO']; subst.
  rewrite (Hem n) in H1 by reflexivity.
  destruct (nm_em_read og n cn file t e1 t1 OG TS (Hwf NW) H1) as (TS1 & n' & CI1 & EQ1 & _ & RDn & REn).
  rewrite <- zlen_app in H2.
  destruct (IH (file ++ e1) t1 e2 t' TS1 PO' H2) as (TS' & rd' & CI & RD & RE).
  rewrite <- app_assoc in TS'. split; [exact TS'|]. exists (mk n' :: rd').
  split; [constructor; [apply Hci; assumption|exact CI]|]. split.
  - intros ext acc. rewrite Hk, (app_assoc file e1 e2), <- (app_assoc (file ++ e1) e2 ext).
    rewrite RDn by (rewrite !app_length; lia). cbn [bind fst snd].
    rewrite (app_assoc (file ++ e1) e2 ext), RD. cbn [rev]. rewrite <- app_assoc. reflexivity.
  - intros tq TC. destruct (REn tq TC) as (tq1 & E1 & TC1). destruct (RE tq1 TC1) as (tq' & E2 & TC').
    exists tq'. split; [|exact TC']. rewrite rd_em_cons. unfold seq_em. rewrite (Hem n' CI1), E1. cbn [bind fst snd].
    rewrite <- zlen_app, E2. reflexivity.
Qed.
End ReadBack.

Definition dec_k (o : option name) (fs : list fld) : kont := fun w endp cur acc => dec_fields w fs o endp cur acc.

Theorem rd_em_read o c : org_ok o -> forall fs rd, shaped fs rd -> RB o c (dec_k o fs) rd.
Proof.
  intros OO.
  (* a name field read with the origin *)
  assert (NM : forall (mk : name -> piece) cn f fs n r,
             (forall x, piece_em (mk x) o c = nm_em x o cn) -> (forall x, piece_wf o (mk x) = name_wf o x) ->
             (forall x, ci_equal x n -> (cn = false -> x = n) -> piece_ci (mk x) (mk n)) ->
             (forall w endp cur acc, dec_k o (f :: fs) w endp cur acc
                = do nc <- get_name w o endp cur; dec_k o fs w endp (snd nc) (mk (fst nc) :: acc)) ->
             RB o c (dec_k o fs) r -> RB o c (dec_k o (f :: fs)) (mk n :: r)).
  { intros mk cn f fs n r Hem Hwf Hci Hk IH.
    apply (RB_name o c o _ (dec_k o fs) mk cn); try assumption.
    - intros x _ pos t. rewrite Hem. reflexivity.
    - rewrite Hwf. exact (fun H => H). }
  assert (XN : forall n fs r, RB o c (dec_k o fs) r -> RB o c (dec_k o (FNameX :: fs)) (PX n :: r)).
  { intros n fs r IH. apply (NM PX false); try reflexivity; [|exact IH]. intros x _ E. rewrite (E eq_refl). reflexivity. }
  intros fs rd S.
  induction S as [|n b fs r Hb S IH|n fs r S IH|n fs r S IH|n fs r NOa S IH|b|d fs r Hd S IH|mx v fs r Hv Hv2 S IH|b Hb
                  |d fs r Hd S IH|b Hne|k b Hck|n fs r S IH|n i mk b fs r Hb Ht S IH|n i mk b a fs r Hb Ht S IH|n i mk b nm fs r Hb Ht S IH].
  - apply RB_nil.
  - subst n. refine (RB_lit o c _ _ b r _ IH). intros. unfold dec_k. apply dec_fix; assumption.
  - apply (NM PN c); try reflexivity; [|exact IH]. intros x E _. exact E.
  - apply (NM PU false); try reflexivity; [|exact IH]. intros x E _. exact E.
  - (* the TSIG algorithm name: absolute, written and read without origin *)
    apply (RB_name o c None _ (dec_k o fs) PU false); try reflexivity; [| |intros x E _; exact E|exact IH].
    + intros x E pos t. cbn [piece_em]. unfold nm_em. rewrite full_labels_abs_origin; [reflexivity|].
      rewrite (ci_equal_absolute _ _ E). exact (proj2 NOa).
    + intros _. left. split; [exact NOa|exact Logic.I].
  - apply RB_last. intros w endp cur acc Sb E. exact (dec_rest w [] o endp cur acc b Sb E).
  - refine (RB_lit o c _ _ _ r _ IH). intros. unfold dec_k. apply dec_cnt16; assumption.
  - refine (RB_lit o c _ _ _ r _ IH). intros. unfold dec_k. apply dec_max16; assumption.
  - apply RB_last. intros w endp cur acc Sb E. exact (dec_txt w [] o endp cur acc b Hb Sb E).
  - refine (RB_lit o c _ _ _ r _ IH). intros. unfold dec_k. apply dec_cnt8; assumption.
  - apply RB_last. intros w endp cur acc Sb E. exact (dec_rest1 w [] o endp cur acc b Hne Sb E).
  - apply RB_last. intros w endp cur acc Sb E. exact (dec_chk w [] o endp cur acc k b Hck Sb E).
  - apply XN. exact IH.
  - subst n. refine (RB_lit o c _ _ b r _ IH). intros w endp cur acc Sb L _. unfold dec_k.
    rewrite (dec_gw _ _ _ _ _ _ _ i mk b Sb eq_refl L). cbv zeta. rewrite Ht. reflexivity.
  - subst n. refine (RB_lit o c _ (dec_k o (FFix (length a) :: fs)) b _ _ _).
    + intros w endp cur acc Sb L _. unfold dec_k. rewrite (dec_gw _ _ _ _ _ _ _ i mk b Sb eq_refl L). cbv zeta.
      destruct Ht as [(-> & ->)|(-> & ->)]; reflexivity.
    + refine (RB_lit o c _ _ a r _ IH). intros. unfold dec_k. apply dec_fix; assumption.
  - subst n. refine (RB_lit o c _ (dec_k o (FNameX :: fs)) b _ _ _).
    + intros w endp cur acc Sb L _. unfold dec_k. rewrite (dec_gw _ _ _ _ _ _ _ i mk b Sb eq_refl L). cbv zeta.
      rewrite Ht. reflexivity.
    + apply XN. exact IH.
Qed.

Definition po0 : popts := mkPopts false false false false true false.

Definition rd_covers (ty : Z) (rd : rdata) : Z :=
  if is_sigtype ty then match rd with PB (a :: b :: _) :: _ => a * 256 + b | _ => 0 end else 0.

(* what the wire holds at off: an RR that reads back as (owner', ty, cl, ttl, rd') and ends at end_ *)
Definition RRreads (o ro : option name) (w : list Z) (off : nat) (abs' owner' : name) (ty cl ttl : Z) (fs : list fld)
           (rd' : rdata) (end_ : nat) : Prop :=
  exists c1 rdl : nat,
    (c1 + 10 + rdl = end_)%nat /\ (end_ <= length w)%nat /\ (off < c1)%nat /\ Z.of_nat rdl <= 65535 /\
    forall ext,
      rr_head (w ++ ext) o off = Ok (abs', owner', c1, ty, cl, ttl, Z.of_nat rdl) /\
      forall acc, dec_fields (w ++ ext) fs ro end_ (c1 + 10) acc = Ok (rev acc ++ rd', end_).

Lemma RRreads_app o ro w more off abs' owner' ty cl ttl fs rd' end_ :
  RRreads o ro w off abs' owner' ty cl ttl fs rd' end_ -> RRreads o ro (w ++ more) off abs' owner' ty cl ttl fs rd' end_.
Proof.
  intros (c1 & rdl & A & B & C & D & E). exists c1, rdl. repeat split; try assumption.
  - rewrite app_length. lia.
  - rewrite <- app_assoc. apply E.
  - rewrite <- app_assoc. apply E.
Qed.

(* an RR head in place: the owner, then the ten octets between owner and rdata *)
Lemma rr_head_sits o w off owner' x c1 ty cl ttl rdl :
  nm_from_wire w (length w) off = Ok (owner', c1) -> relz o owner' = Ok x ->
  sits w c1 (MessageM.u16 ty ++ MessageM.u16 cl ++ MessageM.u32 ttl ++ MessageM.u16 rdl) ->
  0 <= ty <= 65535 -> 0 <= cl <= 65535 -> 0 <= ttl <= 4294967295 -> 0 <= rdl <= 65535 ->
  rr_head w o off = Ok (owner', x, c1, ty, cl, ttl, rdl).
Proof.
  intros HN HX S H1 H2 H3 H4. pose proof (sits_end _ _ _ S ltac:(discriminate)) as He.
  apply sits_app in S. destruct S as (S1 & S). apply sits_app in S. destruct S as (S2 & S).
  apply sits_app in S. destruct S as (S3 & S4). cbn [length app MessageM.u16 MessageM.u32] in *.
  replace (c1 + 2 + 2)%nat with (c1 + 4)%nat in * by lia. replace (c1 + 4 + 4)%nat with (c1 + 8)%nat in * by lia.
  unfold rr_head. rewrite HN. cbn [bind fst snd].
  change (match o with Some o0 => relativize owner' o0 | None => Ok owner' end) with (relz o owner'). rewrite HX. cbn [bind].
  rewrite (rd_u16_sits _ _ _ _ S1), (rd_u16_sits _ _ _ _ S2), (rd_u32_sits _ _ _ _ S3), (rd_u16_sits _ _ _ _ S4) by lia.
  reflexivity.
Qed.

(* an emitted RR is read back; the owner ownq may be written in its place when its labels agree with the
   written ones where they were written literally (the first record of a record set names the set) *)
Lemma rr_em_read_x o ro fs owner Lown ty cl ttl rd oc rc file t em t' :
  org_ok o -> org_ok ro -> TableSound file t -> full_labels owner o = Ok Lown -> name_ok Lown ->
  Forall (piece_wf ro) rd -> shaped fs rd ->
  rr_em owner ty cl ttl rd o ro oc rc (zlen file) t = Ok (em, t') ->
  TableSound (file ++ em) t' /\
  0 <= ty <= 65535 /\ 0 <= cl <= 65535 /\ 0 <= ttl <= 4294967295 /\
  exists owner' x rd',
    name_ok owner' /\ relz o owner' = Ok x /\ Lsim oc t owner' Lown /\
    rdata_ci rd' rd /\ Forall (piece_wf ro) rd' /\ shaped fs rd' /\
    RRreads o ro (file ++ em) (length file) owner' x ty cl ttl fs rd' (length (file ++ em)) /\
    (forall tq ownq Lq, tbl_ci tq t -> full_labels ownq o = Ok Lq -> Lsim oc t Lq Lown ->
       exists tq', rr_em ownq ty cl ttl rd' o ro oc rc (zlen file) tq = Ok (em, tq') /\ tbl_ci tq' t').
Proof.
  intros OO OR TS HFo NO PO S H. apply rr_em_split in H.
  destruct H as (e1 & t1 & e2 & H1 & H2 & Hlen & R1 & R2 & R3 & ->).
  destruct (nm_em_sound_sim _ _ _ _ _ _ _ _ TS HFo NO H1) as (TS1 & owner' & SL & NO1 & D1).
  destruct (relz_total o owner' OO NO1) as (x & HX).
  set (hdr := MessageM.u16 ty ++ MessageM.u16 cl ++ MessageM.u32 ttl ++ MessageM.u16 (zlen e2)).
  set (file1 := (file ++ e1) ++ hdr).
  assert (Hpos : zlen file + zlen e1 + 10 = zlen file1) by (unfold file1; rewrite !zlen_app; reflexivity).
  assert (Lf1 : length file1 = (length (file ++ e1) + 10)%nat) by (unfold file1; rewrite (app_length _ hdr); reflexivity).
  rewrite Hpos in H2.
  destruct (rd_em_read ro rc OR fs rd S file1 t1 e2 t' (TableSound_app _ _ _ TS1) PO H2) as (TS2 & rd' & CI2 & RD & RE).
  replace (file ++ e1 ++ MessageM.u16 ty ++ MessageM.u16 cl ++ MessageM.u32 ttl ++ MessageM.u16 (zlen e2) ++ e2) with (file1 ++ e2)
    by (unfold file1, hdr; rewrite <- !app_assoc; reflexivity).
  split; [exact TS2|]. do 3 (split; [assumption|]).
  exists owner', x, rd'. split; [exact NO1|]. split; [exact HX|]. split; [exact SL|]. split; [exact CI2|].
  split; [exact (piece_wf_ci ro _ _ CI2 PO)|]. split; [exact (shaped_ci _ _ S _ CI2)|].
  pose proof (Dec_bounds _ _ _ _ _ D1) as (B1 & B2 & B3). pose proof (zlen_nonneg e2).
  split.
  - exists (length (file ++ e1)), (length e2).
    split; [rewrite (app_length file1), Lf1; reflexivity|]. split; [lia|]. split; [lia|]. split; [unfold zlen in Hlen; lia|].
    intros ext. split.
    + replace ((file1 ++ e2) ++ ext) with ((file ++ e1) ++ hdr ++ e2 ++ ext) by (unfold file1; rewrite <- !app_assoc; reflexivity).
      apply rr_head_sits; try assumption.
      * apply nm_read; [exact NO1|exact D1|rewrite (app_length (file ++ e1)); lia].
      * exact (sits_here (file ++ e1) hdr (e2 ++ ext)).
      * unfold zlen in Hlen. lia.
    + intros acc. rewrite <- Lf1. apply RD.
  - intros tq ownq Lq TC HFq SLq.
    destruct (nm_em_resim ownq owner o oc (zlen file) tq t e1 t1 Lq Lown TC HFo HFq SLq H1) as (tq1 & E1 & TC1).
    destruct (RE tq1 TC1) as (tq' & E2 & TC'). exists tq'. split; [|exact TC'].
    rewrite <- Hpos in E2. exact (rr_em_join _ _ _ _ _ _ _ _ _ _ _ _ _ _ _ E1 E2 Hlen R1 R2 R3).
Qed.

(* the same when owner and rdata are written with one origin, with the owner name the reader returns *)
Lemma rr_em_read_o o fs owner Lown ty cl ttl rd oc rc file t em t' :
  org_ok o -> TableSound file t -> name_wf o owner -> full_labels owner o = Ok Lown -> name_ok Lown ->
  Forall (piece_wf o) rd -> shaped fs rd ->
  rr_em owner ty cl ttl rd o o oc rc (zlen file) t = Ok (em, t') ->
  TableSound (file ++ em) t' /\
  exists abs' owner' X rd',
    ci_equal owner' owner /\ name_wf o owner' /\ full_labels owner' o = Ok X /\ Lsim oc t X Lown /\
    rdata_ci rd' rd /\ Forall (piece_wf o) rd' /\ shaped fs rd' /\
    RRreads o o (file ++ em) (length file) abs' owner' ty cl ttl fs rd' (length (file ++ em)) /\
    (forall tq ownq Lq, tbl_ci tq t -> full_labels ownq o = Ok Lq -> Lsim oc t Lq Lown ->
       exists tq', rr_em ownq ty cl ttl rd' o o oc rc (zlen file) tq = Ok (em, tq') /\ tbl_ci tq' t').
Proof.
  intros OO TS NW HFo NOL PO S H.
  destruct (rr_em_read_x o o fs owner Lown ty cl ttl rd oc rc file t em t' OO OO TS HFo NOL PO S H)
    as (TS1 & _ & _ & _ & abs' & owner' & rd' & NOa & HX & SL & CI2 & PO2 & S2 & RR & RE).
  destruct (name_back_sim o owner Lown abs' oc t OO NW HFo SL NOa) as (x' & X & HX' & CI1 & NW1 & HFX & SX).
  assert (x' = owner') by congruence. subst x'.
  split; [exact TS1|]. exists abs', owner', X, rd'. auto 12.
Qed.

Lemma rr_em_read o ro fs owner Lown ty cl ttl rd oc rc file t em t' :
  org_ok o -> org_ok ro -> TableSound file t -> full_labels owner o = Ok Lown -> name_ok Lown ->
  Forall (piece_wf ro) rd -> shaped fs rd ->
  rr_em owner ty cl ttl rd o ro oc rc (zlen file) t = Ok (em, t') ->
  TableSound (file ++ em) t' /\
  0 <= ty <= 65535 /\ 0 <= cl <= 65535 /\ 0 <= ttl <= 4294967295 /\
  exists owner' x rd' (c1 rdl : nat),
    ci_equal owner' Lown /\ name_ok owner' /\ relz o owner' = Ok x /\
    rdata_ci rd' rd /\ Forall (piece_wf ro) rd' /\ shaped fs rd' /\
    (c1 + 10 + rdl = length (file ++ em))%nat /\ (length file < c1)%nat /\ Z.of_nat rdl <= 65535 /\
    forall ext,
      rr_head ((file ++ em) ++ ext) o (length file)
        = Ok (owner', x, c1, ty, cl, ttl, Z.of_nat rdl) /\
      forall acc, dec_fields ((file ++ em) ++ ext) fs ro (length (file ++ em)) (c1 + 10) acc
                  = Ok (rev acc ++ rd', length (file ++ em)).
Proof.
  intros OO OR TS HFo NO PO S H.
  destruct (rr_em_read_x o ro fs owner Lown ty cl ttl rd oc rc file t em t' OO OR TS HFo NO PO S H)
    as (TS' & R1 & R2 & R3 & owner' & x & rd' & A2 & A3 & SL & A4 & A5 & A6 & (c1 & rdl & A7 & _ & A8 & A9 & A10) & _).
  split; [exact TS'|]. do 3 (split; [assumption|]).
  exists owner', x, rd', c1, rdl. split; [exact (Lsim_ci _ _ _ _ SL)|]. repeat (split; [assumption|]). exact A10.
Qed.

Lemma get_rr_ordinary o w off abs' owner' ty cl ttl fs rd' end_ ext sec count i fu m :
  RRreads o o w off abs' owner' ty cl ttl fs rd' end_ ->
  ty <> tOPT -> ty <> tTSIG -> schema_of cl ty = Some fs -> 0 <= ttl <= 2147483647 ->
  get_rr (w ++ ext) o po0 false sec count i off fu m
  = Ok (end_, fu, set_sec m sec (find_add (get_sec m sec) owner' cl ty (rd_covers ty rd') None fu
                                          (fun rs => rrset_add rs rd' ttl))).
Proof.
  intros (c1 & rdl & A & B & C & D & E) H1 H2 HS Httl.
  destruct (E ext) as (EH & ED). unfold get_rr. rewrite EH. cbn [bind].
  assert (E1 : (ty =? tOPT) = false) by (apply Z.eqb_neq; assumption).
  assert (E2 : (ty =? tTSIG) = false) by (apply Z.eqb_neq; assumption).
  rewrite !E1, !E2.
  cbn [orb]. unfold parse_rr_header. cbn [negb bind]. rewrite ?E1, ?E2.
  rewrite Nat2Z.id.
  destruct (Nat.ltb_spec (length (w ++ ext) - (c1 + 10)) rdl); [rewrite app_length in *; lia|].
  unfold dec_rdata. rewrite HS. rewrite A. rewrite ED. cbn [bind fst snd rev app].
  rewrite Nat.eqb_refl. cbn [bind].
  destruct (Z.gtb_spec ttl 2147483647); [lia|].
  unfold po0. cbn [p_xfr andb orb]. rewrite orb_false_r. unfold rd_covers.
  rewrite ?E1, ?E2. destruct (is_sigtype ty); reflexivity.
Qed.
