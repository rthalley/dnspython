(* C19 - refinement, continued: minimum, element replacement, deletion.  The one ghost check of the
   store model (the child found again after rebalancing must be owned) is discharged here: under
   the B-tree invariant the re-search lands on the child that has grown, which balance has copied. *)
From DV Require Import Base.Prelude Model.BTreeM Model.BTreeStoreM Proofs.BTreeBase Proofs.BTreeWf Proofs.BTreeInsert
  Proofs.BTreeDelete Proofs.BTreeStore Proofs.BTreeRefine Proofs.BTreeRefine2.

Section SIM3.
Variable c : nat.
Variable t : nat.
Hypothesis Ht : (3 <= t)%nat.
Notation own := (ownc c).
Notation stepped := (stepped c).
Notation wfn := (wfn t).

Lemma minimum_sim s : forall fuel h lo n id fp e,
  wfn lo h n -> (h <= fuel)%nat -> rep s id n fp -> minimum n = Ok e -> s_minimum fuel s id = Ok e.
Proof.
  induction fuel as [|f IH]; intros h lo n id fp e Hw Hf Hr Hv.
  { pose proof (wfn_pos t Ht _ _ _ Hw). lia. }
  destruct n as [lf es ks]. cbn [minimum] in Hv. cbn [s_minimum].
  apply rep_inv in Hr as (nn & fps & Hnn & Hl & He & Hks & -> & Hnd & Hlk).
  rewrite (sget_some _ _ _ Hnn). cbn [bind]. rewrite Hl, He. destruct lf; [exact Hv|].
  destruct ks as [|k ks']; [discriminate|]. apply reps_cons_inv in Hks as (kid & kids' & fk & fps' & -> & -> & Hrk & _).
  apply wfn_inv in Hw as (_ & [(? & _)|(_ & h' & -> & _ & Hall)]); [discriminate|]. inversion Hall; subst.
  eapply (IH h'); eauto. lia.
Qed.

Lemma replace_key_sim key e : forall fuel s id n fp n' old,
  rep s id n fp -> own s id -> replace_key fuel n key e = Ok (n', old) ->
  exists s', s_replace_key fuel s id key e = Ok (s', old) /\ stepped s id fp s' n'.
Proof.
  induction fuel as [|f IH]; intros s id n fp n' old Hr Hop Hv; [discriminate|].
  destruct n as [lf es ks]. cbn [replace_key] in Hv. cbn [s_replace_key].
  destruct (rep_root _ _ _ _ _ _ Hr) as (nn & Hnn & <- & <-).
  rewrite (sget_some _ _ _ Hnn). cbn [bind].
  destruct (search key (s_elts nn)) as [(i & eq)| |]; cbn [bind] in Hv |- *; try discriminate.
  destruct eq.
  { destruct (split_at i (s_elts nn)) as [((a & o) & b)| |]; cbn [bind] in Hv |- *; try discriminate.
    inversion Hv; subst n' old. eauto using write_elts_sim. }
  destruct (s_leaf nn); [discriminate|].
  destruct (split_at i ks) as [((ka & child) & kb)| |] eqn:Esp; cbn [bind] in Hv; try discriminate.
  apply split_at_inv in Esp as (-> & <-).
  destruct (cow_child_open c _ _ _ _ _ _ _ _ Hr Hop) as (s1 & cid & ia & ib & fa & fc & fb & -> & Hopen & Hoc & Hfr1 & Hsub1 & _). cbn [bind].
  destruct (replace_key f child key e) as [(c' & old')| |] eqn:Erec; cbn [bind] in Hv; try discriminate.
  inversion Hv; subst n' old.
  destruct (IH s1 cid child fc c' old' (proj1 (opened_kid _ _ _ _ _ _ _ _ _ _ _ _ _ Hopen)) Hoc Erec) as (s2 & -> & Hstc).
  eauto using stepped_trans, stepped_child.
Qed.

Definition drec_sim (rec : tree -> Z -> option Z -> res (tree * dout))
    (srec : store -> nat -> Z -> option Z -> res (store * dout)) (h : nat) : Prop :=
  forall s cid ck fc key exact ck' o,
    wfn (t_min t) h ck -> (t_min t < length (n_elts ck))%nat -> ksorted (elements ck) ->
    rep s cid ck fc -> own s cid -> rec ck key exact = Ok (ck', o) ->
    exists s', srec s cid key exact = Ok (s', o) /\ stepped s cid fc s' ck'.

Lemma del_down_sim rec srec lo h key exact ea eb ka ck kb s id fp n' o :
  drec_sim rec srec h ->
  length ka = length ea -> length kb = length eb ->
  wfn lo (S h) (Node false (ea ++ eb) (ka ++ ck :: kb)) ->
  (1 <= length (ea ++ eb))%nat ->
  ksorted (elements (Node false (ea ++ eb) (ka ++ ck :: kb))) ->
  all_lt ea key -> all_gt eb key ->
  rep s id (Node false (ea ++ eb) (ka ++ ck :: kb)) fp -> own s id ->
  del_down t rec (Node false (ea ++ eb) (ka ++ ck :: kb)) key (length ka) exact = Ok (n', o) ->
  exists s', s_del_down t srec s id key (length ka) exact = Ok (s', o) /\ stepped s id fp s' n'.
Proof.
  intros Hrec H1 H2 Hw Hne Hs Hlt Hgt Hr Hop Hv.
  pose proof Hw as Hw0.
  apply wfn_inv in Hw as (Hb & [(? & _)|(_ & h' & Hh & Hk & Hall)]); [discriminate|].
  inversion Hh; subst h'. apply Forall_mid in Hall as (Hka & Hcw & Hkb).
  unfold del_down in Hv. cbn [n_kids] in Hv. rewrite split_at_app in Hv by reflexivity. cbn [bind] in Hv.
  unfold s_del_down.
  destruct (cow_child_open c _ _ _ _ _ _ _ _ Hr Hop) as (s1 & cid & ia & ib & fa & fc & fb & -> & Hopen & Hoc & Hfr1 & Hsub1 & _). cbn [bind].
  pose proof (stepped_trans c _ id _ _ _ Hfr1 Hsub1) as Hback.
  destruct (opened_close _ _ _ _ _ _ _ _ _ _ _ _ _ Hopen) as (Hr1 & Hop1).
  destruct (opened_kid _ _ _ _ _ _ _ _ _ _ _ _ _ Hopen) as (Hrc & Hkid1).
  destruct ck as [clf ces cks]. destruct (rep_root _ _ _ _ _ _ Hrc) as (cn & Hcn & _ & <-).
  rewrite (sget_some _ _ _ Hcn). cbn [bind].
  pose proof (is_minimal_ok t Ht _ _ Hcw) as Emin. rewrite Emin in Hv. rewrite is_minimal_eq in Emin. cbn [n_elts] in Emin. rewrite Emin.
  cbn [bind n_elts] in Hv |- *. clear Emin.
  destruct (Nat.eqb_spec (length (s_elts cn)) (t_min t)) as [Hmn|Hmn].
  - (* the child is minimal: rebalance first *)
    destruct (balance_spec t Ht lo h key ea eb ka _ kb H1 H2 Hw0 Hne Hmn Hs Hlt Hgt)
      as (ea1 & eb1 & ka1 & c1 & kb1 & Hbal & H1' & H2' & Hlt1 & Hgt1 & Hw1 & He1 & Hc1 & Hidx).
    rewrite Hbal in Hv. cbn [bind n_elts] in Hv.
    assert (Hs1 : ksorted (elements (Node false (ea1 ++ eb1) (ka1 ++ c1 :: kb1)))) by now rewrite He1.
    pose proof (node_es_sorted t Ht _ _ _ Hw1 Hs1) as Hes1. cbn [n_elts] in Hes1.
    rewrite search_miss in Hv by assumption. cbn [bind] in Hv.
    rewrite <- H1', split_at_app in Hv by reflexivity. cbn [bind] in Hv.
    destruct (balance_sim c t s1 id _ _ cid (length ka) _ Hr1 Hop1 Hoc Hkid1 Hbal)
      as (s2 & -> & (fp2 & Hr2 & Hsub2 & Hfr2 & Hop2) & gid & Hkg & Hog). cbn [bind]. rewrite <- Hidx in Hkg.
    destruct (rep_open c _ _ _ _ _ _ _ _ Hr2 Hop2) as (ia2 & cid2 & ib2 & fa2 & fc2 & fb2 & Hopen2 & -> & _).
    destruct (opened_kid _ _ _ _ _ _ _ _ _ _ _ _ _ Hopen2) as (Hrc2 & Hkid2).
    assert (gid = cid2) by exact (kid_at_fun _ _ _ _ _ Hkg Hkid2). subst gid.
    pose proof Hopen2 as (n2 & Hn2 & Hcn2 & _ & Hen2 & Hkn2 & _ & _ & _ & Hlia2 & _).
    rewrite (sget_some _ _ _ Hn2). cbn [bind]. rewrite Hen2, search_miss by assumption. cbn [bind].
    rewrite Hkn2, <- H1', <- Hlia2, split_at_app by reflexivity. cbn [bind].
    destruct c1 as [c1lf c1es c1ks]. destruct (rep_root _ _ _ _ _ _ Hrc2) as (c2 & Hc2 & _ & <-).
    rewrite (sget_some _ _ _ Hc2). cbn [bind].
    (* the ghost check: the child found again is the one balance has made the tree's own *)
    assert (Hcr2 : s_cr c2 = s_cr n2) by (destruct Hog as (m & Hm & Hcm); congruence).
    rewrite Hcr2, Nat.eqb_refl. cbn [negb].
    apply wfn_inv in Hw1 as Hw1i. destruct Hw1i as (_ & [(? & _)|(_ & h' & Hh' & _ & Hall1)]); [discriminate|].
    inversion Hh'; subst h'. apply Forall_mid in Hall1 as (_ & Hcw1 & _).
    pose proof (is_minimal_ok t Ht _ _ Hcw1) as Emin. rewrite Emin in Hv. rewrite is_minimal_eq in Emin. cbn [n_elts] in Emin. rewrite Emin.
    cbn [bind n_elts] in Hv, Hc1 |- *.
    destruct (Nat.eqb_spec (length (s_elts c2)) (t_min t)); [lia|].
    destruct (rec (Node c1lf (s_elts c2) c1ks) key exact) as [(c' & o')| |] eqn:Erec; cbn [bind] in Hv; try discriminate.
    inversion Hv; subst n' o. clear Hv.
    destruct (kid_sorted ea1 eb1 ka1 _ kb1 H1' H2' Hs1) as (Hcs1 & _). cbn [bind].
    destruct (Hrec s2 cid2 _ fc2 key exact c' o' Hcw1 Hc1 Hcs1 Hrc2 Hog Erec) as (s3 & -> & Hstc).
    eauto 7 using stepped_trans, stepped_child.
  - (* the child has room *)
    cbn [bind] in Hv |- *. rewrite split_at_app in Hv by reflexivity. cbn [bind] in Hv.
    destruct (rec (Node clf (s_elts cn) cks) key exact) as [(c' & o')| |] eqn:Erec; cbn [bind] in Hv; try discriminate.
    inversion Hv; subst n' o. clear Hv.
    pose proof (wfn_len t Ht _ _ _ Hcw) as Hcl2. cbn [n_elts] in Hcl2.
    destruct (kid_sorted ea eb ka _ kb H1 H2 Hs) as (Hcs & _).
    destruct (Hrec s1 cid _ fc key exact c' o' Hcw ltac:(cbn; lia) Hcs Hrc Hoc Erec) as (s2 & -> & Hstc).
    eauto using stepped_child.
Qed.

Lemma del_sim : forall fuel h, (h <= fuel)%nat -> forall (isroot : bool) n key exact s id fp n' o,
  wfn (if isroot then root_lo n else t_min t) h n ->
  (isroot = false -> (t_min t < length (n_elts n))%nat) ->
  ksorted (elements n) ->
  rep s id n fp -> own s id ->
  del t fuel isroot n key exact = Ok (n', o) ->
  exists s', s_del t fuel isroot s id key exact = Ok (s', o) /\ stepped s id fp s' n'.
Proof.
  induction fuel as [|f IH]; intros h Hf isroot n key exact s id fp n' o Hw Hnm Hs Hr Hop Hv.
  { pose proof (wfn_pos t Ht _ _ _ Hw). lia. }
  pose proof (wfn_len t Ht _ _ _ Hw) as Hlen.
  assert (Hmn : (if isroot then Ok false else is_minimal t n) = Ok false).
  { destruct isroot; [reflexivity|]. specialize (Hnm eq_refl). unfold is_minimal.
    destruct (Nat.ltb_spec (length (n_elts n)) (t_min t)); [lia|].
    destruct (Nat.eqb_spec (length (n_elts n)) (t_min t)); [lia|reflexivity]. }
  assert (Hrec : forall h', (h' < h)%nat ->
            drec_sim (fun c k ex => del t f false c k ex) (fun s c k ex => s_del t f false s c k ex) h').
  { intros h' Hh s0 cid ck fc k ex ck' o0 Hc Hcl Hcs Hrc Hoc Hd.
    apply (IH h' ltac:(lia) false ck k ex s0 cid fc ck' o0); auto. }
  assert (Hne : n_leaf n = false -> (1 <= length (n_elts n))%nat).
  { intros Hl. unfold root_lo in Hlen. rewrite Hl in Hlen. destruct isroot; [lia|]. specialize (Hnm eq_refl). lia. }
  clear Hlen Hnm. revert Hw. generalize (if isroot then root_lo n else t_min t). intros lo Hw.
  destruct (key_view_of t Ht key lo h n Hw Hs)
    as [h lf ea v eb ks A B Hsr HA HB Hel Hwx|ea eb Hsr Hlt Hgt|h ea eb ka ck kb Hsr Hlt Hgt H1 H2 _ _ _ _];
    cbn [del] in Hv; cbn [s_del];
    destruct (rep_root _ _ _ _ _ _ Hr) as (sn & Hsn & Hsl & Hse);
    rewrite (sget_some _ _ _ Hsn); cbn [bind]; rewrite Hse, Hsl;
    rewrite Hmn in Hv; rewrite is_minimal_eq in Hmn; cbn [n_elts] in Hmn; rewrite Hmn;
    rewrite Hsr in Hv |- *; cbn [bind] in Hv |- *.
  - (* the key is in this node *)
    rewrite split_at_app in Hv |- * by reflexivity. cbn [bind] in Hv |- *.
    destruct (exact_mismatch exact (key, v)); [inversion Hv; subst n' o; exists s; auto using stepped_refl|].
    destruct lf; [inversion Hv; subst n' o; eauto using write_elts_sim|].
    (* internal: the least successor is deleted below, then put in the key's place *)
    apply wfn_inv in Hw as Hi. destruct Hi as (_ & [(? & _)|(_ & h' & -> & Hk & Hall)]); [discriminate|].
    destruct (kids_at2 ea (key, v) eb ks Hk) as (ka & cl & cr & kb & -> & H1 & H2).
    apply Forall_mid in Hall as (_ & _ & (Hcrw & _)%Forall_cons_iff).
    change (ea ++ (key, v) :: eb) with (ea ++ [(key, v)] ++ eb) in *. change (ka ++ cl :: cr :: kb) with (ka ++ [cl] ++ cr :: kb) in *.
    rewrite !app_assoc in *. rewrite <- H1, <- (last_length ka cl) in Hv |- *.
    assert (H1' : length (ka ++ [cl]) = length (ea ++ [(key, v)])) by (now rewrite !last_length, H1).
    rewrite split_at_app in Hv by reflexivity. cbn [bind] in Hv.
    destruct (minimum_spec t Ht h' _ cr Hcrw) as (succ & rest & Hmin & Hcr); [unfold t_min; lia|]. rewrite Hmin in Hv. cbn [bind] in Hv.
    assert (exists ia cid ib fc, s_kids sn = ia ++ cid :: ib /\ length ia = length (ka ++ [cl]) /\ rep s cid cr fc) as (ia & cid & ib & fc & Hkn & Hlia & Hrc).
    { apply rep_inv in Hr as (n0 & fps & Hn0 & _ & _ & Hks & _). assert (n0 = sn) by congruence. subst n0.
      apply reps_mid in Hks as (ia & cid & ib & fa & fc & fb & Hids & _ & _ & Hrc & _ & Lia & _). eauto 8. }
    rewrite Hkn, <- Hlia, split_at_app by reflexivity. cbn [bind]. rewrite Hlia.
    rewrite (minimum_sim s (S f) h' _ cr cid fc succ Hcrw ltac:(lia) Hrc Hmin). cbn [bind].
    destruct (kid_sorted _ _ _ _ _ H1' H2 Hs) as (_ & _ & _ & _ & Hbound).
    destruct (Hbound succ) as (Hslt & Hsgt); [rewrite Hcr; now left|].
    destruct (del_down t (fun c0 k ex => del t f false c0 k ex) _ (fst succ) (length (ka ++ [cl])) None) as [(n1 & o1)| |] eqn:Ed;
      cbn [bind] in Hv; try discriminate.
    destruct (del_down_sim _ _ lo h' (fst succ) None _ _ _ cr kb s id _ n1 o1 (Hrec h' (le_n _)) H1' H2 Hw ltac:(len_lia) Hs Hslt Hsgt Hr Hop Ed)
      as (s1 & -> & fp1 & Hr1 & Hsub1 & Hfr1 & Hop1). cbn [bind].
    destruct o1; try discriminate.
    destruct (replace_key (S f) n1 key e) as [(n2 & old)| |] eqn:Erk; cbn [bind] in Hv; try discriminate.
    inversion Hv; subst n' o.
    destruct (replace_key_sim key e (S f) s1 id n1 fp1 n2 old Hr1 Hop1 Erk) as (s2 & -> & Hst2). cbn [bind].
    eauto using stepped_trans.
  - (* a leaf without the key *)
    inversion Hv; subst n' o. exists s. auto using stepped_refl.
  - rewrite <- H1 in Hv |- *.
    apply (del_down_sim _ _ lo h key exact ea eb ka ck kb s id fp n' o (Hrec h (le_n _)) H1 H2 Hw (Hne eq_refl) Hs Hlt Hgt Hr Hop Hv).
Qed.

End SIM3.
