(* C13 - applying an RFC 1995 difference (delete what is in a but not in b, add what is in b but
   not in a) to a zone that equals a gives b: entry level, then zone level. *)
From DV Require Import Base.Prelude Model.XfrM Proofs.ListFacts Proofs.XfrSets Proofs.XfrSpec Proofs.XfrZone.

Definition wf_oe (e : option entry) : Prop :=
  match e with Some (t, Sa) => Sa <> [] /\ ssorted Sa | None => True end.

Definition has_in (e : option entry) (t d : Z) : bool :=
  match e with Some (t', Sb) => (t' =? t) && mem d Sb | None => false end.

(* what is left of entry ea after deleting its records that are not in eb *)
Definition after_del (ea eb : option entry) : option entry :=
  match ea with
  | Some (t, Sa) =>
      match filter (fun d => negb (has_in eb t d)) Sa with
      | [] => Some (t, Sa)
      | D => norm t (diff Sa D)
      end
  | None => None
  end.

(* e after adding the records of eb that are not in ea *)
Definition after_add (e eb ea : option entry) : option entry :=
  match eb with
  | Some (t', Sb) => add_all e t' (filter (fun d => negb (has_in ea t' d)) Sb)
  | None => e
  end.

Lemma after_del_norm : forall t Sa eb, Sa <> [] ->
  after_del (Some (t, Sa)) eb = norm t (diff Sa (filter (fun d => negb (has_in eb t d)) Sa)).
Proof.
  intros t Sa eb Hne. unfold after_del. destruct (filter (fun d => negb (has_in eb t d)) Sa); [|reflexivity].
  rewrite diff_nil. symmetry. apply norm_ne, Hne.
Qed.

(* ... which are those of its records that eb has, with the same TTL *)
Lemma after_del_kept : forall t Sa eb, Sa <> [] ->
  after_del (Some (t, Sa)) eb = norm t (filter (fun d => has_in eb t d) Sa).
Proof.
  intros t Sa eb Hne. rewrite after_del_norm by exact Hne. f_equal.
  apply (diff_filter_neg (fun d => has_in eb t d)).
Qed.

(* what the deletions of a -> b leave of an entry of a is in b too, under the same TTL *)
Lemma after_del_in : forall t Sa eb t' S' d, after_del (Some (t, Sa)) eb = Some (t', S') -> In d S' ->
  In d Sa /\ has_in eb t d = true.
Proof.
  intros t Sa eb t' S' d H Hd. unfold after_del in H.
  destruct (filter (fun d => negb (has_in eb t d)) Sa) as [|x D] eqn:EF.
  - injection H as _ <-. split; [exact Hd|]. apply negb_false_iff, (filter_nil_all _ _ EF d Hd).
  - rewrite <- EF in H. unfold norm in H. destruct (diff Sa _) eqn:ED; [discriminate|]. injection H as _ <-.
    rewrite <- ED in Hd. apply diff_In in Hd. destruct Hd as [HdSa Hnd]. split; [exact HdSa|].
    destruct (has_in eb t d) eqn:E; [reflexivity|]. exfalso. apply Hnd, filter_In. rewrite E. auto.
Qed.

Lemma entry_patch : forall ea eb, wf_oe ea -> wf_oe eb ->
  after_add (after_del ea eb) eb ea = eb.
Proof.
  intros ea eb Ha Hb. destruct eb as [[t' Sb]|]; cbn [after_add].
  - destruct Hb as [Hne' Hs']. destruct ea as [[t Sa]|].
    + destruct Ha as [Hne Hs]. rewrite after_del_kept by exact Hne. cbn [has_in].
      destruct (t' =? t) eqn:Et.
      * (* same TTL: what a and b share is kept, the rest of b is added *)
        apply Z.eqb_eq in Et. subst t'. rewrite Z.eqb_refl. cbn [andb].
        apply add_all_norm; [apply (union_inter_diff Sa Sb); assumption|exact Hne'|reflexivity].
      * (* the TTL changed: the whole RRset is deleted and re-added *)
        rewrite (Z.eqb_sym t t'), Et. cbn [andb negb].
        rewrite filter_none, filter_all by reflexivity. apply add_all_fresh; assumption.
    + cbn [after_del has_in negb]. rewrite filter_all by reflexivity. apply add_all_fresh; assumption.
  - (* the RRset does not exist in b: everything of a is deleted *)
    destruct ea as [[t Sa]|]; [|reflexivity]. destruct Ha as [Hne _].
    rewrite after_del_kept by exact Hne. cbn [has_in].
    rewrite filter_none by reflexivity. reflexivity.
Qed.

Fixpoint adds (z : zone) (rs : list rr) : zone :=
  match rs with
  | [] => z
  | r :: t => adds (zput (rkey r) (add1 (look z (rkey r)) (r_ttl r) (r_data r)) z) t
  end.

Fixpoint dels (z : zone) (rs : list rr) : option zone :=
  match rs with
  | [] => Some z
  | r :: t => match del1 (look z (rkey r)) (r_data r) with
              | Some oe => dels (zset (rkey r) oe z) t
              | None => None
              end
  end.

Lemma quiet_adds : forall rs z, Forall plain rs -> quiet z -> quiet (adds z rs).
Proof.
  induction rs as [|r rs IH]; intros z Hf Hq; cbn [adds]; [exact Hq|].
  inversion Hf; subst. apply IH; [assumption|]. apply quiet_zput; [exact Hq|]. rewrite rkey_kind. apply H1.
Qed.

Lemma quiet_dels : forall rs z z', dels z rs = Some z' -> quiet z -> quiet z'.
Proof.
  induction rs as [|r rs IH]; intros z z' Hd Hq; cbn [dels] in Hd; [inversion Hd; subst; exact Hq|].
  destruct (del1 (look z (rkey r)) (r_data r)) as [oe|] eqn:E; [|discriminate].
  apply (IH _ _ Hd). apply quiet_zset; [exact Hq|].
  unfold del1 in E. destruct (look z (rkey r)); [discriminate|discriminate].
Qed.

Lemma adds_app : forall a b z, adds z (a ++ b) = adds (adds z a) b.
Proof. induction a as [|r a IH]; intros b z; cbn [adds app]; [reflexivity|apply IH]. Qed.

Lemma dels_app : forall a b z, dels z (a ++ b) = match dels z a with Some z' => dels z' b | None => None end.
Proof.
  induction a as [|r a IH]; intros b z; cbn [dels app]; [reflexivity|].
  destruct (del1 (look z (rkey r)) (r_data r)); [apply IH|reflexivity].
Qed.

Lemma look_adds_run : forall A z k t k',
  look (adds z (map (mk_rr k t) A)) k' = if key_eqb k' k then add_all (look z k) t A else look z k'.
Proof.
  induction A as [|d A IH]; intros z k t k'; cbn [map adds].
  - unfold add_all. cbn. destruct (key_eqb_spec k' k) as [->|_]; reflexivity.
  - rewrite rkey_mk_rr, r_ttl_mk_rr, r_data_mk_rr, IH. rewrite !look_zput, key_eqb_refl.
    destruct (key_eqb k' k); reflexivity.
Qed.

Lemma dels_run : forall D z k t oe,
  del_all (look z k) D = Some oe ->
  exists z', dels z (map (mk_rr k t) D) = Some z' /\
             forall k', look z' k' = if key_eqb k' k then oe else look z k'.
Proof.
  induction D as [|d D IH]; intros z k t oe H; cbn [map dels del_all] in *.
  - inversion H; subst. exists z. split; [reflexivity|]. intros k'.
    destruct (key_eqb_spec k' k) as [->|_]; reflexivity.
  - rewrite rkey_mk_rr, r_data_mk_rr. destruct (del1 (look z k) d) as [oe1|]; [|discriminate].
    destruct (IH (zset k oe1 z) k t oe) as [z' [Hd Hl]].
    { rewrite look_zset, key_eqb_refl. exact H. }
    exists z'. split; [exact Hd|]. intros k'. rewrite Hl, look_zset.
    destruct (key_eqb k' k); reflexivity.
Qed.

(* the records selected from each RRset of l, RRset by RRset *)
Definition recs_sel (sel : key -> entry -> list Z) (l : zone) : list rr :=
  flat_map (fun ke => map (mk_rr (fst ke) (fst (snd ke))) (sel (fst ke) (snd ke))) l.

Lemma look_adds_entries : forall sel l z, NoDup (map fst l) -> forall k',
  look (adds z (recs_sel sel l)) k' =
  match look l k' with
  | Some e => add_all (look z k') (fst e) (sel k' e)
  | None => look z k'
  end.
Proof.
  induction l as [|[k e] l IH]; intros z Hnd k'; cbn [recs_sel flat_map look]; [reflexivity|].
  inversion Hnd; subst. fold (recs_sel sel l). rewrite adds_app, IH by assumption.
  cbn [fst snd]. rewrite !look_adds_run.
  destruct (key_eqb_spec k' k) as [->|_].
  - rewrite (look_not_in l k) by assumption. reflexivity.
  - reflexivity.
Qed.

Lemma dels_entries : forall sel l z, NoDup (map fst l) ->
  (forall k t Sa, In (k, (t, Sa)) l ->
     look z k = Some (t, Sa) /\ Sa <> [] /\ NoDup (sel k (t, Sa)) /\ incl (sel k (t, Sa)) Sa) ->
  exists z', dels z (recs_sel sel l) = Some z' /\
    forall k', look z' k' =
      match look l k' with
      | Some (t, Sa) => norm t (diff Sa (sel k' (t, Sa)))
      | None => look z k'
      end.
Proof.
  induction l as [|[k [t Sa]] l IH]; intros z Hnd Hall; cbn [recs_sel flat_map look].
  - exists z. split; reflexivity.
  - inversion Hnd; subst. fold (recs_sel sel l). cbn [fst snd].
    destruct (Hall k t Sa (or_introl eq_refl)) as (Hl & Hne & Hd & Hi).
    destruct (dels_run (sel k (t, Sa)) z k t (norm t (diff Sa (sel k (t, Sa))))) as [z1 [Hz1 Hl1]].
    { rewrite Hl, <- (norm_ne t Sa Hne). apply del_all_norm; assumption. }
    destruct (IH z1 H2) as [z2 [Hz2 Hl2]].
    { intros k0 t0 S0 Hin. rewrite Hl1. destruct (key_eqb_spec k0 k) as [->|_]; [|apply Hall; right; exact Hin].
      exfalso. apply H1. apply (in_map fst) in Hin. exact Hin. }
    exists z2. split; [rewrite dels_app, Hz1; exact Hz2|].
    intros k'. rewrite Hl2, Hl1. destruct (key_eqb_spec k' k) as [->|_]; [|reflexivity].
    rewrite (look_not_in l k) by assumption. reflexivity.
Qed.

(* zminus as a selection *)
Definition sel_minus (b : zone) (k : key) (e : entry) : list Z :=
  filter (fun d => negb (has_in (look b k) (fst e) d)) (snd e).

Lemma has_rr_mk : forall b k t d, has_rr b (mk_rr k t d) = has_in (look b k) t d.
Proof. intros b k t d. unfold has_rr. rewrite rkey_mk_rr, r_ttl_mk_rr, r_data_mk_rr. reflexivity. Qed.

Lemma rrs_of_entry_mk : forall k t ds, rrs_of_entry (k, (t, ds)) = map (mk_rr k t) ds.
Proof. intros [[n ty] c] t ds. reflexivity. Qed.

Lemma zminus_sel : forall a b, zminus a b = recs_sel (sel_minus b) a.
Proof.
  intros a b. unfold zminus, body, recs_sel.
  induction a as [|[k [t ds]] a IH]; cbn [flat_map filter]; [reflexivity|].
  rewrite filter_app, IH. f_equal. cbn [fst snd]. rewrite rrs_of_entry_mk. unfold sel_minus. cbn [fst snd].
  clear. induction ds as [|d ds IH]; cbn [map filter]; [reflexivity|].
  rewrite has_rr_mk. destruct (negb (has_in (look b k) t d)); cbn [map]; rewrite IH; reflexivity.
Qed.

(* well-formedness without the restrictions on the RRset type (singleton types, CNAME kind) *)
Definition entry_wf0 (ke : key * entry) : Prop :=
  let '((n, t, c), (ttl, ds)) := ke in
  0 <= n /\ t <> tSOA /\ ttl_ok ttl /\ ds <> [] /\ ssorted ds.
Definition rest_wf0 (z : zone) : Prop := NoDup (map fst z) /\ Forall entry_wf0 z.

Lemma rest_wf_wf0 : forall z, rest_wf z -> rest_wf0 z.
Proof.
  intros z [Hnd Hf]. split; [exact Hnd|]. eapply Forall_impl; [|exact Hf].
  intros [[[n t] c] [ttl ds]] (H1 & H2 & H3 & H4 & H5 & _). cbn. auto.
Qed.

Lemma rest_wf0_entry : forall z k t ds, rest_wf0 z -> look z k = Some (t, ds) ->
  ds <> [] /\ ssorted ds /\ ttl_ok t /\ k <> soakey /\ 0 <= name_of_key k.
Proof.
  intros z k t ds Hwf Hl. pose proof (rest_wf_look z k _ Hl) as Hin.
  destruct Hwf as [_ Hf]. rewrite Forall_forall in Hf. apply Hf in Hin.
  destruct k as [[n ty] c]. cbn in Hin. destruct Hin as (Hn & Ht & Httl & Hne & Hs).
  split; [exact Hne|]. split; [exact Hs|]. split; [exact Httl|]. split; [|exact Hn].
  intros E. inversion E. subst. apply Ht. reflexivity.
Qed.

Lemma rest_wf0_wf_oe : forall z k, rest_wf0 z -> wf_oe (look z k).
Proof.
  intros z k Hwf. destruct (look z k) as [[t ds]|] eqn:E; [|exact Logic.I].
  destruct (rest_wf0_entry z k t ds Hwf E) as (H1 & H2 & _). split; assumption.
Qed.

Lemma rest_wf_wf_oe : forall z k, rest_wf z -> wf_oe (look z k).
Proof. intros z k Hwf. apply rest_wf0_wf_oe, rest_wf_wf0, Hwf. Qed.

Lemma rest_wf0_no_soa : forall z, rest_wf0 z -> look z soakey = None.
Proof.
  intros z Hwf. destruct (look z soakey) as [[t ds]|] eqn:E; [|reflexivity].
  destruct (rest_wf0_entry z soakey t ds Hwf E) as (_ & _ & _ & H & _). congruence.
Qed.

Lemma rest_wf_no_soa : forall z, rest_wf z -> look z soakey = None.
Proof. intros z Hwf. apply rest_wf0_no_soa, rest_wf_wf0, Hwf. Qed.

(* the deletions of the difference a -> b leave after_del at every entry of a ... *)
Lemma dels_zminus : forall a b z, rest_wf0 a -> (forall k, look a k <> None -> look z k = look a k) ->
  exists z1, dels z (zminus a b) = Some z1 /\
    forall k, look z1 k = match look a k with Some _ => after_del (look a k) (look b k) | None => look z k end.
Proof.
  intros a b z Ha Hz. rewrite zminus_sel.
  destruct (dels_entries (sel_minus b) a z (proj1 Ha)) as [z1 [Hd Hl]].
  { intros k t Sa Hin. assert (Hla : look a k = Some (t, Sa)) by (apply look_in; [apply Ha|exact Hin]).
    destruct (rest_wf0_entry a k t Sa Ha Hla) as (Hne & Hs & _).
    split; [rewrite Hz; [exact Hla|rewrite Hla; discriminate]|]. split; [exact Hne|].
    unfold sel_minus. cbn [fst snd]. split.
    - apply ssorted_NoDup, filter_sorted, Hs.
    - intros x Hx. apply filter_In in Hx. tauto. }
  exists z1. split; [exact Hd|]. intros k. rewrite Hl. destruct (look a k) as [[t Sa]|] eqn:Ea; [|reflexivity].
  symmetry. apply after_del_norm, (rest_wf0_entry a k t Sa Ha Ea).
Qed.

(* ... and its additions apply after_add at every key *)
Lemma look_adds_zminus : forall a b z k, NoDup (map fst b) ->
  look (adds z (zminus b a)) k = after_add (look z k) (look b k) (look a k).
Proof.
  intros a b z k Hnd. rewrite zminus_sel, look_adds_entries by exact Hnd.
  destruct (look b k) as [[t' Sb]|]; reflexivity.
Qed.

(* the difference a -> b applied to a zone that agrees with a away from the SOA *)
Lemma diff_apply0 : forall a b z, rest_wf0 a -> rest_wf0 b ->
  (forall k, k <> soakey -> look z k = look a k) ->
  exists z1, dels z (zminus a b) = Some z1 /\
    look z1 soakey = look z soakey /\
    (forall k, k <> soakey -> look z1 k = after_del (look a k) (look b k)) /\
    forall soa_e k, look (adds (zput soakey soa_e z1) (zminus b a)) k =
                    if key_eqb k soakey then Some soa_e else look b k.
Proof.
  intros a b z Ha Hb Hz.
  destruct (dels_zminus a b z Ha) as [z1 [Hd Hl]].
  { intros k Hk. apply Hz. intros ->. apply Hk, rest_wf0_no_soa, Ha. }
  assert (Hz1 : forall k, k <> soakey -> look z1 k = after_del (look a k) (look b k)).
  { intros k Ek. rewrite Hl. destruct (look a k) eqn:Ea; [reflexivity|]. rewrite (Hz k Ek), Ea. reflexivity. }
  exists z1. split; [exact Hd|]. split; [rewrite Hl, (rest_wf0_no_soa a Ha); reflexivity|]. split; [exact Hz1|].
  intros soa_e k. rewrite look_adds_zminus, look_zput by apply Hb.
  destruct (key_eqb_spec k soakey) as [->|Ek].
  - rewrite (rest_wf0_no_soa b Hb). reflexivity.
  - rewrite (Hz1 k Ek). apply entry_patch; apply rest_wf0_wf_oe; assumption.
Qed.

Lemma diff_apply : forall a b z, rest_wf a -> rest_wf b ->
  (forall k, k <> soakey -> look z k = look a k) ->
  exists z1, dels z (zminus a b) = Some z1 /\
    look z1 soakey = look z soakey /\
    forall soa_e k, look (adds (zput soakey soa_e z1) (zminus b a)) k =
                    if key_eqb k soakey then Some soa_e else look b k.
Proof.
  intros a b z Ha Hb Hz.
  destruct (diff_apply0 a b z (rest_wf_wf0 _ Ha) (rest_wf_wf0 _ Hb) Hz) as (z1 & H1 & H2 & _ & H4).
  exists z1. auto.
Qed.

(* effect on the entry at key k of adding the records x in order *)
Definition fa (k : key) (e : option entry) (x : list rr) : option entry :=
  fold_left (fun e r => if key_eqb (rkey r) k then Some (add1 e (r_ttl r) (r_data r)) else e) x e.

Lemma look_adds_fa : forall x z k, look (adds z x) k = fa k (look z k) x.
Proof.
  induction x as [|r x IH]; intros z k; cbn [adds]; [reflexivity|].
  rewrite IH. unfold fa at 2. cbn [fold_left]. rewrite look_zput. rewrite (key_eqb_sym k (rkey r)).
  destruct (key_eqb_spec (rkey r) k) as [<-|_]; reflexivity.
Qed.

Lemma adds_zeq : forall x a b, zeq a b -> zeq (adds a x) (adds b x).
Proof. intros x a b H k. rewrite !look_adds_fa, H. reflexivity. Qed.

Lemma fa_none : forall k x e, (forall r, In r x -> key_eqb (rkey r) k = false) -> fa k e x = e.
Proof.
  unfold fa. induction x as [|r x IH]; intros e H; cbn [fold_left]; [reflexivity|].
  rewrite (H r (or_introl eq_refl)). apply IH. intros r' Hr'. apply H. right; exact Hr'.
Qed.

(* adding only creates entries at the keys of the records added *)
Lemma keys_adds : forall x z k, look (adds z x) k <> None -> look z k <> None \/ In k (map rkey x).
Proof.
  intros x z k. rewrite look_adds_fa. generalize (look z k). unfold fa.
  induction x as [|r x IH]; intros e H; cbn [fold_left] in H; [left; exact H|].
  destruct (key_eqb (rkey r) k) eqn:E.
  - right. left. apply key_eqb_eq, E.
  - destruct (IH _ H) as [H1|H1]; [left; exact H1|right; right; exact H1].
Qed.

Lemma body_sel : forall z, body z = recs_sel (fun _ e => snd e) z.
Proof.
  unfold body, recs_sel. induction z as [|[k [t ds]] z IH]; cbn [flat_map]; [reflexivity|].
  rewrite IH, rrs_of_entry_mk. reflexivity.
Qed.

Lemma adds_body : forall z, rest_wf0 z -> zeq (adds [] (body z)) z.
Proof.
  intros z Hwf k. rewrite body_sel, look_adds_entries by (destruct Hwf; assumption).
  destruct (look z k) as [[t ds]|] eqn:E; [|reflexivity].
  destruct (rest_wf0_entry z k t ds Hwf E) as (Hne & Hs & _).
  cbn [look fst snd]. apply add_all_fresh; assumption.
Qed.
