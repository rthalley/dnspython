(* C09: basic lemmas - decimal text, TTL text round trip, what the matches on literal prefixes
   test. *)
From DV Require Import Base.Prelude Model.NameM Model.ZoneTextM Proofs.NameOrder.
Open Scope Z_scope.

Lemma int_of_digits_snoc l c : int_of_digits (l ++ [c]) = int_of_digits l * 10 + (c - 48).
Proof. unfold int_of_digits. rewrite fold_left_app. reflexivity. Qed.

Lemma all_digits_app a b : all_digits (a ++ b) = all_digits a && all_digits b.
Proof. unfold all_digits. apply forallb_app. Qed.

Lemma is_digit_char d : 0 <= d < 10 -> is_digit (48 + d) = true.
Proof. intros. unfold is_digit. apply andb_true_intro; split; apply Z.leb_le; lia. Qed.

Lemma digits_fuel_S base up f n :
  digits_fuel base up (S f) n =
  if n <? base then [digit_char up n] else digits_fuel base up f (n / base) ++ [digit_char up (n mod base)].
Proof. reflexivity. Qed.

Lemma digits10_spec : forall f n, 0 <= n < 2 ^ Z.of_nat (S f) ->
  all_digits (digits_fuel 10 false (S f) n) = true /\
  int_of_digits (digits_fuel 10 false (S f) n) = n /\
  digits_fuel 10 false (S f) n <> [].
Proof.
  assert (Hd : forall d, 0 <= d < 10 -> digit_char false d = 48 + d)
    by (intros d Hd; unfold digit_char; destruct (Z.ltb_spec d 10); [reflexivity|lia]).
  induction f as [|f IH]; intros n Hn; rewrite digits_fuel_S; destruct (Z.ltb_spec n 10) as [Hlt|Hge].
  1, 3: rewrite Hd by lia; unfold all_digits, int_of_digits; cbn [forallb fold_left];
    rewrite is_digit_char by lia; repeat split; [lia|discriminate].
  - cbn in Hn. lia.
  - rewrite Nat2Z.inj_succ, Z.pow_succ_r in Hn by lia.
    destruct (IH (n / 10)) as (Ha & Hi & Hne); [pose proof (Z.pow_nonneg 2 (Z.of_nat (S f))); (Z.to_euclidean_division_equations; lia)|].
    rewrite all_digits_app, int_of_digits_snoc, Ha, Hi, Hd by (Z.to_euclidean_division_equations; lia).
    unfold all_digits. cbn [forallb]. rewrite is_digit_char by (Z.to_euclidean_division_equations; lia).
    repeat split; [(Z.to_euclidean_division_equations; lia)|]. intros H. apply app_eq_nil in H as [_ H]. discriminate.
Qed.

Lemma dec_spec n : 0 <= n ->
  all_digits (dec n) = true /\ int_of_digits (dec n) = n /\ dec n <> [].
Proof.
  intros Hn. apply digits10_spec. split; [lia|].
  destruct (Z.eq_dec n 0) as [->|Hnz]; [reflexivity|].
  rewrite Nat2Z.inj_succ, Z2Nat.id by apply Z.log2_nonneg. apply Z.log2_spec. lia.
Qed.

Lemma ttl_from_text_dec n : 0 <= n <= MAX_TTL -> ttl_from_text (dec n) = Ok n.
Proof.
  intros Hn. destruct (dec_spec n ltac:(lia)) as (Ha & Hi & Hne).
  unfold ttl_from_text.
  destruct (dec n) as [|c r] eqn:E; [congruence|].
  rewrite Ha, Hi. cbn [bind].
  replace (n <? 0) with false by (symmetry; apply Z.ltb_ge; lia).
  replace (n >? MAX_TTL) with false by (symmetry; rewrite Z.gtb_ltb; apply Z.ltb_ge; lia).
  reflexivity.
Qed.

Lemma ttl_from_text_range t n : ttl_from_text t = Ok n -> 0 <= n <= MAX_TTL.
Proof.
  unfold ttl_from_text.
  destruct (match t with [] => Lib eBadTTL | _ => _ end) as [total| |]; cbn [bind]; try discriminate.
  destruct (Z.ltb_spec total 0); cbn [orb]; [discriminate|].
  destruct (total >? MAX_TTL) eqn:E; [discriminate|].
  intros HH; inversion HH; subst. rewrite Z.gtb_ltb in E. apply Z.ltb_ge in E. lia.
Qed.

(* a text that does not start with a digit is never a TTL: class and type mnemonics *)
Lemma ttl_from_text_nondigit c r : is_digit c = false -> ttl_from_text (c :: r) = Lib eBadTTL.
Proof.
  intros H. unfold ttl_from_text, all_digits. cbn [forallb]. rewrite H. cbn [andb ttl_loop].
  rewrite H. reflexivity.
Qed.

Lemma is_subdomain_refl n : is_subdomain n n = true.
Proof. exact (NameOrder.is_subdomain_refl n). Qed.

(* A `match` on a character or string literal is compiled to a decision tree over the bits of
   the characters, with the default branch repeated at every leaf.  These say which test the
   tree performs: "$..." (directives, Reader.read), "-..." (dns.grange.from_text) and "\#"
   (RFC 3597 rdata, dns.rdata.from_text). *)
Lemma dollar_match {A} (v : list Z) (X Y : A) :
  match v with 36 :: _ => X | _ => Y end =
  if match v with c :: _ => c =? 36 | [] => false end then X else Y.
Proof.
  destruct v as [|[|p|p] v]; try reflexivity.
  repeat (destruct p as [p|p|]; try reflexivity).
Qed.

Lemma minus_match {A} (v : list Z) (X Y : A) :
  match v with 45 :: _ => X | _ => Y end =
  if match v with c :: _ => c =? 45 | [] => false end then X else Y.
Proof.
  destruct v as [|[|p|p] v]; try reflexivity.
  repeat (destruct p as [p|p|]; try reflexivity).
Qed.

Lemma generic_match {A} (toks : list tok) (X Y : A) :
  match toks with TId [92; 35] :: _ => X | _ => Y end =
  match toks with
  | TId v :: _ => if list_eq_dec Z.eq_dec v [92; 35] then X else Y
  | _ => Y
  end.
Proof.
  destruct toks as [|[v|v] r]; try reflexivity.
  destruct (list_eq_dec Z.eq_dec v [92; 35]) as [->|N]; [reflexivity|].
  destruct v as [|[|p|p] [|[|q|q] v]]; try reflexivity;
    repeat (destruct p as [p|p|]; try reflexivity);
    repeat (destruct q as [q|q|]; try reflexivity).
  destruct v; [congruence|reflexivity].
Qed.
