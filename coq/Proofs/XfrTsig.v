(* C13 - transfers authenticated with TSIG (Inbound.require_tsig, set from bool(query.keyring)): such a
   transfer completes on a message that carries a TSIG; when every message is signed require_tsig makes
   no difference, so whatever is proved of inbound_xfr holds of the authenticated transfer as well.
   (That an unsigned message publishes nothing is XfrSafety.unsigned_message_never_applies.) *)
From DV Require Import Base.Prelude Model.XfrM Proofs.XfrSafety.

Definition set_req (s : st) (b : bool) : st :=
  mkSt (pub s) (txn s) (rdtype s) (incremental s) (serial s) (is_udp s) (soa s) (done s) (expecting s) (delmode s) b.

(* except at the last RRset of an unsigned message, step does not look at require_tsig *)
Lemma step_set_req : forall (fl : flag) s r b, fl <> LastNoSig ->
  step fl (set_req s b) r = (let '(t, o) := step fl s r in (set_req t b, o)).
Proof.
  intros fl [p t rd inc se u so d e dm rq] r b Hfl. unfold step, res_of, set_req.
  cbn [pub txn rdtype incremental serial is_udp soa done expecting delmode req_tsig
       set_pub set_txn set_incremental set_serial set_soa set_done set_expecting set_delmode].
  destruct d; [reflexivity|].
  destruct t as [tz|]; [|reflexivity].
  destruct ((s_type r =? tSOA) && (s_name r =? origin)).
  - match goal with |- (if ?c then _ else _) = _ => destruct c end.
    + destruct (soa_serial r); [|reflexivity].
      destruct e; [reflexivity|].
      match goal with |- (if ?c then _ else _) = _ => destruct c end; [reflexivity|].
      (* the commit, the one place where require_tsig is read *)
      destruct fl; [reflexivity| |congruence].
      rewrite !andb_false_r. destruct (t_add true tz r); reflexivity.
    + destruct (soa_serial r); [|reflexivity].
      destruct inc; [|reflexivity].
      match goal with |- (if ?c then _ else _) = _ => destruct c end.
      * match goal with |- (if ?c then _ else _) = _ => destruct c end; reflexivity.
      * destruct (t_add true tz r); reflexivity.
  - destruct e.
    + match goal with |- (if ?c then _ else _) = _ => destruct c end; [reflexivity|].
      cbn [delmode]. destruct (t_add false [] r); reflexivity.
    + match goal with |- (if ?c then _ else _) = _ => destruct c end; [reflexivity|].
      destruct dm; [destruct (t_delete_exact tz r)|destruct (t_add false tz r)]; reflexivity.
Qed.

Lemma loop_set_req : forall rs s b,
  loop (set_req s b) rs = (let '(t, o) := loop s rs in (set_req t b, o)).
Proof.
  induction rs as [|r rest IH]; intros s b; cbn [loopT]; [reflexivity|].
  rewrite step_set_req by (destruct rest; discriminate).
  destruct (step _ s r) as [t [e|]]; [reflexivity|]. apply IH.
Qed.

(* nor does the check made after the loop *)
Lemma after_loop_set_req : forall s rs b,
  after (loop (set_req s b) rs) = (let '(t, o) := after (loop s rs) in (set_req t b, o)).
Proof.
  intros s rs b. rewrite loop_set_req. destruct (loop s rs) as [t [e|]]; [reflexivity|].
  cbn [after]. change (is_udp (set_req t b)) with (is_udp t). change (done (set_req t b)) with (done t).
  destruct (is_udp t && negb (done t)); reflexivity.
Qed.

Lemma process_set_req : forall s m b, m_tsig m = true ->
  process_message (set_req s b) m = (let '(t, o) := process_message s m in (set_req t b, o)).
Proof.
  (* the tests are the same on both sides, none reads require_tsig; the states handed to the loop
     differ by set_req *)
  intros s m b Hsig. unfold process_message. rewrite Hsig. cbv zeta. fold after.
  (* sx: s with the transaction opened *)
  change (txn (set_req s b)) with (txn s). change (incremental (set_req s b)) with (incremental s).
  change (pub (set_req s b)) with (pub s).
  set (sx := match txn s with
             | None => set_txn s (Some (if incremental s then pub s else []))
             | Some _ => s end).
  assert (E : match txn s with
              | None => set_txn (set_req s b) (Some (if incremental s then pub s else []))
              | Some _ => set_req s b end = set_req sx b) by (subst sx; destruct (txn s); reflexivity).
  rewrite E. clearbody sx. clear E.
  change (rdtype (set_req sx b)) with (rdtype sx). change (soa (set_req sx b)) with (soa sx).
  destruct (negb (m_rcode m =? 0)); [reflexivity|].
  match goal with |- (match ?q with Some e => _ | None => _ end) = _ => destruct q end; [reflexivity|].
  destruct (soa sx); [apply after_loop_set_req|].
  destruct (m_answer m) as [|r0 rest]; [reflexivity|].
  destruct (negb (s_name r0 =? origin)); [reflexivity|].
  destruct (negb (s_type r0 =? tSOA)); [reflexivity|].
  (* sr: sx with the first SOA noted *)
  change (set_soa (set_req sx b) (Some r0)) with (set_req (set_soa sx (Some r0)) b).
  set (sr := set_soa sx (Some r0)).
  change (incremental (set_req sr b)) with (incremental sr). change (serial (set_req sr b)) with (serial sr).
  change (is_udp (set_req sr b)) with (is_udp sr).
  destruct (incremental sr); [|apply after_loop_set_req].
  destruct (soa_serial r0) as [ss|]; [|reflexivity].
  destruct (ss =? serial sr); [apply (after_loop_set_req (set_done sr true))|].
  destruct (serial_lt ss (serial sr)); [reflexivity|].
  match goal with |- (if ?c then _ else _) = _ => destruct c end; [reflexivity|].
  apply (after_loop_set_req (set_expecting sr true)).
Qed.

Lemma drive_set_req : forall one_rr ws s b, Forall (fun w => w_tsig w = true) ws ->
  drive one_rr (set_req s b) ws = drive one_rr s ws.
Proof.
  induction ws as [|w ws IH]; intros s b Hs; cbn [drive]; [reflexivity|].
  inversion Hs as [|? ? Hw Hws]; subst.
  rewrite process_set_req by exact Hw.
  destruct (process_message s (from_wire one_rr w)) as [t [e|]]; [reflexivity|].
  change (done (set_req t b)) with (done t). change (pub (set_req t b)) with (pub t).
  rewrite Hw. cbn [negb]. rewrite !andb_false_r.
  destruct (done t); [reflexivity|]. rewrite IH by exact Hws. reflexivity.
Qed.

(* every message signed: require_tsig makes no difference at all *)
Theorem xfr_run_signed : forall req z rdt ser udp ws,
  Forall (fun w => w_tsig w = true) ws ->
  xfr_run req z rdt ser udp ws = inbound_xfr z rdt ser udp ws.
Proof.
  intros req z rdt ser udp ws Hs. unfold inbound_xfr, xfr_run, init_t.
  destruct (rdt =? tIXFR).
  - destruct ser as [sv|]; [|reflexivity].
    apply (drive_set_req true ws (mkSt z None rdt true sv udp None false false false false) req Hs).
  - destruct (rdt =? tAXFR); [|reflexivity]. destruct udp; [reflexivity|].
    apply (drive_set_req false ws (mkSt z None rdt false (match ser with Some sv => sv | None => 0 end) false None false false false false) req Hs).
Qed.

(* every message signed: an authenticated transfer is exactly the unauthenticated one *)
Theorem xfr_run_all_signed : forall z rdt ser udp ws,
  Forall (fun w => w_tsig w = true) ws ->
  xfr_run true z rdt ser udp ws = inbound_xfr z rdt ser udp ws.
Proof. apply xfr_run_signed. Qed.

(* the driver completes on the last message it processed, message n - 1 of the stream; with require_tsig
   that message carries a TSIG *)
Lemma drive_completion : forall one_rr ws s z' n,
  drive one_rr s ws = (Done z', n) ->
  exists k w, n = S k /\ nth_error ws k = Some w /\ (req_tsig s = true -> w_tsig w = true).
Proof.
  induction ws as [|w ws IH]; intros s z' n H; cbn [drive] in H; [discriminate|].
  destruct (process_message s (from_wire one_rr w)) as [s1 [e|]] eqn:Hp; [discriminate|].
  apply process_req_tsig in Hp.
  destruct (done s1).
  - exists 0%nat, w. destruct (req_tsig s1 && negb (w_tsig w)) eqn:Hc; inversion H.
    repeat split. intros Hrq. rewrite Hp, Hrq in Hc. apply negb_false_iff in Hc. exact Hc.
  - destruct (drive one_rr s1 ws) as [r n'] eqn:Hdr. inversion H; subst.
    destruct (IH _ _ _ Hdr) as (k & w' & -> & Hn & Hs').
    exists (S k), w'. rewrite <- Hp. auto.
Qed.

Theorem completion_is_signed_if_required : forall req z rdt ser udp ws z' n,
  xfr_run req z rdt ser udp ws = (Done z', n) ->
  exists k w, n = S k /\ nth_error ws k = Some w /\ (req = true -> w_tsig w = true).
Proof.
  intros req z rdt ser udp ws z' n H. unfold xfr_run in H.
  destruct (init_t req z rdt ser udp) as [s|e] eqn:Hi; [|discriminate].
  apply init_t_inv in Hi. destruct Hi as (_ & _ & <-). exact (drive_completion _ _ _ _ _ H).
Qed.

(* a completed authenticated transfer: the message that completed it was signed *)
Theorem authenticated_completion_is_signed : forall z rdt ser udp ws z' n,
  xfr_run true z rdt ser udp ws = (Done z', n) ->
  exists w, nth_error ws (pred n) = Some w /\ w_tsig w = true.
Proof.
  intros z rdt ser udp ws z' n H.
  destruct (completion_is_signed_if_required _ _ _ _ _ _ _ _ H) as (k & w & -> & Hn & Hs).
  exists w. auto.
Qed.
