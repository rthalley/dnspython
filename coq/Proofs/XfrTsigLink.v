(* C13/C14 link - the abstract "this message carried a TSIG" flag of the transfer model is the
   had_tsig field of the C14 reader model (coq/Model/TsigM.v, read_stream) applied to the envelopes. *)
From DV Require Import Base.Prelude Model.XfrM Proofs.XfrTsig.
From DV Require Model.TsigM.

Section Link.
Variable H : TsigM.hashid -> TsigM.bytes -> TsigM.bytes -> TsigM.bytes.

(* the driver parses the envelopes one after the other with from_wire(..., tsig_ctx=previous, multi=True)
   (TsigM.read_stream); the message handed to process_message carries the had_tsig of that parse *)
Definition tsig_linked (wires : list TsigM.bytes) (kr : TsigM.keyring) (rmac : TsigM.bytes) (now : Z)
           (ws : list wmsg) : Prop :=
  Forall2 (fun r w => exists m, r = Ok m /\ w_tsig w = TsigM.m_had_tsig m)
          (TsigM.read_stream H wires kr rmac None now) ws.

Lemma forall2_nth : forall {A B} (R : A -> B -> Prop) l1 l2 n b,
  Forall2 R l1 l2 -> nth_error l2 n = Some b -> exists a, nth_error l1 n = Some a /\ R a b.
Proof.
  intros A B R l1 l2 n b F. revert n. induction F as [|x y l1 l2 Hxy F IH]; intros n Hn.
  - destruct n; discriminate.
  - destruct n as [|n]; cbn in *; [inversion Hn; subst; eauto|apply IH, Hn].
Qed.

(* a transfer that completes: the envelope that completed it, the last one processed, was accepted by the
   TSIG reader, with a TSIG record in it if the transfer is authenticated *)
Theorem completion_envelope_accepted : forall req wires kr rmac now ws z rdt ser udp z' n,
  tsig_linked wires kr rmac now ws ->
  xfr_run req z rdt ser udp ws = (Done z', n) ->
  exists k m, n = S k /\ nth_error (TsigM.read_stream H wires kr rmac None now) k = Some (Ok m)
              /\ (req = true -> TsigM.m_had_tsig m = true).
Proof.
  intros req wires kr rmac now ws z rdt ser udp z' n HL Hrun.
  destruct (completion_is_signed_if_required _ _ _ _ _ _ _ _ Hrun) as (k & w & -> & Hn & Hs).
  destruct (forall2_nth _ _ _ _ _ HL Hn) as [r [Hr [m [-> Hm]]]].
  exists k, m. rewrite <- Hm. auto.
Qed.

(* an authenticated transfer that completes: the envelope that completed it was accepted by the TSIG
   reader with a TSIG record in it (so everything C14 proves about accepted envelopes applies) *)
Theorem completion_envelope_had_tsig : forall wires kr rmac now ws z rdt ser udp z' n,
  tsig_linked wires kr rmac now ws ->
  xfr_run true z rdt ser udp ws = (Done z', n) ->
  exists m, nth_error (TsigM.read_stream H wires kr rmac None now) (pred n) = Some (Ok m)
            /\ TsigM.m_had_tsig m = true.
Proof.
  intros wires kr rmac now ws z rdt ser udp z' n HL Hrun.
  destruct (completion_envelope_accepted _ _ _ _ _ _ _ _ _ _ _ _ HL Hrun) as (k & m & -> & Hr & Hm).
  exists m. auto.
Qed.
End Link.
