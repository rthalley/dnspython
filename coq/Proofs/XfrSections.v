(* C13 - the transfer is only as good as the stream: an IXFR response with a well-formed SOA skeleton
   is applied section by section, whatever its records are. *)
From DV Require Import Base.Prelude Model.XfrM Proofs.XfrSets Proofs.XfrSpec Proofs.XfrZone Proofs.XfrDiff
  Proofs.XfrSafety Proofs.XfrBasic Proofs.XfrRun Proofs.XfrSteps Proofs.XfrGeneral Proofs.XfrAxfr Proofs.XfrPerm Proofs.XfrGlue.

(* one difference sequence as received: the SOAs are given by (pseudo-)versions of which only the
   SOA matters; the deleted / added records are arbitrary *)
Record sect := mkSect { c_old : version; c_dels : list rr; c_new : version; c_adds : list rr }.

Fixpoint secs_stream (secs : list sect) : list rr :=
  match secs with
  | [] => []
  | c :: r => soa_rr (c_old c) :: c_dels c ++ soa_rr (c_new c) :: c_adds c ++ secs_stream r
  end.

(* what the sections denote: exact deletion of the (in-zone) deleted records, replacement of the SOA,
   union with the (in-zone) added records; None when a deletion does not apply *)
Fixpoint apply_secs (z : zone) (secs : list sect) : option zone :=
  match secs with
  | [] => Some z
  | c :: r =>
      match dels z (erase (c_dels c)) with
      | Some z1 => apply_secs (adds (zput soakey (v_ttl (c_new c), [v_soa (c_new c)]) z1) (erase (c_adds c))) r
      | None => None
      end
  end.

(* the SOA skeleton: every deletion section starts at the current serial (and is not the announced
   SOA); the records are plain in-zone records or out-of-zone glue *)
Fixpoint skel_ok (cur : Z) (fin : version) (secs : list sect) : Prop :=
  match secs with
  | [] => True
  | c :: r =>
      v_serial (c_old c) = cur /\ v_soa (c_old c) <> v_soa fin /\ ttl_ok (v_ttl (c_new c)) /\
      Forall okrec (c_dels c) /\ Forall okrec (c_adds c) /\ skel_ok (v_serial (c_new c)) fin r
  end.

Fixpoint end_serial (cur : Z) (secs : list sect) : Z :=
  match secs with [] => cur | c :: r => end_serial (v_serial (c_new c)) r end.

Lemma quiet_sec : forall c z z1, Forall okrec (c_adds c) -> quiet z -> dels z (erase (c_dels c)) = Some z1 ->
  quiet z1 /\ quiet (zput soakey (v_ttl (c_new c), [v_soa (c_new c)]) z1) /\
  quiet (adds (zput soakey (v_ttl (c_new c), [v_soa (c_new c)]) z1) (erase (c_adds c))).
Proof.
  intros c z z1 OA Hq Hd.
  assert (Hq1 : quiet z1) by (apply (quiet_dels _ _ _ Hd Hq)).
  assert (Hq2 : quiet (zput soakey (v_ttl (c_new c), [v_soa (c_new c)]) z1)) by (apply quiet_zput; [exact Hq1|discriminate]).
  split; [exact Hq1|]. split; [exact Hq2|]. apply quiet_adds; [apply erase_plain, OA|exact Hq2].
Qed.

Lemma quiet_apply_secs : forall secs cur fin z z', skel_ok cur fin secs -> apply_secs z secs = Some z' ->
  quiet z -> quiet z'.
Proof.
  induction secs as [|c r IH]; intros cur fin z z' Hch Hap Hq; cbn [apply_secs] in Hap.
  - inversion Hap; subst. exact Hq.
  - cbn [skel_ok] in Hch. destruct Hch as (Hser & Hne & Httl & OD & OA & Hrest).
    destruct (dels z (erase (c_dels c))) as [z1|] eqn:Hd; [|discriminate].
    destruct (quiet_sec c z z1 OA Hq Hd) as (_ & _ & Hq3).
    apply (IH _ _ _ _ Hrest Hap Hq3).
Qed.

Lemma secs_run : forall u secs p tz cur fin e z',
  skel_ok cur fin secs -> apply_secs tz secs = Some z' -> quiet tz ->
  loopn (ist u p tz cur (single (soa_rr fin)) e false) (map single (secs_stream secs)) =
  (ist u p z' (end_serial cur secs) (single (soa_rr fin)) (match secs with [] => e | _ => false end) false, None).
Proof.
  intros u secs. induction secs as [|c r IH]; intros p tz cur fin e z' Hch Hap Hq.
  - cbn in *. inversion Hap; subst. reflexivity.
  - cbn [skel_ok] in Hch. destruct Hch as (Hser & Hne & Httl & OD & OA & Hrest).
    cbn [apply_secs] in Hap. destruct (dels tz (erase (c_dels c))) as [z1|] eqn:Hd; [|discriminate].
    destruct (quiet_sec c tz z1 OA Hq Hd) as (Hq1 & Hq2 & Hq3).
    cbn [secs_stream end_serial]. rewrite <- Hser, seqs_app, map_app, loopn_app.
    rewrite (section_exec u p tz fin _ _ e _ _ z1 _ _ Hne (runs_dels _ _ _ OD Hq Hd) (t_add_soa z1 _ Httl Hq1)
               (runs_adds _ _ OA Hq2)).
    rewrite (IH p _ (v_serial (c_new c)) fin false z' Hrest Hap Hq3). destruct r; reflexivity.
Qed.

Lemma secs_stream_app : forall a b, secs_stream (a ++ b) = secs_stream a ++ secs_stream b.
Proof.
  induction a as [|c a IH]; intros b; cbn [app secs_stream]; [reflexivity|].
  rewrite IH. rewrite <- !app_assoc. cbn [app]. rewrite <- !app_assoc. reflexivity.
Qed.

Lemma end_serial_app : forall a b cur, end_serial cur (a ++ b) = end_serial (end_serial cur a) b.
Proof. induction a as [|c a IH]; intros b cur; cbn [app end_serial]; [reflexivity|apply IH]. Qed.

Lemma skel_ok_app : forall a b cur fin,
  skel_ok cur fin (a ++ b) <-> skel_ok cur fin a /\ skel_ok (end_serial cur a) fin b.
Proof.
  induction a as [|c a IH]; intros b cur fin; cbn [app skel_ok end_serial]; [tauto|]. rewrite IH. tauto.
Qed.

Lemma apply_secs_app : forall a b z,
  apply_secs z (a ++ b) = match apply_secs z a with Some z1 => apply_secs z1 b | None => None end.
Proof.
  induction a as [|c a IH]; intros b z; cbn [app apply_secs]; [reflexivity|].
  destruct (dels z (erase (c_dels c))); [apply IH|reflexivity].
Qed.

Lemma apply_secs_none_split : forall secs z, apply_secs z secs = None ->
  exists pre c post z1, secs = pre ++ c :: post /\ apply_secs z pre = Some z1 /\
                        dels z1 (erase (c_dels c)) = None.
Proof.
  induction secs as [|c r IH]; intros z H; cbn [apply_secs] in H; [discriminate|].
  destruct (dels z (erase (c_dels c))) as [z1|] eqn:Hd.
  - destruct (IH _ H) as (pre & c' & post & z2 & -> & Hp & Hn).
    exists (c :: pre), c', post, z2. split; [reflexivity|]. split; [|exact Hn].
    cbn [apply_secs]. rewrite Hd. exact Hp.
  - exists [], c, r, z. auto.
Qed.

(* a deletion that does not apply: the first one *)
Lemma dels_none_split : forall D z, Forall okrec D -> dels z (erase D) = None ->
  exists D1 x D2 z1, D = D1 ++ x :: D2 /\ dels z (erase D1) = Some z1 /\ plain x
                     /\ del1 (look z1 (rkey x)) (r_data x) = None.
Proof.
  induction D as [|r D IH]; intros z Hok Hn; cbn [erase filter dels] in Hn; [discriminate|].
  inversion Hok as [|? ? Hr Hok']; subst. fold (erase D) in Hn.
  destruct Hr as [Hg|Hp].
  - rewrite Hg in Hn. cbn [negb] in Hn. destruct (IH z Hok' Hn) as (D1 & x & D2 & z1 & -> & Hd & Hx & Hf).
    exists (r :: D1), x, D2, z1. split; [reflexivity|]. split; [|split; assumption].
    cbn [erase filter]. rewrite Hg. exact Hd.
  - assert (Hg : glue r = false).
    { destruct Hp as (_ & _ & Hnm & _). unfold glue. apply andb_false_iff. left. apply Z.ltb_ge. exact Hnm. }
    rewrite Hg in Hn. cbn [negb dels] in Hn.
    destruct (del1 (look z (rkey r)) (r_data r)) as [oe|] eqn:Hd1.
    + destruct (IH _ Hok' Hn) as (D1 & x & D2 & z1 & -> & Hd & Hx & Hf).
      exists (r :: D1), x, D2, z1. split; [reflexivity|]. split; [|split; assumption].
      cbn [erase filter]. rewrite Hg. cbn [negb dels]. rewrite Hd1. exact Hd.
    + exists [], r, D, z. split; [reflexivity|]. split; [reflexivity|]. split; assumption.
Qed.

(* where a stream of well-formed sections can be left: in the deletion section that follows them, after
   deletions that apply *)
Lemma secs_dels_run : forall u secs a D p tz cur fin e z1 z2,
  skel_ok cur fin secs -> apply_secs tz secs = Some z1 -> quiet tz ->
  v_serial a = end_serial cur secs -> v_soa a <> v_soa fin -> Forall okrec D -> dels z1 (erase D) = Some z2 ->
  loopn (ist u p tz cur (single (soa_rr fin)) e false) (map single (secs_stream secs ++ soa_rr a :: D)) =
  (ist u p z2 (end_serial cur secs) (single (soa_rr fin)) false true, None) /\ quiet z2.
Proof.
  intros u secs a D p tz cur fin e z1 z2 Hsk Hap Hq Hser Hne OD Hd.
  pose proof (quiet_apply_secs _ _ _ _ _ Hsk Hap Hq) as Hq1.
  split; [|apply (quiet_dels _ _ _ Hd Hq1)].
  rewrite map_app, loopn_app, (secs_run u secs p tz cur fin e z1 Hsk Hap Hq). cbn [map loopn].
  rewrite <- Hser, step_del_start by exact Hne. apply (runs_dels D z1 z2 OD Hq1 Hd).
Qed.

(* ... or in the addition section that ends them, after more added records P *)
Lemma secs_adds_run : forall u secs P p tz cur fin e z1,
  secs <> [] -> skel_ok cur fin secs -> apply_secs tz secs = Some z1 -> quiet tz -> Forall okrec P ->
  loopn (ist u p tz cur (single (soa_rr fin)) e false) (map single (secs_stream secs ++ P)) =
  (ist u p (adds z1 (erase P)) (end_serial cur secs) (single (soa_rr fin)) false false, None).
Proof.
  intros u secs P p tz cur fin e z1 Hne Hsk Hap Hq HP.
  rewrite map_app, loopn_app, (secs_run u secs p tz cur fin e z1 Hsk Hap Hq).
  destruct secs; [congruence|]. apply (runs_adds P z1 HP (quiet_apply_secs _ _ _ _ _ Hsk Hap Hq)).
Qed.

(* After the well-formed sections pre, the SOA a that starts the next deletion section and deletions D that
   apply: a record that is not in the zone at that point is rejected with DeleteNotExact and the zone is
   untouched, whatever follows, wherever the message boundaries are. *)
Theorem ixfr_delete_rejected : forall fin pre a D x rest z0 z1 z2 ser ws,
  skel_ok ser fin pre -> apply_secs z0 pre = Some z1 -> quiet z0 ->
  v_serial a = end_serial ser pre -> v_soa a <> v_soa fin -> Forall okrec D -> dels z1 (erase D) = Some z2 ->
  plain x -> del1 (look z2 (rkey x)) (r_data x) = None ->
  v_serial fin <> ser -> serial_lt (v_serial fin) ser = false ->
  chunking tIXFR (soa_rr fin :: secs_stream pre ++ soa_rr a :: D ++ x :: rest) ws ->
  exists n, inbound_xfr z0 tIXFR (Some ser) false ws = (Error eDeleteNotExact z0, n).
Proof.
  intros fin pre a D x rest z0 z1 z2 ser ws Hsk Hap Hq0 Hser Hne OD Hd Hx Hfail Hs Hlt Hch.
  destruct (secs_dels_run false pre a D z0 z0 ser fin true z1 z2 Hsk Hap Hq0 Hser Hne OD Hd) as [Hl Hq2].
  change (soa_rr a :: D ++ x :: rest) with ((soa_rr a :: D) ++ x :: rest) in Hch. rewrite app_assoc in Hch.
  eapply (ixfr_error z0 ser fin Hs Hlt ws _ _ _ _ _ _ Hch Hl eq_refl).
  intros l. apply step_bad_delete; [|apply quiet_consistent, Hq2|exact Hfail].
  exact (Forall_inv (plain_rec_g [x] (Forall_cons _ Hx (Forall_nil _)))).
Qed.

(* Whatever the records of the sections are: if the SOA skeleton is well formed and every deletion
   applies, the transfer completes with exactly the zone the sections denote (any division into
   messages).  The transfer is only as good as the stream. *)
Theorem ixfr_sections_applied : forall fin secs z0 z' ser ws,
  secs <> [] -> skel_ok ser fin secs -> end_serial ser secs = v_serial fin -> ttl_ok (v_ttl fin) ->
  v_serial fin <> ser -> serial_lt (v_serial fin) ser = false ->
  quiet z0 -> apply_secs z0 secs = Some z' ->
  chunking tIXFR (soa_rr fin :: secs_stream secs ++ [soa_rr fin]) ws ->
  exists n, inbound_xfr z0 tIXFR (Some ser) false ws = (Done (zput soakey (v_ttl fin, [v_soa fin]) z'), n).
Proof.
  intros fin secs z0 z' ser ws Hne Hsk Hend Httl Hs Hlt Hq0 Hap Hch.
  pose proof (secs_run false secs z0 z0 ser fin true z' Hsk Hap Hq0) as Hl. rewrite Hend in Hl.
  refine (ixfr_done z0 ser fin Hs Hlt ws _ _ _
            (mkSt (zput soakey (v_ttl fin, [v_soa fin]) z') None tIXFR true (v_serial fin) false
                  (Some (single (soa_rr fin))) true false true false) Hch Hl _ eq_refl).
  destruct secs; [congruence|]. rewrite step_ist_soa, !Z.eqb_refl. cbv zeta. cbn [andb negb].
  rewrite t_add_soa; [reflexivity|exact Httl|apply (quiet_apply_secs _ _ _ _ _ Hsk Hap Hq0)].
Qed.

(* ... and if some deletion does not apply, the transfer is rejected with DeleteNotExact and the
   zone is untouched, whatever follows *)
Theorem ixfr_sections_rejected : forall fin secs tail z0 ser ws,
  skel_ok ser fin secs ->
  v_serial fin <> ser -> serial_lt (v_serial fin) ser = false ->
  quiet z0 -> apply_secs z0 secs = None ->
  chunking tIXFR (soa_rr fin :: secs_stream secs ++ tail) ws ->
  exists n, inbound_xfr z0 tIXFR (Some ser) false ws = (Error eDeleteNotExact z0, n).
Proof.
  intros fin secs tail z0 ser ws Hsk Hs Hlt Hq0 Hap Hch.
  destruct (apply_secs_none_split secs z0 Hap) as (pre & c & post & z1 & -> & Hpre & Hnone).
  destruct (proj1 (skel_ok_app pre (c :: post) ser fin) Hsk) as [Hskp (Hser & Hne & _ & OD & _ & _)].
  destruct (dels_none_split (c_dels c) z1 OD Hnone) as (D1 & x & D2 & z2 & HD & Hd1 & Hx & Hfail).
  rewrite HD in OD. apply Forall_app in OD.
  rewrite secs_stream_app in Hch. cbn [secs_stream] in Hch. rewrite HD in Hch.
  repeat (rewrite <- app_assoc in Hch; cbn [app] in Hch).
  apply (ixfr_delete_rejected fin pre (c_old c) D1 x _ z0 z1 z2 ser ws Hskp Hpre Hq0 Hser Hne (proj1 OD) Hd1 Hx Hfail Hs Hlt Hch).
Qed.

(* how far a single altered / dropped record can change the outcome: only at the RRsets concerned *)
Lemma fa_skip : forall k r A1 A2 e, key_eqb (rkey r) k = false ->
  fa k e (A1 ++ r :: A2) = fa k e (A1 ++ A2).
Proof.
  intros k r A1. induction A1 as [|x A1 IH]; intros A2 e H; cbn [app].
  - rewrite fa_cons, H. reflexivity.
  - rewrite !fa_cons. apply IH, H.
Qed.

Lemma fd_skip : forall k r D1 D2 e, key_eqb (rkey r) k = false ->
  fd k e (D1 ++ r :: D2) = fd k e (D1 ++ D2).
Proof.
  intros k r D1. induction D1 as [|x D1 IH]; intros D2 e H; cbn [app fd].
  - rewrite H. reflexivity.
  - destruct (key_eqb (rkey x) k); [|apply IH, H].
    destruct (del1 e (r_data x)); cbn [bindo]; [apply IH, H|reflexivity].
Qed.

(* an addition a replaced by another record a' (last section): the denoted zones agree everywhere
   except at the two RRsets concerned *)
Lemma adds_altered : forall z A1 a a' A2 k, rkey a <> k -> rkey a' <> k ->
  look (adds z (A1 ++ a' :: A2)) k = look (adds z (A1 ++ a :: A2)) k.
Proof.
  intros z A1 a a' A2 k Ha Ha'. rewrite !look_adds_fa.
  rewrite !fa_skip by (apply key_eqb_neq; assumption). reflexivity.
Qed.

(* a deletion d that is dropped from the stream: if both streams apply, the zones after the deletions
   agree everywhere except at d's RRset *)
Lemma dels_dropped : forall z D1 d D2 z1 z2 k, rkey d <> k ->
  dels z (D1 ++ d :: D2) = Some z1 -> dels z (D1 ++ D2) = Some z2 -> look z2 k = look z1 k.
Proof.
  intros z D1 d D2 z1 z2 k Hd H1 H2.
  pose proof (look_dels_fd _ _ _ H1 k) as F1. pose proof (look_dels_fd _ _ _ H2 k) as F2.
  rewrite fd_skip in F1 by (apply key_eqb_neq; exact Hd). rewrite F1 in F2. inversion F2; reflexivity.
Qed.

Definition set_adds (c : sect) (A : list rr) : sect := mkSect (c_old c) (c_dels c) (c_new c) A.

(* the whole-transfer form: the last section's addition a is received as a' *)
Theorem ixfr_altered_addition : forall fin pre c A1 a a' A2 z0 z1 z2 ser ws1 ws2,
  c_adds c = A1 ++ a :: A2 -> plain a -> plain a' ->
  skel_ok ser fin (pre ++ [c]) -> end_serial ser (pre ++ [c]) = v_serial fin -> ttl_ok (v_ttl fin) ->
  v_serial fin <> ser -> serial_lt (v_serial fin) ser = false -> quiet z0 ->
  apply_secs z0 (pre ++ [c]) = Some z1 ->
  apply_secs z0 (pre ++ [set_adds c (A1 ++ a' :: A2)]) = Some z2 ->
  chunking tIXFR (soa_rr fin :: secs_stream (pre ++ [c]) ++ [soa_rr fin]) ws1 ->
  chunking tIXFR (soa_rr fin :: secs_stream (pre ++ [set_adds c (A1 ++ a' :: A2)]) ++ [soa_rr fin]) ws2 ->
  exists zf1 zf2 n1 n2,
    inbound_xfr z0 tIXFR (Some ser) false ws1 = (Done zf1, n1) /\
    inbound_xfr z0 tIXFR (Some ser) false ws2 = (Done zf2, n2) /\
    forall k, rkey a <> k -> rkey a' <> k -> look zf2 k = look zf1 k.
Proof.
  intros fin pre c A1 a a' A2 z0 z1 z2 ser ws1 ws2 HA Hpa Hpa' Hsk Hend Httl Hs Hlt Hq0 Hap1 Hap2 Hc1 Hc2.
  set (c' := set_adds c (A1 ++ a' :: A2)) in *.
  assert (Hsk2 : skel_ok ser fin (pre ++ [c'])).
  { apply skel_ok_app in Hsk. apply skel_ok_app. split; [apply Hsk|]. destruct Hsk as (_ & H1 & H2 & H3 & H4 & H5 & H6).
    rewrite HA in H5. apply Forall_app in H5. destruct H5 as [F1 F2]. inversion F2; subst.
    refine (conj H1 (conj H2 (conj H3 (conj H4 (conj _ H6))))).
    apply Forall_app. split; [exact F1|]. constructor; [right; exact Hpa'|assumption]. }
  assert (Hend2 : end_serial ser (pre ++ [c']) = v_serial fin) by (rewrite end_serial_app in *; exact Hend).
  assert (N : forall x, pre ++ [x] <> []) by (intros x; destruct pre; discriminate).
  destruct (ixfr_sections_applied fin _ z0 z1 ser ws1 (N c) Hsk Hend Httl Hs Hlt Hq0 Hap1 Hc1) as [n1 R1].
  destruct (ixfr_sections_applied fin _ z0 z2 ser ws2 (N c') Hsk2 Hend2 Httl Hs Hlt Hq0 Hap2 Hc2) as [n2 R2].
  eexists. eexists. exists n1, n2. split; [exact R1|]. split; [exact R2|].
  intros k Hk Hk'. rewrite !look_zput. destruct (key_eqb k soakey); [reflexivity|].
  (* the two denotations differ only in the additions of the last section *)
  rewrite apply_secs_app in Hap1, Hap2. destruct (apply_secs z0 pre) as [zp|]; [|discriminate].
  cbn [apply_secs c' set_adds c_dels c_new c_adds] in Hap1, Hap2.
  destruct (dels zp (erase (c_dels c))) as [zd|]; [|discriminate].
  inversion Hap1; inversion Hap2; subst. rewrite HA, !erase_app. cbn [erase filter].
  rewrite (glue_not_plain a Hpa), (glue_not_plain a' Hpa'). apply adds_altered; assumption.
Qed.
