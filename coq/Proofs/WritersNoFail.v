(* C12 - no critical section ever fails: reader handles stay valid and private to their thread, so
   _end_read always finds its transaction in _readers; together with WritersSerial.vstep_commit no assert /
   index / set.remove error can occur under any schedule (the model's `failed` flag stays None). *)
From DV Require Import Base.Prelude Model.VersM Model.WritersM.
From DV Require Import Proofs.VersInv Proofs.VersThms Proofs.WritersInv Proofs.WritersSerial.
Import VersM WritersM.

Local Open Scope Z_scope.

Fixpoint rh_of (p : pc) : option Z :=
  match p with
  | Rel nx => rh_of nx
  | RBody h _ _ => Some h
  | Acq (CReaderEnd h) | Crit (CReaderEnd h) => Some h
  | _ => None
  end.

Definition registered (z : VersM.st) (h : Z) : Prop := has_reader h (readers z) = true /\ h < next_h z.

Record InvD (s : st) : Prop := mkInvD {
  d_valid : forall t h, rh_of (pcs s t) = Some h -> registered (vz s) h;
  d_inj : forall t t' h, rh_of (pcs s t) = Some h -> rh_of (pcs s t') = Some h -> t = t';
  d_nofail : failed s = None
}.

Lemma initD progs : InvD (init progs).
Proof.
  constructor; cbn; [| |reflexivity]; intros t; intros; destruct (progs t); discriminate.
Qed.

Lemma has_reader_snoc h rs r : has_reader h rs = true -> has_reader h (rs ++ [r]) = true.
Proof.
  induction rs as [|a rs IH]; cbn; [discriminate|].
  intros H. apply orb_true_iff in H. apply orb_true_iff. tauto.
Qed.

Lemma has_reader_last h rs i : has_reader h (rs ++ [mkR h i]) = true.
Proof.
  induction rs as [|a rs IH]; cbn; [rewrite Z.eqb_refl; reflexivity|]. rewrite IH. apply orb_true_r.
Qed.

Lemma has_reader_remove h h' rs : h' <> h -> has_reader h' (remove_reader h rs) = has_reader h' rs.
Proof.
  intros Hn. induction rs as [|a rs IH]; cbn; [reflexivity|].
  destruct (rh a =? h) eqn:E.
  - assert (rh a =? h' = false) by lia. rewrite H. reflexivity.
  - cbn. rewrite IH. reflexivity.
Qed.

Lemma close_ok z h : Inv z -> registered z h -> exists z', VersM.step z (Close h) = Ok (z', RUnit).
Proof.
  intros H [Hr Hh]. assert (E1 : h <? next_h z = true) by lia.
  destruct (staged_ok _ _ _ H (st_close z h E1 Hr)) as [vs' [E _]]. eauto.
Qed.

Lemma policy_ok z p : Inv z -> exists z', VersM.step z (SetPolicy p) = Ok (z', RUnit).
Proof.
  intros H. destruct (staged_ok _ _ _ H (st_policy z (SetPolicy p) p eq_refl)) as [vs' [E _]]. eauto.
Qed.

(* Thread t moves to p'.  A handle it holds then is registered and nobody else's; the handles of the
   other threads stay registered. *)
Lemma invD_upd s s' t p' :
  InvD s -> pcs s' = upd (pcs s) t p' -> failed s' = failed s ->
  (forall h, rh_of p' = Some h -> registered (vz s') h /\ forall t', t' <> t -> rh_of (pcs s t') <> Some h) ->
  (forall t' h, t' <> t -> rh_of (pcs s t') = Some h -> registered (vz s') h) ->
  InvD s'.
Proof.
  intros [H1 H2 H3] E1 E2 Hnew Hold. constructor; rewrite ?E1, ?E2; [| |exact H3].
  - intros t' h. unfold upd. destruct (Nat.eqb_spec t' t) as [->|Hn]; [apply Hnew|apply Hold, Hn].
  - intros t1 t2 h. unfold upd.
    destruct (Nat.eqb_spec t1 t) as [->|Hn1], (Nat.eqb_spec t2 t) as [->|Hn2]; intros X Y; try reflexivity.
    + destruct (proj2 (Hnew h X) t2 Hn2 Y).
    + destruct (proj2 (Hnew h Y) t1 Hn1 X).
    + exact (H2 t1 t2 h X Y).
Qed.

(* thread t keeps its handle, or drops it, and the readers stay registered *)
Lemma invD_keep s s' t p' :
  InvD s -> pcs s' = upd (pcs s) t p' -> failed s' = failed s ->
  rh_of p' = rh_of (pcs s t) \/ rh_of p' = None -> (forall h, registered (vz s) h -> registered (vz s') h) -> InvD s'.
Proof.
  intros H E1 E2 Hrh Hreg. apply (invD_upd s s' t p' H E1 E2).
  - intros h X. destruct Hrh as [Hrh|Hrh]; [|congruence]. rewrite Hrh in X. split; [apply Hreg, (d_valid s H t h X)|].
    intros t' Hn Y. apply Hn. exact (d_inj s H t' t h Y X).
  - intros t' h _ X. apply Hreg, (d_valid s H t' h X).
Qed.

Lemma invD_wakeup s : InvD s -> InvD (wakeup s).
Proof. intros H. unfold wakeup. destruct (waiters s); [exact H|]. destruct H. constructor; assumption. Qed.

Lemma local_rh s t p' l : local s t p' l -> rh_of p' = rh_of (pcs s t).
Proof.
  destruct 1 as [c Hpc _|nx Hpc|e Hpc _|Hpc|id Hpc|id c ch Hpc|id c ch e todo Hpc|h i c Hpc|sel Hpc];
    rewrite Hpc; try reflexivity; try (destruct c; reflexivity).
  - destruct (edits_of (prg s t)); reflexivity.
  - destruct todo; reflexivity.
Qed.

Theorem stepD s t s' : InvC s -> InvD s -> kind s t s' -> InvD s'.
Proof.
  intros HC H K. pose proof (c_inv s HC) as Hi.
  destruct K as [p' l L|ev Hpc Hw He|Hpc Ht|id c cm z Hpc Hw Hz|sel z h i x Hpc E|c o z Hpc Ho E].
  - apply (invD_keep s _ t p' H); auto. left. exact (local_rh s t p' l L).
  - apply (invD_keep s _ t (Rel SetupId) H); auto.
  - apply (invD_keep s _ t (Rel (Wait (nextev s))) H); auto.
  - (* the end of a write transaction leaves the readers alone *)
    apply invD_wakeup. apply (invD_keep s _ t (Rel Done) H); auto. cbn. destruct cm; [|subst z; auto].
    destruct (vstep_commit (vz s) id c Hi) as [z' [E' [_ [_ [_ [_ [Er En]]]]]]];
      [apply (c_id s HC t); rewrite Hpc; reflexivity|].
    rewrite Hz in E'. injection E' as <-. unfold registered. rewrite Er, En. auto.
  - (* reader(): a fresh handle *)
    destruct (reader_op_spec _ _ _ _ Hi (sel_op_reader sel) E) as [_ [_ [_ [[v [_ [[= -> -> ->] [Er En]]]]|[[=] _]]]]].
    apply (invD_upd s _ t (Rel (RBody (next_h (vz s)) (vid v) (vcont v))) H); try reflexivity; cbn; unfold registered; rewrite Er, En.
    + intros ? [= <-]. split; [split; [apply has_reader_last|lia]|].
      intros t' _ X. destruct (d_valid s H t' _ X). lia.
    + intros t' h' _ X. destruct (d_valid s H t' h' X). split; [apply has_reader_snoc; assumption|lia].
  - (* _end_read removes the handle of this thread only; set_pruning_policy removes none *)
    destruct (reader_op_spec _ _ _ _ Hi (sec_op_reader c o Ho) E)
      as [_ [_ [_ [[v [_ [[=] _]]]|[_ [En Er]]]]]].
    apply (invD_upd s _ t (Rel Done) H); try reflexivity; [discriminate|]. cbn. unfold registered. rewrite En.
    intros t' h' Hn X. destruct (d_valid s H t' h' X) as [Hr Hh]. split; [|exact Hh].
    destruct Er as [->|[h [-> ->]]]; [exact Hr|]. rewrite has_reader_remove; [exact Hr|].
    intros Eh. rewrite Eh in X. apply Hn. destruct c; try discriminate. injection Ho as ->.
    apply (d_inj s H t' t h); [exact X|rewrite Hpc; reflexivity].
Qed.
