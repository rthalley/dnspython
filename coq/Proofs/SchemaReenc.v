(* Byte-identical re-encoding of ARBITRARY accepted octets, for field lists without normalising
   fields (no names - compression pointers are expanded -, no optional tail): decode then encode is
   the identity on the RDATA octets. *)
From DV Require Import Base.Prelude Model.NameM Model.SchemaM Proofs.SchemaName Proofs.SchemaCodec Proofs.SchemaThm Proofs.ListFacts.
Open Scope Z_scope.

Definition slice (w : list Z) (a b : nat) : list Z := firstn (b - a) (skipn a w).

Lemma slice_length : forall w a b, (a <= b)%nat -> (b <= length w)%nat -> length (slice w a b) = (b - a)%nat.
Proof. intros. unfold slice. rewrite firstn_length, skipn_length. lia. Qed.

Lemma firstn_plus {A} : forall m n (l : list A), firstn (m + n) l = firstn m l ++ firstn n (skipn m l).
Proof.
  induction m as [|m IH]; intros n l; [reflexivity|].
  destruct l as [|x l]; [cbn; rewrite firstn_nil; reflexivity|].
  cbn [Nat.add firstn skipn app]. f_equal. apply IH.
Qed.

Lemma slice_app : forall w a b c, (a <= b)%nat -> (b <= c)%nat -> slice w a b ++ slice w b c = slice w a c.
Proof.
  intros w a b c H1 H2. unfold slice.
  replace (c - a)%nat with ((b - a) + (c - b))%nat by lia.
  rewrite firstn_plus. f_equal. rewrite <- skipn_add. f_equal. f_equal. lia.
Qed.

Lemma slice_nil : forall w a, slice w a a = [].
Proof. intros. unfold slice. rewrite Nat.sub_diag. reflexivity. Qed.

Lemma all_bytes_slice : forall w a b, all_bytes w = true -> all_bytes (slice w a b) = true.
Proof.
  intros w a b H. unfold all_bytes in *. rewrite forallb_forall in *. intros x Hx.
  apply H. unfold slice in Hx. apply In_firstn in Hx. apply In_skipn in Hx. exact Hx.
Qed.

Lemma get_bytes_slice : forall w e c n bs c',
  get_bytes w e c n = Ok (bs, c') -> (c <= e)%nat -> (e <= length w)%nat ->
  c' = (c + n)%nat /\ bs = slice w c c' /\ (c' <= e)%nat /\ length bs = n.
Proof.
  intros w e c n bs c' H Hc He. unfold get_bytes in H.
  destruct (Nat.ltb_spec (e - c) n); [discriminate|]. injection H as <- <-.
  split; [reflexivity|]. split; [unfold slice; f_equal; lia|]. split; [lia|].
  rewrite firstn_length, skipn_length. lia.
Qed.

Definition no_norm_s (f : sfld) : bool := match f with FName _ => false | _ => true end.
Definition no_norm (f : fld) : bool :=
  match f with
  | FS s => no_norm_s s
  | FOptC8 _ => false
  | FRepeat _ _ row => forallb no_norm_s row
  | _ => true
  end.

Section Reenc.
  Variable w : list Z.
  Hypothesis Hw : all_bytes w = true.
  Variable e : nat.
  Hypothesis He : (e <= length w)%nat.

  Lemma dec_s_reenc : forall f c v c',
    no_norm_s f = true -> sfld_wf f = true -> (c <= e)%nat ->
    dec_s w None f e c = Ok (v, c') ->
    enc_s None f v = Ok (slice w c c') /\ (c <= c')%nat /\ (c' <= e)%nat.
  Proof.
    intros [wd m|n|wd lo hi|rel] c v c' Hn Hwf Hc H; cbn [dec_s] in H; try discriminate.
    - inv_bind H. injection H as <- <-. destruct x as [bs c1]. cbn [fst snd].
      apply get_bytes_slice in E as (-> & -> & Hle & Hlen); auto.
      pose proof (all_bytes_slice w c (c + wd) Hw) as Hb.
      pose proof (be_decode_bounds _ Hb) as Hbd. rewrite Hlen in Hbd.
      cbn [enc_s]. replace ((0 <=? be_decode (slice w c (c + wd))) && (be_decode (slice w c (c + wd)) <? pow256 wd)) with true by lia.
      rewrite <- Hlen at 1. rewrite be_encode_decode by exact Hb. split; [reflexivity|lia].
    - inv_bind H. injection H as <- <-. destruct x as [bs c1]. cbn [fst snd].
      apply get_bytes_slice in E as (-> & -> & Hle & Hlen); auto. cbn [enc_s]. split; [reflexivity|lia].
    - inv_bind H. inv_bind H. injection H as <- <-. destruct x as [lb c1], x0 as [bs c2]. cbn [fst snd] in *.
      apply get_bytes_slice in E as (-> & -> & Hle1 & Hlen1); auto.
      apply get_bytes_slice in E0 as (-> & -> & Hle2 & Hlen2); auto.
      pose proof (all_bytes_slice w c (c + wd) Hw) as Hb.
      pose proof (be_decode_bounds _ Hb) as Hbd. rewrite Hlen1 in Hbd.
      set (len := be_decode (slice w c (c + wd))) in *.
      cbn [enc_s].
      assert (Hz : zlen (slice w (c + wd) (c + wd + Z.to_nat len)) = len) by (unfold zlen; rewrite Hlen2; lia).
      rewrite Hz. replace (len <? pow256 wd) with true by lia.
      unfold len. rewrite <- Hlen1 at 1. rewrite be_encode_decode by exact Hb.
      rewrite slice_app by lia. split; [reflexivity|lia].
  Qed.

  Lemma dec_row_reenc : forall fs c vs c',
    forallb no_norm_s fs = true -> forallb sfld_wf fs = true -> (c <= e)%nat ->
    dec_row w None fs e c = Ok (vs, c') ->
    enc_row None fs vs = Ok (slice w c c') /\ (c <= c')%nat /\ (c' <= e)%nat.
  Proof.
    induction fs as [|f fr IH]; intros c vs c' Hn Hwf Hc H; cbn [dec_row] in H.
    - injection H as <- <-. cbn. rewrite slice_nil. split; [reflexivity|lia].
    - cbn [forallb] in Hn, Hwf. apply andb_prop in Hn as [N1 N2]. apply andb_prop in Hwf as [W1 W2].
      inv_bind H. inv_bind H. injection H as <- <-. destruct x as [v c1], x0 as [vr c2]. cbn [fst snd] in *.
      apply dec_s_reenc in E as (E1 & L1 & L2); auto.
      apply IH in E0 as (E2 & L3 & L4); auto.
      cbn [enc_row]. rewrite E1, E2. cbn [bind]. rewrite slice_app by lia. split; [reflexivity|lia].
  Qed.

  Lemma dec_rows_reenc : forall fuel row c rows c',
    forallb no_norm_s row = true -> forallb sfld_wf row = true -> (c <= e)%nat ->
    dec_rows w None fuel row e c = Ok (rows, c') ->
    enc_rows None row rows = Ok (slice w c c') /\ (c <= c')%nat /\ (c' <= e)%nat.
  Proof.
    induction fuel as [|f IH]; intros row c rows c' Hn Hwf Hc H; cbn [dec_rows] in H.
    - destruct (Nat.leb_spec e c); [|discriminate]. injection H as <- <-. cbn. rewrite slice_nil. split; [reflexivity|lia].
    - destruct (Nat.leb_spec e c).
      + injection H as <- <-. cbn. rewrite slice_nil. split; [reflexivity|lia].
      + inv_bind H. inv_bind H. injection H as <- <-. destruct x as [r c1], x0 as [rr c2]. cbn [fst snd] in *.
        apply dec_row_reenc in E as (E1 & L1 & L2); auto.
        apply IH in E0 as (E2 & L3 & L4); auto.
        cbn [enc_rows]. rewrite E1, E2. cbn [bind]. rewrite slice_app by lia. split; [reflexivity|lia].
  Qed.

  Lemma dec_f_reenc : forall f c v c',
    no_norm f = true -> last_wf f = true -> (c <= e)%nat ->
    dec_f w None f e c = Ok (v, c') ->
    enc_f None f v = Ok (slice w c c') /\ (c <= c')%nat /\ (c' <= e)%nat.
  Proof.
    intros [s|lo|n|hi|m a row] c v c' Hn Hwf Hc H; cbn [dec_f] in H; cbn [no_norm] in Hn; try discriminate.
    - inv_bind H. injection H as <- <-. destruct x as [x c1]. cbn [fst snd]. cbn [enc_f].
      eapply dec_s_reenc; eauto.
    - inv_bind H. injection H as <- <-. destruct x as [bs c1]. cbn [fst snd].
      apply get_bytes_slice in E as (-> & -> & Hle & Hlen); auto. cbn [enc_f]. split; [reflexivity|lia].
    - inv_bind H. injection H as <- <-. destruct x as [bs c1]. cbn [fst snd].
      apply get_bytes_slice in E as (-> & -> & Hle & Hlen); auto. cbn [enc_f]. split; [reflexivity|lia].
    - inv_bind H. injection H as <- <-. destruct x as [rows c1]. cbn [fst snd]. cbn [enc_f].
      apply row_wf_inv in Hwf as [W1 _]. eapply dec_rows_reenc; eauto.
  Qed.

  Lemma dec_fields_reenc : forall fs c vs c',
    forallb no_norm fs = true -> schema_wf fs = true -> (c <= e)%nat ->
    dec_fields w None fs e c = Ok (vs, c') ->
    enc_fields None fs vs = Ok (slice w c c') /\ (c <= c')%nat /\ (c' <= e)%nat.
  Proof.
    induction fs as [|f fr IH]; intros c vs c' Hn Hwf Hc H; cbn [dec_fields] in H.
    - injection H as <- <-. cbn. rewrite slice_nil. split; [reflexivity|lia].
    - cbn [forallb] in Hn. apply andb_prop in Hn as [N1 N2].
      apply schema_wf_cons in Hwf as (L1 & L2 & _).
      inv_bind H. inv_bind H. injection H as <- <-. destruct x as [v c1], x0 as [vr c2]. cbn [fst snd] in *.
      apply dec_f_reenc in E as (E1 & La & Lb); auto.
      apply IH in E0 as (E2 & Lc & Ld); auto.
      cbn [enc_fields]. rewrite E1, E2. cbn [bind]. rewrite slice_app by lia. split; [reflexivity|lia].
  Qed.
End Reenc.

Theorem schema_reencode_thm : forall fs ck wire cur rdlen vs,
  schema_wf fs = true -> forallb no_norm fs = true -> all_bytes wire = true ->
  decode_rdata None fs ck wire cur rdlen = Ok vs ->
  encode_rdata None fs ck vs = Ok (slice wire cur (cur + rdlen)).
Proof.
  intros fs ck wire cur rdlen vs Hwf Hn Hb Hd.
  pose proof (decode_validates _ _ _ _ _ _ _ Hd) as Hv.
  apply exact_consumption in Hd as [Hlen Hdf].
  unfold encode_rdata. rewrite Hv.
  destruct (dec_fields_reenc wire Hb (cur + rdlen)%nat Hlen fs cur vs (cur + rdlen)%nat Hn Hwf ltac:(lia) Hdf) as (E & _).
  exact E.
Qed.
