(* rcode / opcode / EDNS-version bit packing (dns/rcode.py, dns/opcode.py, Message.set_rcode,
   set_opcode, use_edns): the extended rcode is split between the header and the OPT TTL. *)
From DV Require Import Base.Prelude Model.NameM Model.MessageM.
Open Scope Z_scope.

Lemma land_small r k : 0 <= r < 2 ^ k -> 0 <= k -> Z.land r (Z.ones k) = r.
Proof. intros H Hk. rewrite Z.land_ones by assumption. apply Z.mod_small; assumption. Qed.

(* The setters update a word as (w & keep) | v.  Read under a mask disjoint from keep, only v shows. *)
Lemma land_update_new w keep v fld : Z.land keep fld = 0 -> Z.land (Z.lor (Z.land w keep) v) fld = Z.land v fld.
Proof. intros D. rewrite Z.land_lor_distr_l, <- Z.land_assoc, D, Z.land_0_r. apply Z.lor_0_l. Qed.

(* Read under keep itself, a v that lies inside a mask disjoint from keep does not show. *)
Lemma land_update_old w keep v fld : Z.land fld keep = 0 ->
  Z.land (Z.lor (Z.land w keep) (Z.land v fld)) keep = Z.land w keep.
Proof. intros D. rewrite Z.land_lor_distr_l, <- !Z.land_assoc, D, Z.land_diag, Z.land_0_r. apply Z.lor_0_r. Qed.

(* a value that fits a field of w bits at shift s reads back *)
Lemma field_get_put v s fld w : 0 <= s -> 0 <= w -> Z.shiftr fld s = Z.ones w -> 0 <= v < 2 ^ w ->
  Z.shiftr (Z.land (Z.shiftl v s) fld) s = v.
Proof.
  intros Hs Hw E Hv. rewrite Z.shiftr_land, Z.shiftr_shiftl_l, Z.sub_diag, Z.shiftl_0_r, E by lia.
  apply land_small; assumption.
Qed.

Lemma rcode_to_flags_ok r :
  0 <= r < 4096 -> rcode_to_flags r = Ok (Z.land r 15, Z.shiftl (Z.land r 4080) 20).
Proof.
  intros Hr. unfold rcode_to_flags.
  replace ((r <? 0) || (r >? 4095)) with false by (symmetry; apply orb_false_iff; split; lia).
  reflexivity.
Qed.

(* the rcode read from the two words after set_rcode, whatever they held before *)
Lemma rcode_after_set f e r :
  0 <= r < 4096 ->
  rcode_from_flags (Z.lor (Z.land f 65520) (Z.land r 15))
                   (Z.lor (Z.land e 16777215) (Z.shiftl (Z.land r 4080) 20)) = r.
Proof.
  intros Hr. unfold rcode_from_flags.
  rewrite Z.shiftr_lor, Z.shiftr_land, Z.shiftr_shiftl_l, Z.sub_diag, Z.shiftl_0_r by lia.
  rewrite !land_update_new by reflexivity.
  rewrite <- !Z.land_assoc, !Z.land_diag, <- Z.land_lor_distr_r.
  apply (land_small r 12); lia.
Qed.

(* from_flags (to_flags r) = r, and the two parts stay inside their fields *)
Lemma rcode_split_lemma r :
  0 <= r < 4096 ->
  exists v ev, rcode_to_flags r = Ok (v, ev) /\ rcode_from_flags v ev = r
               /\ Z.land v 65520 = 0 /\ Z.land ev 16777215 = 0.
Proof.
  intros Hr. exists (Z.land r 15), (Z.shiftl (Z.land r 4080) 20).
  split; [exact (rcode_to_flags_ok r Hr)|]. split; [exact (rcode_after_set 0 0 r Hr)|]. split.
  - rewrite <- Z.land_assoc. apply Z.land_0_r.
  - rewrite Z.shiftl_land, <- Z.land_assoc. apply Z.land_0_r.
Qed.

Lemma ednsflags_set m v : m_ednsflags (set_ednsflags m v) = v.
Proof.
  unfold m_ednsflags, set_ednsflags; cbn [mopt]. destruct (mopt m); [reflexivity|].
  (* no OPT record is created for v = 0, and without one the flags read as 0 *)
  destruct (Z.eqb_spec v 0) as [->|]; reflexivity.
Qed.

(* the two words after Message.set_rcode *)
Lemma set_rcode_words m r m' :
  0 <= r < 4096 -> m_set_rcode m r = Ok m' ->
  mflags m' = Z.lor (Z.land (mflags m) 65520) (Z.land r 15) /\
  m_ednsflags m' = Z.lor (Z.land (m_ednsflags m) 16777215) (Z.shiftl (Z.land r 4080) 20).
Proof.
  intros Hr. unfold m_set_rcode. rewrite (rcode_to_flags_ok r Hr). cbn [bind fst snd].
  intros [= <-]. split; [reflexivity|apply ednsflags_set].
Qed.

(* Message.set_rcode then Message.rcode() *)
Lemma set_rcode_rcode m r m' :
  0 <= r < 4096 -> m_set_rcode m r = Ok m' -> m_rcode m' = r.
Proof.
  intros Hr H. destruct (set_rcode_words m r m' Hr H) as [F E].
  unfold m_rcode. rewrite F, E. apply rcode_after_set, Hr.
Qed.

Lemma set_rcode_keeps_flags m r m' :
  0 <= r < 4096 ->
  m_set_rcode m r = Ok m' -> Z.land (mflags m') 65520 = Z.land (mflags m) 65520.
Proof.
  intros Hr H. destruct (set_rcode_words m r m' Hr H) as [F _].
  rewrite F. apply land_update_old. reflexivity.
Qed.

Lemma opcode_split o : 0 <= o < 16 -> opcode_from_flags (opcode_to_flags o) = o.
Proof.
  intros Ho. unfold opcode_from_flags, opcode_to_flags. rewrite <- Z.land_assoc.
  apply (field_get_put o 11 _ 4); [lia|lia|reflexivity|exact Ho].
Qed.

Lemma set_opcode_then_opcode_lemma : forall m o, 0 <= o < 16 ->
  m_opcode (m_set_opcode m o) = o /\ Z.land (mflags (m_set_opcode m o)) 34815 = Z.land (mflags m) 34815.
Proof.
  intros m o Ho. unfold m_opcode, m_set_opcode, set_mflags; cbn [mflags]. split.
  - unfold opcode_from_flags. rewrite land_update_new by reflexivity. exact (opcode_split o Ho).
  - apply land_update_old. reflexivity.
Qed.

(* the EDNS version written by use_edns is the one Message.edns reads back *)
Lemma edns_version_split v ef :
  0 <= v < 256 -> Z.shiftr (Z.land (use_edns_flags v ef) 16711680) 16 = v.
Proof.
  intros Hv. unfold use_edns_flags. rewrite land_update_new by reflexivity.
  apply (field_get_put v 16 _ 8); [lia|lia|reflexivity|exact Hv].
Qed.

(* the rcode of a message only depends on the low 4 header bits and the top 8 OPT TTL bits *)
Lemma rcode_field_only f e f' e' :
  Z.land f 15 = Z.land f' 15 -> Z.shiftr e 24 = Z.shiftr e' 24 ->
  rcode_from_flags f e = rcode_from_flags f' e'.
Proof.
  intros Hf He. unfold rcode_from_flags. rewrite Hf. f_equal.
  apply Z.bits_inj'; intros n Hn. rewrite !Z.land_spec, !Z.shiftr_spec by lia.
  destruct (Z_lt_ge_dec n 4).
  - change 4080 with (Z.shiftl 255 4). rewrite Z.shiftl_spec_low, !andb_false_r by lia. reflexivity.
  - f_equal. replace (n + 20) with ((n - 4) + 24) by lia.
    rewrite <- !Z.shiftr_spec by lia. rewrite He. reflexivity.
Qed.
