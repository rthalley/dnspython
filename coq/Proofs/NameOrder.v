(* C06: Name.fullcompare is the RFC 4034 6.1 canonical order; equality and hash coherence. *)
From DV Require Import Base.Prelude Model.NameM Proofs.NameValid.
Open Scope Z_scope.

(* lexicographic comparison; a list that ends first sorts first *)

Fixpoint lex {A} (cmp : A -> A -> comparison) (a b : list A) : comparison :=
  match a, b with
  | [], [] => Eq
  | [], _ :: _ => Lt
  | _ :: _, [] => Gt
  | x :: a', y :: b' =>
      match cmp x y with
      | Eq => lex cmp a' b'
      | c => c
      end
  end.

Section Lex.
  Context {A : Type} (cmp : A -> A -> comparison).
  Hypothesis cmp_eq : forall x y, cmp x y = Eq <-> x = y.
  Hypothesis cmp_anti : forall x y, cmp y x = CompOpp (cmp x y).
  Hypothesis cmp_trans : forall x y z, cmp x y = Lt -> cmp y z = Lt -> cmp x z = Lt.

  Lemma lex_eq : forall a b, lex cmp a b = Eq <-> a = b.
  Proof.
    induction a as [|x a IH]; destruct b as [|y b]; cbn; try (split; congruence).
    destruct (cmp x y) eqn:E; [apply cmp_eq in E; subst; rewrite IH; split; congruence| |];
      (split; [discriminate|]; intros [= -> _]; rewrite (proj2 (cmp_eq y y) eq_refl) in E; discriminate).
  Qed.

  Lemma lex_anti : forall a b, lex cmp b a = CompOpp (lex cmp a b).
  Proof.
    induction a as [|x a IH]; destruct b as [|y b]; cbn; try reflexivity.
    rewrite (cmp_anti x y). destruct (cmp x y); cbn; auto.
  Qed.

  Lemma lex_trans : forall a b c, lex cmp a b = Lt -> lex cmp b c = Lt -> lex cmp a c = Lt.
  Proof.
    induction a as [|x a IH]; destruct b as [|y b]; destruct c as [|z c]; cbn; try congruence.
    destruct (cmp x y) eqn:E1; destruct (cmp y z) eqn:E2; try discriminate.
    - apply cmp_eq in E1, E2. subst.
      assert (cmp z z = Eq) as -> by (apply cmp_eq; reflexivity). apply IH.
    - apply cmp_eq in E1. subst. rewrite E2. auto.
    - apply cmp_eq in E2. subst. rewrite E1. auto.
    - rewrite (cmp_trans _ _ _ E1 E2). auto.
  Qed.
End Lex.

Lemma cmp_bytes_lex : forall a b, cmp_bytes a b = lex Z.compare a b.
Proof. induction a; destruct b; cbn; auto. rewrite IHa. reflexivity. Qed.

Lemma cmp_bytes_eq a b : cmp_bytes a b = Eq <-> a = b.
Proof. rewrite cmp_bytes_lex. apply lex_eq. apply Z.compare_eq_iff. Qed.

Lemma cmp_bytes_anti a b : cmp_bytes b a = CompOpp (cmp_bytes a b).
Proof. rewrite !cmp_bytes_lex. apply lex_anti. intros; apply Z.compare_antisym. Qed.

Lemma cmp_bytes_trans a b c : cmp_bytes a b = Lt -> cmp_bytes b c = Lt -> cmp_bytes a c = Lt.
Proof.
  rewrite !cmp_bytes_lex. apply lex_trans.
  - apply Z.compare_eq_iff.
  - intros x y z. rewrite !Z.compare_lt_iff. lia.
Qed.

Lemma cmp_bytes_refl a : cmp_bytes a a = Eq.
Proof. apply cmp_bytes_eq. reflexivity. Qed.

Lemma fc_loop_refl : forall r nl, fc_loop r r 0 nl = (rEQUAL, 0, nl + zlen r).
Proof.
  induction r as [|l r IH]; intros nl; cbn [fc_loop].
  - cbn. f_equal. unfold zlen. cbn. lia.
  - rewrite cmp_bytes_refl, IH. f_equal. unfold zlen. cbn [length]. lia.
Qed.

Lemma is_subdomain_refl n : is_subdomain n n = true.
Proof.
  unfold is_subdomain, reln, fullcompare. rewrite Bool.eqb_reflx. cbn [negb].
  replace (zlen n - zlen n) with 0 by lia. rewrite fc_loop_refl. reflexivity.
Qed.

(* The RFC 4034 section 6.1 order, written independently of fullcompare:
   names are compared as sequences of labels read from the most significant
   (rightmost) label, a missing label sorts first, labels are compared as
   lower-cased octet strings (shorter prefix first).  dnspython's extension:
   a relative name sorts before an absolute one. *)

Definition ci_key (n : name) : list label := rev (map lower_l n).

Definition canon_cmp (a b : name) : comparison :=
  match is_absolute a, is_absolute b with
  | true, false => Gt
  | false, true => Lt
  | _, _ => lex cmp_bytes (ci_key a) (ci_key b)
  end.

Definition ci_equal (a b : name) : Prop := map lower_l a = map lower_l b.

Lemma lower_idem c : lower (lower c) = lower c.
Proof.
  unfold lower. destruct ((65 <=? c) && (c <=? 90)) eqn:E; [|rewrite E; reflexivity].
  destruct ((65 <=? c + 32) && (c + 32 <=? 90)) eqn:E2; [|reflexivity]. lia.
Qed.

Lemma is_absolute_app_last : forall (n : name) l, is_absolute (n ++ [l]) = match l with [] => true | _ => false end.
Proof. exact is_absolute_last. Qed.

Lemma is_absolute_lower n : is_absolute (map lower_l n) = is_absolute n.
Proof.
  destruct n as [|x n] using rev_ind; [reflexivity|].
  rewrite map_app. cbn [map]. rewrite !is_absolute_app_last. destruct x; reflexivity.
Qed.

Lemma ci_equal_absolute a b : ci_equal a b -> is_absolute a = is_absolute b.
Proof. intros H. rewrite <- (is_absolute_lower a), <- (is_absolute_lower b). f_equal. exact H. Qed.

Lemma ci_key_eq a b : ci_key a = ci_key b <-> ci_equal a b.
Proof.
  unfold ci_key, ci_equal. split; intros H.
  - apply (f_equal (@rev _)) in H. rewrite !rev_involutive in H. exact H.
  - f_equal. exact H.
Qed.

Lemma fc_loop_order : forall ra rb ld nl,
  ld = zlen ra - zlen rb ->
  (snd (fst (fc_loop ra rb ld nl)) ?= 0) = lex cmp_bytes (map lower_l ra) (map lower_l rb).
Proof.
  induction ra as [|x ra IH]; intros rb ld nl Hl.
  - destruct rb as [|y rb]; cbn -[Z.compare].
    + subst. reflexivity.
    + subst. unfold zlen. cbn [length]. apply Z.compare_lt_iff. lia.
  - destruct rb as [|y rb]; cbn -[Z.compare].
    + subst. unfold zlen. cbn [length]. apply Z.compare_gt_iff. lia.
    + destruct (cmp_bytes (lower_l x) (lower_l y)); cbn -[Z.compare]; try reflexivity.
      apply IH. subst. unfold zlen. cbn [length]. lia.
Qed.

Theorem order_spec a b : (order a b ?= 0) = canon_cmp a b.
Proof.
  unfold order, fullcompare, canon_cmp, ci_key.
  destruct (is_absolute a), (is_absolute b); cbn -[Z.compare fc_loop]; try reflexivity;
    rewrite <- !map_rev; apply fc_loop_order; unfold zlen; rewrite !rev_length; reflexivity.
Qed.

Lemma canon_cmp_eq a b : canon_cmp a b = Eq <-> ci_equal a b.
Proof.
  unfold canon_cmp. split.
  - destruct (is_absolute a), (is_absolute b); try discriminate;
      intros H; apply ci_key_eq; revert H; apply lex_eq; apply cmp_bytes_eq.
  - intros H. rewrite (ci_equal_absolute _ _ H).
    assert (lex cmp_bytes (ci_key a) (ci_key b) = Eq) as ->
      by (apply lex_eq; [apply cmp_bytes_eq | apply ci_key_eq; exact H]).
    destruct (is_absolute b); reflexivity.
Qed.

Lemma canon_cmp_anti a b : canon_cmp b a = CompOpp (canon_cmp a b).
Proof.
  unfold canon_cmp. destruct (is_absolute a), (is_absolute b); try reflexivity;
    apply lex_anti; apply cmp_bytes_anti.
Qed.

Lemma canon_cmp_trans a b c : canon_cmp a b = Lt -> canon_cmp b c = Lt -> canon_cmp a c = Lt.
Proof.
  unfold canon_cmp.
  destruct (is_absolute a), (is_absolute b), (is_absolute c); try congruence;
    apply lex_trans; try apply cmp_bytes_eq; apply cmp_bytes_trans.
Qed.

Lemma canon_cmp_congr_l a a' b : ci_equal a a' -> canon_cmp a b = canon_cmp a' b.
Proof.
  intros H. unfold canon_cmp. rewrite (ci_equal_absolute _ _ H).
  apply ci_key_eq in H. rewrite H. reflexivity.
Qed.

Lemma canon_cmp_congr_r a b b' : ci_equal b b' -> canon_cmp a b = canon_cmp a b'.
Proof.
  intros H. unfold canon_cmp. rewrite (ci_equal_absolute _ _ H).
  apply ci_key_eq in H. rewrite H. reflexivity.
Qed.

Lemma order_lt a b : order a b < 0 <-> canon_cmp a b = Lt.
Proof. rewrite <- order_spec. symmetry. apply Z.compare_lt_iff. Qed.

Lemma order_gt a b : order a b > 0 <-> canon_cmp a b = Gt.
Proof. rewrite <- order_spec. rewrite Z.compare_gt_iff. lia. Qed.

Lemma order_eq a b : order a b = 0 <-> canon_cmp a b = Eq.
Proof. rewrite <- order_spec. symmetry. apply Z.compare_eq_iff. Qed.

Theorem eq_iff_ci a b : order a b = 0 <-> ci_equal a b.
Proof. rewrite order_eq. apply canon_cmp_eq. Qed.

Theorem name_eqb_iff_ci a b : name_eqb a b = true <-> ci_equal a b.
Proof. unfold name_eqb. rewrite Z.eqb_eq. apply eq_iff_ci. Qed.

Theorem order_refl a : order a a = 0.
Proof. apply eq_iff_ci. reflexivity. Qed.

Lemma name_eqb_refl : forall a, name_eqb a a = true.
Proof. intros a. apply name_eqb_iff_ci. reflexivity. Qed.

Lemma name_eqb_sym a b : name_eqb a b = name_eqb b a.
Proof. apply eq_true_iff_eq. rewrite !name_eqb_iff_ci. split; exact (@eq_sym _ _ _). Qed.

Lemma name_eqb_trans : forall a b d, name_eqb a b = true -> name_eqb b d = true -> name_eqb a d = true.
Proof. intros a b d. rewrite !name_eqb_iff_ci. exact (@eq_trans _ _ _ _). Qed.

Lemma name_eqb_trans_l a b c : name_eqb a b = true -> name_eqb a c = name_eqb b c.
Proof.
  intros H. apply name_eqb_iff_ci in H. apply eq_true_iff_eq.
  rewrite !name_eqb_iff_ci. unfold ci_equal in *. rewrite H. reflexivity.
Qed.

Lemma name_eqb_trans_r a b c : name_eqb b c = true -> name_eqb a b = name_eqb a c.
Proof. intros H. rewrite !(name_eqb_sym a). apply name_eqb_trans_l, H. Qed.

Theorem order_antisym a b : (order b a ?= 0) = CompOpp (order a b ?= 0).
Proof. rewrite !order_spec. apply canon_cmp_anti. Qed.

Corollary order_antisym_lt a b : order a b < 0 <-> order b a > 0.
Proof.
  rewrite order_lt, order_gt, (canon_cmp_anti a b).
  destruct (canon_cmp a b); cbn; split; congruence.
Qed.

Theorem order_total a b : order a b < 0 \/ ci_equal a b \/ order b a < 0.
Proof.
  rewrite !order_lt, <- canon_cmp_eq, (canon_cmp_anti a b).
  destruct (canon_cmp a b); cbn; auto.
Qed.

Theorem order_trans_lt a b c : order a b < 0 -> order b c < 0 -> order a c < 0.
Proof. rewrite !order_lt. apply canon_cmp_trans. Qed.

Theorem order_trans a b c : order a b <= 0 -> order b c <= 0 -> order a c <= 0.
Proof.
  intros H1 H2.
  assert (forall x y, order x y <= 0 <-> canon_cmp x y <> Gt) as E.
  { intros x y. rewrite <- order_spec. rewrite Z.compare_gt_iff. lia. }
  apply E in H1, H2. apply E.
  destruct (canon_cmp a b) eqn:E1; [| |congruence].
  - apply canon_cmp_eq in E1. rewrite (canon_cmp_congr_l _ _ _ E1). exact H2.
  - destruct (canon_cmp b c) eqn:E2; [| |congruence].
    + apply canon_cmp_eq in E2. rewrite <- (canon_cmp_congr_r _ _ _ E2). congruence.
    + rewrite (canon_cmp_trans _ _ _ E1 E2). discriminate.
Qed.

Theorem order_antisym_le a b : order a b <= 0 -> order b a <= 0 -> ci_equal a b.
Proof.
  intros H1 H2. apply eq_iff_ci.
  destruct (Z.eq_dec (order a b) 0) as [|Hn]; [assumption|].
  assert (order a b < 0) as H by lia. apply order_antisym_lt in H. lia.
Qed.

Definition hash_step (h c : Z) : Z := h + (h * 8) + c.

Lemma name_hash_key n :
  name_hash n = fold_left (fun h l => fold_left hash_step l h) (map lower_l n) 0.
Proof.
  unfold name_hash. generalize 0. induction n as [|l n IH]; intros h; [reflexivity|].
  cbn [fold_left map]. rewrite IH. reflexivity.
Qed.

Theorem hash_congr a b : ci_equal a b -> name_hash a = name_hash b.
Proof. intros H. rewrite !name_hash_key. rewrite H. reflexivity. Qed.

Corollary eq_hash a b : order a b = 0 -> name_hash a = name_hash b.
Proof. intros H. apply hash_congr, eq_iff_ci, H. Qed.

Theorem richcmp_spec a b :
  (name_eqb a b = true <-> canon_cmp a b = Eq) /\
  name_ne a b = negb (name_eqb a b) /\
  (name_lt a b = true <-> canon_cmp a b = Lt) /\
  (name_le a b = true <-> canon_cmp a b <> Gt) /\
  (name_ge a b = true <-> canon_cmp a b <> Lt) /\
  (name_gt a b = true <-> canon_cmp a b = Gt).
Proof.
  unfold name_eqb, name_ne, name_lt, name_le, name_ge, name_gt. rewrite <- order_spec.
  destruct (order a b); cbn; repeat split; congruence.
Qed.
