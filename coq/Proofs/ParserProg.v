(* Programs over the Parser API (reads, counted strings, names, nested restrict_to) never end in
   a Python-level exception; dns.name.from_wire is total and fails only in the documented family. *)
From DV Require Import Base.Prelude Model.NameM Model.ParserM Proofs.NameValid Proofs.ParserSafe.
Open Scope Z_scope.

(* programs as a per-type parser writes them: sizes are values read from octets or constants
   (>= 0); the parser is not re-positioned by hand (raw seek / restore_furthest are what
   get_name uses internally) *)
Fixpoint op_ok (o : op) : Prop :=
  match o with
  | OBytes n => 0 <= n
  | OStruct ws => Forall (fun w => 0 <= w) ws
  | OCounted k => 0 <= k
  | OSeek _ => False
  | ORestore _ => False
  | ORestrict n body => 0 <= n /\ (fix all (l : list op) : Prop := match l with [] => True | x :: r => op_ok x /\ all r end) body
  | _ => True
  end.

Fixpoint ops_ok (l : list op) : Prop := match l with [] => True | x :: r => op_ok x /\ ops_ok r end.

Lemma op_ok_restrict n body : op_ok (ORestrict n body) <-> 0 <= n /\ ops_ok body.
Proof.
  cbn [op_ok]. split; intros [H1 H2]; split; auto; induction body; cbn in *; auto; destruct H2; auto.
Qed.

Fixpoint op_size (o : op) : nat :=
  match o with
  | ORestrict _ b => S (fold_right (fun x a => op_size x + a)%nat 0%nat b)
  | ORestore b => S (fold_right (fun x a => op_size x + a)%nat 0%nat b)
  | _ => 1%nat
  end.
Definition ops_size (l : list op) : nat := fold_right (fun x a => op_size x + a)%nat 0%nat l.

Lemma op_size_pos o : (1 <= op_size o)%nat.
Proof. destruct o; cbn; lia. Qed.

Section Prog.
  Variable wire : list Z.
  Hypothesis Hwire : bytes_ok wire.

  Lemma exec_inner body :
    (fix go (l : list op) : M (list obs) :=
       match l with
       | [] => ret []
       | x :: r => dom a <- exec_op wire x; dom b <- go r; ret (a ++ b)
       end) body = exec wire body.
  Proof. induction body as [|x r IH]; cbn; [reflexivity|]. rewrite IH. reflexivity. Qed.

  (* between API calls of such a program: furthest <= current <= end *)
  Definition inv (s : pstate) : Prop := pfur s <= pcur s <= pend s.

  Definition G {A} (s : pstate) (r : out A * pstate) : Prop :=
    good wire 0 isNameErr s r (fun _ s' => inv s').

  (* an emitting read that can only fail with FormError *)
  Lemma G_emit {A} (m : M A) (f : A -> obs) s (Q : A -> pstate -> Prop) :
    good wire 0 isForm s (m s) Q -> (forall a s', Q a s' -> inv s') -> G s (emit m f s).
  Proof.
    intros H HQ. unfold G, emit. eapply good_bind; [refine (good_err wire _ H); intros e ->; left; left; reflexivity|].
    intros a s1 W1 E1 F1 Qa. apply good_ret; [assumption|]. eapply HQ; eauto.
  Qed.

  Lemma exec_good : forall n,
    (forall o, (op_size o < n)%nat -> op_ok o -> forall s, wf wire s -> inv s -> G s (exec_op wire o s)) /\
    (forall l, (ops_size l < n)%nat -> ops_ok l -> forall s, wf wire s -> inv s -> G s (exec wire l s)).
  Proof.
    induction n as [|n [IHo IHl]]; [split; intros; lia|].
    assert (Hop : forall o, (op_size o < S n)%nat -> op_ok o -> forall s, wf wire s -> inv s -> G s (exec_op wire o s)).
    { intros o Hsz Hok s W I. unfold inv in I.
      destruct o; cbn [op_ok] in Hok; try contradiction; cbn [exec_op].
      (* the reads: the lemma of the primitive; what it says of the offsets gives inv again *)
      1-8: eapply G_emit;
        [first [apply good_get_remaining|apply good_get_bytes|apply good_get_uint|apply good_get_uint48
               |apply good_get_struct|apply good_get_counted]; auto; lia
        |intros a s' H; cbv beta in H; try pose proof (calcsize_nonneg _ Hok); unfold inv; decompose [and] H; lia].
      - (* ORem *) unfold G, good. cbn. split; auto. split; auto. split; [lia|exact I].
      - (* OName *) unfold G, emit. eapply good_bind; [apply good_get_name; auto; lia|].
        intros a s1 W1 E1 F1 (? & ? & Hg). apply good_ret; [assumption|]. unfold inv. lia.
      - (* ORestrict *)
        rename n0 into sz.
        assert (Hok' : op_ok (ORestrict sz body)) by exact Hok.
        apply op_ok_restrict in Hok' as [Hn Hb]. rewrite exec_inner.
        unfold G. eapply good_weaken.
        + apply (good_restrict_to wire 0 isNameErr sz (exec wire body) s (fun _ s' => inv s')); auto; try lia.
          * left. left. reflexivity.
          * intros s0 W0 E0 C0 F0. apply IHl; auto.
            -- cbn [op_size] in Hsz. unfold ops_size. lia.
            -- unfold inv. lia.
        + auto.
        + intros a s' W' E' F' (s1 & I1 & -> & C1 & E1 & L1). unfold inv in *. cbn. lia. }
    split; [exact Hop|].
    intros l Hsz Hok s W I. destruct l as [|x r]; cbn [exec].
    - unfold G. apply good_ret; auto.
    - destruct Hok as [Hx Hr]. unfold ops_size in Hsz; cbn [fold_right] in Hsz.
      unfold G. eapply good_bind; [apply Hop; auto; lia|].
      intros a s1 W1 E1 F1 I1. eapply good_bind; [apply IHl; auto|].
      + fold (ops_size r) in Hsz. pose proof (op_size_pos x). lia.
      + intros b s2 W2 E2 F2 I2. apply good_ret; auto.
  Qed.
End Prog.

Lemma parser_init_spec wire current :
  match parser_init wire current with
  | Val s0 => wf wire s0 /\ pfur s0 = pcur s0 /\ pcur s0 = current /\ pcur s0 <= pend s0 /\ pend s0 = zlen wire
  | Exn x => x = XLib eFormError
  end.
Proof.
  unfold parser_init, seek, wf, wfl. pose proof (zlen_nonneg wire) as Hz.
  destruct (current =? 0) eqn:E0; cbn.
  - assert (current = 0) by lia. subst. repeat split; lia.
  - destruct ((current <? 0) || (current >? zlen wire)) eqn:E; cbn; [reflexivity|].
    apply orb_false_iff in E as [E1 E2]. repeat split; lia.
Qed.

(* any program of API calls, on any octet string, from any starting offset *)
Theorem parser_program_never_internal wire current ops :
  bytes_ok wire -> ops_ok ops ->
  match parser_init wire current with
  | Exn x => x = XLib eFormError
  | Val s0 =>
      match exec wire ops s0 with
      | (Val _, s1) => pfur s1 <= pcur s1 <= pend s1 /\ pend s1 = zlen wire
      | (Exn (XLib e), s1) => isNameErr e /\ pend s1 = zlen wire
      | (Exn (XInt _), _) => False
      end
  end.
Proof.
  intros Hw Hok. pose proof (parser_init_spec wire current) as Hi.
  destruct (parser_init wire current) as [s0|x]; [|exact Hi].
  destruct Hi as (W & Hf & Hc & Hle & He).
  destruct (exec_good wire Hw (S (ops_size ops))) as [_ Hl].
  specialize (Hl ops (Nat.lt_succ_diag_r _) Hok s0 W). unfold G, good, inv in Hl.
  specialize (Hl ltac:(lia)).
  destruct (exec wire ops s0) as [[a|[e|e]] s1]; auto.
  - destruct Hl as (_ & E & _ & I). split; [exact I|congruence].
  - destruct Hl as (P & _ & E & _). split; [exact P|congruence].
Qed.

(* dns.name.from_wire: total; a valid name and a positive consumed count inside the message,
   or FormError / BadPointer / BadLabelType / NameTooLong *)
Theorem name_from_wire_total wire current :
  bytes_ok wire ->
  match name_from_wire wire current with
  | Ok (n, c) => Valid n /\ 0 < c /\ current + c <= zlen wire
  | Lib e => isNameErr e
  | Internal _ => False
  end.
Proof.
  intros Hw. unfold name_from_wire. pose proof (parser_init_spec wire current) as Hi.
  destruct (parser_init wire current) as [s0|x]; [|subst x; left; left; reflexivity].
  destruct Hi as (W & Hf & Hc & Hle & He).
  pose proof (good_from_wire_parser wire Hw 0 s0 ltac:(lia) W) as G. unfold good in G.
  destruct (from_wire_parser wire s0) as [[n|[e|e]] s1]; auto.
  - destruct G as (W1 & E1 & F1 & V & C1 & Lt & Hg). split; [exact V|]. split; lia.
  - destruct G as (P & _). exact P.
Qed.
