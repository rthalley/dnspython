(* Re-rendering the parsed message reproduces the octets.
   The renderer's decisions depend on the names only through (a) their case-insensitive class (table
   lookups) and (b) the spelling of the labels written literally; a name decoded from the rendering
   agrees with the original on exactly those (relation lsim of Proofs/MessageRead.v).  The read-back
   lemmas of MessageRead/MessageRoundtrip carry, next to what the reader returns, the fact that
   writing the returned names/records against any table with ci-equal keys emits the same octets;
   MessageRoundtrip3.layout_final_p assembles them along the stages of Message.to_wire. *)
From DV Require Import Base.Prelude Model.NameM Model.MessageM.
From DV Require Import Proofs.NameOrder Proofs.NameValid Proofs.NameRel Proofs.NameWire Proofs.NameCompress.
From DV Require Import Proofs.MessageName Proofs.MessageRender Proofs.MessageRead Proofs.MessageRoundtrip Proofs.MessageRoundtrip2.
From DV Require Import Proofs.MessageRoundtrip3 Proofs.MessageUpdate.
Open Scope Z_scope.

Theorem rerender_identical_lemma o m ms rp w m' :
  org_ok o -> WfMsg o m -> wf_tsig m ->
  to_wire m o ms rp false 0 = Ok w -> from_wire w o po0 = Ok m' ->
  to_wire m' o ms rp false 0 = Ok w.
Proof.
  intros OO WF WT H HF.
  destruct (render_parse_lemma o OO 0 m ms rp w WF WT H) as (m2 & HF2 & _ & RR).
  assert (m2 = m') by congruence. subst m2. exact (RR eq_refl).
Qed.

(* the statements of Props/C03.v (origin hypothesis first) *)
Lemma render_parse_stmt : forall o m max_size request_payload w,
  org_ok o -> WfMsg o m -> wf_tsig m ->
  to_wire m o max_size request_payload false 0 = Ok w ->
  exists m', from_wire w o po0 = Ok m' /\ msg_equiv_t m' m.
Proof.
  intros o m ms rp w OO WF WT H. destruct (render_parse_lemma o OO 0 m ms rp w WF WT H) as (m' & F & E & _).
  exists m'. split; [exact F|exact (msg_equiv_p0 _ _ E)].
Qed.

Lemma update_forms_roundtrip_stmt : forall o m z max_size request_payload w,
  org_ok o -> WfUpd o m z -> wf_tsig m ->
  to_wire m o max_size request_payload false 0 = Ok w ->
  exists m', from_wire w o po0 = Ok m' /\ msg_equiv_t m' m.
Proof.
  intros o m z ms rp w OO WF WT H. destruct (update_parse_lemma o OO 0 m z ms rp w WF WT H) as (m' & F & E & _).
  exists m'. split; [exact F|exact (msg_equiv_p0 _ _ E)].
Qed.

Lemma update_forms_rerender_stmt : forall o m z max_size request_payload w m',
  org_ok o -> WfUpd o m z -> wf_tsig m ->
  to_wire m o max_size request_payload false 0 = Ok w -> from_wire w o po0 = Ok m' ->
  to_wire m' o max_size request_payload false 0 = Ok w.
Proof.
  intros o m z ms rp w m' OO WF WT H HF. destruct (update_parse_lemma o OO 0 m z ms rp w WF WT H) as (m2 & HF2 & _ & RR).
  assert (m2 = m') by congruence. subst m2. exact (RR eq_refl).
Qed.

Lemma counts_exact_stmt : forall o pad m max_size request_payload w,
  org_ok o -> WfMsg o m -> wf_tsig m -> to_wire m o max_size request_payload false pad = Ok w ->
  exists body,
    w = hdr_bytes (mid m) (mflags m) (zlen (mq m)) (rr_count (man m)) (rr_count (mau m))
                  (rr_count (mad m) + opt_count (mopt m) + opt_count (mtsig m)) ++ body /\
    exists m', from_wire w o po0 = Ok m'.
Proof. intros o pad m ms rp w OO. exact (counts_exact_pad_lemma o OO pad m ms rp w). Qed.

Lemma name_write_sound_stmt : forall o n c file t file' t',
  org_ok o -> TableSound file t -> name_wf o n -> name_to_wire n o c file t = Ok (file', t') ->
  exists em L L' n',
    file' = file ++ em /\ TableSound file' t' /\ full_labels n o = Ok L /\ ci_equal L' L /\
    NameM.from_wire file' (length file) = Ok (L', length em) /\
    relz o L' = Ok n' /\ ci_equal n' n /\
    (forall ext endp, (length file' <= endp)%nat -> get_name (file' ++ ext) o endp (length file) = Ok (n', length file')).
Proof. intros o n c file t file' t' OO. exact (name_write_sound_lemma o OO n c file t file' t'). Qed.

Lemma render_table_sound_stmt : forall o pad m max_size request_payload r,
  org_ok o -> WfMsg o m -> wf_tsig m -> to_wire_st m o max_size request_payload false pad = Ok r ->
  TableSound (out r) (tbl r).
Proof. intros o pad m ms rp r OO. exact (render_table_sound_pad_lemma o OO pad m ms rp r). Qed.

Lemma render_parse_padded_stmt : forall o pad m max_size request_payload w,
  org_ok o -> WfMsg o m -> wf_tsig m ->
  to_wire m o max_size request_payload false pad = Ok w ->
  exists m', from_wire w o po0 = Ok m' /\ msg_equiv_p pad m' m.
Proof.
  intros o pad m ms rp w OO WF WT H. destruct (render_parse_lemma o OO pad m ms rp w WF WT H) as (m' & F & E & _). eauto.
Qed.

Lemma update_forms_roundtrip_padded_stmt : forall o pad m z max_size request_payload w,
  org_ok o -> WfUpd o m z -> wf_tsig m ->
  to_wire m o max_size request_payload false pad = Ok w ->
  exists m', from_wire w o po0 = Ok m' /\ msg_equiv_p pad m' m.
Proof.
  intros o pad m z ms rp w OO WF WT H. destruct (update_parse_lemma o OO pad m z ms rp w WF WT H) as (m' & F & E & _). eauto.
Qed.
