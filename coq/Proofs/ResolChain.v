(* QueryMessage.resolve_chaining: the CNAME walk is a path in the answer section of bounded
   length, the minimum TTL is the minimum over the path and the answer (or the covering SOA). *)
From DV Require Import Base.Prelude Model.NameM Model.ResolM Proofs.NameOrder.
Open Scope Z_scope.

Section Chain.
Variables (ans : list rrset) (cls ty : Z).

(* following CNAMEs from n: each step is a CNAME RRset at the current name, taken only when there
   is no RRset of the wanted type there *)
Inductive chain_path : name -> list rrset -> name -> Prop :=
| cp_nil : forall n, chain_path n [] n
| cp_cons : forall n c rest n',
    find_rrset ans n cls ty = None -> find_rrset ans n cls tCNAME = Some c ->
    chain_path (first_target c n) rest n' -> chain_path n (c :: rest) n'.

Lemma chain_path_snoc : forall n p n' c,
  chain_path n p n' -> find_rrset ans n' cls ty = None -> find_rrset ans n' cls tCNAME = Some c ->
  chain_path n (p ++ [c]) (first_target c n').
Proof.
  intros n p n' c H. induction H as [n|n c0 rest n' F1 F2 HP IH]; intros G1 G2; simpl.
  - econstructor; eauto. constructor.
  - econstructor; eauto.
Qed.

Definition min_over (base : Z) (p : list rrset) : Z := fold_left (fun acc c => Z.min acc (rs_ttl c)) p base.

Lemma min_over_snoc : forall base p c, min_over base (p ++ [c]) = Z.min (min_over base p) (rs_ttl c).
Proof. intros. unfold min_over. rewrite fold_left_app. reflexivity. Qed.

(* where the walk stops *)
Definition stops_at (n : name) (answer : option rrset) : Prop :=
  match answer with
  | Some a => find_rrset ans n cls ty = Some a
  | None => find_rrset ans n cls ty = None /\ (ty = tCNAME \/ find_rrset ans n cls tCNAME = None)
  end.

Lemma chain_loop_spec : forall k n0 p n base answer n' ttl cnames exhausted,
  chain_path n0 p n ->
  chain_loop k ans cls ty n (min_over base p) p = (answer, n', ttl, cnames, exhausted) ->
  chain_path n0 cnames n' /\ (length cnames <= length p + k)%nat /\
  (exhausted = true -> answer = None /\ length cnames = (length p + k)%nat /\ ttl = min_over base cnames) /\
  (exhausted = false -> (length cnames < length p + k)%nat /\ stops_at n' answer /\
     ttl = match answer with Some a => Z.min (min_over base cnames) (rs_ttl a) | None => min_over base cnames end).
Proof.
  induction k as [|k IH]; intros n0 p n base answer n' ttl cnames exhausted HP H; simpl in H.
  - inversion H; subst. split; [exact HP|]. split; [lia|]. split; [intros _; repeat split; lia|discriminate].
  - destruct (find_rrset ans n cls ty) as [a|] eqn:EF.
    + inversion H; subst. split; [exact HP|]. split; [lia|]. split; [discriminate|].
      intros _. split; [lia|]. split; [exact EF|reflexivity].
    + destruct (negb (ty =? tCNAME)) eqn:ET.
      * destruct (find_rrset ans n cls tCNAME) as [cn|] eqn:EC.
        -- rewrite <- min_over_snoc in H.
           apply (IH n0 (p ++ [cn])) in H; [|apply chain_path_snoc; auto].
           rewrite app_length in H. simpl in H.
           destruct H as (H1 & H2 & H3 & H4). split; [exact H1|]. split; [lia|]. split.
           ++ intros HE. destruct (H3 HE) as (A & B & C). repeat split; auto. lia.
           ++ intros HE. destruct (H4 HE) as (A & B & C). repeat split; auto. lia.
        -- inversion H; subst. split; [exact HP|]. split; [lia|]. split; [discriminate|].
           intros _. split; [lia|]. split; [|reflexivity]. split; auto.
      * inversion H; subst. split; [exact HP|]. split; [lia|]. split; [discriminate|].
        intros _. split; [lia|]. split; [|reflexivity]. split; auto.
        left. apply negb_false_iff in ET. apply Z.eqb_eq in ET. exact ET.
Qed.
End Chain.

Section Soa.
Variables (auth : list rrset) (cls : Z).

Inductive soa_at : name -> option rrset -> Prop :=
| sa_here : forall n s, find_rrset auth n cls tSOA = Some s -> soa_at n (Some s)
| sa_up : forall n p r, find_rrset auth n cls tSOA = None -> parent n = Ok p -> soa_at p r -> soa_at n r
| sa_none : forall n, find_rrset auth n cls tSOA = None -> (forall p, parent n <> Ok p) -> soa_at n None.

Lemma parent_shorter : forall n p, parent n = Ok p -> (length p < length n)%nat.
Proof.
  intros n p H. unfold parent in H.
  destruct (name_eqb n root || name_eqb n empty) eqn:E; [discriminate|].
  apply orb_false_iff in E. destruct E as [_ E].
  destruct n as [|l r].
  - unfold empty in E. rewrite (proj2 (name_eqb_iff_ci [] []) eq_refl) in E. discriminate.
  - unfold mk_name in H. simpl in H. destruct (validate_labels r); try discriminate.
    inversion H; subst. simpl. lia.
Qed.

Lemma soa_walk_spec : forall fuel n base, (length n < fuel)%nat ->
  exists r, soa_at n r /\
    soa_walk fuel auth cls n base =
      match r with Some s => Z.min (Z.min base (rs_ttl s)) (soa_minimum s) | None => base end.
Proof.
  induction fuel as [|fuel IH]; intros n base HL; [lia|]. simpl.
  destruct (find_rrset auth n cls tSOA) as [s|] eqn:EF.
  - exists (Some s). split; [constructor; exact EF|reflexivity].
  - destruct (parent n) as [p|e|e] eqn:EP.
    + pose proof (parent_shorter _ _ EP) as HS.
      destruct (IH p base ltac:(lia)) as (r & R1 & R2).
      exists r. split; [eapply sa_up; eauto|exact R2].
    + exists None. split; [|reflexivity]. apply sa_none; auto. intros p HP. congruence.
    + exists None. split; [|reflexivity]. apply sa_none; auto. intros p HP. congruence.
Qed.
End Soa.

(* resolve_chaining is the walk from the question name, refused when it is exhausted or when an
   NXDOMAIN reply carries an answer, and the SOA walk for a negative reply *)
Lemma resolve_chaining_cases : forall m,
  match resolve_chaining m with
  | Ok ch =>
      exists q ttl, m_question m = [q] /\ m_qr m = true /\
        chain_loop MAX_CHAIN (m_answer m) (q_class q) (q_type q) (q_name q) MAX_TTL []
          = (ch_answer ch, ch_canonical ch, ttl, ch_cnames ch, false) /\
        match ch_answer ch with
        | Some _ => m_rcode m <> rcNXDOMAIN /\ ch_min_ttl ch = ttl
        | None => ch_min_ttl ch =
                    soa_walk (S (length (ch_canonical ch))) (m_authority m) (q_class q) (ch_canonical ch) ttl
        end
  | Lib e =>
      e = eChainTooLong -> exists q answer n ttl cnames, m_question m = [q] /\
        chain_loop MAX_CHAIN (m_answer m) (q_class q) (q_type q) (q_name q) MAX_TTL [] = (answer, n, ttl, cnames, true)
  | Internal _ => False
  end.
Proof.
  intros m. unfold resolve_chaining. destruct (m_qr m); cbn [negb]; [|discriminate].
  destruct (m_question m) as [|q [|q2 l]]; try discriminate.
  destruct (chain_loop _ _ _ _ _ _ _) as [[[[answer n] ttl] cnames] [|]] eqn:EL; [eauto 8|].
  destruct answer as [a|]; cbn [andb]; [destruct (Z.eqb_spec (m_rcode m) rcNXDOMAIN); [discriminate|]|rewrite andb_false_r];
    exists q, ttl; (split; [reflexivity|]); (split; [reflexivity|]); (split; [exact EL|]); [split; auto|reflexivity].
Qed.

Theorem chain_spec_lemma : forall m ch,
  resolve_chaining m = Ok ch ->
  exists q, m_question m = [q] /\ m_qr m = true /\
    chain_path (m_answer m) (q_class q) (q_type q) (q_name q) (ch_cnames ch) (ch_canonical ch) /\
    (length (ch_cnames ch) < MAX_CHAIN)%nat /\
    stops_at (m_answer m) (q_class q) (q_type q) (ch_canonical ch) (ch_answer ch) /\
    match ch_answer ch with
    | Some a => m_rcode m <> rcNXDOMAIN /\ ch_min_ttl ch = Z.min (min_over MAX_TTL (ch_cnames ch)) (rs_ttl a)
    | None =>
        exists r, soa_at (m_authority m) (q_class q) (ch_canonical ch) r /\
          ch_min_ttl ch = match r with
                          | Some s => Z.min (Z.min (min_over MAX_TTL (ch_cnames ch)) (rs_ttl s)) (soa_minimum s)
                          | None => min_over MAX_TTL (ch_cnames ch)
                          end
    end.
Proof.
  intros m ch H. pose proof (resolve_chaining_cases m) as C. rewrite H in C.
  destruct C as (q & ttl & HQ & HR & EL & HT). exists q. split; [exact HQ|]. split; [exact HR|].
  destruct (chain_loop_spec _ _ _ _ _ [] _ MAX_TTL _ _ _ _ _ (cp_nil _ _ _ _) EL) as (P1 & _ & _ & P4).
  destruct (P4 eq_refl) as (L1 & L2 & L3). split; [exact P1|]. split; [exact L1|]. split; [exact L2|].
  destruct (ch_answer ch) as [a|].
  - destruct HT as (HT & ->). auto.
  - destruct (soa_walk_spec (m_authority m) (q_class q) _ (ch_canonical ch) ttl (Nat.lt_succ_diag_r _)) as (r & R1 & R2).
    exists r. split; [exact R1|]. rewrite HT, R2, L3. reflexivity.
Qed.

(* a reply is refused as ChainTooLong exactly when MAX_CHAIN CNAMEs can be followed *)
Theorem chain_too_long_lemma : forall m,
  resolve_chaining m = Lib eChainTooLong ->
  exists q p n, m_question m = [q] /\
    chain_path (m_answer m) (q_class q) (q_type q) (q_name q) p n /\ length p = MAX_CHAIN.
Proof.
  intros m H. pose proof (resolve_chaining_cases m) as C. rewrite H in C.
  destruct (C eq_refl) as (q & answer & n & ttl & cnames & HQ & EL).
  destruct (chain_loop_spec _ _ _ _ _ [] _ MAX_TTL _ _ _ _ _ (cp_nil _ _ _ _) EL) as (P1 & _ & P3 & _).
  exists q, cnames, n. split; [exact HQ|]. split; [exact P1|apply P3; reflexivity].
Qed.

(* resolve_chaining never fails with a Python-level exception *)
Theorem chain_no_internal : forall m e, resolve_chaining m <> Internal e.
Proof. intros m e H. pose proof (resolve_chaining_cases m) as C. rewrite H in C. exact C. Qed.
