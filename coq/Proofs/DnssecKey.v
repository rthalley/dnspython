(* Key tag (RFC 4034 appendix B), DS digest input (5.1.4), NSEC3 hash (RFC 5155 5, RFC 4648 7). *)
From DV Require Import Base.Prelude Model.NameM Model.DnssecM Proofs.ListFacts.
From DV Require Import Proofs.NameValid Proofs.NameOrder Proofs.DnssecRef Proofs.DnssecCanon.
Open Scope Z_scope.

Lemma pair_ind (P : bytes -> Prop) :
  P [] -> (forall a, P [a]) -> (forall a b r, P r -> P (a :: b :: r)) -> forall w, P w.
Proof.
  intros H0 H1 H2. fix IH 1. intros [|a [|b r]]; [exact H0|apply H1|apply H2, IH].
Qed.

(* rfc_ac sees its index only through the parity *)
Lemma rfc_ac_SS : forall w i, rfc_ac w (S (S i)) = rfc_ac w i.
Proof. induction w as [|k r IH]; intros i; [reflexivity|]. cbn [rfc_ac]. now rewrite IH. Qed.

Lemma kid_loop_shift a b w : forall n i total,
  kid_loop n (S i) (a :: b :: w) total = kid_loop n i w total.
Proof.
  induction n as [|n IH]; intros i total; [reflexivity|].
  cbn [kid_loop]. unfold idx.
  replace (2 * S i)%nat with (S (S (2 * i))) by lia.
  replace (S (S (2 * i)) + 1)%nat with (S (S (2 * i + 1))) by lia.
  cbn [nth_error].
  destruct (nth_error w (2 * i)); [|reflexivity]. cbn [bind].
  destruct (nth_error w (2 * i + 1)); [|reflexivity]. cbn [bind]. apply IH.
Qed.

Lemma div2_SS n : Nat.div (S (S n)) 2 = S (Nat.div n 2).
Proof. replace (S (S n)) with (n + 1 * 2)%nat by lia. rewrite Nat.div_add by lia. lia. Qed.
Lemma mod2_SS n : Nat.modulo (S (S n)) 2 = Nat.modulo n 2.
Proof. replace (S (S n)) with (n + 1 * 2)%nat by lia. now rewrite Nat.mod_add by lia. Qed.

(* the summation of key_id_wire (the loop, then the odd last octet) from an arbitrary running total *)
Definition kid_total (w : bytes) (total : Z) : res Z :=
  do t <- kid_loop (Nat.div (length w) 2) 0%nat w total;
  if negb (Nat.eqb (Nat.modulo (length w) 2) 0)
  then do l <- idx w (length w - 1)%nat; Ok (t + Z.shiftl l 8)
  else Ok t.

(* two octets at a time *)
Lemma kid_total_SS a b r total : kid_total (a :: b :: r) total = kid_total r (total + (a * 256 + b)).
Proof.
  unfold kid_total. cbn [length]. rewrite div2_SS, mod2_SS.
  cbn [kid_loop]. unfold idx at 1 2. cbn [Nat.mul Nat.add nth_error bind].
  rewrite kid_loop_shift, Z.shiftl_mul_pow2 by lia. change (2 ^ 8) with 256.
  destruct (kid_loop _ _ r _) as [t| |]; cbn [bind]; try reflexivity.
  destruct (Nat.modulo (length r) 2) eqn:E; cbn [Nat.eqb negb]; [reflexivity|].
  now replace (S (S (length r)) - 1)%nat with (S (S (length r - 1))) by (destruct r; [discriminate|cbn; lia]).
Qed.

Lemma kid_total_ac : forall w total, kid_total w total = Ok (total + rfc_ac w 0).
Proof.
  induction w as [| a | a b r IH] using pair_ind; intros total.
  - cbn. f_equal. lia.
  - cbn. f_equal. lia.
  - rewrite kid_total_SS, IH. change (rfc_ac (a :: b :: r) 0) with (a * 256 + (b + rfc_ac r 2)).
    rewrite rfc_ac_SS. f_equal. lia.
Qed.

Lemma key_id_wire_sum alg w :
  (alg =? 1) = false -> key_id_wire alg w = Ok (rfc_keytag w).
Proof.
  intros Ha.
  transitivity (do T <- kid_total w 0; Ok (Z.land (T + Z.land (Z.shiftr T 16) 65535) 65535)).
  { unfold key_id_wire, kid_total. rewrite Ha. now destruct (kid_loop _ _ _ _). }
  rewrite kid_total_ac. cbn [bind Z.add]. f_equal. unfold rfc_keytag.
  change 65535 with (Z.ones 16). now rewrite !Z.land_ones, Z.shiftr_div_pow2 by lia.
Qed.

Lemma be_int_app a b : be_int (a ++ b) = fold_left (fun acc x => acc * 256 + x) b (be_int a).
Proof. unfold be_int. apply fold_left_app. Qed.

(* algorithm 1: wire[-3], wire[-2] *)
Lemma key_id_wire_alg1 p a b c :
  0 <= a < 256 -> 0 <= b < 256 -> 0 <= c < 256 ->
  key_id_wire 1 (p ++ [a; b; c]) = Ok (rfc_keytag_alg1 (p ++ [a; b; c])).
Proof.
  intros Ha Hb Hc. unfold key_id_wire. cbn [Z.eqb Pos.eqb].
  unfold idx_end, idx. rewrite app_length. cbn [length].
  replace (Nat.ltb (length p + 3) 3) with false by (symmetry; apply Nat.ltb_ge; lia).
  replace (Nat.ltb (length p + 3) 2) with false by (symmetry; apply Nat.ltb_ge; lia).
  replace (length p + 3 - 3)%nat with (length p + 0)%nat by lia.
  replace (length p + 3 - 2)%nat with (length p + 1)%nat by lia.
  rewrite !nth_error_app2 by lia.
  replace (length p + 0 - length p)%nat with 0%nat by lia.
  replace (length p + 1 - length p)%nat with 1%nat by lia.
  cbn [nth_error bind]. f_equal.
  unfold rfc_keytag_alg1. rewrite be_int_app. cbn [fold_left].
  rewrite Z.shiftl_mul_pow2 by lia. change (2 ^ 8) with 256. (Z.to_euclidean_division_equations; lia).
Qed.

Lemma u16_bytes v : 0 <= v < 65536 -> forall x, In x (u16 v) -> 0 <= x < 256.
Proof. intros Hv x [<-|[<-|[]]]; (Z.to_euclidean_division_equations; lia). Qed.

Lemma last3 {A} (l : list A) : (3 <= length l)%nat -> exists p a b c, l = p ++ [a; b; c].
Proof.
  intros H. exists (firstn (length l - 3) l).
  pose proof (firstn_skipn (length l - 3) l) as E.
  assert (L : length (skipn (length l - 3) l) = 3%nat) by (rewrite skipn_length; lia).
  destruct (skipn (length l - 3) l) as [|a [|b [|c [|d r]]]]; try discriminate.
  exists a, b, c. now symmetry.
Qed.

Definition bytes_ok (l : bytes) : Prop := Forall (fun x => 0 <= x < 256) l.

Lemma as_uint_ok lim v : 0 <= v < lim -> as_uint lim v = Ok v.
Proof. intros H. unfold as_uint, in_range. now replace ((0 <=? v) && (v <? lim)) with true by lia. Qed.

Lemma key_id_wire_eq_rfc flags protocol alg key :
  0 <= flags < 65536 -> 0 <= protocol < 256 -> 0 <= alg < 256 -> bytes_ok key ->
  key_id_wire alg (dnskey_wire flags protocol alg key) =
  Ok (let rdata := u16 flags ++ [protocol; alg] ++ key in
      if alg =? 1 then rfc_keytag_alg1 rdata else rfc_keytag rdata).
Proof.
  intros Hf Hp Ha Hk. unfold dnskey_wire. cbv zeta.
  destruct (alg =? 1) eqn:E; [|now apply key_id_wire_sum].
  apply Z.eqb_eq in E. subst alg.
  set (w := u16 flags ++ [protocol; 1] ++ key).
  assert (Hw : Forall (fun x => 0 <= x < 256) w).
  { unfold w. apply Forall_app; split.
    - apply Forall_forall. apply u16_bytes. exact Hf.
    - repeat constructor; try lia. exact Hk. }
  destruct (last3 w) as (p & a & b & c & Ew).
  { unfold w. rewrite !app_length. cbn. lia. }
  rewrite Ew in *. apply Forall_app in Hw as [_ Hw].
  inversion Hw as [|? ? Ha' Hw1]; subst. inversion Hw1 as [|? ? Hb' Hw2]; subst.
  inversion Hw2 as [|? ? Hc' _]; subst.
  apply key_id_wire_alg1; assumption.
Qed.

(* DNSKEYBase.key_id == RFC 4034 appendix B, both branches *)
Theorem key_id_eq_rfc flags protocol alg key :
  0 <= flags < 65536 -> 0 <= protocol < 256 -> 0 <= alg < 256 -> bytes_ok key ->
  key_id flags protocol alg key =
  Ok (let rdata := u16 flags ++ [protocol; alg] ++ key in
      if alg =? 1 then rfc_keytag_alg1 rdata else rfc_keytag rdata).
Proof.
  intros Hf Hp Ha Hk. unfold key_id. rewrite !as_uint_ok by assumption. now apply key_id_wire_eq_rfc.
Qed.

(* out-of-range constructor arguments are refused with ValueError, never an Internal error *)
Lemma key_id_never_internal flags protocol alg key e :
  bytes_ok key -> key_id flags protocol alg key <> Internal e.
Proof.
  intros Hk. unfold key_id, as_uint.
  destruct (in_range flags 65536) eqn:E1; [|discriminate].
  destruct (in_range protocol 256) eqn:E2; [|discriminate].
  destruct (in_range alg 256) eqn:E3; [|discriminate].
  cbn [bind]. unfold in_range in *. rewrite key_id_wire_eq_rfc; [discriminate|lia|lia|lia|exact Hk].
Qed.

Lemma removelast_map {A B} (f : A -> B) l : removelast (map f l) = map f (removelast l).
Proof. induction l as [|x [|y l] IH]; [reflexivity|reflexivity|]. cbn [map removelast] in *. now rewrite IH. Qed.

Lemma Valid_lower n : Valid n -> Valid (map lower_l n).
Proof.
  intros (H1 & H2 & H3). repeat split.
  - apply Forall_map. eapply Forall_impl; [|exact H1]. intros l Hl. cbn. now rewrite zlen_lower.
  - now rewrite wire_length_lower.
  - rewrite removelast_map. apply Forall_map. eapply Forall_impl; [|exact H3].
    intros l Hl. destruct l; [congruence|discriminate].
Qed.

Lemma canonicalize_ok n : Valid n -> canonicalize n = Ok (map lower_l n).
Proof. intros H. unfold canonicalize. apply mk_name_valid. now apply Valid_lower. Qed.

Lemma rfc_name_wire_lower n : rfc_name_wire false (map lower_l n) = rfc_name_wire true n.
Proof.
  unfold rfc_name_wire. induction n as [|l n IH]; [reflexivity|].
  cbn [map flat_map]. rewrite IH, zlen_lower. reflexivity.
Qed.

(* name.canonicalize().to_wire() *)
Lemma to_wire_lowered n : is_absolute n = true -> to_wire (map lower_l n) None false = Ok (rfc_name_wire true n).
Proof.
  intros Ha. unfold to_wire. now rewrite is_absolute_lower, Ha, wire_labels_rfc, rfc_name_wire_lower.
Qed.

Theorem make_ds_eq_rfc owner flags protocol alg key dtype :
  Valid owner -> is_absolute owner = true ->
  0 <= flags < 65536 -> 0 <= protocol < 256 -> 0 <= alg < 256 -> bytes_ok key ->
  dtype = 1 \/ dtype = 2 \/ dtype = 4 ->
  make_ds owner flags protocol alg key dtype =
  Ok (rfc_ds_input owner flags protocol alg key,
      (let rdata := u16 flags ++ [protocol; alg] ++ key in
       if alg =? 1 then rfc_keytag_alg1 rdata else rfc_keytag rdata),
      alg, dtype).
Proof.
  intros Hv Habs Hf Hp Ha Hk Hd. unfold make_ds. rewrite !as_uint_ok by assumption. cbn [bind].
  replace (negb ((dtype =? 1) || (dtype =? 2) || (dtype =? 4))) with false
    by (destruct Hd as [->|[->| ->]]; reflexivity).
  rewrite canonicalize_ok by exact Hv. cbn [bind]. rewrite to_wire_lowered by exact Habs. cbn [bind].
  now rewrite key_id_wire_eq_rfc by assumption.
Qed.

(* owner given as text: the name the text denotes under the origin is the one that is digested *)
Theorem make_ds_text_eq_rfc text origin owner flags protocol alg key dtype :
  from_text text origin = Ok owner ->
  Valid owner -> is_absolute owner = true ->
  0 <= flags < 65536 -> 0 <= protocol < 256 -> 0 <= alg < 256 -> bytes_ok key ->
  dtype = 1 \/ dtype = 2 \/ dtype = 4 ->
  make_ds_text text origin flags protocol alg key dtype =
  Ok (rfc_ds_input owner flags protocol alg key,
      (let rdata := u16 flags ++ [protocol; alg] ++ key in
       if alg =? 1 then rfc_keytag_alg1 rdata else rfc_keytag rdata),
      alg, dtype).
Proof.
  intros Ht Hv Habs Hf Hp Ha Hk Hd. unfold make_ds_text. rewrite !as_uint_ok by assumption. cbn [bind].
  replace (negb ((dtype =? 1) || (dtype =? 2) || (dtype =? 4))) with false
    by (destruct Hd as [->|[->| ->]]; reflexivity).
  rewrite Ht. cbn [bind]. now apply make_ds_eq_rfc.
Qed.

(* unsupported digest types are refused before anything is computed *)
Lemma make_ds_unsupported owner flags protocol alg key dtype :
  0 <= flags < 65536 -> 0 <= protocol < 256 -> 0 <= alg < 256 ->
  dtype <> 1 -> dtype <> 2 -> dtype <> 4 ->
  make_ds owner flags protocol alg key dtype = Lib eUnsupportedAlgorithm.
Proof.
  intros Hf Hp Ha H1 H2 H4. unfold make_ds. rewrite !as_uint_ok by assumption. cbn [bind].
  now replace (negb ((dtype =? 1) || (dtype =? 2) || (dtype =? 4))) with true by lia.
Qed.

(* 0..9 -> A..J -> '0'..'9';  10..25 -> K..Z -> 'A'..'P';  26..31 -> '2'..'7' -> 'Q'..'V' *)
Lemma b32_translate_std v : 0 <= v < 32 -> b32_translate (b32_std v) = b32_hex v.
Proof.
  intros Hv. unfold b32_translate, b32_std, b32_hex.
  destruct (Z.ltb_spec v 10); [|destruct (Z.ltb_spec v 26)].
  - replace (v <? 26) with true by lia.
    replace ((65 <=? 65 + v) && (65 + v <=? 74)) with true by lia. lia.
  - replace ((65 <=? 65 + v) && (65 + v <=? 74)) with false by lia.
    replace ((75 <=? 65 + v) && (65 + v <=? 90)) with true by lia. lia.
  - replace ((65 <=? 24 + v) && (24 + v <=? 74)) with false by lia.
    replace ((75 <=? 24 + v) && (24 + v <=? 90)) with false by lia.
    replace ((50 <=? 24 + v) && (24 + v <=? 55)) with true by lia. lia.
Qed.

Lemma b32_translate_pad : b32_translate 61 = 61.
Proof. reflexivity. Qed.

Lemma quintets_range a b c d e : Forall (fun v => 0 <= v < 32) (quintets a b c d e).
Proof. unfold quintets. repeat constructor; apply Z.mod_pos_bound; lia. Qed.

Lemma enc_translate k q :
  Forall (fun v => 0 <= v < 32) q ->
  map b32_translate (enc b32_std k q) = enc b32_hex k q.
Proof.
  intros Hq. unfold enc. rewrite map_app, map_map. f_equal.
  - apply map_ext_in. intros v Hv. apply b32_translate_std.
    rewrite Forall_forall in Hq. apply Hq. eapply In_firstn; eauto.
  - induction (8 - k)%nat as [|m IH]; [reflexivity|]. cbn [repeat map]. now rewrite IH.
Qed.

Lemma b32_translate_encode : forall l,
  map b32_translate (b32encode b32_std l) = b32encode b32_hex l.
Proof.
  fix IH 1. intros [|a [|b [|c [|d [|e r]]]]].
  - reflexivity.
  - cbn [b32encode]. apply enc_translate, quintets_range.
  - cbn [b32encode]. apply enc_translate, quintets_range.
  - cbn [b32encode]. apply enc_translate, quintets_range.
  - cbn [b32encode]. apply enc_translate, quintets_range.
  - cbn [b32encode]. rewrite map_app, IH. f_equal. apply enc_translate, quintets_range.
Qed.

Section N3.
  Variable H : bytes -> bytes.

  Lemma n3_iter_IH salt x : forall n k,
    n3_iter H n (rfc_IH H salt x k) salt = rfc_IH H salt x (k + n).
  Proof.
    induction n as [|n IHn]; intros k.
    - now rewrite Nat.add_0_r.
    - cbn [n3_iter]. change (H (rfc_IH H salt x k ++ salt)) with (rfc_IH H salt x (S k)).
      rewrite IHn. f_equal. lia.
  Qed.

  (* nsec3_hash == RFC 5155 section 5 for every hash function, salt and iteration count *)
  Theorem nsec3_hash_eq_rfc domain salt iterations :
    Valid domain -> is_absolute domain = true ->
    nsec3_hash H domain salt iterations 1 = Ok (rfc_nsec3_hash H domain salt (Z.to_nat iterations)).
  Proof.
    intros Hv Ha. unfold nsec3_hash. cbn [Z.eqb Pos.eqb negb].
    rewrite canonicalize_ok by exact Hv. cbn [bind]. rewrite to_wire_lowered by exact Ha. cbn [bind].
    f_equal. unfold rfc_nsec3_hash. rewrite b32_translate_encode. f_equal.
    change (H (rfc_name_wire true domain ++ salt)) with (rfc_IH H salt (rfc_name_wire true domain) 0).
    now rewrite n3_iter_IH.
  Qed.

  Lemma nsec3_hash_bad_alg domain salt iterations alg :
    alg <> 1 -> nsec3_hash H domain salt iterations alg = Lib eValueError.
  Proof. intros Ha. unfold nsec3_hash. replace (alg =? 1) with false by lia. reflexivity. Qed.
End N3.
