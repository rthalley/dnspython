(* C19 - `_visit_preorder_by_node` on the store (`sdump`, the walk the harness compares with the
   real node structure): it visits exactly the footprint of the tree, every node once, parent
   before children, children left to right - and what it sees is the preorder of the value-level
   tree the store represents.  Then: `vexec` changes no tree but the one the operation names. *)
From DV Require Import Base.Prelude Model.BTreeM Model.BTreeStoreM Proofs.BTreeBase Proofs.BTreeWf Proofs.BTreeInsert
  Proofs.BTreeLookup Proofs.BTreeDelete Proofs.BTreeTop Proofs.BTreeStore Proofs.BTreeIsolation
  Proofs.BTreeRefine Proofs.BTreeRefine4 Proofs.BTreeRefine5.

Definition dump_id (o : obs) : nat := match o with L (I z :: _) => Z.to_nat z | _ => O end.

(* [leaf; flat elts] of a dumped node *)
Definition dump_node (o : obs) : obs := match o with L [_; _; lf; es; _] => L [lf; es] | _ => N end.

Fixpoint preorder (n : tree) : list obs :=
  let '(Node lf es ks) := n in
  L [ob lf; L (flat_map (fun e => [I (fst e); I (snd e)]) es)] :: flat_map preorder ks.

Lemma sdump_rep s : forall id tr fp, rep s id tr fp -> forall fuel, (length fp <= fuel)%nat ->
  map dump_id (sdump fuel s id) = fp /\ map dump_node (sdump fuel s id) = preorder tr.
Proof.
  apply (rep_mind s
    (fun id tr fp _ => forall fuel, (length fp <= fuel)%nat ->
       map dump_id (sdump fuel s id) = fp /\ map dump_node (sdump fuel s id) = preorder tr)
    (fun ids trs fps _ => forall fuel, (length (concat fps) <= fuel)%nat ->
       map dump_id (flat_map (sdump fuel s) ids) = concat fps /\
       map dump_node (flat_map (sdump fuel s) ids) = flat_map preorder trs)).
  - intros id n kids fps Hn Hlk Hr IH Hnd fuel Hf. destruct fuel as [|f]; [cbn in Hf; lia|].
    cbn [sdump]. rewrite Hn. cbn [map dump_id dump_node preorder]. rewrite Nat2Z.id.
    destruct (IH f ltac:(cbn in Hf; lia)) as (-> & ->). auto.
  - intros fuel _. auto.
  - intros k ks tr trs fp fps Hr IH Hrs IHs fuel Hf. cbn [concat] in Hf. rewrite app_length in Hf.
    cbn [flat_map concat]. rewrite !map_app.
    destruct (IH fuel ltac:(lia)) as (-> & ->). destruct (IHs fuel ltac:(lia)) as (-> & ->). auto.
Qed.

(* for every tree of a world that represents value-level trees: the preorder walk from its root
   lists pairwise distinct node ids (no node is reached twice: the structure really is a tree) and
   sees the preorder of the value-level tree *)
Lemma preorder_walk sw ts k sb b :
  SR sw ts -> nth_error (sw_trees sw) k = Some sb -> nth_error ts k = Some b ->
  let d := sdump (S (length (sw_store sw))) (sw_store sw) (sb_root sb) in
  NoDup (map dump_id d) /\ map dump_node d = preorder (b_root b).
Proof.
  intros (_ & _ & Hrel) H1 H2 d. destruct (Hrel k sb b H1 H2) as ((_ & _ & _ & _ & fp & Hr) & _).
  destruct (sdump_rep _ _ _ _ Hr (S (length (sw_store sw)))) as (Hi & Hn).
  { pose proof (fp_le_store _ _ _ _ Hr). lia. }
  unfold d. rewrite Hi, Hn. split; [eapply rep_nodup; eauto|reflexivity].
Qed.

Theorem preorder_walk_proof xs k sb b :
  let sw := execs (mkSW [] []) xs in
  nth_error (sw_trees sw) k = Some sb -> nth_error (vexecs [] xs) k = Some b ->
  let d := sdump (S (length (sw_store sw))) (sw_store sw) (sb_root sb) in
  NoDup (map dump_id d) /\ map dump_node d = preorder (b_root b).
Proof. exact (preorder_walk _ _ k sb b (store_refines_proof xs)). Qed.

Lemma v_mutate_other ts i r k : i <> k -> nth_error (fst (v_mutate ts i r)) k = nth_error ts k.
Proof. intros Hne. destruct r as [(b' & o)| |]; cbn [v_mutate fst]; [now apply nth_set_nth_ne|reflexivity|reflexivity]. Qed.

Lemma vexec_prim_other ts x k :
  target x <> Some k -> (k < length ts)%nat -> nth_error (fst (vexec_prim ts x)) k = nth_error ts k.
Proof.
  intros Hne Hk. destruct x; cbn [vexec_prim target] in *; try reflexivity.
  - destruct (Z.to_nat t <? 3)%nat; cbn [fst]; [reflexivity|now apply nth_error_app1].
  - unfold v_with. destruct (nth_error ts (Z.to_nat ti)); [|reflexivity]. apply v_mutate_other. congruence.
  - unfold v_with. destruct (nth_error ts (Z.to_nat ti)); [|reflexivity]. apply v_mutate_other. congruence.
  - unfold v_with. destruct (nth_error ts (Z.to_nat ti)); [|reflexivity]. cbn [fst]. apply nth_set_nth_ne. congruence.
  - unfold v_with. destruct (nth_error ts (Z.to_nat ti)); [|reflexivity].
    destruct (b_immut b); cbn [fst]; [now apply nth_error_app1|reflexivity].
Qed.

Lemma vexec_prim_length ts ti k ex m : length (fst (vexec_prim ts (SDel ti k ex m))) = length ts.
Proof.
  cbn [vexec_prim]. unfold v_with. destruct (nth_error ts (Z.to_nat ti)); [|reflexivity].
  match goal with |- context [v_mutate ts ?i ?r] => destruct r as [(b' & o)| |] end; cbn [v_mutate fst];
    [apply length_set_nth|reflexivity|reflexivity].
Qed.

Lemma v_clear_other ti k : Z.to_nat ti <> k -> forall fuel ts, (k < length ts)%nat ->
  nth_error (v_clear fuel ts ti) k = nth_error ts k.
Proof.
  intros Hne. induction fuel as [|f IH]; intros ts Hk; [reflexivity|]. cbn [v_clear].
  destruct (v_first ts ti) as [e|]; [|reflexivity].
  rewrite IH by (now rewrite vexec_prim_length). apply vexec_prim_other; [cbn [target]; congruence|assumption].
Qed.

Theorem vexec_other_proof ts x k :
  target x <> Some k -> (k < length ts)%nat -> nth_error (fst (vexec ts x)) k = nth_error ts k.
Proof.
  intros Hne Hk. destruct x; cbn [vexec]; try (now apply vexec_prim_other).
  - destruct (v_lookup ts ti k0); [|reflexivity]. apply vexec_prim_other; [cbn [target] in *; congruence|assumption].
  - destruct (v_first ts ti); [|reflexivity]. apply vexec_prim_other; [cbn [target] in *; congruence|assumption].
  - cbn [fst]. apply v_clear_other; [cbn [target] in Hne; congruence|assumption].
  - destruct (v_lookup ts ti k0); [reflexivity|]. apply vexec_prim_other; [cbn [target] in *; congruence|assumption].
Qed.
