(* C13 - out-of-zone records ("glue that is not a subdomain of the origin") in a transfer are ignored:
   the outcome is exactly the outcome of the stream without them. *)
From DV Require Import Base.Prelude Model.XfrM Proofs.ListFacts Proofs.XfrSets Proofs.XfrSpec Proofs.XfrZone Proofs.XfrDiff
  Proofs.XfrSafety Proofs.XfrBasic Proofs.XfrRun Proofs.XfrSteps Proofs.XfrGeneral Proofs.XfrIxfr Proofs.XfrAxfr Proofs.XfrPerm.
From Coq Require Import Sorting.Permutation.

Definition glue (r : rr) : bool := (r_name r <? 0) && negb (r_type r =? tSOA).
Definition rs_glue (s : rrset) : bool := (s_name s <? 0) && negb (s_type s =? tSOA).
Definition erase (x : list rr) : list rr := filter (fun r => negb (glue r)) x.
Definition rs_erase (l : list rrset) : list rrset := filter (fun s => negb (rs_glue s)) l.

Lemma same_rrset_glue : forall r s, same_rrset r s = true -> rs_glue s = glue r.
Proof.
  intros r s H. unfold same_rrset in H. rewrite !andb_true_iff, !Z.eqb_eq in H.
  destruct H as [[[Hn _] Ht] _]. unfold rs_glue, glue. rewrite Hn, Ht. reflexivity.
Qed.

(* a glue record only ever touches glue RRsets, a non-glue record never merges into one *)
Lemma erase_add_to : forall r acc,
  rs_erase (add_to r acc) = if glue r then rs_erase acc else add_to r (rs_erase acc).
Proof.
  intros r acc. induction acc as [|s acc IH]; cbn [add_to rs_erase filter].
  - change (rs_glue (single r)) with (glue r). destruct (glue r); reflexivity.
  - destruct (same_rrset r s) eqn:E; cbn [filter].
    + change (rs_glue (rrset_add s r)) with (rs_glue s). rewrite (same_rrset_glue r s E).
      destruct (glue r); cbn [negb add_to]; rewrite ?E; reflexivity.
    + fold (rs_erase (add_to r acc)). fold (rs_erase acc). rewrite IH.
      destruct (glue r), (rs_glue s); cbn [negb add_to]; rewrite ?E; reflexivity.
Qed.

(* parsing the erased section = erasing the parsed section *)
Lemma erase_group_go : forall x f acc,
  rs_erase (group_go f acc x) = group_go f (rs_erase acc) (erase x).
Proof.
  induction x as [|r x IH]; intros f acc; cbn [group_go erase filter]; [reflexivity|].
  fold (erase x). rewrite IH. destruct (glue r) eqn:Hg; cbn [negb group_go].
  - (* a glue record is not an SOA: the force_unique flag does not change *)
    assert (Ht : (r_type r =? tSOA) = false).
    { unfold glue in Hg. apply andb_true_iff in Hg. destruct Hg as [_ H]. apply negb_true_iff in H. exact H. }
    rewrite Ht, orb_false_r. f_equal. destruct f; [|rewrite erase_add_to, Hg; reflexivity].
    unfold rs_erase. rewrite filter_app. cbn [filter]. change (rs_glue (single r)) with (glue r). rewrite Hg. apply app_nil_r.
  - f_equal. destruct (f || (r_type r =? tSOA)); [|rewrite erase_add_to, Hg; reflexivity].
    unfold rs_erase. rewrite filter_app. cbn [filter]. change (rs_glue (single r)) with (glue r). rewrite Hg. reflexivity.
Qed.

Lemma erase_group : forall f x, rs_erase (group f x) = group f (erase x).
Proof. intros f x. unfold group. rewrite erase_group_go. reflexivity. Qed.

Lemma erase_app : forall a b, erase (a ++ b) = erase a ++ erase b.
Proof. intros. unfold erase. apply filter_app. Qed.

Lemma glue_out : forall s, rs_glue s = true ->
  (s_type s =? tSOA) && (s_name s =? origin) = false /\ in_zone (s_name s) = false.
Proof.
  intros s Hg. unfold rs_glue in Hg. apply andb_true_iff in Hg. destruct Hg as [Hn _]. apply Z.ltb_lt in Hn.
  split; [|apply Z.leb_gt; exact Hn]. rewrite andb_false_iff. right. apply Z.eqb_neq. unfold origin. lia.
Qed.

(* out-of-zone RRsets are invisible to a transfer in progress *)
Lemma loopn_erase_ist : forall x u p tz cur s0 dm, Forall (fun r => r_type r <> tSOA) x ->
  loopn (ist u p tz cur s0 false dm) (map single x) = loopn (ist u p tz cur s0 false dm) (map single (erase x)).
Proof.
  induction x as [|r x IH]; intros u p tz cur s0 dm Hx; [reflexivity|].
  inversion Hx as [|? ? Ht Hx']; subst. cbn [map erase filter]. fold (erase x).
  destruct (glue r) eqn:Hg; cbn [negb map loopn].
  - destruct (glue_out (single r) Hg) as [H1 H2]. unfold ist at 1. rewrite (step_rs _ _ _ _ _ _ _ _ _ _ _ H1), H2. apply IH, Hx'.
  - unfold ist at 1 2. apply Z.eqb_neq in Ht. rewrite step_rs by (cbn [single s_type]; rewrite Ht; reflexivity). cbv zeta.
    destruct (negb (in_zone (s_name (single r)))); [apply IH, Hx'|].
    destruct (if dm then _ else _); cbn [res_of]; [apply IH, Hx'|reflexivity|reflexivity].
Qed.

(* a step of a full transfer that raises nothing leaves a full transfer in progress *)
Lemma step_ast_shape : forall u rdt p tz ser s0 s s', step Mid (ast u rdt p tz ser s0) s = (s', None) ->
  exists tz', s' = ast u rdt p tz' ser s0.
Proof.
  intros u rdt p tz ser s0 s s' H. destruct ((s_type s =? tSOA) && (s_name s =? origin)) eqn:E.
  - exfalso. unfold step, ast in H. cbn [done txn incremental delmode soa set_delmode] in H. rewrite E in H.
    match type of H with (if ?c then _ else _) = _ => destruct c end; (destruct (soa_serial s); [|discriminate]); discriminate.
  - unfold ast in H. rewrite (step_rs _ _ _ _ _ _ _ _ _ _ _ E) in H. cbv zeta in H.
    destruct (negb (in_zone (s_name s))); [|destruct (t_add false tz s); cbn [res_of] in H];
      inversion H; eexists; reflexivity.
Qed.

Lemma loopn_erase_ast : forall l u rdt p tz ser s0,
  loopn (ast u rdt p tz ser s0) l = loopn (ast u rdt p tz ser s0) (rs_erase l).
Proof.
  induction l as [|s l IH]; intros u rdt p tz ser s0; [reflexivity|]. cbn [rs_erase filter]. fold (rs_erase l).
  destruct (rs_glue s) eqn:Hg; cbn [negb loopn].
  - destruct (glue_out s Hg) as [H1 H2]. unfold ast at 1. rewrite (step_rs _ _ _ _ _ _ _ _ _ _ _ H1), H2. apply IH.
  - destruct (step Mid (ast u rdt p tz ser s0) s) as [s' [e|]] eqn:Hs; [reflexivity|].
    destruct (step_ast_shape _ _ _ _ _ _ _ _ Hs) as [tz' ->]. apply IH.
Qed.

(* a record of a response that may carry out-of-zone glue *)
Definition okrec (r : rr) : Prop := glue r = true \/ plain r.

Lemma glue_not_plain : forall r, plain r -> glue r = false.
Proof. intros r (_ & _ & Hn & _). unfold glue. apply andb_false_iff. left. apply Z.ltb_ge. exact Hn. Qed.

Lemma erase_plain : forall x, Forall okrec x -> Forall plain (erase x).
Proof.
  intros x H. apply Forall_forall. intros r Hr. unfold erase in Hr. apply filter_In in Hr.
  destruct Hr as [Hin Hg]. rewrite Forall_forall in H. destruct (H r Hin) as [G|P]; [|exact P].
  rewrite G in Hg. discriminate.
Qed.

Lemma erase_rec_g_id : forall x, Forall rec_g x -> erase x = x.
Proof.
  intros x H. apply filter_all. intros r Hr. rewrite Forall_forall in H. destruct (H r Hr) as (_ & _ & Hn & _).
  unfold glue. apply Z.ltb_ge in Hn. rewrite Hn. reflexivity.
Qed.

Lemma erase_plain_id : forall x, Forall plain x -> erase x = x.
Proof. intros x H. apply erase_rec_g_id, plain_rec_g, H. Qed.

Lemma plain_okrec : forall x, Forall plain x -> Forall okrec x.
Proof. intros x H. eapply Forall_impl; [|exact H]. intros r Hr. right. exact Hr. Qed.

Lemma okrec_not_soa : forall x, Forall okrec x -> Forall (fun r => r_type r <> tSOA) x.
Proof.
  intros x H. eapply Forall_impl; [|exact H]. intros r [Hg|Hp]; [|apply Hp].
  unfold glue in Hg. apply andb_true_iff in Hg. destruct Hg as [_ Hg]. apply negb_true_iff, Z.eqb_neq in Hg. exact Hg.
Qed.

(* one record of a full transfer in progress, or the first record of the AXFR-style answer to an IXFR *)
Lemma step_ast_okrec : forall l u rdt p tz ser s0 r, okrec r -> quiet tz ->
  step l (ast u rdt p tz ser s0) (single r) = (ast u rdt p (adds tz (erase [r])) ser s0, None).
Proof.
  intros l u rdt p tz ser s0 r Hr Hq. unfold erase. cbn [filter]. unfold ast at 1. destruct Hr as [Hg|Hp].
  - destruct (glue_out (single r) Hg) as [H1 H2]. rewrite (step_rs _ _ _ _ _ _ _ _ _ _ _ H1), H2, Hg. reflexivity.
  - pose proof (plain_rec_g [r] (Forall_cons _ Hp (Forall_nil _))) as Hg. inversion Hg as [|? ? Hrg _]; subst.
    destruct (rec_g_in_zone r Hrg) as [H1 H2]. rewrite (step_rs _ _ _ _ _ _ _ _ _ _ _ H1), H2, (glue_not_plain r Hp).
    cbv zeta. cbn [negb]. rewrite (t_add_single tz r Hp Hq). reflexivity.
Qed.

Lemma step_fallback_okrec : forall l u p tz ser s0 r, okrec r ->
  step l (ist u p tz ser s0 true false) (single r) = (ast u tIXFR p (adds [] (erase [r])) ser s0, None).
Proof.
  intros l u p tz ser s0 r Hr. rewrite <- (step_ast_okrec l u tIXFR p [] ser s0 r Hr quiet_nil).
  assert (H : (s_type (single r) =? tSOA) && (s_name (single r) =? origin) = false).
  { destruct Hr as [Hg|(_ & Ht & _)]; [apply (glue_out (single r) Hg)|]. apply Z.eqb_neq in Ht. cbn [single s_type]. rewrite Ht. reflexivity. }
  unfold ast. rewrite (step_fallback _ _ _ _ _ _ _ H), (step_rs _ _ _ _ _ _ _ _ _ _ _ H). reflexivity.
Qed.

(* the records of a deletion / addition section on a zone without CNAME-kind RRsets *)
Lemma runs_dels : forall D tz tz', Forall okrec D -> quiet tz -> dels tz (erase D) = Some tz' -> runs_to true D tz tz'.
Proof.
  intros D tz tz' HD Hq Hd u p cur s0. rewrite (loopn_erase_ist D _ _ _ _ _ _ (okrec_not_soa D HD)).
  apply loopn_dels; [apply plain_rec_g, erase_plain, HD|apply quiet_consistent, Hq|exact Hd].
Qed.

Lemma runs_adds : forall A tz, Forall okrec A -> quiet tz -> runs_to false A tz (adds tz (erase A)).
Proof.
  intros A tz HA Hq u p cur s0. rewrite (loopn_erase_ist A _ _ _ _ _ _ (okrec_not_soa A HA)).
  apply loopn_adds; [apply plain_rec_g, erase_plain, HA|apply adds_ok_plain; [apply erase_plain, HA|exact Hq]].
Qed.

(* the body invariant of the in-zone records is kept by a message that also carries out-of-zone records *)
Lemma body_inv_erase_msg : forall K : key -> Prop, (forall k k', K k -> K k' -> conflicts k k' = false) ->
  forall Z rdt p ser s0 f tz a c', body_inv K Z tz (erase (a ++ c')) ->
  exists tz', loopn (ast false rdt p tz ser s0) (group f a) = (ast false rdt p tz' ser s0, None) /\ body_inv K Z tz' (erase c').
Proof.
  intros K HK Z rdt p ser s0 f tz a c' Hi. rewrite erase_app in Hi.
  destruct (body_inv_msg K HK Z rdt p ser s0 f tz _ _ Hi) as (tz' & Hl & Hi').
  exists tz'. rewrite loopn_erase_ast, erase_group. split; [exact Hl|exact Hi'].
Qed.

(* the invariant for records that are out of zone or of ordinary types, on a zone without CNAME-kind RRsets *)
Definition glue_inv (Z tz : zone) (c : list rr) : Prop :=
  Forall okrec c /\ quiet tz /\ body_inv (fun k => key_kind k <> 2) Z tz (erase c).

Lemma glue_inv_msg : forall Z rdt p ser s0 f tz a c', glue_inv Z tz (a ++ c') ->
  exists tz', loopn (ast false rdt p tz ser s0) (group f a) = (ast false rdt p tz' ser s0, None) /\ glue_inv Z tz' c'.
Proof.
  intros Z rdt p ser s0 f tz a c' (Hok & Hq & Hi). apply Forall_app in Hok. destruct Hok as [Ha Hc'].
  destruct (body_inv_erase_msg _ conflicts_kind Z rdt p ser s0 f tz a c' Hi) as (tz' & Hl & Hi').
  exists tz'. split; [exact Hl|]. split; [exact Hc'|]. split; [|exact Hi'].
  intros k Hk. destruct Hi' as (_ & _ & (H1 & _) & _). apply H1, Hk.
Qed.

Lemma glue_inv_start : forall B tz, Forall okrec B -> quiet tz -> zsorted tz -> glue_inv (adds tz (erase B)) tz B.
Proof.
  intros B tz HB Hq Hz. pose proof (erase_plain B HB) as Hp. split; [exact HB|]. split; [exact Hq|].
  split; [apply plain_rec_g, Hp|]. split; [exact Hz|]. split; [apply todo_plain; assumption|apply zeq_refl].
Qed.

(* one message of such records *)
Lemma okrec_msg : forall f rdt p ser s0 tz a, Forall okrec a -> quiet tz -> zsorted tz ->
  exists tz', loopn (ast false rdt p tz ser s0) (group f a) = (ast false rdt p tz' ser s0, None) /\
              quiet tz' /\ zsorted tz' /\ zeq tz' (adds tz (erase a)).
Proof.
  intros f rdt p ser s0 tz a Ha Hq Hz. pose proof (glue_inv_start a tz Ha Hq Hz) as Hi. rewrite <- (app_nil_r a) in Hi at 2.
  destruct (glue_inv_msg _ rdt p ser s0 f tz a [] Hi) as (tz' & Hl & _ & Hq' & _ & Hz' & _ & He). eauto.
Qed.

(* A response SOA, B, SOA whose in-zone records have their keys in a conflict-free set K with the SOA's,
   singleton-typed ones once, is applied as the set union of the in-zone records of B; any division into
   messages, including the parser's merging of records into RRsets. *)
Lemma axfr_body_glue_g : forall (K : key -> Prop) fin B z0 ser ws,
  (forall k k', K k -> K k' -> conflicts k k' = false) -> K soakey ->
  ttl_ok (v_ttl fin) -> Forall rec_g (erase B) -> todo_ok K [] (erase B) ->
  chunking tAXFR (soa_rr fin :: B ++ [soa_rr fin]) ws ->
  exists z' n, inbound_xfr z0 tAXFR ser false ws = (Done z', n)
               /\ zeq z' (zput soakey (v_ttl fin, [v_soa fin]) (adds [] (erase B)))
               /\ concat (map w_records (skipn n ws)) = [].
Proof.
  intros K fin B z0 ser ws HK Hsoa Httl HB Ht.
  apply (axfr_body_inv K (adds [] (erase B)) (fun tz c => body_inv K (adds [] (erase B)) tz (erase c)));
    [exact HK|exact Hsoa|exact Httl| |auto|].
  - intros rdt p sv s0. apply (body_inv_erase_msg K HK).
  - split; [exact HB|]. split; [exact zsorted_nil|]. split; [exact Ht|apply zeq_refl].
Qed.

(* Whatever the body is (records of the zone, dropped / altered / repeated records, glue), as long as its
   in-zone records are of ordinary types. *)
Lemma axfr_body_glue : forall fin B z0 ser ws,
  ttl_ok (v_ttl fin) -> Forall okrec B ->
  chunking tAXFR (soa_rr fin :: B ++ [soa_rr fin]) ws ->
  exists z' n, inbound_xfr z0 tAXFR ser false ws = (Done z', n)
               /\ zeq z' (zput soakey (v_ttl fin, [v_soa fin]) (adds [] (erase B)))
               /\ concat (map w_records (skipn n ws)) = [].
Proof.
  intros fin B z0 ser ws Httl HB. pose proof (erase_plain B HB) as Hp.
  apply (axfr_body_glue_g (fun k => key_kind k <> 2)); [exact conflicts_kind|discriminate|exact Httl|apply plain_rec_g, Hp|].
  apply todo_plain; [exact quiet_nil|exact Hp].
Qed.

Lemma perm_same_set : forall X Y : list rr, Permutation X Y -> same_set X Y.
Proof. intros X Y P r. split; apply Permutation_in; [exact P|apply Permutation_sym, P]. Qed.

(* AXFR of a version of any content: the records of the zone in any order, those of non-singleton types with
   repetitions, interleaved with out-of-zone glue of any content; any client zone, any division into messages *)
Theorem axfr_converges_g_with_glue : forall v z0 ser B ws,
  version_wf_g v -> same_set (erase B) (body (v_rest v)) -> once (erase B) ->
  chunking tAXFR (soa_rr v :: B ++ [soa_rr v]) ws ->
  exists z' n, inbound_xfr z0 tAXFR ser false ws = (Done z', n) /\ zeq z' (zone_of v).
Proof.
  intros v z0 ser B ws Hv PB Ho Hch. pose proof Hv as (Httl & Hb & _ & Cv).
  assert (HB : Forall rec_g (erase B)).
  { apply Forall_forall. intros r Hr. destruct (body_in_look0 _ r Hb (proj1 (PB r) Hr)) as (_ & _ & _ & _ & Hg). exact Hg. }
  destruct (axfr_body_glue_g (fun k => look (zone_of v) k <> None) v B z0 ser ws Cv
              (proj2 (zone_of_keys v soakey) (or_introl eq_refl)) Httl HB
              (todo_version v _ Hv (fun r => proj1 (PB r)) Ho) Hch) as (z' & n & Hn & Hz & _).
  exists z', n. split; [exact Hn|]. apply full_target; [exact Hv|].
  eapply zeq_trans; [exact Hz|]. apply zput_zeq, adds_same_set; [exact PB|apply zsorted_nil].
Qed.

(* an AXFR response: the records of the zone in any order, with repetitions, interleaved with
   out-of-zone glue of any content *)
Definition axfr_response_glue (v : version) (recs : list rr) : Prop :=
  exists B, Forall okrec B /\ same_set (erase B) (body (v_rest v)) /\ recs = soa_rr v :: B ++ [soa_rr v].

Theorem axfr_converges_with_glue : forall v z0 ser recs ws,
  version_wf v -> axfr_response_glue v recs -> chunking tAXFR recs ws ->
  exists z' n, inbound_xfr z0 tAXFR ser false ws = (Done z', n) /\ zeq z' (zone_of v).
Proof.
  intros v z0 ser recs ws Hv [B [HB [PB ->]]].
  apply axfr_converges_g_with_glue; [apply version_wf_wf_g, Hv|exact PB|apply plain_once, erase_plain, HB].
Qed.

Lemma axfr_style_body_glue : forall fin r c z0 ser ws,
  ttl_ok (v_ttl fin) -> okrec r -> Forall okrec c ->
  v_serial fin <> ser -> serial_lt (v_serial fin) ser = false ->
  chunking tIXFR (soa_rr fin :: (r :: c) ++ [soa_rr fin]) ws ->
  exists n, inbound_xfr z0 tIXFR (Some ser) false ws =
            (Done (zput soakey (v_ttl fin, [v_soa fin]) (adds [] (erase (r :: c)))), n).
Proof.
  intros fin r c z0 ser ws Httl Hr Hc Hs Hlt Hch.
  assert (Hq : quiet (adds [] (erase (r :: c)))).
  { apply quiet_adds; [apply erase_plain; constructor; assumption|exact quiet_nil]. }
  assert (Hl : loopn (ist false z0 z0 ser (single (soa_rr fin)) true false) (map single (r :: c)) =
               (ast false tIXFR z0 (adds [] (erase (r :: c))) ser (single (soa_rr fin)), None)).
  { cbn [map loopn]. rewrite (step_fallback_okrec _ _ _ _ _ _ _ Hr).
    rewrite <- group_true, loopn_erase_ast, erase_group, group_true. change (r :: c) with ([r] ++ c). rewrite erase_app, adds_app.
    assert (Hq1 : quiet (adds [] (erase [r]))) by (apply quiet_adds; [apply erase_plain; constructor; [exact Hr|constructor]|exact quiet_nil]).
    apply loopn_adds; [apply plain_rec_g, erase_plain, Hc|apply adds_ok_plain; [apply erase_plain, Hc|exact Hq1]]. }
  refine (ixfr_done z0 ser fin Hs Hlt ws _ _ _
            (mkSt (zput soakey (v_ttl fin, [v_soa fin]) (adds [] (erase (r :: c)))) None tIXFR false ser false
                  (Some (single (soa_rr fin))) true false false false) Hch Hl _ eq_refl).
  rewrite step_ast_soa, Z.eqb_refl, t_add_soa by assumption. reflexivity.
Qed.

Lemma response_glue_cons : forall v B, version_wf v -> v_rest v <> [] -> same_set (erase B) (body (v_rest v)) ->
  exists r c, B = r :: c.
Proof.
  intros v [|r c] [_ Hwf] Hne PB; [|eauto]. exfalso.
  destruct (body_cons _ (rest_wf_wf0 _ Hwf) Hne) as (r & c & E). apply (proj2 (PB r)). rewrite E. left. reflexivity.
Qed.

Theorem axfr_style_ixfr_converges_with_glue : forall v z0 ser recs ws,
  version_wf v -> v_rest v <> [] -> axfr_response_glue v recs ->
  v_serial v <> ser -> serial_lt (v_serial v) ser = false ->
  chunking tIXFR recs ws ->
  exists z' n, inbound_xfr z0 tIXFR (Some ser) false ws = (Done z', n) /\ zeq z' (zone_of v).
Proof.
  intros v z0 ser recs ws Hv Hne [B [HB [PB ->]]] Hs Hlt Hch.
  destruct (response_glue_cons v B Hv Hne PB) as (r & c & ->). inversion HB as [|? ? Hr Hc]; subst.
  destruct (axfr_style_body_glue v r c z0 ser ws (proj1 Hv) Hr Hc Hs Hlt Hch) as [n Hn].
  eexists. exists n. split; [exact Hn|]. apply full_target; [apply version_wf_wf_g, Hv|].
  apply zput_zeq, adds_same_set; [exact PB|apply zsorted_nil].
Qed.

(* incremental transfers whose sections also carry out-of-zone records *)
Inductive ixfr_seqs_glue : version -> list version -> list rr -> Prop :=
| seqsg_nil : forall v, ixfr_seqs_glue v [] []
| seqsg_cons : forall v w rest D A tail,
    Forall okrec D -> Forall okrec A ->
    Permutation (erase D) (zminus (v_rest v) (v_rest w)) ->
    same_set (erase A) (zminus (v_rest w) (v_rest v)) ->
    ixfr_seqs_glue w rest tail ->
    ixfr_seqs_glue v (w :: rest) (soa_rr v :: D ++ soa_rr w :: A ++ tail).

Definition ixfr_response_glue (v0 : version) (chain : list version) (recs : list rr) : Prop :=
  exists mid, ixfr_seqs_glue v0 chain mid /\
              recs = soa_rr (last chain v0) :: mid ++ [soa_rr (last chain v0)].

Lemma section_run_glue : forall a b D A, version_wf a -> version_wf b ->
  Forall okrec D -> Forall okrec A ->
  Permutation (erase D) (zminus (v_rest a) (v_rest b)) -> same_set (erase A) (zminus (v_rest b) (v_rest a)) ->
  sec_runs a b (soa_rr a :: D ++ soa_rr b :: A).
Proof.
  intros a b D A Ha Hb OD OA PD PA u p tz fin e Hne Hz.
  pose proof (zeq_zone_of_quiet _ _ Ha Hz) as Hq.
  pose proof (zsorted_zeq _ _ Hz (zsorted_zone_of a (version_wf_wf_g a Ha))) as Hs.
  destruct (diff_apply_perm (v_rest a) (v_rest b) tz _ _ (v_ttl b) (v_soa b) (rest_wf_wf0 _ (proj2 Ha)) (rest_wf_wf0 _ (proj2 Hb)) Hs
              (zeq_rest _ _ Hz) PD PA) as (z1 & Hd & _ & Hadd).
  pose proof (quiet_dels _ _ _ Hd Hq) as Hq1.
  eexists. split.
  - apply (section_exec u p tz fin a b e D A z1 _ _ Hne (runs_dels D tz z1 OD Hq Hd) (t_add_soa z1 b (proj1 Hb) Hq1)).
    apply runs_adds; [exact OA|apply quiet_zput; [exact Hq1|discriminate]].
  - intros k. rewrite Hadd, look_zone_of. reflexivity.
Qed.

Lemma ixfr_seqs_glue_runs : forall v0 chain mid, ixfr_seqs_glue v0 chain mid ->
  version_wf v0 -> Forall version_wf chain -> chain_runs v0 chain mid.
Proof.
  intros v0 chain mid HS. induction HS as [v|v w rest D A tail OD OA PD PA HS IH]; intros Hv Hch; [constructor|].
  inversion Hch; subst. rewrite seqs_app. constructor; [apply section_run_glue; assumption|apply IH; assumption].
Qed.

Theorem ixfr_converges_with_glue : forall v0 chain z0 recs ws,
  chain_ok v0 chain -> zeq z0 (zone_of v0) -> ixfr_response_glue v0 chain recs -> chunking tIXFR recs ws ->
  exists z' n, inbound_xfr z0 tIXFR (Some (v_serial v0)) false ws = (Done z', n)
               /\ zeq z' (zone_of (last chain v0)).
Proof.
  intros v0 chain z0 recs ws Hok Hz [mid [HS ->]] Hch.
  apply (ixfr_chain_converges v0 chain z0 mid ws (chain_ok_ok_g _ _ Hok) Hz); [|exact Hch].
  apply ixfr_seqs_glue_runs; [exact HS| |]; apply Hok.
Qed.
