(* C06: RFC 4471 successor / predecessor are strictly after / before the name (or the
   documented wrap to the origin), and on the names of a zone they always return. *)
From DV Require Import Base.Prelude Model.NameM Proofs.NameOrder Proofs.NameValid Proofs.NameRel Proofs.ListFacts.
Open Scope Z_scope.

Lemma lex_app_common {A} (cmp : A -> A -> comparison) :
  (forall x, cmp x x = Eq) ->
  forall k a b, lex cmp (k ++ a) (k ++ b) = lex cmp a b.
Proof. intros R. induction k as [|x k IH]; intros a b; [reflexivity|]. cbn. rewrite R. apply IH. Qed.

Lemma cmp_bytes_app_common k a b : cmp_bytes (k ++ a) (k ++ b) = cmp_bytes a b.
Proof. rewrite !cmp_bytes_lex. apply lex_app_common. apply Z.compare_refl. Qed.

Lemma cmp_bytes_prefix_lt a t : t <> [] -> cmp_bytes a (a ++ t) = Lt.
Proof.
  intros Ht. rewrite <- (app_nil_r a) at 1. rewrite cmp_bytes_app_common.
  destruct t; [congruence|reflexivity].
Qed.

Lemma cmp_bytes_diff_lt k x y t t' : x < y -> cmp_bytes (k ++ x :: t) (k ++ y :: t') = Lt.
Proof.
  intros H. rewrite cmp_bytes_app_common. cbn. apply Z.compare_lt_iff in H. rewrite H. reflexivity.
Qed.

Lemma lower_l_app a b : lower_l (a ++ b) = lower_l a ++ lower_l b.
Proof. apply map_app. Qed.

Lemma ci_key_app (a b : name) : ci_key (a ++ b) = ci_key b ++ ci_key a.
Proof. unfold ci_key. rewrite map_app, rev_app_distr. reflexivity. Qed.

Lemma ci_key_cons l (n : name) : ci_key (l :: n) = ci_key n ++ [lower_l l].
Proof. unfold ci_key. reflexivity. Qed.

Lemma ci_equal_ne (a b : name) : ci_equal a b -> b <> [] -> a <> [].
Proof. intros C H ->. apply ci_equal_length in C. destruct b; cbn in *; congruence. Qed.

(* in front of ci-equal suffixes, the order of two names is the order of the prefixes, read
   from the suffix outwards *)
Lemma canon_cmp_app (a b o o' : name) : ci_equal o o' -> o <> [] ->
  canon_cmp (a ++ o) (b ++ o') = lex cmp_bytes (ci_key a) (ci_key b).
Proof.
  intros C Ho. unfold canon_cmp.
  rewrite !is_absolute_app_ne, (ci_equal_absolute _ _ C), !ci_key_app, (proj2 (ci_key_eq _ _) C),
    lex_app_common by (assumption || apply cmp_bytes_refl || (symmetry in C; eapply ci_equal_ne; eauto)).
  destruct (is_absolute o'); reflexivity.
Qed.

(* a strictly smaller label in front of ci-equal suffixes decides the order *)
Lemma order_label_lt (pre pre' : name) l l' (suf suf' : name) :
  ci_equal suf suf' -> suf <> [] ->
  cmp_bytes (lower_l l) (lower_l l') = Lt ->
  order (pre ++ l :: suf) (pre' ++ l' :: suf') < 0.
Proof.
  intros C Hs Hl. apply order_lt.
  change (canon_cmp (pre ++ [l] ++ suf) (pre' ++ [l'] ++ suf') = Lt).
  rewrite !app_assoc, canon_cmp_app, !ci_key_app by assumption. cbn. rewrite Hl. reflexivity.
Qed.

(* a proper ancestor sorts strictly before *)
Lemma order_ancestor_lt (pre' suf suf' : name) :
  ci_equal suf suf' -> suf <> [] -> pre' <> [] -> order suf (pre' ++ suf') < 0.
Proof.
  intros C Hs Hp. apply order_lt. change suf with ([] ++ suf) at 1. rewrite canon_cmp_app by assumption.
  destruct pre' as [|x pre'] using rev_ind; [congruence|]. rewrite ci_key_app. reflexivity.
Qed.

Lemma canon_cmp_app_cancel (a b o o' : name) :
  ci_equal o o' -> o <> [] -> is_absolute a = is_absolute b ->
  canon_cmp (a ++ o) (b ++ o') = canon_cmp a b.
Proof.
  intros C Ho Hab. rewrite canon_cmp_app by assumption. unfold canon_cmp. rewrite Hab.
  destruct (is_absolute b); reflexivity.
Qed.

Lemma is_subdomain_ext (pre m o : name) :
  m <> [] -> is_subdomain m o = true -> is_subdomain (pre ++ m) o = true.
Proof.
  intros Hm S. apply is_subdomain_iff in S as [A (p & s & -> & Hs)].
  apply is_subdomain_iff. split.
  - rewrite is_absolute_app_ne by assumption. exact A.
  - exists (pre ++ p), s. rewrite app_assoc. auto.
Qed.

(* a proper subdomain of the origin has a first label and a parent that is still in the zone *)
Lemma proper_subdomain (m o : name) :
  is_absolute o = true -> is_subdomain m o = true -> name_eqb m o = false ->
  exists l y suf, m = l :: y :: suf /\ is_subdomain (y :: suf) o = true /\
    (length o <= length (y :: suf))%nat.
Proof.
  intros Ao S E. apply is_subdomain_iff in S as [_ (p & s & -> & Hs)].
  assert (s <> []) as Hne by (eapply ci_equal_ne; [exact Hs|apply absolute_ne, Ao]).
  destruct p as [|l p]; [apply name_eqb_iff_ci in Hs; cbn [app] in E; congruence|].
  pose proof (is_subdomain_suffix p s o Hs Hne) as Sp.
  assert (length o <= length (p ++ s))%nat as L by (rewrite app_length, (ci_equal_length _ _ Hs); lia).
  destruct (p ++ s) as [|y suf] eqn:Eps; [apply app_eq_nil in Eps; tauto|].
  exists l, y, suf. cbn [app]. rewrite Eps. auto.
Qed.

Lemma lower_cases c : lower c = c + 32 /\ 65 <= c <= 90 \/ lower c = c /\ (c < 65 \/ 90 < c).
Proof. unfold lower. destruct (Z.leb_spec 65 c), (Z.leb_spec c 90); cbn [andb]; lia. Qed.

Definition bump (x : Z) : Z := if x =? 64 then 91 else if x =? 90 then 123 else x + 1.

Lemma bump_lt x : lower x < lower (bump x).
Proof.
  unfold bump. destruct (Z.eqb_spec x 64) as [->|]; [reflexivity|].
  destruct (Z.eqb_spec x 90) as [->|]; [reflexivity|].
  destruct (lower_cases x) as [[-> ?]|[-> ?]], (lower_cases (x + 1)) as [[-> ?]|[-> ?]]; lia.
Qed.

Definition unbump (x : Z) : Z := if x =? 91 then 64 else x - 1.

Lemma unbump_lt x : lower (unbump x) < lower x.
Proof.
  unfold unbump. destruct (Z.eqb_spec x 91) as [->|]; [reflexivity|].
  destruct (lower_cases x) as [[-> ?]|[-> ?]], (lower_cases (x - 1)) as [[-> ?]|[-> ?]]; lia.
Qed.

Lemma inc_rev_spec : forall r r',
  inc_rev r = Some r' ->
  exists k x rest, r = repeat 255 k ++ x :: rest /\ r' = bump x :: rest.
Proof.
  induction r as [|x r IH]; intros r' H; [discriminate|].
  cbn [inc_rev] in H. destruct (x =? 255) eqn:E.
  - apply IH in H. destruct H as (k & y & rest & -> & ->).
    apply Z.eqb_eq in E. subst. exists (S k), y, rest. split; reflexivity.
  - inversion H; subst. exists 0%nat, x, r. split; reflexivity.
Qed.

(* the incremented label sorts after the label and is no longer *)
Lemma inc_rev_label (l : label) r' :
  inc_rev (rev l) = Some r' ->
  cmp_bytes (lower_l l) (lower_l (rev r')) = Lt /\ rev r' <> [] /\ zlen (rev r') <= zlen l.
Proof.
  intros H. apply inc_rev_spec in H. destruct H as (k & x & rest & Hl & ->).
  apply (f_equal (@rev _)) in Hl. rewrite rev_involutive in Hl.
  rewrite rev_app_distr in Hl. cbn [rev] in Hl. rewrite rev_repeat, <- app_assoc in Hl. cbn [app] in Hl.
  subst l. cbn [rev]. split; [|split].
  - rewrite !lower_l_app. cbn [lower_l map]. apply cmp_bytes_diff_lt. apply bump_lt.
  - destruct (rev rest); discriminate.
  - unfold zlen. rewrite !app_length. cbn [length]. lia.
Qed.

Lemma zlist_eqb_eq : forall a b, zlist_eqb a b = true <-> a = b.
Proof. exact ListFacts.zlist_eqb_eq. Qed.

(* s is an answer of successor for n in the zone of o: a later name of the zone, or the wrap *)
Definition succ_ok (n o s : name) : Prop :=
  Valid s /\ ((order n s < 0 /\ is_subdomain s o = true) \/ s = o).

(* `pre` stands for the labels already chopped off *)
Lemma succ_loop_spec : forall fuel (m o pre : name),
  Valid m -> Valid o -> is_absolute o = true -> is_subdomain m o = true ->
  (length m - length o < fuel)%nat ->
  exists s, succ_loop fuel m o = Ok s /\ succ_ok (pre ++ m) o s.
Proof.
  induction fuel as [|f IH]; intros m o pre Vm Vo Ao S Hf; [lia|].
  cbn [succ_loop]. destruct (name_eqb m o) eqn:E; [exists o; split; [reflexivity|split; auto]|].
  destruct (proper_subdomain _ _ Ao S E) as (l & y & suf & -> & Ssuf & Lo).
  pose proof (proj1 (Valid_cons _ _ _) Vm) as (Hl & Hl63 & Hw & Vsuf).
  (* a greater label in place of the first one is an answer *)
  assert (forall l', cmp_bytes (lower_l l) (lower_l l') = Lt -> Valid (l' :: y :: suf) ->
            exists s, Ok (l' :: y :: suf) = Ok s /\ succ_ok (pre ++ l :: y :: suf) o s) as Done.
  { intros l' Hlt V'. eexists. split; [reflexivity|]. split; [exact V'|]. left. split.
    - apply (order_label_lt pre []); [reflexivity|discriminate|exact Hlt].
    - apply (is_subdomain_ext [l']); [discriminate|exact Ssuf]. }
  (* when the label cannot be extended: increment its last octet below 255, or chop it *)
  assert (exists s,
            match inc_rev (rev l) with
            | Some r => mk_name (rev r :: y :: suf)
            | None => do p0 <- parent (l :: y :: suf); succ_loop f p0 o
            end = Ok s /\ succ_ok (pre ++ l :: y :: suf) o s) as Rest.
  { destruct (inc_rev (rev l)) as [r|] eqn:I.
    - destruct (inc_rev_label _ _ I) as (Hlt & Hne & Hlen).
      assert (Valid (rev r :: y :: suf)) as Vr by (apply Valid_cons_intro; auto; lia).
      rewrite (mk_name_valid _ Vr). apply Done; assumption.
    - rewrite parent_cons by exact Vsuf. cbn [bind].
      destruct (IH (y :: suf) o (pre ++ [l]) Vsuf Vo Ao Ssuf) as (s & R & Hs); [cbn [length] in *; lia|].
      rewrite <- app_assoc in Hs. eauto. }
  destruct (zlen l <? 63) eqn:E63; [|exact Rest].
  assert (zlen (l ++ [0]) = zlen l + 1) as Z1 by apply zlen_app.
  assert (l ++ [0] <> []) as Hl0 by (destruct l; discriminate).
  rewrite mk_name_cons by (auto; lia).
  destruct (_ >? 255) eqn:W; [exact Rest|]. apply Done.
  - rewrite lower_l_app. apply cmp_bytes_prefix_lt. discriminate.
  - apply Valid_cons_intro; auto; lia.
Qed.

Theorem absolute_successor_spec n o p :
  Valid n -> Valid o -> is_absolute o = true -> is_subdomain n o = true ->
  exists s, absolute_successor n o p = Ok s /\ Valid s /\
    ((order n s < 0 /\ is_subdomain s o = true) \/ s = o).
Proof.
  intros Vn Vo Ao S. unfold absolute_successor.
  assert (exists s, succ_loop (Datatypes.S (length n)) n o = Ok s /\ succ_ok n o s) as Loop
    by (apply (succ_loop_spec _ n o []); auto; lia).
  destruct p; [|exact Loop].
  destruct n as [|y n]; [apply is_subdomain_iff in S as [A _]; rewrite Ao in A; discriminate|].
  unfold concatenate. cbn [is_absolute andb app].
  rewrite mk_name_cons by (auto; (discriminate || (cbn; lia))).
  destruct (_ >? 255) eqn:W; [exact Loop|].
  eexists. split; [reflexivity|]. split; [|left; split].
  - apply Valid_cons_intro; auto; (discriminate || (cbn; lia) || lia).
  - apply (order_ancestor_lt [[0]]); [reflexivity|discriminate|discriminate].
  - apply (is_subdomain_ext [[0]]); [discriminate|exact S].
Qed.

Lemma wire_length_rev (l : name) : wire_length (rev l) = wire_length l.
Proof.
  induction l as [|x l IH]; [reflexivity|]. cbn [rev]. rewrite wire_length_app, IH, !wire_length_cons.
  change (wire_length []) with 0. lia.
Qed.

Lemma zlen_repeat {A} (x : A) k : zlen (repeat x k) = Z.of_nat k.
Proof. unfold zlen. rewrite repeat_length. reflexivity. Qed.

Lemma wire_length_repeat63 k : wire_length (repeat (repeat 255 63) k) = 64 * Z.of_nat k.
Proof.
  induction k as [|k IH]; [reflexivity|].
  change (repeat (repeat 255 63) (S k)) with (repeat 255 63 :: repeat (repeat 255 63) k).
  rewrite wire_length_cons, IH. rewrite zlen_repeat. lia.
Qed.

(* the `while needed > 64` loop of _pad_to_max_name: full labels while more than 64 octets are
   needed; the fuel is enough when needed <= 64 * fuel + 64 *)
Lemma pad_labels_spec : forall fuel needed acc,
  needed <= 64 * Z.of_nat fuel + 64 ->
  exists k, pad_labels fuel needed acc = (acc ++ repeat (repeat 255 63) k, needed - 64 * Z.of_nat k) /\
            needed - 64 * Z.of_nat k <= 64 /\ (0 <= needed -> 0 <= needed - 64 * Z.of_nat k).
Proof.
  assert (forall acc needed, (acc, needed) = (acc ++ repeat (repeat 255 63) 0, needed - 64 * Z.of_nat 0)) as Stop
    by (intros; cbn [repeat]; rewrite app_nil_r, Z.sub_0_r; reflexivity).
  induction fuel as [|f IH]; intros needed acc H; cbn [pad_labels].
  - exists 0%nat. split; [apply Stop|lia].
  - destruct (Z.gtb_spec needed 64); [|exists 0%nat; split; [apply Stop|lia]].
    destruct (IH (needed - 64) (acc ++ [repeat 255 63])) as (k & -> & H1 & H2); [lia|].
    exists (S k). rewrite <- app_assoc. split; [|lia].
    change ([repeat 255 63] ++ repeat (repeat 255 63) k) with (repeat (repeat 255 63) (S k)).
    f_equal. lia.
Qed.

Lemma pad_fuel_sufficient (n : name) acc :
  0 <= wire_length n -> snd (pad_labels 8 (255 - wire_length n) acc) <= 64.
Proof.
  intros H. destruct (pad_labels_spec 8 (255 - wire_length n) acc) as (k & -> & L & _); [cbn; lia|exact L].
Qed.

Lemma Valid_pads_app (pads n : name) :
  Forall (fun l => l <> [] /\ zlen l <= 63) pads -> Valid n ->
  wire_length pads + wire_length n <= 255 -> Valid (pads ++ n).
Proof.
  intros HP (V1 & V2 & V3) L. repeat split.
  - apply Forall_app. split; [|exact V1]. eapply Forall_impl; [|exact HP]. intros l [_ H]. exact H.
  - rewrite wire_length_app. exact L.
  - assert (Forall (fun l => l <> []) pads) as NE by (eapply Forall_impl; [|exact HP]; intros l [H _]; exact H).
    destruct n as [|x n]; [rewrite app_nil_r; apply Forall_removelast, NE|].
    rewrite removelast_app_cons. apply Forall_app. split; [exact NE|exact V3].
Qed.

(* _pad_to_max_name prepends labels of 0xff octets and always stays within the limits *)
Lemma pad_to_max_name_ok n : Valid n ->
  exists pads, pad_to_max_name n = Ok (pads ++ n) /\ Valid (pads ++ n).
Proof.
  intros V. unfold pad_to_max_name.
  assert (0 <= 255 - wire_length n) as N0 by (destruct V as (_ & L & _); lia).
  pose proof (wire_length_nonneg n) as Wn.
  destruct (pad_labels_spec 8 (255 - wire_length n) []) as (k & -> & H1 & H2); [cbn; lia|].
  specialize (H2 N0). cbn [app].
  set (nd := 255 - wire_length n - 64 * Z.of_nat k) in *.
  assert (forall j, Forall (fun l => l <> [] /\ zlen l <= 63) (repeat (repeat 255 63) j)) as Full.
  { intros j. apply Forall_forall. intros l Hl. apply repeat_spec in Hl. subst l. split; [discriminate|cbn; lia]. }
  eexists. assert (forall m, Valid m -> mk_name m = Ok m /\ Valid m) as K by (split; auto using mk_name_valid).
  apply K, Valid_pads_app; [|exact V|]; destruct (nd >=? 2) eqn:E.
  - apply Forall_rev, Forall_app. split; [apply Full|].
    constructor; [|constructor]. rewrite zlen_repeat. split; [destruct (Z.to_nat (nd - 1)) eqn:Z; [lia|discriminate]|lia].
  - apply Forall_rev, Full.
  - rewrite wire_length_rev, wire_length_app, wire_length_repeat63, wire_length_cons, zlen_repeat.
    change (wire_length []) with 0. lia.
  - rewrite wire_length_rev, wire_length_repeat63. lia.
Qed.

(* _pad_to_max_label appends 0xff octets, within the limits when the label was *)
Lemma pad_to_max_label_spec l suf :
  exists k, pad_to_max_label l suf = l ++ repeat 255 k /\
    (zlen l <= 63 -> zlen l + 1 + wire_length suf <= 255 ->
     zlen l + Z.of_nat k <= 63 /\ zlen l + Z.of_nat k + 1 + wire_length suf <= 255).
Proof.
  unfold pad_to_max_label. destruct (_ <=? 0) eqn:R.
  - exists 0%nat. rewrite app_nil_r. split; [reflexivity|lia].
  - eexists. split; [reflexivity|lia].
Qed.

(* the predecessor of the origin is the wrap: the origin padded to the longest name; that of
   any other name of the zone is an earlier name of the zone *)
Lemma absolute_predecessor_ok n o p :
  Valid n -> is_absolute o = true -> is_subdomain n o = true ->
  exists s, absolute_predecessor n o p = Ok s /\ Valid s /\
    if name_eqb n o then exists pads, s = pads ++ n
    else order s n < 0 /\ is_subdomain s o = true.
Proof.
  intros Vn Ao S. unfold absolute_predecessor. destruct (name_eqb n o) eqn:E.
  { destruct (pad_to_max_name_ok n Vn) as (pads & -> & V). eauto. }
  destruct (proper_subdomain _ _ Ao S E) as (l & y & suf & -> & Ssuf & _).
  pose proof (proj1 (Valid_cons _ _ _) Vn) as (Hl & Hl63 & Hw & Vsuf).
  (* a smaller label in place of the first one, with or without padding labels in front *)
  assert (forall nf, cmp_bytes (lower_l nf) (lower_l l) = Lt -> Valid (nf :: y :: suf) ->
            exists s, (do nm <- mk_name (nf :: y :: suf); if p then pad_to_max_name nm else Ok nm) = Ok s /\
              Valid s /\ order s (l :: y :: suf) < 0 /\ is_subdomain s o = true) as Fin.
  { intros nf Hlt V. rewrite (mk_name_valid _ V). cbn [bind].
    assert (forall pads, order (pads ++ nf :: y :: suf) (l :: y :: suf) < 0 /\
                         is_subdomain (pads ++ nf :: y :: suf) o = true) as Ord.
    { intros pads. split; [apply (order_label_lt pads []); [reflexivity|discriminate|exact Hlt]|].
      apply (is_subdomain_ext (pads ++ [nf])) in Ssuf; [|discriminate].
      rewrite <- app_assoc in Ssuf. exact Ssuf. }
    destruct p.
    - destruct (pad_to_max_name_ok _ V) as (pads & -> & V'). eauto.
    - exists (nf :: y :: suf). split; [reflexivity|]. split; [exact V|apply (Ord [])]. }
  destruct (zlist_eqb l [0]) eqn:Z0.
  { rewrite parent_cons by exact Vsuf. exists (y :: suf). split; [reflexivity|]. split; [exact Vsuf|].
    split; [|exact Ssuf]. apply (order_ancestor_lt [l]); [reflexivity|discriminate|discriminate]. }
  destruct (rev l) as [|least rinit] eqn:R; [apply (f_equal (@rev _)) in R; rewrite rev_involutive in R; contradiction|].
  apply (f_equal (@rev _)) in R. rewrite rev_involutive in R. cbn [rev] in R. subst l.
  rewrite zlen_app in *. change (zlen [least]) with 1 in *.
  fold (unbump least). destruct (least =? 0) eqn:L0; apply Fin.
  - rewrite lower_l_app. apply cmp_bytes_prefix_lt. discriminate.
  - apply Valid_cons_intro; auto; try lia.
    intros Hn. rewrite Hn in Z0. apply Z.eqb_eq in L0. subst least. discriminate.
  - destruct (pad_to_max_label_spec (rev (unbump least :: rinit)) (y :: suf)) as (k & -> & _).
    cbn [rev]. rewrite <- app_assoc, !lower_l_app. apply cmp_bytes_diff_lt, unbump_lt.
  - destruct (pad_to_max_label_spec (rev (unbump least :: rinit)) (y :: suf)) as (k & -> & Hk).
    cbn [rev] in *. rewrite zlen_app in Hk. change (zlen [unbump least]) with 1 in Hk.
    apply Valid_cons_intro; auto; rewrite ?zlen_app, ?zlen_repeat; change (zlen [unbump least]) with 1; try lia.
    destruct (rev rinit); discriminate.
Qed.

Theorem absolute_predecessor_total n o p :
  Valid n -> Valid o -> is_absolute o = true -> is_subdomain n o = true ->
  exists s, absolute_predecessor n o p = Ok s.
Proof. intros Vn Vo Ao S. destruct (absolute_predecessor_ok n o p Vn Ao S) as (s & H & _). eauto. Qed.

(* _handle_relativity_and_call: an absolute name must be in the zone; a relative one is made
   absolute, passed on, and the answer is made relative again *)
Lemma handle_relativity_eq f n o p : is_absolute o = true ->
  handle_relativity f n o p =
    if is_absolute n then if is_subdomain n o then f n o p else Lib eNeedSubdomain
    else do n1 <- mk_name (n ++ o); do r <- f n1 o p; relativize r o.
Proof.
  intros Ao. unfold handle_relativity. rewrite Ao.
  destruct (is_absolute n) eqn:An; cbn [negb bind]; [|rewrite derelativize_relative by exact An; reflexivity].
  destruct (is_subdomain n o); cbn [negb bind]; [destruct (f n o p)|]; reflexivity.
Qed.

Lemma handle_relativity_origin f n o p s : handle_relativity f n o p = Ok s -> is_absolute o = true.
Proof. unfold handle_relativity. destruct (is_absolute o); [reflexivity|discriminate]. Qed.

Theorem successor_after_abs n o p s :
  Valid n -> Valid o -> is_absolute n = true ->
  successor n o p = Ok s ->
  Valid s /\ ((order n s < 0 /\ is_subdomain s o = true) \/ s = o).
Proof.
  intros Vn Vo An H. pose proof (handle_relativity_origin _ _ _ _ _ H) as Ao. revert H.
  unfold successor. rewrite handle_relativity_eq, An by exact Ao.
  destruct (is_subdomain n o) eqn:S; [|discriminate].
  destruct (absolute_successor_spec n o p Vn Vo Ao S) as (s' & -> & H). intros [= <-]. exact H.
Qed.

Theorem successor_after_rel n o p s :
  Valid n -> Valid o -> is_absolute n = false ->
  successor n o p = Ok s ->
  Valid s /\ is_absolute s = false /\ (order n s < 0 \/ s = []).
Proof.
  intros Vn Vo An H. pose proof (handle_relativity_origin _ _ _ _ _ H) as Ao. revert H.
  pose proof (absolute_ne _ Ao) as Ho.
  unfold successor. rewrite handle_relativity_eq, An by exact Ao.
  destruct (mk_name (n ++ o)) as [n1| |] eqn:M; try discriminate. apply mk_name_ok in M as [-> Vno]. cbn [bind].
  destruct (absolute_successor_spec (n ++ o) o p Vno Vo Ao) as (r & -> & Vr & H);
    [apply is_subdomain_suffix; [reflexivity|exact Ho]|].
  cbn [bind]. intros R.
  assert (is_subdomain r o = true) as Sr
    by (destruct H as [[_ Sr]| ->]; [exact Sr|apply (is_subdomain_suffix [] o o); [reflexivity|exact Ho]]).
  destruct (relativize_sub r o Vr Sr) as (s' & o' & R' & -> & Co & Vs & As).
  rewrite R' in R. injection R as ->. split; [exact Vs|]. split; [exact As|].
  destruct H as [[Hlt _]|Hr].
  - left. apply order_lt. apply order_lt in Hlt.
    rewrite <- (canon_cmp_app_cancel n s o o'); [exact Hlt|symmetry; exact Co|exact Ho|congruence].
  - right. apply (f_equal (@length _)) in Hr. rewrite app_length, (ci_equal_length _ _ Co) in Hr.
    destruct s; [reflexivity|cbn [length] in Hr; lia].
Qed.

Theorem predecessor_before_abs n o p s :
  Valid n -> Valid o -> is_absolute n = true ->
  name_eqb n o = false ->
  predecessor n o p = Ok s ->
  Valid s /\ order s n < 0 /\ is_subdomain s o = true.
Proof.
  intros Vn Vo An E H. pose proof (handle_relativity_origin _ _ _ _ _ H) as Ao. revert H.
  unfold predecessor. rewrite handle_relativity_eq, An by exact Ao.
  destruct (is_subdomain n o) eqn:S; [|discriminate].
  destruct (absolute_predecessor_ok n o p Vn Ao S) as (s' & -> & H). rewrite E in H.
  intros [= <-]. exact H.
Qed.

Theorem predecessor_before_rel n o p s :
  Valid n -> Valid o -> is_absolute n = false -> n <> [] ->
  predecessor n o p = Ok s ->
  Valid s /\ is_absolute s = false /\ order s n < 0.
Proof.
  intros Vn Vo An Hn H. pose proof (handle_relativity_origin _ _ _ _ _ H) as Ao. revert H.
  pose proof (absolute_ne _ Ao) as Ho.
  unfold predecessor. rewrite handle_relativity_eq, An by exact Ao.
  destruct (mk_name (n ++ o)) as [n1| |] eqn:M; try discriminate. apply mk_name_ok in M as [-> Vno]. cbn [bind].
  destruct (absolute_predecessor_ok (n ++ o) o p Vno Ao) as (r & -> & Vr & H);
    [apply is_subdomain_suffix; [reflexivity|exact Ho]|].
  rewrite name_eqb_length in H by (rewrite app_length; destruct n; [congruence|cbn [length]; lia]).
  destruct H as [Hlt Sr]. cbn [bind]. intros R.
  destruct (relativize_sub r o Vr Sr) as (s' & o' & R' & -> & Co & Vs & As).
  rewrite R' in R. injection R as ->. split; [exact Vs|]. split; [exact As|].
  apply order_lt. apply order_lt in Hlt.
  rewrite <- (canon_cmp_app_cancel s n o' o); [exact Hlt|exact Co|eapply ci_equal_ne; eauto|congruence].
Qed.

(* the predecessor of the origin itself: the documented wrap to the longest name below the
   origin (the origin again when nothing can be prepended); never before the origin *)
Theorem predecessor_of_origin o p s :
  Valid o -> is_absolute o = true ->
  predecessor o o p = Ok s ->
  Valid s /\ is_subdomain s o = true /\ order o s <= 0 /\ exists pads, s = pads ++ o.
Proof.
  intros Vo Ao. pose proof (absolute_ne _ Ao) as Ho.
  assert (is_subdomain o o = true) as Soo by (apply (is_subdomain_suffix [] o o); [reflexivity|exact Ho]).
  unfold predecessor. rewrite handle_relativity_eq, Ao, Soo by exact Ao.
  destruct (absolute_predecessor_ok o o p Vo Ao Soo) as (s' & -> & Vs & H).
  rewrite name_eqb_refl in H. destruct H as [pads ->]. intros [= <-].
  split; [exact Vs|]. split; [apply is_subdomain_suffix; [reflexivity|exact Ho]|]. split; [|eauto].
  destruct pads as [|x pads].
  - cbn [app]. rewrite order_refl. lia.
  - pose proof (order_ancestor_lt (x :: pads) o o eq_refl Ho). intuition (discriminate || lia).
Qed.
