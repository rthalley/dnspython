(* C19 - refinement of the store-level model by the value-level model: a store subtree that is
   tree-shaped (no node reachable twice) represents a value-level tree; every store operation
   maps such a representation of t to a representation of (value operation t). *)
From DV Require Import Base.Prelude Model.BTreeM Model.BTreeStoreM Proofs.BTreeBase Proofs.BTreeWf Proofs.BTreeInsert
  Proofs.BTreeDelete Proofs.BTreeStore.
From Coq Require Import Permutation.

Lemma NoDup_app_iff {A} (a b : list A) : NoDup (a ++ b) <-> NoDup a /\ NoDup b /\ (forall x, In x a -> ~ In x b).
Proof.
  induction a as [|x a IH]; cbn.
  - split; [intros H; repeat split; auto; constructor|tauto].
  - rewrite !NoDup_cons_iff, IH, in_app_iff. split.
    + intros (Hn & Ha & Hb & Hd). repeat split; auto. intros y [<-|Hy]; auto.
    + intros ((Hn & Ha) & Hb & Hd). repeat split; auto. intros [Hi|Hi]; [auto|]. apply (Hd x); auto.
Qed.

Lemma NoDup_app_l {A} (a b : list A) : NoDup (a ++ b) -> NoDup a.
Proof. intros H. now apply NoDup_app_iff in H. Qed.
Lemma NoDup_app_r {A} (a b : list A) : NoDup (a ++ b) -> NoDup b.
Proof. intros H. now apply NoDup_app_iff in H. Qed.

Lemma concat_mid {A} (a : list (list A)) x b : concat (a ++ x :: b) = concat a ++ x ++ concat b.
Proof. rewrite concat_app. reflexivity. Qed.

(* part c of a duplicate-free list replaced by ids of c or ids not in the rest *)
Lemma nodup_replace (a c c' b : list nat) :
  NoDup (a ++ c ++ b) -> NoDup c' -> (forall x, In x c' -> In x c \/ ~ In x (a ++ b)) -> NoDup (a ++ c' ++ b).
Proof.
  intros Hnd Hc' Hnew. setoid_rewrite in_app_iff in Hnew.
  apply NoDup_app_iff in Hnd as (Ha & Hcb & Hac). apply NoDup_app_iff in Hcb as (_ & Hb & Hcb).
  setoid_rewrite in_app_iff in Hac.
  apply NoDup_app_iff. split; [assumption|]. split.
  - apply NoDup_app_iff. split; [assumption|]. split; [assumption|].
    intros x Hx Hxb. destruct (Hnew x Hx) as [Hq|Hq]; [exact (Hcb x Hq Hxb)|tauto].
  - intros x Hx Hx'. apply in_app_iff in Hx' as [Hx'|Hx']; [|apply (Hac x Hx); now right].
    destruct (Hnew x Hx') as [Hq|Hq]; [apply (Hac x Hx); now left|tauto].
Qed.

Lemma nth_error_app_mid_S {A} (a : list A) x y b : nth_error (a ++ x :: y :: b) (S (length a)) = Some y.
Proof. rewrite nth_error_app2 by lia. now replace (S (length a) - length a)%nat with 1%nat by lia. Qed.

Lemma nth_error_mid_ne {A} (a b : list A) x y j : j <> length a -> nth_error (a ++ x :: b) j = nth_error (a ++ y :: b) j.
Proof.
  intros Hj. destruct (Nat.lt_ge_cases j (length a)); [now rewrite !nth_error_app1|].
  rewrite !nth_error_app2 by assumption. destruct (j - length a)%nat eqn:E; [lia|reflexivity].
Qed.

(* rep s id tr fp : the nodes fp (all distinct) of store s form, below id, exactly the tree tr *)
Inductive rep (s : store) : nat -> tree -> list nat -> Prop :=
| rep_node id n kids fps :
    nth_error s id = Some n ->
    (s_leaf n = true -> s_kids n = []) ->          (* leaves have no children *)
    reps s (s_kids n) kids fps ->
    NoDup (id :: concat fps) ->
    rep s id (Node (s_leaf n) (s_elts n) kids) (id :: concat fps)
with reps (s : store) : list nat -> list tree -> list (list nat) -> Prop :=
| reps_nil : reps s [] [] []
| reps_cons k ks tr trs fp fps :
    rep s k tr fp -> reps s ks trs fps -> reps s (k :: ks) (tr :: trs) (fp :: fps).

Scheme rep_mind := Induction for rep Sort Prop
  with reps_mind := Induction for reps Sort Prop.

Lemma rep_inv s id lf es kids fp :
  rep s id (Node lf es kids) fp ->
  exists n fps, nth_error s id = Some n /\ s_leaf n = lf /\ s_elts n = es /\
                reps s (s_kids n) kids fps /\ fp = id :: concat fps /\ NoDup fp /\
                (lf = true -> s_kids n = [] /\ kids = []).
Proof.
  intros H. inversion H as [? n ? fps Hn Hlk Hr Hnd]; subst. exists n, fps.
  split; [assumption|]. split; [reflexivity|]. split; [reflexivity|]. split; [assumption|].
  split; [reflexivity|]. split; [assumption|]. intros Hlf. split; [auto|].
  rewrite (Hlk Hlf) in Hr. inversion Hr. reflexivity.
Qed.

Lemma rep_build s id n lf es kids fps :
  nth_error s id = Some n -> s_leaf n = lf -> s_elts n = es -> (lf = true -> s_kids n = []) ->
  reps s (s_kids n) kids fps -> NoDup (id :: concat fps) -> rep s id (Node lf es kids) (id :: concat fps).
Proof. intros Hn <- <-. now constructor. Qed.

Lemma reps_length s ids trs fps : reps s ids trs fps -> length ids = length trs /\ length fps = length trs.
Proof. induction 1; cbn; [auto|]. destruct IHreps. lia. Qed.

Lemma reps_app s i1 i2 t1 t2 f1 f2 :
  reps s i1 t1 f1 -> reps s i2 t2 f2 -> reps s (i1 ++ i2) (t1 ++ t2) (f1 ++ f2).
Proof. induction 1; cbn; [auto|]. intros. constructor; auto. Qed.

Lemma reps_split s ids t1 t2 fps :
  reps s ids (t1 ++ t2) fps ->
  exists i1 i2 f1 f2, ids = i1 ++ i2 /\ fps = f1 ++ f2 /\ reps s i1 t1 f1 /\ reps s i2 t2 f2 /\
                      length i1 = length t1 /\ length f1 = length t1.
Proof.
  revert ids fps. induction t1 as [|a t1 IH]; intros ids fps H; cbn in *.
  - exists [], ids, [], fps. repeat split; auto. constructor.
  - inversion H; subst. destruct (IH _ _ H5) as (i1 & i2 & f1 & f2 & -> & -> & H1 & H2 & L1 & L2).
    exists (k :: i1), i2, (fp :: f1), f2. repeat split; cbn; auto; try lia. constructor; auto.
Qed.

Lemma reps_mid s ids ka c kb fps :
  reps s ids (ka ++ c :: kb) fps ->
  exists ia cid ib fa fc fb, ids = ia ++ cid :: ib /\ fps = fa ++ fc :: fb /\
    reps s ia ka fa /\ rep s cid c fc /\ reps s ib kb fb /\ length ia = length ka /\ length fa = length ka.
Proof.
  intros H. destruct (reps_split _ _ _ _ _ H) as (i1 & i2 & f1 & f2 & -> & -> & H1 & H2 & L1 & L2).
  inversion H2 as [|k ks tr trs fp fps' Hk Hks]; subst. exists i1, k, ks, f1, fp, fps'. repeat split; auto.
Qed.

Lemma reps_cons_inv s ids tr trs fps :
  reps s ids (tr :: trs) fps -> exists k ks fp fps', ids = k :: ks /\ fps = fp :: fps' /\ rep s k tr fp /\ reps s ks trs fps'.
Proof. intros H. inversion H; subst. eauto 10. Qed.

Lemma reps_nil_inv s ids fps : reps s ids [] fps -> ids = [] /\ fps = [].
Proof. intros H. inversion H; auto. Qed.

Lemma reps_snoc_inv s ids ka ck fps :
  reps s ids (ka ++ [ck]) fps ->
  exists ia cid fa fc, ids = ia ++ [cid] /\ fps = fa ++ [fc] /\ reps s ia ka fa /\ rep s cid ck fc /\ length ia = length ka.
Proof.
  intros H. apply reps_mid in H as (ia & cid & ib & fa & fc & fb & -> & -> & Ha & Hc & Hb & L & _).
  apply reps_nil_inv in Hb as (-> & ->). eauto 10.
Qed.

Lemma rep_root s id lf es kids fp : rep s id (Node lf es kids) fp ->
  exists n, nth_error s id = Some n /\ s_leaf n = lf /\ s_elts n = es.
Proof. intros H. apply rep_inv in H as (n & fps & ? & ? & ? & _). eauto. Qed.

Lemma rep_valid s : forall id tr fp, rep s id tr fp -> forall x, In x fp -> (x < length s)%nat.
Proof.
  apply (rep_mind s (fun id tr fp _ => forall x, In x fp -> (x < length s)%nat)
                    (fun ids trs fps _ => forall x, In x (concat fps) -> (x < length s)%nat)).
  - intros id n kids fps Hn Hlk Hr IH Hnd x [<-|Hx]; [apply nth_error_Some; congruence|auto].
  - intros x [].
  - intros k ks tr trs fp fps Hr IH Hrs IHs x Hx. cbn in Hx. apply in_app_iff in Hx as [Hx|Hx]; auto.
Qed.

Lemma rep_root_in s id tr fp : rep s id tr fp -> In id fp.
Proof. intros H; inversion H; subst. now left. Qed.

Lemma rep_nodup s id tr fp : rep s id tr fp -> NoDup fp.
Proof. intros H; inversion H; subst. assumption. Qed.

Lemma rep_frame s s' : forall id tr fp, rep s id tr fp ->
  (forall x, In x fp -> nth_error s' x = nth_error s x) -> rep s' id tr fp.
Proof.
  apply (rep_mind s (fun id tr fp _ => (forall x, In x fp -> nth_error s' x = nth_error s x) -> rep s' id tr fp)
                    (fun ids trs fps _ => (forall x, In x (concat fps) -> nth_error s' x = nth_error s x) -> reps s' ids trs fps)).
  - intros id n kids fps Hn Hlk Hr IH Hnd Hag. constructor; [rewrite Hag; [assumption|now left]|assumption| |assumption].
    apply IH. intros x Hx. apply Hag. now right.
  - constructor.
  - intros k ks tr trs fp fps Hr IH Hrs IHs Hag. constructor.
    + apply IH. intros x Hx. apply Hag. cbn. apply in_app_iff. now left.
    + apply IHs. intros x Hx. apply Hag. cbn. apply in_app_iff. now right.
Qed.

Lemma reps_frame s s' ids trs fps : reps s ids trs fps ->
  (forall x, In x (concat fps) -> nth_error s' x = nth_error s x) -> reps s' ids trs fps.
Proof.
  induction 1; intros Hag; constructor.
  - eapply rep_frame; eauto. intros x Hx. apply Hag. cbn. apply in_app_iff. now left.
  - apply IHreps. intros x Hx. apply Hag. cbn. apply in_app_iff. now right.
Qed.

Lemma rep_abs_fuel s : forall id tr fp, rep s id tr fp -> forall f, (length fp <= f)%nat -> abs f s id = Some tr.
Proof.
  apply (rep_mind s (fun id tr fp _ => forall f, (length fp <= f)%nat -> abs f s id = Some tr)
           (fun ids trs fps _ => forall f, (length (concat fps) <= f)%nat -> abs_kids f s ids = Some trs)).
  - intros id n kids fps Hn Hlk Hr IH Hnd f Hf. destruct f as [|f]; [cbn in Hf; lia|].
    rewrite abs_S, Hn, (IH f ltac:(cbn in Hf; lia)). reflexivity.
  - reflexivity.
  - intros k ks tr trs fp fps Hr IH Hrs IHs f Hf. cbn [concat] in Hf. rewrite app_length in Hf.
    cbn [abs_kids]. rewrite (IH f ltac:(lia)), (IHs f ltac:(lia)). reflexivity.
Qed.

Lemma rep_abs s id tr fp : rep s id tr fp -> exists fuel, forall f, (fuel <= f)%nat -> abs f s id = Some tr.
Proof. intros H. exists (length fp). now apply rep_abs_fuel. Qed.

Definition ownc (c : nat) (s : store) (id : nat) : Prop := exists n, nth_error s id = Some n /\ s_cr n = c.

(* s' differs from s only inside fp and by new nodes; creator tags are permanent *)
Definition fr (s s' : store) (fp : list nat) : Prop :=
  (length s <= length s')%nat /\
  (forall x, (x < length s)%nat -> ~ In x fp -> nth_error s' x = nth_error s x) /\
  (forall x n, nth_error s x = Some n -> exists n', nth_error s' x = Some n' /\ s_cr n' = s_cr n).

(* every id of fp' is in fp or newer than s *)
Definition sub (s : store) (fp fp' : list nat) : Prop := forall x, In x fp' -> In x fp \/ (length s <= x)%nat.

Lemma fr_refl s fp : fr s s fp.
Proof. split; [lia|]. split; eauto. Qed.

Lemma sub_refl s fp : sub s fp fp.
Proof. intros x; auto. Qed.

Lemma fr_trans s s1 s2 fp fp1 : fr s s1 fp -> sub s fp fp1 -> fr s1 s2 fp1 -> fr s s2 fp.
Proof.
  intros (L1 & F1 & C1) Hsub (L2 & F2 & C2). split; [lia|]. split.
  - intros x Hx Hn. rewrite F2; [apply F1; assumption|lia|]. intros Hin. destruct (Hsub x Hin); [contradiction|lia].
  - intros x n Hn. destruct (C1 x n Hn) as (n1 & Hn1 & Hc1). destruct (C2 x n1 Hn1) as (n2 & Hn2 & Hc2).
    exists n2. split; [assumption|congruence].
Qed.

Lemma sub_trans s s1 fp fp1 fp2 : (length s <= length s1)%nat -> sub s fp fp1 -> sub s1 fp1 fp2 -> sub s fp fp2.
Proof. intros L H1 H2 x Hx. destruct (H2 x Hx) as [H|H]; [apply H1; assumption|right; lia]. Qed.

Lemma fr_weaken s s' fp fp' : fr s s' fp -> incl fp fp' -> fr s s' fp'.
Proof. intros (L & F & C) Hi. split; [assumption|]. split; [|assumption]. intros x Hx Hn. apply F; auto. Qed.

Lemma ownc_fr c s s' fp id : fr s s' fp -> ownc c s id -> ownc c s' id.
Proof. intros (_ & _ & C) (n & Hn & Hc). destruct (C id n Hn) as (n' & Hn' & Hc'). exists n'. split; [assumption|congruence]. Qed.

Lemma rep_fr s s' id tr fp wfp :
  rep s id tr fp -> fr s s' wfp -> (forall x, In x fp -> ~ In x wfp) -> rep s' id tr fp.
Proof.
  intros Hr (L & F & C) Hd. eapply rep_frame; [exact Hr|]. intros x Hx. apply F; [eapply rep_valid; eauto|auto].
Qed.

Lemma reps_fr s s' ids trs fps wfp :
  reps s ids trs fps -> fr s s' wfp -> (forall x, In x (concat fps) -> ~ In x wfp) -> reps s' ids trs fps.
Proof.
  induction 1; intros Hf Hd; constructor.
  - eapply rep_fr; eauto. intros x Hx. apply Hd. cbn. apply in_app_iff. now left.
  - apply IHreps; auto. intros x Hx. apply Hd. cbn. apply in_app_iff. now right.
Qed.

Lemma reps_valid s ids trs fps : reps s ids trs fps -> forall x, In x (concat fps) -> (x < length s)%nat.
Proof.
  induction 1; intros x Hx; [destruct Hx|]. cbn in Hx. apply in_app_iff in Hx as [Hx|Hx]; [eapply rep_valid; eauto|auto].
Qed.

Lemma sset_fr s id n n' : nth_error s id = Some n -> s_cr n' = s_cr n -> fr s (sset s id n') [id].
Proof.
  intros Hn Hc. assert (id < length s)%nat by (apply nth_error_Some; congruence). unfold sset.
  split; [rewrite length_set_nth; lia|]. split.
  - intros x Hx Hni. apply nth_set_nth_ne. intros ->. apply Hni. now left.
  - intros x m Hm. destruct (Nat.eq_dec id x) as [<-|Hne].
    + rewrite nth_set_nth_eq by assumption. exists n'. split; [reflexivity|congruence].
    + rewrite nth_set_nth_ne by assumption. eauto.
Qed.

Lemma alloc_fr s n : fr s (s ++ [n]) [].
Proof.
  split; [rewrite app_length; lia|]. split.
  - intros x Hx _. now rewrite nth_error_app1.
  - intros x m Hm. exists m. split; [|reflexivity]. rewrite nth_error_app1; [assumption|]. apply nth_error_Some. congruence.
Qed.

Lemma nth_alloc s (n : snode) : nth_error (s ++ [n]) (length s) = Some n.
Proof. rewrite nth_error_app2, Nat.sub_diag by lia. reflexivity. Qed.

Lemma sget_some s id n : nth_error s id = Some n -> sget s id = Ok n.
Proof. unfold sget. now intros ->. Qed.

Lemma upd_some s id f n : nth_error s id = Some n -> upd s id f = Ok (sset s id (f n)).
Proof. intros H. unfold upd. now rewrite (sget_some _ _ _ H). Qed.

Lemma nth_sset_eq s id n : (id < length s)%nat -> nth_error (sset s id n) id = Some n.
Proof. apply nth_set_nth_eq. Qed.
Lemma nth_sset_ne s id x n : x <> id -> nth_error (sset s id n) x = nth_error s x.
Proof. intros H. apply nth_set_nth_ne. congruence. Qed.
Lemma length_sset s id n : length (sset s id n) = length s.
Proof. apply length_set_nth. Qed.

(* a cell of a store after some writes: skip the writes to other cells *)
Ltac cell :=
  repeat first [rewrite nth_sset_ne by congruence
               |rewrite nth_sset_eq by (rewrite ?length_sset; assumption)];
  try assumption; try reflexivity.

Lemma sset_fr' s id n n' : nth_error s id = Some n -> s_cr n' = s_cr n -> fr s (sset s id n') [id].
Proof. apply sset_fr. Qed.

Lemma is_minimal_eq t n : is_minimal t n = is_minimal_l t (length (n_elts n)).
Proof. reflexivity. Qed.
Lemma is_maximal_eq t n : is_maximal t n = is_maximal_l t (length (n_elts n)).
Proof. reflexivity. Qed.

Lemma nodup_replace_sub s (a c c' b : list nat) :
  NoDup (a ++ c ++ b) -> NoDup c' -> sub s c c' -> (forall x, In x (a ++ b) -> (x < length s)%nat) -> NoDup (a ++ c' ++ b).
Proof.
  intros H Hc Hs Hv. apply (nodup_replace a c c' b H Hc). intros x Hx. destruct (Hs x Hx); [now left|right].
  intros Hi. apply Hv in Hi. lia.
Qed.

Lemma sub_mid s (pid : nat) fa fc fc' fb :
  sub s fc fc' -> sub s (pid :: concat (fa ++ fc :: fb)) (pid :: concat (fa ++ fc' :: fb)).
Proof.
  intros Hsub x. rewrite !concat_mid. cbn [In]. rewrite !in_app_iff. intros [Hx|[Hx|[Hx|Hx]]]; auto.
  destruct (Hsub x Hx); auto.
Qed.

(* the footprint of a parent with two adjacent children, the three cells in front *)
Lemma fp2_perm (p l r : nat) a x y b :
  Permutation (p :: a ++ (l :: x) ++ (r :: y) ++ b) (r :: p :: l :: a ++ (x ++ y) ++ b).
Proof.
  rewrite (perm_swap p r). apply perm_skip. symmetry. rewrite (perm_swap l r). etransitivity; [|apply Permutation_middle]. apply perm_skip.
  cbn [app]. rewrite <- app_assoc, (app_assoc a x). etransitivity; [apply Permutation_middle|]. now rewrite <- app_assoc.
Qed.

Lemma fp2_nodup (p l r : nat) a x y b :
  NoDup (p :: a ++ (l :: x) ++ (r :: y) ++ b) ->
  (p <> l /\ p <> r /\ l <> r) /\ NoDup (x ++ y) /\
  forall z, In z (a ++ (x ++ y) ++ b) -> z <> p /\ z <> l /\ z <> r.
Proof.
  intros H. apply (Permutation_NoDup (fp2_perm _ _ _ _ _ _ _)) in H.
  apply NoDup_cons_iff in H as (Hr & H). apply NoDup_cons_iff in H as (Hp & H). apply NoDup_cons_iff in H as (Hl & H).
  cbn [In] in Hr, Hp. apply NoDup_app_r, NoDup_app_l in H.
  repeat split; try assumption; try (intros ->; tauto).
Qed.

Section SIM.
Variable c : nat.   (* creator of the mutating tree *)
Notation own := (ownc c).

(* s' represents tr' below id; it differs from s only inside fp and by new nodes *)
Definition stepped (s : store) (id : nat) (fp : list nat) (s' : store) (tr' : tree) : Prop :=
  exists fp', rep s' id tr' fp' /\ sub s fp fp' /\ fr s s' fp /\ own s' id.

Lemma stepped_refl s id tr fp : rep s id tr fp -> own s id -> stepped s id fp s tr.
Proof. intros Hr Ho. exists fp. auto using sub_refl, fr_refl. Qed.

Lemma stepped_trans s id fp s1 fp1 :
  fr s s1 fp -> sub s fp fp1 -> forall s2 tr2, stepped s1 id fp1 s2 tr2 -> stepped s id fp s2 tr2.
Proof.
  intros F1 S1 s2 tr2 (fp2 & Hr & S2 & F2 & Ho). exists fp2. split; [assumption|]. split; [|split; [|assumption]].
  - eapply (sub_trans s s1 fp fp1 fp2); [apply F1|exact S1|exact S2].
  - eapply fr_trans; eauto.
Qed.

Lemma cow_sim s id tr fp :
  rep s id tr fp ->
  exists s' id' fp', s_maybe_cow s id c = Ok (s', id') /\ rep s' id' tr fp' /\ own s' id' /\ fr s s' [] /\ sub s fp fp'.
Proof.
  intros Hr. destruct tr as [lf es kids]. pose proof Hr as Hr0.
  apply rep_inv in Hr as (n & fps & Hn & Hl & He & Hk & -> & Hnd & Hlk).
  unfold s_maybe_cow. rewrite (sget_some _ _ _ Hn). cbn [bind].
  destruct (Nat.eqb_spec (s_cr n) c) as [Hc|Hc].
  - exists s, id, (id :: concat fps). split; [reflexivity|]. split; [assumption|]. split; [exists n; auto|]. auto using fr_refl, sub_refl.
  - set (n' := mkS c (s_leaf n) (s_elts n) (if s_leaf n then [] else s_kids n)).
    assert (Hfr : fr s (s ++ [n']) []) by apply alloc_fr.
    exists (s ++ [n']), (length s), (length s :: concat fps). split; [reflexivity|]. split; [|split; [|split]].
    + subst lf es. apply (rep_build _ _ n' _ _ _ _ (nth_alloc _ _) eq_refl eq_refl).
      * cbn [s_kids s_leaf n']. intros ->. reflexivity.
      * cbn [s_kids n']. destruct (s_leaf n) eqn:El.
        -- destruct (Hlk eq_refl) as (Hk0 & ->). rewrite Hk0 in Hk. inversion Hk; subst. constructor.
        -- eapply reps_fr; [exact Hk|exact Hfr|]. auto.
      * apply NoDup_cons_iff. apply NoDup_cons_iff in Hnd as (_ & Hnd). split; [|assumption].
        intros Hi. pose proof (reps_valid _ _ _ _ Hk _ Hi). lia.
    + exists n'. split; [apply nth_alloc|reflexivity].
    + assumption.
    + intros x [<-|Hx]; [right; lia|left; now right].
Qed.

Definition kid_at (s : store) (pid i k : nat) : Prop :=
  exists n, nth_error s pid = Some n /\ nth_error (s_kids n) i = Some k.

Lemma kid_at_fun s pid i k k' : kid_at s pid i k -> kid_at s pid i k' -> k = k'.
Proof. intros (n & Hn & Hk) (n' & Hn' & Hk'). congruence. Qed.

(* The owned internal node pid opened at its child cid: the cell, the child's representation, and those
   of the children before and after it. *)
Definition opened (s : store) (pid : nat) (es : list elt) (ia : list nat) (cid : nat) (ib : list nat)
    (ka : list tree) (ck : tree) (kb : list tree) (fa : list (list nat)) (fc : list nat) (fb : list (list nat)) : Prop :=
  exists n, nth_error s pid = Some n /\ s_cr n = c /\ s_leaf n = false /\ s_elts n = es /\ s_kids n = ia ++ cid :: ib /\
  reps s ia ka fa /\ rep s cid ck fc /\ reps s ib kb fb /\ length ia = length ka /\
  NoDup (pid :: concat (fa ++ fc :: fb)).

Lemma opened_close s pid es ia cid ib ka ck kb fa fc fb :
  opened s pid es ia cid ib ka ck kb fa fc fb ->
  rep s pid (Node false es (ka ++ ck :: kb)) (pid :: concat (fa ++ fc :: fb)) /\ own s pid.
Proof.
  intros (n & Hn & Hc & Hl & He & Hk & Ha & Hck & Hb & Hlen & Hnd). split; [|exists n; auto].
  apply (rep_build _ _ _ _ _ _ _ Hn Hl He); [discriminate| |assumption].
  rewrite Hk. apply reps_app; [assumption|]. now constructor.
Qed.

Lemma opened_kid s pid es ia cid ib ka ck kb fa fc fb :
  opened s pid es ia cid ib ka ck kb fa fc fb -> rep s cid ck fc /\ kid_at s pid (length ka) cid.
Proof.
  intros (n & Hn & _ & _ & _ & Hk & _ & Hck & _ & Hlen & _). split; [assumption|]. exists n. split; [assumption|].
  rewrite Hk, <- Hlen. apply nth_error_app_mid.
Qed.

Lemma rep_open s pid lf es ka ck kb fp :
  rep s pid (Node lf es (ka ++ ck :: kb)) fp -> own s pid ->
  exists ia cid ib fa fc fb, opened s pid es ia cid ib ka ck kb fa fc fb /\ fp = pid :: concat (fa ++ fc :: fb) /\ lf = false.
Proof.
  intros Hr (p0 & Hp0 & Hc0).
  apply rep_inv in Hr as (p & fps & Hp & Hl & He & Hk & -> & Hnd & Hlk). assert (p0 = p) by congruence. subst p0.
  apply reps_mid in Hk as (ia & cid & ib & fa & fc & fb & Hids & -> & Hra & Hrc & Hrb & Lia & Lfa).
  assert (lf = false).
  { destruct lf; [|reflexivity]. destruct (Hlk eq_refl) as (_ & Hx). destruct ka; discriminate. }
  subst lf. exists ia, cid, ib, fa, fc, fb. split; [|auto]. exists p. auto 12.
Qed.

(* The parent cell is rewritten (or kept), and the run of its children with footprints Fs is replaced by
   children mids that s' represents within Fs and new cells; the children before and after stay. *)
Lemma rebuild s s' pid P' ia ib ka kb fa fb Fs mids mks mfs :
  reps s ia ka fa -> reps s ib kb fb -> NoDup (pid :: concat (fa ++ Fs ++ fb)) -> (pid < length s)%nat ->
  fr s s' (pid :: concat Fs) ->
  nth_error s' pid = Some P' -> s_cr P' = c -> s_leaf P' = false -> s_kids P' = ia ++ mids ++ ib ->
  reps s' mids mks mfs -> NoDup (concat mfs) -> sub s (concat Fs) (concat mfs) ->
  stepped s pid (pid :: concat (fa ++ Fs ++ fb)) s' (Node false (s_elts P') (ka ++ mks ++ kb)).
Proof.
  intros Hra Hrb Hnd Hp Hfr HP' HcP HlP HkP Hmid Hndm Hsub. rewrite !concat_app in *.
  assert (Hval : forall x, In x ((pid :: concat fa) ++ concat fb) -> (x < length s)%nat).
  { intros x [<-|Hx]; [exact Hp|]. apply in_app_iff in Hx as [Hx|Hx]; [exact (reps_valid _ _ _ _ Hra x Hx)|exact (reps_valid _ _ _ _ Hrb x Hx)]. }
  pose proof Hnd as Hnd0. apply NoDup_cons_iff in Hnd0 as (Hpn & Hnd0). rewrite !in_app_iff in Hpn.
  apply NoDup_app_iff in Hnd0 as (_ & HFb & HaF). apply NoDup_app_iff in HFb as (_ & _ & HFb).
  exists (pid :: concat (fa ++ mfs ++ fb)). rewrite !concat_app. split; [|split; [|split; [|exists P'; auto]]].
  - rewrite <- !concat_app. apply (rep_build _ _ _ _ _ _ _ HP' HlP eq_refl); [discriminate| |].
    + rewrite HkP. apply reps_app; [|apply reps_app; [exact Hmid|]].
      * eapply reps_fr; [exact Hra|exact Hfr|]. intros x Hx [<-|Hx']; [tauto|]. apply (HaF x Hx), in_app_iff. now left.
      * eapply reps_fr; [exact Hrb|exact Hfr|]. intros x Hx [<-|Hx']; [tauto|]. exact (HFb x Hx' Hx).
    + rewrite !concat_app. exact (nodup_replace_sub s (pid :: concat fa) _ _ _ Hnd Hndm Hsub Hval).
  - intros x. cbn [In]. rewrite !in_app_iff. intros [Hx|[Hx|[Hx|Hx]]]; auto. destruct (Hsub x Hx); auto.
  - eapply fr_weaken; [exact Hfr|]. intros x [<-|Hx]; [now left|]. right. rewrite !in_app_iff. auto.
Qed.

(* something happened inside the child's subtree only *)
Lemma stepped_child s pid es ia cid ib ka ck kb fa fc fb s' ck' :
  opened s pid es ia cid ib ka ck kb fa fc fb -> stepped s cid fc s' ck' ->
  stepped s pid (pid :: concat (fa ++ fc :: fb)) s' (Node false es (ka ++ ck' :: kb)).
Proof.
  intros (n & Hn & Hc & Hl & <- & Hk & Ha & Hck & Hb & Hlen & Hnd) (fc' & Hr' & Hsub & Hfr & _).
  assert (Hp : (pid < length s)%nat) by (apply nth_error_Some; congruence).
  assert (Hn' : nth_error s' pid = Some n).
  { destruct Hfr as (_ & F & _). rewrite F; [assumption|exact Hp|]. intros Hi.
    apply NoDup_cons_iff in Hnd as (Hpn & _). apply Hpn. rewrite concat_mid, !in_app_iff. auto. }
  apply (rebuild s s' pid n ia ib ka kb fa fb [fc] [cid] [ck'] [fc']); cbn [concat]; rewrite ?app_nil_r; try assumption.
  - eapply fr_weaken; [exact Hfr|]. intros x Hx. now right.
  - now repeat constructor.
  - eapply rep_nodup; eauto.
Qed.

(* a child, as the store functions read it before they decide to write *)
Lemma rep_kid s pid lf es ka ck kb fp :
  rep s pid (Node lf es (ka ++ ck :: kb)) fp ->
  exists n ia cid ib cn, nth_error s pid = Some n /\ lf = false /\
    s_kids n = ia ++ cid :: ib /\ length ia = length ka /\ length ib = length kb /\
    nth_error s cid = Some cn /\ s_elts cn = n_elts ck.
Proof.
  intros Hr. apply rep_inv in Hr as (n & fps & Hn & _ & _ & Hk & _ & _ & Hlk).
  apply reps_mid in Hk as (ia & cid & ib & fa & fc & fb & Hids & _ & _ & Hrc & Hrb & Lia & _).
  apply reps_length in Hrb as (Lib & _).
  assert (lf = false) by (destruct lf; [destruct (Hlk eq_refl) as (_ & Hx); destruct ka; discriminate|reflexivity]).
  destruct ck as [clf ces cks]. destruct (rep_root _ _ _ _ _ _ Hrc) as (cn & Hcn & _ & Hce).
  exists n, ia, cid, ib, cn. auto 10.
Qed.

(* maybe_cow_child: the parent ends up opened at a child the tree owns *)
Lemma cow_child_open s pid lf es ka ck kb fp :
  rep s pid (Node lf es (ka ++ ck :: kb)) fp -> own s pid ->
  exists s' cid ia ib fa fc fb,
    s_maybe_cow_child s pid (length ka) = Ok (s', cid) /\
    opened s' pid es ia cid ib ka ck kb fa fc fb /\ own s' cid /\
    fr s s' fp /\ sub s fp (pid :: concat (fa ++ fc :: fb)) /\
    (forall j k, j <> length ka -> kid_at s pid j k -> kid_at s' pid j k).
Proof.
  intros Hr Hop. destruct (rep_open _ _ _ _ _ _ _ _ Hr Hop) as (ia & cid0 & ib & fa & fc & fb & Hopen & -> & ->).
  assert (Hval : forall x, In x (pid :: concat (fa ++ fc :: fb)) -> (x < length s)%nat) by (eapply rep_valid; eauto).
  destruct Hopen as (p & Hp & Hcp & Hlp & Hep & Hkp & Hra & Hrc & Hrb & Hlia & Hnd).
  destruct (cow_sim _ _ _ _ Hrc) as (s1 & cid & fc' & Ecow & Hrc' & Hoc & Hfr1 & Hsub1).
  unfold s_maybe_cow_child. rewrite (sget_some _ _ _ Hp). cbn [bind].
  rewrite Hlp, Hkp, split_at_app by congruence. cbn [bind]. rewrite Hcp, Ecow. cbn [bind].
  assert (Hp1 : nth_error s1 pid = Some p).
  { destruct Hfr1 as (_ & F & _). rewrite F; [assumption|apply Hval; now left|auto]. }
  (* with or without the pointer update, the parent now points to cid *)
  set (p' := w_kids p (ia ++ cid :: ib)).
  assert (exists s', (if (cid =? cid0)%nat then Ok (s1, cid0)
                      else do s2 <- upd s1 pid (fun p => w_kids p (ia ++ cid :: ib)); Ok (s2, cid)) = Ok (s', cid) /\
                     nth_error s' pid = Some p' /\ fr s1 s' [pid]) as (s' & -> & Hp' & Hfr2).
  { destruct (Nat.eqb_spec cid cid0) as [->|Hne].
    - exists s1. split; [reflexivity|]. split; [|apply fr_refl]. rewrite Hp1. unfold p'. rewrite <- Hkp. now destruct p.
    - rewrite (upd_some _ _ _ _ Hp1). cbn [bind]. eexists. split; [reflexivity|].
      split; [apply nth_sset_eq, nth_error_Some; congruence|]. eapply sset_fr; [exact Hp1|reflexivity]. }
  assert (Hfr : fr s s' [pid]) by (eapply fr_trans; [eapply fr_weaken; [exact Hfr1|intros x []]|apply sub_refl|exact Hfr2]).
  assert (Hnd' : NoDup (pid :: concat (fa ++ fc' :: fb))).
  { rewrite concat_mid in *. apply (nodup_replace_sub s (pid :: concat fa) fc fc' (concat fb)); [exact Hnd|eapply rep_nodup; eauto|exact Hsub1|].
    intros x Hx. apply Hval. cbn [app In] in *. rewrite !in_app_iff in *. tauto. }
  assert (Hpne : forall x, In x (concat (fa ++ fc' :: fb)) -> ~ In x [pid]).
  { intros x Hx [<-|[]]. apply NoDup_cons_iff in Hnd' as (Hn' & _). contradiction. }
  assert (Hpne0 : forall x, In x (concat (fa ++ fc :: fb)) -> ~ In x [pid]).
  { intros x Hx [<-|[]]. apply NoDup_cons_iff in Hnd as (Hn' & _). contradiction. }
  exists s', cid, ia, ib, fa, fc', fb. split; [reflexivity|]. split; [|split; [exact (ownc_fr c s1 s' [pid] cid Hfr2 Hoc)|split; [|split; [now apply sub_mid|]]]].
  - exists p'. cbn [p' w_kids s_cr s_leaf s_elts s_kids]. repeat split; try assumption.
    + eapply reps_fr; [exact Hra|exact Hfr|]. intros x Hx. apply Hpne0. rewrite concat_mid, in_app_iff. auto.
    + eapply rep_fr; [exact Hrc'|exact Hfr2|]. intros x Hx. apply Hpne. rewrite concat_mid, !in_app_iff. auto.
    + eapply reps_fr; [exact Hrb|exact Hfr|]. intros x Hx. apply Hpne0. rewrite concat_mid, !in_app_iff. auto.
  - eapply fr_weaken; [exact Hfr|]. intros x [<-|[]]. now left.
  - intros j k Hj (m & Hm & Hk). assert (m = p) by congruence. subst m. exists p'. split; [assumption|].
    cbn [p' w_kids s_kids]. rewrite Hkp in Hk. rewrite <- Hk. apply nth_error_mid_ne. congruence.
Qed.

Lemma write_elts_sim s id lf es kids fp n es' :
  rep s id (Node lf es kids) fp -> nth_error s id = Some n -> own s id ->
  stepped s id fp (sset s id (w_elts n es')) (Node lf es' kids).
Proof.
  intros Hr Hn (n0 & Hn0 & Hc0). assert (n0 = n) by congruence. subst n0.
  assert (Hlt : (id < length s)%nat) by (apply nth_error_Some; congruence).
  assert (Hfr : fr s (sset s id (w_elts n es')) fp).
  { eapply fr_weaken; [apply (sset_fr s id n (w_elts n es')); auto|]. intros x [<-|[]]. eapply rep_root_in; eauto. }
  exists fp. split; [|split; [apply sub_refl|split; [assumption|]]].
  - apply rep_inv in Hr as (n1 & fps & Hn1 & Hl0 & He0 & Hks & -> & Hnd & Hlk). assert (n1 = n) by congruence. subst n1.
    apply (rep_build _ _ (w_elts n es') _ _ _ _ (nth_sset_eq _ _ _ Hlt) Hl0 eq_refl); [|cbn [w_elts s_kids]|assumption].
    + intros Hlf. now destruct (Hlk Hlf).
    + eapply reps_frame; [exact Hks|]. intros x Hx. apply nth_sset_ne.
      intros ->. apply NoDup_cons_iff in Hnd as (Hni & _). contradiction.
  - exists (w_elts n es'). split; [now apply nth_sset_eq|assumption].
Qed.

(* s' is s with three cells rewritten *)
Definition cells3 (s s' : store) (a : nat) (A : snode) (b : nat) (B : snode) (d : nat) (D : snode) : Prop :=
  length s' = length s /\ nth_error s' a = Some A /\ nth_error s' b = Some B /\ nth_error s' d = Some D /\
  forall x, x <> a -> x <> b -> x <> d -> nth_error s' x = nth_error s x.

Lemma cells3_fr s s' a A b B d D :
  cells3 s s' a A b B d D -> own s a -> own s b -> own s d -> s_cr A = c -> s_cr B = c -> s_cr D = c ->
  fr s s' [a; b; d].
Proof.
  intros (L & Ha & Hb & Hd & Ho) (A0 & Ha0 & Ca0) (B0 & Hb0 & Cb0) (D0 & Hd0 & Cd0) Ca Cb Cd. split; [lia|]. split.
  - intros x Hx Hni. apply Ho; intros ->; apply Hni; cbn; auto.
  - intros x m Hm. destruct (Nat.eq_dec x a) as [->|H1]; [exists A; split; [assumption|congruence]|].
    destruct (Nat.eq_dec x b) as [->|H2]; [exists B; split; [assumption|congruence]|].
    destruct (Nat.eq_dec x d) as [->|H3]; [exists D; split; [assumption|congruence]|].
    exists m. split; [rewrite Ho; auto|reflexivity].
Qed.

(* The parent (cell P, owned) opened at two adjacent children: their cells L and R, and what is below the two
   (trees lks, rks with footprints X, Y). This is where the steals and merge start from. *)
Definition opened2 (s : store) (pid : nat) (P : snode) (ia : list nat) (lid : nat) (L : snode) (rid : nat) (R : snode)
    (ib : list nat) (ka lks rks kb : list tree) (fa X Y fb : list (list nat)) : Prop :=
  nth_error s pid = Some P /\ s_cr P = c /\ s_leaf P = false /\ s_kids P = ia ++ lid :: rid :: ib /\
  nth_error s lid = Some L /\ nth_error s rid = Some R /\
  reps s ia ka fa /\ reps s (s_kids L) lks X /\ reps s (s_kids R) rks Y /\ reps s ib kb fb /\ length ia = length ka /\
  (s_leaf L = true -> s_kids L = [] /\ lks = []) /\ (s_leaf R = true -> s_kids R = [] /\ rks = []) /\
  NoDup (pid :: concat (fa ++ (lid :: concat X) :: (rid :: concat Y) :: fb)).

Lemma open2 s pid P ia lid rid ib ka llf les lks rlf res rks kb fa fl frr fb :
  nth_error s pid = Some P -> s_cr P = c -> s_leaf P = false -> s_kids P = ia ++ lid :: rid :: ib ->
  reps s ia ka fa -> rep s lid (Node llf les lks) fl -> rep s rid (Node rlf res rks) frr -> reps s ib kb fb ->
  length ia = length ka -> NoDup (pid :: concat (fa ++ fl :: frr :: fb)) ->
  exists L R X Y, fl = lid :: concat X /\ frr = rid :: concat Y /\
    s_leaf L = llf /\ s_elts L = les /\ s_leaf R = rlf /\ s_elts R = res /\
    opened2 s pid P ia lid L rid R ib ka lks rks kb fa X Y fb.
Proof.
  intros HP Hc Hl Hk Ha Hrl Hrr Hb Hlen Hnd.
  apply rep_inv in Hrl as (L & X & HL & HlL & HeL & HkL & -> & _ & HlkL).
  apply rep_inv in Hrr as (R & Y & HR & HlR & HeR & HkR & -> & _ & HlkR).
  subst llf rlf. exists L, R, X, Y. unfold opened2. auto 20.
Qed.

Lemma opened2_cells s pid P ia lid L rid R ib ka lks rks kb fa X Y fb :
  opened2 s pid P ia lid L rid R ib ka lks rks kb fa X Y fb ->
  (pid <> lid /\ pid <> rid /\ lid <> rid) /\
  ((pid < length s)%nat /\ (lid < length s)%nat /\ (rid < length s)%nat) /\ NoDup (concat X ++ concat Y).
Proof.
  intros (HP & _ & _ & _ & HL & HR & _ & _ & _ & _ & _ & _ & _ & Hnd).
  rewrite concat_mid in Hnd. cbn [concat] in Hnd. apply fp2_nodup in Hnd as (Hd & Hxy & _).
  split; [exact Hd|]. split; [|exact Hxy]. repeat split; apply nth_error_Some; congruence.
Qed.

(* The three cells are rewritten, the parent's elements only; the grandchildren are redistributed between
   lid and rid. *)
Lemma rebuild2 s pid P ia lid L rid R ib ka lks0 rks0 kb fa X Y fb s' E L' R' lks fl rks frr :
  opened2 s pid P ia lid L rid R ib ka lks0 rks0 kb fa X Y fb -> s_cr L = c -> s_cr R = c ->
  cells3 s s' pid (w_elts P E) lid L' rid R' -> s_cr L' = c -> s_cr R' = c ->
  reps s (s_kids L') lks fl -> reps s (s_kids R') rks frr ->
  (s_leaf L' = true -> s_kids L' = []) -> (s_leaf R' = true -> s_kids R' = []) ->
  concat fl ++ concat frr = concat X ++ concat Y ->
  stepped s pid (pid :: concat (fa ++ (lid :: concat X) :: (rid :: concat Y) :: fb)) s'
    (Node false E (ka ++ Node (s_leaf L') (s_elts L') lks :: Node (s_leaf R') (s_elts R') rks :: kb)) /\
  own s' lid /\ own s' rid /\ kid_at s' pid (length ka) lid /\ kid_at s' pid (S (length ka)) rid.
Proof.
  intros (HP & HcP & HlP & HkP & HL & HR & Hra & _ & _ & Hrb & Hlia & _ & _ & Hnd) HcL HcR Hcells HcL' HcR' HrL HrR HlkL HlkR Heq.
  pose proof Hcells as (Hlen & HP' & HL' & HR' & Hoth).
  set (new := pid :: concat (fa ++ (lid :: concat fl) :: (rid :: concat frr) :: fb)).
  assert (Hperm : Permutation new (pid :: concat (fa ++ (lid :: concat X) :: (rid :: concat Y) :: fb))).
  { unfold new. rewrite !concat_mid. cbn [concat]. rewrite !fp2_perm, Heq. reflexivity. }
  assert (Hnew : NoDup new) by (eapply Permutation_NoDup; [symmetry; exact Hperm|exact Hnd]).
  pose proof Hnew as Hflat. unfold new in Hflat. rewrite concat_mid in Hflat. cbn [concat] in Hflat.
  destruct (fp2_nodup _ _ _ _ _ _ _ Hflat) as (_ & _ & Hout).
  assert (Hfrm : forall ids trs fps, reps s ids trs fps ->
            incl (concat fps) (concat fa ++ (concat fl ++ concat frr) ++ concat fb) -> reps s' ids trs fps).
  { intros ids trs fps H Hi. eapply reps_frame; [exact H|]. intros x Hx. destruct (Hout x (Hi x Hx)) as (? & ? & ?). now apply Hoth. }
  apply NoDup_cons_iff, proj2, NoDup_app_r in Hflat.
  split; [|split; [exists L'; auto|split; [exists R'; auto|]]].
  2: { split; exists (w_elts P E); (split; [exact HP'|]); cbn [w_elts s_kids]; rewrite HkP, <- Hlia;
       [apply nth_error_app_mid|apply nth_error_app_mid_S]. }
  exists new. split; [|split; [|split; [|exists (w_elts P E); auto]]].
  - apply (rep_build _ _ _ _ _ _ _ HP' HlP eq_refl); [discriminate| |exact Hnew].
    cbn [w_elts s_kids]. rewrite HkP. apply reps_app; [apply (Hfrm _ _ _ Hra), incl_appl, incl_refl|].
    constructor; [|constructor; [|apply (Hfrm _ _ _ Hrb), incl_appr, incl_appr, incl_refl]].
    + constructor; [exact HL'|exact HlkL|apply (Hfrm _ _ _ HrL), incl_appr, incl_appl, incl_appl, incl_refl|].
      eapply NoDup_app_l; eauto.
    + constructor; [exact HR'|exact HlkR|apply (Hfrm _ _ _ HrR), incl_appr, incl_appl, incl_appr, incl_refl|].
      eapply NoDup_app_l, NoDup_app_r; eauto.
  - intros x Hx. left. exact (Permutation_in x Hperm Hx).
  - eapply fr_weaken; [apply (cells3_fr _ _ _ _ _ _ _ _ Hcells); try assumption; eexists; eauto|].
    intros x Hx. rewrite concat_mid. cbn [concat In] in *. rewrite !in_app_iff. cbn [In]. destruct Hx as [<-|[<-|[<-|[]]]]; tauto.
Qed.

(* ... and the same when lid absorbs rid (merge): rid, and whatever of X and Y lid does not keep,
   leave the tree *)
Lemma rebuild1 s pid P ia lid L rid R ib ka lks0 rks0 kb fa X Y fb s' P' L' lks fl :
  opened2 s pid P ia lid L rid R ib ka lks0 rks0 kb fa X Y fb -> s_cr L = c ->
  length s' = length s -> nth_error s' pid = Some P' -> nth_error s' lid = Some L' ->
  (forall x, x <> pid -> x <> lid -> nth_error s' x = nth_error s x) ->
  s_cr P' = c -> s_cr L' = c -> s_leaf P' = false -> s_kids P' = ia ++ lid :: ib ->
  reps s (s_kids L') lks fl -> (s_leaf L' = true -> s_kids L' = []) ->
  incl (concat fl) (concat X ++ concat Y) -> NoDup (concat fl) ->
  stepped s pid (pid :: concat (fa ++ (lid :: concat X) :: (rid :: concat Y) :: fb)) s'
    (Node false (s_elts P') (ka ++ Node (s_leaf L') (s_elts L') lks :: kb)) /\
  own s' lid /\ kid_at s' pid (length ka) lid.
Proof.
  intros Hopen HcL Hlen HP' HL' Hoth HcP' HcL' HlP HkP HrL HlkL Hincl HndF.
  destruct (opened2_cells _ _ _ _ _ _ _ _ _ _ _ _ _ _ _ _ _ Hopen) as (_ & (Hvp & _) & _).
  destruct Hopen as (HP & HcP & _ & _ & HL & _ & Hra & _ & _ & Hrb & Hlia & _ & _ & Hnd).
  pose proof Hnd as Hflat. rewrite concat_mid in Hflat. cbn [concat] in Hflat.
  destruct (fp2_nodup _ _ _ _ _ _ _ Hflat) as (_ & _ & Hout).
  assert (Hxy : forall x, In x (concat fl) -> x <> pid /\ x <> lid).
  { intros x Hx. destruct (Hout x) as (? & ? & _); [|auto]. rewrite !in_app_iff. right. left. apply in_app_iff, Hincl, Hx. }
  assert (Hndl : NoDup (lid :: concat fl)).
  { constructor; [|exact HndF]. intros Hi. now destruct (Hxy lid Hi). }
  split; [|split; [exists L'; auto|exists P'; split; [exact HP'|]; rewrite HkP, <- Hlia; apply nth_error_app_mid]].
  apply (rebuild s s' pid P' ia ib ka kb fa fb [lid :: concat X; rid :: concat Y] [lid]
           [Node (s_leaf L') (s_elts L') lks] [lid :: concat fl]); cbn [concat]; rewrite ?app_nil_r; try assumption.
  - split; [lia|]. split.
    + intros x _ Hni. apply Hoth; intros ->; apply Hni; cbn; auto.
    + intros x m Hm. destruct (Nat.eq_dec x pid) as [->|H1]; [exists P'; split; [assumption|congruence]|].
      destruct (Nat.eq_dec x lid) as [->|H2]; [exists L'; split; [assumption|congruence]|].
      exists m. split; [rewrite Hoth; auto|reflexivity].
  - constructor; [|constructor]. apply (rep_build _ _ _ _ _ _ _ HL' eq_refl eq_refl); [exact HlkL| |exact Hndl].
    eapply reps_frame; [exact HrL|]. intros x Hx. destruct (Hxy x Hx). now apply Hoth.
  - intros x [<-|Hx]; left; [now left|]. apply Hincl, in_app_iff in Hx. cbn [In]. rewrite in_app_iff. cbn [In]. tauto.
Qed.

(* maybe_cow_child of the sibling of the child selfid, the one to its right (right = true) or to its left:
   the parent ends up opened at the two, both owned *)
Lemma cow_sibling_open (right : bool) s pid lf es ka llf les lks rlf res rks kb fp selfid :
  rep s pid (Node lf es (ka ++ Node llf les lks :: Node rlf res rks :: kb)) fp -> own s pid -> own s selfid ->
  kid_at s pid (if right then length ka else S (length ka)) selfid ->
  exists s' P ia lid L rid R ib fa X Y fb,
    s_maybe_cow_child s pid (if right then S (length ka) else length ka) = Ok (s', if right then rid else lid) /\
    (if right then lid else rid) = selfid /\
    opened2 s' pid P ia lid L rid R ib ka lks rks kb fa X Y fb /\ s_elts P = es /\
    s_leaf L = llf /\ s_elts L = les /\ s_cr L = c /\ s_leaf R = rlf /\ s_elts R = res /\ s_cr R = c /\
    fr s s' fp /\ sub s fp (pid :: concat (fa ++ (lid :: concat X) :: (rid :: concat Y) :: fb)).
Proof.
  intros Hr Hop Hos Hkid.
  assert (Hcr : forall s' id n, own s' id -> nth_error s' id = Some n -> s_cr n = c).
  { intros s' id n (m & Hm & Hc) Hn. congruence. }
  destruct right.
  - replace (ka ++ Node llf les lks :: Node rlf res rks :: kb) with ((ka ++ [Node llf les lks]) ++ Node rlf res rks :: kb) in Hr
      by (now rewrite <- app_assoc).
    replace (S (length ka)) with (length (ka ++ [Node llf les lks])) by (rewrite app_length; cbn; lia).
    destruct (cow_child_open _ _ _ _ _ _ _ _ Hr Hop) as (s1 & rid & ia1 & ib & fa1 & frr & fb & Ecow & Hopen & Hor & Hfr & Hsub & Hkeep).
    destruct Hopen as (P & HP & HcP & HlP & HeP & HkP & Hra1 & Hrr & Hrb & _ & Hnd).
    apply reps_snoc_inv in Hra1 as (ia & lid & fa & fl & -> & -> & Hra & Hrl & Hlia).
    rewrite <- app_assoc in HkP, Hnd, Hsub. cbn [app] in HkP, Hnd, Hsub.
    assert (lid = selfid).
    { destruct (Hkeep (length ka) selfid ltac:(rewrite app_length; cbn; lia) Hkid) as (m & Hm & Hk). assert (m = P) by congruence. subst m.
      rewrite HkP, <- Hlia, nth_error_app_mid in Hk. congruence. }
    subst lid.
    destruct (open2 _ _ _ _ _ _ _ _ _ _ _ _ _ _ _ _ _ _ _ HP HcP HlP HkP Hra Hrl Hrr Hrb Hlia Hnd)
      as (L & R & X & Y & -> & -> & HlL & HeL & HlR & HeR & Ho2).
    pose proof Ho2 as (_ & _ & _ & _ & HL & HR & _).
    assert (s_cr L = c) by (eapply Hcr; [eapply ownc_fr; eauto|exact HL]). assert (s_cr R = c) by eauto.
    exists s1, P, ia, selfid, L, rid, R, ib, fa, X, Y, fb. auto 15.
  - destruct (cow_child_open _ _ _ _ _ _ _ _ Hr Hop) as (s1 & lid & ia & ib1 & fa & fl & fb1 & Ecow & Hopen & Hol & Hfr & Hsub & Hkeep).
    destruct Hopen as (P & HP & HcP & HlP & HeP & HkP & Hra & Hrl & Hrb1 & Hlia & Hnd).
    apply reps_cons_inv in Hrb1 as (rid & ib & frr & fb & -> & -> & Hrr & Hrb).
    assert (rid = selfid).
    { destruct (Hkeep (S (length ka)) selfid ltac:(lia) Hkid) as (m & Hm & Hk). assert (m = P) by congruence. subst m.
      rewrite HkP, <- Hlia, nth_error_app_mid_S in Hk. congruence. }
    subst rid.
    destruct (open2 _ _ _ _ _ _ _ _ _ _ _ _ _ _ _ _ _ _ _ HP HcP HlP HkP Hra Hrl Hrr Hrb Hlia Hnd)
      as (L & R & X & Y & -> & -> & HlL & HeL & HlR & HeR & Ho2).
    pose proof Ho2 as (_ & _ & _ & _ & HL & HR & _).
    assert (s_cr R = c) by (eapply Hcr; [eapply ownc_fr; eauto|exact HR]). assert (s_cr L = c) by eauto.
    exists s1, P, ia, lid, L, selfid, R, ib, fa, X, Y, fb. auto 15.
Qed.

(* the outcome of a steal that finds nothing to take *)
Lemma steal_same s pid p fp selfid index p' b (run : res (store * bool)) :
  rep s pid p fp -> own s pid -> own s selfid -> kid_at s pid index selfid ->
  run = Ok (s, false) -> Ok (p, false) = Ok (p', b) ->
  exists s', run = Ok (s', b) /\ stepped s pid fp s' p' /\ own s' selfid /\ kid_at s' pid index selfid /\
     (b = false -> p' = p) /\ length (n_kids p') = length (n_kids p).
Proof. intros Hr Hop Hos Hkid E H. inversion H; subst. exists s. auto 10 using stepped_refl. Qed.

Lemma right_steal_sim t s pid p fp selfid index p' b :
  rep s pid p fp -> own s pid -> own s selfid -> kid_at s pid index selfid ->
  try_right_steal t p index = Ok (p', b) ->
  exists s', s_try_right_steal t s selfid pid index = Ok (s', b) /\
     stepped s pid fp s' p' /\ own s' selfid /\ kid_at s' pid index selfid /\
     (b = false -> p' = p) /\ length (n_kids p') = length (n_kids p).
Proof.
  intros Hr Hop Hos Hkid Hv. pose proof (fun run => steal_same s pid p fp selfid index p' b run Hr Hop Hos Hkid) as Hsame.
  destruct p as [plf pes pks]. unfold try_right_steal in Hv. unfold s_try_right_steal.
  destruct (split_at index pks) as [((ka & self) & rest)| |] eqn:Esp; cbn [bind] in Hv; try discriminate.
  apply split_at_inv in Esp as (-> & <-).
  destruct rest as [|rgt kb].
  { destruct (rep_kid _ _ _ _ _ _ _ _ Hr) as (n & ia & sid & ib & _ & Hn & _ & Hkn & Hlia & Hlib & _).
    rewrite (sget_some _ _ _ Hn). cbn [bind]. apply Hsame; [|exact Hv]. destruct ib; [|discriminate].
    replace (nth_error (s_kids n) (S (length ka))) with (@None nat); [reflexivity|].
    symmetry. apply nth_error_None. rewrite Hkn, app_length. cbn. lia. }
  (* the sibling, as read before it is copied *)
  pose proof Hr as Hr0.
  replace (ka ++ self :: rgt :: kb) with ((ka ++ [self]) ++ rgt :: kb) in Hr0 by (now rewrite <- app_assoc).
  destruct (rep_kid _ _ _ _ _ _ _ _ Hr0) as (n & ia0 & rid0 & ib0 & r0 & Hn & -> & Hkn & Hlia0 & _ & Hr0n & Her0).
  rewrite app_length in Hlia0. cbn [length] in Hlia0.
  rewrite (sget_some _ _ _ Hn). cbn [bind].
  rewrite Hkn, (nth_error_app_mid' _ _ _ (S (length ka))) by lia. rewrite (sget_some _ _ _ Hr0n). cbn [bind].
  rewrite Her0, <- is_minimal_eq.
  destruct (is_minimal t rgt) as [mn| |]; cbn [bind] in Hv |- *; try discriminate.
  destruct mn; [apply Hsame; [reflexivity|exact Hv]|]. clear Hsame Hr0.
  destruct (split_at (length ka) pes) as [((ea & pe) & eb)| |] eqn:Ees; cbn [bind] in Hv; try discriminate.
  destruct rgt as [rlf [|re res'] rks]; [destruct self; discriminate|]. destruct self as [slf ses sks].
  destruct (cow_sibling_open true _ _ _ _ _ _ _ _ _ _ _ _ _ _ Hr Hop Hos Hkid)
    as (s1 & n1 & ia & lid & sn & rid & r & ib & fa & fsk & frk & fb & Ecow & Hself & Hopen & Hen1 & <- & <- & Hcs & <- & Her & Hcr & Hfr1 & Hsub1).
  cbv iota in Ecow, Hself. subst lid. rewrite Ecow. cbn [bind].
  destruct (opened2_cells _ _ _ _ _ _ _ _ _ _ _ _ _ _ _ _ _ Hopen) as ((Hps & Hpr & Hsr) & (Hvp & Hvs & Hvr) & _).
  pose proof Hopen as (Hn1 & _ & _ & Hkn1 & Hsn & Hrn & _ & Hsks & Hrks & _ & Hlia & Hlks & Hlkr & _).
  rewrite (sget_some _ _ _ Hn1). cbn [bind]. rewrite Hen1, Ees. cbn [bind].
  rewrite (sget_some _ _ _ Hrn). cbn [bind]. rewrite Her.
  (* the three element writes *)
  rewrite (upd_some _ _ _ r) by cell. cbn [bind].
  rewrite (upd_some _ _ _ n1) by cell. cbn [bind].
  rewrite (upd_some _ _ _ sn) by cell. cbn [bind].
  rewrite (sget_some _ _ (w_elts r res')) by cell. cbn [bind w_elts s_leaf].
  pose proof (fun sF L' R' lks' fl' rks' fr' =>
    rebuild2 _ _ _ _ _ _ _ _ _ _ _ _ _ _ _ _ _ sF (ea ++ re :: eb) L' R' lks' fl' rks' fr' Hopen Hcs Hcr) as Hfin.
  destruct (s_leaf r) eqn:Hlr.
  - (* the sibling is a leaf *)
    inversion Hv; subst p' b; clear Hv. set (s4 := sset _ selfid _). exists s4. split; [reflexivity|].
    destruct (Hfin s4 (w_elts sn (s_elts sn ++ [pe])) (w_elts r res') sks fsk rks frk) as (Hst & HoL & _ & Hk' & _);
      [unfold s4; repeat split; [rewrite !length_sset; reflexivity|cell..|intros; now cell]|try assumption; try reflexivity..|].
    + cbn. intros Hl. now destruct (Hlks Hl).
    + cbn. intros _. now destruct (Hlkr eq_refl).
    + cbn [w_elts s_leaf s_elts] in Hst. rewrite Hlr in Hst.
      split; [eapply stepped_trans; eauto|]. split; [assumption|]. split; [exact Hk'|].
      split; [discriminate|]. cbn. rewrite !app_length. cbn. lia.
  - (* internal nodes: the first child of the sibling moves over *)
    rewrite (sget_some _ _ (w_elts sn (s_elts sn ++ [pe]))) by cell. cbn [bind w_elts s_leaf].
    destruct (s_leaf sn) eqn:Hlsn; [discriminate|].
    destruct rks as [|rc rks']; [discriminate|]. inversion Hv; subst p' b; clear Hv.
    apply reps_cons_inv in Hrks as (rcid & rkids' & frc & frk' & Hkr & -> & Hrrc & Hrrks').
    cbn [s_kids w_elts]. rewrite Hkr.
    rewrite (upd_some _ _ _ (w_elts r res')) by cell. cbn [bind].
    rewrite (upd_some _ _ _ (w_elts sn (s_elts sn ++ [pe]))) by cell. cbn [bind].
    set (s6 := sset _ selfid _). exists s6. split; [reflexivity|].
    destruct (Hfin s6 (w_kids (w_elts sn (s_elts sn ++ [pe])) (s_kids sn ++ [rcid])) (w_kids (w_elts r res') rkids')
                 (sks ++ [rc]) (fsk ++ [frc]) rks' frk') as (Hst & HoL & _ & Hk' & _);
      [unfold s6; repeat split; [rewrite !length_sset; reflexivity|cell..|intros; now cell]|try assumption; try reflexivity; try discriminate..|].
    + cbn. apply reps_app; [assumption|]. constructor; [assumption|constructor].
    + cbn. rewrite Hlsn. discriminate.
    + cbn. rewrite Hlr. discriminate.
    + rewrite concat_app. cbn [concat]. now rewrite app_nil_r, <- app_assoc.
    + cbn [w_elts w_kids s_leaf s_elts] in Hst. rewrite Hlr, Hlsn in Hst.
      split; [eapply stepped_trans; eauto|]. split; [assumption|]. split; [exact Hk'|].
      split; [discriminate|]. cbn. rewrite !app_length. cbn. lia.
Qed.

Lemma left_steal_sim t s pid p fp selfid index p' b :
  rep s pid p fp -> own s pid -> own s selfid -> kid_at s pid index selfid ->
  try_left_steal t p index = Ok (p', b) ->
  exists s', s_try_left_steal t s selfid pid index = Ok (s', b) /\
     stepped s pid fp s' p' /\ own s' selfid /\ kid_at s' pid index selfid /\
     (b = false -> p' = p) /\ length (n_kids p') = length (n_kids p).
Proof.
  intros Hr Hop Hos Hkid Hv. pose proof (fun run => steal_same s pid p fp selfid index p' b run Hr Hop Hos Hkid) as Hsame.
  destruct p as [plf pes pks]. unfold try_left_steal in Hv.
  unfold s_try_left_steal. destruct index as [|im]; [apply Hsame; [reflexivity|exact Hv]|].
  destruct (split_at im pks) as [((ka & lft) & rest)| |] eqn:Esp; cbn [bind] in Hv; try discriminate.
  apply split_at_inv in Esp as (-> & <-). destruct rest as [|self kb]; [discriminate|].
  (* the sibling, as read before it is copied *)
  destruct (rep_kid _ _ _ _ _ _ _ _ Hr) as (n & ia0 & lid0 & ib0 & l0 & Hn & -> & Hkn & Hlia0 & _ & Hl0 & Hel0).
  rewrite (sget_some _ _ _ Hn). cbn [bind]. rewrite Hkn, split_at_app by assumption. cbn [bind].
  rewrite (sget_some _ _ _ Hl0). cbn [bind]. rewrite Hel0, <- is_minimal_eq.
  destruct (is_minimal t lft) as [mn| |]; cbn [bind] in Hv |- *; try discriminate.
  destruct mn; [apply Hsame; [reflexivity|exact Hv]|]. clear Hsame.
  destruct (split_at (length ka) pes) as [((ea & pe) & eb)| |] eqn:Ees; cbn [bind] in Hv; try discriminate.
  destruct lft as [llf les lks]. destruct self as [slf ses sks].
  destruct (pop_last les) as [(les' & le)| |] eqn:Epl; cbn [bind] in Hv; try discriminate.
  destruct (cow_sibling_open false _ _ _ _ _ _ _ _ _ _ _ _ _ _ Hr Hop Hos Hkid)
    as (s1 & n1 & ia & lid & l & rid & sn & ib & fa & flk & fsk & fb & Ecow & Hself & Hopen & Hen1 & <- & Hel & Hcl & <- & <- & Hcs & Hfr1 & Hsub1).
  cbv iota in Ecow, Hself. subst rid. rewrite Ecow. cbn [bind].
  destruct (opened2_cells _ _ _ _ _ _ _ _ _ _ _ _ _ _ _ _ _ Hopen) as ((Hpl & Hps & Hls) & (Hvp & Hvl & Hvs) & _).
  pose proof Hopen as (Hn1 & _ & _ & Hkn1 & Hln_ & Hsn & _ & Hlks & Hsks & _ & Hlia & Hlkl & Hlks' & _).
  rewrite (sget_some _ _ _ Hn1). cbn [bind]. rewrite Hen1, Ees. cbn [bind].
  rewrite (sget_some _ _ _ Hln_). cbn [bind]. rewrite Hel, Epl. cbn [bind].
  (* the three element writes *)
  rewrite (upd_some _ _ _ l) by cell. cbn [bind].
  rewrite (upd_some _ _ _ n1) by cell. cbn [bind].
  rewrite (upd_some _ _ _ sn) by cell. cbn [bind].
  rewrite (sget_some _ _ (w_elts l les')) by cell. cbn [bind w_elts s_leaf].
  pose proof (fun sF L' R' lks' fl' rks' fr' =>
    rebuild2 _ _ _ _ _ _ _ _ _ _ _ _ _ _ _ _ _ sF (ea ++ le :: eb) L' R' lks' fl' rks' fr' Hopen Hcl Hcs) as Hfin.
  destruct (s_leaf l) eqn:Hll.
  - (* leaves *)
    inversion Hv; subst p' b; clear Hv. set (s4 := sset _ selfid _). exists s4. split; [reflexivity|].
    destruct (Hfin s4 (w_elts l les') (w_elts sn (pe :: s_elts sn)) lks flk sks fsk) as (Hst & _ & HoR & _ & Hk');
      [unfold s4; repeat split; [rewrite !length_sset; reflexivity|cell..|intros; now cell]|try assumption; try reflexivity..|].
    + cbn. intros _. now destruct (Hlkl eq_refl).
    + cbn. intros Hl. now destruct (Hlks' Hl).
    + cbn [w_elts s_leaf s_elts] in Hst. rewrite Hll in Hst.
      split; [eapply stepped_trans; eauto|]. split; [assumption|]. split; [exact Hk'|].
      split; [discriminate|]. cbn. rewrite !app_length. cbn. lia.
  - (* internal nodes: the last child of the sibling moves over *)
    rewrite (sget_some _ _ (w_elts sn (pe :: s_elts sn))) by cell. cbn [bind w_elts s_leaf].
    destruct (s_leaf sn) eqn:Hlsn; [discriminate|].
    destruct (pop_last lks) as [(lks' & lc)| |] eqn:Eplk; cbn [bind] in Hv; try discriminate.
    inversion Hv; subst p' b; clear Hv. apply pop_last_inv in Eplk. subst lks.
    apply reps_snoc_inv in Hlks as (lki' & lcid & flk' & flc & Hkl & -> & Hrlk' & Hrlc & _).
    cbn [s_kids w_elts]. rewrite Hkl, pop_last_app. cbn [bind].
    rewrite (upd_some _ _ _ (w_elts l les')) by cell. cbn [bind].
    rewrite (upd_some _ _ _ (w_elts sn (pe :: s_elts sn))) by cell. cbn [bind].
    set (s6 := sset _ selfid _). exists s6. split; [reflexivity|].
    destruct (Hfin s6 (w_kids (w_elts l les') lki') (w_kids (w_elts sn (pe :: s_elts sn)) (lcid :: s_kids sn))
                 lks' flk' (lc :: sks) (flc :: fsk)) as (Hst & _ & HoR & _ & Hk');
      [unfold s6; repeat split; [rewrite !length_sset; reflexivity|cell..|intros; now cell]|try assumption; try reflexivity..|].
    + cbn. now constructor.
    + cbn. rewrite Hll. discriminate.
    + cbn. rewrite Hlsn. discriminate.
    + rewrite concat_app. cbn [concat]. now rewrite app_nil_r, <- app_assoc.
    + cbn [w_elts w_kids s_leaf s_elts] in Hst. rewrite Hll, Hlsn in Hst.
      split; [eapply stepped_trans; eauto|]. split; [assumption|]. split; [exact Hk'|].
      split; [discriminate|]. cbn. rewrite !app_length. cbn. lia.
Qed.

Lemma merge_sim s pid p fp selfid index p' :
  rep s pid p fp -> own s pid -> own s selfid -> kid_at s pid index selfid ->
  merge p index = Ok p' ->
  exists s', s_merge s selfid pid index = Ok s' /\
     stepped s pid fp s' p' /\ own s' selfid /\ kid_at s' pid index selfid /\
     S (length (n_kids p')) = length (n_kids p).
Proof.
  intros Hr Hop Hos Hkid Hv. destruct p as [plf pes pks]. unfold merge in Hv.
  destruct (split_at index pks) as [((ka & self) & rest)| |] eqn:Esp; cbn [bind] in Hv; try discriminate.
  apply split_at_inv in Esp as (-> & <-). destruct rest as [|rgt kb]; [discriminate|].
  destruct (split_at (length ka) pes) as [((ea & pe) & eb)| |] eqn:Ees; cbn [bind] in Hv; try discriminate.
  destruct self as [slf ses sks]. destruct rgt as [rlf res_ rks]. inversion Hv; subst p'; clear Hv.
  destruct (rep_open _ _ _ _ _ _ _ _ Hr Hop) as (ia & sid & ib & fa & fs & fb & Hopen & -> & ->).
  destruct (opened_kid _ _ _ _ _ _ _ _ _ _ _ _ Hopen) as (_ & Hkid').
  destruct Hopen as (n & Hn & Hcn & Hln & <- & Hkn & Hra & Hrs & Hrb & Hlia & Hnd).
  assert (sid = selfid) by exact (kid_at_fun _ _ _ _ _ Hkid' Hkid). subst sid.
  apply reps_cons_inv in Hrb as (rid & ib' & fr0 & fb' & -> & -> & Hrr & Hrb').
  destruct (open2 _ _ _ _ _ _ _ _ _ _ _ _ _ _ _ _ _ _ _ Hn Hcn Hln Hkn Hra Hrs Hrr Hrb' Hlia Hnd)
    as (sn & r & fsk & frk & -> & -> & <- & <- & <- & <- & Hopen).
  destruct (opened2_cells _ _ _ _ _ _ _ _ _ _ _ _ _ _ _ _ _ Hopen) as ((Hps & Hpr & Hsr) & (Hvp & Hvs & _) & Hndxy).
  pose proof Hopen as (_ & _ & _ & _ & Hsn & Hrn & _ & Hsks & Hrks & _ & _ & Hlks & Hlkr & _).
  assert (Hcs : s_cr sn = c) by (destruct Hos as (m & Hm & Hcm); congruence).
  unfold s_merge. rewrite (sget_some _ _ _ Hn). cbn [bind]. rewrite Hkn.
  replace (ia ++ selfid :: rid :: ib') with ((ia ++ [selfid]) ++ rid :: ib') by (now rewrite <- app_assoc).
  rewrite split_at_app by (rewrite app_length; cbn; lia). cbn [bind].
  rewrite (upd_some _ _ _ n) by cell. cbn [bind].
  rewrite (sget_some _ _ (w_kids n ((ia ++ [selfid]) ++ ib'))) by cell. cbn [bind w_kids s_elts]. rewrite Ees. cbn [bind].
  rewrite (upd_some _ _ _ (w_kids n ((ia ++ [selfid]) ++ ib'))) by cell. cbn [bind].
  rewrite (sget_some _ _ r) by cell. cbn [bind].
  rewrite (upd_some _ _ _ sn) by cell. cbn [bind].
  rewrite (sget_some _ _ (w_elts sn (s_elts sn ++ pe :: s_elts r))) by cell. cbn [bind w_elts s_leaf].
  pose proof (fun sF L' lks' fl' =>
    rebuild1 _ _ _ _ _ _ _ _ _ _ _ _ _ _ _ _ _ sF (w_elts (w_kids n ((ia ++ [selfid]) ++ ib')) (ea ++ eb)) L' lks' fl' Hopen Hcs) as Hfin.
  assert (Hlen : S (length (ka ++ Node (s_leaf sn) (s_elts sn ++ pe :: s_elts r) (if s_leaf sn then sks else sks ++ rks) :: kb))
                 = length (ka ++ Node (s_leaf sn) (s_elts sn) sks :: Node (s_leaf r) (s_elts r) rks :: kb)).
  { rewrite !app_length. cbn. lia. }
  destruct (s_leaf sn) eqn:Hlsn.
  - set (s3 := sset _ selfid _). exists s3. split; [reflexivity|].
    destruct (Hfin s3 (w_elts sn (s_elts sn ++ pe :: s_elts r)) sks fsk) as (Hst & HoL & Hk');
      [unfold s3; rewrite ?length_sset; try reflexivity; try assumption; cell..|].
    + intros; now cell.
    + cbn. now rewrite <- app_assoc.
    + cbn. intros _. now destruct (Hlks eq_refl).
    + apply incl_appl, incl_refl.
    + eapply NoDup_app_l; eauto.
    + cbn [w_elts s_leaf s_elts] in Hst. rewrite Hlsn in Hst. split; [assumption|]. split; [assumption|]. split; [exact Hk'|exact Hlen].
  - rewrite (upd_some _ _ _ (w_elts sn (s_elts sn ++ pe :: s_elts r))) by cell. cbn [bind].
    set (s4 := sset _ selfid _). exists s4. split; [reflexivity|].
    destruct (Hfin s4 (w_kids (w_elts sn (s_elts sn ++ pe :: s_elts r)) (s_kids sn ++ s_kids r)) (sks ++ rks) (fsk ++ frk)) as (Hst & HoL & Hk');
      [unfold s4; rewrite ?length_sset; try reflexivity; try assumption; cell..|].
    + intros; now cell.
    + cbn. now rewrite <- app_assoc.
    + cbn. now apply reps_app.
    + cbn. rewrite Hlsn. discriminate.
    + rewrite concat_app. apply incl_refl.
    + now rewrite concat_app.
    + cbn [w_elts w_kids s_leaf s_elts] in Hst. rewrite Hlsn in Hst. split; [assumption|]. split; [assumption|]. split; [exact Hk'|exact Hlen].
Qed.

Lemma balance_sim t s pid p fp cid i p' :
  rep s pid p fp -> own s pid -> own s cid -> kid_at s pid i cid ->
  balance t p i = Ok p' ->
  exists s', s_balance t s cid pid i = Ok s' /\ stepped s pid fp s' p' /\
     exists gid, kid_at s' pid (grown p p' i) gid /\ own s' gid.
Proof.
  intros Hr Hop Hoc Hkid Hv. unfold balance in Hv. destruct (n_leaf p) eqn:Hlf; [discriminate|]. unfold s_balance.
  assert (exists n, nth_error s pid = Some n /\ s_leaf n = false) as (n & Hn & Hlfn).
  { destruct p as [lf es ks]. apply rep_inv in Hr as (n & _ & Hn & Hl & _). exists n. cbn in Hlf. split; congruence. }
  rewrite (sget_some _ _ _ Hn). cbn [bind]. rewrite Hlfn.
  destruct (try_left_steal t p i) as [(p1 & ok1)| |] eqn:E1; cbn [bind] in Hv; try discriminate.
  destruct (left_steal_sim t s pid p fp cid i p1 ok1 Hr Hop Hoc Hkid E1) as (s1 & -> & Hst1 & Hoc1 & Hk1 & Hsame1 & Hlen1). cbn [bind].
  destruct ok1.
  { inversion Hv; subst p'. exists s1. split; [reflexivity|]. split; [assumption|]. exists cid. unfold grown. rewrite Hlen1, Nat.ltb_irrefl. auto. }
  specialize (Hsame1 eq_refl). subst p1. destruct Hst1 as (fp1 & Hr1 & Hsub1 & Hfr1 & Hop1).
  destruct (try_right_steal t p i) as [(p2 & ok2)| |] eqn:E2; cbn [bind] in Hv; try discriminate.
  destruct (right_steal_sim t s1 pid p fp1 cid i p2 ok2 Hr1 Hop1 Hoc1 Hk1 E2) as (s2 & -> & Hst2 & Hoc2 & Hk2 & Hsame2 & Hlen2). cbn [bind].
  apply (stepped_trans _ _ _ _ _ Hfr1 Hsub1) in Hst2.
  destruct ok2.
  { inversion Hv; subst p'. exists s2. split; [reflexivity|]. split; [assumption|]. exists cid. unfold grown. rewrite Hlen2, Nat.ltb_irrefl. auto. }
  specialize (Hsame2 eq_refl). subst p2. destruct Hst2 as (fp2 & Hr2 & Hsub2 & Hfr2 & Hop2).
  destruct i as [|im].
  - destruct (merge_sim s2 pid p fp2 cid 0 p' Hr2 Hop2 Hoc2 Hk2 Hv) as (s3 & -> & Hst3 & Hoc3 & Hk3 & _).
    exists s3. split; [reflexivity|]. split; [eapply stepped_trans; eauto|].
    exists cid. unfold grown. cbn [Nat.ltb Nat.leb andb]. rewrite andb_false_r. auto.
  - (* merge with the left sibling, which is copied first *)
    destruct p as [plf pes pks]. cbn [n_leaf] in Hlf. subst plf. pose proof Hv as Hv0. unfold merge in Hv0.
    destruct (split_at im pks) as [((ka & lft) & rest)| |] eqn:Esp; cbn [bind] in Hv0; try discriminate.
    apply split_at_inv in Esp as (-> & <-). clear Hv0.
    destruct (cow_child_open _ _ _ _ _ _ _ _ Hr2 Hop2) as (s3 & lid & ia1 & ib1 & fa1 & fl & fb1 & -> & Hopen & Hol & Hfr3 & Hsub3 & _). cbn [bind].
    destruct (opened_close _ _ _ _ _ _ _ _ _ _ _ _ Hopen) as (Hr3 & Hop3). destruct (opened_kid _ _ _ _ _ _ _ _ _ _ _ _ Hopen) as (_ & Hk3).
    destruct (merge_sim s3 pid _ _ lid (length ka) p' Hr3 Hop3 Hol Hk3 Hv) as (s4 & -> & Hst4 & Hol4 & Hk4 & Hml).
    exists s4. split; [reflexivity|]. split; [eapply stepped_trans; [exact Hfr2|exact Hsub2|]; eapply stepped_trans; eauto|].
    exists lid. unfold grown. cbn [n_kids] in *.
    assert (Hlt : (length (n_kids p') <? length (ka ++ lft :: rest))%nat = true) by (apply Nat.ltb_lt; lia).
    rewrite Hlt. cbn [andb Nat.ltb Nat.leb]. replace (S (length ka) - 1)%nat with (length ka) by lia. auto.
Qed.

End SIM.
