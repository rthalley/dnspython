(* C13 - faults on valid streams: a bad rcode / question in any message that is read, a truncated AXFR or
   UDP IXFR, a corrupt serial, a deletion that does not apply; and what a completed transfer guarantees
   whatever was received. *)
From DV Require Import Base.Prelude Model.XfrM Proofs.XfrSets Proofs.XfrSpec Proofs.XfrZone Proofs.XfrDiff
  Proofs.XfrSafety Proofs.XfrBasic Proofs.XfrRun Proofs.XfrSteps Proofs.XfrGeneral Proofs.XfrIxfr Proofs.XfrAxfr Proofs.XfrPerm
  Proofs.XfrGeneralAxfr Proofs.XfrGlue Proofs.XfrSections Proofs.XfrSoaFaults.

Definition bump (n : nat) (r : result * nat) : result * nat := (fst r, (n + snd r)%nat).

Lemma process_bad_rcode : forall s m, m_rcode m <> 0 ->
  exists s', process_message s m = (s', Some eTransfer) /\ pub s' = pub s.
Proof.
  intros s m H. unfold process_message. apply Z.eqb_neq in H. rewrite H. cbn [negb].
  eexists. split; [reflexivity|]. destruct (txn s); reflexivity.
Qed.

Lemma process_bad_question : forall s m qn qt q, m_rcode m = 0 -> m_question m = (qn, qt) :: q ->
  (qn <> origin \/ qt <> rdtype s) ->
  exists s' e, process_message s m = (s', Some e) /\ (e = eQName \/ e = eQType) /\ pub s' = pub s.
Proof.
  intros s m qn qt q Hrc Hq Hbad. unfold process_message. rewrite Hrc, Hq. cbn [Z.eqb negb].
  assert (Hrd : rdtype (match txn s with
                        | Some _ => s
                        | None => set_txn s (Some (if incremental s then pub s else []))
                        end) = rdtype s) by (destruct (txn s); reflexivity).
  rewrite Hrd.
  destruct (qn =? origin) eqn:E1; cbn [negb].
  - destruct (qt =? rdtype s) eqn:E2; cbn [negb].
    + apply Z.eqb_eq in E1. apply Z.eqb_eq in E2. destruct Hbad; congruence.
    + eexists. exists eQType. split; [reflexivity|]. split; [auto|]. destruct (txn s); reflexivity.
  - eexists. exists eQName. split; [reflexivity|]. split; [auto|]. destruct (txn s); reflexivity.
Qed.

(* the state reached after the messages ws1 of a valid IXFR response that is not yet complete *)
Lemma ixfr_partial : forall v0 chain z0 ws1 q rest,
  chain_ok v0 chain -> zeq z0 (zone_of v0) ->
  Forall (header_ok tIXFR) ws1 -> q <> [] ->
  concat (map w_records ws1) ++ q = ixfr_stream v0 chain ->
  match ws1 with w :: _ => w_records w <> [] | [] => True end ->
  ws1 = [] \/
  exists s1 n, inbound_xfr z0 tIXFR (Some (v_serial v0)) false (ws1 ++ rest) = bump n (drive true s1 rest)
               /\ running s1 /\ rdtype s1 = tIXFR /\ pub s1 = z0.
Proof.
  intros v0 chain z0 ws1 q rest Hok Hz Hh Hq Hcat Hfirst. apply chain_ok_ok_g in Hok.
  destruct (prefix_chunking _ _ _ _ _ Hh Hcat) as [Hdeg|(c & Hch & Hc)].
  { destruct ws1; [left; reflexivity|congruence]. }
  right. destruct (chain_ok_g_serial _ _ Hok) as [Hser Hlt].
  destruct (chain_prefix_run false v0 chain z0 _ c q Hok Hz (chain_ok_g_runs _ _ Hok) Hq Hc) as (sp & Hp & Hdp).
  rewrite <- (app_nil_r c) in Hch.
  destruct (ixfr_tcp z0 _ _ Hser Hlt ws1 rest c [] sp Hch Hp Hdp) as [R [k Hk]].
  exists sp, k. split; [|exact R]. destruct (drive true sp rest) as [r n] eqn:E. apply (Hk r n eq_refl).
Qed.

(* A message that is read before the transfer is complete and that process_message refuses in whatever
   state it finds, without touching the zone (E: the errors it may raise): the transfer is rejected. *)
Lemma ixfr_message_fault : forall (E : Z -> Prop) v0 chain z0 ws1 w' ws2 q,
  chain_ok v0 chain -> zeq z0 (zone_of v0) ->
  Forall (header_ok tIXFR) ws1 -> q <> [] ->
  concat (map w_records ws1) ++ q = ixfr_stream v0 chain ->
  match ws1 with w :: _ => w_records w <> [] | [] => True end ->
  (forall s, rdtype s = tIXFR ->
     exists s' e, process_message s (from_wire true w') = (s', Some e) /\ E e /\ pub s' = pub s) ->
  exists e n, E e /\ inbound_xfr z0 tIXFR (Some (v_serial v0)) false (ws1 ++ w' :: ws2) = (Error e z0, n).
Proof.
  intros E v0 chain z0 ws1 w' ws2 q Hok Hz Hh Hq Hcat Hfirst Hbad.
  destruct (ixfr_partial v0 chain z0 ws1 q (w' :: ws2) Hok Hz Hh Hq Hcat Hfirst) as [->|(s1 & n & Hn & R1 & R2 & R3)].
  - cbn [app]. rewrite inbound_ixfr_cons.
    destruct (Hbad (ixfr_init z0 (v_serial v0) false) eq_refl) as (s' & e & Hp & He & Hpub).
    rewrite Hp. cbn [cont]. rewrite Hpub. exists e. eexists. split; [exact He|reflexivity].
  - rewrite Hn, drive_cons by apply R1.
    destruct (Hbad s1 R2) as (s' & e & Hp & He & Hpub).
    rewrite Hp. cbn [cont bump fst snd]. rewrite Hpub, R3. exists e. eexists. split; [exact He|reflexivity].
Qed.

(* corrupt rcode: any message that is read before the transfer is complete *)
Theorem ixfr_rcode_fault_rejected : forall v0 chain z0 ws1 w' ws2 q,
  chain_ok v0 chain -> zeq z0 (zone_of v0) ->
  Forall (header_ok tIXFR) ws1 -> q <> [] ->
  concat (map w_records ws1) ++ q = ixfr_stream v0 chain ->
  match ws1 with w :: _ => w_records w <> [] | [] => True end ->
  w_rcode w' <> 0 ->
  exists n, inbound_xfr z0 tIXFR (Some (v_serial v0)) false (ws1 ++ w' :: ws2) = (Error eTransfer z0, n).
Proof.
  intros v0 chain z0 ws1 w' ws2 q Hok Hz Hh Hq Hcat Hfirst Hrc.
  destruct (ixfr_message_fault (eq eTransfer) v0 chain z0 ws1 w' ws2 q Hok Hz Hh Hq Hcat Hfirst) as (e & n & <- & Hn); [|eauto].
  intros s _. destruct (process_bad_rcode s (from_wire true w') Hrc) as [s' [Hp Hpub]]. eauto.
Qed.

(* wrong question section in any message that is read *)
Theorem ixfr_question_fault_rejected : forall v0 chain z0 ws1 w' ws2 q qn qt qs,
  chain_ok v0 chain -> zeq z0 (zone_of v0) ->
  Forall (header_ok tIXFR) ws1 -> q <> [] ->
  concat (map w_records ws1) ++ q = ixfr_stream v0 chain ->
  match ws1 with w :: _ => w_records w <> [] | [] => True end ->
  w_rcode w' = 0 -> w_question w' = (qn, qt) :: qs -> (qn <> origin \/ qt <> tIXFR) ->
  exists e n, (e = eQName \/ e = eQType) /\
    inbound_xfr z0 tIXFR (Some (v_serial v0)) false (ws1 ++ w' :: ws2) = (Error e z0, n).
Proof.
  intros v0 chain z0 ws1 w' ws2 q qn qt qs Hok Hz Hh Hq Hcat Hfirst Hrc Hqq Hbad.
  apply (ixfr_message_fault (fun e => e = eQName \/ e = eQType) v0 chain z0 ws1 w' ws2 q Hok Hz Hh Hq Hcat Hfirst).
  intros s Hs. rewrite <- Hs in Hbad. exact (process_bad_question s (from_wire true w') qn qt qs Hrc Hqq Hbad).
Qed.

(* "ends early" for AXFR: every proper prefix of the stream, in any division into messages *)
Theorem axfr_early_end_rejected : forall v z0 ser ws q,
  version_wf v -> Forall (header_ok tAXFR) ws -> q <> [] ->
  concat (map w_records ws) ++ q = axfr_stream v ->
  exists e n, inbound_xfr z0 tAXFR ser false ws = (Error e z0, n).
Proof. intros v z0 ser ws q Hv. apply axfr_early_end_rejected_general, version_wf_wf_g, Hv. Qed.

(* once the first SOA is noted it stays noted, and only a commit touches the zone *)
Lemma drive_done_soa : forall ws one_rr s s0 z' n, soa s = Some s0 ->
  drive one_rr s ws = (Done z', n) -> z' = pub s \/ announced s0 z'.
Proof.
  induction ws as [|w ws IH]; intros one_rr s s0 z' n Hs H; cbn [drive] in H; [discriminate|].
  destruct (process_message s (from_wire one_rr w)) as [s' [e|]] eqn:Hp; [discriminate|].
  destruct (process_message_inv _ _ _ _ Hp) as (_ & Hkeep & _ & Hpub). apply Hkeep in Hs.
  destruct (done s') eqn:Hd.
  - destruct (req_tsig s' && negb (w_tsig w)); [discriminate|]. inversion H; subst.
    destruct Hpub as [Hpub|(_ & _ & _ & _ & s1 & Hs1 & Ha)]; [left; exact Hpub|right].
    rewrite Hs in Hs1. inversion Hs1; subst s1. exact Ha.
  - destruct (drive one_rr s' ws) as [r n'] eqn:Hdr. inversion H; subst.
    destruct Hpub as [Hpub|(_ & Hd' & _)]; [|congruence]. rewrite <- Hpub. apply (IH _ _ _ _ _ Hs Hdr).
Qed.

(* A completed transfer, whatever was received: the zone is untouched (the up-to-date answer), or
   it holds the SOA announced by the first record of the response - hence the server's serial. *)
Theorem done_has_announced_soa : forall z rdt ser udp ws z' n,
  inbound_xfr z rdt ser udp ws = (Done z', n) ->
  z' = z \/ exists w ws' r0 rs, ws = w :: ws' /\ group (rdt =? tIXFR) (w_records w) = r0 :: rs
                                 /\ announced r0 z'.
Proof.
  intros z rdt ser udp ws z' n H. unfold inbound_xfr, xfr_run in H.
  destruct (init_t false z rdt ser udp) as [s|e] eqn:Hi; [|discriminate].
  destruct (init_t_inv _ _ _ _ _ _ Hi) as (Hp & Hsoa & _).
  (* the first message notes its first RRset as the SOA *)
  destruct ws as [|w ws]; cbn [drive] in H; [discriminate|].
  destruct (process_message s (from_wire (rdt =? tIXFR) w)) as [s' [e|]] eqn:Hm; [discriminate|].
  destruct (process_message_inv _ _ _ _ Hm) as (_ & _ & Hset & Hpub).
  destruct (Hset Hsoa eq_refl) as (r0 & rs & Hg & Hs').
  assert (R : z' = pub s' \/ announced r0 z').
  { destruct (done s').
    - destruct (req_tsig s' && negb (w_tsig w)); [discriminate|]. inversion H. left; reflexivity.
    - destruct (drive (rdt =? tIXFR) s' ws) as [r n'] eqn:Hdr. inversion H; subst. apply (drive_done_soa _ _ _ _ _ _ Hs' Hdr). }
  destruct R as [->|Ha]; [|right; exists w, ws, r0, rs; auto].
  destruct Hpub as [Hpub|(_ & _ & _ & _ & s1 & Hs1 & Ha)]; [left; congruence|right].
  rewrite Hs' in Hs1. inversion Hs1; subst s1. exists w, ws, r0, rs. auto.
Qed.

(* UDP: the datagram holds the first SOA and a proper, non-empty prefix of the rest of a valid
   response: "unexpected end of UDP IXFR" *)
Theorem udp_incomplete_rejected : forall v0 chain z0 w a q,
  chain_ok v0 chain -> zeq z0 (zone_of v0) -> header_ok tIXFR w ->
  a <> [] -> q <> [] ->
  w_records w = soa_rr (last chain v0) :: a ->
  soa_rr (last chain v0) :: a ++ q = ixfr_stream v0 chain ->
  forall ws, inbound_xfr z0 tIXFR (Some (v_serial v0)) true (w :: ws) = (Error eUDPEnd z0, 0%nat).
Proof.
  intros v0 chain z0 w a q Hok Hz Hw Ha Hq Hr Hcat ws. apply chain_ok_ok_g in Hok.
  unfold ixfr_stream in Hcat. cbv zeta in Hcat. inversion Hcat as [Hcat'].
  destruct (chain_ok_g_serial _ _ Hok) as [Hser Hlt].
  destruct (chain_prefix_run true v0 chain z0 _ a q Hok Hz (chain_ok_g_runs _ _ Hok) Hq Hcat') as (sp & Hp & Hdp).
  destruct (loopn_frame _ _ _ Hp Hdp) as (Fp & _ & Fu & _).
  rewrite (ixfr_start z0 _ true w ws _ a Hw Hr Hser Hlt (fun _ => Ha)), (loop_loopn _ _ _ Hp).
  cbn [after]. rewrite Fu, Hdp. cbn [ist is_udp andb negb cont]. rewrite Fp. reflexivity.
Qed.

(* Corrupt serial: after any number of correct difference sequences (pre, possibly none), the next
   SOA - the start of the next deletion section or the final SOA - carries a serial that is not the
   current one: "IXFR base serial mismatch", zone untouched.  (bad is any SOA record, given as the
   SOA of a pseudo-version; rest is whatever follows.) *)
Theorem ixfr_corrupt_serial_rejected : forall v0 pre vn bad rest z0 ws,
  version_wf v0 -> Forall version_wf pre -> zeq z0 (zone_of v0) ->
  (forall v, In v (v0 :: removelast pre) -> v_soa v <> v_soa vn) ->
  v_serial vn <> v_serial v0 -> serial_lt (v_serial vn) (v_serial v0) = false ->
  v_soa bad <> v_soa vn -> v_serial bad <> v_serial (last pre v0) ->
  chunking tIXFR (soa_rr vn :: diff_seqs v0 pre ++ soa_rr bad :: rest) ws ->
  exists n, inbound_xfr z0 tIXFR (Some (v_serial v0)) false ws = (Error eBaseMismatch z0, n).
Proof.
  intros v0 pre vn bad rest z0 ws Hv0 Hpre Hz Hd Hne Hlt Hbs Hbser Hch.
  assert (Hd' : forall x, In x (removelast (v0 :: pre)) -> v_soa x <> v_soa vn).
  { intros x Hin. apply Hd. destruct pre; [destruct Hin|exact Hin]. }
  destruct (secs_of_valid pre v0 vn z0 Hv0 Hpre Hd' Hz) as (Hsk & z' & Hap & _).
  rewrite <- secs_stream_of in Hch.
  destruct (ixfr_soa_out_of_place vn (secs_of v0 pre) [] bad rest z0 z' (v_serial v0) ws Hsk Hap (Forall_nil _)
              (or_intror eq_refl)) as [n Hn]; try assumption.
  - rewrite end_serial_of. exact Hbser.
  - right. exact (zeq_zone_of_quiet _ _ Hv0 Hz).
  - exists n. rewrite Hn. unfold mis_code. apply Z.eqb_neq in Hbs. rewrite Hbs. reflexivity.
Qed.

(* a deletion that does not apply (duplicate of a deleted record, corrupt owner / type / rdata of a
   deleted record, ...), after correct difference sequences and deletions *)
Theorem ixfr_bad_delete_rejected : forall v0 pre vn D1 r z1 rest z0 ws,
  version_wf v0 -> Forall version_wf pre -> zeq z0 (zone_of v0) ->
  (forall v, In v (v0 :: removelast pre ++ [last pre v0]) -> v_soa v <> v_soa vn) ->
  v_serial vn <> v_serial v0 -> serial_lt (v_serial vn) (v_serial v0) = false ->
  Forall plain D1 -> plain r ->
  dels (zone_of (last pre v0)) D1 = Some z1 -> del1 (look z1 (rkey r)) (r_data r) = None ->
  chunking tIXFR (soa_rr vn :: diff_seqs v0 pre ++ soa_rr (last pre v0) :: D1 ++ r :: rest) ws ->
  exists n, inbound_xfr z0 tIXFR (Some (v_serial v0)) false ws = (Error eDeleteNotExact z0, n).
Proof.
  intros v0 pre vn D1 r z1 rest z0 ws Hv0 Hpre Hz Hd Hne Hlt HD1 Hr Hdels Hdel Hch.
  assert (Hd' : forall x, In x (removelast (v0 :: pre)) -> v_soa x <> v_soa vn).
  { intros x Hin. apply Hd. destruct pre; [destruct Hin|].
    destruct Hin as [<-|Hin]; [left; reflexivity|right; apply in_or_app; left; exact Hin]. }
  assert (Hvi : v_soa (last pre v0) <> v_soa vn) by (apply Hd; right; apply in_or_app; right; left; reflexivity).
  destruct (secs_of_valid pre v0 vn z0 Hv0 Hpre Hd' Hz) as (Hsk & z' & Hap & Hz').
  destruct (dels_zeq D1 _ z' z1 (zeq_sym _ _ Hz') Hdels) as (z1' & Hd1 & Hz1).
  rewrite <- secs_stream_of in Hch.
  apply (ixfr_delete_rejected vn (secs_of v0 pre) (last pre v0) D1 r rest z0 z' z1' (v_serial v0) ws Hsk Hap
           (zeq_zone_of_quiet _ _ Hv0 Hz) (eq_sym (end_serial_of pre v0)) Hvi (plain_okrec _ HD1)); try assumption.
  - rewrite erase_plain_id by exact HD1. exact Hd1.
  - rewrite Hz1. exact Hdel.
Qed.
