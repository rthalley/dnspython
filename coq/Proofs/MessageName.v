(* The reader's name decoder (MessageM.nm_from_wire) follows the fuel-free decoding relation
   Dec of Proofs/NameCompress.v; the renderer's name writer as a pure emission function. *)
From DV Require Import Base.Prelude Model.NameM Model.MessageM.
From DV Require Import Proofs.NameOrder Proofs.NameValid Proofs.NameRel Proofs.NameWire Proofs.NameCompress.
Open Scope Z_scope.

Lemma firstn_skipn_app {A} (a b : list A) cur n :
  (cur + n <= length a)%nat -> firstn n (skipn cur (a ++ b)) = firstn n (skipn cur a).
Proof.
  intros H. rewrite skipn_app. rewrite firstn_app.
  replace (n - length (skipn cur a))%nat with O by (rewrite skipn_length; lia).
  cbn [firstn]. apply app_nil_r.
Qed.

Lemma rd_bytes_prefix msg ext endp cur n :
  (cur + n <= length msg)%nat -> (length msg <= endp)%nat ->
  rd_bytes (msg ++ ext) endp cur n = Ok (firstn n (skipn cur msg)).
Proof.
  intros H1 H2. unfold rd_bytes.
  destruct (Nat.ltb_spec (endp - cur) n); [lia|]. f_equal. apply firstn_skipn_app. exact H1.
Qed.

Lemma firstn1_skipn_nth {A} (l : list A) i x : nth_error l i = Some x -> firstn 1 (skipn i l) = [x].
Proof.
  revert i. induction l as [|y l IH]; intros [|i] H; try discriminate.
  - inversion H. reflexivity.
  - cbn [skipn]. apply IH. exact H.
Qed.

Lemma rd_u8_prefix msg ext endp cur x :
  nth_error msg cur = Some x -> (length msg <= endp)%nat -> rd_u8 (msg ++ ext) endp cur = Ok x.
Proof.
  intros H1 H2. unfold rd_u8.
  assert (cur < length msg)%nat by (apply nth_error_Some; congruence).
  rewrite rd_bytes_prefix by lia. rewrite (firstn1_skipn_nth _ _ _ H1). reflexivity.
Qed.

Lemma nm_lab_Dec msg ext endp :
  (length msg <= endp)%nat ->
  forall cur b ls h, Dec msg cur b ls h ->
  forall jump fl fur acc,
    (length msg - cur < fl)%nat ->
    (forall c fur' acc' ls' h', (c < b)%nat -> Dec msg c c ls' h' ->
        jump c fur' acc' = Ok (rev acc' ++ ls', Nat.max fur' h')) ->
    nm_lab (msg ++ ext) endp jump b fl cur fur acc = Ok (rev acc ++ ls, Nat.max fur h).
Proof.
  intros Hend cur b ls h D.
  induction D as [cur b H0 | cur b count l ls hi Hc Hr Hlen Hl D IH | cur b hi8 lo c ls h Hh H8 Hlo Hc Hcb D _];
    intros jump fl fur acc Hfl Hj.
  - destruct fl as [|fl]; [lia|]. cbn [nm_lab].
    rewrite (rd_u8_prefix _ _ _ _ _ H0 Hend). cbn [Z.eqb].
    cbn [rev]. reflexivity.
  - destruct fl as [|fl]; [lia|]. cbn [nm_lab].
    rewrite (rd_u8_prefix _ _ _ _ _ Hc Hend).
    destruct (Z.eqb_spec count 0); [lia|].
    destruct (Z.ltb_spec count 64); [|lia].
    rewrite rd_bytes_prefix by lia. rewrite <- Hl.
    rewrite IH.
    + cbn [rev]. rewrite <- app_assoc. cbn [app]. f_equal. f_equal. lia.
    + assert (0 < Z.to_nat count)%nat by lia. lia.
    + exact Hj.
  - destruct fl as [|fl]; [lia|]. cbn [nm_lab].
    rewrite (rd_u8_prefix _ _ _ _ _ Hh Hend).
    destruct (Z.eqb_spec hi8 0); [lia|].
    destruct (Z.ltb_spec hi8 64); [lia|].
    destruct (Z.leb_spec 192 hi8); [|lia].
    rewrite (rd_u8_prefix _ _ _ _ _ Hlo Hend).
    rewrite <- Hc.
    destruct (Nat.leb_spec b c); [lia|].
    pose proof (Dec_bounds _ _ _ _ _ D) as (B1 & B2 & B3).
    destruct (Nat.ltb_spec endp c); [lia|].
    rewrite (Hj c _ acc ls h Hcb D). f_equal. f_equal. lia.
Qed.

Lemma nm_ptr_Dec msg ext endp :
  (length msg <= endp)%nat ->
  forall fp cur b ls h fur acc, Dec msg cur b ls h -> (b < fp)%nat ->
    nm_ptr (msg ++ ext) endp fp cur fur b acc = Ok (rev acc ++ ls, Nat.max fur h).
Proof.
  intros Hend. induction fp as [|fp IH]; intros cur b ls h fur acc D Hb; [lia|].
  cbn [nm_ptr]. apply (nm_lab_Dec msg ext endp Hend cur b ls h D).
  - lia.
  - intros c fur' acc' ls' h' Hc D'. apply IH; [exact D'|lia].
Qed.

Theorem nm_from_wire_Dec msg ext endp start ls h :
  Dec msg start start ls h -> Valid ls -> (length msg <= endp)%nat ->
  nm_from_wire (msg ++ ext) endp start = Ok (ls, h).
Proof.
  intros D V Hend. unfold nm_from_wire.
  pose proof (Dec_bounds _ _ _ _ _ D) as (B1 & B2 & B3).
  destruct (Nat.ltb_spec endp start); [lia|].
  rewrite (nm_ptr_Dec msg ext endp Hend (S start) start start ls h start [] D) by lia.
  cbn [rev app]. rewrite (mk_name_valid _ V). cbn [bind]. f_equal. f_equal. lia.
Qed.

(* what tw_loop appends when the file has length pos *)
Fixpoint tw_em (labels : name) (pos : Z) (t : ctable) : list Z * ctable :=
  match labels with
  | [] => ([], t)
  | l :: r =>
      match tbl_get t labels with
      | Some p => (NameM.u16 (49152 + p), t)
      | None =>
          let t' := if (1 <? zlen labels) && (pos <=? 16383) then t ++ [(labels, pos)] else t in
          let em := tw_em r (pos + 1 + zlen l) t' in
          (zlen l :: l ++ fst em, snd em)
      end
  end.

Lemma tw_loop_em : forall labels file t,
  tw_loop labels false file t = (file ++ fst (tw_em labels (zlen file) t), snd (tw_em labels (zlen file) t)).
Proof.
  induction labels as [|l r IH]; intros file t.
  - cbn. rewrite app_nil_r. reflexivity.
  - cbn [tw_loop tw_em]. destruct (tbl_get t (l :: r)); [reflexivity|].
    rewrite IH. cbn [fst snd].
    replace (zlen (file ++ zlen l :: l)) with (zlen file + 1 + zlen l).
    + rewrite <- app_assoc. reflexivity.
    + unfold zlen. rewrite app_length. cbn [length]. lia.
Qed.

Lemma Forall_widen (new : list (name * Z)) a b a' b' :
  a' <= a -> b <= b' -> Forall (fun kv => a <= snd kv < b /\ 1 < zlen (fst kv)) new ->
  Forall (fun kv => a' <= snd kv < b' /\ 1 < zlen (fst kv)) new.
Proof. intros. eapply Forall_impl; [|eassumption]. cbn. intros; lia. Qed.

(* what the writer adds to the table: suffixes of two or more labels, at offsets inside what it emits *)
Lemma ext_tw_em : forall labels pos t,
  exists new, snd (tw_em labels pos t) = t ++ new /\
              Forall (fun kv => pos <= snd kv < pos + zlen (fst (tw_em labels pos t)) /\ 1 < zlen (fst kv)) new.
Proof.
  induction labels as [|l r IH]; intros pos t.
  - exists []. cbn. rewrite app_nil_r. auto.
  - cbn [tw_em]. destruct (tbl_get t (l :: r)).
    + exists []. cbn [snd]. rewrite app_nil_r. auto.
    + cbn [snd fst]. pose proof (zlen_nonneg l).
      match goal with |- context [if ?c then _ else _] => destruct c eqn:Ec end.
      * destruct (IH (pos + 1 + zlen l) (t ++ [(l :: r, pos)])) as (new & E & F).
        exists ((l :: r, pos) :: new). split; [rewrite <- app_assoc in E; exact E|].
        rewrite zlen_cons, zlen_app.
        pose proof (zlen_nonneg (fst (tw_em r (pos + 1 + zlen l) (t ++ [(l :: r, pos)])))).
        apply andb_true_iff in Ec. destruct Ec as [Ec _]. apply Z.ltb_lt in Ec.
        unfold name, label in *. constructor; [cbn [snd fst]; lia|]. eapply Forall_widen; [| |exact F]; lia.
      * destruct (IH (pos + 1 + zlen l) t) as (new & E & F).
        exists new. split; [exact E|]. rewrite zlen_cons, zlen_app. unfold name, label in *.
        pose proof (zlen_nonneg (fst (tw_em r (pos + 1 + zlen l) t))). eapply Forall_widen; [| |exact F]; lia.
Qed.

Lemma tw_em_new : forall labels pos t,
  exists new, snd (tw_em labels pos t) = t ++ new /\ Forall (fun kv => pos <= snd kv) new.
Proof.
  intros labels pos t. destruct (ext_tw_em labels pos t) as (new & E & F). exists new. split; [exact E|].
  eapply Forall_impl; [|exact F]. cbn beta. intros kv ((H & _) & _). exact H.
Qed.
