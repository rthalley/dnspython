(* C10: what the reference model predicts, in closed form - the laws of the reference store (get after
   put / delete, CNAME exclusivity), of the record-set algebra used on merge (TTL minimisation, singleton
   types, union / difference / exactness), RFC 1982 serial increments - and their transfer to the zone
   model (reads inside a transaction see its own writes). *)
From DV Require Import Base.Prelude Model.NameM Model.TxnM.
From DV Require Import Proofs.NameValid Proofs.NameOrder Proofs.NameRel.
From DV Require Import Proofs.TxnName Proofs.TxnStore Proofs.TxnLow Proofs.TxnSim Proofs.TxnThm Proofs.TxnIrrel.
Open Scope Z_scope.

Lemma node_find_app nd r ty cov :
  node_find (nd ++ [r]) cIN ty cov =
  match node_find nd cIN ty cov with
  | Some x => Some x
  | None => if rds_match r cIN ty cov then Some r else None
  end.
Proof.
  induction nd as [|x nd IH]; cbn [app node_find]; [destruct (rds_match r cIN ty cov); reflexivity|].
  destruct (rds_match x cIN ty cov); [reflexivity|exact IH].
Qed.

Lemma node_find_none_iff nd ty cov :
  Forall (fun r => r_cls r = cIN) nd ->
  (node_find nd cIN ty cov = None <-> ~ In (ty, cov) (map tkey nd)).
Proof.
  induction nd as [|x nd IH]; intros F; cbn [node_find map]; [split; auto|].
  inversion F; subst. destruct (rds_match x cIN ty cov) eqn:M.
  - apply (rds_match_tkey x ty cov H1) in M. split; [discriminate|]. intros H. exfalso. apply H. left. exact M.
  - rewrite (IH H2). split.
    + intros H [Hx|Hin]; [|auto]. apply (rds_match_tkey x ty cov H1) in Hx. congruence.
    + intros H Hin. apply H. right. exact Hin.
Qed.

Lemma node_find_some nd ty cov x : node_find nd cIN ty cov = Some x -> In x nd /\ rds_match x cIN ty cov = true.
Proof.
  induction nd as [|y nd IH]; cbn [node_find]; [discriminate|].
  destruct (rds_match y cIN ty cov) eqn:M.
  - intros H; inversion H; subst. split; [left; reflexivity|exact M].
  - intros H. destruct (IH H). split; [right|]; auto.
Qed.

Lemma node_find_filter p nd ty cov :
  node_wf nd ->
  node_find (filter p nd) cIN ty cov =
  match node_find nd cIN ty cov with
  | Some x => if p x then Some x else None
  | None => None
  end.
Proof.
  induction nd as [|y nd IH]; intros W; [reflexivity|]. cbn [filter node_find].
  pose proof W as [W1 W2]. inversion W1; inversion W2; subst.
  destruct (rds_match y cIN ty cov) eqn:M.
  - destruct (p y); cbn [node_find]; [rewrite M; reflexivity|].
    rewrite IH by (eapply node_wf_tail; eauto).
    assert (node_find nd cIN ty cov = None) as ->; [|reflexivity].
    apply node_find_none_iff; [exact H6|]. apply (rds_match_tkey y ty cov H5) in M. rewrite <- M. exact H1.
  - destruct (p y); cbn [node_find]; rewrite ?M; apply IH; eapply node_wf_tail; eauto.
Qed.

(* an rdataset found under (ty, cov) matches (ty0, cov0) iff these are the same pair *)
Lemma rds_match_found x ty cov ty0 cov0 :
  rds_match x cIN ty cov = true -> rds_match x cIN ty0 cov0 = (ty0 =? ty) && (cov0 =? cov).
Proof.
  unfold rds_match. rewrite !andb_true_iff, !Z.eqb_eq. intros [[-> <-] <-].
  rewrite Z.eqb_refl, (Z.eqb_sym ty0), (Z.eqb_sym cov0). reflexivity.
Qed.

(* Node.replace_rdataset: the stored rdataset is found; an rdataset of another type survives unless the
   CNAME / other-data rule evicts it *)
Lemma node_find_replace nd r ty cov :
  node_wf nd -> r_cls r = cIN ->
  node_find (node_replace nd r) cIN ty cov =
  if (r_ty r =? ty) && (r_cov r =? cov) then Some r
  else match node_find nd cIN ty cov with
       | Some x => if evicts_rds (classify_rds r) x then None else Some x
       | None => None
       end.
Proof.
  intros W C. rewrite node_replace_filter by assumption. rewrite node_find_app, node_find_filter by exact W.
  assert (rds_match r cIN ty cov = (r_ty r =? ty) && (r_cov r =? cov)) as Mr
    by (unfold rds_match; rewrite C, Z.eqb_refl; reflexivity).
  rewrite Mr.
  destruct (node_find nd cIN ty cov) as [x|] eqn:F.
  - apply node_find_some in F. destruct F as [_ Mx].
    rewrite (rds_match_found x ty cov _ _ Mx). destruct ((r_ty r =? ty) && (r_cov r =? cov)); cbn [orb negb]; [reflexivity|].
    destruct (evicts_rds (classify_rds r) x); reflexivity.
  - reflexivity.
Qed.

Section Laws.
  Variable c : cfg.

  Lemma r_get_entries s n a ty cov :
    canon c n = Ok a -> r_get c s n ty cov = Ok (node_find (entries_at a (rs_entries s)) cIN ty cov).
  Proof. intros H. unfold r_get. rewrite H. cbn [bind]. rewrite node_find_entries. reflexivity. Qed.

  (* get after put: same owner and same (type, covers) -> the stored rdataset; same owner, other type ->
     unchanged unless evicted by the CNAME / other-data rule; other owner -> unchanged *)
  Theorem r_get_put s n r s' n' a a' ty cov :
    swf (rs_entries s) -> r_cls r = cIN -> canon c n = Ok a -> canon c n' = Ok a' ->
    r_put c s n r = Ok s' ->
    r_get c s' n' ty cov =
    if name_eqb a a' then
      if (r_ty r =? ty) && (r_cov r =? cov) then Ok (Some r)
      else match r_get c s n' ty cov with
           | Ok (Some x) => if evicts_rds (classify_rds r) x then Ok None else Ok (Some x)
           | o => o
           end
    else r_get c s n' ty cov.
  Proof.
    intros Hwf Cr Ha Ha' Hp. unfold r_put in Hp. rewrite Ha in Hp. cbn [bind] in Hp. inversion Hp; subst s'. clear Hp.
    rewrite (r_get_entries _ n' a' ty cov Ha'), (r_get_entries s n' a' ty cov Ha'). cbn [rs_entries].
    rewrite entries_at_put by assumption. destruct (name_eqb a a') eqn:E; [|reflexivity].
    rewrite node_find_replace by (auto; apply Hwf). rewrite (entries_at_congr a a' _ E).
    destruct ((r_ty r =? ty) && (r_cov r =? cov)); [reflexivity|].
    destruct (node_find _ _ _ _) as [x|]; [destruct (evicts_rds _ x)|]; reflexivity.
  Qed.

  Theorem r_get_del_rds s n s' n' a a' ty0 cov0 ty cov :
    swf (rs_entries s) -> canon c n = Ok a -> canon c n' = Ok a' ->
    r_del_rds c s n ty0 cov0 = Ok s' ->
    r_get c s' n' ty cov =
    if name_eqb a a' && (ty0 =? ty) && (cov0 =? cov) then Ok None else r_get c s n' ty cov.
  Proof.
    intros Hwf Ha Ha' Hp. unfold r_del_rds in Hp. rewrite Ha in Hp. cbn [bind] in Hp. inversion Hp; subst s'. clear Hp.
    rewrite (r_get_entries _ n' a' ty cov Ha'), (r_get_entries s n' a' ty cov Ha'). cbn [rs_entries].
    rewrite entries_at_del_rds. destruct (name_eqb a a') eqn:E; cbn [andb]; [|reflexivity].
    rewrite node_find_filter, (entries_at_congr a a' _ E) by apply Hwf.
    destruct (node_find (entries_at a' (rs_entries s)) cIN ty cov) as [x|] eqn:F.
    - apply node_find_some in F. rewrite (rds_match_found x ty cov _ _ (proj2 F)).
      destruct ((ty0 =? ty) && (cov0 =? cov)); reflexivity.
    - destruct ((ty0 =? ty) && (cov0 =? cov)); reflexivity.
  Qed.

  Theorem r_exists_del_name s n s' n' a a' :
    canon c n = Ok a -> canon c n' = Ok a' -> r_del_name c s n = Ok s' ->
    r_exists c s' n' = if name_eqb a a' then Ok false else r_exists c s n'.
  Proof.
    intros Ha Ha' Hp. unfold r_del_name in Hp. rewrite Ha in Hp. cbn [bind] in Hp.
    unfold r_exists. rewrite Ha'. cbn [bind].
    destruct (existsb (at_name a) (rs_entries s)) eqn:Ex; inversion Hp; subst s'; clear Hp; cbn [rs_entries].
    - rewrite !existsb_entries, entries_at_drop. destruct (name_eqb a a'); reflexivity.
    - destruct (name_eqb a a') eqn:E; [|reflexivity].
      rewrite existsb_entries in *. rewrite <- (entries_at_congr a a' _ E).
      destruct (entries_at a (rs_entries s)); [reflexivity|discriminate].
  Qed.
End Laws.

(* TTL minimisation: the merged TTL is the smaller one (the new one if nothing was there) *)
Theorem union_ttl e r :
  r_ttl (rds_union e r) = match r_items e with [] => r_ttl r | _ => Z.min (r_ttl e) (r_ttl r) end.
Proof.
  unfold rds_union. destruct (fold_add_set (r_items r) (update_ttl e (r_ttl r))) as [l' ->].
  cbn [r_ttl set_items]. unfold update_ttl.
  destruct (r_items e); [reflexivity|].
  destruct (r_ttl r <? r_ttl e) eqn:L; cbn [set_ttl r_ttl]; lia.
Qed.

Lemma mem_set_add x y l : mem x (set_add y l) = mem x l || rdata_eqb x y.
Proof.
  unfold set_add. destruct (mem y l) eqn:M.
  - destruct (rdata_eqb x y) eqn:E; [|rewrite orb_false_r; reflexivity].
    assert (x = y) as ->.
    { unfold rdata_eqb in E. apply andb_true_iff in E. destruct E as [E1 E2]. apply Z.eqb_eq in E1, E2.
      destruct x, y; cbn in *; congruence. }
    rewrite M. reflexivity.
  - induction l as [|z l IH]; cbn [app mem]; [rewrite orb_false_r; reflexivity|].
    cbn [mem] in M. apply orb_false_iff in M. destruct M as [_ M]. rewrite (IH M).
    destruct (rdata_eqb x z); reflexivity.
Qed.

(* plain types: the merged set is the union, existing records first *)
Theorem union_items_plain e r :
  is_singleton (r_ty e) = false ->
  (forall x, mem x (r_items (rds_union e r)) = mem x (r_items e) || mem x (r_items r)) /\
  exists suffix, r_items (rds_union e r) = r_items e ++ suffix.
Proof.
  intros Hs. unfold rds_union.
  assert (forall l x0, is_singleton (r_ty x0) = false ->
            (forall x, mem x (r_items (fold_left rds_add l x0)) = mem x (r_items x0) || mem x l) /\
            exists suffix, r_items (fold_left rds_add l x0) = r_items x0 ++ suffix) as K.
  { induction l as [|y l IH]; intros x0 H0; cbn [fold_left mem].
    - split; [intros; rewrite orb_false_r; reflexivity|exists []; rewrite app_nil_r; reflexivity].
    - assert (r_items (rds_add x0 y) = set_add y (r_items x0)) as A.
      { unfold rds_add. rewrite H0. destruct (r_items x0); reflexivity. }
      destruct (IH (rds_add x0 y)) as [I1 [sfx I2]]; [exact H0|]. split.
      + intros x. rewrite I1, A, mem_set_add. destruct (mem x (r_items x0)), (rdata_eqb x y), (mem x l); reflexivity.
      + rewrite I2, A. unfold set_add. destruct (mem y (r_items x0)); [exists sfx; reflexivity|].
        exists (y :: sfx). rewrite <- app_assoc. reflexivity. }
  destruct (update_ttl_set e (r_ttl r)) as [t' ->]. apply (K (r_items r) (set_ttl e t') Hs).
Qed.

(* singleton types (SOA, CNAME, DNAME, NSEC, NXT): the newest record wins *)
Theorem union_items_singleton e r :
  is_singleton (r_ty e) = true ->
  r_items (rds_union e r) =
  match rev (r_items r) with
  | [] => r_items e
  | newest :: _ => [newest]
  end.
Proof.
  intros Hs. unfold rds_union.
  destruct (update_ttl_set e (r_ttl r)) as [t' ->]. change (r_items e) with (r_items (set_ttl e t')).
  change (r_ty e) with (r_ty (set_ttl e t')) in Hs. revert Hs. generalize (set_ttl e t') as x0.
  induction (r_items r) as [|y l IH] using rev_ind; intros x0 Hs; [reflexivity|].
  rewrite fold_left_app, rev_app_distr. cbn [fold_left rev app].
  destruct (fold_add_set l x0) as [l' ->]. unfold rds_add. cbn [r_items r_ty set_items]. rewrite Hs.
  destruct l'; reflexivity.
Qed.

(* delete: the records of the argument are removed (record sets have no duplicates) *)
Definition nodup_items (l : list rdata) : Prop := NoDup l.

Lemma rdata_eqb_eq x y : rdata_eqb x y = true <-> x = y.
Proof.
  unfold rdata_eqb. rewrite andb_true_iff, !Z.eqb_eq. destruct x, y; cbn. split; [intros [-> ->]; reflexivity|].
  intros H; inversion H; auto.
Qed.

Lemma mem_In x l : mem x l = true <-> In x l.
Proof.
  induction l as [|y l IH]; cbn; [split; [discriminate|tauto]|].
  rewrite orb_true_iff, rdata_eqb_eq, IH. split; intros [H|H]; auto.
Qed.

Lemma mem_discard x y l : NoDup l -> mem x (discard y l) = mem x l && negb (rdata_eqb x y).
Proof.
  induction l as [|z l IH]; intros N; cbn [discard mem]; [reflexivity|].
  inversion N; subst. destruct (rdata_eqb y z) eqn:E.
  - apply rdata_eqb_eq in E. subst z.
    destruct (rdata_eqb x y) eqn:Exy; cbn [orb negb].
    + apply rdata_eqb_eq in Exy. subst x. rewrite andb_false_r.
      destruct (mem y l) eqn:M; [apply mem_In in M; contradiction|reflexivity].
    + rewrite andb_true_r. reflexivity.
  - cbn [mem]. rewrite (IH H2).
    destruct (rdata_eqb x z) eqn:Exz; cbn [orb]; [|reflexivity].
    apply rdata_eqb_eq in Exz. subst z.
    destruct (rdata_eqb x y) eqn:Exy; [|reflexivity].
    apply rdata_eqb_eq in Exy. subst y. rewrite (proj2 (rdata_eqb_eq x x) eq_refl) in E. discriminate.
Qed.

Lemma discard_nodup y l : NoDup l -> NoDup (discard y l).
Proof.
  induction l as [|z l IH]; intros N; cbn [discard]; [constructor|].
  inversion N; subst. destruct (rdata_eqb y z); [exact H2|].
  constructor; [|auto]. intros Hin. apply H1. apply mem_In. apply mem_In in Hin.
  rewrite (mem_discard z y l H2) in Hin. apply andb_true_iff in Hin. tauto.
Qed.

Theorem difference_items e r :
  NoDup (r_items e) ->
  (forall x, mem x (r_items (rds_difference e r)) = mem x (r_items e) && negb (mem x (r_items r))) /\
  r_ttl (rds_difference e r) = r_ttl e.
Proof.
  intros N. split; [|reflexivity]. unfold rds_difference. cbn [r_items set_items].
  revert N. generalize (r_items e) as l. induction (r_items r) as [|y l' IH]; intros l N x; cbn [fold_left mem].
  - rewrite andb_true_r. reflexivity.
  - rewrite (IH (discard y l) (discard_nodup y l N)), (mem_discard x y l N), negb_orb.
    destruct (mem x l), (rdata_eqb x y), (mem x l'); reflexivity.
Qed.

(* delete_exact: accepted exactly when every record of the argument is there *)
Theorem exact_test e r :
  r_cls e = r_cls r -> tkey e = tkey r -> NoDup (r_items e) -> NoDup (r_items r) ->
  (rds_eqb (rds_intersection e r) r = true <-> forall x, In x (r_items r) -> In x (r_items e)).
Proof.
  intros Hc Hk Ne Nr. unfold tkey in Hk. inversion Hk as [[Ht Hv]].
  unfold rds_eqb, rds_intersection. destruct (update_ttl_set e (r_ttl r)) as [t' ->].
  cbn [r_cls r_ty r_cov r_items set_items set_ttl]. rewrite Hc, Ht, Hv, !Z.eqb_refl. cbn [andb].
  set (I := filter (fun x => mem x (r_items r)) (r_items e)).
  assert (NoDup I) as NI by (apply NoDup_filter; exact Ne).
  assert (forall x, In x I <-> In x (r_items e) /\ In x (r_items r)) as HI
    by (intros x; unfold I; rewrite filter_In, mem_In; tauto).
  unfold items_eqb. rewrite andb_true_iff, Nat.eqb_eq, forallb_forall. split.
  - intros [Hlen _] x Hx.
    (* I is a duplicate-free sublist of r of the same length, hence all of r *)
    assert (incl I (r_items r)) as Inc by (intros y Hy; apply HI in Hy; tauto).
    assert (incl (r_items r) I) as Inc'.
    { apply NoDup_length_incl; [exact NI|lia|exact Inc]. }
    apply Inc' in Hx. apply HI in Hx. tauto.
  - intros Hall. split.
    + apply Nat.le_antisymm.
      * apply NoDup_incl_length; [exact NI|]. intros y Hy. apply HI in Hy. tauto.
      * apply NoDup_incl_length; [exact Nr|]. intros y Hy. apply HI. auto.
    + intros x Hx. apply mem_In. apply HI in Hx. tauto.
Qed.

(* RFC 1982 serial increments *)
(* dns.serial.Serial.__lt__ (32 bits) = RFC 1982 section 3.2 *)
Definition serial_lt (a b : Z) : Prop :=
  (a < b /\ b - a < 2147483648) \/ (a > b /\ a - b > 2147483648).

Definition bump (s : Z) : Z := if s =? 0 then 1 else s.

Theorem serial_increment v d :
  0 <= v < 4294967296 -> 1 <= d <= 2147483647 ->
  exists s, serial_add v d = Ok s /\ s = (v + d) mod 4294967296 /\ serial_lt v s.
Proof.
  intros Hv Hd. unfold serial_add. rewrite Z.abs_eq by lia.
  destruct (d >? 2147483647) eqn:E; [lia|].
  rewrite (Z.mod_small v) by lia. eexists. split; [reflexivity|]. split; [reflexivity|].
  unfold serial_lt. destruct (Z_lt_dec (v + d) 4294967296).
  - rewrite Z.mod_small by lia. left. lia.
  - assert ((v + d) mod 4294967296 = v + d - 4294967296) as ->.
    { symmetry. apply Z.mod_unique with 1; lia. }
    right. lia.
Qed.

(* with the "0 becomes 1" rule of update_serial the new serial still follows the old one, except in one
   corner: increment 2^31-1 landing on 0 gives distance exactly 2^31, which RFC 1982 leaves undefined *)
Theorem serial_increment_bumped v d s :
  0 <= v < 4294967296 -> 1 <= d <= 2147483646 -> serial_add v d = Ok s -> serial_lt v (bump s).
Proof.
  intros Hv Hd H. destruct (serial_increment v d Hv) as (s' & H' & Hs & Hlt); [lia|].
  assert (s' = s) as Es by congruence. rewrite Es in *. clear Es H'. unfold bump. destruct (s =? 0) eqn:E; [|exact Hlt].
  apply Z.eqb_eq in E. unfold serial_lt in *.
  assert (v + d = 4294967296) as Hsum.
  { rewrite E in Hs. symmetry in Hs. apply Z.mod_divide in Hs; [|lia]. destruct Hs as [k Hk]. nia. }
  right. lia.
Qed.

Theorem serial_increment_refused v d : d > 2147483647 -> serial_add v d = Lib eValueError.
Proof. intros H. unfold serial_add. rewrite Z.abs_eq by lia. destruct (d >? 2147483647) eqn:E; [reflexivity|lia]. Qed.

Theorem serial_corner_refuted :
  exists v d s, 0 <= v < 4294967296 /\ 1 <= d <= 2147483647 /\ serial_add v d = Ok s /\
                ~ serial_lt v (bump s) /\ ~ serial_lt (bump s) v.
Proof.
  exists 2147483649, 2147483647, 0. repeat split; try lia; try reflexivity.
  - unfold serial_lt, bump. cbn. lia.
  - unfold serial_lt, bump. cbn. lia.
Qed.

(* the zone model obeys the same laws *)
Section Impl.
  Variable c : cfg.
  Hypothesis W : wfc c.

  (* reads inside a transaction see its own writes: what put_rdataset stored is what get_rdataset
     returns, under either spelling of the owner *)
  Theorem read_your_writes v s n r v' n' :
    R c v s -> Valid n -> Valid n' -> r_cls r = cIN ->
    res_rel ci (canon c n) (canon c n') ->
    put_rdataset c v n r = Ok v' ->
    match canon c n with
    | Ok _ => get_rdataset c v' n' (r_ty r) (r_cov r) = Ok (Some r)
    | _ => True
    end.
  Proof.
    intros HR Vn Vn' Cr Hc Hp.
    pose proof (sim_put c W v s n r HR Vn Cr) as SP. rewrite Hp in SP.
    destruct (r_put c s n r) as [s'|e|e] eqn:Rp; cbn in SP; try contradiction.
    destruct (canon c n) as [a|e|e] eqn:Ca; [|exact Logic.I|exact Logic.I].
    destruct (canon c n') as [a'|e|e] eqn:Ca'; cbn in Hc; try contradiction.
    rewrite (sim_get c W v' s' n' _ _ SP Vn').
    destruct HR as (_ & Hwf & _).
    rewrite (r_get_put c s n r s' n' a a' _ _ Hwf Cr Ca Ca' Rp).
    rewrite (proj2 (name_eqb_ck a a') Hc), !Z.eqb_refl. reflexivity.
  Qed.

  (* the whole add(): afterwards get() returns the union of what was there and what was added *)
  Theorem add_then_get v s n r v' :
    R c v s -> Valid n -> r_cls r = cIN -> (r_ty r =? tSOA) = false ->
    hl_add (zstore c) c false [AName n; ARds r] v = Ok v' ->
    exists old, get_rdataset c v n (r_ty r) (r_cov r) = Ok old /\
      get_rdataset c v' n (r_ty r) (r_cov r) =
      Ok (Some (match old with Some e => rds_union e r | None => r end)).
  Proof.
    intros HR Vn Cr Hsoa H. unfold hl_add, add_parse in H. cbn [rdataset_from_args bind fst snd] in H.
    rewrite Cr, Hsoa in H. cbn [Z.eqb negb andb] in H. change (cIN =? cIN) with true in H. cbn [negb bind] in H.
    cbn [s_get s_put zstore] in H.
    destruct (get_rdataset c v n (r_ty r) (r_cov r)) as [old|e|e] eqn:G; cbn [bind] in H; try discriminate.
    exists old. split; [reflexivity|].
    set (r2 := match old with Some e => rds_union e r | None => r end) in *.
    assert (r_cls r2 = cIN /\ r_ty r2 = r_ty r /\ r_cov r2 = r_cov r) as (C2 & T2 & V2).
    { unfold r2. destruct old as [e|]; [|auto].
      rewrite (sim_get c W v s n _ _ HR Vn) in G. pose proof (r_get_cls c s n _ _ e G) as Ce.
      unfold r_get in G. destruct (canon c n); cbn [bind] in G; try discriminate.
      destruct (find _ _) eqn:F; inversion G; subst. apply find_some in F. destruct F as [_ F].
      unfold at_key, rds_match in F. rewrite !andb_true_iff, !Z.eqb_eq in F.
      destruct (rds_union_set (e_rds e0) r) as (t' & l' & ->). cbn. tauto. }
    pose proof (read_your_writes v s n r2 v' n HR Vn Vn C2) as RY.
    assert (res_rel ci (canon c n) (canon c n)) as Hrefl by (destruct (canon c n); cbn; reflexivity).
    specialize (RY Hrefl H). rewrite T2, V2 in RY.
    destruct (canon c n) eqn:Ca; [exact RY| |].
    - exfalso. unfold put_rdataset, maybe_cow in H. pose proof (validate_canon c n W Vn) as VC. rewrite Ca in VC.
      destruct (validate_name c n); try contradiction. discriminate.
    - exfalso. eapply canon_never_internal; eauto.
  Qed.
End Impl.
