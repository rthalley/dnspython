(* C10: record sets never hold duplicates and singleton types (SOA, CNAME, DNAME, NSEC, NXT) never hold
   more than one record - an invariant of every reachable zone, whatever is added, merged or deleted. *)
From DV Require Import Base.Prelude Model.NameM Model.TxnM Proofs.ListFacts.
From DV Require Import Proofs.NameValid Proofs.NameOrder Proofs.NameRel.
From DV Require Import Proofs.TxnName Proofs.TxnStore Proofs.TxnLow Proofs.TxnSim Proofs.TxnThm Proofs.TxnIrrel Proofs.TxnSpec.
Open Scope Z_scope.

Definition items_wf (r : rds) : Prop :=
  NoDup (r_items r) /\ (is_singleton (r_ty r) = true -> (length (r_items r) <= 1)%nat).

(* what callers can hand over: real Rdataset / RRset objects satisfy this by construction (Rdataset.add) *)
Definition arg_items_wf (a : arg) : Prop :=
  match a with ARds r | ARRset _ r => items_wf r | _ => True end.

Definition op_items_wf (o : op) : Prop :=
  match o with
  | OAdd a | OReplace a | ODelete a | ODeleteExact a => Forall arg_items_wf a
  | _ => True
  end.

Definition ent_items_wf (l : list entry) : Prop := Forall (fun e => items_wf (e_rds e)) l.

Lemma set_add_nodup x l : NoDup l -> NoDup (set_add x l).
Proof.
  intros N. unfold set_add. destruct (mem x l) eqn:M; [exact N|].
  apply NoDup_snoc; [exact N|]. intros Hin. apply mem_In in Hin. congruence.
Qed.

Lemma set_add_length x l : (length (set_add x l) <= S (length l))%nat.
Proof. unfold set_add. destruct (mem x l); [lia|]. rewrite app_length. cbn. lia. Qed.

Lemma rds_add_wf r x : items_wf r -> items_wf (rds_add r x).
Proof.
  intros [N S1]. unfold rds_add, items_wf. cbn [r_items r_ty set_items].
  destruct (r_items r) as [|y l] eqn:E.
  - split; [cbn; repeat constructor; intros []|cbn; lia].
  - destruct (is_singleton (r_ty r)) eqn:Sg.
    + split; [cbn; repeat constructor; intros []|cbn; lia].
    + split; [apply set_add_nodup; exact N|discriminate].
Qed.

Lemma fold_add_wf l r : items_wf r -> items_wf (fold_left rds_add l r).
Proof. revert r. induction l; cbn; intros; auto using rds_add_wf. Qed.

Lemma update_ttl_wf r t : items_wf r -> items_wf (update_ttl r t).
Proof.
  unfold update_ttl, items_wf. destruct (r_items r) eqn:E; cbn; [rewrite E; auto|].
  destruct (t <? r_ttl r); cbn; rewrite ?E; auto.
Qed.

Lemma union_wf e r : items_wf e -> items_wf (rds_union e r).
Proof. intros H. unfold rds_union. apply fold_add_wf, update_ttl_wf, H. Qed.

Lemma discard_length y l : (length (discard y l) <= length l)%nat.
Proof. induction l; cbn; [lia|]. destruct (rdata_eqb y a); cbn; lia. Qed.

Lemma difference_wf e r : items_wf e -> items_wf (rds_difference e r).
Proof.
  intros [N S1]. unfold rds_difference, items_wf. cbn [r_items r_ty set_items].
  assert (forall l0 l, NoDup l -> NoDup (fold_left (fun acc x => discard x acc) l0 l) /\
                       (length (fold_left (fun acc x => discard x acc) l0 l) <= length l)%nat) as K.
  { induction l0 as [|y l0 IH]; intros l Nl; cbn; [split; [exact Nl|lia]|].
    destruct (IH (discard y l) (discard_nodup y l Nl)) as [I1 I2]. split; [exact I1|].
    pose proof (discard_length y l). lia. }
  destruct (K (r_items r) (r_items e) N) as [K1 K2]. split; [exact K1|]. intros Sg. specialize (S1 Sg). lia.
Qed.

Lemma from_rdata_wf ttl ty body aux cls : items_wf (from_rdata ttl ty body aux cls).
Proof. unfold from_rdata, items_wf. cbn. split; [repeat constructor; intros []|lia]. Qed.

Lemma to_rdataset_wf r r' : to_rdataset r = Ok r' -> items_wf r'.
Proof.
  unfold to_rdataset. destruct (r_items r); [discriminate|]. intros H; inversion H; subst.
  apply fold_add_wf. try apply rds_add_wf. split; [cbn; constructor|intros _; cbn; lia].
Qed.

Lemma items_wf_closed : rds_closed items_wf.
Proof.
  split.
  - intros e r He _. apply union_wf, He.
  - intros e r He. apply difference_wf, He.
  - apply from_rdata_wf.
  - intros r r' _. apply to_rdataset_wf.
  - intros ttl body ser. split; cbn; [repeat constructor; intros []|intros _; lia].
Qed.

Section Items.
  Variable c : cfg.

  Definition st_wf (s : rstate) : Prop := ent_items_wf (rs_entries s).

  Lemma r_get_wf s n ty cov r : st_wf s -> r_get c s n ty cov = Ok (Some r) -> items_wf r.
  Proof.
    intros W. unfold r_get. destruct (canon c n); cbn [bind]; try discriminate.
    destruct (find _ _) eqn:F; intros H; inversion H; subst.
    apply find_some in F. destruct F as [F _]. eapply Forall_forall in W; eauto.
  Qed.

  Lemma filter_wf p l : ent_items_wf l -> ent_items_wf (filter p l).
  Proof.
    intros W. apply Forall_forall. intros x Hx. apply filter_In in Hx. eapply Forall_forall in W; [exact W|tauto].
  Qed.

  Lemma r_put_wf s n r s' : st_wf s -> items_wf r -> r_put c s n r = Ok s' -> st_wf s'.
  Proof.
    intros W Wr. unfold r_put. destruct (canon c n); cbn [bind]; try discriminate.
    intros H; inversion H; subst. unfold st_wf. cbn [rs_entries]. apply Forall_app. split; [apply filter_wf, W|].
    constructor; [exact Wr|constructor].
  Qed.

  Lemma r_del_name_wf s n s' : st_wf s -> r_del_name c s n = Ok s' -> st_wf s'.
  Proof.
    intros W. unfold r_del_name. destruct (canon c n); cbn [bind]; try discriminate.
    destruct (existsb _ _); intros H; inversion H; subst; [apply filter_wf, W|exact W].
  Qed.

  Lemma r_del_rds_wf s n ty cov s' : st_wf s -> r_del_rds c s n ty cov = Ok s' -> st_wf s'.
  Proof.
    intros W. unfold r_del_rds. destruct (canon c n); cbn [bind]; try discriminate.
    intros H; inversion H; subst. apply filter_wf, W.
  Qed.

  Definition spec_items_wf (x : txnspec) : Prop := Forall op_items_wf (x_ops x).

  (* whatever names the calls are given *)
  Theorem spec_hist_items_wf h l :
    Forall spec_items_wf h -> ent_items_wf l -> Forall (fun x => ent_items_wf (snd x)) (spec_hist c h l).
  Proof.
    intros F Wl.
    apply (run_hist_inv (rstore c) c (fun _ => True) st_wf ent_items_wf items_wf items_wf_closed Logic.I);
      auto using hist_rel_refl.
    - intros z b H. destruct b; [constructor|exact H].
    - intros s n ty cov r W G. split; [exact (r_get_cls c _ _ _ _ _ G)|exact (r_get_wf _ _ _ _ _ W G)].
    - intros s n r s' W _ _ Wr. apply r_put_wf; assumption.
    - intros s n s' W _. apply r_del_name_wf; exact W.
    - intros s n ty cov s' W _. apply r_del_rds_wf; exact W.
  Qed.
End Items.

(* every rdataset an observer can find in a reachable zone has no duplicates, and at most one record if its
   type is a singleton type *)
Theorem singleton_invariant c h z l :
  wfc c -> Forall spec_valid h -> Forall spec_items_wf h -> RP c z l -> ent_items_wf l ->
  Forall (fun x => forall n nd, Valid n -> zone_get_node c (snd x) n = Some nd -> Forall items_wf nd) (impl_hist c h z).
Proof.
  intros W V Fi HP Wl.
  pose proof (refines_hist c h z l W V HP) as Rf.
  pose proof (spec_hist_items_wf c h l Fi Wl) as Ws.
  revert Ws. induction Rf as [|x y hx hy [_ Hxy] Rf IH]; intros Ws; [constructor|].
  inversion Ws; subst. constructor; [|apply IH; assumption].
  intros n nd Vn Hn. rewrite (RP_observe c (snd x) (snd y) n W Vn Hxy) in Hn. unfold ref_node in Hn.
  destruct (canon c n) as [a| |]; try discriminate.
  assert (nd = entries_at a (snd y)) as -> by (destruct (entries_at a (snd y)); inversion Hn; reflexivity).
  unfold entries_at. apply Forall_forall. intros r Hr. apply in_map_iff in Hr. destruct Hr as (e & <- & He).
  apply filter_In in He. destruct He as [He _]. eapply Forall_forall in H1; eauto.
Qed.
