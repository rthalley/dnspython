(* C13 - convergence for responses whose sections / body list their records in any order: responses
   without out-of-zone records among those that may carry them. *)
From DV Require Import Base.Prelude Model.XfrM Proofs.XfrSets Proofs.XfrSpec Proofs.XfrZone Proofs.XfrDiff
  Proofs.XfrSafety Proofs.XfrBasic Proofs.XfrRun Proofs.XfrSteps Proofs.XfrGeneral Proofs.XfrIxfr Proofs.XfrAxfr Proofs.XfrPerm Proofs.XfrGlue.
From Coq Require Import Sorting.Permutation.

(* records that are, as a set, records of a well-formed zone: all in zone, none to erase *)
Lemma same_set_plain : forall X Y, same_set X Y -> Forall plain Y -> Forall okrec X /\ erase X = X.
Proof.
  intros X Y H HY. assert (HX : Forall plain X).
  { rewrite Forall_forall in *. intros r Hr. apply HY, H, Hr. }
  split; [apply plain_okrec, HX|apply erase_plain_id, HX].
Qed.

Lemma ixfr_seqs_glue_of : forall v0 chain mid, ixfr_seqs v0 chain mid ->
  version_wf v0 -> Forall version_wf chain -> ixfr_seqs_glue v0 chain mid.
Proof.
  intros v0 chain mid HS. induction HS as [v|v w rest D A tail PD PA HS IH]; intros Hv Hch; [constructor|].
  inversion Hch as [|? ? Hw Hch']; subst.
  destruct (same_set_plain D _ (perm_same_set _ _ PD) (zminus_plain _ (v_rest w) (proj2 Hv))) as [OD ED].
  destruct (same_set_plain A _ PA (zminus_plain _ (v_rest v) (proj2 Hw))) as [OA EA].
  constructor; rewrite ?ED, ?EA; auto.
Qed.

Lemma axfr_response_glue_of : forall v recs, version_wf v -> axfr_response v recs -> axfr_response_glue v recs.
Proof.
  intros v recs Hv [B [PB ->]]. destruct (same_set_plain B _ PB (body_plain _ (proj2 Hv))) as [OB EB].
  exists B. rewrite EB. auto.
Qed.

(* multi-step incremental chains, records of every section in any order, any division into messages *)
Theorem ixfr_converges_any_order : forall v0 chain z0 recs ws,
  chain_ok v0 chain -> zeq z0 (zone_of v0) -> ixfr_response v0 chain recs -> chunking tIXFR recs ws ->
  exists z' n, inbound_xfr z0 tIXFR (Some (v_serial v0)) false ws = (Done z', n)
               /\ zeq z' (zone_of (last chain v0)).
Proof.
  intros v0 chain z0 recs ws Hok Hz [mid [HS ->]]. apply ixfr_converges_with_glue; [exact Hok|exact Hz|].
  exists mid. split; [|reflexivity]. apply ixfr_seqs_glue_of; [exact HS| |]; apply Hok.
Qed.

(* AXFR with the body in any order *)
Theorem axfr_converges_any_order : forall v z0 ser recs ws,
  version_wf v -> axfr_response v recs -> chunking tAXFR recs ws ->
  exists z' n, inbound_xfr z0 tAXFR ser false ws = (Done z', n) /\ zeq z' (zone_of v).
Proof. intros v z0 ser recs ws Hv Hr. apply axfr_converges_with_glue; [exact Hv|apply axfr_response_glue_of; assumption]. Qed.

(* AXFR-style answer to an IXFR request, body in any order *)
Theorem axfr_style_ixfr_converges_any_order : forall v z0 ser recs ws,
  version_wf v -> v_rest v <> [] -> axfr_response v recs ->
  v_serial v <> ser -> serial_lt (v_serial v) ser = false ->
  chunking tIXFR recs ws ->
  exists z' n, inbound_xfr z0 tIXFR (Some ser) false ws = (Done z', n) /\ zeq z' (zone_of v).
Proof.
  intros v z0 ser recs ws Hv Hne Hr. apply axfr_style_ixfr_converges_with_glue; [exact Hv|exact Hne|].
  apply axfr_response_glue_of; assumption.
Qed.

(* the canonical streams of XfrSpec are instances *)
Lemma ixfr_seqs_canonical : forall chain v0, ixfr_seqs v0 chain (diff_seqs v0 chain).
Proof.
  induction chain as [|w chain IH]; intros v0; cbn [diff_seqs]; [constructor|].
  unfold diff_seq. cbn [app]. rewrite <- app_assoc. cbn [app].
  apply seqs_cons; [apply Permutation_refl|intros r; reflexivity|apply IH].
Qed.
