(* C20: the documentation-level specification in terms of keys:
   "glue" = strictly beneath some non-apex NS owner (the topmost such owner is a delegation point). *)
From DV Require Import Base.Prelude Model.NameM Model.BTZoneM Proofs.BTZoneOrder Proofs.BTZoneList.
Open Scope Z_scope.

(* a at or beneath b / strictly beneath b, on keys *)
Definition below (a b : key) : Prop := prefix b a.
Definition sbelow (a b : key) : Prop := prefix b a /\ a <> b.

Lemma below_refl : forall a, below a a.
Proof. intros; apply prefix_refl. Qed.

Lemma below_trans : forall a b c, below a b -> below b c -> below a c.
Proof. unfold below; intros; eapply prefix_trans; eauto. Qed.

Lemma sbelow_below : forall a b, sbelow a b -> below a b.
Proof. intros a b [H _]; auto. Qed.

Lemma sbelow_below_trans : forall a b c, sbelow a b -> below b c -> sbelow a c.
Proof.
  intros a b c [H1 H2] H3. split; [eapply prefix_trans; eauto|].
  intros ->. apply H2. apply prefix_antisym; auto.
Qed.

Lemma below_sbelow_trans : forall a b c, below a b -> sbelow b c -> sbelow a c.
Proof.
  intros a b c H1 [H2 H3]. split; [eapply prefix_trans; eauto|].
  intros ->. apply H3. apply prefix_antisym; auto.
Qed.

Lemma sbelow_irrefl : forall a, ~ sbelow a a.
Proof. intros a [_ H]; auto. Qed.

Lemma sbelow_length : forall a b, sbelow a b -> (length b < length a)%nat.
Proof.
  intros a b [[s H] Hn]. subst a. rewrite app_length. destruct s; [rewrite app_nil_r in Hn; congruence|].
  cbn; lia.
Qed.

Lemma sbelow_klt : forall a b, sbelow a b -> klt b a.
Proof. intros a b [H Hn]. apply prefix_kcmp_lt; auto. Qed.

Lemma below_kle : forall a b, below a b -> kcmp b a <> Gt.
Proof. intros a b H. apply prefix_kcmp_le; auto. Qed.

Lemma below_dec_eq : forall a b, below a b -> a = b \/ sbelow a b.
Proof.
  intros a b H. destruct (key_eq_dec a b); auto. right; split; auto.
Qed.

Lemma is_subdomain_below : forall n m, is_subdomain n m = true <-> below (K n) (K m).
Proof. intros. apply is_subdomain_prefix. Qed.

Lemma is_subdomain_false_below : forall n m, is_subdomain n m = false <-> ~ below (K n) (K m).
Proof. intros. apply false_iff, is_subdomain_below. Qed.

Lemma strictly_beneath_iff : forall n m, strictly_beneath n m = true <-> sbelow (K n) (K m).
Proof.
  intros. unfold strictly_beneath, sbelow. rewrite andb_true_iff, negb_true_iff.
  rewrite is_subdomain_below, name_eqb_false_ekey. reflexivity.
Qed.

Lemma not_sb_self : forall k n, K k = K n -> strictly_beneath k n = false.
Proof.
  intros k n E. apply not_true_is_false. intros H. apply strictly_beneath_iff in H. rewrite E in H.
  eapply sbelow_irrefl; eauto.
Qed.

Lemma strictly_beneath_ext : forall n n' m m', K n = K n' -> K m = K m' ->
    strictly_beneath n m = strictly_beneath n' m'.
Proof. intros n n' m m' E1 E2. apply Bool.eq_true_iff_eq. rewrite !strictly_beneath_iff, E1, E2. reflexivity. Qed.

Lemma is_apex_ext : forall c a b, K a = K b -> is_apex c a = is_apex c b.
Proof. intros c a b E. unfold is_apex. destruct (c_rel c); apply name_eqb_ext; auto. Qed.

Lemma ns_owner_ext : forall c m m' nd nd', K m = K m' -> nrds nd = nrds nd' ->
    ns_owner c (m, nd) = ns_owner c (m', nd').
Proof.
  intros c m m' nd nd' E Er. unfold ns_owner, has_ns. cbn [fst snd]. rewrite (is_apex_ext c m m' E), Er. reflexivity.
Qed.

Definition occluded (c : cfg) (content : nodes_t) (n : name) : bool :=
  existsb (fun e => ns_owner c e && strictly_beneath n (fst e)) content.

Definition owner (c : cfg) (content : nodes_t) (k : key) : Prop :=
  exists m nd, In (m, nd) content /\ ns_owner c (m, nd) = true /\ K m = k.

Definition occk (c : cfg) (content : nodes_t) (k : key) : Prop :=
  exists o, owner c content o /\ sbelow k o.

Lemma occluded_iff : forall c l n, occluded c l n = true <-> occk c l (K n).
Proof.
  intros. unfold occluded, occk, owner. rewrite existsb_exists. split.
  - intros ([m nd] & Hin & H). apply andb_true_iff in H as [H1 H2]. apply strictly_beneath_iff in H2.
    exists (K m). split; auto. exists m, nd. auto.
  - intros (o & (m & nd & Hin & H1 & <-) & H2). exists (m, nd). split; auto.
    apply andb_true_iff. split; auto. apply strictly_beneath_iff; auto.
Qed.

Lemma occluded_false_iff : forall c l n, occluded c l n = false <-> ~ occk c l (K n).
Proof. intros. apply false_iff, occluded_iff. Qed.

Lemma occluded_ext : forall c l a b, K a = K b -> occluded c l a = occluded c l b.
Proof. intros c l a b E. apply Bool.eq_true_iff_eq. rewrite !occluded_iff, E. reflexivity. Qed.

Lemma occk_owner_ext : forall c l l',
    (forall k, owner c l k <-> owner c l' k) -> forall k, occk c l k <-> occk c l' k.
Proof. intros c l l' H k. split; intros (o & Ho & Hs); exists o; (split; [apply H, Ho|exact Hs]). Qed.

Lemma occluded_owner_ext : forall c l l' n,
    (forall k, owner c l k <-> owner c l' k) -> occluded c l n = occluded c l' n.
Proof. intros c l l' n H. apply Bool.eq_true_iff_eq. rewrite !occluded_iff. apply occk_owner_ext, H. Qed.

Lemma deleg_point_eq : forall c l e, deleg_point c l e = ns_owner c e && negb (occluded c l (fst e)).
Proof. reflexivity. Qed.

(* every owner is at or beneath an owner that is not occluded *)
Lemma topmost_owner : forall c l o, owner c l o -> exists o0, owner c l o0 /\ below o o0 /\ ~ occk c l o0.
Proof.
  intros c l o. remember (length o) as n eqn:En. revert o En.
  induction n as [n IH] using lt_wf_ind. intros o -> Ho. pose proof Ho as (m & nd & Hin & Hns & E).
  destruct (occluded c l m) eqn:Occ.
  - apply occluded_iff in Occ. rewrite E in Occ. destruct Occ as (o' & Ho' & Hs).
    destruct (IH (length o') (sbelow_length _ _ Hs) o' eq_refl Ho') as (o0 & H0 & H1 & H2).
    exists o0. repeat split; auto. eapply below_trans; [apply sbelow_below; eauto|auto].
  - apply occluded_false_iff in Occ. rewrite E in Occ. exists o. repeat split; auto. apply below_refl.
Qed.

Lemma glue_name_occluded : forall c l n, glue_name c l n = occluded c l n.
Proof.
  intros c l n. apply Bool.eq_true_iff_eq. unfold glue_name. rewrite existsb_exists, occluded_iff. split.
  - intros ([m nd] & Hin & H). rewrite deleg_point_eq in H. apply andb_true_iff in H as [H1 H2].
    apply andb_true_iff in H1 as [H1 _]. apply strictly_beneath_iff in H2.
    exists (K m). split; [exists m, nd; auto|exact H2].
  - intros (o & Ho & Hs). destruct (topmost_owner c l o Ho) as (o0 & (m0 & nd0 & Hin & Hns & <-) & Hb & Hn).
    exists (m0, nd0). split; [exact Hin|]. rewrite deleg_point_eq, Hns. cbn [fst andb].
    rewrite (proj2 (occluded_false_iff c l m0) Hn).
    apply strictly_beneath_iff. eapply sbelow_below_trans; eauto.
Qed.

(* the flags the documentation prescribes for a name, from: it is the apex; it lies beneath a
   non-apex NS owner; it owns an NS rdataset *)
Definition flagspec (a o h : bool) : Z :=
  if a then fORIGIN else if o then fGLUE else if h then fDELEGATION else 0.

Lemma flags_of_eq : forall c l n nd,
    flags_of c l (n, nd) = flagspec (is_apex c n) (occluded c l n) (has_ns nd).
Proof.
  intros. unfold flags_of, flagspec. cbn [fst]. destruct (is_apex c n) eqn:A; auto.
  rewrite glue_name_occluded. destruct (occluded c l n) eqn:O; auto.
  rewrite deleg_point_eq. unfold ns_owner. cbn [fst snd]. rewrite A, O.
  destruct (has_ns nd); reflexivity.
Qed.

(* the NS rdataset does not matter at the apex and beneath a delegation *)
Lemma flagspec_same : forall a o h h', a = true \/ o = true \/ h' = h -> flagspec a o h' = flagspec a o h.
Proof. intros a o h h' [-> | [-> | ->]]; [|destruct a|]; reflexivity. Qed.

Lemma delegations_of_in : forall c l k,
    In k (map K (delegations_of c l)) <-> (owner c l k /\ ~ occk c l k).
Proof.
  intros c l k. unfold delegations_of. rewrite map_map. rewrite in_map_iff. split.
  - intros ([m nd] & E & Hin). apply filter_In in Hin as [Hin H]. rewrite deleg_point_eq in H.
    apply andb_true_iff in H as [H1 H2]. apply negb_true_iff, occluded_false_iff in H2. cbn [fst] in *.
    subst k. split; auto. exists m, nd. auto.
  - intros ((m & nd & Hin & Hns & E) & Hn). exists (m, nd). split; auto.
    apply filter_In. split; auto. rewrite deleg_point_eq, Hns. cbn [fst andb].
    apply negb_true_iff, occluded_false_iff. rewrite E; auto.
Qed.

Lemma ksorted_filter_map : forall (l : nodes_t) f, sorted l -> ksorted (map K (map fst (filter f l))).
Proof.
  induction l as [|[k v] l IH]; intros f S; cbn; [exact Logic.I|].
  apply sorted_cons in S as [S1 S2]. destruct (f (k, v)); cbn; auto. split; auto.
  intros k' Hk'. rewrite map_map in Hk'. apply in_map_iff in Hk' as ([k2 v2] & <- & Hin).
  apply filter_In in Hin as [Hin _]. cbn. eauto.
Qed.

Lemma delegations_of_sorted : forall c l, sorted l -> ksorted (map K (delegations_of c l)).
Proof. intros. apply ksorted_filter_map; auto. Qed.
