(* C13 - the message loop: relation between loop (with its "last RRset of the message" flag) and
   the flag-free iteration, and the driver over any division of a record stream into messages. *)
From DV Require Import Base.Prelude Model.XfrM Proofs.XfrSets Proofs.XfrSpec Proofs.XfrZone Proofs.XfrDiff
  Proofs.XfrSafety Proofs.XfrBasic.

(* the loop body applied to RRsets none of which is the last of its message *)
Fixpoint loopn (s : st) (rs : list rrset) : st * option Z :=
  match rs with
  | [] => (s, None)
  | r :: rest =>
      match step Mid s r with
      | (s', Some e) => (s', Some e)
      | (s', None) => loopn s' rest
      end
  end.

Lemma step_none_not_done : forall l s r s', step l s r = (s', None) -> done s = false.
Proof.
  intros l s r s' H. unfold step in H. destruct (done s); [discriminate|reflexivity].
Qed.

(* being last in the message only matters for a final SOA that passed every other check: not last, it
   is "answers after final SOA"; last, it commits (or the check for a signature, or the SOA, fails) *)
Lemma step_flag : forall fl s r,
  step fl s r = step Mid s r \/
  (snd (step Mid s r) = Some eAfterFinal /\ forall s', step fl s r = (s', None) -> done s' = true).
Proof.
  intros fl s r. unfold step.
  destruct (done s); [left; reflexivity|].
  destruct (txn s) as [tz|]; [|left; reflexivity].
  destruct ((s_type r =? tSOA) && (s_name r =? origin)); [|left; reflexivity].
  match goal with |- context [if ?c then _ else _] => destruct c end; [|left; reflexivity].
  destruct (soa_serial r); [|left; reflexivity].
  match goal with |- context [if ?c then _ else _] => destruct c end; [left; reflexivity|].
  match goal with |- context [if ?c then _ else _] => destruct c end; [left; reflexivity|].
  right. split; [reflexivity|]. intros s' H.
  destruct fl; [discriminate| |];
    (match type of H with (if ?c then _ else _) = _ => destruct c end; [discriminate|]);
    unfold res_of in H; destruct (t_add true tz r); inversion H; reflexivity.
Qed.

Lemma step_mid_last : forall s r s', step Mid s r = (s', None) -> step Last s r = (s', None).
Proof.
  intros s r s' H. destruct (step_flag Last s r) as [E|[E _]]; [rewrite E; exact H|rewrite H in E; discriminate].
Qed.

Lemma step_last_mid : forall s r s', step Last s r = (s', None) -> done s' = false -> step Mid s r = (s', None).
Proof.
  intros s r s' H Hd. destruct (step_flag Last s r) as [E|[_ E]]; [rewrite <- E; exact H|rewrite (E _ H) in Hd; discriminate].
Qed.

Lemma loop_loopn : forall rs s s', loopn s rs = (s', None) -> loop s rs = (s', None).
Proof.
  induction rs as [|r rest IH]; intros s s' H; cbn [loopT loopn] in *; [exact H|].
  destruct (step Mid s r) as [s1 [e|]] eqn:Hs; [discriminate|].
  destruct rest as [|r2 rest].
  - cbn [loopn] in H. inversion H; subst. rewrite (step_mid_last _ _ _ Hs). reflexivity.
  - rewrite Hs. apply IH, H.
Qed.

Lemma loop_not_done_loopn : forall rs s s', loop s rs = (s', None) -> done s' = false -> loopn s rs = (s', None).
Proof.
  induction rs as [|r rest IH]; intros s s' H Hd; cbn [loopT loopn] in *; [exact H|].
  destruct rest as [|r2 rest].
  - destruct (step Last s r) as [s1 [e|]] eqn:Hs; [discriminate|].
    inversion H; subst. rewrite (step_last_mid _ _ _ Hs Hd). reflexivity.
  - destruct (step Mid s r) as [s1 [e|]] eqn:Hs; [discriminate|]. apply IH; assumption.
Qed.

Lemma loop_app : forall l1 y l2 s,
  loop s (l1 ++ y :: l2) =
  match loopn s l1 with
  | (s1, Some e) => (s1, Some e)
  | (s1, None) => loop s1 (y :: l2)
  end.
Proof.
  induction l1 as [|a l1 IH]; intros y l2 s; cbn [app loopn]; [reflexivity|]. cbn [loopT].
  assert (E : match l1 ++ y :: l2 with [] => Last | _ :: _ => Mid end = Mid) by (destruct l1; reflexivity).
  rewrite E. destruct (step Mid s a) as [s1 [e|]]; [reflexivity|apply IH].
Qed.

Lemma loop_snoc : forall rs r s,
  loop s (rs ++ [r]) =
  match loopn s rs with
  | (s1, Some e) => (s1, Some e)
  | (s1, None) => step Last s1 r
  end.
Proof.
  intros rs r s. rewrite loop_app. destruct (loopn s rs) as [s1 [e|]]; [reflexivity|].
  cbn [loopT]. destruct (step Last s1 r) as [s' [e|]]; reflexivity.
Qed.

Lemma loopn_app : forall a b s,
  loopn s (a ++ b) =
  match loopn s a with
  | (s1, Some e) => (s1, Some e)
  | (s1, None) => loopn s1 b
  end.
Proof.
  induction a as [|x a IH]; intros b s; cbn [app loopn]; [reflexivity|].
  destruct (step Mid s x) as [s1 [e|]]; [reflexivity|apply IH].
Qed.

Lemma loopn_none_not_done : forall rs s s', loopn s rs = (s', None) -> done s' = false -> done s = false.
Proof.
  intros [|r rest] s s' H Hd; cbn [loopn] in H; [congruence|].
  destruct (step Mid s r) as [s1 [e|]] eqn:Hs; [discriminate|]. exact (step_none_not_done _ _ _ _ Hs).
Qed.

Lemma loopn_frame : forall rs s s', loopn s rs = (s', None) -> done s' = false -> frame s s'.
Proof.
  intros rs s s' H Hd. apply loop_loopn, loop_cases in H.
  destruct H as [F|(_ & s1 & r & _ & C)]; [exact F|]. apply commit_facts in C. destruct C; congruence.
Qed.

Definition running (s : st) : Prop :=
  done s = false /\ txn s <> None /\ soa s <> None /\ is_udp s = false /\ req_tsig s = false.

Lemma running_frame : forall s s', running s -> frame s s' -> running s' /\ rdtype s' = rdtype s /\ pub s' = pub s.
Proof.
  intros s s' (Hd & Ht & Hs & Hu & Hrq) (F1 & F2 & F3 & F4 & F5 & F6 & F7).
  repeat split; try congruence. auto.
Qed.

Definition cont (one_rr : bool) (r : st * option Z) (ws : list wmsg) : result * nat :=
  match r with
  | (s', Some e) => (Error e (pub s'), 0%nat)
  | (s', None) =>
      if done s' then (Done (pub s'), 1%nat)
      else let '(r, n) := drive one_rr s' ws in (r, S n)
  end.

Lemma drive_cons : forall one_rr s w ws, req_tsig s = false ->
  drive one_rr s (w :: ws) = cont one_rr (process_message s (from_wire one_rr w)) ws.
Proof.
  intros one_rr s w ws Hrq. cbn [drive]. unfold cont.
  destruct (process_message s (from_wire one_rr w)) as [s' [e|]] eqn:Hp; [reflexivity|].
  rewrite (process_req_tsig _ _ _ _ Hp), Hrq. reflexivity.
Qed.

(* the first message of a transfer without TSIG keyring *)
Lemma inbound_ixfr_cons : forall z ser udp w ws,
  inbound_xfr z tIXFR (Some ser) udp (w :: ws) =
  cont true (process_message (ixfr_init z ser udp) (from_wire true w)) ws.
Proof. intros. unfold inbound_xfr, xfr_run. rewrite init_ixfr. apply (drive_cons true). reflexivity. Qed.

Lemma inbound_axfr_cons : forall z ser w ws,
  inbound_xfr z tAXFR ser false (w :: ws) =
  cont false (process_message (axfr_init z ser) (from_wire false w)) ws.
Proof. intros. unfold inbound_xfr, xfr_run. rewrite init_axfr. apply (drive_cons false). reflexivity. Qed.

Lemma after_tcp : forall s rs, is_udp s = false -> after (loop s rs) = loop s rs.
Proof.
  intros s rs Hu. destruct (loop s rs) as [s' [e|]] eqn:Hl; [reflexivity|].
  apply loop_inv in Hl. destruct Hl as (_ & Hu' & _). cbn [after]. rewrite Hu', Hu. reflexivity.
Qed.

(* a later message of a running TCP transfer: process_message is just the loop *)
Lemma process_running : forall s m, running s ->
  m_rcode m = 0 -> (m_question m = [] \/ exists q, m_question m = (origin, rdtype s) :: q) ->
  process_message s m = loop s (m_answer m).
Proof.
  intros s m (Hd & Ht & Hs & Hu & Hrq) Hrc Hq. unfold process_message.
  destruct (txn s) as [tz|] eqn:Etx; [|congruence].
  rewrite Hrc. cbn [Z.eqb negb].
  assert (Q : (match m_question m with
               | (qn, qt) :: _ => if negb (qn =? origin) then Some eQName else if negb (qt =? rdtype s) then Some eQType else None
               | [] => None end) = None).
  { destruct Hq as [->|[q ->]]; [reflexivity|]. rewrite !Z.eqb_refl. reflexivity. }
  rewrite Q. destruct (soa s) eqn:Es; [|congruence].
  rewrite (loopT_nosig _ _ (m_tsig m) Hrq). apply (after_tcp s _ Hu).
Qed.

Lemma drive_running : forall one_rr s w ws, running s -> header_ok (rdtype s) w ->
  drive one_rr s (w :: ws) = cont one_rr (loop s (group one_rr (w_records w))) ws.
Proof.
  intros one_rr s w ws Hrun Hw. rewrite drive_cons by apply Hrun.
  rewrite process_running; [reflexivity|exact Hrun|apply Hw|apply Hw].
Qed.

(* The driver on messages whose records are a ++ (those of ws), then the messages `more`: once the records c
   have gone through without error and without completing the transfer, it stands in the state reached
   - at the end of the messages ws, if that is all they hold;
   - otherwise before the next record x, with the rest a' of x's message and the messages ws' still to come.
   k counts the messages done with. *)
Lemma cont_run : forall ws more a s c rest s1,
  running s -> Forall (header_ok (rdtype s)) ws ->
  a ++ concat (map w_records ws) = c ++ rest ->
  loopn s (map single c) = (s1, None) -> done s1 = false ->
  exists k, match rest with
  | [] => forall r n, drive true s1 more = (r, n) ->
            cont true (loop s (map single a)) (ws ++ more) = (r, (k + n)%nat)
  | x :: rest' => exists a' ws', a' ++ concat (map w_records ws') = rest' /\ Forall (header_ok (rdtype s)) ws' /\
      forall r n, cont true (loop s1 (map single (x :: a'))) (ws' ++ more) = (r, n) ->
                  cont true (loop s (map single a)) (ws ++ more) = (r, (k + n)%nat)
  end.
Proof.
  induction ws as [|w ws IH]; intros more a s c rest s1 Hrun Hh Hcat Hl Hd1.
  - cbn [map concat app] in *. rewrite app_nil_r in Hcat. subst a. rewrite map_app.
    destruct rest as [|x rest'].
    + exists 1%nat. intros r n E. rewrite app_nil_r, (loop_loopn _ _ _ Hl). cbn [cont]. rewrite Hd1, E. reflexivity.
    + exists 0%nat, rest', []. split; [apply app_nil_r|]. split; [constructor|].
      intros r n E. cbn [map]. rewrite loop_app, Hl. exact E.
  - destruct (app_split _ _ _ _ Hcat) as [(l & -> & Hrest)|(x & l & -> & ->)].
    + rewrite map_app, loopn_app in Hl.
      destruct (loopn s (map single a)) as [sa [e|]] eqn:Ha; [discriminate|].
      pose proof (loopn_none_not_done _ _ _ Hl Hd1) as Hda.
      destruct (running_frame _ _ Hrun (loopn_frame _ _ _ Ha Hda)) as (Hra & Hrt & _).
      inversion Hh as [|? ? Hw Hws]; subst. rewrite <- Hrt in Hw, Hws.
      destruct (IH more (w_records w) sa l rest s1 Hra Hws Hrest Hl Hd1) as [k Hk].
      assert (E : forall r n, cont true (loop sa (map single (w_records w))) (ws ++ more) = (r, n) ->
                  cont true (loop s (map single a)) ((w :: ws) ++ more) = (r, S n)).
      { intros r n E. rewrite (loop_loopn _ _ _ Ha). cbn [cont app].
        rewrite Hda, (drive_running _ _ _ _ Hra Hw), group_true, E. reflexivity. }
      exists (S k). destruct rest as [|x rest'].
      * intros r n D. apply (E r (k + n)%nat), Hk, D.
      * destruct Hk as (a' & ws' & H1 & H2 & H3). exists a', ws'. rewrite Hrt in H2. split; [exact H1|]. split; [exact H2|].
        intros r n D. apply (E r (k + n)%nat), H3, D.
    + exists 0%nat, l, (w :: ws). split; [reflexivity|]. split; [exact Hh|].
      intros r n E. rewrite map_app. cbn [map]. rewrite loop_app, Hl. exact E.
Qed.

(* the driver read backwards: a completed transfer has read records c, then x, and x completed it; the
   records `extra` (the rest of x's message is empty; later messages) were never read *)
Lemma loop_done_last : forall a s s', done s = false -> loop s (map single a) = (s', None) -> done s' = true ->
  exists c x s1, a = c ++ [x] /\ loopn s (map single c) = (s1, None) /\ done s1 = false /\
                 step Last s1 (single x) = (s', None).
Proof.
  intros a s s' Hd Hl Hd'. destruct a as [|x a0] using rev_ind; [cbn in Hl; inversion Hl; congruence|]. clear IHa0.
  rewrite map_app in Hl. cbn [map] in Hl. rewrite loop_snoc in Hl.
  destruct (loopn s (map single a0)) as [s1 [e|]] eqn:Hn; [discriminate|].
  exists a0, x, s1. split; [reflexivity|]. split; [exact Hn|]. split; [apply (step_none_not_done _ _ _ _ Hl)|exact Hl].
Qed.

Lemma cont_done_inv : forall ws a s z' n,
  running s -> Forall (header_ok (rdtype s)) ws ->
  cont true (loop s (map single a)) ws = (Done z', n) ->
  exists c x extra s1 s2,
    a ++ concat (map w_records ws) = c ++ x :: extra /\
    loopn s (map single c) = (s1, None) /\ done s1 = false /\
    step Last s1 (single x) = (s2, None) /\ done s2 = true /\ pub s2 = z'.
Proof.
  induction ws as [|w ws IH]; intros a s z' n Hrun Hh H;
    (destruct (loop s (map single a)) as [s' [e|]] eqn:Hl; cbn [cont] in H; [discriminate|]);
    (destruct (done s') eqn:Hd;
     [inversion H; subst; destruct (loop_done_last a s s' (proj1 Hrun) Hl Hd) as (c & x & s1 & -> & Hn & Hd1 & Hs);
      eexists c, x, _, s1, s'; rewrite <- app_assoc; (split; [reflexivity|auto 10])|]).
  - cbn in H. discriminate.
  - destruct (running_frame _ _ Hrun (loopn_frame _ _ _ (loop_not_done_loopn _ _ _ Hl Hd) Hd)) as (Hra & Hrt & _).
    inversion Hh as [|? ? Hw Hws]; subst. rewrite <- Hrt in Hw, Hws.
    destruct (drive true s' (w :: ws)) as [r0 n0] eqn:Hdr. inversion H; subst r0.
    rewrite (drive_running _ _ _ _ Hra Hw), group_true in Hdr.
    destruct (IH (w_records w) s' z' n0 Hra Hws Hdr) as (c & x & extra & s1 & s2 & Hc & Hn & R).
    exists (a ++ c), x, extra, s1, s2. split; [cbn [map concat]; rewrite <- app_assoc; f_equal; exact Hc|].
    split; [|exact R]. rewrite map_app, loopn_app, (loop_not_done_loopn _ _ _ Hl Hd). exact Hn.
Qed.

Lemma chunking_first : forall rdt r0 rest ws, chunking rdt (r0 :: rest) ws ->
  exists w ws' a, ws = w :: ws' /\ w_records w = r0 :: a /\ header_ok rdt w /\ Forall (header_ok rdt) ws'
                  /\ a ++ concat (map w_records ws') = rest.
Proof.
  intros rdt r0 rest ws (Hh & Hc & Hf). destruct ws as [|w ws']; [destruct Hf|].
  inversion Hh; subst. cbn [map concat] in Hc.
  destruct (w_records w) as [|x a] eqn:E; [congruence|]. cbn [app] in Hc. inversion Hc; subst.
  exists w, ws', a. auto.
Qed.

Lemma soa_serial_single : forall v, soa_serial (single (soa_rr v)) = Some (v_serial v).
Proof. reflexivity. Qed.

Lemma soa_eqb : forall v w, rrset_eqb (single (soa_rr v)) (single (soa_rr w)) = (v_soa v =? v_soa w).
Proof.
  intros v w. unfold rrset_eqb, single, soa_rr. cbn [s_name s_class s_type s_covers s_data r_name r_class r_type r_covers r_data].
  rewrite !Z.eqb_refl. cbn [andb]. apply set_eqb_one.
Qed.

(* an IXFR whose first record is the SOA of a version newer than the client's serial *)
Lemma ixfr_start : forall z0 ser udp w ws fin a,
  header_ok tIXFR w -> w_records w = soa_rr fin :: a ->
  v_serial fin <> ser -> serial_lt (v_serial fin) ser = false -> (udp = true -> a <> []) ->
  inbound_xfr z0 tIXFR (Some ser) udp (w :: ws) =
  cont true (after (loop (ist udp z0 z0 ser (single (soa_rr fin)) true false) (map single a))) ws.
Proof.
  intros z0 ser udp w ws fin a Hw Hr Hs Hlt Hu.
  rewrite inbound_ixfr_cons, (first_message_ixfr z0 ser udp w (soa_rr fin) a Hw Hr) by (split; reflexivity).
  cbv zeta. change (r_data (soa_rr fin) mod two32) with (v_serial fin).
  apply Z.eqb_neq in Hs. rewrite Hs, Hlt.
  destruct udp; [|reflexivity]. destruct a; [exfalso; apply Hu; reflexivity|reflexivity].
Qed.

Lemma running_ist : forall p tz ser s0 e dm, running (ist false p tz ser s0 e dm).
Proof. intros. repeat split; try reflexivity; discriminate. Qed.

Lemma running_ast : forall rdt p tz ser s0, running (ast false rdt p tz ser s0).
Proof. intros. repeat split; try reflexivity; discriminate. Qed.

Lemma init_ok : forall z rdt ser udp, (rdt = tAXFR /\ udp = false \/ rdt = tIXFR /\ ser <> None) ->
  exists s, init_t false z rdt ser udp = inl s /\ pub s = z /\ soa s = None /\ req_tsig s = false /\ rdtype s = rdt.
Proof.
  intros z rdt ser udp [[-> ->]|[-> Hser]]; unfold init_t.
  - cbn. eexists. repeat split.
  - destruct ser as [sv|]; [|congruence]. cbn. eexists. repeat split.
Qed.

(* no message, or a first message without records: an error (EOFError / "No answer") *)
Lemma no_first_record : forall z rdt ser ws, (rdt = tAXFR \/ rdt = tIXFR /\ ser <> None) ->
  Forall (header_ok rdt) ws -> match ws with w :: _ => w_records w = [] | [] => True end ->
  exists e n, inbound_xfr z rdt ser false ws = (Error e z, n).
Proof.
  intros z rdt ser ws Hrdt Hh Hw.
  destruct (init_ok z rdt ser false) as (s & Hi & Hp & Hsoa & Hrq & Hrd); [destruct Hrdt; auto|].
  unfold inbound_xfr, xfr_run. rewrite Hi. destruct ws as [|w ws]; [cbn; rewrite Hp; eauto|].
  inversion Hh as [|? ? [Hrc Hq] _]; subst. rewrite drive_cons by exact Hrq.
  unfold process_message, from_wire. cbn [m_rcode m_question m_answer m_tsig]. rewrite Hrc. cbn [Z.eqb negb].
  set (sx := match txn s with None => set_txn s (Some (if incremental s then pub s else [])) | Some _ => s end).
  assert (Hx : pub sx = pub s /\ soa sx = None /\ rdtype sx = rdtype s) by (subst sx; destruct (txn s); cbn; auto).
  destruct Hx as (Hpx & Hsx & Hrx). rewrite Hrx, (header_ok_question _ w (conj Hrc Hq)), Hsx, Hw. cbn. rewrite Hpx. eauto.
Qed.

(* messages that hold a proper, non-empty prefix of a stream are a division of that prefix *)
Lemma prefix_chunking : forall rdt ws q r0 rest, Forall (header_ok rdt) ws ->
  concat (map w_records ws) ++ q = r0 :: rest ->
  match ws with w :: _ => w_records w = [] | [] => True end \/ exists c, chunking rdt (r0 :: c) ws /\ c ++ q = rest.
Proof.
  intros rdt ws q r0 rest Hh Hcat. destruct ws as [|w ws]; [left; exact Logic.I|].
  destruct (w_records w) as [|r a] eqn:Hr; [left; reflexivity|right].
  cbn [map concat] in Hcat. rewrite Hr in Hcat. cbn [app] in Hcat. inversion Hcat; subst.
  exists (a ++ concat (map w_records ws)). split; [|reflexivity].
  split; [exact Hh|]. cbn [map concat]. rewrite Hr. split; [reflexivity|discriminate].
Qed.

Section TCP.
Variables (z0 : zone) (ser : Z) (fin : version).
Hypothesis Hser : v_serial fin <> ser.
Hypothesis Hlt : serial_lt (v_serial fin) ser = false.

(* the records c after the first SOA go through: cont_run for the whole transfer *)
Lemma ixfr_tcp : forall ws more c rest s1,
  chunking tIXFR (soa_rr fin :: c ++ rest) ws ->
  loopn (ist false z0 z0 ser (single (soa_rr fin)) true false) (map single c) = (s1, None) -> done s1 = false ->
  (running s1 /\ rdtype s1 = tIXFR /\ pub s1 = z0) /\
  exists k, match rest with
  | [] => forall r n, drive true s1 more = (r, n) ->
            inbound_xfr z0 tIXFR (Some ser) false (ws ++ more) = (r, (k + n)%nat)
  | x :: rest' => exists a' ws', a' ++ concat (map w_records ws') = rest' /\ Forall (header_ok tIXFR) ws' /\
      forall r n, cont true (loop s1 (map single (x :: a'))) (ws' ++ more) = (r, n) ->
                  inbound_xfr z0 tIXFR (Some ser) false (ws ++ more) = (r, (k + n)%nat)
  end.
Proof.
  intros ws more c rest s1 Hch Hl Hd1. split; [exact (running_frame _ _ (running_ist _ _ _ _ _ _) (loopn_frame _ _ _ Hl Hd1))|].
  apply chunking_first in Hch. destruct Hch as (w & ws' & a & -> & Hr & Hw & Hws & Hcat). cbn [app].
  rewrite (ixfr_start z0 ser false w _ fin a Hw Hr Hser Hlt) by discriminate.
  rewrite after_tcp by reflexivity.
  apply (cont_run ws' more a _ c rest s1 (running_ist _ _ _ _ _ _) Hws Hcat Hl Hd1).
Qed.

(* ... and that is all the messages hold *)
Lemma ixfr_eof : forall ws c s1,
  chunking tIXFR (soa_rr fin :: c) ws ->
  loopn (ist false z0 z0 ser (single (soa_rr fin)) true false) (map single c) = (s1, None) -> done s1 = false ->
  exists n, inbound_xfr z0 tIXFR (Some ser) false ws = (Error eEOF z0, n).
Proof.
  intros ws c s1 Hch Hl Hd1. rewrite <- (app_nil_r c) in Hch.
  destruct (ixfr_tcp ws [] c [] s1 Hch Hl Hd1) as [(_ & _ & Hp) [k Hk]].
  rewrite app_nil_r in Hk. eexists. apply Hk. cbn [drive]. rewrite Hp. reflexivity.
Qed.

(* ... and the next record completes the transfer *)
Lemma ixfr_done : forall ws c x s1 s2,
  chunking tIXFR (soa_rr fin :: c ++ [x]) ws ->
  loopn (ist false z0 z0 ser (single (soa_rr fin)) true false) (map single c) = (s1, None) ->
  step Last s1 (single x) = (s2, None) -> done s2 = true ->
  exists n, inbound_xfr z0 tIXFR (Some ser) false ws = (Done (pub s2), n).
Proof.
  intros ws c x s1 s2 Hch Hl Hf Hd2.
  destruct (ixfr_tcp ws [] c [x] s1 Hch Hl (step_none_not_done _ _ _ _ Hf)) as [_ (k & a' & ws' & E & _ & Hk)].
  apply app_eq_nil in E. destruct E as [-> _]. rewrite !app_nil_r in Hk.
  eexists. apply Hk. cbn [map loopT]. rewrite Hf. cbn [cont]. rewrite Hd2. reflexivity.
Qed.

(* ... or is an error wherever it stands in its message *)
Lemma ixfr_error : forall ws c x rest s1 s' e,
  chunking tIXFR (soa_rr fin :: c ++ x :: rest) ws ->
  loopn (ist false z0 z0 ser (single (soa_rr fin)) true false) (map single c) = (s1, None) -> done s1 = false ->
  (forall l, step l s1 (single x) = (s', Some e)) ->
  exists n, inbound_xfr z0 tIXFR (Some ser) false ws = (Error e z0, n).
Proof.
  intros ws c x rest s1 s' e Hch Hl Hd1 Hx.
  destruct (ixfr_tcp ws [] c (x :: rest) s1 Hch Hl Hd1) as [_ (k & a' & ws' & _ & _ & Hk)]. rewrite !app_nil_r in Hk.
  specialize (Hk (Error e (pub s')) 0%nat). cbn [map loopT] in Hk. rewrite Hx in Hk. specialize (Hk eq_refl).
  rewrite (error_leaves_zone _ _ _ _ _ _ _ _ Hk) in Hk. eexists. exact Hk.
Qed.

(* conversely, a completed transfer has read records c, then x, and x completed it *)
Lemma ixfr_done_inv : forall ws rest z' n,
  chunking tIXFR (soa_rr fin :: rest) ws -> inbound_xfr z0 tIXFR (Some ser) false ws = (Done z', n) ->
  exists c x extra s1 s2, rest = c ++ x :: extra /\
    loopn (ist false z0 z0 ser (single (soa_rr fin)) true false) (map single c) = (s1, None) /\ done s1 = false /\
    step Last s1 (single x) = (s2, None) /\ done s2 = true /\ pub s2 = z'.
Proof.
  intros ws rest z' n Hch H.
  apply chunking_first in Hch. destruct Hch as (w & ws' & a & -> & Hr & Hw & Hws & <-).
  rewrite (ixfr_start z0 ser false w _ fin a Hw Hr Hser Hlt), after_tcp in H by (discriminate || reflexivity).
  apply (cont_done_inv ws' a _ z' n (running_ist _ _ _ _ _ _) Hws H).
Qed.
End TCP.
