(* C12 - the steps of the writer admission protocol (Model/WritersM.v) and the first two groups of its
   invariant: lock discipline and the event queue. *)
From DV Require Import Base.Prelude Model.VersM Model.WritersM Proofs.VersInv Proofs.ListFacts.
Import VersM WritersM.

Local Open Scope nat_scope.

(* the event a thread is queued on (it created it and has not been granted since) *)
Fixpoint wo (p : pc) : option nat :=
  match p with
  | Rel nx => wo nx
  | Wait e => Some e
  | Acq (CWriterTest (Some e)) | Crit (CWriterTest (Some e)) => Some e
  | _ => None
  end.

(* the thread has passed event.wait(): the event was set *)
Fixpoint psd (p : pc) : option nat :=
  match p with
  | Rel nx => psd nx
  | Acq (CWriterTest (Some e)) | Crit (CWriterTest (Some e)) => Some e
  | _ => None
  end.

(* the thread owns the open write transaction *)
Fixpoint act (p : pc) : bool :=
  match p with
  | Rel nx => act nx
  | SetupId | SetupBase _ | Body _ _ _ _ => true
  | Acq (CEndWrite _ _ _) | Crit (CEndWrite _ _ _) => true
  | _ => false
  end.

Definition Q (s : st) : list nat :=
  match wevent s with Some e => [e] | None => [] end ++ waiters s.

Lemma upd_same {A} (f : nat -> A) t x : upd f t x t = x.
Proof. unfold upd. rewrite Nat.eqb_refl. reflexivity. Qed.

Lemma upd_other {A} (f : nat -> A) t t' x : t' <> t -> upd f t x t' = f t'.
Proof. intros H. unfold upd. destruct (Nat.eqb_spec t' t); [contradiction|reflexivity]. Qed.

(* Each group of the invariant says of every thread something about its pc, relative to the shared
   state.  A step moves one thread: the claim is shown for the new pc of that thread and, for the
   others, carried over from the old shared state to the new one. *)
Lemma upd_threads {P P' : nat -> pc -> Prop} {f : nat -> pc} {t p'} :
  (forall t', P t' (f t')) -> P' t p' -> (forall t', t' <> t -> P t' (f t') -> P' t' (f t')) ->
  forall t', P' t' (upd f t p' t').
Proof.
  intros H Ht Ho t'. unfold upd. destruct (Nat.eqb_spec t' t) as [->|Hn]; [exact Ht|apply Ho; [exact Hn|apply H]].
Qed.

Lemma mem_true e l : mem e l = true <-> In e l.
Proof.
  unfold mem. rewrite existsb_exists. split.
  - intros [x [Hx E]]. apply Nat.eqb_eq in E. subst. exact Hx.
  - intros H. exists e. split; [exact H|apply Nat.eqb_refl].
Qed.
Arguments mem : simpl never.

Lemma oeqb_eq a b : oeqb a b = true <-> a = b.
Proof.
  destruct a, b; cbn; rewrite ?Nat.eqb_eq; split; congruence.
Qed.

(* Outside the critical sections thread t goes to p' and the lock becomes l.  The last case is
   reader() leaving its section with the KeyError of a failed lookup: nothing else changes. *)
Inductive local (s : st) (t : nat) : pc -> option nat -> Prop :=
| loc_acq c : pcs s t = Acq c -> lock s = None -> local s t (Crit c) (Some t)
| loc_rel nx : pcs s t = Rel nx -> local s t nx None
| loc_wait e : pcs s t = Wait e -> mem e (evset s) = true -> local s t (Acq (CWriterTest (Some e))) (lock s)
| loc_setup_id : pcs s t = SetupId -> local s t (SetupBase (next_id (versions (vz s)))) (lock s)
| loc_setup_base id : pcs s t = SetupBase id ->
    local s t (body_pc (prg s t) id (base_content (prg s t) (vz s)) false (edits_of (prg s t))) (lock s)
| loc_body_end id c ch : pcs s t = Body id c ch [] -> local s t (body_pc (prg s t) id c ch []) (lock s)
| loc_body_edit id c ch e todo : pcs s t = Body id c ch (e :: todo) ->
    local s t (body_pc (prg s t) id (fst (apply_edit e (c, ch))) (snd (apply_edit e (c, ch))) todo) (lock s)
| loc_rbody h i c : pcs s t = RBody h i c -> local s t (Acq (CReaderEnd h)) (lock s)
| loc_refused sel : pcs s t = Crit (CReaderOpen sel) -> local s t (Rel Done) (lock s).

(* the states in which the sections of writer() and of _commit_version / _end_write leave the zone *)
Definition granted_st (s : st) (t : nat) (ev : option nat) : st :=
  mkSt (prg s) (upd (pcs s) t (Rel SetupId)) (lock s) (Some t) None (waiters s) (evset s) (nextev s) (vz s)
       (failed s) (match ev with None => wq s | Some _ => tl (wq s) end)
       (match ev with None => arrivals s ++ [t] | Some _ => arrivals s end) (granted s ++ [t]) (ended s).

Definition enqueued_st (s : st) (t : nat) : st :=
  mkSt (prg s) (upd (pcs s) t (Rel (Wait (nextev s)))) (lock s) (wtxn s) (wevent s) (waiters s ++ [nextev s])
       (evset s) (S (nextev s)) (vz s) (failed s) (wq s ++ [t]) (arrivals s ++ [t]) (granted s) (ended s).

Definition ended_st (s : st) (t : nat) (z : VersM.st) : st :=
  wakeup (mkSt (prg s) (upd (pcs s) t (Rel Done)) (lock s) None (wevent s) (waiters s) (evset s) (nextev s) z
               (failed s) (wq s) (arrivals s) (granted s) (ended s ++ [t])).

Definition sec_op (c : crit) : option op :=
  match c with CReaderEnd h => Some (Close h) | CSetPolicy p => Some (SetPolicy p) | _ => None end.

(* The steps of reachable states: no branch of a critical section that records a failure is taken
   (Proofs/WritersThms.v, step_kind).  Each group of the invariant is preserved by these. *)
Inductive kind (s : st) (t : nat) : st -> Prop :=
| k_local p' l : local s t p' l -> kind s t (set_lock (set_pc s t p') l)
| k_grant ev : pcs s t = Crit (CWriterTest ev) -> wtxn s = None -> wevent s = ev -> kind s t (granted_st s t ev)
| k_enqueue : pcs s t = Crit (CWriterTest None) -> (wtxn s = None -> wevent s <> None) -> kind s t (enqueued_st s t)
| k_end id c cm z : pcs s t = Crit (CEndWrite id c cm) -> wtxn s = Some t ->
    (if cm then VersM.step (vz_set_wtxn (vz s) (Some (mkW id c true))) WCommit = Ok (z, RUnit) else z = vz s) ->
    kind s t (ended_st s t z)
| k_open sel z h i x : pcs s t = Crit (CReaderOpen sel) -> VersM.step (vz s) (sel_op sel) = Ok (z, ROpened h i x) ->
    kind s t (set_vz (set_pc s t (Rel (RBody h i x))) z)
| k_done c o z : pcs s t = Crit c -> sec_op c = Some o -> VersM.step (vz s) o = Ok (z, RUnit) ->
    kind s t (set_vz (set_pc s t (Rel Done)) z).

Lemma wakeup_fields s :
  prg (wakeup s) = prg s /\ pcs (wakeup s) = pcs s /\ lock (wakeup s) = lock s /\
  wtxn (wakeup s) = wtxn s /\ vz (wakeup s) = vz s /\ nextev (wakeup s) = nextev s /\
  wq (wakeup s) = wq s /\ arrivals (wakeup s) = arrivals s /\ granted (wakeup s) = granted s /\
  ended (wakeup s) = ended s.
Proof. unfold wakeup. destruct (waiters s); cbn; repeat split; reflexivity. Qed.

Lemma ended_st_fields s t z :
  prg (ended_st s t z) = prg s /\ pcs (ended_st s t z) = upd (pcs s) t (Rel Done) /\ lock (ended_st s t z) = lock s /\
  arrivals (ended_st s t z) = arrivals s /\ granted (ended_st s t z) = granted s /\
  ended (ended_st s t z) = ended s ++ [t].
Proof. unfold ended_st, wakeup. cbn. destruct (waiters s); repeat split; reflexivity. Qed.

(* a step leaves the programs alone and moves only the thread that takes it; a critical section ends at a Rel *)
Lemma kind_frame s t s' : kind s t s' ->
  prg s' = prg s /\
  exists p', pcs s' = upd (pcs s) t p' /\ forall c, pcs s t = Crit c -> exists nx, p' = Rel nx.
Proof.
  destruct 1 as [p' l L| | |id c cm z _ _ _| |].
  1: { split; [reflexivity|]. exists p'. split; [reflexivity|]. intros c Hc.
       destruct L; try congruence. eexists. reflexivity. }
  (* the sections: their target states are written with a Rel *)
  all: try destruct (ended_st_fields s t z) as [-> [-> _]].
  all: split; [reflexivity|]; eexists; split; [reflexivity|]; eexists; reflexivity.
Qed.

(* where a writer goes after set-up or an edit, it owns the transaction and nothing else *)
Lemma body_pc_lock p id c ch todo : holds_lock (body_pc p id c ch todo) = false.
Proof. destruct todo; reflexivity. Qed.
Lemma body_pc_rel p id c ch todo nx : body_pc p id c ch todo <> Rel nx.
Proof. destruct todo; discriminate. Qed.
Lemma body_pc_wo p id c ch todo : wo (body_pc p id c ch todo) = None.
Proof. destruct todo; reflexivity. Qed.
Lemma body_pc_act p id c ch todo : act (body_pc p id c ch todo) = true.
Proof. destruct todo; reflexivity. Qed.
Lemma body_pc_psd p id c ch todo : psd (body_pc p id c ch todo) = None.
Proof. destruct todo; reflexivity. Qed.
#[export] Hint Rewrite body_pc_lock body_pc_wo body_pc_act body_pc_psd : body_pc.

(* Group A, the lock: its holder is the one thread at a Crit or a Rel, and a Rel continues outside. *)
Definition thrA (l : option nat) (t : nat) (p : pc) : Prop :=
  (l = Some t <-> holds_lock p = true) /\ forall nx, p = Rel nx -> holds_lock nx = false.

Definition InvA (s : st) : Prop := forall t, thrA (lock s) t (pcs s t).

Lemma a_lock_holds s : InvA s -> forall t, lock s = Some t -> holds_lock (pcs s t) = true.
Proof. intros H t. apply (H t). Qed.

Lemma a_holds_lock s : InvA s -> forall t, holds_lock (pcs s t) = true -> lock s = Some t.
Proof. intros H t. apply (H t). Qed.

Lemma start_pc_not_holding p : holds_lock (start_pc p) = false.
Proof. destruct p; reflexivity. Qed.

Lemma initA progs : InvA (init progs).
Proof.
  intros t. split; cbn; [rewrite start_pc_not_holding; split; discriminate|destruct (progs t); discriminate].
Qed.

Theorem stepA s t s' : InvA s -> kind s t s' -> InvA s'.
Proof.
  intros H K. pose proof (H t) as [Hl Hr].
  (* thread t goes to p' and the lock to l, which names another thread iff the lock did *)
  assert (Hmove : forall p' l, thrA l t p' -> (forall t', t' <> t -> l = Some t' <-> lock s = Some t') ->
                  forall t', thrA l t' (upd (pcs s) t p' t')).
  { intros p' l T Hag. apply (upd_threads H T).
    intros t' Hn [Hl' Hr']. split; [rewrite (Hag t' Hn); exact Hl'|exact Hr']. }
  (* a thread that neither takes nor frees the lock stays outside, or inside, the sections *)
  assert (Hstay : forall p', holds_lock p' = holds_lock (pcs s t) -> (forall nx, p' = Rel nx -> holds_lock nx = false) ->
                  forall t', thrA (lock s) t' (upd (pcs s) t p' t')).
  { intros p' E Hr'. apply Hmove; [|tauto]. unfold thrA. rewrite E. tauto. }
  destruct K as [p' l L|ev Hpc _ _|Hpc _|id c cm z Hpc _ _|sel z h i x Hpc _|c o z Hpc _ _];
    try (refine (Hstay (Rel _) _ _); [rewrite Hpc; reflexivity|intros ? [= <-]; reflexivity]).
  - unfold InvA. cbn [lock pcs set_lock set_pc].
    destruct L as [c Hpc Hlk|nx Hpc|e Hpc _|Hpc|id Hpc|id c ch Hpc|id c ch e todo Hpc|h i c Hpc|sel Hpc];
      rewrite Hpc in *;
      try (apply Hstay; [autorewrite with body_pc; reflexivity|]; (discriminate || (intros ? E; destruct (body_pc_rel _ _ _ _ _ _ E)))).
    + apply Hmove; [split; [tauto|discriminate]|].
      intros t' Hn. rewrite Hlk. split; [intros [= ->]; contradiction|discriminate].
    + specialize (Hr nx eq_refl). apply Hmove.
      * unfold thrA. rewrite Hr. split; [split; discriminate|]. intros ? ->. discriminate.
      * intros t' Hn. rewrite (proj2 Hl eq_refl). split; [discriminate|intros [= ->]; contradiction].
    + apply Hstay; [reflexivity|]. intros ? [= <-]. reflexivity.
  - unfold ended_st, wakeup. cbn [waiters].
    destruct (waiters s); (refine (Hstay (Rel _) _ _); [rewrite Hpc; reflexivity|intros ? [= <-]; reflexivity]).
Qed.

(* Group B, the event queue.  Of a thread: it owns the write transaction iff _write_txn names it,
   it is in wq if it is queued on an event, and an event it has waited for is set. *)
Definition thrB (w : option nat) (q es : list nat) (t : nat) (p : pc) : Prop :=
  (w = Some t <-> act p = true) /\ (forall e, wo p = Some e -> In t q) /\
  (forall e, psd p = Some e -> mem e es = true).

Record InvB (s : st) : Prop := mkInvB {
  b_thr : forall t, thrB (wtxn s) (wq s) (evset s) t (pcs s t);
  b_q1 : Forall2 (fun t e => wo (pcs s t) = Some e) (wq s) (Q s);
  b_q3 : NoDup (wq s);
  b_q4 : NoDup (Q s);
  b_q5 : forall e, In e (Q s) -> e < nextev s;
  b_x1 : wtxn s <> None -> wevent s = None;
  b_x2 : wtxn s = None -> wevent s = None -> waiters s = [];
  b_s1 : forall e, In e (waiters s) -> mem e (evset s) = false;
  b_s2 : forall e, wevent s = Some e -> mem e (evset s) = true;
  b_s4 : forall e, mem e (evset s) = true -> e < nextev s;
  b_f1 : arrivals s = granted s ++ wq s
}.

Lemma b_w1 s : InvB s -> forall t, wtxn s = Some t -> act (pcs s t) = true.
Proof. intros H t. apply (b_thr s H t). Qed.

Lemma b_w2 s : InvB s -> forall t, act (pcs s t) = true -> wtxn s = Some t.
Proof. intros H t. apply (b_thr s H t). Qed.

Lemma b_q2 s : InvB s -> forall t e, wo (pcs s t) = Some e -> In t (wq s).
Proof. intros H t. apply (b_thr s H t). Qed.

Lemma Forall2_in_l {A B} (R : A -> B -> Prop) l1 l2 x :
  Forall2 R l1 l2 -> In x l1 -> exists y, In y l2 /\ R x y.
Proof.
  induction 1 as [|a b l1 l2 Hab _ IH]; intros Hin; [destruct Hin|].
  destruct Hin as [->|Hin]; [eauto using in_eq|].
  destruct (IH Hin) as [y [Hy Hr]]. eauto using in_cons.
Qed.

(* the queue entries are not affected when t moves, unless t is queued and its event changes *)
Lemma q1_upd (f : nat -> pc) t p' l1 l2 :
  Forall2 (fun x e => wo (f x) = Some e) l1 l2 -> (In t l1 -> wo p' = wo (f t)) ->
  Forall2 (fun x e => wo (upd f t p' x) = Some e) l1 l2.
Proof.
  induction 1 as [|a b l1 l2 Hab _ IH]; cbn; intros Hc; constructor; [|tauto].
  unfold upd. destruct (Nat.eqb_spec a t) as [->|_]; [rewrite Hc by tauto|]; exact Hab.
Qed.

Lemma start_pc_keys p : wo (start_pc p) = None /\ act (start_pc p) = false /\ psd (start_pc p) = None.
Proof. destruct p; repeat split; reflexivity. Qed.

Lemma initB progs : InvB (init progs).
Proof.
  constructor; [|cbn; try discriminate; try tauto; constructor..].
  intros t. cbn. destruct (start_pc_keys (progs t)) as [E1 [E2 E3]]. unfold thrB. rewrite E1, E2, E3.
  repeat split; discriminate.
Qed.

Lemma not_queued s t : InvB s -> wo (pcs s t) = None -> ~ In t (wq s).
Proof.
  intros H Hwo Hin. destruct (Forall2_in_l _ _ _ _ (b_q1 s H) Hin) as [e [_ Hw]]. congruence.
Qed.

(* while t owns the write transaction, or may take it, nobody else owns it *)
Lemma others_inactive s t t' :
  InvB s -> wtxn s = None \/ wtxn s = Some t -> t' <> t -> act (pcs s t') = false.
Proof.
  intros H Hw Hn. destruct (act (pcs s t')) eqn:E; [|reflexivity].
  apply (b_w2 s H t') in E. destruct Hw; congruence.
Qed.

Lemma idle_queue_empty s : InvB s -> wtxn s = None -> wevent s = None -> wq s = [].
Proof.
  intros H Hw He. pose proof (b_q1 s H) as F. unfold Q in F. rewrite He, (b_x2 s H Hw He) in F.
  inversion F. reflexivity.
Qed.

(* the owner of a queued event is at the matching position of wq; two threads never share one *)
Lemma queue_head s t e ws :
  InvB s -> wo (pcs s t) = Some e -> Q s = e :: ws -> exists wq', wq s = t :: wq' /\ ~ In t wq'.
Proof.
  intros H Hwo HQ. pose proof (b_q1 s H) as F. pose proof (b_q2 s H t e Hwo) as Hin.
  pose proof (b_q4 s H) as ND. pose proof (b_q3 s H) as NDw.
  rewrite HQ in F, ND. inversion F as [|t0 e0 wq' ws' H0 F' E1 E2]; subst.
  rewrite <- E1 in Hin, NDw. exists wq'.
  assert (t0 = t).
  { destruct Hin as [->|Hin]; [reflexivity|]. exfalso.
    destruct (Forall2_in_l _ _ _ _ F' Hin) as [e' [He' Hw]].
    rewrite Hwo in Hw. inversion Hw; subst. inversion ND; subst. contradiction. }
  subst t0. split; [reflexivity|]. inversion NDw; assumption.
Qed.

(* a writer that has been woken (it passed event.wait()) finds the zone free and its own event
   in _write_event: the admission test cannot fail for it *)
Lemma woken_is_granted s t e :
  InvB s -> psd (pcs s t) = Some e -> wo (pcs s t) = Some e -> wtxn s = None /\ wevent s = Some e.
Proof.
  intros H Hp Hwo.
  assert (Hset : mem e (evset s) = true) by (apply (b_thr s H t); exact Hp).
  destruct (Forall2_in_l _ _ _ _ (b_q1 s H) (b_q2 s H t e Hwo)) as [e' [He' Hw]].
  rewrite Hwo in Hw. injection Hw as <-.
  unfold Q in He'. apply in_app_or in He'. destruct He' as [He'|He'].
  - destruct (wevent s) as [e0|] eqn:Ew; [|destruct He'].
    destruct He' as [->|[]]. split; [|reflexivity].
    destruct (wtxn s) eqn:Et; [|reflexivity].
    assert (wevent s = None) by (apply (b_x1 s H); congruence). congruence.
  - rewrite (b_s1 s H e He') in Hset. discriminate.
Qed.

(* the section of writer(): the zone is free and the thread's event (none, for a newcomer) is the
   pending one, and the thread is granted; or a newcomer is queued.  A woken writer is never queued again. *)
Lemma writer_test s t ev :
  InvB s -> pcs s t = Crit (CWriterTest ev) ->
  (wtxn s = None /\ wevent s = ev /\ step s t = granted_st s t ev) \/
  (ev = None /\ (wtxn s = None -> wevent s <> None) /\ step s t = enqueued_st s t).
Proof.
  intros H Hpc. unfold step. rewrite Hpc. cbn [exec_crit].
  destruct ((match wtxn s with None => true | Some _ => false end) && oeqb ev (wevent s)) eqn:Ht.
  - left. apply andb_true_iff in Ht. destruct Ht as [Hw Hev]. apply oeqb_eq in Hev.
    destruct (wtxn s); [discriminate|]. auto.
  - right. destruct ev as [e|].
    { destruct (woken_is_granted s t e H) as [Hw Hev]; [rewrite Hpc; reflexivity..|].
      rewrite Hw, Hev in Ht. cbn in Ht. rewrite Nat.eqb_refl in Ht. discriminate. }
    repeat split. intros Hw Hev. rewrite Hw, Hev in Ht. discriminate.
Qed.

Lemma invB_move s t p' :
  InvB s -> wo p' = wo (pcs s t) -> act p' = act (pcs s t) ->
  (forall e, psd p' = Some e -> psd (pcs s t) = Some e \/ mem e (evset s) = true) ->
  InvB (set_pc s t p').
Proof.
  intros H Hwo Hact Hpsd. destruct H. constructor; cbn; try assumption.
  - apply (upd_threads b_thr0); [|auto].
    destruct (b_thr0 t) as [T1 [T2 T3]]. unfold thrB. rewrite Hwo, Hact.
    repeat split; try assumption; try apply T1. intros e E. destruct (Hpsd e E); auto.
  - apply q1_upd; auto.
Qed.

Lemma invB_set_lock s l : InvB s -> InvB (set_lock s l).
Proof. intros []. constructor; assumption. Qed.

Lemma invB_set_vz s z : InvB s -> InvB (set_vz s z).
Proof. intros []. constructor; assumption. Qed.

Lemma grant_B s t ev :
  InvB s -> pcs s t = Crit (CWriterTest ev) -> wtxn s = None -> wevent s = ev -> InvB (granted_st s t ev).
Proof.
  intros H Hpc Hw Hev.
  (* the new owner leaves the queue: it was its head (woken waiter) or the queue was empty (newcomer) *)
  assert (Hq : Forall2 (fun x e => wo (pcs s x) = Some e) (wq (granted_st s t ev)) (waiters s) /\
               ~ In t (wq (granted_st s t ev)) /\ NoDup (wq (granted_st s t ev)) /\ NoDup (waiters s) /\
               (forall e, In e (waiters s) -> In e (Q s)) /\
               arrivals (granted_st s t ev) = (granted s ++ [t]) ++ wq (granted_st s t ev) /\
               forall t', t' <> t -> In t' (wq s) -> In t' (wq (granted_st s t ev))).
  { pose proof (b_q1 s H) as F. pose proof (b_q3 s H) as NDw. pose proof (b_q4 s H) as ND.
    pose proof (b_f1 s H) as Ef. unfold Q in *. rewrite Hev in *. cbn. destruct ev as [e|]; cbn in *.
    - destruct (queue_head s t e (waiters s) H) as [wq' [Ewq Hnin]];
        [rewrite Hpc; reflexivity|unfold Q; rewrite Hev; reflexivity|].
      rewrite Ewq in *. cbn. inversion F; inversion NDw; inversion ND; subst.
      repeat split; auto. { rewrite Ef, <- app_assoc. reflexivity. } intros t' Hn [->|Hin]; tauto.
    - rewrite (b_x2 s H Hw Hev), (idle_queue_empty s H Hw Hev) in *.
      repeat split; auto. rewrite Ef, !app_nil_r. reflexivity. }
  destruct Hq as [F [Hnin [NDw [ND [HinQ [Ef Hkeep]]]]]].
  constructor; unfold Q; cbn.
  - apply (upd_threads (b_thr s H)).
    + repeat split; discriminate.
    + intros t' Hn [_ [T2 T3]]. pose proof (others_inactive s t t' H (or_introl Hw) Hn) as Ha.
      unfold thrB. rewrite Ha. repeat split; try discriminate; [intros [= ->]; contradiction| |exact T3].
      intros e E. eapply Hkeep; eauto.
  - apply q1_upd; tauto.
  - exact NDw.
  - exact ND.
  - intros e He. apply (b_q5 s H), HinQ, He.
  - reflexivity.
  - discriminate.
  - apply (b_s1 s H).
  - discriminate.
  - apply (b_s4 s H).
  - exact Ef.
Qed.

(* a newcomer that finds the zone taken, or an event pending, creates an event and is queued last *)
Lemma enqueue_B s t :
  InvB s -> pcs s t = Crit (CWriterTest None) -> (wtxn s = None -> wevent s <> None) -> InvB (enqueued_st s t).
Proof.
  intros H Hpc Htest.
  assert (Hnin : ~ In t (wq s)) by (apply not_queued; [exact H|rewrite Hpc; reflexivity]).
  assert (HQ : Q (enqueued_st s t) = Q s ++ [nextev s]) by (unfold Q; cbn; apply app_assoc).
  assert (Hfresh : ~ In (nextev s) (Q s)) by (intros Hin; pose proof (b_q5 s H _ Hin); lia).
  constructor; rewrite ?HQ; cbn.
  - apply (upd_threads (b_thr s H)).
    + pose proof (b_thr s H t) as [T _]. rewrite Hpc in T. repeat split; try discriminate; [apply T|].
      intros _ _. apply in_or_app. right. left. reflexivity.
    + intros t' _ [T1 [T2 T3]]. repeat split; try apply T1; [|exact T3].
      intros e E. apply in_or_app. left. eapply T2, E.
  - apply Forall2_app; [apply q1_upd; [exact (b_q1 s H)|tauto]|].
    constructor; [rewrite upd_same; reflexivity|constructor].
  - apply NoDup_snoc; [apply (b_q3 s H)|exact Hnin].
  - apply NoDup_snoc; [apply (b_q4 s H)|exact Hfresh].
  - intros e Hin. apply in_app_or in Hin. destruct Hin as [Hin|[<-|[]]]; [|lia].
    pose proof (b_q5 s H _ Hin). lia.
  - apply (b_x1 s H).
  - intros Hw He. destruct (Htest Hw He).
  - intros e Hin. apply in_app_or in Hin. destruct Hin as [Hin|[<-|[]]]; [apply (b_s1 s H); exact Hin|].
    apply not_true_is_false. intros E. pose proof (b_s4 s H _ E). lia.
  - apply (b_s2 s H).
  - intros e E. pose proof (b_s4 s H _ E). lia.
  - rewrite (b_f1 s H). symmetry. apply app_assoc.
Qed.

(* _end_write_unlocked + _maybe_wakeup_one_waiter_unlocked by the owner of the transaction *)
Lemma end_B s t z :
  InvB s -> act (pcs s t) = true -> wo (pcs s t) = None -> InvB (ended_st s t z).
Proof.
  intros H Hact Hwo.
  assert (Hw : wtxn s = Some t) by (apply (b_w2 s H); assumption).
  assert (He : wevent s = None) by (apply (b_x1 s H); congruence).
  assert (HQs : Q s = waiters s) by (unfold Q; rewrite He; reflexivity).
  pose proof (b_q1 s H) as F. pose proof (b_q4 s H) as ND. pose proof (b_q5 s H) as Hlt. rewrite HQs in F, ND, Hlt.
  (* nobody owns the transaction any more; everything else said of the threads still holds when
     another event is set *)
  assert (Hthr : forall es, (forall e, mem e (evset s) = true -> mem e es = true) ->
                 forall t', thrB None (wq s) es t' (upd (pcs s) t (Rel Done) t')).
  { intros es Hes. apply (upd_threads (b_thr s H)); [repeat split; discriminate|].
    intros t' Hn [_ [T2 T3]]. pose proof (others_inactive s t t' H (or_intror Hw) Hn) as Ha.
    unfold thrB. rewrite Ha. repeat split; try discriminate; [exact T2|]. intros e E. apply Hes, (T3 e E). }
  assert (F' : Forall2 (fun x e => wo (upd (pcs s) t (Rel Done) x) = Some e) (wq s) (waiters s)).
  { apply q1_upd; [exact F|]. intros Hin. destruct (not_queued s t H Hwo Hin). }
  unfold ended_st, wakeup. cbn [waiters]. destruct (waiters s) as [|e rest] eqn:Ews.
  - constructor; unfold Q; cbn; rewrite ?He, ?Ews.
    + apply Hthr. auto.
    + exact F'.
    + apply (b_q3 s H).
    + constructor.
    + intros e [].
    + reflexivity.
    + reflexivity.
    + intros e [].
    + discriminate.
    + apply (b_s4 s H).
    + apply (b_f1 s H).
  - (* the first waiter is woken *)
    inversion ND as [|? ? Hne ND']; subst.
    constructor; unfold Q; cbn.
    + apply Hthr. intros e'. rewrite !mem_true. apply in_cons.
    + exact F'.
    + apply (b_q3 s H).
    + exact ND.
    + exact Hlt.
    + intros X. destruct (X eq_refl).
    + discriminate.
    + intros e' Hin. apply not_true_iff_false. rewrite mem_true. intros [->|E]; [contradiction|].
      apply mem_true in E. rewrite (b_s1 s H e') in E; [discriminate|rewrite Ews; right; exact Hin].
    + intros e' [= <-]. apply mem_true. left. reflexivity.
    + intros e' E. apply mem_true in E. destruct E as [<-|E]; [apply Hlt; left; reflexivity|apply (b_s4 s H), mem_true, E].
    + apply (b_f1 s H).
Qed.

(* outside the sections of writer() and of the end of a write transaction a pc keeps its meaning;
   only event.wait() returning says something new, and it returns because the event is set *)
Lemma local_keys s t p' l : local s t p' l ->
  wo p' = wo (pcs s t) /\ act p' = act (pcs s t) /\
  forall e, psd p' = Some e -> psd (pcs s t) = Some e \/ mem e (evset s) = true.
Proof.
  destruct 1 as [c Hpc _|nx Hpc|e Hpc He|Hpc|id Hpc|id c ch Hpc|id c ch e todo Hpc|h i c Hpc|sel Hpc];
    rewrite Hpc; autorewrite with body_pc; try (repeat split; (reflexivity || discriminate || auto)).
  intros e' [= <-]. auto.
Qed.

Theorem stepB s t s' : InvB s -> kind s t s' -> InvB s'.
Proof.
  intros H K. destruct K as [p' l L|ev Hpc Hw He|Hpc Ht|id c cm z Hpc Hw _|sel z h i x Hpc _|c o z Hpc Ho _].
  - apply invB_set_lock, invB_move; [exact H|apply (local_keys _ _ _ _ L)..].
  - apply grant_B; assumption.
  - apply enqueue_B; assumption.
  - apply end_B; [exact H|rewrite Hpc; reflexivity..].
  - apply invB_set_vz, invB_move; [exact H|rewrite Hpc; reflexivity..|discriminate].
  - apply invB_set_vz, invB_move; [exact H|rewrite Hpc..|discriminate]; destruct c; try discriminate; reflexivity.
Qed.
