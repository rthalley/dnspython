(* The UTF-8 validator of the EDNS text options (MessageM.utf8_ok, the model of bytes.decode("utf8")) accepts
   exactly the RFC 3629 encodings of sequences of Unicode scalar values.  Both sides are compared with the table
   of well-formed byte sequences (u8seq): the validator strips one row of the table at a time, and the rows are
   the encodings of the scalar values. *)
From Coq Require Import ZArith List Lia Bool.
From DV Require Import Base.Prelude Model.NameM Model.MessageM.
Import ListNotations.
Open Scope Z_scope.

(* Unicode scalar values: code points without the surrogates *)
Definition scalar (c : Z) : Prop := 0 <= c < 55296 \/ 57344 <= c < 1114112.

(* RFC 3629 section 3 *)
Definition utf8_enc (c : Z) : list Z :=
  if c <? 128 then [c]
  else if c <? 2048 then [192 + c / 64; 128 + c mod 64]
  else if c <? 65536 then [224 + c / 4096; 128 + (c / 64) mod 64; 128 + c mod 64]
  else [240 + c / 262144; 128 + (c / 4096) mod 64; 128 + (c / 64) mod 64; 128 + c mod 64].

(* The Unicode Standard, table 3-7 (well-formed UTF-8 byte sequences), rows of the same length merged *)
Inductive u8seq : list Z -> Prop :=
| u8seq1 b : 0 <= b < 128 -> u8seq [b]
| u8seq2 b c1 : 194 <= b <= 223 -> 128 <= c1 <= 191 -> u8seq [b; c1]
| u8seq3 b c1 c2 : 224 <= b <= 239 -> 128 <= c1 <= 191 -> 128 <= c2 <= 191 ->
    (b = 224 -> 160 <= c1) -> (b = 237 -> c1 <= 159) -> u8seq [b; c1; c2]
| u8seq4 b c1 c2 c3 : 240 <= b <= 244 -> 128 <= c1 <= 191 -> 128 <= c2 <= 191 -> 128 <= c3 <= 191 ->
    (b = 240 -> 144 <= c1) -> (b = 244 -> c1 <= 143) -> u8seq [b; c1; c2; c3].

Lemma between_spec a x b : reflect (a <= x <= b) ((a <=? x) && (x <=? b)).
Proof. destruct (Z.leb_spec0 a x), (Z.leb_spec0 x b); constructor; lia. Qed.

(* case split on a range test of the goal; the case that contradicts the context is closed *)
Ltac range a x b := destruct (between_spec a x b); try lia; try discriminate.

Lemma utf8_ok_seq s r : u8seq s -> utf8_ok (s ++ r) = utf8_ok r.
Proof.
  destruct 1; cbn [app utf8_ok]; unfold u8cont; destruct (Z.ltb_spec b 128); try lia.
  - reflexivity.
  - range 194 b 223. range 128 c1 191. reflexivity.
  - range 194 b 223. range 224 b 239. range 128 c2 191.
    destruct (Z.eqb_spec b 224); [range 160 c1 191|destruct (Z.eqb_spec b 237); [range 128 c1 159|range 128 c1 191]];
      reflexivity.
  - range 194 b 223. range 224 b 239. range 240 b 244. range 128 c2 191. range 128 c3 191.
    destruct (Z.eqb_spec b 240); [range 144 c1 191|destruct (Z.eqb_spec b 244); [range 128 c1 143|range 128 c1 191]];
      reflexivity.
Qed.

Lemma utf8_ok_inv b r : 0 <= b -> utf8_ok (b :: r) = true ->
  exists s r', b :: r = s ++ r' /\ u8seq s /\ utf8_ok r' = true.
Proof.
  intros Hb. cbn [utf8_ok]. unfold u8cont.
  destruct (Z.ltb_spec b 128).
  { intros Hok. exists [b], r. split; [reflexivity|split; [constructor; lia|exact Hok]]. }
  range 194 b 223.
  { destruct r as [|c1 r1]; [discriminate|]. range 128 c1 191.
    intros Hok. exists [b; c1], r1. split; [reflexivity|split; [constructor; lia|exact Hok]]. }
  range 224 b 239.
  { destruct r as [|c1 [|c2 r2]]; try discriminate.
    destruct (Z.eqb_spec b 224); [range 160 c1 191|destruct (Z.eqb_spec b 237); [range 128 c1 159|range 128 c1 191]];
      range 128 c2 191; intros Hok; exists [b; c1; c2], r2;
      (split; [reflexivity|split; [constructor; lia|exact Hok]]). }
  range 240 b 244.
  destruct r as [|c1 [|c2 [|c3 r3]]]; try discriminate.
  destruct (Z.eqb_spec b 240); [range 144 c1 191|destruct (Z.eqb_spec b 244); [range 128 c1 143|range 128 c1 191]];
    range 128 c2 191; range 128 c3 191; intros Hok; exists [b; c1; c2; c3], r3;
    (split; [reflexivity|split; [constructor; lia|exact Hok]]).
Qed.

Ltac dm := Z.to_euclidean_division_equations; lia.

Lemma u8seq_enc s : u8seq s <-> exists c, scalar c /\ s = utf8_enc c.
Proof.
  unfold scalar, utf8_enc. split.
  - destruct 1.
    + exists b. split; [lia|]. rewrite (proj2 (Z.ltb_lt _ 128)) by lia. reflexivity.
    + exists ((b - 192) * 64 + (c1 - 128)). split; [lia|].
      rewrite (proj2 (Z.ltb_ge _ 128)), (proj2 (Z.ltb_lt _ 2048)) by lia. repeat f_equal; dm.
    + exists ((b - 224) * 4096 + (c1 - 128) * 64 + (c2 - 128)). split; [lia|].
      rewrite (proj2 (Z.ltb_ge _ 128)), (proj2 (Z.ltb_ge _ 2048)), (proj2 (Z.ltb_lt _ 65536)) by lia.
      repeat f_equal; dm.
    + exists ((b - 240) * 262144 + (c1 - 128) * 4096 + (c2 - 128) * 64 + (c3 - 128)). split; [lia|].
      rewrite (proj2 (Z.ltb_ge _ 128)), (proj2 (Z.ltb_ge _ 2048)), (proj2 (Z.ltb_ge _ 65536)) by lia.
      repeat f_equal; dm.
  - intros (c & Hc & ->).
    destruct (Z.ltb_spec c 128); [|destruct (Z.ltb_spec c 2048); [|destruct (Z.ltb_spec c 65536)]];
      constructor; dm.
Qed.

Lemma utf8_enc_ok c rest : scalar c -> utf8_ok (utf8_enc c ++ rest) = utf8_ok rest.
Proof. intros Hc. apply utf8_ok_seq, u8seq_enc. exists c. split; [exact Hc|reflexivity]. Qed.

Lemma utf8_accepts_encodings_lemma cps : Forall scalar cps -> utf8_ok (flat_map utf8_enc cps) = true.
Proof.
  induction 1 as [|c cps SC _ IH]; [reflexivity|].
  cbn [flat_map]. rewrite utf8_enc_ok by exact SC. exact IH.
Qed.

Lemma utf8_ok_decodes_lemma l : Forall (fun b => 0 <= b) l -> utf8_ok l = true ->
  exists cps, Forall scalar cps /\ l = flat_map utf8_enc cps.
Proof.
  induction l as [l IH] using (induction_ltof1 _ (@length Z)). unfold ltof in IH. intros NN H.
  destruct l as [|b r]; [exists []; split; [constructor|reflexivity]|].
  destruct (utf8_ok_inv b r (Forall_inv NN) H) as (s & r' & E & Hs & Hr).
  rewrite E in IH, NN |- *. apply Forall_app in NN.
  destruct (IH r') as (cps & SC & ->); [rewrite app_length; destruct Hs; cbn; lia|apply NN|exact Hr|].
  apply u8seq_enc in Hs. destruct Hs as (c & Sc & ->).
  exists (c :: cps). split; [constructor; assumption|reflexivity].
Qed.

Theorem utf8_ok_spec l : Forall (fun b => 0 <= b) l ->
  (utf8_ok l = true <-> exists cps, Forall scalar cps /\ l = flat_map utf8_enc cps).
Proof.
  intros NN. split.
  - exact (utf8_ok_decodes_lemma l NN).
  - intros (cps & SC & ->). exact (utf8_accepts_encodings_lemma cps SC).
Qed.
