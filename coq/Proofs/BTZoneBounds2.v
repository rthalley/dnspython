(* C20: common-label counts, suffixes, relativity of stored names. *)
From DV Require Import Base.Prelude Model.NameM Model.BTZoneM Proofs.NameValid Proofs.NameOrder
     Proofs.BTZoneOrder Proofs.BTZoneList Proofs.BTZoneSpec Proofs.BTZoneInv.
Open Scope Z_scope.

Lemma lcp_nonneg : forall a b, 0 <= lcp a b.
Proof.
  induction a as [|x a IH]; intros [|y b]; cbn; try lia.
  destruct (cmp_bytes x y); try lia. specialize (IH b). lia.
Qed.

Lemma lcp_le_r : forall a b, lcp a b <= zlen b.
Proof.
  induction a as [|x a IH]; intros [|y b]; cbn [lcp]; try (pose proof (zlen_nonneg (y :: b)); lia);
    try (unfold zlen; cbn; lia).
  rewrite zlen_cons. pose proof (zlen_nonneg b). destruct (cmp_bytes x y); try lia. specialize (IH b). lia.
Qed.

Lemma lcp_firstn : forall a b (j : nat), Z.of_nat j <= lcp a b -> prefix (firstn j b) a.
Proof.
  induction a as [|x a IH]; intros b j H.
  - destruct j; [exists []; reflexivity|cbn in H; lia].
  - destruct j as [|j]; [exists (x :: a); reflexivity|].
    destruct b as [|y b]; cbn [lcp] in H; [lia|]. destruct (cmp_bytes x y) eqn:E; try lia.
    apply cmp_bytes_eq in E. subst y. destruct (IH b j) as [s Hs]; [lia|]. exists s. cbn [firstn app]. congruence.
Qed.

Lemma lcp_max : forall p a b, prefix p a -> prefix p b -> zlen p <= lcp a b.
Proof.
  induction p as [|x p IH]; intros a b [s1 H1] [s2 H2].
  - unfold zlen; cbn. apply lcp_nonneg.
  - subst a b. cbn [app lcp]. assert (cmp_bytes x x = Eq) by (apply cmp_bytes_eq; reflexivity). rewrite H.
    rewrite zlen_cons. specialize (IH (p ++ s1) (p ++ s2)).
    assert (zlen p <= lcp (p ++ s1) (p ++ s2)) by (apply IH; eexists; reflexivity). lia.
Qed.

Lemma firstn_prefix : forall (n : nat) (b : key), prefix (firstn n b) b.
Proof. intros. exists (skipn n b). symmetry. apply firstn_skipn. Qed.

(* the nearer to d in the order, the longer the common prefix with d *)
Lemma lcp_mono : forall a b d,
    (kcmp a b <> Gt /\ kcmp b d <> Gt) \/ (kcmp d b <> Gt /\ kcmp b a <> Gt) -> lcp a d <= lcp b d.
Proof.
  intros a b d H. pose proof (lcp_nonneg a d) as Hn. pose proof (lcp_le_r a d) as Hr.
  set (p := firstn (Z.to_nat (lcp a d)) d).
  assert (Hpa : prefix p a) by (apply lcp_firstn; lia).
  assert (Hpd : prefix p d) by apply firstn_prefix.
  assert (Hpb : prefix p b).
  { destruct H as [[H1 H2]|[H1 H2]]; [eapply (prefix_convex p a b d)|eapply (prefix_convex p d b a)]; eauto. }
  replace (lcp a d) with (zlen p); [apply lcp_max; assumption|].
  unfold p, zlen in *. rewrite firstn_length_le; lia.
Qed.

Lemma zlen_lkey : forall n, zlen (lkey n) = zlen n.
Proof. intros. unfold lkey, zlen. rewrite rev_length, map_length. reflexivity. Qed.

Lemma length_lkey : forall n, length (lkey n) = length n.
Proof. intros. unfold lkey. rewrite rev_length, map_length. reflexivity. Qed.

Lemma below_split : forall n m, below (K n) (K m) <-> (is_absolute n = is_absolute m /\ prefix (lkey m) (lkey n)).
Proof.
  intros n m. unfold below, ekey. split.
  - intros [s H]. cbn in H. inversion H. split.
    + destruct (is_absolute n), (is_absolute m); auto; discriminate.
    + exists s. auto.
  - intros [E [s H]]. rewrite E. exists s. cbn. rewrite H. reflexivity.
Qed.

Lemma valid_abs : forall c n, is_absolute (c_origin c) = true -> validk c (K n) ->
                              is_absolute n = negb (c_rel c).
Proof.
  intros c n Ho Hv. unfold validk, apexkey in Hv. apply below_split in Hv as [E _]. rewrite E.
  unfold apexname. destruct (c_rel c); auto.
Qed.

Lemma skipn_in_suffixes : forall (q : name) (k : nat), (k <= length q)%nat -> In (skipn k q) (suffixes q).
Proof.
  induction q as [|x q IH]; intros k Hk.
  - destruct k; cbn; auto.
  - destruct k as [|k]; [left; reflexivity|]. cbn [skipn suffixes]. right. apply IH. cbn in Hk. lia.
Qed.

Lemma suffixes_skipn : forall (q s : name), In s (suffixes q) -> exists k, (k <= length q)%nat /\ s = skipn k q.
Proof.
  induction q as [|x q IH]; intros s H.
  - destruct H as [<-|[]]. exists 0%nat. auto.
  - destruct H as [<-|H]; [exists 0%nat; split; [lia|reflexivity]|].
    destruct (IH s H) as (k & Hk & E). exists (Datatypes.S k). split; [cbn; lia|auto].
Qed.

Lemma is_absolute_skipn : forall (q : name) (k : nat), (k < length q)%nat -> is_absolute (skipn k q) = is_absolute q.
Proof.
  induction q as [|x q IH]; intros k Hk; [cbn in Hk; lia|].
  destruct k as [|k]; auto. cbn [skipn]. rewrite IH by (cbn in Hk; lia).
  destruct q; [cbn in Hk; lia|reflexivity].
Qed.

Lemma lkey_skipn : forall (q : name) (k : nat), (k <= length q)%nat ->
                                               lkey (skipn k q) = firstn (length q - k) (lkey q).
Proof.
  intros q k Hk. unfold lkey. rewrite firstn_rev. rewrite map_length.
  f_equal. rewrite <- skipn_map. f_equal. unfold label in *. lia.
Qed.

Lemma py_suffix_skipn : forall (q : name) n, 0 <= n <= zlen q ->
                                             py_suffix q n = skipn (length q - Z.to_nat n) q.
Proof.
  intros q n Hn. unfold py_suffix. unfold zlen in *.
  destruct (0 <=? Z.of_nat (length q) - n) eqn:E; [|apply Z.leb_gt in E; lia].
  f_equal. lia.
Qed.

Lemma is_absolute_nonempty : forall n, is_absolute n = true -> (1 <= length n)%nat.
Proof. intros [|x n] H; cbn in *; [discriminate|lia]. Qed.

Section Common.
  Variable c : cfg.
  Hypothesis Ho : is_absolute (c_origin c) = true.
  Variables w q : name.
  Hypothesis Hw : validk c (K w).
  Hypothesis Hq : validk c (K q).

  Lemma common_valid : common w q = lcp (lkey w) (lkey q).
  Proof. rewrite common_lcp, (valid_abs c w Ho Hw), (valid_abs c q Ho Hq), Bool.eqb_reflx. reflexivity. Qed.

  Lemma lcp_ekey : lcp (K w) (K q) = 1 + common w q.
  Proof.
    rewrite common_valid. unfold ekey. rewrite (valid_abs c w Ho Hw), (valid_abs c q Ho Hq).
    destruct (negb (c_rel c)); reflexivity.
  Qed.

  (* the origin is common to all of them *)
  Lemma common_origin : (if c_rel c then 0 else zlen (c_origin c)) <= common w q.
  Proof.
    rewrite common_valid. unfold validk, apexkey, apexname in Hw, Hq.
    destruct (c_rel c); [apply lcp_nonneg|].
    rewrite <- zlen_lkey. apply lcp_max; [apply (below_split w), Hw|apply (below_split q), Hq].
  Qed.

  (* w is at or beneath the suffix of q with j labels iff j <= common w q *)
  Lemma sub_suffix_le : forall k : nat,
      (k <= length q)%nat -> is_subdomain w (skipn k q) = true -> Z.of_nat (length q - k) <= common w q.
  Proof.
    intros k Hk H. rewrite common_valid. apply is_subdomain_below, below_split in H as [_ Hp].
    rewrite lkey_skipn in Hp by exact Hk.
    replace (Z.of_nat (length q - k)) with (zlen (firstn (length q - k) (lkey q)));
      [apply lcp_max; [exact Hp|apply firstn_prefix]|].
    unfold zlen. rewrite firstn_length_le; [reflexivity|rewrite length_lkey; lia].
  Qed.

  Lemma sub_suffix_ge : forall j,
      0 <= j <= common w q -> (c_rel c = false -> 1 <= j) -> is_subdomain w (py_suffix q j) = true.
  Proof.
    intros j Hj Hpos. rewrite common_valid in Hj.
    pose proof (lcp_le_r (lkey w) (lkey q)) as Hle. rewrite zlen_lkey in Hle. unfold zlen in Hle.
    rewrite py_suffix_skipn by (unfold zlen; lia).
    apply is_subdomain_below, below_split. split.
    - rewrite (valid_abs c w Ho Hw). destruct (Z.eq_dec j 0) as [->|E0].
      + rewrite Nat.sub_0_r, skipn_all. destruct (c_rel c); [reflexivity|specialize (Hpos eq_refl); lia].
      + rewrite is_absolute_skipn by lia. symmetry. apply (valid_abs c q Ho Hq).
    - rewrite lkey_skipn by lia. replace (length q - (length q - Z.to_nat j))%nat with (Z.to_nat j) by lia.
      apply lcp_firstn. lia.
  Qed.
End Common.

(* the nearer to q in the order, the more labels in common with q *)
Lemma common_mono : forall c, is_absolute (c_origin c) = true ->
    forall a b q, validk c (K a) -> validk c (K b) -> validk c (K q) ->
    (kcmp (K a) (K b) <> Gt /\ kcmp (K b) (K q) <> Gt) \/ (kcmp (K q) (K b) <> Gt /\ kcmp (K b) (K a) <> Gt) ->
    common a q <= common b q.
Proof.
  intros c Ho a b q Ha Hb Hq H. pose proof (lcp_mono (K a) (K b) (K q) H) as Hm.
  rewrite (lcp_ekey c Ho a q Ha Hq), (lcp_ekey c Ho b q Hb Hq) in Hm. lia.
Qed.

Lemma mk_name_nil : mk_name [] = Ok [].
Proof. reflexivity. Qed.

Lemma validate_origin : forall c, is_absolute (c_origin c) = true ->
    exists o, validate_name c (c_origin c) = Ok o /\ zlen o = if c_rel c then 0 else zlen (c_origin c).
Proof.
  intros c Ho. unfold validate_name. rewrite Ho.
  assert (Hs : is_subdomain (c_origin c) (c_origin c) = true) by (apply is_subdomain_below, below_refl).
  rewrite Hs. cbn [negb]. destruct (c_rel c).
  - unfold relativize. rewrite Hs. unfold drop_last. rewrite Nat.sub_diag. cbn [firstn].
    exists []. split; auto.
  - eexists. split; reflexivity.
Qed.
