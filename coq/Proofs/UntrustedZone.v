(* C04 for zone files, on C09's model of the reader (Model/ZoneTextM.v: Reader.read, _rr_line,
   _generate_line, txn.add, check_origin; dns.zonefile.read_rrsets): every character string as
   zone text ends in a zone, in one of the library's documented errors, or in the documented
   zone-semantic ValueError - never in AssertionError, IndexError, ... and never out of fuel. *)
From DV Require Import Base.Prelude Model.NameM Proofs.NameValid Proofs.UntrustedEnds.
From DV Require Proofs.UntrustedText Proofs.ZoneTextFuel.
From DV Require Import Model.ZoneTextM.
Open Scope Z_scope.

(* the library errors the reader can raise (codes of ZoneTextM): SyntaxError family (file:line is
   added by Reader.read), NameTooLong from an owner / $ORIGIN name, UnknownOrigin,
   CNAMEAndOtherData, NoSOA, NoNS; eUnmodelled marks input outside the modelled fragment *)
Definition zlib (e : Z) : Prop :=
  e = eSyntax \/ e = eNameTooLongZ \/ e = eUnknownOrigin \/ e = eCNAMEAndOther \/ e = eNoSOA
  \/ e = eNoNS \/ e = eUnmodelled.

(* Ok, a documented library error, the documented ValueError - or (only inside the loops, excluded
   at the end by C09's fuel theorem) the model's fuel marker *)
Definition Nice {A} (r : res A) : Prop :=
  match r with
  | Ok _ => True
  | Lib e => zlib e
  | Internal e => e = iValueError \/ e = iFuelZ
  end.

Lemma nice_ok {A} (a : A) : Nice (Ok a). Proof. exact Logic.I. Qed.
Lemma nice_syntax {A} : Nice (@Lib A eSyntax). Proof. left; reflexivity. Qed.

Ltac zl := first [ reflexivity | left; reflexivity | right; zl ].

(* Ok or SyntaxError only *)
Definition Syn {A} (r : res A) : Prop :=
  match r with Ok _ => True | Lib e => e = eSyntax | Internal _ => False end.
Lemma syn_nice {A} (r : res A) : Syn r -> Nice r.
Proof. destruct r; cbn; auto; [intros ->; zl|contradiction]. Qed.

(* no fuel marker: Ok, a documented library error or the documented ValueError *)
Definition NiceR {A} (r : res A) : Prop :=
  match r with Ok _ => True | Lib e => zlib e | Internal e => e = iValueError end.
Lemma nicer_of_syn {A} (r : res A) : Syn r -> NiceR r.
Proof. destruct r; cbn; auto; [intros ->; zl|contradiction]. Qed.

(* Syn, NiceR and Nice are `ends` with no condition on the value.  What is left of a goal once the
   binds are gone is a tree of tests with a value or a fixed error at each leaf: *)
Ltac leaves :=
  repeat match goal with
         | |- _ (Ok _) => exact Logic.I
         | |- _ (Lib _) => zl
         | |- _ (if ?b then _ else _) => destruct b
         | |- _ (match ?x with _ => _ end) => destruct x
         | |- _ (let '(_, _) := ?x in _) => destruct x
         end.

(* an escape takes one, two or four characters: induction on the length *)
Lemma syn_unescape : forall s, Syn (tok_unescape s).
Proof.
  induction s as [s IH] using (induction_ltof1 _ (@length Z)); unfold ltof in IH.
  destruct s as [|c r]; [exact Logic.I|].
  assert (Tl : forall x t, (length t <= length r)%nat -> Syn (do u <- tok_unescape t; Ok (x :: u))).
  { intros x t Ht. apply ends_seq; [apply IH; cbn; lia|intros; exact Logic.I]. }
  cbn [tok_unescape]. destruct (c =? 92); [|apply Tl; lia].
  destruct r as [|c1 r1]; [reflexivity|].
  destruct (is_digit c1); [|apply Tl; cbn; lia].
  destruct r1 as [|c2 [|c3 r3]]; try reflexivity.
  destruct (is_digit c2 && is_digit c3); [|reflexivity]. cbv zeta.
  destruct (_ >? 255); [reflexivity|apply Tl; cbn; lia].
Qed.

Lemma syn_parse_fields : forall ks toks co rel zo, Syn (parse_fields ks toks co rel zo).
Proof.
  induction ks as [|k ks IH]; intros toks co rel zo; cbn [parse_fields]; [leaves|].
  assert (Tail : forall (v : fval) toks', Syn (do rest <- parse_fields ks toks' co rel zo; Ok (v :: rest))).
  { intros. apply ends_seq; [apply IH|intros; exact Logic.I]. }
  (* the one-token kinds: a value for the token, then the rest *)
  destruct k;
    try (destruct toks as [|t toks']; [reflexivity|];
         apply ends_seq; [|intros; apply Tail]; destruct t; cbn [tokval]; try reflexivity;
         try (apply ends_seq; [apply syn_unescape|intros u]); leaves).
  - (* KStrs *)
    match goal with |- context [bind (?go toks)] => assert (Go : forall l, Syn (go l)) end.
    { induction l as [|x l IHl]; [exact Logic.I|].
      apply ends_seq; [apply syn_unescape|]. intros b.
      destruct (zlen b >? 255); [reflexivity|].
      apply ends_seq; [exact IHl|intros; exact Logic.I]. }
    destruct toks as [|t toks']; [reflexivity|]. apply ends_seq; [apply (Go (t :: toks'))|intros; exact Logic.I].
  - (* KRest *) leaves.
Qed.

Lemma syn_unescape_all : forall vs, Syn (unescape_all vs).
Proof.
  induction vs as [|v r IH]; cbn [unescape_all]; [exact Logic.I|].
  apply ends_seq; [apply syn_unescape|]. intros u.
  apply ends_seq; [exact IH|intros; exact Logic.I].
Qed.

(* the literal test `token.value == r"\#"` *)
Lemma generic_head_P {A} (P : A -> Prop) (a b : list tok -> A) toks :
  (forall r, P (a r)) -> P (b toks) -> P (match toks with TId [92; 35] :: r' => a r' | _ => b toks end).
Proof.
  intros Ha Hb. destruct toks as [|[[|[|p|p] v]|v] r]; auto. do 7 (destruct p as [p|p|]; auto).
  destruct v as [|[|q|q] v]; auto. do 6 (destruct q as [q|q|]; auto). destruct v; auto.
Qed.

Lemma syn_parse_generic toks : Syn (parse_generic toks).
Proof.
  unfold parse_generic. apply generic_head_P with (b := fun _ => Lib eSyntax); [|reflexivity].
  intros [|[l0|l0] rest]; try reflexivity.
  apply ends_seq; [apply syn_unescape|]. intros l.
  destruct (_ && _); [|reflexivity]. destruct (all_ids rest); [|reflexivity].
  apply ends_seq; [apply syn_unescape_all|]. intros vs. leaves.
Qed.

(* a known type in generic syntax: the wire layouts of names / integers / IPv4 addresses *)
Lemma nicer_wire_fields : forall ks bs rel zo, NiceR (wire_fields ks bs rel zo).
Proof.
  induction ks as [|k ks IH]; intros bs rel zo; cbn [wire_fields]; [leaves|].
  apply ends_seq; [destruct k; leaves|]. intros [v rest].
  apply ends_seq; [apply IH|intros; exact Logic.I].
Qed.

(* a record's text: parsed, SyntaxError, or outside the modelled fragment *)
Lemma nicer_parse_rdata ty toks lerr co rel zo : NiceR (parse_rdata ty toks lerr co rel zo).
Proof.
  assert (E : forall r : res rdata, NiceR r -> NiceR (do rd <- r; if lerr then Lib eSyntax else Ok rd)).
  { intros r H. apply ends_seq; [exact H|]. intros; leaves. }
  unfold parse_rdata. destruct (tbl_by_code type_table ty) as [[nm ks]|]; [|apply E, nicer_of_syn, syn_parse_generic].
  apply generic_head_P with (b := fun toks => do rd <- parse_fields ks toks co rel zo; if lerr then Lib eSyntax else Ok rd);
    [|apply E, nicer_of_syn, syn_parse_fields].
  intros _. destruct (wire_modelled ks); [|zl].
  apply ends_seq; [apply nicer_of_syn, syn_parse_generic|]. intros g.
  repeat match goal with |- _ (match ?x with _ => _ end) => is_var x; destruct x; try zl end.
  apply E, nicer_wire_fields.
Qed.

Import UntrustedText.

Lemma nicer_lift_name {A} (Q : A -> Prop) esc (r : res A) : ends Q isNameTextErr none r -> NiceR (lift_name esc r).
Proof.
  destruct r as [a|e|e]; cbn [lift_name ends]; [exact (fun _ => Logic.I)| |contradiction].
  unfold name_err. intros [-> | [-> | [-> | ->]]]; cbn; destruct esc; zl.
Qed.

Lemma nicer_as_name esc v o : NiceR (as_name esc v o false None).
Proof.
  unfold as_name. eapply ends_bind.
  - eapply nicer_lift_name, name_from_text_family.
  - intros n _. eapply nicer_lift_name, choose_relativity_family.
Qed.

Lemma nicer_relativized (rel : bool) nm zo : NiceR (if rel then lift_name true (relativize nm zo) else Ok nm).
Proof. destruct rel; [eapply nicer_lift_name, relativize_family|exact Logic.I]. Qed.

Lemma nicer_cname_pair (k1 k2 : nkind) :
  NiceR (match k1, k2 with KCname, KRegular | KRegular, KCname => Lib eCNAMEAndOther | _, _ => Ok tt end).
Proof. destruct k1, k2; leaves. Qed.

Lemma nicer_txn_add zo rel z n ttl ty rd : NiceR (txn_add zo rel z n ttl ty rd).
Proof.
  unfold txn_add. cbv zeta. destruct (_ && _); [reflexivity|].
  apply ends_seq; [|intros; exact Logic.I].
  unfold cname_check. destruct (zfind z n); [apply nicer_cname_pair|exact Logic.I].
Qed.

(* the reader's invariant: once there is a current origin there is a zone origin *)
Definition inv (s : rstate) : Prop := corigin s <> None -> zorigin s <> None.
(* no line but $ORIGIN touches the two origins *)
Definition keeps (s s' : rstate) : Prop := corigin s' = corigin s /\ zorigin s' = zorigin s.
Definition NiceS (s0 : rstate) (r : res rstate) : Prop :=
  Nice r /\ (forall s', r = Ok s' -> corigin s' = corigin s0 /\ zorigin s' = zorigin s0).

Lemma NiceS_of_nice s (r : res rstate) : Nice r -> (forall s', r <> Ok s') -> NiceS s r.
Proof. intros H N. split; [exact H|]. intros s' E. exfalso. eapply N; eauto. Qed.

Lemma keeps_inv s s' : keeps s s' -> inv s -> inv s'.
Proof. unfold inv. intros [-> ->] I. exact I. Qed.

(* NiceR with a condition on the value; `line s`: the state returned has the origins of s *)
Definition zends {A} (Q : A -> Prop) (r : res A) : Prop := ends Q zlib (fun e => e = iValueError) r.
Definition line (s : rstate) : res rstate -> Prop := zends (keeps s).

Lemma nicer_get_ident toks : NiceR (get_ident toks).
Proof. unfold get_ident. leaves. Qed.

Lemma eol_ok_keeps lerr s : line s (eol_ok lerr s).
Proof. unfold eol_ok. destruct lerr; [zl|split; reflexivity]. Qed.

Lemma rr_fields_keeps c s co zo n toks lerr : line s (rr_fields c s co zo n toks lerr).
Proof.
  unfold rr_fields.
  apply ends_seq; [apply nicer_get_ident|]. intros [v1 r1].
  set (T := match ttl_from_text v1 with Ok _ => _ | _ => _ end).
  assert (HT : keeps s (snd (fst T))) by (unfold T; destruct (ttl_from_text v1); split; reflexivity).
  destruct T as [[ttl s1] toks1].
  apply ends_seq; [apply nicer_get_ident|]. intros [v2 r2].
  destruct (match class_from_text v2 with Some _ => _ | None => _ end) as [cls toks2].
  destruct (negb _); [zl|].
  eapply ends_bind with (Q1 := fun x => keeps s (snd (fst x))).
  { destruct ttl as [t|]; [exact HT|].
    apply ends_seq; [apply nicer_get_ident|]. intros [v3 r3]. destruct (ttl_from_text v3); exact HT. }
  intros [[ttl' s2] toks3] HK.
  apply ends_seq; [apply nicer_get_ident|]. intros [v4 toks4].
  destruct (type_from_text v4) as [ty|]; [|zl].
  apply ends_seq; [apply nicer_parse_rdata|]. intros rd.
  (* the SOA minimum as default TTL *)
  match goal with |- _ (let '(_, _) := ?X in _) => assert (HX : keeps s (snd X)); [|destruct X as [ttl3 s3]] end.
  { destruct (_ && _); [|exact HK]. destruct (nth_error rd 6) as [[]|]; exact HK. }
  destruct ttl3 as [t|]; [|zl].
  apply ends_seq; [apply nicer_txn_add|]. intros z'. exact HX.
Qed.

Lemma line_trans s0 s1 r : keeps s0 s1 -> line s1 r -> line s0 r.
Proof.
  intros [C Z] H. eapply ends_mono; [exact H| |auto|auto].
  intros s' [C' Z']. split; congruence.
Qed.

(* Reader._rr_line *)
Lemma rr_line_keeps c s lead toks lerr : inv s -> line s (rr_line c s lead toks lerr).
Proof.
  intros I. unfold rr_line. destruct (corigin s) as [co|] eqn:Co; [|zl].
  eapply ends_bind with (Q1 := fun x => keeps s (fst (fst x))).
  { destruct lead; [destruct toks; split; reflexivity|].
    destruct toks as [|[v|v] r]; try zl.
    apply ends_seq; [apply nicer_as_name|]. intros n. split; reflexivity. }
  intros [[s1 toks1] blank] K. cbn [fst] in K. apply (line_trans _ _ _ K).
  destruct blank; [apply eol_ok_keeps|].
  destruct (lastname s1) as [nm|]; [|zl].
  destruct (zorigin s1) as [zo|] eqn:Zo.
  2:{ destruct K as [C Z]. exfalso. apply I; [rewrite Co; discriminate|congruence]. }
  destruct (negb (is_subdomain nm zo)); [apply eol_ok_keeps|].
  apply ends_seq; [apply nicer_relativized|]. intros n. apply rr_fields_keeps.
Qed.

(* the `for i in range(...)` loop of _generate_line *)
Lemma gen_loop_keeps : forall count i step c s co zo lhs rhs lm rm ttl ty,
  zends (fun x => keeps s (fst x)) (gen_loop count i step c s co zo lhs rhs lm rm ttl ty).
Proof.
  induction count as [|k IH]; intros i step c s co zo lhs rhs lm rm ttl ty; cbn [gen_loop]; [split; reflexivity|].
  destruct lm as [[[[lmod lneg] loff] lwidth] lbase]. destruct rm as [[[[rmod rneg] roff] rwidth] rbase]. cbv zeta.
  apply ends_seq; [eapply nicer_lift_name, name_from_text_family|]. intros nm.
  destruct (negb (is_subdomain nm zo)); [split; reflexivity|].
  apply ends_seq; [apply nicer_relativized|]. intros n.
  destruct (lex _ 0 MSkip []) as [[toks term] rest].
  apply ends_seq; [apply nicer_parse_rdata|]. intros rd.
  apply ends_seq; [apply nicer_txn_add|]. intros z'. exact (IH _ _ _ (set_zn (set_last s nm) z') _ _ _ _ _ _ _ _).
Qed.

Lemma nicer_parse_modify side : NiceR (parse_modify side).
Proof. unfold parse_modify. cbv zeta. destruct (negb _); [zl|exact Logic.I]. Qed.

(* Reader._generate_line *)
Lemma generate_line_keeps c s toks lerr : inv s ->
  zends (fun x => keeps s (fst x)) (generate_line c s toks lerr).
Proof.
  intros I. unfold generate_line.
  destruct (corigin s) as [co|] eqn:Co; [|zl].
  destruct toks as [|t0 toks0]; [zl|].
  destruct (grange_from_text (tokval t0)) as [[[start stop] step]|e|e]; try zl.
  apply ends_seq; [apply nicer_get_ident|]. intros [lhs toks1].
  apply ends_seq; [apply nicer_get_ident|]. intros [v1 r1].
  eapply ends_bind with (Q1 := fun x => keeps s (snd (fst (fst x)))).
  { destruct (ttl_from_text v1) as [t|e|e].
    - apply ends_seq; [apply nicer_get_ident|]. intros [v r]. split; reflexivity.
    - destruct (dttl_known s); [|destruct (lttl_known s)]; try zl; split; reflexivity.
    - destruct (dttl_known s); [|destruct (lttl_known s)]; try zl; split; reflexivity. }
  intros [[[ttl s1] v2] r2] K. cbn [fst snd] in K.
  apply ends_seq.
  { destruct (class_from_text v2); [|exact Logic.I].
    apply ends_seq; [apply nicer_get_ident|]. intros [v r]. exact Logic.I. }
  intros [[cls v3] r3].
  destruct (negb _); [zl|].
  destruct (type_from_text v3) as [ty|]; [|zl].
  apply ends_seq; [apply nicer_get_ident|]. intros [rhs r4].
  apply ends_seq; [apply nicer_parse_modify|]. intros lm.
  apply ends_seq; [apply nicer_parse_modify|]. intros rm.
  destruct (zorigin s1) as [zo|] eqn:Zo.
  2:{ destruct K as [C Z]. exfalso. apply I; [rewrite Co; discriminate|congruence]. }
  eapply ends_bind; [apply gen_loop_keeps|]. intros [s2 eaten] K2.
  assert (K3 : keeps s s2) by (destruct K, K2; split; cbn in *; congruence).
  destruct eaten; [destruct lerr; [zl|]|]; exact K3.
Qed.

(* the test `token.value[0] == '$'` *)
Lemma dollar_P {A} (P : A -> Prop) (a b : A) l : P a -> P b -> P (match l with 36 :: _ => a | _ => b end).
Proof. intros Ha Hb. destruct l as [|[|p|p] ?]; auto. do 6 (destruct p as [p|p|]; auto). Qed.

(* one logical line of Reader.read: keeps the invariant *)
Lemma process_line_inv c s lead toks lerr : inv s ->
  zends inv (process_line c s lead toks lerr).
Proof.
  intros I.
  assert (KI : forall s1 (r : res rstate), inv s1 -> line s1 r -> zends inv r).
  { intros s1 r I1 H. eapply ends_mono; [exact H| |auto|auto]. intros s' K. exact (keeps_inv _ _ K I1). }
  assert (RL : forall s1 l t, inv s1 -> zends inv (rr_line c s1 l t lerr)).
  { intros s1 l t I1. apply (KI s1), rr_line_keeps; exact I1. }
  unfold process_line. destruct lead; [apply RL; exact I|].
  destruct toks as [|t rest]; [apply (KI s), eol_ok_keeps; exact I|].
  apply dollar_P; [|apply RL; exact I]. cbv zeta.
  repeat match goal with |- context [if zlist_eqb ?a ?b then _ else _] => destruct (zlist_eqb a b) end.
  - (* $TTL *)
    apply ends_seq; [apply nicer_get_ident|]. intros [v r].
    destruct (ttl_from_text v); try zl. destruct r; [|zl].
    apply (KI (set_dttl s a)), eol_ok_keeps. exact I.
  - (* $ORIGIN *)
    apply ends_seq; [apply nicer_get_ident|]. intros [v r].
    apply ends_seq; [apply nicer_as_name|]. intros o.
    destruct r; [|zl]. destruct lerr; [zl|]. destruct (is_absolute o); [|zl].
    unfold inv, set_origin. cbn. intros _. destruct (zorigin s); discriminate.
  - (* $GENERATE *)
    eapply ends_bind; [apply generate_line_keeps; exact I|]. intros [s1 lft] K.
    pose proof (keeps_inv _ _ K I) as I1.
    destruct lft as [[|x l]|]; [apply (KI s1), eol_ok_keeps; exact I1|apply RL; exact I1|exact I1].
  - (* $UNICODE *)
    destruct (all_ids rest); [|zl]. apply (KI s), eol_ok_keeps; exact I.
  - zl.
Qed.

Lemma read_loop_nice c : forall fuel s text, inv s -> Nice (read_loop fuel c s text).
Proof.
  induction fuel as [|f IH]; intros s text I; cbn [read_loop]; [right; reflexivity|].
  destruct (lex text 0 MSkip []) as [[toks term] rest].
  eapply ends_bind.
  - eapply ends_mono; [apply process_line_inv; exact I|intros a Ia; exact Ia|auto|intros e ->; left; reflexivity].
  - intros s' I'. destruct term; [apply IH; exact I'|exact Logic.I|zl].
Qed.

Lemma inv_init c : inv (init_state c).
Proof. unfold inv, init_state. cbn. auto. Qed.

Lemma nice_no_fuel {A} (r : res A) : Nice r -> (r <> Internal iFuelZ) -> NiceR r.
Proof. destruct r as [a|e|e]; cbn; auto. intros [->| ->] H; [reflexivity|]. exfalso; apply H; reflexivity. Qed.

(* dns.zone.from_text: EVERY character string, every origin / relativize / check_origin setting *)
Theorem zone_from_text_outcome c text :
  match ZoneTextM.from_text c text with
  | Ok _ => True
  | Lib e => zlib e
  | Internal e => e = iValueError
  end.
Proof.
  unfold ZoneTextM.from_text. eapply ends_bind.
  - apply nice_no_fuel; [apply read_loop_nice, inv_init|].
    apply ZoneTextFuel.read_loop_fuel_sufficient_proof, Nat.lt_succ_diag_r.
  - intros s _. apply ends_seq; [|intros; exact Logic.I].
    destruct (c_check c); [|exact Logic.I]. unfold check_origin. leaves.
Qed.

(* dns.zonefile.read_rrsets *)
(* here the fuel marker is excluded directly: each logical line consumes input *)

Lemma nicer_rrs_add zo rel st n ttl ty rd : NiceR (rrs_add zo rel st n ttl ty rd).
Proof.
  unfold rrs_add. cbv zeta. destruct (_ && _); [reflexivity|].
  apply ends_seq; [|intros; exact Logic.I].
  destruct (rrs_node st n); [exact Logic.I|apply nicer_cname_pair].
Qed.

Lemma nicer_rrs_fields c zo s last n toks lerr : NiceR (rrs_fields c zo s last n toks lerr).
Proof.
  unfold rrs_fields.
  apply ends_seq; [apply nicer_get_ident|]. intros [v1 r1].
  destruct (match ttl_from_text v1 with Ok _ => _ | _ => _ end) as [[[ttl lt] ltk] toksa].
  apply ends_seq; [apply nicer_get_ident|]. intros [v2 r2].
  destruct (match class_from_text v2 with Some _ => _ | None => _ end) as [cls toksb].
  destruct (negb _); [zl|].
  apply ends_seq.
  { destruct ttl; [exact Logic.I|].
    apply ends_seq; [apply nicer_get_ident|]. intros [v3 r3]. destruct (ttl_from_text v3); exact Logic.I. }
  intros [[[ttl2 lt2] ltk2] toksc].
  apply ends_seq; [apply nicer_get_ident|]. intros [v4 toksd].
  destruct (type_from_text v4) as [ty|]; [|zl].
  apply ends_seq; [apply nicer_parse_rdata|]. intros rd.
  destruct (if _ && _ then _ else _) as [[ttl3 dt] dtk].
  destruct ttl3; [|zl].
  apply ends_seq; [apply nicer_rrs_add|]. intros; exact Logic.I.
Qed.

Lemma nicer_rrs_line c zo s lead toks lerr : NiceR (rrs_line c zo s lead toks lerr).
Proof.
  unfold rrs_line. apply ends_seq.
  { destruct lead; [destruct toks; exact Logic.I|].
    destruct toks as [|[v|v] r]; try zl.
    apply ends_seq; [apply nicer_as_name|intros; exact Logic.I]. }
  intros [[last toks1] blank]. cbv zeta.
  destruct blank; [leaves|].
  destruct last as [nm|]; [|zl].
  destruct (negb (is_subdomain nm zo)); [leaves|].
  apply ends_seq; [apply nicer_relativized|]. intros n. apply nicer_rrs_fields.
Qed.

Lemma nicer_rrs_loop c zo : forall fuel s text, (length text < fuel)%nat -> NiceR (rrs_loop fuel c zo s text).
Proof.
  induction fuel as [|f IH]; intros s text Hl; [lia|]. cbn [rrs_loop].
  destruct (lex text 0 MSkip []) as [[toks term] rest] eqn:L.
  apply ZoneTextFuel.lex_rest in L as [L1 L2]. cbv zeta.
  apply ends_seq.
  { destruct (starts_ws text); [apply nicer_rrs_line|].
    destruct toks; [leaves|apply nicer_rrs_line]. }
  intros s'. destruct term; [|exact Logic.I|zl].
  apply IH. specialize (L2 eq_refl). lia.
Qed.

(* dns.zonefile.read_rrsets: EVERY character string *)
Theorem read_rrsets_outcome c zo text :
  match ZoneTextM.read_rrsets c zo text with
  | Ok _ => True
  | Lib e => zlib e
  | Internal e => e = iValueError
  end.
Proof.
  unfold ZoneTextM.read_rrsets.
  apply ends_seq; [apply nicer_rrs_loop, Nat.lt_succ_diag_r|intros; exact Logic.I].
Qed.
