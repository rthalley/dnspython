(* RRSIG / SIG signature times: sigtime_to_posixtime (posixtime_to_sigtime t) = t for every time in the
   years 1 .. 9999, the 32-bit times among them.
   The text is six zero-padded decimal fields, each read back by int(); the time of day is arithmetic; the
   civil date of a day number has that day number as its ordinal, for every integer. *)
From DV Require Import Base.Prelude Model.NameM Model.TokM Model.RdTextM.
From DV Require Import Proofs.TokEsc Proofs.TokWords Proofs.TokDec.
Open Scope Z_scope.

(* "%04d"-style fields (pad_dec) and the slices that cut them out again *)
Lemma pad_dec_length w : forall n, length (pad_dec w n) = w.
Proof. induction w as [|w IH]; intros n; cbn [pad_dec]; [reflexivity|]. rewrite app_length, IH. cbn. lia. Qed.

Lemma pad_dec_decimal w : forall n, forallb is_decimal (pad_dec w n) = true.
Proof.
  induction w as [|w IH]; intros n; cbn [pad_dec]; [reflexivity|].
  rewrite forallb_app, IH. cbn [forallb]. unfold is_decimal. dlia.
Qed.

Lemma bval_pad_dec w : forall n a, 0 <= n < 10 ^ Z.of_nat w -> bval 10 (pad_dec w n) a = a * 10 ^ Z.of_nat w + n.
Proof.
  induction w as [|w IH]; intros n a Hn; cbn [pad_dec].
  - change (10 ^ Z.of_nat 0) with 1 in *. cbn. lia.
  - rewrite Nat2Z.inj_succ, Z.pow_succ_r in * by lia.
    rewrite bval_app, IH by dlia. unfold bval. cbn [fold_left]. dlia.
Qed.

Theorem py_int_pad_dec w n : w <> 0%nat -> 0 <= n < 10 ^ Z.of_nat w -> py_int 10 (pad_dec w n) = Some n.
Proof.
  intros Hw Hn. rewrite py_int_decimal, bval_pad_dec; auto using pad_dec_decimal.
  intros E. apply (f_equal (@length Z)) in E. rewrite pad_dec_length in E. exact (Hw E).
Qed.

Lemma sub_list_head n (a r : list Z) : length a = n -> sub_list 0 n (a ++ r) = a.
Proof. intros <-. unfold sub_list. cbn [skipn]. rewrite Nat.sub_0_r, firstn_app, Nat.sub_diag, firstn_all. apply app_nil_r. Qed.

Lemma sub_list_skip k i j (a r : list Z) : length a = k -> sub_list (k + i) (k + j) (a ++ r) = sub_list i j r.
Proof.
  intros <-. unfold sub_list. rewrite skipn_app, skipn_all2 by lia.
  replace (length a + i - length a)%nat with i by lia. replace (length a + j - (length a + i))%nat with (j - i)%nat by lia.
  reflexivity.
Qed.

(* datetime.date(y, m, dd).toordinal() - 719163, the inverse that sigtime_to_posixtime applies;
   719163 is the ordinal of 1970-01-01 *)
Definition days_of_civil (y m dd : Z) : Z := days_before_year y + days_before_month y m + 1 - 719163 + dd - 1.

(* civil_from_days counts from 0000-03-01, which has ordinal -305 and so is day -719468.  In a year that begins
   in March the leap day comes last: the months have the same lengths in every year, a year has 365 days
   plus the leap day, and 400 such years (an era) have 146097 days.

   Year of the era from the day of the era: a leap day has gone by every 1460 days, except every 36524 days
   (a century), except on the last day of the era; what is left are years of 365 days. *)
Lemma year_of_era doe : 0 <= doe <= 146096 ->
  let yoe := (doe - doe / 1460 + doe / 36524 - doe / 146096) / 365 in
  0 <= yoe <= 399 /\ 0 <= doe - (365 * yoe + yoe / 4 - yoe / 100) <= 365.
Proof. cbv zeta. dlia. Qed.

(* Month (0 = March) from the day of the year: (153 * mp + 2) / 5 = 0, 31, 61, 92, 122, 153, 184, ... days
   come before month mp *)
Lemma month_of_year doy : 0 <= doy <= 365 ->
  let mp := (5 * doy + 2) / 153 in 0 <= mp <= 11 /\ 1 <= doy - (153 * mp + 2) / 5 + 1 <= 31.
Proof. cbv zeta. dlia. Qed.

Definition leap_day (y : Z) : Z := if is_leap y then 1 else 0.

(* Python's table of the days before a month is the same table, counted from January: March is 59 days
   and the leap day later, January is 306 days earlier and belongs to the next civil year *)
Lemma month_start y mp : 0 <= mp <= 11 ->
  let m := if mp <? 10 then mp + 3 else mp - 9 in
  1 <= m <= 12 /\
  days_before_month (if m <=? 2 then y + 1 else y) m
  = (153 * mp + 2) / 5 + (if mp <? 10 then 59 + leap_day y else -306).
Proof.
  intros H.
  assert (C : mp = 0 \/ mp = 1 \/ mp = 2 \/ mp = 3 \/ mp = 4 \/ mp = 5 \/ mp = 6 \/ mp = 7 \/ mp = 8 \/ mp = 9
              \/ mp = 10 \/ mp = 11) by lia.
  unfold days_before_month, leap_day.
  repeat (destruct C as [-> | C]); try subst mp; cbv -[is_leap Z.le]; destruct (is_leap y); lia.
Qed.

(* the days before March 1 of year y, by Python's count and by the count of the algorithm *)
Lemma year_start y : days_before_year y + 59 + leap_day y = 365 * y + y / 4 - y / 100 + y / 400 - 306.
Proof. unfold days_before_year, leap_day. destruct (is_leap y) eqn:L; unfold is_leap in L; dlia. Qed.

(* every day number: the date is a day of the year y, and its ordinal is the day number *)
Lemma civil_from_days_ordinal z y m dd : civil_from_days z = (y, m, dd) ->
  1 <= m <= 12 /\ 1 <= dd <= 31 /\ 1 <= days_before_month y m + dd <= 366 /\ days_of_civil y m dd = z.
Proof.
  unfold civil_from_days.
  set (z' := z + 719468). set (era := z' / 146097). set (doe := z' - era * 146097).
  destruct (year_of_era doe ltac:(unfold doe, era; dlia)) as [Hy Hd]. revert Hy Hd.
  set (yoe := (doe - doe / 1460 + doe / 36524 - doe / 146096) / 365).
  set (doy := doe - (365 * yoe + yoe / 4 - yoe / 100)). intros Hy Hd.
  destruct (month_of_year doy Hd) as [Hmp Hdd]. revert Hmp Hdd.
  set (mp := (5 * doy + 2) / 153). intros Hmp Hdd.
  destruct (month_start (yoe + era * 400) mp Hmp) as [Hm S]. revert Hm S.
  set (m' := if mp <? 10 then mp + 3 else mp - 9). intros Hm S [= <- <- <-].
  unfold days_of_civil. rewrite S.
  (* the year yoe + era * 400 begins 365 * yoe + yoe / 4 - yoe / 100 + era * 146097 days after 0000-03-01 *)
  pose proof (year_start (yoe + era * 400)) as Y. unfold leap_day in *.
  split; [exact Hm|split; [exact Hdd|]]. unfold doy, doe in *.
  destruct (mp <? 10) eqn:M.
  - replace (m' <=? 2) with false by lia. destruct (is_leap (yoe + era * 400)); dlia.
  - replace (m' <=? 2) with true by lia. unfold days_before_year. dlia.
Qed.

(* the days from 0001-01-01 to 9999-12-31 *)
Lemma civil_spec d y m dd : -719162 <= d <= 2932896 -> civil_from_days d = (y, m, dd) ->
  1 <= y <= 9999 /\ 1 <= m <= 12 /\ 0 <= dd < 100 /\ days_of_civil y m dd = d.
Proof.
  intros Hd E. apply civil_from_days_ordinal in E as (Hm & Hdd & Hyd & E).
  unfold days_of_civil, days_before_year in *. dlia.
Qed.

(* every time that strftime prints with a four-digit year *)
Theorem sigtime_roundtrip_years t : -62135596800 <= t < 253402300800 ->
  sigtime_to_posixtime (posixtime_to_sigtime t) = Ok t
  /\ forallb safe (posixtime_to_sigtime t) = true /\ posixtime_to_sigtime t <> [].
Proof.
  intros Ht. unfold posixtime_to_sigtime.
  destruct (civil_from_days (t / 86400)) as [[y m] dd] eqn:E.
  apply civil_spec in E as (Hy & Hm & Hdd & Hdays); [|dlia].
  set (r := t mod 86400).
  set (f1 := pad_dec 4 y). set (f2 := pad_dec 2 m). set (f3 := pad_dec 2 dd).
  set (f4 := pad_dec 2 (r / 3600)). set (f5 := pad_dec 2 (r mod 3600 / 60)). set (f6 := pad_dec 2 (r mod 60)).
  assert (L1 : length f1 = 4%nat) by apply pad_dec_length. assert (L2 : length f2 = 2%nat) by apply pad_dec_length.
  assert (L3 : length f3 = 2%nat) by apply pad_dec_length. assert (L4 : length f4 = 2%nat) by apply pad_dec_length.
  assert (L5 : length f5 = 2%nat) by apply pad_dec_length. assert (L6 : length f6 = 2%nat) by apply pad_dec_length.
  split; [|split].
  - unfold sigtime_to_posixtime.
    replace (length (f1 ++ f2 ++ f3 ++ f4 ++ f5 ++ f6)) with 14%nat by (rewrite !app_length; lia).
    cbn [Nat.leb Nat.eqb andb negb].
    (* the six fields, by their offsets *)
    rewrite (sub_list_head 4) by exact L1.
    rewrite (sub_list_skip 4 0 2), (sub_list_head 2) by assumption.
    rewrite (sub_list_skip 4 2 4), (sub_list_skip 2 0 2), (sub_list_head 2) by assumption.
    rewrite (sub_list_skip 4 4 6), (sub_list_skip 2 2 4), (sub_list_skip 2 0 2), (sub_list_head 2) by assumption.
    rewrite (sub_list_skip 4 6 8), (sub_list_skip 2 4 6), (sub_list_skip 2 2 4), (sub_list_skip 2 0 2), (sub_list_head 2)
      by assumption.
    rewrite (sub_list_skip 4 8 10), (sub_list_skip 2 6 8), (sub_list_skip 2 4 6), (sub_list_skip 2 2 4), (sub_list_skip 2 0 2).
    2-6: assumption. rewrite <- (app_nil_r f6), (sub_list_head 2) by assumption.
    unfold f1, f2, f3, f4, f5, f6.
    rewrite !py_int_pad_dec by (try discriminate; change (10 ^ Z.of_nat 4) with 10000; change (10 ^ Z.of_nat 2) with 100; unfold r; dlia).
    replace ((y <? 1) || (y >? 9999) || (m <? 1) || (m >? 12)) with false by lia.
    f_equal. fold (days_of_civil y m dd). unfold r. dlia.
  - rewrite !forallb_app. unfold f1, f2, f3, f4, f5, f6.
    rewrite !(decimal_safe _ (pad_dec_decimal _ _)). reflexivity.
  - destruct f1; [discriminate L1|discriminate].
Qed.

Theorem sigtime_roundtrip t : 0 <= t <= 4294967295 ->
  sigtime_to_posixtime (posixtime_to_sigtime t) = Ok t
  /\ forallb safe (posixtime_to_sigtime t) = true /\ posixtime_to_sigtime t <> [].
Proof. intros Ht. apply sigtime_roundtrip_years. lia. Qed.
