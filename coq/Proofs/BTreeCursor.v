(* C19 - cursors: the concrete cursor (node, index, parents stack, recurse / increasing flags)
   denotes a position in the in-order traversal; next / prev / seek move it as a reference
   sorted dictionary would, and a parked cursor resumes from its key. *)
From DV Require Import Base.Prelude Proofs.ListFacts Model.BTreeM Proofs.BTreeBase Proofs.BTreeWf Proofs.BTreeInsert.

Lemma nth_error_firstn_S {A} (l : list A) i e : nth_error l i = Some e -> firstn (S i) l = firstn i l ++ [e].
Proof. revert i. induction l as [|a l IH]; intros [|i] H; cbn in *; try discriminate; [congruence|]. now rewrite (IH i H). Qed.

Lemma nth_error_skipn {A} (l : list A) i e : nth_error l i = Some e -> skipn i l = e :: skipn (S i) l.
Proof. revert i. induction l as [|a l IH]; intros [|i] H; cbn in *; try discriminate; [congruence|]. now rewrite (IH i H). Qed.

Definition all_le (l : list elt) (k : Z) : Prop := Forall (fun e => fst e <= k) l.
Definition all_ge (l : list elt) (k : Z) : Prop := Forall (fun e => k <= fst e) l.

Lemma lt_le l k : all_lt l k -> all_le l k.
Proof. apply Forall_impl. intros; lia. Qed.
Lemma gt_ge l k : all_gt l k -> all_ge l k.
Proof. apply Forall_impl. intros; lia. Qed.

(* the position of a cursor in a reference sorted dictionary: on a boundary, or just before /
   just after a key (which need not be present) *)
Inductive anchor := AL | AR | AB (k : Z) | AA (k : Z).

(* The side of the remembered key is `before` as Cursor._maybe_unpark computes it: a key that was
   returned lies behind the cursor in its direction of travel, one that was only sought lies on
   the side seek() was asked for.  Without a key the cursor is on a boundary. *)
Definition anchor_of (c : cursor) : anchor :=
  match c_pkey c with
  | Some k => if (if c_pkread c then negb (c_inc c) else c_inc c) then AB k else AA k
  | None => if (c_idx c =? 0)%nat then AL else AR
  end.

(* (bef, aft) is the split of the sorted list l at the anchor *)
Definition pos_ok (a : anchor) (l bef aft : list elt) : Prop :=
  bef ++ aft = l /\
  match a with
  | AL => bef = []
  | AR => aft = []
  | AB k => all_lt bef k /\ all_ge aft k
  | AA k => all_le bef k /\ all_gt aft k
  end.

Lemma split_unique {A} (P Q : A -> Prop) bef aft bef' aft' :
  (forall x, P x -> Q x -> False) -> bef ++ aft = bef' ++ aft' ->
  Forall P bef -> Forall Q aft -> Forall P bef' -> Forall Q aft' -> bef = bef' /\ aft = aft'.
Proof.
  intros HPQ. revert bef'. induction bef as [|a bef IH]; intros [|a' bef'] He Hb Ha Hb' Ha'; cbn in He.
  - auto.
  - subst aft. inversion Ha; inversion Hb'; subst. exfalso; eauto.
  - subst aft'. inversion Ha'; inversion Hb; subst. exfalso; eauto.
  - injection He as <- He. inversion Hb; inversion Hb'; subst. destruct (IH bef' He) as (<- & <-); auto.
Qed.

(* the split of a list at an anchor is unique: pos_ok defines THE reference position *)
Lemma pos_unique a l bef aft bef' aft' : pos_ok a l bef aft -> pos_ok a l bef' aft' -> bef = bef' /\ aft = aft'.
Proof.
  intros (He & Ha) (He' & Ha'). rewrite <- He' in He. destruct a.
  - subst. auto.
  - subst. rewrite !app_nil_r in He. auto.
  - destruct Ha, Ha'. eapply (split_unique (fun e => fst e < k) (fun e => k <= fst e)); eauto. cbn; intros; lia.
  - destruct Ha, Ha'. eapply (split_unique (fun e => fst e <= k) (fun e => k < fst e)); eauto. cbn; intros; lia.
Qed.

Lemma pos_ok_unique a l bef aft bef' aft' :
  ksorted l -> pos_ok a l bef aft -> pos_ok a l bef' aft' -> bef = bef' /\ aft = aft'.
Proof. intros _. apply pos_unique. Qed.

(* the positions next to an element x of a sorted list, and the one seek(key, before) aims at
   when key is absent *)
Lemma pos_before l bef x aft : ksorted l -> l = bef ++ x :: aft -> pos_ok (AB (fst x)) l bef (x :: aft).
Proof.
  intros Hs ->. apply ksorted_mid in Hs as (H1 & H2 & _). split; [reflexivity|]. split; [assumption|].
  constructor; [lia|now apply gt_ge].
Qed.

Lemma pos_after l bef x aft : ksorted l -> l = bef ++ x :: aft -> pos_ok (AA (fst x)) l (bef ++ [x]) aft.
Proof.
  intros Hs ->. apply ksorted_mid in Hs as (H1 & H2 & _). split; [now rewrite <- app_assoc|]. split; [|assumption].
  apply Forall_app. split; [now apply lt_le|constructor; [lia|constructor]].
Qed.

Lemma pos_strict (before : bool) key l bef aft :
  bef ++ aft = l -> all_lt bef key -> all_gt aft key -> pos_ok (if before then AB key else AA key) l bef aft.
Proof. intros He H1 H2. split; [assumption|]. destruct before; split; auto using lt_le, gt_ge. Qed.

Section CUR.
Variable t : nat.
Hypothesis Ht : (3 <= t)%nat.
Notation wfn := (wfn t).

(* what lies left / right of child j inside node p *)
Definition left_of (p : tree) (j : nat) : list elt := zipl (firstn j (n_kids p)) (firstn j (n_elts p)).
Definition right_of (p : tree) (j : nat) : list elt := zipr (skipn j (n_elts p)) (skipn (S j) (n_kids p)).

Fixpoint ctx_before (par : list (tree * nat)) : list elt :=
  match par with [] => [] | (p, j) :: r => ctx_before r ++ left_of p j end.
Fixpoint ctx_after (par : list (tree * nat)) : list elt :=
  match par with [] => [] | (p, j) :: r => right_of p j ++ ctx_after r end.

(* the parents stack is a path from the root to the current node *)
Inductive path (root : tree) : tree -> nat -> nat -> list (tree * nat) -> Prop :=
| path_nil h : wfn (root_lo root) h root -> path root root h (root_lo root) []
| path_cons p hp lop j n rest :
    path root p (S hp) lop rest -> nth_error (n_kids p) j = Some n ->
    path root n hp (t_min t) ((p, j) :: rest).

Lemma wfn_internal lo h p : wfn lo h p -> n_leaf p = false ->
  exists h', h = S h' /\ length (n_kids p) = S (length (n_elts p)) /\ Forall (wfn (t_min t) h') (n_kids p).
Proof.
  destruct p as [lf es ks]. cbn. intros Hw ->.
  apply wfn_inv in Hw as (_ & [(? & _)|(_ & H)]); [discriminate|exact H].
Qed.

Lemma wfn_leaf_inv lo h n : wfn lo h n -> n_leaf n = true -> h = 1%nat /\ n_kids n = [] /\ elements n = n_elts n.
Proof.
  destruct n as [lf es ks]. cbn. intros Hw ->.
  apply wfn_inv in Hw as (_ & [(_ & -> & ->)|(? & _)]); [auto|discriminate].
Qed.

Lemma internal_parent lo h p j kid : wfn lo h p -> nth_error (n_kids p) j = Some kid -> n_leaf p = false.
Proof.
  intros Hw Hk. destruct (n_leaf p) eqn:Hl; [|reflexivity].
  apply (wfn_leaf_inv _ _ _ Hw) in Hl as (_ & Hn & _). rewrite Hn in Hk. destruct j; discriminate.
Qed.

Lemma path_wf root n h lo par : path root n h lo par -> wfn lo h n.
Proof.
  induction 1 as [h Hw|p hp lop j n rest Hp IH Hn]; [assumption|].
  destruct (wfn_internal _ _ _ IH (internal_parent _ _ _ _ _ IH Hn)) as (h' & [= <-] & _ & Hall).
  rewrite Forall_forall in Hall. apply Hall. eapply nth_error_In; eauto.
Qed.

Lemma left_of_app lf ea eb ka c kb :
  length ka = length ea -> left_of (Node lf (ea ++ eb) (ka ++ c :: kb)) (length ea) = zipl ka ea.
Proof.
  intros H. unfold left_of. cbn [n_elts n_kids]. now rewrite (firstn_app_exact ka _ _ H), (firstn_app_exact ea _ _ eq_refl).
Qed.

Lemma right_of_app lf ea eb ka c kb :
  length ka = length ea -> right_of (Node lf (ea ++ eb) (ka ++ c :: kb)) (length ea) = zipr eb kb.
Proof.
  intros H. unfold right_of. cbn [n_elts n_kids]. rewrite (skipn_app_exact ea _ _ eq_refl).
  change (ka ++ c :: kb) with (ka ++ [c] ++ kb). rewrite app_assoc.
  now rewrite skipn_app_exact by (rewrite app_length; cbn; lia).
Qed.

Lemma node_split lo h p j :
  wfn lo h p -> n_leaf p = false -> (j <= length (n_elts p))%nat ->
  exists h' kid, h = S h' /\ nth_error (n_kids p) j = Some kid /\
                 elements p = left_of p j ++ elements kid ++ right_of p j.
Proof.
  intros Hw Hl Hj. destruct (wfn_internal _ _ _ Hw Hl) as (h' & -> & Hk & _).
  destruct p as [lf es ks]. cbn [n_leaf n_elts n_kids] in *. subst lf.
  destruct (node_decomp1 es ks j Hk Hj) as (ea & eb & ka & c & kb & -> & -> & <- & H2 & H3).
  exists h', c. split; [reflexivity|]. split; [now rewrite <- H2, nth_error_app_mid|].
  rewrite left_of_app, right_of_app by assumption. now apply elements_split.
Qed.

Lemma left_of_zero p : left_of p 0 = [].
Proof. reflexivity. Qed.

Lemma right_of_end p : right_of p (length (n_elts p)) = [].
Proof. unfold right_of. now rewrite skipn_all. Qed.

Lemma zipl_snoc ka ea l e : length ka = length ea -> zipl (ka ++ [l]) (ea ++ [e]) = zipl ka ea ++ elements l ++ [e].
Proof.
  revert ea. induction ka as [|k ka IH]; intros [|a ea] H; try discriminate; cbn [app zipl].
  - reflexivity.
  - rewrite IH by (cbn in H; lia). now rewrite <- !app_assoc.
Qed.

(* A node n and an index i <= |n_elts n| cut the traversal of n in three: what lies before
   child i (in a leaf: before key i), child i itself (nothing in a leaf), and the rest. *)
Definition nbef (n : tree) (i : nat) : list elt := if n_leaf n then firstn i (n_elts n) else left_of n i.
Definition nkid (n : tree) (i : nat) : list elt :=
  match nth_error (n_kids n) i with Some k => elements k | None => [] end.
Definition naft (n : tree) (i : nat) : list elt := if n_leaf n then skipn i (n_elts n) else right_of n i.

Lemma nkid_leaf lo h n i : wfn lo h n -> n_leaf n = true -> nkid n i = [].
Proof. intros Hw Hl. unfold nkid. apply (wfn_leaf_inv _ _ _ Hw) in Hl as (_ & -> & _). now destruct i. Qed.

Lemma node_cut lo h n i : wfn lo h n -> (i <= length (n_elts n))%nat -> elements n = nbef n i ++ nkid n i ++ naft n i.
Proof.
  intros Hw Hi. unfold nbef, naft. destruct (n_leaf n) eqn:Hl.
  - rewrite (nkid_leaf _ _ _ i Hw Hl). apply (wfn_leaf_inv _ _ _ Hw) in Hl as (_ & _ & ->). symmetry. apply firstn_skipn.
  - destruct (node_split _ _ _ i Hw Hl Hi) as (h' & kid & _ & Hk & He). unfold nkid. now rewrite Hk.
Qed.

Lemma nbef_zero n : nbef n 0 = [].
Proof. unfold nbef. now destruct (n_leaf n). Qed.

Lemma naft_end n : naft n (length (n_elts n)) = [].
Proof. unfold naft. destruct (n_leaf n); [apply skipn_all|apply right_of_end]. Qed.

Lemma node_step lo h n i e : wfn lo h n -> nth_error (n_elts n) i = Some e ->
  naft n i = e :: nkid n (S i) ++ naft n (S i) /\ nbef n (S i) = (nbef n i ++ nkid n i) ++ [e].
Proof.
  intros Hw He. unfold naft, nbef. destruct (n_leaf n) eqn:Hl.
  - rewrite !(nkid_leaf _ _ _ _ Hw Hl), app_nil_r. split; [now apply nth_error_skipn|now apply nth_error_firstn_S].
  - destruct (wfn_internal _ _ _ Hw Hl) as (_ & _ & Hk & _).
    assert (Hi : (i < length (n_elts n))%nat) by (apply nth_error_Some; congruence).
    unfold nkid, left_of, right_of.
    destruct (nth_error (n_kids n) i) as [kid|] eqn:Ek; [|apply nth_error_None in Ek; lia].
    destruct (nth_error (n_kids n) (S i)) as [kid'|] eqn:Ek'; [|apply nth_error_None in Ek'; lia].
    rewrite (nth_error_skipn _ _ _ He), (nth_error_skipn _ _ _ Ek').
    rewrite (nth_error_firstn_S _ _ _ He), (nth_error_firstn_S _ _ _ Ek).
    split; [reflexivity|]. rewrite <- app_assoc. apply zipl_snoc. rewrite !firstn_length. lia.
Qed.

Lemma parent_cut lo h p j kid : wfn lo h p -> nth_error (n_kids p) j = Some kid ->
  (j <= length (n_elts p))%nat /\ nbef p j = left_of p j /\ nkid p j = elements kid /\ naft p j = right_of p j.
Proof.
  intros Hw Hk. pose proof (internal_parent _ _ _ _ _ Hw Hk) as Hl. unfold nbef, nkid, naft. rewrite Hk, Hl.
  destruct (wfn_internal _ _ _ Hw Hl) as (_ & _ & Hlen & _).
  assert (j < length (n_kids p))%nat by (apply nth_error_Some; congruence). split; [lia|auto].
Qed.

Lemma path_elements root n h lo par :
  path root n h lo par -> elements root = ctx_before par ++ elements n ++ ctx_after par.
Proof.
  induction 1 as [h Hw|p hp lop j n rest Hp IH Hn]; cbn [ctx_before ctx_after].
  - now rewrite app_nil_r.
  - pose proof (path_wf _ _ _ _ _ Hp) as Hw. destruct (parent_cut _ _ _ _ _ Hw Hn) as (Hj & <- & <- & <-).
    rewrite IH, (node_cut _ _ _ j Hw Hj). now rewrite <- !app_assoc.
Qed.

Lemma path_sorted root n h lo par : path root n h lo par -> ksorted (elements root) -> ksorted (elements n).
Proof.
  intros Hp Hs. rewrite (path_elements _ _ _ _ _ Hp) in Hs.
  apply ksorted_app in Hs as (_ & Hs & _). apply ksorted_app in Hs. tauto.
Qed.

(* a stable (between two calls) position of an unparked cursor inside the tree, together with
   what lies before and after it in the in-order traversal *)
Inductive cstate (root : tree) : tree -> nat -> bool -> bool -> list (tree * nat) -> list elt -> list elt -> Prop :=
| cs_leaf n i inc par lo :
    path root n 1 lo par -> n_leaf n = true -> (i <= length (n_elts n))%nat ->
    cstate root n i false inc par (ctx_before par ++ firstn i (n_elts n)) (skipn i (n_elts n) ++ ctx_after par)
| cs_fwd n i h lo par kid :       (* just before child i: next() has returned elts[i-1] *)
    path root n (S h) lo par -> nth_error (n_kids n) i = Some kid ->
    cstate root n i true true par (ctx_before par ++ left_of n i) (elements kid ++ right_of n i ++ ctx_after par)
| cs_bwd n i h lo par kid :       (* just after child i: prev() has returned elts[i] *)
    path root n (S h) lo par -> nth_error (n_kids n) i = Some kid ->
    cstate root n i true false par (ctx_before par ++ left_of n i ++ elements kid) (right_of n i ++ ctx_after par).

(* Through the three-part cut of a node the states read alike for leaves and internal nodes:
   the cursor stands before child i (cs_fwd; in a leaf cs_leaf) or after it (cs_bwd; cs_leaf). *)
Lemma cstate_before_kid root n h lo par i :
  path root n h lo par -> (i <= length (n_elts n))%nat ->
  cstate root n i (negb (n_leaf n)) true par (ctx_before par ++ nbef n i) (nkid n i ++ naft n i ++ ctx_after par).
Proof.
  intros Hp Hi. pose proof (path_wf _ _ _ _ _ Hp) as Hw. unfold nbef, naft. destruct (n_leaf n) eqn:Hl.
  - rewrite (nkid_leaf _ _ _ i Hw Hl). destruct (wfn_leaf_inv _ _ _ Hw Hl) as (-> & _). now apply cs_leaf with lo.
  - destruct (node_split _ _ _ i Hw Hl Hi) as (h' & kid & -> & Hk & _). unfold nkid. rewrite Hk. now apply cs_fwd with h' lo.
Qed.

Lemma cstate_after_kid root n h lo par i :
  path root n h lo par -> (i <= length (n_elts n))%nat ->
  cstate root n i (negb (n_leaf n)) false par (ctx_before par ++ nbef n i ++ nkid n i) (naft n i ++ ctx_after par).
Proof.
  intros Hp Hi. pose proof (path_wf _ _ _ _ _ Hp) as Hw. unfold nbef, naft. destruct (n_leaf n) eqn:Hl.
  - rewrite (nkid_leaf _ _ _ i Hw Hl), app_nil_r. destruct (wfn_leaf_inv _ _ _ Hw Hl) as (-> & _). now apply cs_leaf with lo.
  - destruct (node_split _ _ _ i Hw Hl Hi) as (h' & kid & -> & Hk & _). unfold nkid. rewrite Hk. now apply cs_bwd with h' lo.
Qed.

(* ... and conversely: next() starts from a state that is not cs_fwd, prev() from one that is not cs_bwd *)
Lemma cstate_after_inv root n i rec inc par bef aft :
  cstate root n i rec inc par bef aft -> rec && inc = false ->
  exists h lo, path root n h lo par /\ (i <= length (n_elts n))%nat /\
    bef = ctx_before par ++ nbef n i ++ nkid n i /\ aft = naft n i ++ ctx_after par.
Proof.
  intros H Hri. inversion H as [? ? ? ? lo Hp Hl Hi|? ? h lo ? kid Hp Hk|? ? h lo ? kid Hp Hk]; subst; try discriminate;
    pose proof (path_wf _ _ _ _ _ Hp) as Hw.
  - exists 1%nat, lo. unfold nbef, naft. now rewrite Hl, (nkid_leaf _ _ _ i Hw Hl), app_nil_r.
  - destruct (parent_cut _ _ _ _ _ Hw Hk) as (Hi & -> & -> & ->). eauto 6.
Qed.

Lemma cstate_before_inv root n i rec inc par bef aft :
  cstate root n i rec inc par bef aft -> rec && negb inc = false ->
  exists h lo, path root n h lo par /\ (i <= length (n_elts n))%nat /\
    bef = ctx_before par ++ nbef n i /\ aft = nkid n i ++ naft n i ++ ctx_after par.
Proof.
  intros H Hri. inversion H as [? ? ? ? lo Hp Hl Hi|? ? h lo ? kid Hp Hk|? ? h lo ? kid Hp Hk]; subst; try discriminate;
    pose proof (path_wf _ _ _ _ _ Hp) as Hw.
  - exists 1%nat, lo. unfold nbef, naft. now rewrite Hl, (nkid_leaf _ _ _ i Hw Hl).
  - destruct (parent_cut _ _ _ _ _ Hw Hk) as (Hi & -> & -> & ->). eauto 6.
Qed.

Lemma cstate_elements root n i rec inc par bef aft :
  cstate root n i rec inc par bef aft -> elements root = bef ++ aft.
Proof.
  intros H. destruct (rec && inc) eqn:Hri.
  - apply andb_prop in Hri as (-> & ->). destruct (cstate_before_inv _ _ _ _ _ _ _ _ H eq_refl) as (h & lo & Hp & Hi & -> & ->).
    rewrite (path_elements _ _ _ _ _ Hp), (node_cut _ _ _ i (path_wf _ _ _ _ _ Hp) Hi). now rewrite <- !app_assoc.
  - destruct (cstate_after_inv _ _ _ _ _ _ _ _ H Hri) as (h & lo & Hp & Hi & -> & ->).
    rewrite (path_elements _ _ _ _ _ Hp), (node_cut _ _ _ i (path_wf _ _ _ _ _ Hp) Hi). now rewrite <- !app_assoc.
Qed.

Lemma cstate_leaf_inc root n i inc inc' par bef aft :
  cstate root n i false inc par bef aft -> cstate root n i false inc' par bef aft.
Proof. intros H; inversion H; subst. econstructor; eauto. Qed.

(* the least leaf under n: the cursor at its first key stands where the subtree of n begins *)
Lemma least_leaf root inc : forall fuel h lo n par,
  path root n h lo par -> (h <= fuel)%nat ->
  exists lf par', seek_least fuel n 0 par = Ok (lf, 0%nat, par') /\ (length par' + 1 = length par + h)%nat /\
    cstate root lf 0 false inc par' (ctx_before par) (elements n ++ ctx_after par).
Proof.
  induction fuel as [|f IH]; intros h lo n par Hp Hf; pose proof (path_wf _ _ _ _ _ Hp) as Hw.
  { pose proof (wfn_pos t Ht _ _ _ Hw). lia. }
  cbn [seek_least]. destruct (n_leaf n) eqn:Hl.
  - destruct (wfn_leaf_inv _ _ _ Hw Hl) as (-> & _ & ->). exists n, par. split; [reflexivity|]. split; [lia|].
    rewrite <- (app_nil_r (ctx_before par)). apply cs_leaf with lo; auto with arith.
  - destruct (node_split _ _ _ 0 Hw Hl ltac:(lia)) as (h' & kid & -> & Hk & He). rewrite Hk.
    destruct (IH h' _ kid _ (path_cons _ _ _ _ _ _ _ Hp Hk) ltac:(lia)) as (lf & par' & -> & Hlen & Hcs).
    exists lf, par'. split; [reflexivity|]. split; [cbn [length] in Hlen; lia|].
    cbn [ctx_before ctx_after] in Hcs. rewrite left_of_zero, app_nil_r in Hcs.
    rewrite He, left_of_zero. cbn [app]. now rewrite <- app_assoc.
Qed.

Lemma greatest_leaf root inc : forall fuel h lo n par,
  path root n h lo par -> (h <= fuel)%nat ->
  exists lf par', seek_greatest fuel n (length (n_elts n)) par = Ok (lf, length (n_elts lf), par') /\
    (length par' + 1 = length par + h)%nat /\
    cstate root lf (length (n_elts lf)) false inc par' (ctx_before par ++ elements n) (ctx_after par).
Proof.
  induction fuel as [|f IH]; intros h lo n par Hp Hf; pose proof (path_wf _ _ _ _ _ Hp) as Hw.
  { pose proof (wfn_pos t Ht _ _ _ Hw). lia. }
  cbn [seek_greatest]. destruct (n_leaf n) eqn:Hl.
  - destruct (wfn_leaf_inv _ _ _ Hw Hl) as (-> & _ & ->). exists n, par. split; [reflexivity|]. split; [lia|].
    pose proof (cs_leaf root n _ inc par lo Hp Hl (le_n _)) as Hcs. now rewrite firstn_all, skipn_all in Hcs.
  - destruct (node_split _ _ _ _ Hw Hl (le_n _)) as (h' & kid & -> & Hk & He). rewrite Hk.
    destruct (IH h' _ kid _ (path_cons _ _ _ _ _ _ _ Hp Hk) ltac:(lia)) as (lf & par' & -> & Hlen & Hcs).
    exists lf, par'. split; [reflexivity|]. split; [cbn [length] in Hlen; lia|].
    cbn [ctx_before ctx_after] in Hcs. rewrite right_of_end in Hcs. rewrite He, right_of_end, app_nil_r.
    now rewrite <- app_assoc in Hcs.
Qed.

(* a cursor before child i stands where the least leaf of that child begins, one after child i
   where its greatest leaf ends *)
Lemma seek_least_fwd root inc' n i par bef aft :
  cstate root n i true true par bef aft ->
  exists lf par', seek_least (S (depth n)) n i par = Ok (lf, 0%nat, par') /\
    (length par' <= length par + depth n)%nat /\ cstate root lf 0 false inc' par' bef aft.
Proof.
  intros H. inversion H as [|? ? h lo ? kid Hp Hk|]; subst. pose proof (path_wf _ _ _ _ _ Hp) as Hw.
  cbn [seek_least]. rewrite Hk. rewrite (internal_parent _ _ _ _ _ Hw Hk).
  rewrite (wfn_depth t _ _ _ Hw).
  destruct (least_leaf root inc' (S h) h _ kid _ (path_cons _ _ _ _ _ _ _ Hp Hk) ltac:(lia)) as (lf & par' & Hs & Hlen & Hcs).
  exists lf, par'. split; [exact Hs|]. split; [cbn [length] in Hlen; lia|exact Hcs].
Qed.

Lemma seek_greatest_bwd root inc' n i par bef aft :
  cstate root n i true false par bef aft ->
  exists lf par', seek_greatest (S (depth n)) n i par = Ok (lf, length (n_elts lf), par') /\
    (length par' <= length par + depth n)%nat /\ cstate root lf (length (n_elts lf)) false inc' par' bef aft.
Proof.
  intros H. inversion H as [| |? ? h lo ? kid Hp Hk]; subst. pose proof (path_wf _ _ _ _ _ Hp) as Hw.
  cbn [seek_greatest]. rewrite Hk. rewrite (internal_parent _ _ _ _ _ Hw Hk).
  rewrite (wfn_depth t _ _ _ Hw).
  destruct (greatest_leaf root inc' (S h) h _ kid _ (path_cons _ _ _ _ _ _ _ Hp Hk) ltac:(lia)) as (lf & par' & Hs & Hlen & Hcs).
  exists lf, par'. split; [exact Hs|]. split; [cbn [length] in Hlen; lia|].
  cbn [ctx_before] in Hcs. now rewrite <- app_assoc in Hcs.
Qed.

Definition boundary_r : cursor := mkC None 1 false true [] false None true.
Definition boundary_l : cursor := mkC None 0 false false [] false None true.

(* r is the outcome of next() / prev() at the position (bef, aft): the neighbouring element and
   a cursor standing on its far side, or the boundary *)
Definition next_result root (r : res (cursor * option elt)) (bef aft : list elt) : Prop :=
  match aft with
  | [] => r = Ok (boundary_r, None)
  | x :: aft' =>
      exists n i rec par,
        r = Ok (mkC (Some n) i rec true par false (Some (fst x)) true, Some x) /\
        cstate root n i rec true par (bef ++ [x]) aft'
  end.

Definition prev_result root (r : res (cursor * option elt)) (bef aft : list elt) : Prop :=
  (bef = [] /\ r = Ok (boundary_l, None)) \/
  (exists bef' x n i rec par,
     bef = bef' ++ [x] /\
     r = Ok (mkC (Some n) i rec false par false (Some (fst x)) true, Some x) /\
     cstate root n i rec false par bef' (x :: aft)).

(* the loops when no descent is due: deliver the key at hand or climb *)
Lemma next_after_kid root : forall fuel n i h lo rec inc par,
  path root n h lo par -> (i <= length (n_elts n))%nat -> rec && inc = false -> (length par < fuel)%nat ->
  next_result root (next_loop fuel n i rec inc par)
    (ctx_before par ++ nbef n i ++ nkid n i) (naft n i ++ ctx_after par).
Proof.
  induction fuel as [|f IH]; intros n i h lo rec inc par Hp Hi Hri Hf; [lia|].
  pose proof (path_wf _ _ _ _ _ Hp) as Hw. cbn [next_loop]. rewrite Hri. cbn [bind].
  destruct (nth_error (n_elts n) i) as [e|] eqn:He.
  - destruct (node_step _ _ _ _ _ Hw He) as (-> & Hb). cbn [app next_result]. eexists _, _, _, _. split; [reflexivity|].
    rewrite <- (app_assoc (ctx_before par)), <- Hb, <- app_assoc. apply cstate_before_kid with h lo; [assumption|].
    apply Nat.le_succ_l, nth_error_Some. congruence.
  - assert (i = length (n_elts n)) by (apply nth_error_None in He; lia). subst i.
    rewrite naft_end. cbn [app]. inversion Hp as [|p ? ? j ? rest Hpp Hn]; subst; [reflexivity|].
    destruct (parent_cut _ _ _ _ _ (path_wf _ _ _ _ _ Hpp) Hn) as (Hj & Hb & Hk & Ha).
    specialize (IH p j _ _ false true rest Hpp Hj eq_refl ltac:(cbn in Hf; lia)). rewrite Hb, Hk, Ha in IH.
    cbn [ctx_before ctx_after]. rewrite (node_cut _ _ _ _ Hw (le_n _)), naft_end, app_nil_r in IH.
    now rewrite <- app_assoc.
Qed.

Lemma prev_before_kid root : forall fuel n i h lo rec inc par,
  path root n h lo par -> (i <= length (n_elts n))%nat -> rec && negb inc = false -> (length par < fuel)%nat ->
  prev_result root (prev_loop fuel n i rec inc par)
    (ctx_before par ++ nbef n i) (nkid n i ++ naft n i ++ ctx_after par).
Proof.
  induction fuel as [|f IH]; intros n i h lo rec inc par Hp Hi Hri Hf; [lia|].
  pose proof (path_wf _ _ _ _ _ Hp) as Hw. cbn [prev_loop]. rewrite Hri. cbn [bind].
  destruct i as [|j].
  - rewrite nbef_zero, app_nil_r. inversion Hp as [|p ? ? j ? rest Hpp Hn]; subst; [left; split; reflexivity|].
    destruct (parent_cut _ _ _ _ _ (path_wf _ _ _ _ _ Hpp) Hn) as (Hj & Hb & Hk & Ha).
    specialize (IH p j _ _ false false rest Hpp Hj eq_refl ltac:(cbn in Hf; lia)). rewrite Hb, Hk, Ha in IH.
    cbn [ctx_before ctx_after]. rewrite (node_cut _ _ _ 0 Hw Hi), nbef_zero in IH. cbn [app] in IH.
    now rewrite <- app_assoc in IH.
  - destruct (nth_error (n_elts n) j) as [e|] eqn:He; [|apply nth_error_None in He; lia].
    destruct (node_step _ _ _ _ _ Hw He) as (Ha & ->). right.
    exists (ctx_before par ++ nbef n j ++ nkid n j), e, n, j, (negb (n_leaf n)), par.
    split; [apply app_assoc|]. split; [reflexivity|].
    pose proof (cstate_after_kid root n h lo par j Hp ltac:(lia)) as Hcs. rewrite Ha in Hcs.
    cbn [app] in Hcs. now rewrite <- app_assoc in Hcs.
Qed.

Lemma next_loop_spec root n i rec inc par bef aft :
  cstate root n i rec inc par bef aft -> next_result root (next_loop (loop_fuel n par) n i rec inc par) bef aft.
Proof.
  intros Hcs. unfold loop_fuel. destruct (rec && inc) eqn:Hri.
  - (* before a child: descend to its least leaf first *)
    apply andb_prop in Hri as (-> & ->).
    destruct (seek_least_fwd root true _ _ _ _ _ Hcs) as (lf & par' & Hs & Hlen & Hcs').
    destruct (cstate_after_inv _ _ _ _ _ _ _ _ Hcs' eq_refl) as (h & lo & Hp & Hi & -> & ->).
    pose proof (next_after_kid root (length par + depth n + 2) lf 0 h lo false true par' Hp Hi eq_refl ltac:(lia)) as Hn.
    rewrite Nat.add_succ_r in *. cbn [next_loop andb bind] in *. now rewrite Hs.
  - destruct (cstate_after_inv _ _ _ _ _ _ _ _ Hcs Hri) as (h & lo & Hp & Hi & -> & ->).
    eapply next_after_kid; eauto. lia.
Qed.

Lemma prev_loop_spec root n i rec inc par bef aft :
  cstate root n i rec inc par bef aft -> prev_result root (prev_loop (loop_fuel n par) n i rec inc par) bef aft.
Proof.
  intros Hcs. unfold loop_fuel. destruct (rec && negb inc) eqn:Hri.
  - (* after a child: descend to its greatest leaf first *)
    apply andb_prop in Hri as (-> & Hinc). apply negb_true_iff in Hinc. subst inc.
    destruct (seek_greatest_bwd root false _ _ _ _ _ Hcs) as (lf & par' & Hs & Hlen & Hcs').
    destruct (cstate_before_inv _ _ _ _ _ _ _ _ Hcs' eq_refl) as (h & lo & Hp & Hi & -> & ->).
    pose proof (prev_before_kid root (length par + depth n + 2) lf _ h lo false false par' Hp Hi eq_refl ltac:(lia)) as Hn.
    rewrite Nat.add_succ_r in *. cbn [prev_loop andb negb bind] in *. now rewrite Hs.
  - destruct (cstate_before_inv _ _ _ _ _ _ _ _ Hcs Hri) as (h & lo & Hp & Hi & -> & ->).
    eapply prev_before_kid; eauto. lia.
Qed.

(* a key that separates the keys of p at j separates all that lies left and right of child j *)
Lemma sides_separated lo h p j key :
  wfn lo h p -> n_leaf p = false -> ksorted (elements p) -> (j <= length (n_elts p))%nat ->
  all_lt (firstn j (n_elts p)) key -> all_gt (skipn j (n_elts p)) key ->
  all_lt (left_of p j) key /\ all_gt (right_of p j) key.
Proof.
  intros Hw Hl Hs Hj Hlt Hgt. destruct (wfn_internal _ _ _ Hw Hl) as (_ & _ & Hk & _).
  destruct (node_split _ _ _ j Hw Hl Hj) as (h' & kid & _ & _ & He). rewrite He in Hs.
  apply ksorted_app in Hs as (Hsl & Hs & _). apply ksorted_app in Hs as (_ & Hsr & _). split.
  - apply zipl_lt; [rewrite !firstn_length; lia|assumption|assumption].
  - apply zipr_gt; assumption.
Qed.

(* seek(key, before): everything in front of the cursor is < key (<= key when before is False),
   everything behind it is >= key (> key) *)
Lemma seek_loop_spec root key before : ksorted (elements root) -> forall fuel h lo n par,
  path root n h lo par -> (h <= fuel)%nat ->
  all_lt (ctx_before par) key -> all_gt (ctx_after par) key ->
  exists n' idx par' bef aft,
    seek_loop fuel key before n par = Ok (n', idx, par') /\
    cstate root n' idx false before par' bef aft /\
    pos_ok (if before then AB key else AA key) (elements root) bef aft.
Proof.
  intros Hsr. induction fuel as [|f IH]; intros h lo n par Hp Hf Hcb Hca; pose proof (path_wf _ _ _ _ _ Hp) as Hw.
  { pose proof (wfn_pos t Ht _ _ _ Hw). lia. }
  pose proof (path_sorted _ _ _ _ _ Hp Hsr) as Hs. cbn [seek_loop].
  destruct (search_cases key _ (node_es_sorted t Ht _ _ _ Hw Hs)) as [(ea & v & eb & Ees & -> & Hlt & Hgt)|(ea & eb & Ees & -> & Hlt & Hgt)];
    cbn [bind].
  - (* the key is in this node, at index |ea|: the cursor goes just after child |ea| (in a leaf:
       before the key) or just before child |ea| + 1 (after the key); either way the key is its
       neighbour in the sorted traversal of the whole tree *)
    assert (He : nth_error (n_elts n) (length ea) = Some (key, v)) by (rewrite Ees; apply nth_error_app_mid).
    assert (Hi : (length ea < length (n_elts n))%nat) by (apply nth_error_Some; congruence).
    destruct (node_step _ _ _ _ _ Hw He) as (Ha & Hb). destruct before.
    + pose proof (cstate_after_kid root n h lo par _ Hp (Nat.lt_le_incl _ _ Hi)) as Hcs.
      pose proof (cstate_elements _ _ _ _ _ _ _ _ Hcs) as Hel. rewrite Ha in Hel, Hcs.
      pose proof (pos_before _ _ (key, v) _ Hsr Hel) as Hok.
      destruct (n_leaf n); [apply cstate_leaf_inc with (inc' := true) in Hcs; eauto 10|].
      destruct (seek_greatest_bwd root true _ _ _ _ _ Hcs) as (lf & par' & -> & _ & Hcs'). eauto 10.
    + pose proof (cstate_before_kid root n h lo par _ Hp Hi) as Hcs. rewrite Hb, app_assoc in Hcs.
      pose proof (cstate_elements _ _ _ _ _ _ _ _ Hcs) as Hel. rewrite <- app_assoc in Hel.
      pose proof (pos_after _ _ (key, v) _ Hsr Hel) as Hok.
      destruct (n_leaf n); [apply cstate_leaf_inc with (inc' := false) in Hcs; eauto 10|].
      destruct (seek_least_fwd root false _ _ _ _ _ Hcs) as (lf & par' & -> & _ & Hcs'). eauto 10.
  - (* the key is not in this node *)
    destruct (n_leaf n) eqn:Hl.
    + destruct (wfn_leaf_inv _ _ _ Hw Hl) as (-> & _).
      pose proof (cs_leaf root n (length ea) before par lo Hp Hl ltac:(rewrite Ees, app_length; lia)) as Hcs.
      eexists _, _, _, _, _. split; [reflexivity|]. split; [exact Hcs|].
      apply pos_strict; [symmetry; exact (cstate_elements _ _ _ _ _ _ _ _ Hcs)| |];
        rewrite Ees, ?firstn_app_exact, ?skipn_app_exact by reflexivity; [apply all_lt_app|apply all_gt_app]; auto.
    + assert (Hi : (length ea <= length (n_elts n))%nat) by (rewrite Ees, app_length; lia).
      destruct (node_split _ _ _ _ Hw Hl Hi) as (h' & kid & -> & Hk & _). rewrite Hk.
      destruct (sides_separated _ _ _ _ key Hw Hl Hs Hi) as (Hlo & Hro);
        [now rewrite Ees, firstn_app_exact|now rewrite Ees, skipn_app_exact|].
      apply (IH h' _ kid _ (path_cons _ _ _ _ _ _ _ Hp Hk)); [lia| |]; cbn [ctx_before ctx_after];
        [apply all_lt_app|apply all_gt_app]; auto.
Qed.

Lemma seek_root_spec root h key before :
  wfr t h root -> ksorted (elements root) ->
  exists n idx par bef aft,
    seek_loop (S (depth root)) key before root [] = Ok (n, idx, par) /\
    cstate root n idx false before par bef aft /\
    pos_ok (if before then AB key else AA key) (elements root) bef aft.
Proof.
  intros Hw Hs. unfold wfr in Hw.
  apply (seek_loop_spec root key before Hs (S (depth root)) h _ root [] (path_nil root h Hw)); try constructor.
  rewrite (wfn_depth t _ _ _ Hw). lia.
Qed.

Definition cinv (root : tree) (c : cursor) : Prop :=
  (c_node c = None /\ c_pkey c = None /\ c_par c = [] /\ c_rec c = false /\ (c_idx c = 0%nat \/ c_idx c = 1%nat))
  \/ (c_parked c = true /\ exists k, c_pkey c = Some k)
  \/ (c_parked c = false /\ exists n k bef aft,
        c_node c = Some n /\ c_pkey c = Some k /\
        cstate root n (c_idx c) (c_rec c) (c_inc c) (c_par c) bef aft /\
        pos_ok (anchor_of c) (elements root) bef aft).

Lemma cinv_inside root n i rec inc par k rd bef aft :
  let c := mkC (Some n) i rec inc par false (Some k) rd in
  cstate root n i rec inc par bef aft -> pos_ok (anchor_of c) (elements root) bef aft -> cinv root c.
Proof. intros c Hcs Hp. right. right. split; [reflexivity|]. exists n, k, bef, aft. auto. Qed.

Theorem cursor_seek_spec root h key before :
  wfr t h root -> ksorted (elements root) ->
  exists c', cursor_seek root key before = Ok c' /\ cinv root c' /\ c_parked c' = false /\
             anchor_of c' = if before then AB key else AA key.
Proof.
  intros Hw Hs. destruct (seek_root_spec root h key before Hw Hs) as (n & idx & par & bef & aft & Hr & Hcs & Hp).
  unfold cursor_seek. rewrite Hr. cbn [bind]. eexists. split; [reflexivity|].
  split; [|split; reflexivity]. now apply cinv_inside with bef aft.
Qed.

(* what maybe_unpark leaves: a cursor on the boundary a, or one standing inside the tree at the
   split of the traversal at a *)
Definition unparked (root : tree) (c : cursor) (a : anchor) : Prop :=
  (c_node c = None /\ c_par c = [] /\ c_rec c = false /\ (c_idx c = 0%nat /\ a = AL \/ c_idx c = 1%nat /\ a = AR))
  \/ (exists n bef aft, c_node c = Some n /\ cstate root n (c_idx c) (c_rec c) (c_inc c) (c_par c) bef aft /\
                        pos_ok a (elements root) bef aft).

Lemma maybe_unpark_spec root h c :
  wfr t h root -> ksorted (elements root) -> cinv root c ->
  exists c1, maybe_unpark root c = Ok c1 /\ unparked root c1 (anchor_of c).
Proof.
  intros Hw Hs [(Hn & Hk & Hpar & Hrec & Hidx)|[(Hpk & k & Hk)|(Hpk & n & k & bef & aft & Hn & Hk & Hcs & Hpos)]];
    unfold maybe_unpark, anchor_of in *; rewrite Hk in *.
  - assert (Ha : c_idx c = 0%nat /\ (if (c_idx c =? 0)%nat then AL else AR) = AL \/
                 c_idx c = 1%nat /\ (if (c_idx c =? 0)%nat then AL else AR) = AR) by (destruct Hidx as [->| ->]; auto).
    destruct (c_parked c); eexists; (split; [reflexivity|]); left; cbn; auto.
  - rewrite Hpk. set (before := if c_pkread c then negb (c_inc c) else c_inc c).
    destruct (seek_root_spec root h k before Hw Hs) as (n & idx & par & bef & aft & Hr & Hcs & Hp).
    unfold cursor_seek. rewrite Hr. cbn [bind]. eexists. split; [reflexivity|].
    right. exists n, bef, aft. cbn. eauto using cstate_leaf_inc.
  - rewrite Hpk. exists c. split; [reflexivity|]. right. eauto 8.
Qed.

Lemma finish_next root n i rec inc par bef aft pk :
  cstate root n i rec inc par bef aft -> ksorted (elements root) ->
  exists c',
    (do (c', o) <- next_loop (loop_fuel n par) n i rec inc par;
     Ok (mkC (c_node c') (c_idx c') (c_rec c') (c_inc c') (c_par c') false (c_pkey c')
           (match o with Some _ => true | None => pk end), o)) = Ok (c', hd_error aft) /\
    cinv root c' /\ c_parked c' = false /\
    anchor_of c' = match aft with x :: _ => AA (fst x) | [] => AR end.
Proof.
  intros Hcs Hs. pose proof (next_loop_spec _ _ _ _ _ _ _ _ Hcs) as Hn.
  pose proof (cstate_elements _ _ _ _ _ _ _ _ Hcs) as He. destruct aft as [|x aft']; cbn [next_result] in Hn.
  - rewrite Hn. eexists. split; [reflexivity|]. split; [left; cbn; auto 10|]. split; reflexivity.
  - destruct Hn as (n' & i' & rec' & par' & -> & Hcs'). eexists. split; [reflexivity|]. split; [|split; reflexivity].
    apply cinv_inside with (bef ++ [x]) aft'; [assumption|]. exact (pos_after _ _ _ _ Hs He).
Qed.

Lemma finish_prev root n i rec inc par bef aft pk :
  cstate root n i rec inc par bef aft -> ksorted (elements root) ->
  exists c',
    (do (c', o) <- prev_loop (loop_fuel n par) n i rec inc par;
     Ok (mkC (c_node c') (c_idx c') (c_rec c') (c_inc c') (c_par c') false (c_pkey c')
           (match o with Some _ => true | None => pk end), o)) = Ok (c', hd_error (rev bef)) /\
    cinv root c' /\ c_parked c' = false /\
    anchor_of c' = match rev bef with x :: _ => AB (fst x) | [] => AL end.
Proof.
  intros Hcs Hs. pose proof (cstate_elements _ _ _ _ _ _ _ _ Hcs) as He.
  destruct (prev_loop_spec _ _ _ _ _ _ _ _ Hcs) as [(-> & ->)|(bef' & x & n' & i' & rec' & par' & -> & -> & Hcs')].
  - eexists. split; [reflexivity|]. split; [left; cbn; auto 10|]. split; reflexivity.
  - rewrite rev_app_distr. rewrite <- app_assoc in He. eexists. split; [reflexivity|]. split; [|split; reflexivity].
    apply cinv_inside with bef' (x :: aft); [assumption|]. exact (pos_before _ _ _ _ Hs He).
Qed.

(* the position denoted by an anchor exists and the cursor machine delivers from it *)
Theorem cursor_next_spec root h c :
  wfr t h root -> ksorted (elements root) -> cinv root c ->
  exists bef aft c',
    pos_ok (anchor_of c) (elements root) bef aft /\
    cursor_next root c = Ok (c', hd_error aft) /\
    cinv root c' /\ c_parked c' = false /\
    anchor_of c' = match aft with x :: _ => AA (fst x) | [] => AR end.
Proof.
  intros Hw Hs Hc. unfold cursor_next.
  destruct (maybe_unpark_spec root h c Hw Hs Hc) as (c1 & -> & [(Hn & Hpar & Hrec & [(Hi & ->)|(Hi & ->)])|(n & bef & aft & Hn & Hcs & Hpos)]);
    cbn [bind]; rewrite Hn; [rewrite Hi; cbn [Nat.eqb negb]..|].
  - (* left boundary: walk to the least leaf *)
    rewrite Hpar, Hrec.
    destruct (least_leaf root (c_inc c1) (S (depth root)) h _ root [] (path_nil root h Hw)) as (lf & par' & -> & _ & Hcs).
    { rewrite (wfn_depth t _ _ _ Hw). lia. }
    cbn [bind ctx_before ctx_after] in *. rewrite app_nil_r in Hcs.
    destruct (finish_next root lf 0 false (c_inc c1) par' _ _ (c_pkread c1) Hcs Hs) as (c' & Hr & Hres).
    exists [], (elements root), c'. split; [split; reflexivity|auto].
  - (* right boundary *)
    exists (elements root), [], (mkC None 1 (c_rec c1) (c_inc c1) (c_par c1) false None (c_pkread c1)).
    split; [split; [apply app_nil_r|reflexivity]|]. split; [reflexivity|]. split; [|split; reflexivity].
    left. cbn. auto 10.
  - destruct (finish_next root n _ _ _ _ bef aft (c_pkread c1) Hcs Hs) as (c' & Hr & Hres). exists bef, aft, c'. auto.
Qed.

Theorem cursor_prev_spec root h c :
  wfr t h root -> ksorted (elements root) -> cinv root c ->
  exists bef aft c',
    pos_ok (anchor_of c) (elements root) bef aft /\
    cursor_prev root c = Ok (c', hd_error (rev bef)) /\
    cinv root c' /\ c_parked c' = false /\
    anchor_of c' = match rev bef with x :: _ => AB (fst x) | [] => AL end.
Proof.
  intros Hw Hs Hc. unfold cursor_prev.
  destruct (maybe_unpark_spec root h c Hw Hs Hc) as (c1 & -> & [(Hn & Hpar & Hrec & [(Hi & ->)|(Hi & ->)])|(n & bef & aft & Hn & Hcs & Hpos)]);
    cbn [bind]; rewrite Hn; [rewrite Hi; cbn [Nat.eqb negb]..|].
  - (* left boundary *)
    exists [], (elements root), (mkC None 0 (c_rec c1) (c_inc c1) (c_par c1) false None (c_pkread c1)).
    split; [split; reflexivity|]. split; [reflexivity|]. split; [|split; reflexivity].
    left. cbn. auto 10.
  - (* right boundary: walk to the greatest leaf *)
    rewrite Hpar, Hrec.
    destruct (greatest_leaf root (c_inc c1) (S (depth root)) h _ root [] (path_nil root h Hw)) as (lf & par' & -> & _ & Hcs).
    { rewrite (wfn_depth t _ _ _ Hw). lia. }
    cbn [bind ctx_before ctx_after app] in *.
    destruct (finish_prev root lf _ false (c_inc c1) par' _ _ (c_pkread c1) Hcs Hs) as (c' & Hr & Hres).
    exists (elements root), [], c'. split; [split; [apply app_nil_r|reflexivity]|auto].
  - destruct (finish_prev root n _ _ _ _ bef aft (c_pkread c1) Hcs Hs) as (c' & Hr & Hres). exists bef, aft, c'. auto.
Qed.

(* parking (what every mutation does to the registered cursors) keeps the anchor, and the parked
   cursor is valid for whatever tree the mutation produces *)
Lemma cursor_park_spec root c : cinv root c ->
  anchor_of (cursor_park c) = anchor_of c /\ forall root', cinv root' (cursor_park c).
Proof.
  intros H. split; [reflexivity|]. intros root'.
  destruct H as [(Hn & Hk & Hpar & Hrec & Hidx)|[(Hpk & k & Hk)|(Hpk & n & k & bef & aft & Hn & Hk & Hcs & Hpos)]].
  - left. cbn. auto.
  - right. left. cbn. eauto.
  - right. left. cbn. eauto.
Qed.

Lemma cursor_boundary_spec root c :
  cinv root (cursor_seek_first c) /\ anchor_of (cursor_seek_first c) = AL /\
  cinv root (cursor_seek_last c) /\ anchor_of (cursor_seek_last c) = AR /\
  cinv root new_cursor /\ anchor_of new_cursor = AL.
Proof. repeat split; try reflexivity; left; cbn; auto 10. Qed.

End CUR.
