(* Records with their fields (Model/SetCanonM.v): the structured ==/hash/_cmp agree with the
   flat records of Model/SetM.v; canonicalisation = encoding of the lower-cased names; and,
   through C02's round trip, == holds iff the field values are equal up to the ASCII case of
   the embedded names of the types that pass canonicalize on. *)
From DV Require Import Base.Prelude Model.NameM Model.SchemaM Model.SetM Model.SetCanonM Proofs.ListFacts.
From DV Require Import Proofs.NameValid Proofs.NameOrder Proofs.SchemaThm Proofs.SetRdata.
From DV Require Proofs.NameWire.
Open Scope Z_scope.

Lemma s_abs_inv r x :
  s_abs r = Ok x ->
  exists d rel, s_digest_rel r = Ok (d, rel) /\ x = mkRd (sid r) (scls r) (styp r) (scov r) d rel.
Proof.
  unfold s_abs. destruct (s_digest_rel r) as [[d rel]| |]; cbn; try discriminate.
  intros E; inversion E. eauto.
Qed.

Lemma s_digest_rel_abs r d : s_digest r None = Ok d -> s_digest_rel r = Ok (d, false).
Proof. intros E. unfold s_digest_rel. rewrite E. reflexivity. Qed.

(* the digest that was taken: without origin, or with the root when that was needed *)
Lemma s_digest_rel_inv r d rel :
  s_digest_rel r = Ok (d, rel) -> s_digest r (if rel then Some root else None) = Ok d.
Proof.
  unfold s_digest_rel.
  destruct (s_digest r None) as [d0|e|e] eqn:E0; [intros [= <- <-]; exact E0| |discriminate].
  destruct (e =? eNeedAbsolute); [|discriminate].
  destruct (s_digest r (Some root)) eqn:E1; cbn; [intros [= <- <-]; exact E1|discriminate..].
Qed.

(* between records of one class, type and relativity == compares the digests *)
Lemma s_eq_digests a b da db rel :
  scls a = scls b -> styp a = styp b ->
  s_digest_rel a = Ok (da, rel) -> s_digest_rel b = Ok (db, rel) ->
  s_eq a b = Ok (zlist_eqb da db).
Proof.
  intros Hc Ht Ea Eb. unfold s_eq. rewrite Hc, Ht, !Z.eqb_refl, Ea, Eb. cbn.
  rewrite eqb_reflx. reflexivity.
Qed.

Theorem s_eq_abs a b x y : s_abs a = Ok x -> s_abs b = Ok y -> s_eq a b = Ok (rd_eqb x y).
Proof.
  intros Ha Hb. apply s_abs_inv in Ha as (da & ra & Ea & ->). apply s_abs_inv in Hb as (db & rb & Eb & ->).
  unfold s_eq, rd_eqb. cbn [rcls rtyp rrel rdig].
  destruct (negb (scls a =? scls b) || negb (styp a =? styp b)); [reflexivity|].
  rewrite Ea, Eb. cbn. destruct (negb (Bool.eqb ra rb)); reflexivity.
Qed.

Theorem s_cmp_abs a b x y : s_abs a = Ok x -> s_abs b = Ok y -> s_cmp a b = Ok (rd_cmp x y).
Proof.
  intros Ha Hb. apply s_abs_inv in Ha as (da & ra & Ea & ->). apply s_abs_inv in Hb as (db & rb & Eb & ->).
  unfold s_cmp, rd_cmp. cbn [rrel rdig]. rewrite Ea, Eb. cbn.
  destruct (negb (Bool.eqb ra rb)); reflexivity.
Qed.

(* whenever x yields octets, y yields the same; the writers are built from such steps by
   `do a <- ..; do b <- ..; Ok (a ++ b)` *)
Definition refines (x y : res (list Z)) : Prop := forall w, x = Ok w -> y = Ok w.

Lemma refines_refl x : refines x x.
Proof. intros w E. exact E. Qed.

Lemma refines_app x x' y y' :
  refines x x' -> refines y y' ->
  refines (do a <- x; do b <- y; Ok (a ++ b)) (do a <- x'; do b <- y'; Ok (a ++ b)).
Proof.
  intros Hx Hy w. destruct x as [a| |]; try discriminate. destruct y as [b| |]; try discriminate.
  rewrite (Hx a eq_refl), (Hy b eq_refl). auto.
Qed.

Lemma to_wire_any_origin n c o : refines (NameM.to_wire n None c) (NameM.to_wire n (Some o) c).
Proof. unfold NameM.to_wire. destruct (is_absolute n); [apply refines_refl|discriminate]. Qed.

Lemma cenc_s_any_origin low f v o : refines (cenc_s None low f v) (cenc_s (Some o) low f v).
Proof. destruct f, v; try apply refines_refl. apply to_wire_any_origin. Qed.

Lemma cenc_row_any_origin low o : forall fs vs,
  refines (cenc_row None low fs vs) (cenc_row (Some o) low fs vs).
Proof.
  induction fs as [|f fr IH]; intros [|v vr]; try apply refines_refl.
  apply refines_app; [apply cenc_s_any_origin|apply IH].
Qed.

Lemma cenc_rows_any_origin low o row : forall rows,
  refines (cenc_rows None low row rows) (cenc_rows (Some o) low row rows).
Proof.
  induction rows as [|r rr IH]; [apply refines_refl|].
  apply refines_app; [apply cenc_row_any_origin|apply IH].
Qed.

Lemma enc_s_nonname_origin o o' f v :
  (forall rel, f <> SchemaM.FName rel) -> enc_s o f v = enc_s o' f v.
Proof. destruct f, v; cbn; intros H; try reflexivity. exfalso. eapply H. reflexivity. Qed.

Lemma cenc_f_any_origin low f v o : refines (cenc_f None low f v) (cenc_f (Some o) low f v).
Proof.
  destruct f as [s| | | |m a row]; destruct v as [x|rows]; try apply refines_refl;
    [apply cenc_s_any_origin|apply cenc_rows_any_origin].
Qed.

Lemma cenc_fields_any_origin low o : forall fs vs,
  refines (cenc_fields None low fs vs) (cenc_fields (Some o) low fs vs).
Proof.
  induction fs as [|f fr IH]; intros [|v vr]; try apply refines_refl.
  apply refines_app; [apply cenc_f_any_origin|apply IH].
Qed.

(* the hashed value is the digest that == compares *)
Theorem s_hashkey_abs r x : s_abs r = Ok x -> s_hashkey r = Ok (rd_hashkey x).
Proof.
  intros H. apply s_abs_inv in H as (d & rel & E & ->). apply s_digest_rel_inv in E.
  destruct rel; [exact E|apply cenc_fields_any_origin, E].
Qed.

Theorem s_hash_congr a b x y :
  s_abs a = Ok x -> s_abs b = Ok y -> s_eq a b = Ok true -> s_hashkey a = s_hashkey b.
Proof.
  intros Ha Hb He. rewrite (s_eq_abs a b x y Ha Hb) in He. inversion He as [H].
  rewrite (s_hashkey_abs a x Ha), (s_hashkey_abs b y Hb). f_equal. apply rd_hash_congr, H.
Qed.

Definition lows (low : bool) (v : sval) : sval :=
  match v with VN n => if low then VN (map lower_l n) else v | _ => v end.
Definition lowv (low : bool) (v : val) : val :=
  match v with VS x => VS (lows low x) | VL rows => VL (map (map (lows low)) rows) end.
Definition lowvals (low : bool) (vs : list val) : list val := map (lowv low) vs.

(* origins whose own labels are lower case already: None and the root in particular *)
Definition origin_lc (o : option name) : Prop :=
  match o with None => True | Some x => map lower_l x = x end.

Lemma wire_labels_lower n : wire_labels true n = wire_labels false (map lower_l n).
Proof.
  unfold wire_labels. induction n as [|l n IH]; [reflexivity|]. cbn [map flat_map].
  rewrite IH, zlen_lower. reflexivity.
Qed.

Lemma to_wire_lower n o :
  origin_lc o -> NameM.to_wire n o true = NameM.to_wire (map lower_l n) o false.
Proof.
  intros Ho. unfold NameM.to_wire. rewrite is_absolute_lower, wire_length_lower, <- wire_labels_lower.
  destruct (is_absolute n); [reflexivity|].
  destruct o as [x|]; [|reflexivity]. cbn in Ho.
  destruct (is_absolute x); [|reflexivity].
  destruct (wire_length n + wire_length x >? 255); [reflexivity|].
  rewrite (wire_labels_lower x), Ho. reflexivity.
Qed.

Lemma cenc_s_low o low f v : origin_lc o -> cenc_s o low f v = enc_s o f (lows low v).
Proof.
  intros Ho. destruct f, v; cbn; try reflexivity; destruct low; cbn; try reflexivity.
  apply to_wire_lower, Ho.
Qed.

Lemma cenc_row_low o low : origin_lc o -> forall fs vs,
  cenc_row o low fs vs = enc_row o fs (map (lows low) vs).
Proof.
  intros Ho. induction fs as [|f fr IH]; intros [|v vr]; cbn; try reflexivity.
  rewrite (cenc_s_low o low f v Ho), IH. reflexivity.
Qed.

Lemma cenc_rows_low o low row : origin_lc o -> forall rows,
  cenc_rows o low row rows = enc_rows o row (map (map (lows low)) rows).
Proof.
  intros Ho. induction rows as [|r rr IH]; cbn; [reflexivity|].
  rewrite (cenc_row_low o low Ho), IH. reflexivity.
Qed.

Lemma cenc_f_low o low f v : origin_lc o -> cenc_f o low f v = enc_f o f (lowv low v).
Proof.
  intros Ho. destruct f as [s| | | |m a row]; destruct v as [x|rows]; cbn; try reflexivity.
  1: apply cenc_s_low, Ho.
  4: apply cenc_rows_low, Ho.
  (* the other fields take no name: one is refused whatever its case *)
  all: destruct x; cbn; try reflexivity; destruct low; reflexivity.
Qed.

(* Rdata.to_wire(origin, canonicalize=True) = Rdata.to_wire(origin) of the record with its names
   lower-cased (for the types that pass the flag on; the very same octets otherwise) *)
Theorem cenc_fields_low o low : origin_lc o -> forall fs vs,
  cenc_fields o low fs vs = enc_fields o fs (lowvals low vs).
Proof.
  intros Ho. induction fs as [|f fr IH]; intros [|v vr]; cbn; try reflexivity.
  rewrite (cenc_f_low o low f v Ho), IH. reflexivity.
Qed.

Corollary cenc_fields_plain o fs vs : origin_lc o -> cenc_fields o false fs vs = enc_fields o fs vs.
Proof.
  intros Ho. rewrite (cenc_fields_low o false Ho). f_equal. unfold lowvals.
  rewrite <- (map_id vs) at 2. apply map_ext. intros [x|rows]; cbn.
  - destruct x; reflexivity.
  - f_equal. rewrite <- (map_id rows) at 2. apply map_ext. intros r.
    rewrite <- (map_id r) at 2. apply map_ext. intros x. destruct x; reflexivity.
Qed.

Lemma validate_labels_lower n : validate_labels (map lower_l n) = validate_labels n.
Proof. apply validate_labels_lens. rewrite map_map. apply map_ext. intros l. apply map_length. Qed.

Lemma valid_s_low low f v : valid_s f (lows low v) = valid_s f v.
Proof.
  destruct f, v; cbn; try reflexivity; destruct low; cbn; try reflexivity.
  rewrite validate_labels_lower. reflexivity.
Qed.

Lemma valid_row_low low : forall fs vs, valid_row fs (map (lows low) vs) = valid_row fs vs.
Proof.
  induction fs as [|f fr IH]; intros [|v vr]; cbn; try reflexivity.
  rewrite valid_s_low, IH. reflexivity.
Qed.

Lemma ascending_low low : forall rows last,
  ascending last (map (map (lows low)) rows) = ascending last rows.
Proof.
  induction rows as [|r rr IH]; intros last; cbn; [reflexivity|].
  destruct r as [|x r']; cbn; [reflexivity|]. destruct x; cbn; try reflexivity.
  - rewrite IH. reflexivity.
  - destruct low; reflexivity.
Qed.

Lemma valid_f_low low f v : valid_f f (lowv low v) = valid_f f v.
Proof.
  destruct f as [s| | | |m a row]; destruct v as [x|rows]; cbn; try reflexivity.
  1: apply valid_s_low.
  4: { rewrite map_length, ascending_low. f_equal. f_equal.
       induction rows as [|r rr IH]; cbn; [reflexivity|]. rewrite valid_row_low, IH. reflexivity. }
  all: destruct x; cbn; try reflexivity; destruct low; reflexivity.
Qed.

Lemma valid_fields_low low : forall fs vs, valid_fields fs (lowvals low vs) = valid_fields fs vs.
Proof.
  induction fs as [|f fr IH]; intros [|v vr]; cbn; try reflexivity.
  rewrite valid_f_low. unfold lowvals in IH. rewrite IH. reflexivity.
Qed.

Lemma enc_fields_inj fs v1 v2 b :
  schema_wf fs = true -> valid_fields fs v1 = true -> valid_fields fs v2 = true ->
  enc_fields None fs v1 = Ok b -> enc_fields None fs v2 = Ok b -> v1 = v2.
Proof.
  intros Hwf H1 H2 E1 E2.
  assert (R1 : encode_rdata None fs CkNone v1 = Ok b).
  { unfold encode_rdata, validate. rewrite H1. cbn. exact E1. }
  assert (R2 : encode_rdata None fs CkNone v2 = Ok b).
  { unfold encode_rdata, validate. rewrite H2. cbn. exact E2. }
  pose proof (schema_roundtrip_none fs CkNone v1 b [] [] Hwf R1) as D1.
  pose proof (schema_roundtrip_none fs CkNone v2 b [] [] Hwf R2) as D2.
  rewrite D1 in D2. inversion D2. reflexivity.
Qed.

Definition name_ci (n m : name) : Prop := map lower_l n = map lower_l m.

Definition sval_ci (low : bool) (a b : sval) : Prop :=
  match a, b with
  | VI x, VI y => x = y
  | VB x, VB y => x = y
  | VN n, VN m => if low then name_ci n m else n = m
  | _, _ => False
  end.

Definition val_ci (low : bool) (a b : val) : Prop :=
  match a, b with
  | VS x, VS y => sval_ci low x y
  | VL r1, VL r2 => Forall2 (Forall2 (sval_ci low)) r1 r2
  | _, _ => False
  end.

Definition vals_ci (low : bool) (va vb : list val) : Prop := Forall2 (val_ci low) va vb.

Lemma lows_eq_iff low a b : lows low a = lows low b <-> sval_ci low a b.
Proof.
  destruct a as [x|x|n], b as [y|y|m]; destruct low; cbn; unfold name_ci; split; intros H;
    try discriminate; try contradiction; try (inversion H; reflexivity); try congruence.
Qed.

Lemma map_eq_Forall2 {A B} (f : A -> B) (R : A -> A -> Prop) :
  (forall a b, f a = f b <-> R a b) -> forall l1 l2, map f l1 = map f l2 <-> Forall2 R l1 l2.
Proof.
  intros H. induction l1 as [|a l1 IH]; intros [|b l2]; cbn.
  - split; constructor.
  - split; [discriminate|inversion 1].
  - split; [discriminate|inversion 1].
  - split.
    + intros E. inversion E. constructor; [apply H; assumption|apply IH; assumption].
    + intros E. inversion E; subst. f_equal; [apply H; assumption|apply IH; assumption].
Qed.

Lemma lowv_eq_iff low a b : lowv low a = lowv low b <-> val_ci low a b.
Proof.
  destruct a as [x|r1], b as [y|r2]; cbn; try (split; [discriminate|contradiction]).
  - rewrite <- lows_eq_iff. split; [intros E; inversion E; reflexivity|congruence].
  - rewrite <- (map_eq_Forall2 (map (lows low)) (Forall2 (sval_ci low))).
    + split; [intros E; inversion E; reflexivity|congruence].
    + intros l1 l2. apply map_eq_Forall2. apply lows_eq_iff.
Qed.

Lemma lowvals_eq_iff low va vb : lowvals low va = lowvals low vb <-> vals_ci low va vb.
Proof. apply map_eq_Forall2. apply lowv_eq_iff. Qed.

(* digests taken without origin are equal exactly when the values agree up to the case that
   canonicalisation removes: one direction is computation, the other the round trip *)
Lemma digests_eq_iff fs low va vb da db :
  schema_wf fs = true -> valid_fields fs va = true -> valid_fields fs vb = true ->
  cenc_fields None low fs va = Ok da -> cenc_fields None low fs vb = Ok db ->
  (Ok (zlist_eqb da db) = Ok true <-> vals_ci low va vb).
Proof.
  intros Hwf Va Vb Da Db. rewrite (cenc_fields_low None low Logic.I) in Da, Db.
  rewrite <- lowvals_eq_iff. split.
  - intros [= E]. apply zlist_eqb_eq in E. subst db.
    eapply enc_fields_inj; [exact Hwf| | |exact Da|exact Db]; rewrite valid_fields_low; assumption.
  - intros E. rewrite E, Db in Da. injection Da as ->. rewrite zlist_eqb_refl. reflexivity.
Qed.

(* Two records of one class and type (hence one field list and one canonicalize flag) whose
   names are all absolute are == exactly when their field values agree: integers and octet
   strings identical, embedded names label by label up to ASCII case if the type passes
   canonicalize on to its names, identical otherwise. *)
Theorem s_eq_iff_fields a b da db :
  schema_wf (sfs a) = true ->
  scls a = scls b -> styp a = styp b -> sfs b = sfs a -> slow b = slow a ->
  valid_fields (sfs a) (svs a) = true -> valid_fields (sfs a) (svs b) = true ->
  s_digest a None = Ok da -> s_digest b None = Ok db ->
  (s_eq a b = Ok true <-> vals_ci (slow a) (svs a) (svs b)).
Proof.
  intros Hwf Hc Ht Hfs Hlow Va Vb Da Db.
  rewrite (s_eq_digests a b da db false Hc Ht) by (apply s_digest_rel_abs; assumption).
  unfold s_digest in Da, Db. rewrite Hfs, Hlow in Db.
  exact (digests_eq_iff _ _ _ _ _ _ Hwf Va Vb Da Db).
Qed.

(* __eq__ completes relative names with the root and remembers that it had to: a record with a
   relative name never equals one without, and two such records are compared on the completed
   names. *)

Definition absn (n : name) : name := if is_absolute n then n else n ++ root.
Definition abss (v : sval) : sval := match v with VN n => VN (absn n) | _ => v end.
Definition absv (v : val) : val :=
  match v with VS x => VS (abss x) | VL rows => VL (map (map abss) rows) end.
Definition absvals (vs : list val) : list val := map absv vs.

Lemma to_wire_root n c :
  refines (NameM.to_wire n (Some root) c) (NameM.to_wire (absn n) None c).
Proof.
  unfold NameM.to_wire, absn. destruct (is_absolute n) eqn:E.
  - rewrite E. apply refines_refl.
  - rewrite (is_absolute_last n [] : is_absolute (n ++ root) = true). cbn [is_absolute root].
    destruct (wire_length n + wire_length root >? 255); [discriminate|].
    rewrite NameWire.wire_labels_app. apply refines_refl.
Qed.

Lemma cenc_s_root low f v : refines (cenc_s (Some root) low f v) (cenc_s None low f (abss v)).
Proof. destruct f, v; try apply refines_refl. apply to_wire_root. Qed.

Lemma cenc_row_root low : forall fs vs,
  refines (cenc_row (Some root) low fs vs) (cenc_row None low fs (map abss vs)).
Proof.
  induction fs as [|f fr IH]; intros [|v vr]; try apply refines_refl.
  apply refines_app; [apply cenc_s_root|apply IH].
Qed.

Lemma cenc_rows_root low row : forall rows,
  refines (cenc_rows (Some root) low row rows) (cenc_rows None low row (map (map abss) rows)).
Proof.
  induction rows as [|r rr IH]; [apply refines_refl|].
  apply refines_app; [apply cenc_row_root|apply IH].
Qed.

Lemma cenc_f_root low f v : refines (cenc_f (Some root) low f v) (cenc_f None low f (absv v)).
Proof.
  destruct f as [s| | | |m a row]; destruct v as [x|rows]; cbn [cenc_f absv];
    try apply refines_refl; try apply cenc_s_root; try apply cenc_rows_root;
    destruct x as [z|b|nn]; try apply refines_refl; discriminate.
Qed.

Lemma cenc_fields_root low : forall fs vs,
  refines (cenc_fields (Some root) low fs vs) (cenc_fields None low fs (absvals vs)).
Proof.
  induction fs as [|f fr IH]; intros [|v vr]; try apply refines_refl.
  apply refines_app; [apply cenc_f_root|apply IH].
Qed.

Theorem relative_never_equals_absolute a b da db :
  s_digest_rel a = Ok (da, true) -> s_digest_rel b = Ok (db, false) ->
  s_eq a b = Ok false /\ s_eq b a = Ok false.
Proof.
  intros Ea Eb. unfold s_eq. rewrite Ea, Eb. cbn.
  split; [destruct (negb (scls a =? scls b) || negb (styp a =? styp b))
         |destruct (negb (scls b =? scls a) || negb (styp b =? styp a))]; reflexivity.
Qed.

(* both records have a relative name: == iff the values agree after completing the relative
   names with the root (case-insensitively for the types that pass canonicalize on) *)
Theorem s_eq_iff_fields_relative a b da db :
  schema_wf (sfs a) = true ->
  scls a = scls b -> styp a = styp b -> sfs b = sfs a -> slow b = slow a ->
  valid_fields (sfs a) (absvals (svs a)) = true -> valid_fields (sfs a) (absvals (svs b)) = true ->
  s_digest_rel a = Ok (da, true) -> s_digest_rel b = Ok (db, true) ->
  (s_eq a b = Ok true <-> vals_ci (slow a) (absvals (svs a)) (absvals (svs b))).
Proof.
  intros Hwf Hc Ht Hfs Hlow Va Vb Ea Eb.
  rewrite (s_eq_digests a b da db true Hc Ht Ea Eb).
  apply s_digest_rel_inv, cenc_fields_root in Ea, Eb. rewrite Hfs, Hlow in Eb.
  exact (digests_eq_iff _ _ _ _ _ _ Hwf Va Vb Ea Eb).
Qed.

Theorem case_variants_collapse a b da db x y :
  schema_wf (sfs a) = true ->
  scls a = scls b -> styp a = styp b -> sfs b = sfs a -> slow b = slow a ->
  valid_fields (sfs a) (svs a) = true -> valid_fields (sfs a) (svs b) = true ->
  s_digest a None = Ok da -> s_digest b None = Ok db ->
  vals_ci (slow a) (svs a) (svs b) ->
  s_abs a = Ok x -> s_abs b = Ok y ->
  rd_eqb x y = true /\ sadd rd_eqb y [x] = [x] /\ rd_hashkey x = rd_hashkey y /\ rd_cmp x y = 0.
Proof.
  intros Hwf Hc Ht Hfs Hlow Va Vb Da Db Hci Hx Hy.
  pose proof (proj2 (s_eq_iff_fields a b da db Hwf Hc Ht Hfs Hlow Va Vb Da Db) Hci) as He.
  rewrite (s_eq_abs a b x y Hx Hy) in He. injection He as E.
  split; [exact E|apply rd_eqb_collapse, E].
Qed.
