(* C13 - the inversion of a completed incremental transfer with NO restriction on the records or on the client
   zone: records of any class, type (singleton types, CNAME, RRSIG(CNAME), SOA below the apex, ...) and TTL;
   only the apex SOA records are taken in their canonical form (class IN).  The denotation is then stated
   with the transaction operations themselves (exact deletion, add, replace of the SOA). *)
From DV Require Import Base.Prelude Model.XfrM Proofs.XfrSets Proofs.XfrSpec Proofs.XfrZone Proofs.XfrDiff
  Proofs.XfrSafety Proofs.XfrBasic Proofs.XfrRun Proofs.XfrSteps Proofs.XfrGeneral Proofs.XfrGlue Proofs.XfrSections Proofs.XfrSoaFaults.

(* not an apex SOA record *)
Definition nsoa (r : rr) : Prop := ((r_type r =? tSOA) && (r_name r =? origin)) = false.

(* any record at all, the apex SOA records in canonical form *)
Definition any_rec (r : rr) : Prop := (exists b, r = soa_rr b /\ ttl_ok (v_ttl b)) \/ nsoa r.

(* what the transaction does with one deleted / added record (out-of-zone records are skipped) *)
Definition m_del (z : zone) (r : rr) : res zone :=
  if in_zone (r_name r) then t_delete_exact z (single r) else Ok z.
Definition m_add (z : zone) (r : rr) : res zone :=
  if in_zone (r_name r) then t_add false z (single r) else Ok z.

Fixpoint m_fold (f : zone -> rr -> res zone) (z : zone) (rs : list rr) : res zone :=
  match rs with
  | [] => Ok z
  | r :: t => match f z r with Ok z' => m_fold f z' t | Lib e => Lib e | Internal e => Internal e end
  end.

Definition m_soa (z : zone) (b : version) : res zone := t_add true z (single (soa_rr b)).

Fixpoint m_secs (z : zone) (secs : list sect) : res zone :=
  match secs with
  | [] => Ok z
  | c :: r =>
      match m_fold m_del z (c_dels c) with
      | Ok z1 => match m_soa z1 (c_new c) with
                 | Ok z2 => match m_fold m_add z2 (c_adds c) with
                            | Ok z3 => m_secs z3 r
                            | Lib e => Lib e | Internal e => Internal e end
                 | Lib e => Lib e | Internal e => Internal e end
      | Lib e => Lib e | Internal e => Internal e
      end
  end.

(* the SOA skeleton alone: the sections are chained by their serials, none starts with the announced SOA *)
Fixpoint skel_g (cur : Z) (fin : version) (secs : list sect) : Prop :=
  match secs with
  | [] => True
  | c :: r =>
      v_serial (c_old c) = cur /\ v_soa (c_old c) <> v_soa fin /\ ttl_ok (v_ttl (c_new c)) /\
      Forall nsoa (c_dels c) /\ Forall nsoa (c_adds c) /\ skel_g (v_serial (c_new c)) fin r
  end.

Lemma m_fold_app : forall f a b z, m_fold f z (a ++ b) =
  match m_fold f z a with Ok z' => m_fold f z' b | Lib e => Lib e | Internal e => Internal e end.
Proof.
  induction a as [|r a IH]; intros b z; cbn [app m_fold]; [reflexivity|].
  destruct (f z r); [apply IH|reflexivity|reflexivity].
Qed.

Lemma skel_g_app : forall a b cur fin,
  skel_g cur fin (a ++ b) <-> skel_g cur fin a /\ skel_g (end_serial cur a) fin b.
Proof.
  induction a as [|c a IH]; intros b cur fin; cbn [app skel_g end_serial]; [tauto|]. rewrite IH. tauto.
Qed.

Lemma m_secs_app : forall a b z, m_secs z (a ++ b) =
  match m_secs z a with Ok z1 => m_secs z1 b | Lib e => Lib e | Internal e => Internal e end.
Proof.
  induction a as [|c a IH]; intros b z; cbn [app m_secs]; [reflexivity|].
  destruct (m_fold m_del z (c_dels c)) as [za| |]; [|reflexivity|reflexivity].
  destruct (m_soa za (c_new c)) as [zb| |]; [|reflexivity|reflexivity].
  destruct (m_fold m_add zb (c_adds c)); [apply IH|reflexivity|reflexivity].
Qed.

Lemma res_of_none : forall A s (r : res A) k s', res_of s r k = (s', None) -> exists a, r = Ok a /\ k a = (s', None).
Proof. intros A s [a|e|e] k s' H; cbn [res_of] in H; [eauto|discriminate|discriminate]. Qed.

(* a record that is not an apex SOA, in a deletion (dm = true) / addition section: the transaction's operation *)
Lemma step_other : forall l u p tz cur s0 dm r, nsoa r ->
  step l (ist u p tz cur s0 false dm) (single r) =
  res_of (ist u p tz cur s0 false dm) ((if dm then m_del else m_add) tz r) (fun tz' => (ist u p tz' cur s0 false dm, None)).
Proof.
  intros l u p tz cur s0 dm r Hr. unfold ist. rewrite (step_rs _ _ _ _ _ _ _ _ _ _ (single r) Hr). cbv zeta. unfold m_del, m_add.
  cbn [single s_name]. destruct dm; cbv beta; destruct (in_zone (r_name r)); reflexivity.
Qed.

Section GENINV.
Variables (u : bool) (p z0 : zone) (ser : Z) (fin : version).
Let s0 := single (soa_rr fin).

(* The steps of an incremental transfer read backwards: what a step without error says about the record
   and the next state.  A record that is not an apex SOA is deleted / added by the transaction ... *)
Lemma other_steps : forall l tz cur dm r s', nsoa r ->
  step l (ist u p tz cur s0 false dm) (single r) = (s', None) ->
  exists tz', (if dm then m_del else m_add) tz r = Ok tz' /\ s' = ist u p tz' cur s0 false dm.
Proof.
  intros l tz cur dm r s' Hr Hs. rewrite (step_other _ _ _ _ _ _ _ _ Hr) in Hs. apply res_of_none in Hs.
  destruct Hs as [tz' [H Hk]]. inversion Hk. eauto.
Qed.

(* ... an SOA record b outside a deletion section (e = true: right after the announced SOA) starts one: it is
   not the announced one and carries the current serial ... *)
Lemma soa_starts : forall tz cur e b s', step Mid (ist u p tz cur s0 e false) (single (soa_rr b)) = (s', None) ->
  v_serial b = cur /\ v_soa b <> v_soa fin /\ s' = ist u p tz (v_serial b) s0 false true.
Proof.
  intros tz cur e b s' Hs. unfold s0 in *.
  destruct (Z.eq_dec (v_serial b) cur) as [<-|Eser]; [|rewrite (step_soa_mismatch Mid u p tz cur fin e b Eser) in Hs; discriminate].
  destruct (Z.eq_dec (v_soa b) (v_soa fin)) as [Eb|Eb].
  - destruct (step_fin_mid u p tz (v_serial b) fin e b Eb) as (s1 & c1 & Hc). rewrite Hc in Hs. discriminate.
  - rewrite (step_del_start Mid u p tz fin b e Eb) in Hs. inversion Hs; auto.
Qed.

(* ... and inside a deletion section it replaces the SOA and starts the additions. *)
Lemma soa_adds : forall l tz cur b s', step l (ist u p tz cur s0 false true) (single (soa_rr b)) = (s', None) ->
  exists tz', m_soa tz b = Ok tz' /\ s' = ist u p tz' (v_serial b) s0 false false.
Proof.
  intros l tz cur b s' Hs. unfold s0 in Hs. rewrite step_add_start in Hs. apply res_of_none in Hs.
  destruct Hs as [tz' [H Hk]]. inversion Hk. exists tz'. split; [exact H|reflexivity].
Qed.

(* Only the announced SOA completes a transfer: as the last record of its message, outside a deletion
   section, not right after the first SOA, at its own serial. *)
Lemma soa_ends : forall tz cur e b s2,
  step Last (ist u p tz cur s0 e false) (single (soa_rr b)) = (s2, None) -> done s2 = true ->
  e = false /\ v_soa b = v_soa fin /\ cur = v_serial b /\ m_soa tz b = Ok (pub s2).
Proof.
  intros tz cur e b s2 Hs Hd. unfold s0 in Hs. rewrite step_ist_soa in Hs. cbv zeta in Hs.
  destruct (v_soa b =? v_soa fin) eqn:Eb; cbn [andb negb] in Hs; [|inversion Hs; subst; discriminate].
  destruct e; [discriminate|]. destruct (cur =? v_serial b) eqn:Es; cbn [negb] in Hs; [|discriminate].
  apply res_of_none in Hs. destruct Hs as [tz' [Hso Hk]]. inversion Hk; subst s2. apply Z.eqb_eq in Eb, Es. auto.
Qed.

(* The records read so far: complete sections (g_secs; the additions of the last one may go on), or complete
   sections, an SOA a and deletions D (g_del). *)
Inductive g_inv : list rr -> st -> Prop :=
| g_start : g_inv [] (ist u p z0 ser s0 true false)
| g_secs : forall secs tz,
    secs <> [] -> skel_g ser fin secs -> m_secs z0 secs = Ok tz ->
    g_inv (secs_stream secs) (ist u p tz (end_serial ser secs) s0 false false)
| g_del : forall secs a D tz0 tz,
    skel_g ser fin secs -> v_serial a = end_serial ser secs -> v_soa a <> v_soa fin -> Forall nsoa D ->
    m_secs z0 secs = Ok tz0 -> m_fold m_del tz0 D = Ok tz ->
    g_inv (secs_stream secs ++ soa_rr a :: D) (ist u p tz (v_serial a) s0 false true).

(* an SOA record after complete sections (none yet: e = true) opens the next one *)
Lemma g_soa_del : forall secs tz e b s',
  skel_g ser fin secs -> m_secs z0 secs = Ok tz ->
  step Mid (ist u p tz (end_serial ser secs) s0 e false) (single (soa_rr b)) = (s', None) ->
  g_inv (secs_stream secs ++ [soa_rr b]) s'.
Proof.
  intros secs tz e b s' Hsk Hap Hs. destruct (soa_starts _ _ _ _ _ Hs) as (Eser & Eb & ->).
  exact (g_del secs b [] tz tz Hsk Eser Eb (Forall_nil _) Hap eq_refl).
Qed.

(* one more added record joins the additions of the last section *)
Lemma g_secs_add : forall secs tz tz' x,
  secs <> [] -> skel_g ser fin secs -> m_secs z0 secs = Ok tz -> nsoa x -> m_add tz x = Ok tz' ->
  g_inv (secs_stream secs ++ [x]) (ist u p tz' (end_serial ser secs) s0 false false).
Proof.
  intros secs tz tz' x Hne Hsk Hap Hx Hadd. destruct (exists_last Hne) as (pre & c & ->).
  set (c' := set_adds c (c_adds c ++ [x])).
  assert (E1 : secs_stream (pre ++ [c]) ++ [x] = secs_stream (pre ++ [c'])).
  { rewrite !secs_stream_app. cbn [secs_stream c' set_adds c_old c_dels c_new c_adds]. rewrite !app_nil_r, <- !app_assoc.
    cbn [app]. rewrite <- !app_assoc. reflexivity. }
  assert (E2 : end_serial ser (pre ++ [c]) = end_serial ser (pre ++ [c'])) by (rewrite !end_serial_app; reflexivity).
  rewrite E1, E2. apply g_secs.
  - destruct pre; discriminate.
  - apply skel_g_app in Hsk. apply skel_g_app. split; [apply Hsk|]. destruct Hsk as (_ & H1 & H2 & H3 & H4 & H5 & H6).
    refine (conj H1 (conj H2 (conj H3 (conj H4 (conj _ H6))))).
    apply Forall_app. split; [exact H5|constructor; [exact Hx|constructor]].
  - rewrite m_secs_app in Hap |- *. destruct (m_secs z0 pre) as [zp| |]; try discriminate.
    cbn [m_secs c' set_adds c_old c_dels c_new c_adds] in Hap |- *.
    destruct (m_fold m_del zp (c_dels c)) as [z1| |]; try discriminate.
    destruct (m_soa z1 (c_new c)) as [z2| |]; try discriminate. rewrite m_fold_app.
    destruct (m_fold m_add z2 (c_adds c)) as [z3| |]; try discriminate. inversion Hap; subst z3.
    cbn [m_fold]. rewrite Hadd. reflexivity.
Qed.

(* the SOA b after the deletions D closes them: a new section, without additions so far *)
Lemma g_del_soa : forall secs a D tz0 tz b tz',
  skel_g ser fin secs -> v_serial a = end_serial ser secs -> v_soa a <> v_soa fin -> Forall nsoa D ->
  m_secs z0 secs = Ok tz0 -> m_fold m_del tz0 D = Ok tz -> ttl_ok (v_ttl b) -> m_soa tz b = Ok tz' ->
  g_inv ((secs_stream secs ++ soa_rr a :: D) ++ [soa_rr b]) (ist u p tz' (v_serial b) s0 false false).
Proof.
  intros secs a D tz0 tz b tz' Hsk Hser Hna HD Hap Hd Httl Hso. set (c := mkSect a D b []).
  assert (E1 : (secs_stream secs ++ soa_rr a :: D) ++ [soa_rr b] = secs_stream (secs ++ [c])).
  { rewrite secs_stream_app. cbn [secs_stream c c_old c_dels c_new c_adds]. rewrite !app_nil_r, <- app_assoc. reflexivity. }
  assert (E2 : v_serial b = end_serial ser (secs ++ [c])) by (rewrite end_serial_app; reflexivity).
  rewrite E1, E2. apply g_secs.
  - destruct secs; discriminate.
  - apply skel_g_app. split; [exact Hsk|]. exact (conj Hser (conj Hna (conj Httl (conj HD (conj (Forall_nil _) Logic.I))))).
  - rewrite m_secs_app, Hap. cbn [m_secs c c_old c_dels c_new c_adds m_fold]. rewrite Hd, Hso. reflexivity.
Qed.

Lemma g_inv_step : forall c s x s',
  g_inv c s -> any_rec x -> (c = [] -> exists b, x = soa_rr b /\ ttl_ok (v_ttl b)) ->
  step Mid s (single x) = (s', None) -> g_inv (c ++ [x]) s'.
Proof.
  intros c s x s' Hinv Hx Hfirst Hs. destruct Hinv as [|secs tz Hne Hsk Hap|secs a D tz0 tz Hsk Hser Hna HD Hap Hd].
  - destruct (Hfirst eq_refl) as [b [-> _]]. exact (g_soa_del [] z0 true b s' Logic.I eq_refl Hs).
  - destruct Hx as [[b [-> _]]|Hn].
    + exact (g_soa_del secs tz false b s' Hsk Hap Hs).
    + destruct (other_steps _ _ _ false _ _ Hn Hs) as [tz' [Hadd ->]]. exact (g_secs_add secs tz tz' x Hne Hsk Hap Hn Hadd).
  - destruct Hx as [[b [-> Httl]]|Hn].
    + destruct (soa_adds _ _ _ _ _ Hs) as [tz' [Hso ->]]. exact (g_del_soa secs a D tz0 tz b tz' Hsk Hser Hna HD Hap Hd Httl Hso).
    + destruct (other_steps _ _ _ true _ _ Hn Hs) as [tz' [Hdel ->]]. rewrite <- app_assoc.
      apply (g_del secs a (D ++ [x]) tz0 tz'); try assumption.
      * apply Forall_app. split; [exact HD|constructor; [exact Hn|constructor]].
      * rewrite m_fold_app, Hd. cbn [m_fold]. rewrite Hdel. reflexivity.
Qed.

Lemma g_inv_run : forall c c0 s s1,
  g_inv c0 s -> Forall any_rec c ->
  (c0 = [] -> match c with x :: _ => exists b, x = soa_rr b /\ ttl_ok (v_ttl b) | [] => True end) ->
  loopn s (map single c) = (s1, None) -> g_inv (c0 ++ c) s1.
Proof.
  induction c as [|x c IH]; intros c0 s s1 Hinv Hf Hfirst Hl; cbn [map loopn] in Hl.
  - inversion Hl; subst. rewrite app_nil_r. exact Hinv.
  - inversion Hf as [|? ? Hx Hf']; subst.
    destruct (step Mid s (single x)) as [s' [e|]] eqn:Hs; [discriminate|].
    assert (H1 : g_inv (c0 ++ [x]) s') by (apply (g_inv_step c0 s x s' Hinv Hx Hfirst Hs)).
    replace (c0 ++ x :: c) with ((c0 ++ [x]) ++ c) by (rewrite <- app_assoc; reflexivity).
    apply (IH _ s' s1 H1 Hf'); [|exact Hl].
    intros E. destruct c0; discriminate.
Qed.

(* the completing record: the announced SOA, after complete sections that end at its serial *)
Lemma g_inv_final : forall c s x s2,
  g_inv c s -> any_rec x -> (c = [] -> exists b, x = soa_rr b /\ ttl_ok (v_ttl b)) ->
  step Last s (single x) = (s2, None) -> done s2 = true ->
  exists secs tz b, secs <> [] /\ c = secs_stream secs /\ skel_g ser fin secs /\ m_secs z0 secs = Ok tz /\
    end_serial ser secs = v_serial fin /\ x = soa_rr b /\ v_soa b = v_soa fin /\ m_soa tz b = Ok (pub s2).
Proof.
  intros c s x s2 Hinv Hx Hfirst Hs Hd.
  destruct Hinv as [|secs tz Hne Hsk Hap|secs a D tz0 tz _ _ _ _ _ _].
  - destruct (Hfirst eq_refl) as [b [-> _]]. destruct (soa_ends _ _ _ _ _ Hs Hd) as [E _]. discriminate.
  - destruct Hx as [[b [-> _]]|Hn].
    + destruct (soa_ends _ _ _ _ _ Hs Hd) as (_ & Eb & Es & Hso).
      exists secs, tz, b. repeat split; auto. rewrite Es. unfold v_serial. rewrite Eb. reflexivity.
    + destruct (other_steps _ _ _ false _ _ Hn Hs) as [tz' [_ ->]]. discriminate.
  - destruct Hx as [[b [-> _]]|Hn].
    + destruct (soa_adds _ _ _ _ _ Hs) as [tz' [_ ->]]. discriminate.
    + destruct (other_steps _ _ _ true _ _ Hn Hs) as [tz' [_ ->]]. discriminate.
Qed.
End GENINV.

(* The record loop of a completed incremental transfer, over TCP or UDP: the records c went through, x
   completed it; `extra` was never read. *)
Lemma ixfr_records_inv : forall u z0 ser fin c x extra s1 s2,
  Forall any_rec (c ++ x :: extra) ->
  match c ++ x :: extra with y :: _ => exists b, y = soa_rr b /\ ttl_ok (v_ttl b) | [] => True end ->
  loopn (ist u z0 z0 ser (single (soa_rr fin)) true false) (map single c) = (s1, None) ->
  step Last s1 (single x) = (s2, None) -> done s2 = true ->
  exists secs tz b, secs <> [] /\ c = secs_stream secs /\ skel_g ser fin secs /\ m_secs z0 secs = Ok tz /\
    end_serial ser secs = v_serial fin /\ x = soa_rr b /\ v_soa b = v_soa fin /\ m_soa tz b = Ok (pub s2).
Proof.
  intros u z0 ser fin c x extra s1 s2 Hw Hhead Hn Hst Hd.
  apply Forall_app in Hw. destruct Hw as [Hwc Hwx]. inversion Hwx as [|? ? Hx _]; subst.
  apply (g_inv_final u z0 z0 ser fin c s1 x s2); try assumption.
  - apply (g_inv_run u z0 z0 ser fin c [] _ s1 (g_start _ _ _ _ _) Hwc); [|exact Hn].
    intros _. destruct c; [exact Logic.I|exact Hhead].
  - intros ->. exact Hhead.
Qed.

(* Whenever a proper incremental transfer completes - ANY records, ANY client zone, any division into
   messages - the records read are the announced SOA, difference sequences chained by their serials from the
   client's serial to the announced one, the announced SOA again; every transaction operation succeeded; and
   the zone is the result of exactly these operations. *)
Theorem ixfr_done_is_denotation_any : forall fin z0 ser ws rest z' n,
  ttl_ok (v_ttl fin) -> v_serial fin <> ser -> serial_lt (v_serial fin) ser = false ->
  chunking tIXFR (soa_rr fin :: rest) ws -> Forall any_rec rest ->
  match rest with x :: _ => exists b, x = soa_rr b /\ ttl_ok (v_ttl b) | [] => True end ->
  inbound_xfr z0 tIXFR (Some ser) false ws = (Done z', n) ->
  exists secs z1 b extra,
    rest = secs_stream secs ++ soa_rr b :: extra /\ secs <> [] /\ skel_g ser fin secs /\
    end_serial ser secs = v_serial fin /\ v_soa b = v_soa fin /\ m_secs z0 secs = Ok z1 /\ m_soa z1 b = Ok z'.
Proof.
  intros fin z0 ser ws rest z' n _ Hs Hlt Hch Hwr Hhead H.
  destruct (ixfr_done_inv z0 ser fin Hs Hlt ws rest z' n Hch H) as (c & x & extra & s1 & s2 & -> & Hn & _ & Hst & Hd2 & <-).
  destruct (ixfr_records_inv false z0 ser fin c x extra s1 s2 Hwr Hhead Hn Hst Hd2)
    as (secs & tz & b & N & -> & Hsk & Hap & Hend & -> & Eb & Hpub).
  exists secs, tz, b, extra. auto 10.
Qed.

(* over UDP: the whole answer is one datagram *)
(* the decision at the first record of a transfer that completes: up to date, or a newer serial *)
Lemma ixfr_done_first : forall z0 ser udp w ws fin a z' n,
  header_ok tIXFR w -> w_records w = soa_rr fin :: a ->
  inbound_xfr z0 tIXFR (Some ser) udp (w :: ws) = (Done z', n) ->
  (v_serial fin = ser /\ z' = z0) \/
  (v_serial fin <> ser /\ serial_lt (v_serial fin) ser = false /\ (udp = true -> a <> [])).
Proof.
  intros z0 ser udp w ws fin a z' n Hw Hr H.
  rewrite inbound_ixfr_cons, (first_message_ixfr z0 ser udp w (soa_rr fin) a Hw Hr) in H by (split; reflexivity).
  cbv zeta in H. change (r_data (soa_rr fin) mod two32) with (v_serial fin) in H.
  destruct (v_serial fin =? ser) eqn:Es.
  - left. apply Z.eqb_eq in Es. split; [exact Es|].
    destruct a as [|y a']; [destruct udp; cbn in H; inversion H; reflexivity|].
    exfalso. cbn [map loopT] in H. unfold step at 1 in H. cbn [done set_done ist] in H. destruct a'; cbn in H; discriminate.
  - right. apply Z.eqb_neq in Es. destruct (serial_lt (v_serial fin) ser); [cbn in H; discriminate|].
    split; [exact Es|]. split; [reflexivity|]. intros -> ->. cbn in H. discriminate.
Qed.

(* the driver read backwards, for the one datagram *)
Lemma udp_ixfr_done_inv : forall z0 ser fin w ws rest z' n,
  v_serial fin <> ser -> header_ok tIXFR w -> w_records w = soa_rr fin :: rest ->
  inbound_xfr z0 tIXFR (Some ser) true (w :: ws) = (Done z', n) ->
  exists c x s1 s2, rest = c ++ [x] /\
    loopn (ist true z0 z0 ser (single (soa_rr fin)) true false) (map single c) = (s1, None) /\ done s1 = false /\
    step Last s1 (single x) = (s2, None) /\ done s2 = true /\ pub s2 = z'.
Proof.
  intros z0 ser fin w ws rest z' n Hs Hw Hr H.
  destruct (ixfr_done_first _ _ _ _ _ _ _ _ _ Hw Hr H) as [[E _]|(_ & Hlt & Hne)]; [contradiction|].
  rewrite (ixfr_start z0 ser true w ws fin rest Hw Hr Hs Hlt Hne) in H.
  set (s := ist true z0 z0 ser (single (soa_rr fin)) true false) in *.
  destruct (loop s (map single rest)) as [s' [e|]] eqn:Hl; [cbn in H; discriminate|]. cbn [after] in H.
  destruct (done s') eqn:Hd.
  2:{ (* a datagram that does not complete the transfer is an error *)
      destruct (loop_cases _ _ _ _ _ Hl) as [(_ & _ & Hu & _)|(_ & s1 & r & _ & C)];
        [rewrite Hu in H; cbn in H; discriminate|apply commit_facts in C; destruct C; congruence]. }
  rewrite andb_false_r in H. cbn [cont] in H. rewrite Hd in H. inversion H; subst z' n.
  destruct (loop_done_last rest s s' eq_refl Hl Hd) as (c & x & s1 & -> & Hn & Hd1 & Hst).
  exists c, x, s1, s'. auto 10.
Qed.

Theorem udp_ixfr_done_is_denotation_any : forall fin z0 ser w ws rest z' n,
  v_serial fin <> ser -> header_ok tIXFR w -> w_records w = soa_rr fin :: rest -> Forall any_rec rest ->
  match rest with x :: _ => exists b, x = soa_rr b /\ ttl_ok (v_ttl b) | [] => True end ->
  inbound_xfr z0 tIXFR (Some ser) true (w :: ws) = (Done z', n) ->
  exists secs z1 b,
    rest = secs_stream secs ++ [soa_rr b] /\ secs <> [] /\ skel_g ser fin secs /\
    end_serial ser secs = v_serial fin /\ v_soa b = v_soa fin /\ m_secs z0 secs = Ok z1 /\ m_soa z1 b = Ok z'.
Proof.
  intros fin z0 ser w ws rest z' n Hs Hw Hr Hwr Hhead H.
  destruct (udp_ixfr_done_inv z0 ser fin w ws rest z' n Hs Hw Hr H) as (c & x & s1 & s2 & -> & Hn & _ & Hst & Hd2 & <-).
  destruct (ixfr_records_inv true z0 ser fin c x [] s1 s2 Hwr Hhead Hn Hst Hd2)
    as (secs & tz & b & N & -> & Hsk & Hap & Hend & -> & Eb & Hpub).
  exists secs, tz, b. auto 10.
Qed.

(* and conversely: a stream of this form whose operations all succeed completes with that zone *)
Lemma runs_m_fold : forall (dm : bool) D tz tz', Forall nsoa D -> m_fold (if dm then m_del else m_add) tz D = Ok tz' -> runs_to dm D tz tz'.
Proof.
  intros dm D. induction D as [|r D IH]; intros tz tz' Hf Hm u p cur s0; cbn [map loopn m_fold] in *.
  - inversion Hm; reflexivity.
  - inversion Hf as [|? ? Hr Hf']; subst. rewrite (step_other _ _ _ _ _ _ _ _ Hr).
    destruct ((if dm then m_del else m_add) tz r); [|discriminate|discriminate]. apply IH; assumption.
Qed.

Lemma m_run : forall u p fin secs tz cur e z',
  skel_g cur fin secs -> m_secs tz secs = Ok z' ->
  loopn (ist u p tz cur (single (soa_rr fin)) e false) (map single (secs_stream secs)) =
  (ist u p z' (end_serial cur secs) (single (soa_rr fin)) (match secs with [] => e | _ => false end) false, None).
Proof.
  intros u p fin. induction secs as [|c r IH]; intros tz cur e z' Hsk Hap.
  - cbn in *. inversion Hap; subst. reflexivity.
  - cbn [skel_g] in Hsk. destruct Hsk as (Hser & Hne & Httl & OD & OA & Hrest).
    cbn [m_secs] in Hap.
    destruct (m_fold m_del tz (c_dels c)) as [z1| |] eqn:Hd; try discriminate.
    destruct (m_soa z1 (c_new c)) as [z2| |] eqn:Hso; try discriminate.
    destruct (m_fold m_add z2 (c_adds c)) as [z3| |] eqn:Ha; try discriminate.
    cbn [secs_stream end_serial]. rewrite <- Hser, seqs_app, map_app, loopn_app.
    rewrite (section_exec u p tz fin _ _ e _ _ z1 z2 z3 Hne (runs_m_fold true _ _ _ OD Hd) Hso (runs_m_fold false _ _ _ OA Ha)).
    rewrite (IH z3 (v_serial (c_new c)) false z' Hrest Hap). destruct r; reflexivity.
Qed.

(* The converse of ixfr_done_is_denotation_any: the closing record need only carry the announced SOA's rdata
   (its TTL is the one the zone gets). *)
Theorem ixfr_sections_applied_closing : forall fin b secs z0 z1 z' ser ws,
  secs <> [] -> skel_g ser fin secs -> end_serial ser secs = v_serial fin -> v_soa b = v_soa fin ->
  v_serial fin <> ser -> serial_lt (v_serial fin) ser = false ->
  m_secs z0 secs = Ok z1 -> m_soa z1 b = Ok z' ->
  chunking tIXFR (soa_rr fin :: secs_stream secs ++ [soa_rr b]) ws ->
  exists n, inbound_xfr z0 tIXFR (Some ser) false ws = (Done z', n).
Proof.
  intros fin b secs z0 z1 z' ser ws Hne Hsk Hend Eb Hs Hlt Hap Hso Hch.
  pose proof (m_run false z0 fin secs z0 ser true z1 Hsk Hap) as Hl.
  assert (Es : end_serial ser secs = v_serial b) by (rewrite Hend; unfold v_serial; rewrite Eb; reflexivity).
  rewrite Es in Hl.
  refine (ixfr_done z0 ser fin Hs Hlt ws _ _ _ (mkSt z' None tIXFR true (v_serial b) false (Some (single (soa_rr fin))) true false true false)
            Hch Hl _ eq_refl).
  destruct secs; [congruence|]. rewrite (step_final false z0 z1 fin b Eb). unfold m_soa in Hso. rewrite Hso. reflexivity.
Qed.

Theorem ixfr_sections_applied_any : forall fin secs z0 z1 z' ser ws,
  secs <> [] -> skel_g ser fin secs -> end_serial ser secs = v_serial fin ->
  v_serial fin <> ser -> serial_lt (v_serial fin) ser = false ->
  m_secs z0 secs = Ok z1 -> m_soa z1 fin = Ok z' ->
  chunking tIXFR (soa_rr fin :: secs_stream secs ++ [soa_rr fin]) ws ->
  exists n, inbound_xfr z0 tIXFR (Some ser) false ws = (Done z', n).
Proof.
  intros fin secs z0 z1 z' ser ws Hne Hsk Hend Hs Hlt Hap Hso Hch.
  exact (ixfr_sections_applied_closing fin fin secs z0 z1 z' ser ws Hne Hsk Hend eq_refl Hs Hlt Hap Hso Hch).
Qed.

(* the dichotomy for arbitrary records and client zones *)
Theorem ixfr_outcome_dichotomy_any : forall fin z0 ser ws rest,
  ttl_ok (v_ttl fin) -> v_serial fin <> ser -> serial_lt (v_serial fin) ser = false ->
  chunking tIXFR (soa_rr fin :: rest) ws -> Forall any_rec rest ->
  match rest with x :: _ => exists b, x = soa_rr b /\ ttl_ok (v_ttl b) | [] => True end ->
  (exists e n, inbound_xfr z0 tIXFR (Some ser) false ws = (Error e z0, n)) \/
  (exists secs z1 b extra z' n,
     inbound_xfr z0 tIXFR (Some ser) false ws = (Done z', n) /\
     rest = secs_stream secs ++ soa_rr b :: extra /\ secs <> [] /\ skel_g ser fin secs /\
     end_serial ser secs = v_serial fin /\ v_soa b = v_soa fin /\ m_secs z0 secs = Ok z1 /\ m_soa z1 b = Ok z').
Proof.
  intros fin z0 ser ws rest Httl Hs Hlt Hch Hwr Hhead.
  destruct (done_or_untouched z0 tIXFR (Some ser) false ws) as [He|(z' & n & E)]; [left; exact He|right].
  destruct (ixfr_done_is_denotation_any fin z0 ser ws rest z' n Httl Hs Hlt Hch Hwr Hhead E)
    as (secs & z1 & b & extra & H1 & H2 & H3 & H4 & H5 & H6 & H7).
  exists secs, z1, b, extra, z', n. auto 10.
Qed.
