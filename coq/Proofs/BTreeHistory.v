(* C19 - whole histories: the world of trees and cursors driven by BTreeM.step is, step by
   step and for every operation sequence, observationally equal to a reference world made of
   sorted association lists and cursor anchors; all trees stay well-formed. *)
From DV Require Import Base.Prelude Proofs.ListFacts Model.BTreeM Proofs.BTreeBase Proofs.BTreeWf Proofs.BTreeInsert
  Proofs.BTreeLookup Proofs.BTreeDelete Proofs.BTreeCursor Proofs.BTreeTop.

Inductive vop :=
| VNew (t : nat) (io : bool) | VNewSet (t : nat) (io : bool)
| VIns (ti : nat) (k v : Z) (io : bool)
| VDel (ti : nat) (k : Z) | VDelX (ti : nat) (k v : Z)
| VGet (ti : nat) (k : Z) | VLen (ti : nat) | VItems (ti : nat) | VIter (ti : nat)
| VFreeze (ti : nat) | VClone (ti : nat) (io : bool) | VCopy (ti : nat)
| VCur (ti : nat)
| VSeek (ci : nat) (k : Z) (before : bool) | VFirst (ci : nat) | VLast (ci : nat)
| VNext (ci : nat) | VPrev (ci : nat)
| VDSet (ti : nat) (k v : Z) | VDGet (ti : nat) (k : Z) | VDDel (ti : nat) (k : Z)
| VSAdd (ti : nat) (k : Z) | VSDisc (ti : nat) (k : Z) | VSIn (ti : nat) (k : Z)
| VItOpen (ti : nat) (kind : Z) | VItNext (ci : nat) (mode : Z)
| VMin (ti : nat) | VMax (ti : nat)
| VPop (ti : nat) (k : Z) | VPopItem (ti : nat) | VClear (ti : nat)
| VSetDefault (ti : nat) (k v : Z) | VUpdate (ti : nat) (k v : Z)
| VSRemove (ti : nat) (k : Z) | VSPop (ti : nat) | VSClear (ti : nat)
| VDrop (ti : nat).

Definition bz (b : bool) : obs := I (if b then 1 else 0).
Definition nz (n : nat) : obs := I (Z.of_nat n).

(* the history syntax shared with the harness *)
Definition enc (x : vop) : obs :=
  match x with
  | VNew t io => L [I 1; nz t; bz io]
  | VNewSet t io => L [I 26; nz t; bz io]
  | VIns ti k v io => L [I 2; nz ti; I k; I v; bz io]
  | VDel ti k => L [I 3; nz ti; I k]
  | VDelX ti k v => L [I 4; nz ti; I k; I v]
  | VGet ti k => L [I 5; nz ti; I k]
  | VLen ti => L [I 6; nz ti]
  | VItems ti => L [I 7; nz ti]
  | VFreeze ti => L [I 8; nz ti]
  | VClone ti io => L [I 9; nz ti; bz io]
  | VCur ti => L [I 10; nz ti]
  | VSeek ci k before => L [I 11; nz ci; I k; bz before]
  | VFirst ci => L [I 12; nz ci]
  | VLast ci => L [I 13; nz ci]
  | VNext ci => L [I 14; nz ci]
  | VPrev ci => L [I 15; nz ci]
  | VIter ti => L [I 17; nz ti]
  | VDSet ti k v => L [I 20; nz ti; I k; I v]
  | VDGet ti k => L [I 21; nz ti; I k]
  | VDDel ti k => L [I 22; nz ti; I k]
  | VSAdd ti k => L [I 23; nz ti; I k]
  | VSDisc ti k => L [I 24; nz ti; I k]
  | VSIn ti k => L [I 25; nz ti; I k]
  | VCopy ti => L [I 27; nz ti]
  | VItOpen ti kind => L [I 18; nz ti; I kind]
  | VItNext ci mode => L [I 19; nz ci; I mode]
  | VMin ti => L [I 28; nz ti]
  | VMax ti => L [I 29; nz ti]
  | VPop ti k => L [I 40; nz ti; I k]
  | VPopItem ti => L [I 41; nz ti]
  | VClear ti => L [I 42; nz ti]
  | VSetDefault ti k v => L [I 43; nz ti; I k; I v]
  | VUpdate ti k v => L [I 44; nz ti; I k; I v]
  | VSRemove ti k => L [I 45; nz ti; I k]
  | VSPop ti => L [I 46; nz ti]
  | VSClear ti => L [I 47; nz ti]
  | VDrop ti => L [I 48; nz ti]
  end.

Record rtree := mkR { r_t : nat; r_items : list elt; r_immut : bool; r_inorder : bool }.
Record rworld := mkRW { rw_trees : list rtree; rw_cursors : list (nat * anchor) }.

Fixpoint span_lt (k : Z) (l : list elt) : list elt * list elt :=
  match l with
  | [] => ([], [])
  | e :: r => if fst e <? k then let '(a, b) := span_lt k r in (e :: a, b) else ([], l)
  end.
Fixpoint span_le (k : Z) (l : list elt) : list elt * list elt :=
  match l with
  | [] => ([], [])
  | e :: r => if fst e <=? k then let '(a, b) := span_le k r in (e :: a, b) else ([], l)
  end.

Definition split_anchor (a : anchor) (l : list elt) : list elt * list elt :=
  match a with
  | AL => ([], l)
  | AR => (l, [])
  | AB k => span_lt k l
  | AA k => span_le k l
  end.

Definition r_set (r : rtree) (items : list elt) : rtree := mkR (r_t r) items (r_immut r) (r_inorder r).

Definition r_with_tree (rw : rworld) (ti : nat) (f : rtree -> rworld * obs) : rworld * obs :=
  match nth_error (rw_trees rw) ti with Some r => f r | None => (rw, Prelude.E eBadCase) end.

Definition r_mutate (rw : rworld) (ti : nat) (r : rtree) (items : list elt) (o : obs) : rworld * obs :=
  if r_immut r then (rw, Prelude.E eImmutable)
  else (mkRW (set_nth ti (r_set r items) (rw_trees rw)) (rw_cursors rw), o).

Definition r_with_cursor (rw : rworld) (ci : nat) (f : nat -> anchor -> list elt -> rworld * obs) : rworld * obs :=
  match nth_error (rw_cursors rw) ci with
  | Some (ti, a) =>
      match nth_error (rw_trees rw) ti with
      | Some r => f ti a (r_items r)
      | None => (rw, Prelude.E eBadCase)
      end
  | None => (rw, Prelude.E eBadCase)
  end.

Definition rstep (rw : rworld) (x : vop) : rworld * obs :=
  match x with
  | VNew t io | VNewSet t io =>
      if (t <? 3)%nat then (rw, Prelude.E eBadT)
      else (mkRW (rw_trees rw ++ [mkR t [] false io]) (rw_cursors rw), N)
  | VIns ti k v _ =>
      r_with_tree rw ti (fun r =>
        r_mutate rw ti r (ins_sorted (k, v) (r_items r)) (obs_of_oelt (find_sorted k (r_items r))))
  | VDel ti k =>
      r_with_tree rw ti (fun r =>
        let o := dspec None (find_sorted k (r_items r)) in
        r_mutate rw ti r (after_del k o (r_items r)) (obs_of_dout o))
  | VDelX ti k v =>
      r_with_tree rw ti (fun r =>
        let o := dspec (Some v) (find_sorted k (r_items r)) in
        r_mutate rw ti r (after_del k o (r_items r)) (obs_of_dout o))
  | VGet ti k => r_with_tree rw ti (fun r => (rw, obs_of_oelt (find_sorted k (r_items r))))
  | VLen ti => r_with_tree rw ti (fun r => (rw, I (zlen (r_items r))))
  | VItems ti => r_with_tree rw ti (fun r => (rw, L (map (fun e => L [I (fst e); I (snd e)]) (r_items r))))
  | VIter ti => r_with_tree rw ti (fun r => (rw, L (map (fun e => I (fst e)) (r_items r))))
  | VFreeze ti =>
      r_with_tree rw ti (fun r =>
        (mkRW (set_nth ti (mkR (r_t r) (r_items r) true (r_inorder r)) (rw_trees rw)) (rw_cursors rw), N))
  | VClone ti io =>
      r_with_tree rw ti (fun r =>
        if r_immut r then (mkRW (rw_trees rw ++ [mkR (r_t r) (r_items r) false io]) (rw_cursors rw), N)
        else (rw, Prelude.E eNotImmutable))
  | VCopy ti =>
      r_with_tree rw ti (fun r =>
        if r_immut r then (mkRW (rw_trees rw ++ [mkR (r_t r) (r_items r) false false]) (rw_cursors rw), N)
        else (rw, Prelude.E eNotImmutable))
  | VCur ti => r_with_tree rw ti (fun r => (mkRW (rw_trees rw) (rw_cursors rw ++ [(ti, AL)]), N))
  | VSeek ci k before =>
      r_with_cursor rw ci (fun ti a l =>
        (mkRW (rw_trees rw) (set_nth ci (ti, if before then AB k else AA k) (rw_cursors rw)), N))
  | VFirst ci => r_with_cursor rw ci (fun ti a l => (mkRW (rw_trees rw) (set_nth ci (ti, AL) (rw_cursors rw)), N))
  | VLast ci => r_with_cursor rw ci (fun ti a l => (mkRW (rw_trees rw) (set_nth ci (ti, AR) (rw_cursors rw)), N))
  | VNext ci =>
      r_with_cursor rw ci (fun ti a l =>
        match snd (split_anchor a l) with
        | x :: _ => (mkRW (rw_trees rw) (set_nth ci (ti, AA (fst x)) (rw_cursors rw)), L [I (fst x); I (snd x)])
        | [] => (mkRW (rw_trees rw) (set_nth ci (ti, AR) (rw_cursors rw)), N)
        end)
  | VPrev ci =>
      r_with_cursor rw ci (fun ti a l =>
        match rev (fst (split_anchor a l)) with
        | x :: _ => (mkRW (rw_trees rw) (set_nth ci (ti, AB (fst x)) (rw_cursors rw)), L [I (fst x); I (snd x)])
        | [] => (mkRW (rw_trees rw) (set_nth ci (ti, AL) (rw_cursors rw)), N)
        end)
  | VDSet ti k v =>
      r_with_tree rw ti (fun r => r_mutate rw ti r (ins_sorted (k, v) (r_items r)) N)
  | VDGet ti k =>
      r_with_tree rw ti (fun r =>
        (rw, match find_sorted k (r_items r) with Some e => I (snd e) | None => Prelude.E eKey end))
  | VDDel ti k =>
      r_with_tree rw ti (fun r =>
        r_mutate rw ti r (del_sorted k (r_items r))
          (match find_sorted k (r_items r) with Some _ => N | None => Prelude.E eKey end))
  | VSAdd ti k => r_with_tree rw ti (fun r => r_mutate rw ti r (ins_sorted (k, 0) (r_items r)) N)
  | VSDisc ti k => r_with_tree rw ti (fun r => r_mutate rw ti r (del_sorted k (r_items r)) N)
  | VSIn ti k =>
      r_with_tree rw ti (fun r => (rw, match find_sorted k (r_items r) with Some _ => I 1 | None => I 0 end))
  (* iterators: an anchor like any cursor; a step yields the first element behind it *)
  | VItOpen ti kind => r_with_tree rw ti (fun r => (mkRW (rw_trees rw) (rw_cursors rw ++ [(ti, AL)]), N))
  | VItNext ci mode =>
      r_with_cursor rw ci (fun ti a l =>
        match snd (split_anchor a l) with
        | x :: _ => (mkRW (rw_trees rw) (set_nth ci (ti, AA (fst x)) (rw_cursors rw)), obs_of_iter mode (Some x))
        | [] => (mkRW (rw_trees rw) (set_nth ci (ti, AR) (rw_cursors rw)), N)
        end)
  (* least / greatest element *)
  | VMin ti =>
      r_with_tree rw ti (fun r => (rw, match r_items r with x :: _ => L [I (fst x); I (snd x)] | [] => Prelude.E eIndex end))
  | VMax ti =>
      r_with_tree rw ti (fun r => (rw, match rev (r_items r) with x :: _ => L [I (fst x); I (snd x)] | [] => Prelude.E eIndex end))
  (* the collections.abc mixins: the lookup comes first, so an absent key / an empty container is
     answered with KeyError (None for clear) even by a frozen tree *)
  | VPop ti k =>
      r_with_tree rw ti (fun r =>
        match find_sorted k (r_items r) with
        | None => (rw, Prelude.E eKey)
        | Some e => r_mutate rw ti r (del_sorted k (r_items r)) (I (snd e))
        end)
  | VPopItem ti =>
      r_with_tree rw ti (fun r =>
        match r_items r with
        | [] => (rw, Prelude.E eKey)
        | x :: _ => r_mutate rw ti r (del_sorted (fst x) (r_items r)) (L [I (fst x); I (snd x)])
        end)
  | VClear ti | VSClear ti =>
      r_with_tree rw ti (fun r =>
        match r_items r with
        | [] => (rw, N)
        | _ :: _ => r_mutate rw ti r [] N
        end)
  | VSetDefault ti k v =>
      r_with_tree rw ti (fun r =>
        match find_sorted k (r_items r) with
        | Some e => (rw, I (snd e))
        | None => r_mutate rw ti r (ins_sorted (k, v) (r_items r)) (I v)
        end)
  | VUpdate ti k v => r_with_tree rw ti (fun r => r_mutate rw ti r (ins_sorted (k, v) (r_items r)) N)
  | VSRemove ti k =>
      r_with_tree rw ti (fun r =>
        match find_sorted k (r_items r) with
        | None => (rw, Prelude.E eKey)
        | Some _ => r_mutate rw ti r (del_sorted k (r_items r)) N
        end)
  | VSPop ti =>
      r_with_tree rw ti (fun r =>
        match r_items r with
        | [] => (rw, Prelude.E eKey)
        | x :: _ => r_mutate rw ti r (del_sorted (fst x) (r_items r)) (I (fst x))
        end)
  | VDrop ti => r_with_tree rw ti (fun r => (rw, N))
  end.

Fixpoint rsteps (rw : rworld) (xs : list vop) : list obs :=
  match xs with
  | [] => []
  | x :: r => let '(rw', o) := rstep rw x in o :: rsteps rw' r
  end.

Definition tree_rel (b : btree) (r : rtree) : Prop :=
  bwf b /\ elements (b_root b) = r_items r /\ b_t b = r_t r /\ b_immut b = r_immut r /\ b_inorder b = r_inorder r.

Definition cur_rel (w : world) (tc : nat * cursor) (ta : nat * anchor) : Prop :=
  fst tc = fst ta /\ anchor_of (snd tc) = snd ta /\
  exists b, nth_error (w_trees w) (fst tc) = Some b /\ cinv (b_t b) (b_root b) (snd tc).

Definition R (w : world) (rw : rworld) : Prop :=
  Forall2 tree_rel (w_trees w) (rw_trees rw) /\ Forall2 (cur_rel w) (w_cursors w) (rw_cursors rw).

(* one step of the two worlds: same observation, related successors *)
Definition sim (p : world * obs) (q : rworld * obs) : Prop := snd p = snd q /\ R (fst p) (fst q).

Lemma Forall2_nth {A B} (P : A -> B -> Prop) la lb i :
  Forall2 P la lb ->
  match nth_error la i, nth_error lb i with
  | Some a, Some b => P a b
  | None, None => True
  | _, _ => False
  end.
Proof.
  intros H. revert i. induction H; intros [|i]; cbn; auto. apply IHForall2.
Qed.

Lemma Forall2_set_nth {A B} (P : A -> B -> Prop) la lb i a b :
  Forall2 P la lb -> P a b -> Forall2 P (set_nth i a la) (set_nth i b lb).
Proof.
  intros H Hab. revert i. induction H; intros [|i]; cbn; constructor; auto.
Qed.

Lemma bool_of_bz (b : bool) : bool_of (if b then 1 else 0) = b.
Proof. destruct b; reflexivity. Qed.

Lemma span_lt_ok k l : ksorted l -> pos_ok (AB k) l (fst (span_lt k l)) (snd (span_lt k l)).
Proof.
  induction l as [|e r IH]; cbn [span_lt]; intros Hs.
  - split; [reflexivity|]. split; constructor.
  - destruct Hs as (Hg & Hs). destruct (Z.ltb_spec (fst e) k).
    + destruct (span_lt k r) as [a b] eqn:E. cbn [fst snd] in *. destruct (IH Hs) as (He & Ha & Hb).
      split; [cbn; now rewrite He|]. split; [constructor; assumption|assumption].
    + cbn [fst snd]. split; [reflexivity|]. split; [constructor|].
      constructor; [lia|]. eapply Forall_impl; [|exact Hg]. cbn. intros; lia.
Qed.

Lemma span_le_ok k l : ksorted l -> pos_ok (AA k) l (fst (span_le k l)) (snd (span_le k l)).
Proof.
  induction l as [|e r IH]; cbn [span_le]; intros Hs.
  - split; [reflexivity|]. split; constructor.
  - destruct Hs as (Hg & Hs). destruct (Z.leb_spec (fst e) k).
    + destruct (span_le k r) as [a b] eqn:E. cbn [fst snd] in *. destruct (IH Hs) as (He & Ha & Hb).
      split; [cbn; now rewrite He|]. split; [constructor; assumption|assumption].
    + cbn [fst snd]. split; [reflexivity|]. split; [constructor|].
      constructor; [lia|]. eapply Forall_impl; [|exact Hg]. cbn. intros; lia.
Qed.

Lemma split_anchor_ok a l : ksorted l -> pos_ok a l (fst (split_anchor a l)) (snd (split_anchor a l)).
Proof.
  intros Hs. destruct a; cbn [split_anchor fst snd].
  - split; reflexivity.
  - split; [apply app_nil_r|reflexivity].
  - now apply span_lt_ok.
  - now apply span_le_ok.
Qed.

(* next() / prev() from any split that pos_ok accepts, in particular the executable one *)
Lemma cursor_next_at t root c bef aft : wf t root -> cinv t root c -> pos_ok (anchor_of c) (elements root) bef aft ->
  exists c', cursor_next root c = Ok (c', hd_error aft) /\ cinv t root c' /\
             anchor_of c' = match aft with x :: _ => AA (fst x) | [] => AR end.
Proof.
  intros Hwf Hinv Hpos. destruct (cursor_next_proof t root c Hwf Hinv) as (bef0 & aft0 & c' & Hp & Hn & Hinv' & _ & Han).
  destruct (pos_unique _ _ _ _ _ _ Hp Hpos) as (_ & <-). eauto.
Qed.

Lemma cursor_prev_at t root c bef aft : wf t root -> cinv t root c -> pos_ok (anchor_of c) (elements root) bef aft ->
  exists c', cursor_prev root c = Ok (c', hd_error (rev bef)) /\ cinv t root c' /\
             anchor_of c' = match rev bef with x :: _ => AB (fst x) | [] => AL end.
Proof.
  intros Hwf Hinv Hpos. destruct (cursor_prev_proof t root c Hwf Hinv) as (bef0 & aft0 & c' & Hp & Hn & Hinv' & _ & Han).
  destruct (pos_unique _ _ _ _ _ _ Hp Hpos) as (<- & _). eauto.
Qed.

Lemma cursor_next_split t root c : wf t root -> cinv t root c ->
  let aft := snd (split_anchor (anchor_of c) (elements root)) in
  exists c', cursor_next root c = Ok (c', hd_error aft) /\ cinv t root c' /\
             anchor_of c' = match aft with x :: _ => AA (fst x) | [] => AR end.
Proof. intros Hwf Hinv. exact (cursor_next_at _ _ _ _ _ Hwf Hinv (split_anchor_ok _ _ (proj2 (proj2 Hwf)))). Qed.

Lemma cursor_prev_split t root c : wf t root -> cinv t root c ->
  let bef := rev (fst (split_anchor (anchor_of c) (elements root))) in
  exists c', cursor_prev root c = Ok (c', hd_error bef) /\ cinv t root c' /\
             anchor_of c' = match bef with x :: _ => AB (fst x) | [] => AL end.
Proof. intros Hwf Hinv. exact (cursor_prev_at _ _ _ _ _ Hwf Hinv (split_anchor_ok _ _ (proj2 (proj2 Hwf)))). Qed.

(* b' is the handle b with its contents replaced by items *)
Definition becomes (b : btree) (items : list elt) (b' : btree) : Prop :=
  bwf b' /\ elements (b_root b') = items /\ b_immut b' = b_immut b /\ b_t b' = b_t b /\ b_inorder b' = b_inorder b.

Lemma tree_rel_becomes b r items b' : tree_rel b r -> becomes b items b' -> tree_rel b' (r_set r items).
Proof.
  intros (_ & _ & Ht & Him & Hio) (Hb' & He' & Him' & Ht' & Hio'). unfold tree_rel, r_set.
  cbn [r_items r_t r_immut r_inorder]. repeat split; try apply Hb'; congruence.
Qed.

Lemma insert_becomes b e io : bwf b -> b_immut b = false ->
  exists b', insert_element b e io = Ok (b', find_sorted (fst e) (elements (b_root b))) /\
             becomes b (ins_sorted e (elements (b_root b))) b'.
Proof.
  intros Hb Him. destruct (insert_element_spec_proof b e io Hb Him) as (b' & Hi & Hb' & He' & Him' & Ht').
  exists b'. split; [assumption|]. repeat split; try apply Hb'; try congruence.
  revert Hi. unfold insert_element. rewrite Him. destruct (insert_tree _ _ _ _) as [(r & o')| |]; cbn [bind]; [|discriminate..].
  now intros [= <- _].
Qed.

Lemma delete_becomes b k ex : bwf b -> b_immut b = false ->
  let d := dspec ex (find_sorted k (elements (b_root b))) in
  exists b', delete_btree b k ex = Ok (b', d) /\ becomes b (after_del k d (elements (b_root b))) b'.
Proof.
  intros Hb Him d. destruct (delete_btree_spec_proof b k ex Hb Him) as (b' & Hi & Hb' & He' & Him' & Ht').
  exists b'. split; [assumption|]. repeat split; try apply Hb'; try assumption; try congruence.
  revert Hi. unfold delete_btree. rewrite Him. destruct (delete_tree _ _ _ _) as [(r & o')| |]; cbn [bind]; [|discriminate..].
  now intros [= <- _].
Qed.

Lemma wf_empty t : (3 <= t)%nat -> wf t (Node true [] []).
Proof.
  intros Ht. split; [assumption|]. split; [|exact Logic.I]. exists 1%nat. unfold wfr, root_lo. cbn.
  constructor. cbn. lia.
Qed.

(* the fuel the model gives to a walk over all elements suffices *)
Lemma size_fuel b : bwf b -> (length (elements (b_root b)) < S (Z.to_nat (b_size b)))%nat.
Proof. intros (_ & ->). unfold zlen. rewrite Nat2Z.id. lia. Qed.

Lemma iter_loop_spec t root : wf t root -> forall aft fuel c bef acc,
  cinv t root c -> pos_ok (anchor_of c) (elements root) bef aft -> (length aft < fuel)%nat ->
  iter_loop fuel root c acc = Ok (rev acc ++ map fst aft).
Proof.
  intros Hwf. pose proof Hwf as (Ht & _ & Hs).
  induction aft as [|x aft IH]; intros fuel c bef acc Hinv Hpos Hf; (destruct fuel as [|f]; [cbn in Hf; lia|]);
    cbn [iter_loop]; destruct (cursor_next_at t root c _ _ Hwf Hinv Hpos) as (c' & -> & Hinv' & Han); cbn [bind hd_error map].
  - now rewrite app_nil_r.
  - rewrite (IH f c' (bef ++ [x]) (fst x :: acc) Hinv').
    + cbn [rev]. now rewrite <- app_assoc.
    + rewrite Han. apply pos_after; [exact Hs|]. symmetry. apply Hpos.
    + cbn in Hf. lia.
Qed.

(* iter(tree) yields every key *)
Lemma iter_all_spec b : bwf b ->
  iter_loop (S (Z.to_nat (b_size b))) (b_root b) new_cursor [] = Ok (map fst (elements (b_root b))).
Proof.
  intros Hb. pose proof Hb as (Hwf & _).
  apply (iter_loop_spec (b_t b) (b_root b) Hwf (elements (b_root b)) _ new_cursor [] []).
  - apply (cursor_boundary_proof (b_t b) (b_root b) new_cursor).
  - split; reflexivity.
  - now apply size_fuel.
Qed.

Lemma first_element_spec b : bwf b -> first_element b = Ok (hd_error (elements (b_root b))).
Proof.
  intros (Hwf & _). unfold first_element.
  destruct (cursor_next_split (b_t b) (b_root b) new_cursor Hwf) as (c' & -> & _); [|reflexivity].
  apply (cursor_boundary_proof (b_t b) (b_root b) new_cursor).
Qed.

Lemma find_sorted_hd x l : find_sorted (fst x) (x :: l) = Some x.
Proof. destruct x as [k v]. cbn. now rewrite Z.eqb_refl. Qed.

Lemma del_sorted_hd x l : del_sorted (fst x) (x :: l) = l.
Proof. destruct x as [k v]. cbn. now rewrite Z.eqb_refl. Qed.

Lemma del_sorted_absent k l : find_sorted k l = None -> del_sorted k l = l.
Proof.
  induction l as [|[k' v] r IH]; cbn; [reflexivity|]. destruct (k =? k'); [discriminate|]. intros H. now rewrite IH.
Qed.

Lemma after_del_none k l : after_del k (dspec None (find_sorted k l)) l = del_sorted k l.
Proof. destruct (find_sorted k l) eqn:E; [reflexivity|]. symmetry. now apply del_sorted_absent. Qed.

Lemma get_element_spec b k : bwf b -> get_element b k = Ok (find_sorted k (elements (b_root b))).
Proof. intros (Hwf & _). apply (lookup_spec_proof (b_t b)). exact Hwf. Qed.

(* what the model reads from a handle, in terms of the related reference tree *)
Lemma rel_get b r k : tree_rel b r -> get_element b k = Ok (find_sorted k (r_items r)).
Proof. intros (Hb & <- & _). now apply get_element_spec. Qed.

Lemma rel_first b r : tree_rel b r -> first_element b = Ok (hd_error (r_items r)).
Proof. intros (Hb & <- & _). now apply first_element_spec. Qed.

Lemma becomes_trans b l b1 l' b2 : becomes b l b1 -> becomes b1 l' b2 -> becomes b l' b2.
Proof. unfold becomes. intuition congruence. Qed.

(* clear(): both loops pop every element *)
Lemma clear_loops_spec : forall l fuel b,
  bwf b -> b_immut b = false -> elements (b_root b) = l -> (length l < fuel)%nat ->
  exists b', clear_loop fuel b = Ok b' /\ sclear_loop fuel b = Ok b' /\ becomes b [] b'.
Proof.
  induction l as [|x l IH]; intros fuel b Hb Him He Hf; (destruct fuel as [|f]; [cbn in Hf; lia|]);
    cbn [clear_loop sclear_loop]; rewrite (first_element_spec b Hb), He; cbn [bind hd_error].
  - exists b. unfold becomes. auto 10.
  - rewrite (get_element_spec b _ Hb), He, find_sorted_hd. cbn [bind].
    destruct (delete_becomes b (fst x) None Hb Him) as (b1 & -> & Hb1). rewrite He, find_sorted_hd in *.
    cbn [dspec after_del bind] in *. rewrite del_sorted_hd in Hb1. pose proof Hb1 as (Hw1 & He1 & Him1 & _).
    destruct (IH f b1 Hw1 ltac:(congruence) He1 ltac:(cbn in Hf; lia)) as (b2 & -> & -> & Hb2).
    exists b2. eauto using becomes_trans.
Qed.

Lemma clear_frozen b x l fuel :
  bwf b -> b_immut b = true -> elements (b_root b) = x :: l ->
  clear_loop (S fuel) b = Lib eImmutable /\ sclear_loop (S fuel) b = Lib eImmutable.
Proof.
  intros Hb Him He. cbn [clear_loop sclear_loop]. rewrite (first_element_spec b Hb), He. cbn [bind hd_error].
  rewrite (get_element_spec b _ Hb), He, find_sorted_hd. cbn [bind]. unfold delete_btree. rewrite Him. auto.
Qed.

Lemma minimum_root t root : wf t root ->
  minimum root = match elements root with e :: _ => Ok e | [] => Internal eIndex end.
Proof.
  intros (Ht & (h & Hw) & _). unfold wfr, root_lo in Hw. destruct root as [lf es ks]. destruct lf.
  - cbn. destruct es; reflexivity.
  - cbn [n_leaf] in Hw. destruct (minimum_spec t Ht h 1 _ Hw (le_n _)) as (e & rest & -> & ->). reflexivity.
Qed.

Lemma last_max_snoc : forall ks' k,
  (fix last_max (l : list tree) : res elt :=
     match l with [] => Internal eIndex | [k] => maximum k | _ :: r => last_max r end) (ks' ++ [k]) = maximum k.
Proof. induction ks' as [|a ks' IH]; intros k; [reflexivity|]. cbn [app]. destruct (ks' ++ [k]) eqn:E; [destruct ks'; discriminate|]. rewrite <- (IH k). rewrite E. reflexivity. Qed.

Lemma maximum_spec t : (3 <= t)%nat -> forall h lo n, wfn t lo h n -> (1 <= lo)%nat ->
  exists e front, maximum n = Ok e /\ elements n = front ++ [e].
Proof.
  intros Ht. induction h as [|h IH]; intros lo [lf es ks] Hw Hlo.
  { pose proof (wfn_pos t Ht _ _ _ Hw). lia. }
  apply wfn_inv in Hw as (Hb & [(-> & Hh & ->)|(-> & h' & Hh & Hk & Hall)]).
  - destruct (exists_last (l := es)) as (front & e & ->); [destruct es; [cbn in Hb; lia|discriminate]|].
    exists e, front. cbn [maximum elements]. rewrite rev_app_distr. split; reflexivity.
  - inversion Hh; subst h'.
    destruct (exists_last (l := ks)) as (ks' & k & ->); [destruct ks; [discriminate|discriminate]|].
    apply Forall_app in Hall as (_ & Hk1). inversion Hk1; subst.
    assert (Hm : (1 <= t_min t)%nat) by (unfold t_min; lia).
    destruct (IH _ k H1 Hm) as (e & front & Hmax & He).
    exists e, (zipl ks' es ++ front). cbn [maximum]. rewrite last_max_snoc. split; [exact Hmax|].
    assert (Hl : length ks' = length es) by (rewrite app_length in Hk; cbn in Hk; lia).
    pose proof (elements_split es [] ks' k [] Hl eq_refl) as Hsp. rewrite app_nil_r in Hsp.
    rewrite Hsp. cbn [zipr]. rewrite He, app_nil_r, app_assoc. reflexivity.
Qed.

Lemma maximum_root t root : wf t root ->
  maximum root = match rev (elements root) with e :: _ => Ok e | [] => Internal eIndex end.
Proof.
  intros (Ht & (h & Hw) & _). unfold wfr, root_lo in Hw. destruct root as [lf es ks]. destruct lf.
  - cbn. destruct (rev es); reflexivity.
  - cbn [n_leaf] in Hw. destruct (maximum_spec t Ht h 1 _ Hw (le_n _)) as (e & front & -> & ->).
    rewrite rev_app_distr. reflexivity.
Qed.

(* a cursor looks at its tree only, and there at t and the root *)
Lemma cur_rel_frame w w' tc ta :
  (forall b, nth_error (w_trees w) (fst tc) = Some b ->
     exists b', nth_error (w_trees w') (fst tc) = Some b' /\ b_t b' = b_t b /\ b_root b' = b_root b) ->
  cur_rel w tc ta -> cur_rel w' tc ta.
Proof.
  intros Hfr (H1 & H2 & b & Hb & Hc). destruct (Hfr b Hb) as (b' & Hb' & Ht & Hr).
  split; [assumption|]. split; [assumption|]. exists b'. now rewrite Ht, Hr.
Qed.

Section STEP.
Variables (w : world) (rw : rworld).
Hypothesis HR : R w rw.

Lemma R_tree ti :
  match nth_error (w_trees w) ti, nth_error (rw_trees rw) ti with
  | Some b, Some r => tree_rel b r
  | None, None => True
  | _, _ => False
  end.
Proof. apply Forall2_nth, HR. Qed.

Lemma sim_ro o : sim (w, o) (rw, o).
Proof. now split. Qed.

Lemma sim_cursors cs rcs o :
  Forall2 (cur_rel w) cs rcs -> sim (mkW (w_trees w) cs, o) (mkRW (rw_trees rw) rcs, o).
Proof.
  intros Hc. split; [reflexivity|]. split; [apply HR|]. eapply Forall2_impl; [|exact Hc].
  intros tc ta. apply cur_rel_frame. eauto.
Qed.

Lemma set_cursor_sim ci ti b c a o :
  nth_error (w_trees w) ti = Some b -> cinv (b_t b) (b_root b) c -> anchor_of c = a ->
  sim (mkW (w_trees w) (set_nth ci (ti, c) (w_cursors w)), o) (mkRW (rw_trees rw) (set_nth ci (ti, a) (rw_cursors rw)), o).
Proof. intros Hb Hc Ha. apply sim_cursors, Forall2_set_nth; [apply HR|]. unfold cur_rel. eauto. Qed.

Lemma new_cursor_sim ti b :
  nth_error (w_trees w) ti = Some b ->
  sim (mkW (w_trees w) (w_cursors w ++ [(ti, new_cursor)]), N) (mkRW (rw_trees rw) (rw_cursors rw ++ [(ti, AL)]), N).
Proof.
  intros Hb. apply sim_cursors, Forall2_app; [apply HR|]. constructor; [|constructor].
  split; [reflexivity|]. split; [reflexivity|]. exists b. split; [assumption|].
  apply (cursor_boundary_proof (b_t b) (b_root b) new_cursor).
Qed.

Lemma sim_trees ts rts o :
  Forall2 tree_rel ts rts ->
  (forall i b, nth_error (w_trees w) i = Some b -> exists b', nth_error ts i = Some b' /\ b_t b' = b_t b /\ b_root b' = b_root b) ->
  sim (mkW ts (w_cursors w), o) (mkRW rts (rw_cursors rw), o).
Proof.
  intros Ht Hfr. split; [reflexivity|]. split; [exact Ht|]. eapply Forall2_impl; [|apply HR].
  intros tc ta. apply cur_rel_frame. apply Hfr.
Qed.

Lemma new_tree_sim b r :
  tree_rel b r -> sim (mkW (w_trees w ++ [b]) (w_cursors w), N) (mkRW (rw_trees rw ++ [r]) (rw_cursors rw), N).
Proof.
  intros Hrel. apply sim_trees; [apply Forall2_app; [apply HR|constructor; [assumption|constructor]]|].
  intros i b0 Hb0. exists b0. split; [|auto]. rewrite nth_error_app1; [assumption|]. apply nth_error_Some. congruence.
Qed.

Lemma freeze_sim ti b r :
  nth_error (w_trees w) ti = Some b -> tree_rel b r ->
  sim (mkW (set_nth ti (make_immutable b) (w_trees w)) (w_cursors w), N)
      (mkRW (set_nth ti (mkR (r_t r) (r_items r) true (r_inorder r)) (rw_trees rw)) (rw_cursors rw), N).
Proof.
  intros Eb ((Hwf & Hsz) & He & Htt & _ & Hio). apply sim_trees.
  - apply Forall2_set_nth; [apply HR|]. unfold tree_rel, bwf, make_immutable. cbn. auto 10.
  - intros i b0 Hb0. rewrite (nth_set_nth_Some _ _ _ _ _ Hb0). destruct (Nat.eqb_spec ti i); [|eauto].
    exists (make_immutable b). split; [reflexivity|]. cbn. split; congruence.
Qed.

Lemma with_tree_sim ti f g :
  (forall b r, nth_error (w_trees w) ti = Some b -> tree_rel b r -> sim (f ti b) (g r)) ->
  sim (with_tree w (Z.of_nat ti) f) (r_with_tree rw ti g).
Proof.
  intros H. unfold with_tree, r_with_tree. rewrite Nat2Z.id. pose proof (R_tree ti) as Ht.
  destruct (nth_error (w_trees w) ti), (nth_error (rw_trees rw) ti); try contradiction; [now apply H|apply sim_ro].
Qed.

Lemma with_cursor_sim ci f g :
  (forall ti b r c, nth_error (w_trees w) ti = Some b -> tree_rel b r -> cinv (b_t b) (b_root b) c ->
     sim (f ci ti b c) (g ti (anchor_of c) (r_items r))) ->
  sim (with_cursor w (Z.of_nat ci) f) (r_with_cursor rw ci g).
Proof.
  intros H. unfold with_cursor, r_with_cursor. rewrite Nat2Z.id.
  pose proof (Forall2_nth _ _ _ ci (proj2 HR)) as Hc.
  destruct (nth_error (w_cursors w) ci) as [(tj & c)|], (nth_error (rw_cursors rw) ci) as [(tj' & a)|]; try contradiction; [|apply sim_ro].
  destruct Hc as (H1 & H2 & b & Hb & Hinv). cbn [fst snd] in *. subst tj' a. rewrite Hb.
  pose proof (R_tree tj) as Ht. rewrite Hb in Ht. destruct (nth_error (rw_trees rw) tj) as [r|]; [|contradiction]. now apply H.
Qed.

(* a mutation described by its effect on an unfrozen tree and rejected by a frozen one; the
   cursors of the tree are parked *)
Lemma mutate_sim ti b r (comp : res (btree * obs)) items o :
  nth_error (w_trees w) ti = Some b -> tree_rel b r ->
  (b_immut b = true -> comp = Lib eImmutable) ->
  (b_immut b = false -> exists b', comp = Ok (b', o) /\ becomes b items b') ->
  sim (mutate w ti b comp) (r_mutate rw ti r items o).
Proof.
  intros Hb Hrel Hfro Hok. pose proof Hrel as (_ & _ & _ & Him & _). unfold r_mutate. rewrite <- Him.
  destruct (b_immut b); [rewrite (Hfro eq_refl); apply sim_ro|].
  destruct (Hok eq_refl) as (b' & -> & Hb'). split; [reflexivity|]. destruct HR as (Ht & Hc).
  split; cbn [mutate fst w_trees w_cursors rw_trees rw_cursors].
  - apply Forall2_set_nth; [assumption|]. now apply tree_rel_becomes with b.
  - unfold park_all. induction Hc as [|(tj & c) ta cs ras Hh Hc IH]; cbn [map]; constructor; [|exact IH].
    cbn [fst snd]. destruct (Nat.eqb_spec tj ti) as [->|Hne].
    + destruct Hh as (H1 & H2 & b0 & Hb0 & Hinv). cbn [fst snd] in *. assert (b0 = b) by congruence. subst b0.
      destruct (cursor_park_proof (b_t b) (b_root b) c Hinv) as (Ha & Hall).
      split; [assumption|]. split; [cbn [snd]; congruence|]. exists b'. cbn [fst snd w_trees].
      rewrite (nth_set_nth_Some _ _ _ _ _ Hb), Nat.eqb_refl. split; [reflexivity|].
      destruct Hb' as (_ & _ & _ & -> & _). apply Hall.
    + revert Hh. apply cur_rel_frame. cbn [fst w_trees]. intros b0 Hb0. exists b0.
      rewrite (nth_set_nth_Some _ _ _ _ _ Hb0). destruct (Nat.eqb_spec ti tj); [congruence|auto].
Qed.

Lemma insert_sim ti b r k v io (wrap : option elt -> obs) :
  nth_error (w_trees w) ti = Some b -> tree_rel b r ->
  sim (mutate w ti b (do (b', o) <- insert_element b (k, v) io; Ok (b', wrap o)))
      (r_mutate rw ti r (ins_sorted (k, v) (r_items r)) (wrap (find_sorted k (r_items r)))).
Proof.
  intros Hb Hrel. pose proof Hrel as (Hbwf & <- & _). apply mutate_sim; try assumption; intros Him.
  - unfold insert_element. now rewrite Him.
  - destruct (insert_becomes b (k, v) io Hbwf Him) as (b' & -> & Hb'). now exists b'.
Qed.

Lemma delete_sim ti b r k ex (wrap : dout -> obs) :
  nth_error (w_trees w) ti = Some b -> tree_rel b r ->
  let d := dspec ex (find_sorted k (r_items r)) in
  sim (mutate w ti b (do (b', o) <- delete_btree b k ex; Ok (b', wrap o)))
      (r_mutate rw ti r (after_del k d (r_items r)) (wrap d)).
Proof.
  intros Hb Hrel. pose proof Hrel as (Hbwf & <- & _). apply mutate_sim; try assumption; intros Him.
  - unfold delete_btree. now rewrite Him.
  - destruct (delete_becomes b k ex Hbwf Him) as (b' & -> & Hb'). now exists b'.
Qed.

(* delete_key, with the observation o the reference prescribes *)
Lemma remove_sim ti b r k (wrap : dout -> obs) o :
  nth_error (w_trees w) ti = Some b -> tree_rel b r ->
  wrap (dspec None (find_sorted k (r_items r))) = o ->
  sim (mutate w ti b (do (b', o) <- delete_btree b k None; Ok (b', wrap o)))
      (r_mutate rw ti r (del_sorted k (r_items r)) o).
Proof. intros Hb Hrel <-. rewrite <- after_del_none. now apply delete_sim. Qed.

(* clear() of the map and of the set: two loops, one effect *)
Lemma clear_sim ti b r x l (loop : nat -> btree -> res btree) :
  nth_error (w_trees w) ti = Some b -> tree_rel b r ->
  r_items r = x :: l -> loop = clear_loop \/ loop = sclear_loop ->
  sim (mutate w ti b (do b' <- loop (S (Z.to_nat (b_size b))) b; Ok (b', N))) (r_mutate rw ti r [] N).
Proof.
  intros Hb Hrel Ei Hloop. pose proof Hrel as (Hbwf & He & _). rewrite Ei in He.
  apply mutate_sim; try assumption; intros Hf.
  - destruct (clear_frozen b x l (Z.to_nat (b_size b)) Hbwf Hf He) as (H1 & H2).
    destruct Hloop as [-> | ->]; [now rewrite H1|now rewrite H2].
  - destruct (clear_loops_spec (x :: l) (S (Z.to_nat (b_size b))) b Hbwf Hf He) as (b' & H1 & H2 & Hb'); [rewrite <- He; now apply size_fuel|].
    exists b'. split; [|assumption]. destruct Hloop as [-> | ->]; [now rewrite H1|now rewrite H2].
Qed.

Lemma new_sim t io :
  sim (match new_btree t io with
       | Ok b => (mkW (w_trees w ++ [b]) (w_cursors w), N)
       | r => (w, obs_err r)
       end)
      (if (t <? 3)%nat then (rw, Prelude.E eBadT) else (mkRW (rw_trees rw ++ [mkR t [] false io]) (rw_cursors rw), N)).
Proof.
  unfold new_btree. destruct (Nat.ltb_spec t 3); [apply sim_ro|]. apply new_tree_sim.
  unfold tree_rel, bwf. cbn. auto using wf_empty.
Qed.

Lemma clone_sim b r io :
  tree_rel b r ->
  sim (match clone_btree b io with
       | Ok b' => (mkW (w_trees w ++ [b']) (w_cursors w), N)
       | r => (w, obs_err r)
       end)
      (if r_immut r then (mkRW (rw_trees rw ++ [mkR (r_t r) (r_items r) false io]) (rw_cursors rw), N)
       else (rw, Prelude.E eNotImmutable)).
Proof.
  intros ((Hwf & Hsz) & He & Htt & <- & Hio). unfold clone_btree. destruct (b_immut b); [|apply sim_ro].
  apply new_tree_sim. unfold tree_rel, bwf. cbn. auto 10.
Qed.

End STEP.

Theorem step_sim w rw x : R w rw -> sim (step w (enc x)) (rstep rw x).
Proof.
  intros HR.
  (* every operation but `new` addresses a tree (b, related to r, with traversal He; get and
     first_element read from r) or a cursor *)
  destruct x; cbn [enc step rstep nz bz]; rewrite ?Nat2Z.id, ?bool_of_bz;
    try (apply with_tree_sim; [exact HR|intros b r Eb Hrel; pose proof Hrel as (Hbwf & He & _);
                               rewrite ?(rel_get b r _ Hrel), ?(rel_first b r Hrel)]);
    try (apply with_cursor_sim; [exact HR|intros tj b r c Eb Hrel Hinv; pose proof Hrel as ((Hwf & _) & He & _)]).
  - (* new *) now apply new_sim.
  - (* new set *) now apply new_sim.
  - (* insert *) now apply insert_sim.
  - (* delete_key *) now apply delete_sim.
  - (* delete_exact *) now apply delete_sim.
  - (* get *) now apply sim_ro.
  - (* len *) destruct Hbwf as (_ & ->). rewrite He. now apply sim_ro.
  - (* items *) rewrite He. now apply sim_ro.
  - (* iter *) rewrite (iter_all_spec b Hbwf), He, map_map. now apply sim_ro.
  - (* freeze *) now apply freeze_sim.
  - (* clone *) now apply clone_sim.
  - (* copy *) now apply clone_sim.
  - (* cursor() *) now apply new_cursor_sim with b.
  - (* seek *) destruct (cursor_seek_proof (b_t b) (b_root b) k before Hwf) as (c' & -> & Hinv' & _ & Han).
    now apply set_cursor_sim with b.
  - (* seek_first *) apply set_cursor_sim with b; auto; apply (cursor_boundary_proof (b_t b) (b_root b) c).
  - (* seek_last *) apply set_cursor_sim with b; auto; apply (cursor_boundary_proof (b_t b) (b_root b) c).
  - (* next *) rewrite <- He. destruct (cursor_next_split _ _ c Hwf Hinv) as (c' & -> & Hinv' & Han).
    destruct (snd (split_anchor _ _)); now apply set_cursor_sim with b.
  - (* prev *) rewrite <- He. destruct (cursor_prev_split _ _ c Hwf Hinv) as (c' & -> & Hinv' & Han).
    destruct (rev (fst (split_anchor _ _))); now apply set_cursor_sim with b.
  - (* d[k] = v *) now apply (insert_sim w rw HR ti b r k v _ (fun _ => N)).
  - (* d[k] *) destruct (find_sorted k (r_items r)); now apply sim_ro.
  - (* del d[k] *) apply remove_sim; try assumption. now destruct (find_sorted k (r_items r)).
  - (* add *) now apply (insert_sim w rw HR ti b r k 0 _ (fun _ => N)).
  - (* discard *) now apply remove_sim.
  - (* in *) destruct (find_sorted k (r_items r)); now apply sim_ro.
  - (* iterator open *) now apply new_cursor_sim with b.
  - (* iterator step *) rewrite <- He. destruct (cursor_next_split _ _ c Hwf Hinv) as (c' & -> & Hinv' & Han).
    destruct (snd (split_anchor _ _)); now apply set_cursor_sim with b.
  - (* minimum *) rewrite (minimum_root _ _ (proj1 Hbwf)), He. destruct (r_items r); now apply sim_ro.
  - (* maximum *) rewrite (maximum_root _ _ (proj1 Hbwf)), He. destruct (rev (r_items r)); now apply sim_ro.
  - (* pop *) destruct (find_sorted k (r_items r)) as [e|] eqn:Ef; [|now apply sim_ro].
    apply remove_sim; try assumption. now rewrite Ef.
  - (* popitem *) destruct (r_items r) as [|x l] eqn:Ei; cbn [hd_error]; [now apply sim_ro|].
    rewrite (rel_get b r _ Hrel), Ei, find_sorted_hd, <- Ei.
    apply remove_sim; try assumption. now rewrite Ei, find_sorted_hd.
  - (* clear *) destruct (r_items r) as [|x l] eqn:Ei; cbn [hd_error]; [now apply sim_ro|]. apply clear_sim with x l; auto.
  - (* setdefault *) destruct (find_sorted k (r_items r)) as [e|] eqn:Ef; [now apply sim_ro|].
    now apply (insert_sim w rw HR ti b r k v _ (fun _ => I v)).
  - (* update *) now apply (insert_sim w rw HR ti b r k v _ (fun _ => N)).
  - (* set remove *) destruct (find_sorted k (r_items r)) as [e|] eqn:Ef; [|now apply sim_ro]. now apply remove_sim.
  - (* set pop *) destruct (r_items r) as [|x l] eqn:Ei; cbn [hd_error]; [now apply sim_ro|].
    rewrite <- Ei. now apply remove_sim.
  - (* set clear *) destruct (r_items r) as [|x l] eqn:Ei; cbn [hd_error]; [now apply sim_ro|]. apply clear_sim with x l; auto.
  - (* the handle is dropped *) now apply sim_ro.
Qed.

Lemma R_empty : R (mkW [] []) (mkRW [] []).
Proof. split; constructor. Qed.

Lemma steps_sim xs : forall w rw, R w rw -> steps w (map enc xs) = rsteps rw xs.
Proof.
  induction xs as [|x r IH]; intros w rw HR; [reflexivity|].
  cbn [map steps rsteps]. destruct (step_sim w rw x HR) as (Ho & HR').
  destruct (step w (enc x)) as (w' & o), (rstep rw x) as (rw' & o'). cbn [fst snd] in *. subst o'.
  f_equal. now apply IH.
Qed.

(* every history of map / set / cursor operations on any number of trees, clones and cursors
   is answered exactly as by the reference world of sorted association lists and anchors *)
Theorem history_refines_proof xs : steps (mkW [] []) (map enc xs) = rsteps (mkRW [] []) xs.
Proof. apply steps_sim, R_empty. Qed.

Fixpoint wsteps (w : world) (ops : list obs) : world :=
  match ops with [] => w | op :: r => wsteps (fst (step w op)) r end.

Lemma wsteps_sim xs : forall w rw, R w rw -> exists rw', R (wsteps w (map enc xs)) rw'.
Proof.
  induction xs as [|x r IH]; intros w rw HR; [now exists rw|].
  cbn [map wsteps]. destruct (step_sim w rw x HR) as (_ & HR'). eapply IH; eauto.
Qed.

Lemma R_wf w rw : R w rw ->
  Forall bwf (w_trees w) /\
  Forall (fun tc => exists b, nth_error (w_trees w) (fst tc) = Some b /\ cinv (b_t b) (b_root b) (snd tc)) (w_cursors w).
Proof.
  intros (Ht & Hc). split.
  - induction Ht as [|b r ts rts (Hb & _)]; constructor; auto.
  - induction Hc as [|tc ta cs rcs (_ & _ & Hx)]; constructor; auto.
Qed.

(* ... and all trees stay well-formed with exact size, all cursors representable *)
Theorem history_wf_proof xs :
  let w := wsteps (mkW [] []) (map enc xs) in
  Forall bwf (w_trees w) /\
  Forall (fun tc => exists b, nth_error (w_trees w) (fst tc) = Some b /\ cinv (b_t b) (b_root b) (snd tc)) (w_cursors w).
Proof. cbn zeta. destruct (wsteps_sim xs _ _ R_empty) as (rw' & HR). now apply R_wf with rw'. Qed.
