(* Independent reference definitions written from the RFC text (no proofs here).
   RFC 4034 3.1.8.1, 4.1.2, 5.1.4, 6.1-6.3, appendix B; RFC 4035 2.3, 5.3.2; RFC 5155 5;
   RFC 6840 5.1; RFC 4648 7; RFC 8976 3.3.  The theorems of Props/C15.v state
   `model = reference`; nothing below mentions a function of Model/DnssecM.v except the data types
   (field, entry) and the error codes. *)
From Coq Require Import Permutation Sorted.
From DV Require Import Base.Prelude Model.NameM Model.DnssecM.
Open Scope Z_scope.

(* RFC 4034 6.2: canonical RR form *)
(* (1) every name is fully expanded (no compression, relative names completed with the origin);
   a completed name of more than 255 octets is not a domain name *)
Definition rfc_expand (n : name) (origin : option name) : res name :=
  if is_absolute n then Ok n
  else match origin with
       | Some o => if is_absolute o
                   then if wire_length n + wire_length o >? 255 then Lib eNameTooLong else Ok (n ++ o)
                   else Lib eNeedAbsolute
       | None => Lib eNeedAbsolute
       end.

(* uncompressed wire form of an absolute name, (2)/(3) optionally with US-ASCII letters lower-cased *)
Definition rfc_name_wire (low : bool) (n : name) : bytes :=
  flat_map (fun l => zlen l :: (if low then map lower l else l)) n.

(* (3) names inside the RDATA are lower-cased exactly for the listed types *)
Fixpoint rfc4034_canonical_rdata (ty : Z) (fs : list field) (origin : option name) : res bytes :=
  match fs with
  | [] => Ok []
  | FRaw b :: r => do rest <- rfc4034_canonical_rdata ty r origin; Ok (b ++ rest)
  | FName n :: r =>
      do a <- rfc_expand n origin;
      do rest <- rfc4034_canonical_rdata ty r origin;
      Ok (rfc_name_wire (rfc_downcased ty) a ++ rest)
  end.

Definition is_fname (f : field) : bool := match f with FName _ => true | FRaw _ => false end.
Definition count_names (fs : list field) : nat := length (filter is_fname fs).
(* the rdata value has the shape of its type: no more names than the type's encoder writes *)
Definition arity_ok (tbl : list entry) (cls ty : Z) (fs : list field) : bool :=
  match lookup tbl cls ty with
  | Some e => Nat.leb (count_names fs) (length (e_calls e)) || (match e_loop e with Some _ => true | None => false end)
  | None => Nat.eqb (count_names fs) 0
  end.

(* RFC 4034 appendix B: key tag *)
(* for (ac = 0, i = 0; i < keysize; ++i) ac += (i & 1) ? key[i] : key[i] << 8; *)
Fixpoint rfc_ac (key : bytes) (i : nat) : Z :=
  match key with
  | [] => 0
  | k :: r => (if Nat.odd i then k else k * 256) + rfc_ac r (S i)
  end.
(* ac += (ac >> 16) & 0xFFFF; return ac & 0xFFFF; *)
Definition rfc_keytag (rdata : bytes) : Z :=
  let ac := rfc_ac rdata 0 in (ac + (ac / 65536) mod 65536) mod 65536.

(* B.1 (algorithm 1, with erratum 2681): the most significant 16 of the least significant 24 bits
   of the public key modulus, which are the last three octets of the RDATA *)
Definition be_int (l : bytes) : Z := fold_left (fun acc b => acc * 256 + b) l 0.
Definition rfc_keytag_alg1 (rdata : bytes) : Z := (be_int rdata mod 16777216) / 256.

(* RFC 4034 6.3: canonical RR ordering within an RRset *)
(* left-justified unsigned octet sequences, absence of an octet sorts before a zero octet;
   specification: the sorted permutation *)
Definition bytes_le (a b : bytes) : Prop := cmp_bytes a b <> Gt.
Definition is_canonical_order (input output : list bytes) : Prop :=
  Permutation input output /\ StronglySorted bytes_le output.

(* RFC 4034 3.1.8.1 + RFC 4035 5.3.2: the signed data *)
(* RRSIG RDATA minus the signature, signer's name in canonical form *)
Definition rfc_rrsig_rdata (covered alg labels ottl exp inc tag : Z) (signer : name) : bytes :=
  u16 covered ++ [alg; labels] ++ u32 ottl ++ u32 exp ++ u32 inc ++ u16 tag ++ rfc_name_wire true signer.

(* RFC 4035 5.3.2: if the RRSIG labels field is smaller than the number of labels of the owner
   (root label and nothing else excluded), the owner is replaced by "*." followed by the
   rightmost `labels` labels *)
Definition rfc_label_count (fqdn : name) : Z := zlen fqdn - 1.
Definition rfc_wildcard_owner (fqdn : name) (labels : Z) : name :=
  if labels <? rfc_label_count fqdn
  then [42] :: skipn (Z.to_nat (rfc_label_count fqdn - labels)) fqdn
  else fqdn.

(* RR(i) = owner | type | class | original TTL | RDATA length | RDATA *)
Definition rfc_rr (owner : name) (ty cls ottl : Z) (rdata : bytes) : bytes :=
  rfc_name_wire true owner ++ u16 ty ++ u16 cls ++ u32 ottl ++ u16 (zlen rdata) ++ rdata.

(* signature = sign(RRSIG_RDATA | RR(1) | RR(2)...), the RRs in canonical order
   (`sorted` is any list with  is_canonical_order canonical_rdatas sorted; it is unique) *)
Definition rfc_rrsig_input (covered alg labels ottl exp inc tag : Z) (signer owner : name)
           (cls ty : Z) (sorted : list bytes) : bytes :=
  rfc_rrsig_rdata covered alg labels ottl exp inc tag signer
  ++ flat_map (rfc_rr (rfc_wildcard_owner owner labels) ty cls ottl) sorted.

(* RFC 4034 5.1.4: DS digest input *)
(* digest = digest_algorithm( DNSKEY owner name | DNSKEY RDATA ), owner name in canonical form *)
Definition rfc_ds_input (owner : name) (flags protocol alg : Z) (key : bytes) : bytes :=
  rfc_name_wire true owner ++ (u16 flags ++ [protocol; alg] ++ key).

(* RFC 5155 5: iterated hash; RFC 4648 7: base32hex *)
Section Rfc5155.
  Variable H : bytes -> bytes.
  (* IH(salt, x, 0) = H(x || salt);  IH(salt, x, k) = H(IH(salt, x, k-1) || salt) *)
  Fixpoint rfc_IH (salt x : bytes) (k : nat) : bytes :=
    match k with
    | O => H (x ++ salt)
    | S k' => H (rfc_IH salt x k' ++ salt)
    end.
  Definition rfc_nsec3_hash (owner : name) (salt : bytes) (iterations : nat) : bytes :=
    b32encode b32_hex (rfc_IH salt (rfc_name_wire true owner) iterations).
End Rfc5155.

(* RFC 4034 4.1.2: type bit maps *)
(* decoding: the types represented by a list of (window, bitmap) blocks *)
Definition bit_set (octet : Z) (j : nat) : bool := Z.testbit octet (Z.of_nat (7 - j)).
Definition octet_types (window : Z) (i : nat) (octet : Z) : list Z :=
  map (fun j => window * 256 + Z.of_nat i * 8 + Z.of_nat j) (filter (bit_set octet) (seq 0 8)).
Fixpoint block_types (window : Z) (i : nat) (bm : bytes) : list Z :=
  match bm with
  | [] => []
  | o :: r => octet_types window i o ++ block_types window (S i) r
  end.
Definition bitmap_types (ws : list (Z * bytes)) : list Z :=
  flat_map (fun wb => block_types (fst wb) 0 (snd wb)) ws.

(* well-formed encoding: windows strictly increasing in 0..255, 1..32 octets each, octets are
   bytes, no trailing zero octet *)
Fixpoint windows_increasing (last : Z) (ws : list (Z * bytes)) : Prop :=
  match ws with
  | [] => True
  | (w, _) :: r => last < w /\ windows_increasing w r
  end.
Definition block_wf (wb : Z * bytes) : Prop :=
  0 <= fst wb <= 255 /\ (1 <= length (snd wb) <= 32)%nat /\
  Forall (fun o => 0 <= o < 256) (snd wb) /\ last (snd wb) 0 <> 0.
Definition bitmap_wf (ws : list (Z * bytes)) : Prop :=
  windows_increasing (-1) ws /\ Forall block_wf ws.

(* the set of types as a strictly increasing list *)
Fixpoint strictly_increasing (l : list Z) : Prop :=
  match l with
  | [] => True
  | x :: r => match r with [] => True | y :: _ => x < y end /\ strictly_increasing r
  end.

(* the set a type bitmap stands for: the distinct non-zero types, ascending *)
Definition is_type_set (ts set : list Z) : Prop :=
  strictly_increasing set /\ forall t, In t set <-> In t ts /\ t <> 0.

(* RFC 4035 2.2/2.3 (RFC 4034 4): the NSEC chain of a signed zone *)
Section NsecChain.
  (* origin: absolute zone name; apex: the name under which the zone stores its apex node
     (the origin, or the empty name in a relativized zone); nodes: owner -> rdataset types *)
  Variables (origin apex : name) (nodes : list znode).

  Definition types_at (n : name) : list Z :=
    match get_node nodes n with Some ts => ts | None => [] end.

  (* a delegation point: an NS RRset at a name other than the apex *)
  Definition rfc_cut (n : name) : bool := has_type (types_at n) tNS && negb (name_eqb n apex).

  (* names below a zone cut (glue, occluded data) are not authoritative: no NSEC, no RRSIG *)
  Definition rfc_occluded (names : list name) (n : name) : bool :=
    existsb (fun d => rfc_cut d && negb (name_eqb d n) && is_subdomain n d) names.

  (* `sorted`: the owner names in canonical order (RFC 4034 6.1) *)
  Definition rfc_secure (sorted : list name) : list name :=
    filter (fun n => negb (rfc_occluded sorted n)) sorted.

  (* the types listed in the NSEC at n: everything at the name, at a delegation point only NS and
     DS (RFC 4035 2.3), plus NSEC itself and its RRSIG *)
  Definition rfc_present_types (n : name) : list Z :=
    (if rfc_cut n then filter (fun t => (t =? tNS) || (t =? tDS)) (types_at n) else types_at n)
    ++ [tRRSIG; tNSEC].

  (* every authoritative name once, in canonical order, next = successor, the last wraps to the origin *)
  Fixpoint rfc_chain (l : list name) : list (name * name * list Z) :=
    match l with
    | [] => []
    | a :: r => (a, match r with [] => origin | b :: _ => b end, rfc_present_types a) :: rfc_chain r
    end.

  (* the RRsets that get signatures: authoritative data except RRSIGs; at a delegation only DS *)
  Definition rfc_signed (l : list name) : list (name * Z) :=
    flat_map (fun n => map (pair n)
                (filter (fun t => negb (t =? tRRSIG) && (negb (rfc_cut n) || (t =? tDS))) (types_at n))) l.
End NsecChain.

Definition nsec_calls (cs : list scall) : list (name * name * list (Z * bytes)) :=
  flat_map (fun c => match c with SignNSEC n nx ws => [(n, nx, ws)] | SignRR _ _ => [] end) cs.
Definition rr_calls (cs : list scall) : list (name * Z) :=
  flat_map (fun c => match c with SignRR n t => [(n, t)] | SignNSEC _ _ _ => [] end) cs.

(* an NSEC record handed to the signer against a reference chain entry: same owner, same next,
   and a well-formed bitmap that stands for exactly the reference type set *)
Definition nsec_matches (got : name * name * list (Z * bytes)) (ref : name * name * list Z) : Prop :=
  fst (fst got) = fst (fst ref) /\ snd (fst got) = snd (fst ref) /\
  bitmap_wf (snd got) /\ is_type_set (snd ref) (bitmap_types (snd got)).

(* RFC 8976 3.3 / 3.4: the ZONEMD SIMPLE digest input *)
(* one resource record of the zone, RDATA in canonical form; q_covers is the type covered when
   the record is an RRSIG (how the zone files RRSIGs), 0 otherwise *)
Record zrr := { q_owner : name; q_type : Z; q_covers : Z; q_class : Z; q_ttl : Z; q_rdata : bytes }.

Section Zonemd.
  Variables (origin apex : name).

  (* canonical RDATA of every record (RFC 4034 6.2), relative names completed with the origin *)
  Definition rfc_rds_rrs (owner : name) (rds : zrds) : res (list zrr) :=
    do cs <- map_res (fun fs => rfc4034_canonical_rdata (z_type rds) fs (Some origin)) (z_rdatas rds);
    Ok (map (fun c => {| q_owner := owner; q_type := z_type rds; q_covers := z_covers rds;
                         q_class := z_class rds; q_ttl := z_ttl rds; q_rdata := c |}) cs).
  Definition rfc_node_rrs (nd : name * list zrds) : res (list zrr) :=
    do l <- map_res (rfc_rds_rrs (fst nd)) (snd nd); Ok (concat l).
  Definition rfc_zone_rrs (nodes : list (name * list zrds)) : res (list zrr) :=
    do l <- map_res rfc_node_rrs nodes; Ok (concat l).

  (* 3.3.1: all records of the zone except the apex ZONEMD RRset and the RRSIG covering it *)
  Definition rfc_zonemd_included (r : zrr) : bool :=
    negb (name_eqb (q_owner r) apex &&
          ((q_type r =? tZONEMD) || ((q_type r =? tRRSIG) && (q_covers r =? tZONEMD)))).

  (* 3.3.1: sorted by owner name in canonical order, then by type, then by canonical RDATA *)
  Definition rfc_rr_le (a b : zrr) : Prop :=
    order (q_owner a) (q_owner b) < 0 \/
    (order (q_owner a) (q_owner b) = 0 /\
     (q_type a < q_type b \/ (q_type a = q_type b /\ bytes_le (q_rdata a) (q_rdata b)))).

  (* 3.4: each RR as owner | type | class | TTL | RDLENGTH | RDATA, owner and RDATA canonical *)
  Definition rfc_owner_abs (n : name) : name := if is_absolute n then n else n ++ origin.
  Definition rfc_rr_wire (r : zrr) : bytes :=
    rfc_name_wire true (rfc_owner_abs (q_owner r)) ++ u16 (q_type r) ++ u16 (q_class r) ++ u32 (q_ttl r)
    ++ u16 (zlen (q_rdata r)) ++ q_rdata r.

  (* the digest input: the included RRs, sorted, serialised *)
  Definition is_zonemd_input (nodes : list (name * list zrds)) (input : bytes) : Prop :=
    exists all L, rfc_zone_rrs nodes = Ok all /\
      Permutation L (filter rfc_zonemd_included all) /\
      StronglySorted rfc_rr_le L /\
      input = concat (map rfc_rr_wire L).
End Zonemd.
