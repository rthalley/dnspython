(* The TSIG record the library writes is read back as the same owner and rdata:
   tsig_from_wire (tsig_to_wire t) = t, and the reader's step on `... ++ tsig_rr owner t`
   hands exactly (owner, t, start of the RR) to validate.  With TsigLemmas.sign_then_validate_lemma this is the
   wire-level "every message it signs validates" for the TSIG record itself (the records before
   it are skipped by the reader independently of the TSIG). *)
From DV Require Import Base.Prelude Proofs.ListFacts.
From DV Require Model.NameM.
From DV Require Import Proofs.NameValid Proofs.NameWire.
From DV Require Import Model.TsigM Proofs.TsigSpec Proofs.TsigLemmas Proofs.TsigInj Proofs.TsigReader.
Open Scope Z_scope.

Lemma skipn_app_at : forall (w : bytes) p b c, skipn p w = b ++ c -> skipn (p + length b) w = c.
Proof. intros w p b c E. rewrite skipn_add, E. apply skipn_app_len. Qed.

(* the parser stands at p; from there to the end e of its window the octets are flds, after that post *)
Definition cursor (w : bytes) (e p : nat) (flds post : bytes) : Prop :=
  skipn p w = flds ++ post /\ (p + length flds = e)%nat /\ (p <= length w)%nat.

Lemma cursor_step : forall w e p (b f post : bytes),
  cursor w e p (b ++ f) post -> cursor w e (p + length b) f post.
Proof.
  intros w e p b f post (S & E & L). rewrite <- app_assoc in S. rewrite app_length in E. repeat split.
  - now apply skipn_app_at in S.
  - lia.
  - apply (f_equal (@length _)) in S. rewrite skipn_length, app_length in S. lia.
Qed.

(* each reader, at a cursor whose octets begin with the encoding of a value, returns the value and
   leaves the cursor behind the encoding *)
Lemma get_bytes_cur : forall w e p (b f post : bytes),
  cursor w e p (b ++ f) post ->
  get_bytes w e p (length b) = Ok (b, (p + length b)%nat) /\ cursor w e (p + length b) f post.
Proof.
  intros w e p b f post C. split; [|now apply cursor_step].
  destruct C as (S & E & _). rewrite <- app_assoc in S. rewrite app_length in E.
  unfold get_bytes. destruct (Nat.ltb_spec (e - p) (length b)); [lia|]. now rewrite S, firstn_app_len.
Qed.

Lemma get_uint_cur : forall w e p n v (f post : bytes),
  cursor w e p (be n v ++ f) post -> 0 <= v < 256 ^ Z.of_nat n ->
  get_uint w e p n = Ok (v, (p + n)%nat) /\ cursor w e (p + n) f post.
Proof.
  intros w e p n v f post C Hv. destruct (get_bytes_cur _ _ _ _ _ _ C) as [G C'].
  rewrite be_length in G, C'. split; [|exact C'].
  unfold get_uint. rewrite G. cbn [bind fst snd]. rewrite be_val_be by assumption. now rewrite Z.mul_0_l.
Qed.

Lemma get_counted2_cur : forall w e p (b f post : bytes),
  cursor w e p (be 2 (zlen b) ++ b ++ f) post -> zlen b < 65536 ->
  get_counted2 w e p = Ok (b, (p + 2 + length b)%nat) /\ cursor w e (p + 2 + length b) f post.
Proof.
  intros w e p b f post C Lb.
  destruct (get_uint_cur _ _ _ 2 _ _ _ C) as [G C1]; [unfold zlen in *; lia|].
  destruct (get_bytes_cur _ _ _ _ _ _ C1) as [G2 C2]. split; [|exact C2].
  unfold get_counted2. rewrite G. cbn [bind fst snd]. unfold zlen. now rewrite Nat2Z.id.
Qed.

Lemma get_name_cur : forall n w e p (f post : bytes),
  Valid n -> NameM.is_absolute n = true ->
  cursor w e p (NameM.wire_labels false n ++ f) post ->
  get_name w e p = Ok (n, (p + length (NameM.wire_labels false n))%nat)
  /\ cursor w e (p + length (NameM.wire_labels false n)) f post.
Proof.
  intros n w e p f post V A C. split; [|now apply cursor_step].
  destruct C as (S & E & Hp). rewrite <- app_assoc in S. rewrite app_length in E. unfold get_name.
  rewrite <- (firstn_skipn p w), S.
  rewrite firstn_app, (firstn_all2 (firstn p w)) by (rewrite firstn_length; lia).
  rewrite firstn_length_le by exact Hp.
  rewrite firstn_app, (firstn_all2 (NameM.wire_labels false n)) by lia.
  destruct (wire_roundtrip n (firstn p w) (firstn (e - p - length (NameM.wire_labels false n)) (f ++ post)) V A) as [_ R].
  rewrite firstn_length_le in R by exact Hp. now rewrite R.
Qed.

(* the rdata constructor's conditions, plus what rendering needs *)
Definition tsig_ok (t : tsig) : Prop :=
  Valid (t_alg t) /\ NameM.is_absolute (t_alg t) = true /\
  0 <= t_time t < 281474976710656 /\ 0 <= t_fudge t < 65536 /\ 0 <= t_oid t < 65536 /\
  0 <= t_error t <= 4095 /\ zlen (t_mac t) < 65536 /\ zlen (t_other t) < 65536.

Lemma mk_tsig_ok : forall t, tsig_ok t ->
  mk_tsig (t_alg t) (t_time t) (t_fudge t) (t_mac t) (t_oid t) (t_error t) (t_other t) = Ok t.
Proof.
  intros t (_ & _ & T & F & O & E & _ & _). unfold mk_tsig, in_u48, in_u16.
  replace ((0 <=? t_time t) && (t_time t <? 281474976710656)) with true by lia.
  replace ((0 <=? t_fudge t) && (t_fudge t <? 65536)) with true by lia.
  replace ((0 <=? t_oid t) && (t_oid t <? 65536)) with true by lia.
  replace ((0 <=? t_error t) && (t_error t <=? 4095)) with true by lia.
  now destruct t.
Qed.

Lemma tsig_to_wire_ok : forall t, tsig_ok t ->
  tsig_to_wire t = Ok (NameM.wire_labels false (t_alg t) ++ be 6 (t_time t) ++ be 2 (t_fudge t)
                       ++ be 2 (zlen (t_mac t)) ++ t_mac t ++ be 2 (t_oid t) ++ be 2 (t_error t)
                       ++ be 2 (zlen (t_other t)) ++ t_other t).
Proof.
  intros t (V & A & T & F & O & E & M & Ot). unfold tsig_to_wire.
  unfold NameM.to_wire. rewrite A. cbn [bind].
  rewrite !(proj2 (in_u16_iff _)) by (unfold zlen in *; lia). cbn [andb negb].
  rewrite (u16_be (t_fudge t)), (u16_be (zlen (t_mac t))), (u16_be (t_oid t)), (u16_be (t_error t)),
          (u16_be (zlen (t_other t))) by (apply in_u16_iff; unfold zlen in *; lia).
  f_equal. f_equal. rewrite app_assoc, time_be. reflexivity.
Qed.

(* decode(encode t) = t, anywhere inside a message, consuming exactly the rdata *)
Lemma tsig_from_wire_at : forall t rdw (w post : bytes) p,
  tsig_ok t -> tsig_to_wire t = Ok rdw ->
  skipn p w = rdw ++ post -> (p <= length w)%nat ->
  tsig_from_wire w (p + length rdw) p = Ok t.
Proof.
  intros t rdw w post p OKt W S Hp.
  assert (C : cursor w (p + length rdw) p rdw post) by (repeat split; assumption). clear S.
  generalize dependent (p + length rdw)%nat. intros e C.
  rewrite (tsig_to_wire_ok t OKt) in W. apply Ok_inj in W as <-.
  pose proof OKt as (V & A & T & F & O & E & M & Ot).
  unfold tsig_from_wire.
  destruct (get_name_cur _ _ _ _ _ _ V A C) as [-> C1]. cbn [bind fst snd].
  destruct (get_uint_cur _ _ _ 6 _ _ _ C1) as [-> C2]; [lia|]. cbn [bind fst snd].
  destruct (get_uint_cur _ _ _ 2 _ _ _ C2) as [-> C3]; [lia|]. cbn [bind fst snd].
  destruct (get_counted2_cur _ _ _ _ _ _ C3 M) as [-> C4]. cbn [bind fst snd].
  destruct (get_uint_cur _ _ _ 2 _ _ _ C4) as [-> C5]; [lia|]. cbn [bind fst snd].
  destruct (get_uint_cur _ _ _ 2 _ _ _ C5) as [-> C6]; [lia|]. cbn [bind fst snd].
  destruct (get_counted2_cur _ _ _ (t_other t) [] _ ltac:(rewrite app_nil_r; exact C6) Ot) as [-> (_ & End & _)].
  cbn [bind fst snd].
  rewrite mk_tsig_ok by exact OKt. cbn [bind wrap_formerror fst snd length] in *.
  now replace (Nat.eqb _ e) with true by (symmetry; apply Nat.eqb_eq; lia).
Qed.

Lemma tsig_codec_roundtrip : forall t rdw (pre post : bytes),
  tsig_ok t -> tsig_to_wire t = Ok rdw ->
  tsig_from_wire (pre ++ rdw ++ post) (length pre + length rdw) (length pre) = Ok t.
Proof.
  intros t rdw pre post OKt W. apply (tsig_from_wire_at t rdw _ post); auto.
  - apply skipn_app_len.
  - rewrite app_length. lia.
Qed.

Section WithH.
  Variable H : hashid -> bytes -> bytes -> bytes.

  (* the reader's step on a message that ends with `tsig_rr owner t`, positioned at that RR *)
  Lemma get_rr_on_tsig_rr : forall (pre : bytes) owner t rr kr rmac now multi count st,
    Valid owner -> NameM.is_absolute owner = true -> tsig_ok t ->
    tsig_rr owner t = Ok rr ->
    r_pos st = length pre -> r_origin st = None ->
    get_rr H (pre ++ rr) kr rmac now multi 3 count (count - 1) st =
      (do ko <- find_key kr owner (t_alg t);
       do ctx' <- (match ko with
                   | Some k => validate H (pre ++ rr) k owner t now rmac (length pre) (r_ctx st) multi
                   | None => Ok (r_ctx st)
                   end);
       Ok {| r_pos := length (pre ++ rr); r_tsig := Some (owner, t); r_ctx := ctx';
             r_recs := (3, TSIG, ANY, length pre) :: r_recs st; r_opt := r_opt st; r_origin := None |}).
  Proof.
    intros pre owner t rr kr rmac now multi count st V A OKt RR P ON.
    unfold tsig_rr in RR. unfold NameM.to_wire in RR. rewrite A in RR. cbn [bind] in RR.
    dbind RR as rdw TW. destruct (zlen rdw >? 65535) eqn:LR; [discriminate|]. apply Ok_inj in RR as <-.
    assert (LRb : 0 <= zlen rdw < 65536) by (unfold zlen in *; lia).
    rewrite (u16_be 250), (u16_be 255), (u16_be (zlen rdw)) by (reflexivity || (apply in_u16_iff; lia)).
    rewrite (u32_be 0) by lia.
    set (w := pre ++ _).
    assert (C : cursor w (length w) (length pre)
                  (NameM.wire_labels false owner ++ be 2 250 ++ be 2 255 ++ be 4 0 ++ be 2 (zlen rdw) ++ rdw) []).
    { unfold cursor, w. rewrite !app_nil_r. rewrite (app_length pre). repeat split; [apply skipn_app_len|lia]. }
    unfold get_rr. rewrite P, ON.
    destruct (get_name_cur _ _ _ _ _ _ V A C) as [-> C1]. cbn [bind fst snd].
    destruct (get_uint_cur _ _ _ 2 _ _ _ C1) as [-> C2]; [lia|]. cbn [bind fst snd].
    destruct (get_uint_cur _ _ _ 2 _ _ _ C2) as [-> C3]; [lia|]. cbn [bind fst snd].
    destruct (get_uint_cur _ _ _ 4 _ _ _ C3) as [-> C4]; [lia|]. cbn [bind fst snd].
    destruct (get_uint_cur _ _ _ 2 _ _ _ C4) as [-> (S & End & Hq)]; [lia|]. cbn [bind fst snd].
    change (250 =? OPT) with false. change (250 =? TSIG) with true. cbn iota.
    change (3 =? 3) with true. change (255 =? ANY) with true. rewrite Z.eqb_refl. cbn [negb orb].
    replace (Z.to_nat (zlen rdw)) with (length rdw) by (unfold zlen; now rewrite Nat2Z.id).
    rewrite <- End.
    match goal with |- context [Nat.ltb ?a ?b] => destruct (Nat.ltb_spec a b); [lia|] end.
    rewrite (tsig_from_wire_at t rdw w [] _ OKt TW S Hq).
    cbn [bind]. change (0 =? 0) with true. reflexivity.
  Qed.
End WithH.
