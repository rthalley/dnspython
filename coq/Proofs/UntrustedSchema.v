(* C04 for EVERY record type of the generated rdtypes table: the generic schema decoder of C02
   (Model/SchemaM.v: Parser + restrict_to + cls.from_wire_parser + constructor + wrapper) on
   arbitrary octets returns a record that consumed exactly rdlen, or a FormError-family error;
   and every record it returns can be rendered to wire again. *)
From DV Require Import Base.Prelude Model.NameM Model.SchemaM Model.UntrustedM
                       Proofs.NameValid Proofs.SchemaCodec Proofs.SchemaThm Proofs.SchemaFix
                       Proofs.SchemaTable Proofs.SchemaTotal.
From DV Require Proofs.NameWire Proofs.ParserSafe Proofs.UntrustedSafe.
From DV Require Import Proofs.UntrustedEnds.
Open Scope Z_scope.

(* every library error is in the FormError family (that there is no Python-level exception is
   C02's totality theorem, which needs the schema to be well formed) *)
Definition FormOnly {A} (r : res A) : Prop := ends any (fun e => is_form e = true) any r.

(* dns.name.from_wire (the NameM model used by the schema decoder) *)
Import ParserSafe.

Lemma nm_get_bytes_form wire p n : ends any isForm none (NameM.get_bytes wire p n).
Proof. unfold NameM.get_bytes. destruct (Nat.ltb _ _); [reflexivity|exact Logic.I]. Qed.

Lemma nm_get_u8_form wire p : ends any isForm none (NameM.get_u8 wire p).
Proof.
  unfold NameM.get_u8. pose proof (nm_get_bytes_form wire p 1) as H.
  destruct (NameM.get_bytes wire p 1) as [[[|? [|? ?]] ?]|e|e]; try exact H; reflexivity.
Qed.

Lemma fw_go_shape wire : bytes_ok wire -> forall fuel p big acc,
  Forall short_label acc ->
  ends (fun x => exists body, fst x = body ++ [[]] /\ Forall short_label body) isNameWireErr any
       (NameM.fw_go wire fuel p big acc).
Proof.
  intros Hw. induction fuel as [|f IH]; intros p big acc Hacc; cbn [NameM.fw_go]; [exact Logic.I|].
  pose proof (nm_get_u8_form wire p) as H1.
  destruct (NameM.get_u8 wire p) as [[count p1]|e|e] eqn:E1; [|exact (isForm_name _ H1)|exact Logic.I].
  destruct (count =? 0) eqn:E0.
  { exists (rev acc). split; [reflexivity|]. apply Forall_rev; auto. }
  destruct (count <? 64) eqn:E64.
  { pose proof (nm_get_bytes_form wire p1 (Z.to_nat count)) as H2.
    destruct (NameM.get_bytes wire p1 (Z.to_nat count)) as [[l p2]|e|e] eqn:E2; [|exact (isForm_name _ H2)|exact Logic.I].
    apply NameWire.get_bytes_inv in E2 as (Hn & Hl & _).
    apply NameWire.get_u8_inv in E1 as (_ & Hnth & _). apply nth_error_In in Hnth.
    eapply Forall_forall in Hnth; [|exact Hw]. cbn beta in Hnth.
    apply IH. constructor; auto. unfold short_label, zlen. subst l.
    rewrite firstn_length, skipn_length. lia. }
  destruct (192 <=? count); [|right; right; reflexivity].
  pose proof (nm_get_u8_form wire p1) as H3.
  destruct (NameM.get_u8 wire p1) as [[lo p2]|e|e]; [|exact (isForm_name _ H3)|exact Logic.I].
  destruct (Nat.leb big _); [right; left; reflexivity|].
  destruct (Nat.ltb _ _); [left; reflexivity|]. apply IH. exact Hacc.
Qed.

(* a valid absolute name, or FormError / BadPointer / BadLabelType / NameTooLong *)
Lemma nm_from_wire_family wire start :
  bytes_ok wire -> ends (fun nc => Valid (fst nc)) isNameErr none (NameM.from_wire wire start).
Proof.
  intros Hw. pose proof (NameWire.from_wire_total wire start) as NI.
  unfold NameM.from_wire in *.
  destruct (Nat.ltb (length wire) start); [left; left; reflexivity|].
  pose proof (fw_go_shape wire Hw (NameM.fw_fuel wire start) {| cur := start; furthest := start |} start [] (Forall_nil _)) as S.
  destruct (NameM.fw_go wire (NameM.fw_fuel wire start) {| cur := start; furthest := start |} start []) as [[ls p]|e|e];
    [|left; exact S|exfalso; eapply NI; reflexivity].
  cbn [ends fst] in S. destruct S as (body & -> & Hb).
  destruct (wire_labels_name body Hb) as [E|E]; unfold label in *; rewrite E; cbn [bind ends fst].
  - apply mk_name_ok in E. tauto.
  - right. reflexivity.
Qed.

Section Fields.
Variable w : list Z.
Hypothesis Hw : bytes_ok w.

Lemma fo_get_bytes e c n : FormOnly (SchemaM.get_bytes w e c n).
Proof. unfold SchemaM.get_bytes. destruct (Nat.ltb (e - c) n); [reflexivity|exact Logic.I]. Qed.

Lemma fo_get_name o rel e c : FormOnly (SchemaM.get_name w o rel e c).
Proof.
  unfold SchemaM.get_name. pose proof (nm_from_wire_family (firstn e w) c (bytes_ok_firstn w e Hw)) as F.
  destruct (NameM.from_wire (firstn e w) c) as [[n k]|e'|x]; [|exact (UntrustedSafe.nameerr_form _ F)|exact Logic.I].
  destruct (if rel then o else None) as [[|y o']|]; try exact Logic.I.
  destruct (relativize_valid_ok n (y :: o') F) as [m ->]. exact Logic.I.
Qed.

Lemma fo_dec_s o f e c : FormOnly (dec_s w o f e c).
Proof.
  destruct f as [wd m|n|wd lo hi|rel]; cbn [dec_s]; (apply ends_seq; [|intros; try exact Logic.I]);
    try apply fo_get_bytes; try apply fo_get_name.
  apply ends_seq; [apply fo_get_bytes|intros; exact Logic.I].
Qed.

Lemma fo_dec_row o : forall fs e c, FormOnly (dec_row w o fs e c).
Proof.
  induction fs as [|f fr IH]; intros e c; cbn [dec_row]; [exact Logic.I|].
  apply ends_seq; [apply fo_dec_s|]. intros vc.
  apply ends_seq; [apply IH|intros; exact Logic.I].
Qed.

Lemma fo_dec_rows o row : forall fuel e c, FormOnly (dec_rows w o fuel row e c).
Proof.
  induction fuel as [|f IH]; intros e c; cbn [dec_rows]; (destruct (Nat.leb e c); [exact Logic.I|]); [exact Logic.I|].
  apply ends_seq; [apply fo_dec_row|]. intros rc.
  apply ends_seq; [apply IH|intros; exact Logic.I].
Qed.

Lemma fo_dec_f o f e c : FormOnly (dec_f w o f e c).
Proof.
  destruct f as [s|lo|n|hi|m a row]; cbn [dec_f]; try (destruct (Nat.ltb c e); [|exact Logic.I]);
    (apply ends_seq; [|intros; exact Logic.I]);
    first [apply fo_dec_s|apply fo_get_bytes|apply fo_dec_rows].
Qed.

Lemma fo_dec_fields o : forall fs e c, FormOnly (dec_fields w o fs e c).
Proof.
  induction fs as [|f fr IH]; intros e c; cbn [dec_fields]; [exact Logic.I|].
  apply ends_seq; [apply fo_dec_f|]. intros vc.
  apply ends_seq; [apply IH|intros; exact Logic.I].
Qed.

End Fields.

(* dns.rdata.from_wire for a schema type *)
Theorem schema_from_wire_family o fs ck wire cur rdlen :
  ParserSafe.bytes_ok wire -> schema_wf fs = true ->
  match decode_rdata o fs ck wire cur rdlen with
  | Ok vs =>
      validate fs ck vs = true /\ (cur + rdlen <= length wire)%nat /\
      dec_fields wire o fs (cur + rdlen) cur = Ok (vs, (cur + rdlen)%nat)
  | Lib e => is_form e = true
  | Internal _ => False
  end.
Proof.
  intros Hw Hwf.
  pose proof (decode_never_internal_thm o fs ck wire cur rdlen) as NI.
  assert (F : FormOnly (decode_rdata o fs ck wire cur rdlen)).
  { unfold decode_rdata. do 2 (destruct (Nat.ltb _ _); [reflexivity|]). cbv zeta.
    apply ends_seq; [apply fo_dec_fields, Hw|]. intros vc.
    destruct (negb _); [reflexivity|]. destruct (Nat.eqb _ _); [exact Logic.I|reflexivity]. }
  destruct (decode_rdata o fs ck wire cur rdlen) as [vs|e|x] eqn:E; [|exact F|exfalso; eapply NI; eauto].
  split; [eapply decode_validates; eauto|]. eapply SchemaThm.exact_consumption; eauto.
Qed.

(* every entry of a table read from dns/rdtypes/** *)
Lemma find_entry_in c t : forall tbl e, find_entry c t tbl = Some e -> In e tbl.
Proof.
  induction tbl as [|x r IH]; intros e H; cbn in H; [discriminate|].
  destruct ((e_class x =? c) && (e_type x =? t)); [inversion H; left; reflexivity|right; auto].
Qed.

(* get_rdata_class(rdclass, rdtype): an entry of the table, or GenericRdata *)
Lemma lookup_cases tbl c t :
  (exists e, In e tbl /\ lookup tbl c t = e_codec e) \/ lookup tbl c t = generic_codec.
Proof.
  unfold lookup. destruct (find_entry c t tbl) as [e|] eqn:E1.
  - left. exists e. split; [eapply find_entry_in; eauto|reflexivity].
  - destruct (find_entry 255 t tbl) as [e|] eqn:E2.
    + left. exists e. split; [eapply find_entry_in; eauto|reflexivity].
    + right. reflexivity.
Qed.

(* dns.rdata.from_wire(rdclass, rdtype, wire, cur, rdlen) for the reader side r of an entry:
   a record that passed the constructor, consumed exactly rdlen and can be rendered to wire
   again (its own to_wire exists) - or a FormError-family error; never a Python-level exception *)
Theorem entry_from_wire_family e w r ck wire cur rdlen :
  ParserSafe.bytes_ok wire -> entry_ok e = true -> e_codec e = CSchema w r ck ->
  match decode_rdata None (map fst r) ck wire cur rdlen with
  | Ok vs =>
      (cur + rdlen <= length wire)%nat /\
      exists w', encode_rdata None (map fst w) ck vs = Ok w' /\
                 decode_rdata None (map fst r) ck w' 0 (length w') = Ok vs
  | Lib x => is_form x = true
  | Internal _ => False
  end.
Proof.
  intros Hw Hok Hc.
  rewrite (entry_ok_decode e w r ck wire cur rdlen Hok Hc).
  pose proof (schema_from_wire_family None (map fst w) ck wire cur rdlen Hw (entry_ok_wf e w r ck Hok Hc)) as F.
  destruct (decode_rdata None (map fst w) ck wire cur rdlen) as [vs|x|x] eqn:E; auto.
  destruct F as (_ & Hlen & _). split; [exact Hlen|].
  destruct (schema_fixed_point_none _ _ _ _ _ _ (entry_ok_wf e w r ck Hok Hc) E) as (w' & H1 & H2 & _).
  exists w'. split; [exact H1|]. rewrite (entry_ok_decode e w r ck _ _ _ Hok Hc). exact H2.
Qed.

Theorem table_from_wire_family tbl c t w r ck wire cur rdlen :
  ParserSafe.bytes_ok wire -> forallb entry_ok tbl = true -> lookup tbl c t = CSchema w r ck ->
  match decode_rdata None (map fst r) ck wire cur rdlen with
  | Ok vs =>
      (cur + rdlen <= length wire)%nat /\
      exists w', encode_rdata None (map fst w) ck vs = Ok w' /\
                 decode_rdata None (map fst r) ck w' 0 (length w') = Ok vs
  | Lib x => is_form x = true
  | Internal _ => False
  end.
Proof.
  intros Hw Ht Hl. destruct (lookup_cases tbl c t) as [(e & Hin & He)|Hg].
  - rewrite forallb_forall in Ht. apply (entry_from_wire_family e w r ck wire cur rdlen Hw (Ht e Hin)). congruence.
  - apply (entry_from_wire_family (mk_ent 0 0 generic_codec) w r ck wire cur rdlen Hw generic_entry_ok).
    cbn [e_codec]. congruence.
Qed.
