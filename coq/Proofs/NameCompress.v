(* C01: Name.to_wire with a compression table is sound: what is written decodes (with the
   independent decoder from_wire) to the name that was written, and the table stays sound. *)
From DV Require Import Base.Prelude Model.NameM.
From DV Require Import Proofs.NameOrder Proofs.NameValid Proofs.NameRel Proofs.NameWire.
Open Scope Z_scope.

(* A fuel-free description of one decoding run:
     Dec msg cur biggest labels hi
   reading at offset cur with pointer bound `biggest` yields `labels`; hi is the furthest
   offset read (exclusive).  It is related to the executable decoder by Dec_fw_go /
   Dec_from_wire below. *)

Inductive Dec (msg : list Z) : nat -> nat -> list label -> nat -> Prop :=
| Dec_root cur b :
    nth_error msg cur = Some 0 -> Dec msg cur b [[]] (cur + 1)
| Dec_label cur b count l ls hi :
    nth_error msg cur = Some count -> 0 < count < 64 ->
    (cur + 1 + Z.to_nat count <= length msg)%nat ->
    l = firstn (Z.to_nat count) (skipn (cur + 1) msg) ->
    Dec msg (cur + 1 + Z.to_nat count) b ls hi ->
    Dec msg cur b (l :: ls) (Nat.max (cur + 1 + Z.to_nat count) hi)
| Dec_ptr cur b hi8 lo c ls h :
    nth_error msg cur = Some hi8 -> 192 <= hi8 ->
    nth_error msg (cur + 1) = Some lo ->
    c = Z.to_nat ((hi8 - 192) * 256 + lo) -> (c < b)%nat ->
    Dec msg c c ls h ->
    Dec msg cur b ls (Nat.max (cur + 2) h).

Lemma Dec_bounds msg cur b ls h : Dec msg cur b ls h -> (cur < length msg)%nat /\ (h <= length msg)%nat /\ (cur < h)%nat.
Proof.
  induction 1 as [cur b H|cur b count l ls hi H Hc Hl El D IH|cur b hi8 lo c ls h H H8 Hlo Ec Hcb D IH].
  - apply nth_error_lt in H. lia.
  - apply nth_error_lt in H. lia.
  - apply nth_error_lt in H. apply nth_error_lt in Hlo. lia.
Qed.

Lemma Dec_weaken msg cur b b' ls h : Dec msg cur b ls h -> (b <= b')%nat -> Dec msg cur b' ls h.
Proof.
  intros D. revert b'. induction D; intros b' Hb.
  - constructor; assumption.
  - econstructor; eauto.
  - econstructor; eauto. lia.
Qed.

Lemma nth_error_app_l {A} (l ext : list A) i x : nth_error l i = Some x -> nth_error (l ++ ext) i = Some x.
Proof. intros H. rewrite nth_error_app1; [exact H|eapply nth_error_lt; eauto]. Qed.

Lemma Dec_app msg ext cur b ls h : Dec msg cur b ls h -> Dec (msg ++ ext) cur b ls h.
Proof.
  induction 1 as [cur b H|cur b count l ls hi H Hc Hl El D IH|cur b hi8 lo c ls h H H8 Hlo Ec Hcb D IH];
    econstructor; eauto using nth_error_app_l.
  - rewrite app_length. lia.
  - subst l. rewrite skipn_app, firstn_app.
    replace (Z.to_nat count - length (skipn (cur + 1) msg))%nat with 0%nat
      by (rewrite skipn_length; lia).
    cbn [firstn]. symmetry. apply app_nil_r.
Qed.

Lemma Dec_fw_go msg cur0 b ls h : Dec msg cur0 b ls h ->
  exists f, forall fur acc, exists pc,
    fw_go msg f {| cur := cur0; furthest := fur |} b acc =
      Ok (rev acc ++ ls, {| cur := pc; furthest := Nat.max fur h |}).
Proof.
  induction 1 as [cur0 b H|cur0 b count l ls hi H Hc Hl El D [f IH]|cur0 b hi8 lo c ls h H H8 Hlo Ec Hcb D [f IH]];
    [exists 1%nat|exists (S f)|exists (S f)]; intros fur acc; rewrite fw_go_step.
  - rewrite fw_step_root by exact H. eexists. reflexivity.
  - rewrite (fw_step_label _ _ _ count), adv_adv by (assumption || lia). cbn [cur furthest]. rewrite <- El.
    destruct (IH (Nat.max fur (cur0 + 1 + Z.to_nat count)) (l :: acc)) as [pc E].
    exists pc. etransitivity; [apply E|]. cbn [rev]. rewrite <- app_assoc, Nat.max_assoc. reflexivity.
  - pose proof (Dec_bounds _ _ _ _ _ D) as (Bc & _).
    rewrite (fw_step_jump _ _ _ hi8 lo), adv_adv by (assumption || lia). cbn [cur furthest]. rewrite <- Ec.
    destruct (IH (Nat.max fur (cur0 + 1 + 1)) acc) as [pc E].
    exists pc. etransitivity; [apply E|]. rewrite <- Nat.add_assoc, Nat.max_assoc. reflexivity.
Qed.

Theorem Dec_from_wire msg off ls h :
  Dec msg off off ls h -> Valid ls -> from_wire msg off = Ok (ls, (h - off)%nat).
Proof.
  intros D V. pose proof (Dec_bounds _ _ _ _ _ D) as (B1 & _ & B3).
  destruct (Dec_fw_go _ _ _ _ _ D) as [f F]. destruct (F off []) as [pc E].
  rewrite (from_wire_intro _ _ _ _ _ (Nat.lt_le_incl _ _ B1) E V). cbn [furthest].
  rewrite Nat.max_r by apply Nat.lt_le_incl, B3. reflexivity.
Qed.

Lemma tbl_get_some : forall t n v, tbl_get t n = Some v -> exists k, In (k, v) t /\ name_eqb k n = true.
Proof.
  induction t as [|[k w] t IH]; intros n v H; [discriminate|].
  cbn [tbl_get] in H. destruct (name_eqb k n) eqn:E.
  - inversion H; subst. exists k. split; [left; reflexivity|exact E].
  - apply IH in H. destruct H as (k' & I & E'). exists k'. split; [right; exact I|exact E'].
Qed.

Lemma tbl_get_app_longer : forall t pend n,
  (forall k v, In (k, v) pend -> (length n < length k)%nat) ->
  tbl_get (t ++ pend) n = tbl_get t n.
Proof.
  induction t as [|[k w] t IH]; intros pend n H.
  - cbn [app]. induction pend as [|[k w] pend IHp]; [reflexivity|].
    cbn [tbl_get]. destruct (name_eqb k n) eqn:E.
    + exfalso. apply name_eqb_iff_ci, ci_equal_length in E.
      specialize (H k w (or_introl eq_refl)). lia.
    + apply IHp. intros k' v' I. apply (H k' v'). right. exact I.
  - cbn [app tbl_get]. destruct (name_eqb k n); [reflexivity|]. apply IH. exact H.
Qed.

Lemma u16_pointer pos : 0 <= pos <= 16383 ->
  exists hi8 lo, u16 (49152 + pos) = [hi8; lo] /\ 192 <= hi8 /\ (hi8 - 192) * 256 + lo = pos.
Proof.
  intros H. unfold u16. eexists _, _. split; [reflexivity|].
  Z.to_euclidean_division_equations. lia.
Qed.

Lemma nth_error_app_len1 {A} (a : list A) x y r : nth_error (a ++ x :: y :: r) (length a + 1) = Some y.
Proof. rewrite nth_error_app2 by lia. replace (length a + 1 - length a)%nat with 1%nat by lia. reflexivity. Qed.

(* what the three things Name.to_wire appends decode to, at the offset where they were written:
   a pointer to a decodable earlier offset, the root label, a label followed by more *)
Lemma Dec_written_pointer file b pos ls h :
  0 <= pos <= 16383 -> (Z.to_nat pos < b)%nat -> Dec file (Z.to_nat pos) (Z.to_nat pos) ls h ->
  Dec (file ++ u16 (49152 + pos)) (length file) b ls (length (file ++ u16 (49152 + pos))).
Proof.
  intros Hpos Hb D. destruct (u16_pointer pos Hpos) as (hi8 & lo & -> & H8 & Hc).
  pose proof (Dec_bounds _ _ _ _ _ D) as (_ & B & _).
  replace (length (file ++ [hi8; lo])) with (Nat.max (length file + 2) h)
    by (rewrite app_length; apply Nat.max_l; lia).
  apply (Dec_ptr _ _ _ hi8 lo (Z.to_nat pos)); auto using nth_error_app_len, nth_error_app_len1, Dec_app.
  rewrite Hc. reflexivity.
Qed.

Lemma Dec_written_root file b : Dec (file ++ [0]) (length file) b [[]] (length (file ++ [0])).
Proof. rewrite app_length. constructor. apply nth_error_app_len. Qed.

Lemma Dec_written_label file (l : label) em b ls :
  l <> [] -> zlen l <= 63 ->
  Dec (file ++ zlen l :: l ++ em) (length (file ++ zlen l :: l)) b ls (length (file ++ zlen l :: l ++ em)) ->
  Dec (file ++ zlen l :: l ++ em) (length file) b (l :: ls) (length (file ++ zlen l :: l ++ em)).
Proof.
  intros Hl H63 D. pose proof (Dec_bounds _ _ _ _ _ D) as (_ & _ & B).
  assert (Z.to_nat (zlen l) = length l) as Hn by apply Nat2Z.id.
  assert (length (file ++ zlen l :: l) = (length file + 1 + Z.to_nat (zlen l))%nat) as Hf
    by (rewrite app_length, Hn; cbn [length]; lia).
  rewrite Hf in *.
  rewrite <- (Nat.max_r _ _ (Nat.lt_le_incl _ _ B)).
  apply (Dec_label _ _ _ (zlen l)); auto using nth_error_app_len.
  - unfold zlen in *. destruct l; [congruence|cbn [length] in *; lia].
  - apply Nat.lt_le_incl, B.
  - rewrite Hn. symmetry. apply firstn_skipn_label.
Qed.

Section Sound.
  Variable canon : bool.
  (* relation between a decoded name and the name it stands for: ci_equal in general,
     equality when nothing can change the case of an octet *)
  Variable RN : name -> name -> Prop.
  Definition emit (l : label) : label := if canon then lower_l l else l.
  Hypothesis RN_root : RN [[]] [[]].
  Hypothesis RN_cons : forall l ls r, RN ls r -> RN (emit l :: ls) (l :: r).
  Hypothesis RN_trans : forall a b c, RN a b -> RN b c -> RN a c.

  Definition TableSoundR (file : list Z) (t : ctable) : Prop :=
    forall k v, In (k, v) t ->
      0 <= v <= 16383 /\
      exists ls h, Dec file (Z.to_nat v) (Z.to_nat v) ls h /\ RN ls k.

  Definition entry_ok (file' : list Z) (b : nat) (kv : name * Z) : Prop :=
    0 <= snd kv <= 16383 /\ (b <= Z.to_nat (snd kv))%nat /\
    exists ls h, Dec file' (Z.to_nat (snd kv)) (Z.to_nat (snd kv)) ls h /\ RN ls (fst kv).

  Lemma TableSoundR_app file ext t : TableSoundR file t -> TableSoundR (file ++ ext) t.
  Proof.
    intros TS k v I. destruct (TS k v I) as (Hv & ls & h & D & R).
    split; [exact Hv|]. exists ls, h. split; [apply Dec_app; exact D|exact R].
  Qed.

  Lemma emit_zlen l : zlen (emit l) = zlen l.
  Proof. unfold emit, zlen. destruct canon; [unfold lower_l; rewrite map_length|]; reflexivity. Qed.

  (* the suffix loop of Name.to_wire.  `t` is the sound part of the table, `pend` the entries
     added for the longer suffixes of the name being written (never hit: their keys are longer
     than every suffix still to come); b bounds the offsets of t. *)
  Lemma tw_loop_sound : forall labels file t pend b file' t',
    tw_loop labels canon file (t ++ pend) = (file', t') ->
    TableSoundR file t ->
    (forall k v, In (k, v) t -> forall p s, labels = p ++ s -> name_eqb k s = true -> RN k s) ->
    (forall k v, In (k, v) t -> (Z.to_nat v < b)%nat) -> (b <= length file)%nat ->
    (forall k v, In (k, v) pend -> (length labels < length k)%nat) ->
    Valid labels -> is_absolute labels = true ->
    exists em new ls,
      file' = file ++ em /\ t' = (t ++ pend) ++ new /\
      Dec file' (length file) b ls (length file') /\ RN ls labels /\
      Forall (entry_ok file' b) new.
  Proof.
    induction labels as [|l r IH]; intros file t pend b file' t' H TS Hit Hb Hbf Hp V A; [discriminate|].
    cbn [tw_loop] in H. rewrite tbl_get_app_longer in H by exact Hp.
    destruct (tbl_get t (l :: r)) as [pos|] eqn:G.
    - (* a table hit: a pointer *)
      injection H as <- <-. apply tbl_get_some in G as (k & I & E).
      destruct (TS k pos I) as (Hpos & ls & h & D & R).
      exists (u16 (49152 + pos)), [], ls. rewrite app_nil_r.
      split; [reflexivity|]. split; [reflexivity|]. split; [|split; [|constructor]].
      + apply (Dec_written_pointer _ _ _ _ h); auto. apply (Hb k pos I).
      + eapply RN_trans; [exact R|]. apply (Hit k pos I [] (l :: r)); [reflexivity|exact E].
    - (* no hit: maybe remember the offset, write the label, go on with the rest *)
      destruct r as [|y r'].
      + (* the last label of an absolute name is the root label *)
        assert (l = []) as -> by (cbn in A; destruct l; [reflexivity|discriminate]).
        replace (if canon then lower_l [] else []) with (@nil Z) in H by (destruct canon; reflexivity).
        injection H as <- <-. exists [0], [], [[]]. rewrite app_nil_r.
        split; [reflexivity|]. split; [reflexivity|]. split; [apply Dec_written_root|].
        split; [exact RN_root|constructor].
      + pose proof (proj1 (Valid_cons _ _ _) V) as (Hl & Hl63 & _ & Vr).
        set (labels := l :: y :: r') in *.
        set (added := if (1 <? zlen labels) && (zlen file <=? 16383) then [(labels, zlen file)] else []).
        assert (tw_loop (y :: r') canon (file ++ zlen (emit l) :: emit l) (t ++ pend ++ added) = (file', t')) as H'.
        { rewrite emit_zlen. unfold added, emit. revert H.
          destruct (_ && _); rewrite ?app_nil_r, ?app_assoc; exact (fun H => H). }
        rewrite <- (emit_zlen l) in Hl63. clear H.
        destruct (IH _ t (pend ++ added) b file' t' H') as (em1 & new1 & ls_r & -> & -> & D & R & Fnew);
          [| |exact Hb|rewrite app_length; apply Nat.le_trans with (1 := Hbf), Nat.le_add_r| |exact Vr|exact A|].
        * apply TableSoundR_app, TS.
        * intros k v I p s Es. apply (Hit k v I (l :: p) s). unfold labels. rewrite Es. reflexivity.
        * (* the keys of pending entries stay longer than the suffixes to come *)
          intros k v I.
          apply in_app_or in I as [I|I]; [apply Nat.lt_trans with (2 := Hp k v I), Nat.lt_succ_diag_r|].
          unfold added in I. destruct (_ && _); [|destruct I].
          destruct I as [[= <- <-]|[]]. apply Nat.lt_succ_diag_r.
        * rewrite <- app_assoc in *. cbn [app] in *.
          apply Dec_written_label in D;
            [|unfold emit; destruct canon; [rewrite lower_l_nil_iff|]; exact Hl|exact Hl63].
          assert (RN (emit l :: ls_r) labels) as Rall by (apply RN_cons; exact R).
          exists (zlen (emit l) :: emit l ++ em1), (added ++ new1), (emit l :: ls_r).
          split; [reflexivity|]. split; [rewrite <- !app_assoc; reflexivity|].
          split; [exact D|]. split; [exact Rall|]. apply Forall_app. split; [|exact Fnew].
          unfold added. destruct (_ && _) eqn:C; constructor; [|constructor].
          apply andb_true_iff in C as [_ C]. apply Z.leb_le in C.
          unfold entry_ok. cbn [fst snd]. rewrite (Nat2Z.id (length file) : Z.to_nat (zlen file) = length file).
          split; [split; [apply zlen_nonneg|exact C]|]. split; [exact Hbf|].
          exists (emit l :: ls_r), (length (file ++ zlen (emit l) :: emit l ++ em1)).
          split; [eapply Dec_weaken; [exact D|exact Hbf]|exact Rall].
  Qed.

  (* lookups that hit return an entry standing for the looked-up suffix (always true for
     ci_equal; the "no case alias" hypothesis for byte-identity) *)
  Definition HitOK (t : ctable) (labels : name) : Prop :=
    forall k v, In (k, v) t -> forall p s, labels = p ++ s -> name_eqb k s = true -> RN k s.

  (* writing one whole name through a sound table *)
  Lemma tw_loop_top labels file t file' t' :
    TableSoundR file t -> HitOK t labels -> Valid labels -> is_absolute labels = true ->
    tw_loop labels canon file t = (file', t') ->
    exists em new ls,
      file' = file ++ em /\ t' = t ++ new /\ TableSoundR file' t' /\
      Dec file' (length file) (length file) ls (length file') /\ RN ls labels /\
      Forall (fun kv => 0 <= snd kv <= 16383) new.
  Proof.
    intros TS Hit V A L. rewrite <- (app_nil_r t) in L.
    destruct (tw_loop_sound labels file t [] (length file) file' t' L TS Hit)
      as (em & new & ls & -> & -> & D & R & Fnew); auto.
    - intros k v I. destruct (TS k v I) as (_ & ls0 & h0 & D0 & _). apply Dec_bounds in D0. lia.
    - intros k v [].
    - rewrite app_nil_r. exists em, new, ls. split; [reflexivity|]. split; [reflexivity|].
      split; [|split; [exact D|split; [exact R|]]].
      + intros k v I. apply in_app_or in I as [I|I].
        * apply (TableSoundR_app _ _ _ TS k v I).
        * rewrite Forall_forall in Fnew. destruct (Fnew _ I) as (Hv & _ & E). auto.
      + eapply Forall_impl; [|exact Fnew]. intros kv (Hv & _). exact Hv.
  Qed.
End Sound.

(* the labels Name.to_wire writes: the name itself, or the name made absolute with the origin *)
Definition full_name (n : name) (origin : option name) : res name :=
  if is_absolute n then Ok n
  else match origin with
       | Some o => if is_absolute o then mk_name (n ++ o) else Lib eNeedAbsolute
       | None => Lib eNeedAbsolute
       end.

Lemma to_wire_compress_unfold n origin canon file t :
  to_wire_compress n origin canon file t =
    do labels <- full_name n origin; Ok (tw_loop labels canon file t).
Proof.
  unfold to_wire_compress, full_name. destruct (is_absolute n); [reflexivity|].
  destruct origin as [o|]; [|reflexivity]. destruct (is_absolute o); reflexivity.
Qed.

Lemma full_name_valid n origin labels :
  Valid n -> full_name n origin = Ok labels -> Valid labels /\ is_absolute labels = true.
Proof.
  intros V. unfold full_name. destruct (is_absolute n) eqn:A.
  - intros H; inversion H; subst. auto.
  - destruct origin as [o|]; [|discriminate]. destruct (is_absolute o) eqn:Ao; [|discriminate].
    intros H. apply mk_name_ok in H. destruct H as [-> V']. split; [exact V'|].
    destruct o as [|x o]; [discriminate|]. rewrite is_absolute_app. exact Ao.
Qed.

Definition TableSound := TableSoundR ci_equal.

Lemma ci_RN_cons canon l ls r : ci_equal ls r -> ci_equal (emit canon l :: ls) (l :: r).
Proof.
  unfold ci_equal, emit. intros H. cbn [map]. f_equal; [|exact H].
  destruct canon; [|reflexivity]. unfold lower_l. rewrite map_map. apply map_ext. apply lower_idem.
Qed.

(* in terms of Dec: the written name is decodable at its offset without leaving the file *)
Lemma compress_sound_dec n origin canon file t file' t' labels :
  TableSound file t -> Valid n -> full_name n origin = Ok labels ->
  to_wire_compress n origin canon file t = Ok (file', t') ->
  exists em new ls,
    file' = file ++ em /\ t' = t ++ new /\ TableSound file' t' /\
    Dec file' (length file) (length file) ls (length file') /\ ci_equal ls labels /\
    Forall (fun kv => 0 <= snd kv <= 16383) new.
Proof.
  intros TS V F H. rewrite to_wire_compress_unfold, F in H. injection H as L.
  destruct (full_name_valid _ _ _ V F) as [Vl Al].
  apply (tw_loop_top canon ci_equal) with (t := t); auto.
  - reflexivity.
  - apply ci_RN_cons.
  - intros a b c H1 H2. unfold ci_equal in *. congruence.
  - intros k v I p s E Eq. apply name_eqb_iff_ci. exact Eq.
Qed.

Theorem compress_sound n origin canon file t file' t' labels :
  TableSound file t -> Valid n -> full_name n origin = Ok labels ->
  to_wire_compress n origin canon file t = Ok (file', t') ->
  exists em n',
    file' = file ++ em /\ TableSound file' t' /\
    from_wire file' (length file) = Ok (n', length em) /\ ci_equal n' labels /\
    (exists new, t' = t ++ new /\ Forall (fun kv => 0 <= snd kv <= 16383) new).
Proof.
  intros TS V F H.
  destruct (compress_sound_dec _ _ _ _ _ _ _ _ TS V F H) as (em & new & ls & -> & -> & TS' & D & R & N).
  destruct (full_name_valid _ _ _ V F) as [Vl _].
  exists em, ls. split; [reflexivity|]. split; [exact TS'|]. split; [|split; [exact R|eauto]].
  rewrite (Dec_from_wire _ _ _ _ D) by (eapply Valid_ci; [symmetry; exact R|exact Vl]).
  do 2 f_equal. rewrite app_length. lia.
Qed.

(* every table entry decodes to exactly its key *)
Definition TableExact := TableSoundR (@eq name).

(* no key of the table is a case variant of a suffix of the name being written *)
Definition NoCaseAlias (t : ctable) (labels : name) : Prop :=
  forall k v, In (k, v) t -> forall p s, labels = p ++ s -> ci_equal k s -> k = s.

Theorem compress_exact n origin file t file' t' labels :
  TableExact file t -> Valid n -> full_name n origin = Ok labels -> NoCaseAlias t labels ->
  to_wire_compress n origin false file t = Ok (file', t') ->
  exists em,
    file' = file ++ em /\ TableExact file' t' /\
    from_wire file' (length file) = Ok (labels, length em).
Proof.
  intros TS V F NA H. rewrite to_wire_compress_unfold, F in H. injection H as L.
  destruct (full_name_valid _ _ _ V F) as [Vl Al].
  destruct (tw_loop_top false (@eq name)) with (labels := labels) (t := t) (file := file) (file' := file') (t' := t')
    as (em & new & ls & -> & _ & TS' & D & -> & _); auto.
  - intros l ls r ->. reflexivity.
  - intros a b c -> ->. reflexivity.
  - intros k v I p s E Eq. apply (NA k v I p s E). apply name_eqb_iff_ci. exact Eq.
  - exists em. split; [reflexivity|]. split; [exact TS'|]. rewrite (Dec_from_wire _ _ _ _ D Vl). do 2 f_equal. rewrite app_length. lia.
Qed.

(* the empty table is sound, so the first name of a message always satisfies the premises *)
Lemma TableSound_nil file : TableSound file [] /\ TableExact file [].
Proof. split; intros k v []. Qed.

(* Dec is exactly what the executable decoder computes (converse of Dec_fw_go), so table
   soundness can be stated with from_wire itself. *)

Lemma fw_go_Dec msg : Forall (fun c => 0 <= c) msg -> forall f p b acc ls p',
  fw_go msg f p b acc = Ok (ls, p') ->
  exists ls0 h, ls = rev acc ++ ls0 /\ Dec msg (cur p) b ls0 h /\
                furthest p' = Nat.max (furthest p) h.
Proof.
  intros NN. induction f as [|f IH]; intros p b acc ls p' H; [discriminate|].
  rewrite fw_go_step in H. pose proof (fw_step_inv msg p b) as T.
  destruct (fw_step msg p b) as [e|q|l q|c q]; [discriminate| | |].
  - destruct T as [N ->]. injection H as <- <-.
    exists [[]], (cur p + 1)%nat. split; [reflexivity|]. split; [constructor; exact N|reflexivity].
  - destruct T as (count & N & C0 & C64 & L & -> & ->).
    assert (0 <= count) by (rewrite Forall_forall in NN; apply NN; eapply nth_error_In; eauto).
    rewrite adv_adv in H. apply IH in H as (ls0 & h & -> & D & F). cbn [cur furthest] in *.
    eexists (_ :: ls0), _. split; [cbn [rev]; rewrite <- app_assoc; reflexivity|].
    split; [eapply Dec_label; eauto; lia|]. rewrite F. symmetry. apply Nat.max_assoc.
  - destruct T as (hi8 & lo & N & H8 & Nlo & -> & Lb & L & ->).
    rewrite adv_adv in H. apply IH in H as (ls0 & h & -> & D & F). cbn [cur furthest] in *.
    exists ls0, (Nat.max (cur p + 2) h). split; [reflexivity|].
    split; [eapply Dec_ptr; eauto|]. rewrite F, <- Nat.add_assoc. symmetry. apply Nat.max_assoc.
Qed.

Theorem from_wire_Dec msg off n c : Forall (fun c => 0 <= c) msg ->
  from_wire msg off = Ok (n, c) -> exists h, Dec msg off off n h /\ c = (h - off)%nat /\ Valid n.
Proof.
  intros NN H. apply from_wire_inv in H as (p & E & -> & V).
  apply fw_go_Dec in E; [|exact NN]. cbn [cur furthest rev app] in E. destruct E as (ls0 & h & -> & D & F).
  exists h. split; [exact D|]. split; [|exact V].
  rewrite F. apply Dec_bounds in D. lia.
Qed.

(* table soundness in terms of the decoder: every offset is at most 0x3FFF and decoding there
   yields a name equal (ASCII-case-insensitively) to the key *)
Definition TableSoundW (file : list Z) (t : ctable) : Prop :=
  forall k v, In (k, v) t ->
    0 <= v <= 16383 /\ exists n c, from_wire file (Z.to_nat v) = Ok (n, c) /\ ci_equal n k.

Lemma TableSound_to_W file t :
  (forall k v, In (k, v) t -> Valid k) -> TableSound file t -> TableSoundW file t.
Proof.
  intros VK TS k v I. destruct (TS k v I) as (Hv & ls & h & D & R). split; [exact Hv|].
  exists ls, (h - Z.to_nat v)%nat. split; [|exact R].
  apply Dec_from_wire; [exact D|]. eapply Valid_ci; [symmetry; exact R|apply (VK k v I)].
Qed.

Lemma TableSoundW_to file t : Forall (fun c => 0 <= c) file -> TableSoundW file t -> TableSound file t.
Proof.
  intros NN TS k v I. destruct (TS k v I) as (Hv & n & c & F & R). split; [exact Hv|].
  apply from_wire_Dec in F; [|exact NN]. destruct F as (h & D & _ & _). eauto.
Qed.

(* the keys the loop adds are suffixes of the name written *)
Lemma tw_loop_keys_valid canon : forall labels file t,
  Valid labels -> (forall k v, In (k, v) t -> Valid k) ->
  forall k v, In (k, v) (snd (tw_loop labels canon file t)) -> Valid k.
Proof.
  induction labels as [|l r IH]; intros file t Vl VK; [exact VK|].
  cbn [tw_loop]. destruct (tbl_get t (l :: r)); [exact VK|].
  apply IH; [eapply Valid_tl; exact Vl|]. intros k v I.
  destruct (_ && _); [apply in_app_or in I as [I|[[= <- <-]|[]]]|]; eauto.
Qed.

(* the theorem in decoder terms (octets of the message so far are non-negative, as bytes are) *)
Theorem compress_sound_W n origin canon file t file' t' labels :
  Forall (fun c => 0 <= c) file ->
  (forall k v, In (k, v) t -> Valid k) ->
  TableSoundW file t -> Valid n -> full_name n origin = Ok labels ->
  to_wire_compress n origin canon file t = Ok (file', t') ->
  exists em n',
    file' = file ++ em /\ TableSoundW file' t' /\ (forall k v, In (k, v) t' -> Valid k) /\
    from_wire file' (length file) = Ok (n', length em) /\ ci_equal n' labels /\
    (exists new, t' = t ++ new /\ Forall (fun kv => 0 <= snd kv <= 16383) new).
Proof.
  intros NN VK TS V F H.
  assert (forall k v, In (k, v) t' -> Valid k) as VK'.
  { pose proof H as H0. rewrite to_wire_compress_unfold, F in H0. injection H0 as L.
    replace t' with (snd (tw_loop labels canon file t)) by (rewrite L; reflexivity).
    apply tw_loop_keys_valid; [apply (full_name_valid _ _ _ V F)|exact VK]. }
  apply TableSoundW_to in TS; [|exact NN].
  destruct (compress_sound n origin canon file t file' t' labels TS V F H) as (em & n' & Ef & TS' & FW & R & N).
  exists em, n'. split; [exact Ef|]. split; [apply TableSound_to_W; assumption|]. auto.
Qed.

(* Name.to_wire without a file: the encoding of the name made absolute with the origin, never
   longer than 255 octets, and it decodes to exactly those labels. *)

Lemma Valid_relative_nonempty (n : name) : Valid n -> is_absolute n = false -> Forall (fun l => l <> []) n.
Proof.
  intros (_ & _ & V3) A. destruct n as [|l n] using rev_ind; [constructor|].
  rewrite removelast_last in V3. apply Forall_app. split; [exact V3|].
  rewrite is_absolute_last in A. constructor; [|constructor]. destruct l; [discriminate|discriminate].
Qed.

(* a relative name made absolute with an origin: only the total length can be wrong *)
Lemma mk_name_app_abs (n o : name) :
  Valid n -> Valid o -> is_absolute n = false -> is_absolute o = true ->
  mk_name (n ++ o) = if wire_length n + wire_length o >? 255 then Lib eNameTooLong else Ok (n ++ o).
Proof.
  intros Vn Vo An Ao. pose proof (Valid_relative_nonempty n Vn An) as NE.
  destruct Vn as (N1 & _ & _), Vo as (O1 & _ & O3). rewrite <- wire_length_app.
  apply mk_name_within; [apply Forall_app; split; assumption|].
  destruct o as [|x o]; [discriminate|]. rewrite removelast_app_cons. apply Forall_app. split; assumption.
Qed.

Theorem to_wire_spec n origin canon w :
  Valid n -> (forall o, origin = Some o -> Valid o) ->
  to_wire n origin canon = Ok w ->
  exists labels, full_name n origin = Ok labels /\ w = wire_labels canon labels /\
                 Z.of_nat (length w) <= 255.
Proof.
  intros Vn Vo. unfold to_wire, full_name. destruct (is_absolute n) eqn:An.
  - intros [= <-]. exists n. split; [reflexivity|]. split; [reflexivity|].
    rewrite wire_labels_length. destruct Vn as (_ & L & _). exact L.
  - destruct origin as [o|]; [|discriminate]. destruct (is_absolute o) eqn:Ao; [|discriminate].
    rewrite mk_name_app_abs by auto.
    destruct (Z.gtb_spec (wire_length n + wire_length o) 255) as [|L]; [discriminate|].
    intros [= <-]. exists (n ++ o). rewrite <- wire_labels_app, wire_labels_length, wire_length_app. auto.
Qed.

Theorem to_wire_roundtrip n origin w pre post :
  Valid n -> (forall o, origin = Some o -> Valid o) ->
  to_wire n origin false = Ok w ->
  exists labels, full_name n origin = Ok labels /\
    from_wire (pre ++ w ++ post) (length pre) = Ok (labels, length w).
Proof.
  intros Vn Vo H. destruct (to_wire_spec _ _ _ _ Vn Vo H) as (labels & F & -> & _).
  exists labels. split; [exact F|].
  destruct (full_name_valid _ _ _ Vn F) as [Vl Al].
  apply (wire_roundtrip labels pre post Vl Al).
Qed.

(* the third call shape of Name.to_wire: a file but no compression table.  On valid names it
   behaves exactly like the no-file form: same octets, same NameTooLong. *)
Theorem to_wire_file_eq n origin canon :
  Valid n -> (forall o, origin = Some o -> Valid o) ->
  to_wire_file n origin canon = to_wire n origin canon.
Proof.
  intros Vn Vo. unfold to_wire_file, to_wire. destruct (is_absolute n) eqn:An; [reflexivity|].
  destruct origin as [o|]; [|reflexivity]. destruct (is_absolute o) eqn:Ao; [|reflexivity].
  rewrite mk_name_app_abs by auto. destruct (_ >? 255); [reflexivity|].
  cbn [bind]. rewrite wire_labels_app. reflexivity.
Qed.

(* A whole sequence of names written through one table (as a message renderer does): the
   invariant composes, and every name stays decodable in the final message. *)

Theorem write_names_sound origin : forall ns file t file' t',
  TableSound file t -> Forall Valid ns ->
  write_names ns origin file t = Ok (file', t') ->
  exists em offs,
    file' = file ++ em /\ TableSound file' t' /\
    Forall2 (fun n off =>
               exists labels n' c, full_name n origin = Ok labels /\
                 from_wire file' off = Ok (n', c) /\ ci_equal n' labels) ns offs.
Proof.
  induction ns as [|n ns IH]; intros file t file' t' TS V H.
  - cbn in H. inversion H; subst. exists [], []. rewrite app_nil_r. split; [reflexivity|]. split; [exact TS|constructor].
  - cbn [write_names] in H. inversion V as [|? ? Vn Vns]; subst.
    destruct (to_wire_compress n origin false file t) as [[f1 t1]| |] eqn:E; cbn [bind] in H; try discriminate.
    cbn [fst snd] in H.
    assert (exists labels, full_name n origin = Ok labels) as [labels F].
    { rewrite to_wire_compress_unfold in E. destruct (full_name n origin); cbn [bind] in E; try discriminate. eauto. }
    destruct (compress_sound_dec _ _ _ _ _ _ _ _ TS Vn F E) as (em1 & new & ls & Ef1 & _ & TS1 & D & R & _).
    destruct (IH f1 t1 file' t' TS1 Vns H) as (em2 & offs & Ef & TS' & FA).
    exists (em1 ++ em2), (length file :: offs).
    split; [rewrite Ef, Ef1, app_assoc; reflexivity|]. split; [exact TS'|].
    constructor; [|exact FA].
    destruct (full_name_valid _ _ _ Vn F) as [Vl _].
    exists labels, ls, (length f1 - length file)%nat. split; [exact F|]. split; [|exact R].
    rewrite Ef. apply Dec_from_wire; [apply Dec_app; exact D|].
    eapply Valid_ci; [symmetry; exact R|exact Vl].
Qed.

(* whatever from_wire decodes is an absolute valid name whose own uncompressed encoding decodes
   to it again (decode / re-encode / decode is stable) *)

Lemma Dec_absolute msg cur b ls h : Dec msg cur b ls h -> is_absolute ls = true.
Proof.
  induction 1 as [cur b H|cur b count l ls hi H Hc Hl El D IH|cur b hi8 lo c ls h H H8 Hlo Ec Hcb D IH].
  - reflexivity.
  - destruct ls as [|y ls]; [discriminate|]. exact IH.
  - exact IH.
Qed.

Theorem from_wire_reencode msg off n c : Forall (fun x => 0 <= x) msg ->
  from_wire msg off = Ok (n, c) ->
  Valid n /\ is_absolute n = true /\
  from_wire (wire_labels false n) 0 = Ok (n, length (wire_labels false n)).
Proof.
  intros NN H. apply from_wire_Dec in H; [|exact NN]. destruct H as (h & D & _ & V).
  pose proof (Dec_absolute _ _ _ _ _ D) as A.
  split; [exact V|]. split; [exact A|].
  destruct (wire_roundtrip n [] [] V A) as [_ R]. cbn [app length] in R. rewrite app_nil_r in R. exact R.
Qed.

Lemma consumed_plain (n : name) (pre post : list Z) :
  Valid n -> is_absolute n = true ->
  exists m, from_wire (pre ++ wire_labels false n ++ post) (length pre) = Ok (m, length (wire_labels false n)).
Proof. intros V A. exists n. exact (proj2 (wire_roundtrip n pre post V A)). Qed.

Lemma consumed_compressed n origin canon file t file' t' labels :
  Forall (fun c => 0 <= c) file -> (forall k v, In (k, v) t -> Valid k) ->
  TableSoundW file t -> Valid n -> full_name n origin = Ok labels ->
  to_wire_compress n origin canon file t = Ok (file', t') ->
  exists m, from_wire file' (length file) = Ok (m, (length file' - length file)%nat).
Proof.
  intros NN VK TS V F H.
  destruct (compress_sound_W n origin canon file t file' t' labels NN VK TS V F H)
    as (em & m & -> & _ & _ & FW & _).
  exists m. rewrite FW. rewrite app_length. f_equal. f_equal. lia.
Qed.
