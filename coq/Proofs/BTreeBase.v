(* C19 - basic lemmas: list primitives, key-sorted lists, search_in_node = linear search, the
   reference operations on sorted association lists. *)
From DV Require Import Base.Prelude Proofs.ListFacts Model.BTreeM.
#[global] Arguments t_min : simpl never.
#[global] Arguments t_max : simpl never.

Lemma nth_error_app_mid {A} (a : list A) x b : nth_error (a ++ x :: b) (length a) = Some x.
Proof. rewrite nth_error_app2 by lia. now rewrite Nat.sub_diag. Qed.

Lemma Forall_mid {A} (P : A -> Prop) a x b : Forall P (a ++ x :: b) <-> Forall P a /\ P x /\ Forall P b.
Proof.
  rewrite Forall_app. split.
  - intros (H1 & H2). inversion H2; subst. tauto.
  - intros (H1 & H2 & H3). split; [assumption|now constructor].
Qed.

Lemma nth_error_app_mid' {A} (a : list A) x b n : length a = n -> nth_error (a ++ x :: b) n = Some x.
Proof. intros <-. apply nth_error_app_mid. Qed.

Lemma list_split_at {A} (l : list A) n : (n <= length l)%nat -> exists a b, l = a ++ b /\ length a = n.
Proof. intros H. exists (firstn n l), (skipn n l). split; [symmetry; apply firstn_skipn|]. rewrite firstn_length. lia. Qed.

Lemma split_at_app {A} (a : list A) x b i :
  length a = i -> split_at i (a ++ x :: b) = Ok (a, x, b).
Proof. intros H. unfold split_at. now rewrite skipn_app_exact, firstn_app_exact by assumption. Qed.

Lemma split_at_snoc {A} (a : list A) x y b : split_at (S (length a)) (a ++ x :: y :: b) = Ok (a ++ [x], y, b).
Proof.
  change (a ++ x :: y :: b) with (a ++ [x] ++ y :: b). rewrite app_assoc.
  apply split_at_app, last_length.
Qed.

Lemma split_at_inv {A} i (l : list A) a x b :
  split_at i l = Ok (a, x, b) -> l = a ++ x :: b /\ length a = i.
Proof.
  unfold split_at. destruct (skipn i l) eqn:E; [discriminate|].
  intros H; inversion H; subst. split.
  - rewrite <- E. symmetry. apply firstn_skipn.
  - rewrite firstn_length. apply Nat.min_l.
    destruct (Nat.le_gt_cases i (length l)); [assumption|].
    rewrite skipn_all2 in E by lia. discriminate.
Qed.

Lemma split_at_ok {A} i (l : list A) :
  (i < length l)%nat -> exists a x b, split_at i l = Ok (a, x, b) /\ l = a ++ x :: b /\ length a = i.
Proof.
  intros H. destruct (list_split_at l i) as (a & [|x b] & -> & <-); [lia|rewrite app_nil_r in H; lia|].
  exists a, x, b. split; [now apply split_at_app|auto].
Qed.

Lemma split_at_err {A} i (l : list A) a x b e :
  split_at i l = Ok (a, x, b) -> Internal e <> Ok (a, x, b) .
Proof. discriminate. Qed.

Lemma length_set_nth {A} i (x : A) l : length (set_nth i x l) = length l.
Proof. revert i. induction l as [|y l IH]; intros [|i]; cbn; auto. Qed.

Lemma nth_set_nth_eq {A} i (x : A) l : (i < length l)%nat -> nth_error (set_nth i x l) i = Some x.
Proof. revert i. induction l as [|y l IH]; intros [|i] H; cbn in *; try lia; auto. apply IH. lia. Qed.

Lemma nth_set_nth_ne {A} i j (x : A) l : i <> j -> nth_error (set_nth i x l) j = nth_error l j.
Proof. revert i j. induction l as [|y l IH]; intros [|i] [|j] H; cbn; auto; try congruence. Qed.

Lemma nth_set_nth_inv {A} i (x : A) l j y :
  nth_error (set_nth i x l) j = Some y -> j = i /\ y = x \/ nth_error l j = Some y.
Proof.
  intros H. destruct (Nat.eq_dec i j) as [<-|Hne]; [left|right; now rewrite nth_set_nth_ne in H].
  rewrite nth_set_nth_eq in H; [inversion H; auto|].
  rewrite <- (length_set_nth i x). apply nth_error_Some. congruence.
Qed.

Lemma nth_set_nth_Some {A} i j (x y : A) l : nth_error l j = Some y ->
  nth_error (set_nth i x l) j = Some (if (i =? j)%nat then x else y).
Proof. revert i j. induction l as [|z l IH]; intros [|i] [|j]; cbn; try discriminate; auto. Qed.

Lemma set_nth_set_nth {A} i (x y : A) l : set_nth i y (set_nth i x l) = set_nth i y l.
Proof. revert i. induction l; intros [|i]; cbn; try reflexivity. now rewrite IHl. Qed.

Lemma set_nth_same {A} i (x : A) l : nth_error l i = Some x -> set_nth i x l = l.
Proof. revert i. induction l; intros [|i] H; try discriminate; cbn in *; [congruence|]. now rewrite IHl. Qed.

Lemma pop_last_app {A} (l : list A) x : pop_last (l ++ [x]) = Ok (l, x).
Proof. unfold pop_last. rewrite rev_app_distr. cbn. now rewrite rev_involutive. Qed.

Lemma pop_last_ok {A} (l : list A) : l <> [] -> exists l' x, l = l' ++ [x] /\ pop_last l = Ok (l', x).
Proof.
  intros H. destruct (exists_last H) as (l' & x & ->). exists l', x. split; [reflexivity|apply pop_last_app].
Qed.

Lemma insert_at_app {A} (a b : list A) x i : length a = i -> insert_at i x (a ++ b) = a ++ x :: b.
Proof. intros H. unfold insert_at. now rewrite firstn_app_exact, skipn_app_exact by assumption. Qed.

Definition all_lt (l : list elt) (k : Z) : Prop := Forall (fun e => fst e < k) l.
Definition all_gt (l : list elt) (k : Z) : Prop := Forall (fun e => k < fst e) l.

Fixpoint ksorted (l : list elt) : Prop :=
  match l with
  | [] => True
  | e :: r => all_gt r (fst e) /\ ksorted r
  end.

Lemma all_lt_app a b k : all_lt (a ++ b) k <-> all_lt a k /\ all_lt b k.
Proof. unfold all_lt. apply Forall_app. Qed.
Lemma all_gt_app a b k : all_gt (a ++ b) k <-> all_gt a k /\ all_gt b k.
Proof. unfold all_gt. apply Forall_app. Qed.

Lemma all_gt_weaken l k k' : k' <= k -> all_gt l k -> all_gt l k'.
Proof. intros H. unfold all_gt. apply Forall_impl. intros; lia. Qed.
Lemma all_lt_weaken l k k' : k <= k' -> all_lt l k -> all_lt l k'.
Proof. intros H. unfold all_lt. apply Forall_impl. intros; lia. Qed.

Lemma ksorted_app a b :
  ksorted (a ++ b) <-> ksorted a /\ ksorted b /\ (forall x, In x a -> all_gt b (fst x)).
Proof.
  induction a as [|e a IH]; cbn.
  - intuition.
  - rewrite IH, all_gt_app. split.
    + intros ((H1 & H2) & H3 & H4 & H5). repeat split; try assumption.
      intros x [<-|Hx]; auto.
    + intros ((H1 & H2) & H3 & H4). repeat split; auto.
Qed.

Lemma ksorted_cons_inv e r : ksorted (e :: r) -> all_gt r (fst e) /\ ksorted r.
Proof. exact (fun H => H). Qed.

Lemma ksorted_mid a x b : ksorted (a ++ x :: b) -> all_lt a (fst x) /\ all_gt b (fst x) /\ ksorted a /\ ksorted b.
Proof.
  rewrite ksorted_app. cbn. intros (Ha & (Hb & Hb') & H). repeat split; auto.
  unfold all_lt. apply Forall_forall. intros y Hy. specialize (H y Hy). inversion H; subst. assumption.
Qed.

Lemma sorted_keys_iff l : sorted_keys l = true <-> ksorted l.
Proof.
  induction l as [|[k v] r IH]; cbn; [tauto|].
  destruct r as [|[k' v'] r'].
  - cbn. split; [intros _; split; [apply Forall_nil|exact Logic.I]|reflexivity].
  - rewrite andb_true_iff, IH, Z.ltb_lt. cbn. split.
    + intros (Hlt & Hg & Hs). split; [|split; assumption].
      constructor; [assumption|]. eapply all_gt_weaken; [|exact Hg]. cbn. lia.
    + intros (Hg & Hg' & Hs). inversion Hg; subst. cbn in *. tauto.
Qed.

(* k stands between ea and eb: behind the keys below it, and at the element with key k if hit *)
Definition stands (k : Z) (ea eb : list elt) (hit : bool) : Prop :=
  all_lt ea k /\ if hit then exists v eb', eb = (k, v) :: eb' /\ all_gt eb' k else all_gt eb k.

Lemma lsearch_spec k es :
  ksorted es -> exists ea eb hit, es = ea ++ eb /\ lsearch k es = (length ea, hit) /\ stands k ea eb hit.
Proof.
  induction es as [|[k' v] r IH]; cbn; intros Hs.
  - exists [], [], false. repeat split; constructor.
  - destruct Hs as (Hg & Hs).
    destruct (Z.eqb_spec k k') as [->|Hne].
    + exists [], ((k', v) :: r), true. repeat split; [constructor|]. eauto.
    + destruct (Z.ltb_spec k k').
      * exists [], ((k', v) :: r), false. repeat split; [constructor|].
        constructor; [cbn; lia|]. eapply all_gt_weaken; [|exact Hg]. cbn. lia.
      * destruct (IH Hs) as (ea & eb & hit & -> & -> & Hlt & Hrest).
        exists ((k', v) :: ea), eb, hit. repeat split; [|assumption].
        constructor; [cbn; lia|assumption].
Qed.

Lemma lsearch_app_lt ea eb k : all_lt ea k -> lsearch k (ea ++ eb) = ((length ea + fst (lsearch k eb))%nat, snd (lsearch k eb)).
Proof.
  induction ea as [|[k' v] ea IH]; cbn; intros H.
  - now destruct (lsearch k eb).
  - inversion H; subst. cbn in *. destruct (Z.eqb_spec k k'); [lia|]. destruct (Z.ltb_spec k k'); [lia|].
    rewrite IH by assumption. reflexivity.
Qed.

Lemma lsearch_gt eb k : all_gt eb k -> lsearch k eb = (0%nat, false).
Proof.
  destruct eb as [|[k' v] r]; cbn; [reflexivity|]. intros H. inversion H; subst. cbn in *.
  destruct (Z.eqb_spec k k'); [lia|]. destruct (Z.ltb_spec k k'); [reflexivity|lia].
Qed.

Lemma lsearch_hit ea eb k v : all_lt ea k -> lsearch k (ea ++ (k, v) :: eb) = (length ea, true).
Proof.
  intros H. rewrite lsearch_app_lt by assumption. cbn. rewrite Z.eqb_refl. cbn. f_equal. lia.
Qed.

Lemma lsearch_miss ea eb k : all_lt ea k -> all_gt eb k -> lsearch k (ea ++ eb) = (length ea, false).
Proof.
  intros H1 H2. rewrite lsearch_app_lt, lsearch_gt by assumption. cbn. f_equal. lia.
Qed.

(* what a probe at position m tells about the place of k *)
Lemma stands_nth k ea eb hit m k' v :
  stands k ea eb hit -> nth_error (ea ++ eb) m = Some (k', v) ->
  ((m < length ea)%nat -> k' < k) /\ ((length ea < m)%nat -> k < k') /\
  (m = length ea -> if hit then k' = k else k < k').
Proof.
  intros (Hlt & Hrest) Hn. unfold all_lt, all_gt in *. rewrite Forall_forall in Hlt. repeat split.
  - intros Hm. rewrite nth_error_app1 in Hn by assumption. exact (Hlt _ (nth_error_In _ _ Hn)).
  - intros Hm. rewrite nth_error_app2 in Hn by lia. destruct hit.
    + destruct Hrest as (v' & eb' & -> & Hg). destruct (m - length ea)%nat eqn:Ed; [lia|].
      cbn [nth_error] in Hn. rewrite Forall_forall in Hg. exact (Hg _ (nth_error_In _ _ Hn)).
    + rewrite Forall_forall in Hrest. exact (Hrest _ (nth_error_In _ _ Hn)).
  - intros ->. rewrite nth_error_app2, Nat.sub_diag in Hn by lia. destruct hit.
    + destruct Hrest as (v' & eb' & -> & _). cbn in Hn. congruence.
    + destruct eb; [discriminate|]. injection Hn as ->. now apply Forall_inv in Hrest.
Qed.

Lemma bs_spec fuel : forall k ea eb hit l i,
  stands k ea eb hit ->
  (l <= length ea <= i)%nat -> (i <= length (ea ++ eb))%nat -> (hit = true -> (length ea < i)%nat) ->
  (i - l < fuel)%nat ->
  bs fuel k (ea ++ eb) l i = Ok (length ea, hit).
Proof.
  induction fuel as [|f IH]; intros k ea eb hit l i Hst Hj Hi He Hf; [lia|].
  cbn [bs]. destruct (Nat.ltb_spec l i) as [Hli|Hli].
  - set (m := ((l + (i - 1)) / 2)%nat).
    assert (Hm : (l <= m < i)%nat) by (subst m; split; [apply Nat.div_le_lower_bound|apply Nat.div_lt_upper_bound]; lia).
    clearbody m.
    destruct (nth_error (ea ++ eb) m) as [[k' v]|] eqn:En; [|apply nth_error_None in En; lia].
    destruct (stands_nth _ _ _ _ _ _ _ Hst En) as (H1 & H2 & H3).
    destruct (Z.eqb_spec k k') as [Heq|Hne]; [|destruct (Z.ltb_spec k k')].
    + assert (m = length ea) as -> by lia. destruct hit; [reflexivity|]. specialize (H3 eq_refl). lia.
    + apply IH; try assumption; try lia. intros ->. assert (m <> length ea) by (intros Hx; specialize (H3 Hx); lia). lia.
    + apply IH; try assumption; destruct hit; lia.
  - assert (length ea = i) by lia. destruct hit; [specialize (He eq_refl); lia|]. now subst.
Qed.

Theorem search_lsearch k es : ksorted es -> search k es = Ok (lsearch k es).
Proof.
  intros Hs. destruct (lsearch_spec k es Hs) as (ea & eb & hit & -> & -> & Hst).
  assert (Hhit : hit = true -> (length ea < length (ea ++ eb))%nat).
  { intros ->. destruct Hst as (_ & v & eb' & -> & _). rewrite app_length. cbn. lia. }
  unfold search. destruct (length (ea ++ eb)) as [|n'] eqn:El.
  - destruct hit; [specialize (Hhit eq_refl); lia|]. destruct ea; [reflexivity|discriminate].
  - destruct (nth_error (ea ++ eb) n') as [[kl v]|] eqn:En; [|apply nth_error_None in En; lia].
    destruct (stands_nth _ _ _ _ _ _ _ Hst En) as (H1 & H2 & H3).
    assert (Hle : (length ea <= S n')%nat) by (rewrite <- El, app_length; lia).
    destruct (Z.ltb_spec kl k) as [Hlt|Hge].
    + (* beyond the last key *)
      assert (n' <> length ea) by (intros Hx; specialize (H3 Hx); destruct hit; lia).
      destruct hit; [specialize (Hhit eq_refl); lia|]. do 2 f_equal. lia.
    + rewrite <- El. apply bs_spec; try assumption; lia.
Qed.

Lemma search_hit ea eb k v : ksorted (ea ++ (k, v) :: eb) -> search k (ea ++ (k, v) :: eb) = Ok (length ea, true).
Proof.
  intros Hs. rewrite search_lsearch by assumption. f_equal. apply lsearch_hit.
  apply ksorted_mid in Hs. tauto.
Qed.

Lemma search_miss ea eb k : ksorted (ea ++ eb) -> all_lt ea k -> all_gt eb k -> search k (ea ++ eb) = Ok (length ea, false).
Proof. intros Hs H1 H2. rewrite search_lsearch by assumption. f_equal. now apply lsearch_miss. Qed.

Lemma search_cases k es :
  ksorted es ->
  (exists ea v eb, es = ea ++ (k, v) :: eb /\ search k es = Ok (length ea, true) /\ all_lt ea k /\ all_gt eb k)
  \/ (exists ea eb, es = ea ++ eb /\ search k es = Ok (length ea, false) /\ all_lt ea k /\ all_gt eb k).
Proof.
  intros Hs. destruct (lsearch_spec k es Hs) as (ea & eb & [|] & -> & _ & Hlt & Hrest).
  - destruct Hrest as (v & eb' & -> & Hg). left. exists ea, v, eb'. repeat split; try assumption.
    now apply search_hit.
  - right. exists ea, eb. repeat split; try assumption. now apply search_miss.
Qed.

(* Each operation acts on the part of the list between a prefix of smaller keys and a suffix
   of greater keys. *)

Lemma find_sorted_in_mid a c b k : all_lt a k -> all_gt b k -> find_sorted k (a ++ c ++ b) = find_sorted k c.
Proof.
  intros Ha Hb.
  induction Ha as [|[k' v] a Hk _ IH]; cbn [app find_sorted].
  2:{ cbn in Hk. destruct (Z.eqb_spec k k'); [lia|exact IH]. }
  induction c as [|[k' v] c IH]; cbn [app find_sorted].
  2:{ destruct (k =? k'); [reflexivity|exact IH]. }
  induction Hb as [|[k' v] b Hk _ IH]; cbn [find_sorted]; [reflexivity|].
  cbn in Hk. destruct (Z.eqb_spec k k'); [lia|exact IH].
Qed.

Lemma find_sorted_at a v b k : all_lt a k -> all_gt b k -> find_sorted k (a ++ (k, v) :: b) = Some (k, v).
Proof. intros Ha Hb. rewrite (find_sorted_in_mid a [(k, v)] b) by assumption. cbn. now rewrite Z.eqb_refl. Qed.

Lemma ins_sorted_mid a c b e :
  all_lt a (fst e) -> all_gt b (fst e) -> c <> [] \/ b = [] \/ True ->
  ins_sorted e (a ++ c ++ b) = a ++ ins_sorted e (c ++ b).
Proof.
  intros Ha _ _. induction Ha as [|[k v] a Hk _ IH]; cbn; [reflexivity|]. cbn in Hk.
  destruct (Z.eqb_spec (fst e) k); [lia|]. destruct (Z.ltb_spec (fst e) k); [lia|].
  now rewrite IH.
Qed.

Lemma ins_sorted_hit v b e : ins_sorted e ((fst e, v) :: b) = e :: b.
Proof. cbn. now rewrite Z.eqb_refl. Qed.

Lemma ins_sorted_in_mid a c b e :
  all_lt a (fst e) -> all_gt b (fst e) -> ins_sorted e (a ++ c ++ b) = a ++ ins_sorted e c ++ b.
Proof.
  intros Ha Hb. rewrite ins_sorted_mid by auto. f_equal.
  induction c as [|[k v] c IH]; cbn.
  - destruct Hb as [|[k v] b Hk _]; cbn; [reflexivity|]. cbn in Hk.
    destruct (Z.eqb_spec (fst e) k); [lia|]. destruct (Z.ltb_spec (fst e) k); [reflexivity|lia].
  - destruct (fst e =? k); [reflexivity|]. destruct (fst e <? k); [reflexivity|]. cbn. now rewrite IH.
Qed.

Lemma ins_sorted_at a v b e :
  all_lt a (fst e) -> all_gt b (fst e) -> ins_sorted e (a ++ (fst e, v) :: b) = a ++ e :: b.
Proof.
  intros Ha Hb. rewrite (ins_sorted_mid a [(fst e, v)] b) by auto. cbn [app]. now rewrite ins_sorted_hit.
Qed.

Lemma ins_sorted_all_gt e l k' : k' < fst e -> all_gt l k' -> all_gt (ins_sorted e l) k'.
Proof.
  intros He. induction 1 as [|[k v] l Hk Hl IH]; cbn; [now repeat constructor|].
  destruct (fst e =? k); [now constructor|]. destruct (fst e <? k); now repeat constructor.
Qed.

Lemma ins_sorted_sorted e l : ksorted l -> ksorted (ins_sorted e l).
Proof.
  induction l as [|[k v] r IH]; cbn; intros Hs; [split; [constructor|exact Logic.I]|].
  destruct Hs as (Hg & Hs).
  destruct (Z.eqb_spec (fst e) k) as [Heq|Hne]; [cbn; rewrite Heq; auto|].
  destruct (Z.ltb_spec (fst e) k); cbn.
  - split; [|split; assumption]. constructor; [cbn; lia|]. eapply all_gt_weaken; [|exact Hg]. cbn. lia.
  - split; [|auto]. apply ins_sorted_all_gt; [cbn; lia|assumption].
Qed.

Lemma ins_sorted_length e l :
  ksorted l ->
  length (ins_sorted e l) = match find_sorted (fst e) l with Some _ => length l | None => S (length l) end.
Proof.
  induction l as [|[k v] r IH]; cbn; intros Hs; [reflexivity|]. destruct Hs as (Hg & Hs).
  destruct (Z.eqb_spec (fst e) k); [reflexivity|]. destruct (Z.ltb_spec (fst e) k).
  - cbn. rewrite (find_sorted_in_mid [] [] r); [reflexivity|constructor|]. eapply all_gt_weaken; [|exact Hg]. cbn. lia.
  - cbn. rewrite IH by assumption. destruct (find_sorted (fst e) r); reflexivity.
Qed.

Lemma del_sorted_in_mid a c b k : all_lt a k -> all_gt b k -> del_sorted k (a ++ c ++ b) = a ++ del_sorted k c ++ b.
Proof.
  intros Ha Hb.
  induction Ha as [|[k' v] a Hk _ IH]; cbn [app del_sorted].
  2:{ cbn in Hk. destruct (Z.eqb_spec k k'); [lia|now rewrite IH]. }
  induction c as [|[k' v] c IH]; cbn [app del_sorted].
  2:{ destruct (k =? k'); [reflexivity|]. cbn [app]. now rewrite IH. }
  induction Hb as [|[k' v] b Hk _ IH]; cbn [del_sorted]; [reflexivity|].
  cbn in Hk. destruct (Z.eqb_spec k k'); [lia|now rewrite IH].
Qed.

Lemma del_sorted_at a v b k : all_lt a k -> all_gt b k -> del_sorted k (a ++ (k, v) :: b) = a ++ b.
Proof. intros Ha Hb. rewrite (del_sorted_in_mid a [(k, v)] b) by assumption. cbn. now rewrite Z.eqb_refl. Qed.

Lemma del_sorted_all_gt l k k' : all_gt l k' -> all_gt (del_sorted k l) k'.
Proof.
  induction l as [|[k0 v] l IH]; cbn; intros H; [assumption|]. inversion H as [|? ? H3 H4]; subst.
  destruct (k =? k0); [exact H4|]. constructor; [exact H3|exact (IH H4)].
Qed.

Lemma del_sorted_sorted k l : ksorted l -> ksorted (del_sorted k l).
Proof.
  induction l as [|[k' v] r IH]; cbn; intros Hs; [exact Logic.I|]. destruct Hs as (Hg & Hs).
  destruct (k =? k'); [assumption|]. cbn. split; [now apply del_sorted_all_gt|auto].
Qed.

Lemma del_sorted_length k l :
  match find_sorted k l with
  | Some _ => S (length (del_sorted k l)) = length l
  | None => length (del_sorted k l) = length l
  end.
Proof.
  induction l as [|[k' v] r IH]; cbn [find_sorted del_sorted]; [reflexivity|].
  destruct (Z.eqb_spec k k'); [reflexivity|]. cbn [length].
  destruct (find_sorted k r); lia.
Qed.
