(* EUI48 / EUI64 (dns/rdtypes/euibase.py): the octets printed as hex pairs joined by "-" are read back
   (length check, dash positions, dashes removed, unhexlify) as the same octets, for every length > 0. *)
From DV Require Import Base.Prelude Model.NameM Model.TokM Model.RdTextM.
From DV Require Import Proofs.TokEsc Proofs.TokWords Proofs.TokHex.
Open Scope Z_scope.

Definition hexpair (x : Z) : list Z := [hexdigit (x / 16); hexdigit (x mod 16)].

Lemma hexlify_cons x b : hexlify (x :: b) = hexpair x ++ hexlify b.
Proof. reflexivity. Qed.

Lemma chunks_hex b : forall f, (length (hexlify b) <= f)%nat -> chunks_fuel f 2 (hexlify b) = map hexpair b.
Proof.
  induction b as [|x b IH]; intros f Hf.
  - destruct f; reflexivity.
  - rewrite hexlify_cons in *. cbn [app hexpair length] in Hf. destruct f as [|f]; [lia|].
    cbn [chunks_fuel hexpair app firstn skipn map]. f_equal. apply IH. lia.
Qed.

Lemma eui_text_eq b : eui_to_text b = join_sep [45] (map hexpair b).
Proof.
  unfold eui_to_text, wordbreak. change (2 <=? 0) with false. cbv iota.
  change (Z.to_nat 2) with 2%nat. rewrite chunks_hex by lia. reflexivity.
Qed.

Lemma hexdigit_ne45 v : 0 <= v < 16 -> (hexdigit v =? 45) = false.
Proof. intros Hv. unfold hexdigit. destruct (v <? 10); lia. Qed.

Lemma join_pairs_cons x y b :
  join_sep [45] (map hexpair (x :: y :: b))
  = hexdigit (x / 16) :: hexdigit (x mod 16) :: 45 :: join_sep [45] (map hexpair (y :: b)).
Proof. reflexivity. Qed.

Lemma eui_text_facts b : forall x, all_bytes (x :: b) = true ->
  let t := join_sep [45] (map hexpair (x :: b)) in
  length t = (3 * length (x :: b) - 1)%nat /\ eui_dashes_ok t = true /\
  filter (fun c => negb (c =? 45)) t = hexlify (x :: b) /\ forallb safe t = true.
Proof.
  induction b as [|y b IH]; intros x Hb; cbn [all_bytes forallb] in Hb; apply andb_true_iff in Hb as [Hx Hb];
    apply is_byte_range in Hx;
    pose proof (hexdigit_ne45 (x / 16) ltac:(dlia)) as N1; pose proof (hexdigit_ne45 (x mod 16) ltac:(dlia)) as N2;
    destruct (hexdigit_safe (x / 16) ltac:(dlia)) as [S1 _]; destruct (hexdigit_safe (x mod 16) ltac:(dlia)) as [S2 _].
  - cbv zeta. cbn [map join_sep hexpair length eui_dashes_ok filter forallb]. rewrite N1, N2, S1, S2.
    cbn [negb]. repeat split; reflexivity.
  - cbv zeta. rewrite join_pairs_cons. destruct (IH y Hb) as (I1 & I2 & I3 & I4). cbv zeta in I1, I2, I3, I4.
    cbn [length eui_dashes_ok filter forallb]. rewrite N1, N2, S1, S2, I2, I3, I4. rewrite I1.
    change (45 =? 45) with true. cbn [negb andb]. split; [cbn [length]; lia|]. split; [reflexivity|].
    split; [|reflexivity]. rewrite (hexlify_cons x (y :: b)). reflexivity.
Qed.

Theorem eui_roundtrip n b : all_bytes b = true -> length b = n -> (0 < n)%nat ->
  eui_from_text n (eui_to_text b) = Ok b /\ forallb safe (eui_to_text b) = true /\ eui_to_text b <> [].
Proof.
  intros Hb Hl Hn. destruct b as [|x b]; [cbn in Hl; lia|].
  destruct (eui_text_facts b x Hb) as (F1 & F2 & F3 & F4). cbv zeta in F1, F2, F3, F4.
  rewrite eui_text_eq. split; [|split].
  - unfold eui_from_text. rewrite F1, Hl, Nat.eqb_refl, F2, F3. cbn [negb].
    destruct (hexlify_safe (x :: b) Hb) as [_ Ha]. rewrite utf8_ascii by exact Ha. cbn [bind].
    rewrite unhexlify_hexlify by exact Hb. reflexivity.
  - exact F4.
  - intros E. rewrite E in F1. cbn [length] in F1. lia.
Qed.
