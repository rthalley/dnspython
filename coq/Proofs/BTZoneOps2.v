(* C20: the rdataset list of a node (dns.node.Node): which types it holds after
   delete_rdataset / replace_rdataset, the CNAME / other-data eviction included. *)
From DV Require Import Base.Prelude Model.NameM Model.BTZoneM.
From Coq Require Import Permutation.
Open Scope Z_scope.

Lemma rds_get_app : forall t a b,
    rds_get t (a ++ b) = match rds_get t a with Some y => Some y | None => rds_get t b end.
Proof.
  induction a as [|[t' x] a IH]; intros b; cbn; auto. destruct (t' =? t); auto.
Qed.

Lemma rds_get_remove_other : forall t t' r, t' <> t -> rds_get t' (rds_remove t r) = rds_get t' r.
Proof.
  induction r as [|[t0 x] r IH]; intros Hne; cbn; auto.
  destruct (t0 =? t) eqn:E.
  - apply Z.eqb_eq in E. subst t0. destruct (t =? t') eqn:E2; auto. apply Z.eqb_eq in E2. congruence.
  - cbn. destruct (t0 =? t'); auto.
Qed.

Lemma rds_get_none_notin : forall t r, ~ In t (map fst r) -> rds_get t r = None.
Proof.
  induction r as [|[t0 x] r IH]; intros H; cbn; auto.
  destruct (t0 =? t) eqn:E.
  - apply Z.eqb_eq in E. subst. exfalso. apply H. left; auto.
  - apply IH. intros Hin. apply H. right; auto.
Qed.

Lemma rds_remove_fst_incl : forall t r y, In y (map fst (rds_remove t r)) -> In y (map fst r).
Proof.
  induction r as [|[t0 x] r IH]; intros y H; cbn in *; auto.
  destruct (t0 =? t); cbn in *; auto. destruct H; auto.
Qed.

Lemma rds_remove_nodup : forall t r, NoDup (map fst r) ->
    NoDup (map fst (rds_remove t r)) /\ ~ In t (map fst (rds_remove t r)).
Proof.
  induction r as [|[t0 x] r IH]; intros H; cbn.
  - split; [constructor|auto].
  - inversion H; subst. destruct (t0 =? t) eqn:E.
    + apply Z.eqb_eq in E. subst. split; auto.
    + apply Z.eqb_neq in E. destruct (IH H3) as [A B]. cbn. split.
      * constructor; auto. intros Hin. apply H2. eapply rds_remove_fst_incl; eauto.
      * intros [H0|H0]; auto.
Qed.

Lemma kind_ns : kind tNS = 0.
Proof. reflexivity. Qed.

Lemma rds_get_filter_keep : forall t (f : Z * list Z -> bool) r,
    (forall x, f (t, x) = true) -> rds_get t (filter f r) = rds_get t r.
Proof.
  induction r as [|[t0 x] r IH]; intros H; cbn; auto.
  destruct (f (t0, x)) eqn:E; cbn.
  - destruct (t0 =? t); auto.
  - destruct (t0 =? t) eqn:E2; auto. apply Z.eqb_eq in E2. subst. rewrite H in E. discriminate.
Qed.

Lemma rds_get_filter_drop : forall t (f : Z * list Z -> bool) r,
    (forall x, f (t, x) = false) -> rds_get t (filter f r) = None.
Proof.
  induction r as [|[t0 x] r IH]; intros H; cbn; auto.
  destruct (f (t0, x)) eqn:E; cbn; auto.
  destruct (t0 =? t) eqn:E2; auto. apply Z.eqb_eq in E2. subst. rewrite H in E. discriminate.
Qed.

Lemma filter_fst_incl : forall (f : Z * list Z -> bool) r y, In y (map fst (filter f r)) -> In y (map fst r).
Proof.
  intros f r y H. apply in_map_iff in H as (e & <- & He). apply filter_In in He as [He _]. apply in_map; auto.
Qed.

Lemma filter_nodup_fst : forall (f : Z * list Z -> bool) r, NoDup (map fst r) -> NoDup (map fst (filter f r)).
Proof.
  induction r as [|[t0 x] r IH]; intros H; cbn; [constructor|]. inversion H; subst.
  destruct (f (t0, x)); cbn; auto. constructor; auto. intros Hin. apply H2. eapply filter_fst_incl; eauto.
Qed.

Lemma rds_append_fst : forall t x r y, In y (map fst (rds_append t x r)) -> y = t \/ In y (map fst r).
Proof.
  intros t x r y H. unfold rds_append in H. destruct r as [|e r]; [cbn in H; destruct H; auto|].
  rewrite map_app in H. apply in_app_or in H as [H|H]; [|cbn in H; destruct H as [H|[]]; auto].
  right. destruct (kind t =? 2); [eapply filter_fst_incl; eauto|].
  destruct (kind t =? 0); [eapply filter_fst_incl; eauto|exact H].
Qed.

Lemma rds_append_nodup : forall t x r, NoDup (map fst r) -> ~ In t (map fst r) -> NoDup (map fst (rds_append t x r)).
Proof.
  intros t x r H Hn. unfold rds_append. destruct r as [|e r]; [cbn; constructor; auto; constructor|].
  rewrite map_app. cbn [map fst].
  set (r' := if kind t =? 2 then filter (fun r0 : Z * list Z => negb (kind (fst r0) =? 0)) (e :: r)
             else if kind t =? 0 then filter (fun r0 : Z * list Z => negb (kind (fst r0) =? 2)) (e :: r)
             else e :: r).
  assert (Hnd : NoDup (map fst r')).
  { unfold r'. destruct (kind t =? 2); [|destruct (kind t =? 0)]; auto; apply filter_nodup_fst; auto. }
  assert (Hni : ~ In t (map fst r')).
  { unfold r'. intros Hin. apply Hn. destruct (kind t =? 2); [|destruct (kind t =? 0)]; auto;
      eapply filter_fst_incl; eauto. }
  apply Permutation.Permutation_NoDup with (l := t :: map fst r').
  - apply Permutation.Permutation_cons_append.
  - constructor; auto.
Qed.

Lemma rds_replace_nodup : forall t x r, NoDup (map fst r) -> NoDup (map fst (rds_replace t x r)).
Proof.
  intros t x r H. unfold rds_replace. destruct (rds_remove_nodup t r H) as [A B]. apply rds_append_nodup; auto.
Qed.

Lemma rds_get_append : forall t' t x r,
    rds_get t' (rds_append t x r) =
    match rds_get t' (match r with
                      | [] => []
                      | _ => if kind t =? 2 then filter (fun r0 : Z * list Z => negb (kind (fst r0) =? 0)) r
                             else if kind t =? 0 then filter (fun r0 : Z * list Z => negb (kind (fst r0) =? 2)) r
                             else r
                      end) with
    | Some y => Some y
    | None => if t =? t' then Some x else None
    end.
Proof.
  intros. unfold rds_append. destruct r as [|e r]; [reflexivity|]. rewrite rds_get_app. reflexivity.
Qed.

Lemma has_ns_replace_other : forall t x f nd, t <> tNS ->
    has_ns (mkNode f (rds_replace t x (nrds nd))) = if kind t =? 2 then false else has_ns nd.
Proof.
  intros t x f [f0 r] Ht. unfold has_ns, rds_replace. cbn [nrds]. rewrite rds_get_append.
  assert (Et : (t =? tNS) = false) by (apply Z.eqb_neq; auto). rewrite Et.
  rewrite <- (rds_get_remove_other t tNS r) by auto.
  destruct (rds_remove t r) as [|e r'] eqn:Er; [cbn; destruct (kind t =? 2); reflexivity|].
  destruct (kind t =? 2).
  - rewrite rds_get_filter_drop; auto.
  - destruct (kind t =? 0); [rewrite rds_get_filter_keep; auto|]; destruct (rds_get tNS (e :: r')); reflexivity.
Qed.

Lemma has_ns_replace_ns : forall x f r, has_ns (mkNode f (rds_replace tNS x r)) = true.
Proof.
  intros. unfold has_ns, rds_replace. cbn [nrds]. rewrite rds_get_append. rewrite Z.eqb_refl.
  match goal with |- match match ?a with _ => _ end with _ => _ end = _ => destruct a end; reflexivity.
Qed.

Lemma has_ns_remove_other : forall t f nd, t <> tNS -> has_ns (mkNode f (rds_remove t (nrds nd))) = has_ns nd.
Proof. intros. unfold has_ns. cbn [nrds]. rewrite rds_get_remove_other by auto. reflexivity. Qed.

Lemma has_ns_remove_ns : forall f r, NoDup (map fst r) -> has_ns (mkNode f (rds_remove tNS r)) = false.
Proof.
  intros. unfold has_ns. cbn [nrds]. rewrite rds_get_none_notin; auto. apply rds_remove_nodup; auto.
Qed.
