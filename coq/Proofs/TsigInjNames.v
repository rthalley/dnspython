(* Injectivity of the RFC 8945 input also in key name and algorithm name (canonical names of
   valid absolute names are prefix-free), and the corollaries for messages signed with a
   different key, key name or algorithm. *)
From DV Require Import Base.Prelude Proofs.ListFacts.
From DV Require Model.NameM.
From DV Require Import Proofs.NameValid Proofs.NameWire.
From DV Require Import Model.TsigM Proofs.TsigSpec Proofs.TsigLemmas Proofs.TsigInj.
Open Scope Z_scope.

Definition ci (n : dname) : list (list Z) := map (map to_lower) n.

Lemma canonical_name_cons : forall l n,
  canonical_name (l :: n) = (olen l :: map to_lower l) ++ canonical_name n.
Proof. intros. unfold canonical_name. cbn [map concat]. reflexivity. Qed.

(* labels non-empty, then the root label: the encoding is self-delimiting *)
Lemma canonical_labels_prefix_free : forall ls1 ls2 r1 r2,
  Forall (fun l => l <> []) ls1 -> Forall (fun l => l <> []) ls2 ->
  canonical_name (ls1 ++ [[]]) ++ r1 = canonical_name (ls2 ++ [[]]) ++ r2 ->
  ci ls1 = ci ls2 /\ r1 = r2.
Proof.
  induction ls1 as [|l1 ls1 IH]; intros ls2 r1 r2 F1 F2 E.
  - destruct ls2 as [|l2 ls2].
    + cbn in E. injection E as ->. split; reflexivity.
    + cbn [app] in E. rewrite canonical_name_cons in E. cbn in E.
      inversion F2; subst. destruct l2; [contradiction|].
      inversion E as [[E0 _]]; unfold olen in E0; cbn [length] in E0; lia.
  - destruct ls2 as [|l2 ls2].
    + cbn [app] in E. rewrite canonical_name_cons in E. cbn in E.
      inversion F1; subst. destruct l1; [contradiction|].
      inversion E as [[E0 _]]; unfold olen in E0; cbn [length] in E0; lia.
    + cbn [app] in E. rewrite !canonical_name_cons in E.
      cbn [app] in E. inversion E as [[E0 E1]].
      assert (L : length (map to_lower l1) = length (map to_lower l2)).
      { rewrite !map_length. unfold olen in E0. lia. }
      rewrite <- !app_assoc in E1.
      apply app_inj_len in E1 as [El Er]; [|exact L].
      inversion F1; subst. inversion F2; subst.
      destruct (IH ls2 r1 r2) as [Ec Err]; try assumption.
      split; [|assumption]. unfold ci in *. cbn [map]. congruence.
Qed.

Definition good_name (n : dname) : Prop := Valid n /\ NameM.is_absolute n = true.

(* canonical names of valid absolute names are prefix-free *)
Lemma canonical_prefix_free : forall n1 n2 (r1 r2 : octets),
  good_name n1 -> good_name n2 ->
  canonical_name n1 ++ r1 = canonical_name n2 ++ r2 -> ci n1 = ci n2 /\ r1 = r2.
Proof.
  intros n1 n2 r1 r2 (V1 & A1) (V2 & A2) E.
  destruct (Valid_absolute_shape n1 V1 A1) as (ls1 & -> & F1).
  destruct (Valid_absolute_shape n2 V2 A2) as (ls2 & -> & F2).
  apply canonical_labels_prefix_free in E as [Ec Er];
    [|eapply Forall_impl; [|eassumption]; cbn; tauto..].
  split; [|exact Er]. unfold ci in *. rewrite !map_app. congruence.
Qed.

(* same request MAC, same length of the digested message: equal inputs force equal canonical
   key name, canonical algorithm name, original id, message octets, time, fudge, error, other *)
Lemma rfc_input_injective_names : forall rm oid1 oid2 w1 w2 v1 v2,
  good_name (v_name v1) -> good_name (v_name v2) -> good_name (v_alg v1) -> good_name (v_alg v2) ->
  length (skipn 2 w1) = length (skipn 2 w2) ->
  vars_wf oid1 v1 -> vars_wf oid2 v2 ->
  rfc8945_input rm oid1 w1 v1 = rfc8945_input rm oid2 w2 v2 ->
  ci (v_name v1) = ci (v_name v2) /\ ci (v_alg v1) = ci (v_alg v2) /\
  oid1 = oid2 /\ skipn 2 w1 = skipn 2 w2 /\ v_time v1 = v_time v2 /\ v_fudge v1 = v_fudge v2
  /\ v_error v1 = v_error v2 /\ v_other v1 = v_other v2.
Proof.
  intros rm oid1 oid2 w1 w2 v1 v2 Gn1 Gn2 Ga1 Ga2 LEN W1 W2 E.
  unfold rfc8945_input in E. apply app_inv_head in E.
  apply dns_message_inj in E as (Eo & Ew & E); [|apply W1|apply W2|exact LEN].
  unfold rfc_tsig_variables in E.
  apply canonical_prefix_free in E as [Ekn E]; [|assumption..]. do 2 apply app_inv_head in E.
  apply canonical_prefix_free in E as [Ean E]; [|assumption..].
  apply (vars_tail_inj _ _ _ _ W1 W2) in E. auto 6.
Qed.

Section WithH.
  Variable H : hashid -> bytes -> bytes -> bytes.

  (* signed under k1, validated under k2 (any relation between the two keys): acceptance means
     the receiver's keyed hash of the receiver's input equals the signer's keyed hash of the
     signer's input; if key name or algorithm differ (canonically) the two inputs are different *)
  Lemma wrong_key_lemma :
    forall wire k1 k2 rd t rmac ctx multi rd' c' wire' start adcount now owner r,
      (ctx = None \/ multi = false) ->
      all_bytes wire' = true ->
      sign H wire k1 rd (Some t) rmac ctx multi = Ok (rd', c') ->
      get_adcount wire' = Ok adcount ->
      rfc_received_message wire' adcount start = wire ->
      validate H wire' k2 owner rd' now rmac start ctx multi = Ok r ->
      exists h1 sz1 h2 sz2,
        assoc_name hashes (kalg k1) = Some (h1, sz1) /\ assoc_name hashes (kalg k2) = Some (h2, sz2) /\
        let d1 := rfc8945_input (omac rmac) (t_oid rd) wire (vars_of k1 rd t) in
        let d2 := rfc8945_input (omac rmac) (t_oid rd) wire (vars_of k2 rd t) in
        rfc_truncate (trunc_of sz2) (H h2 (ksecret k2) d2) = rfc_truncate (trunc_of sz1) (H h1 (ksecret k1) d1)
        /\ (good_name (kname k1) -> good_name (kname k2) -> good_name (kalg k1) -> good_name (kalg k2) ->
            tsig_wf rd' ->
            (ci (kname k1) <> ci (kname k2) \/ ci (kalg k1) <> ci (kalg k2)) -> d1 <> d2).
  Proof.
    intros until r. intros F A S G W V.
    destruct (sign_validate_macs H _ _ _ _ _ _ _ _ _ _ _ _ _ _ _ _ _ F A S G W V)
      as (h1 & sz1 & h2 & sz2 & Hh1 & Hh2 & M & VW).
    exists h1, sz1, h2, sz2. split; [assumption|]. split; [assumption|].
    intros d1 d2. split; [exact M|].
    intros Gk1 Gk2 Ga1 Ga2 Wf Diff E.
    destruct (rfc_input_injective_names _ _ _ _ _ (vars_of k1 rd t) (vars_of k2 rd t)
                Gk1 Gk2 Ga1 Ga2 eq_refl (VW Wf k1) (VW Wf k2) E) as (En & Ea & _).
    destruct Diff; contradiction.
  Qed.
End WithH.
