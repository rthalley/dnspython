(* C13 - a secondary refreshing a zone of any content (singleton types, CNAME-kind RRsets, names changing
   between a CNAME and other data): the refresh theorems for general versions. *)
From DV Require Import Base.Prelude Model.XfrM Proofs.XfrSets Proofs.XfrSpec Proofs.XfrZone Proofs.XfrDiff
  Proofs.XfrSafety Proofs.XfrBasic Proofs.XfrRun Proofs.XfrSteps Proofs.XfrGeneral Proofs.XfrRefresh Proofs.XfrGeneralOrder.
From Coq Require Import Sorting.Permutation.

Theorem refresh_converges_general : forall v0 chain z table recs ws,
  chain_ok_g v0 chain -> zeq z (zone_of v0) ->
  find_row table (Some (v_serial v0)) = Some ws ->
  ixfr_response_p v0 chain recs -> chunking tIXFR recs ws ->
  exists z', refresh1 z table = Ok (tIXFR, Some (v_serial v0), Some (v_serial v0), 0, z')
             /\ zeq z' (zone_of (last chain v0))
             /\ zone_serial z' = Some (v_serial (last chain v0)).
Proof.
  intros v0 chain z table recs ws Hok Hz Hrow Hresp Hch. apply (refresh1_run z table (Some (v_serial v0))); [apply zone_serial_zeq, Hz|].
  rewrite (pick_row _ _ _ Hrow). apply (ixfr_converges_general_any_order v0 chain z recs ws); assumption.
Qed.

Theorem refresh_full_general : forall v z table B ws,
  version_wf_g v -> zone_serial z = None ->
  find_row table None = Some ws ->
  Permutation B (body (v_rest v)) -> chunking tAXFR (soa_rr v :: B ++ [soa_rr v]) ws ->
  exists z', refresh1 z table = Ok (tAXFR, None, None, 0, z')
             /\ zeq z' (zone_of v) /\ zone_serial z' = Some (v_serial v).
Proof.
  intros v z table B ws Hv Hs Hrow PB Hch. apply (refresh1_run z table None); [exact Hs|].
  rewrite (pick_row _ _ _ Hrow). apply (axfr_converges_general_any_order v z None B ws); assumption.
Qed.

Theorem refresh_axfr_style_general : forall v z zs table ws,
  version_wf_g v -> v_rest v <> [] -> zone_serial z = Some zs ->
  v_serial v <> zs -> serial_lt (v_serial v) zs = false ->
  find_row table (Some zs) = None -> find_row table None = Some ws ->
  chunking tIXFR (axfr_stream v) ws ->
  exists z', refresh1 z table = Ok (tIXFR, Some zs, Some zs, 0, z')
             /\ zeq z' (zone_of v) /\ zone_serial z' = Some (v_serial v).
Proof.
  intros v z zs table ws Hv Hne Hs Hser Hlt Hrow Hrow0 Hch. apply (refresh1_run z table (Some zs)); [exact Hs|].
  rewrite (pick_default _ _ _ Hrow Hrow0). apply (axfr_style_ixfr_converges_general v z zs ws); assumption.
Qed.

(* a whole sequence of incremental refreshes *)
Inductive refresh_plan_g : version -> list (list (option Z * list wmsg)) -> version -> Prop :=
| rpg_nil : forall v, refresh_plan_g v [] v
| rpg_cons : forall v chain table recs ws rest vfin,
    chain_ok_g v chain ->
    find_row table (Some (v_serial v)) = Some ws ->
    ixfr_response_p v chain recs -> chunking tIXFR recs ws ->
    refresh_plan_g (last chain v) rest vfin ->
    refresh_plan_g v (table :: rest) vfin.

Theorem refreshes_converge_general : forall v tables vfin, refresh_plan_g v tables vfin ->
  forall z, zeq z (zone_of v) ->
  length (refreshes z tables) = length tables
  /\ Forall refresh_ok (refreshes z tables)
  /\ zeq (final_zone z (refreshes z tables)) (zone_of vfin).
Proof.
  intros v tables vfin Hp.
  apply (plan_converges (fun v table w => exists chain recs ws, w = last chain v /\ chain_ok_g v chain /\
           find_row table (Some (v_serial v)) = Some ws /\ ixfr_response_p v chain recs /\ chunking tIXFR recs ws)).
  - intros v1 table w z (chain & recs & ws & -> & Hok & Hrow & Hresp & Hch) Hz.
    destruct (refresh_converges_general v1 chain z table recs ws Hok Hz Hrow Hresp Hch) as (z' & H1 & H2 & _). eauto.
  - induction Hp; econstructor; eauto 10.
Qed.

(* dns.query.inbound_xfr with udp_mode TRY_FIRST, versions of any content *)
Theorem try_first_falls_back_general : forall v0 chain z tbu tbt wu recs ws,
  chain_ok_g v0 chain -> zeq z (zone_of v0) ->
  find_row tbu (Some (v_serial v0)) = Some [wu] ->
  header_ok tIXFR wu -> w_records wu = [soa_rr (last chain v0)] ->
  find_row tbt (Some (v_serial v0)) = Some ws ->
  ixfr_response_p v0 chain recs -> chunking tIXFR recs ws ->
  (exists z', xfr_top z 1 tbu tbt = Ok (0, z') /\ zeq z' (zone_of (last chain v0)))
  /\ xfr_top z 2 tbu tbt = Ok (eUseTCP, z).
Proof.
  intros v0 chain z tbu tbt wu recs ws Hok Hz Hu Hwu Hru Ht Hresp Hch.
  destruct (chain_ok_g_serial _ _ Hok) as [Hser Hlt].
  apply (try_first_tcp v0 (last chain v0) z tbu tbt wu ws); try assumption.
  apply (ixfr_converges_general_any_order v0 chain z recs ws); assumption.
Qed.
