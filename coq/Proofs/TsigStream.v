(* Multi-message exchanges (RFC 8945 5.3.1): every envelope that read_stream accepts with a
   TSIG carries the MAC of the RFC input - first form for the first signed envelope,
   "prior MAC ++ unsigned envelopes since ++ message ++ timers" afterwards - for any subset of
   envelopes sent without TSIG. *)
From DV Require Import Base.Prelude Proofs.ListFacts.
From DV Require Model.NameM.
From DV Require Import Model.TsigM Proofs.TsigSpec Proofs.TsigLemmas Proofs.TsigReader.
Open Scope Z_scope.

Section Stream.
  Variable H : hashid -> bytes -> bytes -> bytes.
  Variable k : key.
  Variable rmac : bytes.
  Variable now : Z.

  (* the RFC's running state: MAC of the last signed envelope, envelopes sent without TSIG since *)
  Definition running := option (bytes * list bytes).

  Definition ctx_matches (ctx : option hctx) (run : running) : Prop :=
    match ctx, run with
    | None, None => True
    | Some c, Some (p, u) =>
        c_data c = rfc_request_mac p ++ concat u /\ c_key c = ksecret k
        /\ assoc_name hashes (kalg k) = Some (c_hash c, c_size c)
    | _, _ => False
    end.

  Definition run_unsigned (run : running) (w : bytes) : running :=
    match run with Some (p, u) => Some (p, u ++ [w]) | None => None end.

  Fixpoint stream_spec (run : running) (ws : list bytes) (ms : list rmsg) : Prop :=
    match ws, ms with
    | [], [] => True
    | w :: ws', m :: ms' =>
        match m_tsig m with
        | None => m_had_tsig m = false /\ stream_spec (run_unsigned run w) ws' ms'
        | Some (owner, rd) =>
            m_had_tsig m = true /\
            (exists ad start h sz,
               pre_ok w k owner rd now ad /\ assoc_name hashes (kalg k) = Some (h, sz) /\
               t_mac rd = rfc_truncate (trunc_of sz) (H h (ksecret k)
                 (match run with
                  | None => rfc8945_input (omac rmac) (t_oid rd) (rfc_received_message w ad start)
                              (vars_of k rd (t_time rd))
                  | Some (p, u) => rfc8945_input_subsequent p u (t_oid rd)
                              (rfc_received_message w ad start) (t_time rd) (t_fudge rd)
                  end)))
            /\ stream_spec (Some (t_mac rd, [])) ws' ms'
        end
    | _, _ => False
    end.

  Lemma ctx_matches_unsigned : forall ctx run w,
    ctx_matches ctx run ->
    ctx_matches (match ctx with Some c => Some (update c w) | None => None end) (run_unsigned run w).
  Proof.
    intros ctx run w. unfold run_unsigned, ctx_matches.
    destruct ctx as [c|], run as [[p u]|]; try contradiction; [|auto].
    intros (Dd & Dk & Dh). cbn [update c_data c_key c_hash c_size].
    rewrite Dd, concat_app. cbn [concat]. rewrite app_nil_r, <- app_assoc. auto.
  Qed.

  Lemma ctx_matches_signed : forall c1 mac,
    c_data c1 = rfc_request_mac mac /\ c_key c1 = ksecret k
    /\ assoc_name hashes (kalg k) = Some (c_hash c1, c_size c1) ->
    ctx_matches (Some c1) (Some (mac, [])).
  Proof. intros c1 mac (D & K & A). cbn [ctx_matches concat]. rewrite app_nil_r. auto. Qed.

  (* what a running context has digested at a later signed envelope, in the words of 5.3.1 *)
  Lemma subsequent_input : forall c p u oid msg time fudge,
    c_data c = rfc_request_mac p ++ concat u ->
    c_data c ++ rfc_dns_message oid msg ++ rfc_tsig_timers time fudge
    = rfc8945_input_subsequent p u oid msg time fudge.
  Proof. intros until fudge. intros ->. unfold rfc8945_input_subsequent. now rewrite <- !app_assoc. Qed.

  (* one signed envelope: the accepted MAC is that of the RFC input for the running state, and the
     context handed on matches the state after it *)
  Lemma validate_running : forall ctx run w owner rd start r,
    ctx_matches ctx run -> all_bytes w = true ->
    validate H w k owner rd now rmac start ctx true = Ok r ->
    (exists ad h sz,
       pre_ok w k owner rd now ad /\ assoc_name hashes (kalg k) = Some (h, sz) /\
       t_mac rd = rfc_truncate (trunc_of sz) (H h (ksecret k)
         (match run with
          | None => rfc8945_input (omac rmac) (t_oid rd) (rfc_received_message w ad start)
                      (vars_of k rd (t_time rd))
          | Some (p, u) => rfc8945_input_subsequent p u (t_oid rd)
                      (rfc_received_message w ad start) (t_time rd) (t_fudge rd)
          end)))
    /\ ctx_matches r (Some (t_mac rd, [])).
  Proof.
    intros ctx run w owner rd start r CM Aw V.
    destruct ctx as [c|], run as [[p u]|]; try contradiction.
    - destruct CM as (Dd & Dk & Dh).
      apply (validate_accepts_mac_subsequent H) in V as (ad & P & M & c1 & -> & D1); [|assumption].
      split; [|now apply ctx_matches_signed].
      exists ad, (c_hash c), (c_size c). split; [assumption|]. split; [assumption|].
      now rewrite M, Dk, (subsequent_input _ _ _ _ _ _ _ Dd).
    - pose proof V as V'.
      apply (validate_accepts_mac_is_rfc H) in V as (ad & h & sz & P & Hh & M); auto.
      apply validate_accepts_iff_lemma in V' as (ad' & c' & _ & _ & _ & S).
      apply maybe_start_digest_multi in S as (c1 & -> & D1).
      split; [exists ad, h, sz; auto|now apply ctx_matches_signed].
  Qed.

  Lemma read_stream_is_rfc_lemma : forall origin ws ms ctx run,
    ctx_matches ctx run ->
    Forall (fun w => all_bytes w = true) ws ->
    read_stream_gen H origin ws (KR_Key k) rmac ctx now = map Ok ms ->
    stream_spec run ws ms.
  Proof.
    intros origin. induction ws as [|w ws IH]; intros ms ctx run CM AB E.
    - destruct ms; [exact Logic.I|discriminate].
    - inversion AB as [|? ? Aw AB']; subst. cbn [read_stream_gen] in E.
      destruct (read_gen H origin w (KR_Key k) rmac ctx true now) as [m| |] eqn:R.
      2,3: destruct ms as [|m0 [|]]; cbn in E; discriminate.
      destruct ms as [|m0 ms]; [discriminate|]. cbn [map] in E.
      inversion E as [[Em Erest]]. subst m0. clear E.
      cbn [stream_spec].
      apply read_ok in R as (body & _ & [(_ & T & Hd & C) | (owner & rd & start & _ & T & Hd & D)]).
      + rewrite T. split; [assumption|]. apply (IH ms (m_ctx m)); [|exact AB'|exact Erest].
        rewrite C. exact (ctx_matches_unsigned _ _ w CM).
      + rewrite T. split; [assumption|].
        destruct D as (_ & ko & FK & V). cbn [find_key] in FK. apply Ok_inj in FK as <-.
        destruct (validate_running _ _ _ _ _ _ _ CM Aw V) as ((ad & h & sz & Spec) & CM').
        split; [exists ad, start, h, sz; exact Spec|].
        apply (IH ms (m_ctx m)); [exact CM'|exact AB'|exact Erest].
  Qed.
End Stream.
