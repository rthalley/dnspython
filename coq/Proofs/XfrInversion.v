(* C13 - the converse of ixfr_sections_applied: WHENEVER an incremental transfer completes, the records that
   were read form a well-formed IXFR response (the announced SOA, difference sequences chained by their
   serials from the client's serial to the announced one, the announced SOA again as the last record of its
   message) and the zone is exactly what these sequences denote.  Together with error_leaves_zone: whatever
   the fault, the outcome is "error and zone untouched" or "the faulted stream is itself a well-formed
   response and the zone is its denotation".
   For ordinary records on a zone without CNAME-kind RRsets, the transaction operations of XfrInversionGen
   are the exact deletions and additions of XfrSections. *)
From DV Require Import Base.Prelude Model.XfrM Proofs.XfrSets Proofs.XfrSpec Proofs.XfrZone Proofs.XfrDiff
  Proofs.XfrSafety Proofs.XfrBasic Proofs.XfrRun Proofs.XfrSteps Proofs.XfrGeneral Proofs.XfrAxfr Proofs.XfrPerm
  Proofs.XfrGlue Proofs.XfrSections Proofs.XfrGroup Proofs.XfrSoaFaults Proofs.XfrInversionGen.

(* the vocabulary of the stream: apex SOA records (class IN), ordinary in-zone records, out-of-zone records *)
Definition wire_rec (r : rr) : Prop :=
  (exists b, r = soa_rr b /\ ttl_ok (v_ttl b)) \/ okrec r.

Lemma okrec_nsoa : forall r, okrec r -> nsoa r.
Proof.
  intros r [Hg|(_ & Ht & _)]; [apply (glue_out (single r) Hg)|]. apply Z.eqb_neq in Ht. unfold nsoa. rewrite Ht. reflexivity.
Qed.

Lemma wire_any : forall x, Forall wire_rec x -> Forall any_rec x.
Proof. intros x H. eapply Forall_impl; [|exact H]. intros r [Hs|Ho]; [left; exact Hs|right; apply okrec_nsoa, Ho]. Qed.

Lemma wire_nsoa : forall x, Forall wire_rec x -> Forall nsoa x -> Forall okrec x.
Proof.
  intros x H. induction H as [|r x [[b [-> _]]|Ho] _ IH]; intros Hn; inversion Hn; subst; constructor; auto. discriminate.
Qed.

Lemma wire_soa_ttl : forall b, wire_rec (soa_rr b) -> ttl_ok (v_ttl b).
Proof.
  intros b [[b' [E H]]|Ho]; [injection E as -> _; exact H|]. apply okrec_nsoa in Ho. discriminate.
Qed.

(* the transaction operations on ordinary / out-of-zone records *)
Lemma m_fold_del : forall D z z', Forall okrec D -> quiet z -> m_fold m_del z D = Ok z' -> dels z (erase D) = Some z'.
Proof.
  induction D as [|r D IH]; intros z z' HD Hq H; cbn [m_fold erase filter dels] in *; [inversion H; reflexivity|].
  inversion HD as [|? ? Hr HD']; subst. fold (erase D). unfold m_del in H. destruct Hr as [Hg|Hp].
  - rewrite Hg. pose proof (proj2 (glue_out (single r) Hg)) as Hz. cbn [single s_name] in Hz. rewrite Hz in H. apply IH; assumption.
  - rewrite (glue_not_plain r Hp). cbn [negb dels]. destruct Hp as (Hc & _ & Hn & _). apply Z.leb_le in Hn. unfold in_zone in H.
    rewrite Hn, (t_del_single z r Hc (quiet_consistent _ Hq)) in H.
    destruct (del1 (look z (rkey r)) (r_data r)) as [oe|] eqn:E; [|discriminate]. apply IH; try assumption.
    apply quiet_zset; [exact Hq|]. destruct (look z (rkey r)); discriminate.
Qed.

Lemma m_fold_add : forall A z z', Forall okrec A -> quiet z -> m_fold m_add z A = Ok z' -> z' = adds z (erase A).
Proof.
  induction A as [|r A IH]; intros z z' HA Hq H; cbn [m_fold erase filter adds] in *; [inversion H; reflexivity|].
  inversion HA as [|? ? Hr HA']; subst. fold (erase A). unfold m_add in H. destruct Hr as [Hg|Hp].
  - rewrite Hg. pose proof (proj2 (glue_out (single r) Hg)) as Hz. cbn [single s_name] in Hz. rewrite Hz in H. apply IH; assumption.
  - rewrite (glue_not_plain r Hp). cbn [negb adds]. pose proof Hp as (_ & _ & Hn & _ & _ & Hk). apply Z.leb_le in Hn. unfold in_zone in H.
    rewrite Hn, (t_add_single z r Hp Hq) in H. apply IH; try assumption. apply quiet_zput; [exact Hq|exact Hk].
Qed.

(* sections of such records: the skeleton and the denotation are those of XfrSections *)
Lemma secs_okrec : forall secs cur fin z z1, skel_g cur fin secs -> Forall wire_rec (secs_stream secs) -> quiet z ->
  m_secs z secs = Ok z1 -> skel_ok cur fin secs /\ apply_secs z secs = Some z1 /\ quiet z1.
Proof.
  induction secs as [|c r IH]; intros cur fin z z1 Hsk Hw Hq H; cbn [skel_g skel_ok m_secs apply_secs secs_stream] in *.
  - inversion H; subst. auto.
  - destruct Hsk as (H1 & H2 & H3 & H4 & H5 & H6).
    inversion Hw as [|? ? _ Hw1]; subst. apply Forall_app in Hw1. destruct Hw1 as [WD Hw2].
    inversion Hw2 as [|? ? _ Hw3]; subst. apply Forall_app in Hw3. destruct Hw3 as [WA Wr].
    pose proof (wire_nsoa _ WD H4) as OD. pose proof (wire_nsoa _ WA H5) as OA.
    destruct (m_fold m_del z (c_dels c)) as [za| |] eqn:Hd; try discriminate. apply (m_fold_del _ _ _ OD Hq) in Hd. rewrite Hd.
    destruct (quiet_sec c z za OA Hq Hd) as (Hqa & Hqb & Hqc).
    unfold m_soa in H. rewrite (t_add_soa za _ H3 Hqa) in H.
    destruct (m_fold m_add _ (c_adds c)) as [zc| |] eqn:Ha; try discriminate. apply (m_fold_add _ _ _ OA Hqb) in Ha. subst zc.
    destruct (IH _ fin _ z1 H6 Wr Hqc H) as (S1 & S2 & S3). auto 10.
Qed.

(* ... and so is the closing SOA: what XfrInversionGen says of a completed transfer, in the terms of XfrSections *)
Lemma denotation_okrec : forall fin z0 ser rest secs z1 b extra z',
  quiet z0 -> Forall wire_rec rest -> rest = secs_stream secs ++ soa_rr b :: extra ->
  skel_g ser fin secs -> m_secs z0 secs = Ok z1 -> m_soa z1 b = Ok z' ->
  skel_ok ser fin secs /\ apply_secs z0 secs = Some z1 /\ z' = zput soakey (v_ttl b, [v_soa b]) z1.
Proof.
  intros fin z0 ser rest secs z1 b extra z' Hq Hwr -> Hsk Hap Hso. apply Forall_app in Hwr. destruct Hwr as [W1 W2].
  destruct (secs_okrec secs ser fin z0 z1 Hsk W1 Hq Hap) as (S1 & S2 & S3). split; [exact S1|]. split; [exact S2|].
  inversion W2 as [|? ? Wb _]; subst. unfold m_soa in Hso. rewrite (t_add_soa z1 b (wire_soa_ttl b Wb) S3) in Hso. congruence.
Qed.

(* Whenever an incremental transfer (proper IXFR: the record after the announced SOA is an SOA) completes:
   the records read are  announced SOA, well-formed difference sequences from the client's serial to the
   announced serial, the announced SOA again; every deletion applied exactly; and the zone is what the
   sequences denote.  The records `extra` (later messages) were never read. *)
Theorem ixfr_done_is_denotation : forall fin z0 ser ws rest z' n,
  quiet z0 -> ttl_ok (v_ttl fin) -> v_serial fin <> ser -> serial_lt (v_serial fin) ser = false ->
  chunking tIXFR (soa_rr fin :: rest) ws -> Forall wire_rec rest ->
  match rest with x :: _ => exists b, x = soa_rr b /\ ttl_ok (v_ttl b) | [] => True end ->
  inbound_xfr z0 tIXFR (Some ser) false ws = (Done z', n) ->
  exists secs z1 b extra,
    rest = secs_stream secs ++ soa_rr b :: extra /\ secs <> [] /\ skel_ok ser fin secs /\
    end_serial ser secs = v_serial fin /\ v_soa b = v_soa fin /\ apply_secs z0 secs = Some z1 /\
    z' = zput soakey (v_ttl b, [v_soa b]) z1.
Proof.
  intros fin z0 ser ws rest z' n Hq Httl Hs Hlt Hch Hwr Hhead H.
  destruct (ixfr_done_is_denotation_any fin z0 ser ws rest z' n Httl Hs Hlt Hch (wire_any _ Hwr) Hhead H)
    as (secs & z1 & b & extra & E & N & Hsk & Hend & Eb & Hap & Hso).
  destruct (denotation_okrec fin z0 ser rest secs z1 b extra z' Hq Hwr E Hsk Hap Hso) as (S1 & S2 & S3).
  exists secs, z1, b, extra. auto 10.
Qed.

(* ---- the single-fault lemma in its strongest form: whatever was done to a (proper) IXFR response - records
        dropped, duplicated, swapped, altered, at any position, in any division into messages - the outcome is
        an error with the zone untouched, or the stream that was read is itself a well-formed response and the
        zone is exactly its denotation ---- *)
Theorem ixfr_outcome_dichotomy : forall fin z0 ser ws rest,
  quiet z0 -> ttl_ok (v_ttl fin) -> v_serial fin <> ser -> serial_lt (v_serial fin) ser = false ->
  chunking tIXFR (soa_rr fin :: rest) ws -> Forall wire_rec rest ->
  match rest with x :: _ => exists b, x = soa_rr b /\ ttl_ok (v_ttl b) | [] => True end ->
  (exists e n, inbound_xfr z0 tIXFR (Some ser) false ws = (Error e z0, n)) \/
  (exists secs z1 b extra n,
     inbound_xfr z0 tIXFR (Some ser) false ws = (Done (zput soakey (v_ttl b, [v_soa b]) z1), n) /\
     rest = secs_stream secs ++ soa_rr b :: extra /\ secs <> [] /\ skel_ok ser fin secs /\
     end_serial ser secs = v_serial fin /\ v_soa b = v_soa fin /\ apply_secs z0 secs = Some z1).
Proof.
  intros fin z0 ser ws rest Hq Httl Hs Hlt Hch Hwr Hhead.
  destruct (done_or_untouched z0 tIXFR (Some ser) false ws) as [He|(z' & n & E)]; [left; exact He|right].
  destruct (ixfr_done_is_denotation fin z0 ser ws rest z' n Hq Httl Hs Hlt Hch Hwr Hhead E)
    as (secs & z1 & b & extra & H1 & H2 & H3 & H4 & H5 & H6 & H7).
  exists secs, z1, b, extra, n. subst z'. auto 10.
Qed.

(* a completed incremental transfer over UDP: the whole answer is one datagram *)
Theorem udp_ixfr_done_is_denotation : forall fin z0 ser w ws rest z' n,
  quiet z0 -> ttl_ok (v_ttl fin) -> v_serial fin <> ser ->
  header_ok tIXFR w -> w_records w = soa_rr fin :: rest -> Forall wire_rec rest ->
  match rest with x :: _ => exists b, x = soa_rr b /\ ttl_ok (v_ttl b) | [] => True end ->
  inbound_xfr z0 tIXFR (Some ser) true (w :: ws) = (Done z', n) ->
  exists secs z1 b,
    rest = secs_stream secs ++ [soa_rr b] /\ secs <> [] /\ skel_ok ser fin secs /\
    end_serial ser secs = v_serial fin /\ v_soa b = v_soa fin /\ apply_secs z0 secs = Some z1 /\
    z' = zput soakey (v_ttl b, [v_soa b]) z1.
Proof.
  intros fin z0 ser w ws rest z' n Hq _ Hs Hw Hr Hwr Hhead H.
  destruct (udp_ixfr_done_is_denotation_any fin z0 ser w ws rest z' n Hs Hw Hr (wire_any _ Hwr) Hhead H)
    as (secs & z1 & b & E & N & Hsk & Hend & Eb & Hap & Hso).
  destruct (denotation_okrec fin z0 ser rest secs z1 b [] z' Hq Hwr E Hsk Hap Hso) as (S1 & S2 & S3).
  exists secs, z1, b. auto 10.
Qed.

(* an AXFR-style answer to an IXFR request (the record after the announced SOA is not an SOA) *)
Lemma quiet_body : forall tz B, Forall okrec B -> quiet tz -> quiet (adds tz (erase B)).
Proof. intros tz B HB Hq. apply quiet_adds; [apply erase_plain, HB|exact Hq]. Qed.

(* records that go through a full transfer in progress are ordinary / out-of-zone records *)
Lemma ast_run : forall c u rdt p tz ser fin s1, Forall wire_rec c -> quiet tz ->
  loopn (ast u rdt p tz ser (single (soa_rr fin))) (map single c) = (s1, None) ->
  Forall okrec c /\ s1 = ast u rdt p (adds tz (erase c)) ser (single (soa_rr fin)).
Proof.
  induction c as [|x c IH]; intros u rdt p tz ser fin s1 Hw Hq Hl; cbn [map loopn] in Hl; [inversion Hl; auto|].
  inversion Hw as [|? ? [[b [-> _]]|Hx] Hw']; subst.
  - rewrite step_ast_soa in Hl. cbv zeta in Hl. destruct (v_soa b =? v_soa fin); discriminate.
  - rewrite (step_ast_okrec _ _ _ _ _ _ _ _ Hx Hq) in Hl.
    destruct (IH _ _ _ _ _ _ _ Hw' (quiet_body _ [x] (Forall_cons _ Hx (Forall_nil _)) Hq) Hl) as [Hc ->].
    split; [constructor; assumption|]. change (x :: c) with ([x] ++ c). rewrite erase_app, adds_app. reflexivity.
Qed.

(* the record that completes a full transfer is the announced SOA *)
Lemma ast_final : forall u rdt p tz ser fin x s2, wire_rec x -> quiet tz ->
  step Last (ast u rdt p tz ser (single (soa_rr fin))) (single x) = (s2, None) -> done s2 = true ->
  exists b, x = soa_rr b /\ ttl_ok (v_ttl b) /\ v_soa b = v_soa fin /\ pub s2 = zput soakey (v_ttl b, [v_soa b]) tz.
Proof.
  intros u rdt p tz ser fin x s2 [[b [-> Httl]]|Hx] Hq Hs Hd.
  - rewrite step_ast_soa in Hs. cbv zeta in Hs. destruct (v_soa b =? v_soa fin) eqn:Eb; [|discriminate].
    rewrite (t_add_soa tz b Httl Hq) in Hs. inversion Hs; subst. apply Z.eqb_eq in Eb. eauto.
  - rewrite (step_ast_okrec _ _ _ _ _ _ _ _ Hx Hq) in Hs. inversion Hs; subst. discriminate.
Qed.

(* Whenever an IXFR request answered in AXFR style completes: the records read are the announced SOA, a
   non-empty body of ordinary / out-of-zone records, the announced SOA again (last record of its message);
   the zone is the SOA plus the in-zone records of the body. *)
Theorem axfr_style_done_is_denotation : forall fin z0 ser ws x rest z' n,
  ttl_ok (v_ttl fin) -> v_serial fin <> ser -> serial_lt (v_serial fin) ser = false ->
  chunking tIXFR (soa_rr fin :: x :: rest) ws -> okrec x -> Forall wire_rec rest ->
  inbound_xfr z0 tIXFR (Some ser) false ws = (Done z', n) ->
  exists B b extra,
    x :: rest = B ++ soa_rr b :: extra /\ B <> [] /\ Forall okrec B /\ v_soa b = v_soa fin /\
    z' = zput soakey (v_ttl b, [v_soa b]) (adds [] (erase B)).
Proof.
  intros fin z0 ser ws x rest z' n Httl Hs Hlt Hch Hx Hwr H.
  destruct (ixfr_done_inv z0 ser fin Hs Hlt ws _ z' n Hch H) as (c & y & extra & s1 & s2 & Hc & Hn & Hd1 & Hst & Hd2 & Hp).
  destruct c as [|x' c]; cbn [app] in Hc; injection Hc as <- ->.
  { exfalso. cbn in Hn. inversion Hn; subst. rewrite (step_fallback_okrec _ _ _ _ _ _ _ Hx) in Hst. inversion Hst; subst. discriminate. }
  apply Forall_app in Hwr. destruct Hwr as [Hwc Hwy]. inversion Hwy as [|? ? Hy _]; subst.
  cbn [map loopn] in Hn. rewrite (step_fallback_okrec _ _ _ _ _ _ _ Hx) in Hn.
  assert (Hq1 : quiet (adds [] (erase [x]))) by (apply quiet_body; [constructor; [exact Hx|constructor]|exact quiet_nil]).
  destruct (ast_run c _ _ _ _ _ _ _ Hwc Hq1 Hn) as [Hok ->].
  destruct (ast_final _ _ _ _ _ _ _ _ Hy (quiet_body _ c Hok Hq1) Hst Hd2) as (b & -> & _ & Eb & Hpub).
  exists (x :: c), b, extra. split; [reflexivity|]. split; [discriminate|]. split; [constructor; assumption|]. split; [exact Eb|].
  change (x :: c) with ([x] ++ c). rewrite erase_app, adds_app. exact Hpub.
Qed.

(* AXFR: the messages after the first are merged into RRsets by the parser *)
Lemma wire_split : forall x, Forall wire_rec x ->
  Forall okrec x \/ exists x1 b x2, x = x1 ++ soa_rr b :: x2 /\ Forall okrec x1 /\ ttl_ok (v_ttl b).
Proof.
  induction x as [|r x IH]; intros H; [left; constructor|].
  inversion H as [|? ? Hr Hx]; subst. destruct Hr as [[b [-> Httl]]|Hok].
  - right. exists [], b, x. auto.
  - destruct (IH Hx) as [Hall|(x1 & b & x2 & -> & H1 & H2)].
    + left. constructor; assumption.
    + right. exists (r :: x1), b, x2. split; [reflexivity|]. split; [constructor; assumption|exact H2].
Qed.

(* One message of an AXFR in progress that goes on to complete: its first SOA record is its last record and
   completes the transfer; without one, the body goes on and the later messages decide. *)
Lemma axfr_msg_inv : forall ws f a p tz ser fin z' n,
  Forall wire_rec a -> zsorted tz -> quiet tz ->
  cont false (loop (ast false tAXFR p tz ser (single (soa_rr fin))) (group f a)) ws = (Done z', n) ->
  (exists x1 b, a = x1 ++ [soa_rr b] /\ Forall okrec x1 /\ v_soa b = v_soa fin /\
     zeq z' (zput soakey (v_ttl b, [v_soa b]) (adds tz (erase x1)))) \/
  (Forall okrec a /\ exists tz' n0, zsorted tz' /\ quiet tz' /\ zeq tz' (adds tz (erase a)) /\
     drive false (ast false tAXFR p tz' ser (single (soa_rr fin))) ws = (Done z', n0)).
Proof.
  intros ws f a p tz ser fin z' n Hwa Hz Hq H.
  destruct (wire_split a Hwa) as [Hall|(x1 & b & x2 & -> & Hx1 & Httl)]; [right|left].
  - destruct (okrec_msg f tAXFR p ser (single (soa_rr fin)) tz a Hall Hq Hz) as (tz' & Hl & Hq' & Hz' & He).
    rewrite (loop_loopn _ _ _ Hl) in H. cbn [cont ast done] in H. fold (ast false tAXFR p tz' ser (single (soa_rr fin))) in H.
    destruct (drive false _ ws) as [r0 n0] eqn:Hdr. inversion H; subst r0. split; [exact Hall|]. exists tz', n0. auto.
  - destruct (okrec_msg f tAXFR p ser (single (soa_rr fin)) tz x1 Hx1 Hq Hz) as (tz' & Hl & Hq' & _ & He).
    rewrite group_after_soa, loop_app, Hl in H by reflexivity. cbn [map loopT] in H. rewrite step_ast_soa in H. cbv zeta in H.
    destruct (v_soa b =? v_soa fin) eqn:Eb; [|destruct x2; discriminate].
    destruct x2; [|discriminate]. rewrite (t_add_soa tz' b Httl Hq') in H. cbn in H. inversion H; subst.
    apply Z.eqb_eq in Eb. exists x1, b. split; [reflexivity|]. split; [exact Hx1|]. split; [exact Eb|apply zput_zeq, He].
Qed.

Lemma axfr_cont_inv : forall ws f a p tz ser fin z' n,
  Forall (header_ok tAXFR) ws -> Forall wire_rec (a ++ concat (map w_records ws)) -> zsorted tz -> quiet tz ->
  cont false (loop (ast false tAXFR p tz ser (single (soa_rr fin))) (group f a)) ws = (Done z', n) ->
  exists B b extra,
    a ++ concat (map w_records ws) = B ++ soa_rr b :: extra /\ Forall okrec B /\
    v_soa b = v_soa fin /\ zeq z' (zput soakey (v_ttl b, [v_soa b]) (adds tz (erase B))).
Proof.
  induction ws as [|w ws IH]; intros f a p tz ser fin z' n Hh Hwr Hz Hq H;
    apply Forall_app in Hwr; destruct Hwr as [Hwa Hwrest];
    destruct (axfr_msg_inv _ _ _ _ _ _ _ _ _ Hwa Hz Hq H) as [(x1 & b & -> & Hx1 & Eb & Hzz)|(Hall & tz' & n0 & Hz' & Hq' & He & Hdr)].
  1,3: eexists x1, b, _; rewrite <- app_assoc; split; [reflexivity|auto].
  - (* the stream has ended *) discriminate.
  - inversion Hh as [|? ? Hw Hws]; subst.
    rewrite (drive_running _ _ _ _ (running_ast _ _ _ _ _) Hw) in Hdr. cbn [map concat] in Hwrest.
    destruct (IH false (w_records w) p tz' ser fin z' n0 Hws Hwrest Hz' Hq' Hdr) as (B & b & extra & Hc & HB & Eb & Hzz).
    exists (a ++ B), b, extra. split; [cbn [map concat]; rewrite <- app_assoc; f_equal; exact Hc|].
    split; [apply Forall_app; split; assumption|]. split; [exact Eb|].
    eapply zeq_trans; [exact Hzz|]. apply zput_zeq. rewrite erase_app, adds_app. apply adds_zeq, He.
Qed.

(* Whenever an AXFR completes: the records read are the SOA, a body of ordinary / out-of-zone records, the
   same SOA again (last record of its message); the zone is the SOA plus the in-zone records of the body. *)
Theorem axfr_done_is_denotation : forall fin z0 ser ws rest z' n,
  chunking tAXFR (soa_rr fin :: rest) ws -> Forall wire_rec rest ->
  inbound_xfr z0 tAXFR ser false ws = (Done z', n) ->
  exists B b extra,
    rest = B ++ soa_rr b :: extra /\ Forall okrec B /\ v_soa b = v_soa fin /\
    zeq z' (zput soakey (v_ttl b, [v_soa b]) (adds [] (erase B))).
Proof.
  intros fin z0 ser ws rest z' n Hch Hwr H.
  apply chunking_first in Hch. destruct Hch as (w & ws' & a & -> & Hr & Hw & Hws & <-).
  rewrite (axfr_start z0 ser w ws' fin a Hw Hr) in H.
  apply (axfr_cont_inv ws' true a z0 [] _ fin z' n Hws Hwr zsorted_nil quiet_nil H).
Qed.

Theorem axfr_outcome_dichotomy : forall fin z0 ser ws rest,
  chunking tAXFR (soa_rr fin :: rest) ws -> Forall wire_rec rest ->
  (exists e n, inbound_xfr z0 tAXFR ser false ws = (Error e z0, n)) \/
  (exists B b extra z' n,
     inbound_xfr z0 tAXFR ser false ws = (Done z', n) /\
     rest = B ++ soa_rr b :: extra /\ Forall okrec B /\ v_soa b = v_soa fin /\
     zeq z' (zput soakey (v_ttl b, [v_soa b]) (adds [] (erase B)))).
Proof.
  intros fin z0 ser ws rest Hch Hwr.
  destruct (done_or_untouched z0 tAXFR ser false ws) as [He|(z' & n & E)]; [left; exact He|right].
  destruct (axfr_done_is_denotation fin z0 ser ws rest z' n Hch Hwr E) as (B & b & extra & H1 & H2 & H3 & H4).
  exists B, b, extra, z', n. auto 10.
Qed.

(* every way an IXFR request can complete (TCP): up to date, incremental, or AXFR style *)
Theorem ixfr_done_classification : forall fin z0 ser ws rest z' n,
  quiet z0 -> ttl_ok (v_ttl fin) ->
  chunking tIXFR (soa_rr fin :: rest) ws -> Forall wire_rec rest ->
  inbound_xfr z0 tIXFR (Some ser) false ws = (Done z', n) ->
  (* the server has nothing newer: nothing is applied *)
  (v_serial fin = ser /\ z' = z0) \/
  (* difference sequences *)
  (v_serial fin <> ser /\ exists secs z1 b extra,
     rest = secs_stream secs ++ soa_rr b :: extra /\ secs <> [] /\ skel_ok ser fin secs /\
     end_serial ser secs = v_serial fin /\ v_soa b = v_soa fin /\ apply_secs z0 secs = Some z1 /\
     z' = zput soakey (v_ttl b, [v_soa b]) z1) \/
  (* the whole zone *)
  (v_serial fin <> ser /\ exists B b extra,
     rest = B ++ soa_rr b :: extra /\ B <> [] /\ Forall okrec B /\ v_soa b = v_soa fin /\
     z' = zput soakey (v_ttl b, [v_soa b]) (adds [] (erase B))).
Proof.
  intros fin z0 ser ws rest z' n Hq Httl Hch Hwr H.
  pose proof Hch as Hch0. apply chunking_first in Hch0. destruct Hch0 as (w & ws' & a & -> & Hr & Hw & _ & _).
  destruct (ixfr_done_first z0 ser false w ws' fin a z' n Hw Hr H) as [E|(Es & Hlt & _)]; [left; exact E|right].
  destruct rest as [|x rest'].
  - exfalso. destruct (ixfr_done_inv z0 ser fin Es Hlt _ _ z' n Hch H) as (c & y & extra & _ & _ & Hc & _). destruct c; discriminate.
  - inversion Hwr as [|? ? Hx Hwr']; subst. destruct Hx as [[b [-> Hb]]|Hok]; [left|right]; (split; [exact Es|]).
    + apply (ixfr_done_is_denotation fin z0 ser _ _ z' n Hq Httl Es Hlt Hch Hwr (ex_intro _ b (conj eq_refl Hb)) H).
    + apply (axfr_style_done_is_denotation fin z0 ser _ x rest' z' n Httl Es Hlt Hch Hok Hwr' H).
Qed.
