(* C19 - the self-check of the harness model always passes: on every history of operations AND
   dump requests, `BTreeStoreM.run` never reports a difference between its two worlds, and every
   dump carries the flag "every tree of the store abstracts to its value-level tree" = true. *)
From DV Require Import Base.Prelude Model.BTreeM Model.BTreeStoreM Proofs.BTreeBase Proofs.BTreeWf Proofs.BTreeInsert
  Proofs.BTreeLookup Proofs.BTreeDelete Proofs.BTreeTop Proofs.BTreeCursor Proofs.BTreeHistory
  Proofs.BTreeStore Proofs.BTreeIsolation Proofs.BTreeRefine Proofs.BTreeRefine4 Proofs.BTreeRefine5 Proofs.BTreeRefine6.

Lemma elts_eqb_refl (l : list elt) :
  (fix ee (x y : list elt) : bool :=
     match x, y with
     | [], [] => true
     | (k, v) :: x', (k', v') :: y' => (k =? k') && (v =? v') && ee x' y'
     | _, _ => false
     end) l l = true.
Proof. induction l as [|(k & v) l IH]; [reflexivity|]. now rewrite !Z.eqb_refl, IH. Qed.

Lemma tree_eqb_refl : forall a, tree_eqb a a = true.
Proof.
  fix IH 1. intros [lf es ks]. cbn [tree_eqb]. rewrite Bool.eqb_reflx, elts_eqb_refl. cbn [andb].
  induction ks as [|k ks IHk]; [reflexivity|]. now rewrite IH, IHk.
Qed.

Lemma forallb_combine {A B} (f : A * B -> bool) : forall (la : list A) (lb : list B),
  (forall k a b, nth_error la k = Some a -> nth_error lb k = Some b -> f (a, b) = true) ->
  forallb f (combine la lb) = true.
Proof.
  induction la as [|a la IH]; intros [|b lb] H; try reflexivity. cbn [combine forallb].
  rewrite (H O a b eq_refl eq_refl). apply IH. intros k a' b' Ha Hb. exact (H (S k) a' b' Ha Hb).
Qed.

Lemma SR_consistent sw w : SR sw (w_trees w) -> consistent sw w = true.
Proof.
  intros (_ & Hlen & Hrel). unfold consistent. rewrite Hlen, Nat.eqb_refl. cbn [andb].
  apply forallb_combine. intros k sb b H1 H2.
  destruct (Hrel k sb b H1 H2) as ((_ & Hsz & Him & _ & fp & Hr) & _).
  rewrite (rep_abs_fuel _ _ _ _ Hr) by (pose proof (fp_le_store _ _ _ _ Hr); lia).
  rewrite tree_eqb_refl, Hsz, Z.eqb_refl, Him, Bool.eqb_reflx. reflexivity.
Qed.

Inductive hop := HOp (x : vop) | HDump (ti : nat).

Definition henc (h : hop) : obs :=
  match h with HOp x => enc x | HDump ti => L [I 16; nz ti] end.

(* what the run must return: the value-level observation of every step; at a dump also the
   preorder dump of the store with ids and creator tags, and the flag `true` *)
Fixpoint expected (sw : sworld) (w : world) (hs : list hop) : list obs :=
  match hs with
  | [] => []
  | h :: r =>
      let '(w', o) := step w (henc h) in
      let '(sw', _) := sstep sw (henc h) in
      (match h with
       | HOp _ => o
       | HDump ti =>
           match nth_error (sw_trees sw) ti with
           | Some sb => L [o; L (sdump (S (length (sw_store sw))) (sw_store sw) (sb_root sb)); ob true]
           | None => o
           end
       end) :: expected sw' w' r
  end.

Lemma steps2_expected hs : forall sw w, SR sw (w_trees w) -> steps2 sw w (map henc hs) = expected sw w hs.
Proof.
  induction hs as [|h r IH]; intros sw w HSR; [reflexivity|]. destruct h as [x|ti].
  - cbn [map henc expected]. destruct (steps2_op sw w x (map henc r) HSR) as (-> & HSR').
    destruct (step w (enc x)) as (w' & o). destruct (sstep sw (enc x)) as (sw' & so). cbn [fst snd] in *.
    now rewrite (IH sw' w' HSR').
  - cbn [map henc expected steps2]. unfold nz.
    change (sstep sw (L [I 16; I (Z.of_nat ti)])) with (sw, N).
    assert (Hw : w_trees (fst (step w (L [I 16; I (Z.of_nat ti)]))) = w_trees w).
    { cbv beta iota delta [step]. unfold with_tree. destruct (nth_error (w_trees w) (Z.to_nat (Z.of_nat ti))); reflexivity. }
    destruct (step w (L [I 16; I (Z.of_nat ti)])) as (w' & o). cbn [fst] in Hw.
    rewrite Nat2Z.id. rewrite (SR_consistent sw w HSR). rewrite <- Hw in HSR. now rewrite (IH sw w' HSR).
Qed.

Theorem run_self_check_proof hs :
  BTreeStoreM.run (L (I 0 :: map henc hs)) = L (expected (mkSW [] []) (mkW [] []) hs).
Proof. unfold BTreeStoreM.run. f_equal. apply steps2_expected. cbn [w_trees]. apply SR_empty. Qed.
