(* C17 - the simple Cache: every history keeps the dict consistent with the ideal map
   (latest stored answer per key, not flushed), lookups return exactly the unexpired ideal
   answer, counters count every lookup once.  Cleaning only ever drops expired entries, which
   no later lookup could return because the clock is monotone. *)
From DV Require Import Base.Prelude Model.CacheM Model.CacheSpecM Proofs.CacheBasic Proofs.CacheDict
  Proofs.CacheSpec Proofs.CacheThm Proofs.ListFacts.

Lemma dget_filter : forall (p : Z * ans -> bool) d k, NoDup (dkeys d) ->
  dget (filter p d) k =
  match dget d k with Some v => if p (k, v) then Some v else None | None => None end.
Proof.
  unfold dkeys. intros p d k. induction d as [|[x w] d IH]; intros Hnd; cbn; [reflexivity|].
  cbn in Hnd. apply NoDup_cons_iff in Hnd. destruct Hnd as [Hx Hnd].
  destruct (Z.eqb_spec x k) as [->|E].
  - destruct (p (k, w)) eqn:Ep; cbn.
    + rewrite Z.eqb_refl. reflexivity.
    + rewrite IH by exact Hnd. destruct (dget d k) eqn:Ed; [|reflexivity].
      exfalso. apply Hx. apply (proj1 (dget_in d k)). congruence.
  - destruct (p (x, w)); cbn; [destruct (Z.eqb_spec x k); [congruence|]|]; apply IH; exact Hnd.
Qed.

Lemma nodup_filter_keys : forall (p : Z * ans -> bool) d, NoDup (dkeys d) -> NoDup (dkeys (filter p d)).
Proof.
  unfold dkeys. intros p d. induction d as [|[x w] d IH]; intros Hnd; cbn; [constructor|].
  cbn in Hnd. apply NoDup_cons_iff in Hnd. destruct Hnd as [Hx Hnd].
  destruct (p (x, w)); cbn; [|auto]. constructor; [|auto].
  intros Hin. apply Hx. apply in_map_iff in Hin. destruct Hin as [[y v] [Hy Hin]]. cbn in Hy. subst y.
  apply filter_In in Hin. destruct Hin as [Hin _]. apply in_map_iff. exists (x, v). auto.
Qed.

(* the dict, read as a lookup function, is an instance of the ideal-map invariant *)
Definition CJ (c : cache) (t : Z) (m : imap) : Prop :=
  NoDup (dkeys (c_data c)) /\ ideal_ok (dget (c_data c)) t m.

Definition CInv (w : cache * Z) (g : lghost) : Prop :=
  CJ (fst w) (snd w) (fst g) /\ (c_hits (fst w), c_miss (fst w)) = stats_of (snd g).

Lemma maybe_clean_spec : forall c k m c1 k1,
  CJ c (now k) m -> nonneg (pend k) -> maybe_clean c k = (c1, k1) ->
  CJ c1 (now k1) m /\ nonneg (pend k1) /\ c_hits c1 = c_hits c /\ c_miss c1 = c_miss c.
Proof.
  intros c k m c1 k1 [N HJ] Hn H. unfold maybe_clean in H.
  destruct (tick k) as [t k'] eqn:Et. destruct (tick_spec _ _ _ Et Hn) as (A & B & Hn').
  destruct (c_next c <=? t).
  - destruct (tick k') as [t2 k2] eqn:Et2. destruct (tick_spec _ _ _ Et2 Hn') as (A2 & B2 & Hn2).
    injection H as <- <-. split; [split|auto]; cbn [c_data].
    + apply nodup_filter_keys, N.
    + eapply ideal_weaken; [exact HJ|reflexivity|lia| |]; intros key v; rewrite dget_filter by exact N.
      * destruct (dget (c_data c) key) as [v0|]; [|discriminate]. destruct (negb _); [auto|discriminate].
      * intros ->. unfold expired_at. cbn [snd].
        destruct (Z.leb_spec (a_exp v) t); cbn; [right; lia|left; reflexivity].
  - injection H as <- <-. split; [split; [exact N|]|auto].
    apply (ideal_later _ _ _ _ HJ). lia.
Qed.

(* a lookup: whichever of the three outcomes, the dict stays as cleaning left it, the result is
   the ideal one, and exactly one of the two counters goes up *)
Lemma cache_get_spec : forall c k key m, CJ c (now k) m -> nonneg (pend k) ->
  exists r c' k',
    cache_step (Get key) c k = Ok (r, c', k') /\ CJ c' (now k') m /\ r = expected m key (now k') /\
    (c_hits c', c_miss c') =
      match r with RAns _ => (c_hits c + 1, c_miss c) | _ => (c_hits c, c_miss c + 1) end.
Proof.
  intros c k key m HJ Hn. unfold cache_step.
  destruct (maybe_clean c k) as [c1 k1] eqn:Em.
  destruct (maybe_clean_spec c k m c1 k1 HJ Hn Em) as ([N1 HJ1] & Hn1 & <- & <-).
  assert (Hx : forall t', now k1 <= t' -> expected m key t' =
            match dget (c_data c1) key with
            | Some v => if a_exp v <=? t' then RNone else RAns v | None => RNone end)
    by (intros t'; apply (ideal_lookup RNone RAns _ _ _ _ key HJ1)).
  destruct (dget (c_data c1) key) as [v|].
  - destruct (tick k1) as [t2 k2] eqn:Et. destruct (tick_spec _ _ _ Et Hn1) as (A & <- & _).
    assert (HJ2 : CJ c1 (now k2) m)
      by (split; [exact N1|exact (ideal_later _ _ _ _ HJ1 A)]).
    destruct (a_exp v <=? now k2) eqn:Ex; eexists _, _, _; (split; [reflexivity|]);
      rewrite (Hx _ A), Ex; (split; [exact HJ2|split; reflexivity]).
  - eexists _, _, _. split; [reflexivity|]. rewrite Hx by lia. split; [split; assumption|split; reflexivity].
Qed.

Lemma cinv_call : forall cl ds c t g,
  CInv (c, t) g -> nonneg ds -> cache_call cl ->
  exists r c' k',
    cache_step cl c (mkClk t ds) = Ok (r, c', k') /\
    CInv (c', now k') (cache_gupd cl c r c' g) /\
    (forall key, cl = Get key -> r = expected (fst g) key (now k')).
Proof.
  intros cl ds c t g [[N HJ] HS] Hn Hcl. cbn [fst snd] in *. symmetry in HS.
  destruct cl as [key|key v|[key|]|mx|key| | | |]; try contradiction; unfold CInv, CJ, cache_gupd;
    cbn [fst snd];
    (* the statistics calls touch neither the dict nor the ideal map *)
    try (eexists _, _, _; split; [reflexivity|]; split; [|intros; discriminate];
         split; [split; assumption|cbn; rewrite ?HS; reflexivity]).
  - destruct (cache_get_spec c (mkClk t ds) key (fst g) (conj N HJ) Hn) as (r & c' & k' & E & HJ' & Hr & Hs).
    exists r, c', k'. split; [exact E|]. split; [|intros key' [= <-]; exact Hr].
    split; [exact HJ'|]. rewrite Hs. destruct r; cbn; rewrite HS; reflexivity.
  - unfold cache_step. destruct (maybe_clean c (mkClk t ds)) as [c1 k1] eqn:Em.
    destruct (maybe_clean_spec c (mkClk t ds) (fst g) c1 k1 (conj N HJ) Hn Em) as ([N1 HJ1] & Hn1 & Hh & Hm).
    eexists _, _, _. split; [reflexivity|]. split; [|intros; discriminate].
    split; [split|cbn; rewrite Hh, Hm, HS; reflexivity]; cbn.
    + apply nodup_dset. exact N1.
    + eapply ideal_set; [exact HJ1|]. intros x. apply dget_dset.
  - unfold cache_step. destruct (ddel (c_data c) key) as [d|] eqn:Ed;
      (eexists _, _, _; split; [reflexivity|]; split; [|intros; discriminate];
       split; [split|cbn; rewrite HS; reflexivity]; cbn).
    + apply (ddel_spec _ _ _ Ed N).
    + eapply ideal_del; [exact HJ|]. apply (ddel_spec _ _ _ Ed N).
    + exact N.
    + eapply ideal_del; [exact HJ|]. intros x. destruct (Z.eqb_spec key x) as [<-|]; [|reflexivity].
      destruct (dget (c_data c) key) eqn:E2; [|reflexivity].
      destruct (ddel_some _ _ _ E2) as [d' Hd]. congruence.
  - unfold cache_step. destruct (tick (mkClk t ds)) as [t2 k2].
    eexists _, _, _. split; [reflexivity|]. split; [|intros; discriminate].
    split; [split; [constructor|split; intros; discriminate]|cbn; rewrite HS; reflexivity].
Qed.

Lemma cinv_item : forall it w g,
  CInv w g -> mono_item it /\ cache_item it ->
  exists x, wstep cache_step it w = Ok x /\ CInv (snd x) (gnext cache_gupd it w x g).
Proof.
  intros [cl ds|d] [c t] g HI [Hm Hc].
  - destruct (cinv_call cl ds c t g HI Hm Hc) as (r & c' & k' & E & HI' & _).
    eexists. split; [cbn [wstep fst snd]; rewrite E; reflexivity|exact HI'].
  - eexists. split; [reflexivity|]. destruct HI as [[N HJ] HS]. split; [split; [exact N|]|exact HS].
    cbn in *. apply (ideal_later _ _ _ _ HJ). lia.
Qed.

Lemma cinv_init : forall interval t0 ds0,
  CInv (fst (cache_init interval (mkClk t0 ds0)), now (snd (cache_init interval (mkClk t0 ds0)))) lghost0.
Proof.
  intros. unfold cache_init. destruct (tick (mkClk t0 ds0)) as [t k1].
  split; [|reflexivity]. split; [constructor|split; intros; discriminate].
Qed.

(* a run that reaches a world has executed every item of it: set_max_size and
   get_hits_for_key, which Cache lacks, do not occur *)
Lemma cache_grun_items : forall its w g g' w',
  cache_grun its w g = Ok (g', w') -> Forall cache_item its.
Proof.
  induction its as [|it its IH]; intros w g g' w' H; constructor.
  - destruct it as [[]|]; try exact Logic.I; discriminate H.
  - apply bind_ok in H as (x & _ & H). exact (IH _ _ _ _ H).
Qed.

Lemma cache_reach_inv : forall interval t0 ds0 its g w,
  mono its -> cache_reach interval t0 ds0 its g w -> CInv w g.
Proof.
  intros interval t0 ds0 its g w Hm Hr.
  exact (grun_inv_at cache_step cache_gupd CInv _ cinv_item its _ _ _ _ (cinv_init interval t0 ds0)
           (Forall_and Hm (cache_grun_items _ _ _ _ _ Hr)) Hr).
Qed.

Lemma cache_total_c : forall interval t0 ds0 its, mono its -> Forall cache_item its ->
  exists rs w, wrun cache_step its
    (fst (cache_init interval (mkClk t0 ds0)), now (snd (cache_init interval (mkClk t0 ds0)))) = Ok (rs, w).
Proof.
  intros interval t0 ds0 its Hm Hc.
  destruct (grun_inv cache_step cache_gupd CInv _ cinv_item its _ _ (cinv_init interval t0 ds0)
              (Forall_and Hm Hc)) as (g' & w' & E & _).
  destruct (grun_wrun _ _ _ _ _ _ _ E) as [rs Ers]. eauto.
Qed.

Lemma cache_get_c : forall interval t0 ds0 its g w key ds r w',
  mono its -> Forall cache_item its -> cache_reach interval t0 ds0 its g w -> nonneg ds ->
  wstep cache_step (Call (Get key) ds) w = Ok (Some r, w') ->
  r = expected (fst g) key (snd w').
Proof.
  intros interval t0 ds0 its g [c t] key ds r w' Hm _ Hr Hn E.
  pose proof (cache_reach_inv _ _ _ _ _ _ Hm Hr) as HI.
  destruct (cinv_call (Get key) ds c t g HI Hn Logic.I) as (r' & c' & k' & E' & _ & Hx).
  cbn [wstep fst snd] in E. rewrite E' in E. inversion E; subst. apply (Hx key). reflexivity.
Qed.

Lemma cache_stats_c : forall interval t0 ds0 its g w,
  mono its -> Forall cache_item its -> cache_reach interval t0 ds0 its g w ->
  (c_hits (fst w), c_miss (fst w)) = stats_of (snd g).
Proof.
  intros interval t0 ds0 its g w Hm _ Hr. apply (cache_reach_inv _ _ _ _ _ _ Hm Hr).
Qed.

Lemma cache_stat_calls : forall c k,
  cache_step Hits c k = Ok (RInt (c_hits c), c, k) /\
  cache_step Misses c k = Ok (RInt (c_miss c), c, k) /\
  cache_step Snapshot c k = Ok (RStats (c_hits c) (c_miss c), c, k).
Proof. intros. repeat split. Qed.

(* the simple cache never drops an unexpired answer either (cleaning removes expired entries only) *)
Lemma cache_live_present_c : forall interval t0 ds0 its g w key v,
  mono its -> Forall cache_item its -> cache_reach interval t0 ds0 its g w ->
  fst g key = Some v -> snd w < a_exp v -> dget (c_data (fst w)) key = Some v.
Proof.
  intros interval t0 ds0 its g w key v Hm _ Hr Hi Hx.
  destruct (cache_reach_inv _ _ _ _ _ _ Hm Hr) as [[_ [_ O]] _].
  destruct (O _ _ Hi) as [H|H]; [exact H|lia].
Qed.
