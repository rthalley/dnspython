(* C19 - the value-level statements in the form Props/C19.v cites them (insert, lookup, delete, the
   BTree handle with its invariant `bwf`, cursors), and delete_tree_before_fix - BTree._delete with the
   root collapse only after a successful delete - with the history on which it ends in IndexError. *)
From DV Require Import Base.Prelude Model.BTreeM Proofs.BTreeBase Proofs.BTreeWf Proofs.BTreeInsert Proofs.BTreeLookup Proofs.BTreeDelete.

(* insertion (BTree.insert_element at tree level: root growth + insert_nonfull, in_order on or
   off) never fails on a well-formed tree and yields a well-formed tree *)
Lemma insert_wf_proof t io root e :
  wf t root -> exists root' o, insert_tree t io root e = Ok (root', o) /\ wf t root'.
Proof.
  intros (Ht & (h & Hw) & Hs).
  destruct (insert_tree_spec t Ht io h root e Hw Hs) as (h' & root' & Hr & Hw' & Hs' & He).
  exists root', (find_sorted (fst e) (elements root)). split; [assumption|]. repeat split; eauto.
Qed.

(* ... its in-order traversal is the sorted-association-list insertion, and the returned
   element is the one previously stored under the key *)
Lemma insert_elements_proof t io root e :
  wf t root ->
  exists root', insert_tree t io root e = Ok (root', find_sorted (fst e) (elements root)) /\
                elements root' = ins_sorted e (elements root).
Proof.
  intros (Ht & (h & Hw) & Hs).
  destruct (insert_tree_spec t Ht io h root e Hw Hs) as (h' & root' & Hr & Hw' & Hs' & He).
  exists root'. auto.
Qed.

Lemma lookup_spec_proof t root k :
  wf t root -> get (depth root) root k = Ok (find_sorted k (elements root)).
Proof.
  intros (Ht & (h & Hw) & Hs). unfold wfr in Hw.
  rewrite (wfn_depth t _ _ _ Hw). apply (get_spec t Ht k h h (le_n _) _ root Hw Hs).
Qed.

(* the handle level: insert_element keeps `size = number of elements`, rejects frozen trees *)
Definition bwf (b : btree) : Prop := wf (b_t b) (b_root b) /\ b_size b = zlen (elements (b_root b)).

Lemma insert_element_spec_proof b e io :
  bwf b -> b_immut b = false ->
  exists b', insert_element b e io = Ok (b', find_sorted (fst e) (elements (b_root b))) /\ bwf b' /\
             elements (b_root b') = ins_sorted e (elements (b_root b)) /\ b_immut b' = false /\ b_t b' = b_t b.
Proof.
  intros (Hw & Hsz) Him. unfold insert_element. rewrite Him.
  pose proof Hw as (Ht & (h & Hwr) & Hs).
  destruct (insert_tree_spec (b_t b) Ht io h (b_root b) e Hwr Hs) as (h' & root' & -> & Hw' & Hs' & He).
  cbn [bind]. eexists. split; [reflexivity|]. unfold bwf. cbn [b_root b_t b_size b_immut].
  split; [split|auto].
  - repeat split; eauto.
  - unfold zlen in *. rewrite He, ins_sorted_length by assumption.
    destruct (find_sorted (fst e) (elements (b_root b))); lia.
Qed.

Lemma frozen_rejects_proof b e io k exact :
  b_immut b = true ->
  insert_element b e io = Lib eImmutable /\ delete_btree b k exact = Lib eImmutable.
Proof. intros H. unfold insert_element, delete_btree. now rewrite H. Qed.

(* deletion (BTree._delete at tree level: _Node.delete with balance / steal / merge / successor
   replacement, then the root collapse) never fails on a well-formed tree - no IndexError, no
   failed assert - keeps the invariant, reports what the reference dictionary reports, and
   removes exactly the key from the in-order traversal (nothing when ValueError is raised) *)
Lemma delete_wf_proof t root key exact :
  wf t root -> exists root' o, delete_tree t root key exact = Ok (root', o) /\ wf t root'.
Proof.
  intros (Ht & (h & Hw) & Hs).
  destruct (delete_tree_spec t Ht h root key exact Hw Hs) as (h' & root' & Hr & Hw' & Hs' & He).
  exists root'. eexists. split; [exact Hr|]. repeat split; eauto.
Qed.

Lemma delete_elements_proof t root key exact :
  wf t root ->
  let o := dspec exact (find_sorted key (elements root)) in
  exists root', delete_tree t root key exact = Ok (root', o) /\
                elements root' = after_del key o (elements root).
Proof.
  intros (Ht & (h & Hw) & Hs) o.
  destruct (delete_tree_spec t Ht h root key exact Hw Hs) as (h' & root' & Hr & Hw' & Hs' & He).
  exists root'. auto.
Qed.

Lemma delete_btree_spec_proof b key exact :
  bwf b -> b_immut b = false ->
  let o := dspec exact (find_sorted key (elements (b_root b))) in
  exists b', delete_btree b key exact = Ok (b', o) /\ bwf b' /\
             elements (b_root b') = after_del key o (elements (b_root b)) /\ b_immut b' = false /\ b_t b' = b_t b.
Proof.
  intros (Hw & Hsz) Him o. unfold delete_btree. rewrite Him.
  pose proof Hw as (Ht & (h & Hwr) & Hs).
  destruct (delete_tree_spec (b_t b) Ht h (b_root b) key exact Hwr Hs) as (h' & root' & -> & Hw' & Hs' & He).
  cbn [bind]. fold o in He |- *. eexists. split; [reflexivity|]. unfold bwf. cbn [b_root b_t b_size b_immut].
  split; [split|auto].
  - repeat split; eauto.
  - unfold zlen in *. rewrite He. pose proof (after_del_length key exact (elements (b_root b))) as Hl.
    cbn zeta in Hl. fold o in Hl. clearbody o. destruct o; lia.
Qed.

From DV Require Import Proofs.BTreeCursor.

Lemma cursor_seek_proof t root key before :
  wf t root ->
  exists c', cursor_seek root key before = Ok c' /\ cinv t root c' /\ c_parked c' = false /\
             anchor_of c' = if before then AB key else AA key.
Proof. intros (Ht & (h & Hw) & Hs). exact (cursor_seek_spec t Ht root h key before Hw Hs). Qed.

Lemma cursor_next_proof t root c :
  wf t root -> cinv t root c ->
  exists bef aft c',
    pos_ok (anchor_of c) (elements root) bef aft /\
    cursor_next root c = Ok (c', hd_error aft) /\
    cinv t root c' /\ c_parked c' = false /\
    anchor_of c' = match aft with x :: _ => AA (fst x) | [] => AR end.
Proof. intros (Ht & (h & Hw) & Hs). exact (cursor_next_spec t Ht root h c Hw Hs). Qed.

Lemma cursor_prev_proof t root c :
  wf t root -> cinv t root c ->
  exists bef aft c',
    pos_ok (anchor_of c) (elements root) bef aft /\
    cursor_prev root c = Ok (c', hd_error (rev bef)) /\
    cinv t root c' /\ c_parked c' = false /\
    anchor_of c' = match rev bef with x :: _ => AB (fst x) | [] => AL end.
Proof. intros (Ht & (h & Hw) & Hs). exact (cursor_prev_spec t Ht root h c Hw Hs). Qed.

Lemma cursor_park_proof t root c :
  cinv t root c -> anchor_of (cursor_park c) = anchor_of c /\ forall root', cinv t root' (cursor_park c).
Proof. apply cursor_park_spec. Qed.

Lemma cursor_boundary_proof t root c :
  cinv t root (cursor_seek_first c) /\ anchor_of (cursor_seek_first c) = AL /\
  cinv t root (cursor_seek_last c) /\ anchor_of (cursor_seek_last c) = AR /\
  cinv t root new_cursor /\ anchor_of new_cursor = AL.
Proof. apply cursor_boundary_spec. Qed.

(* BTree._delete as it was before /repo 68e82b5: the root is collapsed only when something was
   deleted *)
Definition delete_tree_before_fix (t : nat) (root : tree) (key : Z) (exact : option Z) : res (tree * dout) :=
  do (root1, o) <- del t (depth root) true root key exact;
  match o with
  | DDel _ => do root2 <- collapse_root root1; Ok (root2, o)
  | _ => Ok (root1, o)
  end.

Definition lf2 (a b : Z) : tree := Node true [(a, a); (b, b)] [].
Definition all_minimal_17 : tree :=
  Node false [(80, 80)]
    [Node false [(20, 20); (50, 50)] [lf2 0 10; lf2 30 40; lf2 60 70];
     Node false [(110, 110); (140, 140)] [lf2 90 100; lf2 120 130; lf2 150 160]].

(* three deletes of absent keys leave an internal root without keys whose only child is minimal;
   the next delete - of a key that IS in the tree - ends in IndexError *)
Lemma delete_before_fix_refuted_proof :
  wf 3 all_minimal_17 /\
  exists r1 r2 r3,
    delete_tree_before_fix 3 all_minimal_17 1 None = Ok (r1, DNone) /\
    delete_tree_before_fix 3 r1 91 None = Ok (r2, DNone) /\
    delete_tree_before_fix 3 r2 151 None = Ok (r3, DNone) /\
    find_sorted 0 (elements r3) = Some (0, 0) /\
    delete_tree_before_fix 3 r3 0 None = Internal eIndex.
Proof.
  split; [apply wf_b_iff; vm_compute; reflexivity|].
  eexists _, _, _. split; [vm_compute; reflexivity|]. split; [vm_compute; reflexivity|].
  split; [vm_compute; reflexivity|]. split; vm_compute; reflexivity.
Qed.
