(* C19 - copy-on-write discipline of the store-level model: a mutation by the tree with creator c
   writes only nodes tagged c (everything else in the store is left as it is), and keeps the
   typing invariant "children of a node carry a creator visible from the node's creator". *)
From DV Require Import Base.Prelude Proofs.ListFacts Model.BTreeM Model.BTreeStoreM Proofs.BTreeBase Proofs.BTreeWf.

Lemma nth_snoc_inv {A} (l : list A) x j y :
  nth_error (l ++ [x]) j = Some y -> j = length l /\ y = x \/ nth_error l j = Some y.
Proof.
  intros H. destruct (Nat.lt_ge_cases j (length l)); [right; now rewrite nth_error_app1 in H|left].
  rewrite nth_error_app2 in H by assumption.
  destruct (j - length l)%nat as [|[|]] eqn:E; cbn in H; try discriminate. inversion H. split; [lia|reflexivity].
Qed.

Lemma pop_last_inv {A} (l l' : list A) x : pop_last l = Ok (l', x) -> l = l' ++ [x].
Proof.
  unfold pop_last. destruct (rev l) eqn:E; [discriminate|]. intros H; inversion H; subst.
  rewrite <- (rev_involutive l), E. reflexivity.
Qed.

Lemma sget_inv s id n : sget s id = Ok n -> nth_error s id = Some n.
Proof. unfold sget. destruct (nth_error s id); [intros H; inversion H; auto|discriminate]. Qed.

(* abs one level down: the value-level children of a node *)
Definition abs_kids (f : nat) (s : store) : list nat -> option (list tree) :=
  fix go ks :=
    match ks with
    | [] => Some []
    | k :: r => match abs f s k, go r with Some k', Some r' => Some (k' :: r') | _, _ => None end
    end.

Lemma abs_S f s id :
  abs (S f) s id =
  match nth_error s id with
  | Some n => match abs_kids f s (s_kids n) with Some ks => Some (Node (s_leaf n) (s_elts n) ks) | None => None end
  | None => None
  end.
Proof. reflexivity. Qed.

Lemma abs_kids_ext f s s' ks : Forall (fun k => abs f s' k = abs f s k) ks -> abs_kids f s' ks = abs_kids f s ks.
Proof. induction 1 as [|k r Hk _ IH]; [reflexivity|]. cbn [abs_kids]. now rewrite Hk, IH. Qed.

(* H : (do x <- e; k x) = Ok _ becomes H : k x = Ok _ with E : e = Ok x, x destructured by p;
   [peel H] when neither x nor E is referred to afterwards *)
Tactic Notation "unbind" hyp(H) "as" simple_intropattern(p) "eqn" ":" ident(E) :=
  apply bind_ok in H as (p & E & H); cbn beta iota in H.
Tactic Notation "unbind" hyp(H) "as" simple_intropattern(p) := let E := fresh "B" in unbind H as p eqn:E.
Ltac peel H := unbind H as ?.

Section FRAME.
Variable anc : nat -> nat -> Prop.
Hypothesis anc_refl : forall a, anc a a.
Hypothesis anc_trans : forall a b d, anc a b -> anc b d -> anc a d.
Variable c : nat.   (* creator of the tree that mutates *)

Definition vis (s : store) (k id : nat) : Prop := exists n, nth_error s id = Some n /\ anc k (s_cr n).
Definition own (s : store) (id : nat) : Prop := exists n, nth_error s id = Some n /\ s_cr n = c.
Definition store_ok (s : store) : Prop :=
  forall id n, nth_error s id = Some n -> Forall (vis s (s_cr n)) (s_kids n).

(* s' extends s: nothing disappears, creator tags are permanent, and every node whose tag is not
   c is exactly as before *)
Definition ext (s s' : store) : Prop :=
  (length s <= length s')%nat /\
  forall id n, nth_error s id = Some n ->
    (s_cr n <> c -> nth_error s' id = Some n) /\ exists n', nth_error s' id = Some n' /\ s_cr n' = s_cr n.

Lemma ext_refl s : ext s s.
Proof. split; [lia|]. intros id n H. split; eauto. Qed.

Lemma ext_trans s1 s2 s3 : ext s1 s2 -> ext s2 s3 -> ext s1 s3.
Proof.
  intros (L1 & H1) (L2 & H2). split; [lia|]. intros id n Hn.
  destruct (H1 id n Hn) as (Hne & n' & Hn' & Hc'). destruct (H2 id n' Hn') as (Hne' & n'' & Hn'' & Hc'').
  split.
  - intros Hc. apply (proj1 (H2 id n (Hne Hc))). assumption.
  - exists n''. split; [assumption|congruence].
Qed.

Lemma vis_ext s s' k id : ext s s' -> vis s k id -> vis s' k id.
Proof. intros (_ & H) (n & Hn & Ha). destruct (H id n Hn) as (_ & n' & Hn' & Hc). exists n'. split; [assumption|congruence]. Qed.

Lemma own_ext s s' id : ext s s' -> own s id -> own s' id.
Proof. intros (_ & H) (n & Hn & Ha). destruct (H id n Hn) as (_ & n' & Hn' & Hc). exists n'. split; [assumption|congruence]. Qed.

Lemma own_vis s id : own s id -> vis s c id.
Proof. intros (n & Hn & <-). exists n. auto. Qed.
Arguments own_vis {s id}.

Lemma Forall_vis_ext s s' k l : ext s s' -> Forall (vis s k) l -> Forall (vis s' k) l.
Proof. intros He. apply Forall_impl. intros a. now apply vis_ext. Qed.

Lemma vis_trans s k k' id : anc k k' -> vis s k' id -> vis s k id.
Proof. intros Ha (n & Hn & Hb). exists n. eauto. Qed.

Lemma vis_kids s k id n : store_ok s -> vis s k id -> nth_error s id = Some n -> Forall (vis s k) (s_kids n).
Proof.
  intros Hs (m & Hm & Ha) Hn. assert (m = n) by congruence. subst m.
  eapply Forall_impl; [|apply (Hs id n Hn)]. intros a. now apply vis_trans.
Qed.
Arguments vis_kids {s k id n}.

Lemma sget_own s id n : own s id -> sget s id = Ok n -> s_cr n = c.
Proof. intros (m & Hm & Hc) H. apply sget_inv in H. congruence. Qed.
Arguments sget_own {s id n}.

Lemma sget_kids s id n : store_ok s -> own s id -> sget s id = Ok n -> Forall (vis s c) (s_kids n).
Proof. intros Hs Ho H. pose proof (sget_own Ho H) as <-. apply sget_inv in H. exact (Hs _ _ H). Qed.
Arguments sget_kids {s id n}.

(* what every store function called by a tree with creator c guarantees of the store it returns *)
Definition G (s s' : store) : Prop := store_ok s' /\ ext s s'.

Lemma G_refl s : store_ok s -> G s s.
Proof. intros H. split; [assumption|apply ext_refl]. Qed.

Lemma G_trans s1 s2 s3 : G s1 s2 -> G s2 s3 -> G s1 s3.
Proof using anc_refl anc_trans. intros (_ & E1) (H2 & E2). split; [assumption|eapply ext_trans; eassumption]. Qed.
Arguments G_trans {s1 s2 s3}.

Lemma G_trans_and s1 s2 s3 (P : Prop) : G s1 s2 -> G s2 s3 /\ P -> G s1 s3 /\ P.
Proof. intros G1 (G2 & HP). split; [exact (G_trans G1 G2)|exact HP]. Qed.

Lemma G_and_own s s' id : own s id -> G s s' -> G s s' /\ own s' id.
Proof. intros Ho HG. split; [assumption|exact (own_ext _ _ _ (proj2 HG) Ho)]. Qed.
Arguments G_and_own {s s' id}.

Lemma G_intro s s' :
  store_ok s -> ext s s' ->
  (forall id n, nth_error s' id = Some n -> nth_error s id = Some n \/ s_cr n = c /\ Forall (vis s c) (s_kids n)) ->
  G s s'.
Proof.
  intros Hs He Hn. split; [|assumption]. intros id n H.
  destruct (Hn id n H) as [Ho|(<- & Hk)]; eapply Forall_vis_ext; eauto.
Qed.

Lemma sset_G s id n' : store_ok s -> own s id -> s_cr n' = c -> Forall (vis s c) (s_kids n') -> G s (sset s id n').
Proof.
  intros Hs (n & Hn & Hc) Hc' Hk.
  assert (Hlt : (id < length s)%nat) by (apply nth_error_Some; congruence).
  unfold sset. apply G_intro; [assumption| |].
  - split; [rewrite length_set_nth; lia|]. intros j m Hm. destruct (Nat.eq_dec id j) as [<-|Hne].
    + rewrite nth_set_nth_eq by assumption. split; [congruence|]. exists n'. split; congruence.
    + rewrite nth_set_nth_ne by assumption. split; eauto.
  - intros j m Hm. apply nth_set_nth_inv in Hm as [(_ & ->)|Hm]; auto.
Qed.

Lemma sset_elts_G s id n es : store_ok s -> own s id -> sget s id = Ok n -> G s (sset s id (w_elts n es)).
Proof. intros Hs Ho E. apply sset_G; [assumption|assumption|exact (sget_own Ho E)|exact (sget_kids Hs Ho E)]. Qed.
Arguments sset_elts_G {s id n es}.

Lemma upd_G {s id f s'} :
  store_ok s -> own s id ->
  (forall n, s_cr n = c -> Forall (vis s c) (s_kids n) -> s_cr (f n) = c /\ Forall (vis s c) (s_kids (f n))) ->
  upd s id f = Ok s' -> G s s'.
Proof.
  intros Hs Ho Hf H. unfold upd in H. unbind H as n eqn:E. inversion H; subst s'.
  destruct (Hf n (sget_own Ho E) (sget_kids Hs Ho E)). now apply sset_G.
Qed.

Lemma upd_elts_G {s id} {g : snode -> list elt} {s'} :
  store_ok s -> own s id -> upd s id (fun n => w_elts n (g n)) = Ok s' -> G s s'.
Proof. intros Hs Ho. apply upd_G; try assumption. intros n Hc Hk. split; assumption. Qed.

Lemma upd_kids_G {s id} {g : snode -> list nat} {s'} :
  store_ok s -> own s id -> (forall n, Forall (vis s c) (s_kids n) -> Forall (vis s c) (g n)) ->
  upd s id (fun n => w_kids n (g n)) = Ok s' -> G s s'.
Proof. intros Hs Ho Hg. apply upd_G; try assumption. intros n Hc Hk. split; [assumption|]. now apply Hg. Qed.

Lemma alloc_G s n :
  store_ok s -> s_cr n = c -> Forall (vis s c) (s_kids n) -> G s (s ++ [n]) /\ own (s ++ [n]) (length s).
Proof.
  intros Hs Hc Hk. split.
  - apply G_intro; [assumption| |].
    + split; [rewrite app_length; lia|]. intros j m Hm.
      rewrite nth_error_app1 by (apply nth_error_Some; congruence). split; eauto.
    + intros j m Hm. apply nth_snoc_inv in Hm as [(_ & ->)|Hm]; auto.
  - exists n. split; [|assumption]. rewrite nth_error_app2, Nat.sub_diag by lia. reflexivity.
Qed.

(* The proofs below walk down the program.  [carry HG], for HG : G a b, restates at b what is
   known at a and survives the step (store_ok, ownership, visibility); [advance HG] also moves a
   goal [G a s'] or [G a s' /\ P] on to b, and [advance HG as Ho] does so for HG : G a b /\ own b x, naming
   the ownership fact.  [ret H] closes [G a s'] when H says that a is returned. *)
Ltac carry HG :=
  match type of HG with
  | G ?a ?b =>
      repeat match goal with
             | H : store_ok a |- _ => clear H; pose proof (proj1 HG) as H
             | H : own a _ |- _ => apply (own_ext a b _ (proj2 HG)) in H
             | H : vis a _ _ |- _ => apply (vis_ext a b _ _ (proj2 HG)) in H
             | H : Forall (vis a _) _ |- _ => apply (Forall_vis_ext a b _ _ (proj2 HG)) in H
             end
  end.
Tactic Notation "advance" constr(HG) :=
  let HG' := fresh "HG" in pose proof HG as HG'; first [eapply G_trans|eapply G_trans_and]; [exact HG'|]; carry HG'; clear HG'.
Tactic Notation "advance" constr(HG) "as" ident(Ho) :=
  let HG' := fresh "HG" in destruct HG as (HG' & Ho); advance HG'; clear HG'.
Ltac ret H := inversion H; subst; now apply G_refl.

Lemma s_maybe_cow_ok s id s' id' :
  store_ok s -> vis s c id -> s_maybe_cow s id c = Ok (s', id') -> G s s' /\ own s' id'.
Proof.
  intros Hs Hv H. pose proof Hv as (n & Hn & Ha). unfold s_maybe_cow, sget, alloc in H. rewrite Hn in H. cbn [bind] in H.
  destruct (Nat.eqb_spec (s_cr n) c) as [Hc|Hc]; injection H as <- <-.
  - split; [now apply G_refl|]. exists n. auto.
  - apply alloc_G; [assumption|reflexivity|]. cbn [s_kids]. destruct (s_leaf n); [constructor|].
    eapply vis_kids; eassumption.
Qed.
Arguments s_maybe_cow_ok {s id s' id'}.

Lemma s_maybe_cow_child_ok s pid index s' cid :
  store_ok s -> own s pid -> s_maybe_cow_child s pid index = Ok (s', cid) -> G s s' /\ own s' cid.
Proof.
  intros Hs Hp H. unfold s_maybe_cow_child in H. unbind H as p eqn:Ep.
  destruct (s_leaf p); [discriminate|].
  unbind H as ((ka & cid0) & kb) eqn:Ek. apply split_at_inv in Ek as (Hk & _).
  pose proof (sget_kids Hs Hp Ep) as Hkv. rewrite Hk in Hkv. apply Forall_mid in Hkv as (Hka & Hcid0 & Hkb).
  unbind H as (s1 & cid') eqn:Ec. rewrite (sget_own Hp Ep) in Ec.
  advance (s_maybe_cow_ok Hs Hcid0 Ec) as Ho1.
  destruct (Nat.eqb_spec cid' cid0) as [->|_].
  - inversion H; subst. exact (G_and_own Ho1 (G_refl _ Hs)).
  - unbind H as s2 eqn:E2. inversion H; subst s2 cid.
    apply (G_and_own Ho1). eapply upd_kids_G; [exact Hs|exact Hp| |exact E2].
    intros n _. apply Forall_mid. auto using own_vis.
Qed.
Arguments s_maybe_cow_child_ok {s pid index s' cid}.

Lemma s_split_ok t s id s' mid rid :
  store_ok s -> own s id -> s_split t s id = Ok (s', mid, rid) -> G s s' /\ own s' rid.
Proof.
  intros Hs Ho H. unfold s_split in H. unbind H as n eqn:En. unbind H as mx. destruct (negb mx); [discriminate|].
  pose proof (sget_own Ho En) as Hc. pose proof (sget_kids Hs Ho En) as Hk.
  unfold alloc in H. destruct (nth_error (s_elts n) (t_min t)); [|discriminate].
  set (rn := mkS (s_cr n) (s_leaf n) (skipn (S (t_min t)) (s_elts n)) (if s_leaf n then [] else skipn (S (t_min t)) (s_kids n))) in *.
  assert (Hrk : Forall (vis s c) (s_kids rn)).
  { unfold rn. cbn [s_kids]. destruct (s_leaf n); [constructor|]. now apply Forall_skipn. }
  unbind H as s2 eqn:E2. inversion H; subst. advance (alloc_G s rn Hs Hc Hrk) as Hr.
  apply (G_and_own Hr). eapply upd_G; [exact Hs|exact Ho| |exact E2].
  intros m Hm Hkm. split; [assumption|]. cbn [s_kids]. destruct (s_leaf m); [assumption|]. now apply Forall_firstn.
Qed.
Arguments s_split_ok {t s id s' mid rid}.

Lemma s_adopt_ok t s pid lid mid rid s' :
  store_ok s -> own s pid -> vis s c lid -> vis s c rid -> s_adopt t s pid lid mid rid = Ok s' -> G s s'.
Proof.
  intros Hs Ho Hl Hr H. unfold s_adopt in H. unbind H as p eqn:Ep. unbind H as [|]; [discriminate|].
  destruct (s_leaf p); [discriminate|]. unbind H as (i & [|]); [discriminate|].
  pose proof (sget_own Ho Ep) as Hc. pose proof (sget_kids Hs Ho Ep) as Hk.
  destruct (s_kids p) as [|k ks] eqn:Ek.
  - inversion H; subst s'. apply sset_G; auto. repeat constructor; assumption.
  - destruct (nth_error (k :: ks) i) as [x|]; [|discriminate]. destruct (x =? lid)%nat; [|discriminate].
    inversion H; subst s'. apply sset_G; auto. cbn [s_kids]. unfold insert_at. apply Forall_app. split.
    + now apply Forall_firstn.
    + constructor; [assumption|now apply Forall_skipn].
Qed.
Arguments s_adopt_ok {t s pid lid mid rid s'}.

Lemma s_try_right_steal_ok t s selfid pid index s' b :
  store_ok s -> own s selfid -> own s pid -> s_try_right_steal t s selfid pid index = Ok (s', b) -> G s s'.
Proof.
  intros Hs Hself Hp H. unfold s_try_right_steal in H. unbind H as p.
  destruct (nth_error (s_kids p) (S index)); [|ret H].
  peel H. unbind H as [|]; [ret H|].
  unbind H as (s1 & rid) eqn:E1.
  advance (s_maybe_cow_child_ok Hs Hp E1) as Hr.
  peel H. unbind H as ((ea & pe) & eb). unbind H as r eqn:Er.
  destruct (s_elts r) as [|re res']; [discriminate|].
  unbind H as s2 eqn:E2. advance (upd_elts_G Hs Hr E2).
  unbind H as s3 eqn:E3. advance (upd_elts_G Hs Hp E3).
  unbind H as s4 eqn:E4. advance (upd_elts_G Hs Hself E4).
  unbind H as r' eqn:Er'. destruct (s_leaf r'); [ret H|].
  unbind H as self. destruct (s_leaf self); [discriminate|].
  pose proof (sget_kids Hs Hr Er') as Hrk.
  destruct (s_kids r') as [|rc rks']; [discriminate|]. inversion Hrk as [|? ? Hrc Hrks']; subst.
  unbind H as s5 eqn:E5. advance (upd_kids_G Hs Hr (fun _ _ => Hrks') E5).
  unbind H as s6 eqn:E6. inversion H; subst. eapply upd_kids_G; [exact Hs|exact Hself| |exact E6].
  intros m Hm. apply Forall_app. auto.
Qed.
Arguments s_try_right_steal_ok {t s selfid pid index s' b}.

Lemma s_try_left_steal_ok t s selfid pid index s' b :
  store_ok s -> own s selfid -> own s pid -> s_try_left_steal t s selfid pid index = Ok (s', b) -> G s s'.
Proof.
  intros Hs Hself Hp H. unfold s_try_left_steal in H.
  destruct index as [|im]; [ret H|].
  unbind H as p. unbind H as ((? & lid0) & ?). peel H. unbind H as [|]; [ret H|].
  unbind H as (s1 & lid) eqn:E1.
  advance (s_maybe_cow_child_ok Hs Hp E1) as Hl.
  peel H. unbind H as ((ea & pe) & eb). unbind H as ln eqn:El. unbind H as (les' & le).
  unbind H as s2 eqn:E2. advance (upd_elts_G Hs Hl E2).
  unbind H as s3 eqn:E3. advance (upd_elts_G Hs Hp E3).
  unbind H as s4 eqn:E4. advance (upd_elts_G Hs Hself E4).
  unbind H as l' eqn:El'. destruct (s_leaf l'); [ret H|].
  unbind H as self. destruct (s_leaf self); [discriminate|].
  pose proof (sget_kids Hs Hl El') as Hlk.
  unbind H as (lks' & lc) eqn:Elk. apply pop_last_inv in Elk. rewrite Elk in Hlk.
  apply Forall_app in Hlk as (Hlks' & Hlc). inversion Hlc; subst.
  unbind H as s5 eqn:E5. advance (upd_kids_G Hs Hl (fun _ _ => Hlks') E5).
  unbind H as s6 eqn:E6. inversion H; subst. eapply upd_kids_G; [exact Hs|exact Hself| |exact E6].
  intros m Hm. constructor; assumption.
Qed.
Arguments s_try_left_steal_ok {t s selfid pid index s' b}.

Lemma s_merge_ok s selfid pid index s' :
  store_ok s -> own s selfid -> own s pid -> s_merge s selfid pid index = Ok s' -> G s s'.
Proof.
  intros Hs Hself Hp H. unfold s_merge in H. unbind H as p eqn:Ep. unbind H as ((ka & rid) & kb) eqn:Ek.
  pose proof (sget_kids Hs Hp Ep) as Hpk.
  apply split_at_inv in Ek as (Hk & _). rewrite Hk in Hpk. apply Forall_mid in Hpk as (Hka & Hrid & Hkb).
  assert (Hkk : Forall (vis s c) (ka ++ kb)) by (apply Forall_app; auto).
  unbind H as s1 eqn:E1. advance (upd_kids_G Hs Hp (fun _ _ => Hkk) E1).
  peel H. unbind H as ((ea & pe) & eb).
  unbind H as s2 eqn:E2. advance (upd_elts_G Hs Hp E2).
  unbind H as r eqn:Er.
  (* the children of the right sibling: visible from its creator, which is visible from c *)
  pose proof (vis_kids Hs Hrid (sget_inv _ _ _ Er)) as Hrk.
  unbind H as s3 eqn:E3. advance (upd_elts_G Hs Hself E3).
  unbind H as self. destruct (s_leaf self); [ret H|].
  eapply upd_kids_G; [exact Hs|exact Hself| |exact H]. intros m Hm. apply Forall_app. auto.
Qed.
Arguments s_merge_ok {s selfid pid index s'}.

Lemma s_balance_ok t s selfid pid index s' :
  store_ok s -> own s selfid -> own s pid -> s_balance t s selfid pid index = Ok s' -> G s s'.
Proof.
  intros Hs Hself Hp H. unfold s_balance in H. unbind H as p. destruct (s_leaf p); [discriminate|].
  unbind H as (s1 & [|]) eqn:E1; advance (s_try_left_steal_ok Hs Hself Hp E1); [ret H|].
  unbind H as (s2 & [|]) eqn:E2; advance (s_try_right_steal_ok Hs Hself Hp E2); [ret H|].
  destruct index as [|im]; [exact (s_merge_ok Hs Hself Hp H)|].
  unbind H as (s3 & lid) eqn:E3.
  advance (s_maybe_cow_child_ok Hs Hp E3) as Hl.
  exact (s_merge_ok Hs Hl Hp H).
Qed.
Arguments s_balance_ok {t s selfid pid index s'}.

Lemma s_opt_loop_ok t : forall fuel s lid pid li s',
  store_ok s -> own s lid -> own s pid -> s_opt_loop fuel t s lid pid li = Ok s' -> G s s'.
Proof.
  induction fuel as [|f IH]; intros s lid pid li s' Hs Hl Hp H; [discriminate|].
  cbn [s_opt_loop] in H. unbind H as l.
  destruct (length (s_elts l) <? t_max t)%nat; [|ret H].
  unbind H as (s1 & [|]) eqn:E1; advance (s_try_right_steal_ok Hs Hl Hp E1); [|ret H].
  exact (IH _ _ _ _ _ Hs Hl Hp H).
Qed.
Arguments s_opt_loop_ok {t fuel s lid pid li s'}.

Lemma s_optimize_ok t s pid index s' :
  store_ok s -> own s pid -> s_optimize t s pid index = Ok s' -> G s s'.
Proof.
  intros Hs Hp H. unfold s_optimize in H. destruct index as [|li]; [ret H|].
  peel H. unbind H as ((? & lid0) & ?). unbind H as ln0.
  destruct (length (s_elts ln0) =? t_max t)%nat; [ret H|].
  unbind H as (s1 & lid) eqn:E1.
  advance (s_maybe_cow_child_ok Hs Hp E1) as Hl.
  exact (s_opt_loop_ok Hs Hl Hp H).
Qed.
Arguments s_optimize_ok {t s pid index s'}.

Definition srec_ok (rec : store -> nat -> res (store * option elt)) : Prop :=
  forall s id s' o, store_ok s -> own s id -> rec s id = Ok (s', o) -> G s s'.

Lemma s_ins_iter_ok t io rec again s id e s' o :
  srec_ok rec ->
  (forall s1 s2 o2, store_ok s1 -> own s1 id -> again s1 = Ok (s2, o2) -> G s1 s2) ->
  store_ok s -> own s id -> s_ins_iter t io rec again s id e = Ok (s', o) -> G s s'.
Proof.
  intros Hrec Hagain Hs Ho H. unfold s_ins_iter in H. unbind H as n. unbind H as (i & [|]).
  { unbind H as ((ea & old) & eb). inversion H; subst. now apply sset_elts_G. }
  destruct (s_leaf n).
  { inversion H; subst. now apply sset_elts_G. }
  unbind H as (s1 & cid) eqn:E1.
  advance (s_maybe_cow_child_ok Hs Ho E1) as Hoc.
  peel H. unbind H as [|].
  - unbind H as ((s2 & mid) & rid) eqn:E2.
    advance (s_split_ok Hs Hoc E2) as Hor.
    unbind H as s3 eqn:E3. advance (s_adopt_ok Hs Ho (own_vis Hoc) (own_vis Hor) E3).
    exact (Hagain _ _ _ Hs Ho H).
  - unbind H as (s2 & o2) eqn:E2. advance (Hrec _ _ _ _ Hs Hoc E2).
    destruct io; [|ret H].
    unbind H as s3 eqn:E3. inversion H; subst. exact (s_optimize_ok Hs Ho E3).
Qed.

Lemma s_ins_ok t io e : forall fuel s id s' o,
  store_ok s -> own s id -> s_ins t fuel io s id e = Ok (s', o) -> G s s'.
Proof.
  induction fuel as [|f IH]; intros s id s' o Hs Ho H; [discriminate|].
  cbn [s_ins] in H. peel H. unbind H as [|]; [discriminate|].
  assert (Hrec : srec_ok (fun s c => s_ins t f io s c e)).
  { intros s0 id0 s0' o0 Hs0 Ho0 H0. eapply IH; eauto. }
  eapply s_ins_iter_ok; [exact Hrec| |exact Hs|exact Ho|exact H].
  intros s1 s2 o2 Hs1 Ho1 H1. eapply s_ins_iter_ok; [exact Hrec| |exact Hs1|exact Ho1|exact H1].
  intros ? ? ? _ _ Hd. discriminate.
Qed.
Arguments s_ins_ok {t io e fuel s id s' o}.

Lemma s_replace_key_ok k e : forall fuel s id s' old,
  store_ok s -> own s id -> s_replace_key fuel s id k e = Ok (s', old) -> G s s'.
Proof.
  induction fuel as [|f IH]; intros s id s' old Hs Ho H; [discriminate|].
  cbn [s_replace_key] in H. unbind H as n. unbind H as (i & [|]).
  { unbind H as ((ea & o) & eb). inversion H; subst. now apply sset_elts_G. }
  destruct (s_leaf n); [discriminate|].
  unbind H as (s1 & cid) eqn:E1.
  advance (s_maybe_cow_child_ok Hs Ho E1) as Hoc.
  exact (IH _ _ _ _ Hs Hoc H).
Qed.
Arguments s_replace_key_ok {k e fuel s id s' old}.

Definition sdrec_ok (rec : store -> nat -> Z -> option Z -> res (store * dout)) : Prop :=
  forall s id key ex s' o, store_ok s -> own s id -> rec s id key ex = Ok (s', o) -> G s s'.

Lemma s_del_down_ok t rec s id key i exact s' o :
  sdrec_ok rec -> store_ok s -> own s id -> s_del_down t rec s id key i exact = Ok (s', o) -> G s s'.
Proof.
  intros Hrec Hs Ho H. unfold s_del_down in H. unbind H as (s1 & cid) eqn:E1.
  advance (s_maybe_cow_child_ok Hs Ho E1) as Hoc.
  peel H. unbind H as mn. unbind H as (s2 & cid2) eqn:E2. destruct mn.
  - unbind E2 as s2' eqn:Eb. advance (s_balance_ok Hs Hoc Ho Eb).
    unbind E2 as n2 eqn:En2. unbind E2 as (i1 & [|]); [discriminate|].
    unbind E2 as ((? & c2id) & ?). unbind E2 as c2.
    (* the model's ghost check: the child found again after balance carries the parent's tag,
       so it is owned although no maybe_cow_child precedes the write *)
    destruct (Nat.eqb_spec (s_cr c2) (s_cr n2)) as [Hcc|Hcc]; cbn [negb] in E2; [|discriminate].
    unbind E2 as [|]; [discriminate|].
    inversion E2; subst s2' c2id. apply (Hrec _ _ _ _ _ _ Hs) in H; [exact H|].
    exists c2. split; [now apply sget_inv|]. rewrite Hcc. exact (sget_own Ho En2).
  - inversion E2; subst s2 cid2. exact (Hrec _ _ _ _ _ _ Hs Hoc H).
Qed.
Arguments s_del_down_ok {t rec s id key i exact s' o}.

Lemma s_del_ok t : forall fuel isroot s id key exact s' o,
  store_ok s -> own s id -> s_del t fuel isroot s id key exact = Ok (s', o) -> G s s'.
Proof.
  induction fuel as [|f IH]; intros isroot s id key exact s' o Hs Ho H; [discriminate|].
  assert (Hrec : sdrec_ok (fun s c k ex => s_del t f false s c k ex)).
  { intros s0 id0 k0 ex0 s0' o0 Hs0 Ho0 H0. eapply IH; eauto. }
  cbn [s_del] in H. unbind H as n. unbind H as [|]; [discriminate|]. unbind H as (i & [|]).
  - unbind H as ((ea & found) & eb).
    destruct (exact_mismatch exact found); [ret H|].
    destruct (s_leaf n).
    { inversion H; subst. now apply sset_elts_G. }
    unbind H as ((? & rk) & ?). peel H. unbind H as (s1 & o1) eqn:E1.
    advance (s_del_down_ok Hrec Hs Ho E1).
    destruct o1; try discriminate.
    unbind H as (s2 & old) eqn:E2. inversion H; subst.
    exact (s_replace_key_ok Hs Ho E2).
  - destruct (s_leaf n); [ret H|].
    exact (s_del_down_ok Hrec Hs Ho H).
Qed.
Arguments s_del_ok {t fuel isroot s id key exact s' o}.

(* BTree.insert_element / BTree._delete on the store *)
Lemma s_insert_element_mutable s b e io r : s_insert_element s b e io = Ok r -> sb_immut b = false.
Proof. unfold s_insert_element. destruct (sb_immut b); [discriminate|reflexivity]. Qed.

Lemma s_delete_mutable s b key exact r : s_delete s b key exact = Ok r -> sb_immut b = false.
Proof. unfold s_delete. destruct (sb_immut b); [discriminate|reflexivity]. Qed.

Lemma s_insert_element_ok s b e io s' b' o :
  store_ok s -> vis s c (sb_root b) -> sb_cr b = c ->
  s_insert_element s b e io = Ok (s', b', o) ->
  G s s' /\ own s' (sb_root b') /\ sb_cr b' = c /\ sb_immut b' = false.
Proof.
  intros Hs Hv Hc H. unfold s_insert_element in H. destruct (sb_immut b); [discriminate|].
  rewrite Hc in H. unbind H as (s1 & root1) eqn:E1. peel H. unbind H as mx. unbind H as (s2 & root2) eqn:E2.
  unbind H as (s3 & o3) eqn:E3. inversion H; subst. cbn [sb_root sb_cr sb_immut].
  cut (G s s' /\ own s' root2); [intros (? & ?); auto|].
  advance (s_maybe_cow_ok Hs Hv E1) as Ho1. destruct mx.
  - unfold alloc in E2. unbind E2 as ((s2' & mid) & rid) eqn:Es. unbind E2 as s3 eqn:Ea. inversion E2; subst s3 root2.
    advance (alloc_G s1 (mkS c false [] []) Hs eq_refl (Forall_nil _)) as Hnr.
    advance (s_split_ok Hs Ho1 Es) as Hor.
    advance (s_adopt_ok Hs Hnr (own_vis Ho1) (own_vis Hor) Ea).
    exact (G_and_own Hnr (s_ins_ok Hs Hnr E3)).
  - inversion E2; subst. exact (G_and_own Ho1 (s_ins_ok Hs Ho1 E3)).
Qed.

Lemma s_delete_ok s b key exact s' b' o :
  store_ok s -> vis s c (sb_root b) -> sb_cr b = c ->
  s_delete s b key exact = Ok (s', b', o) ->
  G s s' /\ vis s' c (sb_root b') /\ sb_cr b' = c /\ sb_immut b' = false.
Proof.
  intros Hs Hv Hc H. unfold s_delete in H. destruct (sb_immut b); [discriminate|].
  rewrite Hc in H. unbind H as (s1 & root1) eqn:E1. unbind H as (s2 & o2) eqn:E2.
  unbind H as r2 eqn:Er. unbind H as root2 eqn:E3. inversion H; subst. cbn [sb_root sb_cr sb_immut].
  cut (G s s' /\ vis s' c root2); [intros (? & ?); auto|].
  advance (s_maybe_cow_ok Hs Hv E1) as Ho1.
  pose proof (s_del_ok Hs Ho1 E2) as G2. split; [exact G2|]. carry G2.
  pose proof (sget_kids Hs Ho1 Er) as Hk. apply own_vis in Ho1.
  destruct (s_elts r2); [|inversion E3; subst; assumption].
  destruct (s_leaf r2); [inversion E3; subst; assumption|].
  destruct (s_kids r2) as [|k [|]]; try discriminate. inversion E3; subst. inversion Hk; subst. assumption.
Qed.

End FRAME.

Lemma vis_anc_mono (anc anc' : nat -> nat -> Prop) s k id :
  (forall a b, anc a b -> anc' a b) -> vis anc s k id -> vis anc' s k id.
Proof. intros H (n & Hn & Ha). exists n. auto. Qed.

Lemma store_ok_anc_mono (anc anc' : nat -> nat -> Prop) s :
  (forall a b, anc a b -> anc' a b) -> store_ok anc s -> store_ok anc' s.
Proof. intros H Hs id n Hn. eapply Forall_impl; [|apply (Hs id n Hn)]. intros a. now apply vis_anc_mono. Qed.
