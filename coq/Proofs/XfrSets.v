(* C13 - rdata sets as strictly increasing lists: membership characterisations of
   ins/union/diff/inter, preservation of sortedness, extensionality; at the end a few facts
   about last and about splitting a list written as an append in two ways. *)
From DV Require Import Base.Prelude Model.XfrM Proofs.ListFacts.
From Coq Require Import Sorting.Sorted.

Definition ssorted (l : list Z) : Prop := StronglySorted Z.lt l.

Lemma ssorted_nil : ssorted []. Proof. constructor. Qed.
Lemma ssorted_one : forall x, ssorted [x]. Proof. intros; repeat constructor. Qed.

Lemma ssorted_inv : forall x l, ssorted (x :: l) -> ssorted l /\ Forall (Z.lt x) l.
Proof. intros x l H. inversion H; subst. split; assumption. Qed.

Lemma mem_In : forall x l, mem x l = true <-> In x l.
Proof.
  induction l as [|y r IH]; cbn [mem In].
  - split; [discriminate|tauto].
  - rewrite orb_true_iff, Z.eqb_eq, IH. split; intros [H|H]; auto.
Qed.

Lemma mem_false : forall x l, mem x l = false <-> ~ In x l.
Proof.
  intros x l. rewrite <- mem_In. symmetry. apply not_true_iff_false.
Qed.

Lemma ins_In : forall x y l, In y (ins x l) <-> y = x \/ In y l.
Proof.
  induction l as [|z r IH]; cbn [ins].
  - cbn. split; intros [H|[]]; left; symmetry; exact H.
  - destruct (x <? z) eqn:H1; [cbn; split; intros [H|H]; auto|].
    destruct (x =? z) eqn:H2.
    + apply Z.eqb_eq in H2. subst. cbn. split; [auto|intros [->|H]; auto].
    + cbn [In]. rewrite IH. tauto.
Qed.

Lemma ins_sorted : forall x l, ssorted l -> ssorted (ins x l).
Proof.
  induction l as [|z r IH]; intros Hs; cbn [ins].
  - apply ssorted_one.
  - destruct (x <? z) eqn:H1.
    + apply Z.ltb_lt in H1. constructor; [assumption|].
      apply ssorted_inv in Hs. destruct Hs as [_ Hf].
      constructor; [assumption|]. eapply Forall_impl; [|exact Hf]. intros; lia.
    + destruct (x =? z) eqn:H2; [assumption|].
      apply Z.ltb_ge in H1. apply Z.eqb_neq in H2.
      apply ssorted_inv in Hs. destruct Hs as [Hs Hf].
      constructor; [apply IH; assumption|].
      apply Forall_forall. intros y Hy. apply ins_In in Hy. destruct Hy as [->|Hy]; [lia|].
      rewrite Forall_forall in Hf. auto.
Qed.

Lemma ssorted_ext : forall l1 l2, ssorted l1 -> ssorted l2 ->
  (forall x, In x l1 <-> In x l2) -> l1 = l2.
Proof.
  induction l1 as [|a r1 IH]; intros l2 H1 H2 He.
  - destruct l2 as [|b r2]; [reflexivity|]. exfalso. apply (He b). left; reflexivity.
  - destruct l2 as [|b r2]. { exfalso. apply (He a). left; reflexivity. }
    apply ssorted_inv in H1. destruct H1 as [H1 F1].
    apply ssorted_inv in H2. destruct H2 as [H2 F2].
    rewrite Forall_forall in F1, F2.
    assert (a = b).
    { destruct (proj1 (He a) (or_introl eq_refl)) as [E|E]; [auto|].
      destruct (proj2 (He b) (or_introl eq_refl)) as [E'|E']; [auto|].
      apply F2 in E. apply F1 in E'. lia. }
    subst b. f_equal. apply IH; auto.
    intros x. split; intros Hx.
    + destruct (proj1 (He x) (or_intror Hx)) as [E|E]; [|assumption].
      subst x. apply F1 in Hx. lia.
    + destruct (proj2 (He x) (or_intror Hx)) as [E|E]; [|assumption].
      subst x. apply F2 in Hx. lia.
Qed.

Lemma filter_sorted : forall f l, ssorted l -> ssorted (filter f l).
Proof.
  induction l as [|a r IH]; intros Hs; cbn [filter]; [constructor|].
  apply ssorted_inv in Hs. destruct Hs as [Hs Hf].
  destruct (f a); [|apply IH; assumption].
  constructor; [apply IH; assumption|]. apply Forall_forall. intros x Hx. apply filter_In in Hx.
  rewrite Forall_forall in Hf. apply Hf, Hx.
Qed.

Lemma ssorted_NoDup : forall l, ssorted l -> NoDup l.
Proof.
  induction l as [|a r IH]; intros Hs; constructor.
  - apply ssorted_inv in Hs. destruct Hs as [_ Hf]. rewrite Forall_forall in Hf.
    intros Hin. apply Hf in Hin. lia.
  - apply IH. apply ssorted_inv in Hs. tauto.
Qed.

Lemma union_In : forall b a x, In x (union a b) <-> In x a \/ In x b.
Proof.
  unfold union. induction b as [|y r IH]; intros a x; cbn [fold_left].
  - cbn. tauto.
  - rewrite IH, ins_In. cbn [In]. intuition.
Qed.

Lemma union_sorted : forall b a, ssorted a -> ssorted (union a b).
Proof.
  unfold union. induction b as [|y r IH]; intros a Ha; cbn [fold_left]; [assumption|].
  apply IH, ins_sorted, Ha.
Qed.

Lemma union_one : forall a d, union a [d] = ins d a.
Proof. reflexivity. Qed.

Lemma union_nil_sorted : forall l, ssorted l -> union [] l = l.
Proof.
  intros l Hl. apply ssorted_ext; [apply union_sorted; constructor|assumption|].
  intros x. rewrite union_In. cbn. tauto.
Qed.

Lemma filter_none : forall {A} (f : A -> bool) l, (forall x, In x l -> f x = false) -> filter f l = [].
Proof.
  induction l as [|a l IH]; intros H; cbn [filter]; [reflexivity|].
  rewrite (H a (or_introl eq_refl)). apply IH. intros x Hx. apply H. right; exact Hx.
Qed.

Lemma filter_nil_all : forall (f : Z -> bool) l, filter f l = [] -> forall x, In x l -> f x = false.
Proof.
  induction l as [|a r IH]; intros H x Hx; [destruct Hx|].
  cbn [filter] in H. destruct (f a) eqn:E; [discriminate|].
  destruct Hx as [->|Hx]; [exact E|apply IH; assumption].
Qed.

Lemma mem_filter : forall f x l, mem x (filter f l) = mem x l && f x.
Proof.
  intros f x l. apply eq_iff_eq_true. rewrite andb_true_iff, !mem_In, filter_In. reflexivity.
Qed.

Lemma diff_In : forall a b x, In x (diff a b) <-> In x a /\ ~ In x b.
Proof.
  intros a b x. unfold diff. rewrite filter_In, negb_true_iff, mem_false. tauto.
Qed.

Lemma inter_In : forall a b x, In x (inter a b) <-> In x a /\ In x b.
Proof. intros a b x. unfold inter. rewrite filter_In, mem_In. tauto. Qed.

Lemma set_eqb_spec : forall a b, set_eqb a b = true <-> (forall x, In x a <-> In x b).
Proof.
  intros a b. unfold set_eqb. rewrite andb_true_iff, !forallb_forall. split.
  - intros [H1 H2] x. split; intros Hx; [apply mem_In, H1|apply mem_In, H2]; assumption.
  - intros H. split; intros x Hx; apply mem_In, H, Hx.
Qed.

Lemma set_eqb_one : forall a b, set_eqb [a] [b] = (a =? b).
Proof.
  intros a b. unfold set_eqb. cbn. rewrite !orb_false_r, !andb_true_r.
  rewrite (Z.eqb_sym b a). apply andb_diag.
Qed.

Lemma inter_one : forall S d, set_eqb (inter S [d]) [d] = mem d S.
Proof.
  intros S d. apply eq_iff_eq_true. rewrite set_eqb_spec, mem_In. split.
  - intros E. apply (inter_In S [d] d), E. left; reflexivity.
  - intros H x. rewrite inter_In. cbn. split; [intros [_ E]; exact E|intros [<-|[]]; auto].
Qed.

Lemma diff_diff : forall S a b, diff (diff S a) b = diff S (a ++ b).
Proof.
  intros S a b. unfold diff. induction S as [|x r IH]; cbn [filter]; [reflexivity|].
  assert (Hm : mem x (a ++ b) = mem x a || mem x b).
  { clear. induction a as [|y a IH]; cbn [mem app]; [reflexivity|]. rewrite IH. rewrite orb_assoc. reflexivity. }
  rewrite Hm. destruct (mem x a); cbn [negb orb filter].
  - apply IH.
  - destruct (mem x b); cbn [negb]; rewrite IH; reflexivity.
Qed.

Lemma diff_nil : forall S, diff S [] = S.
Proof. intros S. apply filter_all. reflexivity. Qed.

Lemma mem_diff : forall x a b, mem x (diff a b) = mem x a && negb (mem x b).
Proof. intros x a b. apply mem_filter. Qed.

Lemma diff_filter_neg : forall f l, diff l (filter (fun d => negb (f d)) l) = filter f l.
Proof.
  intros f l. unfold diff. apply filter_ext_in. intros d Hd.
  rewrite mem_filter, (proj2 (mem_In d l) Hd). apply negb_involutive.
Qed.

Lemma union_inter_diff : forall a b, ssorted a -> ssorted b -> union (inter a b) (diff b a) = b.
Proof.
  intros a b Ha Hb. apply ssorted_ext; [apply union_sorted, filter_sorted, Ha|exact Hb|].
  intros x. rewrite union_In, inter_In, diff_In.
  destruct (mem x a) eqn:E; [apply mem_In in E|apply mem_false in E]; tauto.
Qed.

(* for a type that is not a singleton, Rdataset.add is set insertion and union_update is set union *)
Lemma rds_add_plain : forall ty d ds, is_singleton ty = false -> rds_add ty d ds = ins d ds.
Proof. intros ty d ds H. unfold rds_add. rewrite H. reflexivity. Qed.

Lemma fold_rds_add_union : forall ty new erds, is_singleton ty = false ->
  fold_left (fun acc x => rds_add ty x acc) new erds = union erds new.
Proof.
  intros ty new. unfold union. induction new as [|x new IH]; intros erds H; cbn [fold_left]; [reflexivity|].
  rewrite rds_add_plain by exact H. apply IH, H.
Qed.

Lemma singleton_soa : is_singleton tSOA = true. Proof. reflexivity. Qed.

Lemma not_singleton_not_soa : forall t, is_singleton t = false -> t <> tSOA.
Proof. intros t H E. subst t. discriminate. Qed.

Lemma min_same : forall t : Z, (if t <? t then t else t) = t.
Proof. intros t. destruct (t <? t); reflexivity. Qed.

Lemma last_default : forall {A} (l : list A) d d', l <> [] -> last l d = last l d'.
Proof.
  induction l as [|x l IH]; intros d d' H; [congruence|].
  destruct l as [|y l]; [reflexivity|]. cbn [last] in *. apply IH. discriminate.
Qed.

Lemma diff_self : forall S, diff S S = [].
Proof.
  intros S. apply filter_none. intros x Hx. apply negb_false_iff, mem_In, Hx.
Qed.

Lemma Forall_last : forall {A} (P : A -> Prop) l d, P d -> Forall P l -> P (last l d).
Proof.
  induction l as [|x l IH]; intros d Hd Hf; [exact Hd|].
  inversion Hf; subst. destruct l; [assumption|apply IH; assumption].
Qed.

(* a proper prefix of l ++ [x] is a prefix of l *)
Lemma prefix_snoc : forall {A} (a q l : list A) x, a ++ q = l ++ [x] -> q <> [] ->
  exists q', l = a ++ q' /\ q = q' ++ [x].
Proof.
  intros A a q l x H Hq. apply app_eq_app in H. destruct H as [m [[-> H]|[-> ->]]]; [|eauto].
  destruct m as [|y m]; [exists []; rewrite !app_nil_r; split; [reflexivity|symmetry; exact H]|exfalso].
  cbn [app] in H. injection H as _ E. symmetry in E. apply app_eq_nil in E. destruct E; congruence.
Qed.

(* where the boundary of a lies in c ++ rest *)
Lemma app_split : forall {A} (a X c rest : list A), a ++ X = c ++ rest ->
  (exists l, c = a ++ l /\ X = l ++ rest) \/ (exists x l, a = c ++ x :: l /\ rest = x :: l ++ X).
Proof.
  intros A a X c rest H. apply app_eq_app in H. destruct H as [l [[-> ->]|[-> ->]]]; [|left; eauto].
  destruct l as [|x l]; [left; exists []; rewrite !app_nil_r; auto|right; eauto].
Qed.

Lemma In_removelast : forall {A} (l : list A) x, In x (removelast l) -> In x l.
Proof.
  induction l as [|y [|y2 l] IH]; intros x H; [exact H|destruct H|].
  destruct H as [<-|H]; [left; reflexivity|right; apply IH, H].
Qed.
