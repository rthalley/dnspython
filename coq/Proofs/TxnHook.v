(* C10: check_put_rdataset / check_delete_rdataset / check_delete_name.  The checks are a store transformer
   (`hooked`), so atomicity, the refusals of ended / read-only transactions etc. hold with checks installed
   (those theorems are about an arbitrary store); here: the refinement lifts, and a veto is a veto. *)
From DV Require Import Base.Prelude Model.NameM Model.TxnM.
From DV Require Import Proofs.NameValid Proofs.TxnName Proofs.TxnStore Proofs.TxnLow Proofs.TxnSim Proofs.TxnThm.
Open Scope Z_scope.

Section Hooks.
  Variable c : cfg.
  Hypothesis W : wfc c.

  (* the checks see the same thing on the zone model and on the reference store *)
  Lemma hooks_sim l v s n ty ttl :
    R c v s -> Valid n -> run_hooks (zstore c) l v n ty ttl = run_hooks (rstore c) l s n ty ttl.
  Proof.
    intros HR Vn. induction l as [|h l IH]; [reflexivity|]. cbn [run_hooks].
    assert (run_hook (zstore c) v n ty ttl h = run_hook (rstore c) s n ty ttl h) as ->.
    { destruct h; cbn [run_hook]; try reflexivity. cbn [s_get zstore rstore]. rewrite (sim_get c W v s n ty0 0 HR Vn). reflexivity. }
    destruct (run_hook (rstore c) s n ty ttl h); cbn [bind]; auto.
  Qed.

  (* The refinement with any check functions installed: same results (vetoes included), related zones. *)
  Theorem refines_hooked hk h z l :
    Forall spec_valid h -> RP c z l ->
    Forall2 (ROut (RP c)) (run_hist (hooked (zstore c) hk) c h z) (run_hist (hooked (rstore c) hk) c h l).
  Proof.
    apply (sim_valid_hist (hooked (zstore c) hk) (hooked (rstore c) hk) c (R c) (RP c)); [|apply sim_begin].
    destruct (zstore_sim c W) as [Hpub Hget Hok Hput Hdn Hdr Hex Hnd Hch Hcnt]. split; auto.
    - intros s1 s2 n1 n2 r HR [-> Vn] Hc Hq. cbn [s_put hooked]. rewrite (hooks_sim _ s1 s2 n2 _ _ HR Vn).
      destruct (run_hooks (rstore c) (hk_put hk) s2 n2 (r_ty r) (r_ttl r)); cbn [bind res_rel]; auto.
      apply Hput; auto. split; auto.
    - intros s1 s2 n1 n2 HR [-> Vn]. cbn [s_del_name hooked]. rewrite (hooks_sim _ s1 s2 n2 _ _ HR Vn).
      destruct (run_hooks (rstore c) (hk_del_name hk) s2 n2 0 0); cbn [bind res_rel]; auto. apply Hdn; auto. split; auto.
    - intros s1 s2 n1 n2 ty cov HR [-> Vn]. cbn [s_del_rds hooked]. rewrite (hooks_sim _ s1 s2 n2 _ _ HR Vn).
      destruct (run_hooks (rstore c) (hk_del_rds hk) s2 n2 ty 0); cbn [bind res_rel]; auto. apply Hdr; auto. split; auto.
  Qed.
End Hooks.

(* a check that objects stops the operation before the store is touched, with the check's own exception *)
Theorem put_check_vetoes {P S} (st : store P S) hk s n r e :
  run_hooks st (hk_put hk) s n (r_ty r) (r_ttl r) = Lib e -> s_put (hooked st hk) s n r = Lib e.
Proof. intros H. cbn [s_put hooked]. rewrite H. reflexivity. Qed.

(* checks that all pass are transparent *)
Theorem passing_checks_are_transparent {P S} (st : store P S) hk s n r :
  run_hooks st (hk_put hk) s n (r_ty r) (r_ttl r) = Ok tt -> s_put (hooked st hk) s n r = s_put st s n r.
Proof. intros H. cbn [s_put hooked]. rewrite H. reflexivity. Qed.

(* with no checks registered the transformer is the identity on every operation *)
Theorem no_checks_no_change {P S} (st : store P S) s n r ty cov :
  s_put (hooked st (mkHooks [] [] [])) s n r = s_put st s n r /\
  s_del_rds (hooked st (mkHooks [] [] [])) s n ty cov = s_del_rds st s n ty cov /\
  s_del_name (hooked st (mkHooks [] [] [])) s n = s_del_name st s n.
Proof. repeat split. Qed.
