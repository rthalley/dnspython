(* Rdata.__getstate__ / __setstate__ (copy, deepcopy, pickle) and Rdata.replace of Model/SetM.v:
   a copy has exactly the fields of the original - also the fields kept in the instance
   dictionary by classes without __slots__ -, and replace() cannot change class or type. *)
From DV Require Import Base.Prelude Model.SetM Proofs.ListFacts.
Open Scope Z_scope.

Section Alist.
  Variable V : Type.
  Implicit Types l acc : list (Z * V).

  Lemma alist_set_fresh k v l : ~ In k (map fst l) -> alist_set k v l = l ++ [(k, v)].
  Proof.
    induction l as [|[k' v'] r IH]; cbn; [reflexivity|]. intros H.
    destruct (Z.eqb_spec k' k) as [->|Hn]; [exfalso; apply H; auto|].
    rewrite IH; [reflexivity|]. intros Hin. apply H. auto.
  Qed.

  Lemma alist_get_in k v l : NoDup (map fst l) -> In (k, v) l -> alist_get k l = Some v.
  Proof.
    induction l as [|[k' v'] r IH]; cbn; [contradiction|]. intros Hnd [E|Hin].
    - inversion E; subst. rewrite Z.eqb_refl. reflexivity.
    - inversion Hnd as [|? ? Hk Hr]; subst. destruct (Z.eqb_spec k' k) as [->|Hn]; [|apply IH; assumption].
      exfalso. apply Hk. change k with (fst (k, v)). apply in_map, Hin.
  Qed.

  Lemma alist_get_notin k l : ~ In k (map fst l) -> alist_get k l = None.
  Proof.
    induction l as [|[k' v'] r IH]; cbn; [reflexivity|]. intros H.
    destruct (Z.eqb_spec k' k) as [->|Hn]; [exfalso; apply H; auto|]. apply IH. intros Hin. apply H. auto.
  Qed.

  Lemma fold_set_fresh : forall kvs acc,
    NoDup (map fst kvs) -> (forall k, In k (map fst kvs) -> ~ In k (map fst acc)) ->
    fold_left (fun a kv => alist_set (fst kv) (snd kv) a) kvs acc = acc ++ kvs.
  Proof.
    induction kvs as [|[k v] r IH]; intros acc Hnd Hd; cbn [fold_left]; [now rewrite app_nil_r|].
    inversion Hnd as [|? ? Hk Hr]; subst. cbn [fst snd].
    rewrite alist_set_fresh by (apply Hd; left; reflexivity).
    rewrite IH; [now rewrite <- app_assoc| exact Hr |].
    intros k' Hk' Hin. rewrite map_app, in_app_iff in Hin. cbn in Hin.
    destruct Hin as [Hin|[<-|[]]]; [eapply Hd; [right; exact Hk'|exact Hin]|contradiction].
  Qed.
End Alist.

(* an object of a class with slot list cs: every slot set (in the class's order), dictionary
   keys distinct and different from the slot names *)
Definition wf_obj (cs : list Z) (o : pyobj) : Prop :=
  map fst (oslots o) = cs /\ NoDup cs /\ NoDup (map fst (odict o)) /\
  (forall k, In k (map fst (odict o)) -> ~ In k cs).

Lemma slots_fold (sl : list (Z * pval)) : NoDup (map fst sl) ->
  forall rest done, sl = done ++ rest ->
    fold_left (fun acc k => do st <- acc;
                            match alist_get k sl with
                            | Some v => Ok (alist_set k v st)
                            | None => Internal iAttributeError
                            end) (map fst rest) (Ok done) = Ok sl.
Proof.
  intros Hnd. induction rest as [|[k v] r IH]; intros done E; cbn [map fold_left].
  - rewrite app_nil_r in E. congruence.
  - cbn [bind fst]. rewrite (alist_get_in pval k v sl Hnd) by (subst; apply in_app_iff; right; left; reflexivity).
    rewrite alist_set_fresh.
    + apply IH. subst. rewrite <- app_assoc. reflexivity.
    + subst sl. rewrite map_app in Hnd. cbn in Hnd. apply NoDup_remove_2 in Hnd.
      intros Hin. apply Hnd. apply in_app_iff. auto.
Qed.

(* __getstate__ returns every field: the slots, then the instance dictionary *)
Theorem getstate_all_fields cs o : wf_obj cs o -> getstate cs o = Ok (oslots o ++ odict o).
Proof.
  intros (Hs & Hnd & Hdd & Hdis). unfold getstate. rewrite <- Hs.
  rewrite (slots_fold (oslots o)); [|rewrite Hs; exact Hnd|reflexivity]. cbn [bind].
  rewrite fold_set_fresh; [reflexivity|exact Hdd|]. intros k Hk. rewrite Hs. apply Hdis, Hk.
Qed.

Lemma setattr_fold cs hd : forall state o,
  (forall k, In k (map fst state) -> In k cs \/ hd = true) ->
  fold_left (fun acc kv => do o <- acc; osetattr cs hd o (fst kv) (snd kv)) state (Ok o)
  = Ok (mkObj (fold_left (fun a kv => alist_set (fst kv) (snd kv) a)
                         (filter (fun kv => existsb (Z.eqb (fst kv)) cs) state) (oslots o))
              (fold_left (fun a kv => alist_set (fst kv) (snd kv) a)
                         (filter (fun kv => negb (existsb (Z.eqb (fst kv)) cs)) state) (odict o))).
Proof.
  induction state as [|[k v] r IH]; intros o H; cbn [fold_left filter].
  - destruct o; reflexivity.
  - cbn [bind fst snd]. unfold osetattr at 2.
    destruct (existsb (Z.eqb k) cs) eqn:E; cbn [negb fold_left fst snd].
    + rewrite IH by (intros k' Hk'; apply H; right; exact Hk'). reflexivity.
    + destruct hd.
      * rewrite IH by (intros k' Hk'; apply H; right; exact Hk'). reflexivity.
      * destruct (H k (or_introl eq_refl)) as [Hin|Hd]; [|discriminate].
        apply existsb_eqb_In in Hin. congruence.
Qed.

Lemma filter_none {A} (f : A -> bool) l : (forall x, In x l -> f x = false) -> filter f l = [].
Proof. induction l as [|a l IH]; cbn; intros H; [reflexivity|]. rewrite H, IH; auto. Qed.

Lemma filter_app_split {A} (f : A -> bool) (a b : list A) :
  (forall x, In x a -> f x = true) -> (forall x, In x b -> f x = false) ->
  filter f (a ++ b) = a /\ filter (fun x => negb (f x)) (a ++ b) = b.
Proof.
  intros Ha Hb. rewrite !filter_app. split.
  - rewrite (filter_all _ a Ha), (filter_none _ b Hb). apply app_nil_r.
  - rewrite filter_none by (intros x Hx; rewrite (Ha x Hx); reflexivity).
    rewrite filter_all by (intros x Hx; rewrite (Hb x Hx); reflexivity). reflexivity.
Qed.

(* copy / deepcopy / pickle: cls.__new__(cls).__setstate__(self.__getstate__()) has exactly the
   fields of the original, including those of classes without __slots__ *)
Theorem copy_has_the_same_fields cs hd o state :
  wf_obj cs o -> In rdcomment_id cs -> (odict o = [] \/ hd = true) ->
  getstate cs o = Ok state -> setstate cs hd state = Ok o.
Proof.
  intros Hwf Hrc Hd Hg. rewrite (getstate_all_fields cs o Hwf) in Hg. inversion Hg; subst state; clear Hg.
  destruct Hwf as (Hs & Hnd & Hdd & Hdis). unfold setstate.
  rewrite setattr_fold.
  2:{ intros k Hk. rewrite map_app, in_app_iff in Hk. destruct Hk as [Hk|Hk].
      - left. rewrite <- Hs. exact Hk.
      - destruct Hd as [Hd|Hd]; [rewrite Hd in Hk; contradiction|right; exact Hd]. }
  (* the state splits back into the slots (keys in cs) and the dictionary (keys outside) *)
  destruct (filter_app_split (fun kv => existsb (Z.eqb (fst kv)) cs) (oslots o) (odict o)) as [-> ->].
  { intros kv Hkv. apply existsb_eqb_In. rewrite <- Hs. apply in_map, Hkv. }
  { intros kv Hkv. destruct (existsb (Z.eqb (fst kv)) cs) eqn:E; [|reflexivity].
    apply existsb_eqb_In in E. destruct (Hdis _ (in_map fst _ _ Hkv) E). }
  cbn [oslots odict].
  rewrite !fold_set_fresh; try (intros k _ []); try assumption; [|rewrite Hs; exact Hnd].
  cbn [bind app]. unfold ogetattr. cbn [oslots].
  destruct (alist_get rdcomment_id (oslots o)) eqn:E; [destruct o; reflexivity|].
  exfalso. rewrite <- Hs in Hrc. apply in_map_iff in Hrc as ([k v] & Hk & Hin). cbn in Hk. subst k.
  rewrite (alist_get_in pval _ v (oslots o)) in E; [discriminate|rewrite Hs; exact Hnd|exact Hin].
Qed.

(* the check of the keyword names comes first and raises before anything is built *)
Lemma replace_refuses params ctor cs hd o kwargs k v :
  In (k, v) kwargs ->
  negb (k =? rdcomment_id) && (negb (existsb (Z.eqb k) params) || (k =? 0) || (k =? 1)) = true ->
  replace params ctor cs hd o kwargs = Internal iAttributeError.
Proof.
  intros Hin Hk. unfold replace.
  replace (existsb _ kwargs) with true; [reflexivity|].
  symmetry. apply existsb_exists. exists (k, v). split; [exact Hin|exact Hk].
Qed.

Theorem replace_refuses_class_and_type params ctor cs hd o kwargs k v :
  In (k, v) kwargs -> (k = 0 \/ k = 1) ->
  replace params ctor cs hd o kwargs = Internal iAttributeError.
Proof.
  intros Hin Hk. apply (replace_refuses _ _ _ _ _ _ k v Hin).
  destruct Hk as [-> | ->]; cbn; rewrite ?orb_true_r; reflexivity.
Qed.

Theorem replace_refuses_unknown_field params ctor cs hd o kwargs k v :
  In (k, v) kwargs -> k <> rdcomment_id -> ~ In k params ->
  replace params ctor cs hd o kwargs = Internal iAttributeError.
Proof.
  intros Hin Hk Hp. apply (replace_refuses _ _ _ _ _ _ k v Hin).
  apply Z.eqb_neq in Hk. rewrite Hk.
  destruct (existsb (Z.eqb k) params) eqn:E; [|reflexivity].
  apply existsb_eqb_In in E. contradiction.
Qed.

(* without arguments replace() rebuilds the record from its own fields through the constructor
   (so the result is validated and normalised like any other record) *)
Theorem replace_nothing params ctor cs hd o :
  ogetattr o rdcomment_id = Some VNone ->
  replace params ctor cs hd o [] =
  (do args <- map_res (fun k => match ogetattr o k with Some v => Ok v | None => Internal iAttributeError end) params;
   ctor args).
Proof.
  intros Hc. unfold replace. cbn [existsb alist_get]. rewrite Hc.
  destruct (map_res _ params) as [args| |]; cbn [bind]; try reflexivity.
  destruct (ctor args); reflexivity.
Qed.
