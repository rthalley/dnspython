(* The hand-modelled irregular codecs without an origin: what each reader gives back unchanged
   (HIP, IPSECKEY, AMTRELAY and SVCB from Proofs/SchemaHandOrigin.v; APL, LOC, OPT here), one round
   trip theorem for the seven (hand_roundtrip_none), and the second half of the property for HIP,
   IPSECKEY and AMTRELAY. *)
From DV Require Import Base.Prelude Model.NameM Model.SchemaM Model.SchemaHand
  Proofs.SchemaName Proofs.SchemaCodec Proofs.SchemaThm Proofs.SchemaFix Proofs.SchemaReenc Proofs.SchemaHandOrigin Proofs.ListFacts.
Open Scope Z_scope.

Lemma hand_encode_ok : forall h o vs b,
  hand_encode_rdata h o vs = Ok b -> hand_valid h vs = true /\ hand_enc h o vs = Ok b.
Proof. intros h o. exact (constructed_ok (hand_valid h) (hand_enc h o)). Qed.

Lemma name_ok_nok : forall rel n, name_ok n = true -> nok_none rel n.
Proof. intros rel n H. exact (valid_nok_s (FName rel) (VN n) H). Qed.

Lemma gw_valid_nok : forall gt g, gw_valid gt g = true -> gw_nok nok_none g.
Proof.
  intros gt [[z|x|n]|rows] H; try exact Logic.I. apply andb_prop in H as [_ H]. apply name_ok_nok, H.
Qed.

Lemma hip_valid_nok : forall vs, hip_valid vs = true -> hip_nok nok_none vs.
Proof. intros vs H. apply hip_valid_inv in H as (hit & alg & key & srv & -> & _ & _ & _ & H). apply valid_nok_rows, H. Qed.

Lemma ipseckey_valid_nok : forall vs, ipseckey_valid vs = true -> ipseckey_nok nok_none vs.
Proof. intros vs H. apply ipseckey_valid_inv in H as (p & gt & a & gw & k & -> & _ & _ & _ & H). exact (gw_valid_nok gt gw H). Qed.

Lemma amtrelay_valid_nok : forall vs, amtrelay_valid vs = true -> amtrelay_nok nok_none vs.
Proof. intros vs H. apply amtrelay_valid_inv in H as (p & d & ty & gw & -> & _ & _ & _ & H). exact (gw_valid_nok ty gw H). Qed.

Lemma drop_zeros_spec : forall r, exists k, r = repeat 0 k ++ drop_zeros r.
Proof.
  induction r as [|x r IH]; [exists 0%nat; reflexivity|].
  destruct (Z.eq_dec x 0) as [->|Hx].
  - destruct IH as [k Hk]. exists (S k). cbn [drop_zeros repeat app]. f_equal. exact Hk.
  - exists 0%nat. cbn [repeat app]. destruct x; try reflexivity. contradiction.
Qed.

Lemma strip0_spec : forall b, exists k, b = strip0 b ++ repeat 0 k.
Proof.
  intros b. destruct (drop_zeros_spec (rev b)) as [k Hk]. exists k. unfold strip0.
  rewrite <- (rev_involutive b) at 1. rewrite Hk at 1. rewrite rev_app_distr, rev_repeat. reflexivity.
Qed.

Lemma pad_strip0 : forall b, pad_to (length b) (strip0 b) = b.
Proof.
  intros b. destruct (strip0_spec b) as [k Hk]. unfold pad_to.
  assert (length b = length (strip0 b) + k)%nat by (rewrite Hk at 1; rewrite app_length, repeat_length; reflexivity).
  replace (length b - length (strip0 b))%nat with k by lia. symmetry. exact Hk.
Qed.

Lemma strip0_length : forall b, (length (strip0 b) <= length b)%nat.
Proof. intros b. destruct (strip0_spec b) as [k Hk]. rewrite Hk at 2. rewrite app_length. lia. Qed.

Lemma strip0_full : forall b, length (strip0 b) = length b -> strip0 b = b.
Proof.
  intros b H. destruct (strip0_spec b) as [k Hk].
  assert (k = 0%nat) by (rewrite Hk in H at 2; rewrite app_length, repeat_length in H; lia).
  subst k. cbn [repeat] in Hk. rewrite app_nil_r in Hk. symmetry. exact Hk.
Qed.

Lemma drop_zeros_idem : forall r, drop_zeros (drop_zeros r) = drop_zeros r.
Proof.
  induction r as [|x r IH]; [reflexivity|].
  destruct (Z.eq_dec x 0) as [->|Hx]; [exact IH|].
  assert (E : drop_zeros (x :: r) = x :: r) by (destruct x; try reflexivity; contradiction).
  rewrite E. exact E.
Qed.

Lemma strip0_idem : forall b, strip0 (strip0 b) = strip0 b.
Proof. intros b. unfold strip0. rewrite rev_involutive, drop_zeros_idem. reflexivity. Qed.

(* values that the codec does not normalise: for unknown address families the address has
   no trailing zero octets (for families 1 and 2 the value is the full 4/16 octets) *)
Definition apl_item_canon (r : list sval) : Prop :=
  match r with
  | [VI fam; VI _; VB addr; VI _] => fam = 1 \/ fam = 2 \/ strip0 addr = addr
  | _ => True
  end.

Lemma apl_item_valid_inv : forall r, apl_item_valid r = true ->
  exists fam neg addr prefix, r = [VI fam; VI neg; VB addr; VI prefix] /\
    0 <= fam <= 65535 /\ (neg = 0 \/ neg = 1) /\ 0 <= prefix <= 255 /\ 2 * zlen addr <= 127 /\
    (fam = 1 -> length addr = 4%nat) /\ (fam = 2 -> length addr = 16%nat).
Proof.
  intros r H. unfold apl_item_valid in H. shape H. rename z into fam. do 4 eexists. split; [reflexivity|].
  apply andb_prop in H as [H Hfam]. unfold zlen in *.
  destruct (fam =? 1) eqn:E1; [|destruct (fam =? 2) eqn:E2];
    apply andb_prop in Hfam as [Hl Hp]; try apply Nat.eqb_eq in Hl; repeat split; intros; lia.
Qed.

Lemma apl_item_rt : forall r b W e c R,
  apl_item_valid r = true -> apl_item_canon r -> apl_item_enc r = Ok b -> sees W e c (b ++ R) ->
  apl_item_dec W e c = Ok (r, (c + length b)%nat).
Proof.
  intros r b W e c R Hv Hc He Hs.
  apply apl_item_valid_inv in Hv as (fam & neg & addr & prefix & -> & Hf & Hn & Hp & Hl & H4 & H16).
  cbn [apl_item_enc apl_item_canon] in He, Hc.
  pose proof (strip0_length addr) as Hle. set (a := strip0 addr) in *. pose proof (NameValid.zlen_nonneg a) as Ha0.
  replace ((zlen a <? 128) && (0 <=? fam) && (fam <? 65536) && u8_ok prefix) with true in He
    by (unfold u8_ok, zlen in *; lia).
  apply Ok_inj in He as <-. rewrite <- !app_assoc in Hs. unfold apl_item_dec.
  destruct (sees_get_u _ _ _ 2 _ _ Hs) as [-> Hs1]; [cbn; lia|]. cbn [bind fst snd].
  destruct (sees_get_u _ _ _ 1 _ _ Hs1) as [-> Hs2]; [cbn; lia|]. cbn [bind fst snd].
  destruct (sees_get_u _ _ _ 1 _ _ Hs2) as [-> Hs3]; [unfold zlen in *; cbn; lia|]. cbn [bind fst snd].
  replace (if zlen a + 128 * neg >? 127 then 1 else 0) with neg
    by (destruct (zlen a + 128 * neg >? 127) eqn:E; unfold zlen in *; lia).
  replace (if zlen a + 128 * neg >? 127 then zlen a + 128 * neg - 128 else zlen a + 128 * neg) with (zlen a)
    by (destruct (zlen a + 128 * neg >? 127) eqn:E; unfold zlen in *; lia).
  destruct (sees_get_bytes _ _ _ _ _ _ Hs3 (eq_sym (to_nat_zlen a))) as [-> _]. cbn [bind fst snd].
  replace (if fam =? 1 then if Nat.ltb (length a) 4 then pad_to 4 a else a
           else if fam =? 2 then if Nat.ltb (length a) 16 then pad_to 16 a else a else a) with addr.
  { do 2 f_equal. rewrite to_nat_zlen. len_eq. }
  destruct (fam =? 1) eqn:E1; [|destruct (fam =? 2) eqn:E2].
  - rewrite <- (H4 ltac:(lia)). destruct (Nat.ltb_spec (length a) (length addr));
      [symmetry; apply pad_strip0|symmetry; apply strip0_full; fold a; lia].
  - rewrite <- (H16 ltac:(lia)). destruct (Nat.ltb_spec (length a) (length addr));
      [symmetry; apply pad_strip0|symmetry; apply strip0_full; fold a; lia].
  - destruct Hc as [Hc|[Hc|Hc]]; [lia|lia|symmetry; exact Hc].
Qed.

Lemma apl_item_enc_len : forall r b, apl_item_enc r = Ok b -> (4 <= length b)%nat.
Proof.
  intros r b He. unfold apl_item_enc in He. shape He.
  match type of He with context [if ?c then _ else _] => destruct c end; [|discriminate].
  apply Ok_inj in He as <-. len_eq.
Qed.

Lemma apl_items_rt : forall items b fuel W e c,
  forallb apl_item_valid items = true -> Forall apl_item_canon items ->
  apl_items_enc items = Ok b -> (length b < fuel)%nat -> sees W e c b ->
  apl_items_dec fuel W e c = Ok (items, e).
Proof.
  induction items as [|r rr IH]; intros b fuel W e c Hv Hc He Hf Hs; cbn [apl_items_enc] in He;
    pose proof (sees_end _ _ _ _ Hs) as Hend.
  - apply Ok_inj in He as <-. cbn [length] in Hend. rewrite Nat.add_0_r in Hend. subst e.
    destruct fuel; cbn [apl_items_dec]; rewrite Nat.leb_refl; reflexivity.
  - inv_bind He. inv_bind He. apply Ok_inj in He as <-. rename x into b1, x0 into b2.
    cbn [forallb] in Hv. apply andb_prop in Hv as [Hv1 Hv2]. inversion Hc as [|? ? Hc1 Hc2]; subst.
    pose proof (apl_item_enc_len r b1 E) as Hb1. rewrite app_length in *.
    destruct fuel as [|fuel']; [lia|]. cbn [apl_items_dec].
    destruct (Nat.leb_spec (c + (length b1 + length b2)) c); [lia|].
    rewrite (apl_item_rt r b1 W _ c b2 Hv1 Hc1 E Hs). cbn [bind fst snd]. rewrite Hv1. cbn [negb].
    rewrite (IH b2 fuel' W _ _ Hv2 Hc2 E0 ltac:(lia) (sees_skip _ _ _ _ _ _ Hs eq_refl)). reflexivity.
Qed.

Definition apl_canon (vs : list val) : Prop :=
  match vs with [VL items] => Forall apl_item_canon items | _ => True end.

Lemma apl_reads : forall vs b W e c,
  apl_canon vs -> apl_valid vs = true -> apl_enc None vs = Ok b -> sees W e c b ->
  apl_dec W None e c = Ok (vs, e).
Proof.
  intros vs b W e c Hc Hv He Hs. unfold apl_valid in Hv. destruct vs as [|[|items] [|]]; try discriminate.
  pose proof (sees_end _ _ _ _ Hs). unfold apl_dec.
  rewrite (apl_items_rt items b _ W e c Hv Hc He) by (assumption || lia). reflexivity.
Qed.

(* decoding normalises: the item that comes out of the wire is always canonical ... *)
(* trailing zeros in the address of an unknown family are the one normalisation: *)
Example apl_trailing_zero_normalised :
  let v := [VL [[VI 3; VI 0; VB [171; 0]; VI 8]]] in
  exists b, hand_encode_rdata HApl None v = Ok b /\
            hand_decode_rdata HApl None b 0 (length b) = Ok [VL [[VI 3; VI 0; VB [171]; VI 8]]] /\
            hand_encode_rdata HApl None [VL [[VI 3; VI 0; VB [171]; VI 8]]] = Ok b.
Proof. eexists. repeat split; reflexivity. Qed.

(* sizes that the one-octet mantissa/exponent form can express: 0 and b * 10^e, 1<=b<=9, 0<=e<=9 *)
Definition loc_sizes : list Z :=
  0 :: flat_map (fun e => map (fun b => b * 10 ^ e) [1; 2; 3; 4; 5; 6; 7; 8; 9]) [0; 1; 2; 3; 4; 5; 6; 7; 8; 9].

Definition size_rt (x : Z) : bool :=
  match loc_encode_size x with
  | Ok b => (0 <=? b) && (b <? 256) && match loc_decode_size b with Ok y => y =? x | _ => false end
  | _ => false
  end.

Lemma loc_sizes_rt : forallb size_rt loc_sizes = true.
Proof. vm_compute. reflexivity. Qed.

Lemma loc_size_rt : forall x, In x loc_sizes ->
  exists b, loc_encode_size x = Ok b /\ 0 <= b < 256 /\ loc_decode_size b = Ok x.
Proof.
  intros x Hin. pose proof loc_sizes_rt as H. rewrite forallb_forall in H. specialize (H x Hin).
  unfold size_rt in H. destruct (loc_encode_size x) as [b| |]; try discriminate.
  apply andb_prop in H as [H Hd]. apply andb_prop in H as [H0 H1].
  destruct (loc_decode_size b) as [y| |] eqn:Ed; try discriminate. apply Z.eqb_eq in Hd. subst y.
  exists b. split; [reflexivity|]. split; [lia|exact Ed].
Qed.

(* a legal, canonical coordinate: degrees/minutes/seconds/milliseconds within the limit,
   hemisphere +1 for the zero coordinate (the reader cannot tell -0 from +0) *)
Definition coord_canon (lim : Z) (c : list sval) : Prop :=
  match c with
  | [VI d; VI m; VI s; VI ms; VI sg] =>
      0 <= d /\ 0 <= m <= 59 /\ 0 <= s <= 59 /\ 0 <= ms <= 999 /\ (sg = 1 \/ sg = -1) /\
      d * 3600000 + m * 60000 + s * 1000 + ms <= lim * 3600000 /\
      (d * 3600000 + m * 60000 + s * 1000 + ms = 0 -> sg = 1)
  | _ => False
  end.

(* degrees, minutes, seconds and milliseconds are the digits of the millisecond count in the mixed
   radix 60 * 60 * 1000; quotients and remainders are found by their uniqueness (a lia call with
   the division equations costs ten times as much to re-check) *)
Lemma dms_digits : forall d m s ms, 0 <= d -> 0 <= m <= 59 -> 0 <= s <= 59 -> 0 <= ms <= 999 ->
  let T := d * 3600000 + m * 60000 + s * 1000 + ms in
  T / 3600000 = d /\ T mod 3600000 / 60000 = m /\ T mod 60000 / 1000 = s /\ T mod 1000 = ms.
Proof.
  intros d m s ms Hd Hm Hs Hms T.
  assert (E1 : T mod 3600000 = m * 60000 + s * 1000 + ms) by (symmetry; apply (Z.mod_unique_pos _ _ d); subst T; lia).
  assert (E2 : T mod 60000 = s * 1000 + ms) by (symmetry; apply (Z.mod_unique_pos _ _ (d * 60 + m)); subst T; lia).
  rewrite E1, E2. repeat split; symmetry.
  - apply (Z.div_unique_pos _ _ _ (m * 60000 + s * 1000 + ms)); subst T; lia.
  - apply (Z.div_unique_pos _ _ _ (s * 1000 + ms)); lia.
  - apply (Z.div_unique_pos _ _ _ ms); lia.
  - apply (Z.mod_unique_pos _ _ (d * 3600 + m * 60 + s)); subst T; lia.
Qed.

(* conversely the digits of any T are in range and sum to T *)
Lemma dms_of_total : forall T, 0 <= T ->
  0 <= T / 3600000 /\ 0 <= T mod 3600000 / 60000 <= 59 /\ 0 <= T mod 60000 / 1000 <= 59 /\ 0 <= T mod 1000 <= 999 /\
  T / 3600000 * 3600000 + T mod 3600000 / 60000 * 60000 + T mod 60000 / 1000 * 1000 + T mod 1000 = T.
Proof.
  intros T HT.
  pose proof (Z.div_mod T 3600000 ltac:(lia)) as E1. pose proof (Z.mod_pos_bound T 3600000 ltac:(lia)) as B1.
  set (q1 := T / 3600000) in *. set (r1 := T mod 3600000) in *.
  pose proof (Z.div_mod r1 60000 ltac:(lia)) as E2. pose proof (Z.mod_pos_bound r1 60000 ltac:(lia)) as B2.
  set (q2 := r1 / 60000) in *. set (r2 := r1 mod 60000) in *.
  replace (T mod 60000) with r2 by (apply (Z.mod_unique_pos _ _ (60 * q1 + q2)); lia).
  pose proof (Z.div_mod r2 1000 ltac:(lia)) as E3. pose proof (Z.mod_pos_bound r2 1000 ltac:(lia)) as B3.
  set (q3 := r2 / 1000) in *. set (r3 := r2 mod 1000) in *.
  replace (T mod 1000) with r3 by (apply (Z.mod_unique_pos _ _ (3600 * q1 + 60 * q2 + q3)); lia).
  lia.
Qed.

Lemma coord_rt : forall lim c, 0 <= lim <= 180 -> coord_canon lim c ->
  coord_of_wire (coord_to_wire c) = c /\
  two31 - lim * 3600000 <= coord_to_wire c <= two31 + lim * 3600000.
Proof.
  intros lim c Hl Hc. unfold coord_canon in Hc. shape Hc.
  rename z into d, z0 into m, z1 into s, z2 into ms, z3 into sg.
  destruct Hc as (Hd & Hm & Hs & Hms & Hsg & Hlim & Hz).
  destruct (dms_digits d m s ms Hd Hm Hs Hms) as (D1 & D2 & D3 & D4).
  cbn [coord_to_wire]. unfold coord_of_wire, two31 in *.
  set (T := d * 3600000 + m * 60000 + s * 1000 + ms) in *.
  assert (HT : 0 <= T) by (unfold T; lia).
  destruct Hsg as [-> | ->].
  - replace (2147483648 + T * 1 >=? 2147483648) with true by lia.
    replace (Z.abs (2147483648 + T * 1 - 2147483648)) with T by lia.
    rewrite D1, D2, D3, D4. split; [reflexivity|lia].
  - assert (T <> 0) by (intro E; specialize (Hz E); lia).
    replace (2147483648 + T * -1 >=? 2147483648) with false by lia.
    replace (Z.abs (2147483648 + T * -1 - 2147483648)) with T by lia.
    rewrite D1, D2, D3, D4. split; [reflexivity|lia].
Qed.

Lemma sees_get_u8 : forall W e c z R, sees W e c (z :: R) -> 0 <= z < 256 ->
  get_u W e c 1 = Ok (z, (c + 1)%nat) /\ sees W e (c + 1) R.
Proof.
  intros W e c z R Hs Hz. apply sees_get_u; [|cbn; lia].
  replace (be_encode 1 z) with [z]; [exact Hs|]. cbn. f_equal. symmetry. apply Z.mod_small, Hz.
Qed.

(* the records of the statement of loc_roundtrip_thm *)
Definition loc_good (vs : list val) : Prop :=
  exists lat lon alt size hp vp,
    vs = [VL [lat]; VL [lon]; VS (VI alt); VS (VI size); VS (VI hp); VS (VI vp)] /\
    coord_canon 90 lat /\ coord_canon 180 lon /\ 0 <= alt + 10000000 < 4294967296 /\
    In size loc_sizes /\ In hp loc_sizes /\ In vp loc_sizes.

Lemma loc_reads : forall vs b W e c,
  loc_good vs -> loc_valid vs = true -> loc_enc None vs = Ok b -> sees W e c b ->
  loc_dec W None e c = Ok (vs, e).
Proof.
  intros vs b W e c (lat & lon & alt & size & hp & vp & -> & Hlat & Hlon & Halt & Hs & Hh & Hv) _ He Hsee.
  cbn [loc_enc] in He.
  destruct (loc_size_rt size Hs) as (bs & Es & Rs & Ds).
  destruct (loc_size_rt hp Hh) as (bh & Eh & Rh & Dh).
  destruct (loc_size_rt vp Hv) as (bv & Ev & Rv & Dv).
  rewrite Es, Eh, Ev in He. cbn [bind] in He.
  destruct (coord_rt 90 lat ltac:(lia) Hlat) as [Clat Rlat].
  destruct (coord_rt 180 lon ltac:(lia) Hlon) as [Clon Rlon].
  unfold two31 in Rlat, Rlon.
  match type of He with context [if ?c then _ else _] => replace c with true in He by lia end.
  apply Ok_inj in He as <-. cbn [app] in Hsee. unfold loc_dec.
  destruct (sees_get_u8 _ _ _ _ _ Hsee) as [-> S1]; [lia|]. cbn [bind fst snd].
  destruct (sees_get_u8 _ _ _ _ _ S1 Rs) as [-> S2]. cbn [bind fst snd].
  destruct (sees_get_u8 _ _ _ _ _ S2 Rh) as [-> S3]. cbn [bind fst snd].
  destruct (sees_get_u8 _ _ _ _ _ S3 Rv) as [-> S4]. cbn [bind fst snd].
  destruct (sees_get_u _ _ _ 4 _ _ S4) as [-> S5]; [cbn; lia|]. cbn [bind fst snd].
  destruct (sees_get_u _ _ _ 4 _ _ S5) as [-> S6]; [cbn; lia|]. cbn [bind fst snd].
  pose proof (sees_end _ _ _ _ S6) as Hend. rewrite be_encode_length in Hend. rewrite <- (app_nil_r (be_encode 4 _)) in S6.
  destruct (sees_get_u _ _ _ 4 _ _ S6) as [-> _]; [cbn; lia|]. cbn [bind fst snd Z.eqb negb].
  unfold two31.
  replace ((coord_to_wire lat <? 2147483648 - 90 * 3600000) || (coord_to_wire lat >? 2147483648 + 90 * 3600000)) with false by lia.
  replace ((coord_to_wire lon <? 2147483648 - 180 * 3600000) || (coord_to_wire lon >? 2147483648 + 180 * 3600000)) with false by lia.
  rewrite Ds, Dh, Dv, Clat, Clon, <- Hend. cbn [bind].
  replace (alt + 10000000 - 10000000) with alt by lia. reflexivity.
Qed.

Lemma opt_row_inv : forall r, opt_row_ok r = true ->
  exists ot p, r = [VI ot; VB p] /\ 0 <= ot <= 65535 /\ opt_payload_ok ot p = true.
Proof.
  intros r H. unfold opt_row_ok in H. shape H.
  apply andb_prop in H as [H Hp]. do 2 eexists. repeat split; try eassumption; lia.
Qed.

Lemma opt_items_rt : forall items b fuel W e c,
  forallb opt_row_ok items = true -> opt_items_enc items = Ok b -> (length b < fuel)%nat -> sees W e c b ->
  opt_items_dec fuel W e c = Ok (items, e).
Proof.
  induction items as [|r rr IH]; intros b fuel W e c Hv He Hf Hs; pose proof (sees_end _ _ _ _ Hs) as Hend.
  - apply Ok_inj in He as <-. cbn [length] in Hend. rewrite Nat.add_0_r in Hend. subst e.
    destruct fuel; cbn [opt_items_dec]; rewrite Nat.leb_refl; reflexivity.
  - cbn [forallb] in Hv. apply andb_prop in Hv as [Hr Hv2].
    apply opt_row_inv in Hr as (ot & p & -> & Hot & Hpay). cbn [opt_items_enc] in He.
    destruct ((0 <=? ot) && (ot <? 65536) && (zlen p <? 65536)) eqn:Hrng; [|discriminate].
    inv_bind He. apply Ok_inj in He as <-. rename x into rest.
    pose proof (NameValid.zlen_nonneg p). rewrite !app_length, !be_encode_length in Hf, Hend.
    destruct fuel as [|fuel']; [lia|]. cbn [opt_items_dec].
    destruct (Nat.leb_spec e c); [lia|].
    destruct (sees_get_u _ _ _ 2 _ _ Hs) as [-> Hs1]; [cbn; lia|]. cbn [bind fst snd].
    destruct (sees_get_u _ _ _ 2 _ _ Hs1) as [-> Hs2]; [cbn; lia|]. cbn [bind fst snd].
    rewrite to_nat_zlen. destruct (Nat.ltb_spec (e - (c + 2 + 2)) (length p)); [lia|].
    (* the option's own parser is restricted to its octets *)
    pose proof (sees_restrict _ _ _ _ _ Hs2) as Hso. rewrite <- (app_nil_r p) in Hso at 2.
    replace (if ot =? 18 then _ else _) with (@Ok (list Z) p).
    { cbn [bind]. rewrite (IH rest fuel' W e _ Hv2 E ltac:(lia) (sees_skip _ _ _ _ _ _ Hs2 eq_refl)). reflexivity. }
    unfold opt_payload_ok in Hpay. destruct (ot =? 18).
    + destruct (NameM.from_wire p 0) as [[n k]| |] eqn:Ef; try discriminate.
      apply andb_prop in Hpay as [_ Hw]. apply zlist_eqb_eq in Hw.
      destruct (from_wire_abs_valid p 0 n k Ef) as [Habs Hval].
      assert (Htw : NameM.to_wire n None false = Ok p) by (unfold NameM.to_wire; rewrite Habs, Hw; reflexivity).
      rewrite (hname_none false n p W _ _ [] Hval Htw Hso), Nat.eqb_refl, Hw. reflexivity.
    + destruct (opt_norm ot p) as [q|] eqn:En; [|discriminate]. apply zlist_eqb_eq in Hpay. subst q.
      destruct (sees_get_bytes _ _ _ _ _ (length p) Hso eq_refl) as [-> _].
      cbn [bind fst]. rewrite En. reflexivity.
Qed.

Lemma opt_reads : forall vs b W e c,
  opt_valid vs = true -> opt_enc None vs = Ok b -> sees W e c b -> opt_dec W None e c = Ok (vs, e).
Proof.
  intros vs b W e c Hv He Hs. unfold opt_valid in Hv. destruct vs as [|[|items] [|]]; try discriminate.
  pose proof (sees_end _ _ _ _ Hs). unfold opt_dec.
  rewrite (opt_items_rt items b _ W e c Hv He) by (assumption || lia). reflexivity.
Qed.

(* the records that come back unchanged: for HIP, IPSECKEY, AMTRELAY and OPT every record the
   constructor accepts *)
Definition hand_good (h : hid) (vs : list val) : Prop :=
  match h with
  | HApl => apl_canon vs
  | HSvcb => svcb_good nok_none vs
  | HLoc => loc_good vs
  | HHip | HIpseckey | HAmtrelay | HOpt => True
  end.

Lemma hand_reads : forall h vs b W e c,
  hand_good h vs -> hand_valid h vs = true -> hand_enc h None vs = Ok b -> sees W e c b ->
  hand_dec h W None e c = Ok (vs, e).
Proof.
  intros [] vs b W e c Hg Hv; cbn [hand_good hand_valid hand_enc hand_dec] in *.
  - exact (hip_reads None nok_none hname_none vs b W e c (hip_valid_nok vs Hv) Hv).
  - exact (ipseckey_reads None nok_none hname_none vs b W e c (ipseckey_valid_nok vs Hv) Hv).
  - exact (amtrelay_reads None nok_none hname_none vs b W e c (amtrelay_valid_nok vs Hv) Hv).
  - exact (apl_reads vs b W e c Hg Hv).
  - exact (svcb_reads None nok_none hname_none vs b W e c Hg Hv).
  - exact (loc_reads vs b W e c Hg Hv).
  - exact (opt_reads vs b W e c Hv).
Qed.

Theorem hand_roundtrip_none : forall h vs b A P,
  hand_good h vs -> hand_encode_rdata h None vs = Ok b ->
  hand_decode_rdata h None (A ++ b ++ P) (length A) (length b) = Ok vs.
Proof.
  intros h. exact (framed_roundtrip (fun W => hand_dec h W None) (hand_valid h) (hand_enc h None) (hand_good h) (hand_reads h)).
Qed.

(* a good record that encodes is a fixed point of encode-then-decode *)
Lemma hand_fixed_point : forall h vs w,
  hand_good h vs -> hand_valid h vs = true -> hand_enc h None vs = Ok w ->
  hand_encode_rdata h None vs = Ok w /\ hand_decode_rdata h None w 0 (length w) = Ok vs.
Proof.
  intros h. exact (framed_fixed_point (fun W => hand_dec h W None) (hand_valid h) (hand_enc h None) (hand_good h) (hand_reads h)).
Qed.

Theorem hip_roundtrip_thm : forall vs b A P,
  hand_encode_rdata HHip None vs = Ok b ->
  hand_decode_rdata HHip None (A ++ b ++ P) (length A) (length b) = Ok vs.
Proof. intros vs b A P. exact (hand_roundtrip_none HHip vs b A P Logic.I). Qed.

Theorem ipseckey_roundtrip_thm : forall vs b A P,
  hand_encode_rdata HIpseckey None vs = Ok b ->
  hand_decode_rdata HIpseckey None (A ++ b ++ P) (length A) (length b) = Ok vs.
Proof. intros vs b A P. exact (hand_roundtrip_none HIpseckey vs b A P Logic.I). Qed.

Theorem amtrelay_roundtrip_thm : forall vs b A P,
  hand_encode_rdata HAmtrelay None vs = Ok b ->
  hand_decode_rdata HAmtrelay None (A ++ b ++ P) (length A) (length b) = Ok vs.
Proof. intros vs b A P. exact (hand_roundtrip_none HAmtrelay vs b A P Logic.I). Qed.

Theorem svcb_roundtrip_thm : forall prio target ps b A P,
  (prio <> 0 \/ ps = []) ->
  hand_encode_rdata HSvcb None [VS (VI prio); VS (VN target); VL ps] = Ok b ->
  hand_decode_rdata HSvcb None (A ++ b ++ P) (length A) (length b) = Ok [VS (VI prio); VS (VN target); VL ps].
Proof.
  intros prio target ps b A P Ha He. apply (hand_roundtrip_none HSvcb); [|exact He]. split; [|exact Ha].
  apply hand_encode_ok in He as [Hv _]. cbn [hand_valid svcb_valid] in Hv.
  do 3 apply andb_prop in Hv as [Hv _]. apply andb_prop in Hv as [_ Hv]. apply name_ok_nok, Hv.
Qed.

Theorem apl_roundtrip_thm : forall vs b A P,
  apl_canon vs -> hand_encode_rdata HApl None vs = Ok b ->
  hand_decode_rdata HApl None (A ++ b ++ P) (length A) (length b) = Ok vs.
Proof. exact (hand_roundtrip_none HApl). Qed.

Theorem loc_roundtrip_thm : forall lat lon alt size hp vp b A P,
  coord_canon 90 lat -> coord_canon 180 lon ->
  0 <= alt + 10000000 < 4294967296 ->
  In size loc_sizes -> In hp loc_sizes -> In vp loc_sizes ->
  hand_encode_rdata HLoc None [VL [lat]; VL [lon]; VS (VI alt); VS (VI size); VS (VI hp); VS (VI vp)] = Ok b ->
  hand_decode_rdata HLoc None (A ++ b ++ P) (length A) (length b)
  = Ok [VL [lat]; VL [lon]; VS (VI alt); VS (VI size); VS (VI hp); VS (VI vp)].
Proof.
  intros lat lon alt size hp vp b A P Hlat Hlon Halt Hs Hh Hv. apply (hand_roundtrip_none HLoc).
  exists lat, lon, alt, size, hp, vp. auto 8.
Qed.

Theorem opt_roundtrip_thm : forall vs b A P,
  hand_encode_rdata HOpt None vs = Ok b ->
  hand_decode_rdata HOpt None (A ++ b ++ P) (length A) (length b) = Ok vs.
Proof. intros vs b A P. exact (hand_roundtrip_none HOpt vs b A P Logic.I). Qed.

(* second half of the property for IPSECKEY, AMTRELAY and HIP: an accepted octet string yields a
   record whose own encoding exists and decodes to the same record *)

(* an integer read from octets is in the range of its width *)
Lemma get_u_inv : forall wire e c w z c', all_bytes wire = true -> (c <= e)%nat -> (e <= length wire)%nat ->
  get_u wire e c w = Ok (z, c') -> c' = (c + w)%nat /\ (c' <= e)%nat /\ 0 <= z < pow256 w.
Proof.
  intros wire e c w z c' Hb Hc He H. unfold get_u in H. inv_bind H. injection H as <- <-. destruct x as [bs c1].
  cbn [fst snd]. apply get_bytes_slice in E as (-> & -> & L & Len); auto.
  pose proof (be_decode_bounds _ (all_bytes_slice wire c (c + w) Hb)) as B. rewrite Len in B. auto.
Qed.

(* a decoded gateway name is absolute, hence encodes without an origin *)
Lemma gw_dec_encodes : forall w gt e c g c', gw_dec w None gt e c = Ok (g, c') -> exists b, gw_enc None g = Ok b.
Proof.
  intros w gt e c g c' H. unfold gw_dec in H.
  destruct (gt =? 0); [injection H as <- _; cbn; eauto|].
  destruct (gt =? 1); [inv_bind H; injection H as <- _; cbn; eauto|].
  destruct (gt =? 2); [inv_bind H; injection H as <- _; cbn; eauto|].
  destruct (gt =? 3); [|discriminate].
  inv_bind H. injection H as <- _. destruct x as [n k]. apply get_name_none in E as [Ha _].
  cbn [gw_enc fst]. unfold NameM.to_wire. rewrite Ha. eauto.
Qed.

Theorem ipseckey_fixed_point_thm : forall wire cur rdlen vs,
  hand_decode_rdata HIpseckey None wire cur rdlen = Ok vs ->
  exists w', hand_encode_rdata HIpseckey None vs = Ok w' /\
             hand_decode_rdata HIpseckey None w' 0 (length w') = Ok vs.
Proof.
  intros wire cur rdlen vs H. apply hand_decode_ok in H as (_ & Hd & Hv). cbn [hand_dec hand_valid] in Hd, Hv.
  assert (exists w, ipseckey_enc None vs = Ok w) as [w Ew].
  { pose proof Hv as Hv'. apply ipseckey_valid_inv in Hv' as (prec & gt & alg & gw & key & -> & Hp & Hg & Ha & _).
    unfold ipseckey_dec in Hd. do 5 inv_bind Hd. injection Hd as _ _ _ Hgw _ _. subst gw.
    destruct x2 as [gw cg]. apply gw_dec_encodes in E2 as [g Eg].
    cbn [ipseckey_enc fst]. rewrite Hp, Hg, Ha, Eg. cbn. eauto. }
  exists w. exact (hand_fixed_point HIpseckey vs w Logic.I Hv Ew).
Qed.

Theorem amtrelay_fixed_point_thm : forall wire cur rdlen vs,
  hand_decode_rdata HAmtrelay None wire cur rdlen = Ok vs ->
  exists w', hand_encode_rdata HAmtrelay None vs = Ok w' /\
             hand_decode_rdata HAmtrelay None w' 0 (length w') = Ok vs.
Proof.
  intros wire cur rdlen vs H. apply hand_decode_ok in H as (_ & Hd & Hv). cbn [hand_dec hand_valid] in Hd, Hv.
  assert (exists w, amtrelay_enc None vs = Ok w) as [w Ew].
  { pose proof Hv as Hv'. apply amtrelay_valid_inv in Hv' as (prec & d & ty & gw & -> & Hp & Hdd & Hty & _).
    unfold amtrelay_dec in Hd. do 3 inv_bind Hd. injection Hd as _ _ _ Hgw _. subst gw.
    destruct x1 as [gw cg]. apply gw_dec_encodes in E1 as [g Eg].
    cbn [amtrelay_enc fst]. rewrite Hp, Eg. replace (u8_ok (ty + 128 * d)) with true by (unfold u8_ok; lia). cbn. eauto. }
  exists w. exact (hand_fixed_point HAmtrelay vs w Logic.I Hv Ew).
Qed.

Theorem hip_fixed_point_thm : forall wire cur rdlen vs,
  all_bytes wire = true ->
  hand_decode_rdata HHip None wire cur rdlen = Ok vs ->
  exists w', hand_encode_rdata HHip None vs = Ok w' /\
             hand_decode_rdata HHip None w' 0 (length w') = Ok vs.
Proof.
  intros wire cur rdlen vs _ H. apply hand_decode_ok in H as (_ & Hd & Hv). cbn [hand_dec hand_valid] in Hd, Hv.
  assert (exists w, hip_enc None vs = Ok w) as [w Ew].
  { pose proof Hv as Hv'. apply hip_valid_inv in Hv' as (hit & alg & key & srv & -> & Hh & Ha & Hk & Hsrv).
    unfold hip_dec in Hd. do 6 inv_bind Hd. injection Hd as _ _ _ Hs _. subst srv.
    destruct x4 as [srv cs]. apply dec_rows_abs in E4.
    destruct (nok_rows_encodes None abs_name abs_name_encodes [FName true] srv eq_refl Hsrv E4) as [s Es].
    cbn [hip_enc fst]. replace ((zlen hit <? 256) && (0 <=? alg) && (alg <? 256) && (zlen key <? 65536)) with true by lia.
    rewrite Es. cbn. eauto. }
  exists w. exact (hand_fixed_point HHip vs w Logic.I Hv Ew).
Qed.
