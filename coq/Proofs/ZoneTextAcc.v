(* C09: how txn_add rebuilds a zone record by record when the records arrive grouped by
   name / rdataset, as the printer writes them. *)
From DV Require Import Base.Prelude Model.NameM Model.ZoneTextM Proofs.NameOrder Proofs.ZoneTextBase Proofs.ZoneTextInv.
Open Scope Z_scope.

Definition key_fresh (z : zone) (n : name) : Prop := Forall (fun e => name_eqb (fst e) n = false) z.

Lemma zfind_fresh z n : key_fresh z n -> zfind z n = None.
Proof. induction 1 as [|[k nd] z H _ IH]; cbn; [reflexivity|]. cbn in H. rewrite H. exact IH. Qed.

Lemma zfind_last z n nd : key_fresh z n -> zfind (z ++ [(n, nd)]) n = Some nd.
Proof.
  induction 1 as [|[k nd'] z H _ IH]; cbn.
  - rewrite name_eqb_refl. reflexivity.
  - cbn in H. rewrite H. exact IH.
Qed.

Lemma zset_last z n nd nd' : key_fresh z n -> zset (z ++ [(n, nd)]) n nd' = z ++ [(n, nd')].
Proof.
  induction 1 as [|[k nd0] z H _ IH]; cbn.
  - rewrite name_eqb_refl. reflexivity.
  - cbn in H. rewrite H, IH. reflexivity.
Qed.

Definition rds_fresh (nd : node) (ty cov : Z) : Prop := Forall (fun r => rds_match r ty cov = false) nd.

Lemma nfind_fresh nd ty cov : rds_fresh nd ty cov -> nfind nd ty cov = None.
Proof. induction 1 as [|r nd H _ IH]; cbn; [reflexivity|]. rewrite H. exact IH. Qed.

Lemma nfind_last nd r ty cov :
  rds_fresh nd ty cov -> rds_match r ty cov = true -> nfind (nd ++ [r]) ty cov = Some r.
Proof. induction 1 as [|r0 nd H _ IH]; cbn; intros Hm; [rewrite Hm; reflexivity|]. rewrite H. auto. Qed.

Lemma nremove_fresh nd ty cov : rds_fresh nd ty cov -> nremove nd ty cov = nd.
Proof. induction 1 as [|r nd H _ IH]; cbn; [reflexivity|]. rewrite H, IH. reflexivity. Qed.

Lemma nremove_last nd r ty cov :
  rds_fresh nd ty cov -> rds_match r ty cov = true -> nremove (nd ++ [r]) ty cov = nd.
Proof.
  induction 1 as [|r0 nd H _ IH]; cbn; intros Hm; [rewrite Hm; reflexivity|]. rewrite H, IH by exact Hm. reflexivity.
Qed.

(* a node that can take an rdataset of kind k without anything being displaced *)
Definition compat (nd : node) (k : nkind) : Prop :=
  match k with
  | KCname => has_kind KRegular nd = false
  | KRegular => has_kind KCname nd = false
  | KNeutral => True
  end.

Lemma filter_kind_absent k nd :
  has_kind k nd = false -> filter (fun x => negb (nkind_eqb (rds_kind x) k)) nd = nd.
Proof.
  unfold has_kind. induction nd as [|r nd IH]; cbn; [reflexivity|].
  intros H. apply orb_false_iff in H as [H1 H2]. rewrite H1, IH by exact H2. reflexivity.
Qed.

Lemma append_compat nd r : compat nd (rds_kind r) -> append_rdataset nd r = nd ++ [r].
Proof.
  unfold append_rdataset, compat. destruct nd as [|r0 nd0]; [reflexivity|].
  destruct (rds_kind r); intros H; [|reflexivity|]; rewrite (filter_kind_absent _ _ H); reflexivity.
Qed.

Lemma node_kind_has nd k : node_kind nd = k -> k <> KNeutral -> has_kind k nd = true.
Proof.
  unfold has_kind. induction nd as [|r nd IH]; cbn; intros H Hn; [congruence|].
  destruct (rds_kind r) eqn:E; subst; cbn; try reflexivity.
  rewrite IH by auto. apply orb_true_r.
Qed.

Lemma cname_check_compat z n nd r :
  zfind z n = Some nd -> compat nd (rds_kind r) -> cname_check z n r = Ok tt.
Proof.
  unfold cname_check, compat. intros -> H.
  destruct (node_kind nd) eqn:Ek; destruct (rds_kind r); try reflexivity.
  - rewrite (node_kind_has nd KRegular Ek) in H by discriminate. discriminate.
  - rewrite (node_kind_has nd KCname Ek) in H by discriminate. discriminate.
Qed.

Lemma compat_app nd r k : compat (nd ++ [r]) k <-> compat nd k /\ compat [r] k.
Proof.
  unfold compat. destruct k; rewrite ?has_kind_app; cbn [has_kind existsb]; rewrite ?orb_false_r;
    try tauto; rewrite orb_false_iff; tauto.
Qed.

Definition soa_ok (zo : name) (rel : bool) (n : name) (ty : Z) : Prop :=
  ty = tSOA -> name_eqb n (if rel then [] else zo) = true.

Lemma soa_guard zo rel n ty :
  soa_ok zo rel n ty ->
  (ty =? tSOA) && negb (name_eqb n (if rel then [] else zo)) &&
  (negb (name_eqb n zo) && negb (name_eqb n [])) = false.
Proof.
  intros H. destruct (Z.eqb_spec ty tSOA) as [E|E]; [|reflexivity].
  rewrite (H E). reflexivity.
Qed.

Ltac use_soa Hs :=
  match goal with
  | |- context [if ?b then Internal iValueError else _] =>
      replace b with false by (symmetry; exact (soa_guard _ _ _ _ Hs))
  end.

(* first record of a name that is not yet in the zone *)
Lemma add_new_node zo rel z n ttl ty rd :
  key_fresh z n -> soa_ok zo rel n ty ->
  txn_add zo rel z n ttl ty rd = Ok (z ++ [(n, [mkrds ty (covers_of ty rd) ttl [rd]])]).
Proof.
  intros Hf Hs. unfold txn_add; cbv zeta. use_soa Hs. rewrite (zfind_fresh _ _ Hf).
  unfold cname_check, zput. rewrite (zfind_fresh _ _ Hf). reflexivity.
Qed.

(* the check and the write of txn_add at the current (last) name, when nothing is displaced *)
Lemma put_last z n nd nd0 r :
  key_fresh z n -> nremove nd (rtype r) (rcovers r) = nd0 ->
  compat nd (rds_kind r) -> compat nd0 (rds_kind r) ->
  (do _ <- cname_check (z ++ [(n, nd)]) n r; Ok (zput (z ++ [(n, nd)]) n r)) = Ok (z ++ [(n, nd0 ++ [r])]).
Proof.
  intros Hf Hr Hc Hc0. rewrite (cname_check_compat _ _ nd _ (zfind_last _ _ _ Hf) Hc). cbn [bind].
  unfold zput, replace_rdataset. rewrite (zfind_last _ _ _ Hf), (zset_last _ _ _ _ Hf), Hr, append_compat by exact Hc0.
  reflexivity.
Qed.

(* first record of a new rdataset at the current (last) name *)
Lemma add_new_rds zo rel z n nd ttl ty rd :
  key_fresh z n -> soa_ok zo rel n ty ->
  rds_fresh nd ty (covers_of ty rd) ->
  compat nd (classify ty (covers_of ty rd)) ->
  txn_add zo rel (z ++ [(n, nd)]) n ttl ty rd =
  Ok (z ++ [(n, nd ++ [mkrds ty (covers_of ty rd) ttl [rd]])]).
Proof.
  intros Hf Hs Hr Hc. unfold txn_add; cbv zeta.
  use_soa Hs. rewrite (zfind_last _ _ _ Hf), (nfind_fresh _ _ _ Hr).
  apply put_last; [exact Hf|apply nremove_fresh; exact Hr|exact Hc|exact Hc].
Qed.

(* a further record of the current (last) rdataset at the current name *)
Lemma add_more_rd zo rel z n nd ttl ty cov rs rd :
  key_fresh z n -> soa_ok zo rel n ty ->
  rds_fresh nd ty cov ->
  compat nd (classify ty cov) ->
  covers_of ty rd = cov ->
  rs <> [] -> is_singleton ty = false ->
  existsb (rdata_eqb (canon_names ty) rd) rs = false ->
  txn_add zo rel (z ++ [(n, nd ++ [mkrds ty cov ttl rs])]) n ttl ty rd =
  Ok (z ++ [(n, nd ++ [mkrds ty cov ttl (rs ++ [rd])])]).
Proof.
  intros Hf Hs Hr Hc Hcov Hne Hsing Hdup. unfold txn_add; cbv zeta. rewrite Hcov.
  assert (Hm : rds_match (mkrds ty cov ttl rs) ty cov = true).
  { unfold rds_match. cbn. rewrite !Z.eqb_refl. reflexivity. }
  use_soa Hs. rewrite (zfind_last _ _ _ Hf), (nfind_last _ _ _ _ Hr Hm).
  unfold rds_union. cbn [rtype rcovers rttl rdatas]. rewrite Hsing, Hdup. cbn [andb].
  destruct rs as [|r0 rs']; [congruence|]. rewrite Z.ltb_irrefl.
  apply put_last; [exact Hf|apply nremove_last; assumption| |exact Hc].
  apply compat_app. split; [exact Hc|].
  unfold compat, has_kind, rds_kind. cbn [existsb rtype rcovers]. destruct (classify ty cov); reflexivity || exact Logic.I.
Qed.
