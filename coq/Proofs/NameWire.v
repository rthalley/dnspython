(* C01: wire decoding (dns.name.from_wire / from_wire_parser over dns.wirebase.Parser):
   termination (fuel sufficiency), pointers strictly decrease, uncompressed round trip. *)
From DV Require Import Base.Prelude Model.NameM Proofs.NameValid Proofs.ListFacts.
Open Scope Z_scope.

Lemma nth_error_app_len {A} (a : list A) x r : nth_error (a ++ x :: r) (length a) = Some x.
Proof. rewrite nth_error_app2 by lia. rewrite Nat.sub_diag. reflexivity. Qed.

(* the octets of a label behind its length octet *)
Lemma firstn_skipn_label {A} (pre : list A) x l rest :
  firstn (length l) (skipn (length pre + 1) (pre ++ x :: l ++ rest)) = l.
Proof.
  replace (pre ++ x :: l ++ rest) with ((pre ++ [x]) ++ l ++ rest) by (rewrite <- app_assoc; reflexivity).
  replace (length pre + 1)%nat with (length (pre ++ [x])) by (rewrite app_length; reflexivity).
  rewrite skipn_app_len. apply firstn_app_len.
Qed.

Lemma nth_error_lt {A} (l : list A) i x : nth_error l i = Some x -> (i < length l)%nat.
Proof. intros H. apply nth_error_Some. congruence. Qed.

Lemma skipn_nth_error {A} : forall (l : list A) i x, nth_error l i = Some x ->
  exists r, skipn i l = x :: r.
Proof.
  induction l as [|y l IH]; intros i x H; destruct i; cbn in *; try discriminate.
  - inversion H; subst. eauto.
  - apply IH. exact H.
Qed.

(* the parser state after reading n octets *)
Definition adv (p : pst) (n : nat) : pst :=
  {| cur := cur p + n; furthest := Nat.max (furthest p) (cur p + n) |}.

(* behind a length octet and n more octets, or behind the two octets of a pointer *)
Lemma adv_adv p n :
  adv (adv p 1) n = {| cur := cur p + 1 + n; furthest := Nat.max (furthest p) (cur p + 1 + n) |}.
Proof. unfold adv. cbn [cur furthest]. f_equal. lia. Qed.

Lemma get_u8_eq wire p :
  get_u8 wire p = match nth_error wire (cur p) with Some x => Ok (x, adv p 1) | None => Lib eFormError end.
Proof.
  unfold get_u8, get_bytes. destruct (nth_error wire (cur p)) as [x|] eqn:E.
  - pose proof (nth_error_lt _ _ _ E) as L. destruct (Nat.ltb_spec (length wire - cur p) 1); [lia|].
    destruct (skipn_nth_error _ _ _ E) as [r ->]. reflexivity.
  - apply nth_error_None in E. destruct (Nat.ltb_spec (length wire - cur p) 1); [reflexivity|lia].
Qed.

Lemma get_bytes_inv wire p n l p' :
  get_bytes wire p n = Ok (l, p') ->
  (n <= length wire - cur p)%nat /\
  l = firstn n (skipn (cur p) wire) /\
  p' = {| cur := cur p + n; furthest := Nat.max (furthest p) (cur p + n) |}.
Proof.
  unfold get_bytes. destruct (Nat.ltb_spec (length wire - cur p) n); [discriminate|].
  intros H0; inversion H0; subst. auto.
Qed.

Lemma get_u8_inv wire p b p' :
  get_u8 wire p = Ok (b, p') ->
  (1 <= length wire - cur p)%nat /\
  nth_error wire (cur p) = Some b /\
  p' = {| cur := cur p + 1; furthest := Nat.max (furthest p) (cur p + 1) |}.
Proof.
  rewrite get_u8_eq. destruct (nth_error wire (cur p)) as [x|] eqn:E; [|discriminate].
  intros [= <- <-]. pose proof (nth_error_lt _ _ _ E). repeat split. lia.
Qed.

Inductive fw_turn :=
| FwStop (e : Z)                 (* a library exception *)
| FwRoot (p' : pst)              (* the root label: the name ends *)
| FwLabel (l : label) (p' : pst)
| FwJump (c : nat) (p' : pst).   (* a pointer to c; p' is the state behind its two octets *)

Definition fw_step (wire : list Z) (p : pst) (biggest : nat) : fw_turn :=
  match nth_error wire (cur p) with
  | None => FwStop eFormError
  | Some count =>
      if count =? 0 then FwRoot (adv p 1)
      else if count <? 64 then
        if (length wire - (cur p + 1) <? Z.to_nat count)%nat then FwStop eFormError
        else FwLabel (firstn (Z.to_nat count) (skipn (cur p + 1) wire)) (adv (adv p 1) (Z.to_nat count))
      else if 192 <=? count then
        match nth_error wire (cur p + 1) with
        | None => FwStop eFormError
        | Some lo =>
            let c := Z.to_nat ((count - 192) * 256 + lo) in
            if (biggest <=? c)%nat then FwStop eBadPointer
            else if (length wire <? c)%nat then FwStop eFormError
            else FwJump c (adv (adv p 1) 1)
        end
      else FwStop eBadLabelType
  end.

Lemma fw_go_step wire f p b acc :
  fw_go wire (S f) p b acc =
    match fw_step wire p b with
    | FwStop e => Lib e
    | FwRoot p' => Ok (rev ([] :: acc), p')
    | FwLabel l p' => fw_go wire f p' b (l :: acc)
    | FwJump c p' => fw_go wire f {| cur := c; furthest := furthest p' |} c acc
    end.
Proof.
  cbn [fw_go]. unfold fw_step. rewrite get_u8_eq.
  destruct (nth_error wire (cur p)) as [count|]; [|reflexivity].
  destruct (count =? 0); [reflexivity|]. destruct (count <? 64).
  - unfold get_bytes. cbn [cur adv]. destruct (Nat.ltb _ _); reflexivity.
  - destruct (192 <=? count); [|reflexivity]. rewrite get_u8_eq. cbn [cur adv].
    destruct (nth_error wire (cur p + 1)); [|reflexivity]. cbv zeta.
    destruct (Nat.leb _ _); [reflexivity|]. destruct (Nat.ltb _ _); reflexivity.
Qed.

Lemma fw_go_tr_step wire f p b acc tr :
  fw_go_tr wire (S f) p b acc tr =
    match fw_step wire p b with
    | FwStop e => Lib e
    | FwRoot p' => Ok (rev ([] :: acc), p', rev tr)
    | FwLabel l p' => fw_go_tr wire f p' b (l :: acc) tr
    | FwJump c p' => fw_go_tr wire f {| cur := c; furthest := furthest p' |} c acc (c :: tr)
    end.
Proof.
  cbn [fw_go_tr]. unfold fw_step. rewrite get_u8_eq.
  destruct (nth_error wire (cur p)) as [count|]; [|reflexivity].
  destruct (count =? 0); [reflexivity|]. destruct (count <? 64).
  - unfold get_bytes. cbn [cur adv]. destruct (Nat.ltb _ _); reflexivity.
  - destruct (192 <=? count); [|reflexivity]. rewrite get_u8_eq. cbn [cur adv].
    destruct (nth_error wire (cur p + 1)); [|reflexivity]. cbv zeta.
    destruct (Nat.leb _ _); [reflexivity|]. destruct (Nat.ltb _ _); reflexivity.
Qed.

(* what a turn has read *)
Lemma fw_step_inv wire p b :
  match fw_step wire p b with
  | FwStop _ => True
  | FwRoot p' => nth_error wire (cur p) = Some 0 /\ p' = adv p 1
  | FwLabel l p' => exists count,
      nth_error wire (cur p) = Some count /\ count <> 0 /\ count < 64 /\
      (cur p + 1 + Z.to_nat count <= length wire)%nat /\
      l = firstn (Z.to_nat count) (skipn (cur p + 1) wire) /\ p' = adv (adv p 1) (Z.to_nat count)
  | FwJump c p' => exists hi8 lo,
      nth_error wire (cur p) = Some hi8 /\ 192 <= hi8 /\ nth_error wire (cur p + 1) = Some lo /\
      c = Z.to_nat ((hi8 - 192) * 256 + lo) /\ (c < b)%nat /\ (c <= length wire)%nat /\
      p' = adv (adv p 1) 1
  end.
Proof.
  unfold fw_step. destruct (nth_error wire (cur p)) as [count|] eqn:E; [|exact Logic.I].
  pose proof (nth_error_lt _ _ _ E) as L.
  destruct (Z.eqb_spec count 0) as [->|]; [auto|]. destruct (Z.ltb_spec count 64).
  - destruct (Nat.ltb_spec (length wire - (cur p + 1)) (Z.to_nat count)); [exact Logic.I|].
    exists count. repeat split; auto; lia.
  - destruct (Z.leb_spec 192 count); [|exact Logic.I].
    destruct (nth_error wire (cur p + 1)) as [lo|]; [|exact Logic.I]. cbv zeta.
    destruct (Nat.leb_spec b (Z.to_nat ((count - 192) * 256 + lo))); [exact Logic.I|].
    destruct (Nat.ltb_spec (length wire) (Z.to_nat ((count - 192) * 256 + lo))); [exact Logic.I|].
    exists count, lo. repeat split; auto; lia.
Qed.

(* ... and the turn taken on a given first octet *)
Lemma fw_step_root wire p b : nth_error wire (cur p) = Some 0 -> fw_step wire p b = FwRoot (adv p 1).
Proof. intros H. unfold fw_step. rewrite H. reflexivity. Qed.

Lemma fw_step_label wire p b count :
  nth_error wire (cur p) = Some count -> 0 < count < 64 ->
  (cur p + 1 + Z.to_nat count <= length wire)%nat ->
  fw_step wire p b =
    FwLabel (firstn (Z.to_nat count) (skipn (cur p + 1) wire)) (adv (adv p 1) (Z.to_nat count)).
Proof.
  intros H Hc Hl. unfold fw_step. rewrite H.
  destruct (Z.eqb_spec count 0); [lia|]. destruct (Z.ltb_spec count 64); [|lia].
  destruct (Nat.ltb_spec (length wire - (cur p + 1)) (Z.to_nat count)); [lia|reflexivity].
Qed.

Lemma fw_step_jump wire p b hi8 lo :
  nth_error wire (cur p) = Some hi8 -> 192 <= hi8 -> nth_error wire (cur p + 1) = Some lo ->
  (Z.to_nat ((hi8 - 192) * 256 + lo) < b)%nat -> (Z.to_nat ((hi8 - 192) * 256 + lo) <= length wire)%nat ->
  fw_step wire p b = FwJump (Z.to_nat ((hi8 - 192) * 256 + lo)) (adv (adv p 1) 1).
Proof.
  intros H H8 Hlo Hb Hl. unfold fw_step. rewrite H, Hlo. cbv zeta.
  destruct (Z.eqb_spec hi8 0); [lia|]. destruct (Z.ltb_spec hi8 64); [lia|].
  destruct (Z.leb_spec 192 hi8); [|lia].
  destruct (Nat.leb_spec b (Z.to_nat ((hi8 - 192) * 256 + lo))); [lia|].
  destruct (Nat.ltb_spec (length wire) (Z.to_nat ((hi8 - 192) * 256 + lo))); [lia|reflexivity].
Qed.

Section Fuel.
  Variable wire : list Z.
  Let endp := length wire.

  Definition meas (p : pst) (biggest : nat) : nat := (biggest * S endp + (endp - cur p))%nat.

  (* the only Python-level "exception" of the loop is the model's own fuel marker, and it is
     unreachable when the fuel exceeds the measure  biggest * (end + 1) + (end - current),
     which strictly decreases at every label read and at every pointer jump *)
  Lemma fw_go_enough : forall fuel p biggest acc e,
    (cur p <= endp)%nat -> (meas p biggest < fuel)%nat ->
    fw_go wire fuel p biggest acc <> Internal e.
  Proof.
    induction fuel as [|f IH]; intros p biggest acc e Hc Hm; [lia|].
    rewrite fw_go_step. pose proof (fw_step_inv wire p biggest) as T.
    destruct (fw_step wire p biggest) as [e'|p'|l p'|c p']; try discriminate.
    - destruct T as (count & _ & _ & _ & L & _ & ->).
      apply IH; unfold meas in *; cbn [cur adv]; fold endp in L |- *; lia.
    - destruct T as (hi8 & lo & _ & _ & _ & _ & Lb & L & _).
      pose proof (Nat.mul_le_mono_r _ _ (S endp) Lb).
      apply IH; unfold meas in *; cbn [cur]; fold endp in L |- *; lia.
  Qed.

  Lemma fw_fuel_enough start : (start <= endp)%nat ->
    (meas {| cur := start; furthest := start |} start < fw_fuel wire start)%nat.
  Proof. intros H. unfold meas, fw_fuel. cbn [cur]. fold endp. lia. Qed.
End Fuel.

(* dns.name.from_wire terminates on every message and every offset, and the only exceptions
   are the library's own *)
Theorem from_wire_total wire start e : from_wire wire start <> Internal e.
Proof.
  unfold from_wire. destruct (Nat.ltb_spec (length wire) start); [discriminate|].
  pose proof (fw_go_enough wire (fw_fuel wire start) {| cur := start; furthest := start |} start []) as G.
  destruct (fw_go wire _ _ _ _) as [[labels p]|e1|e1] eqn:E; [|discriminate|].
  - cbn [bind]. destruct (mk_name labels) eqn:M; cbn [bind]; try discriminate.
    exfalso. eapply mk_name_never_internal; eauto.
  - exfalso. eapply G; [cbn [cur]; lia|apply fw_fuel_enough; lia|reflexivity].
Qed.

Lemma fw_go_fuel_mono wire : forall f p b acc r,
  fw_go wire f p b acc = r -> (forall e, r <> Internal e) ->
  forall k, fw_go wire (f + k) p b acc = r.
Proof.
  induction f as [|f IH]; intros p b acc r H NI k.
  - cbn in H. subst. exfalso. eapply NI; reflexivity.
  - cbn [Nat.add]. rewrite fw_go_step in *. destruct (fw_step wire p b); auto.
Qed.

Lemma fw_go_fuel_indep wire f1 f2 p b acc r1 r2 :
  fw_go wire f1 p b acc = r1 -> fw_go wire f2 p b acc = r2 ->
  (forall e, r1 <> Internal e) -> (forall e, r2 <> Internal e) -> r1 = r2.
Proof.
  intros H1 H2 N1 N2.
  pose proof (fw_go_fuel_mono wire f1 p b acc r1 H1 N1 f2) as A.
  pose proof (fw_go_fuel_mono wire f2 p b acc r2 H2 N2 f1) as B.
  rewrite Nat.add_comm in B. congruence.
Qed.

(* whatever the fuel, a run of the loop that returns gives the answer of from_wire *)
Lemma from_wire_intro wire start f ls p : (start <= length wire)%nat ->
  fw_go wire f {| cur := start; furthest := start |} start [] = Ok (ls, p) -> Valid ls ->
  from_wire wire start = Ok (ls, (furthest p - start)%nat).
Proof.
  intros L E V. unfold from_wire. destruct (Nat.ltb_spec (length wire) start); [lia|].
  assert (fw_go wire (fw_fuel wire start) {| cur := start; furthest := start |} start [] = Ok (ls, p)) as ->.
  { eapply fw_go_fuel_indep; [reflexivity|exact E| |discriminate].
    intros e. apply fw_go_enough; [cbn [cur]; lia|apply fw_fuel_enough; lia]. }
  cbn [bind]. rewrite (mk_name_valid _ V). reflexivity.
Qed.

Lemma from_wire_inv wire start n c : from_wire wire start = Ok (n, c) ->
  exists p, fw_go wire (fw_fuel wire start) {| cur := start; furthest := start |} start [] = Ok (n, p) /\
    c = (furthest p - start)%nat /\ Valid n.
Proof.
  unfold from_wire. destruct (Nat.ltb _ _); [discriminate|].
  destruct (fw_go wire _ _ _ _) as [[ls p]| |]; try discriminate.
  unfold bind. destruct (mk_name ls) as [m| |] eqn:M; try discriminate.
  intros [= <- <-]. apply mk_name_ok in M as [-> V]. eauto.
Qed.

Definition with_acc (acc : list label) (r : res (list label * pst)) : res (list label * pst) :=
  match r with
  | Ok (ls, p') => Ok (rev acc ++ ls, p')
  | Lib e => Lib e
  | Internal e => Internal e
  end.

Lemma fw_go_acc wire : forall f p b acc,
  fw_go wire f p b acc = with_acc acc (fw_go wire f p b []).
Proof.
  induction f as [|f IH]; intros p b acc; [reflexivity|].
  rewrite !fw_go_step. destruct (fw_step wire p b) as [e|p'|l p'|c p']; try reflexivity; [|apply IH].
  rewrite (IH p' b (l :: acc)), (IH p' b [l]).
  destruct (fw_go wire f p' b []) as [[ls q]| |]; cbn [with_acc rev app]; try reflexivity.
  rewrite <- app_assoc. reflexivity.
Qed.

(* a strictly decreasing list of offsets, every one below the bound *)
Inductive desc : nat -> list nat -> Prop :=
| desc_nil b : desc b []
| desc_cons b c r : (c < b)%nat -> desc c r -> desc b (c :: r).

Definition erase_tr (r : res (list label * pst * list nat)) : res (list label * pst) :=
  match r with
  | Ok (ls, p, _) => Ok (ls, p)
  | Lib e => Lib e
  | Internal e => Internal e
  end.

(* the instrumented loop computes the same result as the loop of the model *)
Lemma fw_go_tr_erase wire : forall f p b acc tr,
  fw_go wire f p b acc = erase_tr (fw_go_tr wire f p b acc tr).
Proof.
  induction f as [|f IH]; intros p b acc tr; [reflexivity|].
  rewrite fw_go_step, fw_go_tr_step. destruct (fw_step wire p b); auto.
Qed.

Lemma fw_go_tr_desc wire : forall f p b acc tr ls p' out,
  fw_go_tr wire f p b acc tr = Ok (ls, p', out) ->
  exists new, out = rev tr ++ new /\ desc b new /\ Forall (fun c => (c <= length wire)%nat) new.
Proof.
  induction f as [|f IH]; intros p b acc tr ls p' out H; [discriminate|].
  rewrite fw_go_tr_step in H. pose proof (fw_step_inv wire p b) as T.
  destruct (fw_step wire p b) as [e|q|l q|c q]; [discriminate| |eauto|].
  - injection H as _ _ <-. exists []. rewrite app_nil_r. repeat split; constructor.
  - destruct T as (hi8 & lo & _ & _ & _ & _ & Lb & L & _).
    apply IH in H as (new & -> & D & B). exists (c :: new). cbn [rev]. rewrite <- app_assoc.
    split; [reflexivity|]. split; constructor; auto.
Qed.

(* every pointer followed by from_wire lies strictly before the start offset and strictly
   before every pointer target followed earlier *)
Theorem pointers_strictly_decrease wire start n consumed tr :
  from_wire_tr wire start = Ok (n, consumed, tr) ->
  desc start tr /\ Forall (fun c => (c <= length wire)%nat) tr /\
  from_wire wire start = Ok (n, consumed).
Proof.
  unfold from_wire_tr, from_wire. destruct (Nat.ltb (length wire) start); [discriminate|].
  rewrite (fw_go_tr_erase wire _ _ _ _ []).
  destruct (fw_go_tr wire _ _ _ _ _) as [[[ls p] out]|e|e] eqn:E; try discriminate.
  cbn [erase_tr bind]. destruct (mk_name ls) as [m| |]; cbn [bind]; try discriminate.
  intros H; inversion H; subst.
  apply fw_go_tr_desc in E. destruct E as (new & -> & D & B). cbn [rev app]. auto.
Qed.

(* and the instrumented decoder is total in the same sense / agrees on errors *)
Theorem from_wire_tr_erase wire start :
  from_wire wire start =
    match from_wire_tr wire start with
    | Ok (n, c, _) => Ok (n, c)
    | Lib e => Lib e
    | Internal e => Internal e
    end.
Proof.
  unfold from_wire_tr, from_wire. destruct (Nat.ltb (length wire) start); [reflexivity|].
  rewrite (fw_go_tr_erase wire _ _ _ _ []).
  destruct (fw_go_tr wire _ _ _ _ _) as [[[ls p] out]|e|e]; try reflexivity.
  cbn [erase_tr bind]. destruct (mk_name ls); reflexivity.
Qed.

Lemma wire_labels_cons canon l n :
  wire_labels canon (l :: n) = zlen l :: (if canon then lower_l l else l) ++ wire_labels canon n.
Proof. reflexivity. Qed.

Lemma wire_labels_app canon a b : wire_labels canon (a ++ b) = wire_labels canon a ++ wire_labels canon b.
Proof. unfold wire_labels. apply flat_map_app. Qed.

Lemma wire_labels_length canon n : Z.of_nat (length (wire_labels canon n)) = wire_length n.
Proof.
  induction n as [|l n IH]; [reflexivity|].
  rewrite wire_labels_cons, wire_length_cons. cbn [length]. rewrite app_length.
  assert (length (if canon then lower_l l else l) = length l) as ->
    by (destruct canon; [apply map_length|reflexivity]).
  unfold zlen. lia.
Qed.

(* reading the plain encoding of non-empty labels followed by the root label *)
Lemma fw_go_plain : forall (ls : list label) wire pre post k f b acc,
  wire = pre ++ wire_labels false (ls ++ [[]]) ++ post -> k = length pre ->
  Forall (fun l => l <> [] /\ zlen l <= 63) ls -> (length ls < f)%nat ->
  fw_go wire f {| cur := k; furthest := k |} b acc =
    Ok (rev acc ++ ls ++ [[]],
        {| cur := k + length (wire_labels false (ls ++ [[]]));
           furthest := k + length (wire_labels false (ls ++ [[]])) |}).
Proof.
  induction ls as [|l ls IH]; intros wire pre post k f b acc -> -> HF Hf;
    (destruct f as [|f]; [cbn [length] in Hf; lia|]); rewrite fw_go_step.
  - rewrite fw_step_root by apply nth_error_app_len.
    unfold adv. cbn [cur furthest length wire_labels flat_map app rev]. rewrite Nat.max_r by lia. reflexivity.
  - apply Forall_cons_iff in HF as [[Hne Hlen] HF].
    assert (0 < zlen l) as Hpos by (unfold zlen; destruct l; [congruence|cbn [length]; lia]).
    assert (Z.to_nat (zlen l) = length l) as Hn by (unfold zlen; lia).
    cbn [app]. rewrite wire_labels_cons, <- app_comm_cons, <- app_assoc.
    erewrite fw_step_label; [|apply nth_error_app_len|lia|cbn [cur]; rewrite Hn, !app_length; cbn [length]; rewrite app_length; lia].
    unfold adv. cbn [cur furthest]. rewrite Hn, firstn_skipn_label, !Nat.max_r by lia.
    rewrite (IH _ (pre ++ zlen l :: l) post) by
      (auto; (rewrite <- app_assoc; reflexivity) || (rewrite app_length; cbn [length]; lia) || (cbn [length] in Hf; lia)).
    cbn [rev length]. rewrite <- app_assoc, !app_length. do 3 f_equal; lia.
Qed.

(* a valid absolute name is a list of non-empty labels followed by the root label *)
Lemma Valid_absolute_shape n : Valid n -> is_absolute n = true ->
  exists ls, n = ls ++ [[]] /\ Forall (fun l => l <> [] /\ zlen l <= 63) ls.
Proof.
  intros (V1 & _ & V3) A. apply is_absolute_true in A. destruct A as [ls ->]. exists ls. split; [reflexivity|].
  rewrite removelast_last in V3. apply Forall_app in V1. destruct V1 as [V1 _].
  rewrite Forall_forall in *. intros l Hl. auto.
Qed.

(* decoding the uncompressed encoding of a name, anywhere inside any byte string, returns
   exactly the name and consumes exactly the octets of the encoding *)
Theorem wire_roundtrip n pre post :
  Valid n -> is_absolute n = true ->
  to_wire n None false = Ok (wire_labels false n) /\
  from_wire (pre ++ wire_labels false n ++ post) (length pre) = Ok (n, length (wire_labels false n)).
Proof.
  intros V A. split; [unfold to_wire; rewrite A; reflexivity|].
  destruct (Valid_absolute_shape n V A) as (ls & -> & HF).
  erewrite from_wire_intro;
    [| |apply (fw_go_plain ls _ pre post (length pre) (S (length ls))); auto|exact V].
  - cbn [furthest]. rewrite Nat.add_comm, Nat.add_sub. reflexivity.
  - rewrite app_length. lia.
Qed.

(* from_wire_parser computes (count & 0x3F) * 256 + lo; the model writes (count - 192) * 256 + lo.
   For a first pointer octet (192..255) the two agree. *)
Lemma pointer_mask_equiv c : 192 <= c < 256 -> Z.land c 63 = c - 192.
Proof.
  intros H. change 63 with (Z.ones 6). rewrite Z.land_ones by lia.
  symmetry. apply (Z.mod_unique_pos c (2 ^ 6) 3); lia.
Qed.

(* __hash__ computes h += (h << 3) + c; the model writes h + h * 8 + c *)
Lemma hash_shift_equiv h c : h + (Z.shiftl h 3 + c) = h + (h * 8) + c.
Proof. rewrite Z.shiftl_mul_pow2 by lia. change (2 ^ 3) with 8. lia. Qed.
