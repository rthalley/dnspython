(* C09: the class and type fields the printer writes are read back as that class / type and are
   never mistaken for a TTL or a class - for every 16-bit code; the printer's name sort only
   reorders. *)
From DV Require Import Base.Prelude Model.NameM Model.ZoneTextM Proofs.ZoneTextBase Proofs.ZoneTextLex
  Proofs.ZoneTextRespell Proofs.ZoneTextRead Proofs.ZoneTextRecord.
From Coq Require Import Permutation.
Open Scope Z_scope.

Lemma upper_l_digits d : all_digits d = true -> upper_l d = d.
Proof.
  induction d as [|c d IH]; [reflexivity|]. unfold all_digits. cbn [forallb upper_l map].
  intros H. apply andb_true_iff in H as [Hc Hd]. rewrite (upper_digit c Hc). f_equal. apply IH. exact Hd.
Qed.

Section Generic.
  Variables (n : Z) (d : list Z).
  Hypothesis Hn : 0 <= n <= 65535.
  Hypothesis Ha : all_digits d = true.
  Hypothesis Hi : int_of_digits d = n.
  Hypothesis Hne : d <> [].

  Lemma generic_type_from_text : type_from_text (sTYPE ++ d) = Some n.
  Proof.
    unfold type_from_text, upper_l. rewrite map_app. fold (upper_l d). rewrite (upper_l_digits d Ha).
    cbn [sTYPE map upper Z.leb Z.compare andb app].
    cbn [type_table tbl_by_name zlist_eqb Z.eqb Pos.eqb andb tA tNS tCNAME tSOA tPTR tMX tTXT tKEY tAAAA tSRV tDNAME tRRSIG tNSEC].
    cbn [is_prefix sTYPE Z.eqb Pos.eqb andb skipn].
    destruct d as [|c0 d0]; [congruence|].
    rewrite Ha, Hi. replace (n <=? 65535) with true by (symmetry; apply Z.leb_le; lia). reflexivity.
  Qed.

  Lemma generic_type_not_class : class_from_text (sTYPE ++ d) = None.
  Proof.
    unfold class_from_text, upper_l. rewrite map_app. fold (upper_l d). rewrite (upper_l_digits d Ha).
    cbn [sTYPE map upper Z.leb Z.compare andb app].
    cbn [class_names assoc_l zlist_eqb Z.eqb Pos.eqb andb is_prefix sCLASS]. reflexivity.
  Qed.

  Lemma generic_type_clean : id_clean (sTYPE ++ d) = true.
  Proof.
    unfold id_clean. cbn [sTYPE app id_clean_go Z.eqb Pos.eqb is_delim orb negb andb].
    apply digits_clean_go. exact Ha.
  Qed.

  Lemma generic_class_from_text : class_from_text (sCLASS ++ d) = Some n.
  Proof.
    unfold class_from_text, upper_l. rewrite map_app. fold (upper_l d). rewrite (upper_l_digits d Ha).
    cbn [sCLASS map upper Z.leb Z.compare andb app].
    cbn [class_names assoc_l zlist_eqb Z.eqb Pos.eqb andb is_prefix sCLASS skipn].
    destruct d as [|c0 d0]; [congruence|].
    rewrite Ha, Hi. replace (n <=? 65535) with true by (symmetry; apply Z.leb_le; lia). reflexivity.
  Qed.

  Lemma generic_class_clean : id_clean (sCLASS ++ d) = true.
  Proof.
    unfold id_clean. cbn [sCLASS app id_clean_go Z.eqb Pos.eqb is_delim orb negb andb].
    apply digits_clean_go. exact Ha.
  Qed.
End Generic.

Lemma tbl_by_code_In t ty m ks : tbl_by_code t ty = Some (m, ks) -> In (ty, m, ks) t.
Proof.
  induction t as [|[[c0 m0] s0] t IH]; cbn [tbl_by_code In]; [discriminate|].
  destruct (Z.eqb_spec c0 ty); [intros H; inversion H; subst; auto|auto].
Qed.

(* the rows of the type table, checked one by one *)
Lemma type_table_ok :
  Forall (fun '(ty, m, _) => 0 <= ty <= 65535 /\ (ty =? 24) = false /\ type_text_ok m ty /\ id_clean m = true)
         type_table.
Proof. repeat constructor; vm_compute; congruence. Qed.

Lemma type_ok_all ty : 0 <= ty <= 65535 -> type_ok ty.
Proof.
  intros H. unfold type_ok, type_to_text. destruct (tbl_by_code type_table ty) as [[m ks]|] eqn:E.
  - apply tbl_by_code_In in E. apply (proj1 (Forall_forall _ _) type_table_ok) in E. tauto.
  - destruct (dec_spec ty ltac:(lia)) as (Ha & Hi & Hne).
    split; [split; [|split]|].
    + apply generic_type_from_text; assumption.
    + apply generic_type_not_class; assumption.
    + apply ttl_from_text_nondigit. reflexivity.
    + apply generic_type_clean; assumption.
Qed.

Lemma class_ok_all c : 0 <= c_class c <= 65535 -> class_ok c.
Proof.
  intros H. unfold class_ok, class_to_text.
  repeat match goal with
         | |- context [if c_class c =? ?k then _ else _] =>
             destruct (Z.eqb_spec (c_class c) k) as [->|?]; [split; reflexivity|]
         end.
  destruct (dec_spec (c_class c) ltac:(lia)) as (Ha & Hi & Hne).
  split; [apply generic_class_from_text; assumption|apply generic_class_clean; assumption].
Qed.

(* names.sort() only reorders *)
Lemma zinsert_perm e z : Permutation (zinsert e z) (e :: z).
Proof.
  induction z as [|x z IH]; cbn [zinsert]; [reflexivity|].
  destruct (order (fst x) (fst e) <? 0); [|reflexivity].
  rewrite IH. apply perm_swap.
Qed.

Lemma zsort_perm z : Permutation (zsort z) z.
Proof.
  induction z as [|e z IH]; cbn [zsort]; [reflexivity|].
  rewrite zinsert_perm. constructor. exact IH.
Qed.
