(* C20: three ways in which a change of the node list re-establishes the invariant:
   the name stays (or stays not) a delegation point; it becomes one; it ceases to be one. *)
From DV Require Import Base.Prelude Model.NameM Model.BTZoneM
     Proofs.BTZoneOrder Proofs.BTZoneList Proofs.BTZoneSpec Proofs.BTZoneInv.
Open Scope Z_scope.

Definition idtr : name -> node -> node := fun _ x => x.

Lemma has_ns_rds : forall a b, nrds a = nrds b -> has_ns a = has_ns b.
Proof. intros a b H. unfold has_ns. rewrite H. reflexivity. Qed.

(* what update_glue_flag does to a node: the flags of the names strictly beneath n are set anew *)
Definition sub_tr (n : name) (F : name -> node -> Z) : name -> node -> node :=
  fun k nd => if strictly_beneath k n then mkNode (F k nd) (nrds nd) else nd.

Lemma sub_tr_rds : forall n F k nd, nrds (sub_tr n F k nd) = nrds nd.
Proof. intros. unfold sub_tr. destruct (strictly_beneath k n); reflexivity. Qed.

(* the owners of the NS rdatasets strictly between k and n *)
Definition inner (l : nodes_t) (n k : name) : bool :=
  existsb (fun e => has_ns (snd e) && strictly_beneath (fst e) n && strictly_beneath k (fst e)) l.

Lemma inner_iff : forall c l n k, validk c (K n) ->
    (inner l n k = true <-> exists o, owner c l o /\ sbelow o (K n) /\ sbelow (K k) o).
Proof.
  intros c l n k Hv. unfold inner. rewrite existsb_exists. split.
  - intros ([m nd] & Hin & H). cbn [fst snd] in H. apply andb_true_iff in H as [H H3].
    apply andb_true_iff in H as [H1 H2]. apply strictly_beneath_iff in H2, H3.
    exists (K m). repeat split; try apply H2; try apply H3.
    apply owner_unfold. exists m, nd. repeat split; auto. eapply valid_sbelow_not_apex; eauto.
  - intros (o & Ho & H2 & H3). apply owner_unfold in Ho as (m & nd & Hin & <- & Hns & _).
    exists (m, nd). split; auto. cbn [fst snd]. rewrite Hns. cbn [andb].
    apply andb_true_iff. split; apply strictly_beneath_iff; auto.
Qed.

Section Master.
  Variables (c : cfg) (l : nodes_t) (d : delegs_t) (ch : list name).
  (* the new list: the entry at n becomes en, the other nodes go through tr *)
  Variables (l' : nodes_t) (n : name) (en : option (name * node)) (tr : name -> node -> node).
  Hypothesis HI : Inv c (mkVer l d ch).
  Hypothesis Sl : sorted l'.
  Hypothesis D : Desc l l' n en tr.
  Hypothesis Htr : forall k nd, nrds (tr k nd) = nrds nd.
  Hypothesis Hv : validk c (K n).
  Hypothesis Hen : forall e, en = Some e -> K (fst e) = K n /\ NoDup (map fst (nrds (snd e))).

  Let Hoff : agree_off (K n) (owner c l) (owner c l') := Desc_owner_off c l l' n en tr D Htr.

  (* it is enough to know the new occlusion relation occ' *)
  Lemma Inv_intro : forall d' ch' (occ' : name -> bool),
      sorted d' ->
      (forall m, occk c l' (K m) <-> occ' m = true) ->
      (forall k nd, In (k, nd) l -> K k <> K n ->
                    nflags (tr k nd) = flagspec (is_apex c k) (occ' k) (has_ns nd)) ->
      (forall e, en = Some e -> nflags (snd e) = flagspec (is_apex c n) (occ' n) (has_ns (snd e))) ->
      (forall y, In y (keys d') <-> owner c l' y /\ ~ occk c l' y) ->
      Inv c (mkVer l' d' ch').
  Proof.
    intros d' ch' occ' Sd Hocc Hfl Hfn Hd. constructor; cbn [v_nodes v_delegs]; auto.
    - intros k Hk. apply (Desc_keys _ _ _ _ _ D) in Hk as [H| ->]; [apply (inv_v c _ HI); exact H|exact Hv].
    - intros k nd Hin. apply D in Hin as [[_ (nd0 & Hin & ->)]|[H _]].
      + rewrite Htr. exact (inv_nd c _ HI k nd0 Hin).
      + exact (proj2 (Hen _ H)).
    - intros k nd Hin. rewrite flags_of_eq.
      replace (occluded c l' k) with (occ' k)
        by (symmetry; apply Bool.eq_true_iff_eq; rewrite occluded_iff; apply Hocc).
      apply D in Hin as [[Hk (nd0 & Hin & ->)]|[He Hk]].
      + rewrite (has_ns_rds (tr k nd0) nd0) by apply Htr. apply Hfl; assumption.
      + specialize (Hfn _ He). cbn [snd] in Hfn. rewrite Hfn, (is_apex_ext c k n Hk). f_equal.
        apply Bool.eq_true_iff_eq. rewrite <- !Hocc, Hk. reflexivity.
  Qed.

  (* n is a delegation point after the change iff it was one before *)
  Lemma Inv_same : forall ch',
      (forall k nd, In (k, nd) l -> K k <> K n -> nflags (tr k nd) = nflags nd) ->
      is_apex c n = true \/ occluded c l n = true \/ hns (option_map snd en) = hns (al_get n l) ->
      (forall e, en = Some e ->
                 nflags (snd e) = flagspec (is_apex c n) (occluded c l n) (has_ns (snd e))) ->
      Inv c (mkVer l' d ch').
  Proof.
    intros ch' Hfl Hcase Hfn.
    assert (Hn : occk c l (K n) \/ (owner c l' (K n) <-> owner c l (K n))).
    { rewrite (Desc_owner_at c l l' n en tr D (fun e He => proj1 (Hen e He))), (owner_get c l n (inv_sn c _ HI)).
      destruct Hcase as [Ha|[Ho|Hh]].
      - right. rewrite Ha. split; intros [_ H]; discriminate.
      - left. apply occluded_iff. exact Ho.
      - right. rewrite Hh. reflexivity. }
    pose proof (occP_same _ _ _ Hoff Hn) as Hocc.
    apply (Inv_intro d ch' (occluded c l)); auto.
    - apply (inv_sd c _ HI).
    - intros m. rewrite occluded_iff. apply Hocc.
    - intros k nd Hin Hk. rewrite (Hfl k nd Hin Hk). apply (inv_flags c _ HI k nd Hin).
    - intros y. rewrite (inv_d c _ HI y), (Hocc y). cbn [v_nodes].
      destruct (key_eq_dec y (K n)) as [->|Hy]; [|rewrite (Hoff y Hy); reflexivity].
      destruct Hn as [Hn|Hn]; [|rewrite Hn; reflexivity]. split; intros [_ H]; contradiction.
  Qed.

  (* n becomes a delegation point: its subtree becomes glue *)
  Lemma Inv_new_top : forall d' ch' n0 nd0,
      sorted d' -> en = Some (n0, nd0) ->
      is_apex c n = false -> occluded c l n = false -> has_ns nd0 = true -> nflags nd0 = fDELEGATION ->
      (forall k nd, In (k, nd) l -> K k <> K n ->
                    nflags (tr k nd) = if strictly_beneath k n then fGLUE else nflags nd) ->
      (forall y, In y (keys d') <-> (y = K n \/ (In y (keys d) /\ ~ sbelow y (K n)))) ->
      Inv c (mkVer l' d' ch').
  Proof.
    intros d' ch' n0 nd0 Sd He Ha Ho Hns Hf0 Hfl Hd.
    assert (Hn' : owner c l' (K n)).
    { apply (Desc_owner_at c l l' n en tr D (fun e He => proj1 (Hen e He))). rewrite He. auto. }
    pose proof (occP_add_top _ _ _ Hoff Hn') as Hocc. apply occluded_false_iff in Ho.
    apply (Inv_intro d' ch' (fun m => occluded c l m || strictly_beneath m n)); auto.
    - intros m. rewrite orb_true_iff, occluded_iff, strictly_beneath_iff. apply Hocc.
    - intros k nd Hin Hk. rewrite (Hfl k nd Hin Hk), (inv_flags c _ HI k nd Hin). cbn [v_nodes].
      destruct (strictly_beneath k n) eqn:Sb; [|rewrite orb_false_r; reflexivity].
      apply strictly_beneath_iff in Sb. rewrite orb_true_r.
      rewrite (proj2 (is_apex_false_key c k) (valid_sbelow_not_apex c _ _ Hv Sb)). reflexivity.
    - intros e Hee. rewrite He in Hee. injection Hee as <-. cbn [snd].
      rewrite Hf0, Hns, Ha, (not_sb_self n n eq_refl), (proj2 (occluded_false_iff c l n) Ho). reflexivity.
    - intros y. rewrite Hd, (Hocc y), (inv_d c _ HI y). cbn [v_nodes]. split.
      + intros [->|[[H1 H2] H3]].
        * split; [exact Hn'|]. intros [H|H]; [auto|eapply sbelow_irrefl; eauto].
        * split; [|tauto]. destruct (key_eq_dec y (K n)) as [->|Hy]; [exact Hn'|apply Hoff; assumption].
      + intros [H1 H2]. destruct (key_eq_dec y (K n)) as [->|Hy]; [left; reflexivity|].
        right. apply (Hoff y Hy) in H1. tauto.
  Qed.

  (* n ceases to be a delegation point: the NS owners beneath it are exposed *)
  Lemma Inv_del_top : forall d' ch',
      sorted d' -> In (K n) (keys d) ->
      (forall e, en = Some e -> has_ns (snd e) = false /\ nflags (snd e) = 0) ->
      (forall k nd, In (k, nd) l -> K k <> K n ->
                    nflags (tr k nd) = if strictly_beneath k n
                                       then flagspec false (inner l n k) (has_ns nd) else nflags nd) ->
      (forall y, In y (keys d') <->
                 ((In y (keys d) /\ y <> K n) \/
                  exists k nd, In (k, nd) l /\ K k = y /\ sbelow y (K n) /\ has_ns nd = true /\ inner l n k = false)) ->
      Inv c (mkVer l' d' ch').
  Proof.
    intros d' ch' Sd Hnd He Hfl Hd.
    pose proof (proj1 (inv_d c _ HI (K n)) Hnd) as [HnO Hnocc]. cbn [v_nodes] in HnO, Hnocc.
    assert (Ha : is_apex c n = false) by (apply (owner_get c l n (inv_sn c _ HI)); exact HnO).
    assert (Hn' : ~ owner c l' (K n)).
    { rewrite (Desc_owner_at c l l' n en tr D (fun e He => proj1 (Hen e He))). intros [H _].
      destruct en as [e|]; [|discriminate]. cbn in H. rewrite (proj1 (He e eq_refl)) in H. discriminate. }
    pose proof (fun k => occP_outside _ _ (K n) k Hoff) as Hout.
    pose proof (fun m Hm => iff_trans (occP_remove_top _ _ _ Hoff Hn' Hnocc (K m) Hm)
                                      (iff_sym (inner_iff c l n m Hv))) as Hin_.
    apply (Inv_intro d' ch' (fun m => if strictly_beneath m n then inner l n m else occluded c l m)); auto.
    - intros m. destruct (strictly_beneath m n) eqn:Sb.
      + apply Hin_, strictly_beneath_iff, Sb.
      + rewrite occluded_iff. apply Hout. rewrite <- strictly_beneath_iff, Sb. discriminate.
    - intros k nd Hin Hk. rewrite (Hfl k nd Hin Hk). destruct (strictly_beneath k n) eqn:Sb.
      + apply strictly_beneath_iff in Sb.
        rewrite (proj2 (is_apex_false_key c k) (valid_sbelow_not_apex c _ _ Hv Sb)). reflexivity.
      + apply (inv_flags c _ HI k nd Hin).
    - intros e Hee. destruct (He e Hee) as [-> ->].
      rewrite Ha, (not_sb_self n n eq_refl), (proj2 (occluded_false_iff c l n) Hnocc). reflexivity.
    - intros y. rewrite Hd. split.
      + intros [[H1 H2]|(k & nd & Hin & <- & Hs & Hns & Hi)].
        * apply (inv_d c _ HI) in H1 as [H1 H3]. cbn [v_nodes] in *. split; [apply Hoff; assumption|].
          rewrite (Hout y); [exact H3|]. intros Hs. apply H3. exists (K n). auto.
        * split.
          -- apply (Hoff (K k)); [intros E; rewrite E in Hs; eapply sbelow_irrefl; eauto|].
             apply owner_unfold. exists k, nd. repeat split; auto. eapply valid_sbelow_not_apex; eauto.
          -- rewrite (Hin_ k Hs), Hi. discriminate.
      + intros [H1 H3]. destruct (key_eq_dec y (K n)) as [->|Hy]; [contradiction|].
        apply (Hoff y Hy), owner_unfold in H1 as (m & nd & Hin & <- & Hns & Hna').
        destruct (strictly_beneath m n) eqn:Sb.
        * apply strictly_beneath_iff in Sb. right. exists m, nd. repeat split; auto; try apply Sb.
          apply not_true_is_false. intros Hi. apply H3, Hin_; assumption.
        * left. split; [|exact Hy]. apply (inv_d c _ HI). cbn [v_nodes]. split.
          -- apply owner_unfold. exists m, nd. auto.
          -- rewrite <- (Hout (K m)); [exact H3|]. rewrite <- strictly_beneath_iff, Sb. discriminate.
  Qed.
End Master.
