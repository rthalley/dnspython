(* Token-level lemmas for sequences of fields.  dns.rdata.from_text reads the first token of a record, pushes
   it back and hands the tokenizer to the type's own from_text; every later field starts in one of the two
   inter-field states of TokWords.  `first_tok st P` packages what a field parser needs to know about the text
   in front of it so that one statement serves both situations. *)
From DV Require Import Base.Prelude Model.TokM Proofs.TokEsc Proofs.TokWords.
Open Scope Z_scope.

Definition uword (w : list Z) : Prop := units w /\ w <> [].
Definition utok (w : list Z) : token := mkTok tIDENT w (has_bs w) None.

Lemma utok_safe w : forallb safe w = true -> utok w = mkTok tIDENT w false None.
Proof. intros Hs. unfold utok. rewrite has_bs_safe by exact Hs. reflexivity. Qed.

Lemma unescape_utok w : forallb safe w = true -> unescape (utok w) = Ok (mkTok tIDENT w false None).
Proof. intros Hs. rewrite utok_safe by exact Hs. reflexivity. Qed.

Lemma safe_word_not_hash u : forallb safe u = true -> zlist_eqb u [92; 35] = false.
Proof.
  intros H. destruct u as [|c u]; [reflexivity|]. cbn [forallb] in H. apply andb_true_iff in H as [Hc _].
  cbn [zlist_eqb]. apply safe_not_bs in Hc. rewrite Z.eqb_sym, Hc. reflexivity.
Qed.

(* the next quoted string from either inter-field state *)
Theorem get0_quoted_body_q q bl b r : forallb is_blank bl = true -> qbody b ->
  exists he, get0 (stq q (bl ++ 34 :: b ++ 34 :: r)) = Ok (mkTok tQUOTED b he None, stq true r).
Proof.
  intros Hbl Hb. rewrite get0_stq by (auto; reflexivity). set (k := if q then length bl else 0%nat).
  cbn [length Nat.add].
  change (get_loop (S (S (length (b ++ 34 :: r) + k))) false (34 :: b ++ 34 :: r) 0 false [] tIDENT false)
    with (get_loop (S (length (b ++ 34 :: r) + k)) false (b ++ 34 :: r) 0 true [] tQUOTED false).
  rewrite app_length. cbn [length].
  replace (S (length b + S (length r) + k))%nat with (length b + S (S (length r + k)))%nat by lia.
  destruct (gl_quoted_body b Hb (S (length r + k)) false r 0%nat) as (he & E). rewrite E. exists he. reflexivity.
Qed.

Definition at_eol (st : tstate) : Prop := exists te, ungot st = Some te /\ is_eol_or_eof te = true.
Definition ends_ok (st : tstate) : Prop := exists te st', get_eol_as_token st = Ok (te, st').

Lemma eol_not_ws te : is_eol_or_eof te = true -> (ttype te =? tWS) = false /\ (ttype te =? tCOMMENT) = false.
Proof. unfold is_eol_or_eof, tEOL, tEOF, tWS, tCOMMENT. lia. Qed.

Lemma get_eol_ungot st te : ungot st = Some te -> is_eol_or_eof te = true ->
  exists st', get_eol_as_token st = Ok (te, st').
Proof.
  intros Hu He. unfold get_eol_as_token, get0, get. rewrite Hu.
  destruct (eol_not_ws te He) as [A B]. rewrite A, B. cbn [bind fst]. rewrite He. cbn [negb].
  eexists. reflexivity.
Qed.

Lemma at_eol_ends st : at_eol st -> ends_ok st.
Proof. intros (te & Hu & He). destruct (get_eol_ungot st te Hu He) as (st' & E). exists te, st'. exact E. Qed.

Lemma stq_ends q bl rest : forallb is_blank bl = true -> line_end rest -> ends_ok (stq q (bl ++ rest)).
Proof.
  intros Hbl Hr. destruct (get0_end_q_len q bl rest Hbl Hr) as (te & st' & H1 & _ & _ & _ & E).
  exists te, st'. unfold get_eol_as_token. rewrite E. cbn [bind fst]. rewrite H1. reflexivity.
Qed.

(* the rest-of-line readers on a state whose next token ends the line *)
Lemma grl_unfold_m f st m acc :
  get_remaining_loop (S f) st m acc
  = (do ts <- get0 st;
     let '(t, st1) := ts in
     if is_eol_or_eof t then do st2 <- unget st1 t; Ok (rev acc, st2)
     else let acc' := t :: acc in
          if negb (m =? 0) && (zlen acc' =? m) then Ok (rev acc', st1)
          else get_remaining_loop f st1 m acc').
Proof. reflexivity. Qed.

Lemma grl_unfold f st acc :
  get_remaining_loop (S f) st 0 acc
  = (do ts <- get0 st;
     let '(t, st1) := ts in
     if is_eol_or_eof t then do st2 <- unget st1 t; Ok (rev acc, st2)
     else get_remaining_loop f st1 0 (t :: acc)).
Proof. reflexivity. Qed.

Lemma get_remaining_eol stX m t s : get0 stX = Ok (t, s) -> is_eol_or_eof t = true -> ungot s = None ->
  exists st, get_remaining stX m = Ok ([], st) /\ at_eol st.
Proof.
  intros HX He Hu. unfold get_remaining, rem_fuel. rewrite grl_unfold_m, HX. cbn [bind]. rewrite He.
  unfold unget. rewrite Hu. eexists. split; [reflexivity|]. exists t. split; [reflexivity|exact He].
Qed.

Lemma cri_eol t s stX : get0 stX = Ok (t, s) -> is_eol_or_eof t = true -> tesc t = false -> ungot s = None ->
  exists st, concatenate_remaining_identifiers stX true = Ok ([], st) /\ at_eol st.
Proof.
  intros HX He Hesc Hu. unfold concatenate_remaining_identifiers, rem_fuel. rewrite cri_unfold. unfold get_unescaped.
  rewrite HX. cbn [bind fst snd]. unfold unescape. rewrite Hesc. cbn [negb bind]. rewrite He.
  unfold unget. rewrite Hu. eexists. split; [reflexivity|]. exists t. split; [reflexivity|exact He].
Qed.

(* the first token of a field *)
(* a first token that selects the type's own from_text and can be pushed back *)
Definition tok_plain (t : token) : Prop :=
  (ttype t =? tWS) = false /\ (ttype t =? tCOMMENT) = false /\
  (is_identifier t && zlist_eqb (tvalue t) [92; 35]) = false.

(* peek: a token that was read and pushed back is returned by the next get() *)
Lemma get0_unget t st1 : ungot st1 = None ->
  (ttype t =? tWS) = false -> (ttype t =? tCOMMENT) = false ->
  exists stu, unget st1 t = Ok stu /\ get0 stu = Ok (t, st1).
Proof.
  intros Hu Hw Hc. unfold unget. rewrite Hu. eexists. split; [reflexivity|].
  unfold get0, get. cbn [ungot]. rewrite Hw, Hc. cbn [inp multiline quoting].
  destruct st1 as [i ml q u]. cbn in Hu. subst u. reflexivity.
Qed.

(* P holds of every state that shows the same next token and the same state after it as st and holds at least
   as much input (the loops take their fuel from its length): st itself, and st with its first token read and
   pushed back *)
Definition first_tok (st : tstate) (P : tstate -> Prop) : Prop :=
  exists t s, get0 st = Ok (t, s) /\ ungot s = None /\ tok_plain t /\ (length (inp s) <= length (inp st))%nat /\
    forall stX, get0 stX = Ok (t, s) -> (length (inp s) <= length (inp stX))%nat -> P stX.

Lemma first_tok_self st P : first_tok st P -> P st.
Proof. intros (t & s & G1 & _ & _ & G4 & G5). exact (G5 st G1 G4). Qed.

Lemma first_tok_impl st (P Q : tstate -> Prop) : (forall stX, P stX -> Q stX) -> first_tok st P -> first_tok st Q.
Proof. intros H (t & s & G1 & G2 & G3 & G4 & G5). exists t, s. auto 7. Qed.

Lemma first_tok_word q bl w X (P : tstate -> Prop) :
  forallb is_blank bl = true -> uword w -> zlist_eqb w [92; 35] = false -> word_end X ->
  (forall stX, get0 stX = Ok (utok w, stq false X) -> (length X <= length (inp stX))%nat -> P stX) ->
  first_tok (stq q (bl ++ w ++ X)) P.
Proof.
  intros Hbl [Hu Hne] Hh HX HP. exists (utok w), (stq false X).
  split; [apply get0_word_q; assumption|]. split; [reflexivity|].
  split; [unfold tok_plain, utok, is_identifier; cbn [ttype tvalue]; rewrite Hh; repeat split; reflexivity|].
  split; [unfold stq; cbn [inp pend app]; rewrite !app_length; lia|exact HP].
Qed.

Lemma first_tok_quoted q bl b X (P : tstate -> Prop) : forallb is_blank bl = true -> qbody b ->
  (forall he stX, get0 stX = Ok (mkTok tQUOTED b he None, stq true X) -> (length X < length (inp stX))%nat -> P stX) ->
  first_tok (stq q (bl ++ 34 :: b ++ 34 :: X)) P.
Proof.
  intros Hbl Hb HP. destruct (get0_quoted_body_q q bl b X Hbl Hb) as (he & E).
  exists (mkTok tQUOTED b he None), (stq true X). split; [exact E|]. split; [reflexivity|].
  split; [repeat split; reflexivity|].
  split; [unfold stq; cbn [inp pend app length]; rewrite !app_length; cbn [length]; rewrite app_length; cbn [length]; lia|].
  intros stX HX HL. exact (HP he stX HX HL).
Qed.

Lemma first_tok_end q bl R (P : tstate -> Prop) : forallb is_blank bl = true -> line_end R ->
  (forall t s stX, get0 stX = Ok (t, s) -> is_eol_or_eof t = true -> tesc t = false -> ungot s = None -> P stX) ->
  first_tok (stq q (bl ++ R)) P.
Proof.
  intros Hbl HR HP. destruct (get0_end_q_len q bl R Hbl HR) as (t & s & H1 & H3 & H4 & H5 & E).
  exists t, s. split; [exact E|]. split; [exact H4|].
  split; [destruct (eol_not_ws t H1) as [A B]; unfold tok_plain; rewrite A, B, (eol_not_ident t H1); repeat split; reflexivity|].
  split; [unfold stq; cbn [inp]; rewrite !app_length; lia|]. intros stX HX _. exact (HP t s stX HX H1 H3 H4).
Qed.

(* dns.rdata.from_text when the text starts with such a token *)
Lemma rdata_from_text_first_tok {V} (ft : tstate -> res (V * tstate)) fw tw text v :
  first_tok (stq false text) (fun stX => exists st, ft stX = Ok (v, st) /\ ends_ok st) ->
  rdata_from_text ft fw tw text = Ok v.
Proof.
  intros (t & s & G1 & G2 & (W1 & W2 & W3) & G4 & G5). unfold rdata_from_text, init.
  change (mkSt text 0%nat false None) with (stq false text). rewrite G1. cbn [bind].
  destruct (get0_unget t s G2 W1 W2) as (stu & U1 & U2). rewrite U1. cbn [bind]. rewrite W3.
  destruct (G5 stu U2) as (st & E & te & st' & E2).
  { unfold unget in U1. rewrite G2 in U1. inversion U1. cbn [inp]. lia. }
  rewrite E. cbn [bind fst snd]. rewrite E2. reflexivity.
Qed.

(* one-token readers on a state whose next token is a safe word *)
Lemma get_unescaped_tok stX w s : get0 stX = Ok (utok w, s) -> forallb safe w = true ->
  get_unescaped stX = Ok (mkTok tIDENT w false None, s).
Proof.
  intros HX Hs. unfold get_unescaped. rewrite HX. cbn [bind fst snd]. rewrite unescape_utok by exact Hs. reflexivity.
Qed.

Lemma get_string_tok stX w s : get0 stX = Ok (utok w, s) -> forallb safe w = true -> get_string stX 0 = Ok (w, s).
Proof. intros HX Hs. unfold get_string. rewrite (get_unescaped_tok _ _ _ HX Hs). reflexivity. Qed.

Lemma get_identifier_tok stX w s : get0 stX = Ok (utok w, s) -> forallb safe w = true -> get_identifier stX = Ok (w, s).
Proof. intros HX Hs. unfold get_identifier. rewrite (get_unescaped_tok _ _ _ HX Hs). reflexivity. Qed.
