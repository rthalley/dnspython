(* SVCB / HTTPS (dns/rdtypes/svcbbase.py): the text of a record (priority, target, parameters sorted by key,
   every parameter class with its own value syntax and the two levels of escaping) is read back by from_text
   as the same record. *)
From DV Require Import Base.Prelude Model.NameM Model.TokM Model.RdTextM.
From DV Require Import Proofs.NameValid Proofs.NameText Proofs.TokEsc Proofs.TokTxt Proofs.TokWords Proofs.TokDec Proofs.TokHex
     Proofs.TokShape Proofs.TokGeneric Proofs.RdTextName Proofs.RdTextAddr Proofs.RdTextBitmap Proofs.RdTextTypes
     Proofs.RdTextFmtHex Proofs.RdTextTail Proofs.RdTextApl.
Open Scope Z_scope.

(* svcbbase._unescape inverts dns.rdata._escapify *)
Lemma su_step c t : 0 <= c < 256 ->
  svcb_unescape (esc_octet c ++ t) = (do r <- svcb_unescape t; Ok (c :: r)).
Proof.
  intros Hc. destruct (esc_octet_shape c Hc) as [H|H1 H2 H3|d1 d2 d3 H -> -> ->].
  - cbn [app svcb_unescape]. replace (92 =? 92) with true by reflexivity.
    assert (is_decimal c = false) by (unfold is_decimal; lia). rewrite H0.
    unfold utf8_cp. replace (c <? 128) with true by lia. cbn [bind]. destruct (svcb_unescape t); reflexivity.
  - cbn [app svcb_unescape]. replace (c =? 92) with false by lia.
    unfold utf8_cp. replace (c <? 128) with true by lia. cbn [bind]. destruct (svcb_unescape t); reflexivity.
  - cbn [app svcb_unescape]. replace (92 =? 92) with true by reflexivity.
    unfold is_decimal.
    replace ((48 <=? 48 + c / 100) && (48 + c / 100 <=? 57)) with true by dlia.
    replace ((48 <=? 48 + (c / 10) mod 10) && (48 + (c / 10) mod 10 <=? 57)) with true by dlia.
    replace ((48 <=? 48 + c mod 10) && (48 + c mod 10 <=? 57)) with true by dlia.
    cbn [andb negb].
    replace ((48 + c / 100 - 48) * 100 + (48 + (c / 10) mod 10 - 48) * 10 + (48 + c mod 10 - 48)) with c by dlia.
    replace (c >? 255) with false by lia. reflexivity.
Qed.

Theorem svcb_unescape_escapify s : all_bytes s = true -> svcb_unescape (escapify s) = Ok s.
Proof.
  induction s as [|c s IH]; intros Hs; [reflexivity|].
  apply all_bytes_cons in Hs as [Hc Hs].
  unfold escapify in *. cbn [flat_map]. rewrite su_step by exact Hc.
  rewrite IH by exact Hs. reflexivity.
Qed.

(* _split inverts the comma-join of _escapify'd items *)
Lemma split_item id : forall rest cur,
  svcb_split (svcb_escapify id ++ rest) cur = svcb_split rest (rev id ++ cur).
Proof.
  induction id as [|c id IH]; intros rest cur; [reflexivity|].
  unfold svcb_escapify in *. cbn [flat_map]. destruct ((c =? 44) || (c =? 92)) eqn:E.
  - cbn [app svcb_split]. replace (92 =? 92) with true by reflexivity. rewrite IH. cbn [rev]. rewrite <- app_assoc. reflexivity.
  - cbn [app svcb_split]. apply orb_false_iff in E as [E1 E2]. rewrite E2, E1. rewrite IH. cbn [rev]. rewrite <- app_assoc. reflexivity.
Qed.

Theorem svcb_split_join ids : ids <> [] -> svcb_split (join_comma (map svcb_escapify ids)) [] = Ok ids.
Proof.
  induction ids as [|id ids IH]; intros Hne; [congruence|]. destruct ids as [|id2 ids].
  - cbn [map join_comma]. rewrite <- (app_nil_r (svcb_escapify id)). rewrite split_item. cbn [svcb_split].
    rewrite app_nil_r, rev_involutive. reflexivity.
  - change (join_comma (map svcb_escapify (id :: id2 :: ids)))
      with (svcb_escapify id ++ 44 :: join_comma (map svcb_escapify (id2 :: ids))).
    rewrite split_item. cbn [svcb_split]. change (44 =? 92) with false. change (44 =? 44) with true. cbv iota.
    rewrite IH by discriminate. cbn [bind]. rewrite app_nil_r, rev_involutive. reflexivity.
Qed.

Lemma svcb_escapify_bytes id : all_bytes id = true -> all_bytes (svcb_escapify id) = true.
Proof.
  unfold all_bytes, svcb_escapify. induction id as [|c id IH]; intros H; [reflexivity|].
  cbn [forallb] in H. apply andb_true_iff in H as [Hc H]. cbn [flat_map]. rewrite forallb_app, (IH H).
  destruct ((c =? 44) || (c =? 92)); cbn [forallb]; rewrite Hc; reflexivity.
Qed.

Lemma join_comma_bytes l : Forall (fun x => all_bytes x = true) l -> all_bytes (join_comma l) = true.
Proof.
  induction 1 as [|x l Hx _ IH]; [reflexivity|]. destruct l as [|y l]; [exact Hx|].
  change (join_comma (x :: y :: l)) with (x ++ 44 :: join_comma (y :: l)).
  unfold all_bytes in *. rewrite forallb_app. cbn [forallb]. rewrite Hx, IH. reflexivity.
Qed.

(* text without quote, backslash, control or non-ASCII characters is its own escaped form *)
Definition plainc (c : Z) : bool := (32 <=? c) && (c <? 127) && negb (c =? 34) && negb (c =? 92).

Lemma escapify_plain t : forallb plainc t = true -> escapify t = t /\ all_bytes t = true.
Proof.
  induction t as [|c t IH]; intros H; [split; reflexivity|].
  cbn [forallb] in H. apply andb_true_iff in H as [Hc H]. destruct (IH H) as [I1 I2].
  unfold plainc in Hc. unfold escapify in *. cbn [flat_map]. rewrite I1. unfold esc_octet, q_escaped.
  replace (c =? 34) with false by lia. replace (c =? 92) with false by lia. cbn [orb].
  replace ((c >=? 32) && (c <? 127)) with true by lia. split; [reflexivity|].
  unfold all_bytes in *. cbn [forallb]. rewrite I2. unfold is_byte. replace ((0 <=? c) && (c <? 256)) with true by lia. reflexivity.
Qed.

Lemma escapify_nonempty x : x <> [] -> is_nil (escapify x) = false.
Proof.
  destruct x as [|c x']; [congruence|]. intros _. unfold escapify. cbn [flat_map]. unfold esc_octet.
  destruct (q_escaped c); [reflexivity|]. destruct ((c >=? 32) && (c <? 127)); reflexivity.
Qed.

Definition keyc (c : Z) : bool := ((97 <=? c) && (c <=? 122)) || ((48 <=? c) && (c <=? 57)) || (c =? 45).

Definition named (k : Z) : bool := existsb (fun nv => snd nv =? k) svcb_keys.

Definition key_ok (k : Z) : bool :=
  let t := svcb_key_text k in
  negb (is_nil t) && forallb keyc t
  && match svcb_validate_key t with
     | Ok (k', force) => (k' =? k) && Bool.eqb force (negb (named k))
     | _ => false
     end.

(* the ten registered keys by evaluation; no registered name has the form KEYnnn *)
Lemma svcb_keys_ok : forallb key_ok (map snd svcb_keys) = true /\ forallb (numeric_name_ok [75; 69; 89]) svcb_keys = true.
Proof. vm_compute. auto. Qed.

Lemma lower_decimal s : forallb is_decimal s = true -> map lower_c s = s.
Proof.
  induction s as [|c s IH]; [reflexivity|]. cbn [forallb map]. intros H. apply andb_true_iff in H as [Hc Hs].
  rewrite IH by exact Hs. unfold is_decimal in Hc. unfold lower_c. replace ((65 <=? c) && (c <=? 90)) with false by lia.
  reflexivity.
Qed.

Lemma named_in k : named k = false -> ~ In k (map snd svcb_keys).
Proof.
  unfold named. intros H Hin. apply in_map_iff in Hin as (nv & <- & Hin).
  assert (existsb (fun nv' => snd nv' =? snd nv) svcb_keys = true) by (apply existsb_exists; exists nv; split; [exact Hin|lia]).
  congruence.
Qed.

(* keyNNN: the number has no leading zero (0 itself is a registered key), "key" forces the generic form,
   and the look-up of KEYNNN among the registered names fails *)
Lemma key_facts k : 0 <= k <= 65535 ->
  svcb_key_text k <> [] /\ forallb keyc (svcb_key_text k) = true /\
  svcb_validate_key (svcb_key_text k) = Ok (k, negb (named k)).
Proof.
  intros Hk. destruct svcb_keys_ok as [Hreg Hnum]. destruct (named k) eqn:En.
  - assert (H : key_ok k = true).
    { rewrite forallb_forall in Hreg. apply Hreg. unfold named in En. apply existsb_exists in En as (nv & Hin & E).
      apply in_map_iff. exists nv. split; [lia|exact Hin]. }
    unfold key_ok in H. cbv zeta in H. rewrite En in H.
    apply andb_true_iff in H as [H H3]. apply andb_true_iff in H as [H1 H2].
    split; [intros E; rewrite E in H1; discriminate|]. split; [exact H2|].
    destruct (svcb_validate_key (svcb_key_text k)) as [[k' f]| |]; try discriminate.
    apply andb_true_iff in H3 as [A B]. apply Z.eqb_eq in A. apply Bool.eqb_prop in B. subst. reflexivity.
  - pose proof (named_in k En) as Hn. pose proof (dec_decimal k ltac:(lia)) as Hd.
    unfold svcb_key_text. rewrite assoc_value_none by exact Hn.
    split; [discriminate|]. split.
    { cbn [app forallb]. apply forallb_forall. intros c Hc. rewrite forallb_forall in Hd. specialize (Hd c Hc).
      unfold is_decimal in Hd. unfold keyc. lia. }
    assert (Hk0 : 0 < k) by (destruct (Z.eq_dec k 0) as [->|]; [exfalso; apply Hn; cbn; tauto|lia]).
    destruct (print_base_leading 10 base10 k Hk0) as (c & r & Ed & Hc). fold (dec k) in Ed.
    assert (Hz : starts_with [48] (dec k) = false /\ is_nil (dec k) = false).
    { rewrite Ed. unfold starts_with. cbn [length firstn zlist_eqb]. replace (c =? 48) with false by lia. auto. }
    destruct Hz as [Hz Hnil].
    unfold svcb_validate_key. rewrite map_app, (lower_decimal _ Hd).
    change (map lower_c [107; 101; 121]) with [107; 101; 121]. rewrite starts_with_app.
    change (skipn 3 ([107; 101; 121] ++ dec k)) with (dec k). rewrite Hz. cbn [andb].
    assert (Hrep : replace_char 45 95 ([107; 101; 121] ++ dec k) = [107; 101; 121] ++ dec k).
    { unfold replace_char. rewrite map_app. cbn [map Z.eqb]. f_equal. rewrite <- (map_id (dec k)) at 2.
      apply map_ext_in. intros x Hx. rewrite forallb_forall in Hd. specialize (Hd x Hx). unfold is_decimal in Hd.
      replace (x =? 45) with false by lia. reflexivity. }
    rewrite Hrep, map_app, (upper_decimal _ Hd). change (map upper_c [107; 101; 121]) with [75; 69; 89].
    destruct (assoc_text ([75; 69; 89] ++ dec k) svcb_keys) as [x|] eqn:E.
    { rewrite (assoc_text_numeric _ _ k x Hnum ltac:(lia) E). reflexivity. }
    rewrite starts_with_app. change (skipn 3 ([75; 69; 89] ++ dec k)) with (dec k).
    rewrite Hd, dec_value_dec by lia.
    rewrite Hnil. cbn [negb andb]. replace (k >? 65535) with false by lia. reflexivity.
Qed.

Lemma keyc_facts c : keyc c = true ->
  safe c = true /\ plainc c = true /\ (c =? 61) = false /\ (c =? 44) = false /\ (c =? 92) = false /\ is_decimal c = is_decimal c.
Proof.
  unfold keyc, plainc. intros H. split; [|repeat split; lia].
  unfold safe, is_delim.
  replace (c =? 32) with false by lia. replace (c =? 9) with false by lia.
  replace (c =? 10) with false by lia. replace (c =? 59) with false by lia.
  replace (c =? 40) with false by lia. replace (c =? 41) with false by lia.
  replace (c =? 34) with false by lia. replace (c =? 92) with false by lia. reflexivity.
Qed.

(* _unescape leaves a key text alone (no backslash, ASCII) *)
Lemma svcb_unescape_plain t : forallb (fun c => negb (c =? 92) && (0 <=? c) && (c <? 128)) t = true -> svcb_unescape t = Ok t.
Proof.
  induction t as [|c t IH]; intros H; [reflexivity|]. cbn [forallb] in H. apply andb_true_iff in H as [Hc H].
  cbn [svcb_unescape]. replace (c =? 92) with false by lia. unfold utf8_cp. replace (c <? 128) with true by lia.
  cbn [bind]. rewrite IH by exact H. reflexivity.
Qed.

Lemma split_join_comma cs : Forall (fun c => no_sep 44 c = true) cs -> cs <> [] ->
  split_on 44 (join_comma cs) [] = cs.
Proof.
  induction 1 as [|c cs Hc Hcs IH]; intros Hne; [congruence|].
  destruct cs as [|c2 cs].
  - cbn [join_comma]. rewrite split_on_last by exact Hc. reflexivity.
  - change (join_comma (c :: c2 :: cs)) with (c ++ 44 :: join_comma (c2 :: cs)).
    rewrite split_on_word by exact Hc. cbn [rev app]. rewrite IH by discriminate. reflexivity.
Qed.

Lemma plain_app a b : forallb plainc a = true -> forallb plainc b = true -> forallb plainc (a ++ b) = true.
Proof. intros. rewrite forallb_app. apply andb_true_iff. split; assumption. Qed.

Lemma join_comma_plain l : Forall (fun x => forallb plainc x = true) l -> forallb plainc (join_comma l) = true.
Proof.
  induction 1 as [|x l Hx _ IH]; [reflexivity|]. destruct l as [|y l]; [exact Hx|].
  change (join_comma (x :: y :: l)) with (x ++ [44] ++ join_comma (y :: l)).
  apply plain_app; [exact Hx|]. apply plain_app; [reflexivity|exact IH].
Qed.

Lemma keyc_plain t : forallb keyc t = true -> forallb plainc t = true /\ no_sep 44 t = true /\ all_ascii t = true.
Proof.
  induction t as [|c t IH]; intros H; [repeat split; reflexivity|]. cbn [forallb] in H. apply andb_true_iff in H as [Hc H].
  destruct (IH H) as (I1 & I2 & I3). unfold no_sep, all_ascii in *. cbn [forallb]. rewrite I1, I2, I3.
  unfold keyc in Hc. unfold plainc. repeat split.
  - replace ((32 <=? c) && (c <? 127) && negb (c =? 34) && negb (c =? 92)) with true by lia. reflexivity.
  - replace (negb (c =? 44)) with true by lia. reflexivity.
  - replace ((0 <=? c) && (c <? 128)) with true by lia. reflexivity.
Qed.

Lemma decimal_plain s : forallb is_decimal s = true -> forallb plainc s = true.
Proof.
  intros H. apply forallb_forall. intros c Hc. rewrite forallb_forall in H. specialize (H c Hc).
  unfold is_decimal in H. unfold plainc. lia.
Qed.

Lemma b64char_plain_all : forallb (fun v => plainc (b64char v)) (map Z.of_nat (seq 0 64)) = true.
Proof. vm_compute. reflexivity. Qed.
Lemma b64char_plain v : 0 <= v < 64 -> plainc (b64char v) = true.
Proof.
  intros Hv. pose proof b64char_plain_all as H. rewrite forallb_forall in H. apply H.
  rewrite <- (Z2Nat.id v) by lia. apply in_map. apply in_seq. lia.
Qed.

Lemma b64encode_plain d : all_bytes d = true -> forallb plainc (b64encode d) = true.
Proof.
  induction d as [|a|a b|a b c r IH] using list_ind3; intros Hd.
  - reflexivity.
  - cbn [all_bytes forallb] in Hd. rewrite andb_true_r in Hd. apply is_byte_range in Hd.
    cbn [b64encode forallb]. rewrite !b64char_plain by dlia. reflexivity.
  - cbn [all_bytes forallb] in Hd. apply andb_true_iff in Hd as [Ha Hd]. rewrite andb_true_r in Hd.
    apply is_byte_range in Ha. apply is_byte_range in Hd.
    cbn [b64encode forallb]. rewrite !b64char_plain by dlia. reflexivity.
  - cbn [all_bytes forallb] in Hd. apply andb_true_iff in Hd as [Ha Hd]. apply andb_true_iff in Hd as [Hb Hd].
    apply andb_true_iff in Hd as [Hc Hd]. apply is_byte_range in Ha. apply is_byte_range in Hb. apply is_byte_range in Hc.
    cbn [b64encode forallb]. rewrite !b64char_plain by dlia. rewrite (IH Hd). reflexivity.
Qed.

Lemma plain_facts t : forallb plainc t = true ->
  existsb (Z.eqb 92) t = false /\ all_ascii t = true.
Proof.
  induction t as [|c t IH]; intros H; [split; reflexivity|]. cbn [forallb] in H. apply andb_true_iff in H as [Hc H].
  destruct (IH H) as [I1 I2]. unfold all_ascii in *. cbn [existsb forallb]. rewrite I1, I2. unfold plainc in Hc.
  split; [replace (92 =? c) with false by lia; reflexivity|replace ((0 <=? c) && (c <? 128)) with true by lia; reflexivity].
Qed.

Lemma addrs_texts (v6 : bool) l : Forall (fun a => all_bytes a = true /\ length a = (if v6 then 16 else 4)%nat) l ->
  exists ts, map_res (if v6 then ipv6_ntoa else ipv4_ntoa) l = Ok ts /\
    Forall (fun t => no_sep 44 t = true /\ forallb safe t = true /\ t <> []) ts /\
    map_res (if v6 then ipv6_aton else ipv4_aton) ts = Ok l.
Proof.
  induction 1 as [|a l [Hb Hl] _ IH]; [exists []; repeat split; constructor|].
  destruct IH as (ts & E1 & F & E2).
  assert (Ha : exists t, (if v6 then ipv6_ntoa else ipv4_ntoa) a = Ok t /\ no_sep 44 t = true /\ forallb safe t = true /\ t <> []
                         /\ (if v6 then ipv6_aton else ipv4_aton) t = Ok a).
  { destruct v6.
    - destruct (ipv6_roundtrip a Hb Hl) as (t & En & Ea). exists t. split; [exact En|].
      destruct (ipv6_ntoa_word a t Hb En) as [S N]. repeat split; auto. apply (ipv6_ntoa_nocomma a t Hb En).
    - destruct (ipv4_roundtrip a Hb Hl) as (t & En & Ea). exists t. split; [exact En|].
      destruct (ipv4_ntoa_word a t Hb En) as [S N]. repeat split; auto. apply (ipv4_ntoa_nocomma a t Hb En). }
  destruct Ha as (t & En & Nc & S & N & Ea).
  exists (t :: ts). cbn [map_res]. rewrite En, E1, Ea, E2. cbn [bind]. repeat split; auto.
Qed.

(* printable ASCII without quote / backslash from "safe" and the address alphabets: addresses are made of
   hexadecimal digits, ":" and "." *)
Definition addrc (c : Z) : bool := is_hexdigit c || (c =? 58) || (c =? 46).

Lemma addrc_plain c : addrc c = true -> plainc c = true.
Proof. unfold addrc, is_hexdigit, plainc. intros H. lia. Qed.

From DV Require Import Proofs.TokUtf8.
Require Import Coq.Sorting.Sorted.

Lemma safe_not c : safe c = true -> c <> 34 /\ c <> 10 /\ c <> 92.
Proof.
  unfold safe, is_delim. intros H. apply andb_true_iff in H as [H1 H2]. apply negb_true_iff in H1. apply negb_true_iff in H2.
  repeat (apply orb_false_iff in H1 as [H1 ?]). lia.
Qed.

Lemma safe_qbody t : forallb safe t = true -> qbody t.
Proof.
  induction t as [|c t IH]; intros H; [constructor|]. cbn [forallb] in H. apply andb_true_iff in H as [Hc H].
  destruct (safe_not c Hc) as (A & B & C). apply qb_plain; auto.
Qed.

Lemma plain_qbody t : forallb plainc t = true -> qbody t.
Proof.
  induction t as [|c t IH]; intros H; [constructor|]. cbn [forallb] in H. apply andb_true_iff in H as [Hc H].
  unfold plainc in Hc. apply qb_plain; auto; lia.
Qed.

Definition value_ok (k : Z) (v : pval) : Prop :=
  match v with
  | PNone => svcb_never k = false
  | PKeys l => k = 0 /\ l <> [] /\ StronglySorted Z.lt l /\ Forall (fun m => 1 <= m <= 65535) l
  | PStrs ids => (k = 1 \/ k = 10) /\ ids <> [] /\ Forall (fun i => all_bytes i = true /\ i <> [] /\ zlen i <= 255) ids
  | PPort p => k = 3 /\ 0 <= p <= 65535
  | PAddrs v6 l => k = (if v6 then 6 else 4) /\ l <> [] /\
                   Forall (fun a => all_bytes a = true /\ length a = (if v6 then 16 else 4)%nat) l
  | PEch b => k = 5 /\ all_bytes b = true
  | PGen b => svcb_known k = false /\ all_bytes b = true /\ b <> []
  end.

Lemma sorted_nodup l : StronglySorted Z.lt l -> has_dup_sorted l = false.
Proof.
  induction 1 as [|a l Hs IH Ha]; [reflexivity|]. destruct l as [|b r]; [reflexivity|].
  cbn [has_dup_sorted]. inversion Ha; subst. replace (a =? b) with false by lia. exact IH.
Qed.

Lemma keys_texts l : Forall (fun m => 1 <= m <= 65535) l ->
  Forall (fun t => no_sep 44 t = true) (map svcb_key_text l) /\
  Forall (fun t => forallb plainc t = true) (map svcb_key_text l) /\
  map_res (fun t => do e <- utf8_encode t; do kf <- svcb_validate_key e; Ok (fst kf)) (map svcb_key_text l) = Ok l.
Proof.
  induction 1 as [|m l Hm _ IH]; [repeat split; constructor|]. destruct IH as (I1 & I2 & I3).
  destruct (key_facts m ltac:(lia)) as (N & K & V). destruct (keyc_plain _ K) as (P & C & A).
  cbn [map]. split; [constructor; assumption|]. split; [constructor; assumption|].
  cbn [map_res]. rewrite utf8_ascii by exact A. cbn [bind]. rewrite V. cbn [bind fst]. rewrite I3. reflexivity.
Qed.

(* what to_text prints for a value is a quoted body that from_value reads back *)
Theorem value_roundtrip k v : value_ok k v ->
  match v with
  | PNone => pval_text v = Ok None
  | _ => exists body, pval_text v = Ok (Some (34 :: body ++ [34])) /\ qbody body /\
           (svcb_known k = true \/ k = 7 -> svcb_from_value k body = Ok v) /\
           (forall b, v = PGen b -> svcb_unescape body = Ok b)
  end.
Proof.
  destruct v as [|l|ids|p|v6 l|b|b]; cbn [value_ok]; intros H.
  - reflexivity.
  - (* mandatory *)
    destruct H as (-> & Hne & Hs & Hr). destruct (keys_texts l Hr) as (C & P & M).
    exists (join_comma (map svcb_key_text l)). split; [reflexivity|]. split; [apply plain_qbody, join_comma_plain, P|].
    split; [|intros b E; discriminate]. intros _. unfold svcb_from_value. cbn [Z.eqb].
    rewrite (split_join_comma _ C) by (destruct l; [congruence|discriminate]). rewrite M. cbn [bind].
    rewrite (sort_sorted l Hs). rewrite (sorted_nodup l Hs).
    replace (existsb (Z.eqb 0) l) with false; [reflexivity|].
    symmetry. apply not_true_is_false. intros E. apply existsb_exists in E as (x & Hx & Ex). rewrite Forall_forall in Hr.
    specialize (Hr x Hx). lia.
  - (* alpn / docpath *)
    destruct H as (Hk & Hne & Hids).
    set (x := join_comma (map svcb_escapify ids)).
    assert (Hx : all_bytes x = true).
    { apply join_comma_bytes. clear - Hids. induction Hids as [|i l (A & _) _ IH]; constructor; [apply svcb_escapify_bytes, A|exact IH]. }
    exists (escapify x). split; [reflexivity|]. split; [apply escapify_qbody, Hx|]. split; [|intros b E; discriminate].
    intros _. unfold svcb_from_value.
    assert (Hk0 : (k =? 0) = false) by (destruct Hk; subst; reflexivity). rewrite Hk0.
    replace ((k =? 1) || (k =? 10)) with true by (destruct Hk; subst; reflexivity).
    assert (Hxne : x <> []).
    { unfold x. destruct ids as [|i r]; [congruence|]. inversion Hids as [|? ? (A & N & L) _]; subst.
      destruct i as [|c i]; [congruence|]. destruct r; cbn [map join_comma svcb_escapify flat_map];
        destruct ((c =? 44) || (c =? 92)); discriminate. }
    rewrite (escapify_nonempty x Hxne), svcb_unescape_escapify by exact Hx. cbn [bind]. unfold x. rewrite svcb_split_join by exact Hne. cbn [bind].
    replace (existsb (fun i => is_nil i || (zlen i >? 255)) ids) with false; [reflexivity|].
    symmetry. apply not_true_is_false. intros E. apply existsb_exists in E as (i & Hi & Ei). rewrite Forall_forall in Hids.
    destruct (Hids i Hi) as (A & N & L). destruct i; [congruence|]. cbn [is_nil orb] in Ei. lia.
  - (* port *)
    destruct H as (-> & Hp). exists (dec p). split; [reflexivity|].
    split; [apply plain_qbody, decimal_plain, dec_decimal; lia|]. split; [|intros b E; discriminate].
    intros _. unfold svcb_from_value. cbn [Z.eqb orb]. rewrite py_int_dec by lia.
    replace ((p <? 0) || (p >? 65535)) with false by lia. reflexivity.
  - (* address hints *)
    destruct H as (-> & Hne & Hl). destruct (addrs_texts v6 l Hl) as (ts & E1 & F & E2).
    cbn [pval_text]. rewrite E1. cbn [bind]. exists (join_comma ts). split; [reflexivity|].
    assert (Hts : ts <> []) by (destruct l; [congruence|]; destruct ts; [cbn [map_res] in E2; discriminate|discriminate]).
    split.
    { apply safe_qbody. clear - F. induction F as [|t ts (_ & S & _) _ IH]; [reflexivity|]. destruct ts as [|t2 ts]; [exact S|].
      change (join_comma (t :: t2 :: ts)) with (t ++ [44] ++ join_comma (t2 :: ts)).
      apply safe_app; [exact S|apply safe_app; [reflexivity|exact IH]]. }
    split; [|intros b E; discriminate]. intros _. unfold svcb_from_value.
    assert (Hsp : split_on 44 (join_comma ts) [] = ts).
    { apply split_join_comma; [|exact Hts]. eapply Forall_impl; [|exact F]. intros t (A & _); exact A. }
    destruct v6; cbn [Z.eqb orb]; rewrite Hsp, E2; reflexivity.
  - (* ech *)
    destruct H as (-> & Hb). exists (b64encode b). split; [reflexivity|].
    pose proof (b64encode_plain b Hb) as P. split; [apply plain_qbody, P|]. split; [|intros b0 E; discriminate].
    intros _. unfold svcb_from_value. cbn [Z.eqb orb]. destruct (plain_facts _ P) as [N A]. rewrite N.
    rewrite utf8_ascii by exact A. cbn [bind]. rewrite b64decode_b64encode by exact Hb. reflexivity.
  - (* generic *)
    destruct H as (Hk & Hb & Hne). exists (escapify b). split; [reflexivity|]. split; [apply escapify_qbody, Hb|].
    split.
    + intros [Hkn| ->]; [congruence|]. unfold svcb_from_value. cbn [Z.eqb orb]. rewrite (escapify_nonempty b Hne).
      rewrite svcb_unescape_escapify by exact Hb. reflexivity.
    + intros b0 E. inversion E; subst. apply svcb_unescape_escapify, Hb.
Qed.

(* D. one parameter in the token stream *)
Lemma get_wl_quote r : get (stq false (34 :: r)) true false = get0 (stq false (34 :: r)).
Proof. reflexivity. Qed.

Lemma split_once_none sep s : no_sep sep s = true -> split_once sep s = None.
Proof.
  induction s as [|c s IH]; intros H; [reflexivity|]. unfold no_sep in H. cbn [forallb] in H. apply andb_true_iff in H as [Hc H].
  apply negb_true_iff in Hc. cbn [split_once]. rewrite Hc. rewrite (IH H). reflexivity.
Qed.

Lemma keytext_facts k : 0 <= k <= 65535 ->
  let t := svcb_key_text k in
  t <> [] /\ forallb safe t = true /\ no_sep 61 t = true /\ svcb_unescape t = Ok t /\
  svcb_validate_key t = Ok (k, negb (named k)).
Proof.
  intros Hk. cbv zeta. destruct (key_facts k Hk) as (N & K & V). split; [exact N|].
  assert (F : forall c, In c (svcb_key_text k) -> keyc c = true) by (rewrite forallb_forall in K; exact K).
  split; [apply forallb_forall; intros c Hc; apply (keyc_facts c (F c Hc))|].
  split; [unfold no_sep; apply forallb_forall; intros c Hc; destruct (keyc_facts c (F c Hc)) as (_ & _ & E & _); rewrite E; reflexivity|].
  split; [|exact V]. apply svcb_unescape_plain. apply forallb_forall. intros c Hc. specialize (F c Hc). unfold keyc in F. lia.
Qed.

Lemma named_known k : named k = true -> svcb_known k = true \/ k = 7.
Proof.
  unfold named, svcb_keys. cbn [existsb snd]. unfold svcb_known. intros H.
  repeat (apply orb_true_iff in H as [H|H]; [apply Z.eqb_eq in H; subst; auto|]). discriminate.
Qed.

Lemma known_named k : named k = false -> svcb_known k = false.
Proof.
  unfold named, svcb_keys, svcb_known. cbn [existsb snd]. intros H.
  repeat (apply orb_false_iff in H as [? H]). repeat (apply orb_false_iff; split); try assumption; lia.
Qed.

Definition param_ok (kv : Z * pval) : Prop := 0 <= fst kv <= 65535 /\ value_ok (fst kv) (snd kv).

(* svcb_define on what the tokenizer hands over for a printed parameter *)
Lemma define_printed acc k v body : 0 <= k <= 65535 -> value_ok k v ->
  existsb (fun kv => fst kv =? k) acc = false ->
  match v with
  | PNone => svcb_define acc (svcb_key_text k) None = Ok (acc ++ [(k, v)])
  | _ => pval_text v = Ok (Some (34 :: body ++ [34])) ->
         (svcb_known k = true \/ k = 7 -> svcb_from_value k body = Ok v) ->
         (forall b, v = PGen b -> svcb_unescape body = Ok b) ->
         svcb_define acc (svcb_key_text k) (Some body) = Ok (acc ++ [(k, v)])
  end.
Proof.
  intros Hk Hv Hacc. destruct (keytext_facts k Hk) as (_ & _ & _ & U & V). unfold svcb_define. rewrite U. cbn [bind]. rewrite V.
  cbn [bind]. rewrite Hacc.
  destruct v as [|l|ids|p|v6 l|b|b]; cbn [value_ok] in Hv.
  - rewrite Hv. reflexivity.
  - intros _ F _. destruct Hv as (-> & _). cbn [named svcb_keys existsb snd Z.eqb orb negb]. rewrite F by (left; reflexivity). reflexivity.
  - intros _ F _. destruct Hv as (Hk1 & _).
    assert (Hn : named k = true) by (destruct Hk1; subst; reflexivity). rewrite Hn. cbn [negb].
    rewrite F by (left; destruct Hk1; subst; reflexivity). reflexivity.
  - intros _ F _. destruct Hv as (-> & _). cbn [named svcb_keys existsb snd Z.eqb orb negb]. rewrite F by (left; reflexivity). reflexivity.
  - intros _ F _. destruct Hv as (-> & _).
    assert (Hn : named (if v6 then 6 else 4) = true) by (destruct v6; reflexivity). rewrite Hn. cbn [negb].
    rewrite F by (left; destruct v6; reflexivity). reflexivity.
  - intros _ F _. destruct Hv as (-> & _). cbn [named svcb_keys existsb snd Z.eqb orb negb]. rewrite F by (left; reflexivity). reflexivity.
  - intros _ F G. destruct Hv as (Hkn & Hb & Hne). destruct (named k) eqn:En; cbn [negb].
    + destruct (named_known k En) as [Hc| ->]; [congruence|]. rewrite F by (right; reflexivity). reflexivity.
    + rewrite Hkn. rewrite (G b eq_refl). cbn [bind]. destruct b; [congruence|reflexivity].
Qed.

Definition ptext_shape (kv : Z * pval) (pt : list Z) : Prop := svcb_param_text kv = Ok pt.

(* one turn of the parameter loop on " " ++ the printed parameter *)
Lemma param_step f q acc kv pt rest : param_ok kv -> svcb_param_text kv = Ok pt ->
  existsb (fun x => fst x =? fst kv) acc = false ->
  (rest = [] \/ exists c r, rest = c :: r /\ is_delim false c = true) ->
  exists q', svcb_params_loop (S f) (stq q ([32] ++ pt ++ rest)) acc = svcb_params_loop f (stq q' rest) (acc ++ [kv]).
Proof.
  destruct kv as [k v]. intros (Hk & Hv) Hpt Hacc Hrest. cbn [fst snd] in *.
  destruct (keytext_facts k Hk) as (N & S & E61 & _ & _). cbv zeta in N, S, E61.
  pose proof (value_roundtrip k v Hv) as VR. pose proof (define_printed acc k v) as DP.
  unfold svcb_param_text in Hpt. cbn [fst snd] in Hpt.
  destruct v as [|l|ids|p|v6 l|b|b].
  1:{ (* key without value *)
    rewrite VR in Hpt. cbn [bind] in Hpt. inversion Hpt; subst pt. rewrite app_nil_r.
    exists false. cbn [svcb_params_loop].
    rewrite (get0_word_q q [32] (svcb_key_text k) rest eq_refl (units_safe _ S) N Hrest). cbn [bind].
    unfold is_eol_or_eof, is_identifier. cbn [ttype tvalue]. change (tIDENT =? tEOL) with false. change (tIDENT =? tEOF) with false.
    change (tIDENT =? tIDENT) with true. cbn [orb negb].
    rewrite (split_once_none 61 _ E61). rewrite (DP [] Hk Hv Hacc). reflexivity. }
  all: destruct VR as (body & Ept & Hq & F & G); rewrite Ept in Hpt; cbn [bind] in Hpt; inversion Hpt; subst pt; clear Hpt.
  all: exists true; cbn [svcb_params_loop].
  all: replace ([32] ++ (svcb_key_text k ++ 61 :: 34 :: body ++ [34]) ++ rest)
         with ([32] ++ (svcb_key_text k ++ [61]) ++ (34 :: body ++ 34 :: rest))
         by (rewrite <- !app_assoc; cbn [app]; rewrite <- !app_assoc; reflexivity).
  all: assert (S1 : forallb safe (svcb_key_text k ++ [61]) = true) by (rewrite forallb_app, S; reflexivity).
  all: rewrite (get0_word_q q [32] (svcb_key_text k ++ [61]) (34 :: body ++ 34 :: rest) eq_refl (units_safe _ S1)
                  ltac:(destruct (svcb_key_text k); discriminate)
                  ltac:(right; exists 34, (body ++ 34 :: rest); split; reflexivity)).
  all: cbn [bind]; unfold is_eol_or_eof, is_identifier; cbn [ttype tvalue].
  all: change (tIDENT =? tEOL) with false; change (tIDENT =? tEOF) with false; change (tIDENT =? tIDENT) with true; cbn [orb negb].
  all: rewrite (split_once_app 61 (svcb_key_text k) []) by exact E61.
  all: cbn [is_nil]; rewrite get_wl_quote.
  all: destruct (get0_quoted_body_q false [] body rest eq_refl Hq) as (he & EQ); cbn [app] in EQ; rewrite EQ.
  all: cbn [bind fst snd]; unfold is_quoted; cbn [ttype tvalue]; change (tQUOTED =? tQUOTED) with true; cbn [negb].
  all: rewrite (DP body Hk Hv Hacc Ept F G); reflexivity.
Qed.

Lemma not_in_acc (acc : list (Z * pval)) k : ~ In k (map fst acc) -> existsb (fun x => fst x =? k) acc = false.
Proof.
  intros H. apply not_true_is_false. intros E. apply existsb_exists in E as (x & Hx & Ex). apply Z.eqb_eq in Ex.
  apply H. rewrite <- Ex. apply in_map, Hx.
Qed.

Lemma params_loop_ok ps : Forall param_ok ps -> forall pts, map_res svcb_param_text ps = Ok pts ->
  forall acc q fuel rest, line_end rest -> NoDup (map fst (acc ++ ps)) -> (length ps < fuel)%nat ->
  exists te st, is_eol_or_eof te = true /\ ungot st = Some te /\
    svcb_params_loop fuel (stq q (spaced pts ++ rest)) acc = Ok (acc ++ ps, st).
Proof.
  induction 1 as [|kv ps Hkv _ IH]; intros pts Hp acc q fuel rest Hrest Hnd Hfuel.
  - inversion Hp; subst pts. destruct fuel as [|f]; [cbn in Hfuel; lia|].
    destruct (get0_end_q q [] rest eq_refl Hrest) as (t & st & Ht & _ & _ & Hug & E). cbn [app] in E.
    cbn [spaced flat_map app svcb_params_loop]. rewrite E. cbn [bind]. rewrite Ht. unfold unget. rewrite Hug. cbn [bind].
    do 2 eexists. split; [exact Ht|]. split; [|rewrite app_nil_r; reflexivity]. reflexivity.
  - cbn [map_res] in Hp. destruct (svcb_param_text kv) as [pt| |] eqn:E1; cbn [bind] in Hp; try discriminate.
    destruct (map_res svcb_param_text ps) as [pts'| |] eqn:E2; cbn [bind] in Hp; try discriminate. inversion Hp; subst pts.
    destruct fuel as [|f]; [cbn in Hfuel; lia|]. cbn [length] in Hfuel.
    assert (Hfresh : existsb (fun x => fst x =? fst kv) acc = false).
    { apply not_in_acc. rewrite map_app in Hnd. cbn [map] in Hnd. apply NoDup_remove_2 in Hnd.
      intros Hin. apply Hnd. apply in_or_app. left. exact Hin. }
    assert (Hnext : (spaced pts' ++ rest = []) \/ exists c r, spaced pts' ++ rest = c :: r /\ is_delim false c = true).
    { destruct pts' as [|p2 pts'']; cbn [spaced flat_map app].
      - destruct Hrest as [->|[r ->]]; [left; reflexivity|right; exists 10, r; split; reflexivity].
      - right. eexists 32, _. split; reflexivity. }
    unfold spaced. cbn [flat_map]. fold (spaced pts').
    replace (((32 :: pt) ++ spaced pts') ++ rest) with ([32] ++ pt ++ (spaced pts' ++ rest))
      by (cbn [app]; rewrite <- app_assoc; reflexivity).
    destruct (param_step f q acc kv pt (spaced pts' ++ rest) Hkv E1 Hfresh Hnext) as (q' & Estep). rewrite Estep.
    destruct (IH pts' eq_refl (acc ++ [kv]) q' f rest Hrest) as (te & st & T1 & T2 & E).
    { rewrite <- app_assoc. exact Hnd. }
    { lia. }
    exists te, st. split; [exact T1|]. split; [exact T2|]. rewrite E. rewrite <- app_assoc. reflexivity.
Qed.

Lemma map_res_length {A B} (f : A -> res B) l : forall r, map_res f l = Ok r -> length r = length l.
Proof.
  induction l as [|a l IH]; intros r H; cbn [map_res] in H; [inversion H; reflexivity|].
  destruct (f a); cbn [bind] in H; try discriminate. destruct (map_res f l) as [t| |]; cbn [bind] in H; try discriminate.
  inversion H; subst. cbn [length]. rewrite (IH t eq_refl). reflexivity.
Qed.

Definition svcb_ok (p : Z) (n : name) (ps : list (Z * pval)) : Prop :=
  0 <= p <= 65535 /\ Valid n /\ AllBytes n /\ Forall param_ok ps /\ NoDup (map fst ps) /\
  (p = 0 -> ps = []) /\ svcb_ctor_ok ps = true.

(* from the state reached after the priority token *)
Theorem svcb_after_priority sty c p n n' ps tgt pts R stX :
  svcb_ok p n ps -> oAllBytes (s_origin sty) -> line_end R ->
  name_to_styled_text sty n = Ok tgt -> name_path sty c n = Ok n' -> map_res svcb_param_text ps = Ok pts ->
  get0 stX = Ok (utok (dec p), stq false ([32] ++ tgt ++ (spaced pts ++ R))) ->
  exists te st, is_eol_or_eof te = true /\ ungot st = Some te /\ svcb_from_text c stX = Ok (p, n', ps, st).
Proof.
  intros (Hp & V & HB & Hps & Hnd & Halias & Hctor) HO HR Etgt Enp Epts HX.
  assert (Hw : units tgt /\ tgt <> []).
  { unfold name_to_styled_text in Etgt.
    destruct (choose_relativity n (s_origin sty) (s_relativize sty)) as [n1| |] eqn:E3; cbn [bind] in Etgt; try discriminate.
    inversion Etgt; subst tgt. destruct (choose_relativity_ok _ _ _ _ V HB HO E3) as [V1 B1].
    destruct (name_text_word n1 V1 B1) as (Hu & Hne & _). split; assumption. }
  destruct Hw as [Hu Hne].
  unfold svcb_from_text.
  rewrite (get_uint_from p max16 stX _ ltac:(unfold max16; lia) HX). cbn [bind fst snd].
  rewrite (get_name_word c false [32] tgt (spaced pts ++ R) eq_refl Hu Hne (spaced_word_end pts R HR)).
  unfold utok. rewrite (as_name_printed sty c n tgt (has_bs tgt) V HB HO Etgt). rewrite Enp. cbn [bind fst snd].
  destruct (p =? 0) eqn:E0.
  - apply Z.eqb_eq in E0. rewrite (Halias E0) in *. inversion Epts; subst pts. cbn [spaced flat_map app].
    destruct (get0_end_q false [] R eq_refl HR) as (te & st & H1 & H2 & H3 & H4 & E). cbn [app] in E.
    rewrite E. cbn [bind fst snd]. rewrite H1. cbn [negb].
    destruct (eol_not_ws te H1) as [A B].
    destruct (get0_unget _ _ H4 A B) as (stu & U1 & U2). rewrite U1. cbn [bind].
    unfold rem_fuel. cbn [svcb_params_loop]. rewrite U2. cbn [bind]. rewrite H1. rewrite U1. cbn [bind fst snd].
    exists te, stu. split; [exact H1|]. split; [|reflexivity].
    unfold unget in U1. rewrite H4 in U1. inversion U1. reflexivity.
  - cbn [bind].
    destruct (params_loop_ok ps Hps pts Epts [] false (rem_fuel (stq false (spaced pts ++ R))) R HR Hnd) as (te & st & T1 & T2 & E).
    { unfold rem_fuel, stq. cbn [inp pend app]. rewrite app_length. pose proof (spaced_length pts).
      rewrite (map_res_length _ _ _ Epts) in H. lia. }
    rewrite E. cbn [bind fst snd app]. rewrite Hctor. exists te, st. split; [exact T1|]. split; [exact T2|reflexivity].
Qed.
