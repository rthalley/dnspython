(* C01: Name.to_text / dns.name.from_text are exact inverses; from_text never raises a
   Python-level exception. *)
From DV Require Import Base.Prelude Model.NameM Proofs.NameValid.
Open Scope Z_scope.

Definition AllBytes (n : name) : Prop := Forall (fun l => Forall (fun c => 0 <= c < 256) l) n.

(* outside an escape the digit counter and the running total are dead *)
Lemma ft_irrel : forall t L lab ed tot ed' tot',
  ft_loop t L lab false ed tot = ft_loop t L lab false ed' tot'.
Proof.
  induction t as [|c t IH]; intros; [reflexivity|].
  cbn [ft_loop]. destruct (c =? 46).
  - destruct lab; [reflexivity|apply IH].
  - destruct (c =? 92); [reflexivity|apply IH].
Qed.

Lemma escaped_not_digit c : escaped c = true -> is_digit c = false.
Proof.
  unfold escaped. intros H.
  repeat (apply orb_true_iff in H; destruct H as [H|H]); apply Z.eqb_eq in H; subst; reflexivity.
Qed.

Lemma escaped_false c : escaped c = false -> c <> 46 /\ c <> 92 /\ c <> 64.
Proof. intros H. repeat split; intros ->; discriminate H. Qed.

(* the three decimal digits of \DDD, as characters *)
Lemma ddd_digits c : 0 <= c < 256 ->
  48 <= 48 + c / 100 <= 57 /\ 48 <= 48 + (c / 10) mod 10 <= 57 /\ 48 <= 48 + c mod 10 <= 57 /\
  ((48 + c / 100 - 48) * 10 + (48 + (c / 10) mod 10 - 48)) * 10 + (48 + c mod 10 - 48) = c.
Proof. intros. Z.to_euclidean_division_equations. lia. Qed.

(* one octet: parsing its escaped form appends exactly that octet (every value 0..255) *)
Lemma ft_octet c t L lab : 0 <= c < 256 ->
  ft_loop (esc_octet c ++ t) L lab false 0%nat 0 = ft_loop t L (c :: lab) false 0%nat 0.
Proof.
  intros Hc. unfold esc_octet.
  destruct (escaped c) eqn:E.
  - cbn [app ft_loop]. change (92 =? 46) with false. change (92 =? 92) with true. cbn iota.
    rewrite (escaped_not_digit _ E). reflexivity.
  - destruct (escaped_false _ E) as (H46 & H92 & _).
    destruct ((c >? 32) && (c <? 127)) eqn:P.
    + cbn [app ft_loop].
      replace (c =? 46) with false by (symmetry; apply Z.eqb_neq; exact H46).
      replace (c =? 92) with false by (symmetry; apply Z.eqb_neq; exact H92). reflexivity.
    + destruct (ddd_digits c Hc) as (D1 & D2 & D3 & Ec). revert D1 D2 D3 Ec.
      generalize (48 + c / 100) (48 + (c / 10) mod 10) (48 + c mod 10). intros d1 d2 d3 D1 D2 D3 Ec.
      cbn [app ft_loop]. change (92 =? 46) with false. change (92 =? 92) with true. cbn iota.
      unfold is_digit.
      replace ((48 <=? d1) && (d1 <=? 57)) with true by lia.
      replace ((48 <=? d2) && (d2 <=? 57)) with true by lia.
      replace ((48 <=? d3) && (d3 <=? 57)) with true by lia.
      cbn [negb]. rewrite Ec. replace (c >? 255) with false by lia. apply ft_irrel.
Qed.

Lemma ft_label : forall l t L lab, Forall (fun c => 0 <= c < 256) l ->
  ft_loop (escapify l ++ t) L lab false 0%nat 0 = ft_loop t L (rev l ++ lab) false 0%nat 0.
Proof.
  induction l as [|c l IH]; intros t L lab H; [reflexivity|].
  inversion H; subst. unfold escapify. cbn [flat_map]. rewrite <- app_assoc.
  rewrite ft_octet by assumption. fold (escapify l). rewrite IH by assumption.
  cbn [rev]. rewrite <- app_assoc. reflexivity.
Qed.

Lemma ft_dot t L lab : lab <> [] ->
  ft_loop (46 :: t) L lab false 0%nat 0 = ft_loop t (rev lab :: L) [] false 0%nat 0.
Proof. intros H. cbn [ft_loop]. change (46 =? 46) with true. cbn iota. destruct lab; [congruence|reflexivity]. Qed.

Lemma rev_ne {A} (l : list A) : l <> [] -> rev l <> [].
Proof. destruct l; [congruence|]. intros _ H. apply (f_equal (@length _)) in H. rewrite rev_length in H. discriminate. Qed.

(* all labels of a name joined with dots *)
Lemma ft_join : forall (n : name) L, AllBytes n ->
  Forall (fun l => l <> []) (removelast n) ->
  ft_loop (join_dot (map escapify n)) L [] false 0%nat 0 =
    Ok (rev (removelast n) ++ L, rev (last n []), false).
Proof.
  induction n as [|x n IH]; intros L HB HE; [reflexivity|].
  inversion HB; subst.
  destruct n as [|y r].
  - cbn [map join_dot removelast last rev app].
    rewrite <- (app_nil_r (escapify x)). rewrite ft_label by assumption. rewrite app_nil_r. reflexivity.
  - rewrite removelast_cons2 in HE. inversion HE; subst.
    change (join_dot (map escapify (x :: y :: r)))
      with (escapify x ++ 46 :: join_dot (map escapify (y :: r))).
    rewrite ft_label by assumption. rewrite app_nil_r.
    rewrite ft_dot by (apply rev_ne; assumption). rewrite rev_involutive.
    rewrite IH by assumption.
    rewrite removelast_cons2. cbn [rev]. rewrite <- app_assoc. reflexivity.
Qed.

Lemma at_match (text : list Z) : text <> [64] -> match text with [64] => [] | _ => text end = text.
Proof.
  intros H. destruct text as [|z l]; [reflexivity|].
  destruct l as [|z2 l].
  - destruct z as [|p|p]; try reflexivity.
    do 7 (destruct p as [p|p|]; try reflexivity). congruence.
  - destruct z as [|p|p]; try reflexivity.
    do 7 (destruct p as [p|p|]; try reflexivity).
Qed.

Lemma dot_match {B} (text : list Z) (x y : B) : text <> [46] ->
  match text with [46] => x | _ => y end = y.
Proof.
  intros H. destruct text as [|z l]; [reflexivity|].
  destruct l as [|z2 l].
  - destruct z as [|p|p]; try reflexivity.
    do 6 (destruct p as [p|p|]; try reflexivity). congruence.
  - destruct z as [|p|p]; try reflexivity.
    do 6 (destruct p as [p|p|]; try reflexivity).
Qed.

Definition finish (labels : name) (origin : option name) : res name :=
  mk_name (if negb (ends_with_root labels)
           then match origin with Some o => labels ++ o | None => labels end
           else labels).

(* from_text as the parse of the labels followed by `finish`; "@" and "." are the two texts
   the escape loop never sees *)
Definition ft_labels (t : list Z) : res name :=
  match ft_loop t [] [] false 0%nat 0 with
  | Ok (labels, lab, esc) => if esc then Lib eBadEscape else Ok (rev (rev lab :: labels))
  | Lib e => Lib e
  | Internal e => Internal e
  end.

Definition text_labels (t : list Z) : res name :=
  if list_eq_dec Z.eq_dec t [46] then Ok [[]]
  else match t with [] => Ok [] | _ => ft_labels t end.

Lemma from_text_eq text origin :
  from_text text origin =
    do labels <- text_labels (if list_eq_dec Z.eq_dec text [64] then [] else text); finish labels origin.
Proof.
  destruct (list_eq_dec Z.eq_dec text [64]) as [->|H64]; [reflexivity|].
  unfold text_labels. destruct (list_eq_dec Z.eq_dec text [46]) as [->|H46]; [reflexivity|].
  unfold from_text. cbv zeta. rewrite at_match, dot_match by assumption. destruct text; reflexivity.
Qed.

Lemma from_text_generic text origin : text <> [64] -> text <> [46] -> text <> [] ->
  from_text text origin =
    match ft_loop text [] [] false 0%nat 0 with
    | Ok (labels, lab, esc) => if esc then Lib eBadEscape else finish (rev (rev lab :: labels)) origin
    | Lib e => Lib e
    | Internal e => Internal e
    end.
Proof.
  intros H64 H46 Hne. rewrite from_text_eq. unfold text_labels, ft_labels.
  destruct (list_eq_dec Z.eq_dec text [64]); [contradiction|].
  destruct (list_eq_dec Z.eq_dec text [46]); [contradiction|].
  destruct text; [contradiction|]. destruct (ft_loop _ _ _ _ _ _) as [[[labels lab] []]| |]; reflexivity.
Qed.

Lemma ends_with_root_abs (n : name) : ends_with_root n = is_absolute n.
Proof.
  unfold ends_with_root. destruct n as [|l n] using rev_ind; [reflexivity|].
  rewrite rev_app_distr, is_absolute_last. cbn. destruct l; reflexivity.
Qed.

(* the first character of the text of a non-empty label *)
Lemma esc_octet_head c : exists h r, esc_octet c = h :: r /\ h <> 64 /\ h <> 46.
Proof.
  unfold esc_octet. destruct (escaped c) eqn:E.
  - exists 92, [c]. repeat split; discriminate.
  - destruct (_ && _).
    + destruct (escaped_false _ E) as (? & ? & ?). exists c, []. auto.
    + eexists 92, _. repeat split; discriminate.
Qed.

Lemma join_head (x : label) (n : name) : x <> [] ->
  exists h r, join_dot (map escapify (x :: n)) = h :: r /\ h <> 64 /\ h <> 46.
Proof.
  intros Hx. destruct x as [|c x]; [congruence|].
  destruct (esc_octet_head c) as (h & r & E & H1 & H2).
  destruct n as [|y n].
  - cbn [map join_dot]. unfold escapify. cbn [flat_map]. rewrite E. cbn [app]. eauto.
  - change (join_dot (map escapify ((c :: x) :: y :: n)))
      with (escapify (c :: x) ++ 46 :: join_dot (map escapify (y :: n))).
    unfold escapify at 1. cbn [flat_map]. rewrite E. cbn [app]. eauto.
Qed.

(* the labels of a printed name, read back; the empty name prints as "@" *)
Lemma to_text_labels (n : name) : Valid n -> AllBytes n ->
  text_labels (if list_eq_dec Z.eq_dec (to_text n) [64] then [] else to_text n) = Ok n.
Proof.
  intros V HB. unfold name, label in *.
  destruct n as [|x n]; [reflexivity|].
  destruct x as [|c x].
  { (* an empty first label: only the root name is valid *)
    destruct n as [|y n]; [reflexivity|]. exfalso. eapply Valid_head_nonempty; eauto. }
  destruct (join_head (c :: x) n) as (h & r & E & H64 & H46); [discriminate|].
  change (to_text ((c :: x) :: n) = h :: r) in E. unfold text_labels.
  destruct (list_eq_dec _ _ [64]) as [X|_]; [rewrite E in X; congruence|].
  destruct (list_eq_dec _ _ [46]) as [X|_]; [rewrite E in X; congruence|].
  destruct (to_text _) eqn:J; [discriminate|]. rewrite <- J. unfold ft_labels.
  change (to_text ((c :: x) :: n)) with (join_dot (map escapify ((c :: x) :: n))).
  destruct V as (_ & _ & V3). rewrite ft_join by assumption. cbn iota.
  rewrite app_nil_r, rev_involutive.
  change (last ((c :: x) :: n) [] :: rev (removelast ((c :: x) :: n)))
    with (rev [last ((c :: x) :: n) []] ++ rev (removelast ((c :: x) :: n))).
  rewrite <- rev_app_distr, rev_involutive, <- app_removelast_last by discriminate. reflexivity.
Qed.

Theorem text_roundtrip_origin (n : name) (origin : option name) :
  Valid n -> AllBytes n ->
  from_text (to_text n) origin =
    if is_absolute n then Ok n
    else match origin with Some o => mk_name (n ++ o) | None => Ok n end.
Proof.
  intros V HB. rewrite from_text_eq, to_text_labels by assumption. cbn [bind]. unfold finish.
  rewrite ends_with_root_abs. destruct (is_absolute n); cbn [negb]; [apply mk_name_valid, V|].
  destruct origin; [reflexivity|apply mk_name_valid, V].
Qed.

Theorem text_roundtrip (n : name) : Valid n -> AllBytes n -> from_text (to_text n) None = Ok n.
Proof. intros V HB. rewrite text_roundtrip_origin by assumption. destruct (is_absolute n); reflexivity. Qed.

Definition byte_l (l : list Z) : Prop := Forall (fun c => 0 <= c < 256) l.

Lemma AllBytes_iff (n : name) : AllBytes n <-> Forall byte_l n.
Proof. reflexivity. Qed.

Lemma is_digit_iff c : is_digit c = true <-> 48 <= c <= 57.
Proof. unfold is_digit. lia. Qed.

(* the escape loop raises BadEscape or EmptyLabel, nothing else *)
Lemma ft_loop_fails : forall t L lab esc ed tot,
  match ft_loop t L lab esc ed tot with
  | Ok _ => True
  | Lib e => e = eBadEscape \/ e = eEmptyLabel
  | Internal _ => False
  end.
Proof.
  induction t as [|c t IH]; intros; [exact Logic.I|].
  cbn [ft_loop]. destruct esc.
  - destruct ed as [|ed'].
    + destruct (is_digit c); apply IH.
    + destruct (negb (is_digit c)); [left; reflexivity|].
      destruct ed' as [|[|?]]; try apply IH.
      destruct (_ >? 255); [left; reflexivity|apply IH].
  - destruct (c =? 46); [destruct lab; [right; reflexivity|apply IH]|].
    destruct (c =? 92); apply IH.
Qed.

(* over octets the loop only ever stores octets; the running total of a \DDD escape is never
   negative, and a value above 255 is refused *)
Lemma ft_loop_bytes : forall t L lab esc ed tot L' lab' esc',
  byte_l t -> Forall byte_l L -> byte_l lab -> 0 <= tot ->
  ft_loop t L lab esc ed tot = Ok (L', lab', esc') ->
  Forall byte_l L' /\ byte_l lab'.
Proof.
  induction t as [|c t IH]; intros L lab esc ed tot L' lab' esc' Ht HL Hlab Htot; cbn [ft_loop].
  { intros [= <- <- <-]. auto. }
  apply Forall_cons_iff in Ht as [Hc Ht].
  assert (forall L lab esc ed tot, Forall byte_l L -> byte_l lab -> 0 <= tot ->
            ft_loop t L lab esc ed tot = Ok (L', lab', esc') -> Forall byte_l L' /\ byte_l lab') as Next
    by (intros; eapply IH; eauto).
  assert (byte_l (c :: lab)) as Hclab by (constructor; assumption).
  destruct esc.
  2:{ destruct (c =? 46); [destruct lab as [|x lab0]; [discriminate|]|destruct (c =? 92)];
        apply Next; auto; try lia; constructor. apply Forall_rev; exact Hlab. exact HL. }
  destruct (is_digit c) eqn:D; [apply is_digit_iff in D|]; destruct ed as [|[|[|ed]]]; cbn [negb];
    try discriminate; try (apply Next; auto; lia).
  destruct (Z.gtb_spec (tot * 10 + (c - 48)) 255); [discriminate|].
  apply Next; auto; [constructor; [lia|assumption]|lia].
Qed.

Lemma text_labels_fails t :
  match text_labels t with
  | Ok _ => True
  | Lib e => e = eBadEscape \/ e = eEmptyLabel
  | Internal _ => False
  end.
Proof.
  unfold text_labels, ft_labels. destruct (list_eq_dec _ _ _); [exact Logic.I|]. destruct t; [exact Logic.I|].
  pose proof (ft_loop_fails (z :: t) [] [] false 0%nat 0) as F.
  destruct (ft_loop _ _ _ _ _ _) as [[[labels lab] []]| |]; auto.
Qed.

Lemma text_labels_bytes t ls : byte_l t -> text_labels t = Ok ls -> AllBytes ls.
Proof.
  unfold text_labels, ft_labels. intros Ht. destruct (list_eq_dec _ _ _); [intros [= <-]; repeat constructor|].
  destruct t as [|h t']; [intros [= <-]; constructor|].
  destruct (ft_loop _ _ _ _ _ _) as [[[labels lab] []]| |] eqn:E; try discriminate. intros [= <-].
  destruct (ft_loop_bytes _ _ _ _ _ _ _ _ _ Ht (Forall_nil _) (Forall_nil _) (Z.le_refl 0) E) as [HL Hlab].
  apply Forall_app. split; [apply Forall_rev, HL|]. constructor; [apply Forall_rev, Hlab|constructor].
Qed.

(* every name from_text returns has passed _validate_labels; over octets it is a name over
   octets *)
Lemma from_text_ok text origin n : from_text text origin = Ok n ->
  Valid n /\ (byte_l text -> (forall o, origin = Some o -> AllBytes o) -> AllBytes n).
Proof.
  rewrite from_text_eq. destruct (text_labels _) as [labels| |] eqn:T; try discriminate.
  cbn [bind]. unfold finish. intros M. apply mk_name_ok in M as [-> V]. split; [exact V|]. intros Ht Ho.
  assert (AllBytes labels) as HB.
  { apply (text_labels_bytes _ _) in T; [exact T|]. destruct (list_eq_dec _ _ _); [constructor|exact Ht]. }
  destruct (negb _); [|exact HB]. destruct origin as [o|]; [|exact HB].
  apply Forall_app. split; [exact HB|apply Ho; reflexivity].
Qed.

Theorem from_text_no_internal text origin e : from_text text origin <> Internal e.
Proof.
  rewrite from_text_eq. pose proof (text_labels_fails (if list_eq_dec Z.eq_dec text [64] then [] else text)) as F.
  destruct (text_labels _); cbn [bind]; [apply mk_name_never_internal|discriminate|destruct F].
Qed.

(* the library exceptions of from_text: those of the escape loop and those of _validate_labels *)
Lemma from_text_error text origin e : from_text text origin = Lib e ->
  e = eBadEscape \/ e = eEmptyLabel \/ e = eLabelTooLong \/ e = eNameTooLong.
Proof.
  rewrite from_text_eq. pose proof (text_labels_fails (if list_eq_dec Z.eq_dec text [64] then [] else text)) as F.
  destruct (text_labels _); cbn [bind]; [intros H; apply mk_name_error in H; tauto|intros [= <-]; tauto|discriminate].
Qed.

Lemma AllBytes_app (a b : name) : AllBytes a -> AllBytes b -> AllBytes (a ++ b).
Proof. unfold AllBytes. intros. apply Forall_app; split; assumption. Qed.

Lemma AllBytes_app_l (a b : name) : AllBytes (a ++ b) -> AllBytes a.
Proof. unfold AllBytes. intros H. apply Forall_app in H. tauto. Qed.

(* the text without the final dot, read back against the root origin, is the name again *)
Theorem text_roundtrip_omit (n : name) :
  Valid n -> AllBytes n -> is_absolute n = true ->
  from_text (to_text_omit n) (Some root) = Ok n.
Proof.
  intros V HB A. apply is_absolute_true in A. destruct A as [p ->].
  destruct p as [|x p]; [reflexivity|].
  assert (Valid (x :: p)) as Vp by (eapply Valid_prefix; exact V).
  assert (AllBytes (x :: p)) as Bp by (eapply AllBytes_app_l; exact HB).
  assert (is_absolute (x :: p) = false) as Ap by (eapply (Valid_prefix_relative (x :: p) [] []); exact V).
  assert (to_text_omit ((x :: p) ++ [[]]) = to_text (x :: p)) as ->.
  { unfold to_text_omit. rewrite is_absolute_last, removelast_last.
    assert (x <> []) as Hx.
    { destruct V as (_ & _ & V3). rewrite removelast_last in V3. inversion V3; assumption. }
    destruct x as [|c x]; [congruence|].
    cbn [app]. destruct (p ++ [[]]) eqn:E; [destruct p; discriminate|].
    destruct p as [|y p]; reflexivity. }
  rewrite text_roundtrip_origin by assumption. rewrite Ap.
  apply mk_name_valid. exact V.
Qed.

(* any text the library accepts yields a name whose printed form parses back to that name *)
Theorem text_normal_form text origin n :
  byte_l text -> (forall o, origin = Some o -> AllBytes o) ->
  from_text text origin = Ok n ->
  AllBytes n /\ from_text (to_text n) None = Ok n.
Proof.
  intros Ht Ho H. apply from_text_ok in H as [V HB]. specialize (HB Ht Ho).
  split; [exact HB|]. apply text_roundtrip; assumption.
Qed.
