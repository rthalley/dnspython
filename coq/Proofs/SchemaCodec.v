(* Generic codec lemmas: integers, what the parser sees at its position, the frame that
   dns.rdata.from_wire puts around every class's reader, and the round trip
   decode (encode vs) = vs of the field language of Model/SchemaM.v. *)
From DV Require Import Base.Prelude Model.NameM Model.SchemaM Proofs.SchemaName Proofs.ListFacts.
Open Scope Z_scope.

Ltac inv_bind H :=
  let x := fresh "x" in let H1 := fresh "E" in
  apply bind_ok in H; destruct H as (x & H1 & H).

(* H : (match x with <shape> => _ | _ => false end) = true, or the same with False, stuck on the
   variable x: case analysis on x, one constructor at a time so that the wrong shapes go at once *)
Ltac shape H :=
  repeat match type of H with
         | context [match ?x with _ => _ end] => is_var x; destruct x; try solve [discriminate H | destruct H]
         end.

Lemma pow256_pos : forall w, 0 < pow256 w.
Proof. induction w; cbn [pow256]; lia. Qed.

Lemma be_encode_length : forall w v, length (be_encode w v) = w.
Proof. induction w; intros; cbn [be_encode]; [reflexivity|]. rewrite app_length, IHw. cbn. lia. Qed.

Lemma be_decode_snoc : forall bs b, be_decode (bs ++ [b]) = be_decode bs * 256 + b.
Proof. intros. unfold be_decode. rewrite fold_left_app. reflexivity. Qed.

Lemma be_decode_encode : forall w v, 0 <= v < pow256 w -> be_decode (be_encode w v) = v.
Proof.
  induction w; intros v Hv; cbn [be_encode pow256] in *.
  - cbn. lia.
  - pose proof (Z.div_mod v 256 ltac:(lia)). pose proof (Z.mod_pos_bound v 256 ltac:(lia)).
    rewrite be_decode_snoc, IHw; lia.
Qed.

Lemma all_bytes_snoc : forall bs b, all_bytes (bs ++ [b]) = true -> all_bytes bs = true /\ 0 <= b < 256.
Proof.
  unfold all_bytes. intros bs b H. rewrite forallb_app in H. apply andb_prop in H as [H1 H2].
  cbn in H2. unfold is_byte in H2. split; [exact H1|lia].
Qed.

Lemma be_decode_bounds : forall bs, all_bytes bs = true -> 0 <= be_decode bs < pow256 (length bs).
Proof.
  induction bs as [|b bs IH] using rev_ind; intros H; [cbn; lia|].
  apply all_bytes_snoc in H as [H1 H2]. specialize (IH H1).
  rewrite be_decode_snoc, app_length, Nat.add_1_r. cbn [pow256]. lia.
Qed.

Lemma be_encode_decode : forall bs, all_bytes bs = true -> be_encode (length bs) (be_decode bs) = bs.
Proof.
  induction bs as [|b bs IH] using rev_ind; intros H; [reflexivity|].
  apply all_bytes_snoc in H as [H1 H2]. pose proof (be_decode_bounds bs H1).
  rewrite be_decode_snoc, app_length, Nat.add_1_r. cbn [be_encode].
  replace ((be_decode bs * 256 + b) / 256) with (be_decode bs) by (apply (Z.div_unique_pos _ _ _ b); lia).
  replace ((be_decode bs * 256 + b) mod 256) with b by (apply (Z.mod_unique_pos _ _ (be_decode bs)); lia).
  rewrite IH by assumption. reflexivity.
Qed.

Ltac len_eq := rewrite ?app_length, ?be_encode_length; cbn [length]; lia.

(* the restricted parser (end e) stands at c and the octets from there to its end are `rest`.
   All round trips are stated over this, so that sequences of reads compose by sees_skip. *)
Definition sees (W : list Z) (e c : nat) (rest : list Z) : Prop :=
  exists A P, W = A ++ rest ++ P /\ c = length A /\ e = (length A + length rest)%nat.

Lemma sees_here : forall A b P, sees (A ++ b ++ P) (length A + length b) (length A) b.
Proof. intros. exists A, P. auto. Qed.

Lemma sees_end : forall W e c rest, sees W e c rest -> e = (c + length rest)%nat.
Proof. intros W e c rest (A & P & _ & -> & ->). reflexivity. Qed.

Lemma sees_skip : forall W e c b R n, sees W e c (b ++ R) -> length b = n -> sees W e (c + n) R.
Proof.
  intros W e c b R n (A & P & -> & -> & ->) <-. exists (A ++ b), P.
  rewrite <- !app_assoc, !app_length. repeat split. lia.
Qed.

(* restrict_to: the window of an inner parser that ends after b *)
Lemma sees_restrict : forall W e c b R, sees W e c (b ++ R) -> sees W (c + length b) c b.
Proof.
  intros W e c b R (A & P & -> & -> & _). exists A, (R ++ P). rewrite <- app_assoc. auto.
Qed.

Lemma sees_prefix : forall W e c rest, sees W e c rest -> exists A, firstn e W = A ++ rest /\ c = length A.
Proof.
  intros W e c rest (A & P & -> & -> & ->). exists A. split; [|reflexivity].
  rewrite <- app_length, app_assoc. apply firstn_app_len.
Qed.

Lemma sees_get_bytes : forall W e c b R n, sees W e c (b ++ R) -> length b = n ->
  get_bytes W e c n = Ok (b, (c + n)%nat) /\ sees W e (c + n) R.
Proof.
  intros W e c b R n Hs Hn. split; [|eapply sees_skip; eauto].
  destruct Hs as (A & P & -> & -> & ->). subst n. unfold get_bytes. rewrite app_length.
  destruct (Nat.ltb_spec (length A + (length b + length R) - length A) (length b)); [lia|].
  rewrite skipn_app_len, <- !app_assoc, firstn_app_len. reflexivity.
Qed.

(* get_remaining() *)
Lemma sees_get_rest : forall W e c b, sees W e c b -> get_bytes W e c (e - c) = Ok (b, e).
Proof.
  intros W e c b Hs. pose proof (sees_end _ _ _ _ Hs) as He. rewrite <- (app_nil_r b) in Hs.
  destruct (sees_get_bytes _ _ _ _ _ (e - c) Hs) as [-> _]; [lia|]. do 2 f_equal. lia.
Qed.

(* an uncompressed valid absolute name lying at the parser's position *)
Lemma sees_from_wire : forall W e c n R,
  validate_labels n = Ok tt -> is_absolute n = true -> sees W e c (wire_labels false n ++ R) ->
  NameM.from_wire (firstn e W) c = Ok (n, length (wire_labels false n)).
Proof.
  intros W e c n R Hv Ha Hs. apply sees_prefix in Hs as (A & -> & ->).
  apply from_wire_plain; assumption.
Qed.

Lemma to_wire_nonempty : forall n o c b, NameM.to_wire n o c = Ok b -> (1 <= length b)%nat.
Proof.
  intros n o c b H. unfold NameM.to_wire in H.
  assert (Habs : forall m, is_absolute m = true -> (1 <= length (wire_labels c m))%nat).
  { intros [|l r] Hm; [discriminate|]. rewrite NameWire.wire_labels_cons. cbn [app length]. lia. }
  destruct (is_absolute n) eqn:E.
  - injection H as <-. auto.
  - destruct o as [o|]; [|discriminate]. destruct (is_absolute o) eqn:Eo; [|discriminate].
    destruct (wire_length n + wire_length o >? 255); [discriminate|].
    injection H as <-. rewrite app_length. specialize (Habs o Eo). lia.
Qed.

(* decode_rdata and hand_decode_rdata are both `framed` around their field reader and their
   constructor check; encode_rdata and hand_encode_rdata are both `constructed` *)
Definition framed (dec : list Z -> nat -> nat -> res (list val * nat)) (valid : list val -> bool)
           (W : list Z) (cur rdlen : nat) : res (list val) :=
  if Nat.ltb (length W) cur then Lib eFormError
  else if Nat.ltb (length W - cur) rdlen then Lib eFormError
  else
    let endp := (cur + rdlen)%nat in
    do vc <- dec W endp cur;
    if negb (valid (fst vc)) then Lib eFormError
    else if Nat.eqb (snd vc) endp then Ok (fst vc) else Lib eFormError.

Definition constructed (valid : list val -> bool) (enc : list val -> res (list Z)) (vs : list val) :=
  if valid vs then enc vs else Lib eValueError.

Lemma constructed_ok : forall valid enc vs b,
  constructed valid enc vs = Ok b -> valid vs = true /\ enc vs = Ok b.
Proof. unfold constructed. intros valid enc vs b H. destruct (valid vs); [auto|discriminate]. Qed.

Section Frame.
  Variable dec : list Z -> nat -> nat -> res (list val * nat).
  Variable valid : list val -> bool.

  Lemma framed_ok : forall W cur rdlen vs,
    framed dec valid W cur rdlen = Ok vs <->
    (cur + rdlen <= length W)%nat /\ dec W (cur + rdlen) cur = Ok (vs, (cur + rdlen)%nat) /\ valid vs = true.
  Proof.
    intros. unfold framed.
    destruct (Nat.ltb_spec (length W) cur); [split; [discriminate|lia]|].
    destruct (Nat.ltb_spec (length W - cur) rdlen); [split; [discriminate|lia]|]. cbv zeta.
    destruct (dec W (cur + rdlen) cur) as [[vs' c]| |]; cbn [bind fst snd];
      [|split; [discriminate|intros (_ & ? & _); discriminate]..].
    destruct (valid vs') eqn:Hv; cbn [negb].
    - destruct (Nat.eqb_spec c (cur + rdlen)).
      + split; [intros [= <-]; subst; repeat split; [lia|exact Hv]|intros (_ & [= <- _] & _); reflexivity].
      + split; [discriminate|intros (_ & [= _ ?] & _); contradiction].
    - split; [discriminate|intros (_ & [= <- _] & ?); congruence].
  Qed.

  Lemma framed_inexact : forall W cur rdlen vs c,
    dec W (cur + rdlen) cur = Ok (vs, c) -> c <> (cur + rdlen)%nat ->
    (cur <= length W)%nat -> (rdlen <= length W - cur)%nat ->
    framed dec valid W cur rdlen = Lib eFormError.
  Proof.
    intros W cur rdlen vs c Hd Hc H1 H2. unfold framed.
    destruct (Nat.ltb_spec (length W) cur); [lia|].
    destruct (Nat.ltb_spec (length W - cur) rdlen); [lia|].
    cbv zeta. rewrite Hd. cbn [bind fst snd].
    destruct (valid vs); cbn [negb]; [|reflexivity].
    destruct (Nat.eqb_spec c (cur + rdlen)); [contradiction|reflexivity].
  Qed.

  Lemma framed_lib : forall W cur rdlen x,
    (forall e c y, dec W e c <> Internal y) -> framed dec valid W cur rdlen <> Internal x.
  Proof.
    intros W cur rdlen x H. unfold framed.
    destruct (Nat.ltb (length W) cur); [discriminate|].
    destruct (Nat.ltb (length W - cur) rdlen); [discriminate|]. cbv zeta.
    destruct (dec W (cur + rdlen) cur) as [[vs c]| |] eqn:E; cbn [bind fst snd]; [|discriminate|apply H in E; contradiction].
    destruct (negb (valid vs)); [discriminate|]. destruct (Nat.eqb c (cur + rdlen)); discriminate.
  Qed.

  Variable enc : list val -> res (list Z).
  (* `good` values are those the reader returns unchanged from their own encoding *)
  Variable good : list val -> Prop.
  Hypothesis Hrt : forall vs b W e c,
    good vs -> valid vs = true -> enc vs = Ok b -> sees W e c b -> dec W e c = Ok (vs, e).

  Theorem framed_roundtrip : forall vs b A P,
    good vs -> constructed valid enc vs = Ok b ->
    framed dec valid (A ++ b ++ P) (length A) (length b) = Ok vs.
  Proof.
    intros vs b A P Hg He. apply constructed_ok in He as [Hv He].
    apply framed_ok. split; [rewrite !app_length; lia|]. split; [|exact Hv].
    eapply Hrt; eauto. apply sees_here.
  Qed.

  (* what is needed of a record so that it is a fixed point of encode-then-decode *)
  Theorem framed_fixed_point : forall vs w,
    good vs -> valid vs = true -> enc vs = Ok w ->
    constructed valid enc vs = Ok w /\ framed dec valid w 0 (length w) = Ok vs.
  Proof.
    intros vs w Hg Hv He.
    assert (Hc : constructed valid enc vs = Ok w) by (unfold constructed; rewrite Hv; exact He).
    split; [exact Hc|]. pose proof (framed_roundtrip vs w [] [] Hg Hc) as H.
    cbn [app length] in H. rewrite app_nil_r in H. exact H.
  Qed.
End Frame.

(* a field in last position: the encoding runs to the end of the RDATA *)
Definition last_wf (f : fld) : bool :=
  match f with
  | FS s => sfld_wf s
  | FRemaining lo => 0 <=? lo
  | FRemN n => true
  | FOptC8 hi => (0 <=? hi) && (hi <=? 255)
  | FRepeat _ asc row => row_wf asc row
  end.

Lemma schema_wf_cons : forall f fr, schema_wf (f :: fr) = true ->
  last_wf f = true /\ schema_wf fr = true /\ (fr = [] \/ exists s, f = FS s).
Proof.
  intros f [|g fr] H.
  - split; [destruct f; exact H|auto].
  - destruct f as [s| | | |]; try discriminate. apply andb_prop in H as [H1 H2]. eauto.
Qed.

(* the integer, fixed and counted fields occupy at least one octet *)
Lemma sfld_wf_width : forall f, sfld_wf f = true ->
  match f with FU w _ | FCounted w _ _ | FFixed w => (0 < w)%nat | FName _ => True end.
Proof.
  intros [w m|n|w lo hi|rel] H; cbn [sfld_wf] in H; try exact Logic.I; try (do 2 apply andb_prop in H as [H _]);
    apply Nat.ltb_lt, H.
Qed.

Lemma row_wf_inv : forall asc row, row_wf asc row = true -> forallb sfld_wf row = true /\ row <> [].
Proof. intros asc row H. apply andb_prop in H as [H1 H2]. split; [exact H1|]. destruct row; [discriminate|congruence]. Qed.

Section RoundTrip.
  Variable o : option name.
  (* what is required of a name value so that it is read back unchanged (instantiated for
     "no origin" and for an absolute origin) *)
  Variable NOK : bool -> name -> Prop.
  Hypothesis Hname : forall rel n b W e c R,
    NOK rel n -> NameM.to_wire n o false = Ok b -> sees W e c (b ++ R) ->
    get_name W o rel e c = Ok (n, (c + length b)%nat).

  Definition nok_s (f : sfld) (v : sval) : Prop :=
    match f, v with FName rel, VN n => NOK rel n | _, _ => True end.
  Fixpoint nok_row (fs : list sfld) (vs : list sval) : Prop :=
    match fs, vs with f :: fr, v :: vr => nok_s f v /\ nok_row fr vr | _, _ => True end.
  Definition nok_f (f : fld) (v : val) : Prop :=
    match f, v with
    | FS s, VS x => nok_s s x
    | FRepeat _ _ row, VL rows => Forall (nok_row row) rows
    | _, _ => True
    end.
  Fixpoint nok_fields (fs : list fld) (vs : list val) : Prop :=
    match fs, vs with f :: fr, v :: vr => nok_f f v /\ nok_fields fr vr | _, _ => True end.

  Lemma dec_s_rt : forall f v b W e c R,
    sfld_wf f = true -> valid_s f v = true -> nok_s f v -> enc_s o f v = Ok b ->
    sees W e c (b ++ R) -> dec_s W o f e c = Ok (v, (c + length b)%nat).
  Proof.
    intros f v b W e c R Hwf Hv Hn He Hs.
    destruct f as [w maxv|n|w lo hi|rel]; destruct v as [z|x|nm]; cbn in Hv, He; try discriminate; cbn [dec_s].
    - destruct ((0 <=? z) && (z <? pow256 w)) eqn:Er; [|discriminate]. injection He as <-.
      destruct (sees_get_bytes _ _ _ _ _ w Hs (be_encode_length w z)) as [-> _]. cbn [bind fst snd].
      rewrite be_decode_encode, be_encode_length by lia. reflexivity.
    - injection He as <-. apply Nat.eqb_eq in Hv.
      destruct (sees_get_bytes _ _ _ _ _ n Hs Hv) as [-> _]. rewrite Hv. reflexivity.
    - destruct (zlen x <? pow256 w) eqn:Er; [|discriminate]. injection He as <-.
      rewrite <- app_assoc in Hs.
      destruct (sees_get_bytes _ _ _ _ _ w Hs (be_encode_length w _)) as [-> Hs1]. cbn [bind fst snd].
      rewrite be_decode_encode by (pose proof (NameValid.zlen_nonneg x); lia).
      destruct (sees_get_bytes _ _ _ _ _ (Z.to_nat (zlen x)) Hs1) as [-> _]; [unfold zlen; lia|].
      cbn [bind fst snd]. f_equal. f_equal. unfold zlen. len_eq.
    - rewrite (Hname rel nm b W e c R Hn He Hs). reflexivity.
  Qed.

  Lemma enc_s_nonempty : forall f v b,
    sfld_wf f = true -> valid_s f v = true -> enc_s o f v = Ok b -> (1 <= length b)%nat.
  Proof.
    intros f v b Hwf Hv He. apply sfld_wf_width in Hwf.
    destruct f as [w maxv|n|w lo hi|rel]; destruct v as [z|x|nm]; cbn in Hv, He; try discriminate.
    - destruct ((0 <=? z) && (z <? pow256 w)); [|discriminate]. injection He as <-. rewrite be_encode_length. lia.
    - injection He as <-. apply Nat.eqb_eq in Hv. lia.
    - destruct (zlen x <? pow256 w); [|discriminate]. injection He as <-. rewrite app_length, be_encode_length. lia.
    - eapply to_wire_nonempty; eauto.
  Qed.

  Lemma dec_row_rt : forall fs vs b W e c R,
    forallb sfld_wf fs = true -> valid_row fs vs = true -> nok_row fs vs -> enc_row o fs vs = Ok b ->
    sees W e c (b ++ R) -> dec_row W o fs e c = Ok (vs, (c + length b)%nat).
  Proof.
    induction fs as [|f fr IH]; intros vs b W e c R Hwf Hv Hn He Hs; destruct vs as [|v vr]; cbn in Hv, He; try discriminate.
    - injection He as <-. cbn. rewrite Nat.add_0_r. reflexivity.
    - cbn [forallb] in Hwf. apply andb_prop in Hwf as [Hwf1 Hwf2].
      apply andb_prop in Hv as [Hv1 Hv2]. destruct Hn as [Hn1 Hn2].
      inv_bind He. inv_bind He. injection He as <-. rename x into b1, x0 into b2.
      rewrite <- app_assoc in Hs. cbn [dec_row].
      rewrite (dec_s_rt f v b1 W e c _ Hwf1 Hv1 Hn1 E Hs). cbn [bind fst snd].
      rewrite (IH vr b2 W e _ R Hwf2 Hv2 Hn2 E0 (sees_skip _ _ _ _ _ _ Hs eq_refl)). cbn [bind fst snd].
      rewrite app_length, Nat.add_assoc. reflexivity.
  Qed.

  Lemma enc_row_nonempty : forall fs vs b,
    fs <> [] -> forallb sfld_wf fs = true -> valid_row fs vs = true -> enc_row o fs vs = Ok b ->
    (1 <= length b)%nat.
  Proof.
    intros [|f fr] vs b Hne Hwf Hv He; [congruence|]. destruct vs as [|v vr]; cbn in Hv, He; try discriminate.
    cbn [forallb] in Hwf. apply andb_prop in Hwf as [Hwf1 _]. apply andb_prop in Hv as [Hv1 _].
    inv_bind He. inv_bind He. injection He as <-.
    pose proof (enc_s_nonempty f v x Hwf1 Hv1 E). rewrite app_length. lia.
  Qed.

  (* the `while parser.remaining() > 0` loop reads the rows back and stops at the parser's end *)
  Lemma dec_rows_rt : forall row rows b fuel W e c,
    row <> [] -> forallb sfld_wf row = true ->
    forallb (valid_row row) rows = true -> Forall (nok_row row) rows ->
    enc_rows o row rows = Ok b -> (length b < fuel)%nat ->
    sees W e c b -> dec_rows W o fuel row e c = Ok (rows, e).
  Proof.
    induction rows as [|r rr IH]; intros b fuel W e c Hne Hwf Hv Hn He Hfuel Hs; cbn in He;
      pose proof (sees_end _ _ _ _ Hs) as Hend.
    - injection He as <-. cbn [length] in Hend. rewrite Nat.add_0_r in Hend. subst e.
      destruct fuel; cbn [dec_rows]; rewrite Nat.leb_refl; reflexivity.
    - inv_bind He. inv_bind He. injection He as <-. rename x into b1, x0 into b2.
      cbn [forallb] in Hv. apply andb_prop in Hv as [Hv1 Hv2].
      inversion Hn as [|? ? Hn1 Hn2]; subst.
      pose proof (enc_row_nonempty row r b1 Hne Hwf Hv1 E) as Hb1. rewrite app_length in *.
      destruct fuel as [|fuel']; [lia|]. cbn [dec_rows].
      destruct (Nat.leb_spec (c + (length b1 + length b2)) c); [lia|].
      rewrite (dec_row_rt row r b1 W _ c b2 Hwf Hv1 Hn1 E Hs). cbn [bind fst snd].
      rewrite (IH b2 fuel' W _ _ Hne Hwf Hv2 Hn2 E0 ltac:(lia) (sees_skip _ _ _ _ _ _ Hs eq_refl)). reflexivity.
  Qed.

  Lemma dec_f_rt : forall f v b W e c,
    last_wf f = true -> valid_f f v = true -> nok_f f v -> enc_f o f v = Ok b ->
    sees W e c b -> dec_f W o f e c = Ok (v, e).
  Proof.
    intros f v b W e c Hwf Hv Hn He Hs. pose proof (sees_end _ _ _ _ Hs) as Hend.
    pose proof Hs as Hs0. rewrite <- (app_nil_r b) in Hs0.
    assert (Hrem : forall x, b = x -> dec_f W o (FRemaining 0) e c = Ok (VS (VB x), e)).
    { intros x <-. cbn [dec_f]. rewrite (sees_get_rest W e c b Hs). reflexivity. }
    destruct f as [s|lo|n|hi|min1 asc row]; destruct v as [x|rows]; cbn [valid_f enc_f] in Hv, He; try discriminate.
    - cbn [dec_f]. rewrite (dec_s_rt s x b W e c [] Hwf Hv Hn He Hs0), <- Hend. reflexivity.
    - destruct x as [z|x|nm]; try discriminate. apply Hrem. congruence.
    - destruct x as [z|x|nm]; try discriminate. apply Hrem. congruence.
    - destruct x as [z|x|nm]; try discriminate. cbn [dec_f]. destruct x as [|y x'].
      + injection He as <-. cbn [length] in Hend. rewrite Nat.add_0_r in Hend. subst e.
        rewrite Nat.ltb_irrefl. reflexivity.
      + assert (Hvc : valid_s (FCounted 1 0 255) (VB (y :: x')) = true).
        { apply andb_prop in Hwf as [_ Hwf]. cbn [valid_s]. unfold len_in. pose proof (NameValid.zlen_nonneg (y :: x')). lia. }
        pose proof (enc_s_nonempty (FCounted 1 0 255) _ b eq_refl Hvc He) as Hlen.
        destruct (Nat.ltb_spec c e) as [_|Hge]; [|lia].
        rewrite (dec_s_rt (FCounted 1 0 255) _ b W e c [] eq_refl Hvc Logic.I He Hs0), <- Hend. reflexivity.
    - cbn [dec_f]. apply andb_prop in Hv as [Hv _]. apply andb_prop in Hv as [Hv _].
      apply row_wf_inv in Hwf as [Hwf Hrow].
      rewrite (dec_rows_rt row rows b (S (e - c))%nat W e c) by (auto; lia). reflexivity.
  Qed.

  Lemma dec_fields_rt : forall fs vs b W e c,
    schema_wf fs = true -> valid_fields fs vs = true -> nok_fields fs vs -> enc_fields o fs vs = Ok b ->
    sees W e c b -> dec_fields W o fs e c = Ok (vs, e).
  Proof.
    induction fs as [|f fr IH]; intros vs b W e c Hwf Hv Hn He Hs; destruct vs as [|v vr]; cbn in Hv, He; try discriminate.
    - injection He as <-. apply sees_end in Hs. cbn [length] in Hs. rewrite Nat.add_0_r in Hs. subst e. reflexivity.
    - apply andb_prop in Hv as [Hv1 Hv2]. destruct Hn as [Hn1 Hn2].
      inv_bind He. inv_bind He. injection He as <-. rename x into b1, x0 into b2.
      apply schema_wf_cons in Hwf as (Hl & Hr & [->|[s ->]]); cbn [dec_fields].
      + (* last field *)
        destruct vr; [|discriminate]. injection E0 as <-. rewrite app_nil_r in Hs.
        rewrite (dec_f_rt f v b1 W e c Hl Hv1 Hn1 E Hs). reflexivity.
      + (* inner field: self-delimiting *)
        destruct v as [x|]; [|discriminate]. cbn [dec_f].
        rewrite (dec_s_rt s x b1 W e c b2 Hl Hv1 Hn1 E Hs). cbn [bind fst snd].
        rewrite (IH vr b2 W e _ Hr Hv2 Hn2 E0 (sees_skip _ _ _ _ _ _ Hs eq_refl)). reflexivity.
  Qed.

  Lemma schema_reads : forall fs ck, schema_wf fs = true -> forall vs b W e c,
    nok_fields fs vs -> validate fs ck vs = true -> enc_fields o fs vs = Ok b -> sees W e c b ->
    dec_fields W o fs e c = Ok (vs, e).
  Proof. intros fs ck Hwf vs b W e c Hn Hv. apply andb_prop in Hv as [Hv _]. apply dec_fields_rt; assumption. Qed.

  (* dns.rdata.from_wire on the encoding of a validated record, anywhere in a message *)
  Theorem roundtrip_gen : forall fs ck vs b A P,
    schema_wf fs = true -> nok_fields fs vs -> encode_rdata o fs ck vs = Ok b ->
    decode_rdata o fs ck (A ++ b ++ P) (length A) (length b) = Ok vs.
  Proof.
    intros fs ck vs b A P Hwf.
    exact (framed_roundtrip (fun W => dec_fields W o fs) _ _ _ (schema_reads fs ck Hwf) vs b A P).
  Qed.
End RoundTrip.
