(* The dns.set.Set machine of Model/SetM.v: every public method keeps every set duplicate-free,
   for all operation sequences; the algebra of Proofs/SetAlg.v instantiated at records.  Also the
   facts about register files (set_nth, assign) that both machines use. *)
From Coq Require Import Permutation.
From DV Require Import Base.Prelude Model.SetM Proofs.SetAlg Proofs.SetRdata.
Open Scope Z_scope.

Definition ND : list rdata -> Prop := NoDupE rdata rd_eqb.

Lemma nth_set_nth_same {A} (st : list A) r v x :
  nth_error st r = Some x -> nth_error (set_nth st r v) r = Some v.
Proof.
  revert r. induction st as [|y l IH]; intros [|r]; cbn; try discriminate; auto.
Qed.

Lemma nth_set_nth_other {A} (st : list A) r r' v :
  r <> r' -> nth_error (set_nth st r v) r' = nth_error st r'.
Proof.
  revert r r'. induction st as [|y l IH]; intros [|r] [|r'] H; cbn; auto; congruence.
Qed.

Lemma set_nth_id {A} (st : list A) r x : nth_error st r = Some x -> set_nth st r x = st.
Proof.
  revert r. induction st as [|y l IH]; intros [|r]; cbn; try discriminate; intros E.
  - congruence.
  - rewrite IH by exact E. reflexivity.
Qed.

Lemma set_nth_nth {A} (st : list A) r d : set_nth st r (nth r st d) = st.
Proof. revert r. induction st as [|y l IH]; intros [|r]; cbn; congruence. Qed.

Lemma nth_assign_other {A} (st st' : list A) d v r :
  assign st d v = Some st' -> d <> r -> nth_error st' r = nth_error st r.
Proof.
  unfold assign. destruct (Nat.ltb d (length st)).
  - intros [= <-]. apply nth_set_nth_other.
  - destruct (Nat.eqb_spec d (length st)) as [->|]; [|discriminate]. intros [= <-] H.
    destruct (Nat.lt_ge_cases r (length st)) as [Hr|Hr]; [apply nth_error_app1, Hr|].
    rewrite (proj2 (nth_error_None st r) Hr). apply nth_error_None.
    rewrite app_length, Nat.add_1_r. apply Nat.le_neq. auto.
Qed.

(* binding register d (the way both machines do it) leaves the others alone *)
Lemma nth_bind_other {A} (st : list A) d v r :
  d <> r ->
  nth_error (fst (match assign st d v with Some st' => (st', N) | None => bad st end)) r
  = nth_error st r.
Proof.
  intros H. destruct (assign st d v) eqn:E; [|reflexivity]. exact (nth_assign_other _ _ _ _ _ E H).
Qed.

(* two registers named by equal indices hold the same object *)
Lemma same_reg {A} (st : list A) r o s os :
  nth_error st r = Some s -> nth_error st o = Some os -> Nat.eqb r o = true -> os = s.
Proof. intros H1 H2 E. apply Nat.eqb_eq in E. subst. congruence. Qed.

Lemma Forall_set_nth {A} (P : A -> Prop) st n v : Forall P st -> P v -> Forall P (set_nth st n v).
Proof.
  intros H Hv. revert n. induction H as [|x l Hx Hl IH]; intros [|n]; cbn; constructor; auto.
Qed.

Lemma Forall_assign {A} (P : A -> Prop) st d v st' :
  Forall P st -> P v -> assign st d v = Some st' -> Forall P st'.
Proof.
  intros H Hv. unfold assign. destruct (Nat.ltb d (length st)).
  - intros [= <-]. apply Forall_set_nth; assumption.
  - destruct (Nat.eqb d (length st)); [|discriminate].
    intros [= <-]. apply Forall_app. auto.
Qed.

Lemma Forall_nth_error {A} (P : A -> Prop) st n x : Forall P st -> nth_error st n = Some x -> P x.
Proof. intros H E. rewrite Forall_forall in H. apply H. eapply nth_error_In, E. Qed.

(* an invariant of all registers through the two ways a step uses the register file: fetching an
   operand (a missing register is a harness error and changes nothing) and binding a result *)
Lemma inv_reg {A} (P : A -> Prop) st r (k : A -> list A * obs) :
  Forall P st -> (forall s, nth_error st r = Some s -> P s -> Forall P (fst (k s))) ->
  Forall P (fst (match nth_error st r with Some s => k s | None => bad st end)).
Proof.
  intros H Hk. destruct (nth_error st r) as [s|] eqn:E; [|exact H].
  exact (Hk s eq_refl (Forall_nth_error P st r s H E)).
Qed.

Lemma inv_bind {A} (P : A -> Prop) (st : list A) d v :
  Forall P st -> P v ->
  Forall P (fst (match assign st d v with Some st' => (st', N) | None => bad st end)).
Proof.
  intros H Hv. destruct (assign st d v) eqn:E; [|exact H]. exact (Forall_assign P st d v _ H Hv E).
Qed.

(* two register files kept in step *)
Lemma Forall2_nth {A B} (P : A -> B -> Prop) l1 l2 n x d :
  Forall2 P l1 l2 -> nth_error l1 n = Some x -> P x (nth n l2 d).
Proof.
  intros H. revert n. induction H; intros [|n]; cbn; try discriminate; [congruence|auto].
Qed.

Lemma Forall2_set_nth {A B} (P : A -> B -> Prop) l1 l2 n x y :
  Forall2 P l1 l2 -> P x y -> Forall2 P (set_nth l1 n x) (set_nth l2 n y).
Proof.
  intros H Hxy. revert n. induction H; intros [|n]; cbn; constructor; auto.
Qed.

Lemma Forall2_assign {A B} (P : A -> B -> Prop) l1 l2 d x y l1' :
  Forall2 P l1 l2 -> P x y -> assign l1 d x = Some l1' ->
  exists l2', assign l2 d y = Some l2' /\ Forall2 P l1' l2'.
Proof.
  intros H Hxy. unfold assign.
  replace (length l2) with (length l1) by (induction H; cbn; congruence).
  destruct (Nat.ltb d (length l1)).
  - intros [= <-]. eexists. split; [reflexivity|]. apply Forall2_set_nth; assumption.
  - destruct (Nat.eqb d (length l1)); [|discriminate].
    intros [= <-]. eexists. split; [reflexivity|]. apply Forall2_app; auto.
Qed.

Definition rd_equiv_refl := rd_eqb_refl.
Definition rd_equiv_sym := rd_eqb_sym.
Definition rd_equiv_trans := rd_eqb_trans.

(* salg is salg_g at records, by unfolding *)
Lemma ND_salg a s o same : ND s -> ND o -> (same = true -> o = s) -> ND (salg a s o same).
Proof. exact (salg_nodup rdata rd_eqb rd_eqb_refl rd_eqb_sym rd_eqb_trans a s o same). Qed.

Lemma ND_sadd x s : ND s -> ND (sadd rd_eqb x s).
Proof. apply (nodup_sadd rdata rd_eqb rd_eqb_sym). Qed.

Lemma ND_sdel x s : ND s -> ND (sdel rd_eqb x s).
Proof. apply (nodup_sdel rdata rd_eqb rd_eqb_sym rd_eqb_trans). Qed.

Lemma ND_supdate o s : ND s -> ND (supdate rd_eqb s o).
Proof. apply (nodup_supdate rdata rd_eqb rd_eqb_sym). Qed.

Lemma ND_fold_sdel l s : ND s -> ND (fold_left (fun acc x => sdel rd_eqb x acc) l s).
Proof. apply (nodup_fold_sdel rdata rd_eqb rd_eqb_sym rd_eqb_trans). Qed.

Lemma ND_spop s x s' : ND s -> spop s = Ok (x, s') -> ND s'.
Proof. apply (nodup_spop rdata rd_eqb). Qed.

Theorem sstep_nodup st op : Forall ND st -> Forall ND (fst (sstep st op)).
Proof.
  intros H. destruct op; cbn [sstep]; try (apply (inv_reg ND); [exact H|intros s Es Hs]).
  - (* SNew *) apply inv_bind; [exact H|apply ND_supdate; constructor].
  - (* SAdd *) apply Forall_set_nth, ND_sadd; assumption.
  - (* SRemove *)
    unfold sremove. destruct (mem rd_eqb x s); [|exact H]. apply Forall_set_nth, ND_sdel; assumption.
  - (* SDiscard *) apply Forall_set_nth, ND_sdel; assumption.
  - (* SPop *)
    destruct (spop s) as [[x s']| |] eqn:E; try exact H.
    apply Forall_set_nth; [exact H|exact (ND_spop _ _ _ Hs E)].
  - (* SClear *) apply Forall_set_nth; [exact H|constructor].
  - (* SCopy *) apply inv_bind; assumption.
  - (* SInpl *)
    destruct o as [oi|]; [|destruct w; exact H].
    apply (inv_reg ND); [exact H|intros os Eo Ho].
    destruct (inplace_alg w); (apply Forall_set_nth; [exact H|]); [|apply ND_supdate, Hs].
    apply ND_salg; [exact Hs|exact Ho|exact (same_reg _ _ _ _ _ Es Eo)].
  - (* SFunc *)
    destruct o as [oi|]; [|exact H]. apply (inv_reg ND); [exact H|intros os Eo Ho].
    apply inv_bind; [exact H|]. apply ND_salg; [exact Hs|exact Ho|discriminate].
  - (* SPred *)
    destruct o as [oi|]; [|destruct w; exact H]. apply (inv_reg ND); [exact H|intros os Eo Ho]. exact H.
  - (* SUpdateList *) apply Forall_set_nth, ND_supdate; assumption.
  - exact H.
  - exact H.
  - exact H.
  - destruct (sget s i); exact H.
  - destruct (sslice s start stop step); exact H.
  - (* SDelItem *)
    unfold sdelitem. destruct (sget s i); try exact H. apply Forall_set_nth, ND_sdel; assumption.
  - (* SDelSlice *)
    unfold sdelslice. destruct (sslice s start stop step); try exact H.
    apply Forall_set_nth, ND_fold_sdel; assumption.
Qed.

(* every reachable state of the Set machine: all sets duplicate-free *)
Theorem sexec_nodup ops st : Forall ND st -> Forall ND (sexec st ops).
Proof.
  revert st. induction ops as [|op ops IH]; intros st H; cbn; [exact H|].
  apply IH, sstep_nodup, H.
Qed.

Corollary set_machine_nodup ops r s : nth_error (sexec [] ops) r = Some s -> ND s.
Proof. apply Forall_nth_error, sexec_nodup. constructor. Qed.

Definition rmem := mem rd_eqb.

Theorem set_alg_mem a s o same x :
  ND s -> ND o -> (same = true -> o = s) ->
  rmem x (salg a s o same) = alg_bool a (rmem x s) (rmem x o).
Proof. exact (salg_mem rdata rd_eqb rd_eqb_refl rd_eqb_sym rd_eqb_trans a s o same x). Qed.

Theorem set_alg_order a s o :
  ND s -> ND o -> salg a s o false = alg_order rdata rd_eqb a s o.
Proof. exact (salg_order rdata rd_eqb rd_eqb_refl rd_eqb_sym rd_eqb_trans a s o). Qed.

Theorem set_alg_aliased a s :
  salg a s s true = match a with AUnion | AInter => s | ADiff | ASym => [] end.
Proof. exact (salg_same rdata rd_eqb a s). Qed.

Lemma incl_salg a s o same :
  ND s -> ND o -> (same = true -> o = s) -> a = AInter \/ a = ADiff -> incl (salg a s o same) s.
Proof.
  intros Hs Ho Hsame Ha. destruct same.
  - rewrite (Hsame eq_refl), set_alg_aliased.
    destruct Ha as [-> | ->]; [apply incl_refl|apply incl_nil_l].
  - rewrite set_alg_order by assumption. destruct Ha as [-> | ->]; apply incl_filter.
Qed.

Theorem set_eq_ignores_order s o :
  ND s -> ND o -> (seq rd_eqb s o = true <-> forall x, rmem x s = rmem x o).
Proof. apply (seq_spec rdata rd_eqb rd_eqb_refl rd_eqb_sym rd_eqb_trans). Qed.

Corollary set_eq_perm s s' : ND s -> Permutation s s' -> seq rd_eqb s s' = true.
Proof.
  intros Hs Hp. unfold seq. rewrite (Permutation_length Hp), Nat.eqb_refl. cbn.
  apply forallb_forall. intros x Hx. apply (mem_In rdata rd_eqb rd_eqb_refl).
  eapply Permutation_in; eassumption.
Qed.

Section Named.
  Variables (s o : list rdata) (same : bool) (x : rdata).
  Hypothesis Hs : ND s.
  Hypothesis Ho : ND o.
  Hypothesis Hsame : same = true -> o = s.

  Lemma union_update_mem : rmem x (sunion_update rd_eqb s o same) = rmem x s || rmem x o.
  Proof. exact (set_alg_mem AUnion s o same x Hs Ho Hsame). Qed.
  Lemma inter_update_mem : rmem x (sinter_update rd_eqb s o same) = rmem x s && rmem x o.
  Proof. exact (set_alg_mem AInter s o same x Hs Ho Hsame). Qed.
  Lemma diff_update_mem : rmem x (sdiff_update rd_eqb s o same) = rmem x s && negb (rmem x o).
  Proof. exact (set_alg_mem ADiff s o same x Hs Ho Hsame). Qed.
  Lemma sym_update_mem : rmem x (ssym_update rd_eqb s o same) = xorb (rmem x s) (rmem x o).
  Proof. exact (set_alg_mem ASym s o same x Hs Ho Hsame). Qed.
End Named.

Section NamedCopy.
  (* o may be s itself: a.union(a) etc. *)
  Variables (s o : list rdata) (x : rdata).
  Hypothesis Hs : ND s.
  Hypothesis Ho : ND o.

  Let nosame : false = true -> o = s.
  Proof. discriminate. Qed.

  Lemma union_mem : rmem x (sunion rd_eqb s o) = rmem x s || rmem x o.
  Proof. exact (set_alg_mem AUnion s o false x Hs Ho nosame). Qed.
  Lemma inter_mem : rmem x (sinter rd_eqb s o) = rmem x s && rmem x o.
  Proof. exact (set_alg_mem AInter s o false x Hs Ho nosame). Qed.
  Lemma diff_mem : rmem x (sdiff rd_eqb s o) = rmem x s && negb (rmem x o).
  Proof. exact (set_alg_mem ADiff s o false x Hs Ho nosame). Qed.
  Lemma sym_mem : rmem x (ssym rd_eqb s o) = xorb (rmem x s) (rmem x o).
  Proof. exact (set_alg_mem ASym s o false x Hs Ho nosame). Qed.

  (* first-insertion order: the exact key lists *)
  Lemma union_order : sunion rd_eqb s o = s ++ filter (fun y => negb (rmem y s)) o.
  Proof. exact (set_alg_order AUnion s o Hs Ho). Qed.
  Lemma inter_order : sinter rd_eqb s o = filter (fun y => rmem y o) s.
  Proof. exact (set_alg_order AInter s o Hs Ho). Qed.
  Lemma diff_order : sdiff rd_eqb s o = filter (fun y => negb (rmem y o)) s.
  Proof. exact (set_alg_order ADiff s o Hs Ho). Qed.
  Lemma sym_order :
    ssym rd_eqb s o = filter (fun y => negb (rmem y o)) s ++ filter (fun y => negb (rmem y s)) o.
  Proof. exact (set_alg_order ASym s o Hs Ho). Qed.
End NamedCopy.

Lemma order_first_insertion_all s o :
  ND s -> ND o ->
  sunion_update rd_eqb s o false = s ++ filter (fun y => negb (rmem y s)) o /\
  sinter_update rd_eqb s o false = filter (fun y => rmem y o) s /\
  sdiff_update rd_eqb s o false = filter (fun y => negb (rmem y o)) s /\
  ssym_update rd_eqb s o false
    = filter (fun y => negb (rmem y o)) s ++ filter (fun y => negb (rmem y s)) o.
Proof.
  intros Hs Ho. repeat split.
  - exact (set_alg_order AUnion s o Hs Ho).
  - exact (set_alg_order AInter s o Hs Ho).
  - exact (set_alg_order ADiff s o Hs Ho).
  - exact (set_alg_order ASym s o Hs Ho).
Qed.

Lemma add_spec x s :
  ND s -> sadd rd_eqb x s = (if rmem x s then s else s ++ [x]) /\ ND (sadd rd_eqb x s).
Proof. intros H. split; [reflexivity|apply ND_sadd, H]. Qed.

Theorem subset_spec s o :
  sissubset rd_eqb s o = true <-> (forall x, rmem x s = true -> rmem x o = true).
Proof. apply (sissubset_spec rdata rd_eqb rd_eqb_refl rd_eqb_sym rd_eqb_trans). Qed.

Theorem superset_spec s o :
  sissuperset rd_eqb s o = true <-> (forall x, rmem x o = true -> rmem x s = true).
Proof. apply (sissuperset_spec rdata rd_eqb rd_eqb_refl rd_eqb_sym rd_eqb_trans). Qed.

Theorem disjoint_spec s o :
  sisdisjoint rd_eqb s o = true <-> (forall x, rmem x s = true -> rmem x o = true -> False).
Proof. apply (sisdisjoint_spec rdata rd_eqb rd_eqb_refl rd_eqb_sym rd_eqb_trans). Qed.

(* Set(items) / update(iterable): duplicates collapse, also inside the argument *)
Theorem sof_list_spec l x : ND (sof_list rd_eqb l) /\ rmem x (sof_list rd_eqb l) = rmem x l.
Proof.
  split; [apply ND_supdate; constructor|].
  unfold sof_list, rmem. rewrite (mem_supdate rdata rd_eqb rd_eqb_sym rd_eqb_trans). reflexivity.
Qed.

Theorem supdate_spec s l x :
  ND s -> ND (supdate rd_eqb s l) /\ rmem x (supdate rd_eqb s l) = rmem x s || rmem x l.
Proof.
  intros H. split; [apply ND_supdate, H|].
  apply (mem_supdate rdata rd_eqb rd_eqb_sym rd_eqb_trans).
Qed.

(* remove: ValueError (and no change) when absent; otherwise exactly the equal member goes,
   the others keep their order *)
Theorem sremove_spec s x :
  ND s ->
  (rmem x s = false -> sremove rd_eqb x s = Lib eValueError) /\
  (rmem x s = true ->
     sremove rd_eqb x s = Ok (filter (fun k => negb (rd_eqb k x)) s) /\
     forall y, rmem y (filter (fun k => negb (rd_eqb k x)) s) = rmem y s && negb (rd_eqb y x)).
Proof.
  intros H. unfold sremove, rmem. split; intros E; rewrite E; [reflexivity|].
  rewrite (sdel_filter rdata rd_eqb rd_eqb_sym rd_eqb_trans) by exact H.
  split; [reflexivity|]. intros y.
  apply (mem_filter rdata rd_eqb _ y s (neq_compat rdata rd_eqb rd_eqb_sym rd_eqb_trans x)).
Qed.

Theorem sdiscard_spec s x y :
  ND s -> rmem y (sdiscard rd_eqb x s) = rmem y s && negb (rd_eqb y x).
Proof. intros H. apply (mem_sdel rdata rd_eqb rd_eqb_sym rd_eqb_trans), H. Qed.

(* pop: the newest member; KeyError exactly on the empty set *)
Theorem spop_spec (s : list rdata) :
  (s = [] -> spop s = Internal iKeyError) /\
  (forall x s', spop s = Ok (x, s') -> s = s' ++ [x]) /\
  (s <> [] -> exists x s', spop s = Ok (x, s')).
Proof.
  split; [intros ->; reflexivity|]. split; [intros x s'; apply spop_snoc|].
  induction s as [|k r IH]; [congruence|]. intros _. cbn.
  destruct r as [|k2 r2]; [eauto|].
  destruct IH as (x & s' & E); [discriminate|]. rewrite E. eauto.
Qed.

(* s[i] is the i-th member in insertion order *)
Theorem sget_spec (s : list rdata) i :
  0 <= i -> sget s i = match nth_error s (Z.to_nat i) with Some x => Ok x | None => Internal iStopIteration end.
Proof. intros H. unfold sget. rewrite (proj2 (Z.ltb_ge i 0) H). reflexivity. Qed.

(* The algebra at the level of the machine: one step between duplicate-free operands, from any
   state (a register is aliased only with itself); in a reachable state the operands are
   duplicate-free by the invariant. *)
Lemma sstep_inplace (st : list sset) w a r o s os :
  nth_error st r = Some s -> nth_error st o = Some os -> ND s -> ND os -> inplace_alg w = Some a ->
  exists s', sstep st (SInpl w r (Some o)) = (set_nth st r s', N) /\
    ND s' /\ (forall x, rmem x s' = alg_bool a (rmem x s) (rmem x os)) /\
    (r <> o -> s' = alg_order rdata rd_eqb a s os).
Proof.
  intros Es Eo Hs Ho Ea.
  assert (Hsame : Nat.eqb r o = true -> os = s) by (intros E; eapply same_reg; eassumption).
  cbn [sstep]. rewrite Es, Eo, Ea. eexists. split; [reflexivity|].
  split; [apply ND_salg; assumption|]. split.
  - intros x. apply set_alg_mem; assumption.
  - intros Hne. apply Nat.eqb_neq in Hne. rewrite Hne. apply set_alg_order; assumption.
Qed.

Theorem set_machine_inplace ops w a r o s os :
  let st := sexec [] ops in
  nth_error st r = Some s -> nth_error st o = Some os -> inplace_alg w = Some a ->
  exists s', sstep st (SInpl w r (Some o)) = (set_nth st r s', N) /\
    ND s' /\ (forall x, rmem x s' = alg_bool a (rmem x s) (rmem x os)) /\
    (r <> o -> s' = alg_order rdata rd_eqb a s os).
Proof.
  cbv zeta. intros Es Eo. apply sstep_inplace; try assumption; eapply set_machine_nodup; eassumption.
Qed.

Lemma sstep_copying (st : list sset) w d r o s os st' :
  nth_error st r = Some s -> nth_error st o = Some os -> ND s -> ND os ->
  assign st d (salg (func_alg w) s os false) = Some st' ->
  sstep st (SFunc w d r (Some o)) = (st', N) /\
  ND (salg (func_alg w) s os false) /\
  (forall x, rmem x (salg (func_alg w) s os false) = alg_bool (func_alg w) (rmem x s) (rmem x os)) /\
  salg (func_alg w) s os false = alg_order rdata rd_eqb (func_alg w) s os.
Proof.
  intros Es Eo Hs Ho Ed. cbn [sstep]. rewrite Es, Eo. unfold sclone. rewrite Ed.
  split; [reflexivity|]. split; [apply ND_salg; try assumption; discriminate|]. split.
  - intros x. apply set_alg_mem; try assumption. discriminate.
  - apply set_alg_order; assumption.
Qed.

Theorem set_machine_copying ops w d r o s os st' :
  let st := sexec [] ops in
  nth_error st r = Some s -> nth_error st o = Some os ->
  assign st d (salg (func_alg w) s os false) = Some st' ->
  sstep st (SFunc w d r (Some o)) = (st', N) /\
  ND (salg (func_alg w) s os false) /\
  (forall x, rmem x (salg (func_alg w) s os false) = alg_bool (func_alg w) (rmem x s) (rmem x os)) /\
  salg (func_alg w) s os false = alg_order rdata rd_eqb (func_alg w) s os.
Proof.
  cbv zeta. intros Es Eo. apply sstep_copying; try assumption; eapply set_machine_nodup; eassumption.
Qed.

Lemma sstep_pred (st : list sset) w r o s os :
  nth_error st r = Some s -> nth_error st o = Some os -> ND s -> ND os ->
  sstep st (SPred w r (Some o)) = (st, ob (spred w s os)) /\
  (spred PEq s os = true <-> forall x, rmem x s = rmem x os) /\
  (spred PSubset s os = true <-> forall x, rmem x s = true -> rmem x os = true) /\
  (spred PSuperset s os = true <-> forall x, rmem x os = true -> rmem x s = true) /\
  (spred PDisjoint s os = true <-> forall x, rmem x s = true -> rmem x os = true -> False) /\
  spred PNe s os = negb (spred PEq s os).
Proof.
  intros Es Eo Hs Ho. cbn [sstep]. rewrite Es, Eo. split; [reflexivity|].
  split; [apply set_eq_ignores_order; assumption|].
  split; [apply subset_spec|]. split; [apply superset_spec|]. split; [apply disjoint_spec|reflexivity].
Qed.

Theorem set_machine_pred ops w r o s os :
  let st := sexec [] ops in
  nth_error st r = Some s -> nth_error st o = Some os ->
  sstep st (SPred w r (Some o)) = (st, ob (spred w s os)) /\
  (spred PEq s os = true <-> forall x, rmem x s = rmem x os) /\
  (spred PSubset s os = true <-> forall x, rmem x s = true -> rmem x os = true) /\
  (spred PSuperset s os = true <-> forall x, rmem x os = true -> rmem x s = true) /\
  (spred PDisjoint s os = true <-> forall x, rmem x s = true -> rmem x os = true -> False) /\
  spred PNe s os = negb (spred PEq s os).
Proof.
  cbv zeta. intros Es Eo. apply sstep_pred; try assumption; eapply set_machine_nodup; eassumption.
Qed.
