(* Second half of C02 WITH an origin: what decode_rdata accepts under origin o encodes under o,
   and the encoding decodes (under o) to the same record. *)
From DV Require Import Base.Prelude Model.NameM Model.SchemaM Proofs.SchemaName Proofs.SchemaCodec
  Proofs.SchemaThm Proofs.SchemaFix Proofs.SchemaTable Proofs.SchemaOrigin.
From DV Require Proofs.NameValid Proofs.NameRel.
Open Scope Z_scope.

Section WithOrigin.
  Variable o : name.
  Hypothesis o_abs : is_absolute o = true.

  Lemma get_name_nok_origin : forall w rel e c v c',
    get_name w (Some o) rel e c = Ok (v, c') -> nok_origin o rel v.
  Proof.
    intros w rel e c v c' H. rewrite get_name_origin in H by (apply NameValid.absolute_ne, o_abs).
    inv_bind H. destruct x as [n k]. cbn [fst snd] in H.
    destruct (from_wire_abs_valid _ _ _ _ E) as [Habs Hval].
    assert (Vn : NameValid.Valid n) by (apply NameValid.validate_iff; exact Hval).
    destruct rel; [|injection H as <- _; right; repeat split; [exact Habs|exact Hval|discriminate]].
    inv_bind H. injection H as <- _. rename x into r.
    destruct (is_subdomain n o) eqn:Sd.
    - destruct (NameRel.rel_derel n o Vn Sd) as (r' & Hr & Hsplit & Hci & _ & Hci2).
      rewrite E0 in Hr. injection Hr as <-.
      left. split; [reflexivity|]. split.
      + (* the stripped prefix is relative *)
        destruct (skipn (length r) n) as [|s0 s'] eqn:Es.
        * apply NameRel.ci_equal_length in Hci. destruct o; discriminate.
        * rewrite Hsplit in Vn. eapply NameValid.Valid_prefix_relative; eauto.
      + eapply NameRel.Valid_ci; [symmetry; exact Hci2|exact Vn].
    - unfold relativize in E0. rewrite Sd in E0. injection E0 as <-.
      right. split; [exact Habs|]. split; [exact Hval|]. intros _. exact Sd.
  Qed.

  Lemma nok_origin_encodes : forall rel v, nok_origin o rel v -> exists b, NameM.to_wire v (Some o) false = Ok b.
  Proof.
    intros rel v [(_ & Hna & Hv)|(Habs & _ & _)]; unfold NameM.to_wire.
    - rewrite Hna, o_abs.
      assert (Hw : wire_length v + wire_length o <= 255).
      { destruct Hv as (_ & Hw & _). rewrite NameValid.wire_length_app in Hw. exact Hw. }
      destruct (wire_length v + wire_length o >? 255) eqn:E; [lia|]. eauto.
    - rewrite Habs. eauto.
  Qed.

  Theorem schema_fixed_point_origin_thm : forall fs ck wire cur rdlen vs,
    schema_wf fs = true ->
    decode_rdata (Some o) fs ck wire cur rdlen = Ok vs ->
    exists w', encode_rdata (Some o) fs ck vs = Ok w' /\
               decode_rdata (Some o) fs ck w' 0 (length w') = Ok vs.
  Proof.
    exact (fixed_point_gen (Some o) (nok_origin o) nok_origin_encodes get_name_nok_origin (hname_origin o o_abs)).
  Qed.
End WithOrigin.

(* table level: for an entry whose two sides agree on the origin flags *)
Theorem table_fixed_point_origin_thm : forall tbl o e w r ck wire cur rdlen vs,
  forallb entry_ok tbl = true -> In e tbl -> entry_origin_ok e = true ->
  e_codec e = CSchema w r ck -> is_absolute o = true ->
  decode_rdata (Some o) (map fst r) ck wire cur rdlen = Ok vs ->
  exists w', encode_rdata (Some o) (map fst w) ck vs = Ok w' /\
             decode_rdata (Some o) (map fst r) ck w' 0 (length w') = Ok vs.
Proof.
  intros tbl o e w r ck wire cur rdlen vs Ht Hin Hor Hc Ho Hd.
  rewrite forallb_forall in Ht. specialize (Ht e Hin).
  rewrite (entry_origin_ok_decode e w r ck _ _ _ _ Ht Hor Hc) in Hd.
  destruct (schema_fixed_point_origin_thm o Ho (map fst w) ck wire cur rdlen vs (entry_ok_wf e w r ck Ht Hc) Hd) as (w' & H1 & H2).
  exists w'. rewrite (entry_origin_ok_decode e w r ck _ _ _ _ Ht Hor Hc). split; [exact H1|exact H2].
Qed.
