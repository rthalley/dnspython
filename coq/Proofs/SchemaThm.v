(* Theorems about the generic RDATA codec (no origin): round trip, validation of decoded
   records, exact consumption. *)
From DV Require Import Base.Prelude Model.NameM Model.SchemaM Proofs.SchemaName Proofs.SchemaCodec.
Open Scope Z_scope.

Definition nok_none (rel : bool) (n : name) : Prop := validate_labels n = Ok tt.

Lemma hname_none : forall rel n b W e c R,
  nok_none rel n -> NameM.to_wire n None false = Ok b -> sees W e c (b ++ R) ->
  get_name W None rel e c = Ok (n, (c + length b)%nat).
Proof.
  intros rel n b W e c R Hv He Hs. unfold NameM.to_wire in He.
  destruct (is_absolute n) eqn:Habs; [|discriminate]. injection He as <-.
  unfold get_name. rewrite (sees_from_wire W e c n R Hv Habs Hs).
  destruct rel; reflexivity.
Qed.

Lemma valid_nok_s : forall f v, valid_s f v = true -> nok_s nok_none f v.
Proof.
  intros [w m|n|w lo hi|rel] [z|x|nm] H; cbn in *; try exact Logic.I; try discriminate.
  unfold nok_none. destruct (validate_labels nm) as [[]| |]; [reflexivity|discriminate|discriminate].
Qed.

Lemma valid_nok_row : forall fs vs, valid_row fs vs = true -> nok_row nok_none fs vs.
Proof.
  induction fs as [|f fr IH]; intros [|v vr] H; cbn in *; try exact Logic.I; try discriminate.
  apply andb_prop in H as [H1 H2]. split; [apply valid_nok_s; assumption|apply IH; assumption].
Qed.

Lemma valid_nok_rows : forall row rows, forallb (valid_row row) rows = true -> Forall (nok_row nok_none row) rows.
Proof.
  intros row rows H. apply Forall_forall. intros r Hr. apply valid_nok_row.
  rewrite forallb_forall in H. apply H, Hr.
Qed.

Lemma valid_nok_f : forall f v, valid_f f v = true -> nok_f nok_none f v.
Proof.
  intros [s|lo|n|hi|m a row] [x|rows] H; cbn in *; try exact Logic.I; try discriminate.
  - apply valid_nok_s; assumption.
  - apply andb_prop in H as [H _]. apply andb_prop in H as [H _]. apply valid_nok_rows, H.
Qed.

Lemma valid_nok_fields : forall fs vs, valid_fields fs vs = true -> nok_fields nok_none fs vs.
Proof.
  induction fs as [|f fr IH]; intros [|v vr] H; cbn in *; try exact Logic.I; try discriminate.
  apply andb_prop in H as [H1 H2]. split; [apply valid_nok_f; assumption|apply IH; assumption].
Qed.

(* C02, first half: from_wire(to_wire(x)) = x, anywhere in a message *)
Theorem schema_roundtrip_none : forall fs ck vs b A P,
  schema_wf fs = true -> encode_rdata None fs ck vs = Ok b ->
  decode_rdata None fs ck (A ++ b ++ P) (length A) (length b) = Ok vs.
Proof.
  intros fs ck vs b A P Hwf He. apply (roundtrip_gen None nok_none hname_none); [exact Hwf| |exact He].
  apply valid_nok_fields. unfold encode_rdata, validate in He.
  destruct (valid_fields fs vs); [reflexivity|discriminate].
Qed.

(* byte-identical re-encoding of the decoded record *)
Corollary schema_reencode_after_roundtrip : forall fs ck vs b A P vs',
  schema_wf fs = true -> encode_rdata None fs ck vs = Ok b ->
  decode_rdata None fs ck (A ++ b ++ P) (length A) (length b) = Ok vs' ->
  encode_rdata None fs ck vs' = Ok b.
Proof.
  intros. rewrite (schema_roundtrip_none fs ck vs b A P) in H1 by assumption.
  injection H1 as <-. assumption.
Qed.

Lemma decode_rdata_ok : forall o fs ck wire cur rdlen vs,
  decode_rdata o fs ck wire cur rdlen = Ok vs <->
  (cur + rdlen <= length wire)%nat /\ dec_fields wire o fs (cur + rdlen) cur = Ok (vs, (cur + rdlen)%nat) /\
  validate fs ck vs = true.
Proof. intros. exact (framed_ok (fun W => dec_fields W o fs) (validate fs ck) wire cur rdlen vs). Qed.

Theorem decode_validates : forall o fs ck wire cur rdlen vs,
  decode_rdata o fs ck wire cur rdlen = Ok vs -> validate fs ck vs = true.
Proof. intros o fs ck wire cur rdlen vs H. apply decode_rdata_ok in H. apply H. Qed.

Theorem exact_consumption : forall o fs ck wire cur rdlen vs,
  decode_rdata o fs ck wire cur rdlen = Ok vs ->
  (cur + rdlen <= length wire)%nat /\
  dec_fields wire o fs (cur + rdlen) cur = Ok (vs, (cur + rdlen)%nat).
Proof. intros o fs ck wire cur rdlen vs H. apply decode_rdata_ok in H. split; apply H. Qed.

(* the reader stopping anywhere but at the declared end is a format error *)
Theorem inexact_consumption_is_formerror : forall o fs ck wire cur rdlen vs c,
  (cur <= length wire)%nat -> (rdlen <= length wire - cur)%nat ->
  dec_fields wire o fs (cur + rdlen) cur = Ok (vs, c) -> c <> (cur + rdlen)%nat ->
  decode_rdata o fs ck wire cur rdlen = Lib eFormError.
Proof.
  intros o fs ck wire cur rdlen vs c H1 H2 Hd Hc.
  exact (framed_inexact (fun W => dec_fields W o fs) _ wire cur rdlen vs c Hd Hc H1 H2).
Qed.
