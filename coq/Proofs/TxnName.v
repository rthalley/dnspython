(* C10: owner-name facts used by the transaction refinement.
   dict keys are Names compared case-insensitively (name_eqb); `ck` is the canonical key.
   validate_name (what the zone stores: relative or absolute per zone.relativize) and canon (the
   reference model's absolute spelling) fail together and otherwise denote the same owner. *)
From DV Require Import Base.Prelude Model.NameM Model.TxnM.
From DV Require Import Proofs.NameValid Proofs.NameOrder Proofs.NameRel.
Open Scope Z_scope.

Definition ck (n : name) : list label := map lower_l n.

Lemma name_eqb_ck a b : name_eqb a b = true <-> ck a = ck b.
Proof. apply name_eqb_iff_ci. Qed.

Lemma name_eqb_false_ck a b : name_eqb a b = false <-> ck a <> ck b.
Proof. rewrite <- name_eqb_ck. symmetry. apply not_true_iff_false. Qed.

Lemma name_eqb_other k' k0 k : name_eqb k' k0 = false -> name_eqb k' k = true -> name_eqb k0 k = false.
Proof. intros E0 E1. rewrite name_eqb_sym, <- (name_eqb_trans_l k' k k0 E1). exact E0. Qed.

Lemma ck_app a b : ck (a ++ b) = ck a ++ ck b.
Proof. apply map_app. Qed.

Lemma ck_nil_iff n : ck n = [] <-> n = [].
Proof. unfold ck. destruct n; cbn; split; intros H; try reflexivity; discriminate H. Qed.

Definition wfc (c : cfg) : Prop := Valid (c_origin c) /\ is_absolute (c_origin c) = true.

(* stored key k and absolute owner a denote the same owner *)
Definition key_rel (c : cfg) (k a : name) : Prop :=
  ck a = ck k ++ (if c_rel c then ck (c_origin c) else []).

Lemma key_rel_eqb c k1 a1 k2 a2 :
  key_rel c k1 a1 -> key_rel c k2 a2 -> name_eqb k1 k2 = name_eqb a1 a2.
Proof.
  unfold key_rel. intros H1 H2. apply eq_true_iff_eq. rewrite !name_eqb_ck, H1, H2.
  split; [intros ->; reflexivity|apply app_inv_tail].
Qed.

(* What _validate_name accepts, and how: the owner is a relative part r in front of a spelling s of the
   origin; the reference model stores under r ++ s, the zone under r (relativize) or r ++ s; a relative name
   is its own relative part.  The two fail together, with the same exception. *)
Lemma validate_name_spec c n :
  wfc c -> Valid n ->
  match validate_name c n, canon c n with
  | Ok k, Ok a =>
      exists r s, a = r ++ s /\ ci_equal s (c_origin c) /\ is_absolute r = false /\
                  k = (if c_rel c then r else a) /\ (is_absolute n = false -> r = n /\ s = c_origin c) /\
                  Valid a /\ is_absolute a = true /\ is_subdomain a (c_origin c) = true
  | Lib e1, Lib e2 => e1 = e2
  | Internal e1, Internal e2 => e1 = e2
  | _, _ => False
  end.
Proof.
  intros [Vo Ao] Vn. unfold validate_name, canon. destruct (is_absolute n) eqn:An.
  - destruct (is_subdomain n (c_origin c)) eqn:Sd; cbn [negb]; [|reflexivity].
    destruct (rel_derel n (c_origin c) Vn Sd) as (r & Hr & Hn & Hs & _).
    assert (is_absolute r = false) as Ar.
    { destruct (skipn (length r) n) as [|x b] eqn:Es.
      - apply ci_equal_length in Hs. destruct (c_origin c); [discriminate Ao|discriminate Hs].
      - rewrite Hn in Vn. exact (Valid_prefix_relative _ _ _ Vn). }
    destruct (c_rel c); [rewrite Hr|]; exists r, (skipn (length r) n);
      (split; [exact Hn|split; [exact Hs|split; [exact Ar|split; [reflexivity|split; [discriminate|auto]]]]]).
  - rewrite derelativize_relative by exact An.
    destruct (mk_name (n ++ c_origin c)) as [a|e|e] eqn:M; [|destruct (e =? eNameTooLong); reflexivity|reflexivity].
    apply mk_name_ok in M. destruct M as [-> V].
    assert (is_absolute (n ++ c_origin c) = true) as A
      by (destruct (c_origin c) as [|o0 o'] eqn:Eo; [discriminate|rewrite is_absolute_app; exact Ao]).
    assert (is_subdomain (n ++ c_origin c) (c_origin c) = true) as Sd
      by (apply is_subdomain_iff; split; [congruence|apply ci_suffix_app]).
    destruct (c_rel c); exists n, (c_origin c);
      (split; [reflexivity|split; [reflexivity|split; [exact An|split; [reflexivity|auto]]]]).
Qed.

Lemma validate_canon c n :
  wfc c -> Valid n ->
  match validate_name c n, canon c n with
  | Ok k, Ok a => key_rel c k a /\ Valid a /\ is_absolute a = true /\ is_subdomain a (c_origin c) = true
  | Lib e1, Lib e2 => e1 = e2
  | Internal e1, Internal e2 => e1 = e2
  | _, _ => False
  end.
Proof.
  intros W Vn. pose proof (validate_name_spec c n W Vn) as H.
  destruct (validate_name c n) as [k| |], (canon c n) as [a| |]; auto.
  destruct H as (r & s & -> & Hs & _ & -> & _ & H). split; [|exact H]. unfold key_rel.
  destruct (c_rel c); [rewrite ck_app; f_equal; exact Hs|rewrite app_nil_r; reflexivity].
Qed.

(* the absolute spelling is a fixed point: spelling an owner absolutely or relatively is the same
   owner for the reference model *)
Lemma canon_idem c n a : wfc c -> Valid n -> canon c n = Ok a -> canon c a = Ok a.
Proof.
  intros W Vn H. pose proof (validate_canon c n W Vn) as VC. rewrite H in VC.
  destruct (validate_name c n); try contradiction.
  destruct VC as (_ & _ & A & Sd). unfold canon. rewrite A, Sd. reflexivity.
Qed.

Lemma canon_valid c n a : wfc c -> Valid n -> canon c n = Ok a -> Valid a.
Proof.
  intros W Vn H. pose proof (validate_canon c n W Vn) as VC. rewrite H in VC.
  destruct (validate_name c n); try contradiction. tauto.
Qed.

Lemma canon_never_internal c n e : canon c n <> Internal e.
Proof.
  unfold canon. destruct (is_absolute n).
  - destruct (is_subdomain _ _); discriminate.
  - destruct (mk_name _) eqn:M; try discriminate.
    + destruct (_ =? _); discriminate.
    + exfalso. eapply mk_name_never_internal; eauto.
Qed.

(* the SOA owner test of _add only depends on the owner denoted *)
Lemma origin_ok_canon c n :
  wfc c -> Valid n ->
  origin_ok c n = match canon c n with Ok a => name_eqb a (c_origin c) | _ => false end.
Proof.
  intros [Vo Ao] Vn.
  assert (origin_ok c n = name_eqb n (c_origin c) || name_eqb n []) as ->
    by (unfold origin_ok, NameM.empty; destruct (c_rel c), (name_eqb n (c_origin c)), (name_eqb n []); reflexivity).
  unfold canon. destruct (is_absolute n) eqn:An.
  - (* absolute: not the empty name; equal to the origin only inside the zone *)
    assert (name_eqb n [] = false) as -> by (apply name_eqb_false_ck; destruct n; [discriminate An|discriminate]).
    rewrite orb_false_r. destruct (is_subdomain n (c_origin c)) eqn:Sd; [reflexivity|].
    apply name_eqb_false_ck. intros E. rewrite (proj2 (is_subdomain_iff n (c_origin c))) in Sd; [discriminate|].
    split; [congruence|exists [], n; auto].
  - (* relative: never the (absolute) origin; denotes the origin iff empty *)
    assert (name_eqb n (c_origin c) = false) as ->
      by (apply name_eqb_false_ck; intros H; apply (ci_equal_absolute n (c_origin c)) in H; congruence).
    cbn [orb]. destruct n as [|l n'].
    + cbn [app]. rewrite (mk_name_valid _ Vo), !name_eqb_refl. reflexivity.
    + transitivity false; [apply name_eqb_false_ck; discriminate|]. symmetry.
      destruct (mk_name _) as [a|e|e] eqn:M; [|destruct (e =? _); reflexivity|reflexivity].
      apply mk_name_ok in M. destruct M as [-> _]. apply name_eqb_false_ck. intros H.
      apply (f_equal (@length _)) in H. unfold ck in H. rewrite !map_length, app_length in H.
      cbn [length] in H. change label with (list Z) in *. lia.
Qed.

(* hence independent of zone.relativize and of the zone class *)
Lemma canon_cfg k1 r1 k2 r2 o n : canon (mkCfg k1 r1 o) n = canon (mkCfg k2 r2 o) n.
Proof. reflexivity. Qed.
