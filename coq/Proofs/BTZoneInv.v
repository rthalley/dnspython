(* C20: the invariant "derived state = specification of the content" and the facts
   about the delegation index that follow from it. *)
From DV Require Import Base.Prelude Model.NameM Model.BTZoneM
     Proofs.BTZoneOrder Proofs.BTZoneList Proofs.BTZoneSpec.
Open Scope Z_scope.

Definition apexname (c : cfg) : name := if c_rel c then empty else c_origin c.
Definition apexkey (c : cfg) : key := K (apexname c).

Lemma is_apex_key : forall c n, is_apex c n = true <-> K n = apexkey c.
Proof. intros. unfold is_apex, apexkey, apexname. destruct (c_rel c); apply name_eqb_ekey. Qed.

Lemma is_apex_false_key : forall c n, is_apex c n = false <-> K n <> apexkey c.
Proof. intros. apply false_iff, is_apex_key. Qed.

Lemma is_origin_apex : forall c n, is_origin c n = is_apex c n.
Proof. reflexivity. Qed.

(* names handed to a version are at or beneath the apex (dns.zone._validate_name) *)
Definition validk (c : cfg) (k : key) : Prop := below k (apexkey c).

Lemma valid_sbelow_not_apex : forall c k n, validk c n -> sbelow k n -> k <> apexkey c.
Proof.
  intros c k n Hv Hs ->. eapply sbelow_irrefl. eapply sbelow_below_trans; eauto.
Qed.

Record Inv (c : cfg) (v : ver) : Prop := {
  inv_sn : sorted (v_nodes v);
  inv_sd : sorted (v_delegs v);
  inv_v : forall k, In k (keys (v_nodes v)) -> validk c k;
  inv_nd : forall n nd, In (n, nd) (v_nodes v) -> NoDup (map fst (nrds nd));
  inv_f : forall n nd, In (n, nd) (v_nodes v) -> nflags nd = flags_of c (v_nodes v) (n, nd);
  inv_d : forall k, In k (keys (v_delegs v)) <-> (owner c (v_nodes v) k /\ ~ occk c (v_nodes v) k) }.

Lemma owner_unfold : forall c l k,
    owner c l k <-> exists m nd, In (m, nd) l /\ K m = k /\ has_ns nd = true /\ k <> apexkey c.
Proof.
  intros. unfold owner, ns_owner. cbn [fst snd]. split.
  - intros (m & nd & Hin & H & E). apply andb_true_iff in H as [H1 H2]. apply negb_true_iff in H2.
    apply is_apex_false_key in H2. exists m, nd. subst k. auto.
  - intros (m & nd & Hin & E & H1 & H2). exists m, nd. subst k. repeat split; auto.
    apply andb_true_iff. split; auto. apply negb_true_iff, is_apex_false_key; auto.
Qed.

(* a new node list described relative to an old one: every entry whose key is not K n is kept
   with its value transformed by tr; the entry at K n is en (None: no such entry) *)
Definition Desc (l l' : nodes_t) (n : name) (en : option (name * node)) (tr : name -> node -> node) : Prop :=
  forall k' nd', In (k', nd') l' <->
                 ((K k' <> K n /\ exists nd, In (k', nd) l /\ nd' = tr k' nd) \/
                  (en = Some (k', nd') /\ K k' = K n)).

Lemma Desc_keys : forall l l' n en tr, Desc l l' n en tr ->
    forall k, In k (keys l') -> In k (keys l) \/ k = K n.
Proof.
  intros l l' n en tr D k H. apply keys_in in H as (k' & nd' & Hin & <-).
  apply D in Hin as [[_ (nd & Hin & _)]|[_ Hk]]; [left; eapply in_keys; eauto|right; exact Hk].
Qed.

(* occk c l is occP (owner c l) *)
Definition occP (O : key -> Prop) (k : key) : Prop := exists o, O o /\ sbelow k o.

(* O and O' differ at most at n *)
Definition agree_off (n : key) (O O' : key -> Prop) : Prop := forall x, x <> n -> (O' x <-> O x).

(* outside the subtree of n nothing changes; in particular n itself stays as occluded as it was *)
Lemma occP_outside : forall O O' n k, agree_off n O O' -> ~ sbelow k n -> (occP O' k <-> occP O k).
Proof.
  intros O O' n k H Hk.
  split; intros (o & Ho & Hs); exists o; (split; [apply H; [intros ->; auto|exact Ho]|exact Hs]).
Qed.

(* an owner that is itself occluded, or that stays what it was, changes nothing *)
Lemma occP_same : forall O O' n,
    agree_off n O O' -> occP O n \/ (O' n <-> O n) -> forall k, occP O' k <-> occP O k.
Proof.
  intros O O' n H [(o2 & Ho2 & Hs2)|Hn] k.
  - assert (Hne : o2 <> n) by (intros ->; eapply sbelow_irrefl; eauto).
    assert (Ho2' : O' o2) by (apply H; auto).
    split; intros (o & Ho & Hs); destruct (key_eq_dec o n) as [->|Hon].
    1,3: exists o2; split; [assumption|eapply sbelow_below_trans; [exact Hs|apply sbelow_below; exact Hs2]].
    all: exists o; split; [apply H; assumption|assumption].
  - assert (E : forall x, O' x <-> O x) by (intros x; destruct (key_eq_dec x n) as [->|]; auto).
    split; intros (o & Ho & Hs); exists o; (split; [apply E; exact Ho|exact Hs]).
Qed.

(* a new owner occludes its subtree in addition *)
Lemma occP_add_top : forall O O' n,
    agree_off n O O' -> O' n -> forall k, occP O' k <-> (occP O k \/ sbelow k n).
Proof.
  intros O O' n H Hn k. split.
  - intros (o & Ho & Hs). destruct (key_eq_dec o n) as [->|Hon]; [right; exact Hs|].
    left. exists o. split; [apply H; assumption|exact Hs].
  - intros [(o & Ho & Hs)|Hs]; [|exists n; auto].
    destruct (key_eq_dec o n) as [->|Hon]; [exists n; auto|]. exists o. split; [apply H; assumption|exact Hs].
Qed.

(* when an unoccluded owner n goes, the owners strictly beneath n are what occludes its subtree *)
Lemma occP_remove_top : forall O O' n,
    agree_off n O O' -> ~ O' n -> ~ occP O n ->
    forall k, sbelow k n -> (occP O' k <-> exists o, O o /\ sbelow o n /\ sbelow k o).
Proof.
  intros O O' n H Hn' Hn k Hk. split.
  - intros (o & Ho & Hs). assert (Hon : o <> n) by (intros ->; auto).
    apply H in Ho; [|exact Hon]. exists o. split; [exact Ho|]. split; [|exact Hs].
    destruct (prefix_comparable o n k) as [Hc|Hc]; [apply Hs|apply Hk| |].
    + destruct (below_dec_eq n o Hc) as [E|Hs']; [congruence|]. exfalso. apply Hn. exists o. auto.
    + destruct (below_dec_eq o n Hc) as [E|Hs']; [congruence|exact Hs'].
  - intros (o & Ho & Hon & Hko). exists o. split; [|exact Hko]. apply H; [|exact Ho].
    intros ->. eapply sbelow_irrefl; eauto.
Qed.

(* a change of the list at n changes the owners at most at K n, where the new entry decides *)
Lemma Desc_owner_off : forall c l l' n en tr,
    Desc l l' n en tr -> (forall k nd, nrds (tr k nd) = nrds nd) -> agree_off (K n) (owner c l) (owner c l').
Proof.
  intros c l l' n en tr D Htr k Hk.
  pose proof (fun m nd => ns_owner_ext c m m _ nd eq_refl (Htr m nd)) as Hns.
  unfold owner. split; intros (m & nd & Hin & Ho & <-).
  - apply D in Hin as [[_ (nd0 & Hin & ->)]|[_ E]]; [|contradiction]. rewrite Hns in Ho. eauto.
  - exists m, (tr m nd). rewrite Hns. repeat split; auto. apply D. eauto.
Qed.

(* whether the node stored under a name (if any) holds an NS rdataset *)
Definition hns (o : option node) : bool := match o with Some nd => has_ns nd | None => false end.

Lemma owner_get : forall c (l : nodes_t) n,
    sorted l -> (owner c l (K n) <-> hns (al_get n l) = true /\ is_apex c n = false).
Proof.
  intros c l n S. rewrite owner_unfold, is_apex_false_key. split.
  - intros (m & nd & Hin & E & Hns & Hna). rewrite (al_get_in l m n nd S Hin E). auto.
  - intros [H Hna]. destruct (al_get n l) as [nd|] eqn:G; [|discriminate].
    apply al_get_some in G as (m & Hin & E). exists m, nd. auto.
Qed.

Lemma Desc_owner_at : forall c l l' n en tr,
    Desc l l' n en tr -> (forall e, en = Some e -> K (fst e) = K n) ->
    (owner c l' (K n) <-> hns (option_map snd en) = true /\ is_apex c n = false).
Proof.
  intros c l l' n en tr D He. rewrite owner_unfold, is_apex_false_key. split.
  - intros (m & nd & Hin & E & Hns & Hna). apply D in Hin as [[Hk _]|[-> _]]; [congruence|auto].
  - intros [H Hna]. destruct en as [[m nd]|]; [|discriminate]. pose proof (He _ eq_refl) as E.
    exists m, nd. repeat split; auto. apply D. auto.
Qed.

Lemma reln_sub_strict : forall n x, is_subdomain n x = true -> (reln n x =? rSUB) = strictly_beneath n x.
Proof.
  intros n x H. unfold strictly_beneath. rewrite H. cbn [andb].
  unfold is_subdomain in H. apply orb_true_iff in H.
  destruct (name_eqb n x) eqn:E.
  - apply name_eqb_ekey, reln_equal_ekey in E. apply Z.eqb_eq in E. rewrite E. reflexivity.
  - destruct H as [H|H]; [rewrite H; reflexivity|].
    apply reln_equal_ekey, name_eqb_ekey in H. congruence.
Qed.

Lemma gd_sound : forall (d : delegs_t) n cut sub,
    sorted d -> get_delegation d n = (Some cut, sub) ->
    In (cut, tt) d /\ below (K n) (K cut) /\ sub = strictly_beneath n cut.
Proof.
  intros d n cut sub S H. unfold get_delegation in H. pose proof (seek_prev_spec d n S) as Hp.
  destruct (c_prev (c_seek d n)) as [[[g []]|] cur]; [|inversion H]. cbn [fst] in Hp.
  destruct ((reln n g =? rSUB) || (reln n g =? rEQUAL)) eqn:Er; inversion H; subst.
  split; [apply Hp|]. split; [apply is_subdomain_below, Er|apply reln_sub_strict, Er].
Qed.

Definition antichain (d : delegs_t) : Prop :=
  forall a b, In a (keys d) -> In b (keys d) -> ~ sbelow a b.

Lemma gd_complete : forall (d : delegs_t) n x,
    sorted d -> antichain d -> In (x, tt) d -> below (K n) (K x) ->
    exists x', K x' = K x /\ get_delegation d n = (Some x', strictly_beneath n x).
Proof.
  intros d n x S A Hin Hb. unfold get_delegation. pose proof (seek_prev_spec d n S) as Hp.
  destruct (c_prev (c_seek d n)) as [[[g []]|] cur]; cbn [fst] in Hp.
  - (* g is the greatest element <= n, x is one of them: g is beneath x, and then x *)
    destruct Hp as (Hg & Hgn & Hmax).
    assert (Hgx : below (K g) (K x)).
    { eapply prefix_convex; [apply prefix_refl|exact Hb|exact (Hmax x tt Hin (below_kle _ _ Hb))|exact Hgn]. }
    assert (Egx : K g = K x).
    { destruct (below_dec_eq _ _ Hgx) as [Eq|Hs]; [exact Eq|]. exfalso.
      apply (A (K g) (K x)); [apply (in_keys _ g tt), Hg|apply (in_keys _ x tt), Hin|exact Hs]. }
    assert (Hsub : is_subdomain n g = true) by (apply is_subdomain_below; rewrite Egx; exact Hb).
    exists g. split; [exact Egx|]. change ((reln n g =? rSUB) || (reln n g =? rEQUAL)) with (is_subdomain n g).
    rewrite Hsub, (reln_sub_strict n g Hsub). f_equal. apply strictly_beneath_ext; auto.
  - exfalso. apply (klt_irrefl (K n)). eapply kcmp_lt_le_trans; [exact (Hp x tt Hin)|exact (below_kle _ _ Hb)].
Qed.

Lemma gd_none_false : forall (d : delegs_t) n sub, get_delegation d n = (None, sub) -> sub = false.
Proof.
  intros d n sub G. unfold get_delegation in G. destruct (c_prev (c_seek d n)) as [[[g u]|] cur]; [|inversion G; auto].
  destruct ((reln n g =? rSUB) || (reln n g =? rEQUAL)); inversion G; auto.
Qed.

Lemma gd_none : forall (d : delegs_t) n,
    sorted d -> (forall x, In x (keys d) -> ~ below (K n) x) -> get_delegation d n = (None, false).
Proof.
  intros d n S H. destruct (get_delegation d n) as [[cut|] sub] eqn:G.
  - apply gd_sound in G as (Hin & Hb & _); auto. exfalso. apply (H (K cut)); auto. apply (in_keys _ cut tt); auto.
  - rewrite (gd_none_false d n sub G). reflexivity.
Qed.

Section WithInv.
  Variable c : cfg.
  Variable v : ver.
  Hypothesis HI : Inv c v.

  Lemma inv_antichain : antichain (v_delegs v).
  Proof.
    intros a b Ha Hb Hs. apply (inv_d c v HI) in Ha as [_ Ha]. apply (inv_d c v HI) in Hb as [Hb _].
    apply Ha. exists b. auto.
  Qed.

  Lemma inv_gd : forall q,
      match get_delegation (v_delegs v) q with
      | (Some cut, sub) =>
          In (K cut) (keys (v_delegs v)) /\ below (K q) (K cut) /\ sub = strictly_beneath q cut
      | (None, sub) => sub = false /\ forall x, In x (keys (v_delegs v)) -> ~ below (K q) x
      end.
  Proof.
    intros q. destruct (get_delegation (v_delegs v) q) as [[cut|] sub] eqn:G.
    - apply gd_sound in G as (Hin & Hb & Hs); [|apply (inv_sd c v HI)].
      split; [apply (in_keys _ cut tt); exact Hin|auto].
    - split; [exact (gd_none_false _ _ _ G)|]. intros x Hx Hb. apply keys_in in Hx as (x0 & [] & Hin & <-).
      destruct (gd_complete (v_delegs v) q x0 (inv_sd c v HI) inv_antichain Hin Hb) as (x' & _ & G'). congruence.
  Qed.

  Lemma inv_deleg_keys : forall k,
      In k (keys (v_delegs v)) <-> In k (map K (delegations_of c (v_nodes v))).
  Proof. intros. rewrite delegations_of_in. apply (inv_d c v HI). Qed.

  Lemma inv_is_glue : forall n, deleg_is_glue (v_delegs v) n = occluded c (v_nodes v) n.
  Proof.
    intros n. unfold deleg_is_glue. destruct (occluded c (v_nodes v) n) eqn:Occ.
    - apply occluded_iff in Occ. destruct Occ as (o & Ho & Hs).
      destruct (topmost_owner c (v_nodes v) o Ho) as (o0 & H0 & Hb & Hn).
      assert (Hd : In o0 (keys (v_delegs v))) by (apply (inv_d c v HI); auto).
      apply keys_in in Hd as (x & [] & Hin & Ex).
      assert (Hs0 : sbelow (K n) (K x)) by (rewrite Ex; eapply sbelow_below_trans; eauto).
      destruct (gd_complete (v_delegs v) n x (inv_sd c v HI) inv_antichain Hin (sbelow_below _ _ Hs0))
        as (x' & Ex' & G).
      rewrite G. apply strictly_beneath_iff; auto.
    - destruct (get_delegation (v_delegs v) n) as [[cut|] sub] eqn:G; auto.
      apply gd_sound in G as (Hin & Hb & ->); [|apply (inv_sd c v HI)].
      destruct (strictly_beneath n cut) eqn:Es; auto. exfalso.
      apply occluded_false_iff in Occ. apply Occ. exists (K cut). split.
      + apply (inv_d c v HI). apply (in_keys _ cut tt); auto.
      + apply strictly_beneath_iff; auto.
  Qed.

  Lemma inv_deleg_keys_nodes : forall k, In k (keys (v_delegs v)) -> In k (keys (v_nodes v)).
  Proof.
    intros k H. apply (inv_d c v HI) in H as [(m & nd & Hin & _ & E) _]. subst k. eapply in_keys; eauto.
  Qed.

  Lemma inv_flags : forall n nd, In (n, nd) (v_nodes v) ->
      nflags nd = flagspec (is_apex c n) (occluded c (v_nodes v) n) (has_ns nd).
  Proof. intros. rewrite (inv_f c v HI n nd H). apply flags_of_eq. Qed.

  (* the index holds the names that are delegation points *)
  Lemma inv_mem_b : forall n,
      al_mem n (v_delegs v) =
      negb (is_apex c n) && negb (occluded c (v_nodes v) n) && hns (al_get n (v_nodes v)).
  Proof.
    intros n. apply Bool.eq_true_iff_eq.
    rewrite al_mem_iff, (inv_d c v HI), (owner_get c _ n (inv_sn c v HI)), <- occluded_false_iff.
    rewrite !andb_true_iff, !negb_true_iff. tauto.
  Qed.

  (* the node stored under a name, whatever the spelling of its key *)
  Lemma inv_entry : forall n n0 nd, In (n0, nd) (v_nodes v) -> K n0 = K n ->
      al_get n (v_nodes v) = Some nd /\
      nflags nd = flagspec (is_apex c n) (occluded c (v_nodes v) n) (has_ns nd) /\
      NoDup (map fst (nrds nd)) /\
      al_mem n (v_delegs v) = negb (is_apex c n) && negb (occluded c (v_nodes v) n) && has_ns nd.
  Proof.
    intros n n0 nd Hin E. pose proof (al_get_in _ n0 n nd (inv_sn c v HI) Hin E) as G.
    split; [exact G|]. split; [|split; [exact (inv_nd c v HI n0 nd Hin)|rewrite inv_mem_b, G; reflexivity]].
    rewrite <- (is_apex_ext c n0 n), <- (occluded_ext c _ n0 n) by exact E. apply inv_flags, Hin.
  Qed.
End WithInv.

(* the tests the implementation makes on a flags word *)
Lemma flagspec_tests : forall (a o h : bool),
    (Z.land (flagspec a o h) (Z.lor fORIGIN fGLUE) =? 0) = negb a && negb o /\
    (negb (Z.land (flagspec a o h) fDELEGATION =? 0)) = negb a && negb o && h /\
    (negb (Z.land (flagspec a o h) fGLUE =? 0)) = negb a && o.
Proof. intros [] [] []; cbn; auto. Qed.
