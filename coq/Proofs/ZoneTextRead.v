(* C09: what a record line does when its TTL, class and type fields are spelled as expected or
   omitted: the printer's lines and the lines of a $GENERATE expansion are of this form. *)
From DV Require Import Base.Prelude Model.NameM Model.ZoneTextM Proofs.ZoneTextBase Proofs.ZoneTextInv
  Proofs.ZoneTextRespell.
Open Scope Z_scope.

Definition opt_tok (o : option (list Z)) : list tok :=
  match o with Some v => [TId v] | None => [] end.

(* a type field as the printer writes it *)
Definition type_text_ok (t : list Z) (ty : Z) : Prop :=
  type_from_text t = Some ty /\ class_from_text t = None /\ ttl_from_text t = Lib eBadTTL.

Definition after_ttl (s : rstate) (explicit : bool) (ttl : Z) : rstate :=
  if explicit then set_lttl s ttl else s.

Definition after_soa (s : rstate) (ty : Z) (rd : rdata) : rstate :=
  if negb (dttl_known s) && (ty =? tSOA) then
    match nth_error rd 6 with
    | Some (VInt m) => set_dttl s m
    | _ => s
    end
  else s.

Definition after_ttlo (s : rstate) (ttlo : option (list Z)) (ttl : Z) : rstate :=
  match ttlo with Some _ => set_lttl s ttl | None => s end.

Lemma after_ttl_ttlo s (explicit : bool) tv ttl :
  after_ttl s explicit ttl = after_ttlo s (if explicit then Some tv else None) ttl.
Proof. destruct explicit; reflexivity. Qed.

(* after_soa touches the default TTL only, and only while there is none *)
Lemma after_soa_frame s ty rd :
  corigin (after_soa s ty rd) = corigin s /\ zorigin (after_soa s ty rd) = zorigin s /\
  lastname (after_soa s ty rd) = lastname s /\ zn (after_soa s ty rd) = zn s.
Proof.
  unfold after_soa. destruct (_ && _); [destruct (nth_error rd 6) as [[]|]|]; repeat split.
Qed.

Lemma zn_after_soa s ty rd : zn (after_soa s ty rd) = zn s.
Proof. apply after_soa_frame. Qed.

Lemma after_soa_known s ty rd : dttl_known s = true -> after_soa s ty rd = s.
Proof. intros H. unfold after_soa. rewrite H. reflexivity. Qed.

Lemma after_soa_other s ty rd : ty <> tSOA -> after_soa s ty rd = s.
Proof. intros H. unfold after_soa. apply Z.eqb_neq in H. rewrite H, andb_false_r. reflexivity. Qed.

(* the SOA-minimum step of rr_fields when the TTL is already known *)
Lemma soa_default s (t : Z) ty rd :
  (if negb (dttl_known s) && (ty =? tSOA)
   then match nth_error rd 6 with
        | Some (VInt m) => (Some t, set_dttl s m)
        | _ => (Some t, s)
        end
   else (Some t, s)) = (Some t, after_soa s ty rd).
Proof. unfold after_soa. destruct (_ && _); [destruct (nth_error rd 6) as [[]|]|]; reflexivity. Qed.

(* [ttl] [class] type rdata...: the TTL is spelled (any spelling), or omitted and taken from
   $TTL or else from the last explicit TTL *)
Lemma rr_fields_spelled c s co zo n ttlo ttl clso tyt ty toks lerr :
  match ttlo with
  | Some tv => ttl_from_text tv = Ok ttl
  | None => (dttl_known s = true /\ dttl s = ttl) \/
            (dttl_known s = false /\ lttl_known s = true /\ lttl s = ttl)
  end ->
  (forall cv, clso = Some cv -> class_from_text cv = Some (c_class c)) ->
  type_text_ok tyt ty ->
  rr_fields c s co zo n (opt_tok ttlo ++ opt_tok clso ++ TId tyt :: toks) lerr =
  (do rd <- parse_rdata ty toks lerr co (c_rel c) zo;
   do z' <- txn_add zo (c_rel c) (zn s) n ttl ty rd;
   Ok (set_zn (after_soa (after_ttlo s ttlo ttl) ty rd) z')).
Proof.
  intros Httl Hcls (Hty & Htc & Htt). unfold rr_fields, after_ttlo.
  assert (Hc : forall cv, clso = Some cv ->
            ttl_from_text cv = Lib eBadTTL /\ class_from_text cv = Some (c_class c))
    by (intros cv E; split; [eapply class_not_ttl|]; eauto).
  assert (Hd : ttlo = None ->
            (if dttl_known s then Some (dttl s) else if lttl_known s then Some (lttl s) else None) = Some ttl)
    by (intros ->; destruct Httl as [[-> <-]|(-> & -> & <-)]; reflexivity).
  (* the four spellings evaluate alike, each step with whichever fact applies *)
  destruct ttlo as [tv|]; destruct clso as [cv|]; try destruct (Hc cv eq_refl) as [Hc1 Hc2];
    cbn [opt_tok app get_ident bind];
    rewrite ?Httl, ?Hc1, ?Htt; cbn [get_ident bind];
    rewrite ?Hc2, ?Htc, Z.eqb_refl; cbn [negb get_ident bind];
    rewrite ?Htt; cbn [get_ident bind]; try rewrite (Hd eq_refl); rewrite Hty;
    (destruct (parse_rdata ty toks lerr co (c_rel c) zo); cbn [bind]; [|reflexivity|reflexivity]);
    cbv iota; rewrite soa_default, zn_after_soa; reflexivity.
Qed.

(* the whole record line: the owner is spelled (ownt) or inherited (leading white space) *)
Lemma rr_line_spelled c s co zo nabs (ownt : option (list Z)) ttlo ttl clso tyt ty toks lerr :
  corigin s = Some co -> zorigin s = Some zo ->
  match ownt with
  | Some v => as_name true v (Some co) false None = Ok nabs
  | None => lastname s = Some nabs
  end ->
  is_subdomain nabs zo = true ->
  match ttlo with
  | Some tv => ttl_from_text tv = Ok ttl
  | None => (dttl_known s = true /\ dttl s = ttl) \/
            (dttl_known s = false /\ lttl_known s = true /\ lttl s = ttl)
  end ->
  (forall cv, clso = Some cv -> class_from_text cv = Some (c_class c)) ->
  type_text_ok tyt ty ->
  rr_line c s (match ownt with Some _ => false | None => true end)
    (opt_tok ownt ++ opt_tok ttlo ++ opt_tok clso ++ TId tyt :: toks) lerr =
  (do n <- (if c_rel c then lift_name true (relativize nabs zo) else Ok nabs);
   do rd <- parse_rdata ty toks lerr co (c_rel c) zo;
   do z' <- txn_add zo (c_rel c) (zn s) n ttl ty rd;
   Ok (set_zn (after_soa (after_ttlo (set_last s nabs) ttlo ttl) ty rd) z')).
Proof.
  intros Hco Hzo Hown Hsub Httl Hcls Hty.
  assert (Hf : forall n, rr_fields c (set_last s nabs) co zo n
                 (opt_tok ttlo ++ opt_tok clso ++ TId tyt :: toks) lerr = _)
    by (intros n; apply rr_fields_spelled; [destruct ttlo; exact Httl|exact Hcls|exact Hty]).
  unfold rr_line. rewrite Hco.
  destruct ownt as [v|]; cbn [opt_tok app].
  - rewrite Hown. cbn [bind]. st_simpl. rewrite Hzo, Hsub. cbn [negb].
    destruct (if c_rel c then _ else _); cbn [bind]; [apply Hf|reflexivity|reflexivity].
  - rewrite (set_last_same s nabs Hown) in *.
    assert (E : exists t0 l0, opt_tok ttlo ++ opt_tok clso ++ TId tyt :: toks = t0 :: l0)
      by (destruct ttlo, clso; cbn; eauto).
    destruct E as (t0 & l0 & E). rewrite E. cbn [bind]. rewrite <- E.
    cbn [bind]. rewrite Hown, Hzo, Hsub. cbn [negb].
    destruct (if c_rel c then _ else _); cbn [bind]; [apply Hf|reflexivity|reflexivity].
Qed.
