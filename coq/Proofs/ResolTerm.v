(* Termination of the resolution loop within its lifetime.
   Measure: weight * (candidate names left + 100 ms slots left before the deadline)
            + 2 * servers left in this round + pending TCP retry.
   Every iteration either consumes a server of the round, or a pending TCP retry, or re-arms
   the round after a back-off of at least 100 ms, or moves to the next candidate name. *)
From DV Require Import Base.Prelude Model.NameM Model.ResolM Proofs.ResolBase.
Open Scope Z_scope.

Lemma rearm_budget_mono : forall d a b, a <= b -> (rearm_budget d b <= rearm_budget d a)%nat.
Proof.
  intros. unfold rearm_budget. assert ((d - b + 99) / 100 <= (d - a + 99) / 100) by (apply Z.div_le_mono; lia). lia.
Qed.

Lemma rearm_budget_step : forall d a b, a + 100 <= b -> b < d ->
  (rearm_budget d b + 1 <= rearm_budget d a)%nat.
Proof.
  intros. unfold rearm_budget.
  assert (0 <= (d - b + 99) / 100) by (apply Z.div_pos; lia).
  assert ((d - b + 99) / 100 + 1 <= (d - a + 99) / 100).
  { rewrite <- (Z.div_add _ 1 100) by lia. apply Z.div_le_mono; lia. }
  lia.
Qed.

(* the measure is a lexicographic pair packed into one number *)
Lemma lex_lt : forall w a b a' b' : nat,
  (b' < w)%nat -> (a' < a \/ (a' <= a /\ b' < b))%nat -> (w * a' + b' < w * a + b)%nat.
Proof. intros w a b a' b' Hb [H1|[H1 H2]]; nia. Qed.

Lemma observe_clock : forall o T clock q ob clock2,
  observe o T clock q = (ob, clock2) -> 0 <= o_dur o ->
  clock <= clock2 /\ clock2 <= clock + Z.max 0 T.
Proof.
  intros o T clock q ob clock2 H HD. unfold observe in H.
  destruct (is_timeout_reply (o_reply o) || (o_dur o >=? T)) eqn:E.
  - inversion H; subst. lia.
  - inversion H; subst. apply orb_false_iff in E. destruct E as [_ E]. lia.
Qed.

Lemma compute_timeout_inl : forall start L TO now T,
  compute_timeout start L TO now = inl T -> start <= now ->
  now - start < L /\ T <= L - (now - start).
Proof.
  intros start L TO now T H HS. unfold compute_timeout in H.
  destruct (now - start <? 0) eqn:E1; [lia|].
  destruct (now - start >=? L) eqn:E2; [discriminate|].
  inversion H; subst. lia.
Qed.

(* a clock set back by at most a second counts as no time elapsed, by more as the end of the lifetime *)
Lemma compute_timeout_inr : forall start L TO now d,
  compute_timeout start L TO now = inr d ->
  (L <= d \/ d < -1000) /\ (d = now - start \/ (-1000 <= now - start < 0 /\ d = 0)).
Proof.
  intros start L TO now d H. unfold compute_timeout in H.
  destruct (now - start <? 0) eqn:E1.
  - destruct (now - start <? -1000) eqn:E2.
    + inversion H; subst. lia.
    + destruct (0 >=? L) eqn:E3; [|discriminate]. inversion H; subst. lia.
  - destruct (now - start >=? L) eqn:E2; [|discriminate]. inversion H; subst. lia.
Qed.

Lemma remove_server_length : forall x l l', remove_server x l = Some l' -> length l = S (length l').
Proof.
  intros x l l' H. destruct (remove_server_split _ _ _ H) as (a & y & b & -> & -> & _).
  rewrite !app_length. simpl. lia.
Qed.

Section Term.
Variables (sc : nat -> outcome) (c : cfg) (start : Z).
Hypothesis Hdur : forall i, 0 <= o_dur (sc i).

Let n0 := length (c_servers c).
Let deadline := start + c_lifetime c.

Definition slots (s : st) (e : env) : nat := (length (s_qnames s) + rearm_budget deadline (e_clock e))%nat.
Definition round (s : st) : nat := (2 * length (s_current s) + (if s_retry_with_tcp s then 1 else 0))%nat.
Definition phi (s : st) (e : env) : nat := (weight c * slots s e + round s)%nat.

Definition TInv (s : st) (e : env) : Prop :=
  (length (s_current s) <= n0)%nat /\ (length (s_nameservers s) <= n0)%nat /\
  100 <= s_backoff s <= 2000 /\ start <= e_clock e /\ e_clock e <= Z.max start deadline.

(* every query is issued strictly before the deadline and is over by the deadline *)
Definition ev_in_lifetime (ev : event) : Prop :=
  start <= ev_start ev /\ ev_start ev - start < c_lifetime c /\ ev_timeout ev <= c_lifetime c - (ev_start ev - start).

(* the choice of the server consumes the pending retry or a server of the round, or re-arms the
   round after the back-off *)
Lemma choice_round : forall s e ns tcp backoff cur bo,
  choice c s ns tcp backoff cur bo -> TInv s e ->
  (backoff = 0 \/ backoff = s_backoff s) /\ 100 <= bo <= 2000 /\ (length cur <= n0)%nat /\
  ((2 * length cur + (if tcp then 1 else 2) <= round s)%nat \/
   (backoff = s_backoff s /\ 2 * length cur + 2 <= weight c)%nat).
Proof.
  unfold round, weight. fold n0.
  intros s e ns tcp backoff cur0 bo [R1 _ _|cur R1 R2|cur R1 R2 R3] (I1 & I2 & I3 & _); rewrite R1.
  - repeat split; lia.
  - rewrite R2 in *. simpl in *. destruct (_ || _); repeat split; lia.
  - rewrite R3 in I2. simpl in I2. repeat split; lia.
Qed.

Lemma asked_times : forall s e s1 ns ev,
  asked sc c start s e s1 ns ev -> TInv s e ->
  ev_in_lifetime ev /\ e_clock e <= ev_start ev <= ev_end ev /\ ev_end ev <= Z.max start deadline.
Proof.
  intros s e s1 ns ev (tcp & backoff & cur & bo & T & ob & clock2 & -> & -> & HC & HT & HO) HI.
  destruct (choice_round _ e _ _ _ _ _ HC HI) as (HB & _). destruct HI as (_ & _ & I3 & I4 & _).
  destruct (compute_timeout_inl _ _ _ _ _ HT ltac:(lia)) as (T1 & T2).
  destruct (observe_clock _ _ _ _ _ _ HO (Hdur _)) as (O1 & O2).
  unfold ev_in_lifetime, deadline. simpl. lia.
Qed.

Lemma step_decreases : forall s e s1 ns ev s',
  TInv s e -> asked sc c start s e s1 ns ev -> continues c s1 ev s' ->
  TInv s' (after_query e ev) /\ (phi s' (after_query e ev) < phi s e)%nat.
Proof.
  intros s e s1 ns ev s' HI HA HC.
  destruct (asked_times _ _ _ _ _ HA HI) as ((T1 & T2 & _) & T3 & T4).
  pose proof (rearm_budget_mono deadline (e_clock e) (ev_end ev) ltac:(lia)) as HM.
  destruct HA as (tcp & backoff & cur & bo & T & ob & clock2 & -> & -> & HCh & _).
  destruct (choice_round _ _ _ _ _ _ _ HCh HI) as (_ & HB & H1 & H2).
  destruct HI as (I1 & I2 & I3 & I4 & I5).
  set (s1 := serving s ns tcp cur bo) in *. set (ev := mk_event _ _ _ _ _ _ _ _ _) in *.
  (* a re-arm uses up a slot *)
  assert (H3 : backoff = s_backoff s ->
               (rearm_budget deadline (ev_end ev) + 1 <= rearm_budget deadline (e_clock e))%nat).
  { intros EB. assert (ES : ev_start ev = e_clock e + backoff) by reflexivity.
    pose proof (rearm_budget_step deadline (e_clock e) (ev_start ev) ltac:(lia) ltac:(unfold deadline; lia)).
    pose proof (rearm_budget_mono deadline (ev_start ev) (ev_end ev) ltac:(lia)). lia. }
  clearbody ev. clear HCh.
  assert (HW : weight c = (2 * n0 + 2)%nat) by reflexivity.
  destruct (continues_cases c _ ns _ _ HC eq_refl)
    as [(_ & _ & _ & nss & errs & -> & HD)|(_ & sk & q & rest & s0 & HR & -> & F1 & F2)].
  - assert (HN : (length nss <= n0)%nat).
    { destruct (drops _ _ _); [apply remove_server_length in HD; simpl in HD; lia|subst nss; exact I2]. }
    split; [repeat split; simpl; lia|].
    apply lex_lt; unfold round, slots in *; simpl.
    + destruct (_ && _); lia.
    + destruct H2 as [H2|(H2 & _)]; [right|left; specialize (H3 H2); lia]. split; [lia|].
      destruct tcp; [rewrite andb_false_r|destruct (is_trunc _)]; simpl in *; lia.
  - simpl in HR, F1, F2.
    assert (HN : (length (if s_have_request s0 then s_nameservers s0 else c_servers c) <= n0)%nat).
    { destruct (s_have_request s0); [rewrite F2; exact I2|reflexivity]. }
    split; [repeat split; simpl; lia|].
    apply lex_lt; unfold round, slots in *; simpl; [lia|]. left. rewrite HR, app_length. simpl. lia.
Qed.

Lemma loop_no_fuel_exhaustion : forall fuel s e,
  TInv s e -> (phi s e < fuel)%nat -> fst (fst (loop fuel sc c start s e)) <> FFuel.
Proof.
  induction fuel as [|fuel IH]; intros s e HI HF; [lia|].
  simpl. pose proof (step_spec sc c start s e) as S.
  destruct (step sc c start s e) as [[s' e']|[[f s'] e']] eqn:ES.
  - destruct S as (s1 & ns & ev & HA & HC & ->).
    destruct (step_decreases _ _ _ _ _ _ HI HA HC) as (HI' & HD). apply IH; auto. lia.
  - simpl. eapply step_no_fuel; eauto.
Qed.

Definition LInv (new : list event) (s : st) (e : env) : Prop := TInv s e /\ Forall ev_in_lifetime new.

(* the clock at the end exceeds max(start, deadline) by at most one back-off interval: the sleep
   after which the lifetime is found to be over *)
Definition LFin (new : list event) (f : final) (s' : st) (e' : env) : Prop :=
  start <= e_clock e' <= Z.max start deadline + 2000 /\ Forall ev_in_lifetime new /\
  forall errs d, f = FLifetime errs d -> d = e_clock e' - start /\ c_lifetime c <= d.

Lemma linv_step : forall tr s e s1 ns ev s',
  LInv tr s e -> asked sc c start s e s1 ns ev -> continues c s1 ev s' ->
  LInv (tr ++ [ev]) s' (after_query e ev).
Proof.
  intros tr s e s1 ns ev s' (HT & HF) HA HC. split.
  - eapply step_decreases; eauto.
  - apply Forall_app. split; [exact HF|]. constructor; [|constructor]. eapply asked_times; eauto.
Qed.

Lemma linv_stop : forall tr s e f s' e', LInv tr s e -> gives_up c start s e f s' e' -> LFin tr f s' e'.
Proof.
  intros tr s e f s' e' (HT & HF) G; pose proof HT as (_ & _ & I3 & I4 & I5);
    destruct G as [k _ _|_ _ _|ns tcp backoff cur bo d HC HTO];
    (split; [|split; [exact HF|]]); try discriminate; try lia.
  - destruct (choice_round _ e _ _ _ _ _ HC HT) as (HB & _). simpl. lia.
  - destruct (choice_round _ e _ _ _ _ _ HC HT) as (HB & _).
    intros errs d' E. injection E as _ <-. simpl. destruct (compute_timeout_inr _ _ _ _ _ HTO); lia.
Qed.

Lemma linv_end : forall tr s e s1 ns ev f s',
  LInv tr s e -> asked sc c start s e s1 ns ev -> ends c s1 ev f s' -> LFin (tr ++ [ev]) f s' (after_query e ev).
Proof.
  intros tr s e s1 ns ev f s' (HT & HF) HA HE.
  destruct (asked_times _ _ _ _ _ HA HT) as (T1 & T2 & T3). destruct HT as (_ & _ & _ & I4 & _).
  split; [simpl; lia|]. split; [apply Forall_app; split; [exact HF|constructor; [exact T1|constructor]]|].
  intros errs d Hf. destruct HE as [| | | |s2 r f s' _ _ E]; try discriminate.
  destruct r; simpl in E; inversion E; subst; discriminate.
Qed.
End Term.

(* the state in which the first request of a resolution is armed *)
Lemma first_request_state : forall c ch now s1,
  next_request c (init_st c ch) (c_qnames c) now = NRequest s1 ->
  (length (s_qnames s1) < length (c_qnames c))%nat /\
  s_have_request s1 = true /\ s_nameservers s1 = c_servers c /\ s_current s1 = c_servers c /\
  s_nameserver s1 = None /\ s_retry_with_tcp s1 = false /\ s_backoff s1 = 100.
Proof.
  intros c ch now s1 H. apply next_request_request in H.
  destruct H as (sk & q & rest & s0 & -> & -> & R3 & _). simpl in *. rewrite R3, app_length. simpl.
  repeat split; lia.
Qed.

Lemma tinv_first : forall c ch e s1,
  next_request c (init_st c ch) (c_qnames c) (e_clock e) = NRequest s1 -> TInv c (e_clock e) s1 e.
Proof.
  intros c ch e s1 ENR. destruct (first_request_state _ _ _ _ ENR) as (_ & _ & L2 & L3 & _ & _ & L5).
  unfold TInv. rewrite L2, L3, L5. repeat split; auto; lia.
Qed.

Theorem resolve_terminates_within_lifetime : forall sc c ch e f s' e',
  (forall i, 0 <= o_dur (sc i)) ->
  resolve_with (fuel_bound c) sc c ch e = (f, s', e') ->
  f <> FFuel /\
  e_clock e <= e_clock e' <= Z.max (e_clock e) (e_clock e + c_lifetime c) + 2000 /\
  (exists new, e_trace e' = e_trace e ++ new /\ Forall (ev_in_lifetime c (e_clock e)) new) /\
  (forall errs d, f = FLifetime errs d -> d = e_clock e' - e_clock e /\ c_lifetime c <= d).
Proof.
  intros sc c ch e f s' e' Hdur H.
  assert (HF : f <> FFuel).
  { unfold resolve_with in H.
    destruct (next_request c (init_st c ch) (c_qnames c) (e_clock e)) as [s1| | |] eqn:ENR;
      [|injection H as <- _ _; discriminate..].
    simpl in H. change f with (fst (fst (f, s', e'))). rewrite <- H.
    apply (loop_no_fuel_exhaustion sc c (e_clock e) Hdur); [eapply tinv_first; eassumption|].
    destruct (first_request_state _ _ _ _ ENR) as (L1 & _ & _ & L3 & _ & L4 & _).
    unfold phi, slots, round, fuel_bound. rewrite L3, L4.
    assert (rearm_budget (e_clock e + c_lifetime c) (e_clock e) = rearm_budget (c_lifetime c) 0) as ->.
    { unfold rearm_budget. do 2 f_equal. lia. }
    apply Nat.lt_le_trans with (weight c * S (length (s_qnames s1) + rearm_budget (c_lifetime c) 0))%nat.
    - rewrite Nat.mul_succ_r. unfold weight. lia.
    - rewrite Nat.add_1_r. apply Nat.le_trans with (2 := Nat.le_succ_diag_r _).
      apply Nat.mul_le_mono_l. lia. }
  split; [exact HF|].
  destruct (resolution_ind sc c ch e (LInv c (e_clock e)) (LFin c (e_clock e))) with (6 := H)
    as (new & HE & (Q1 & Q2 & Q3)); eauto using linv_step, linv_stop, linv_end.
  - intros s1 ENR. split; [eapply tinv_first; eassumption|constructor].
  - intros r f0 s1 _ E. split; [lia|]. split; [constructor|]. intros errs d ->. destruct r; inversion E.
Qed.
