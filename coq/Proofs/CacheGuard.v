(* C17 - the premise "every public method body is one `with self.lock:` block", made explicit.

   `atomic c` says whether the method behind call c is such a critical section.  A method that
   is not runs unprotected: it reads the shared object at some point (G_ubegin, the snapshot) and
   writes back what it computed from that snapshot later (G_uend) - other threads may run in
   between.  The guarded LTS `gstep` is the LTS of Proofs/CacheConc.v plus these two rules.

   guarded_linearizable : if every method is atomic, every guarded execution is an execution of
     CacheConc's LTS, hence linearizable.
   unlocked_put_loses_update : if `put` is not atomic the conclusion fails (a lost update).

   The table `atomic` for dns/resolver.py is regenerated from the source on every run
   (harness/pC17.py, generated_obligations) together with the theorems guard_ok_lru /
   guard_ok_cache that all its entries are true; the expected statement skeletons of the modelled methods are in
   Model/CacheSkel.v. *)
From DV Require Import Base.Prelude Model.CacheM Proofs.CacheConc.

Inductive meth := MGet | MPut | MFlush | MSetMax | MHitsFor | MHits | MMisses | MSnapshot | MReset.

Definition meth_of (c : call) : meth :=
  match c with
  | Get _ => MGet | Put _ _ => MPut | Flush _ => MFlush | SetMax _ => MSetMax
  | HitsFor _ => MHitsFor | Hits => MHits | Misses => MMisses | Snapshot => MSnapshot
  | ResetStats => MReset
  end.

Definition all_meths : list meth :=
  [MGet; MPut; MFlush; MSetMax; MHitsFor; MHits; MMisses; MSnapshot; MReset].

Lemma all_meths_complete : forall m, In m all_meths.
Proof. destruct m; cbn; repeat ((left; reflexivity) || right). Qed.

Lemma guard_all : forall (tbl : meth -> bool), forallb tbl all_meths = true ->
  forall c, tbl (meth_of c) = true.
Proof.
  intros tbl H c. rewrite forallb_forall in H. apply H. apply all_meths_complete.
Qed.

Section Guarded.
  Context {St : Type}.
  Variable step : call -> St -> clk -> res (ret * St * clk).
  Variable atomic : call -> bool.

  (* configuration: CacheConc's, plus for each thread the unprotected call in flight (if any)
     with the snapshot of the object it read *)
  Definition gconf := (@conf St * (nat -> option (call * St)))%type.

  Inductive glabel :=
  | GL (l : label)
  | GUBegin (t : nat) (c : call)
  | GUEnd (t : nat) (c : call) (ds : list Z).

  Definition rupd (f : nat -> option (call * St)) (t : nat) (v : option (call * St)) :=
    fun x => if Nat.eqb x t then v else f x.

  Inductive gstep : gconf -> glabel -> gconf -> Prop :=
  | G_lift : forall cf rc l cf',
      cstep step cf l cf' ->
      (forall t c, l = LAcq t -> cf_ph cf t = Waiting c -> atomic c = true) ->
      gstep (cf, rc) (GL l) (cf', rc)
  | G_ubegin : forall cf rc t c,
      cf_ph cf t = Waiting c -> atomic c = false -> rc t = None ->
      gstep (cf, rc) (GUBegin t c) (cf, rupd rc t (Some (c, cf_obj cf)))
  | G_uend : forall cf rc t c snap ds r s' k',
      cf_ph cf t = Waiting c -> rc t = Some (c, snap) ->
      Forall (fun d => 0 <= d) ds ->
      step c snap (mkClk (cf_now cf) ds) = Ok (r, s', k') ->
      gstep (cf, rc) (GUEnd t c ds)
            (mkConf s' (now k') (cf_lock cf) (upd (cf_ph cf) t (Released c r)), rupd rc t None).

  Inductive gexec : gconf -> list glabel -> gconf -> Prop :=
  | GE_nil : forall g, gexec g [] g
  | GE_cons : forall g l g1 ls g2, gstep g l g1 -> gexec g1 ls g2 -> gexec g (l :: ls) g2.

  Definition ginit (s : St) (t0 : Z) : gconf := (init_conf s t0, fun _ => None).

  Definition no_race (g : gconf) : Prop := forall t, snd g t = None.

  (* with every method atomic, the unprotected rules never fire: a guarded execution is an
     execution of CacheConc's LTS *)
  Lemma gexec_exec : (forall c, atomic c = true) ->
    forall g ls g', gexec g ls g' -> no_race g ->
    exists ls', ls = map GL ls' /\ exec step (fst g) ls' (fst g') /\ no_race g'.
  Proof.
    intros methods_atomic. induction 1 as [g|g l g1 ls g2 Hs He IH]; intros Hnr.
    - exists []. split; [reflexivity|]. split; [constructor|exact Hnr].
    - destruct Hs as [cf rc l0 cf' Hc Ha|cf rc t c Hph Hat Hr|cf rc t c snap ds r s' k' Hph Hr Hds Hst].
      + destruct IH as [ls' [-> [Hex Hnr']]]; [exact Hnr|].
        exists (l0 :: ls'). split; [reflexivity|]. split; [|exact Hnr'].
        cbn [fst] in *. econstructor; eauto.
      + rewrite methods_atomic in Hat. discriminate.
      + exfalso. specialize (Hnr t). cbn [snd] in Hnr. congruence.
  Qed.

  (* Linearizability under the premise that every method body is one critical section. *)
  Theorem guarded_linearizable : (forall c, atomic c = true) ->
    forall s t0 ls g,
    gexec (ginit s t0) ls g ->
    exists ls' rs,
      ls = map GL ls' /\
      exec step (init_conf s t0) ls' (fst g) /\
      wrun step (witness ls') (s, t0) = Ok (rs, (cf_obj (fst g), cf_now (fst g))) /\
      forall t, thread_results t (witness_tid ls') rs = responses t ls' ++ pending (cf_ph (fst g) t).
  Proof.
    intros HA s t0 ls g He.
    destruct (gexec_exec HA _ _ _ He) as [ls' [E [Hex _]]]; [intros t; reflexivity|].
    cbn [fst ginit] in Hex.
    destruct (linearizable step s t0 ls' (fst g) Hex) as [rs [H1 H2]].
    exists ls', rs. auto.
  Qed.
End Guarded.

(* Cache.put as an unprotected method: two threads store different keys, both read the empty
   dict before either writes back - one update is lost, which no sequential order of the two
   calls can produce. *)
Definition put_unprotected (c : call) : bool := match c with Put _ _ => false | _ => true end.

Definition lost_update_run : list (@glabel) :=
  [GL (LInv 0 (Put 1 (mkAns 1 100))); GL (LInv 1 (Put 2 (mkAns 2 100)));
   GUBegin 0 (Put 1 (mkAns 1 100)); GUBegin 1 (Put 2 (mkAns 2 100));
   GUEnd 0 (Put 1 (mkAns 1 100)) []; GUEnd 1 (Put 2 (mkAns 2 100)) []].

Definition cache0 : cache := mkCache [] 300 300 0 0.

Lemma unlocked_put_loses_update :
  exists g,
    gexec cache_step put_unprotected (ginit cache0 0) lost_update_run g /\
    dkeys (c_data (cf_obj (fst g))) = [2] /\
    (* both sequential orders keep both keys *)
    (forall its, its = [Call (Put 1 (mkAns 1 100)) []; Call (Put 2 (mkAns 2 100)) []] \/
                 its = [Call (Put 2 (mkAns 2 100)) []; Call (Put 1 (mkAns 1 100)) []] ->
       exists rs w, wrun cache_step its (cache0, 0) = Ok (rs, w) /\ length (c_data (fst w)) = 2%nat).
Proof.
  eexists. split; [|split].
  - unfold lost_update_run, ginit.
    eapply GE_cons. { apply G_lift; [apply S_inv; reflexivity|intros; discriminate]. }
    eapply GE_cons. { apply G_lift; [apply S_inv; reflexivity|intros; discriminate]. }
    eapply GE_cons. { apply G_ubegin; reflexivity. }
    eapply GE_cons. { apply G_ubegin; reflexivity. }
    (* the result of each body is normalised before it enters the configuration: otherwise the
       later conversions would carry the unevaluated cache_step along *)
    eapply GE_cons. { eapply G_uend; [reflexivity|reflexivity|constructor|cbv; reflexivity]. }
    eapply GE_cons. { eapply G_uend; [reflexivity|reflexivity|constructor|cbv; reflexivity]. }
    apply GE_nil.
  - reflexivity.
  - intros its [->| ->]; eexists; eexists; split; vm_compute; reflexivity.
Qed.
