(* C18: the dns.asyncquery primitives (backend sockets that wait by themselves + the loops of
   asyncquery.py) compute exactly what the dns.query loops compute.  Hence every theorem about
   net_read / net_write_loop / receive_udp is a theorem about _read_exactly / sendall /
   asyncquery.receive_udp as well. *)
From DV Require Import Base.Prelude Model.NameM Model.NetM Proofs.NameOrder Proofs.NetUdp Proofs.NetStream.
Open Scope Z_scope.

(* would-blocks last a non-negative time (the clock never runs backwards) *)
Definition dt_ok (dt : option Z) : Prop := match dt with Some d => 0 <= d | None => True end.

Definition r_ok (e : rxev) : Prop := match e with RBlock dt => dt_ok dt | _ => True end.
Definition w_ok (e : txev) : Prop := match e with WBlock dt => dt_ok dt | _ => True end.
Definition u_ok (e : uev) : Prop := match e with UBlock dt => dt_ok dt | _ => True end.

(* a backend call that started at now0 <= now with timeout _timeout(expiration) waits exactly
   like _wait_for with the absolute expiration *)
Lemma wait_for_call_deadline now0 now exp dt :
  now0 <= now -> wait_for now (call_deadline now0 exp) dt = wait_for now exp dt.
Proof.
  intros H. destruct exp as [e|]; cbn [call_deadline]; auto.
  destruct (Z.max_spec (e - now0) 0) as [[H1 ->]|[H1 ->]].
  - unfold wait_for.
    assert (E1 : now0 + 0 - now <=? 0 = true) by (apply Z.leb_le; lia).
    assert (E2 : e - now <=? 0 = true) by (apply Z.leb_le; lia).
    rewrite E1, E2. reflexivity.
  - replace (now0 + (e - now0)) with e by lia. reflexivity.
Qed.

Lemma wait_for_mono now exp dt now' : dt_ok dt -> wait_for now exp dt = Ok now' -> now <= now'.
Proof.
  unfold wait_for, dt_ok. destruct exp as [e|].
  - destruct (e - now <=? 0); [discriminate|]. destruct dt as [d|]; [|discriminate].
    destruct (d <? e - now); [|discriminate]. intros H1 H2. inversion H2. lia.
  - destruct dt as [d|]; [|discriminate]. intros H1 H2. inversion H2. lia.
Qed.

Section ReadEq.
  Variable exp : option Z.

  (* one iteration of _read_exactly whose recv call started at now0 *)
  Definition aread_body (fuel : nat) (now0 : Z) (evs : list rxev) (stream : list Z) (count : nat)
             (s : list Z) (now : Z) : res (list Z * rsock) :=
    match arecv (call_deadline now0 exp) evs stream count now with
    | Ok (n, evs', stream', now') =>
        match n with
        | [] => Lib neEOF
        | _ => aread_exactly fuel exp evs' stream' (count - length n) (s ++ n) now'
        end
    | Lib e => Lib e
    | Internal e => Internal e
    end.

  Lemma aread_exactly_unfold fuel evs stream c s now :
    aread_exactly (S fuel) exp evs stream (S c) s now = aread_body fuel now evs stream (S c) s now.
  Proof. reflexivity. Qed.

  Lemma aread_body_eq : forall evs fuel now0 stream c s now,
    Forall r_ok evs -> now0 <= now -> (length evs + 1 <= fuel)%nat ->
    aread_body fuel now0 evs stream (S c) s now = net_read_loop exp evs stream (S c) s now.
  Proof.
    induction evs as [|ev evs IH]; intros fuel now0 stream c s now Hok Hle Hf.
    - unfold aread_body. cbn [arecv net_read_loop].
      remember (firstn (S c) stream) as n eqn:En.
      destruct n as [|x n'].
      + symmetry in En. apply firstn_nil_inv in En. destruct En as [E|E]; [discriminate|]. subst stream.
        reflexivity.
      + assert (Hlen : length (x :: n') = Nat.min (S c) (length stream)) by (rewrite En; apply firstn_length).
        destruct (Nat.leb (S c) (length stream)) eqn:L.
        * apply Nat.leb_le in L. rewrite Nat.min_l in Hlen by lia. rewrite Hlen, Nat.sub_diag.
          destruct fuel; reflexivity.
        * apply Nat.leb_gt in L. rewrite Nat.min_r in Hlen by lia.
          destruct fuel as [|fuel]; [cbn in Hf; lia|].
          remember (S c - length (x :: n'))%nat as c' eqn:Ec.
          destruct c' as [|c']; [lia|].
          rewrite aread_exactly_unfold. unfold aread_body. cbn [arecv].
          rewrite skipn_all2 by lia. reflexivity.
    - inversion Hok as [|? ? Hev Hrest]; subst.
      destruct fuel as [|fuel]; [cbn in Hf; lia|].
      destruct ev as [k|dt|]; unfold aread_body; cbn [arecv net_read_loop].
      + destruct (firstn (Nat.min k (S c)) stream) as [|x n'] eqn:En; [reflexivity|].
        remember (S c - length (x :: n'))%nat as c' eqn:Ec.
        destruct c' as [|c'].
        * destruct evs; reflexivity.
        * rewrite aread_exactly_unfold. apply IH; auto; try lia. cbn [length] in Hf. lia.
      + rewrite wait_for_call_deadline by auto.
        destruct (wait_for now exp dt) as [now'| |] eqn:W; cbn [bind]; auto.
        assert (now <= now') by (eapply wait_for_mono; eauto).
        specialize (IH (S fuel) now0 stream c s now' Hrest).
        unfold aread_body in IH. apply IH; [lia|]. cbn [length] in Hf. lia.
      + reflexivity.
  Qed.

  Theorem async_read_exactly_eq_net_read sk count :
    Forall r_ok (rs_evs sk) ->
    aread_exactly (length (rs_evs sk) + 2) exp (rs_evs sk) (rs_stream sk) count [] (rs_now sk)
    = net_read exp sk count.
  Proof.
    intros Hok. unfold net_read. destruct count as [|c].
    - destruct (rs_evs sk); reflexivity.
    - replace (length (rs_evs sk) + 2)%nat with (S (length (rs_evs sk) + 1)) by lia.
      rewrite aread_exactly_unfold. apply aread_body_eq; auto; lia.
  Qed.
End ReadEq.

Lemma asendall_eq exp : forall evs now0 data sent now,
  Forall w_ok evs -> now0 <= now ->
  asendall (call_deadline now0 exp) evs data sent now = net_write_loop exp evs data sent now.
Proof.
  induction evs as [|ev evs IH]; intros now0 data sent now Hok Hle.
  - destruct data; reflexivity.
  - inversion Hok as [|? ? Hev Hrest]; subst.
    destruct data as [|x data]; [reflexivity|]. cbn [asendall net_write_loop].
    destruct ev as [k|dt].
    + apply IH; auto.
    + rewrite wait_for_call_deadline by auto.
      destruct (wait_for now exp dt) as [now'| |] eqn:W; cbn [bind]; auto.
      apply IH; auto. assert (now <= now') by (eapply wait_for_mono; eauto). lia.
Qed.

Theorem async_sendall_eq_net_write exp evs data now :
  Forall w_ok evs ->
  asendall (call_deadline now exp) evs data [] now = net_write_loop exp evs data [] now.
Proof. intros. apply asendall_eq; auto. lia. Qed.

Section UdpEq.
  Variable parse : list Z -> pabs.
  Variables (af : Z) (dest : option addr) (exp : option Z) (o : uopts) (query : option msg).

  (* the rest of an iteration whose recvfrom started at now0 *)
  Definition areceive_body (fuel : nat) (now0 : Z) (evs : list uev) (now : Z) (i : nat) : ures :=
    match arecvfrom (call_deadline now0 exp) evs now i with
    | (j, Ok (wire, from, r, now')) =>
        match judge parse af dest o query wire from with
        | None => areceive_udp parse fuel af dest exp o query r now' j
        | Some v => (j, do m <- v; Ok (m, wire, now', from, r))
        end
    | (j, Lib e) => (j, Lib e)
    | (j, Internal e) => (j, Internal e)
    end.

  Lemma areceive_udp_unfold fuel evs now i :
    areceive_udp parse (S fuel) af dest exp o query evs now i = areceive_body fuel now evs now i.
  Proof.
    unfold areceive_body, judge, unwanted. simpl.
    destruct (arecvfrom _ evs now i) as [j [[[[wire from] r] now']| |]]; try reflexivity.
    destruct (matches_destination _ _ _ _) as [[|]| |]; try reflexivity.
    destruct (from_wire_out _ _ _) as [m|m|e]; [destruct (_ && _)..|destruct (o_ignore_errors o)]; try reflexivity.
    unfold err_res. destruct (e <? 20); reflexivity.
  Qed.

  Lemma areceive_body_eq : forall evs fuel now0 now i,
    Forall u_ok evs -> now0 <= now -> (length evs <= fuel)%nat ->
    areceive_body fuel now0 evs now i = receive_udp parse af dest exp o query evs now i.
  Proof.
    induction evs as [|ev evs IH]; intros fuel now0 now i Hok Hle Hf; unfold areceive_body.
    - simpl. rewrite wait_for_call_deadline by auto. destruct (wait_for now exp None); reflexivity.
    - inversion Hok as [|? ? Hev Hrest]; subst. destruct fuel as [|fuel]; [simpl in Hf; lia|]. simpl in Hf.
      rewrite receive_udp_cons. destruct ev as [w f|dt]; cbn [arecvfrom on_event].
      + destruct (judge _ _ _ _ _ _ _); [reflexivity|]. rewrite areceive_udp_unfold. apply IH; auto; lia.
      + rewrite wait_for_call_deadline by auto.
        destruct (wait_for now exp dt) as [now'| |] eqn:W; auto.
        apply (IH (S fuel) now0 now' (S i) Hrest); [|lia]. apply wait_for_mono in W; [lia|exact Hev].
  Qed.

  Theorem async_receive_udp_eq evs now i :
    Forall u_ok evs ->
    areceive_udp parse (S (length evs)) af dest exp o query evs now i
    = receive_udp parse af dest exp o query evs now i.
  Proof.
    intros Hok. rewrite areceive_udp_unfold. apply areceive_body_eq; auto; lia.
  Qed.
End UdpEq.
