(* C13 - the first message of a transfer: serial comparison (RFC 1982), up-to-date answer,
   "use TCP", and basic facts about the section grouping. *)
From DV Require Import Base.Prelude Model.XfrM Proofs.XfrSets Proofs.XfrSpec Proofs.XfrZone Proofs.XfrSafety.

(* dns.serial.Serial.__lt__ is RFC 1982 section 3.2 "s1 < s2" for SERIAL_BITS = 32 *)
Lemma serial_lt_rfc1982 : forall a b,
  serial_lt a b = true <-> 0 < (b - a) mod two32 < two31.
Proof.
  intros a b. unfold serial_lt. rewrite (Zminus_mod b a).
  pose proof (Z.mod_pos_bound a two32 eq_refl) as Ha. pose proof (Z.mod_pos_bound b two32 eq_refl) as Hb.
  set (x := a mod two32) in *. set (y := b mod two32) in *.
  rewrite orb_true_iff, !andb_true_iff, !Z.ltb_lt, !Z.gtb_lt.
  (* y - x lies in (-2^32, 2^32): its residue is itself, or itself + 2^32 *)
  destruct (Z.lt_ge_cases (y - x) 0) as [H|H].
  - rewrite <- (Z_mod_plus_full (y - x) 1), Z.mod_small by (unfold two32 in *; lia). unfold two32, two31 in *. lia.
  - rewrite Z.mod_small by (unfold two32 in *; lia). unfold two32, two31 in *. lia.
Qed.

Lemma serial_lt_irrefl : forall a, serial_lt a a = false.
Proof.
  intros a. destruct (serial_lt a a) eqn:H; [|reflexivity].
  apply serial_lt_rfc1982 in H. rewrite Z.sub_diag, Z.mod_0_l in H by discriminate. lia.
Qed.

Lemma serial_lt_asym : forall a b, serial_lt a b = true -> serial_lt b a = false.
Proof.
  intros a b H. destruct (serial_lt b a) eqn:H2; [|reflexivity].
  apply serial_lt_rfc1982 in H. apply serial_lt_rfc1982 in H2.
  (* the two residues are positive and add up to 2^32 *)
  assert (E : ((b - a) mod two32 + (a - b) mod two32) mod two32 = 0).
  { rewrite <- Zplus_mod. replace (b - a + (a - b)) with 0 by ring. reflexivity. }
  rewrite Z.mod_small in E by (unfold two32, two31 in *; lia). unfold two31 in *. lia.
Qed.

(* with one_rr_per_rrset (IXFR) every record is its own RRset *)
Lemma group_go_true : forall rs acc, group_go true acc rs = acc ++ map single rs.
Proof.
  induction rs as [|r rs IH]; intros acc; cbn [group_go map].
  - rewrite app_nil_r. reflexivity.
  - cbn [orb]. rewrite IH, <- app_assoc. reflexivity.
Qed.

Lemma group_true : forall rs, group true rs = map single rs.
Proof. intros rs. unfold group. rewrite group_go_true. reflexivity. Qed.

(* an answer section that starts with an SOA is not merged at all (force_unique sticks) *)
Lemma group_soa_first : forall f r rs, r_type r = tSOA -> group f (r :: rs) = map single (r :: rs).
Proof.
  intros f r rs H. unfold group. cbn [group_go]. rewrite H. cbn [Z.eqb tSOA Pos.eqb orb].
  rewrite orb_true_r. rewrite group_go_true. reflexivity.
Qed.

(* without require_tsig the signature flag of a message is irrelevant *)
Lemma step_nosig : forall s r, req_tsig s = false -> step LastNoSig s r = step Last s r.
Proof.
  intros s r H. unfold step. cbn [req_tsig set_delmode]. rewrite H. reflexivity.
Qed.

Lemma loopT_nosig : forall rs s sg, req_tsig s = false -> loopT sg s rs = loop s rs.
Proof.
  induction rs as [|r rest IH]; intros s sg H; cbn [loopT]; [reflexivity|].
  assert (E : step (match rest with [] => (if sg then Last else LastNoSig) | _ :: _ => Mid end) s r =
              step (match rest with [] => Last | _ :: _ => Mid end) s r).
  { destruct rest; [|reflexivity]. destruct sg; [reflexivity|apply step_nosig, H]. }
  rewrite E. destruct (step (match rest with [] => Last | _ :: _ => Mid end) s r) as [s1 [e|]] eqn:Hs; [reflexivity|].
  apply IH. rewrite (step_req_tsig _ _ _ _ _ Hs). exact H.
Qed.

Lemma header_ok_question : forall rdt w, header_ok rdt w ->
  (match w_question w with
   | (qn, qt) :: _ => if negb (qn =? origin) then Some eQName else if negb (qt =? rdt) then Some eQType else None
   | [] => None
   end) = None.
Proof.
  intros rdt w [_ [H|[q H]]]; rewrite H; [reflexivity|].
  rewrite !Z.eqb_refl. reflexivity.
Qed.

Lemma init_ixfr : forall z ser udp, init_t false z tIXFR (Some ser) udp = inl (ixfr_init z ser udp).
Proof. reflexivity. Qed.

Lemma init_axfr : forall z ser, init_t false z tAXFR ser false = inl (axfr_init z ser).
Proof. reflexivity. Qed.

(* the state of an IXFR in progress, and of a full transfer in progress (AXFR, or IXFR after the
   AXFR-style fallback) *)
Definition ist (u : bool) (p tz : zone) (ser : Z) (s0 : rrset) (e dm : bool) : st :=
  mkSt p (Some tz) tIXFR true ser u (Some s0) false e dm false.

Definition ast (u : bool) (rdt : Z) (p tz : zone) (ser : Z) (s0 : rrset) : st :=
  mkSt p (Some tz) rdt false ser u (Some s0) false false false false.

(* The first message of an IXFR whose first record is the apex SOA r0 *)
Lemma first_message_ixfr : forall z ser udp w r0 rest,
  header_ok tIXFR w -> w_records w = r0 :: rest -> apex_soa r0 ->
  process_message (ixfr_init z ser udp) (from_wire true w) =
  let s e := ist udp z z ser (single r0) e false in
  let ss := r_data r0 mod two32 in
  if ss =? ser then after (loop (set_done (s false) true) (map single rest))
  else if serial_lt ss ser then (s false, Some eBackwards)
  else if udp && (match rest with [] => true | _ => false end) then (s false, Some eUseTCP)
  else after (loop (s true) (map single rest)).
Proof.
  intros z ser udp w r0 rest Hh Hr [Hn Ht].
  unfold process_message. cbn [txn ixfr_init incremental pub set_txn rdtype].
  unfold from_wire. cbn [m_rcode m_question m_answer].
  destruct Hh as [Hrc Hq]. rewrite Hrc. cbn [Z.eqb negb].
  rewrite (header_ok_question tIXFR w (conj Hrc Hq)).
  rewrite Hr, group_true. cbn [map].
  cbn -[loopT serial_lt two32 single]. cbn [single s_name s_type s_data].
  rewrite Hn, Ht. cbn -[loopT serial_lt two32 single].
  rewrite !(loopT_nosig _ _ (w_tsig w)) by reflexivity.
  change (soa_serial (single r0)) with (Some (r_data r0 mod two32)). cbv iota beta.
  destruct (r_data r0 mod two32 =? ser); [reflexivity|].
  destruct (serial_lt (r_data r0 mod two32) ser); [reflexivity|].
  destruct rest; reflexivity.
Qed.

(* "goes backwards in RFC 1982 serial arithmetic": rejected, zone untouched *)
Theorem serial_backwards_rejected : forall z ser udp w ws r0 rest,
  header_ok tIXFR w -> w_records w = r0 :: rest -> apex_soa r0 ->
  serial_lt (r_data r0 mod two32) ser = true ->
  inbound_xfr z tIXFR (Some ser) udp (w :: ws) = (Error eBackwards z, 0%nat).
Proof.
  intros z ser udp w ws r0 rest Hh Hr Ha Hlt.
  unfold inbound_xfr, xfr_run. rewrite init_ixfr. cbn [Z.eqb tIXFR Pos.eqb drive].
  rewrite (first_message_ixfr z ser udp w r0 rest Hh Hr Ha). cbv zeta.
  destruct (r_data r0 mod two32 =? ser) eqn:He.
  - apply Z.eqb_eq in He. rewrite He, serial_lt_irrefl in Hlt. discriminate.
  - rewrite Hlt. reflexivity.
Qed.

(* the already-up-to-date answer: a single SOA with our serial; done, nothing changes *)
Theorem uptodate_noop : forall z ser udp w ws r0,
  header_ok tIXFR w -> w_records w = [r0] -> apex_soa r0 ->
  r_data r0 mod two32 = ser ->
  inbound_xfr z tIXFR (Some ser) udp (w :: ws) = (Done z, 1%nat).
Proof.
  intros z ser udp w ws r0 Hh Hr Ha He.
  unfold inbound_xfr, xfr_run. rewrite init_ixfr. cbn [Z.eqb tIXFR Pos.eqb drive].
  rewrite (first_message_ixfr z ser udp w r0 [] Hh Hr Ha). cbv zeta.
  rewrite He, Z.eqb_refl. cbn. rewrite andb_false_r. reflexivity.
Qed.

(* UDP: the server only sent its SOA (newer than ours): UseTCP, zone untouched *)
Theorem use_tcp_signalled : forall z ser w ws r0,
  header_ok tIXFR w -> w_records w = [r0] -> apex_soa r0 ->
  r_data r0 mod two32 <> ser -> serial_lt (r_data r0 mod two32) ser = false ->
  inbound_xfr z tIXFR (Some ser) true (w :: ws) = (Error eUseTCP z, 0%nat).
Proof.
  intros z ser w ws r0 Hh Hr Ha Hne Hlt.
  unfold inbound_xfr, xfr_run. rewrite init_ixfr. cbn [Z.eqb tIXFR Pos.eqb drive].
  rewrite (first_message_ixfr z ser true w r0 [] Hh Hr Ha). cbv zeta.
  apply Z.eqb_neq in Hne. rewrite Hne, Hlt. reflexivity.
Qed.

(* the other comparisons and the addition of dns.serial.Serial *)
Lemma serial_gt_lt : forall a b, serial_gt a b = serial_lt b a.
Proof.
  intros a b. unfold serial_gt, serial_lt.
  rewrite orb_comm. f_equal; f_equal; rewrite ?Z.gtb_ltb; reflexivity.
Qed.

(* RFC 1982 3.1/3.2: adding 0 < d < 2^31 gives a serial that is greater *)
Lemma serial_add_greater : forall a d v, 0 < d < two31 -> serial_add a d = Ok v -> serial_lt a v = true.
Proof.
  intros a d v Hd H. unfold serial_add in H.
  destruct (Z.abs d >? two31 - 1) eqn:E; [discriminate|]. inversion H; subst.
  apply serial_lt_rfc1982. rewrite Zminus_mod, Zmod_mod, <- Zminus_mod. replace (a mod two32 + d - a) with (d + - (a / two32) * two32).
  - rewrite Z_mod_plus_full, Z.mod_small; unfold two31, two32 in *; lia.
  - rewrite (Z.div_mod a two32) at 3 by discriminate. ring.
Qed.
