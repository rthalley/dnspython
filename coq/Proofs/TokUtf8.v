(* RdataStyle.txt_is_utf8: TXT-like strings that are well-formed UTF-8 are printed as characters
   (_escapify_unicode), the others octet-wise (_escapify); either way the tokenizer and
   Token.unescape_to_bytes give the octets back: both are quoted bodies in the sense of Proofs/TokTxt.v. *)
From DV Require Import Base.Prelude Model.TokM Proofs.TokEsc Proofs.TokTxt Proofs.TokWords Proofs.TokShape Proofs.TokGeneric.
Open Scope Z_scope.

Lemma cont_range b : cont b = true -> 128 <= b <= 191.
Proof. unfold cont. lia. Qed.

(* str.encode() of the code point that a well-formed sequence (Unicode table 3-7) stands for *)
Lemma utf8_cp_2 b0 b1 : 194 <= b0 <= 223 -> 128 <= b1 <= 191 ->
  utf8_cp ((b0 - 192) * 64 + (b1 - 128)) = Ok [b0; b1].
Proof.
  intros H0 H1. unfold utf8_cp. set (cp := (b0 - 192) * 64 + (b1 - 128)).
  replace (cp <? 128) with false by lia. replace (cp <? 2048) with true by lia. unfold cp. do 2 f_equal; [dlia|f_equal; dlia].
Qed.

Lemma utf8_cp_3 b0 b1 b2 : 224 <= b0 <= 239 -> 128 <= b1 <= 191 -> 128 <= b2 <= 191 ->
  (b0 = 224 -> 160 <= b1) -> (b0 = 237 -> b1 <= 159) ->
  utf8_cp ((b0 - 224) * 4096 + (b1 - 128) * 64 + (b2 - 128)) = Ok [b0; b1; b2].
Proof.
  intros H0 H1 H2 Hlo Hsur. unfold utf8_cp. set (cp := (b0 - 224) * 4096 + (b1 - 128) * 64 + (b2 - 128)).
  replace (cp <? 128) with false by lia. replace (cp <? 2048) with false by lia.
  replace ((55296 <=? cp) && (cp <=? 57343)) with false by lia. replace (cp <? 65536) with true by lia.
  unfold cp. do 2 f_equal; [dlia|f_equal; [dlia|f_equal; dlia]].
Qed.

Lemma utf8_cp_4 b0 b1 b2 b3 : 240 <= b0 <= 244 -> 128 <= b1 <= 191 -> 128 <= b2 <= 191 -> 128 <= b3 <= 191 ->
  (b0 = 240 -> 144 <= b1) -> (b0 = 244 -> b1 <= 143) ->
  utf8_cp ((b0 - 240) * 262144 + (b1 - 128) * 4096 + (b2 - 128) * 64 + (b3 - 128)) = Ok [b0; b1; b2; b3].
Proof.
  intros H0 H1 H2 H3 Hlo Hhi. unfold utf8_cp.
  set (cp := (b0 - 240) * 262144 + (b1 - 128) * 4096 + (b2 - 128) * 64 + (b3 - 128)).
  replace (cp <? 128) with false by lia. replace (cp <? 2048) with false by lia.
  replace ((55296 <=? cp) && (cp <=? 57343)) with false by lia. replace (cp <? 65536) with false by lia.
  unfold cp. do 2 f_equal; [dlia|f_equal; [dlia|f_equal; [dlia|f_equal; dlia]]].
Qed.

(* decode then encode is the identity (strict decoder: shortest forms only) *)
Theorem utf8_decode_encode s : forall u, utf8_decode s = Some u ->
  utf8_encode u = Ok s /\ Forall (fun c => 0 <= c) u.
Proof.
  induction s as [s IH] using (well_founded_induction (Wf_nat.well_founded_ltof _ (@length Z))).
  unfold Wf_nat.ltof in IH. intros u H. destruct s as [|b0 r]; [inversion H; split; [reflexivity|constructor]|].
  cbn [utf8_decode] in H.
  (* the tail, once the sequence at the head is known to encode cp as `hd` *)
  assert (K : forall r' cp hd, (length r' < length (b0 :: r))%nat -> utf8_cp cp = Ok hd -> 0 <= cp ->
              match utf8_decode r' with Some u' => Some (cp :: u') | None => None end = Some u ->
              utf8_encode u = Ok (hd ++ r') /\ Forall (fun c => 0 <= c) u).
  { intros r' cp hd Hl Hcp Hnn Hu. destruct (utf8_decode r') as [u'|] eqn:Er; [|discriminate]. injection Hu as <-.
    destruct (IH r' Hl u' Er) as [I1 I2]. cbn [utf8_encode]. rewrite Hcp, I1. split; [reflexivity|constructor; assumption]. }
  destruct ((0 <=? b0) && (b0 <? 128)) eqn:E1.
  { apply (K r b0 [b0]); [cbn; lia|unfold utf8_cp; replace (b0 <? 128) with true by lia; reflexivity|lia|exact H]. }
  destruct ((194 <=? b0) && (b0 <=? 223)) eqn:E2.
  { destruct r as [|b1 r1]; [discriminate|]. destruct (cont b1) eqn:C1; [|discriminate]. apply cont_range in C1.
    eapply (K r1 _ [b0; b1]); [cbn; lia|apply utf8_cp_2; lia|lia|exact H]. }
  destruct ((224 <=? b0) && (b0 <=? 239)) eqn:E3.
  { destruct r as [|b1 [|b2 r2]]; try discriminate.
    destruct (cont b1 && cont b2 && (if b0 =? 224 then 160 <=? b1 else true)
              && (if b0 =? 237 then b1 <=? 159 else true)) eqn:C; [|discriminate].
    apply andb_true_iff in C as [C C4]. apply andb_true_iff in C as [C C3]. apply andb_true_iff in C as [C1 C2].
    apply cont_range in C1. apply cont_range in C2.
    eapply (K r2 _ [b0; b1; b2]); [cbn; lia|apply utf8_cp_3; try lia; intros ->; cbn in C3, C4; lia|lia|exact H]. }
  destruct ((240 <=? b0) && (b0 <=? 244)) eqn:E4; [|discriminate].
  destruct r as [|b1 [|b2 [|b3 r3]]]; try discriminate.
  destruct (cont b1 && cont b2 && cont b3 && (if b0 =? 240 then 144 <=? b1 else true)
            && (if b0 =? 244 then b1 <=? 143 else true)) eqn:C; [|discriminate].
  apply andb_true_iff in C as [C C5]. apply andb_true_iff in C as [C C4]. apply andb_true_iff in C as [C C3].
  apply andb_true_iff in C as [C1 C2]. apply cont_range in C1. apply cont_range in C2. apply cont_range in C3.
  eapply (K r3 _ [b0; b1; b2; b3]); [cbn; lia|apply utf8_cp_4; try lia; intros ->; cbn in C4, C5; lia|lia|exact H].
Qed.

(* a code point is escaped like the octet of the same value where it is escaped at all *)
Lemma esc_cp_ok c a : 0 <= c -> utf8_cp c = Ok a ->
  qbody (esc_cp c) /\ forall t acc, ub_loop (esc_cp c ++ t) acc = ub_loop t (rev a ++ acc).
Proof.
  intros Hc Ha. unfold esc_cp, q_escaped. destruct (((c =? 34) || (c =? 92)) || negb (c >=? 32)) eqn:E.
  - assert (Eo : (if (c =? 34) || (c =? 92) then [92; c] else if c >=? 32 then [c]
                   else [92; 48 + c / 100; 48 + (c / 10) mod 10; 48 + c mod 10]) = esc_octet c).
    { unfold esc_octet, q_escaped. destruct ((c =? 34) || (c =? 92)); [reflexivity|].
      replace (c >=? 32) with false by lia. reflexivity. }
    assert (a = [c]) by (unfold utf8_cp in Ha; replace (c <? 128) with true in Ha by lia; congruence). subst a.
    rewrite Eo. split; [apply esc_octet_qbody; lia|intros t acc; apply ub_step; lia].
  - replace ((c =? 34) || (c =? 92)) with false by lia. replace (c >=? 32) with true by lia.
    split; [apply qb_plain; [lia|lia|lia|constructor]|]. intros t acc. cbn [app ub_loop].
    replace (c =? 92) with false by lia. rewrite Ha. reflexivity.
Qed.

Lemma escapify_unicode_body_ok u : forall s, utf8_encode u = Ok s -> Forall (fun c => 0 <= c) u ->
  body_ok (escapify_unicode u) s.
Proof.
  induction u as [|c u IH]; intros s Hs Hnn.
  - inversion Hs. split; [constructor|]. intros; reflexivity.
  - cbn [utf8_encode] in Hs. destruct (utf8_cp c) as [a| |] eqn:Ea; cbn [bind] in Hs; try discriminate.
    destruct (utf8_encode u) as [s'| |] eqn:Eu; cbn [bind] in Hs; try discriminate. inversion Hs; subst s.
    inversion Hnn; subst. destruct (IH s' eq_refl ltac:(assumption)) as [I1 I2].
    destruct (esc_cp_ok c a ltac:(assumption) Ea) as [C1 C2].
    unfold escapify_unicode in *. cbn [flat_map]. split; [apply qbody_app; assumption|].
    intros t acc. rewrite <- app_assoc, C2, I2, rev_app_distr, <- app_assoc. reflexivity.
Qed.

(* one TXT string under either setting of txt_is_utf8 *)
Theorem txt_body_ok utf8 s : all_bytes s = true -> body_ok (txt_body utf8 s) s.
Proof.
  intros Hs. unfold txt_body. destruct utf8; [|apply escapify_body_ok, Hs].
  destruct (utf8_decode s) as [u|] eqn:E; [|apply escapify_body_ok, Hs].
  destruct (utf8_decode_encode s u E) as [H1 H2]. apply escapify_unicode_body_ok; assumption.
Qed.

(* TXT-like to_styled_text / from_text, both settings of txt_is_utf8 *)
Theorem txt_roundtrip_style utf8 strings rest :
  strings <> [] ->
  Forall (fun s => all_bytes s = true /\ zlen s <= 255) strings ->
  line_end rest ->
  rdata_from_text_txt (txt_to_text_style utf8 strings ++ rest) = Ok strings.
Proof.
  intros Hne Hss Hrest. destruct (txt_strings_bodies (txt_body utf8) strings (txt_body_ok utf8) Hss) as [HB HL].
  apply txt_bodies_roundtrip; try assumption. destruct strings; [congruence|discriminate].
Qed.
