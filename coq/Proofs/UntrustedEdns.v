(* dns.edns.option_from_wire, the direct option API (no ExceptionWrapper around it): every option
   class of dns/edns.py on every octet string: an option, a FormError-family error, the
   dns.exception.SyntaxError of dns.ipv4.inet_ntoa (ECS, more than four IPv4 address octets), or the
   ValueError the option constructors document and tests/test_edns.py pins (ECS family / prefix
   lengths, COOKIE lengths) - never struct.error, IndexError, UnicodeDecodeError. *)
From DV Require Import Base.Prelude Model.NameM Model.ParserM Model.UntrustedM
                       Proofs.NameValid Proofs.ParserSafe Proofs.ParserProg Proofs.UntrustedSafe.
From DV Require Proofs.UntrustedDec.
Open Scope Z_scope.

Section Edns.
  Variable wire : list Z.
  Hypothesis Hwire : bytes_ok wire.

  Definition okx {A} (r : out A * pstate) : Prop :=
    match fst r with
    | Val _ => True
    | Exn (XLib e) => is_form e = true \/ e = eSyntax
    | Exn (XInt e) => e = iValueError
    end.

  Lemma okx_bind {A B} lo (P : Z -> Prop) s (m : M A) (k : A -> M B) (Q : A -> pstate -> Prop) :
    good wire lo P s (m s) Q -> (forall e, P e -> is_form e = true) ->
    (forall a s1, wfl wire lo s1 -> pend s1 = pend s -> pfur s <= pfur s1 -> Q a s1 -> okx (k a s1)) ->
    okx (mbind m k s).
  Proof.
    unfold mbind, good, okx. destruct (m s) as [[a|[e|e]] s1]; intros G HP K; cbn [fst].
    - destruct G as (W & E & F & HQ). apply (K a s1 W E F HQ).
    - left. apply HP. tauto.
    - contradiction.
  Qed.

  Lemma okx_ret {A} (a : A) s : okx (ret a s).
  Proof. exact Logic.I. Qed.

  (* a Parser method of lemma L, then the rest *)
  Ltac read lo L := eapply (okx_bind lo); [apply L; auto; try lia|first [apply form_formfam|apply nameerr_form]|].

  Lemma okx_dec_option lo otype s : 0 <= lo -> wfl wire lo s -> pcur s <= pend s -> okx (dec_option wire otype s).
  Proof.
    intros Hlo W Hle. unfold dec_option.
    repeat match goal with |- okx ((if ?b then _ else _) _) => destruct b end.
    - (* ECS *)
      unfold dec_ecs. read lo good_get_struct; [repeat (constructor; [lia|]); constructor|].
      intros vs s1 W1 _ _ (Hl & Hnn & _).
      destruct vs as [|family [|src [|scope [|? ?]]]]; cbn in Hl; try discriminate.
      apply Forall_inv_tail, Forall_inv in Hnn.
      read lo good_get_bytes; [apply Z.div_pos; lia|]. intros _ s2 _ _ _ _.
      repeat match goal with |- okx ((if ?b then _ else _) _) => destruct b end; cbn; auto.
    - (* COOKIE *)
      unfold dec_cookie. read lo good_get_bytes. intros _ s1 W1 _ _ (_ & _ & _ & Hc & _).
      read lo good_get_remaining. intros server s2 _ _ _ _.
      match goal with |- okx ((if ?b then _ else _) _) => destruct b end; cbn; auto.
    - (* EDE *)
      unfold dec_ede, get_uint16. read lo good_get_uint. intros _ s1 W1 _ _ (_ & _ & Hc & _).
      read lo good_get_remaining. intros [|? ?] s2 _ _ _ _; [exact Logic.I|].
      match goal with |- okx ((if ?b then _ else _) _) => destruct b end; cbn; auto.
    - (* REPORTCHANNEL *) read lo good_get_name. intros; exact Logic.I.
    - (* the text options *)
      unfold dec_text_option. read lo good_get_remaining. intros text s2 _ _ _ _.
      match goal with |- okx ((if ?b then _ else _) _) => destruct b end; cbn; auto.
    - (* NSID, GenericOption *) read lo good_get_remaining. intros; exact Logic.I.
  Qed.

  Lemma okx_restrict_to {A} lo size (body : M A) s :
    0 <= lo -> 0 <= size -> wfl wire lo s ->
    (forall s0, wfl wire lo s0 -> pcur s0 <= pend s0 -> okx (body s0)) ->
    okx (restrict_to size body s).
  Proof.
    intros Hlo Hs (Hc & He & Hf) Hb. unfold restrict_to.
    replace (size <? 0) with false by lia.
    destruct (size >? remaining s) eqn:E; [left; reflexivity|].
    unfold remaining in E.
    specialize (Hb (set_end s (pcur s + size))).
    assert (W0 : wfl wire lo (set_end s (pcur s + size))) by (unfold wfl, set_end; cbn; lia).
    specialize (Hb W0 ltac:(cbn; lia)). unfold okx in *.
    destruct (body (set_end s (pcur s + size))) as [[a|x] s1]; cbn [fst] in *.
    - destruct (pcur s1 =? pend s1); cbn; auto.
    - exact Hb.
  Qed.

  (* dns.edns.option_from_wire(otype, wire, current, olen) *)
  Theorem option_from_wire_outcome otype current olen : 0 <= olen ->
    match fst (option_from_wire wire otype current olen) with
    | Val _ => True
    | Exn (XLib e) => is_form e = true \/ e = eSyntax
    | Exn (XInt e) => e = iValueError
    end.
  Proof.
    intros Ho. unfold option_from_wire.
    pose proof (parser_init_spec wire current) as Hi.
    destruct (parser_init wire current) as [s0|x]; [|subst x; left; reflexivity].
    destruct Hi as (W & _ & _ & Hle & _).
    apply (okx_restrict_to 0 olen (dec_option wire otype) s0); [lia|exact Ho|exact W|].
    intros s1 W1 H1. apply (okx_dec_option 0); [lia|exact W1|exact H1].
  Qed.

  (* The loops of the OPT and TXT wire parsers terminate.  Inside dns.rdata.from_wire_parser the
     per-type parser runs under ExceptionWrapper(FormError), which would turn the model's fuel marker
     into a FormError; here it is excluded at its source. *)
  Definition nofuel {A} (r : out A * pstate) : Prop := fst r <> Exn (XInt iFuel).

  Lemma txt_loop_nofuel lo : 0 <= lo -> forall fuel n s, wfl wire lo s ->
    (Z.to_nat (remaining s) < fuel)%nat -> nofuel (txt_loop wire fuel n s).
  Proof.
    intros Hlo. induction fuel as [|f IH]; intros n s W Hf; [lia|]. cbn [txt_loop].
    destruct (remaining s >? 0) eqn:Er; [|unfold nofuel; cbn; discriminate].
    pose proof (good_get_counted wire Hwire lo 1 s Hlo W ltac:(lia)) as G. unfold mbind, good in *.
    destruct (get_counted_bytes wire 1 s) as [[l|[e|e]] s1].
    - destruct G as (W1 & E1 & _ & _ & Hc & Hle & _). apply IH; [exact W1|].
      unfold remaining in *. lia.
    - unfold nofuel; cbn; discriminate.
    - contradiction.
  Qed.

  Theorem dec_txt_terminates lo s : 0 <= lo -> wfl wire lo s -> nofuel (dec_txt wire s).
  Proof.
    intros Hlo W. unfold dec_txt, mbind.
    pose proof (txt_loop_nofuel lo Hlo (S (Z.to_nat (remaining s))) 0%nat s W ltac:(lia)) as N.
    unfold nofuel in *. destruct (txt_loop wire (S (Z.to_nat (remaining s))) 0 s) as [[n|x] s1]; cbn [fst] in *.
    - destruct n; cbn; discriminate.
    - intros X. apply N. inversion X. reflexivity.
  Qed.

  Lemma opt_loop_nofuel lo : 0 <= lo -> forall fuel s, wfl wire lo s -> pcur s <= pend s ->
    (Z.to_nat (remaining s) < fuel)%nat -> nofuel (opt_loop wire fuel s).
  Proof.
    intros Hlo. induction fuel as [|f IH]; intros s W Hle Hf; [lia|]. cbn [opt_loop].
    destruct (remaining s >? 0) eqn:Er; [|unfold nofuel; cbn; discriminate].
    pose proof (good_get_struct wire Hwire lo [2; 2] s Hlo W ltac:(repeat (constructor; [lia|]); constructor)) as G.
    unfold mbind at 1. unfold good in G.
    destruct (get_struct wire [2; 2] s) as [[vs|[e|e]] s1]; [|unfold nofuel; cbn; discriminate|contradiction].
    destruct G as (W1 & E1 & _ & Hl & Hnn & Hc & Hle1 & _).
    destruct vs as [|otype [|olen [|? ?]]]; cbn in Hl; try discriminate.
    assert (Holen : 0 <= olen) by (inversion Hnn as [|? ? _ H2]; subst; inversion H2; subst; assumption).
    unfold mbind.
    destruct (restrict_to olen (dec_option wire otype) s1) as [[u|x] s2] eqn:Er2.
    - destruct (UntrustedDec.restrict_to_frame wire lo olen _ s1 Hlo
                  (UntrustedDec.tame_dec_option wire Hwire lo otype Hlo) W1) as (W2 & He & _ & P).
      rewrite Er2 in *. destruct (P u eq_refl) as (_ & Hp & Hle2). cbn [snd] in *.
      apply IH; [exact W2|lia|]. unfold remaining in *. cbn in Hc. lia.
    - (* the option parser raised: the loop ends with that exception, which is not the fuel marker *)
      assert (O : okx (restrict_to olen (dec_option wire otype) s1)).
      { apply (okx_restrict_to lo); auto. intros s0 W0 H0. apply (okx_dec_option lo); auto. }
      rewrite Er2 in O. unfold okx in O. cbn [fst] in O. unfold nofuel. cbn [fst].
      destruct x as [e|e]; [discriminate|]. subst e. discriminate.
  Qed.

  Theorem dec_opt_terminates lo s : 0 <= lo -> wfl wire lo s -> pcur s <= pend s -> nofuel (dec_opt wire s).
  Proof. intros Hlo W Hle. unfold dec_opt. apply (opt_loop_nofuel lo); auto. Qed.
End Edns.

Theorem wire_loops_terminate wire : bytes_ok wire -> forall (lo : Z) (s : pstate),
  0 <= lo -> wfl wire lo s -> pcur s <= pend s ->
  fst (dec_opt wire s) <> Exn (XInt iFuel) /\ fst (dec_txt wire s) <> Exn (XInt iFuel).
Proof.
  intros Hw lo s Hlo W Hle. split.
  - apply (dec_opt_terminates wire Hw lo s Hlo W Hle).
  - apply (dec_txt_terminates wire Hw lo s Hlo W).
Qed.
