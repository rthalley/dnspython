(* C12 - the theorems about every reachable state of the writer protocol. *)
From DV Require Import Base.Prelude Model.VersM Model.WritersM.
From DV Require Import Proofs.VersInv Proofs.VersThms Proofs.WritersInv Proofs.WritersSerial Proofs.WritersNoFail.
Import VersM WritersM.

Local Open Scope nat_scope.

Record WInv (s : st) : Prop := mkWInv { w_a : InvA s; w_b : InvB s; w_c : InvC s; w_d : InvD s }.

Theorem winv_init progs : WInv (init progs).
Proof. constructor; [apply initA|apply initB|apply initC|apply initD]. Qed.

(* reader(id=) / reader(serial=) / reader() do not come back without a transaction *)
Lemma sel_op_opens z sel z' : VersM.step z (sel_op sel) <> Ok (z', RUnit).
Proof.
  destruct sel; cbn; [destruct (last_opt _)|destruct (find_id_rev _ _)|destruct (find_serial_rev _ _)];
    unfold register; discriminate.
Qed.

(* in a state satisfying the invariant no critical section takes a branch that records a failure *)
Theorem step_kind s t : WInv s -> enabled s t = true -> kind s t (step s t).
Proof.
  intros [HA HB HC HD] He. pose proof (c_inv s HC) as Hi. unfold step. unfold enabled in He.
  destruct (pcs s t) as [c|c|nx|e| |id|id c ch [|e todo]|h i c|] eqn:Hpc; try discriminate.
  - destruct (lock s) eqn:Hl; [discriminate|]. exact (k_local s t _ _ (loc_acq s t c Hpc Hl)).
  - destruct c as [ev|id c cm|sel|h|p]; [|cbn [exec_crit]..].
    + replace (exec_crit s t (CWriterTest ev)) with (step s t) by (unfold step; rewrite Hpc; reflexivity).
      destruct (writer_test s t ev HB Hpc) as [[Hw [Hev ->]]|[-> [Ht ->]]];
        [exact (k_grant s t ev Hpc Hw Hev)|exact (k_enqueue s t Hpc Ht)].
    + assert (Hw : wtxn s = Some t) by (apply (b_w2 s HB); rewrite Hpc; reflexivity).
      rewrite Hw, Nat.eqb_refl. destruct cm; [|exact (k_end s t id c false (vz s) Hpc Hw eq_refl)].
      destruct (vstep_commit (vz s) id c Hi) as [z [E _]];
        [apply (c_id s HC t); rewrite Hpc; reflexivity|].
      rewrite E. exact (k_end s t id c true z Hpc Hw E).
    + destruct (VersM.step (vz s) (sel_op sel)) as [[z [h i c|]]|e|e] eqn:E.
      * exact (k_open s t sel z h i c Hpc E).
      * destruct (sel_op_opens _ _ _ E).
      * exact (k_local s t _ _ (loc_refused s t sel Hpc)).
      * destruct (step_no_internal _ _ _ Hi E).
    + destruct (close_ok (vz s) h Hi) as [z E]; [apply (d_valid s HD t); rewrite Hpc; reflexivity|].
      rewrite E. exact (k_done s t _ _ z Hpc eq_refl E).
    + destruct (policy_ok (vz s) p Hi) as [z E]. rewrite E. exact (k_done s t _ _ z Hpc eq_refl E).
  - exact (k_local s t _ _ (loc_rel s t nx Hpc)).
  - exact (k_local s t _ _ (loc_wait s t e Hpc He)).
  - exact (k_local s t _ _ (loc_setup_id s t Hpc)).
  - exact (k_local s t _ _ (loc_setup_base s t id Hpc)).
  - exact (k_local s t _ _ (loc_body_end s t id c ch Hpc)).
  - exact (k_local s t _ _ (loc_body_edit s t id c ch e todo Hpc)).
  - exact (k_local s t _ _ (loc_rbody s t h i c Hpc)).
Qed.

Theorem winv_step s t : WInv s -> enabled s t = true -> WInv (step s t).
Proof.
  intros W He. pose proof (step_kind s t W He) as K. destruct W as [HA HB HC HD].
  constructor; [eapply stepA|eapply stepB|eapply stepC|eapply stepD]; eassumption.
Qed.

Lemma winv_sched_step s t : WInv s -> WInv (sched_step s t).
Proof. intros H. unfold sched_step. destruct (enabled s t) eqn:E; [apply winv_step; assumption|exact H]. Qed.

Lemma winv_run sch : forall s, WInv s -> WInv (run_sched s sch).
Proof.
  induction sch as [|t sch IH]; intros s H; [exact H|].
  change (run_sched s (t :: sch)) with (run_sched (sched_step s t) sch). apply IH. apply winv_sched_step. exact H.
Qed.

(* any number of threads running any programs, under any schedule *)
Definition Reachable (s : st) : Prop := exists progs sch, s = run_sched (init progs) sch.

Theorem reachable_winv s : Reachable s -> WInv s.
Proof. intros [progs [sch ->]]. apply winv_run. apply winv_init. Qed.

Lemma T_mutex s t1 t2 :
  Reachable s -> act (pcs s t1) = true -> act (pcs s t2) = true -> t1 = t2.
Proof.
  intros R H1 H2. pose proof (w_b s (reachable_winv s R)) as HB.
  pose proof (b_w2 s HB t1 H1). pose proof (b_w2 s HB t2 H2). congruence.
Qed.

Lemma T_write_txn_owner s t : Reachable s -> (wtxn s = Some t <-> act (pcs s t) = true).
Proof.
  intros R. pose proof (w_b s (reachable_winv s R)) as HB. split; [apply (b_w1 s HB)|apply (b_w2 s HB)].
Qed.

Lemma T_lock_mutex s t1 t2 :
  Reachable s -> holds_lock (pcs s t1) = true -> holds_lock (pcs s t2) = true -> t1 = t2.
Proof.
  intros R H1 H2. pose proof (w_a s (reachable_winv s R)) as HA.
  pose proof (a_holds_lock s HA t1 H1). pose proof (a_holds_lock s HA t2 H2). congruence.
Qed.

Lemma T_fifo s :
  Reachable s ->
  arrivals s = granted s ++ wq s /\
  Forall2 (fun t e => wo (pcs s t) = Some e) (wq s) (Q s) /\
  (forall t e, wo (pcs s t) = Some e -> In t (wq s)).
Proof.
  intros R. pose proof (w_b s (reachable_winv s R)) as HB.
  split; [apply (b_f1 s HB)|]. split; [apply (b_q1 s HB)|apply (b_q2 s HB)].
Qed.

(* the next writer granted is the head of the queue, or - only when nobody is queued - a newcomer *)
Lemma T_admission_order s t ev :
  Reachable s -> pcs s t = Crit (CWriterTest ev) ->
  granted (step s t) = granted s ++ [t] ->
  (exists rest, ev <> None /\ wq s = t :: rest /\ wq (step s t) = rest) \/
  (ev = None /\ wq s = [] /\ wq (step s t) = []).
Proof.
  intros R Hpc Hadm. pose proof (w_b s (reachable_winv s R)) as HB.
  destruct (writer_test s t ev HB Hpc) as [[Hw [Hev E]]|[_ [_ E]]]; rewrite E in *; cbn in *.
  - destruct ev as [e|].
    + left. destruct (queue_head s t e (waiters s) HB) as [wq' [Ewq _]];
        [rewrite Hpc; reflexivity|unfold Q; rewrite Hev; reflexivity|].
      exists wq'. rewrite Ewq. repeat split; discriminate || reflexivity.
    + right. rewrite (idle_queue_empty s HB Hw Hev). repeat split; reflexivity.
  - apply (f_equal (@length nat)) in Hadm. rewrite app_length in Hadm. cbn in Hadm. lia.
Qed.

Lemma T_no_lost_wakeup s :
  Reachable s -> wtxn s = None -> wq s <> [] ->
  exists t e rest, wq s = t :: rest /\ wevent s = Some e /\ mem e (evset s) = true /\ wo (pcs s t) = Some e.
Proof.
  intros R Hw Hq. pose proof (w_b s (reachable_winv s R)) as HB.
  pose proof (b_q1 s HB) as F.
  destruct (wevent s) as [e|] eqn:Ee.
  - assert (HQ : Q s = e :: waiters s) by (unfold Q; rewrite Ee; reflexivity).
    rewrite HQ in F. inversion F as [|t0 e0 wq' ws' H0 F' E1 E2]; subst.
    exists t0, e, wq'. repeat split; [apply (b_s2 s HB); exact Ee|exact H0].
  - destruct (Hq (idle_queue_empty s HB Hw Ee)).
Qed.

Lemma wo_enabled s t e :
  wo (pcs s t) = Some e -> mem e (evset s) = true -> lock s = None -> enabled s t = true.
Proof.
  intros Hwo Hset Hl. unfold enabled.
  destruct (pcs s t) as [[[e'|]| | | |]|[[e'|]| | | |]|nx|e'| | | | |]; cbn in Hwo; try discriminate; try reflexivity.
  - rewrite Hl. reflexivity.
  - inversion Hwo; subst. exact Hset.
Qed.

Lemma act_enabled s t : act (pcs s t) = true -> lock s = None -> enabled s t = true.
Proof.
  intros Ha Hl. unfold enabled.
  destruct (pcs s t) as [[]|[]|nx|e'| | | | |]; cbn in Ha; try discriminate; try reflexivity; rewrite Hl; reflexivity.
Qed.

Lemma T_deadlock_free s t :
  Reachable s -> pcs s t <> Done -> exists t', enabled s t' = true.
Proof.
  intros R Hnd. pose proof (reachable_winv s R) as [HA HB HC HD].
  destruct (lock s) as [t0|] eqn:Hl.
  - (* the holder of the lock can always move *)
    exists t0. pose proof (a_lock_holds s HA t0 Hl) as Hh. unfold enabled.
    destruct (pcs s t0); cbn in Hh; try discriminate; reflexivity.
  - destruct (enabled s t) eqn:He; [exists t; exact He|].
    (* t is blocked with the lock free: it sits in event.wait() on an unset event *)
    unfold enabled in He. rewrite Hl in He.
    destruct (pcs s t) as [c|c|nx|e| | | | |] eqn:Hpc; try discriminate; [|exfalso; apply Hnd; reflexivity].
    assert (Hin : In t (wq s)) by (apply (b_q2 s HB t e); rewrite Hpc; reflexivity).
    destruct (wtxn s) as [t1|] eqn:Hw.
    + (* somebody owns the write transaction and can go on *)
      exists t1. apply act_enabled; [apply (b_w1 s HB); exact Hw|exact Hl].
    + (* nobody does: then the head of the queue has been woken *)
      destruct (T_no_lost_wakeup s R Hw) as [t' [e' [rest [Eq [Ee [Hset Hwo]]]]]].
      { intros E. rewrite E in Hin. destruct Hin. }
      exists t'. apply (wo_enabled s t' e'); assumption.
Qed.

Lemma T_serial_equivalence s :
  Reachable s ->
  hist (vz s) = serial (map (prg s) (ended s)) /\
  granted s = ended s ++ match wtxn s with Some t => [t] | None => [] end /\
  (exists dropped, hist (vz s) = dropped ++ versions (vz s)) /\
  (exists v, last_opt (versions (vz s)) = Some v /\ last_opt (hist (vz s)) = Some v).
Proof.
  intros R. pose proof (w_c s (reachable_winv s R)) as HC.
  split; [apply (c_hist s HC)|]. split; [apply (c_adm s HC)|]. split; [apply (inv_suffix _ (c_inv s HC))|].
  destruct (inv_last _ (c_inv s HC)) as [v E]. exists v. split; [exact E|].
  apply inv_last_hist; [apply (c_inv s HC)|exact E].
Qed.

(* when every thread has finished: the zone is the serial application, in admission order, of the
   transactions of all writers *)
Lemma T_final_state s :
  Reachable s -> (forall t, pcs s t = Done) ->
  wtxn s = None /\ wq s = [] /\ arrivals s = granted s /\ ended s = granted s /\
  hist (vz s) = serial (map (prg s) (granted s)) /\
  last_opt (versions (vz s)) = last_opt (serial (map (prg s) (granted s))).
Proof.
  intros R Hd. pose proof (reachable_winv s R) as [HA HB HC HD].
  assert (Hw : wtxn s = None).
  { destruct (wtxn s) as [t|] eqn:E; [|reflexivity]. pose proof (b_w1 s HB t E) as Ha. rewrite Hd in Ha. discriminate. }
  assert (Hq : wq s = []).
  { destruct (wq s) as [|t r] eqn:E; [reflexivity|]. pose proof (b_q1 s HB) as F. rewrite E in F.
    inversion F as [|? ? ? ? Hwo]; subst. rewrite Hd in Hwo. discriminate. }
  pose proof (c_adm s HC) as Ea. rewrite Hw, app_nil_r in Ea.
  repeat split; try assumption.
  - rewrite (b_f1 s HB), Hq, app_nil_r. reflexivity.
  - symmetry. exact Ea.
  - rewrite Ea. apply (c_hist s HC).
  - destruct (T_serial_equivalence s R) as [Eh [_ [_ [v [E1 E2]]]]]. rewrite Ea, <- Eh, E1, E2. reflexivity.
Qed.

Lemma T_latest_stable_for_writer s t :
  Reachable s ->
  (forall id, wid_of (pcs s t) = Some id -> id = next_id (versions (vz s))) /\
  on_track (prg s t) (vz s) (pcs s t).
Proof.
  intros R. destruct (c_thr s (w_c s (reachable_winv s R)) t) as [T1 [T2 _]]. split; assumption.
Qed.

Lemma T_commit_never_fails s t id c :
  Reachable s -> pcs s t = Crit (CEndWrite id c true) ->
  wtxn s = Some t /\
  exists z', VersM.step (vz_set_wtxn (vz s) (Some (mkW id c true))) WCommit = Ok (z', RUnit) /\
             hist z' = hist (vz s) ++ [mkV id c] /\ last_opt (versions z') = Some (mkV id c).
Proof.
  intros R Hpc. pose proof (reachable_winv s R) as [HA HB HC HD].
  split; [apply (b_w2 s HB); rewrite Hpc; reflexivity|].
  assert (Eid : id = next_id (versions (vz s))) by (apply (c_id s HC t); rewrite Hpc; reflexivity).
  destruct (vstep_commit (vz s) id c (c_inv s HC) Eid) as [z' [E [_ [_ [Hh [Hl _]]]]]]. eauto.
Qed.

(* no assert, index operation or set.remove of any critical section ever fails *)
Lemma T_no_failure s : Reachable s -> failed s = None.
Proof. intros R. apply (d_nofail s (w_d s (reachable_winv s R))). Qed.

(* the ghost orders are append-only: nobody is ever inserted in front of a waiting writer *)
Lemma T_orders_append_only s t :
  Reachable s -> enabled s t = true ->
  (arrivals (step s t) = arrivals s \/ arrivals (step s t) = arrivals s ++ [t]) /\
  (granted (step s t) = granted s \/ granted (step s t) = granted s ++ [t]) /\
  (ended (step s t) = ended s \/ ended (step s t) = ended s ++ [t]).
Proof.
  intros R He. destruct (step_kind s t (reachable_winv s R) He) as [p' l L|ev _ _ _| | | |]; cbn; try tauto.
  - destruct ev; tauto.
  - destruct (ended_st_fields s t z) as [_ [_ [_ [-> [-> ->]]]]]. tauto.
Qed.

Lemma step_frame s t : WInv s -> enabled s t = true ->
  prg (step s t) = prg s /\ forall t', t' <> t -> pcs (step s t) t' = pcs s t'.
Proof.
  intros W He. destruct (kind_frame _ _ _ (step_kind s t W He)) as [E [p' [-> _]]].
  split; [exact E|]. intros t'. apply upd_other.
Qed.

Lemma T_lock_only_in_critical_sections s t :
  Reachable s -> lock s = Some t ->
  holds_lock (pcs s t) = true /\ enabled s t = true /\
  (lock (step s t) = None \/ lock (step (step s t) t) = None).
Proof.
  intros R Hl. pose proof (reachable_winv s R) as W.
  pose proof (a_lock_holds s (w_a s W) t Hl) as Hh. split; [exact Hh|].
  assert (He : enabled s t = true) by (unfold enabled; destruct (pcs s t); try discriminate; reflexivity).
  split; [exact He|]. destruct (pcs s t) as [c|c|nx| | | | | |] eqn:Hpc; try discriminate.
  - right. destruct (kind_frame _ _ _ (step_kind s t W He)) as [_ [p' [Ep Hrel]]]. destruct (Hrel c Hpc) as [nx ->].
    unfold step at 1. rewrite Ep, upd_same. reflexivity.
  - left. unfold step. rewrite Hpc. reflexivity.
Qed.

(* a reader at `with self._version_lock` can proceed unless another thread is inside a critical section at
   this very moment, and that thread frees the lock within two of its own (always enabled) steps;
   whether a write transaction is open, or how many writers wait, plays no role *)
Lemma T_reader_never_blocked_by_txn s t sel :
  Reachable s -> pcs s t = Acq (CReaderOpen sel) ->
  enabled s t = true \/
  exists t', lock s = Some t' /\ holds_lock (pcs s t') = true /\ enabled s t' = true /\
             (lock (step s t') = None \/ lock (step (step s t') t') = None).
Proof.
  intros R Hpc. unfold enabled at 1. rewrite Hpc. destruct (lock s) as [t'|] eqn:Hl; [right|left; reflexivity].
  exists t'. split; [reflexivity|]. apply T_lock_only_in_critical_sections; assumption.
Qed.

Lemma T_reader_sees_committed s t i c :
  Reachable s -> rsnap (pcs s t) = Some (i, c) ->
  In (mkV i c) (hist (vz s)) /\ hist (vz s) = serial (map (prg s) (ended s)).
Proof.
  intros R E. pose proof (w_c s (reachable_winv s R)) as HC. split; [apply (c_thr s HC t), E|apply (c_hist s HC)].
Qed.

Definition weight (E : nat) (p : pc) : nat :=
  (fix w (p : pc) : nat :=
     match p with
     | Done => 0
     | Rel nx => S (w nx)
     | Crit (CEndWrite _ _ _) => 2
     | Acq (CEndWrite _ _ _) => 3
     | Body _ _ _ todo => 4 + length todo
     | SetupBase _ => 5 + E
     | SetupId => 6 + E
     | Crit (CWriterTest (Some _)) => 8 + E
     | Acq (CWriterTest (Some _)) => 9 + E
     | Wait _ => 10 + E
     | Crit (CWriterTest None) => 12 + E
     | Acq (CWriterTest None) => 13 + E
     | RBody _ _ _ => 4
     | Crit (CReaderOpen _) => 6
     | Acq (CReaderOpen _) => 7
     | Crit (CReaderEnd _) => 2
     | Acq (CReaderEnd _) => 3
     | Crit (CSetPolicy _) => 2
     | Acq (CSetPolicy _) => 3
     end) p.

Definition nedits (s : st) (t : nat) : nat := length (edits_of (prg s t)).

Lemma body_pc_weight E pr id c ch todo : weight E (body_pc pr id c ch todo) <= 4 + length todo.
Proof. destruct todo; cbn; lia. Qed.

(* every step strictly decreases the weight of the thread that moves (in particular a woken
   writer is granted: the loop in writer() runs at most twice); the others stay where they are (step_frame) *)
Lemma kind_weight s t s' : kind s t s' -> weight (nedits s t) (pcs s' t) < weight (nedits s t) (pcs s t).
Proof.
  destruct 1 as [p' l L|ev Hpc _ _|Hpc _|id c cm z Hpc _ _|sel z h i x Hpc _|c o z Hpc Ho _];
    try (cbn [pcs granted_st enqueued_st set_vz set_pc]; rewrite upd_same, Hpc).
  - cbn [pcs set_lock set_pc]. rewrite upd_same.
    destruct L as [c Hpc _|nx Hpc|e Hpc _|Hpc|id Hpc|id c ch Hpc|id c ch e todo Hpc|h i c Hpc|sel Hpc]; rewrite Hpc;
      try (cbn; lia).
    + destruct c as [[]| | | |]; cbn; lia.
    + change (weight (nedits s t) (Rel nx)) with (S (weight (nedits s t) nx)). lia.
    + pose proof (body_pc_weight (nedits s t) (prg s t) id (base_content (prg s t) (vz s)) false (edits_of (prg s t))) as W.
      change (weight (nedits s t) (SetupBase id)) with (5 + nedits s t). unfold nedits in *. lia.
    + pose proof (body_pc_weight (nedits s t) (prg s t) id (fst (apply_edit e (c, ch))) (snd (apply_edit e (c, ch))) todo) as W.
      change (weight (nedits s t) (Body id c ch (e :: todo))) with (4 + S (length todo)). lia.
  - destruct ev; cbn; lia.
  - cbn. lia.
  - destruct (ended_st_fields s t z) as [_ [-> _]]. rewrite upd_same, Hpc. cbn. lia.
  - cbn. lia.
  - destruct c; try discriminate; cbn; lia.
Qed.

Lemma T_progress s t :
  Reachable s -> enabled s t = true ->
  weight (nedits s t) (pcs (step s t) t) < weight (nedits s t) (pcs s t).
Proof. intros R He. apply kind_weight, step_kind; [apply reachable_winv, R|exact He]. Qed.

Lemma T_woken_writer_is_granted s t e :
  Reachable s -> pcs s t = Crit (CWriterTest (Some e)) ->
  pcs (step s t) t = Rel SetupId /\ wtxn (step s t) = Some t /\ granted (step s t) = granted s ++ [t].
Proof.
  intros R Hpc. destruct (writer_test s t _ (w_b s (reachable_winv s R)) Hpc) as [[_ [_ ->]]|[[=] _]].
  cbn. rewrite upd_same. repeat split; reflexivity.
Qed.

(* bounded runs: with finitely many unfinished threads every schedule of enabled steps is finite *)
Definition total (s : st) (ts : list nat) : nat :=
  list_sum (map (fun t => weight (nedits s t) (pcs s t)) ts).

Inductive valid_sched : st -> list nat -> Prop :=
| vs_nil s : valid_sched s []
| vs_cons s t sch : enabled s t = true -> valid_sched (step s t) sch -> valid_sched s (t :: sch).

Lemma total_step s t ts :
  WInv s -> enabled s t = true -> NoDup ts -> In t ts -> total (step s t) ts < total s ts.
Proof.
  intros W He ND Hin. unfold total.
  induction ts as [|a ts IH]; [destruct Hin|].
  inversion ND as [|? ? Hna ND']; subst. simpl map. simpl list_sum.
  destruct (step_frame s t W He) as [Eprg Hoth].
  assert (Hprg : forall x, nedits (step s t) x = nedits s x) by (intros x; unfold nedits; rewrite Eprg; reflexivity).
  destruct Hin as [->|Hin].
  - assert (Hrest : map (fun x => weight (nedits (step s t) x) (pcs (step s t) x)) ts =
                    map (fun x => weight (nedits s x) (pcs s x)) ts).
    { apply map_ext_in. intros x Hx. rewrite Hprg, Hoth; [reflexivity|]. intros ->. contradiction. }
    rewrite Hrest, Hprg. pose proof (kind_weight _ _ _ (step_kind s t W He)). lia.
  - rewrite Hoth, Hprg by (intros ->; contradiction). specialize (IH ND' Hin). lia.
Qed.

Lemma enabled_not_done s t : enabled s t = true -> pcs s t <> Done.
Proof. unfold enabled. intros H E. rewrite E in H. discriminate. Qed.

(* it is the invariant, not reachability, that bounds the runs *)
Theorem winv_runs_bounded sch : forall s ts,
  WInv s -> NoDup ts -> (forall t, ~ In t ts -> pcs s t = Done) ->
  valid_sched s sch -> length sch <= total s ts.
Proof.
  induction sch as [|t sch IH]; intros s ts W ND Hcov V; [cbn; lia|].
  inversion V as [|? ? ? He V']; subst.
  assert (Hin : In t ts).
  { destruct (in_dec Nat.eq_dec t ts) as [H|H]; [exact H|]. destruct (enabled_not_done s t He (Hcov t H)). }
  pose proof (total_step s t ts W He ND Hin) as Hlt.
  assert (Hcov' : forall t', ~ In t' ts -> pcs (step s t) t' = Done).
  { intros t' Hn. rewrite (proj2 (step_frame s t W He)); [exact (Hcov t' Hn)|]. intros ->. contradiction. }
  specialize (IH (step s t) ts (winv_step s t W He) ND Hcov' V'). cbn [length]. lia.
Qed.

Lemma T_runs_are_bounded sch : forall s ts,
  Reachable s -> NoDup ts -> (forall t, ~ In t ts -> pcs s t = Done) ->
  valid_sched s sch -> length sch <= total s ts.
Proof. intros s ts R. apply winv_runs_bounded, reachable_winv, R. Qed.
