(* C13 - full transfers.  Part 1: merging the records of one message into RRsets
   (dns.message with one_rr_per_rrset=False) and adding the RRsets has, entry by entry, the same
   effect as adding the records one by one - for records of any type, as long as a singleton-typed
   RRset has one record in the whole stream and nothing has to be evicted (dns/node.py).
   Part 2: the driver on a full transfer, message by message. *)
From DV Require Import Base.Prelude Model.XfrM Proofs.XfrSets Proofs.XfrSpec Proofs.XfrZone Proofs.XfrDiff
  Proofs.XfrSafety Proofs.XfrBasic Proofs.XfrRun Proofs.XfrSteps Proofs.XfrGeneral Proofs.XfrIxfr.

Definition tmin (a b : Z) : Z := if a <? b then a else b.

Definition merge (e : option entry) (t : Z) (D : list Z) : entry :=
  match e with
  | None => (t, D)
  | Some (t0, S0) => (tmin t t0, union S0 D)
  end.

(* effect on the entry at key k of adding the RRsets l, in order *)
Definition fm (k : key) (e : option entry) (l : list rrset) : option entry :=
  fold_left (fun e s => if key_eqb (skey s) k then Some (merge e (s_ttl s) (s_data s)) else e) l e.

Definition wf_e (e : option entry) : Prop :=
  match e with Some (_, S0) => ssorted S0 | None => True end.

Definition rs_ok (s : rrset) : Prop :=
  s_class s = cIN /\ s_type s <> tSOA /\ 0 <= s_name s /\ s_data s <> [] /\ ssorted (s_data s).

Definition acc_ok (acc : list rrset) : Prop := Forall rs_ok acc /\ NoDup (map skey acc).

Lemma same_rrset_key : forall r s, r_class r = cIN -> s_class s = cIN ->
  same_rrset r s = key_eqb (rkey r) (skey s).
Proof.
  intros r s Hr Hs. unfold same_rrset, key_eqb, rkey, skey. rewrite Hr, Hs. cbn [Z.eqb cIN Pos.eqb].
  rewrite andb_true_r. reflexivity.
Qed.

Lemma fm_cons : forall k e s l,
  fm k e (s :: l) = fm k (if key_eqb (skey s) k then Some (merge e (s_ttl s) (s_data s)) else e) l.
Proof. reflexivity. Qed.

Lemma fm_notin : forall k l e, ~ In k (map skey l) -> fm k e l = e.
Proof.
  unfold fm. induction l as [|s l IH]; intros e H; cbn [fold_left]; [reflexivity|].
  destruct (key_eqb (skey s) k) eqn:E.
  - apply key_eqb_eq in E. exfalso. apply H. left. exact E.
  - apply IH. intros Hin. apply H. right. exact Hin.
Qed.

Lemma fm_keys : forall k l e, fm k e l <> None -> e <> None \/ In k (map skey l).
Proof.
  intros k. induction l as [|s l IH]; intros e H; [left; exact H|].
  rewrite fm_cons in H. destruct (key_eqb (skey s) k) eqn:E.
  - right. left. apply key_eqb_eq, E.
  - destruct (IH _ H) as [H1|H1]; [left; exact H1|right; right; exact H1].
Qed.

Lemma tmin_min : forall a b, tmin a b = Z.min a b.
Proof. intros a b. unfold tmin. destruct (Z.ltb_spec a b); lia. Qed.

Lemma tmin_assoc : forall a b c, tmin (tmin a b) c = tmin a (tmin b c).
Proof. intros a b c. rewrite !tmin_min. symmetry. apply Z.min_assoc. Qed.

Lemma union_ins_comm : forall S0 Ss d, ssorted S0 ->
  union S0 (ins d Ss) = ins d (union S0 Ss).
Proof.
  intros S0 Ss d H0. apply ssorted_ext.
  - apply union_sorted, H0.
  - apply ins_sorted, union_sorted, H0.
  - intros x. rewrite union_In, !ins_In, union_In. tauto.
Qed.

(* merging one more record r into the RRset s, or adding s and then r: the same entry *)
Lemma merge_rrset_add : forall e s r, wf_e e -> rs_ok s -> rec_g r -> is_singleton (s_type s) = false ->
  merge e (s_ttl (rrset_add s r)) (s_data (rrset_add s r)) =
  add1 (Some (merge e (s_ttl s) (s_data s))) (r_ttl r) (r_data r).
Proof.
  intros e s r He (_ & _ & _ & Hne & Hs) (_ & _ & _ & Httl) Hsg.
  unfold rrset_add. cbn [s_ttl s_data]. rewrite (clamp_ok _ Httl), (rds_add_plain _ _ _ Hsg).
  destruct (s_data s) as [|d0 ds] eqn:Ed; [congruence|]. rewrite <- Ed in *.
  destruct e as [[t0 S0]|]; cbn [merge add1].
  - fold (tmin (r_ttl r) (s_ttl s)). fold (tmin (r_ttl r) (tmin (s_ttl s) t0)).
    rewrite tmin_assoc. f_equal. apply union_ins_comm. exact He.
  - reflexivity.
Qed.

(* a record whose type is a singleton type starts an RRset of its own *)
Definition fresh (r : rr) (acc : list rrset) : Prop :=
  is_singleton (r_type r) = true -> ~ In (rkey r) (map skey acc).

Lemma fresh_same_key : forall r s acc, fresh r (s :: acc) -> rkey r = skey s -> is_singleton (s_type s) = false.
Proof.
  intros r s acc Hf E. destruct (is_singleton (s_type s)) eqn:Es; [|reflexivity]. exfalso.
  assert (Et : r_type r = s_type s) by (unfold rkey, skey in E; inversion E; reflexivity).
  rewrite <- Et in Es. apply (Hf Es). left. symmetry. exact E.
Qed.

Lemma fresh_tail : forall r s acc, fresh r (s :: acc) -> fresh r acc.
Proof. intros r s acc H E Hin. apply (H E). right. exact Hin. Qed.

Lemma add_to_effect : forall k r acc e, rec_g r -> acc_ok acc -> wf_e e -> fresh r acc ->
  fm k e (add_to r acc) =
  if key_eqb (rkey r) k then Some (add1 (fm k e acc) (r_ttl r) (r_data r)) else fm k e acc.
Proof.
  intros k r acc. induction acc as [|s acc IH]; intros e Hp [Hok Hnd] He Hfresh.
  - cbn [add_to]. unfold fm. cbn [fold_left]. change (skey (single r)) with (rkey r).
    destruct (key_eqb (rkey r) k); [|reflexivity].
    destruct Hp as (_ & _ & _ & Httl). unfold single. cbn [s_ttl s_data]. rewrite (clamp_ok _ Httl).
    destruct e as [[t0 S0]|]; reflexivity.
  - inversion Hok as [|? ? Hs Hok']; subst. inversion Hnd as [|? ? Hni Hnd']; subst.
    cbn [add_to]. pose proof Hp as (Hc & _). pose proof Hs as (Hsc & Hrest).
    rewrite (same_rrset_key r s Hc Hsc).
    destruct (key_eqb (rkey r) (skey s)) eqn:Ers.
    + apply key_eqb_eq in Ers. pose proof (fresh_same_key _ _ _ Hfresh Ers) as Hsg.
      rewrite !fm_cons. change (skey (rrset_add s r)) with (skey s).
      destruct (key_eqb (skey s) k) eqn:Esk.
      * apply key_eqb_eq in Esk. rewrite Ers, Esk, key_eqb_refl.
        rewrite !fm_notin by (rewrite <- Esk; exact Hni).
        f_equal. apply merge_rrset_add; assumption.
      * rewrite Ers, Esk. reflexivity.
    + rewrite !fm_cons.
      destruct (key_eqb (skey s) k) eqn:Esk; (apply IH; [exact Hp|split; assumption| |exact (fresh_tail _ _ _ Hfresh)]); [|exact He].
      destruct Hrest as (_ & _ & _ & Hss). destruct e as [[t0 S0]|]; cbn [merge wf_e]; [apply union_sorted, He|exact Hss].
Qed.

Lemma add_to_keys : forall r acc, rec_g r -> Forall rs_ok acc -> forall k,
  In k (map skey (add_to r acc)) <-> k = rkey r \/ In k (map skey acc).
Proof.
  intros r acc Hp. induction acc as [|s acc IH]; intros Hok k; cbn [add_to].
  - cbn. change (skey (single r)) with (rkey r). split; intros [H|[]]; left; symmetry; exact H.
  - inversion Hok as [|? ? Hs Hok']; subst. destruct Hp as (Hc & _). destruct Hs as (Hsc & _).
    rewrite (same_rrset_key r s Hc Hsc). destruct (key_eqb (rkey r) (skey s)) eqn:E.
    + apply key_eqb_eq in E. cbn [map In]. change (skey (rrset_add s r)) with (skey s). rewrite E.
      split; [auto|intros [->|H]; auto].
    + cbn [map In]. rewrite IH by assumption. tauto.
Qed.

Lemma rs_ok_single : forall r, rec_g r -> rs_ok (single r).
Proof.
  intros r (Hc & Ht & Hn & Httl). unfold rs_ok, single. cbn.
  split; [exact Hc|]. split; [exact Ht|]. split; [exact Hn|]. split; [discriminate|apply ssorted_one].
Qed.

Lemma add_to_ok : forall r acc, rec_g r -> acc_ok acc -> fresh r acc -> acc_ok (add_to r acc).
Proof.
  intros r acc Hp. induction acc as [|s acc IH]; intros [Hok Hnd] Hfresh; cbn [add_to].
  - split; [constructor; [apply rs_ok_single, Hp|constructor]|constructor; [intros []|constructor]].
  - inversion Hok as [|? ? Hs Hok']; subst. inversion Hnd as [|? ? Hni Hnd']; subst.
    pose proof Hp as (Hc & Ht & Hn & Httl). pose proof Hs as (Hsc & Hst & Hsn & Hsne & Hss).
    rewrite (same_rrset_key r s Hc Hsc). destruct (key_eqb (rkey r) (skey s)) eqn:E.
    + apply key_eqb_eq in E. pose proof (fresh_same_key _ _ _ Hfresh E) as Hsg. split.
      * constructor; [|assumption]. unfold rs_ok, rrset_add. cbn [s_class s_type s_name s_data].
        rewrite (rds_add_plain _ _ _ Hsg).
        split; [exact Hsc|]. split; [exact Hst|]. split; [exact Hsn|]. split; [|apply ins_sorted, Hss].
        intros Hnil. assert (In (r_data r) (ins (r_data r) (s_data s))) by (apply ins_In; auto).
        rewrite Hnil in H. destruct H.
      * cbn [map]. change (skey (rrset_add s r)) with (skey s). constructor; assumption.
    + destruct (IH (conj Hok' Hnd') (fresh_tail _ _ _ Hfresh)) as [Hok2 Hnd2]. split.
      * constructor; assumption.
      * cbn [map]. constructor; [|assumption]. intros Hin. apply (add_to_keys r acc Hp Hok') in Hin.
        destruct Hin as [Hin|Hin]; [|auto]. apply key_eqb_neq in E. auto.
Qed.

(* a singleton-typed record occurs once (key-wise) in x *)
Definition once (x : list rr) : Prop :=
  forall pre r post, x = pre ++ r :: post -> is_singleton (r_type r) = true -> ~ In (rkey r) (map rkey pre).

Lemma once_app : forall a b, once (a ++ b) -> once a.
Proof. intros a b H pre r post E. apply (H pre r (post ++ b)). rewrite E, <- app_assoc. reflexivity. Qed.

Lemma plain_once : forall x, Forall plain x -> once x.
Proof.
  intros x Hx pre r post E Es. rewrite Forall_forall in Hx. destruct (Hx r) as (_ & _ & _ & _ & Hs & _); [|congruence].
  rewrite E. apply in_or_app. right. left. reflexivity.
Qed.

Lemma group_go_plain : forall x acc, Forall plain x ->
  group_go false acc x = fold_left (fun a r => add_to r a) x acc.
Proof.
  induction x as [|r x IH]; intros acc Hf; cbn [group_go fold_left]; [reflexivity|].
  inversion Hf as [|? ? Hp Hf']; subst. destruct Hp as (_ & Ht & _).
  apply Z.eqb_neq in Ht. rewrite Ht. cbn [orb]. apply IH, Hf'.
Qed.

(* the records x merged into the RRsets acc: entry by entry the effect of adding acc, then x *)
Lemma group_effect : forall k x acc e, Forall rec_g x -> acc_ok acc -> wf_e e ->
  once x -> (forall r, In r x -> fresh r acc) ->
  fm k e (group_go false acc x) = fa k (fm k e acc) x /\ acc_ok (group_go false acc x) /\
  (forall k', In k' (map skey (group_go false acc x)) <-> In k' (map skey acc) \/ In k' (map rkey x)).
Proof.
  intros k x. induction x as [|r x IH]; intros acc e Hf Hacc He Ho Hfr.
  - cbn [group_go]. unfold fa. cbn. split; [reflexivity|]. split; [exact Hacc|]. intros k'. tauto.
  - inversion Hf as [|? ? Hp Hf']; subst.
    assert (E : group_go false acc (r :: x) = group_go false (add_to r acc) x).
    { cbn [group_go]. destruct Hp as (_ & Ht & _). apply Z.eqb_neq in Ht. rewrite Ht. reflexivity. }
    pose proof (Hfr r (or_introl eq_refl)) as Hfresh.
    assert (Ho' : once x).
    { intros pre r' post Ex Es Hin. apply (Ho (r :: pre) r' post); [rewrite Ex; reflexivity|exact Es|right; exact Hin]. }
    assert (Hfr' : forall r', In r' x -> fresh r' (add_to r acc)).
    { intros r' Hr' Es Hin. apply in_split in Hr'. destruct Hr' as (pre & post & Ex).
      apply (add_to_keys r acc Hp (proj1 Hacc)) in Hin. destruct Hin as [Hin|Hin].
      - apply (Ho (r :: pre) r' post); [rewrite Ex; reflexivity|exact Es|left; symmetry; exact Hin].
      - apply (Hfr r'); [right; rewrite Ex; apply in_or_app; right; left; reflexivity|exact Es|exact Hin]. }
    rewrite E. destruct (IH (add_to r acc) e Hf' (add_to_ok r acc Hp Hacc Hfresh) He Ho' Hfr') as (H1 & H2 & H3).
    split; [|split; [exact H2|]].
    + rewrite H1, (add_to_effect k r acc e Hp Hacc He Hfresh).
      unfold fa at 2. cbn [fold_left]. reflexivity.
    + intros k'. rewrite H3, (add_to_keys r acc Hp (proj1 Hacc)). cbn [map In]. intuition.
Qed.

Fixpoint addrs (z : zone) (l : list rrset) : zone :=
  match l with
  | [] => z
  | s :: t => addrs (zput (skey s) (merge (look z (skey s)) (s_ttl s) (s_data s)) z) t
  end.

Lemma look_addrs : forall l z k, look (addrs z l) k = fm k (look z k) l.
Proof.
  induction l as [|s l IH]; intros z k; cbn [addrs]; [reflexivity|].
  rewrite IH, fm_cons, look_zput. rewrite (key_eqb_sym k (skey s)).
  destruct (key_eqb (skey s) k) eqn:E; [|reflexivity].
  apply key_eqb_eq in E. subst k. reflexivity.
Qed.

Definition zsorted (z : zone) : Prop := forall k, wf_e (look z k).

Lemma zsorted_nil : zsorted []. Proof. intros k. exact Logic.I. Qed.

Lemma zsorted_zeq : forall a b, zeq a b -> zsorted b -> zsorted a.
Proof. intros a b H Hb k. rewrite H. apply Hb. Qed.

Lemma adds_sorted : forall x z, zsorted z -> zsorted (adds z x).
Proof.
  induction x as [|r x IH]; intros z Hz; cbn [adds]; [exact Hz|].
  apply IH. intros k. rewrite look_zput. destruct (key_eqb k (rkey r)); [|apply Hz].
  pose proof (Hz (rkey r)) as H. destruct (look z (rkey r)) as [[t0 S0]|]; cbn [add1 wf_e] in *.
  - apply ins_sorted, H.
  - apply ssorted_one.
Qed.

Lemma t_add_rs : forall z s, rs_ok s -> addable z (skey s) ->
  (is_singleton (s_type s) = true -> look z (skey s) = None) ->
  t_add false z s = Ok (zput (skey s) (merge (look z (skey s)) (s_ttl s) (s_data s)) z).
Proof.
  intros z s (Hc & Ht & _ & Hne & _) Ha Hs. unfold t_add.
  rewrite (node_put_id _ _ _ Ha).
  destruct (s_data s) as [|d ds] eqn:Ed; [congruence|]. rewrite <- Ed.
  rewrite Hc. cbn [Z.eqb cIN Pos.eqb negb].
  apply Z.eqb_neq in Ht. rewrite Ht. cbn [andb]. unfold merge, tmin.
  destruct (look z (skey s)) as [[t0 S0]|] eqn:El; [|reflexivity].
  destruct (is_singleton (s_type s)) eqn:Es; [specialize (Hs eq_refl); discriminate|].
  rewrite (fold_rds_add_union _ _ _ Es). reflexivity.
Qed.

(* every RRset of the list can be stored without evicting anything and without replacing a singleton *)
Definition addrs_ok (z : zone) (l : list rrset) : Prop :=
  forall pre s post, l = pre ++ s :: post ->
    addable (addrs z pre) (skey s) /\ (is_singleton (s_type s) = true -> look (addrs z pre) (skey s) = None).

Lemma loopn_addrs : forall l u rdt p tz ser s0, Forall rs_ok l -> addrs_ok tz l ->
  loopn (ast u rdt p tz ser s0) l = (ast u rdt p (addrs tz l) ser s0, None).
Proof.
  induction l as [|s l IH]; intros u rdt p tz ser s0 Hf Hok; cbn [loopn addrs]; [reflexivity|].
  inversion Hf as [|? ? Hs Hf']; subst. destruct (Hok [] s l eq_refl) as [Ha Hsg]. cbn [addrs] in Ha, Hsg.
  pose proof Hs as (_ & Ht & Hn & _). apply Z.eqb_neq in Ht. apply Z.leb_le in Hn.
  unfold ast. rewrite step_rs by (rewrite Ht; reflexivity). cbv zeta. fold (in_zone (s_name s)) in Hn. rewrite Hn. cbn [negb].
  rewrite (t_add_rs tz s Hs Ha Hsg). cbn [res_of].
  apply IH; [exact Hf'|]. intros pre s' post E. apply (Hok (s :: pre) s' post). rewrite E. reflexivity.
Qed.

(* a conflict-free set of keys K that holds the zone's keys and the RRsets' keys; singleton RRsets are new *)
Lemma addrs_ok_keys : forall (K : key -> Prop) tz l,
  (forall k k', K k -> K k' -> conflicts k k' = false) ->
  (forall k, look tz k <> None -> K k) -> (forall k, In k (map skey l) -> K k) ->
  (forall pre s post, l = pre ++ s :: post -> is_singleton (s_type s) = true ->
     look tz (skey s) = None /\ ~ In (skey s) (map skey pre)) ->
  addrs_ok tz l.
Proof.
  intros K tz l HK Htz Hl Hfresh pre s post E. split.
  - intros k' Hk'. apply HK.
    + apply Hl. rewrite E, map_app. apply in_or_app. right. left. reflexivity.
    + rewrite look_addrs in Hk'. destruct (fm_keys _ _ _ Hk') as [H|H]; [apply Htz, H|].
      apply Hl. rewrite E, map_app. apply in_or_app. left. exact H.
  - intros Es. destruct (Hfresh pre s post E Es) as [H1 H2].
    rewrite look_addrs, H1. apply fm_notin, H2.
Qed.

(* How the records of one message reach the zone: group f, f = true for the rest of the first message (it
   starts with an SOA) and for IXFR queries, f = false for later AXFR messages.
   Stream order is preserved from the first SOA record of the section on (force_unique is sticky). *)
Lemma group_go_after_soa : forall x1 f acc r x2, r_type r = tSOA ->
  group_go f acc (x1 ++ r :: x2) = group_go f acc x1 ++ single r :: map single x2.
Proof.
  induction x1 as [|y x1 IH]; intros f acc r x2 Hr; cbn [app group_go].
  - rewrite Hr. cbn [Z.eqb tSOA Pos.eqb]. rewrite orb_true_r. rewrite group_go_true, <- app_assoc. reflexivity.
  - apply IH, Hr.
Qed.

Lemma addrs_singles : forall x tz, Forall rec_g x -> addrs tz (map single x) = adds tz x.
Proof.
  induction x as [|r x IH]; intros tz Hf; cbn [map addrs adds]; [reflexivity|].
  inversion Hf as [|? ? Hp Hf']; subst. rewrite <- IH by assumption. f_equal.
  change (skey (single r)) with (rkey r). f_equal. destruct Hp as (_ & _ & _ & Httl).
  unfold single. cbn [s_ttl s_data]. rewrite (clamp_ok _ Httl).
  unfold merge, add1, tmin. destruct (look tz (rkey r)) as [[t0 S0]|]; reflexivity.
Qed.

Lemma map_skey_single : forall x, map skey (map single x) = map rkey x.
Proof. induction x as [|r x IH]; cbn [map]; [reflexivity|]. rewrite IH. reflexivity. Qed.

Lemma NoDup_split_notin : forall {A} (l1 : list A) x l2, NoDup (l1 ++ x :: l2) -> ~ In x l1.
Proof. intros A l1 x l2 H Hin. apply NoDup_remove_2 in H. apply H. apply in_or_app. left. exact Hin. Qed.

(* the RRsets are well formed, their keys are keys of records, a singleton-typed one is new among them;
   adding them is adding the records *)
Lemma group_parse : forall f x, Forall rec_g x -> once x ->
  Forall rs_ok (group f x) /\ (forall k, In k (map skey (group f x)) -> In k (map rkey x)) /\
  (forall pre s post, group f x = pre ++ s :: post -> is_singleton (s_type s) = true -> ~ In (skey s) (map skey pre)) /\
  (forall tz, zsorted tz -> zeq (addrs tz (group f x)) (adds tz x)).
Proof.
  intros [|] x Hf Ho.
  - rewrite group_true. split; [|split; [|split]].
    + apply Forall_forall. intros s Hs. apply in_map_iff in Hs. destruct Hs as [r [<- Hr]].
      apply rs_ok_single. rewrite Forall_forall in Hf. auto.
    + intros k. rewrite map_skey_single. tauto.
    + intros pre s post E Es.
      apply map_eq_app in E. destruct E as (pre' & rest & -> & <- & E2).
      apply map_eq_cons in E2. destruct E2 as (r & post' & -> & <- & _).
      rewrite map_skey_single. apply (Ho pre' r post' eq_refl). exact Es.
    + intros tz _. rewrite addrs_singles by assumption. apply zeq_refl.
  - assert (A0 : acc_ok []) by (split; constructor).
    assert (F0 : forall r, In r x -> fresh r []) by (intros r _ _ []).
    destruct (group_effect soakey x [] None Hf A0 Logic.I Ho F0) as (_ & [H1 H2] & H3).
    split; [exact H1|]. split; [|split].
    + intros k Hk. apply H3 in Hk. destruct Hk as [[]|Hk]. exact Hk.
    + intros pre s post E _. unfold group in E. rewrite E, map_app in H2. cbn [map] in H2.
      apply (NoDup_split_notin _ _ _ H2).
    + intros tz Hz k. rewrite look_addrs, look_adds_fa.
      destruct (group_effect k x [] (look tz k) Hf A0 (Hz k) Ho F0) as [H _]. exact H.
Qed.

Section FULL.
Variable K : key -> Prop.
Hypothesis HK : forall k k', K k -> K k' -> conflicts k k' = false.

(* the records c still to come: in K; a singleton-typed one is new to the zone and occurs once *)
Definition todo_ok (tz : zone) (c : list rr) : Prop :=
  (forall k, look tz k <> None -> K k) /\ (forall r, In r c -> K (rkey r)) /\
  (forall pre r post, c = pre ++ r :: post -> is_singleton (r_type r) = true ->
     look tz (rkey r) = None /\ ~ In (rkey r) (map rkey pre)).

Lemma todo_once : forall tz c, todo_ok tz c -> once c.
Proof. intros tz c (_ & _ & H) pre r post E Es. apply (H pre r post E Es). Qed.

Lemma todo_prefix : forall tz a c', todo_ok tz (a ++ c') -> todo_ok tz a.
Proof.
  intros tz a c' (H1 & H2 & H3). split; [exact H1|]. split.
  - intros r Hr. apply H2. apply in_or_app. left. exact Hr.
  - intros pre r post E Es. apply (H3 pre r (post ++ c')); [|exact Es]. rewrite E, <- app_assoc. reflexivity.
Qed.

(* one message of the body: its RRsets go in one after the other, to the effect of adding its records *)
Lemma msg_run : forall f u rdt p tz ser s0 a c',
  Forall rec_g a -> zsorted tz -> todo_ok tz (a ++ c') ->
  loopn (ast u rdt p tz ser s0) (group f a) = (ast u rdt p (addrs tz (group f a)) ser s0, None) /\
  zeq (addrs tz (group f a)) (adds tz a) /\ todo_ok (addrs tz (group f a)) c'.
Proof.
  intros f u rdt p tz ser s0 a c' Hf Hz (H1 & H2 & H3).
  assert (Ho : once a) by (apply (once_app a c'), (todo_once tz), (conj H1 (conj H2 H3))).
  destruct (group_parse f a Hf Ho) as (R1 & R2 & R3 & R4).
  assert (Hka : forall k, In k (map skey (group f a)) -> exists r, rkey r = k /\ In r a).
  { intros k Hk. apply R2, in_map_iff in Hk. exact Hk. }
  split; [|split; [apply R4, Hz|]].
  - apply loopn_addrs; [exact R1|]. apply (addrs_ok_keys K); [exact HK|exact H1| |].
    + intros k Hk. destruct (Hka k Hk) as (r & <- & Hr). apply H2, in_or_app. left. exact Hr.
    + intros pre s post E Es. split; [|apply (R3 pre s post E Es)].
      destruct (Hka (skey s)) as (r & Ek & Hr); [rewrite E, map_app; apply in_or_app; right; left; reflexivity|].
      apply in_split in Hr. destruct Hr as (p1 & p2 & Ea).
      assert (Es' : is_singleton (r_type r) = true).
      { unfold rkey, skey in Ek. injection Ek as _ Et _. rewrite Et. exact Es. }
      destruct (H3 p1 r (p2 ++ c')) as [Hl _]; [rewrite Ea, <- app_assoc; reflexivity|exact Es'|]. rewrite <- Ek. exact Hl.
  - split; [|split].
    + intros k Hk. rewrite look_addrs in Hk. destruct (fm_keys _ _ _ Hk) as [H|H]; [apply H1, H|].
      destruct (Hka k H) as (r & <- & Hr). apply H2, in_or_app. left. exact Hr.
    + intros r Hr. apply H2, in_or_app. right. exact Hr.
    + intros pre r post E Es.
      destruct (H3 (a ++ pre) r post) as [Hl Hn]; [rewrite E, <- app_assoc; reflexivity|exact Es|].
      rewrite map_app in Hn. split; [|intros Hin; apply Hn, in_or_app; right; exact Hin].
      rewrite (R4 tz Hz), look_adds_fa, Hl. apply fa_none.
      intros r' Hr'. apply key_eqb_neq. intros Ek. apply Hn, in_or_app. left. rewrite <- Ek. apply in_map, Hr'.
Qed.
End FULL.

(* ordinary records on a zone without CNAME-kind RRsets: nothing to check *)
Lemma todo_plain : forall tz c, quiet tz -> Forall plain c -> todo_ok (fun k => key_kind k <> 2) tz c.
Proof.
  intros tz c Hq Hc. rewrite Forall_forall in Hc. split; [exact Hq|]. split.
  - intros r Hr. rewrite rkey_kind. apply (Hc r Hr).
  - intros pre r post E Es. destruct (Hc r) as (_ & _ & _ & _ & Hs & _); [rewrite E; apply in_or_app; right; left; reflexivity|congruence].
Qed.

(* records of a version of any content, each singleton-typed one once, on the empty zone: the keys of the version *)
Lemma todo_version : forall v c, version_wf_g v -> (forall r, In r c -> In r (body (v_rest v))) -> once c ->
  todo_ok (fun k => look (zone_of v) k <> None) [] c.
Proof.
  intros v c (_ & Hb & _) Hin Ho. split; [|split].
  - intros k H. exfalso. apply H. reflexivity.
  - intros r Hr. destruct (body_in_look0 _ r Hb (Hin r Hr)) as (S0 & Hl & _).
    apply zone_of_keys. right. rewrite Hl. discriminate.
  - intros pre r post E Es. split; [reflexivity|exact (Ho pre r post E Es)].
Qed.

(* Messages against a stream cut into c and rest: induction on the messages ws, a being what is left of the
   current one.  Either the messages end with c, or the first record of rest lies in the current message, or
   the current message lies within c and the next one becomes current. *)
Lemma stream_cut_ind : forall (rest : list rr) (P : list rr -> list wmsg -> list rr -> Prop),
  (rest = [] -> forall c, P c [] c) ->
  (forall c x l ws, rest = x :: l ++ concat (map w_records ws) -> P (c ++ x :: l) ws c) ->
  (forall a w ws l, P (w_records w) ws l -> P a (w :: ws) (a ++ l)) ->
  forall ws a c, a ++ concat (map w_records ws) = c ++ rest -> P a ws c.
Proof.
  intros rest P Hend Hin Hstep. induction ws as [|w ws IH]; intros a c Hcat.
  - cbn [map concat] in Hcat. rewrite app_nil_r in Hcat. subst a. destruct rest as [|x l].
    + rewrite app_nil_r. apply Hend. reflexivity.
    + apply Hin. cbn [map concat]. rewrite app_nil_r. reflexivity.
  - destruct (app_split _ _ _ _ Hcat) as [(l & -> & Hrest)|(x & l & -> & E)].
    + apply Hstep, IH, Hrest.
    + apply Hin, E.
Qed.

Section DRIVER.
Variables (one_rr : bool) (rdt : Z) (p : zone) (ser : Z) (s0 : rrset).
(* I tz c: the transaction stands at tz and the records c of the body are still to come *)
Variable I : zone -> list rr -> Prop.
Hypothesis Hmsg : forall f tz a c', I tz (a ++ c') ->
  exists tz', loopn (ast false rdt p tz ser s0) (group f a) = (ast false rdt p tz' ser s0, None) /\ I tz' c'.

(* The driver on messages whose records are a ++ (those of ws), then the messages `more`, once the body
   records c have gone in: it stands at the end of the messages ws if that is all they hold, otherwise before
   the SOA record x with the rest a' of its message; k counts the messages done with. *)
Lemma cont_full : forall ws more f a tz c rest,
  Forall (header_ok rdt) ws -> a ++ concat (map w_records ws) = c ++ rest -> I tz c ->
  match rest with x :: _ => r_type x = tSOA | [] => True end ->
  exists k tz', I tz' [] /\ match rest with
  | [] => forall r n, drive one_rr (ast false rdt p tz' ser s0) more = (r, n) ->
            cont one_rr (loop (ast false rdt p tz ser s0) (group f a)) (ws ++ more) = (r, (k + n)%nat)
  | x :: rest' => exists a', a' ++ concat (map w_records (skipn k ws)) = rest' /\
      forall r n, cont one_rr (loop (ast false rdt p tz' ser s0) (single x :: map single a')) (skipn k ws ++ more) = (r, n) ->
                  cont one_rr (loop (ast false rdt p tz ser s0) (group f a)) (ws ++ more) = (r, (k + n)%nat)
  end.
Proof.
  intros ws more f a tz c rest Hh Hcat. revert more f tz Hh. revert ws a c Hcat. refine (stream_cut_ind rest _ _ _ _).
  - intros -> c more f tz _ Hi _. rewrite <- (app_nil_r c) in Hi. destruct (Hmsg f tz c [] Hi) as (tz' & Hl & Hi').
    exists 1%nat, tz'. split; [exact Hi'|]. intros r n E. rewrite (loop_loopn _ _ _ Hl). cbn [cont ast done app]. rewrite E. reflexivity.
  - (* the records up to x go in; force_unique keeps x and what follows it one RRset each *)
    intros c x l ws -> more f tz _ Hi Hx. rewrite <- (app_nil_r c) in Hi. destruct (Hmsg f tz c [] Hi) as (tz' & Hl & Hi').
    exists 0%nat, tz'. split; [exact Hi'|]. exists l. split; [reflexivity|]. intros r n E. unfold group in *.
    rewrite (group_go_after_soa c f [] x l Hx), loop_app, Hl. exact E.
  - intros a w ws l IH more f tz Hh Hi Hx.
    destruct (Hmsg f tz a l Hi) as (tz1 & Hl & Hi1). inversion Hh as [|? ? Hw Hws]; subst.
    destruct (IH more one_rr tz1 Hws Hi1 Hx) as (k & tz' & Hi' & Hk).
    assert (E : forall r n, cont one_rr (loop (ast false rdt p tz1 ser s0) (group one_rr (w_records w))) (ws ++ more) = (r, n) ->
                cont one_rr (loop (ast false rdt p tz ser s0) (group f a)) ((w :: ws) ++ more) = (r, S n)).
    { intros r n E. rewrite (loop_loopn _ _ _ Hl). cbn [cont app ast done]. fold (ast false rdt p tz1 ser s0).
      rewrite (drive_running _ _ _ _ (running_ast _ _ _ _ _) Hw), E. reflexivity. }
    exists (S k), tz'. split; [exact Hi'|]. destruct rest as [|x rest'].
    + intros r n D. apply (E r (k + n)%nat), Hk, D.
    + destruct Hk as (a' & H1 & H2). exists a'. split; [exact H1|]. intros r n D. apply (E r (k + n)%nat), H2, D.
Qed.
End DRIVER.

(* the body invariant of a transfer of records whose keys lie in a conflict-free set K: the zone is
   sorted, the records to come can be stored, and together they make up Z *)
Section BODY.
Variable K : key -> Prop.
Hypothesis HK : forall k k', K k -> K k' -> conflicts k k' = false.
Variable Z : zone.

Definition body_inv (tz : zone) (c : list rr) : Prop :=
  Forall rec_g c /\ zsorted tz /\ todo_ok K tz c /\ zeq (adds tz c) Z.

Lemma body_inv_msg : forall rdt p ser s0 f tz a c', body_inv tz (a ++ c') ->
  exists tz', loopn (ast false rdt p tz ser s0) (group f a) = (ast false rdt p tz' ser s0, None) /\ body_inv tz' c'.
Proof.
  intros rdt p ser s0 f tz a c' (Hf & Hz & Ht & Hzz). apply Forall_app in Hf. destruct Hf as [Ha Hc'].
  destruct (msg_run K HK f false rdt p tz ser s0 a c' Ha Hz Ht) as (Hl & He & Ht').
  eexists. split; [exact Hl|]. split; [exact Hc'|]. split; [|split; [exact Ht'|]].
  - eapply zsorted_zeq; [exact He|apply adds_sorted, Hz].
  - eapply zeq_trans; [apply adds_zeq, He|]. rewrite <- adds_app. exact Hzz.
Qed.
End BODY.

Lemma first_message_axfr : forall z ser w r0 rest,
  header_ok tAXFR w -> w_records w = r0 :: rest -> apex_soa r0 ->
  process_message (axfr_init z ser) (from_wire false w) =
  loop (ast false tAXFR z [] (match ser with Some sv => sv | None => 0 end) (single r0)) (group true rest).
Proof.
  intros z ser w r0 rest Hh Hr [Hn Ht].
  unfold process_message. cbn [txn axfr_init incremental pub set_txn rdtype].
  unfold from_wire. cbn [m_rcode m_question m_answer].
  destruct Hh as [Hrc Hq]. rewrite Hrc. cbn [Z.eqb negb].
  rewrite (header_ok_question tAXFR w (conj Hrc Hq)).
  rewrite Hr, (group_soa_first false r0 rest Ht), group_true. cbn [map].
  cbn -[loopT single]. cbn [single s_name s_type]. rewrite Hn, Ht. cbn -[loopT single].
  rewrite (loopT_nosig _ _ (w_tsig w)) by reflexivity.
  apply after_tcp. reflexivity.
Qed.

(* an AXFR whose first record is the SOA of fin *)
Lemma axfr_start : forall z ser w ws fin a, header_ok tAXFR w -> w_records w = soa_rr fin :: a ->
  inbound_xfr z tAXFR ser false (w :: ws) =
  cont false (loop (ast false tAXFR z [] (match ser with Some sv => sv | None => 0 end) (single (soa_rr fin))) (group true a)) ws.
Proof.
  intros z ser w ws fin a Hw Hr. rewrite inbound_axfr_cons, (first_message_axfr z ser w (soa_rr fin) a Hw Hr) by (split; reflexivity).
  reflexivity.
Qed.

Section AXFR.
Variables (z0 : zone) (ser : option Z) (fin : version).
Let sv := match ser with Some sv => sv | None => 0 end.
Let s0 := single (soa_rr fin).
Variable I : zone -> list rr -> Prop.
Hypothesis Hmsg : forall f tz a c', I tz (a ++ c') ->
  exists tz', loopn (ast false tAXFR z0 tz sv s0) (group f a) = (ast false tAXFR z0 tz' sv s0, None) /\ I tz' c'.

(* the SOA, the body B, the SOA again *)
Lemma axfr_run : forall B ws, ttl_ok (v_ttl fin) -> (forall tz, I tz [] -> addable tz soakey) -> I [] B ->
  chunking tAXFR (soa_rr fin :: B ++ [soa_rr fin]) ws ->
  exists tz' n, inbound_xfr z0 tAXFR ser false ws = (Done (zput soakey (v_ttl fin, [v_soa fin]) tz'), n) /\ I tz' [] /\
    concat (map w_records (skipn n ws)) = [].
Proof.
  intros B ws Httl Hfin Hi Hch.
  apply chunking_first in Hch. destruct Hch as (w & ws' & a & -> & Hr & Hw & Hws & Hcat).
  rewrite (axfr_start z0 ser w ws' fin a Hw Hr).
  destruct (cont_full false tAXFR z0 sv s0 I Hmsg ws' [] true a [] B [soa_rr fin] Hws Hcat Hi eq_refl)
    as (k & tz' & Hi' & a' & Ha' & Hk).
  apply app_eq_nil in Ha'. destruct Ha' as [-> Hsk]. rewrite !app_nil_r in Hk.
  exists tz', (k + 1)%nat. split; [|split; [exact Hi'|rewrite Nat.add_1_r; exact Hsk]].
  apply Hk. cbn [map loopT]. unfold s0. rewrite step_ast_soa, Z.eqb_refl, t_add_soa_g by auto. reflexivity.
Qed.

(* the stream stops inside the body *)
Lemma axfr_eof : forall c ws, I [] c -> chunking tAXFR (soa_rr fin :: c) ws ->
  exists n, inbound_xfr z0 tAXFR ser false ws = (Error eEOF z0, n).
Proof.
  intros c ws Hi Hch.
  apply chunking_first in Hch. destruct Hch as (w & ws' & a & -> & Hr & Hw & Hws & Hcat).
  rewrite (axfr_start z0 ser w ws' fin a Hw Hr).
  rewrite <- (app_nil_r c) in Hcat.
  destruct (cont_full false tAXFR z0 sv s0 I Hmsg ws' [] true a [] c [] Hws Hcat Hi Logic.I) as (k & tz' & _ & Hk).
  rewrite app_nil_r in Hk. eexists. apply Hk. reflexivity.
Qed.
End AXFR.

(* AXFR under an invariant that ends in the body invariant towards Z: the zone is the SOA and Z *)
Lemma axfr_body_inv : forall (K : key -> Prop) Z (I : zone -> list rr -> Prop) fin B z0 ser ws,
  (forall k k', K k -> K k' -> conflicts k k' = false) -> K soakey -> ttl_ok (v_ttl fin) ->
  (forall rdt p sv s0 f tz a c', I tz (a ++ c') ->
     exists tz', loopn (ast false rdt p tz sv s0) (group f a) = (ast false rdt p tz' sv s0, None) /\ I tz' c') ->
  (forall tz, I tz [] -> body_inv K Z tz []) -> I [] B ->
  chunking tAXFR (soa_rr fin :: B ++ [soa_rr fin]) ws ->
  exists z' n, inbound_xfr z0 tAXFR ser false ws = (Done z', n) /\
    zeq z' (zput soakey (v_ttl fin, [v_soa fin]) Z) /\ concat (map w_records (skipn n ws)) = [].
Proof.
  intros K Z I fin B z0 ser ws HK Hsoa Httl Hmsg Hend Hi Hch.
  destruct (axfr_run z0 ser fin I (Hmsg _ _ _ _) B ws Httl) as (tz' & n & Hn & Hi' & Hsk); [|exact Hi|exact Hch|].
  - intros tz Htz k' Hk'. destruct (Hend tz Htz) as (_ & _ & (H1 & _) & _). apply HK; [exact Hsoa|apply H1, Hk'].
  - eexists. exists n. split; [exact Hn|]. split; [|exact Hsk]. destruct (Hend _ Hi') as (_ & _ & _ & Hz). apply zput_zeq, Hz.
Qed.

(* AXFR of a body of records whose keys lie in a conflict-free set K with the SOA's, singleton-typed ones once:
   any client zone, any division into messages; the zone is the SOA and the body *)
Lemma axfr_body_g : forall (K : key -> Prop) fin B z0 ser ws,
  (forall k k', K k -> K k' -> conflicts k k' = false) -> K soakey ->
  ttl_ok (v_ttl fin) -> Forall rec_g B -> todo_ok K [] B ->
  chunking tAXFR (soa_rr fin :: B ++ [soa_rr fin]) ws ->
  exists z' n, inbound_xfr z0 tAXFR ser false ws = (Done z', n) /\
    zeq z' (zput soakey (v_ttl fin, [v_soa fin]) (adds [] B)) /\ concat (map w_records (skipn n ws)) = [].
Proof.
  intros K fin B z0 ser ws HK Hsoa Httl HB Ht.
  apply (axfr_body_inv K (adds [] B) (body_inv K (adds [] B))); [exact HK|exact Hsoa|exact Httl| |auto|].
  - intros rdt p sv s0. apply (body_inv_msg K HK).
  - split; [exact HB|]. split; [exact zsorted_nil|]. split; [exact Ht|apply zeq_refl].
Qed.

Lemma axfr_eof_g : forall (K : key -> Prop) fin c z0 ser ws,
  (forall k k', K k -> K k' -> conflicts k k' = false) -> Forall rec_g c -> todo_ok K [] c ->
  chunking tAXFR (soa_rr fin :: c) ws ->
  exists n, inbound_xfr z0 tAXFR ser false ws = (Error eEOF z0, n).
Proof.
  intros K fin c z0 ser ws HK Hc Ht Hch.
  apply (axfr_eof z0 ser fin (body_inv K (adds [] c)) (body_inv_msg K HK _ _ _ _ _) c ws); [|exact Hch].
  split; [exact Hc|]. split; [exact zsorted_nil|]. split; [exact Ht|apply zeq_refl].
Qed.

(* AXFR: any server zone, any client zone, any division into messages (records of later messages
   are merged into RRsets by the message parser) *)
Theorem axfr_converges : forall v z0 ser ws,
  version_wf v -> chunking tAXFR (axfr_stream v) ws ->
  exists z' n, inbound_xfr z0 tAXFR ser false ws = (Done z', n) /\ zeq z' (zone_of v).
Proof.
  intros v z0 ser ws Hv Hch. pose proof Hv as [Httl Hwf]. pose proof (body_plain _ Hwf) as Hpl.
  destruct (axfr_body_g (fun k => key_kind k <> 2) v _ z0 ser ws conflicts_kind ltac:(discriminate) Httl
              (plain_rec_g _ Hpl) (todo_plain [] _ quiet_nil Hpl) Hch) as (z' & n & Hn & Hz & _).
  exists z', n. split; [exact Hn|]. apply full_target; [apply version_wf_wf_g, Hv|exact Hz].
Qed.

(* AXFR-style answer to an IXFR request: any client zone and serial (the server's is newer), any
   division into messages; the zone ends up equal to the server's version *)
Theorem axfr_style_ixfr_converges : forall v z0 ser ws,
  version_wf v -> v_rest v <> [] ->
  v_serial v <> ser -> serial_lt (v_serial v) ser = false ->
  chunking tIXFR (axfr_stream v) ws ->
  exists z' n, inbound_xfr z0 tIXFR (Some ser) false ws = (Done z', n) /\ zeq z' (zone_of v).
Proof. intros v z0 ser ws Hv. apply axfr_style_ixfr_converges_general, version_wf_wf_g, Hv. Qed.
