(* Names inside RDATA: an uncompressed, valid, absolute name written by Name.to_wire is read back
   by dns.name.from_wire wherever it sits in a message, consuming exactly its own octets
   (NameWire.wire_roundtrip, restated for validate_labels). *)
From DV Require Import Base.Prelude Model.NameM Proofs.ListFacts.
From DV Require Proofs.NameValid Proofs.NameWire.
Open Scope Z_scope.

Lemma zlen_cons {A} (x : A) (l : list A) : zlen (x :: l) = zlen l + 1.
Proof. exact (NameValid.zlen_cons x l). Qed.

Lemma zlen_app {A} (a b : list A) : zlen (a ++ b) = zlen a + zlen b.
Proof. exact (NameValid.zlen_app a b). Qed.

Lemma zlen_nil {A} : zlen (@nil A) = 0.
Proof. reflexivity. Qed.

(* the shape of a valid absolute name: non-empty labels of at most 63 octets, then the root label *)
Fixpoint labels_ok (ls : name) : Prop :=
  match ls with
  | [] => False
  | [l] => l = []
  | l :: r => 0 < zlen l <= 63 /\ labels_ok r
  end.

Lemma labels_ok_cons : forall l r, r <> [] -> labels_ok (l :: r) = (0 < zlen l <= 63 /\ labels_ok r).
Proof. intros l [|x r] H; [congruence|reflexivity]. Qed.

Lemma is_absolute_cons : forall l r, r <> [] -> is_absolute (l :: r) = is_absolute r.
Proof. intros l [|x r] H; [congruence|reflexivity]. Qed.

Lemma labels_ok_absolute : forall ls, labels_ok ls -> is_absolute ls = true.
Proof.
  induction ls as [|l r IH]; intros H; [contradiction|].
  destruct r as [|x r']; [cbn in H; subst; reflexivity|].
  rewrite is_absolute_cons by discriminate. rewrite labels_ok_cons in H by discriminate. apply IH, H.
Qed.

Lemma labels_ok_valid : forall ls, labels_ok ls ->
  Forall (fun l => zlen l <= 63) ls /\ Forall (fun l => l <> []) (removelast ls).
Proof.
  induction ls as [|l r IH]; intros H; [contradiction|].
  destruct r as [|x r']; [cbn in H; subst; split; repeat constructor; cbn; lia|].
  rewrite labels_ok_cons in H by discriminate. destruct H as [Hl Hr]. destruct (IH Hr) as [H1 H2].
  change (removelast (l :: x :: r')) with (l :: removelast (x :: r')).
  split; constructor; [lia|exact H1|intros ->; cbn in Hl; lia|exact H2].
Qed.

Lemma valid_labels_ok : forall ls,
  Forall (fun l => zlen l <= 63) ls -> Forall (fun l => l <> []) (removelast ls) -> is_absolute ls = true ->
  labels_ok ls.
Proof.
  induction ls as [|l r IH]; intros H1 H2 Habs; [discriminate|].
  destruct r as [|x r']; [cbn in Habs; destruct l; [reflexivity|discriminate]|].
  rewrite is_absolute_cons in Habs by discriminate. rewrite labels_ok_cons by discriminate.
  change (removelast (l :: x :: r')) with (l :: removelast (x :: r')) in H2.
  inversion H1; inversion H2; subst. split; [|apply IH; assumption].
  destruct l; [congruence|]. rewrite zlen_cons in *. pose proof (NameValid.zlen_nonneg l). lia.
Qed.

(* a name accepted by Name.__init__ that is absolute has this shape, and conversely *)
Lemma validate_labels_ok : forall n,
  validate_labels n = Ok tt -> is_absolute n = true -> labels_ok n /\ wire_length n <= 255.
Proof.
  intros n Hv Habs. apply NameValid.validate_iff in Hv as (H1 & Hw & H2).
  split; [apply valid_labels_ok; assumption|exact Hw].
Qed.

Lemma labels_ok_validate : forall n, labels_ok n -> wire_length n <= 255 -> validate_labels n = Ok tt.
Proof.
  intros n H Hw. apply NameValid.validate_iff. destruct (labels_ok_valid n H) as [H1 H2].
  split; [exact H1|]. split; [exact Hw|exact H2].
Qed.

Theorem from_wire_plain : forall n A C,
  validate_labels n = Ok tt -> is_absolute n = true ->
  NameM.from_wire (A ++ wire_labels false n ++ C) (length A)
  = Ok (n, length (wire_labels false n)).
Proof.
  intros n A C Hv Habs. apply NameWire.wire_roundtrip; [apply NameValid.validate_iff, Hv|exact Habs].
Qed.
