(* Rdata.to_digestable of a record with fields (Model/SetCanonM.v) is the RFC 4034 6.2 canonical
   RDATA of C15's reference (Proofs/DnssecRef.v: rfc4034_canonical_rdata, imported read-only),
   hence ==, hash and order are statements about canonical RDATA octets. *)
From DV Require Import Base.Prelude Model.NameM Model.SchemaM Model.DnssecM Model.SetM Model.SetCanonM.
From DV Require Import Proofs.DnssecCanon Proofs.SetRdata Proofs.SetCanon.
Open Scope Z_scope.

(* the record as the sequence of things its _to_wire writes: raw octets and names *)
Definition tf_s (f : sfld) (v : sval) : res (list field) :=
  match f, v with
  | SchemaM.FName _, VN n => Ok [DnssecM.FName n]
  | _, _ => do b <- enc_s None f v; Ok [FRaw b]
  end.

Fixpoint tf_row (fs : list sfld) (vs : list sval) : res (list field) :=
  match fs, vs with
  | [], [] => Ok []
  | f :: fr, v :: vr => do a <- tf_s f v; do b <- tf_row fr vr; Ok (a ++ b)
  | _, _ => Internal NameM.eBadCase
  end.

Fixpoint tf_rows (row : list sfld) (rows : list (list sval)) : res (list field) :=
  match rows with
  | [] => Ok []
  | r :: rr => do a <- tf_row row r; do b <- tf_rows row rr; Ok (a ++ b)
  end.

Definition tf_f (f : fld) (v : val) : res (list field) :=
  match f, v with
  | FS s, VS x => tf_s s x
  | FRepeat _ _ row, VL rows => tf_rows row rows
  | _, _ => do b <- enc_f None f v; Ok [FRaw b]
  end.

Fixpoint tf_fields (fs : list fld) (vs : list val) : res (list field) :=
  match fs, vs with
  | [], [] => Ok []
  | f :: fr, v :: vr => do a <- tf_f f v; do b <- tf_fields fr vr; Ok (a ++ b)
  | _, _ => Internal NameM.eBadCase
  end.

(* the reference with the down-casing decision as a parameter *)
Fixpoint rfcL (low : bool) (fs : list field) (origin : option name) : res bytes :=
  match fs with
  | [] => Ok []
  | FRaw b :: r => do rest <- rfcL low r origin; Ok (b ++ rest)
  | DnssecM.FName n :: r =>
      do a <- rfc_expand n origin;
      do rest <- rfcL low r origin;
      Ok (rfc_name_wire low a ++ rest)
  end.

Lemma rfcL_is_rfc ty fs origin : rfcL (rfc_downcased ty) fs origin = rfc4034_canonical_rdata ty fs origin.
Proof.
  induction fs as [|f r IH]; [reflexivity|]. destruct f as [b|n]; cbn [rfcL rfc4034_canonical_rdata].
  - rewrite IH. reflexivity.
  - destruct (rfc_expand n origin); cbn [bind]; try reflexivity. rewrite IH. reflexivity.
Qed.

Lemma rfcL_app low o : forall f1 f2,
  rfcL low (f1 ++ f2) o = (do a <- rfcL low f1 o; do b <- rfcL low f2 o; Ok (a ++ b)).
Proof.
  induction f1 as [|f r IH]; intros f2; cbn [app rfcL].
  - cbn. destruct (rfcL low f2 o); reflexivity.
  - (* a raw field and an expanded name are both prepended to what follows *)
    destruct f as [b|n]; [|destruct (rfc_expand n o) as [a| |]; cbn; try reflexivity];
      rewrite IH; destruct (rfcL low r o) as [x| |]; cbn; try reflexivity;
      destruct (rfcL low f2 o) as [y| |]; cbn; try reflexivity; rewrite app_assoc; reflexivity.
Qed.

(* two writers in sequence, each matching the reference on what it wrote *)
Lemma rfcL_seq low o (x y : res (list field)) (cx cy : res bytes) fl :
  (forall a, x = Ok a -> cx = rfcL low a o) -> (forall b, y = Ok b -> cy = rfcL low b o) ->
  (do a <- x; do b <- y; Ok (a ++ b)) = Ok fl ->
  (do a <- cx; do b <- cy; Ok (a ++ b)) = rfcL low fl o.
Proof.
  intros Hx Hy. destruct x as [a| |]; try discriminate. destruct y as [b| |]; try discriminate.
  intros [= <-]. rewrite rfcL_app, (Hx a eq_refl), (Hy b eq_refl). reflexivity.
Qed.

Lemma enc_s_origin_free o f v : (forall n, v <> VN n) -> enc_s o f v = enc_s None f v.
Proof. destruct f, v; cbn; intros H; try reflexivity. exfalso. eapply H. reflexivity. Qed.

(* a field written as raw octets *)
Lemma rfcL_raw low o x fl : (do b <- x; Ok [FRaw b]) = Ok fl -> x = rfcL low fl o.
Proof.
  destruct x as [b| |]; cbn; try discriminate. intros [= <-]. cbn. rewrite app_nil_r. reflexivity.
Qed.

Lemma tf_s_ok o low f v fl : tf_s f v = Ok fl -> cenc_s o low f v = rfcL low fl o.
Proof.
  destruct f as [w m|n|w lo hi|rel], v as [z|b|nm]; cbn [tf_s cenc_s]; try apply rfcL_raw.
  intros [= <-]. cbn. rewrite to_wire_rfc.
  destruct (rfc_expand nm o); cbn; rewrite ?app_nil_r; reflexivity.
Qed.

Lemma tf_row_ok o low : forall fs vs fl, tf_row fs vs = Ok fl -> cenc_row o low fs vs = rfcL low fl o.
Proof.
  induction fs as [|f fr IH]; intros [|v vr] fl; cbn; try discriminate.
  - intros [= <-]. reflexivity.
  - apply rfcL_seq; [apply tf_s_ok|apply IH].
Qed.

Lemma tf_rows_ok o low row : forall rows fl,
  tf_rows row rows = Ok fl -> cenc_rows o low row rows = rfcL low fl o.
Proof.
  induction rows as [|r rr IH]; intros fl; cbn.
  - intros [= <-]. reflexivity.
  - apply rfcL_seq; [apply tf_row_ok|apply IH].
Qed.

Lemma tf_f_ok o low f v fl : tf_f f v = Ok fl -> cenc_f o low f v = rfcL low fl o.
Proof.
  destruct f as [s|lo|n|hi|m a row], v as [x|rows]; cbn [tf_f cenc_f];
    first [apply tf_s_ok|apply tf_rows_ok|apply rfcL_raw].
Qed.

Lemma tf_fields_ok o low : forall fs vs fl,
  tf_fields fs vs = Ok fl -> cenc_fields o low fs vs = rfcL low fl o.
Proof.
  induction fs as [|f fr IH]; intros [|v vr] fl; cbn; try discriminate.
  - intros [= <-]. reflexivity.
  - apply rfcL_seq; [apply tf_f_ok|apply IH].
Qed.

(* to_digestable(origin) is the RFC 4034 6.2 canonical RDATA of the record, for every origin
   (including the failure when a relative name has no origin or does not fit), whenever the
   type's canonicalize flag is the RFC's list *)
Theorem s_digest_is_rfc4034 r origin fl :
  slow r = rfc_downcased (styp r) -> tf_fields (sfs r) (svs r) = Ok fl ->
  s_digest r origin = rfc4034_canonical_rdata (styp r) fl origin.
Proof.
  intros Hl Hf. unfold s_digest. rewrite (tf_fields_ok origin (slow r) _ _ fl Hf), Hl.
  apply rfcL_is_rfc.
Qed.

(* every type of the table hands canonicalize to its names exactly when RFC 4034 6.2 (as amended
   by RFC 6840 5.1) lists it *)
Theorem table_flags_are_rfc4034 :
  forallb (fun ct => match schema_of (fst ct) (snd ct) with
                     | Some (_, low) => Bool.eqb low (rfc_downcased (snd ct))
                     | None => false
                     end) table_types = true.
Proof. vm_compute. reflexivity. Qed.

Theorem table_schemas_wf :
  forallb (fun ct => match schema_of (fst ct) (snd ct) with
                     | Some (fs, _) => schema_wf fs
                     | None => false
                     end) table_types = true.
Proof. vm_compute. reflexivity. Qed.

(* == / order on canonical RDATA: for two absolute records of one class and type of the table *)
Theorem s_eq_is_canonical_equality a b fa fb da db :
  scls a = scls b -> styp a = styp b ->
  slow a = rfc_downcased (styp a) -> slow b = rfc_downcased (styp b) ->
  tf_fields (sfs a) (svs a) = Ok fa -> tf_fields (sfs b) (svs b) = Ok fb ->
  rfc4034_canonical_rdata (styp a) fa None = Ok da ->
  rfc4034_canonical_rdata (styp b) fb None = Ok db ->
  s_eq a b = Ok (zlist_eqb da db) /\
  s_cmp a b = Ok (match cmp_bytes da db with Eq => 0 | Gt => 1 | Lt => -1 end) /\
  s_hashkey a = Ok da /\ s_hashkey b = Ok db.
Proof.
  intros Hc Ht La Lb Fa Fb Ra Rb.
  rewrite <- (s_digest_is_rfc4034 a None fa La Fa) in Ra.
  rewrite <- (s_digest_is_rfc4034 b None fb Lb Fb) in Rb.
  pose proof (s_digest_rel_abs a da Ra) as Ea. pose proof (s_digest_rel_abs b db Rb) as Eb.
  repeat split.
  - exact (s_eq_digests a b da db false Hc Ht Ea Eb).
  - unfold s_cmp. rewrite Ea, Eb. reflexivity.
  - apply cenc_fields_any_origin, Ra.
  - apply cenc_fields_any_origin, Rb.
Qed.
