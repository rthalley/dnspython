(* Termination of the message text reader: the `while 1` loop of _TextReader.read and the flags
   loops never exhaust the model's fuel.  Measure: characters left + 1 for an ungotten token.
   Every Tokenizer.get returns an ungotten token or consumes input (or reports EOF). *)
From DV Require Import Base.Prelude Model.NameM Proofs.UntrustedEnds.
From DV Require Model.TokM Model.RdTextM Proofs.UntrustedText.
From DV Require Import Model.UntrustedTextM Proofs.UntrustedMsgText.
Open Scope Z_scope.

(* the measure: characters left, + 1 for an ungotten token other than EOF *)
Definition pend (o : option T.token) : nat :=
  match o with Some u => if T.ttype u =? T.tEOF then 0%nat else 1%nat | None => 0%nat end.
Definition mz (st : T.tstate) : nat := (length (T.inp st) + pend (T.ungot st))%nat.
Definition Pend (st : T.tstate) : Prop := pend (T.ungot st) = 1%nat.

Lemma mz_le_meas st : (mz st <= meas st)%nat.
Proof. unfold mz, meas, pend. destruct (T.ungot st) as [u|]; [destruct (T.ttype u =? T.tEOF)|]; lia. Qed.

Lemma mz_lt_rem_fuel st : (mz st < T.rem_fuel st)%nat.
Proof. pose proof (mz_le_meas st). unfold meas, T.rem_fuel in *. destruct (T.ungot st); lia. Qed.

Lemma pend_not_eol t : T.is_eol_or_eof t = false -> pend (Some t) = 1%nat.
Proof. unfold T.is_eol_or_eof, pend. intros H. apply orb_false_iff in H as [_ ->]. reflexivity. Qed.

Lemma pend_ident t : T.is_identifier t = true -> pend (Some t) = 1%nat.
Proof. unfold T.is_identifier, pend. intros H. apply Z.eqb_eq in H. rewrite H. reflexivity. Qed.

(* what get gives: nothing is left ungotten, the token is paid for (EOF costs nothing), and a
   pending token is used up *)
Definition got (st : T.tstate) (ts : T.token * T.tstate) : Prop :=
  T.ungot (snd ts) = None /\ (mz (snd ts) + pend (Some (fst ts)) <= mz st)%nat /\
  (Pend st -> (mz (snd ts) + 1 <= mz st)%nat).

Lemma get_spec st wl wc : ends (got st) mt_lib none (T.get st wl wc).
Proof.
  (* a fresh token, read from a state s with the input of st and nothing ungotten *)
  assert (F : forall s, T.inp s = T.inp st ->
            ends (fun ts => T.ungot (snd ts) = None /\ (mz (snd ts) + pend (Some (fst ts)) <= length (T.inp st))%nat)
                 mt_lib none (T.get_fresh s wl wc)).
  { intros s E. eapply ends_mono; [apply UntrustedText.get_fresh_spec| |intros e [-> | ->]; ml|auto].
    intros [t st'] [N H]. unfold mz. cbn [fst snd]. rewrite N, <- E. cbn [pend]. split; [reflexivity|lia]. }
  unfold T.get. destruct (T.ungot st) as [ut|] eqn:U; cbv zeta.
  2:{ eapply ends_mono; [apply (F st eq_refl)| |auto|auto]. intros ts [N H].
      unfold got, Pend, mz in *. rewrite U. rewrite N in *. cbn [pend] in *. repeat split; [lia|discriminate]. }
  (* a pending token is handed back, or dropped for a fresh one *)
  set (stc := T.mkSt _ _ _ None).
  assert (R : got st (ut, stc)) by (unfold got, Pend, mz; rewrite U; cbn; repeat split; lia).
  assert (Fr : ends (got st) mt_lib none (T.get_fresh stc wl wc)).
  { eapply ends_mono; [apply (F stc eq_refl)| |auto|auto]. intros ts [N H].
    unfold got, Pend, mz in *. rewrite U. rewrite N in *. cbn [pend] in *. repeat split; lia. }
  destruct (_ =? T.tWS); [destruct wl; [exact R|exact Fr]|].
  destruct (_ =? T.tCOMMENT); [destruct wc; [exact R|exact Fr]|exact R].
Qed.

Lemma get_mz st wl wc t st' : T.get st wl wc = Ok (t, st') -> got st (t, st').
Proof. apply (ends_ok _ _ _ _ _ (get_spec st wl wc)). Qed.

Lemma unget_spec st t :
  ends (fun st' => mz st' = (mz st + pend (Some t))%nat /\ T.ungot st' = Some t) mt_lib none (T.unget st t).
Proof. unfold T.unget, mz. destruct (T.ungot st); [ml|]. cbn. split; [lia|reflexivity]. Qed.

Lemma unget_mz st t st' : T.unget st t = Ok st' -> mz st' = (mz st + pend (Some t))%nat.
Proof. intros H. apply (ends_ok _ _ _ _ _ (unget_spec st t) H). Qed.

(* get a token, put it back: nothing gained *)
Lemma get_unget_mz st wl wc t s1 s2 : T.get st wl wc = Ok (t, s1) -> T.unget s1 t = Ok s2 -> (mz s2 <= mz st)%nat.
Proof. intros G U. apply get_mz in G as (_ & A & _). apply unget_mz in U. cbn [fst snd] in A. lia. Qed.

(* a token reader that never leaves more than it found *)
Definition Le {A} (st : T.tstate) (r : res (A * T.tstate)) : Prop :=
  match r with Ok (_, st') => (mz st' <= mz st)%nat | _ => True end.

Lemma le_ends {A} st L I (r : res (A * T.tstate)) : ends (fun x => (mz (snd x) <= mz st)%nat) L I r -> Le st r.
Proof. destruct r as [[a s1]|e|e]; cbn; auto. Qed.

Lemma le_of {A} st (r : res (A * T.tstate)) v st' : Le st r -> r = Ok (v, st') -> (mz st' <= mz st)%nat.
Proof. intros H E. rewrite E in H. exact H. Qed.

(* after a reader that started from s, itself not ahead of st *)
Lemma le_bind {A B} st s (r : res (A * T.tstate)) (k : A * T.tstate -> res (B * T.tstate)) :
  Le s r -> (mz s <= mz st)%nat -> (forall a s1, (mz s1 <= mz st)%nat -> Le st (k (a, s1))) -> Le st (bind r k).
Proof. destruct r as [[a s1]|e|e]; cbn [bind Le]; auto. intros H1 H2 H3. apply H3. lia. Qed.

(* after a conversion that reads nothing *)
Lemma le_pure {X B} st (p : res X) (k : X -> res (B * T.tstate)) : (forall x, Le st (k x)) -> Le st (bind p k).
Proof. destruct p; cbn [bind Le]; auto. Qed.

Lemma le_weaken {A} s1 st (r : res (A * T.tstate)) : Le s1 r -> (mz s1 <= mz st)%nat -> Le st r.
Proof. destruct r as [[a s2]|e|e]; cbn [Le]; auto. lia. Qed.

Lemma le_get st wl wc : Le st (T.get st wl wc).
Proof. eapply (le_ends st any any), ends_mono; [apply get_spec| |auto|auto]. intros ts (_ & A & _). lia. Qed.

(* one token, then a conversion of it *)
Lemma le_token {A B} st (rd : res (A * T.tstate)) (k : A -> res B) :
  Le st rd -> Le st (do ts <- rd; do v <- k (fst ts); Ok (v, snd ts)).
Proof. intros H. eapply le_bind; [exact H|lia|]. intros t s1 H1. apply le_pure. intros x. exact H1. Qed.

Lemma le_get_unescaped st : Le st (T.get_unescaped st).
Proof. exact (le_token _ _ T.unescape (le_get st false false)). Qed.

Lemma le_get_uint m st b : Le st (T.get_uint m st b).
Proof. exact (le_token _ _ (fun t => T.as_uint m t b) (le_get_unescaped st)). Qed.

Lemma le_get_int st b : Le st (T.get_int st b).
Proof. exact (le_token _ _ (fun t => T.as_int t b) (le_get_unescaped st)). Qed.

Lemma le_get_string st m : Le st (T.get_string st m).
Proof. exact (le_token _ _ (fun t => T.as_string t m) (le_get_unescaped st)). Qed.

Lemma le_get_identifier st : Le st (T.get_identifier st).
Proof. exact (le_token _ _ T.as_identifier (le_get_unescaped st)). Qed.

Lemma le_get_name c st : Le st (RdTextM.get_name c st).
Proof. exact (le_token _ _ (RdTextM.as_name c) (le_get st false false)). Qed.

Lemma le_get_eol_tok st : Le st (T.get_eol_as_token st).
Proof.
  unfold T.get_eol_as_token. eapply le_bind; [apply le_get|lia|]. intros t s1 H. cbn [fst].
  destruct (negb (T.is_eol_or_eof t)); cbn; auto.
Qed.

Lemma get_eol_mz st st' : get_eol st = Ok st' -> (mz st' <= mz st)%nat.
Proof.
  unfold get_eol. pose proof (le_get_eol_tok st) as H.
  destruct (T.get_eol_as_token st) as [[t s1]|e|e]; cbn [bind]; try discriminate.
  intros X; inversion X; subst. exact H.
Qed.

(* try: tok.get() ... except SyntaxError: raise; except Exception: the token is kept *)
Lemma le_next_ident {A} st (k : T.token -> A) (d : A) :
  Le st match T.get0 st with
        | Ok (tk2, st2) => if negb (T.is_identifier tk2) then Lib T.eSyntax else Ok (k tk2, st2)
        | Lib e => if T.in_syntax_family e then Lib T.eSyntax else Ok (d, st)
        | Internal _ => Ok (d, st)
        end.
Proof.
  pose proof (le_get st false false) as H. unfold T.get0.
  destruct (T.get st false false) as [[tk2 st2]|e|e]; cbn [Le]; auto.
  - destruct (negb (T.is_identifier tk2)); [exact Logic.I|exact H].
  - destruct (T.in_syntax_family e); cbn; auto.
Qed.

Lemma le_class_column tk st : Le st (class_column tk st).
Proof.
  unfold class_column. destruct (class_from_text (T.tvalue tk)) as [c|e|e]; try (cbn; lia).
  apply (le_next_ident st (fun tk2 => (c, tk2)) (1, tk)).
Qed.

Lemma get_remaining_loop_spec : forall fuel st maxt acc, (mz st < fuel)%nat ->
  ends (fun x => (mz (snd x) <= mz st)%nat) mt_lib none (T.get_remaining_loop fuel st maxt acc).
Proof.
  induction fuel as [|f IH]; intros st maxt acc Hf; [lia|]. cbn [T.get_remaining_loop].
  eapply ends_bind; [apply (get_spec st false false)|]. intros [t s1] (_ & A & _). cbn [fst snd] in A.
  destruct (T.is_eol_or_eof t) eqn:Ee.
  - eapply ends_bind; [apply unget_spec|]. intros s2 [U _]. cbn. lia.
  - rewrite (pend_not_eol t Ee) in A. destruct (negb (maxt =? 0) && _); [cbn; lia|].
    eapply ends_mono; [apply IH; lia| |auto|auto]. intros x; cbn; lia.
Qed.

Lemma le_get_remaining st maxt : Le st (T.get_remaining st maxt).
Proof. eapply le_ends, get_remaining_loop_spec, mz_lt_rem_fuel. Qed.

Lemma get_unescaped_inv st t s1 : T.get_unescaped st = Ok (t, s1) ->
  exists t0, T.get0 st = Ok (t0, s1) /\ T.unescape t0 = Ok t.
Proof.
  unfold T.get_unescaped. destruct (T.get0 st) as [[t0 s0]|e|e]; cbn [bind fst snd]; try discriminate.
  destruct (T.unescape t0) as [t'|e|e] eqn:U; cbn [bind]; try discriminate. intros H; inversion H; subst.
  exists t0. split; [reflexivity|exact U].
Qed.

Lemma unescape_type t t' : T.unescape t = Ok t' -> T.ttype t' = T.ttype t.
Proof.
  unfold T.unescape. destruct (negb (T.tesc t)); [intros H; inversion H; reflexivity|].
  destruct (T.ue_loop _ _); cbn [bind]; try discriminate. intros H; inversion H; reflexivity.
Qed.

Lemma cri_loop_spec : forall fuel st acc, (mz st < fuel)%nat ->
  ends (fun x => (mz (snd x) <= mz st)%nat) mt_lib none (T.cri_loop fuel st acc).
Proof.
  induction fuel as [|f IH]; intros st acc Hf; [lia|]. cbn [T.cri_loop].
  eapply ends_bind; [apply ends_eq, fine_get_unescaped|]. intros [t s1] [G _].
  apply get_unescaped_inv in G as (t0 & G & Ue). apply unescape_type in Ue.
  apply get_mz in G as (_ & A & _). unfold pend in A. cbn [fst snd] in A. rewrite <- Ue in A. fold (pend (Some t)) in A.
  destruct (T.is_eol_or_eof t) eqn:Ee.
  - eapply ends_bind; [apply unget_spec|]. intros s2 [U _]. cbn. lia.
  - rewrite (pend_not_eol t Ee) in A. destruct (negb (T.is_identifier t)); [ml|].
    eapply ends_mono; [apply IH; lia| |auto|auto]. intros x; cbn; lia.
Qed.

Lemma le_cri st b : Le st (T.concatenate_remaining_identifiers st b).
Proof.
  unfold T.concatenate_remaining_identifiers. eapply le_bind; [eapply le_ends, cri_loop_spec, mz_lt_rem_fuel|lia|].
  intros a s1 H. destruct (negb _); [exact Logic.I|exact H].
Qed.

(* Inside dns.rdata.from_text / _TextReader the per-type parser runs under ExceptionWrapper(SyntaxError),
   which would turn the model's fuel marker into a SyntaxError; so it is excluded here, at its only
   sources on the text side besides Tokenizer.get itself (no_internal_tokenizer): the `while True`
   loops of Tokenizer.get_remaining and Tokenizer.concatenate_remaining_identifiers. *)
Theorem text_loops_terminate st :
  (forall maxt, T.get_remaining st maxt <> Internal T.tFuel) /\
  (forall allow_empty, T.concatenate_remaining_identifiers st allow_empty <> Internal T.tFuel).
Proof.
  split.
  - intros maxt E. pose proof (get_remaining_loop_spec _ st maxt [] (mz_lt_rem_fuel st)) as H.
    unfold T.get_remaining in E. rewrite E in H. exact H.
  - intros b E. pose proof (cri_loop_spec _ st [] (mz_lt_rem_fuel st)) as H.
    unfold T.concatenate_remaining_identifiers in E.
    destruct (T.cri_loop _ _ _) as [r|e|e]; cbn [bind] in E; [destruct (negb _); discriminate|discriminate|exact H].
Qed.

(* a reader known to be Fine and disciplined *)
Lemma fine_le {A} st (r : res (A * T.tstate)) :
  Fine r -> Le st r -> ends (fun x => (mz (snd x) <= mz st)%nat) mt_lib none r.
Proof. destruct r as [[a s1]|e|e]; cbn; auto. Qed.

Section Term.
  Variable per_type_text : Z -> Z -> T.tstate -> res (unit * T.tstate).
  Variable pctx : RdTextM.pctx.
  Variable type_from_text : list Z -> res Z.
  Hypothesis type_lib : forall v e, type_from_text v = Lib e -> e = eUnknownRdatatype.
  (* tokenizer discipline of a per-type text parser: it never leaves more input than it found
     (it may put back the one token it read last) *)
  Hypothesis per_type_le : forall c t st, Le st (per_type_text c t st).

  Lemma flags_loop_term : forall fuel tbl st acc, (mz st < fuel)%nat ->
    ends (fun x => (mz (snd x) <= mz st)%nat) mt_lib none (flags_loop fuel tbl st acc).
  Proof.
    induction fuel as [|f IH]; intros tbl st acc Hf; [lia|]. cbn [flags_loop].
    eapply ends_bind; [apply (get_spec st false false)|]. intros ts (_ & A & _).
    destruct (negb (T.is_identifier (fst ts))) eqn:Ei.
    - eapply ends_bind; [apply unget_spec|]. intros s2 [U _]. cbn. lia.
    - apply negb_false_iff, pend_ident in Ei. rewrite Ei in A.
      destruct (flags_from_text tbl (T.tvalue (fst ts))); try ml.
      eapply ends_mono; [apply IH; lia| |auto|auto]. intros x; cbn; lia.
  Qed.

  (* a header line uses up the pending token *)
  Lemma header_line_term r : Pend (t_tok r) ->
    ends (fun r' => (mz (t_tok r') + 1 <= mz (t_tok r))%nat) mt_lib none (header_line r).
  Proof.
    intros U. unfold header_line.
    eapply ends_bind; [apply (get_spec (t_tok r) false false)|]. intros [tk st] (_ & _ & B). specialize (B U). cbn [snd] in B.
    eapply ends_bind with (Q1 := fun r1 => (mz (t_tok r1) <= mz st)%nat).
    2:{ intros r1 K. eapply ends_bind; [apply ends_eq, fine_get_eol|]. intros st' [E _]. apply get_eol_mz in E. cbn. lia. }
    pose proof (mz_le_meas st) as M.
    repeat match goal with |- _ (if zlist_eqb ?a ?b then _ else _) => destruct (zlist_eqb a b) end.
    (* id, edns, payload: a number; flags, eflags: the loop; opcode, rcode: a mnemonic *)
    1, 3, 5: eapply ends_bind; [apply fine_le; [apply fine_get_uint|apply le_get_uint]|intros v K; exact K].
    1, 2: eapply ends_bind; [apply flags_loop_term; lia|intros v K; exact K].
    1, 2: eapply ends_bind; [apply fine_le; [apply fine_get_string|apply le_get_string]|];
          intros v K; apply fine_enum; [ml|intros; exact K].
    ml.
  Qed.

  Lemma owner_term r r1 n : owner pctx r = Ok (r1, n) ->
    Pend (t_tok r) -> (mz (t_tok r1) + 1 <= mz (t_tok r))%nat.
  Proof.
    unfold owner. intros H U. ib H as ts G. destruct ts as [tk st].
    apply get_mz in G as (_ & _ & B). specialize (B U). cbn [snd] in B.
    destruct (negb (T.ttype tk =? T.tWS)).
    - ib H as rr X. ib X as nn Y. inversion X; subst. destruct (t_last _) eqn:L; [|discriminate]. inversion H; subst. exact B.
    - cbn [bind] in H. destruct (t_last _) eqn:L; [|discriminate]. inversion H; subst. exact B.
  Qed.

  Lemma question_line_term r m sec r' : question_line pctx type_from_text r m sec = Ok r' ->
    Pend (t_tok r) -> (mz (t_tok r') + 1 <= mz (t_tok r))%nat.
  Proof.
    unfold question_line. intros H U. ib H as rn O. destruct rn as [r1 n]. apply owner_term in O; [|exact U].
    ib H as ts G. destruct ts as [tk0 st0]. apply (le_of _ _ _ _ (le_get _ _ _)) in G.
    cbn [fst snd] in H. destruct (negb (T.is_identifier tk0)); [discriminate|].
    ib H as cc C. destruct cc as [[rdclass tk] st]. apply (le_of _ _ _ _ (le_class_column _ _)) in C.
    ib H as ty Y. ib H as hd Z. cbv zeta in H. ib H as st' L. apply get_eol_mz in L. inversion H; subst; cbn. lia.
  Qed.

  Lemma rdata_from_tok_le c t st : Le st (rdata_from_tok per_type_text c t st).
  Proof.
    unfold rdata_from_tok, T.wrap_syntax.
    match goal with |- Le st (match ?x with _ => _ end) => assert (H : Le st x); [|destruct x as [[u s]|e|e]] end.
    - eapply le_bind; [apply per_type_le|lia|]. intros u s1 H1.
      eapply le_bind; [apply le_get_eol_tok|exact H1|]. intros tk s2 H2. exact H2.
    - exact H.
    - destruct (T.in_syntax_family e); exact Logic.I.
    - exact Logic.I.
  Qed.

  Lemma rr_line_term r m sec r' : rr_line per_type_text pctx type_from_text r m sec = Ok r' ->
    Pend (t_tok r) -> (mz (t_tok r') + 1 <= mz (t_tok r))%nat.
  Proof.
    unfold rr_line. intros H U. ib H as rn O. destruct rn as [r1 n]. apply owner_term in O; [|exact U].
    ib H as ts G. destruct ts as [tk0 st0]. pose proof (le_of _ _ _ _ (le_get _ _ _) G) as L0.
    cbn [fst snd] in H. destruct (negb (T.is_identifier tk0)); [discriminate|].
    ib H as tq Q. destruct tq as [[ttl tk1] st1].
    assert (L1 : (mz st1 <= mz st0)%nat).
    { destruct (int0 (T.tvalue tk0)) as [v|]; [|inversion Q; subst; lia].
      destruct ((v <? 0) || (v >? 4294967295)); [discriminate|].
      exact (le_of _ _ _ _ (le_next_ident st0 (fun tk2 => (v, tk2)) (0, tk0)) Q). }
    ib H as cc C. destruct cc as [[rdclass tk] st]. apply (le_of _ _ _ _ (le_class_column _ _)) in C.
    ib H as ty Y. ib H as hd Z. destruct hd as [[rdclass' deleting] empty].
    ib H as ts3 G3. destruct ts3 as [tk3 st3]. pose proof (le_of _ _ _ _ (le_get _ _ _) G3) as L3.
    cbn [fst snd] in H. cbv zeta in H.
    destruct (empty && negb (T.is_eol_or_eof tk3)); [discriminate|].
    destruct (negb empty && T.is_eol_or_eof tk3); [discriminate|].
    ib H as hs R. destruct hs as [have_rd st5]. inversion H; subst; cbn.
    destruct (negb (T.is_eol_or_eof tk3)).
    - ib R as st4 U4. pose proof (get_unget_mz _ _ _ _ _ _ G3 U4) as L4.
      ib R as rd D. destruct rd as [u s6]. pose proof (le_of _ _ _ _ (rdata_from_tok_le _ _ _) D) as L6.
      inversion R; subst. cbn in *. lia.
    - inversion R; subst. lia.
  Qed.

  (* _TextReader.read: the fuel S(S(length text)) is never exhausted *)
  Lemma read_loop_term : forall fuel r lm sec, linv r lm -> (mz (t_tok r) < fuel)%nat ->
    Fine (read_loop per_type_text pctx type_from_text fuel r lm sec).
  Proof.
    induction fuel as [|f IH]; intros r lm sec I Hf; [lia|]. cbn [read_loop].
    eapply ends_bind; [apply get_spec|]. intros [tk st] (_ & A & _). cbn [fst snd] in A.
    destruct (T.is_eol_or_eof tk) eqn:Ee; [exact Logic.I|]. pose proof (pend_not_eol tk Ee) as P. rewrite P in A.
    destruct (T.ttype tk =? T.tCOMMENT).
    - pose proof (fun st' => linv_section r lm sec (upper_l (T.tvalue tk)) st' I) as S. cbv zeta in S |- *.
      destruct (match enum_from_text _ _ _ _ _ with Ok _ => _ | _ => _ end) as [[r1 lm2] sec2].
      eapply ends_bind; [apply ends_eq, fine_get_eol|]. intros st' [E _]. apply get_eol_mz in E.
      apply IH; [apply S|cbn; lia].
    - eapply ends_bind; [apply unget_spec|]. intros st1 [U1 U2]. cbv zeta.
      assert (P1 : Pend (t_tok (set_tok r st1))) by (unfold Pend; cbn; rewrite U2; exact P).
      eapply ends_bind with (Q1 := fun r' => linv r' lm /\ (mz (t_tok r') + 1 <= mz st1)%nat);
        [|intros r' [I' K]; apply IH; [exact I'|lia]].
      destruct lm.
      + eapply ends_mono; [apply header_line_term, P1| |auto|auto]. intros r' K. split; [left; reflexivity|exact K].
      + destruct I as [I|I]; [discriminate|]. cbn [t_msg set_tok].
        destruct (t_msg r) as [m|]; [|contradiction].
        eapply ends_mono; [apply ends_eq, fine_question_line; exact type_lib| |auto|auto].
        intros r' [E M]. split; [right; exact M|exact (question_line_term _ _ _ _ E P1)].
      + destruct I as [I|I]; [discriminate|]. cbn [t_msg set_tok].
        destruct (t_msg r) as [m|]; [|contradiction].
        eapply ends_mono; [apply ends_eq, fine_rr_line; exact type_lib| |auto|auto].
        intros r' [E M]. split; [right; exact M|exact (rr_line_term _ _ _ _ E P1)].
  Qed.

  (* dns.message.from_text terminates with a message or a documented library error *)
  Theorem message_from_text_total text orps :
    match from_text per_type_text pctx type_from_text text orps with
    | Ok _ => True
    | Lib e => mt_lib e
    | Internal _ => False
    end.
  Proof.
    unfold from_text. apply ends_seq; [|intros; exact Logic.I].
    apply read_loop_term; [left; reflexivity|cbn; lia].
  Qed.
End Term.

(* the executable instance: C05's text schemas obey the discipline *)
Lemma le_get_ttl st : Le st (T.get_ttl st).
Proof.
  unfold T.get_ttl. eapply le_bind; [apply le_get_unescaped|lia|]. intros t s1 H. cbn [fst snd].
  destruct (negb (T.is_identifier t)); [exact Logic.I|]. apply le_pure. intros x. exact H.
Qed.

Lemma le_get_string_as_bytes st m : Le st (T.get_string_as_bytes st m).
Proof.
  unfold T.get_string_as_bytes. eapply le_bind; [apply le_get|lia|]. intros t s1 H. cbn [fst snd].
  apply le_pure. intros x. destruct (negb _); [exact Logic.I|]. destruct (_ && _); [exact Logic.I|exact H].
Qed.

Lemma le_txt_from_text st : Le st (T.txt_from_text st).
Proof.
  unfold T.txt_from_text. eapply le_bind; [apply le_get_remaining|lia|]. intros t s1 H. cbn [fst snd].
  apply le_pure. intros x. destruct (T.is_nil x); [exact Logic.I|exact H].
Qed.

Lemma le_rest_bytes d st : Le st (RdTextM.rest_bytes d st).
Proof.
  unfold RdTextM.rest_bytes. eapply le_bind; [apply le_cri|lia|]. intros t s1 H. cbn [fst snd].
  apply le_pure. intros x. apply le_pure. intros y. exact H.
Qed.

(* The field readers of C05's schemas are a tokenizer method followed by conversions and tests that
   read nothing; le_step takes such a term apart: a reader of the hint database (le_bind), a
   conversion (le_pure), a test (both branches), a value (the state it carries is not ahead of st). *)
Create HintDb le discriminated.
#[global] Hint Resolve le_get_uint le_get_ttl le_get_string_as_bytes le_get_name le_txt_from_text le_get_identifier
  le_get_string le_get_int le_get_remaining le_cri le_get le_get_unescaped le_rest_bytes : le.
Ltac head_of t := match t with ?f _ => head_of f | _ => t end.
Ltac le_step :=
  match goal with
  | |- Le _ (Ok _) => cbn [Le fst snd]; first [assumption|apply le_n]
  | |- Le _ (Lib _) => exact Logic.I
  | |- Le _ (Internal _) => exact Logic.I
  | |- Le _ (if ?b then _ else _) => destruct b
  | |- Le _ (match ?x with [] => _ | _ :: _ => _ end) => destruct x
  | |- Le _ (bind (if ?b then _ else _) _) => destruct b
  | |- Le _ (bind (Ok _) _) => cbn [bind fst snd]
  | |- Le _ (bind (Lib _) _) => exact Logic.I
  | |- Le _ (bind _ _) => eapply le_bind; [solve [eauto with le nocore]|first [assumption|apply le_n]|intros ? ? ?; cbn [fst snd]]
  | |- Le _ (bind _ _) => apply le_pure; intros ?
  | |- Le _ (let '(_, _) := ?x in _) => destruct x
  | |- Le _ ?r => let h := head_of r in progress (unfold h)   (* a composite field reader *)
  end.

(* The parameter loop of SVCBBase.from_text (C05's model of it), the third token loop on the text
   side: its result does not depend on the fuel once the fuel exceeds the measure - so with
   rem_fuel = len + 2 the exhaustion branch is never the reason for its result - and it keeps the
   discipline. *)
Lemma svcb_params_loop_spec : forall f1 f2 st ps, (mz st < f1)%nat -> (mz st < f2)%nat ->
  RdTextM.svcb_params_loop f1 st ps = RdTextM.svcb_params_loop f2 st ps /\ Le st (RdTextM.svcb_params_loop f1 st ps).
Proof.
  induction f1 as [|f1 IH]; intros f2 st ps H1 H2; [lia|]. destruct f2 as [|f2]; [lia|].
  cbn [RdTextM.svcb_params_loop].
  (* the next turn, from a state s behind st, once the parameter has been defined *)
  assert (Next : forall s d, (mz s + 1 <= mz st)%nat ->
            (do ps' <- d; RdTextM.svcb_params_loop f1 s ps') = (do ps' <- d; RdTextM.svcb_params_loop f2 s ps')
            /\ Le st (do ps' <- d; RdTextM.svcb_params_loop f1 s ps')).
  { intros s [ps'|e|e] Hs; cbn [bind]; try (split; [reflexivity|exact Logic.I]).
    destruct (IH f2 s ps' ltac:(lia) ltac:(lia)) as [E L]. split; [exact E|]. eapply le_weaken; [exact L|lia]. }
  destruct (T.get0 st) as [[t s1]|e|e] eqn:G; cbn [bind]; try (split; [reflexivity|exact Logic.I]).
  pose proof G as G'. apply get_mz in G as (_ & A & _). cbn [fst snd] in A.
  destruct (T.is_eol_or_eof t) eqn:Ee.
  { split; [reflexivity|]. destruct (T.unget s1 t) eqn:U; cbn [bind Le]; auto. eapply get_unget_mz; eauto. }
  rewrite (pend_not_eol t Ee) in A.
  destruct (negb (T.is_identifier t)); [split; [reflexivity|exact Logic.I]|]. cbv zeta.
  destruct (RdTextM.split_once 61 (T.tvalue t)) as [[key rest]|]; [|apply Next; lia].
  destruct (T.is_nil rest).
  - destruct (T.get s1 true false) as [[q s2]|e|e] eqn:G2; cbn [bind fst snd]; try (split; [reflexivity|exact Logic.I]).
    apply get_mz in G2 as (_ & A2 & _). cbn [fst snd] in A2.
    destruct (negb (T.is_quoted q)); [split; [reflexivity|exact Logic.I]|apply Next; lia].
  - destruct (T.is_nil key); [split; [reflexivity|exact Logic.I]|apply Next; lia].
Qed.

Theorem svcb_params_loop_fuel_sufficient st ps extra :
  RdTextM.svcb_params_loop (T.rem_fuel st + extra) st ps = RdTextM.svcb_params_loop (T.rem_fuel st) st ps.
Proof. apply svcb_params_loop_spec; pose proof (mz_lt_rem_fuel st); lia. Qed.

Lemma le_svcb_from_text c st : Le st (RdTextM.svcb_from_text c st).
Proof.
  unfold RdTextM.svcb_from_text.
  eapply le_bind; [apply le_get_uint|lia|]. intros p s1 H1. cbn [fst snd].
  eapply le_bind; [apply le_get_name|exact H1|]. intros n s2 H2. cbn [fst snd].
  match goal with |- Le st (bind ?X _) =>
    assert (HX : match X with Ok s3 => (mz s3 <= mz st)%nat | _ => True end) end.
  { destruct (p =? 0); [|exact H2].
    destruct (T.get0 s2) as [[t s3]|e|e] eqn:G; cbn [bind fst snd]; try exact Logic.I.
    destruct (negb (T.is_eol_or_eof t)); [exact Logic.I|].
    destruct (T.unget s3 t) as [s4|e|e] eqn:U; try exact Logic.I.
    pose proof (get_unget_mz _ _ _ _ _ _ G U). lia. }
  match goal with |- Le st (bind ?X _) => destruct X as [s3|e|e] end; cbn [bind]; try exact Logic.I.
  eapply le_bind; [apply (svcb_params_loop_spec _ _ _ _ (mz_lt_rem_fuel s3) (mz_lt_rem_fuel s3))|exact HX|].
  intros pl s4 H4. cbn [fst snd]. destruct (RdTextM.svcb_ctor_ok pl); [exact H4|exact Logic.I].
Qed.

(* LOC.from_text: a coordinate = an integer and up to three strings, the last one the hemisphere *)
Lemma le_loc_coord st hpos hneg : Le st (RdTextM.loc_coord st hpos hneg).
Proof.
  unfold RdTextM.loc_coord.
  eapply le_bind; [apply le_get_int|lia|]. intros d s1 H1. cbn [fst snd].
  eapply le_bind; [apply le_get_string|exact H1|]. intros v1 s2 H2. cbn [fst snd].
  (* a further string, read from a state s behind st *)
  assert (Str : forall s (k : list Z * T.tstate -> Z * Z * Z * (list Z * T.tstate)),
            (forall x, snd (k x) = x) -> (mz s <= mz st)%nat ->
            ends (fun r => (mz (snd (snd r)) <= mz st)%nat) any any (do t3 <- T.get_string s 0; Ok (k t3))).
  { intros s k Hk Hs. pose proof (le_get_string s 0) as L.
    destruct (T.get_string s 0) as [[v3 s4]|e|e]; cbn; auto. rewrite Hk. cbn in *. lia. }
  eapply ends_bind with (Q1 := fun r => (mz (snd (snd r)) <= mz st)%nat) (L := any) (I := any).
  - destruct (RdTextM.isdecimal_str v1); [|exact H2]. cbv zeta.
    eapply ends_bind with (Q1 := fun x => (mz (snd x) <= mz st)%nat).
    { pose proof (le_get_string s2 0) as L. destruct (T.get_string s2 0) as [[v2 s3]|e|e]; cbn in *; auto. lia. }
    intros [v2 s3] H3. cbn [fst snd] in *.
    destruct (existsb (Z.eqb 46) v2).
    + destruct (RdTextM.split_on 46 v2 []) as [|sec [|ms [|? ?]]]; try exact Logic.I.
      destruct (negb (RdTextM.isdecimal_str sec)); [exact Logic.I|]. cbv zeta.
      destruct (_ || _); [exact Logic.I|]. apply Str; [reflexivity|exact H3].
    + destruct (RdTextM.isdecimal_str v2); [apply Str; [reflexivity|exact H3]|exact H3].
  - intros [[[mi se] ml] th] H. repeat match goal with |- _ (if ?b then _ else _) => destruct b end; cbn; auto.
Qed.

Lemma le_loc_from_text st : Le st (RdTextM.loc_from_text st).
Proof.
  unfold RdTextM.loc_from_text.
  eapply le_bind; [apply le_loc_coord|lia|]. intros la s1 H1. cbn [fst snd].
  eapply le_bind; [apply le_loc_coord|exact H1|]. intros lo s2 H2. cbn [fst snd].
  eapply le_bind; [apply le_get_string|exact H2|]. intros ta s3 H3. cbn [fst snd].
  apply le_pure; intros ax. apply le_pure; intros alt.
  eapply le_bind; [apply le_get_remaining|exact H3|]. intros ts s4 H4. cbn [fst snd].
  apply le_pure; intros vals. cbv zeta.
  apply le_pure; intros u1. apply le_pure; intros u2. apply le_pure; intros u3.
  repeat match goal with |- Le st (if ?b then _ else _) => destruct b end; cbn [Le]; auto.
Qed.

#[global] Hint Resolve le_loc_from_text : le.

Lemma le_parse_field c f st : Le st (RdTextM.parse_field c f st).
Proof.
  destruct f; cbn [RdTextM.parse_field]; try (solve [auto with le nocore | repeat le_step]).
  eapply le_bind; [apply le_svcb_from_text|lia|]. intros [[p n] ps] s1 H. exact H.
Qed.

Lemma le_parse_fields c : forall fs st, Le st (RdTextM.parse_fields c fs st).
Proof.
  induction fs as [|f fs IH]; intros st; cbn [RdTextM.parse_fields]; [cbn; lia|].
  eapply le_bind; [apply le_parse_field|lia|]. intros v s1 H. cbn [fst snd].
  eapply le_bind; [apply IH|exact H|]. intros vs s2 H2. cbn [Le fst snd]. exact H2.
Qed.

Lemma le_class_from_text c fs chk st : Le st (RdTextM.class_from_text c fs chk st).
Proof.
  unfold RdTextM.class_from_text. eapply le_bind; [apply le_parse_fields|lia|]. intros v s1 H. cbn [fst snd].
  repeat le_step.
Qed.

Lemma le_generic_from_text st : Le st (T.generic_from_text st).
Proof.
  unfold T.generic_from_text. eapply le_bind; [apply le_get|lia|]. intros t s1 H.
  destruct (_ || _); [exact Logic.I|].
  eapply le_bind; [apply le_get_int|exact H|]. intros n s2 H2.
  eapply le_bind; [apply le_cri|exact H2|]. intros h s3 H3. repeat le_step.
Qed.

Lemma per_type_run_le pctx c t st : Le st (per_type_run pctx c t st).
Proof.
  unfold per_type_run. match goal with |- Le _ (match ?x with Some _ => _ | None => _ end) => destruct x as [fs|] end.
  - eapply le_bind; [apply le_class_from_text|lia|]. intros v s1 H. cbn [Le snd]. exact H.
  - eapply le_bind; [apply le_generic_from_text|lia|]. intros v s1 H. cbn [Le snd]. exact H.
Qed.

(* the executable instance of dns.message.from_text: never an internal exception *)
Theorem message_from_text_run_total pctx text orps :
  match from_text (per_type_run pctx) pctx type_from_text_run text orps with
  | Ok _ => True
  | Lib e => mt_lib e
  | Internal _ => False
  end.
Proof.
  apply message_from_text_total; [apply type_from_text_run_lib|]. intros c t st. apply per_type_run_le.
Qed.

(* dns.rdata.from_text (TokM.rdata_from_text: tokenizer, generic-syntax branch, per-type text parser,
   end-of-line check, all inside ExceptionWrapper(SyntaxError)) for an ARBITRARY per-type parser and
   arbitrary wire codec of the generic branch: a value or a SyntaxError-family error *)
Theorem rdata_from_text_family {V} (ft : T.tstate -> res (V * T.tstate)) fw tw text :
  match T.rdata_from_text ft fw tw text with
  | Ok _ => True
  | Lib e => T.in_syntax_family e = true
  | Internal _ => False
  end.
Proof.
  unfold T.rdata_from_text, T.wrap_syntax.
  match goal with |- match (match ?r with _ => _ end) with _ => _ end => destruct r as [a|e|e] end; auto.
  destruct (T.in_syntax_family e) eqn:E; [exact E|reflexivity].
Qed.
