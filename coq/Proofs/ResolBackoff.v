(* The back-off law: within one candidate name the rounds are separated by sleeps of
   0.1, 0.2, 0.4, 0.8, 1.6, 2, 2, ... seconds; every new candidate starts again at 0.1 s; no other
   query is delayed. *)
From DV Require Import Base.Prelude Model.NameM Model.ResolM Proofs.ResolBase Proofs.ResolTrace.
Open Scope Z_scope.

Section Backoff.
Variables (sc : nat -> outcome) (c : cfg) (start : Z).

(* consecutive queries a, b *)
Definition bo_rel (a b : event) : Prop :=
  if Nat.eqb (ev_left b) (ev_left a) then
    (* same candidate name: either no sleep, or the sleep announced by a, doubled (capped) for later *)
    (ev_backoff b = 0 /\ ev_level b = ev_level a) \/
    (ev_backoff b = ev_level a /\ ev_level b = Z.min (ev_level a * 2) 2000)
  else ev_backoff b = 0 /\ ev_level b = 100.

Definition bo_first (ev : event) : Prop := ev_backoff ev = 0 /\ ev_level ev = 100.

Definition fresh (s : st) : Prop :=
  s_retry_with_tcp s = false /\ s_current s = s_nameservers s /\ s_backoff s = 100.

Definition KInv (new : list event) (s : st) (e : env) : Prop :=
  adjacent bo_rel new /\ (forall a l, new = a :: l -> bo_first a) /\
  (new = [] -> fresh s) /\
  (forall a, last_opt new = Some a ->
     (length (s_qnames s) = ev_left a /\ s_backoff s = ev_level a) \/
     (length (s_qnames s) <> ev_left a /\ fresh s)).

Definition KFin (new : list event) (f : final) (s' : st) (e' : env) : Prop :=
  adjacent bo_rel new /\ (forall a l, new = a :: l -> bo_first a).

(* a fresh round starts without sleeping and announces 0.1 s *)
Lemma fresh_choice : forall s ns tcp backoff cur bo,
  fresh s -> choice c s ns tcp backoff cur bo -> backoff = 0 /\ bo = 100.
Proof.
  intros s ns tcp backoff cur0 bo (F1 & F2 & F3) [R1 _ _|cur _ _|cur _ R2 R3]; [congruence|auto|].
  rewrite F2, R3 in R2. discriminate.
Qed.

Lemma kinv_event : forall tr s e s1 ns ev,
  KInv tr s e -> asked sc c start s e s1 ns ev ->
  adjacent bo_rel (tr ++ [ev]) /\ (forall a l, tr ++ [ev] = a :: l -> bo_first a).
Proof.
  intros tr s e s1 ns ev (HA & HH & HE & HL) (tcp & backoff & cur & bo & T & ob & clock2 & -> & -> & HC & _).
  split.
  - apply adjacent_snoc; [exact HA|]. intros a La. unfold bo_rel. simpl.
    destruct (HL a La) as [(L1 & L2)|(L1 & L2)].
    + rewrite L1, Nat.eqb_refl, <- L2. destruct HC; auto.
    + apply Nat.eqb_neq in L1. rewrite L1. exact (fresh_choice _ _ _ _ _ _ L2 HC).
  - intros a l H. destruct tr as [|x tr]; injection H as <- _; [|exact (HH _ _ eq_refl)].
    exact (fresh_choice _ _ _ _ _ _ (HE eq_refl) HC).
Qed.

Lemma kinv_step : forall tr s e s1 ns ev s',
  KInv tr s e -> asked sc c start s e s1 ns ev -> continues c s1 ev s' -> KInv (tr ++ [ev]) s' (after_query e ev).
Proof.
  intros tr s e s1 ns ev s' HI HA HC. destruct (kinv_event _ _ _ _ _ _ HI HA) as (HA' & HH').
  destruct HA as (tcp & backoff & cur & bo & T & ob & clock2 & -> & -> & _).
  split; [exact HA'|]. split; [exact HH'|]. split; [intros HX; destruct tr; discriminate|].
  intros a La. rewrite last_opt_snoc in La. injection La as <-.
  destruct (continues_cases c _ ns _ _ HC eq_refl)
    as [(_ & _ & _ & nss & errs & -> & _)|(_ & sk & q & rest & s0 & HR & -> & _)].
  - left. split; reflexivity.
  - simpl in HR. right. simpl.
    split; [rewrite HR, app_length; simpl; lia|]. repeat split.
Qed.

Lemma kinv_stop : forall tr s e f s' e', KInv tr s e -> gives_up c start s e f s' e' -> KFin tr f s' e'.
Proof. intros tr s e f s' e' (HA & HH & _) _. split; assumption. Qed.

Lemma kinv_end : forall tr s e s1 ns ev f s',
  KInv tr s e -> asked sc c start s e s1 ns ev -> ends c s1 ev f s' -> KFin (tr ++ [ev]) f s' (after_query e ev).
Proof. intros tr s e s1 ns ev f s' HI HA _. exact (kinv_event _ _ _ _ _ _ HI HA). Qed.
End Backoff.

Theorem backoff_law_resolve : forall sc c ch fuel e f s' e',
  resolve_with fuel sc c ch e = (f, s', e') -> f <> FFuel ->
  exists new, e_trace e' = e_trace e ++ new /\ adjacent bo_rel new /\ (forall a l, new = a :: l -> bo_first a).
Proof.
  intros sc c ch fuel e.
  apply (resolution_ind sc c ch e KInv KFin); eauto using kinv_step, kinv_stop, kinv_end.
  - intros s1 H. apply next_request_request in H. destruct H as (sk & q & rest & s0 & _ & -> & _).
    split; [exact Logic.I|]. split; [discriminate|]. split; [repeat split|discriminate].
  - split; [exact Logic.I|discriminate].
Qed.
