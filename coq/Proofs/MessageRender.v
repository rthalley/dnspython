(* The renderer as pure emission: every write appends octets that depend only on the current
   length of the output and on the compression table.  Message.to_wire is then a start (the two
   reserves), one loop of size-tracked writes over the four sections, and a finish (OPT, header,
   TSIG); the C03 and C08 proofs all go through this decomposition. *)
From DV Require Import Base.Prelude Model.NameM Model.MessageM.
From DV Require Import Proofs.ListFacts Proofs.NameOrder Proofs.NameValid Proofs.NameRel Proofs.NameWire Proofs.NameCompress.
From DV Require Import Proofs.MessageName.
Open Scope Z_scope.

Definition emitter := Z -> ctable -> res (list Z * ctable).
Definition run_em (E : emitter) (file : list Z) (t : ctable) : res (list Z * ctable) :=
  do et <- E (zlen file) t; Ok (file ++ fst et, snd et).

(* E1, then E2 where E1 stopped *)
Definition seq_em (E1 E2 : emitter) : emitter :=
  fun pos t => do e1 <- E1 pos t; do e2 <- E2 (pos + zlen (fst e1)) (snd e1); Ok (fst e1 ++ fst e2, snd e2).

Lemma seq_em_ok E1 E2 pos t em t' :
  seq_em E1 E2 pos t = Ok (em, t') ->
  exists e1 t1 e2, E1 pos t = Ok (e1, t1) /\ E2 (pos + zlen e1) t1 = Ok (e2, t') /\ em = e1 ++ e2.
Proof.
  unfold seq_em. intros H. apply bind_ok in H. destruct H as ([e1 t1] & H1 & H).
  apply bind_ok in H. destruct H as ([e2 t2] & H2 & H). injection H as <- <-. eauto 6.
Qed.

Lemma run_seq_em E1 E2 (g : list Z -> ctable -> res (list Z * ctable)) file t :
  (forall file t, g file t = run_em E2 file t) ->
  (do ft <- run_em E1 file t; g (fst ft) (snd ft)) = run_em (seq_em E1 E2) file t.
Proof.
  intros Hg. unfold run_em at 1 2, seq_em.
  destruct (E1 (zlen file) t) as [[e1 t1]| |]; cbn [bind fst snd]; try reflexivity.
  rewrite Hg. unfold run_em. rewrite zlen_app.
  destruct (E2 (zlen file + zlen e1) t1) as [[e2 t2]| |]; cbn [bind fst snd]; try reflexivity.
  rewrite app_assoc. reflexivity.
Qed.

Definition full_labels (n : name) (origin : option name) : res name :=
  do labels <-
     (if is_absolute n then Ok n
      else match origin with
           | Some o => if is_absolute o then Ok (n ++ o) else Lib eNeedAbsolute
           | None => Lib eNeedAbsolute
           end);
  mk_name labels.

Lemma full_labels_abs_origin n o : is_absolute n = true -> full_labels n o = full_labels n None.
Proof. intros A. unfold full_labels. rewrite A. reflexivity. Qed.

Definition nm_em (n : name) (origin : option name) (compress : bool) : emitter :=
  fun pos t =>
    do labels <- full_labels n origin;
    Ok (if compress then tw_em labels pos t else (wire_labels false labels, t)).

Lemma name_to_wire_em n o c file t : name_to_wire n o c file t = run_em (nm_em n o c) file t.
Proof.
  unfold name_to_wire, run_em, nm_em, full_labels.
  destruct (if is_absolute n then _ else _) as [ls| |]; cbn [bind]; try reflexivity.
  destruct (mk_name ls); cbn [bind]; try reflexivity.
  destruct c; [rewrite tw_loop_em|]; reflexivity.
Qed.

Fixpoint rd_em (ps : rdata) (origin : option name) (compress : bool) : emitter :=
  fun pos t =>
    match ps with
    | [] => Ok ([], t)
    | PB b :: r =>
        do e2 <- rd_em r origin compress (pos + zlen b) t; Ok (b ++ fst e2, snd e2)
    | PN n :: r =>
        do e1 <- nm_em n origin compress pos t;
        do e2 <- rd_em r origin compress (pos + zlen (fst e1)) (snd e1);
        Ok (fst e1 ++ fst e2, snd e2)
    | PU n :: r | PX n :: r =>
        do e1 <- nm_em n origin false pos t;
        do e2 <- rd_em r origin compress (pos + zlen (fst e1)) (snd e1);
        Ok (fst e1 ++ fst e2, snd e2)
    end.

(* an rdata is the sequence of its pieces *)
Definition piece_em (p : piece) (origin : option name) (compress : bool) : emitter :=
  match p with
  | PB b => fun _ t => Ok (b, t)
  | PN n => nm_em n origin compress
  | PU n | PX n => nm_em n origin false
  end.

Lemma rd_em_cons p r o c pos t : rd_em (p :: r) o c pos t = seq_em (piece_em p o c) (rd_em r o c) pos t.
Proof. destruct p; reflexivity. Qed.

Lemma rd_to_wire_em : forall ps o c file t, rd_to_wire ps o c file t = run_em (rd_em ps o c) file t.
Proof.
  induction ps as [|p r IH]; intros o c file t.
  - unfold run_em. cbn. rewrite app_nil_r. reflexivity.
  - transitivity (do ft <- run_em (piece_em p o c) file t; rd_to_wire r o c (fst ft) (snd ft)).
    + destruct p; cbn [rd_to_wire piece_em]; rewrite ?name_to_wire_em; reflexivity.
    + rewrite (run_seq_em _ _ _ _ _ (IH o c)). unfold run_em. rewrite rd_em_cons. reflexivity.
Qed.

(* one RR: owner, type, class, ttl, rdlength, rdata *)
Definition rr_em (owner : name) (rdtype rdclass ttl : Z) (rd : rdata)
           (oorigin rorigin : option name) (ocompress rcompress : bool) : emitter :=
  fun pos t =>
    do e1 <- nm_em owner oorigin ocompress pos t;
    do h1 <- pack16 rdtype; do h2 <- pack16 rdclass; do h3 <- pack32 ttl;
    do e2 <- rd_em rd rorigin rcompress (pos + zlen (fst e1) + 10) (snd e1);
    if zlen (fst e2) >? 65535 then Lib eFormError
    else Ok (fst e1 ++ h1 ++ h2 ++ h3 ++ MessageM.u16 (zlen (fst e2)) ++ fst e2, snd e2).

Lemma pack16_ok v b : pack16 v = Ok b -> b = MessageM.u16 v /\ 0 <= v <= 65535.
Proof.
  unfold pack16. destruct (Z.leb_spec 0 v); destruct (Z.leb_spec v 65535); cbn [andb]; try discriminate.
  intros H'; inversion H'. split; [reflexivity|lia].
Qed.
Lemma pack32_ok v b : pack32 v = Ok b -> b = MessageM.u32 v /\ 0 <= v <= 4294967295.
Proof.
  unfold pack32. destruct (Z.leb_spec 0 v); destruct (Z.leb_spec v 4294967295); cbn [andb]; try discriminate.
  intros H'; inversion H'. split; [reflexivity|lia].
Qed.
Lemma pack16_range v : 0 <= v <= 65535 -> pack16 v = Ok (MessageM.u16 v).
Proof. intros H. unfold pack16. destruct (Z.leb_spec 0 v); [|lia]. destruct (Z.leb_spec v 65535); [reflexivity|lia]. Qed.
Lemma pack32_range v : 0 <= v <= 4294967295 -> pack32 v = Ok (MessageM.u32 v).
Proof. intros H. unfold pack32. destruct (Z.leb_spec 0 v); [|lia]. destruct (Z.leb_spec v 4294967295); [reflexivity|lia]. Qed.
Lemma pack16_len v b : pack16 v = Ok b -> zlen b = 2.
Proof. intros H. apply pack16_ok in H. destruct H as (-> & _). reflexivity. Qed.

Lemma rr_em_split owner ty cl ttl rd oo ro oc rc pos t em t' :
  rr_em owner ty cl ttl rd oo ro oc rc pos t = Ok (em, t') ->
  exists e1 t1 e2,
    nm_em owner oo oc pos t = Ok (e1, t1) /\ rd_em rd ro rc (pos + zlen e1 + 10) t1 = Ok (e2, t') /\
    zlen e2 <= 65535 /\ 0 <= ty <= 65535 /\ 0 <= cl <= 65535 /\ 0 <= ttl <= 4294967295 /\
    em = e1 ++ MessageM.u16 ty ++ MessageM.u16 cl ++ MessageM.u32 ttl ++ MessageM.u16 (zlen e2) ++ e2.
Proof.
  intros H. unfold rr_em in H.
  apply bind_ok in H. destruct H as ([e1 t1] & H1 & H).
  apply bind_ok in H. destruct H as (h1 & E1 & H). apply bind_ok in H. destruct H as (h2 & E2 & H).
  apply bind_ok in H. destruct H as (h3 & E3 & H). apply bind_ok in H. destruct H as ([e2 t2] & H2 & H).
  cbn [fst snd] in *. destruct (Z.gtb_spec (zlen e2) 65535); [discriminate|].
  apply pack16_ok in E1, E2. apply pack32_ok in E3. destruct E1 as (-> & ?), E2 as (-> & ?), E3 as (-> & ?).
  remember (MessageM.u16 (zlen e2)) as h4. injection H as <- <-. subst h4.
  exists e1, t1, e2. repeat split; assumption || lia.
Qed.

Lemma rr_em_join owner ty cl ttl rd oo ro oc rc pos t e1 t1 e2 t' :
  nm_em owner oo oc pos t = Ok (e1, t1) -> rd_em rd ro rc (pos + zlen e1 + 10) t1 = Ok (e2, t') ->
  zlen e2 <= 65535 -> 0 <= ty <= 65535 -> 0 <= cl <= 65535 -> 0 <= ttl <= 4294967295 ->
  rr_em owner ty cl ttl rd oo ro oc rc pos t
  = Ok (e1 ++ MessageM.u16 ty ++ MessageM.u16 cl ++ MessageM.u32 ttl ++ MessageM.u16 (zlen e2) ++ e2, t').
Proof.
  intros H1 H2 EB P1 P2 P3. unfold rr_em. rewrite H1, (pack16_range _ P1), (pack16_range _ P2), (pack32_range _ P3).
  cbn [bind fst snd]. rewrite H2. cbn [bind fst snd]. destruct (Z.gtb_spec (zlen e2) 65535); [lia|reflexivity].
Qed.

Lemma patch16_spec (pre : list Z) (a b : Z) (post : list Z) v :
  patch16 (pre ++ a :: b :: post) (zlen pre) v = pre ++ MessageM.u16 v ++ post.
Proof.
  unfold patch16, zlen. rewrite Nat2Z.id.
  rewrite firstn_app, firstn_all, Nat.sub_diag. cbn [firstn]. rewrite app_nil_r.
  rewrite skipn_app. rewrite skipn_all2 by lia.
  replace (length pre + 2 - length pre)%nat with 2%nat by lia. cbn [skipn app]. reflexivity.
Qed.

Lemma rr_to_wire_em owner rdtype rdclass ttl rd oo ro oc rc file t :
  rr_to_wire owner rdtype rdclass ttl rd oo ro oc rc file t
  = run_em (rr_em owner rdtype rdclass ttl rd oo ro oc rc) file t.
Proof.
  unfold rr_to_wire, rr_em. rewrite name_to_wire_em. unfold run_em at 1 2.
  destruct (nm_em owner oo oc (zlen file) t) as [[e1 t1]| |]; cbn [bind fst snd]; try reflexivity.
  destruct (pack16 rdtype) as [h1| |] eqn:E1; cbn [bind]; try reflexivity.
  destruct (pack16 rdclass) as [h2| |] eqn:E2; cbn [bind]; try reflexivity.
  destruct (pack32 ttl) as [h3| |] eqn:E3; cbn [bind]; try reflexivity.
  rewrite rd_to_wire_em. unfold run_em.
  apply pack16_len in E1, E2. apply pack32_ok in E3. destruct E3 as (-> & _).
  (* where the two length octets sit *)
  set (pre := (file ++ e1) ++ h1 ++ h2 ++ MessageM.u32 ttl).
  assert (Hp : zlen pre = zlen file + zlen e1 + 8)
    by (unfold pre; rewrite !zlen_app; change (zlen (MessageM.u32 ttl)) with 4; lia).
  replace ((file ++ e1) ++ h1 ++ h2 ++ MessageM.u32 ttl ++ [0; 0]) with (pre ++ [0; 0])
    by (unfold pre; rewrite <- !app_assoc; reflexivity).
  rewrite (zlen_app pre), Hp. change (zlen [0; 0]) with 2.
  replace (zlen file + zlen e1 + 8 + 2) with (zlen file + zlen e1 + 10) by lia.
  destruct (rd_em rd ro rc (zlen file + zlen e1 + 10) t1) as [[e2 t2]| |]; cbn [bind fst snd]; try reflexivity.
  rewrite zlen_app, zlen_app, Hp. change (zlen [0; 0]) with 2.
  replace (zlen file + zlen e1 + 8 + 2 + zlen e2 - (zlen file + zlen e1 + 10)) with (zlen e2) by lia.
  destruct (zlen e2 >? 65535); [reflexivity|]. cbn [bind fst snd]. f_equal. f_equal.
  replace (file ++ e1 ++ h1 ++ h2 ++ MessageM.u32 ttl ++ MessageM.u16 (zlen e2) ++ e2)
    with (pre ++ MessageM.u16 (zlen e2) ++ e2) by (unfold pre; rewrite <- !app_assoc; reflexivity).
  destruct (Z.gtb_spec (zlen e2) 0).
  - replace (zlen file + zlen e1 + 10 - 2) with (zlen pre) by lia.
    rewrite <- app_assoc. apply patch16_spec.
  - destruct e2; [rewrite <- app_assoc; reflexivity|rewrite zlen_cons in *; pose proof (zlen_nonneg e2); lia].
Qed.

Fixpoint rrs_em (owner : name) (rdtype rdclass ttl : Z) (rds : list rdata)
         (origin : option name) (compress : bool) : emitter :=
  fun pos t =>
    match rds with
    | [] => Ok ([], t)
    | rd :: r =>
        do e1 <- rr_em owner rdtype rdclass ttl rd origin origin compress compress pos t;
        do e2 <- rrs_em owner rdtype rdclass ttl r origin compress (pos + zlen (fst e1)) (snd e1);
        Ok (fst e1 ++ fst e2, snd e2)
    end.

Lemma rrs_em_one owner ty cl ttl rd og c pos t :
  rrs_em owner ty cl ttl [rd] og c pos t = rr_em owner ty cl ttl rd og og c c pos t.
Proof.
  cbn [rrs_em]. destruct (rr_em owner ty cl ttl rd og og c c pos t) as [[e t1]| |]; cbn [bind fst snd]; [rewrite app_nil_r|..]; reflexivity.
Qed.

Lemma rrs_loop_em : forall rds owner rdtype rdclass ttl o c file t,
  rrs_loop owner rdtype rdclass ttl rds o c file t = run_em (rrs_em owner rdtype rdclass ttl rds o c) file t.
Proof.
  induction rds as [|rd r IH]; intros.
  - unfold run_em. cbn. rewrite app_nil_r. reflexivity.
  - cbn [rrs_loop]. rewrite rr_to_wire_em.
    exact (run_seq_em _ _ _ _ _ (IH owner rdtype rdclass ttl o c)).
Qed.

Definition wclass (rs : rrset) : Z := match rdeleting rs with Some d => d | None => rclass rs end.

(* Rdataset.to_wire: the empty form is the RR form with ttl 0 and no rdata *)
Definition rrset_em (rs : rrset) (origin : option name) (compress : bool) : emitter :=
  fun pos t =>
    match rrds rs with
    | [] => rr_em (rname rs) (rtype rs) (wclass rs) 0 [] origin origin compress compress pos t
    | rds => rrs_em (rname rs) (rtype rs) (wclass rs) (rttl rs) rds origin compress pos t
    end.
Definition rrset_count (rs : rrset) : Z := match rrds rs with [] => 1 | rds => zlen rds end.

Lemma rrset_to_wire_em rs o c file t :
  rrset_to_wire rs o c file t =
    do ft <- run_em (rrset_em rs o c) file t; Ok (fst ft, snd ft, rrset_count rs).
Proof.
  unfold rrset_to_wire, rrset_em, rrset_count, wclass.
  destruct (rrds rs) as [|rd rds] eqn:E.
  - rewrite name_to_wire_em. unfold run_em, rr_em.
    destruct (nm_em (rname rs) o c (zlen file) t) as [[e1 t1]| |]; cbn [bind fst snd]; try reflexivity.
    destruct (pack16 (rtype rs)) as [h1| |]; cbn [bind]; try reflexivity.
    destruct (pack16 _) as [h2| |]; cbn [bind]; try reflexivity.
    cbn. rewrite <- !app_assoc. reflexivity.
  - rewrite rrs_loop_em. unfold run_em.
    destruct (rrs_em _ _ _ _ _ _ _ _ _) as [[e1 t1]| |]; cbn [bind fst snd]; reflexivity.
Qed.

(* emitters only extend the table, with offsets inside what they emit *)
Definition ext_em (E : emitter) : Prop :=
  forall pos t em t', E pos t = Ok (em, t') ->
    exists new, t' = t ++ new /\ Forall (fun kv => pos <= snd kv < pos + zlen em /\ 1 < zlen (fst kv)) new.

Lemma ext_none (E : emitter) : (forall pos t em t', E pos t = Ok (em, t') -> t' = t) -> ext_em E.
Proof. intros X pos t em t' H. rewrite (X _ _ _ _ H). exists []. rewrite app_nil_r. auto. Qed.

Lemma ext_seq E1 E2 : ext_em E1 -> ext_em E2 -> ext_em (seq_em E1 E2).
Proof.
  intros X1 X2 pos t em t' H. apply seq_em_ok in H. destruct H as (e1 & t1 & e2 & H1 & H2 & ->).
  destruct (X1 _ _ _ _ H1) as (n1 & -> & F1). destruct (X2 _ _ _ _ H2) as (n2 & -> & F2).
  exists (n1 ++ n2). rewrite app_assoc, zlen_app. split; [reflexivity|].
  pose proof (zlen_nonneg e1). pose proof (zlen_nonneg e2).
  apply Forall_app. split; (eapply Forall_widen; [| |eassumption]; lia).
Qed.

Lemma ext_nm_em n o c : ext_em (nm_em n o c).
Proof.
  destruct c.
  - intros pos t em t' H. unfold nm_em in H. apply bind_ok in H. destruct H as (labels & _ & H).
    destruct (ext_tw_em labels pos t) as (new & E & F).
    inversion H as [H1]. rewrite H1 in E, F. exists new. auto.
  - apply ext_none. intros pos t em t' H. apply bind_ok in H. destruct H as (labels & _ & H). congruence.
Qed.

Lemma ext_piece_em p o c : ext_em (piece_em p o c).
Proof. destruct p; try apply ext_nm_em. apply ext_none. cbn. congruence. Qed.

Lemma ext_rd_em : forall ps o c, ext_em (rd_em ps o c).
Proof.
  induction ps as [|p r IH]; intros o c.
  - apply ext_none. cbn. congruence.
  - intros pos t em t' H. rewrite rd_em_cons in H. exact (ext_seq _ _ (ext_piece_em p o c) (IH o c) _ _ _ _ H).
Qed.

Lemma ext_rr_em owner rdtype rdclass ttl rd oo ro oc rc : ext_em (rr_em owner rdtype rdclass ttl rd oo ro oc rc).
Proof.
  intros pos t em t' H. apply rr_em_split in H. destruct H as (e1 & t1 & e2 & H1 & H2 & _ & _ & _ & _ & ->).
  destruct (ext_nm_em owner oo oc _ _ _ _ H1) as (n1 & -> & F1).
  destruct (ext_rd_em rd ro rc _ _ _ _ H2) as (n2 & -> & F2).
  exists (n1 ++ n2). rewrite app_assoc. split; [reflexivity|].
  rewrite !zlen_app. change (zlen (MessageM.u16 rdtype)) with 2. change (zlen (MessageM.u16 rdclass)) with 2.
  change (zlen (MessageM.u32 ttl)) with 4. change (zlen (MessageM.u16 (zlen e2))) with 2.
  pose proof (zlen_nonneg e1). pose proof (zlen_nonneg e2).
  apply Forall_app. split; (eapply Forall_widen; [| |eassumption]; lia).
Qed.

Lemma ext_rrs_em : forall rds owner rdtype rdclass ttl o c, ext_em (rrs_em owner rdtype rdclass ttl rds o c).
Proof.
  induction rds as [|rd r IH]; intros owner rdtype rdclass ttl o c.
  - apply ext_none. cbn. congruence.
  - exact (ext_seq _ _ (ext_rr_em owner rdtype rdclass ttl rd o o c c) (IH owner rdtype rdclass ttl o c)).
Qed.

Lemma ext_rrset_em rs o c : ext_em (rrset_em rs o c).
Proof.
  unfold rrset_em. intros pos t em t' H. destruct (rrds rs).
  - eapply ext_rr_em; exact H.
  - eapply ext_rrs_em; exact H.
Qed.

(* tracked writes (Renderer._track_size around one emitter) *)
Definition TblBelow (r : rst) : Prop := Forall (fun kv => snd kv < zlen (out r)) (tbl r).

Definition tracked (E : emitter) (sec n : Z) (r : rst) : res (bool * rst) :=
  do r1 <- set_section sec r;
  do et <- E (zlen (out r1)) (tbl r1);
  let '(big, r2) := track_end (zlen (out r1)) (set_out r1 (out r1 ++ fst et) (snd et)) in
  if big then Ok (true, r2) else Ok (false, inc_count r2 sec n).

Definition q_em (origin : option name) (qname : name) (rdtype rdclass : Z) : emitter :=
  fun pos t =>
    do e1 <- nm_em qname origin true pos t;
    do h1 <- pack16 rdtype; do h2 <- pack16 rdclass;
    Ok (fst e1 ++ h1 ++ h2, snd e1).

Lemma q_em_split o n ty cl pos t em t' :
  q_em o n ty cl pos t = Ok (em, t') ->
  exists e1, nm_em n o true pos t = Ok (e1, t') /\ 0 <= ty <= 65535 /\ 0 <= cl <= 65535 /\
             em = e1 ++ MessageM.u16 ty ++ MessageM.u16 cl.
Proof.
  unfold q_em. intros H. apply bind_ok in H. destruct H as ([e1 t1] & H1 & H).
  apply bind_ok in H. destruct H as (h1 & E1 & H). apply bind_ok in H. destruct H as (h2 & E2 & H).
  apply pack16_ok in E1, E2. destruct E1 as (-> & ?), E2 as (-> & ?). injection H as <- <-. eauto 6.
Qed.

Lemma ext_q_em o n t c : ext_em (q_em o n t c).
Proof.
  intros pos tb em t' H. apply q_em_split in H. destruct H as (e1 & H1 & _ & _ & ->).
  destruct (ext_nm_em n o true _ _ _ _ H1) as (new & -> & F). exists new. split; [reflexivity|].
  rewrite zlen_app. eapply Forall_widen; [| |exact F]; [lia|]. pose proof (zlen_nonneg (MessageM.u16 t ++ MessageM.u16 c)). lia.
Qed.

Lemma add_question_tracked o n t c r : add_question o n t c r = tracked (q_em o n t c) 0 1 r.
Proof.
  unfold add_question, tracked, q_em.
  destruct (set_section 0 r) as [r1| |]; cbn [bind]; try reflexivity.
  rewrite name_to_wire_em. unfold run_em.
  destruct (nm_em n o true (zlen (out r1)) (tbl r1)) as [[e1 t1]| |]; cbn [bind fst snd]; try reflexivity.
  destruct (pack16 t) as [h1| |]; cbn [bind]; try reflexivity.
  destruct (pack16 c) as [h2| |]; cbn [bind fst snd]; try reflexivity.
  rewrite <- app_assoc. reflexivity.
Qed.

Lemma add_rrset_tracked o sec rs r : add_rrset o sec rs r = tracked (rrset_em rs o true) sec (rrset_count rs) r.
Proof.
  unfold add_rrset, tracked.
  destruct (set_section sec r) as [r1| |]; cbn [bind]; try reflexivity.
  rewrite rrset_to_wire_em. unfold run_em.
  destruct (rrset_em rs o true (zlen (out r1)) (tbl r1)) as [[e1 t1]| |]; cbn [bind fst snd]; reflexivity.
Qed.

Lemma set_section_spec s r r1 : set_section s r = Ok r1 -> r1 = set_rsec r s /\ rsec r <= s.
Proof.
  unfold set_section. destruct (Z.eqb_spec (rsec r) s).
  - intros H0; inversion H0; subst. split; [destruct r1; reflexivity|lia].
  - destruct (Z.gtb_spec (rsec r) s); [discriminate|]. intros H0; inversion H0. split; [reflexivity|lia].
Qed.

Lemma set_section_le s r : rsec r <= s -> set_section s r = Ok (set_rsec r s).
Proof.
  intros H. unfold set_section. destruct (Z.eqb_spec (rsec r) s) as [<-|]; [destruct r; reflexivity|].
  destruct (Z.gtb_spec (rsec r) s); [lia|reflexivity].
Qed.

Lemma firstn_zlen_app {A} (a b : list A) : firstn (Z.to_nat (zlen a)) (a ++ b) = a.
Proof. unfold zlen. rewrite Nat2Z.id. apply firstn_app_len. Qed.

Lemma filter_below (t new : ctable) pos :
  Forall (fun kv => snd kv < pos) t -> Forall (fun kv => pos <= snd kv) new ->
  filter (fun kv => snd kv <? pos) (t ++ new) = t.
Proof.
  intros Ht Hn. rewrite filter_app.
  replace (filter (fun kv => snd kv <? pos) new) with (@nil (name * Z)).
  - rewrite app_nil_r. induction Ht as [|x l Hx _ IH]; [reflexivity|]. cbn [filter].
    destruct (Z.ltb_spec (snd x) pos); [|lia]. f_equal. exact IH.
  - induction Hn as [|x l Hx _ IH]; [reflexivity|]. cbn [filter].
    destruct (Z.ltb_spec (snd x) pos); [lia|]. exact IH.
Qed.

(* the step: either the octets are appended (and fit), or the state is exactly what it was
   (only the current section may have advanced) and TooBig is signalled *)
Lemma tracked_spec E sec n r b r' :
  ext_em E -> TblBelow r -> tracked E sec n r = Ok (b, r') ->
  rsec r <= sec /\
  exists em new,
    E (zlen (out r)) (tbl r) = Ok (em, tbl r ++ new) /\
    Forall (fun kv => zlen (out r) <= snd kv < zlen (out r) + zlen em /\ 1 < zlen (fst kv)) new /\
    ((b = false /\ zlen (out r) + zlen em <= maxsz r /\
      r' = inc_count (set_out (set_rsec r sec) (out r ++ em) (tbl r ++ new)) sec n)
     \/ (b = true /\ zlen (out r) + zlen em > maxsz r /\ r' = set_rsec r sec)).
Proof.
  intros X TB H. unfold tracked in H.
  apply bind_ok in H. destruct H as (r1 & S & H). apply set_section_spec in S. destruct S as [-> Hs].
  split; [exact Hs|]. cbn [out tbl set_rsec] in H.
  apply bind_ok in H. destruct H as ([em t'] & HE & H). cbn [fst snd] in H.
  destruct (X _ _ _ _ HE) as (new & -> & F). exists em, new. split; [exact HE|]. split; [exact F|].
  unfold track_end in H. cbn [out set_out maxsz set_rsec] in H. rewrite zlen_app in H.
  destruct (Z.gtb_spec (zlen (out r) + zlen em) (maxsz r)).
  - right. inversion H; subst. split; [reflexivity|]. split; [lia|].
    unfold rollback, set_out, set_rsec. cbn [out tbl cq can cau cad rsec rflags maxsz reserved padded].
    rewrite firstn_zlen_app.
    rewrite filter_below; [reflexivity|exact TB|].
    eapply Forall_impl; [|exact F]. cbn beta. intros kv (Hk & _). unfold name, label in *. lia.
  - left. inversion H; subst. split; [reflexivity|]. split; [lia|reflexivity].
Qed.

(* a write that fitted leaves the table below the new end *)
Lemma TblBelow_step r em new :
  TblBelow r ->
  Forall (fun kv => zlen (out r) <= snd kv < zlen (out r) + zlen em /\ 1 < zlen (fst kv)) new ->
  Forall (fun kv => snd kv < zlen (out r ++ em)) (tbl r ++ new).
Proof.
  intros TB F. rewrite zlen_app. apply Forall_app. split.
  - eapply Forall_impl; [|exact TB]. cbn beta. intros kv H. pose proof (zlen_nonneg em). unfold name, label in *. lia.
  - eapply Forall_impl; [|exact F]. cbn beta. intros kv (H & _). unfold name, label in *. lia.
Qed.

(* the section loops: tracked writes, stopped by the first that does not fit *)
Record step := mkStep { s_em : emitter; s_sec : Z; s_n : Z }.
Definition run_step (s : step) : rst -> res (bool * rst) := tracked (s_em s) (s_sec s) (s_n s).
Definition ext_step (s : step) : Prop := ext_em (s_em s).

Fixpoint tracks (l : list step) (r : rst) : res (bool * rst) :=
  match l with
  | [] => Ok (false, r)
  | s :: l' => do br <- run_step s r; if fst br then Ok br else tracks l' (snd br)
  end.

Lemma tracks_app : forall l1 l2 r,
  tracks (l1 ++ l2) r = do br <- tracks l1 r; if fst br then Ok br else tracks l2 (snd br).
Proof.
  induction l1 as [|s l1 IH]; intros l2 r; [reflexivity|].
  cbn [app tracks]. destruct (run_step s r) as [[b r1]| |]; cbn [bind fst snd]; try reflexivity.
  destruct b; [reflexivity|]. apply IH.
Qed.

(* what a section loop leaves alone *)
Definition keeps (r r' : rst) : Prop :=
  maxsz r' = maxsz r /\ reserved r' = reserved r /\ padded r' = padded r /\ rflags r' = rflags r /\
  zlen (out r) <= zlen (out r').

Lemma keeps_refl r : keeps r r.
Proof. unfold keeps. repeat split; reflexivity || lia. Qed.
Lemma keeps_trans a b c : keeps a b -> keeps b c -> keeps a c.
Proof. unfold keeps. intros (A1 & A2 & A3 & A4 & A5) (B1 & B2 & B3 & B4 & B5). repeat split; congruence || lia. Qed.

Lemma tracked_keeps E sec n r b r' : tracked E sec n r = Ok (b, r') -> keeps r r'.
Proof.
  unfold tracked. intros H. apply bind_ok in H. destruct H as (r1 & S & H).
  apply set_section_spec in S. destruct S as (-> & _). cbn [out tbl set_rsec] in H.
  apply bind_ok in H. destruct H as ([em t'] & _ & H). unfold track_end in H. cbn [fst snd out maxsz set_out set_rsec] in H.
  unfold keeps. destruct (zlen (out r ++ em) >? maxsz r); injection H as <- <-;
    cbn [out maxsz reserved padded rflags rollback inc_count set_out set_rsec];
    rewrite ?firstn_zlen_app, ?zlen_app; pose proof (zlen_nonneg em); repeat split; lia.
Qed.

Lemma tracks_keeps : forall l r b r', tracks l r = Ok (b, r') -> keeps r r'.
Proof.
  induction l as [|s l IH]; intros r b r' H.
  - injection H as <- <-. apply keeps_refl.
  - cbn [tracks] in H. apply bind_ok in H. destruct H as ([b1 r1] & H1 & H). apply tracked_keeps in H1.
    cbn [fst snd] in H. destruct b1; [injection H as <- <-; exact H1|exact (keeps_trans _ _ _ H1 (IH _ _ _ H))].
Qed.

Definition q_step (o : option name) (rs : rrset) : step := mkStep (q_em o (rname rs) (rtype rs) (rclass rs)) 0 1.
Definition rr_step (o : option name) (sec : Z) (rs : rrset) : step := mkStep (rrset_em rs o true) sec (rrset_count rs).

Lemma add_questions_tracks o : forall l r, add_questions o l r = tracks (map (q_step o) l) r.
Proof.
  induction l as [|rs l IH]; intros r; [reflexivity|].
  cbn [add_questions map tracks]. rewrite add_question_tracked.
  change (run_step (q_step o rs) r) with (tracked (q_em o (rname rs) (rtype rs) (rclass rs)) 0 1 r).
  destruct (tracked _ 0 1 r) as [[b r1]| |]; cbn [bind fst snd]; try reflexivity. destruct b; [reflexivity|apply IH].
Qed.

Lemma add_rrsets_tracks o sec : forall l r, add_rrsets o sec l r = tracks (map (rr_step o sec) l) r.
Proof.
  induction l as [|rs l IH]; intros r; [reflexivity|].
  cbn [add_rrsets map tracks]. rewrite add_rrset_tracked.
  change (run_step (rr_step o sec rs) r) with (tracked (rrset_em rs o true) sec (rrset_count rs) r).
  destruct (tracked _ sec _ r) as [[b r1]| |]; cbn [bind fst snd]; try reflexivity. destruct b; [reflexivity|apply IH].
Qed.

Definition secs_steps (o : option name) (q a u d : list rrset) : list step :=
  map (q_step o) q ++ map (rr_step o 1) a ++ map (rr_step o 2) u ++ map (rr_step o 3) d.
Definition body_steps (o : option name) (m : msg) : list step := secs_steps o (mq m) (man m) (mau m) (mad m).

Lemma secs_steps_ext o q a u d : Forall ext_step (secs_steps o q a u d).
Proof.
  unfold secs_steps. rewrite !Forall_app, !Forall_map. repeat split; apply Forall_forall; intros rs _.
  - apply ext_q_em.
  - apply ext_rrset_em.
  - apply ext_rrset_em.
  - apply ext_rrset_em.
Qed.

(* Message.to_wire = start; section loops; overflow; finish *)
Definition rst0 (flags e : Z) : rst := mkRst (repeat 0 12) [] 0 0 0 0 0 flags e 0 false.

(* the two reserves; returns the TSIG reserve too *)
Definition start (m : msg) (e pad : Z) : res (Z * rst) :=
  do r1 <- reserve (compute_opt_reserve m pad) (rst0 (mflags m) e);
  do tr <- compute_tsig_reserve m;
  do r2 <- reserve tr r1;
  Ok (tr, r2).

Definition overflow (prefer : bool) (br : bool * rst) : res rst :=
  if fst br then
    if prefer then Ok (if rsec (snd br) <? 3 then set_rflags (snd br) (Z.lor (rflags (snd br)) fTC) else snd br)
    else Lib eTooBig
  else Ok (snd br).

Definition finish (m : msg) (origin : option name) (pad ores tres : Z) (r3 : rst) : res rst :=
  let r4 := release_reserved r3 in
  do r5 <- match mopt m with
           | Some o => do br <- add_opt origin o pad ores tres r4; raise_if_big br
           | None => Ok r4
           end;
  do r6 <- write_header (mid m) r5;
  match mtsig m with
  | Some (kn, rd) =>
      do br <- write_tsig origin kn rd r6;
      do r7 <- raise_if_big br;
      write_header (mid m) r7
  | None => Ok r6
  end.

Lemma to_wire_st_eq m o ms rp prefer pad :
  to_wire_st m o ms rp prefer pad =
  do ts <- start m (eff_limit ms rp) pad;
  do b4 <- tracks (body_steps o m) (snd ts);
  do r3 <- overflow prefer b4;
  finish m o pad (compute_opt_reserve m pad) (fst ts) r3.
Proof.
  unfold to_wire_st, start, rst0, body_steps, secs_steps.
  destruct (reserve _ _) as [r1| |]; cbn [bind]; try reflexivity.
  destruct (compute_tsig_reserve m) as [tr| |]; cbn [bind]; try reflexivity.
  destruct (reserve tr r1) as [r2| |]; cbn [bind fst snd]; try reflexivity.
  rewrite tracks_app, <- add_questions_tracks.
  destruct (add_questions o (mq m) r2) as [[[|] s1]| |]; cbn [bind fst snd]; try reflexivity.
  rewrite tracks_app, <- add_rrsets_tracks.
  destruct (add_rrsets o 1 (man m) s1) as [[[|] s2]| |]; cbn [bind fst snd]; try reflexivity.
  rewrite tracks_app, <- add_rrsets_tracks.
  destruct (add_rrsets o 2 (mau m) s2) as [[[|] s3]| |]; cbn [bind fst snd]; try reflexivity.
  rewrite <- add_rrsets_tracks.
  destruct (add_rrsets o 3 (mad m) s3) as [[b4 s4]| |]; cbn [bind fst snd]; reflexivity.
Qed.

Lemma fold_reserve_nonneg : forall (os : list (Z * list Z)) a, 0 <= a ->
  0 <= fold_left (fun acc cd => acc + zlen (snd cd) + 4) os a.
Proof.
  induction os as [|cd os IH]; intros a Ha; [exact Ha|]. cbn [fold_left]. apply IH.
  pose proof (zlen_nonneg (snd cd)). lia.
Qed.

Lemma compute_opt_reserve_nonneg m pad : 0 <= compute_opt_reserve m pad.
Proof.
  unfold compute_opt_reserve. destruct (mopt m) as [o|]; [|lia].
  pose proof (fold_reserve_nonneg (oopts o) 11 ltac:(lia)). destruct (pad =? 0); lia.
Qed.

(* Renderer.reserve succeeds exactly when the size is within what is left *)
Lemma reserve_iff size r r' :
  reserve size r = Ok r' <-> 0 <= size <= maxsz r /\ r' = set_limits r (maxsz r - size) (reserved r + size).
Proof.
  unfold reserve. destruct (Z.ltb_spec size 0); [split; [discriminate|lia]|].
  destruct (Z.gtb_spec size (maxsz r)); [split; [discriminate|lia]|].
  split; [intros H'; injection H' as <-; split; [lia|reflexivity]|intros (_ & ->); reflexivity].
Qed.

(* the state after the reserves: nothing written, the limit lowered by what was reserved *)
Lemma start_iff m e pad tr r2 :
  start m e pad = Ok (tr, r2) <->
  compute_tsig_reserve m = Ok tr /\ 0 <= tr /\ compute_opt_reserve m pad + tr <= e /\
  r2 = mkRst (repeat 0 12) [] 0 0 0 0 0 (mflags m) (e - compute_opt_reserve m pad - tr) (compute_opt_reserve m pad + tr) false.
Proof.
  pose proof (compute_opt_reserve_nonneg m pad) as NN. unfold start. split.
  - intros H. apply bind_ok in H. destruct H as (r1 & R1 & H). apply bind_ok in H. destruct H as (tr' & TR & H).
    apply bind_ok in H. destruct H as (r2' & R2 & H). injection H as -> ->.
    apply reserve_iff in R1, R2. destruct R1 as (B1 & ->), R2 as (B2 & ->). cbn [maxsz reserved set_limits rst0] in *.
    split; [exact TR|]. split; [lia|]. split; [lia|]. unfold set_limits, rst0. cbn. f_equal; lia.
  - intros (TR & Htr & Hle & ->). unfold reserve. cbn [maxsz reserved rst0].
    destruct (Z.ltb_spec (compute_opt_reserve m pad) 0); [lia|].
    destruct (Z.gtb_spec (compute_opt_reserve m pad) e); [lia|]. cbn [bind]. rewrite TR. cbn [bind maxsz reserved set_limits].
    destruct (Z.ltb_spec tr 0); [lia|]. destruct (Z.gtb_spec tr (e - compute_opt_reserve m pad)); [lia|].
    unfold set_limits. cbn. apply f_equal. apply f_equal. f_equal; lia.
Qed.

(* Renderer.write_header: the twelve octets are replaced, nothing else changes *)
Lemma write_header_iff id r r' :
  write_header id r = Ok r' <->
  (0 <= id <= 65535 /\ 0 <= rflags r <= 65535 /\ 0 <= cq r <= 65535 /\ 0 <= can r <= 65535 /\
   0 <= cau r <= 65535 /\ 0 <= cad r <= 65535) /\
  r' = set_out r (MessageM.u16 id ++ MessageM.u16 (rflags r) ++ MessageM.u16 (cq r) ++ MessageM.u16 (can r) ++
                  MessageM.u16 (cau r) ++ MessageM.u16 (cad r) ++ skipn 12 (out r)) (tbl r).
Proof.
  unfold write_header. split.
  - intros H.
    apply bind_ok in H. destruct H as (a & Ea & H). apply bind_ok in H. destruct H as (b & Eb & H).
    apply bind_ok in H. destruct H as (c0 & E0 & H). apply bind_ok in H. destruct H as (c1 & E1 & H).
    apply bind_ok in H. destruct H as (c2 & E2 & H). apply bind_ok in H. destruct H as (c3 & E3 & H).
    apply pack16_ok in Ea, Eb, E0, E1, E2, E3.
    destruct Ea as (-> & ?), Eb as (-> & ?), E0 as (-> & ?), E1 as (-> & ?), E2 as (-> & ?), E3 as (-> & ?).
    injection H as <-. auto 10.
  - intros ((H0 & H1 & H2 & H3 & H4 & H5) & ->).
    rewrite !pack16_range by assumption. reflexivity.
Qed.

