(* C17 - linearizability of an object whose every method body is one critical section.

   Threads call methods of one shared object.  A call goes through five steps:
     LInv t c      thread t invokes method c                     (history event)
     LAcq t        t enters `with self.lock:`  (only if the lock is free)
     LBody t c ds  t executes the method body; ds = time passing at its clock reads
     LRel t        t leaves the with block
     LRes t c r    the call returns r to t                       (history event)
   and time may pass at any point (LEnv d).  Steps of different threads interleave arbitrarily.
   That a method body is exactly one such critical section is the premise of
   `guarded_linearizable` (Proofs/CacheGuard.v), discharged on dns/resolver.py by the AST guard
   in harness/pC17.py.

   Theorems: mutual exclusion; the state and clock after ANY execution are those of the
   sequential history made of the bodies in the order in which they ran (with the same clock
   increments), every response is the result that sequential history gives to that call, and
   every thread goes through Inv, Acq, Body, Rel, Res in this order.  Proofs/CacheOrder.v derives
   from the last that a call's body lies between its invocation and its response (so the
   sequential order respects real-time precedence: the history is linearizable) and that the
   bodies run in lock-acquisition order.  The end of the file applies the sequential theorems of
   Proofs/CacheThm.v to the states concurrent threads can reach. *)
From DV Require Import Base.Prelude Model.CacheM.

Section Conc.
  Context {St : Type}.
  Variable step : call -> St -> clk -> res (ret * St * clk).

  Inductive phase :=
  | Idle
  | Waiting (c : call)
  | Holding (c : call)
  | Finished (c : call) (r : ret)
  | Released (c : call) (r : ret).

  Record conf := mkConf {
    cf_obj : St;
    cf_now : Z;
    cf_lock : option nat;
    cf_ph : nat -> phase }.

  Inductive label :=
  | LInv (t : nat) (c : call)
  | LAcq (t : nat)
  | LBody (t : nat) (c : call) (ds : list Z)
  | LRel (t : nat)
  | LRes (t : nat) (c : call) (r : ret)
  | LEnv (d : Z).

  Definition upd (f : nat -> phase) (t : nat) (p : phase) : nat -> phase :=
    fun x => if Nat.eqb x t then p else f x.

  Definition call_eqb (a b : call) : bool :=
    match a, b with
    | Get x, Get y => x =? y
    | Put x v, Put y w => (x =? y) && (a_id v =? a_id w) && (a_exp v =? a_exp w)
    | Flush None, Flush None => true
    | Flush (Some x), Flush (Some y) => x =? y
    | SetMax x, SetMax y => x =? y
    | HitsFor x, HitsFor y => x =? y
    | Hits, Hits | Misses, Misses | Snapshot, Snapshot | ResetStats, ResetStats => true
    | _, _ => false
    end.

  (* the transition relation *)
  Inductive cstep : conf -> label -> conf -> Prop :=
  | S_inv : forall cf t c, cf_ph cf t = Idle ->
      cstep cf (LInv t c) (mkConf (cf_obj cf) (cf_now cf) (cf_lock cf) (upd (cf_ph cf) t (Waiting c)))
  | S_acq : forall cf t c, cf_ph cf t = Waiting c -> cf_lock cf = None ->
      cstep cf (LAcq t) (mkConf (cf_obj cf) (cf_now cf) (Some t) (upd (cf_ph cf) t (Holding c)))
  | S_body : forall cf t c ds r s' k', cf_ph cf t = Holding c -> cf_lock cf = Some t ->
      Forall (fun d => 0 <= d) ds ->
      step c (cf_obj cf) (mkClk (cf_now cf) ds) = Ok (r, s', k') ->
      cstep cf (LBody t c ds) (mkConf s' (now k') (cf_lock cf) (upd (cf_ph cf) t (Finished c r)))
  | S_rel : forall cf t c r, cf_ph cf t = Finished c r -> cf_lock cf = Some t ->
      cstep cf (LRel t) (mkConf (cf_obj cf) (cf_now cf) None (upd (cf_ph cf) t (Released c r)))
  | S_res : forall cf t c r, cf_ph cf t = Released c r ->
      cstep cf (LRes t c r) (mkConf (cf_obj cf) (cf_now cf) (cf_lock cf) (upd (cf_ph cf) t Idle))
  | S_env : forall cf d, 0 <= d ->
      cstep cf (LEnv d) (mkConf (cf_obj cf) (cf_now cf + d) (cf_lock cf) (cf_ph cf)).

  Inductive exec : conf -> list label -> conf -> Prop :=
  | E_nil : forall cf, exec cf [] cf
  | E_cons : forall cf l cf1 ls cf2, cstep cf l cf1 -> exec cf1 ls cf2 -> exec cf (l :: ls) cf2.

  Definition init_conf (s : St) (t0 : Z) : conf := mkConf s t0 None (fun _ => Idle).

  Fixpoint witness (ls : list label) : list item :=
    match ls with
    | [] => []
    | LBody _ c ds :: r => Call c ds :: witness r
    | LEnv d :: r => Adv d :: witness r
    | _ :: r => witness r
    end.

  (* thread ids of the witness items (None for time passing) *)
  Fixpoint witness_tid (ls : list label) : list (option nat) :=
    match ls with
    | [] => []
    | LBody t _ _ :: r => Some t :: witness_tid r
    | LEnv _ :: r => None :: witness_tid r
    | _ :: r => witness_tid r
    end.

  Definition in_cs (p : phase) : bool :=
    match p with Holding _ | Finished _ _ => true | _ => false end.

  Definition mutex_inv (cf : conf) : Prop :=
    forall t, in_cs (cf_ph cf t) = true <-> cf_lock cf = Some t.

  Lemma upd_same : forall f t p, upd f t p t = p.
  Proof. intros. unfold upd. rewrite Nat.eqb_refl. reflexivity. Qed.
  Lemma upd_other : forall f t p x, x <> t -> upd f t p x = f x.
  Proof. intros f t p x H. unfold upd. destruct (Nat.eqb_spec x t); [congruence|reflexivity]. Qed.

  (* a phase change that an observation F of phases does not see *)
  Lemma upd_unseen : forall {A} (F : phase -> A) f u p t, F p = F (f u) -> F (upd f u p t) = F (f t).
  Proof. intros A F f u p t H. unfold upd. destruct (Nat.eqb_spec t u) as [->|]; auto. Qed.

  Lemma mutex_step : forall cf l cf', cstep cf l cf' -> mutex_inv cf -> mutex_inv cf'.
  Proof.
    intros cf l cf' Hs HI. unfold mutex_inv in *.
    destruct Hs as [cf t c Hph | cf t c Hph Hl | cf t c ds r s' k' Hph Hl Hds Hst
                    | cf t c r Hph Hl | cf t c r Hph | cf d Hd]; cbn [cf_ph cf_lock]; intros x;
      (* only acquisition and release change who is inside and who holds the lock *)
      try (rewrite (upd_unseen in_cs) by (rewrite Hph; reflexivity)); try apply HI;
      unfold upd; destruct (Nat.eqb_spec x t) as [->|Hne]; cbn; rewrite ?HI; split; congruence.
  Qed.

  Lemma mutex_exec : forall cf ls cf', exec cf ls cf' -> mutex_inv cf -> mutex_inv cf'.
  Proof. induction 1; intros HI; [exact HI|]. apply IHexec. eapply mutex_step; eauto. Qed.

  (* at most one thread is inside a method body at any time *)
  Theorem mutual_exclusion : forall s t0 ls cf t1 t2,
    exec (init_conf s t0) ls cf ->
    in_cs (cf_ph cf t1) = true -> in_cs (cf_ph cf t2) = true -> t1 = t2.
  Proof.
    intros s t0 ls cf t1 t2 He H1 H2.
    assert (HI : mutex_inv cf).
    { eapply mutex_exec; [exact He|]. intros x. cbn. split; discriminate. }
    apply HI in H1. apply HI in H2. congruence.
  Qed.

  (* results of thread t's bodies in a sequential run *)
  Fixpoint thread_results (t : nat) (tids : list (option nat)) (rs : list (option ret)) : list ret :=
    match tids, rs with
    | Some t' :: tids', Some r :: rs' =>
        if Nat.eqb t' t then r :: thread_results t tids' rs' else thread_results t tids' rs'
    | _ :: tids', _ :: rs' => thread_results t tids' rs'
    | _, _ => []
    end.

  (* what was returned to thread t, in order *)
  Fixpoint responses (t : nat) (ls : list label) : list ret :=
    match ls with
    | [] => []
    | LRes t' _ r :: rest => if Nat.eqb t' t then r :: responses t rest else responses t rest
    | _ :: rest => responses t rest
    end.

  (* a body result computed but not yet returned *)
  Definition pending (p : phase) : list ret :=
    match p with Finished _ r | Released _ r => [r] | _ => [] end.

  (* the state is that of the sequential witness, and what a thread has been given plus what is
     on its way is what the witness computes for it *)
  Lemma witness_run : forall cf ls cf', exec cf ls cf' ->
    exists rs, wrun step (witness ls) (cf_obj cf, cf_now cf) = Ok (rs, (cf_obj cf', cf_now cf')) /\
      forall t, pending (cf_ph cf t) ++ thread_results t (witness_tid ls) rs =
                responses t ls ++ pending (cf_ph cf' t).
  Proof.
    induction 1 as [cf|cf l cf1 ls cf2 Hs He (rs & Hrun & Hres)].
    - exists []. split; [reflexivity|]. intros t. cbn. rewrite app_nil_r. reflexivity.
    - destruct Hs as [cf u c Hph | cf u c Hph Hl | cf u c ds r s' k' Hph Hl Hds Hst
                      | cf u c r Hph Hl | cf u c r Hph | cf d Hd];
        cbn [witness witness_tid responses cf_obj cf_now cf_ph] in *;
        (* invocation, acquisition and release show neither in the witness nor in `pending` *)
        try (exists rs; split; [exact Hrun|]; intros t; rewrite <- Hres;
             rewrite (upd_unseen pending) by (rewrite Hph; reflexivity); reflexivity).
      + exists (Some r :: rs). split.
        { cbn [wrun wstep fst snd]. rewrite Hst. cbn [bind snd fst]. rewrite Hrun. reflexivity. }
        intros t. specialize (Hres t). unfold upd in Hres. cbn [thread_results].
        rewrite (Nat.eqb_sym u t). destruct (Nat.eqb t u) eqn:E; [|exact Hres].
        apply Nat.eqb_eq in E. subst t. rewrite Hph. exact Hres.
      + exists rs. split; [exact Hrun|]. intros t. specialize (Hres t). unfold upd in Hres.
        rewrite (Nat.eqb_sym u t). destruct (Nat.eqb t u) eqn:E; [|exact Hres].
        apply Nat.eqb_eq in E. subst t. rewrite Hph. cbn [pending app] in *. rewrite <- Hres. reflexivity.
      + exists (None :: rs). split; [|exact Hres].
        cbn [wrun wstep fst snd bind]. rewrite Hrun. reflexivity.
  Qed.

  (* Linearizability, state and results: after ANY interleaving the shared object and the clock
     are those of the sequential history `witness ls` (the bodies in the order in which the
     threads held the lock), and what each thread got back is what that sequential history
     returns to it (the last result may still be on its way). *)
  Theorem linearizable : forall s t0 ls cf,
    exec (init_conf s t0) ls cf ->
    exists rs,
      wrun step (witness ls) (s, t0) = Ok (rs, (cf_obj cf, cf_now cf)) /\
      forall t, thread_results t (witness_tid ls) rs = responses t ls ++ pending (cf_ph cf t).
  Proof. intros s t0 ls cf He. exact (witness_run _ _ _ He). Qed.

  (* real-time order: each call of a thread is Inv, Acq, Body, Rel, Res in this order
     and calls of one thread do not overlap, so a call's body (its place in the sequential
     witness) lies between its invocation and its response. *)
  Inductive tstate := TIdle | TWait (c : call) | THold (c : call) | TFin (c : call) | TRel (c : call).

  Definition abs_phase (p : phase) : tstate :=
    match p with
    | Idle => TIdle | Waiting c => TWait c | Holding c => THold c
    | Finished c _ => TFin c | Released c _ => TRel c
    end.

  (* the per-thread protocol automaton; labels of other threads and of the clock are skipped *)
  Definition tnext (t : nat) (st : tstate) (l : label) : option tstate :=
    match l with
    | LInv t' c => if Nat.eqb t' t then match st with TIdle => Some (TWait c) | _ => None end else Some st
    | LAcq t' => if Nat.eqb t' t then match st with TWait c => Some (THold c) | _ => None end else Some st
    | LBody t' c _ =>
        if Nat.eqb t' t then match st with THold c' => if call_eqb c c' then Some (TFin c) else None | _ => None end
        else Some st
    | LRel t' => if Nat.eqb t' t then match st with TFin c => Some (TRel c) | _ => None end else Some st
    | LRes t' c _ =>
        if Nat.eqb t' t then match st with TRel c' => if call_eqb c c' then Some TIdle else None | _ => None end
        else Some st
    | LEnv _ => Some st
    end.

  Fixpoint trun (t : nat) (st : tstate) (ls : list label) : option tstate :=
    match ls with
    | [] => Some st
    | l :: r => match tnext t st l with Some st' => trun t st' r | None => None end
    end.

  Lemma call_eqb_refl : forall c, call_eqb c c = true.
  Proof.
    destruct c as [k|k v|[k|]|m|k| | | |]; cbn; rewrite ?Z.eqb_refl; reflexivity.
  Qed.

  Lemma tnext_step : forall cf l cf' t, cstep cf l cf' ->
    tnext t (abs_phase (cf_ph cf t)) l = Some (abs_phase (cf_ph cf' t)).
  Proof.
    intros cf l cf' t Hs.
    destruct Hs as [cf u c Hph | cf u c Hph Hl | cf u c ds r s' k' Hph Hl Hds Hst
                   | cf u c r Hph Hl | cf u c r Hph | cf d Hd]; cbn [tnext cf_ph];
      try reflexivity;
      unfold upd; rewrite (Nat.eqb_sym t u);
      (destruct (Nat.eqb_spec u t) as [->|]; [rewrite Hph; cbn; rewrite ?call_eqb_refl|]; reflexivity).
  Qed.

  Lemma trun_exec : forall cf ls cf' t, exec cf ls cf' ->
    trun t (abs_phase (cf_ph cf t)) ls = Some (abs_phase (cf_ph cf' t)).
  Proof.
    intros cf ls cf' t He. induction He as [cf|cf l cf1 ls cf2 Hs He IH]; [reflexivity|].
    cbn [trun]. rewrite (tnext_step _ _ _ t Hs). exact IH.
  Qed.

  Theorem thread_protocol : forall s t0 ls cf t,
    exec (init_conf s t0) ls cf -> trun t TIdle ls = Some (abs_phase (cf_ph cf t)).
  Proof. intros s t0 ls cf t He. exact (trun_exec _ _ _ t He). Qed.
End Conc.

Section Run.
  Context {St : Type}.
  Variable step : call -> St -> clk -> res (ret * St * clk).

  Definition cstep_fun (l : label) (cf : conf) : option (@conf St) :=
    match l with
    | LInv t c =>
        match cf_ph cf t with
        | Idle => Some (mkConf (cf_obj cf) (cf_now cf) (cf_lock cf) (upd (cf_ph cf) t (Waiting c)))
        | _ => None
        end
    | LAcq t =>
        match cf_ph cf t, cf_lock cf with
        | Waiting c, None => Some (mkConf (cf_obj cf) (cf_now cf) (Some t) (upd (cf_ph cf) t (Holding c)))
        | _, _ => None
        end
    | LBody t c ds =>
        match cf_ph cf t, cf_lock cf with
        | Holding c', Some t' =>
            if call_eqb c c' && Nat.eqb t t' && forallb (fun d => 0 <=? d) ds then
              match step c' (cf_obj cf) (mkClk (cf_now cf) ds) with
              | Ok (r, s', k') => Some (mkConf s' (now k') (cf_lock cf) (upd (cf_ph cf) t (Finished c' r)))
              | _ => None
              end
            else None
        | _, _ => None
        end
    | LRel t =>
        match cf_ph cf t, cf_lock cf with
        | Finished c r, Some t' =>
            if Nat.eqb t t' then Some (mkConf (cf_obj cf) (cf_now cf) None (upd (cf_ph cf) t (Released c r)))
            else None
        | _, _ => None
        end
    | LRes t _ _ =>
        match cf_ph cf t with
        | Released c r => Some (mkConf (cf_obj cf) (cf_now cf) (cf_lock cf) (upd (cf_ph cf) t Idle))
        | _ => None
        end
    | LEnv d => if 0 <=? d then Some (mkConf (cf_obj cf) (cf_now cf + d) (cf_lock cf) (cf_ph cf)) else None
    end.

  (* the labels as the scheduler resolves them (method and result filled in from the state) *)
  Definition relabel (l : label) (cf : @conf St) : label :=
    match l with
    | LBody t _ ds => match cf_ph cf t with Holding c => LBody t c ds | _ => l end
    | LRes t _ _ => match cf_ph cf t with Released c r => LRes t c r | _ => l end
    | _ => l
    end.

  Fixpoint exec_fun (ls : list label) (cf : conf) : option (list label * @conf St) :=
    match ls with
    | [] => Some ([], cf)
    | l :: r =>
        match cstep_fun l cf with
        | Some cf1 => match exec_fun r cf1 with
                      | Some (ls', cf2) => Some (relabel l cf :: ls', cf2)
                      | None => None
                      end
        | None => None
        end
    end.

  Lemma cstep_fun_sound : forall l cf cf', cstep_fun l cf = Some cf' -> cstep step cf (relabel l cf) cf'.
  Proof.
    intros l cf cf' H. destruct l as [t c|t|t c ds|t|t c r|d]; cbn [cstep_fun relabel] in *;
      try (destruct (cf_ph cf t) eqn:E; try discriminate).
    - injection H as <-. apply S_inv. exact E.
    - destruct (cf_lock cf) eqn:EL; try discriminate. injection H as <-. eapply S_acq; eassumption.
    - destruct (cf_lock cf) as [t'|] eqn:EL; try discriminate.
      destruct (call_eqb c c0 && Nat.eqb t t' && forallb (fun d => 0 <=? d) ds) eqn:EB; try discriminate.
      apply andb_true_iff in EB. destruct EB as [EB E3]. apply andb_true_iff in EB. destruct EB as [_ E2].
      apply Nat.eqb_eq in E2. subst t'.
      destruct (step c0 (cf_obj cf) (mkClk (cf_now cf) ds)) as [[[r s'] k']| |] eqn:ES; try discriminate.
      injection H as <-. rewrite <- EL. eapply S_body; try eassumption.
      rewrite forallb_forall in E3. apply Forall_forall. intros x Hx. apply Z.leb_le. auto.
    - destruct (cf_lock cf) as [t'|] eqn:EL; try discriminate.
      destruct (Nat.eqb_spec t t') as [<-|]; try discriminate.
      injection H as <-. eapply S_rel; eassumption.
    - injection H as <-. eapply S_res; eassumption.
    - destruct (Z.leb_spec 0 d); try discriminate. injection H as <-. apply S_env. assumption.
  Qed.

  Lemma exec_fun_sound : forall ls cf ls' cf', exec_fun ls cf = Some (ls', cf') -> exec step cf ls' cf'.
  Proof.
    induction ls as [|l ls IH]; intros cf ls' cf' H; cbn in H.
    - inversion H; subst. constructor.
    - destruct (cstep_fun l cf) as [cf1|] eqn:E1; try discriminate.
      destruct (exec_fun ls cf1) as [[ls2 cf2]|] eqn:E2; try discriminate.
      inversion H; subst. econstructor; [apply cstep_fun_sound; exact E1|apply IH; exact E2].
  Qed.
End Run.

From DV Require Import Model.CacheSpecM Proofs.CacheRing Proofs.CacheDict Proofs.CacheLru Proofs.CacheSpec Proofs.CacheThm.

Lemma witness_mono : forall {St} (step : call -> St -> clk -> res (ret * St * clk)) cf ls cf',
  exec step cf ls cf' -> mono (witness ls).
Proof.
  intros St step cf ls cf' He. induction He as [cf|cf l cf1 ls cf2 Hs He IH]; [constructor|].
  destruct Hs; cbn [witness]; try exact IH; constructor; auto.
Qed.

(* every state that concurrent threads can drive an LRUCache into is a state of some
   sequential history, so all sequential theorems hold under concurrency *)
Lemma conc_lru_reach : forall m t0 c0 ls cf,
  lru_init m = Ok c0 -> exec lru_step (init_conf c0 t0) ls cf ->
  exists g, lru_reach m t0 (witness ls) g (cf_obj cf, cf_now cf) /\ mono (witness ls).
Proof.
  intros m t0 c0 ls cf H0 He.
  destruct (linearizable lru_step c0 t0 ls cf He) as [rs [Hrs _]].
  destruct (wrun_grun lru_step lru_gupd _ _ _ _ lghost0 Hrs) as [g Hg].
  exists g. split; [exists c0; auto|]. eapply witness_mono; eauto.
Qed.

Lemma conc_lru_bound_l : forall m t0 c0 ls cf,
  lru_init m = Ok c0 -> exec lru_step (init_conf c0 t0) ls cf ->
  zlen (l_dict (cf_obj cf)) <= l_max (cf_obj cf).
Proof.
  intros m t0 c0 ls cf H0 He. destruct (conc_lru_reach _ _ _ _ _ H0 He) as [g [Hr Hm]].
  apply (lru_bound_l _ _ _ _ _ Hm Hr).
Qed.

(* no method body ever raises in a concurrent execution: a thread holding the lock can always
   complete its body *)
Lemma conc_lru_progress_l : forall m t0 c0 ls cf t c ds,
  lru_init m = Ok c0 -> exec lru_step (init_conf c0 t0) ls cf ->
  cf_ph cf t = Holding c -> cf_lock cf = Some t -> nonneg ds ->
  exists cf', cstep lru_step cf (LBody t c ds) cf'.
Proof.
  intros m t0 c0 ls cf t c ds H0 He Hph Hl Hn.
  destruct (conc_lru_reach _ _ _ _ _ H0 He) as [g [Hr Hm]].
  destruct (linv_item (Call c ds) _ g (reach_inv _ _ _ _ _ Hm Hr) Hn) as [x [E _]].
  cbn [wstep fst snd] in E.
  destruct (lru_step c (cf_obj cf) (mkClk (cf_now cf) ds)) as [[[r s'] k']| |] eqn:Es; try discriminate.
  eexists. eapply S_body; eauto.
Qed.

(* under concurrency a lookup still returns exactly the ideal answer: the ideal map is that of
   the sequential witness of the execution so far *)
Lemma conc_lru_get_l : forall m t0 c0 ls cf t key ds cf',
  lru_init m = Ok c0 -> exec lru_step (init_conf c0 t0) ls cf ->
  cstep lru_step cf (LBody t (Get key) ds) cf' ->
  exists g r, lru_reach m t0 (witness ls) g (cf_obj cf, cf_now cf) /\
              cf_ph cf' t = Finished (Get key) r /\
              r = expected (fst g) key (cf_now cf').
Proof.
  intros m t0 c0 ls cf t key ds cf' H0 He Hs.
  destruct (conc_lru_reach _ _ _ _ _ H0 He) as [g [Hr Hm]].
  inversion Hs as [| |cf0 u c ds0 r s' k' Hph Hl Hds Hst| | |]; subst.
  exists g, r. split; [exact Hr|]. cbn [cf_ph cf_now]. split; [apply upd_same|].
  apply (lru_get_l m t0 (witness ls) g (cf_obj cf, cf_now cf) key ds r (s', now k') Hm Hr Hds).
  cbn [wstep fst snd]. rewrite Hst. reflexivity.
Qed.
