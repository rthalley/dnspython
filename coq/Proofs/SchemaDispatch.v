(* get_rdata_class: for every history of lookups and load_all_types calls that never asks for
   class ANY of a type that exists only for specific classes, every lookup returns the
   history-free answer (own module, else ANY module, else GenericRdata).  The excluded
   history is a genuine upstream defect (known finding): dispatch_any_first_refuted_thm. *)
From DV Require Import Base.Prelude Model.DispatchM.
Open Scope Z_scope.

Lemma key_eqb_eq : forall a b, key_eqb a b = true <-> a = b.
Proof.
  intros [a1 a2] [b1 b2]. unfold key_eqb. cbn [fst snd]. rewrite andb_true_iff, !Z.eqb_eq.
  split; [intros [-> ->]; reflexivity|intros H; inversion H; auto].
Qed.

Lemma cache_get_set : forall c k i k',
  cache_get (cache_set c k i) k' = if key_eqb k' k then Some i else cache_get c k'.
Proof. reflexivity. Qed.

Lemma cache_get_set_same : forall c k i, cache_get (cache_set c k i) k = Some i.
Proof. intros. rewrite cache_get_set. replace (key_eqb k k) with true; [reflexivity|]. symmetry. apply key_eqb_eq. reflexivity. Qed.

(* setting a key that was unbound keeps every existing binding *)
Lemma cache_set_mono : forall c k i k' j,
  cache_get c k = None -> cache_get c k' = Some j -> cache_get (cache_set c k i) k' = Some j.
Proof.
  intros c k i k' j Hn Hs. rewrite cache_get_set. destruct (key_eqb k' k) eqn:E; [|exact Hs].
  apply key_eqb_eq in E. subst. congruence.
Qed.

Section Dispatch.
  Variable mods : list key.
  Variable all_types : list Z.

  (* no type has both a class-specific and a class-independent module *)
  Definition mods_ok : bool :=
    forallb (fun k => (fst k =? cANY) || negb (has_module mods cANY (snd k))) mods.
  (* load_all_types reaches every module: IN and ANY modules through the RdataType members,
     and the one CH module (A) explicitly *)
  Definition loadable : bool :=
    forallb (fun k => (((fst k =? cIN) || (fst k =? cANY)) && existsb (Z.eqb (snd k)) all_types)
                      || key_eqb k (cCH, 1)) mods.

  Definition type_has_module (t : Z) : bool := existsb (fun k => snd k =? t) mods.
  (* the poisoning lookup: class ANY for a type without ANY module but with some other module *)
  Definition safe_query (c t : Z) : bool :=
    negb (c =? cANY) || has_module mods cANY t || negb (type_has_module t).
  Definition safe_step (s : step) : bool :=
    match s with Query c t => safe_query c t | LoadAll _ => true end.

  Hypothesis Hmods : mods_ok = true.
  Hypothesis Hload : loadable = true.

  Lemma has_module_in : forall d t, has_module mods d t = true <-> In (d, t) mods.
  Proof.
    intros d t. induction mods as [|k r IH]; cbn [has_module In]; [split; [discriminate|tauto]|].
    rewrite orb_true_iff, key_eqb_eq, IH. split; intros [H|H]; auto.
  Qed.

  Lemma mods_sep : forall c t, c <> cANY -> has_module mods c t = true -> has_module mods cANY t = false.
  Proof.
    intros c t Hc H. apply has_module_in in H.
    unfold mods_ok in Hmods. rewrite forallb_forall in Hmods. specialize (Hmods _ H). cbn [fst snd] in Hmods.
    apply orb_prop in Hmods as [E|E]; [apply Z.eqb_eq in E; contradiction|].
    destruct (has_module mods cANY t); [discriminate|reflexivity].
  Qed.

  Lemma has_module_type : forall d t, has_module mods d t = true -> type_has_module t = true.
  Proof.
    intros d t H. apply has_module_in in H. unfold type_has_module. apply existsb_exists.
    exists (d, t). split; [exact H|apply Z.eqb_refl].
  Qed.

  Definition covered (st : dstate) (d t : Z) : Prop := cache_get (cache st) (d, t) = Some (Typed d t).

  Record Inv (st : dstate) : Prop := {
    inv_val : forall c t i, cache_get (cache st) (c, t) = Some i -> i = stateless mods c t;
    inv_gen : forall t, cache_get (cache st) (cANY, t) = Some Generic -> type_has_module t = false;
    inv_any : forall c t, cache_get (cache st) (c, t) = Some (Typed cANY t) -> covered st cANY t;
    inv_full : dyn st = false -> forall d t, has_module mods d t = true -> covered st d t
  }.

  Lemma inv_init : Inv init_state.
  Proof. split; cbn; intros; discriminate. Qed.

  Lemma stateless_own : forall c t, has_module mods c t = true -> stateless mods c t = Typed c t.
  Proof. intros c t H. unfold stateless. rewrite H. reflexivity. Qed.

  Lemma stateless_any : forall c t, has_module mods cANY t = true -> stateless mods c t = Typed cANY t.
  Proof.
    intros c t H. unfold stateless. destruct (has_module mods c t) eqn:E.
    - destruct (Z.eq_dec c cANY) as [->|Hc]; [reflexivity|].
      rewrite (mods_sep c t Hc E) in H. discriminate.
    - rewrite H. reflexivity.
  Qed.

  Lemma stateless_none : forall c t, type_has_module t = false -> stateless mods c t = Generic.
  Proof.
    intros c t H. unfold stateless.
    destruct (has_module mods c t) eqn:E1; [apply has_module_type in E1; congruence|].
    destruct (has_module mods cANY t) eqn:E2; [apply has_module_type in E2; congruence|reflexivity].
  Qed.

  Lemma stateless_typed_inv : forall c t d t', stateless mods c t = Typed d t' ->
    t' = t /\ has_module mods d t = true /\ (d = c \/ (d = cANY /\ has_module mods c t = false)).
  Proof.
    intros c t d t' H. unfold stateless in H.
    destruct (has_module mods c t) eqn:E1; [inversion H; subst; auto|].
    destruct (has_module mods cANY t) eqn:E2; [inversion H; subst; auto|discriminate].
  Qed.

  (* the state after the "both cache probes missed" branch, and the answer *)
  Definition miss_result (ug : bool) (st : dstate) (c t : Z) : option impl * dstate :=
    if dyn st then
      if has_module mods c t then
        (Some (Typed c t), mk_dstate (cache_set (cache st) (c, t) (Typed c t)) (dyn st))
      else if has_module mods cANY t then
        (Some (Typed cANY t),
         mk_dstate (cache_set (cache_set (cache st) (cANY, t) (Typed cANY t)) (c, t) (Typed cANY t)) (dyn st))
      else if ug then (Some Generic, mk_dstate (cache_set (cache st) (c, t) Generic) (dyn st))
      else (None, st)
    else if ug then (Some Generic, mk_dstate (cache_set (cache st) (c, t) Generic) (dyn st))
    else (None, st).

  Lemma get_class_cases : forall ug st c t,
    get_class mods ug st c t =
    match cache_get (cache st) (c, t) with
    | Some i => (Some i, st)
    | None => match cache_get (cache st) (cANY, t) with
              | Some i => (Some i, st)
              | None => miss_result ug st c t
              end
    end.
  Proof.
    intros. unfold get_class, miss_result.
    destruct (cache_get (cache st) (c, t)); [reflexivity|].
    destruct (cache_get (cache st) (cANY, t)); [reflexivity|].
    destruct (dyn st); [|reflexivity].
    destruct (has_module mods c t); [reflexivity|].
    destruct (has_module mods cANY t); reflexivity.
  Qed.

  Definition mono (st st' : dstate) : Prop :=
    forall k i, cache_get (cache st) k = Some i -> cache_get (cache st') k = Some i.

  Lemma mono_refl : forall st, mono st st.
  Proof. intros st k i H. exact H. Qed.
  Lemma mono_trans : forall a b c, mono a b -> mono b c -> mono a c.
  Proof. intros a b c H1 H2 k i H. apply H2, H1, H. Qed.

  (* what a call leaves behind: the invariant, the dyn flag, and every binding made so far *)
  Definition extends (st st' : dstate) : Prop := Inv st' /\ dyn st' = dyn st /\ mono st st'.

  Lemma extends_refl : forall st, Inv st -> extends st st.
  Proof. intros st HI. split; [exact HI|]. split; [reflexivity|apply mono_refl]. Qed.

  Lemma extends_trans : forall a b c, extends a b -> extends b c -> extends a c.
  Proof. intros a b c (_ & D1 & M1) (I2 & D2 & M2). split; [exact I2|]. split; [congruence|eapply mono_trans; eauto]. Qed.

  (* a new binding (c,t) := v with v = stateless, on a state where (c,t) was unbound *)
  Lemma extends_set : forall st c t v,
    Inv st -> cache_get (cache st) (c, t) = None -> v = stateless mods c t ->
    (v = Generic -> c = cANY -> type_has_module t = false) ->
    (forall t', v = Typed cANY t' -> c = cANY \/ covered st cANY t') ->
    (dyn st = false -> forall d t', has_module mods d t' = true -> (d, t') <> (c, t)) ->
    extends st (mk_dstate (cache_set (cache st) (c, t) v) (dyn st)).
  Proof.
    intros st c t v HI Hn Hv Hg Ha Hf.
    split; [|split; [reflexivity|intros k i H; apply cache_set_mono; assumption]].
    split; cbn [cache dyn].
    - intros c' t' i H. rewrite cache_get_set in H. destruct (key_eqb (c', t') (c, t)) eqn:E.
      + apply key_eqb_eq in E. injection E as -> ->. injection H as <-. exact Hv.
      + eapply inv_val; eauto.
    - intros t' H. rewrite cache_get_set in H. destruct (key_eqb (cANY, t') (c, t)) eqn:E.
      + apply key_eqb_eq in E. injection E as <- ->. injection H as Hvv. apply Hg; [exact Hvv|reflexivity].
      + eapply inv_gen; eauto.
    - intros c' t' H. unfold covered. cbn [cache]. rewrite cache_get_set in H.
      destruct (key_eqb (c', t') (c, t)) eqn:E.
      + apply key_eqb_eq in E. injection E as -> ->. injection H as Hvv.
        destruct (Ha t Hvv) as [Hc|Hc].
        * subst c. rewrite cache_get_set_same. congruence.
        * rewrite cache_get_set. destruct (key_eqb (cANY, t) (c, t)) eqn:E2; [|exact Hc].
          rewrite Hvv. reflexivity.
      + pose proof (inv_any st HI c' t' H) as Hc. unfold covered in Hc.
        apply cache_set_mono; assumption.
    - intros Hd d t' Hm. unfold covered. cbn [cache].
      pose proof (inv_full st HI Hd d t' Hm) as Hc. unfold covered in Hc.
      apply cache_set_mono; assumption.
  Qed.

  Lemma get_class_spec : forall ug st c t,
    Inv st -> safe_query c t = true ->
    extends st (snd (get_class mods ug st c t)) /\
    (fst (get_class mods ug st c t) = Some (stateless mods c t) \/
     (ug = false /\ fst (get_class mods ug st c t) = None)) /\
    (dyn st = true -> has_module mods c t = true -> covered (snd (get_class mods ug st c t)) c t) /\
    (dyn st = true -> has_module mods c t = false -> has_module mods cANY t = true ->
       covered (snd (get_class mods ug st c t)) cANY t).
  Proof.
    intros ug st c t HI Hs. rewrite get_class_cases.
    destruct (cache_get (cache st) (c, t)) as [i|] eqn:E1.
    { pose proof (inv_val st HI c t i E1) as Hi. cbn [fst snd].
      split; [apply extends_refl, HI|]. split; [left; congruence|]. split.
      - intros _ Hm. unfold covered. rewrite E1, Hi, (stateless_own c t Hm). reflexivity.
      - intros _ Hm Ha. apply (inv_any st HI c t). rewrite E1, Hi. unfold stateless. rewrite Hm, Ha. reflexivity. }
    destruct (cache_get (cache st) (cANY, t)) as [i|] eqn:E2.
    { pose proof (inv_val st HI cANY t i E2) as Hi. cbn [fst snd].
      split; [apply extends_refl, HI|].
      assert (Hans : i = stateless mods c t).
      { destruct i as [d t'|].
        - symmetry in Hi. apply stateless_typed_inv in Hi as (-> & Hm & [->|[-> _]]);
            symmetry; apply stateless_any; exact Hm.
        - rewrite (stateless_none c t); [reflexivity|]. eapply inv_gen; eauto. }
      split; [left; congruence|]. split.
      - intros _ Hm. exfalso.
        destruct (Z.eq_dec c cANY) as [->|Hc]; [congruence|].
        pose proof (mods_sep c t Hc Hm) as Hna.
        assert (Hig : i = Generic) by (rewrite Hi; unfold stateless; rewrite Hna; reflexivity).
        rewrite Hig in E2.
        pose proof (inv_gen st HI t E2). apply has_module_type in Hm. congruence.
      - intros _ _ Ha. unfold covered. rewrite E2, Hi. unfold stateless. rewrite Ha. reflexivity. }
    (* both probes missed.  Where no module exists the answer is GenericRdata, or none *)
    assert (Hgen : has_module mods c t = false -> has_module mods cANY t = false ->
      (dyn st = false -> forall d t', has_module mods d t' = true -> (d, t') <> (c, t)) ->
      let r := if ug then (Some Generic, mk_dstate (cache_set (cache st) (c, t) Generic) (dyn st)) else (None, st) in
      extends st (snd r) /\
      (fst r = Some (stateless mods c t) \/ (ug = false /\ fst r = None)) /\
      (dyn st = true -> has_module mods c t = true -> covered (snd r) c t) /\
      (dyn st = true -> has_module mods c t = false -> has_module mods cANY t = true -> covered (snd r) cANY t)).
    { intros Hm Ha Hf. assert (Hst : stateless mods c t = Generic) by (unfold stateless; rewrite Hm, Ha; reflexivity).
      rewrite Hm, Ha, Hst. destruct ug; cbn [fst snd].
      - split; [|split; [left; reflexivity|split; discriminate]].
        apply extends_set; auto; [|discriminate].
        intros _ ->. unfold safe_query in Hs. rewrite Ha in Hs. cbn in Hs.
        destruct (type_has_module t); [discriminate|reflexivity].
      - split; [apply extends_refl, HI|]. split; [right; auto|split; discriminate]. }
    unfold miss_result. destruct (dyn st) eqn:Ed.
    - destruct (has_module mods c t) eqn:Hm; [|destruct (has_module mods cANY t) eqn:Ha].
      + cbn [fst snd]. rewrite (stateless_own c t Hm). split.
        { rewrite <- Ed. apply extends_set; auto; [symmetry; apply stateless_own, Hm|discriminate| |rewrite Ed; discriminate].
          intros t' H. inversion H; subst. left. reflexivity. }
        split; [left; reflexivity|]. split; [|discriminate].
        intros _ _. unfold covered. cbn [cache]. apply cache_get_set_same.
      + cbn [fst snd]. rewrite (stateless_any c t Ha).
        assert (S1 : extends st (mk_dstate (cache_set (cache st) (cANY, t) (Typed cANY t)) (dyn st)))
          by (apply extends_set; auto; [symmetry; apply stateless_any, Ha|discriminate|rewrite Ed; discriminate]).
        split.
        { destruct (Z.eq_dec c cANY) as [->|Hc]; [congruence|]. rewrite <- Ed. eapply extends_trans; [exact S1|].
          destruct S1 as (I1 & _ & _). apply (extends_set _ c t (Typed cANY t) I1); cbn [cache dyn].
          - rewrite cache_get_set.
            destruct (key_eqb (c, t) (cANY, t)) eqn:E; [apply key_eqb_eq in E; inversion E; contradiction|exact E1].
          - symmetry. apply stateless_any, Ha.
          - discriminate.
          - intros t' H. inversion H; subst. right. unfold covered. cbn [cache]. apply cache_get_set_same.
          - rewrite Ed. discriminate. }
        split; [left; reflexivity|]. split; [discriminate|].
        intros _ _ _. unfold covered. cbn [cache]. rewrite cache_get_set.
        destruct (key_eqb (cANY, t) (c, t)) eqn:E; [reflexivity|apply cache_get_set_same].
      + apply Hgen; [reflexivity|reflexivity|discriminate].
    - (* dynamic loading disabled: the cache is complete, so nothing exists for (c,t) *)
      assert (Hm : has_module mods c t = false).
      { destruct (has_module mods c t) eqn:Hm; [|reflexivity].
        pose proof (inv_full st HI Ed c t Hm) as Hc. unfold covered in Hc. congruence. }
      assert (Ha : has_module mods cANY t = false).
      { destruct (has_module mods cANY t) eqn:Ha; [|reflexivity].
        pose proof (inv_full st HI Ed cANY t Ha) as Hc. unfold covered in Hc. congruence. }
      apply Hgen; [exact Hm|exact Ha|]. intros _ d t' Hd E. inversion E; subst. congruence.
  Qed.

  Lemma safe_non_any : forall c t, c <> cANY -> safe_query c t = true.
  Proof. intros c t H. unfold safe_query. destruct (Z.eqb_spec c cANY); [contradiction|reflexivity]. Qed.

  (* the preload loop of load_all_types; with dynamic loading on it brings every IN and ANY module
     of the listed types into the cache *)
  Lemma preload_spec : forall ts st, Inv st ->
    let st' := fold_left (fun s t => snd (get_class mods false s cIN t)) ts st in
    extends st st' /\
    (dyn st = true -> forall t, In t ts -> (has_module mods cIN t = true -> covered st' cIN t) /\
                                           (has_module mods cANY t = true -> covered st' cANY t)).
  Proof.
    induction ts as [|t ts IH]; intros st HI; cbn [fold_left].
    - split; [apply extends_refl, HI|]. intros _ t [].
    - pose proof (get_class_spec false st cIN t HI (safe_non_any cIN t ltac:(discriminate))) as (Hx1 & _ & Hc1 & Hc2).
      destruct (IH _ (proj1 Hx1)) as (Hx2 & Hcov).
      split; [eapply extends_trans; eauto|].
      intros Hd t' [<-|Hin]; [|apply Hcov; [destruct Hx1 as (_ & -> & _); exact Hd|exact Hin]].
      destruct Hx2 as (_ & _ & Hm2). split; intros H; apply Hm2.
      + apply Hc1; assumption.
      + apply Hc2; auto. destruct (has_module mods cIN t) eqn:E; [|reflexivity].
        rewrite (mods_sep cIN t ltac:(discriminate) E) in H. discriminate.
  Qed.

  (* switching dynamic loading off is sound once every module is in the cache *)
  Lemma inv_disable : forall st, Inv st ->
    (forall d t, has_module mods d t = true -> covered st d t) -> Inv (mk_dstate (cache st) false).
  Proof.
    intros st HI Hcov. constructor; cbn [cache dyn];
      [apply (inv_val st HI)|apply (inv_gen st HI)|intros c t H; apply (inv_any st HI c t H)|intros _; exact Hcov].
  Qed.

  Lemma load_all_inv : forall disable st, Inv st -> Inv (load_all mods all_types disable st).
  Proof.
    intros disable st HI. unfold load_all.
    destruct (preload_spec all_types st HI) as ((HI1 & Hd1 & _) & Hcov).
    set (st1 := fold_left (fun s t => snd (get_class mods false s cIN t)) all_types st) in *.
    pose proof (get_class_spec false st1 cCH 1 HI1 (safe_non_any cCH 1 ltac:(discriminate)))
      as ((HI2 & Hd2 & Hm2) & _ & Hc1 & _).
    set (st2 := snd (get_class mods false st1 cCH 1)) in *.
    destruct disable; [|exact HI2]. apply (inv_disable st2 HI2). intros d t Hm.
    destruct (dyn st) eqn:Hd; [|apply (inv_full st2 HI2); [congruence|exact Hm]].
    unfold loadable in Hload. rewrite forallb_forall in Hload.
    pose proof (Hload (d, t) (proj1 (has_module_in d t) Hm)) as Hl. cbn [fst snd] in Hl.
    apply orb_prop in Hl as [Hl|Hl].
    - apply andb_prop in Hl as [Hdir Hin]. apply existsb_exists in Hin as (t' & Hin & Et).
      apply Z.eqb_eq in Et. subst t'.
      apply Hm2. apply orb_prop in Hdir as [Hdir|Hdir]; apply Z.eqb_eq in Hdir; subst d;
        apply (Hcov eq_refl t Hin); exact Hm.
    - apply key_eqb_eq in Hl. inversion Hl; subst. apply Hc1; [exact Hd1|exact Hm].
  Qed.

  Fixpoint expected (h : list step) : list obs :=
    match h with
    | [] => []
    | Query c t :: r => obs_of_impl (Some (stateless mods c t)) :: expected r
    | LoadAll _ :: r => expected r
    end.

  Lemma history_correct_from : forall h st,
    Inv st -> forallb safe_step h = true -> run_history mods all_types h st = expected h.
  Proof.
    induction h as [|s h IH]; intros st HI Hs; [reflexivity|].
    cbn [forallb] in Hs. apply andb_prop in Hs as [Hs1 Hs2].
    destruct s as [c t|d]; cbn [run_history expected].
    - pose proof (get_class_spec true st c t HI Hs1) as ((HI1 & _) & Hans & _).
      destruct (get_class mods true st c t) as [r st'] eqn:E. cbn [fst snd] in *.
      destruct Hans as [->|[Hf _]]; [|discriminate].
      f_equal. apply IH; assumption.
    - apply IH; [apply load_all_inv; exact HI|exact Hs2].
  Qed.

  Theorem dispatch_history_correct_thm : forall h,
    forallb safe_step h = true -> run_history mods all_types h init_state = expected h.
  Proof. intros h Hs. apply history_correct_from; [apply inv_init|exact Hs]. Qed.
End Dispatch.

(* the excluded history on the smallest module set: IN A exists, nothing for class ANY.
   Asking for (ANY, A) first makes every later (IN, A) lookup answer GenericRdata. *)
Theorem dispatch_any_first_refuted_thm :
  let mods := [(cIN, 1)] in
  mods_ok mods = true /\ loadable mods [1] = true /\
  run_history mods [1] [Query cANY 1; Query cIN 1] init_state = [I 0; I 0] /\
  stateless mods cIN 1 = Typed cIN 1.
Proof. repeat split; reflexivity. Qed.
