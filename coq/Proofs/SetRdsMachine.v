(* The Rdataset machine of Model/SetM.v: invariants of every reachable state (duplicate-free,
   no foreign record, singleton types hold at most one record), the algebra on reachable states,
   == / match / full_match, and the mutators that an ImmutableRdataset refuses. *)
From DV Require Import Base.Prelude Model.SetM Proofs.SetAlg Proofs.SetRdata Proofs.SetMachine
  Proofs.SetRds Proofs.ListFacts.
Open Scope Z_scope.

Lemma wf_rclone s : wf s -> wf (rclone s).
Proof. unfold rclone. destruct (kd s); try exact (fun H => H); apply wf_ext; reflexivity. Qed.

Lemma wf_rimm s : wf s -> wf (rimm s).
Proof. apply wf_ext; reflexivity. Qed.

(* intersection and difference: self with fewer members *)
Lemma wf_r_removing a self other same s' :
  a = AInter \/ a = ADiff -> wf self -> wf other -> (same = true -> other = self) ->
  cls s' = cls self -> typ s' = typ self -> cov s' = cov self ->
  items s' = salg a (items self) (items other) same -> wf s'.
Proof.
  intros Ha Hs Ho Hsame Ec Et Ev Ei.
  assert (Hsame' : same = true -> items other = items self) by (intros E; rewrite (Hsame E); reflexivity).
  apply (wf_sub self); try assumption; rewrite Ei.
  - apply ND_salg; [apply Hs|apply Ho|exact Hsame'].
  - apply incl_salg; [apply Hs|apply Ho|exact Hsame'|exact Ha].
Qed.

Lemma wf_r_inter self other same :
  wf self -> wf other -> (same = true -> other = self) -> wf (fst (r_inter_update self other same)).
Proof.
  intros Hs Ho Hsame. rewrite r_inter_update_spec, update_ttl_eq.
  apply (wf_r_removing AInter self other same); auto.
Qed.

Lemma wf_r_diff self other same :
  wf self -> wf other -> (same = true -> other = self) -> wf (fst (r_diff_update self other same)).
Proof. intros Hs Ho Hsame. apply (wf_r_removing ADiff self other same); auto. Qed.

Lemma wf_r_union self other same : wf self -> wf (fst (r_union_update self other same)).
Proof.
  intros Hs. unfold r_union_update. destruct same; cbn [fst].
  - apply wf_update_ttl, Hs.
  - apply wf_radd_all, wf_update_ttl, Hs.
Qed.

Lemma wf_r_update self other same : wf self -> wf (fst (r_update self other same)).
Proof. intros Hs. unfold r_update. apply wf_radd_all, wf_update_ttl, Hs. Qed.

Lemma wf_clear s : wf s -> wf (with_items s []).
Proof. intros H. apply (wf_sub s); try reflexivity; [exact H|constructor|apply incl_nil_l]. Qed.

Lemma wf_r_sym self other same :
  wf self -> wf other -> wf (fst (r_sym_update self other same)).
Proof.
  intros Hs Ho. unfold r_sym_update. destruct same; [apply wf_clear, Hs|].
  pose proof (wf_r_union self other false Hs) as H1.
  destruct (r_union_update self other false) as [s1 [[]| |]]; cbn [fst] in *; try exact H1.
  apply wf_r_diff; [exact H1| |discriminate].
  apply wf_r_inter; [apply wf_rclone, Hs|exact Ho|discriminate].
Qed.

Lemma wf_ralg a self other same :
  wf self -> wf other -> (same = true -> other = self) -> wf (fst (ralg a self other same)).
Proof.
  intros Hs Ho Hsame. destruct a; cbn [ralg].
  - apply wf_r_union, Hs.
  - apply wf_r_inter; assumption.
  - apply wf_r_diff; assumption.
  - apply wf_r_sym; assumption.
Qed.

Lemma wf_r_inplace w self other same :
  wf self -> wf other -> (same = true -> other = self) -> wf (fst (r_inplace w self other same)).
Proof.
  intros Hs Ho Hsame. unfold r_inplace. destruct (kd self); try exact Hs;
    (destruct (inplace_alg w); [apply wf_ralg; assumption|apply wf_r_update, Hs]).
Qed.

Lemma wf_r_func w self other x : wf self -> wf other -> r_func w self other = Ok x -> wf x.
Proof.
  intros Hs Ho. unfold r_func.
  pose proof (wf_ralg (func_alg w) (rclone self) other false (wf_rclone _ Hs) Ho) as H.
  destruct (ralg (func_alg w) (rclone self) other false) as [obj [[]| |]]; try discriminate.
  intros [= <-]. destruct (kd self); try apply wf_rimm; apply H; discriminate.
Qed.

Lemma wf_r_copy s : wf s -> wf (r_copy s).
Proof. intros H. unfold r_copy. destruct (kd s); try apply wf_rimm; apply wf_rclone, H. Qed.

Lemma wf_r_from_list n t xs x : r_from_list n t xs = Ok x -> wf x.
Proof.
  unfold r_from_list. destruct xs as [|rd0 l]; [discriminate|].
  set (r0 := update_ttl _ _).
  assert (H : wf r0) by (apply wf_update_ttl; destruct n; apply wf_empty).
  pose proof (wf_radd_all (rd0 :: l) r0 H) as H1.
  destruct (radd_all r0 (rd0 :: l)) as [r [[]| |]]; try discriminate.
  intros [= <-]. exact H1.
Qed.

Lemma wf_sdel s x : wf s -> wf (with_items s (sdel rd_eqb x (items s))).
Proof.
  intros H. apply (wf_sub s); try reflexivity; [exact H|apply ND_sdel, H|].
  intros y. apply In_sdel.
Qed.

Lemma wf_spop s x l : wf s -> spop (items s) = Ok (x, l) -> wf (with_items s l).
Proof.
  intros H E. apply (wf_sub s); try reflexivity; [exact H|eapply ND_spop; [apply H|exact E]|].
  cbn. rewrite (spop_snoc _ _ _ _ E). apply incl_appl, incl_refl.
Qed.

(* a mutating method: refused on an ImmutableRdataset, which then stays as it is *)
Lemma inv_mut st s e (k : list rds * obs) :
  Forall wf st -> Forall wf (fst k) ->
  Forall wf (fst (match kd s with KImm => (st, E e) | _ => k end)).
Proof. intros H Hk. destruct (kd s); assumption. Qed.

Theorem rstep_wf st op : Forall wf st -> Forall wf (fst (rstep st op)).
Proof.
  intros H. destruct op; cbn [rstep]; try (apply (inv_reg wf); [exact H|intros s0 Es Hs]).
  - (* RNew *) apply inv_bind; [exact H|apply wf_empty].
  - (* RNewRR *) apply inv_bind; [exact H|apply wf_empty].
  - (* RImm *) apply inv_bind; [exact H|apply wf_rimm, Hs].
  - (* RToRdataset *)
    destruct (kd s0); try exact H. destruct (r_to_rdataset s0) as [x| |] eqn:E; try exact H.
    apply inv_bind; [exact H|exact (wf_r_from_list _ _ _ _ E)].
  - (* RFromList *)
    destruct (r_from_list n t xs) as [x| |] eqn:E; try exact H.
    apply inv_bind; [exact H|exact (wf_r_from_list _ _ _ _ E)].
  - (* RAdd *) apply inv_mut, Forall_set_nth, wf_radd; assumption.
  - (* RUpdateTtl *) apply inv_mut, Forall_set_nth, wf_update_ttl; assumption.
  - (* RUpdateTtlText *)
    apply inv_mut; [exact H|]. destruct (TokM.ttl_from_text s); try exact H.
    apply Forall_set_nth, wf_update_ttl; assumption.
  - (* RAddText *)
    apply inv_mut; [exact H|]. destruct (negb _ || _); [exact H|].
    destruct (TokM.ttl_from_text s); try exact H. apply Forall_set_nth, wf_radd; assumption.
  - (* RRemove *)
    apply inv_mut; [exact H|]. unfold sremove. destruct (mem rd_eqb x (items s0)); [|exact H].
    apply Forall_set_nth, wf_sdel; assumption.
  - (* RDiscard *) apply inv_mut, Forall_set_nth, wf_sdel; assumption.
  - (* RPop *)
    apply inv_mut; [exact H|]. destruct (spop (items s0)) as [[x l]| |] eqn:E; try exact H.
    apply Forall_set_nth; [exact H|exact (wf_spop _ _ _ Hs E)].
  - (* RClear *) apply inv_mut, Forall_set_nth, wf_clear; assumption.
  - (* RCopy *) apply inv_bind; [exact H|apply wf_r_copy, Hs].
  - (* RInpl *)
    apply (inv_reg wf); [exact H|intros os Eo Ho]. apply Forall_set_nth; [exact H|].
    apply wf_r_inplace; [exact Hs|exact Ho|exact (same_reg _ _ _ _ _ Es Eo)].
  - (* RFunc *)
    apply (inv_reg wf); [exact H|intros os Eo Ho].
    destruct (r_func w s0 os) as [x| |] eqn:E; try exact H.
    apply inv_bind; [exact H|exact (wf_r_func _ _ _ _ Hs Ho E)].
  - (* RPred *) apply (inv_reg wf); [exact H|intros os Eo Ho]. exact H.
  - exact H.
  - destruct (kd s0); exact H.
  - exact H.
  - exact H.
  - exact H.
  - destruct (sget (items s0) i); exact H.
  - (* RDelItem *)
    apply inv_mut; [exact H|]. unfold sdelitem. destruct (sget (items s0) i); try exact H.
    apply Forall_set_nth, wf_sdel; assumption.
Qed.

(* every reachable state: all rdatasets well-formed *)
Theorem rexec_wf ops st : Forall wf st -> Forall wf (rexec st ops).
Proof.
  revert st. induction ops as [|op ops IH]; intros st H; cbn; [exact H|].
  apply IH, rstep_wf, H.
Qed.

Corollary rds_machine_wf ops r s : nth_error (rexec [] ops) r = Some s -> wf s.
Proof. apply Forall_nth_error, rexec_wf. constructor. Qed.

Corollary rds_machine_inv ops r s :
  nth_error (rexec [] ops) r = Some s ->
  ND (items s) /\
  (forall x, In x (items s) -> rcls x = cls s /\ rtyp x = typ s) /\
  (is_sigtype (typ s) = true -> forall x, In x (items s) -> rcov x = cov s) /\
  (is_singleton (typ s) = true -> (length (items s) <= 1)%nat).
Proof.
  intros E. destruct (rds_machine_wf ops r s E) as [H1 H2 H3 H4]. auto.
Qed.

(* the Rdataset algebra at the level of the machine: an in-place method between two distinct
   mergeable non-singleton well-formed rdatasets succeeds, yields set theory's members in
   first-insertion order and the minimised TTL; in a reachable state they are well-formed by the
   invariant *)
Lemma rstep_inplace (st : list rds) w a r o s os :
  nth_error st r = Some s -> nth_error st o = Some os -> wf s -> wf os -> r <> o ->
  kd s <> KImm -> inplace_alg w = Some a ->
  mergeable s os -> is_singleton (typ s) = false ->
  exists s', rstep st (RInpl w r o) = (set_nth st r s', N) /\
    (forall x, rmem x (items s') = alg_bool a (rmem x (items s)) (rmem x (items os))) /\
    items s' = alg_order rdata rd_eqb a (items s) (items os) /\
    ttl s' = (match a with
              | ADiff => ttl s
              | _ => if isempty s then ttl os else Z.min (ttl s) (ttl os)
              end).
Proof.
  intros Es Eo Hs Ho Hne Hk Ea Hm Hns.
  destruct (ralg_ok a s os Ho Hm Hns) as (s' & E & Ei & Httl & _).
  exists s'. cbn [rstep]. rewrite Es, Eo. apply Nat.eqb_neq in Hne. rewrite Hne.
  unfold upd, r_inplace. rewrite Ea.
  split; [destruct (kd s); [|congruence|]; rewrite E; reflexivity|].
  rewrite Ei. split; [|split; [|exact Httl]].
  - intros x. apply set_alg_mem; [apply Hs|apply Ho|discriminate].
  - apply set_alg_order; [apply Hs|apply Ho].
Qed.

Theorem rds_machine_inplace ops w a r o s os :
  let st := rexec [] ops in
  nth_error st r = Some s -> nth_error st o = Some os -> r <> o ->
  kd s <> KImm -> inplace_alg w = Some a ->
  mergeable s os -> is_singleton (typ s) = false ->
  exists s', rstep st (RInpl w r o) = (set_nth st r s', N) /\
    (forall x, rmem x (items s') = alg_bool a (rmem x (items s)) (rmem x (items os))) /\
    items s' = alg_order rdata rd_eqb a (items s) (items os) /\
    ttl s' = (match a with
              | ADiff => ttl s
              | _ => if isempty s then ttl os else Z.min (ttl s) (ttl os)
              end).
Proof.
  cbv zeta. intros Es Eo. apply rstep_inplace; try assumption; eapply rds_machine_wf; eassumption.
Qed.

(* a == b: same class, type and covered type, the same member set whatever the insertion
   orders (and whatever the TTLs); two RRsets also need equal owner names *)
Lemma rds_base_eq_spec a b :
  wf a -> wf b ->
  (rds_base_eq a b = true <->
   cls a = cls b /\ typ a = typ b /\ cov a = cov b /\
   (forall x, rmem x (items a) = rmem x (items b))).
Proof.
  intros Ha Hb.
  replace (rds_base_eq a b)
    with ((cls a =? cls b) && (typ a =? typ b) && (cov a =? cov b) && seq rd_eqb (items a) (items b))
    by (unfold rds_base_eq; destruct (cls a =? cls b), (typ a =? typ b), (cov a =? cov b); reflexivity).
  rewrite !andb_true_iff, !Z.eqb_eq, (set_eq_ignores_order _ _ (wf_nd a Ha) (wf_nd b Hb)).
  split; [intros [[[? ?] ?] ?]|intros (? & ? & ? & ?)]; auto.
Qed.

Theorem r_eq_spec a b :
  wf a -> wf b ->
  (r_eq a b = true <->
   cls a = cls b /\ typ a = typ b /\ cov a = cov b /\
   (kd a = KRR -> kd b = KRR -> name_eqb (oname a) (oname b) = true) /\
   (forall x, rmem x (items a) = rmem x (items b))).
Proof.
  intros Ha Hb.
  (* only between two RRsets is the name looked at *)
  assert (H : r_eq a b = true <->
              (kd a = KRR -> kd b = KRR -> name_eqb (oname a) (oname b) = true) /\
              rds_base_eq a b = true).
  { unfold r_eq. destruct (kd a), (kd b);
      try (split; [intros E; split; [discriminate|exact E]|intros [_ E]; exact E]).
    destruct (name_eqb (oname a) (oname b)); cbn; [tauto|].
    split; [discriminate|]. intros [E _]. discriminate (E eq_refl eq_refl). }
  rewrite H, (rds_base_eq_spec a b Ha Hb).
  split; [intros [? (? & ? & ? & ?)]|intros (? & ? & ? & ? & ?)]; auto.
Qed.

(* ImmutableRdataset: every overridden mutator raises TypeError("immutable") *)

Definition imm_blocked (op : rop) : bool :=
  match op with
  | RAdd _ _ _ | RUpdateTtl _ _ | RClear _ | RDelItem _ _ | RRemove _ _ => true
  | RInpl w _ _ => match w with
                   | IUnion | IInter | IUpdate | IOr | IAnd | IAdd | ISub => true
                   | IDiff | ISym | IXor => false
                   end
  | _ => false
  end.

Definition op_self (op : rop) : option nat :=
  match op with
  | RAdd r _ _ | RUpdateTtl r _ | RClear r | RDelItem r _ | RRemove r _ | RInpl _ r _ => Some r
  | _ => None
  end.

Theorem imm_mutators_raise st op r s :
  nth_error st r = Some s -> kd s = KImm -> op_self op = Some r -> imm_blocked op = true ->
  match op with RInpl _ _ o => nth_error st o <> None | _ => True end ->
  rstep st op = (st, E eTypeError).
Proof.
  intros Hs Hk Hself Hb Ho.
  destruct op; cbn in Hself, Hb; try discriminate; inversion Hself; subst;
    cbn [rstep]; rewrite Hs, ?Hk; try reflexivity.
  destruct (nth_error st o) as [os|] eqn:Eo; [|congruence].
  unfold upd, r_inplace. rewrite Hk. cbn [fst snd].
  rewrite (set_nth_id st r s Hs).
  destruct w; cbn in Hb; try discriminate; reflexivity.
Qed.

Lemma name_eqb_spec a b : name_eqb a b = true <-> map lower_l a = map lower_l b.
Proof.
  unfold name_eqb. generalize (map lower_l a) (map lower_l b). clear a b.
  induction l as [|x a IH]; intros [|y b]; cbn; try (split; congruence).
  rewrite andb_true_iff, zlist_eqb_eq, IH. split; [intros [-> ->]; reflexivity|].
  intros E; inversion E; auto.
Qed.

Theorem r_match_spec s c t v : r_match s c t v = true <-> cls s = c /\ typ s = t /\ cov s = v.
Proof. unfold r_match. rewrite !andb_true_iff, !Z.eqb_eq. apply and_assoc. Qed.

Lemma oz_eqb_spec a b : oz_eqb a b = true <-> a = b.
Proof.
  destruct a as [x|], b as [y|]; cbn; try (split; congruence).
  rewrite Z.eqb_eq. split; congruence.
Qed.

(* full_match(name, rdclass, rdtype, covers, deleting): every one of the five identifying
   attributes, the owner name case-insensitively *)
Theorem r_full_match_spec s n c t v d :
  r_full_match s n c t v d = true <->
  cls s = c /\ typ s = t /\ cov s = v /\ map lower_l (oname s) = map lower_l n /\ deleting s = d.
Proof.
  replace (r_full_match s n c t v d)
    with (r_match s c t v && name_eqb (oname s) n && oz_eqb (deleting s) d)
    by (unfold r_full_match; destruct (r_match s c t v), (name_eqb (oname s) n), (oz_eqb _ d); reflexivity).
  rewrite !andb_true_iff, r_match_spec, name_eqb_spec, oz_eqb_spec.
  split; [intros [[(? & ? & ?) ?] ?]|intros (? & ? & ? & ? & ?)]; auto.
Qed.

Lemma r_eq_refl a : wf a -> r_eq a a = true.
Proof.
  intros Ha. apply (r_eq_spec a a Ha Ha). repeat split; auto.
  intros _ _. apply name_eqb_spec. reflexivity.
Qed.

Lemma r_eq_sym a b : wf a -> wf b -> r_eq a b = r_eq b a.
Proof.
  intros Ha Hb.
  assert (H : forall x y, wf x -> wf y -> r_eq x y = true -> r_eq y x = true).
  { intros x y Hx Hy E. apply (r_eq_spec x y Hx Hy) in E as (A & B & C & D & F).
    apply (r_eq_spec y x Hy Hx). repeat split; auto.
    intros K1 K2. specialize (D K2 K1). apply name_eqb_spec in D. apply name_eqb_spec. auto. }
  destruct (r_eq a b) eqn:E1, (r_eq b a) eqn:E2; try reflexivity.
  - rewrite (H a b Ha Hb E1) in E2. discriminate.
  - rewrite (H b a Hb Ha E2) in E1. discriminate.
Qed.

Lemma r_eq_trans a b c :
  wf a -> wf b -> wf c -> kd b = KRR \/ (kd a <> KRR \/ kd c <> KRR) ->
  r_eq a b = true -> r_eq b c = true -> r_eq a c = true.
Proof.
  intros Ha Hb Hc Hk E1 E2.
  apply (r_eq_spec a b Ha Hb) in E1 as (A1 & B1 & C1 & D1 & F1).
  apply (r_eq_spec b c Hb Hc) in E2 as (A2 & B2 & C2 & D2 & F2).
  apply (r_eq_spec a c Ha Hc).
  split; [congruence|]. split; [congruence|]. split; [congruence|]. split.
  - intros K1 K3. destruct Hk as [K2|[K|K]]; try contradiction.
    specialize (D1 K1 K2). specialize (D2 K2 K3).
    apply name_eqb_spec in D1, D2. apply name_eqb_spec. congruence.
  - intros x. rewrite F1. apply F2.
Qed.
