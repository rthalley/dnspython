(* _validate_labels decides the DNS limits; basic facts about valid names. *)
From DV Require Import Base.Prelude Model.NameM.
Open Scope Z_scope.

(* The DNS limits, stated declaratively: every label at most 63 octets, the encoded length
   (one length octet per label plus the label octets) at most 255, the empty (root) label
   only in last position. *)
Definition Valid (n : name) : Prop :=
  Forall (fun l => zlen l <= 63) n /\
  wire_length n <= 255 /\
  Forall (fun l => l <> []) (removelast n).

Fixpoint first_empty (ls : name) (j : nat) : option nat :=
  match ls with
  | [] => None
  | l :: r => match l with [] => Some j | _ => first_empty r (S j) end
  end.

Lemma zlen_nil_iff {A} (l : list A) : (zlen l =? 0) = true <-> l = [].
Proof. unfold zlen. destruct l; cbn; split; try congruence; try lia. Qed.

Lemma zlen_cons {A} (x : A) l : zlen (x :: l) = zlen l + 1.
Proof. unfold zlen. cbn [length]. lia. Qed.

Lemma zlen_app {A} (a b : list A) : zlen (a ++ b) = zlen a + zlen b.
Proof. unfold zlen. rewrite app_length. lia. Qed.

Lemma zlen_nonneg {A} (l : list A) : 0 <= zlen l.
Proof. unfold zlen. lia. Qed.

Lemma wire_length_cons l n : wire_length (l :: n) = zlen l + 1 + wire_length n.
Proof. reflexivity. Qed.

Lemma zlen_lower l : zlen (lower_l l) = zlen l.
Proof. unfold zlen, lower_l. now rewrite map_length. Qed.

Lemma wire_length_lower n : wire_length (map lower_l n) = wire_length n.
Proof. induction n as [|l n IH]; [reflexivity|]. cbn [map]. rewrite !wire_length_cons, zlen_lower, IH. reflexivity. Qed.

Lemma wire_length_app a b : wire_length (a ++ b) = wire_length a + wire_length b.
Proof. induction a as [|l a IH]; [cbn [app]; change (wire_length []) with 0; lia|]. cbn [app]. rewrite !wire_length_cons, IH. lia. Qed.

Lemma wire_length_nonneg n : 0 <= wire_length n.
Proof. induction n as [|l n IH]; [cbn; lia|]. rewrite wire_length_cons. pose proof (zlen_nonneg l). lia. Qed.

Lemma wire_length_ge_len n : zlen n <= wire_length n.
Proof.
  induction n as [|l n IH]; [cbn; lia|]. rewrite wire_length_cons, zlen_cons.
  pose proof (zlen_nonneg l). lia.
Qed.

Lemma vl_loop_ok : forall ls total i j,
  Forall (fun l => zlen l <= 63) ls ->
  vl_loop ls total i j =
    Ok (total + wire_length ls, match i with Some k => Some k | None => first_empty ls j end).
Proof.
  induction ls as [|l r IH]; intros total i j H.
  - cbn. destruct i; f_equal; f_equal; lia.
  - inversion H; subst. cbn [vl_loop].
    destruct (zlen l >? 63) eqn:E; [lia|].
    rewrite IH by assumption. rewrite wire_length_cons. f_equal. f_equal; [lia|].
    destruct i; [reflexivity|]. cbn [first_empty].
    destruct l; [reflexivity|]. reflexivity.
Qed.

Lemma vl_loop_long : forall ls total i j,
  ~ Forall (fun l => zlen l <= 63) ls -> vl_loop ls total i j = Lib eLabelTooLong.
Proof.
  induction ls as [|l r IH]; intros total i j H.
  - exfalso. apply H. constructor.
  - cbn [vl_loop]. destruct (zlen l >? 63) eqn:E; [reflexivity|].
    apply IH. intros Hr. apply H. constructor; [lia|assumption].
Qed.

(* the loop looks at the labels through their lengths only *)
Lemma vl_loop_lens a : forall b total i j,
  map (@length Z) a = map (@length Z) b -> vl_loop a total i j = vl_loop b total i j.
Proof.
  induction a as [|x a IH]; destruct b as [|y b]; intros total i j H; try discriminate; [reflexivity|].
  injection H as H1 H2. cbn [vl_loop]. unfold zlen. rewrite H1. destruct (_ >? 63); [reflexivity|]. apply IH. exact H2.
Qed.

Lemma validate_labels_lens a b : map (@length Z) a = map (@length Z) b -> validate_labels a = validate_labels b.
Proof.
  intros H. unfold validate_labels. rewrite (vl_loop_lens a b _ _ _ H).
  apply (f_equal (@length _)) in H. rewrite !map_length in H. unfold label. rewrite H. reflexivity.
Qed.

Lemma removelast_cons2 {A} (x y : A) l : removelast (x :: y :: l) = x :: removelast (y :: l).
Proof. reflexivity. Qed.

Lemma Forall_removelast {A} (P : A -> Prop) l : Forall P l -> Forall P (removelast l).
Proof.
  induction 1 as [|x l Hx _ IH]; [constructor|]. destruct l; [constructor|].
  rewrite removelast_cons2. constructor; assumption.
Qed.

Lemma first_empty_spec : forall ls j,
  (first_empty ls j = None \/ first_empty ls j = Some (j + length ls - 1)%nat)
  <-> Forall (fun l => l <> []) (removelast ls).
Proof.
  induction ls as [|l ls IH]; intros j; [cbn; split; auto|].
  destruct ls as [|l2 r].
  - destruct l; cbn; split; auto. intros _. right. f_equal. lia.
  - rewrite removelast_cons2, Forall_cons_iff, <- (IH (S j)). destruct l as [|c l].
    + cbn [first_empty]. split; [intros [H|H]; [discriminate|injection H as H; cbn [length] in H; exfalso; lia]|intros [H _]; congruence].
    + change (first_empty ((c :: l) :: l2 :: r) j) with (first_empty (l2 :: r) (S j)).
      cbn [length Nat.add]. rewrite (Nat.add_succ_r j).
      split; [intros H; split; [discriminate|exact H]|tauto].
Qed.

Lemma Forall_dec_len (ls : name) :
  {Forall (fun l => zlen l <= 63) ls} + {~ Forall (fun l => zlen l <= 63) ls}.
Proof. apply Forall_dec. intros l. destruct (Z_le_dec (zlen l) 63); auto. Qed.

(* what _validate_labels answers, in the order the code checks *)
Inductive validate_spec (n : name) : res unit -> Prop :=
| vs_ok : Valid n -> validate_spec n (Ok tt)
| vs_label_too_long : ~ Forall (fun l => zlen l <= 63) n -> validate_spec n (Lib eLabelTooLong)
| vs_name_too_long : Forall (fun l => zlen l <= 63) n -> wire_length n > 255 ->
    validate_spec n (Lib eNameTooLong)
| vs_empty_label : Forall (fun l => zlen l <= 63) n -> wire_length n <= 255 ->
    ~ Forall (fun l => l <> []) (removelast n) -> validate_spec n (Lib eEmptyLabel).

Lemma validate_labels_spec n : validate_spec n (validate_labels n).
Proof.
  unfold validate_labels.
  destruct (Forall_dec_len n) as [H|H]; [|rewrite vl_loop_long by assumption; constructor; assumption].
  rewrite vl_loop_ok, Z.add_0_l by assumption.
  destruct (Z.gtb_spec (wire_length n) 255) as [W|W]; [constructor; [assumption|lia]|].
  pose proof (first_empty_spec n 0) as S. cbn [Nat.add] in S.
  destruct (first_empty n 0) as [k|].
  - destruct (Nat.eqb_spec k (length n - 1)) as [->|Hk].
    + apply vs_ok. repeat split; auto. apply S. auto.
    + apply vs_empty_label; auto. intros Hne. apply S in Hne as [?|[=]]; [discriminate|contradiction].
  - apply vs_ok. repeat split; auto. apply S. auto.
Qed.

Theorem validate_iff n : validate_labels n = Ok tt <-> Valid n.
Proof.
  destruct (validate_labels_spec n); split; try discriminate; auto;
    intros (V1 & V2 & V3); (contradiction || lia).
Qed.

(* which error, in the order the code checks them *)
Theorem validate_error n e :
  validate_labels n = Lib e ->
  (e = eLabelTooLong /\ ~ Forall (fun l => zlen l <= 63) n) \/
  (e = eNameTooLong /\ Forall (fun l => zlen l <= 63) n /\ wire_length n > 255) \/
  (e = eEmptyLabel /\ Forall (fun l => zlen l <= 63) n /\ wire_length n <= 255 /\
     ~ Forall (fun l => l <> []) (removelast n)).
Proof. destruct (validate_labels_spec n); try discriminate; intros [= <-]; auto 7. Qed.

Lemma validate_never_internal n e : validate_labels n <> Internal e.
Proof. destruct (validate_labels_spec n); discriminate. Qed.

Lemma mk_name_ok n m : mk_name n = Ok m <-> (m = n /\ Valid n).
Proof.
  unfold mk_name. destruct (validate_labels n) as [[]| |] eqn:E.
  - apply validate_iff in E. split; [intros X; inversion X; subst; auto|intros [-> _]; reflexivity].
  - split; [discriminate|]. intros [_ V]. apply validate_iff in V. congruence.
  - split; [discriminate|]. intros [_ V]. apply validate_iff in V. congruence.
Qed.

Lemma mk_name_valid n : Valid n -> mk_name n = Ok n.
Proof. intros V. apply mk_name_ok. auto. Qed.

Lemma mk_name_never_internal n e : mk_name n <> Internal e.
Proof. unfold mk_name. destruct (validate_labels_spec n); discriminate. Qed.

Lemma mk_name_error n e : mk_name n = Lib e -> e = eLabelTooLong \/ e = eNameTooLong \/ e = eEmptyLabel.
Proof. unfold mk_name. destruct (validate_labels_spec n); try discriminate; intros [= <-]; auto. Qed.

(* with short labels and no inner empty label, only the total length can be wrong *)
Lemma mk_name_within ls :
  Forall (fun l => zlen l <= 63) ls -> Forall (fun l => l <> []) (removelast ls) ->
  mk_name ls = if wire_length ls >? 255 then Lib eNameTooLong else Ok ls.
Proof.
  intros H1 H3. unfold mk_name.
  destruct (validate_labels_spec ls) as [(_ & W & _)|H|H W|H W E]; try contradiction;
    destruct (Z.gtb_spec (wire_length ls) 255); (reflexivity || lia).
Qed.

Lemma Valid_nil : Valid [].
Proof. repeat split; try constructor. cbn. lia. Qed.

Lemma Valid_root : Valid [[]].
Proof. repeat split; try constructor; cbn; try lia. constructor. Qed.

Lemma Valid_cons l y n :
  Valid (l :: y :: n) <->
  l <> [] /\ zlen l <= 63 /\ zlen l + 1 + wire_length (y :: n) <= 255 /\ Valid (y :: n).
Proof.
  unfold Valid. rewrite removelast_cons2, !(Forall_cons_iff _ l), (wire_length_cons l).
  pose proof (zlen_nonneg l). intuition lia.
Qed.

Lemma Valid_cons_intro l y n : Valid (y :: n) -> l <> [] -> zlen l <= 63 ->
  zlen l + 1 + wire_length (y :: n) <= 255 -> Valid (l :: y :: n).
Proof. intros. apply Valid_cons. auto. Qed.

Lemma mk_name_cons l y n : Valid (y :: n) -> l <> [] -> zlen l <= 63 ->
  mk_name (l :: y :: n) =
    if zlen l + 1 + wire_length (y :: n) >? 255 then Lib eNameTooLong else Ok (l :: y :: n).
Proof.
  intros (V1 & _ & V3) Hl H63.
  apply mk_name_within; [|rewrite removelast_cons2]; constructor; assumption.
Qed.

Lemma Valid_tl l n : Valid (l :: n) -> Valid n.
Proof. destruct n; [intros _; apply Valid_nil|]. intros V. apply Valid_cons in V. tauto. Qed.

Lemma Valid_skipn k n : Valid n -> Valid (skipn k n).
Proof.
  revert n. induction k as [|k IH]; intros n V; [exact V|].
  destruct n as [|l n]; [exact V|]. cbn [skipn]. apply IH. eapply Valid_tl; eauto.
Qed.

Lemma Valid_app_r a b : Valid (a ++ b) -> Valid b.
Proof.
  intros V. replace b with (skipn (length a) (a ++ b)); [apply Valid_skipn; exact V|].
  rewrite skipn_app, skipn_all, Nat.sub_diag. reflexivity.
Qed.

Lemma Valid_head_nonempty l y n : Valid (l :: y :: n) -> l <> [].
Proof. intros V. apply Valid_cons in V. tauto. Qed.

Lemma removelast_app_cons {A} (a : list A) x b : removelast (a ++ x :: b) = a ++ removelast (x :: b).
Proof. apply removelast_app. discriminate. Qed.

Lemma Valid_app_l_nonempty a x b : Valid (a ++ x :: b) -> Forall (fun l => l <> []) a.
Proof.
  intros (_ & _ & H). rewrite removelast_app_cons in H. apply Forall_app in H. tauto.
Qed.

Lemma is_absolute_cons l y n : is_absolute (l :: y :: n) = is_absolute (y :: n).
Proof. reflexivity. Qed.

Lemma is_absolute_app (a : name) x b : is_absolute (a ++ x :: b) = is_absolute (x :: b).
Proof.
  induction a as [|l a IH]; [reflexivity|]. cbn [app].
  destruct (a ++ x :: b) eqn:E; [destruct a; discriminate|]. rewrite is_absolute_cons. exact IH.
Qed.

Lemma is_absolute_last (n : name) l : is_absolute (n ++ [l]) = match l with [] => true | _ => false end.
Proof. rewrite is_absolute_app. reflexivity. Qed.

Lemma absolute_ne n : is_absolute n = true -> n <> [].
Proof. intros H ->. discriminate. Qed.

Lemma is_absolute_true n : is_absolute n = true -> exists p, n = p ++ [[]].
Proof.
  destruct n as [|l n] using rev_ind; [discriminate|].
  rewrite is_absolute_last. destruct l; [|discriminate]. eauto.
Qed.

(* a prefix (all but a non-empty suffix) of a valid name is relative *)
Lemma Valid_prefix_relative a x b : Valid (a ++ x :: b) -> is_absolute a = false.
Proof.
  intros V. apply Valid_app_l_nonempty in V.
  destruct a as [|l a] using rev_ind; [reflexivity|].
  rewrite is_absolute_last. apply Forall_app in V. destruct V as [_ V]. inversion V; subst.
  destruct l; congruence.
Qed.

Lemma Valid_prefix a b : Valid (a ++ b) -> Valid a.
Proof.
  intros (H1 & H2 & H3). apply Forall_app in H1. destruct H1 as [H1 _].
  rewrite wire_length_app in H2. pose proof (wire_length_nonneg b).
  repeat split; auto; try lia.
  destruct b as [|x b]; [rewrite app_nil_r in H3; exact H3|].
  rewrite removelast_app_cons in H3. apply Forall_app in H3. apply Forall_removelast, H3.
Qed.

Lemma is_absolute_app_ne (a b : name) : b <> [] -> is_absolute (a ++ b) = is_absolute b.
Proof. destruct b; [congruence|]. intros _. apply is_absolute_app. Qed.
