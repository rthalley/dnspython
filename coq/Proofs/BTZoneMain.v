(* C20: transactions and histories keep the invariant (exec_inv); the theorems
   incremental_eq_spec_main and iteration_canonical_main. *)
From DV Require Import Base.Prelude Model.NameM Model.BTZoneM
     Proofs.BTZoneOrder Proofs.BTZoneList Proofs.BTZoneSpec Proofs.BTZoneInv Proofs.BTZoneOps4.
Open Scope Z_scope.

Lemma Inv_changed_irrel : forall c l d ch ch', Inv c (mkVer l d ch) -> Inv c (mkVer l d ch').
Proof. intros c l d ch ch' [A B C D E F]. constructor; auto. Qed.

Definition name_ok (c : cfg) (n : name) : Prop :=
  forall n', validate_name c n = Ok n' -> validk c (K n').

Definition top_name (o : top) : name :=
  match o with
  | TAdd n _ _ | TReplace n _ _ | TDelName n | TDelType n _ | TDelRdatas n _ _ => n
  end.

Definition vop_valid (c : cfg) (o : vop) : Prop :=
  match o with
  | VPut n _ _ | VDelRds n _ | VDelNode n => validk c (K n)
  end.

Theorem vstep_inv : forall c v o,
    Inv c v -> vop_valid c o -> exists v', vstep c v o = Ok v' /\ Inv c v'.
Proof.
  intros c v [n t x|n t|n] HI Hv; cbn [vstep vop_valid] in *.
  - eexists. split; [reflexivity|]. apply put_inv; auto.
  - apply delete_rdataset_inv; auto.
  - apply delete_node_inv; auto.
Qed.

Theorem vsteps_inv : forall c os v,
    Inv c v -> Forall (vop_valid c) os -> exists v', vsteps c v os = Ok v' /\ Inv c v'.
Proof.
  induction os as [|o os IH]; intros v HI Hv; cbn [vsteps].
  - eauto.
  - inversion Hv; subst. destruct (vstep_inv c v o HI H1) as (v1 & E1 & HI1). rewrite E1. cbn [bind].
    apply IH; auto.
Qed.

Lemma dispatch_valid : forall c v o os,
    name_ok c (top_name o) -> dispatch c v o = Ok os -> Forall (vop_valid c) os.
Proof.
  intros c v o os Hok H. destruct o as [n t x|n t x|n|n t|n t x]; cbn [dispatch top_name] in *;
    destruct (validate_name c n) as [n'|e|e] eqn:Ev; cbn [bind] in H; try discriminate;
    specialize (Hok n' Ev).
  - destruct (get_rdataset v n' t); injection H as <-; repeat constructor; auto.
  - injection H as <-; repeat constructor; auto.
  - injection H as <-; repeat constructor; auto.
  - destruct (get_rdataset v n' t); injection H as <-; repeat constructor; auto.
  - destruct x as [|x0 x].
    + injection H as <-; repeat constructor; auto.
    + destruct (get_rdataset v n' t) as [ex|]; [|injection H as <-; constructor].
      destruct (ids_diff ex (x0 :: x)); injection H as <-; repeat constructor; auto.
Qed.

(* once the name is accepted, the dispatch itself raises nothing *)
Lemma dispatch_ok : forall c v o n', validate_name c (top_name o) = Ok n' -> exists os, dispatch c v o = Ok os.
Proof.
  intros c v o n' Hn. destruct o as [n t x|n t x|n|n t|n t x]; cbn [dispatch top_name] in *; rewrite Hn; cbn [bind]; eauto.
  - destruct (get_rdataset v n' t); eauto.
  - destruct (get_rdataset v n' t); eauto.
  - destruct x; eauto. destruct (get_rdataset v n' t); eauto. destruct (ids_diff _ _); eauto.
Qed.

Theorem tstep_inv : forall c v o v',
    Inv c v -> name_ok c (top_name o) -> tstep c v o = Ok v' -> Inv c v'.
Proof.
  intros c v o v' HI Hok H. unfold tstep in H. destruct (dispatch c v o) as [os|e|e] eqn:Ed; cbn [bind] in H;
    try discriminate.
  destruct (vsteps_inv c os v HI (dispatch_valid c v o os Hok Ed)) as (v1 & E1 & HI1). congruence.
Qed.

(* the KeyError of `del self.nodes[name]` is unreachable: a step fails only in name validation *)
Theorem tstep_fails_only_in_validation : forall c v o,
    Inv c v -> name_ok c (top_name o) ->
    (exists v', tstep c v o = Ok v') \/
    (forall n', validate_name c (top_name o) <> Ok n').
Proof.
  intros c v o HI Hok. unfold tstep. destruct (dispatch c v o) as [os|e|e] eqn:Ed; cbn [bind].
  2,3: right; intros n' Hn; destruct (dispatch_ok c v o n' Hn) as [os E]; congruence.
  left. destruct (vsteps_inv c os v HI (dispatch_valid c v o os Hok Ed)) as (v1 & E1 & _). eauto.
Qed.

Theorem run_ops_inv : forall c os v,
    Inv c v -> Forall (fun o => name_ok c (top_name o)) os -> Inv c (fst (run_ops c v os)).
Proof.
  induction os as [|o os IH]; intros v HI Hok; cbn [run_ops]; auto.
  inversion Hok; subst. destruct (tstep c v o) as [v'|e|e] eqn:Et.
  - specialize (IH v' (tstep_inv c v o v' HI H1 Et) H2). destruct (run_ops c v' os). exact IH.
  - specialize (IH v HI H2). destruct (run_ops c v os). exact IH.
  - specialize (IH v HI H2). destruct (run_ops c v os). exact IH.
Qed.

(* commit: the keys of the changed names are re-spelled *)
Definition respell (l l' : nodes_t) : Prop :=
  (forall k' x, In (k', x) l' -> exists k, K k = K k' /\ In (k, x) l) /\
  (forall k x, In (k, x) l -> exists k', K k' = K k /\ In (k', x) l').

Lemma respell_refl : forall l, respell l l.
Proof. intros l. split; intros k x H; exists k; auto. Qed.

Lemma respell_trans : forall a b d, respell a b -> respell b d -> respell a d.
Proof.
  intros a b d [A1 A2] [B1 B2]. split.
  - intros k' x H. apply B1 in H as (k1 & E1 & H). apply A1 in H as (k2 & E2 & H). exists k2. split; congruence.
  - intros k x H. apply A2 in H as (k1 & E1 & H). apply B2 in H as (k2 & E2 & H). exists k2. split; congruence.
Qed.

Lemma respell_set : forall (l : nodes_t) n nd, sorted l -> al_get n l = Some nd -> respell l (al_set n nd l).
Proof.
  intros l n nd S G. apply al_get_some in G as (n0 & Hin & E). split.
  - intros k' x H. apply al_set_in in H as [H|[H _]]; auto.
    + injection H as <- <-. exists n0. auto.
    + exists k'. auto.
  - intros k x H. destruct (key_eq_dec (K k) (K n)) as [Ek|Ek].
    + assert ((k, x) = (n0, nd)) by (eapply sorted_functional; eauto; congruence). injection H0 as -> ->.
      exists n. split; auto. apply al_set_in; auto.
    + exists k. split; auto. apply al_set_in; auto.
Qed.

Lemma freeze_respell : forall ch (l : nodes_t), sorted l -> sorted (freeze_nodes l ch) /\ respell l (freeze_nodes l ch).
Proof.
  induction ch as [|n ch IH]; intros l S; cbn [freeze_nodes fold_left].
  - split; auto. apply respell_refl.
  - destruct (al_get n l) as [nd|] eqn:G.
    + destruct (IH (al_set n nd l) (al_set_sorted _ _ _ S)) as [A B]. split; auto.
      eapply respell_trans; [apply respell_set; eauto|exact B].
    + apply IH; auto.
Qed.

Lemma respell_owner : forall c l l', respell l l' -> forall k, owner c l' k <-> owner c l k.
Proof.
  intros c l l' [R1 R2] k. unfold owner.
  split; intros (m & nd & Hin & Hns & E); [apply R1 in Hin|apply R2 in Hin]; destruct Hin as (m0 & E0 & Hin);
    exists m0, nd; rewrite (ns_owner_ext c m0 m nd nd E0 eq_refl); (split; [exact Hin|]); (split; [exact Hns|congruence]).
Qed.

Lemma respell_inv : forall c l d ch l' ch',
    Inv c (mkVer l d ch) -> sorted l' -> respell l l' -> Inv c (mkVer l' d ch').
Proof.
  intros c l d ch l' ch' HI S' R. pose proof (respell_owner c l l' R) as Hown.
  assert (Hocc : forall m, occluded c l' m = occluded c l m) by (intros; apply occluded_owner_ext; auto).
  destruct R as [R1 R2].
  constructor; cbn [v_nodes v_delegs]; auto.
  - apply (inv_sd c _ HI).
  - intros k Hk. apply keys_in in Hk as (k' & x & Hin & <-). apply R1 in Hin as (k0 & E & Hin).
    rewrite <- E. apply (inv_v c _ HI). eapply in_keys; eauto.
  - intros k' x Hin. apply R1 in Hin as (k0 & E & Hin). apply (inv_nd c _ HI k0 x Hin).
  - intros k' x Hin. apply R1 in Hin as (k0 & E & Hin). rewrite flags_of_eq, Hocc.
    rewrite (inv_flags c _ HI k0 x Hin). cbn [v_nodes].
    rewrite (is_apex_ext c k0 k'), (occluded_ext c l k0 k') by auto. reflexivity.
  - intros y. rewrite (inv_d c _ HI), (Hown y), (occk_owner_ext c _ _ Hown y). reflexivity.
Qed.

Definition ZInv (c : cfg) (z : zone) : Prop := Inv c (mkVer (z_nodes z) (z_delegs z) []).

Lemma Inv_empty : forall c ch, Inv c (mkVer [] [] ch).
Proof.
  intros. constructor; cbn [v_nodes v_delegs]; try exact Logic.I; try (intros; contradiction).
  intros k. split; [intros []|]. intros [(m & nd & [] & _) _].
Qed.

Definition txn_ok (c : cfg) (t : txn) : Prop := Forall (fun o => name_ok c (top_name o)) (t_ops t).

Theorem run_txn_inv : forall c z t, ZInv c z -> txn_ok c t -> ZInv c (fst (run_txn c z t)).
Proof.
  intros c z t HZ Hok. unfold run_txn.
  assert (HI0 : Inv c (begin_txn z (t_repl t))).
  { unfold begin_txn. destruct (t_repl t); [apply Inv_empty|exact HZ]. }
  pose proof (run_ops_inv c (t_ops t) _ HI0 Hok) as HI.
  destruct (run_ops c (begin_txn z (t_repl t)) (t_ops t)) as [v rs]. cbn [fst] in *.
  unfold end_txn. destruct (t_commit t); auto. destruct v as [l d ch]. cbn [v_changed v_nodes v_delegs].
  destruct ch as [|n0 ch]; auto. unfold ZInv. cbn [z_nodes z_delegs].
  destruct (freeze_respell (n0 :: ch) l (inv_sn c _ HI)) as [S' R].
  eapply respell_inv; eauto.
Qed.

Definition history_ok (c : cfg) (h : list txn) : Prop := Forall (txn_ok c) h.

Theorem exec_inv : forall c h, history_ok c h -> ZInv c (exec c h).
Proof.
  intros c h. unfold exec.
  assert (forall z, ZInv c z -> history_ok c h -> ZInv c (fold_left (fun z t => fst (run_txn c z t)) h z)).
  { induction h as [|t h IH]; intros z HZ Hok; cbn [fold_left]; auto.
    inversion Hok; subst. apply IH; auto. apply run_txn_inv; auto. }
  intros Hok. apply H; auto. apply Inv_empty.
Qed.

(* a zone that satisfies the invariant carries the flags and the index of the specification *)
Theorem ZInv_eq_spec : forall c z,
    ZInv c z ->
    (forall n nd, In (n, nd) (z_nodes z) -> nflags nd = flags_of c (z_nodes z) (n, nd)) /\
    map K (map fst (z_delegs z)) = map K (delegations_of c (z_nodes z)).
Proof.
  intros c z HI. unfold ZInv in HI. split.
  - apply (inv_f c _ HI).
  - apply ksorted_unique.
    + pose proof (inv_sd c _ HI) as Sd. unfold sorted, keys in Sd. cbn [v_delegs] in Sd. rewrite map_map. exact Sd.
    + apply delegations_of_sorted. apply (inv_sn c _ HI).
    + intros k. rewrite <- (inv_deleg_keys c _ HI k). unfold keys. rewrite map_map. reflexivity.
Qed.

Theorem incremental_eq_spec_main : forall c h,
    history_ok c h ->
    let z := exec c h in
    (forall n nd, In (n, nd) (z_nodes z) -> nflags nd = flags_of c (z_nodes z) (n, nd)) /\
    map K (map fst (z_delegs z)) = map K (delegations_of c (z_nodes z)).
Proof. intros c h Hok. exact (ZInv_eq_spec c _ (exec_inv c h Hok)). Qed.

Fixpoint increasing (l : list name) : Prop :=
  match l with
  | [] => True
  | a :: r => (forall b, In b r -> order a b < 0) /\ increasing r
  end.

Lemma ksorted_increasing : forall (l : nodes_t), sorted l -> increasing (map fst l).
Proof.
  induction l as [|[k v] l IH]; intros S; cbn; [exact Logic.I|].
  apply sorted_cons in S as [S1 S2]. split; auto.
  intros b Hb. apply in_map_iff in Hb as ([k' v'] & <- & Hin). cbn [fst].
  apply Z.ltb_lt. apply order_lt_kcmp. apply (S1 k' v' Hin).
Qed.

Theorem iteration_canonical_main : forall c h,
    history_ok c h -> increasing (map fst (z_nodes (exec c h))).
Proof.
  intros c h Hok. apply ksorted_increasing. apply (inv_sn c _ (exec_inv c h Hok)).
Qed.
