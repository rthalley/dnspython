(* C19 - isolation, node by node: an operation on one tree leaves every NODE that any other tree
   reaches literally untouched (same id, same creator, same keys, same children) - which is what
   keeps cursors and iterators held on those other trees valid: they are not parked when a
   different tree (a clone, or the original of a clone) is mutated.  Before that, the write set of an
   operation (`ext`); after it, who created the nodes a tree reaches. *)
From DV Require Import Base.Prelude Model.BTreeM Model.BTreeStoreM Proofs.BTreeBase Proofs.BTreeWf Proofs.BTreeInsert
  Proofs.BTreeLookup Proofs.BTreeDelete Proofs.BTreeTop Proofs.BTreeStore Proofs.BTreeIsolation
  Proofs.BTreeRefine Proofs.BTreeRefine4 Proofs.BTreeRefine5.

Lemma prim_steps_writes i w w' : prim_steps (Some i) w w' -> WI w -> ext i (sw_store w) (sw_store w').
Proof.
  induction 1 as [w|w y o w1 w' Hy E _ IH]; intros HW; [apply ext_refl|].
  apply (ext_trans _ _ (sw_store w1)); [|apply IH, (exec_prim_isolated _ _ _ _ HW E)].
  pose proof (exec_prim_ext _ _ _ _ HW E) as He. unfold wtag in He. now rewrite Hy in He.
Qed.

Lemma exec_untargeted w x : target x = None -> exec w x = exec_prim w x.
Proof. destruct x; try discriminate; reflexivity. Qed.

Lemma exec_writes_own w x w' o : WI w -> exec w x = (w', o) -> ext (wtag w x) (sw_store w) (sw_store w').
Proof.
  intros HW H. unfold wtag. destruct (target x) as [i|] eqn:Et.
  - apply prim_steps_writes; [rewrite <- Et; exact (exec_prim_steps _ _ _ _ H)|exact HW].
  - rewrite (exec_untargeted _ _ Et) in H.
    pose proof (exec_prim_ext _ _ _ _ HW H) as He. unfold wtag in He. now rewrite Et in He.
Qed.

Theorem writes_own_nodes_only_proof xs x w' o :
  let w := execs (mkSW [] []) xs in
  exec w x = (w', o) -> ext (wtag w x) (sw_store w) (sw_store w').
Proof. exact (exec_writes_own _ x w' o (WI_reachable xs)). Qed.

Lemma prim_steps_nodes tg w w' k sb tr fp :
  prim_steps tg w w' -> WI w -> tg <> Some k ->
  nth_error (sw_trees w) k = Some sb -> rep (sw_store w) (sb_root sb) tr fp ->
  same_nodes (sw_store w) (sw_store w') fp.
Proof.
  intros H. induction H as [w|w y o w1 w' Hy E _ IH]; intros HW Hne Hk Hr; [intros y _; reflexivity|].
  destruct (exec_prim_isolated _ _ _ _ HW E) as (HW1 & U1). rewrite Hy in U1. destruct (U1 k sb Hne Hk) as (Hk1 & _).
  assert (H1 : same_nodes (sw_store w) (sw_store w1) fp).
  { destruct (exec_prim_writes _ _ _ _ HW E) as [->|(Hfr & He)]; [intros z _; reflexivity|].
    apply (ext_same_nodes w (wtag w y) _ k sb tr fp HW Hk Hr Hfr); [|exact He].
    unfold wtag. rewrite Hy. destruct tg; [congruence|]. apply Nat.neq_sym, Nat.lt_neq, nth_error_Some. congruence. }
  intros z Hz. rewrite (IH HW1 Hne Hk1 (rep_frame _ _ _ _ _ Hr H1) z Hz). exact (H1 z Hz).
Qed.

(* one more operation leaves every node that another tree reaches untouched *)
Lemma exec_nodes_untouched w ts x w' o k bk :
  SR w ts -> exec w x = (w', o) -> target x <> Some k -> nth_error (sw_trees w) k = Some bk ->
  exists fp tr, rep (sw_store w) (sb_root bk) tr fp /\ rep (sw_store w') (sb_root bk) tr fp /\
    forall y, In y fp -> nth_error (sw_store w') y = nth_error (sw_store w) y.
Proof.
  intros HSR H Hne Hk. destruct (SR_rep _ _ k bk HSR Hk) as (b & fp & _ & Hr).
  pose proof (prim_steps_nodes _ _ _ k bk _ fp (exec_prim_steps _ _ _ _ H) (proj1 HSR) Hne Hk Hr) as Hs.
  exists fp, (b_root b). split; [assumption|]. split; [|exact Hs]. eapply rep_frame; [exact Hr|exact Hs].
Qed.

Theorem cow_nodes_untouched_proof xs x w' o k bk :
  let w := execs (mkSW [] []) xs in
  exec w x = (w', o) -> target x <> Some k -> nth_error (sw_trees w) k = Some bk ->
  exists fp tr, rep (sw_store w) (sb_root bk) tr fp /\ rep (sw_store w') (sb_root bk) tr fp /\
    forall y, In y fp -> nth_error (sw_store w') y = nth_error (sw_store w) y.
Proof. exact (exec_nodes_untouched _ _ x w' o k bk (store_refines_proof xs)). Qed.

(* who owns what a tree reaches: every node in the footprint of tree k was created by k itself or
   by an OLDER tree that is frozen - a mutable tree never shares its own nodes with anybody *)
Lemma footprint_owners w ts k bk :
  SR w ts -> nth_error (sw_trees w) k = Some bk ->
  exists fp tr, rep (sw_store w) (sb_root bk) tr fp /\
    forall y, In y fp -> exists n, nth_error (sw_store w) y = Some n /\
      (s_cr n = k \/ ((s_cr n < k)%nat /\ exists bo, nth_error (sw_trees w) (s_cr n) = Some bo /\ sb_immut bo = true)).
Proof.
  intros HSR Hk. destruct (SR_rep _ _ k bk HSR Hk) as (b & fp & _ & Hr).
  exists fp, (b_root b). split; [assumption|]. intros y Hy.
  destruct (footprint_visible w k bk _ fp (proj1 HSR) Hk Hr y Hy) as (n & Hn & Ha).
  exists n. split; [assumption|]. destruct Ha as [Heq|(Hlt & Hf)]; [now left|right].
  split; [assumption|]. unfold frw in Hf. destruct (nth_error (sw_trees w) (s_cr n)) as [bo|]; [|discriminate]. eauto.
Qed.

Theorem sharing_discipline_proof xs k bk :
  let w := execs (mkSW [] []) xs in
  nth_error (sw_trees w) k = Some bk ->
  exists fp tr, rep (sw_store w) (sb_root bk) tr fp /\
    forall y, In y fp -> exists n, nth_error (sw_store w) y = Some n /\
      (s_cr n = k \/ ((s_cr n < k)%nat /\ exists bo, nth_error (sw_trees w) (s_cr n) = Some bo /\ sb_immut bo = true)).
Proof. exact (footprint_owners _ _ k bk (store_refines_proof xs)). Qed.
