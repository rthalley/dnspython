(* C02 with an origin: relative names (and absolute names outside the origin) survive
   to_wire(origin) / from_wire(origin).  Uses the relativity theorems of Proofs/NameRel.v. *)
From DV Require Import Base.Prelude Model.NameM Model.SchemaM Proofs.SchemaName Proofs.SchemaCodec Proofs.SchemaThm Proofs.SchemaFix Proofs.SchemaTable.
From DV Require Proofs.NameValid Proofs.NameRel Proofs.NameWire.
Open Scope Z_scope.

(* with a non-empty origin in force, get_name relativizes the names of origin-relative fields *)
Lemma get_name_origin : forall W o rel e c, o <> [] ->
  get_name W (Some o) rel e c =
  do nk <- NameM.from_wire (firstn e W) c;
  if rel then do r <- relativize (fst nk) o; Ok (r, (c + snd nk)%nat) else Ok (fst nk, (c + snd nk)%nat).
Proof.
  intros W [|x o'] rel e c Ho; [congruence|]. unfold get_name.
  destruct (NameM.from_wire (firstn e W) c) as [[n k]| |]; destruct rel; reflexivity.
Qed.

Section Origin.
  Variable o : name.
  Hypothesis o_abs : is_absolute o = true.

  (* what a name value must satisfy to come back unchanged when origin o is in force:
     relative names must fit together with the origin; absolute names must lie outside the
     origin (otherwise the reader relativizes them - by design) unless the reader ignores the
     origin for this field *)
  Definition nok_origin (rel : bool) (n : name) : Prop :=
    (rel = true /\ is_absolute n = false /\ NameValid.Valid (n ++ o)) \/
    (is_absolute n = true /\ validate_labels n = Ok tt /\ (rel = true -> is_subdomain n o = false)).

  Lemma hname_origin : forall rel n b W e c R,
    nok_origin rel n -> NameM.to_wire n (Some o) false = Ok b -> sees W e c (b ++ R) ->
    get_name W (Some o) rel e c = Ok (n, (c + length b)%nat).
  Proof.
    intros rel n b W e c R Hn He Hs. unfold NameM.to_wire in He.
    rewrite get_name_origin by (apply NameValid.absolute_ne, o_abs).
    destruct Hn as [(-> & Hna & Hv)|(Habs & Hv & Hsub)].
    - rewrite Hna, o_abs in He.
      destruct (wire_length n + wire_length o >? 255); [discriminate|].
      injection He as <-. rewrite <- NameWire.wire_labels_app in *.
      assert (Habs : is_absolute (n ++ o) = true).
      { destruct o as [|x o']; [discriminate|]. rewrite NameValid.is_absolute_app. exact o_abs. }
      rewrite (sees_from_wire W e c (n ++ o) R (proj2 (NameValid.validate_iff _) Hv) Habs Hs). cbn [bind fst snd].
      destruct (NameRel.derel_rel n o) as [_ ->]; auto.
      + eapply NameValid.Valid_prefix; eauto.
      + eapply NameValid.Valid_app_r; eauto.
    - rewrite Habs in He. injection He as <-.
      rewrite (sees_from_wire W e c n R Hv Habs Hs). cbn [bind fst snd].
      destruct rel; [|reflexivity]. unfold relativize. rewrite (Hsub eq_refl). reflexivity.
  Qed.

  Theorem schema_roundtrip_origin_thm : forall fs ck vs b A P,
    schema_wf fs = true -> nok_fields nok_origin fs vs ->
    encode_rdata (Some o) fs ck vs = Ok b ->
    decode_rdata (Some o) fs ck (A ++ b ++ P) (length A) (length b) = Ok vs.
  Proof. exact (roundtrip_gen (Some o) nok_origin hname_origin). Qed.
End Origin.

(* table level: entries whose writer and reader agree on the origin flags *)
Lemma sfld_full_eq : forall a b, sfld_eqb a b = true -> sfld_rel_eqb a b = true -> a = b.
Proof.
  intros [w m|n|w lo hi|r] [w' m'|n'|w' lo' hi'|r'] H H2; cbn in H, H2; try discriminate.
  - apply andb_prop in H as [H1 H3]. apply Nat.eqb_eq in H1. apply Z.eqb_eq in H3. congruence.
  - apply Nat.eqb_eq in H. congruence.
  - apply andb_prop in H as [H H3]. apply andb_prop in H as [H1 H4].
    apply Nat.eqb_eq in H1. apply Z.eqb_eq in H3. apply Z.eqb_eq in H4. congruence.
  - apply eqb_prop in H2. congruence.
Qed.

Lemma row_full_eq : forall a b, row_eqb a b = true ->
  (fix go (a b : list sfld) := match a, b with
                               | x :: a', y :: b' => sfld_rel_eqb x y && go a' b'
                               | _, _ => true end) a b = true -> a = b.
Proof.
  induction a as [|x a IH]; intros [|y b] H H2; cbn in H; try discriminate; [reflexivity|].
  apply andb_prop in H as [H1 H3]. apply andb_prop in H2 as [H4 H5].
  f_equal; [apply sfld_full_eq; assumption|apply IH; assumption].
Qed.

Lemma fld_full_eq : forall a b, fld_eqb a b = true -> fld_rel_eqb a b = true -> a = b.
Proof.
  intros [s|lo|n|hi|m a row] [s'|lo'|n'|hi'|m' a' row'] H H2; cbn in H; try discriminate.
  - f_equal. apply sfld_full_eq; assumption.
  - apply Z.eqb_eq in H. congruence.
  - apply Nat.eqb_eq in H. congruence.
  - apply Z.eqb_eq in H. congruence.
  - apply andb_prop in H as [H H3]. apply andb_prop in H as [H1 H4].
    apply eqb_prop in H1. apply eqb_prop in H4. subst. f_equal. apply row_full_eq; assumption.
Qed.

Lemma sides_full_eq : forall a b, sides_eqb a b = true -> rel_eqb a b = true -> map fst a = map fst b.
Proof.
  induction a as [|[x s] a IH]; intros [|[y t] b] H H2; cbn in H; try discriminate; [reflexivity|].
  apply andb_prop in H as [H H3]. apply andb_prop in H as [H1 H4].
  cbn [rel_eqb] in H2. apply andb_prop in H2 as [H5 H6].
  cbn [map fst]. f_equal; [apply fld_full_eq; assumption|apply IH; assumption].
Qed.

Lemma fld_rel_eqb_fixed : forall x n, fld_rel_eqb x (FS (FFixed n)) = true.
Proof. intros x k; destruct x as [[ | | | ]| | | | ]; reflexivity. Qed.

Lemma rel_eqb_nil_r : forall w, rel_eqb w [] = true.
Proof. intros [|[x s] w]; reflexivity. Qed.

Lemma rel_eqb_norm_last : forall r w, rel_eqb w r = true -> rel_eqb w (norm_last r) = true.
Proof.
  induction r as [|[y t] r IH]; intros w H; [exact H|].
  destruct r as [|z r'].
  - destruct w as [|[x s] w']; [destruct y; reflexivity|].
    destruct y; try exact H.
    cbn [norm_last rel_eqb]. rewrite fld_rel_eqb_fixed, rel_eqb_nil_r. reflexivity.
  - assert (E : norm_last ((y, t) :: z :: r') = (y, t) :: norm_last (z :: r')) by (destruct y; reflexivity).
    rewrite E. destruct w as [|[x s] w']; [reflexivity|].
    cbn [rel_eqb] in *. apply andb_prop in H as [H1 H2]. rewrite H1. cbn [andb]. apply IH. exact H2.
Qed.

(* an entry that is entry_ok and whose two sides agree on the origin flags has ONE field list *)
Lemma entry_sides_equal : forall e w r ck,
  entry_ok e = true -> entry_origin_ok e = true -> e_codec e = CSchema w r ck ->
  map fst w = map fst (norm_last r).
Proof.
  intros e w r ck Hok Hor Hc. unfold entry_ok in Hok. unfold entry_origin_ok in Hor. rewrite Hc in *.
  apply andb_prop in Hok as [Hok _]. apply andb_prop in Hok as [Hok _]. apply andb_prop in Hok as [Hs _].
  apply sides_full_eq; [exact Hs|]. apply rel_eqb_norm_last. exact Hor.
Qed.

(* ... so under any origin its reader decodes like its writer's list *)
Lemma entry_origin_ok_decode : forall e w r ck o wire c l,
  entry_ok e = true -> entry_origin_ok e = true -> e_codec e = CSchema w r ck ->
  decode_rdata o (map fst r) ck wire c l = decode_rdata o (map fst w) ck wire c l.
Proof.
  intros e w r ck o wire c l Hok Hor Hc.
  rewrite <- decode_rdata_norm_last, <- (entry_sides_equal e w r ck Hok Hor Hc). reflexivity.
Qed.

Theorem table_roundtrip_origin_thm : forall tbl o e w r ck vs b A P,
  forallb entry_ok tbl = true -> In e tbl -> entry_origin_ok e = true ->
  e_codec e = CSchema w r ck -> is_absolute o = true ->
  nok_fields (nok_origin o) (map fst w) vs ->
  encode_rdata (Some o) (map fst w) ck vs = Ok b ->
  decode_rdata (Some o) (map fst r) ck (A ++ b ++ P) (length A) (length b) = Ok vs.
Proof.
  intros tbl o e w r ck vs b A P Ht Hin Hor Hc Ho Hn He.
  rewrite forallb_forall in Ht. specialize (Ht e Hin).
  rewrite (entry_origin_ok_decode e w r ck _ _ _ _ Ht Hor Hc).
  apply schema_roundtrip_origin_thm; [exact Ho|eapply entry_ok_wf; eauto|exact Hn|exact He].
Qed.

(* the known finding: TSIG's reader ignores the origin that its writer applies *)
Definition tsig_w : list (fld * Z) :=
  [(FS (FName true), 0); (FS (FU 6 281474976710655), 1); (FS (FU 2 65535), 2); (FS (FCounted 2 0 65535), 3);
   (FS (FU 2 65535), 4); (FS (FU 2 4095), 5); (FS (FCounted 2 0 65535), 6)].
Definition tsig_r : list (fld * Z) :=
  [(FS (FName false), 0); (FS (FU 6 281474976710655), 1); (FS (FU 2 65535), 2); (FS (FCounted 2 0 65535), 3);
   (FS (FU 2 65535), 4); (FS (FU 2 4095), 5); (FS (FCounted 2 0 65535), 6)].

Theorem tsig_origin_roundtrip_refuted_thm :
  entry_ok (mk_entry 255 250 tsig_w tsig_r CkNone) = true /\
  exists o vs b,
    is_absolute o = true /\ nok_fields (nok_origin o) (map fst tsig_w) vs /\
    encode_rdata (Some o) (map fst tsig_w) CkNone vs = Ok b /\
    exists vs', decode_rdata (Some o) (map fst tsig_r) CkNone b 0 (length b) = Ok vs' /\ vs' <> vs.
Proof.
  split; [reflexivity|].
  exists [[101; 120]; []].
  exists [VS (VN [[88]]); VS (VI 5); VS (VI 300); VS (VB [1; 2]); VS (VI 7); VS (VI 0); VS (VB [])].
  eexists. split; [reflexivity|]. split.
  - cbn. repeat split; try exact Logic.I. left. split; [reflexivity|]. split; [reflexivity|].
    unfold NameValid.Valid. cbn. repeat split; try lia; repeat constructor; cbn; try lia; discriminate.
  - split; [vm_compute; reflexivity|]. eexists. split; [vm_compute; reflexivity|]. discriminate.
Qed.
