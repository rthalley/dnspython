(* C09: what a successful load does to the zone - every change is a txn_add of an in-zone name;
   invariants of the loaded zone (CNAME exclusivity, names inside the origin). *)
From DV Require Import Base.Prelude Model.NameM Model.ZoneTextM Proofs.ZoneTextBase Proofs.ListFacts.
Open Scope Z_scope.

(* adds rel zo z z': z' is obtained from z by a sequence of txn_add calls whose names come from
   absolute names inside the origin zo *)
Inductive adds (rel : bool) (zo : name) : zone -> zone -> Prop :=
| adds_refl (z : zone) : adds rel zo z z
| adds_step (z : zone) (nabs n : name) (ttl ty : Z) (rd : rdata) (z' z'' : zone) :
    is_subdomain nabs zo = true ->
    (if rel then lift_name true (relativize nabs zo) else Ok nabs) = Ok n ->
    txn_add zo rel z n ttl ty rd = Ok z' ->
    adds rel zo z' z'' -> adds rel zo z z''.

Lemma adds_trans rel zo a b c : adds rel zo a b -> adds rel zo b c -> adds rel zo a c.
Proof. induction 1; intros; eauto using adds. Qed.

Ltac st_simpl :=
  cbn [zn zorigin corigin lastname lttl lttl_known dttl dttl_known
       set_last set_lttl set_dttl set_zn set_origin] in *.

(* what one logical line may do to the state *)
Definition step_ok (rel : bool) (s s' : rstate) : Prop :=
  match zorigin s with
  | Some zo => zorigin s' = Some zo /\ adds rel zo (zn s) (zn s')
  | None => zn s' = zn s
  end.

Lemma step_ok_same rel s s' : zorigin s' = zorigin s -> zn s' = zn s -> step_ok rel s s'.
Proof.
  unfold step_ok. intros Ho Hz. destruct (zorigin s); [|exact Hz].
  split; [exact Ho|]. rewrite Hz. constructor.
Qed.

Lemma eol_ok_step rel lerr s s1 s' :
  zorigin s1 = zorigin s -> zn s1 = zn s -> eol_ok lerr s1 = Ok s' -> step_ok rel s s'.
Proof.
  unfold eol_ok. intros Ho Hz H. destruct lerr; inversion H; subst. apply step_ok_same; assumption.
Qed.

(* Each intermediate result of rr_fields is a tuple taken apart as a whole: the branch that
   produced it matters only for the state in it, which differs from s by set_lttl / set_dttl. *)
Lemma rr_fields_ok c s co zo n toks lerr s' :
  rr_fields c s co zo n toks lerr = Ok s' ->
  zorigin s' = zorigin s /\ exists ttl ty rd, txn_add zo (c_rel c) (zn s) n ttl ty rd = Ok (zn s').
Proof.
  unfold rr_fields. intros H.
  apply bind_ok in H as ([v1 r1] & _ & H).
  set (p := match ttl_from_text v1 with Ok t => _ | _ => _ end) in H.
  assert (F1 : zorigin (snd (fst p)) = zorigin s /\ zn (snd (fst p)) = zn s)
    by (subst p; destruct (ttl_from_text v1); auto).
  destruct p as [[ttl s1] toks1]. cbn [fst snd] in F1.
  apply bind_ok in H as ([v2 r2] & _ & H).
  destruct (match class_from_text v2 with Some k => _ | None => _ end) as [cls toks2].
  destruct (negb _); [discriminate|].
  apply bind_ok in H as ([[ttl' s2] toks3] & E & H).
  assert (F2 : zorigin s2 = zorigin s /\ zn s2 = zn s).
  { destruct ttl; [inversion E; subst; exact F1|].
    apply bind_ok in E as ([v3 r3] & _ & E). destruct (ttl_from_text v3); inversion E; subst; exact F1. }
  apply bind_ok in H as ([v4 toks4] & _ & H).
  destruct (type_from_text v4) as [ty|]; [|discriminate].
  apply bind_ok in H as (rd & _ & H).
  set (q := if negb (dttl_known s2) && (ty =? tSOA) then _ else _) in H.
  assert (F3 : zorigin (snd q) = zorigin s /\ zn (snd q) = zn s)
    by (subst q; destruct (_ && _); [destruct (nth_error rd 6) as [[]|]|]; exact F2).
  destruct q as [[t|] s3]; [|discriminate]. cbn [snd] in F3. destruct F3 as [Fo Fz].
  apply bind_ok in H as (z' & Ha & H). inversion H; subst. rewrite Fz in Ha. st_simpl. eauto.
Qed.

Lemma rr_line_step c s lead toks lerr s' :
  rr_line c s lead toks lerr = Ok s' -> step_ok (c_rel c) s s'.
Proof.
  unfold rr_line. destruct (corigin s) as [co|]; [|discriminate]. intros H.
  apply bind_ok in H as ([[s1 toks1] blank] & E & H).
  assert (F : zorigin s1 = zorigin s /\ zn s1 = zn s).
  { destruct lead; [destruct toks; inversion E; auto|].
    destruct toks as [|[v|v] r]; try discriminate.
    apply bind_ok in E as (n & _ & E). inversion E. auto. }
  destruct F as [Fo Fz]. pose proof (eol_ok_step (c_rel c) lerr s s1 s' Fo Fz) as Heol.
  destruct blank; [auto|].
  destruct (lastname s1) as [nabs|]; [|discriminate].
  destruct (zorigin s1) as [zo|] eqn:Ez; [|discriminate].
  destruct (is_subdomain nabs zo) eqn:Es; cbn [negb] in H; [|auto].
  apply bind_ok in H as (n & En & H).
  apply rr_fields_ok in H as (Ho & ttl & ty & rd & Ha).
  unfold step_ok. rewrite <- Fo, <- Fz. split; [congruence|]. eauto using adds.
Qed.

Lemma gen_loop_adds c co zo lhs rhs lm rm ttl ty step : forall count i s s' eaten,
  gen_loop count i step c s co zo lhs rhs lm rm ttl ty = Ok (s', eaten) ->
  zorigin s' = zorigin s /\ adds (c_rel c) zo (zn s) (zn s').
Proof.
  destruct lm as [[[[lmod lneg] loff] lwidth] lbase], rm as [[[[rmod rneg] roff] rwidth] rbase].
  induction count as [|k IH]; intros i s s' eaten H; cbn [gen_loop] in H.
  - inversion H; subst. split; [reflexivity|constructor].
  - cbv beta iota in H. apply bind_ok in H as (nm & _ & H).
    destruct (is_subdomain nm zo) eqn:Es; cbn [negb] in H;
      [|inversion H; subst; split; [reflexivity|constructor]].
    apply bind_ok in H as (n & En & H).
    destruct (lex _ 0 MSkip []) as [[toks term] rest0].
    apply bind_ok in H as (rd & _ & H). apply bind_ok in H as (z' & Ha & H).
    apply IH in H as [Ho Hadds]. split; [exact Ho|]. eauto using adds.
Qed.

Lemma generate_line_step c s toks lerr s' lft :
  generate_line c s toks lerr = Ok (s', lft) -> zorigin s' = zorigin s /\ step_ok (c_rel c) s s'.
Proof.
  unfold generate_line. destruct (corigin s) as [co|]; [|discriminate].
  destruct toks as [|t0 toks0]; [discriminate|].
  destruct (grange_from_text (tokval t0)) as [[[start stop] step]| |]; try discriminate. intros H.
  apply bind_ok in H as ([lhs toks1] & _ & H). apply bind_ok in H as ([v1 r1] & _ & H).
  apply bind_ok in H as ([[[ttl s1] v2] r2] & E & H).
  assert (F : zorigin s1 = zorigin s /\ zn s1 = zn s).
  { destruct (ttl_from_text v1); [apply bind_ok in E as ([v r] & _ & E)| |];
      try (destruct (dttl_known s); [|destruct (lttl_known s)]); inversion E; auto. }
  destruct F as [Fo Fz].
  apply bind_ok in H as ([[cls v3] r3] & _ & H).
  destruct (negb _); [discriminate|]. destruct (type_from_text v3) as [ty|]; [|discriminate].
  apply bind_ok in H as ([rhs r4] & _ & H).
  apply bind_ok in H as (lm & _ & H). apply bind_ok in H as (rm & _ & H).
  destruct (zorigin s1) as [zo|] eqn:Ez; [|discriminate].
  apply bind_ok in H as ([s2 eaten] & G & H). apply gen_loop_adds in G as [Go Ga].
  assert (s2 = s') by (destruct eaten; [destruct lerr|]; inversion H; reflexivity). subst s2.
  unfold step_ok. rewrite <- Fo, <- Fz. split; [congruence|]. split; [congruence|exact Ga].
Qed.

Lemma step_ok_trans rel s1 s2 s3 : step_ok rel s1 s2 -> step_ok rel s2 s3 ->
  zorigin s2 = zorigin s1 -> step_ok rel s1 s3.
Proof.
  unfold step_ok. intros H1 H2 Ho. rewrite Ho in H2.
  destruct (zorigin s1) as [zo|]; [|congruence].
  destruct H1 as [_ Ha], H2 as [Ho2 Ha2]. split; [exact Ho2|]. eapply adds_trans; eauto.
Qed.

Lemma process_line_step c s lead toks lerr s' :
  process_line c s lead toks lerr = Ok s' -> step_ok (c_rel c) s s'.
Proof.
  unfold process_line. destruct lead; [apply rr_line_step|].
  destruct toks as [|t rest]; [apply eol_ok_step; reflexivity|].
  rewrite dollar_match. destruct (match tokval t with c0 :: _ => c0 =? 36 | [] => false end);
    [cbv zeta|apply rr_line_step].
  intros H.
  destruct (zlist_eqb _ sTTL).
  { apply bind_ok in H as ([v r] & _ & H). destruct (ttl_from_text v); try discriminate.
    destruct r; [|discriminate]. revert H. apply eol_ok_step; reflexivity. }
  destruct (zlist_eqb _ sORIGIN).
  { apply bind_ok in H as ([v r] & _ & H). apply bind_ok in H as (o & _ & H).
    destruct r; [|discriminate]. destruct lerr; [discriminate|]. destruct (is_absolute o); inversion H.
    unfold step_ok. st_simpl. destruct (zorigin s); [split; [reflexivity|constructor]|reflexivity]. }
  destruct (zlist_eqb _ sGENERATE).
  { apply bind_ok in H as ([s1 lft] & G & H). apply generate_line_step in G as [Go G].
    destruct lft as [[|t1 l]|]; [|apply rr_line_step in H|inversion H; subst; exact G];
      (eapply step_ok_trans; [exact G| |exact Go]).
    - revert H. apply eol_ok_step; reflexivity.
    - exact H. }
  destruct (zlist_eqb _ sUNICODE); [|discriminate].
  destruct (all_ids rest); [revert H; apply eol_ok_step; reflexivity|discriminate].
Qed.

(* the zone under construction is the result of txn_adds of in-zone names, from the empty zone *)
Definition loaded (rel : bool) (s : rstate) : Prop :=
  match zorigin s with
  | Some zo => adds rel zo [] (zn s)
  | None => zn s = []
  end.

Lemma loaded_step rel s s' : loaded rel s -> step_ok rel s s' -> loaded rel s'.
Proof.
  unfold loaded, step_ok. intros HL HS.
  destruct (zorigin s) as [zo|].
  - destruct HS as [Ho Ha]. rewrite Ho. eapply adds_trans; eauto.
  - rewrite HS, HL. destruct (zorigin s'); [constructor|reflexivity].
Qed.

Lemma read_loop_loaded : forall fuel c s text s',
  loaded (c_rel c) s -> read_loop fuel c s text = Ok s' -> loaded (c_rel c) s'.
Proof.
  induction fuel as [|f IH]; intros c s text s' HL H; cbn [read_loop] in H; [discriminate|].
  destruct (lex text 0 MSkip []) as [[toks term] rest].
  apply bind_ok in H as (s1 & E & H).
  apply process_line_step in E.
  pose proof (loaded_step _ _ _ HL E) as HL1.
  destruct term; [eapply IH; eauto | inversion H; subst; exact HL1 | discriminate].
Qed.

Lemma from_text_loaded c text o z :
  from_text c text = Ok (o, z) ->
  z = [] \/ exists zo, o = Some zo /\ adds (c_rel c) zo [] z.
Proof.
  unfold from_text. intros H.
  apply bind_ok in H as (s & E & H).
  apply read_loop_loaded in E; [|unfold loaded, init_state; cbn; destruct (c_origin c); [constructor|reflexivity]].
  apply bind_ok in H as (u & _ & H). inversion H; subst; clear H.
  destruct (zn s) as [|e z'] eqn:Ez; [left; reflexivity|right].
  unfold loaded in E. rewrite Ez in E. destruct (zorigin s) as [zo|]; [|discriminate].
  exists zo. split; [reflexivity|exact E].
Qed.

Definition has_kind (k : nkind) (nd : node) : bool :=
  existsb (fun r => nkind_eqb (rds_kind r) k) nd.

(* a node never holds a CNAME (or RRSIG(CNAME)) together with "other data" *)
Definition node_excl (nd : node) : Prop :=
  has_kind KCname nd = true -> has_kind KRegular nd = false.
Definition zone_excl (z : zone) : Prop := Forall (fun e => node_excl (snd e)) z.

Lemma has_kind_app k a b : has_kind k (a ++ b) = has_kind k a || has_kind k b.
Proof. unfold has_kind. apply existsb_app. Qed.

Lemma has_kind_incl k nd nd' : incl nd' nd -> has_kind k nd' = true -> has_kind k nd = true.
Proof. unfold has_kind. rewrite !existsb_exists. intros Hi (r & Hin & Hk). eauto. Qed.

Lemma has_kind_nremove k nd ty cov :
  has_kind k (nremove nd ty cov) = true -> has_kind k nd = true.
Proof.
  apply has_kind_incl. induction nd as [|r nd IH]; cbn [nremove]; [easy|].
  destruct (rds_match r ty cov); [apply incl_tl, incl_refl|apply incl_cons; [left; reflexivity|apply incl_tl, IH]].
Qed.

Lemma has_kind_filter_out k nd :
  has_kind k (filter (fun x => negb (nkind_eqb (rds_kind x) k)) nd) = false.
Proof.
  unfold has_kind.
  induction nd as [|r nd IH]; cbn [filter existsb]; [reflexivity|].
  destruct (nkind_eqb (rds_kind r) k) eqn:E; cbn [negb existsb]; [exact IH|]. rewrite E. exact IH.
Qed.

Lemma has_kind_filter_sub k k' nd :
  has_kind k (filter (fun x => negb (nkind_eqb (rds_kind x) k')) nd) = true -> has_kind k nd = true.
Proof. apply has_kind_incl, incl_filter. Qed.

Lemma node_excl_sub nd nd' :
  (forall k, has_kind k nd' = true -> has_kind k nd = true) -> node_excl nd -> node_excl nd'.
Proof.
  unfold node_excl. intros Hs He Hc.
  destruct (has_kind KRegular nd') eqn:E; [|reflexivity].
  apply Hs in E. apply Hs in Hc. apply He in Hc. congruence.
Qed.

Lemma append_rdataset_excl nd r : node_excl nd -> node_excl (append_rdataset nd r).
Proof.
  intros He. unfold append_rdataset, node_excl.
  rewrite !has_kind_app. cbn [has_kind existsb]. rewrite !orb_false_r.
  destruct nd as [|r0 nd0].
  - cbn. destruct (rds_kind r); cbn; congruence.
  - remember (r0 :: nd0) as nd.
    destruct (rds_kind r) eqn:Ek; cbn [nkind_eqb]; rewrite ?orb_false_r, ?orb_true_r.
    + (* regular: CNAMEs were filtered out *)
      rewrite has_kind_filter_out. discriminate.
    + (* neutral *) exact He.
    + (* cname: regular data was filtered out *)
      intros _. rewrite has_kind_filter_out. reflexivity.
Qed.

Lemma replace_rdataset_excl nd r : node_excl nd -> node_excl (replace_rdataset nd r).
Proof.
  intros He. unfold replace_rdataset. apply append_rdataset_excl.
  eapply node_excl_sub; [|exact He]. intros k. apply has_kind_nremove.
Qed.

Lemma zfind_excl z n nd : zone_excl z -> zfind z n = Some nd -> node_excl nd.
Proof.
  induction 1 as [|[k nd'] z Hh Ht IH]; cbn; [discriminate|].
  destruct (name_eqb k n); [intros H; inversion H; subst; exact Hh|exact IH].
Qed.

Lemma zset_excl z n nd : zone_excl z -> node_excl nd -> zone_excl (zset z n nd).
Proof.
  intros Hz Hn. induction Hz as [|[k nd'] z Hh Ht IH]; cbn [zset].
  - constructor; [exact Hn|constructor].
  - destruct (name_eqb k n).
    + constructor; [exact Hn|exact Ht].
    + constructor; [exact Hh|exact IH].
Qed.

Lemma txn_add_excl zo rel z n ttl ty rd z' :
  zone_excl z -> txn_add zo rel z n ttl ty rd = Ok z' -> zone_excl z'.
Proof.
  intros He H. unfold txn_add in H.
  destruct (_ && _ && _); [discriminate|].
  apply bind_ok in H as (u & _ & H). inversion H; subst; clear H.
  unfold zput. destruct (zfind z n) as [nd|] eqn:Ef.
  - apply zset_excl; [exact He|]. apply replace_rdataset_excl. eapply zfind_excl; eauto.
  - apply Forall_app; split; [exact He|]. constructor; [|constructor].
    cbn [snd]. apply replace_rdataset_excl. unfold node_excl. cbn. discriminate.
Qed.

Lemma adds_excl rel zo z z' : adds rel zo z z' -> zone_excl z -> zone_excl z'.
Proof. induction 1; intros; eauto using txn_add_excl. Qed.

Theorem cname_exclusive_after_load_proof c text o z :
  from_text c text = Ok (o, z) -> zone_excl z.
Proof.
  intros H. apply from_text_loaded in H as [->|(zo & _ & Ha)]; [constructor|].
  eapply adds_excl; eauto. constructor.
Qed.
