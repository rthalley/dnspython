(* C13 - how dns.message (xfr=True) turns the records of an answer section into RRsets: from the
   first SOA record on, every record is its own RRset, in stream order (force_unique is sticky);
   before it, merging neither loses nor invents a record. *)
From DV Require Import Base.Prelude Model.XfrM Proofs.XfrSets Proofs.XfrSpec Proofs.XfrZone Proofs.XfrDiff
  Proofs.XfrSafety Proofs.XfrBasic Proofs.XfrRun Proofs.XfrSteps Proofs.XfrGeneral Proofs.XfrAxfr Proofs.XfrPerm Proofs.XfrGlue.

(* stream order is preserved from the first SOA record of the section on *)
Theorem group_after_soa : forall f x1 r x2, r_type r = tSOA ->
  group f (x1 ++ r :: x2) = group f x1 ++ single r :: map single x2.
Proof. intros. unfold group. apply group_go_after_soa. assumption. Qed.

(* the first RRset is that of the first record: whatever is merged into it, it keeps owner and type *)
Lemma group_go_head : forall x f s0 acc, exists s1 rs,
  group_go f (s0 :: acc) x = s1 :: rs /\ s_name s1 = s_name s0 /\ s_type s1 = s_type s0.
Proof.
  induction x as [|y x IH]; intros f s0 acc; cbn [group_go]; [eauto|].
  destruct (f || (r_type y =? tSOA)); [apply (IH _ s0 (acc ++ [single y]))|].
  cbn [add_to]. destruct (same_rrset y s0); [apply (IH false (rrset_add s0 y) acc)|apply IH].
Qed.

Lemma group_head : forall f r0 rest, exists h rs,
  group f (r0 :: rest) = h :: rs /\ s_name h = r_name r0 /\ s_type h = r_type r0.
Proof.
  intros f r0 rest. unfold group. cbn [group_go add_to app].
  destruct (f || (r_type r0 =? tSOA)); apply (group_go_head rest _ (single r0) []).
Qed.

(* merging keeps exactly the records received: RRsets and records compared as sets of tuples *)
Definition tup (r : rr) : Z * Z * Z * Z * Z := (r_name r, r_class r, r_type r, r_covers r, r_data r).
Definition rs_tups (s : rrset) : list (Z * Z * Z * Z * Z) :=
  map (fun d => (s_name s, s_class s, s_type s, s_covers s, d)) (s_data s).
Definition tups (l : list rrset) : list (Z * Z * Z * Z * Z) := flat_map rs_tups l.

Lemma same_rrset_fields : forall r s, same_rrset r s = true ->
  r_name r = s_name s /\ r_class r = s_class s /\ r_type r = s_type s /\ r_covers r = s_covers s.
Proof.
  intros r s H. unfold same_rrset in H. rewrite !andb_true_iff, !Z.eqb_eq in H. tauto.
Qed.

Lemma tups_add_to : forall r acc t, is_singleton (r_type r) = false ->
  In t (tups (add_to r acc)) <-> t = tup r \/ In t (tups acc).
Proof.
  intros r acc t Hsg. induction acc as [|s acc IH]; cbn [add_to].
  - cbn. unfold tup. split; intros [H|[]]; left; symmetry; exact H.
  - destruct (same_rrset r s) eqn:E.
    + apply same_rrset_fields in E. destruct E as (E1 & E2 & E3 & E4).
      unfold tups. cbn [flat_map]. rewrite !in_app_iff. unfold rs_tups at 1 3. cbn [rrset_add s_name s_class s_type s_covers s_data].
      rewrite <- E3, (rds_add_plain _ _ _ Hsg).
      rewrite !in_map_iff. unfold tup. rewrite E1, E2, E4. split.
      * intros [[d [<- Hd]]|H]; [|auto]. apply ins_In in Hd. destruct Hd as [->|Hd]; [auto|].
        right. left. exists d. auto.
      * intros [->|[[d [<- Hd]]|H]]; [left; exists (r_data r); split; [reflexivity|apply ins_In; auto]| |auto].
        left. exists d. split; [reflexivity|apply ins_In; auto].
    + unfold tups in *. cbn [flat_map]. rewrite !in_app_iff, IH. tauto.
Qed.

(* records of the singleton types other than SOA (NXT, DNAME, NSEC, CNAME) replace each other when they
   are merged; for all other records: *)
Definition mergeable (r : rr) : Prop := r_type r = tSOA \/ is_singleton (r_type r) = false.

Lemma tups_group_go : forall x f acc t, Forall mergeable x ->
  In t (tups (group_go f acc x)) <-> In t (tups acc) \/ In t (map tup x).
Proof.
  induction x as [|r x IH]; intros f acc t Hm; cbn [group_go map In]; [tauto|].
  inversion Hm as [|? ? Hr Hm']; subst.
  rewrite IH by exact Hm'. destruct (f || (r_type r =? tSOA)) eqn:Ef.
  - unfold tups. rewrite flat_map_app, in_app_iff. cbn. unfold tup. tauto.
  - apply orb_false_iff in Ef. destruct Ef as [_ Ef]. apply Z.eqb_neq in Ef.
    destruct Hr as [Hr|Hr]; [congruence|]. rewrite (tups_add_to _ _ _ Hr).
    assert (S : t = tup r <-> tup r = t) by (split; intros E; symmetry; exact E). tauto.
Qed.

(* no record is lost, none is invented: the (owner, class, type, covers, rdata) tuples of the RRsets
   are exactly those of the records *)
Theorem group_keeps_records : forall f x t, Forall mergeable x ->
  In t (tups (group f x)) <-> In t (map tup x).
Proof. intros f x t Hm. unfold group. rewrite tups_group_go by exact Hm. cbn. tauto. Qed.

(* the message that holds the final SOA of a full transfer followed by more records is rejected *)
Lemma loop_surplus : forall f c2 y x2 rdt p tz ser v Z, glue_inv Z tz c2 ->
  exists s', loop (ast false rdt p tz ser (single (soa_rr v))) (group f (c2 ++ soa_rr v :: y :: x2)) = (s', Some eAfterFinal)
             /\ pub s' = p.
Proof.
  intros f c2 y x2 rdt p tz ser v Z Hi. rewrite <- (app_nil_r c2) in Hi.
  destruct (glue_inv_msg Z rdt p ser (single (soa_rr v)) f tz c2 [] Hi) as (tz' & Hl & _).
  rewrite group_after_soa by reflexivity. cbn [map]. rewrite loop_app, Hl. cbn [loopT].
  rewrite step_ast_soa, Z.eqb_refl. eexists. split; reflexivity.
Qed.

(* AXFR: the message that carries the final SOA carries more records after it (of any content, also
   of an RRset that occurred earlier in the same message): rejected, zone untouched *)
Theorem axfr_surplus_rejected : forall v B z0 ser wsA wl ws3 c2 y x2,
  Forall okrec B ->
  Forall (header_ok tAXFR) wsA -> header_ok tAXFR wl ->
  concat (map w_records wsA) ++ c2 = soa_rr v :: B ->
  w_records wl = c2 ++ soa_rr v :: y :: x2 ->
  match wsA with w :: _ => w_records w <> [] | [] => True end ->
  exists n, inbound_xfr z0 tAXFR ser false (wsA ++ wl :: ws3) = (Error eAfterFinal z0, n).
Proof.
  intros v B z0 ser wsA wl ws3 c2 y x2 HB HhA Hwl Hcat Hr Hfirst.
  pose proof (glue_inv_start B [] HB quiet_nil zsorted_nil) as Hi.
  destruct wsA as [|w0 wsA].
  - cbn [map concat app] in *. subst c2. cbn [app] in Hr. rewrite (axfr_start z0 ser wl ws3 v _ Hwl Hr).
    destruct (loop_surplus true B y x2 tAXFR z0 [] (match ser with Some sv => sv | None => 0 end) v _ Hi) as (s' & -> & <-).
    eexists. reflexivity.
  - cbn [map concat] in Hcat. destruct (w_records w0) as [|r0 a] eqn:Hr0; [congruence|].
    cbn [app] in Hcat. inversion Hcat as [[E0 Hcat']]. subst r0.
    inversion HhA as [|? ? Hw0 HhA']; subst.
    cbn [app]. rewrite (axfr_start z0 ser w0 _ v a Hw0 Hr0).
    set (sv := match ser with Some sv => sv | None => 0 end).
    set (Z := adds [] (erase ((a ++ concat (map w_records wsA)) ++ c2))) in *.
    destruct (cont_full false tAXFR z0 sv (single (soa_rr v)) (fun tz c => glue_inv Z tz (c ++ c2))
                (fun f tz a0 c' H => glue_inv_msg Z tAXFR z0 sv _ f tz a0 (c' ++ c2) ltac:(rewrite app_assoc; exact H))
                wsA (wl :: ws3) true a [] _ [] HhA' (eq_sym (app_nil_r _)) Hi Logic.I) as (k & tz' & Hi' & Hk).
    eexists. apply Hk. rewrite (drive_running _ _ _ _ (running_ast _ _ _ _ _) Hwl), Hr.
    destruct (loop_surplus false c2 y x2 tAXFR z0 tz' sv v Z Hi') as (s' & -> & <-). reflexivity.
Qed.
