(* WKS: the bitmap rebuilt by from_text from the port numbers that to_text lists is the bitmap again (for a
   bitmap without trailing zero octets; the empty bitmap included). *)
From DV Require Import Base.Prelude Model.NameM Model.TokM Model.RdTextM.
From DV Require Import Proofs.ListFacts Proofs.TokEsc Proofs.TokWords Proofs.TokDec Proofs.TokShape Proofs.RdTextAddr Proofs.RdTextBitmap
     Proofs.RdTextTypes Proofs.RdTextTail.
Open Scope Z_scope.

(* trailing zero octets removed *)
Definition tz (l : list Z) : list Z := rev (strip_trailing_zeros_rev (rev l)).

Lemma tz_snoc_nz l b : b <> 0 -> tz (l ++ [b]) = l ++ [b].
Proof.
  intros Hb. unfold tz. rewrite rev_app_distr. cbn [rev app strip_trailing_zeros_rev].
  replace (b =? 0) with false by lia. cbn [rev]. rewrite rev_involutive. reflexivity.
Qed.

Lemma tz_snoc_z l : tz (l ++ [0]) = tz l.
Proof. unfold tz. rewrite rev_app_distr. reflexivity. Qed.

Lemma strip_zeros r : exists k, r = repeat 0 k ++ strip_trailing_zeros_rev r.
Proof.
  induction r as [|c r IH]; [exists 0%nat; reflexivity|]. cbn [strip_trailing_zeros_rev].
  destruct (c =? 0) eqn:E; [|exists 0%nat; reflexivity]. apply Z.eqb_eq in E. subst.
  destruct IH as (k & Hk). exists (S k). cbn [repeat app]. rewrite <- Hk. reflexivity.
Qed.

Lemma tz_zeros l : exists k, l = tz l ++ repeat 0 k.
Proof.
  destruct (strip_zeros (rev l)) as (k & Hk). exists k. unfold tz.
  set (s := strip_trailing_zeros_rev (rev l)) in *.
  apply (f_equal (@rev Z)) in Hk. rewrite rev_involutive, rev_app_distr, rev_repeat in Hk. exact Hk.
Qed.

Section Octet.
  Variable pre : list Z.
  Definition st (x : Z) : list Z := if x =? 0 then tz pre else pre ++ [x].

  Lemma mask_pos j : 0 <= j < 8 -> 0 < mask j.
  Proof. intros Hj. unfold mask. assert (j = 0 \/ j = 1 \/ j = 2 \/ j = 3 \/ j = 4 \/ j = 5 \/ j = 6 \/ j = 7) by lia.
         repeat (destruct H as [->|H]; [reflexivity|]). subst. reflexivity. Qed.

  Lemma lor_mask_pos x j : 0 <= x -> 0 <= j < 8 -> 0 < Z.lor x (mask j).
  Proof.
    intros Hx Hj. pose proof (mask_pos j Hj) as Hm.
    assert (0 <= Z.lor x (mask j)) by (apply Z.lor_nonneg; lia).
    destruct (Z.eq_dec (Z.lor x (mask j)) 0) as [E|]; [|lia]. apply Z.lor_eq_0_iff in E. lia.
  Qed.

  Lemma wks_set_bit x j : 0 <= x -> 0 <= j < 8 ->
    wks_set (st x) (zlen pre * 8 + j) = st (Z.lor x (mask j)).
  Proof.
    intros Hx Hj. pose proof (lor_mask_pos x j Hx Hj) as Hl.
    unfold wks_set. replace ((zlen pre * 8 + j) / 8) with (zlen pre) by dlia.
    replace ((zlen pre * 8 + j) mod 8) with j by dlia. fold (mask j).
    unfold st. replace (Z.lor x (mask j) =? 0) with false by lia. destruct (x =? 0) eqn:E.
    - apply Z.eqb_eq in E. subst x. destruct (tz_zeros pre) as (k & Hk).
      assert (Hlen : zlen pre = zlen (tz pre) + Z.of_nat k).
      { unfold zlen. rewrite Hk at 1. rewrite app_length, repeat_length. lia. }
      replace (zlen (tz pre) <? zlen pre + 1) with true by lia.
      replace (Z.to_nat (zlen pre + 1 - zlen (tz pre))) with (S k) by lia.
      replace (tz pre ++ repeat 0 (S k)) with (pre ++ [0]).
      2:{ rewrite Hk at 1. rewrite <- app_assoc. f_equal. clear. induction k; [reflexivity|]. cbn [repeat app]. rewrite IHk. reflexivity. }
      replace (Z.to_nat (zlen pre)) with (length pre) by (unfold zlen; lia).
      rewrite set_nth_app. reflexivity.
    - assert (Hz : zlen (pre ++ [x]) = zlen pre + 1) by (unfold zlen; rewrite app_length; cbn [length]; lia).
      rewrite Hz. rewrite Z.ltb_irrefl.
      replace (Z.to_nat (zlen pre)) with (length pre) by (unfold zlen; lia).
      rewrite set_nth_app. reflexivity.
  Qed.

  Lemma wks_bits b : forall js x, 0 <= x -> (forall j, In j js -> 0 <= j < 8) ->
    fold_left wks_set (flat_map (fun j => if bit_set b j then [zlen pre * 8 + j] else []) js) (st x)
    = st (fold_left (fun a j => if bit_set b j then Z.lor a (mask j) else a) js x).
  Proof.
    induction js as [|j js IH]; intros x Hx Hjs; [reflexivity|]. cbn [flat_map fold_left].
    destruct (bit_set b j).
    - cbn [app fold_left]. rewrite wks_set_bit by (auto; apply Hjs; left; reflexivity).
      apply IH; [|intros; apply Hjs; right; assumption].
      pose proof (lor_mask_pos x j Hx (Hjs j (or_introl eq_refl))). lia.
    - cbn [app]. apply IH; [exact Hx|intros; apply Hjs; right; assumption].
  Qed.

  Lemma wks_octet b : 0 <= b < 256 ->
    fold_left wks_set (byte_types (zlen pre * 8) b) (tz pre) = tz (pre ++ [b]).
  Proof.
    intros Hb. change (tz pre) with (st 0). unfold byte_types.
    rewrite (wks_bits b [0; 1; 2; 3; 4; 5; 6; 7] 0 ltac:(lia)).
    2:{ intros j Hj. cbn in Hj. lia. }
    rewrite octet_bits by exact Hb. unfold st. destruct (b =? 0) eqn:E.
    - apply Z.eqb_eq in E. subst. rewrite tz_snoc_z. reflexivity.
    - rewrite tz_snoc_nz by lia. reflexivity.
  Qed.
End Octet.

Lemma wks_rebuild bm : all_bytes bm = true -> forall pre,
  fold_left wks_set (window_types 0 (zlen pre) bm) (tz pre) = tz (pre ++ bm).
Proof.
  induction bm as [|b bm IH]; intros Hb pre; [rewrite app_nil_r; reflexivity|].
  apply all_bytes_cons in Hb as [Hb0 Hb].
  cbn [window_types]. rewrite fold_left_app. change (0 * 256 + zlen pre * 8) with (zlen pre * 8).
  rewrite wks_octet by exact Hb0.
  replace (zlen pre + 1) with (zlen (pre ++ [b])) by (unfold zlen; rewrite app_length; cbn [length]; lia).
  rewrite (IH Hb (pre ++ [b])). rewrite <- app_assoc. reflexivity.
Qed.

Definition wks_canon (bm : list Z) : Prop := bm = [] \/ last bm 0 <> 0.

Lemma tz_canon bm : wks_canon bm -> tz bm = bm /\ truncate_bitmap bm = bm.
Proof.
  intros [->|H]; [split; reflexivity|].
  destruct (exists_last (l := bm)) as (l & b & ->); [intros ->; apply H; reflexivity|].
  rewrite last_last in H. split; [apply tz_snoc_nz, H|].
  unfold truncate_bitmap. rewrite rev_app_distr. cbn [rev app strip_trailing_zeros_rev].
  replace (b =? 0) with false by lia. cbn [rev]. rewrite rev_involutive. reflexivity.
Qed.

Theorem wks_bitmap_roundtrip bm : all_bytes bm = true -> wks_canon bm ->
  truncate_bitmap (fold_left wks_set (wks_ports bm) []) = bm.
Proof.
  intros Hb Hc. unfold wks_ports. pose proof (wks_rebuild bm Hb []) as G. cbn [app] in G.
  change (zlen []) with 0 in G. change (tz []) with (@nil Z) in G. rewrite G.
  destruct (tz_canon bm Hc) as [E1 E2]. rewrite E1. exact E2.
Qed.

Lemma wks_ports_range bm : zlen bm <= 8192 -> Forall (fun p => 0 <= p <= 65535) (wks_ports bm).
Proof.
  intros Hl. apply Forall_forall. intros t Ht. destruct (window_types_facts 0 bm 0) as [_ R]. specialize (R t Ht). lia.
Qed.

Lemma wks_tokens ports : Forall (fun p => 0 <= p <= 65535) ports ->
  Forall uword (map dec ports) /\ Forall (fun t => forallb safe t = true) (map dec ports)
  /\ map_res wks_token_port (map utok (map dec ports)) = Ok ports.
Proof.
  induction 1 as [|p ports Hp _ IH]; [repeat split; constructor|]. destruct IH as (I1 & I2 & I3).
  pose proof (dec_safe p ltac:(lia)) as Hs. cbn [map].
  split; [constructor; [split; [apply units_safe, Hs|apply dec_nonempty]|exact I1]|].
  split; [constructor; assumption|]. cbn [map_res]. unfold wks_token_port at 1. rewrite unescape_utok by exact Hs. cbn [bind tvalue].
  rewrite dec_isdecimal, dec_value_dec by lia. replace ((p <? 0) || (p >? 65535)) with false by lia.
  cbn [bind]. rewrite I3. reflexivity.
Qed.
