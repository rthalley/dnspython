(* Render-then-parse for whole messages, OPT (with or without padding) and TSIG included: the final octets are the
   header with the counts, then what the reader expects section by section; and the message the reader returns
   renders to the same octets. *)
From DV Require Import Base.Prelude Model.NameM Model.MessageM.
From DV Require Import Proofs.ListFacts Proofs.NameOrder Proofs.NameValid Proofs.NameRel Proofs.NameWire Proofs.NameCompress.
From DV Require Import Proofs.MessageName Proofs.MessageRender Proofs.MessageRead Proofs.MessageRoundtrip Proofs.MessageRoundtrip2.
From DV Require Import Proofs.MessageSize Proofs.MessagePad Proofs.MessageTrunc.
Open Scope Z_scope.

Lemma wire_labels_len_ci : forall a b, ci_equal a b -> zlen (wire_labels false a) = zlen (wire_labels false b).
Proof.
  unfold ci_equal. induction a as [|l a IH]; intros [|l' b] H; try discriminate; [reflexivity|].
  cbn [map] in H. injection H as H1 H2. rewrite !wire_labels_cons, !zlen_cons, !zlen_app, (IH b H2).
  apply (f_equal (@length Z)) in H1. unfold lower_l in H1. rewrite !map_length in H1. unfold zlen. rewrite H1. reflexivity.
Qed.

(* the reserve computed for a TSIG record depends on the key name only through its label lengths *)
Lemma tsig_reserve_ci og m m2 kn rd kn' rd' tr pos t et t1 t2 :
  mtsig m = Some (kn, rd) -> mtsig m2 = Some (kn', rd') -> compute_tsig_reserve m = Ok tr ->
  name_ok kn -> name_ok kn' -> ci_equal kn' kn ->
  rr_em kn tTSIG cANY 0 rd og None true false pos t = Ok (et, t1) ->
  rr_em kn tTSIG cANY 0 rd' og None true false pos t = Ok (et, t2) ->
  compute_tsig_reserve m2 = Ok tr.
Proof.
  intros HM HM2 HTR NO NO' CI H1 H2.
  destruct (tsig_reserve_spec m kn rd tr HM HTR) as (A & et0 & HE0 & ->).
  apply rr_em_split in H1. destruct H1 as (e1 & s1 & e2 & N1 & D1 & B1 & P1 & P2 & P3 & ->).
  apply rr_em_split in H2. destruct H2 as (e1' & s1' & e2' & N1' & D2 & _ & _ & _ & _ & EQ).
  assert (e1' = e1 /\ s1' = s1) as (-> & ->) by (split; congruence).
  do 4 apply app_inv_head in EQ. cbn [MessageM.u16 app] in EQ. injection EQ as _ _ <-.
  apply rr_em_split in HE0. destruct HE0 as (f1 & u1 & f2 & M1 & M2 & _ & _ & _ & _ & ->).
  rewrite (proj2 (rd_em_nc _ _ _ _ _ _ D1)) in M2. injection M2 as <- _.
  unfold nm_em in M1. rewrite (full_labels_abs kn None NO) in M1. injection M1 as <- _.
  assert (M1' : nm_em kn' None false 0 [] = Ok (wire_labels false kn', [])) by (unfold nm_em; rewrite (full_labels_abs kn' None NO'); reflexivity).
  rewrite (tsig_reserve_make m2 kn' rd' _ _ HM2 (rr_em_join _ _ _ _ _ _ _ _ _ _ _ _ _ _ _ M1' (proj2 (rd_em_nc _ _ _ _ _ _ D2) _ _) B1 P1 P2 P3)).
  rewrite !zlen_app, (wire_labels_len_ci _ _ CI). reflexivity.
Qed.

(* padding: add_opt with a block size is add_opt without, on the padded OPT *)
Definition pad_opt (oo : optrec) (pad size : Z) : optrec :=
  if pad =? 0 then oo
  else mkOpt (oflags oo) (opayload oo)
             (oopts oo ++ [(12, if size mod pad =? 0 then [] else repeat 0 (Z.to_nat (pad - size mod pad)))]).
Definition pad_st (r : rst) (pad : Z) : rst := if pad =? 0 then r else set_padded r.

Lemma add_opt_pad og oo pad os ts r :
  add_opt og oo pad os ts r = add_opt og (pad_opt oo pad (zlen (out r) + os + ts)) 0 os ts (pad_st r pad).
Proof. unfold add_opt, pad_opt, pad_st. destruct (pad =? 0); reflexivity. Qed.

Lemma pad_st_fields r pad :
  out (pad_st r pad) = out r /\ tbl (pad_st r pad) = tbl r /\ cq (pad_st r pad) = cq r /\ can (pad_st r pad) = can r /\
  cau (pad_st r pad) = cau r /\ cad (pad_st r pad) = cad r /\ rflags (pad_st r pad) = rflags r /\
  padded (pad_st r pad) = (if pad =? 0 then padded r else true).
Proof. unfold pad_st. destruct (pad =? 0); repeat split; reflexivity. Qed.

Definition opt_padded (m : msg) (pad : Z) : bool :=
  match mopt m with Some _ => negb (pad =? 0) | None => false end.

Lemma pad_opt_ok oo pad size : opts_ok (oopts oo) -> opts_ok (oopts (pad_opt oo pad size)).
Proof.
  intros H. unfold pad_opt. destruct (pad =? 0); [exact H|]. cbn [oopts]. unfold opts_ok in *.
  apply Forall_app. split; [exact H|]. constructor; [reflexivity|constructor].
Qed.

(* with padding: the parsed message carries the padding option that Renderer.add_opt appended *)
Definition opt_rel (pad : Z) (a b : option optrec) : Prop :=
  match b with
  | None => a = None
  | Some o1 => exists sz, a = Some (pad_opt o1 pad sz)
  end.

Lemma skipn_patch16_12 f v : (12 <= length f)%nat -> skipn 12 (patch16 f 10 v) = skipn 12 f.
Proof.
  intros H. unfold patch16. change (Z.to_nat 10) with 10%nat.
  replace (firstn 10 f ++ MessageM.u16 v ++ skipn (10 + 2) f) with ((firstn 10 f ++ MessageM.u16 v) ++ skipn 12 f)
    by (rewrite <- app_assoc; reflexivity).
  apply skipn_app_exact. rewrite app_length, firstn_length. cbn [length MessageM.u16]. lia.
Qed.

Section WithOrigin.
Variable o : option name.
Hypothesis OO : org_ok o.

(* Message.to_wire from the first write_header on *)
Definition tail6 (m : msg) (r5 : rst) : res rst :=
  do r6 <- write_header (mid m) r5;
  match mtsig m with
  | Some (kn, rd) =>
      do br <- write_tsig o kn rd r6;
      do r7 <- raise_if_big br;
      write_header (mid m) r7
  | None => Ok r6
  end.

(* ... the step before it: the OPT record, if any *)
Definition opt5 (m : msg) (pad tr : Z) (r4 : rst) : res rst :=
  match mopt m with
  | Some oo => do br <- add_opt o oo pad (compute_opt_reserve m pad) tr r4; raise_if_big br
  | None => Ok r4
  end.

(* ... and everything up to the first write_header, without padding *)
Definition head5 (m : msg) (ms rp : Z) : res rst :=
  do ts <- start m (eff_limit ms rp) 0;
  do b4 <- tracks (body_steps o m) (snd ts);
  do r3 <- overflow false b4;
  opt5 m 0 (fst ts) (release_reserved r3).

Lemma to_wire_st_head5 m ms rp : to_wire_st m o ms rp false 0 = do r5 <- head5 m ms rp; tail6 m r5.
Proof.
  rewrite to_wire_st_eq. unfold head5, opt5, finish, tail6.
  destruct (start m (eff_limit ms rp) 0) as [ts| |]; cbn [bind]; try reflexivity.
  destruct (tracks (body_steps o m) (snd ts)) as [b4| |]; cbn [bind]; try reflexivity.
  destruct (overflow false b4) as [r3| |]; cbn [bind]; reflexivity.
Qed.

Lemma write_header_with_tbl id r r' tq :
  write_header id r = Ok r' -> write_header id (with_tbl r tq) = Ok (with_tbl r' tq).
Proof. intros H. apply write_header_iff in H. destruct H as (R & ->). apply write_header_iff. split; [exact R|reflexivity]. Qed.

Definition wf_tsig (m : msg) : Prop :=
  match mtsig m with
  | Some (kn, rd) => name_ok kn /\ Forall (piece_wf None) rd /\ shaped tsig_fs rd
  | None => True
  end.

Definition tsig_equiv (a b : option (name * rdata)) : Prop :=
  match a, b with
  | Some (kn', rd'), Some (kn, rd) => ci_equal kn' kn /\ rdata_ci rd' rd
  | None, None => True
  | _, _ => False
  end.

(* the end of Message.to_wire: the header goes over the first twelve octets, the TSIG record (if there is a key)
   after the body, and the header is written again with the additional count raised by one.  `hdr` stands for the
   final header, which is known only afterwards; the reader's view of the TSIG record is relative to it. *)
Lemma tail6_layout m r5 r hdr body :
  wf_tsig m -> zlen hdr = 12 -> out r5 = repeat 0 12 ++ body -> TblBelow r5 -> TableSound (hdr ++ body) (tbl r5) ->
  tail6 m r5 = Ok r ->
  exists et (t' : option (name * rdata)),
    out r = hdr_bytes (mid m) (rflags r5) (cq r5) (can r5) (cau r5) (cad r5 + opt_count t') ++ body ++ et /\
    0 <= mid m <= 65535 /\ 0 <= rflags r5 <= 65535 /\ cq r5 <= 65535 /\ can r5 <= 65535 /\ cau r5 <= 65535 /\
    cad r5 + opt_count t' <= 65535 /\
    TableSound ((hdr ++ body) ++ et) (tbl r) /\
    match t' with
    | Some (kn', rd') => exists x, RRreads o None ((hdr ++ body) ++ et) (length (hdr ++ body)) kn' x tTSIG cANY 0 tsig_fs rd'
                                           (length ((hdr ++ body) ++ et))
    | None => et = []
    end /\
    tsig_equiv t' (mtsig m) /\
    (padded r5 = false -> forall m2, mid m2 = mid m -> mtsig m2 = t' ->
       (forall tr, compute_tsig_reserve m = Ok tr -> compute_tsig_reserve m2 = Ok tr) /\
       forall tq5, tbl_ci tq5 (tbl r5) -> exists tq, tail6 m2 (with_tbl r5 tq5) = Ok (with_tbl r tq)).
Proof.
  intros WT Hh O5 TB5 TS5 T6. unfold tail6 in T6. apply bind_ok in T6. destruct T6 as (r6 & R6 & T6).
  destruct (write_header_full _ _ _ R6) as (Er6 & Hid & Hfl & Hc0 & Hc1 & Hc2 & Hc3).
  rewrite O5, (skipn_app_exact (repeat 0 12)) in Er6 by reflexivity.
  unfold wf_tsig in WT. destruct (mtsig m) as [[kn rd]|] eqn:ET.
  - destruct WT as (NOk & POk & SHk).
    set (h6 := hdr_bytes (mid m) (rflags r5) (cq r5) (can r5) (cau r5) (cad r5)) in Er6.
    assert (Lh6 : length h6 = 12%nat) by reflexivity.
    assert (F6 : out r6 = h6 ++ body /\ tbl r6 = tbl r5 /\ cq r6 = cq r5 /\ can r6 = can r5 /\ cau r6 = cau r5 /\
                 cad r6 = cad r5 /\ rflags r6 = rflags r5 /\ padded r6 = padded r5) by (rewrite Er6; auto 10).
    destruct F6 as (F6o & F6t & F6q & F6a & F6u & F6d & F6f & F6p). clear Er6.
    apply bind_ok in T6. destruct T6 as ([b7 s7] & A7 & T6). apply bind_ok in T6. destruct T6 as (r7 & R7 & T6).
    apply raise_if_big_ok in R7. injection R7 as -> <-.
    rewrite write_tsig_eq, F6p in A7.
    apply bind_ok in A7. destruct A7 as ([b8 s8] & A8 & A7). cbn [fst snd] in A7.
    destruct b8; [discriminate|]. apply bind_ok in A7. destruct A7 as (c & PC & A7). injection A7 as <-.
    assert (TB6 : TblBelow r6).
    { unfold TblBelow in *. rewrite F6t, F6o. rewrite O5 in TB5. rewrite zlen_app in *.
      change (zlen (repeat 0 12)) with 12 in TB5. unfold zlen at 1. rewrite Lh6. exact TB5. }
    assert (Z6 : zlen (hdr ++ body) = zlen (out r6)) by (rewrite F6o, !zlen_app, Hh; unfold zlen; rewrite Lh6; reflexivity).
    destruct (tracked_step _ _ _ _ _ (hdr ++ body) (ext_rr_em _ _ _ _ _ _ _ _ _) TB6 Z6 A8) as (_ & et & HE8 & _ & _ & Es8 & SIM8).
    assert (Fs8 : out s8 = (h6 ++ body) ++ et /\ cq s8 = cq r5 /\ can s8 = can r5 /\ cau s8 = cau r5 /\
                  cad s8 = cad r5 + 1 /\ rflags s8 = rflags r5).
    { rewrite Es8. cbn [out cq can cau cad rflags set_out inc_count set_rsec Z.eqb Pos.eqb].
      rewrite F6o, F6q, F6a, F6u, F6d, F6f. repeat split; reflexivity. }
    destruct Fs8 as (F8o & F8q & F8a & F8u & F8d & F8f). clear Es8.
    destruct (write_header_full _ _ _ T6) as (Er & _ & _ & _ & _ & _ & Hc3').
    cbn [out tbl cq can cau cad rflags set_out] in Er, Hc3'.
    rewrite F8o, F8q, F8a, F8u, F8d, F8f in Er. rewrite F8d in Hc3'.
    rewrite skipn_patch16_12 in Er by (rewrite !app_length, Lh6; lia).
    rewrite <- app_assoc in Er. rewrite (skipn_app_exact h6) in Er by exact Lh6.
    rewrite F6t in HE8.
    destruct (rr_em_read_x o None tsig_fs kn kn tTSIG cANY 0 rd (negb (padded r5)) false (hdr ++ body) (tbl r5) et _ OO Logic.I TS5
                           (full_labels_abs kn o NOk) NOk POk SHk HE8)
      as (TS8 & _ & _ & _ & kn' & xk & rd' & NOk' & HXk & SLk & CIr & _ & _ & RRk & RE8).
    pose proof (Lsim_ci _ _ _ _ SLk) as CIk.
    exists et, (Some (kn', rd')). cbn [opt_count].
    split; [rewrite Er; reflexivity|]. split; [exact Hid|]. split; [exact Hfl|]. do 3 (split; [tauto|]).
    split; [exact (proj2 Hc3')|]. split; [rewrite Er; exact TS8|]. split; [exists xk; exact RRk|].
    split; [split; [exact CIk|exact CIr]|].
    intros Hp m2 Hid2 Ht2. rewrite Hp in *. cbn [negb] in *. split.
    + intros tr TR. destruct (RE8 (tbl r5) kn kn (tbl_ci_refl _) (full_labels_abs kn o NOk) (lsim_refl _ _)) as (tqx & HEx & _).
      exact (tsig_reserve_ci o m m2 kn rd kn' rd' tr _ _ _ _ _ ET Ht2 TR NOk NOk' CIk HE8 HEx).
    + intros tq5 TC5. unfold tail6. rewrite Hid2, Ht2, (write_header_with_tbl _ _ _ tq5 R6). cbn [bind].
      rewrite write_tsig_eq. cbn [padded with_tbl set_out]. rewrite F6p. cbn [negb].
      destruct (RE8 tq5 kn' kn' TC5 (full_labels_abs kn' o NOk') SLk) as (tq8 & E8 & _).
      pose proof (SIM8 _ (tbl (with_tbl r6 tq5)) tq8 ltac:(cbn [tbl with_tbl set_out]; exact E8)) as T8.
      change (with_tbl r6 (tbl (with_tbl r6 tq5))) with (with_tbl r6 tq5) in T8.
      rewrite T8. cbn [bind fst snd]. cbn [cad with_tbl set_out]. rewrite PC. cbn [bind]. unfold raise_if_big. cbn [fst snd bind].
      change (set_out (with_tbl s8 tq8) (patch16 (out (with_tbl s8 tq8)) 10 (cad s8)) (tbl (with_tbl s8 tq8)))
        with (with_tbl (set_out s8 (patch16 (out s8) 10 (cad s8)) (tbl s8)) tq8).
      exists tq8. exact (write_header_with_tbl _ _ _ tq8 T6).
  - injection T6 as <-. exists [], (@None (name * rdata)). cbn [opt_count]. rewrite Z.add_0_r, !app_nil_r, Er6.
    split; [reflexivity|]. split; [exact Hid|]. split; [exact Hfl|]. do 4 (split; [tauto|]).
    split; [exact TS5|]. split; [reflexivity|]. split; [exact Logic.I|].
    intros _ m2 Hid2 Ht2. split.
    + intros tr TR. unfold compute_tsig_reserve in *. rewrite Ht2. rewrite ET in TR. exact TR.
    + intros tq5 TC5. exists tq5. unfold tail6. rewrite Hid2, Ht2, (write_header_with_tbl _ _ _ tq5 R6). rewrite Er6. reflexivity.
Qed.

(* the OPT record as the reader sees it, relative to octets `file` of the length of the output so far *)
Lemma opt5_layout m pad tr r4 r5 file :
  match mopt m with Some oo => opts_ok (oopts oo) /\ name_wf o [[]] | None => True end ->
  zlen file = zlen (out r4) -> TableSound file (tbl r4) -> TblBelow r4 ->
  opt5 m pad tr r4 = Ok r5 ->
  exists emo owner' wb,
    out r5 = out r4 ++ emo /\ cq r5 = cq r4 /\ can r5 = can r4 /\ cau r5 = cau r4 /\ cad r5 = cad r4 + opt_count (mopt m) /\
    rflags r5 = rflags r4 /\ padded r5 = (if opt_padded m pad then true else padded r4) /\
    TblBelow r5 /\ TableSound (file ++ emo) (tbl r5) /\
    match mopt m with
    | Some o1 => exists sz, let o' := pad_opt o1 pad sz in
                 (exists abs', RRreads o o (file ++ emo) (length file) abs' owner' tOPT (opayload o') (oflags o') [FRest] [PB wb]
                                       (length (file ++ emo))) /\
                 ci_equal owner' [[]] /\ opts_wire (oopts o') = Ok wb
    | None => emo = []
    end /\
    (pad = 0 -> forall tq4, tbl_ci tq4 (tbl r4) ->
       exists tq5, opt5 m 0 tr (with_tbl r4 tq4) = Ok (with_tbl r5 tq5) /\ tbl_ci tq5 (tbl r5)).
Proof.
  intros WO Hz TS4 TB4 R5. unfold opt5, opt_padded in *. destruct (mopt m) as [o'|].
  - apply bind_ok in R5. destruct R5 as ([b5 s5] & A5 & R5). apply raise_if_big_ok in R5. injection R5 as -> <-.
    destruct WO as (WO & NWr).
    rewrite add_opt_pad in A5.
    set (sz := zlen (out r4) + compute_opt_reserve m pad + tr) in *.
    destruct (pad_st_fields r4 pad) as (Po & Pt & Pq0 & Pq1 & Pq2 & Pq3 & Pf & Pp).
    assert (TB4p : TblBelow (pad_st r4 pad)) by (unfold TblBelow; rewrite Po, Pt; exact TB4).
    destruct (add_opt_chain o OO (pad_opt o' pad sz) (compute_opt_reserve m pad) tr (pad_st r4 pad) s5 file NWr
                (eq_trans Hz (eq_sym (f_equal zlen Po))) (eq_ind_r (TableSound _) TS4 Pt) TB4p A5)
      as (emo & wb & abso & owner' & Es5 & TB5 & HW & CIo & RO & TSo & REo).
    assert (F5 : out s5 = out r4 ++ emo /\ cq s5 = cq r4 /\ can s5 = can r4 /\ cau s5 = cau r4 /\ cad s5 = cad r4 + 1 /\
                 rflags s5 = rflags r4 /\ padded s5 = (if pad =? 0 then padded r4 else true)).
    { rewrite Es5. cbn [out cq can cau cad rflags padded inc_count set_out set_rsec Z.eqb Pos.eqb].
      rewrite Po, Pq0, Pq1, Pq2, Pq3, Pf, Pp. auto 10. }
    destruct F5 as (F5o & F5q & F5a & F5u & F5d & F5f & F5p).
    exists emo, owner', wb. cbn [opt_count].
    split; [exact F5o|]. do 5 (split; [assumption|]). split; [rewrite F5p; destruct (pad =? 0); reflexivity|].
    split; [exact TB5|]. split; [exact TSo|].
    split; [exists sz; split; [exists abso; exact RO|split; [exact CIo|exact HW]]|].
    intros -> tq4 TC4. destruct (REo tq4 (eq_ind_r (tbl_ci tq4) TC4 Pt)) as (tq5 & To & TCo).
    exists tq5. split; [|exact TCo].
    change (add_opt o o' 0 (compute_opt_reserve m 0) tr (with_tbl r4 tq4))
      with (add_opt o (pad_opt o' 0 sz) 0 (compute_opt_reserve m 0) tr (with_tbl (pad_st r4 0) tq4)).
    rewrite To. reflexivity.
  - injection R5 as <-. exists [], [[]], []. rewrite !app_nil_r. cbn [opt_count]. rewrite Z.add_0_r.
    split; [reflexivity|]. do 6 (split; [reflexivity|]). split; [exact TB4|]. split; [exact TS4|].
    split; [reflexivity|]. intros _ tq4 TC4. exists tq4. split; [reflexivity|exact TC4].
Qed.

(* everything before the header is written, relative to an arbitrary 12-octet header `hdr`;
   generic in the well-formedness W of the record sets of a section, the relation D between the
   record sets and the records on the wire, and the record sets R the reader rebuilds *)
Section Body.
Variable W : Z -> rrset -> Prop.
Variable D : Z -> list rrset -> list rrd -> Prop.
Variable R : Z -> list rrset -> list rrd -> list rrset -> Prop.
Hypothesis chainW : forall sec, 1 <= sec <= 3 -> forall l r r' file,
  zlen file = zlen (out r) -> TableSound file (tbl r) -> TblBelow r -> Forall (W sec) l ->
  tracks (map (rr_step o sec) l) r = Ok (false, r') ->
  exists em ds,
    out r' = out r ++ em /\ TableSound (file ++ em) (tbl r') /\ TblBelow r' /\
    Chain o (file ++ em) (length file) ds (length (file ++ em)) /\ D sec l ds /\
    count_of r' sec = count_of r sec + zlen ds /\
    (forall s, 0 <= s <= 3 -> s <> sec -> count_of r' s = count_of r s) /\
    rsec r <= rsec r' <= Z.max (rsec r) sec /\
    (forall l2 tq, R sec l ds l2 -> tbl_ci tq (tbl r) ->
       exists tq', tracks (map (rr_step o sec) l2) (with_tbl r tq) = Ok (false, with_tbl r' tq') /\ tbl_ci tq' (tbl r')).

(* the four section loops *)
Lemma body_loops fl mx rv q a u d s4 hdr :
  let r2 := mkRst (repeat 0 12) [] 0 0 0 0 0 fl mx rv false in
  zlen hdr = 12 ->
  Forall (fun rs => name_wf o (rname rs)) q -> Forall (W 1) a -> Forall (W 2) u -> Forall (W 3) d ->
  tracks (secs_steps o q a u d) r2 = Ok (false, s4) ->
  exists qs ds1 ds2 ds3 body (e0 e1 e2 : nat),
    out s4 = repeat 0 12 ++ body /\ TableSound (hdr ++ body) (tbl s4) /\ TblBelow s4 /\
    cq s4 = zlen qs /\ can s4 = zlen ds1 /\ cau s4 = zlen ds2 /\ cad s4 = zlen ds3 /\
    QChain o (hdr ++ body) 12 qs e0 /\ Chain o (hdr ++ body) e0 ds1 e1 /\ Chain o (hdr ++ body) e1 ds2 e2 /\
    Chain o (hdr ++ body) e2 ds3 (length (hdr ++ body)) /\
    Forall2 (q_desc o) q qs /\ D 1 a ds1 /\ D 2 u ds2 /\ D 3 d ds3 /\
    (forall a2 u2 d2, R 1 a ds1 a2 -> R 2 u ds2 u2 -> R 3 d ds3 d2 ->
       exists tq4, tracks (secs_steps o (map qrec qs) a2 u2 d2) r2 = Ok (false, with_tbl s4 tq4) /\ tbl_ci tq4 (tbl s4)).
Proof.
  intros r2 Hh WQ WA WU WD H. unfold secs_steps in H.
  assert (Hhl : length hdr = 12%nat) by (unfold zlen in Hh; lia).
  rewrite tracks_app in H. apply bind_ok in H. destruct H as ([b1 s1] & S1 & H). cbn [fst snd] in H. destruct b1; [discriminate|].
  rewrite tracks_app in H. apply bind_ok in H. destruct H as ([b2 s2] & S2 & H). cbn [fst snd] in H. destruct b2; [discriminate|].
  rewrite tracks_app in H. apply bind_ok in H. destruct H as ([b3 s3] & S3 & S4). cbn [fst snd] in S4. destruct b3; [discriminate|].
  destruct (q_chain o OO q r2 s1 hdr) as (emq & qs & Oq & TSq & TBq & QC & QD & Cq & Cq' & RSq & REq);
    [rewrite Hh; reflexivity|exact (proj1 (TableSound_nil _))|constructor|exact WQ|exact S1|].
  destruct (chainW 1 ltac:(lia) a s1 s2 (hdr ++ emq)) as (em1 & ds1 & O1 & TS1 & TB1 & C1 & SD1 & N1 & N1' & RS1 & RE1);
    [rewrite Oq, !zlen_app, Hh; reflexivity|exact TSq|exact TBq|exact WA|exact S2|].
  destruct (chainW 2 ltac:(lia) u s2 s3 ((hdr ++ emq) ++ em1)) as (em2 & ds2 & O2 & TS2 & TB2 & C2 & SD2 & N2 & N2' & RS2 & RE2);
    [rewrite O1, Oq, !zlen_app, Hh; reflexivity|exact TS1|exact TB1|exact WU|exact S3|].
  destruct (chainW 3 ltac:(lia) d s3 s4 (((hdr ++ emq) ++ em1) ++ em2)) as (em3 & ds3 & O3 & TS3 & TB3 & C3 & SD3 & N3 & N3' & RS3 & RE3);
    [rewrite O2, O1, Oq, !zlen_app, Hh; reflexivity|exact TS2|exact TB2|exact WD|exact S4|].
  exists qs, ds1, ds2, ds3, (emq ++ em1 ++ em2 ++ em3),
    (length (hdr ++ emq)), (length ((hdr ++ emq) ++ em1)), (length (((hdr ++ emq) ++ em1) ++ em2)).
  replace (hdr ++ emq ++ em1 ++ em2 ++ em3) with ((((hdr ++ emq) ++ em1) ++ em2) ++ em3) by (rewrite <- !app_assoc; reflexivity).
  split; [rewrite O3, O2, O1, Oq, <- !app_assoc; reflexivity|]. split; [exact TS3|]. split; [exact TB3|].
  split; [change (cq s4) with (count_of s4 0); rewrite (N3' 0), (N2' 0), (N1' 0), Cq by (clear; lia); reflexivity|].
  split; [change (can s4) with (count_of s4 1); rewrite (N3' 1), (N2' 1), N1, (Cq' 1) by (clear; lia); reflexivity|].
  split; [change (cau s4) with (count_of s4 2); rewrite (N3' 2), N2, (N1' 2), (Cq' 2) by (clear; lia); reflexivity|].
  split; [change (cad s4) with (count_of s4 3); rewrite N3, (N2' 3), (N1' 3), (Cq' 3) by (clear; lia); reflexivity|].
  split; [rewrite <- Hhl; do 3 apply QChain_app_w; exact QC|].
  split; [do 2 apply Chain_app_w; exact C1|]. split; [apply Chain_app_w; exact C2|]. split; [exact C3|].
  split; [exact QD|]. split; [exact SD1|]. split; [exact SD2|]. split; [exact SD3|].
  intros a2 u2 d2 HR1 HR2 HR3.
  destruct (REq (map qrec qs) [] eq_refl (Forall2_nil _)) as (tq1 & Tq & TCq). change (with_tbl r2 []) with r2 in Tq.
  destruct (RE1 a2 tq1 HR1 TCq) as (tq2 & T1 & TC1). destruct (RE2 u2 tq2 HR2 TC1) as (tq3 & T2 & TC2).
  destruct (RE3 d2 tq3 HR3 TC2) as (tq4 & T3 & TC3). exists tq4. split; [|exact TC3].
  unfold secs_steps. rewrite tracks_app, Tq. cbn [bind fst snd]. rewrite tracks_app, T1. cbn [bind fst snd].
  rewrite tracks_app, T2. cbn [bind fst snd]. exact T3.
Qed.

Lemma render_body_gen_p pad m ms rp r hdr :
  zlen hdr = 12 ->
  Forall (fun rs => name_wf o (rname rs)) (mq m) ->
  Forall (W 1) (man m) -> Forall (W 2) (mau m) -> Forall (W 3) (mad m) ->
  match mopt m with Some oo => opts_ok (oopts oo) /\ name_wf o [[]] | None => True end ->
  to_wire_st m o ms rp false pad = Ok r ->
  exists qs ds1 ds2 ds3 owner' wb body (e0 e1 e2 e3 : nat) r5,
    tail6 m r5 = Ok r /\
    out r5 = repeat 0 12 ++ body /\
    cq r5 = zlen qs /\ can r5 = zlen ds1 /\ cau r5 = zlen ds2 /\ cad r5 = zlen ds3 + opt_count (mopt m) /\
    rflags r5 = mflags m /\ padded r5 = opt_padded m pad /\ TblBelow r5 /\
    TableSound (hdr ++ body) (tbl r5) /\
    QChain o (hdr ++ body) 12 qs e0 /\ Chain o (hdr ++ body) e0 ds1 e1 /\ Chain o (hdr ++ body) e1 ds2 e2 /\
    Chain o (hdr ++ body) e2 ds3 e3 /\
    Forall2 (q_desc o) (mq m) qs /\ D 1 (man m) ds1 /\ D 2 (mau m) ds2 /\ D 3 (mad m) ds3 /\
    match mopt m with
    | Some o1 => exists sz, let o' := pad_opt o1 pad sz in
                 (exists abs', RRreads o o (hdr ++ body) e3 abs' owner' tOPT (opayload o') (oflags o') [FRest] [PB wb] (length (hdr ++ body))) /\
                 ci_equal owner' [[]] /\ opts_wire (oopts o') = Ok wb
    | None => e3 = length (hdr ++ body)
    end /\
    (pad = 0 -> forall m2, mflags m2 = mflags m -> mopt m2 = mopt m -> mq m2 = map qrec qs ->
       R 1 (man m) ds1 (man m2) -> R 2 (mau m) ds2 (mau m2) -> R 3 (mad m) ds3 (mad m2) ->
       compute_tsig_reserve m2 = compute_tsig_reserve m ->
       exists tq5, head5 m2 ms rp = Ok (with_tbl r5 tq5) /\ tbl_ci tq5 (tbl r5)).
Proof.
  intros Hh WQ WA WU WD WO H. rewrite to_wire_st_eq in H.
  apply bind_ok in H. destruct H as ([tr r2] & ST & H). cbn [fst snd] in H.
  apply bind_ok in H. destruct H as ([b4 s4] & S4 & H). apply bind_ok in H. destruct H as (r3 & R3 & FIN).
  destruct b4; [discriminate|]. injection R3 as <-.
  apply start_iff in ST. destruct ST as (TR & Htr & Hle & ->).
  destruct (body_loops _ _ _ _ _ _ _ s4 hdr Hh WQ WA WU WD S4)
    as (qs & ds1 & ds2 & ds3 & body & e0 & e1 & e2 & O4 & TS4 & TB4 & K0 & K1 & K2 & K3 & QC & C1 & C2 & C3 & QD & SD1 & SD2 & SD3 & RE4).
  destruct (tracks_keeps _ _ _ _ S4) as (_ & _ & PD4 & FL4 & _). cbn [padded rflags] in PD4, FL4.
  unfold finish in FIN. apply bind_ok in FIN. destruct FIN as (r5 & R5 & FIN).
  change (opt5 m pad tr (release_reserved s4) = Ok r5) in R5. change (tail6 m r5 = Ok r) in FIN.
  set (r4 := release_reserved s4) in *.
  assert (Hz4 : zlen (hdr ++ body) = zlen (out r4)) by (change (out r4) with (out s4); rewrite O4, !zlen_app, Hh; reflexivity).
  destruct (opt5_layout m pad tr r4 r5 (hdr ++ body) WO Hz4 TS4 TB4 R5)
    as (emo & owner' & wb & F5o & F5q & F5a & F5u & F5d & F5f & F5p & TB5 & TSo & HO & REo).
  exists qs, ds1, ds2, ds3, owner', wb, (body ++ emo), e0, e1, e2, (length (hdr ++ body)), r5.
  rewrite (app_assoc hdr body emo). split; [exact FIN|].
  split; [rewrite F5o; change (out r4) with (out s4); rewrite O4, <- app_assoc; reflexivity|].
  split; [rewrite F5q; exact K0|]. split; [rewrite F5a; exact K1|]. split; [rewrite F5u; exact K2|].
  split; [rewrite F5d; f_equal; exact K3|]. split; [rewrite F5f; exact FL4|].
  split; [rewrite F5p; change (padded r4) with (padded s4); rewrite PD4; destruct (opt_padded m pad); reflexivity|].
  split; [exact TB5|]. split; [exact TSo|].
  split; [apply QChain_app_w; exact QC|]. do 3 (split; [apply Chain_app_w; assumption|]).
  do 4 (split; [assumption|]).
  split; [destruct (mopt m); [exact HO|subst emo; rewrite app_nil_r; reflexivity]|].
  (* the same run, up to the OPT record, of a message with the records the reader rebuilds *)
  intros Hp m2 Hfl2 Hopt2 Hq2 HR1 HR2 HR3 Htr2. destruct (RE4 _ _ _ HR1 HR2 HR3) as (tq4 & T4 & TC4).
  destruct (REo Hp tq4 TC4) as (tq5 & To & TCo). exists tq5. split; [|exact TCo]. subst pad.
  assert (Hco : compute_opt_reserve m2 0 = compute_opt_reserve m 0) by (unfold compute_opt_reserve; rewrite Hopt2; reflexivity).
  assert (ST2 : start m2 (eff_limit ms rp) 0
                = Ok (tr, mkRst (repeat 0 12) [] 0 0 0 0 0 (mflags m) (eff_limit ms rp - compute_opt_reserve m 0 - tr)
                                (compute_opt_reserve m 0 + tr) false))
    by (apply start_iff; rewrite Hco, Hfl2, Htr2; auto).
  unfold head5. rewrite ST2. cbn [bind fst snd]. unfold body_steps. rewrite Hq2, T4. unfold overflow.
  cbn [bind fst snd]. rewrite <- To. unfold opt5. rewrite Hopt2, Hco. reflexivity.
Qed.

(* the final octets: header with the counts, then the chains, the OPT and the TSIG record *)
Lemma layout_final_p pad m ms rp w :
  Forall (fun rs => name_wf o (rname rs)) (mq m) ->
  Forall (W 1) (man m) -> Forall (W 2) (mau m) -> Forall (W 3) (mad m) ->
  match mopt m with Some oo => opts_ok (oopts oo) /\ name_wf o [[]] | None => True end ->
  wf_tsig m -> to_wire m o ms rp false pad = Ok w ->
  exists qs ds1 ds2 ds3 owner' wb body (e0 e1 e2 e3 e4 : nat) (t' : option (name * rdata)),
    w = hdr_bytes (mid m) (mflags m) (zlen qs) (zlen ds1) (zlen ds2)
                  (zlen ds3 + opt_count (mopt m) + opt_count t') ++ body /\
    0 <= mid m <= 65535 /\ 0 <= mflags m <= 65535 /\ zlen qs <= 65535 /\ zlen ds1 <= 65535 /\ zlen ds2 <= 65535 /\
    zlen ds3 + opt_count (mopt m) + opt_count t' <= 65535 /\
    QChain o w 12 qs e0 /\ Chain o w e0 ds1 e1 /\ Chain o w e1 ds2 e2 /\ Chain o w e2 ds3 e3 /\
    Forall2 (q_desc o) (mq m) qs /\ D 1 (man m) ds1 /\ D 2 (mau m) ds2 /\ D 3 (mad m) ds3 /\
    match mopt m with
    | Some o1 => exists sz, let o' := pad_opt o1 pad sz in
                 (exists abs', RRreads o o w e3 abs' owner' tOPT (opayload o') (oflags o') [FRest] [PB wb] e4) /\
                 ci_equal owner' [[]] /\ opts_wire (oopts o') = Ok wb /\ opts_ok (oopts o')
    | None => e4 = e3
    end /\
    match t' with
    | Some (kn', rd') => exists x, RRreads o None w e4 kn' x tTSIG cANY 0 tsig_fs rd' (length w)
    | None => e4 = length w
    end /\
    match t', mtsig m with
    | Some (kn', rd'), Some (kn, rd) => ci_equal kn' kn /\ rdata_ci rd' rd
    | None, None => True
    | _, _ => False
    end /\
    (exists r, to_wire_st m o ms rp false pad = Ok r /\ out r = w /\ TableSound w (tbl r)) /\
    (pad = 0 -> forall m2, mid m2 = mid m -> mflags m2 = mflags m -> mopt m2 = mopt m -> mq m2 = map qrec qs ->
       R 1 (man m) ds1 (man m2) -> R 2 (mau m) ds2 (mau m2) -> R 3 (mad m) ds3 (mad m2) -> mtsig m2 = t' ->
       to_wire m2 o ms rp false 0 = Ok w).
Proof.
  intros WQ WA WU WD WO WT H. unfold to_wire in H. apply bind_ok in H. destruct H as (r & HR & H). injection H as <-.
  destruct (to_wire_st_SInv _ _ _ _ _ _ _ HR) as ((I12 & _) & _).
  set (hdr := firstn 12 (out r)).
  assert (Hh : zlen hdr = 12).
  { unfold hdr, zlen in *. rewrite firstn_length. lia. }
  destruct (render_body_gen_p pad m ms rp r hdr Hh WQ WA WU WD WO HR)
    as (qs & ds1 & ds2 & ds3 & owner' & wb & body & e0 & e1 & e2 & e3 & r5 & T6 & O5 & K0 & K1 & K2 & K3 & KF & P5 & TB5 &
        TS5 & QC & C1 & C2 & C3 & QD & SD1 & SD2 & SD3 & HO & RE5).
  destruct (tail6_layout m r5 r hdr body WT Hh O5 TB5 TS5 T6) as (et & t' & Er & Hid & Hfl & L0 & L1 & L2 & L3 & TS8 & HT & TE & RT).
  rewrite KF, K0, K1, K2, K3 in *.
  (* `hdr` is the final header *)
  assert (Ew : out r = (hdr ++ body) ++ et).
  { rewrite <- app_assoc. unfold hdr. rewrite Er at 2.
    rewrite (firstn_app_len (hdr_bytes _ _ _ _ _ _) (body ++ et)). exact Er. }
  exists qs, ds1, ds2, ds3, owner', wb, (body ++ et), e0, e1, e2, e3, (length (hdr ++ body)), t'.
  split; [exact Er|]. split; [exact Hid|]. split; [exact Hfl|]. split; [exact L0|]. split; [exact L1|]. split; [exact L2|].
  split; [exact L3|]. rewrite Ew.
  split; [apply QChain_app_w; exact QC|]. split; [apply Chain_app_w; exact C1|]. split; [apply Chain_app_w; exact C2|].
  split; [apply Chain_app_w; exact C3|].
  split; [exact QD|]. split; [exact SD1|]. split; [exact SD2|]. split; [exact SD3|].
  split.
  { destruct (mopt m) as [o'|]; [|symmetry; exact HO].
    destruct HO as (sz & (abso & RO) & CI & HW). destruct WO as (WO1 & _). exists sz.
    split; [exists abso; apply RRreads_app; exact RO|]. split; [exact CI|]. split; [exact HW|]. apply pad_opt_ok. exact WO1. }
  split; [destruct t' as [[kn' rd']|]; [exact HT|subst et; rewrite app_nil_r; reflexivity]|].
  split; [exact TE|]. split; [exists r; split; [exact HR|split; [exact Ew|exact TS8]]|].
  intros Hp m2 Hid2 Hfl2 Hopt2 Hq2 HR1 HR2 HR3 Ht2.
  assert (P0 : padded r5 = false) by (rewrite P5, Hp; unfold opt_padded; destruct (mopt m); reflexivity).
  destruct (RT P0 m2 Hid2 Ht2) as (RTr & RTt).
  assert (Htr2 : compute_tsig_reserve m2 = compute_tsig_reserve m).
  { rewrite to_wire_st_eq in HR. apply bind_ok in HR. destruct HR as ([tr ?] & ST & _). apply start_iff in ST.
    destruct ST as (TR & _). rewrite TR. exact (RTr tr TR). }
  destruct (RE5 Hp m2 Hfl2 Hopt2 Hq2 HR1 HR2 HR3 Htr2) as (tq5 & H5 & TC5). destruct (RTt tq5 TC5) as (tq & T).
  unfold to_wire. rewrite to_wire_st_head5, H5. cbn [bind]. rewrite T, <- Ew. reflexivity.
Qed.

End Body.

Lemma dec_fields_tsig w og e c acc : dec_fields w tsig_fs og e c acc = dec_fields w tsig_fs None e c acc.
Proof. reflexivity. Qed.

Lemma get_rr_tsig iu w off abs' owner' rd' end_ count i fu m :
  RRreads o None w off abs' owner' tTSIG cANY 0 tsig_fs rd' end_ -> (i = count - 1)%nat ->
  get_rr w o po0 iu 3 count i off fu m = Ok (end_, fu, set_tsig m abs' rd').
Proof.
  intros (c1 & rdl & A & B & C & D & E) Hi.
  destruct (E []) as (EH & ED). rewrite app_nil_r in EH, ED. unfold get_rr. rewrite EH. cbn [bind].
  change (tTSIG =? tOPT) with false. change (tTSIG =? tTSIG) with true. cbn [orb].
  unfold parse_special_rr_header. change (tTSIG =? tOPT) with false. cbv iota.
  change (3 =? 3) with true. change (cANY =? cANY) with true. rewrite Hi, Nat.eqb_refl. cbn [negb orb bind].
  rewrite Nat2Z.id.
  destruct (Nat.ltb_spec (length w - (c1 + 10)) rdl); [lia|].
  change (tTSIG =? tOPT) with false. cbv iota.
  unfold dec_rdata. change (schema_of cANY tTSIG) with (Some tsig_fs). rewrite A. rewrite dec_fields_tsig. rewrite ED.
  cbn [bind fst snd rev app]. rewrite Nat.eqb_refl. cbn [bind].
  change (tTSIG =? tTSIG) with true. change (0 =? 0) with true.
  change (p_keyring_false po0) with true. change (p_xfr po0) with false. cbn [negb andb orb]. cbv iota.
  rewrite orb_false_r. reflexivity.
Qed.

Definition msg_equiv_t (m' m : msg) : Prop := msg_equiv m' m /\ tsig_equiv (mtsig m') (mtsig m).

Definition read_result_t (id fl : Z) (qs : list qd) (ds1 ds2 ds3 : list rrd) (oo : option optrec)
           (t : option (name * rdata)) : msg :=
  let m5 := read_result id fl qs ds1 ds2 ds3 oo in
  match t with Some (kn, rd) => set_tsig m5 kn rd | None => m5 end.

(* _WireReader.read after the header, with the reader options of po0 *)
Definition read_body (w : list Z) (id fl : Z) (qc ac uc dc : nat) : res msg :=
  let iu := opcode_from_flags fl =? 5 in
  let one := if iu then true else false in
  do q <- get_question w o iu qc 12 (mkMsg id fl [] [] [] [] None None);
  do a <- get_section w o po0 iu 1 ac 0 ac (fst q) one (snd q);
  do b <- get_section w o po0 iu 2 uc 0 uc (fst (fst a)) one (snd a);
  do c <- get_section w o po0 iu 3 dc 0 dc (fst (fst b)) one (snd b);
  if negb (Nat.eqb (fst (fst c)) (length w)) then Lib eTrailingJunk else Ok (snd c).

Lemma from_wire_ok id fl c0 c1 c2 c3 body m' :
  0 <= id <= 65535 -> 0 <= fl <= 65535 -> 0 <= c0 <= 65535 -> 0 <= c1 <= 65535 -> 0 <= c2 <= 65535 -> 0 <= c3 <= 65535 ->
  let w := hdr_bytes id fl c0 c1 c2 c3 ++ body in
  read_body w id fl (Z.to_nat c0) (Z.to_nat c1) (Z.to_nat c2) (Z.to_nat c3) = Ok m' -> from_wire w o po0 = Ok m'.
Proof.
  intros H0 H1 H2 H3 H4 H5 w H.
  destruct (hdr_read id fl c0 c1 c2 c3 body H0 H1 H2 H3 H4 H5) as (R0 & R2 & R4 & R6 & R8 & R10). fold w in R0, R2, R4, R6, R8, R10.
  assert (Hl : (12 <= length w)%nat) by (unfold w; rewrite app_length; cbn [length hdr_bytes MessageM.u16 app]; lia).
  unfold from_wire. destruct (Nat.ltb_spec (length w) 12); [lia|].
  rewrite R0, R2, R4, R6, R8, R10. cbn [bind]. unfold read_body in H.
  change (p_one_rr po0) with false. change (p_question_only po0) with false. change (p_ignore_trailing po0) with false.
  change (p_raise_on_trunc po0) with false. cbn [negb andb]. cbv zeta in H. rewrite H, andb_false_r. reflexivity.
Qed.

(* the OPT and TSIG records at the end of the additional section *)
Lemma get_section_tail iu w (oo : option optrec) (t : option (name * rdata)) owner' wb count i (e3 e4 : nat) fu m4 :
  mopt m4 = None -> (count = i + Z.to_nat (opt_count oo) + Z.to_nat (opt_count t))%nat ->
  match oo with
  | Some o' => (exists abs', RRreads o o w e3 abs' owner' tOPT (opayload o') (oflags o') [FRest] [PB wb] e4) /\
               ci_equal owner' [[]] /\ opts_wire (oopts o') = Ok wb /\ opts_ok (oopts o')
  | None => e4 = e3
  end ->
  match t with
  | Some (kn', rd') => exists x, RRreads o None w e4 kn' x tTSIG cANY 0 tsig_fs rd' (length w)
  | None => e4 = length w
  end ->
  get_section w o po0 iu 3 count i (Z.to_nat (opt_count oo) + Z.to_nat (opt_count t)) e3 fu m4
  = Ok (length w, fu, let m5 := match oo with Some o' => set_opt m4 o' | None => m4 end in
                      match t with Some (kn, rd) => set_tsig m5 kn rd | None => m5 end).
Proof.
  intros HM Hc HO HT. rewrite get_section_split.
  assert (GO : get_section w o po0 iu 3 count i (Z.to_nat (opt_count oo)) e3 fu m4
               = Ok (e4, fu, match oo with Some o' => set_opt m4 o' | None => m4 end)).
  { destruct oo as [o'|]; cbn [opt_count]; [|subst e4; reflexivity].
    change (Z.to_nat 1) with 1%nat. cbn [get_section]. destruct HO as ((abso & RO) & CI & HW & OK).
    pose proof (get_rr_opt o iu w e3 abso owner' _ _ wb (oopts o') e4 [] count i fu m4 RO CI HW OK HM) as G.
    rewrite app_nil_r in G. rewrite G. cbn [bind]. destruct o'; reflexivity. }
  rewrite GO. cbn [bind fst snd]. destruct t as [[kn' rd']|]; cbn [opt_count] in Hc |- *; [|subst e4; reflexivity].
  change (Z.to_nat 1) with 1%nat in *. cbn [get_section]. destruct HT as (x & HT).
  rewrite (get_rr_tsig iu w e4 kn' x rd' (length w) count (i + Z.to_nat (opt_count oo)) fu _ HT) by lia. reflexivity.
Qed.

(* the OPT record found in the octets, as the option record the reader returns *)
Lemma opt_read_rel pad (mo : option optrec) w owner' wb (e3 e4 : nat) :
  match mo with
  | Some o1 => exists sz, let o' := pad_opt o1 pad sz in
               (exists abs', RRreads o o w e3 abs' owner' tOPT (opayload o') (oflags o') [FRest] [PB wb] e4) /\
               ci_equal owner' [[]] /\ opts_wire (oopts o') = Ok wb /\ opts_ok (oopts o')
  | None => e4 = e3
  end ->
  exists oo, opt_rel pad oo mo /\ opt_count oo = opt_count mo /\ (pad = 0 -> oo = mo) /\
    match oo with
    | Some o' => (exists abs', RRreads o o w e3 abs' owner' tOPT (opayload o') (oflags o') [FRest] [PB wb] e4) /\
                 ci_equal owner' [[]] /\ opts_wire (oopts o') = Ok wb /\ opts_ok (oopts o')
    | None => e4 = e3
    end.
Proof.
  destruct mo as [o1|]; intros HO.
  - destruct HO as (sz & HO). exists (Some (pad_opt o1 pad sz)). split; [exists sz; reflexivity|]. split; [reflexivity|].
    split; [intros ->; reflexivity|exact HO].
  - exists None. split; [reflexivity|]. split; [reflexivity|]. split; [reflexivity|exact HO].
Qed.

(* _WireReader.read after the header, given what the question loop and the loops over the ordinary records of the three
   sections return; `iu` is whether the opcode is UPDATE *)
Lemma read_body_sections iu w id fl (c0 n1 n2 n3 : nat) (oo : option optrec) (t : option (name * rdata)) owner' wb
      (e0 e1 e2 e3 e4 : nat) m1 m2 m3 m4 :
  (opcode_from_flags fl =? 5) = iu ->
  get_question w o iu c0 12 (mkMsg id fl [] [] [] [] None None) = Ok (e0, m1) ->
  get_section w o po0 iu 1 n1 0 n1 e0 iu m1 = Ok (e1, iu, m2) ->
  get_section w o po0 iu 2 n2 0 n2 e1 iu m2 = Ok (e2, iu, m3) ->
  (forall count, get_section w o po0 iu 3 count 0 n3 e2 iu m3 = Ok (e3, iu, m4)) ->
  mopt m4 = None ->
  match oo with
  | Some o' => (exists abs', RRreads o o w e3 abs' owner' tOPT (opayload o') (oflags o') [FRest] [PB wb] e4) /\
               ci_equal owner' [[]] /\ opts_wire (oopts o') = Ok wb /\ opts_ok (oopts o')
  | None => e4 = e3
  end ->
  match t with
  | Some (kn', rd') => exists x, RRreads o None w e4 kn' x tTSIG cANY 0 tsig_fs rd' (length w)
  | None => e4 = length w
  end ->
  read_body w id fl c0 n1 n2 (Z.to_nat (Z.of_nat n3 + opt_count oo + opt_count t))
  = Ok (let m5 := match oo with Some o' => set_opt m4 o' | None => m4 end in
        match t with Some (kn, rd) => set_tsig m5 kn rd | None => m5 end).
Proof.
  intros Hop GQ G1 G2 G3 HM HO HT. unfold read_body. rewrite Hop. cbv zeta.
  replace (if iu then true else false) with iu by (destruct iu; reflexivity).
  rewrite GQ. cbn [bind fst snd]. rewrite G1. cbn [bind fst snd]. rewrite G2. cbn [bind fst snd].
  assert (Hoc : 0 <= opt_count oo <= 1) by (destruct oo; cbn; lia).
  assert (Htc : 0 <= opt_count t <= 1) by (destruct t; cbn; lia).
  replace (Z.to_nat (Z.of_nat n3 + opt_count oo + opt_count t))
    with (n3 + (Z.to_nat (opt_count oo) + Z.to_nat (opt_count t)))%nat by lia.
  rewrite get_section_split, G3. cbn [bind fst snd].
  rewrite (get_section_tail iu w oo t owner' wb (n3 + (Z.to_nat (opt_count oo) + Z.to_nat (opt_count t)))%nat (0 + n3)%nat
             e3 e4 iu m4 HM ltac:(lia) HO HT). cbn [bind fst snd].
  rewrite Nat.eqb_refl. reflexivity.
Qed.

Lemma read_structure_t id fl qs ds1 ds2 ds3 (oo : option optrec) (t : option (name * rdata)) owner' wb body
      (e0 e1 e2 e3 e4 : nat) :
  let w := hdr_bytes id fl (zlen qs) (zlen ds1) (zlen ds2) (zlen ds3 + opt_count oo + opt_count t) ++ body in
  0 <= id <= 65535 -> 0 <= fl <= 65535 -> zlen qs <= 65535 -> zlen ds1 <= 65535 -> zlen ds2 <= 65535 ->
  zlen ds3 + opt_count oo + opt_count t <= 65535 ->
  (opcode_from_flags fl =? 5) = false ->
  QChain o w 12 qs e0 -> Chain o w e0 ds1 e1 -> Chain o w e1 ds2 e2 -> Chain o w e2 ds3 e3 ->
  Forall ordinary ds1 -> Forall ordinary ds2 -> Forall ordinary ds3 ->
  match oo with
  | Some o' => (exists abs', RRreads o o w e3 abs' owner' tOPT (opayload o') (oflags o') [FRest] [PB wb] e4) /\
               ci_equal owner' [[]] /\ opts_wire (oopts o') = Ok wb /\ opts_ok (oopts o')
  | None => e4 = e3
  end ->
  match t with
  | Some (kn', rd') => exists x, RRreads o None w e4 kn' x tTSIG cANY 0 tsig_fs rd' (length w)
  | None => e4 = length w
  end ->
  from_wire w o po0 = Ok (read_result_t id fl qs ds1 ds2 ds3 oo t).
Proof.
  intros w Hid Hfl Hq H1 H2 H3 Hop QC C1 C2 C3 O1 O2 O3 HO HT.
  pose proof (zlen_nonneg qs). pose proof (zlen_nonneg ds1). pose proof (zlen_nonneg ds2). pose proof (zlen_nonneg ds3).
  assert (Hoc : 0 <= opt_count oo) by (destruct oo; cbn; lia).
  assert (Htc : 0 <= opt_count t) by (destruct t; cbn; lia).
  apply from_wire_ok; try lia. fold w. rewrite !zlen_to_nat.
  set (m1 := fold_left add_q qs (mkMsg id fl [] [] [] [] None None)).
  set (m2 := fold_left (apply_d 1 false) ds1 m1). set (m3 := fold_left (apply_d 2 false) ds2 m2).
  pose proof (get_question_chain o w [] qs 12 e0 (mkMsg id fl [] [] [] [] None None) QC) as GQ.
  pose proof (get_section_chain o w [] 1 (length ds1) ds1 e0 e1 0%nat false m1 C1 O1) as G1.
  pose proof (get_section_chain o w [] 2 (length ds2) ds2 e1 e2 0%nat false m2 C2 O2) as G2.
  pose proof (fun count => get_section_chain o w [] 3 count ds3 e2 e3 0%nat false m3 C3 O3) as G3.
  rewrite app_nil_r in GQ, G1, G2, G3.
  exact (read_body_sections false w id fl _ _ _ (length ds3) oo t owner' wb e0 e1 e2 e3 e4 m1 m2 m3 _ Hop GQ G1 G2 G3
           (f_equal mopt (read_result_eq id fl qs ds1 ds2 ds3 None)) HO HT).
Qed.

Lemma read_result_equiv m qs ds1 ds2 ds3 oo :
  WfMsg o m -> Forall2 (q_desc o) (mq m) qs -> SecDesc o (man m) ds1 -> SecDesc o (mau m) ds2 -> SecDesc o (mad m) ds3 ->
  exists l1 l2 l3,
    read_result (mid m) (mflags m) qs ds1 ds2 ds3 oo = mkMsg (mid m) (mflags m) (map qrec qs) l1 l2 l3 oo None /\
    Forall2 q_equiv (map qrec qs) (mq m) /\
    Forall2 rrset_equiv l1 (man m) /\ Forall2 rrset_equiv l2 (mau m) /\ Forall2 rrset_equiv l3 (mad m) /\
    Rebuilt (man m) ds1 l1 /\ Rebuilt (mau m) ds2 l2 /\ Rebuilt (mad m) ds3 l3.
Proof.
  intros [W0 WQ WA WU WD KA KU KD WO] QD SD1 SD2 SD3. rewrite read_result_eq.
  destruct (regroup_sec o (man m) ds1 [] [] SD1 WA (Forall2_nil _) KA) as (l1 & EQ1 & -> & RB1).
  destruct (regroup_sec o (mau m) ds2 [] [] SD2 WU (Forall2_nil _) KU) as (l2 & EQ2 & -> & RB2).
  destruct (regroup_sec o (mad m) ds3 [] [] SD3 WD (Forall2_nil _) KD) as (l3 & EQ3 & -> & RB3).
  exists l1, l2, l3. split; [reflexivity|]. split; [|auto 10].
  clear - QD. induction QD as [|rs q l qs (A & B & C & D) _ IH]; cbn [map]; constructor; [|exact IH].
  unfold q_equiv. cbn [rname rclass rtype rcovers rdeleting rttl rrds]. auto 10.
Qed.

Definition msg_equiv_p (pad : Z) (m' m : msg) : Prop :=
  mid m' = mid m /\ mflags m' = mflags m /\
  Forall2 q_equiv (mq m') (mq m) /\
  Forall2 rrset_equiv (man m') (man m) /\ Forall2 rrset_equiv (mau m') (mau m) /\
  Forall2 rrset_equiv (mad m') (mad m) /\
  opt_rel pad (mopt m') (mopt m) /\ tsig_equiv (mtsig m') (mtsig m).

Lemma msg_equiv_p0 m' m : msg_equiv_p 0 m' m -> msg_equiv_t m' m.
Proof.
  intros (A & B & C & D0 & E & F & G & H). split; [|exact H]. repeat split; try assumption.
  unfold opt_rel in G. destruct (mopt m); [destruct G as (sz & ->); reflexivity|exact G].
Qed.

(* render, then parse: the same message up to the case of names (and the padding option); rendered without padding, the
   parsed message renders to the same octets *)
Theorem render_parse_lemma pad m ms rp w :
  WfMsg o m -> wf_tsig m -> to_wire m o ms rp false pad = Ok w ->
  exists m', from_wire w o po0 = Ok m' /\ msg_equiv_p pad m' m /\ (pad = 0 -> to_wire m' o ms rp false 0 = Ok w).
Proof.
  intros WF WT H. pose proof WF as [W0 WQ WA WU WD KA KU KD WO].
  destruct (layout_final_p (fun _ => wf_rrset o) (fun _ => SecDesc o) (fun _ => Rebuilt) (rr_chain_x o OO)
                           pad m ms rp w WQ WA WU WD WO WT H)
    as (qs & ds1 & ds2 & ds3 & owner' & wb & body & e0 & e1 & e2 & e3 & e4 & t' & Ew & Hid & Hfl & L0 & L1 & L2 & L3 &
        QC & C1 & C2 & C3 & QD & SD1 & SD2 & SD3 & HO & HT & TE & _ & RR).
  destruct (opt_read_rel pad (mopt m) w owner' wb e3 e4 HO) as (oo & OR & OC & O0 & HO').
  destruct (read_result_equiv m qs ds1 ds2 ds3 oo WF QD SD1 SD2 SD3) as (l1 & l2 & l3 & ER & QE & E1 & E2 & E3 & RB1 & RB2 & RB3).
  exists (read_result_t (mid m) (mflags m) qs ds1 ds2 ds3 oo t').
  assert (TE' : tsig_equiv t' (mtsig m)) by exact TE.
  split; [|split].
  - rewrite Ew in *. rewrite <- OC in *. eapply read_structure_t; try eassumption.
    + apply (SecDesc_ordinary o) with (l := man m); assumption.
    + apply (SecDesc_ordinary o) with (l := mau m); assumption.
    + apply (SecDesc_ordinary o) with (l := mad m); assumption.
  - unfold msg_equiv_p, read_result_t. rewrite ER. destruct t' as [[kn' rd']|]; cbn [mid mflags mq man mau mad mopt mtsig set_tsig]; auto 10.
  - intros Hp. apply (RR Hp); unfold read_result_t; rewrite ER; destruct t' as [[kn' rd']|];
      cbn [mid mflags mq man mau mad mopt mtsig set_tsig]; auto.
Qed.

End WithOrigin.

Section Corollaries.
Variable o : option name.
Hypothesis OO : org_ok o.

(* the header counts are the numbers of records present, and they account for every octet *)
Theorem counts_exact_pad_lemma pad m ms rp w :
  WfMsg o m -> wf_tsig m -> to_wire m o ms rp false pad = Ok w ->
  exists body,
    w = hdr_bytes (mid m) (mflags m) (zlen (mq m)) (rr_count (man m)) (rr_count (mau m))
                  (rr_count (mad m) + opt_count (mopt m) + opt_count (mtsig m)) ++ body /\
    exists m', from_wire w o po0 = Ok m'.
Proof.
  intros WF WT H. pose proof WF as [W0 WQ WA WU WD KA KU KD WO].
  destruct (render_parse_lemma o OO pad m ms rp w WF WT H) as (m' & F & _).
  destruct (layout_final_p o OO (fun _ => wf_rrset o) (fun _ => SecDesc o) (fun _ => Rebuilt) (rr_chain_x o OO)
                           pad m ms rp w WQ WA WU WD WO WT H)
    as (qs & ds1 & ds2 & ds3 & owner' & wb & body & e0 & e1 & e2 & e3 & e4 & t' & Ew & _ & _ & _ & _ & _ & _ &
        _ & _ & _ & _ & QD & SD1 & SD2 & SD3 & _ & _ & TE & _).
  assert (Z0 : zlen qs = zlen (mq m)) by (unfold zlen; f_equal; symmetry; eapply Forall2_len; exact QD).
  pose proof (SecDesc_count o _ _ SD1 WA) as Z1. pose proof (SecDesc_count o _ _ SD2 WU) as Z2.
  pose proof (SecDesc_count o _ _ SD3 WD) as Z3.
  assert (ZT : opt_count t' = opt_count (mtsig m)).
  { destruct t' as [[kn' rd']|]; destruct (mtsig m) as [[kn rd]|]; try contradiction; reflexivity. }
  exists body. split; [|exists m'; exact F]. rewrite Ew, Z0, Z1, Z2, Z3, ZT. reflexivity.
Qed.

Theorem counts_exact_lemma m ms rp w :
  WfMsg o m -> wf_tsig m -> to_wire m o ms rp false 0 = Ok w ->
  exists body,
    w = hdr_bytes (mid m) (mflags m) (zlen (mq m)) (rr_count (man m)) (rr_count (mau m))
                  (rr_count (mad m) + opt_count (mopt m) + opt_count (mtsig m)) ++ body /\
    exists m', from_wire w o po0 = Ok m'.
Proof. exact (counts_exact_pad_lemma 0 m ms rp w). Qed.

(* the compression table at the end of rendering is sound w.r.t. the final octets *)
Theorem render_table_sound_pad_lemma pad m ms rp r :
  WfMsg o m -> wf_tsig m -> to_wire_st m o ms rp false pad = Ok r -> TableSound (out r) (tbl r).
Proof.
  intros WF WT HR. pose proof WF as [W0 WQ WA WU WD KA KU KD WO].
  assert (H : to_wire m o ms rp false pad = Ok (out r)) by (unfold to_wire; rewrite HR; reflexivity).
  destruct (layout_final_p o OO (fun _ => wf_rrset o) (fun _ => SecDesc o) (fun _ => Rebuilt) (rr_chain_x o OO)
                           pad m ms rp (out r) WQ WA WU WD WO WT H)
    as (qs & ds1 & ds2 & ds3 & owner' & wb & body & e0 & e1 & e2 & e3 & e4 & t' & _ & _ & _ & _ & _ & _ & _ &
        _ & _ & _ & _ & _ & _ & _ & _ & _ & _ & _ & (r2 & HR2 & _ & TS) & _).
  assert (r2 = r) by congruence. subst r2. exact TS.
Qed.

Theorem render_table_sound_lemma m ms rp r :
  WfMsg o m -> mtsig m = None -> to_wire_st m o ms rp false 0 = Ok r -> TableSound (out r) (tbl r).
Proof.
  intros WF NT. apply render_table_sound_pad_lemma; [exact WF|]. unfold wf_tsig. rewrite NT. exact Logic.I.
Qed.

Theorem name_write_sound_lemma n c file t file' t' :
  TableSound file t -> name_wf o n -> name_to_wire n o c file t = Ok (file', t') ->
  exists em L L' n',
    file' = file ++ em /\ TableSound file' t' /\ full_labels n o = Ok L /\ ci_equal L' L /\
    NameM.from_wire file' (length file) = Ok (L', length em) /\
    relz o L' = Ok n' /\ ci_equal n' n /\
    (forall ext endp, (length file' <= endp)%nat -> get_name (file' ++ ext) o endp (length file) = Ok (n', length file')).
Proof.
  intros TS NW H. rewrite name_to_wire_em in H. unfold run_em in H.
  apply bind_ok in H. destruct H as ([em t1] & HE & H). injection H as <- <-. cbn [fst snd].
  destruct (name_wf_full o n OO NW) as (L & HF & NOL).
  destruct (nm_em_sound _ _ _ _ _ _ _ _ TS HF NOL HE) as (TS1 & L' & CI & NO1 & D).
  destruct (name_back o n L L' OO NW HF CI NO1) as (n' & HRZ & CI1 & _).
  exists em, L, L', n'. split; [reflexivity|]. split; [exact TS1|]. split; [exact HF|]. split; [exact CI|]. split.
  - rewrite (Dec_from_wire _ _ _ _ D (proj1 NO1)). f_equal. f_equal. rewrite app_length. lia.
  - split; [exact HRZ|]. split; [exact CI1|].
    intros ext endp He. rewrite (get_name_relz o _ _ _ OO). rewrite (nm_read file em ext endp L' NO1 D He).
    cbn [bind fst snd]. rewrite HRZ. reflexivity.
Qed.
End Corollaries.
