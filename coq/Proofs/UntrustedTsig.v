(* C04 for signed messages, on C14's model (Model/TsigM.v: dns.tsig.validate / _digest /
   _maybe_start_digest / get_context, TSIG.from_wire_parser, the TSIG and OPT paths of
   dns.message._WireReader with every keyring form): reading an arbitrary octet string with a real
   key - for ANY keyed hash function - ends in a message or in one of the library's errors; no
   struct.error / AssertionError / ValueError / NotImplementedError (the latter since /repo fix
   ed7f7ab, which this proof found: _maybe_start_digest in multi-envelope mode). *)
From DV Require Import Base.Prelude Model.NameM Proofs.UntrustedEnds.
From DV Require Model.TsigM Proofs.NameWire Proofs.ParserSafe Proofs.UntrustedSchema Proofs.UntrustedText.
Import TsigM.
Open Scope Z_scope.

Definition tlib (e : Z) : Prop :=
  is_formerror e = true \/ e = eBadTime \/ e = eBadSignature \/ e = eBadKey \/ e = eBadAlgorithm
  \/ e = ePeerError \/ e = ePeerBadKey \/ e = ePeerBadSignature \/ e = ePeerBadTime \/ e = ePeerBadTruncation
  \/ e = eUnknownTSIGKey \/ e = eNeedAbsolute \/ e = eUnsupported
  (* from Name.relativize(origin) of an owner name (dns.name errors; unreachable for names read from the wire) *)
  \/ e = NameM.eLabelTooLong \/ e = NameM.eEmptyLabel.

Ltac tl := first [ reflexivity | left; reflexivity | right; tl ].

(* Ok or a library error *)
Definition G {A} (r : res A) : Prop := ends any tlib none r.
(* Ok or the FormError family *)
Definition FE {A} (r : res A) : Prop :=
  match r with Ok _ => True | Lib e => is_formerror e = true | Internal _ => False end.

Lemma fe_g {A} (Q : A -> Prop) (r : res A) : ends Q (fun e => is_formerror e = true) none r -> ends Q tlib none r.
Proof. intros H. eapply ends_mono; [exact H|auto| |auto]. intros e E. left. exact E. Qed.

(* what a TSIG rdata read from the wire satisfies *)
Definition tsig_inv (t : tsig) : Prop :=
  in_u16 (t_fudge t) = true /\ in_u16 (t_oid t) = true /\ 0 <= t_error t <= 4095
  /\ zlen (t_mac t) <= 65535 /\ zlen (t_other t) <= 65535.

Lemma mk_tsig_inv alg time fudge mac oid err other t :
  mk_tsig alg time fudge mac oid err other = Ok t ->
  in_u16 (t_fudge t) = true /\ in_u16 (t_oid t) = true /\ 0 <= t_error t <= 4095
  /\ t_mac t = mac /\ t_other t = other.
Proof.
  unfold mk_tsig. destruct (negb (in_u48 time)); [discriminate|].
  destruct (negb (in_u16 fudge)) eqn:E1; [discriminate|].
  destruct (negb (in_u16 oid)) eqn:E2; [discriminate|].
  destruct (negb ((0 <=? err) && (err <=? 4095))) eqn:E3; [discriminate|].
  intros X; inversion X; subst; cbn.
  apply negb_false_iff in E1, E2, E3. apply andb_true_iff in E3 as [E3 E4].
  repeat split; auto; lia.
Qed.

Section Wire.
  Variable w : bytes.
  Hypothesis Hw : ParserSafe.bytes_ok w.

  Lemma fe_get_bytes endp pos n : FE (get_bytes w endp pos n).
  Proof. unfold get_bytes. destruct (Nat.ltb _ _); [reflexivity|exact Logic.I]. Qed.

  Lemma get_bytes_ok endp pos n b p : get_bytes w endp pos n = Ok (b, p) ->
    (length b <= n)%nat /\ ParserSafe.bytes_ok b.
  Proof.
    unfold get_bytes. destruct (Nat.ltb _ _); [discriminate|]. intros E; inversion E; subst. split.
    - rewrite firstn_length. lia.
    - apply ParserSafe.bytes_ok_firstn, ParserSafe.bytes_ok_skipn, Hw.
  Qed.

  Lemma fe_get_uint endp pos n : FE (get_uint w endp pos n).
  Proof. unfold get_uint. apply ends_seq; [apply fe_get_bytes|intros; exact Logic.I]. Qed.

  Lemma get_uint2_bound endp pos v p : get_uint w endp pos 2 = Ok (v, p) -> 0 <= v <= 65535.
  Proof.
    unfold get_uint. intros E. ib E as bp Eb. destruct bp as [b q]. inversion E; subst. cbn [fst].
    apply get_bytes_ok in Eb as [Hl Hb]. unfold ParserSafe.bytes_ok in Hb.
    destruct b as [|x [|y [|z r]]]; cbn in Hl; try lia; cbn [be_val].
    - lia.
    - inversion Hb; subst. lia.
    - inversion Hb as [|? ? Hx Hr]; subst. inversion Hr; subst. lia.
  Qed.

  Lemma fe_get_name endp pos : FE (get_name w endp pos).
  Proof.
    unfold get_name. apply ends_seq; [|intros; exact Logic.I].
    eapply ends_mono; [apply (UntrustedSchema.nm_from_wire_family (firstn endp w) pos), ParserSafe.bytes_ok_firstn, Hw|auto| |auto].
    intros e [[-> | [-> | ->]] | ->]; reflexivity.
  Qed.

  Lemma fe_get_counted2 endp pos : FE (get_counted2 w endp pos).
  Proof. unfold get_counted2. apply ends_seq; [apply fe_get_uint|intros; apply fe_get_bytes]. Qed.

  Lemma get_counted2_len endp pos b p : get_counted2 w endp pos = Ok (b, p) -> zlen b <= 65535.
  Proof.
    unfold get_counted2. intros E. ib E as lp El. destruct lp as [l q]. cbn [fst snd] in E.
    apply get_uint2_bound in El. apply get_bytes_ok in E as [E _]. unfold zlen. lia.
  Qed.

  Lemma fe_wrap {A} (r : res A) : FE (wrap_formerror r).
  Proof.
    destruct r as [a|e|e]; cbn; auto. destruct (is_formerror e) eqn:E; cbn; auto.
  Qed.

  Lemma tsig_from_wire_ok endp pos : ends tsig_inv (fun e => is_formerror e = true) none (tsig_from_wire w endp pos).
  Proof.
    unfold tsig_from_wire. eapply ends_bind; [apply ends_eq, fe_wrap|]. intros tq [Ew _].
    destruct (Nat.eqb _ _); [|reflexivity]. cbn [ends].
    match type of Ew with wrap_formerror ?r = _ => destruct r as [a|e|e] eqn:Er end; cbn in Ew;
      [|destruct (is_formerror e); discriminate|discriminate].
    inversion Ew; subst. clear Ew.
    ib Er as ap E1. ib Er as tp E2. ib Er as fp E3. ib Er as mp E4. ib Er as ip E5. ib Er as ep E6.
    ib Er as op E7. ib Er as t0 E8. inversion Er; subst. cbn [fst].
    apply mk_tsig_inv in E8 as (A1 & A2 & A3 & A4 & A5).
    destruct mp as [mac mq]. destruct op as [oth oq]. cbn [fst] in *.
    apply get_counted2_len in E4. apply get_counted2_len in E7.
    unfold tsig_inv. rewrite A4, A5. repeat split; auto; lia.
  Qed.

End Wire.

Lemma tsig_from_wire_inv w : ParserSafe.bytes_ok w -> forall (endp pos : nat) t,
  tsig_from_wire w endp pos = Ok t -> tsig_inv t.
Proof. intros Hw endp pos t. apply (ends_ok _ _ _ _ _ (tsig_from_wire_ok w Hw endp pos)). Qed.

(* dns.tsig *)
Section Tsig.
  Variable H : hashid -> bytes -> bytes -> bytes.

  (* a library error, or NotImplementedError from get_context (which validate turns into BadAlgorithm) *)
  Definition tlibN (e : Z) : Prop := tlib e \/ e = eNotImplemented.

  Lemma to_wire_none n c : ends any tlibN none (NameM.to_wire n None c).
  Proof. unfold NameM.to_wire. destruct (is_absolute n); [exact Logic.I|left; tl]. Qed.

  Lemma pack_u16_ok v : 0 <= v <= 65535 -> pack_u16 v = Ok (u16 v).
  Proof. intros Hv. unfold pack_u16, in_u16. replace (0 <=? v) with true by lia. replace (v <? 65536) with true by lia. reflexivity. Qed.

  Lemma get_context_out k : ends any tlibN none (get_context k).
  Proof.
    unfold get_context. destruct (NameM.name_eqb _ _); [left; tl|].
    destruct (assoc_name hashes (kalg k)) as [[h sz]|]; [exact Logic.I|right; reflexivity].
  Qed.

  (* _digest *)
  Lemma digest_out wire k rd time rmac ctx multi : tsig_inv rd -> zlen rmac <= 65535 ->
    ends any tlibN none (digest wire k rd time rmac ctx multi).
  Proof.
    intros (I1 & I2 & I3 & I4 & I5) Hr. unfold digest.
    set (first := negb match ctx with Some _ => multi | None => false end). apply ends_seq.
    { destruct first eqn:Ef.
      - apply ends_seq; [apply get_context_out|]. intros c. destruct rmac as [|x r]; [exact Logic.I|].
        rewrite pack_u16_ok by (unfold zlen in *; lia). exact Logic.I.
      - subst first. destruct ctx; [exact Logic.I|discriminate]. }
    intros c0. unfold pack_u16, time_encoded. rewrite I1, I2. cbn [bind]. apply ends_seq.
    { destruct first; [apply ends_seq; [apply to_wire_none|intros; exact Logic.I]|exact Logic.I]. }
    intros c2. replace (zlen (t_other rd) >? 65535) with false by lia.
    destruct first; [|exact Logic.I]. apply ends_seq; [apply to_wire_none|]. intros an.
    replace (in_u16 (t_error rd)) with true by (unfold in_u16; lia). exact Logic.I.
  Qed.

  Lemma maybe_start_digest_out k mac multi : zlen mac <= 65535 -> ends any tlibN none (maybe_start_digest k mac multi).
  Proof.
    intros Hm. unfold maybe_start_digest. destruct multi; [|exact Logic.I].
    apply ends_seq; [apply get_context_out|]. intros c.
    rewrite pack_u16_ok by (unfold zlen in *; lia). exact Logic.I.
  Qed.

  (* try: ... except NotImplementedError: raise BadAlgorithm *)
  Lemma unimplemented_out {A} (r : res A) : ends any tlibN none r -> G (unimplemented_is_badalg r).
  Proof.
    destruct r as [a|e|e]; cbn; auto. intros [T | ->]; [|cbn; tl].
    destruct (e =? eNotImplemented); [cbn; tl|exact T].
  Qed.

  Lemma peer_error_codes err : tlib (peer_error err).
  Proof. unfold peer_error. repeat match goal with |- context [if ?b then _ else _] => destruct b end; tl. Qed.

  Lemma validate_pre_out wire k owner rd now ts : (12 <= length wire)%nat -> G (validate_pre wire k owner rd now ts).
  Proof.
    intros Hl. unfold validate_pre, get_adcount, slice.
    assert (S : exists a b, firstn (12 - 10) (skipn 10 wire) = [a; b]).
    { assert (L : (2 <= length (skipn 10 wire))%nat) by (rewrite skipn_length; lia).
      destruct (skipn 10 wire) as [|a [|b r]]; cbn in L; try lia. exists a, b. reflexivity. }
    destruct S as (a & b & ->). cbn [bind].
    destruct (a * 256 + b =? 0); [tl|].
    destruct (negb (t_error rd =? 0)); [apply peer_error_codes|].
    destruct (_ >? _); [tl|]. destruct (negb (NameM.name_eqb (kname k) owner)); [tl|].
    destruct (negb (NameM.name_eqb (kalg k) (t_alg rd))); [tl|exact Logic.I].
  Qed.

  (* dns.tsig.validate *)
  Lemma validate_out wire k owner rd now rmac ts ctx multi :
    (12 <= length wire)%nat -> tsig_inv rd -> zlen rmac <= 65535 ->
    G (validate H wire k owner rd now rmac ts ctx multi).
  Proof.
    intros Hl Hi Hr. unfold validate.
    apply ends_seq; [apply validate_pre_out; exact Hl|]. intros nw.
    apply ends_seq; [apply unimplemented_out, digest_out; assumption|]. intros c.
    apply ends_seq; [unfold ctx_verify; destruct (zlist_eqb _ _); [exact Logic.I|tl]|]. intros u.
    apply unimplemented_out, maybe_start_digest_out. apply Hi.
  Qed.
End Tsig.

Section Reader.
  Variable H : hashid -> bytes -> bytes -> bytes.
  Variable w : bytes.
  Hypothesis Hw : ParserSafe.bytes_ok w.
  Variable kr : keyring.
  Variable rmac : bytes.
  Hypothesis Hr : zlen rmac <= 65535.
  Variable now : Z.
  Variable multi : bool.
  Hypothesis Hlen : (12 <= length w)%nat.

  Lemma find_key_out owner alg : G (find_key kr owner alg).
  Proof.
    unfold find_key. destruct kr as [| | |k|d]; try (cbn; tl); try exact Logic.I.
    destruct (assoc_name d owner) as [[k|sec]|]; try (cbn; tl); exact Logic.I.
  Qed.

  Lemma get_rr_out section count i st : G (get_rr H w kr rmac now multi section count i st).
  Proof.
    unfold get_rr.
    apply ends_seq; [apply fe_g, fe_get_name; exact Hw|]. intros np. cbv zeta.
    apply ends_seq.
    { destruct (r_origin st) as [o|]; [|exact Logic.I]. unfold NameM.relativize.
      destruct (is_subdomain (fst np) o); [|exact Logic.I].
      pose proof (UntrustedText.mk_name_family (drop_last (length o) (fst np))) as M.
      destruct (mk_name (drop_last (length o) (fst np))) as [n|e|e]; [exact Logic.I| |contradiction].
      destruct M as [-> | [-> | ->]]; cbn; tl. }
    intros nrel.
    apply ends_seq; [apply fe_g, fe_get_uint|]. intros tp.
    apply ends_seq; [apply fe_g, fe_get_uint|]. intros cp.
    apply ends_seq; [apply fe_g, fe_get_uint|]. intros lp.
    apply ends_seq; [apply fe_g, fe_get_uint|]. intros dp. cbv zeta.
    destruct (fst tp =? OPT).
    { destruct (_ || _); [cbn; tl|]. destruct (Nat.ltb _ _); [cbn; tl|].
      apply ends_seq; [apply fe_g, fe_wrap|]. intros; exact Logic.I. }
    destruct (fst tp =? TSIG).
    { destruct (_ || _); [cbn; tl|]. destruct (Nat.ltb _ _); [cbn; tl|].
      eapply ends_bind; [apply fe_g, tsig_from_wire_ok, Hw|]. intros rd Fi.
      destruct (negb (fst lp =? 0)); [cbn; tl|].
      apply ends_seq; [apply find_key_out|]. intros ko.
      apply ends_seq; [|intros; exact Logic.I].
      destruct ko as [k|]; [|exact Logic.I].
      apply validate_out; assumption. }
    destruct (Nat.ltb _ _); [cbn; tl|exact Logic.I].
  Qed.

  Lemma get_section_out section count : forall rem st, G (get_section H w kr rmac now multi section count rem st).
  Proof.
    induction rem as [|rem IH]; intros st; cbn [get_section]; [exact Logic.I|].
    apply ends_seq; [apply get_rr_out|]. intros st1. apply IH.
  Qed.

  Lemma fe_get_question : forall n pos, FE (get_question w n pos).
  Proof.
    induction n as [|n IH]; intros pos; cbn [get_question]; [exact Logic.I|].
    apply ends_seq; [apply fe_get_name; exact Hw|]. intros np.
    apply ends_seq; [apply fe_get_bytes|]. intros sp. apply IH.
  Qed.

  (* dns.message.from_wire(wire, keyring, request_mac, tsig_ctx, multi) on a signed message *)
  Theorem signed_message_outcome origin ctx : G (read_gen H origin w kr rmac ctx multi now).
  Proof.
    unfold read_gen. replace (Nat.ltb (length w) 12) with false by (symmetry; apply Nat.ltb_ge; exact Hlen).
    apply ends_seq; [apply fe_g, fe_get_uint|]. intros fl.
    apply ends_seq; [apply fe_g, fe_get_uint|]. intros qd.
    apply ends_seq; [apply fe_g, fe_get_uint|]. intros an.
    apply ends_seq; [apply fe_g, fe_get_uint|]. intros au.
    apply ends_seq; [apply fe_g, fe_get_uint|]. intros ad.
    destruct (_ =? 5); [cbn; tl|].
    apply ends_seq; [apply fe_g, fe_get_question|]. intros p. cbv zeta.
    apply ends_seq; [apply get_section_out|]. intros st1.
    apply ends_seq; [apply get_section_out|]. intros st2.
    apply ends_seq; [apply get_section_out|]. intros st3.
    destruct (negb (Nat.eqb _ _)); [cbn; tl|exact Logic.I].
  Qed.
End Reader.

(* without the length hypothesis: a short message is ShortHeader *)
Theorem signed_message_family H origin w kr rmac ctx multi now :
  ParserSafe.bytes_ok w -> zlen rmac <= 65535 ->
  match read_gen H origin w kr rmac ctx multi now with
  | Ok _ => True
  | Lib e => tlib e
  | Internal _ => False
  end.
Proof.
  intros Hw Hr. destruct (Nat.ltb (length w) 12) eqn:E.
  - unfold read_gen. rewrite E. cbn. tl.
  - apply Nat.ltb_ge in E. apply signed_message_outcome; assumption.
Qed.

Theorem validate_family H wire k owner rd now rmac ts ctx multi :
  (12 <= length wire)%nat -> tsig_inv rd -> zlen rmac <= 65535 ->
  match validate H wire k owner rd now rmac ts ctx multi with
  | Ok _ => True
  | Lib e => tlib e
  | Internal _ => False
  end.
Proof. apply validate_out. Qed.

(* the envelope that raised NotImplementedError before fix ed7f7ab (multi-message mode, running
   context, bare-secret keyring, unimplemented algorithm, MAC accepted): BadAlgorithm *)
Definition nie_wire : bytes :=
  [0;0; 0;0; 0;0; 0;0; 0;0; 0;1;
   0; 0;250; 0;255; 0;0;0;0; 0;19;
   1;120;0; 0;0;0;0;0;0; 0;0; 0;0; 0;0; 0;0; 0;0].

Example unimplemented_algorithm_multi :
  read (fun _ _ _ => []) nie_wire (KR_Dict [(NameM.root, inr [1])]) []
       (Some {| c_hash := SHA256; c_size := None; c_key := [1]; c_data := [] |}) true 0
  = Lib eBadAlgorithm.
Proof. vm_compute. reflexivity. Qed.

(* the OPT option loop of C14's reader runs under wrap_formerror, which would hide its fuel marker;
   it is never produced: every iteration consumes the four-octet option header *)
Lemma get_uint_pos w endp pos n v p : get_uint w endp pos n = Ok (v, p) -> p = (pos + n)%nat.
Proof.
  unfold get_uint, get_bytes. destruct (Nat.ltb _ _); [discriminate|]. cbn. intros E; inversion E. reflexivity.
Qed.

Lemma opt_options_no_internal w : forall fuel endp pos,
  (endp - pos < fuel)%nat -> FE (opt_options w endp pos fuel).
Proof.
  induction fuel as [|f IH]; intros endp pos Hf; cbn [opt_options];
    (destruct (Nat.leb endp pos) eqn:E; [exact Logic.I|apply Nat.leb_gt in E]); [lia|].
  eapply ends_bind; [apply ends_eq, fe_get_uint|]. intros [t p1] [G1 _]. apply get_uint_pos in G1.
  eapply ends_bind; [apply ends_eq, fe_get_uint|]. intros [l p2] [G2 _]. apply get_uint_pos in G2.
  cbv zeta. destruct (Nat.ltb _ _); [reflexivity|]. apply IH. cbn [snd] in *. lia.
Qed.

Theorem opt_options_terminates w : ParserSafe.bytes_ok w -> forall (rdata_start rdlen : nat) e,
  opt_options w (rdata_start + rdlen) rdata_start (S rdlen) <> Internal e.
Proof.
  intros _ rs rl e E. pose proof (opt_options_no_internal w (S rl) (rs + rl) rs ltac:(lia)) as H.
  rewrite E in H. exact H.
Qed.
