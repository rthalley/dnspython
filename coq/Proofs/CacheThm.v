(* C17 - theorems about all sequential histories of the store-level LRUCache model.
   A history is a list of items (calls with the clock increments their reads see, and time
   passing between calls); ghost state computed along the run records the ideal map and the
   event history the statements refer to. *)
From DV Require Import Base.Prelude Model.CacheM Proofs.CacheRing Proofs.CacheDict Proofs.CacheLru
  Proofs.CacheSpec.
From DV Require Import Model.CacheSpecM.

Section Ghost.
  Context {St G : Type}.
  Variable step : call -> St -> clk -> res (ret * St * clk).
  Variable gupd : call -> St -> ret -> St -> G -> G.

  (* the ghost run is the plain run plus bookkeeping *)
  Lemma grun_wrun : forall its w g g' w', grun step gupd its w g = Ok (g', w') ->
    exists rs, wrun step its w = Ok (rs, w').
  Proof.
    induction its as [|it its IH]; intros w g g' w' H; cbn in *.
    - inversion H; subst. eauto.
    - destruct (wstep step it w) as [x| |]; cbn [bind] in *; try discriminate.
      destruct (IH _ _ _ _ H) as [rs E]. rewrite E. cbn. eauto.
  Qed.

  Lemma wrun_grun : forall its w rs w' g,
    wrun step its w = Ok (rs, w') -> exists g', grun step gupd its w g = Ok (g', w').
  Proof.
    induction its as [|it its IH]; intros w rs w' g H; cbn in *.
    - inversion H; subst. eauto.
    - destruct (wstep step it w) as [x| |]; cbn [bind] in *; try discriminate.
      destruct (wrun step its (snd x)) as [[rs' w'']| |] eqn:E; cbn [bind] in H; try discriminate.
      inversion H; subst. cbn [snd] in *. eapply IH. exact E.
  Qed.

  (* an invariant that every admissible item keeps (without failing) holds along every run *)
  Lemma grun_inv : forall (Inv : St * Z -> G -> Prop) (ok : item -> Prop),
    (forall it w g, Inv w g -> ok it ->
       exists x, wstep step it w = Ok x /\ Inv (snd x) (gnext gupd it w x g)) ->
    forall its w g, Inv w g -> Forall ok its ->
    exists g' w', grun step gupd its w g = Ok (g', w') /\ Inv w' g'.
  Proof.
    intros Inv ok Hstep. induction its as [|it its IH]; intros w g HI Hok.
    - exists g, w. auto.
    - apply Forall_cons_iff in Hok. destruct Hok as [Hit Hok].
      destruct (Hstep it w g HI Hit) as (x & E & HI').
      destruct (IH _ _ HI' Hok) as (g' & w' & E' & HI'').
      exists g', w'. cbn [grun]. rewrite E. auto.
  Qed.

  Lemma grun_inv_at : forall (Inv : St * Z -> G -> Prop) (ok : item -> Prop),
    (forall it w g, Inv w g -> ok it ->
       exists x, wstep step it w = Ok x /\ Inv (snd x) (gnext gupd it w x g)) ->
    forall its w g g' w', Inv w g -> Forall ok its ->
    grun step gupd its w g = Ok (g', w') -> Inv w' g'.
  Proof.
    intros Inv ok Hstep its w g g' w' HI Hok E.
    destruct (grun_inv Inv ok Hstep its w g HI Hok) as (g1 & w1 & E1 & HI1).
    rewrite E in E1. injection E1 as <- <-. exact HI1.
  Qed.
End Ghost.

Lemma has_R : forall c a zs x, R c a zs -> has c x = ahas a x.
Proof.
  intros c a zs x HR. unfold has, ahas. rewrite (R_dict _ _ _ HR), (afind_R _ _ _ x HR).
  destruct (zfind x zs); reflexivity.
Qed.

Lemma R_zlen : forall c a zs, R c a zs -> zlen (l_dict c) = zlen (a_list a).
Proof. intros c a zs HR. unfold zlen. rewrite (R_len _ _ _ HR), (R_list _ _ _ HR), map_length. reflexivity. Qed.

(* the store represents a specification state that satisfies the list-level invariant *)
Definition LInv (w : lru * Z) (g : lghost) : Prop :=
  exists a zs, R (fst w) a zs /\ AInv a (snd w) g.

(* one call from such a state: it succeeds, returns what the specification returns, and
   re-establishes the invariant *)
Lemma linv_call : forall cl ds c t g a zs,
  R c a zs -> AInv a t g -> nonneg ds ->
  exists c' zs',
    lru_step cl c (mkClk t ds) =
      Ok (fst (fst (alru_step cl a (mkClk t ds))), c', snd (alru_step cl a (mkClk t ds))) /\
    R c' (snd (fst (alru_step cl a (mkClk t ds)))) zs' /\
    AInv (snd (fst (alru_step cl a (mkClk t ds)))) (now (snd (alru_step cl a (mkClk t ds))))
         (lru_gupd cl c (fst (fst (alru_step cl a (mkClk t ds)))) c' g).
Proof.
  intros cl ds c t g a zs HR HA Hn.
  destruct (sim_step cl c a zs (mkClk t ds) HR) as (c' & zs' & E & HR').
  exists c', zs'. split; [exact E|]. split; [exact HR'|].
  apply ainv_step; auto; intros x; eapply has_R; eassumption.
Qed.

Lemma linv_item : forall it w g,
  LInv w g -> mono_item it ->
  exists x, wstep lru_step it w = Ok x /\ LInv (snd x) (gnext lru_gupd it w x g).
Proof.
  intros [cl ds|d] [c t] g (a & zs & HR & HA) Hm; cbn [fst snd] in *.
  - destruct (linv_call cl ds c t g a zs HR HA Hm) as (c' & zs' & E & HR' & HA').
    eexists. split; [cbn [wstep fst snd]; rewrite E; reflexivity|].
    eexists _, zs'. split; [exact HR'|exact HA'].
  - eexists. split; [reflexivity|]. exists a, zs. split; [exact HR|]. apply ainv_adv; assumption.
Qed.

Lemma linv_init : forall m t0, exists c0, lru_init m = Ok c0 /\ LInv (c0, t0) lghost0.
Proof.
  intros m t0. destruct (init_R m) as [c0 [E HR]]. exists c0. split; [exact E|].
  exists (alru_init m), []. split; [exact HR|apply ainv_init].
Qed.

Lemma reach_inv : forall m t0 its g w, mono its -> lru_reach m t0 its g w -> LInv w g.
Proof.
  intros m t0 its g w Hm [c0 [E0 E]].
  destruct (linv_init m t0) as [c0' [E0' HI]]. rewrite E0 in E0'. injection E0' as <-.
  exact (grun_inv_at lru_step lru_gupd LInv mono_item linv_item its _ _ _ _ HI Hm E).
Qed.

(* a call from a reachable world, seen through the specification *)
Lemma lru_call : forall m t0 its g w cl ds r w',
  mono its -> lru_reach m t0 its g w -> nonneg ds ->
  wstep lru_step (Call cl ds) w = Ok (Some r, w') ->
  exists a zs zs',
    R (fst w) a zs /\ AInv a (snd w) g /\
    r = fst (fst (alru_step cl a (mkClk (snd w) ds))) /\
    snd w' = now (snd (alru_step cl a (mkClk (snd w) ds))) /\
    R (fst w') (snd (fst (alru_step cl a (mkClk (snd w) ds)))) zs'.
Proof.
  intros m t0 its g [c t] cl ds r w' Hm Hr Hn E.
  destruct (reach_inv _ _ _ _ _ Hm Hr) as (a & zs & HR & HA). cbn [fst snd] in *.
  destruct (linv_call cl ds c t g a zs HR HA Hn) as (c' & zs' & E' & HR' & _).
  cbn [wstep fst snd] in E. rewrite E' in E. injection E as <- <-. exists a, zs, zs'. auto.
Qed.

Lemma lru_total_l : forall m t0 its, mono its ->
  exists c0 rs w, lru_init m = Ok c0 /\ wrun lru_step its (c0, t0) = Ok (rs, w).
Proof.
  intros m t0 its Hm. destruct (linv_init m t0) as [c0 [E0 HI]].
  destruct (grun_inv lru_step lru_gupd LInv mono_item linv_item its _ _ HI Hm) as (g' & w' & E' & _).
  destruct (grun_wrun _ _ _ _ _ _ _ E') as [rs Ers]. eauto.
Qed.

Lemma lru_bound_l : forall m t0 its g w, mono its -> lru_reach m t0 its g w ->
  zlen (l_dict (fst w)) <= l_max (fst w) /\ 1 <= l_max (fst w).
Proof.
  intros m t0 its g w Hm Hr. destruct (reach_inv _ _ _ _ _ Hm Hr) as (a & zs & HR & HA).
  rewrite (R_zlen _ _ _ HR), (R_max _ _ _ HR). apply HA.
Qed.

Lemma lru_get_l : forall m t0 its g w key ds r w',
  mono its -> lru_reach m t0 its g w -> nonneg ds ->
  wstep lru_step (Call (Get key) ds) w = Ok (Some r, w') ->
  r = expected (fst g) key (snd w').
Proof.
  intros m t0 its g w key ds r w' Hm Hr Hn E.
  destruct (lru_call _ _ _ _ _ _ _ _ _ Hm Hr Hn E) as (a & zs & zs' & _ & HA & -> & -> & _).
  apply J_get; [apply HA|exact Hn].
Qed.

Lemma lru_evict_l : forall m t0 its g w cl ds r w' gk kept,
  mono its -> lru_reach m t0 its g w -> nonneg ds ->
  wstep lru_step (Call cl ds) w = Ok (Some r, w') ->
  (match cl with Put key _ => gk <> key /\ kept <> key | SetMax _ => True | _ => False end) ->
  has (fst w) gk = true -> has (fst w') gk = false -> has (fst w') kept = true ->
  younger (snd g) kept gk.
Proof.
  intros m t0 its g w cl ds r w' gk kept Hm Hr Hn E Hcl H1 H2 H3.
  destruct (lru_call _ _ _ _ _ _ _ _ _ Hm Hr Hn E) as (a & zs & zs' & HR & HA & _ & _ & HR').
  rewrite (has_R _ _ _ _ HR) in H1. rewrite (has_R _ _ _ gk HR') in H2. rewrite (has_R _ _ _ kept HR') in H3.
  eapply evict_order; eauto; apply HA.
Qed.

Lemma lru_stats_l : forall m t0 its g w, mono its -> lru_reach m t0 its g w ->
  (l_hits (fst w), l_miss (fst w)) = stats_of (snd g).
Proof.
  intros m t0 its g w Hm Hr.
  destruct (reach_inv _ _ _ _ _ Hm Hr) as (a & zs & HR & HA).
  rewrite (R_hits _ _ _ HR), (R_miss _ _ _ HR). apply HA.
Qed.

Lemma lru_hitsfor_l : forall m t0 its g w key ds r w',
  mono its -> lru_reach m t0 its g w -> nonneg ds ->
  wstep lru_step (Call (HitsFor key) ds) w = Ok (Some r, w') ->
  r = expected_hits (fst g) (snd g) key (snd w').
Proof.
  intros m t0 its g w key ds r w' Hm Hr Hn E.
  destruct (lru_call _ _ _ _ _ _ _ _ _ Hm Hr Hn E) as (a & zs & zs' & _ & HA & -> & -> & _).
  apply J_hitsfor; [apply HA|apply HA|exact Hn].
Qed.

(* set_max_size: the limit becomes max(1, m) and the bound holds immediately afterwards *)
Lemma lru_setmax_l : forall m t0 its g w mx ds r w',
  mono its -> lru_reach m t0 its g w -> nonneg ds ->
  wstep lru_step (Call (SetMax mx) ds) w = Ok (Some r, w') ->
  l_max (fst w') = Z.max 1 mx /\ zlen (l_dict (fst w')) <= Z.max 1 mx.
Proof.
  intros m t0 its g w mx ds r w' Hm Hr Hn E.
  destruct (lru_call _ _ _ _ _ _ _ _ _ Hm Hr Hn E) as (a & zs & zs' & _ & HA & _ & _ & HR').
  destruct (abound_step (SetMax mx) a (mkClk (snd w) ds) (A_bound _ _ _ HA)) as [B _].
  rewrite (R_zlen _ _ _ HR'), (R_max _ _ _ HR'). cbn [alru_step fst snd a_max] in *.
  replace (Z.max 1 mx) with (if mx <? 1 then 1 else mx) by (destruct (Z.ltb_spec mx 1); lia).
  split; [reflexivity|exact B].
Qed.

(* put evicts only what the limit forces it to: afterwards the cache holds the new entry plus as
   many of the other old entries as fit *)
Lemma lru_put_size_l : forall m t0 its g w key v ds r w',
  mono its -> lru_reach m t0 its g w -> nonneg ds ->
  wstep lru_step (Call (Put key v) ds) w = Ok (Some r, w') ->
  zlen (l_dict (fst w')) =
  Z.min (l_max (fst w)) (zlen (l_dict (fst w)) - (if has (fst w) key then 1 else 0) + 1).
Proof.
  intros m t0 its g w key v ds r w' Hm Hr Hn E.
  destruct (lru_call _ _ _ _ _ _ _ _ _ Hm Hr Hn E) as (a & zs & zs' & HR & HA & _ & _ & HR').
  rewrite (R_zlen _ _ _ HR'), (R_zlen _ _ _ HR), (R_max _ _ _ HR), (has_R _ _ _ key HR).
  unfold zlen, ahas. rewrite put_length. pose proof (length_aremove (a_list a) key) as L.
  destruct (A_bound _ _ _ HA) as [B1 B2]. unfold zlen in B1.
  destruct (afind (a_list a) key); lia.
Qed.

(* how a call can change the key set of the dict *)
Lemma lru_keyset_l : forall m t0 its g w cl ds r w' x,
  mono its -> lru_reach m t0 its g w -> nonneg ds ->
  wstep lru_step (Call cl ds) w = Ok (Some r, w') ->
  keyset_rule cl (has (fst w)) (has (fst w')) x.
Proof.
  intros m t0 its g w cl ds r w' x Hm Hr Hn E.
  destruct (lru_call _ _ _ _ _ _ _ _ _ Hm Hr Hn E) as (a & zs & zs' & HR & HA & _ & _ & HR').
  pose proof (keyset_step cl a (mkClk (snd w) ds) x (A_nodup _ _ _ HA)) as K.
  destruct cl as [key|key v|[key|]|mx|key| | | |]; cbn [keyset_rule] in *;
    rewrite ?(has_R _ _ _ _ HR), ?(has_R _ _ _ _ HR'); exact K.
Qed.

(* nothing is lost early: an answer that was stored, not flushed, not evicted and has not yet
   expired is in the dict, on a node carrying exactly that answer *)
Lemma live_present_R : forall c a zs t m key v, R c a zs -> J a t m ->
  m key = Some v -> t < a_exp v ->
  exists i nd, dget (l_dict c) key = Some i /\ sget (l_store c) i = Some nd /\
               n_key nd = Some key /\ n_val nd = Some v.
Proof.
  intros c a zs t m key v HR HJ Hi Hx.
  destruct (J_out _ _ _ HJ _ _ Hi) as [[e [He Hv]]|Hle]; [|lia].
  rewrite (afind_R _ _ _ key HR) in He.
  destruct (zfind key zs) as [z|] eqn:Ez; [|discriminate]. injection He as <-.
  destruct (R_node _ _ _ _ _ HR Ez) as (_ & nd & Hg & Hk & Hnv).
  exists (fst z), nd. rewrite (R_dict _ _ _ HR), Ez, <- Hv. auto.
Qed.

Lemma lru_live_present_l : forall m t0 its g w key v, mono its -> lru_reach m t0 its g w ->
  fst g key = Some v -> snd w < a_exp v ->
  exists i nd, dget (l_dict (fst w)) key = Some i /\ sget (l_store (fst w)) i = Some nd /\
               n_key nd = Some key /\ n_val nd = Some v.
Proof.
  intros m t0 its g w key v Hm Hr.
  destruct (reach_inv _ _ _ _ _ Hm Hr) as (a & zs & HR & HA).
  exact (live_present_R _ _ _ _ _ key v HR (A_ideal _ _ _ HA)).
Qed.

(* what the statistics calls return *)
Lemma lru_stat_calls : forall c k,
  lru_step Hits c k = Ok (RInt (l_hits c), c, k) /\
  lru_step Misses c k = Ok (RInt (l_miss c), c, k) /\
  lru_step Snapshot c k = Ok (RStats (l_hits c) (l_miss c), c, k).
Proof. intros. repeat split. Qed.
