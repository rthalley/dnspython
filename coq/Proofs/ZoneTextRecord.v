(* C09: one printed record line is read back as the record it prints. *)
From DV Require Import Base.Prelude Model.NameM Model.ZoneTextM Proofs.ZoneTextBase Proofs.ZoneTextInv
  Proofs.ZoneTextRespell Proofs.ZoneTextRead Proofs.ZoneTextLex Proofs.ZoneTextLines.
Open Scope Z_scope.

Lemma id_clean_starts v r : id_clean v = true -> starts_ws (v ++ r) = false.
Proof.
  destruct v as [|c v]; [discriminate|]. unfold id_clean. cbn [id_clean_go app starts_ws].
  destruct (c =? 92) eqn:E.
  - apply Z.eqb_eq in E. subst. reflexivity.
  - intros H. apply andb_true_iff in H as [H _]. apply negb_true_iff, is_delim_false in H.
    apply orb_false_iff. split; apply Z.eqb_neq; tauto.
Qed.

Lemma digits_clean_go v : all_digits v = true -> id_clean_go v false = true.
Proof.
  induction v as [|c v IH]; [reflexivity|]. unfold all_digits. cbn [forallb id_clean_go].
  intros H. apply andb_true_iff in H as [Hc Hv].
  unfold is_digit in Hc. apply andb_true_iff in Hc as [H1 H2]. apply Z.leb_le in H1, H2.
  replace (c =? 92) with false by (symmetry; apply Z.eqb_neq; lia).
  rewrite (proj2 (is_delim_false c)) by lia. apply IH. exact Hv.
Qed.

Lemma digits_clean v : all_digits v = true -> v <> [] -> id_clean v = true.
Proof. intros H Hn. destruct v; [congruence|]. unfold id_clean. apply digits_clean_go. exact H. Qed.

Definition not_dollar (v : list Z) : Prop := match v with 36 :: _ => False | _ => True end.

Lemma process_line_record c s v r lerr :
  not_dollar v -> process_line c s false (TId v :: r) lerr = rr_line c s false (TId v :: r) lerr.
Proof.
  unfold process_line, not_dollar. cbn [tokval]. rewrite !dollar_match.
  destruct (match v with c0 :: _ => c0 =? 36 | [] => false end); [contradiction|reflexivity].
Qed.

Section Record.
  Variable c : cfg.
  Variable st : style.
  Variable zo : name.

  (* the style keeps every piece of information, and is in the modelled (non-generic) fragment *)
  Definition lossless : Prop :=
    st_first_dup st = false /\ st_omit_ttl st = false /\ st_generic st = false /\
    st_name_just st <= 0 /\ st_omit_dot st = false /\
    (forall d, st_default_ttl st = Some d -> 0 <= d <= MAX_TTL).

  (* the printed owner field parses back (C01's round trip, for this name) *)
  Definition owner_ok (n : name) (v : list Z) (nabs : name) : Prop :=
    name_text (st_origin st) (st_relativize st) false n = Ok v /\
    id_clean v = true /\ not_dollar v /\
    as_name true v (Some zo) false None = Ok nabs /\
    is_subdomain nabs zo = true /\
    (if c_rel c then lift_name true (relativize nabs zo) else Ok nabs) = Ok n.

  (* the printed rdata parses back (C05's round trip, for this record) *)
  Definition rdata_ok (ty : Z) (rd : rdata) (toks : list tok) : Prop :=
    rdata_text ty (st_origin st) (st_relativize st) false rd = Ok (join_sp (map render_tok toks)) /\
    forallb tok_clean toks = true /\
    parse_rdata ty toks false zo (c_rel c) zo = Ok rd.

  Definition type_ok (ty : Z) : Prop :=
    type_text_ok (type_to_text ty) ty /\ id_clean (type_to_text ty) = true.

  Definition class_ok : Prop :=
    class_from_text (class_to_text (c_class c)) = Some (c_class c) /\
    id_clean (class_to_text (c_class c)) = true.

  (* reader state while the records are read *)
  Definition st_inv (s : rstate) : Prop :=
    corigin s = Some zo /\ zorigin s = Some zo /\
    (forall d, st_default_ttl st = Some d -> dttl_known s = true /\ dttl s = d).

  Definition explicit_ttl (ttl : Z) : bool :=
    negb (match st_default_ttl st with Some d => ttl =? d | None => false end).

  Definition ttl_field (ttl : Z) : list Z :=
    justify (if st_omit_ttl st || (match st_default_ttl st with Some d => ttl =? d | None => false end)
             then [] else dec ttl ++ [32]) (st_ttl_just st).
  Definition class_field : list Z :=
    justify (if st_omit_class st then []
             else if st_generic st then sCLASS ++ dec (c_class c) ++ [32]
             else class_to_text (c_class c) ++ [32]) (st_class_just st).
  Definition type_field (ty : Z) : list Z :=
    justify (if st_generic st then sTYPE ++ dec ty else type_to_text ty) (st_type_just st).

  Definition owner_field (ownt : option (list Z)) : list Z :=
    match ownt with
    | Some v => justify (v ++ [32]) (st_name_just st)
    | None => justify blank4 (st_name_just st)
    end.

  Definition next_state (s : rstate) (nabs : name) (ttl ty : Z) (rd : rdata) (z' : zone) : rstate :=
    set_zn (after_soa (after_ttl (set_last s nabs) (explicit_ttl ttl) ttl) ty rd) z'.

  Lemma next_state_zn s nabs ttl ty rd z' : zn (next_state s nabs ttl ty rd z') = z'.
  Proof. reflexivity. Qed.

  Lemma next_state_last s nabs ttl ty rd z' : lastname (next_state s nabs ttl ty rd z') = Some nabs.
  Proof.
    unfold next_state. st_simpl. destruct (after_soa_frame (after_ttl (set_last s nabs) (explicit_ttl ttl) ttl) ty rd)
      as (_ & _ & -> & _).
    unfold after_ttl. destruct (explicit_ttl ttl); reflexivity.
  Qed.

  Lemma next_state_origins s nabs ttl ty rd z' :
    corigin (next_state s nabs ttl ty rd z') = corigin s /\
    zorigin (next_state s nabs ttl ty rd z') = zorigin s.
  Proof.
    unfold next_state. st_simpl.
    destruct (after_soa_frame (after_ttl (set_last s nabs) (explicit_ttl ttl) ttl) ty rd) as (-> & -> & _).
    unfold after_ttl. destruct (explicit_ttl ttl); split; reflexivity.
  Qed.

  Lemma next_state_dttl s nabs ttl ty rd z' :
    dttl_known s = true ->
    dttl_known (next_state s nabs ttl ty rd z') = true /\
    dttl (next_state s nabs ttl ty rd z') = dttl s.
  Proof.
    intros Hk. unfold next_state. st_simpl.
    rewrite after_soa_known; unfold after_ttl; destruct (explicit_ttl ttl); auto.
  Qed.

  Lemma next_state_inv s nabs ttl ty rd z' : st_inv s -> st_inv (next_state s nabs ttl ty rd z').
  Proof.
    intros (Hc & Hz & Hd). unfold st_inv.
    destruct (next_state_origins s nabs ttl ty rd z') as [-> ->].
    split; [exact Hc|]. split; [exact Hz|].
    intros d Hdd. destruct (Hd d Hdd) as [Hk Hv].
    destruct (next_state_dttl s nabs ttl ty rd z' Hk) as [-> ->]. auto.
  Qed.

  Lemma record_line_reads s n nabs (ownt : option (list Z)) ttl ty rd toks z' :
    lossless -> class_ok -> st_inv s ->
    match ownt with
    | Some v => owner_ok n v nabs
    | None => lastname s = Some nabs /\ is_subdomain nabs zo = true /\
              (if c_rel c then lift_name true (relativize nabs zo) else Ok nabs) = Ok n
    end ->
    0 <= ttl <= MAX_TTL -> type_ok ty -> rdata_ok ty rd toks ->
    txn_add zo (c_rel c) (zn s) n ttl ty rd = Ok z' ->
    line_reads c s
      (owner_field ownt ++ ttl_field ttl ++ class_field ++ type_field ty ++
       32 :: join_sp (map render_tok toks))
      (next_state s nabs ttl ty rd z').
  Proof.
    intros (Hfd & Hot & Hg & Hnj & Hod & Hdr) (Hcl & Hclc) (Hco & Hzo & Hd) Hown Httl (Hty & Htyc) (Hrt & Hrc & Hrp) Hadd.
    set (ttlo := if explicit_ttl ttl then Some (dec ttl) else None).
    set (clso := if st_omit_class st then None else Some (class_to_text (c_class c))).
    set (tyt := type_to_text ty).
    (* the TTL is spelled, or it is the $TTL default *)
    assert (Hex : match ttlo with
                  | Some tv => ttl_from_text tv = Ok ttl
                  | None => (dttl_known s = true /\ dttl s = ttl) \/
                            (dttl_known s = false /\ lttl_known s = true /\ lttl s = ttl)
                  end).
    { unfold ttlo, explicit_ttl.
      destruct (st_default_ttl st) as [d|] eqn:Ed; cbn [negb]; [|apply ttl_from_text_dec; exact Httl].
      destruct (Z.eqb_spec ttl d) as [E|E]; cbn [negb]; [|apply ttl_from_text_dec; exact Httl].
      subst d. left. exact (Hd ttl eq_refl). }
    assert (Hcls : forall ct, clso = Some ct -> class_from_text ct = Some (c_class c)).
    { unfold clso. destruct (st_omit_class st); intros ct Hct; inversion Hct; subst. exact Hcl. }
    (* the line as pieces: owner (spelled flush left, or blank), then the three justified fields *)
    assert (P0 : exists p0, owner_field ownt = render p0 /\ fields p0 (opt_tok ownt) /\
                            forall r, starts_ws (render p0 ++ r) = match ownt with Some _ => false | None => true end).
    { unfold owner_field. destruct ownt as [v|].
      - destruct Hown as (_ & Hvc & _).
        destruct (justify_field (Some v) (st_name_just st)) as (k0 & m0 & R0 & K0).
        rewrite (K0 Hnj ltac:(discriminate)) in R0. eexists. split; [exact R0|].
        split; [apply fields_fieldp; intros v' E; inversion E; subst; exact Hvc|].
        intros r. cbn [fieldp render render_tok repeat app]. rewrite <- app_assoc. apply id_clean_starts, Hvc.
      - destruct (justify_blank _ Hnj) as (k0 & R0). eexists. split; [exact R0|]. repeat split. }
    destruct P0 as (p0 & R0 & F0 & L0).
    destruct (justify_field ttlo (st_ttl_just st)) as (k1 & m1 & R1 & _).
    destruct (justify_field clso (st_class_just st)) as (k2 & m2 & R2 & _).
    destruct (justify_type tyt (st_type_just st)) as (k3 & m3 & R3).
    assert (F : fields (p0 ++ fieldp k1 ttlo m1 ++ fieldp k2 clso m2 ++ fieldp k3 (Some tyt) m3)
                       (opt_tok ownt ++ opt_tok ttlo ++ opt_tok clso ++ [TId tyt])).
    { repeat apply fields_app; try exact F0; apply fields_fieldp; intros v E.
      - unfold ttlo in E. destruct (explicit_ttl ttl); inversion E; subst.
        destruct (dec_spec ttl ltac:(lia)) as (Ha & _ & Hne). apply digits_clean; assumption.
      - unfold clso in E. destruct (st_omit_class st); inversion E; subst. exact Hclc.
      - inversion E; subst. exact Htyc. }
    destruct F as (Ft & Fs & Fe).
    set (ps := (p0 ++ fieldp k1 ttlo m1 ++ fieldp k2 clso m2 ++ fieldp k3 (Some tyt) m3) ++ interleave toks).
    replace (owner_field ownt ++ ttl_field ttl ++ class_field ++ type_field ty ++ 32 :: join_sp (map render_tok toks))
      with (render ps).
    2:{ unfold ps. rewrite !render_app, render_interleave, <- !app_assoc, <- R0, <- R1, <- R2, <- R3.
        unfold ttl_field, class_field, type_field, ttlo, clso, explicit_ttl. rewrite Hot, Hg. cbn [orb].
        destruct (match st_default_ttl st with Some d => ttl =? d | None => false end), (st_omit_class st); reflexivity. }
    apply line_reads_pieces; [apply sep_ok_app; [exact Fs|exact Fe|apply sep_interleave; exact Hrc]|].
    unfold ps. rewrite toks_of_app, toks_interleave, Ft, !render_app, <- !app_assoc, L0. cbn [app].
    pose proof (fun Ho Hs => rr_line_spelled c s zo zo nabs ownt ttlo ttl clso tyt ty toks false
                               Hco Hzo Ho Hs Hex Hcls Hty) as HR.
    assert (Hnext : Ok (set_zn (after_soa (after_ttlo (set_last s nabs) ttlo ttl) ty rd) z') =
                    Ok (next_state s nabs ttl ty rd z'))
      by (unfold next_state; rewrite (after_ttl_ttlo _ _ (dec ttl)); reflexivity).
    destruct ownt as [v|].
    - destruct Hown as (Hnt & Hvc & Hnd & Han & Hsub & Hrel).
      cbn [opt_tok app]. rewrite process_line_record by exact Hnd.
      cbn [opt_tok app] in HR. rewrite (HR Han Hsub), Hrel. cbn [bind]. rewrite Hrp. cbn [bind]. rewrite Hadd. exact Hnext.
    - destruct Hown as (Hln & Hsub & Hrel).
      unfold process_line. cbn [opt_tok app] in *.
      rewrite (HR Hln Hsub), Hrel. cbn [bind]. rewrite Hrp. cbn [bind]. rewrite Hadd. exact Hnext.
  Qed.
End Record.
