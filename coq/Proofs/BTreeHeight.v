(* C19 - the height of a well-formed B-tree is logarithmic in the number of elements:
   2 * t^(depth-1) <= n + 1 for every tree with an internal root.  (Every operation of the model
   runs with fuel = depth, so this bounds the length of every root-to-leaf descent.) *)
From DV Require Import Base.Prelude Model.BTreeM Proofs.BTreeBase Proofs.BTreeWf Proofs.BTreeInsert Proofs.BTreeLookup.

Fixpoint sum1 (ks : list tree) : nat :=
  match ks with [] => O | k :: r => (S (length (elements k)) + sum1 r)%nat end.

Lemma interleave_count : forall ks es, length ks = S (length es) ->
  S (length (interleave (fun k => elements k) es ks)) = sum1 ks.
Proof.
  induction ks as [|k ks IH]; intros es H; [discriminate|]. cbn [interleave sum1].
  destruct es as [|e es].
  - destruct ks; [|discriminate]. cbn. lia.
  - cbn in H. rewrite app_length. cbn [length]. rewrite <- (IH es) by lia. lia.
Qed.

Lemma kids_count c ks :
  Forall (fun k => c <= S (length (elements k)))%nat ks -> (length ks * c <= sum1 ks)%nat.
Proof. induction 1; cbn [length sum1]; lia. Qed.

Section H.
Variable t : nat.
Hypothesis Ht : (3 <= t)%nat.

(* a subtree whose top node holds at least lo keys has at least (lo + 1) * t^(height-1) - 1
   elements; the top node counts with its own bound, every node below with the minimum t - 1 *)
Lemma count_bound : forall h lo n, wfn t lo (S h) n -> (S lo * t ^ h <= S (length (elements n)))%nat.
Proof.
  induction h as [|h IH]; intros lo n Hw.
  - apply wfn_height_1 in Hw as (es & -> & Hb). cbn. lia.
  - apply wfn_height_S in Hw as (es & ks & -> & Hb & Hk & Hall).
    cbn [elements]. rewrite (interleave_count ks es Hk).
    assert (Hkid : forall k, wfn t (t_min t) (S h) k -> (t ^ S h <= S (length (elements k)))%nat).
    { intros k Hkw. apply IH in Hkw. unfold t_min in Hkw. replace (S (t - 1)) with t in Hkw by lia. exact Hkw. }
    pose proof (kids_count (t ^ S h) ks (Forall_impl _ Hkid Hall)) as Hs. rewrite Hk in Hs.
    assert (S lo * t ^ S h <= S (length es) * t ^ S h)%nat by (apply Nat.mul_le_mono_r; lia). lia.
Qed.

End H.

Theorem height_bound_wf t root :
  wf t root -> n_leaf root = false ->
  (2 * t ^ (depth root - 1) <= S (length (elements root)))%nat.
Proof.
  intros (Ht & (h & Hw) & _) Hl. unfold wfr, root_lo in Hw. rewrite Hl in Hw.
  rewrite (wfn_depth t _ _ _ Hw). destruct h as [|h]; [inversion Hw|].
  replace (S h - 1)%nat with h by lia. exact (count_bound t Ht h 1 root Hw).
Qed.

Theorem height_bound_proof t : (3 <= t)%nat -> forall root,
  wf t root -> n_leaf root = false ->
  (2 * t ^ (depth root - 1) <= S (length (elements root)))%nat.
Proof. intros _. apply height_bound_wf. Qed.
