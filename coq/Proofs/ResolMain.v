(* Theorems about a whole resolution (resolve_with), assembled from the step invariants. *)
From DV Require Import Base.Prelude Model.NameM Model.ResolM Proofs.NameValid Proofs.ResolBase Proofs.ResolTerm Proofs.ResolTrace Proofs.ResolSpec Proofs.ResolCand.
Open Scope Z_scope.

Section Main.
Variables (sc : nat -> outcome) (c : cfg).
Hypothesis Hnodup : NoDup (ids (c_servers c)).

(* whole resolution: a server taken out of the mix is never asked again; no Python-level failure *)
Theorem broken_never_reasked_resolve : forall fuel ch e f s' e',
  resolve_with fuel sc c ch e = (f, s', e') -> f <> FFuel ->
  (exists new, e_trace e' = e_trace e ++ new /\ never_reasked c new) /\ (forall k, f <> FInternal k).
Proof.
  intros fuel ch e f s' e' H HF.
  destruct (resolution_ind sc c ch e (BInv c) (BFin c)) with (6 := H) as (new & HE & HN & HI);
    eauto using binv_step, binv_stop, binv_end.
  - intros s1 ENR. destruct (first_request_state _ _ _ _ ENR) as (_ & F1 & F2 & F3 & F4 & F5 & _).
    unfold BInv. rewrite F1, F2, F3, F4, F5.
    repeat split; auto using incl_refl; try discriminate. constructor.
  - intros r f0 s1 _ E. split; [constructor|]. destruct r; inversion E; discriminate.
Qed.

Hypothesis Hdur : forall i, 0 <= o_dur (sc i).

Definition tc_once (a b : event) : Prop :=
  is_trunc (ev_obs a) = true -> ev_tcp a = true -> ev_server b <> ev_server a.

Theorem tc_retry_resolve : forall ch e f s' e',
  resolve_with (fuel_bound c) sc c ch e = (f, s', e') ->
  exists new, e_trace e' = e_trace e ++ new /\
    adjacent tc_retry_rel new /\
    (forall a, last_opt new = Some a -> ev_trunc_udp a = false) /\
    ForallOrdPairs tc_once new.
Proof.
  intros ch e f s' e' H.
  destruct (resolve_terminates_within_lifetime sc c ch e f s' e' Hdur H) as (HF & _).
  destruct (broken_never_reasked_resolve _ _ _ _ _ _ H HF) as ((new0 & HE0 & HNR) & HNI).
  destruct (resolution_ind sc c ch e (fun tr s0 e0 => TInv c (e_clock e) s0 e0 /\ TCInv c (e_clock e) tr s0 e0)
              TCFin) with (6 := H) as (new & HE & HA & HL); auto.
  - intros s1 ENR. split; [eapply tinv_first; eassumption|]. split; [exact Logic.I|discriminate].
  - intros. split; [exact Logic.I|discriminate].
  - intros tr s0 e0 s1 ns ev s2 (HT & HTC) HA HC. split.
    + eapply step_decreases; eauto.
    + eapply tcinv_step; eauto.
  - intros tr s0 e0 f0 s2 e2 (_ & HTC). apply tcinv_stop. exact HTC.
  - intros tr s0 e0 s1 ns ev f0 s2 (_ & HTC). apply tcinv_end. exact HTC.
  - assert (new0 = new) by (rewrite HE0 in HE; apply app_inv_head in HE; auto). subst new0.
    exists new. split; [exact HE|]. split; [exact HA|]. split.
    + intros a La. destruct (ev_trunc_udp a) eqn:Ta; [|reflexivity].
      destruct (HL a La Ta) as (k & Hk). destruct (HNI _ Hk).
    + eapply FOP_impl; [|exact HNR]. intros a b Hab Ht Htcp. apply Hab.
      unfold ev_drops, drops. unfold is_trunc in Ht. destruct (ev_obs a) as [k|m]; try discriminate.
      destruct (exn_of_class k); try discriminate. exact Htcp.
Qed.
End Main.

Theorem outcome_spec_resolve : forall sc c ch fuel e f s' e',
  resolve_with fuel sc c ch e = (f, s', e') -> f <> FFuel ->
  exists new, e_trace e' = e_trace e ++ new /\
    match f with
    | FInternal _ => True
    | _ => outcome_ok c (e_clock e) ch new f (e_clock e') /\ s_cache s' = cache_after c ch new
    end.
Proof.
  intros sc c ch fuel e.
  assert (HS : OState c ch [] (init_st c ch) []).
  { split; [constructor|]. split; [reflexivity|]. split; [intros ? []|intros ? ? []]. }
  pose proof (ostate_next c (e_clock e) ch _ _ _ (c_qnames c) (e_clock e) HS eq_refl) as N.
  apply (resolution_ind sc c ch e (OInv c ch) (OFin c (e_clock e) ch));
    eauto using oinv_step, oinv_stop, oinv_end.
  - intros s1 ENR. rewrite ENR in N. destruct N as (s0 & q & rest & -> & (F1 & _) & HD).
    split; [reflexivity|]. split; [|exact HD].
    intros sv Hsv. left. simpl in *. rewrite F1. exact (in_map sv_id _ _ Hsv).
  - intros r f s1 <- E. destruct (next_request _ _ _ _); [discriminate|..];
      specialize (N _ _ E); injection E as <- <-; exact N.
Qed.

Theorem candidates_in_order_resolve : forall sc c ch fuel e f s' e',
  resolve_with fuel sc c ch e = (f, s', e') -> f <> FFuel ->
  exists new, e_trace e' = e_trace e ++ new /\ Forall (cand_at c) new /\ adjacent cand_rel new.
Proof.
  intros sc c ch fuel e.
  apply (resolution_ind sc c ch e (QInv c) (QFin c)); eauto using qinv_step, qinv_stop, qinv_end.
  - intros s1 H. apply next_request_request in H. destruct H as (sk & q & rest & s0 & HQ & -> & _).
    split; [exists sk; exact HQ|]. split; [constructor|]. split; [exact Logic.I|discriminate].
  - split; [constructor|exact Logic.I].
Qed.

(* a reply accepted from the network is afterwards found under (question name, rdtype, rdclass)
   until it expires; the question name is one of the candidates *)
Theorem cache_put_spec_resolve : forall sc c ch fuel e f s' e' a,
  resolve_with fuel sc c ch e = (f, s', e') -> f <> FFuel -> c_cache c = true ->
  f = FAnswer a \/ f = FNoAnswer a ->
  forall new, e_trace e' = e_trace e ++ new -> from_network c new a ->
  In (a_qname a) (c_qnames c) /\
  forall now, now < a_expiration a ->
    cache_get (s_cache s') {| k_name := a_qname a; k_type := c_rdtype c; k_class := c_rdclass c |} now = Some a.
Proof.
  intros sc c ch fuel e f s' e' a H HF HC Hf new HE HN.
  destruct (outcome_spec_resolve _ _ _ _ _ _ _ _ H HF) as (new1 & HE1 & HO).
  destruct (candidates_in_order_resolve _ _ _ _ _ _ _ _ H HF) as (new2 & HE2 & HC2 & _).
  assert (new1 = new) by (rewrite HE in HE1; apply app_inv_head in HE1; auto).
  assert (new2 = new) by (rewrite HE in HE2; apply app_inv_head in HE2; auto).
  subst new1 new2.
  assert (HS: s_cache s' = cache_after c ch new) by (destruct Hf; subst f; apply HO).
  destruct HN as (pre & ev & m & E1 & _ & E3 & E4 & E5).
  destruct (make_answer_ok _ _ _ _ _ _ _ _ E5) as (chx & _ & Q & _).
  split.
  - rewrite Q. subst new. apply Forall_app in HC2. destruct HC2 as [_ HC2]. inversion HC2 as [|x l (done & rest & D1 & _) _]; subst.
    rewrite D1. apply in_or_app. right. left. reflexivity.
  - intros now Hnow. rewrite HS, E1, cache_after_snoc, (cache_step_accepts c _ ev m a E3 E4 E5), HC, Q.
    apply cache_get_put_same. exact Hnow.
Qed.

Lemma concatenate_no_internal : forall a b e, concatenate a b <> Internal e.
Proof. intros a b e. unfold concatenate. destruct (_ && _); [discriminate|apply mk_name_never_internal]. Qed.

Lemma concat_all_no_internal : forall q sl e, concat_all q sl <> Internal e.
Proof.
  induction sl as [|s r IH]; intros e; simpl; [discriminate|].
  destruct (concatenate q s) as [x|x|x] eqn:EC; simpl; try discriminate.
  - destruct (concat_all q r) as [y|y|y] eqn:ER; simpl; try discriminate. exfalso. eapply IH; eauto.
  - exfalso. eapply concatenate_no_internal; eauto.
Qed.

Lemma qnames_to_try_no_internal : forall r q srch e, qnames_to_try r q srch <> Internal e.
Proof.
  intros r q srch e. unfold qnames_to_try. destruct (is_absolute q); [discriminate|].
  destruct (concatenate q root) as [x|x|x] eqn:EC; simpl; try discriminate.
  - destruct (match srch with Some b => b | None => r_use_search_by_default r end); [|discriminate].
    destruct (concat_all q (search_list r)) as [y|y|y] eqn:ER; simpl; try discriminate.
    + destruct (zlen q >? match r_ndots r with Some n => n | None => 1 end); discriminate.
    + exfalso. eapply concat_all_no_internal; eauto.
  - exfalso. eapply concatenate_no_internal; eauto.
Qed.

Definition documented (f : final) : Prop :=
  match f with
  | FAnswer _ | FNoAnswer _ | FNXDOMAIN _ _ | FYXDOMAIN | FNoNameservers _ | FLifetime _ _ => True
  | _ => False
  end.

(* Resolver.resolve as a whole: one of the six documented results, or the two refusals that happen
   before any query is sent (metaquery; a candidate name that does not fit in 255 octets) *)
Theorem resolve_documented_results : forall sc r rq ch e f ch' e',
  NoDup (ids (r_servers r)) -> (forall i, 0 <= o_dur (sc i)) ->
  resolve 0 sc r rq ch e = (f, ch', e') ->
  documented f \/
  (f = FNoMetaqueries /\ (is_metatype (rq_rdtype rq) = true \/ is_metaclass (rq_rdclass rq) = true) /\ e' = e /\ ch' = ch) \/
  (exists er, f = FLibError er /\ qnames_to_try r (rq_qname rq) (rq_search rq) = Lib er /\ e' = e /\ ch' = ch).
Proof.
  intros sc r rq ch e f ch' e' HND Hdur H. unfold resolve in H.
  destruct (is_metatype (rq_rdtype rq)) eqn:EM.
  - inversion H; subst. right. left. auto.
  - destruct (is_metaclass (rq_rdclass rq)) eqn:EC.
    + inversion H; subst. right. left. auto.
    + destruct (qnames_to_try r (rq_qname rq) (rq_search rq)) as [qs|er|er] eqn:EQ.
      * rewrite Nat.add_0_r in H.
        destruct (resolve_with (fuel_bound (mk_cfg r rq qs)) sc (mk_cfg r rq qs) ch e) as [[f0 s0] e0] eqn:ER.
        inversion H; subst f0 e0 ch'. clear H.
        destruct (resolve_terminates_within_lifetime _ _ _ _ _ _ _ Hdur ER) as (HF & _).
        destruct (broken_never_reasked_resolve sc (mk_cfg r rq qs) HND _ _ _ _ _ _ ER HF) as (_ & HNI).
        destruct (outcome_spec_resolve _ _ _ _ _ _ _ _ ER HF) as (new & _ & HO).
        left. destruct f; simpl; auto.
        -- destruct HO as [[] _].
        -- destruct HO as [[] _].
        -- exfalso. eapply HNI; eauto.
      * inversion H; subst. right. right. exists er. auto.
      * exfalso. eapply qnames_to_try_no_internal; eauto.
Qed.

(* the general cache hit: earlier candidates have a cached NXDOMAIN (and no cached answer), the next
   one has an unexpired cached answer: it is returned without any query *)
Lemma next_request_cache_hit : forall c now a q rest pre s,
  c_cache c = true ->
  (forall p, In p pre ->
     cache_get (s_cache s) {| k_name := p; k_type := c_rdtype c; k_class := c_rdclass c |} now = None /\
     exists a', cache_get (s_cache s) {| k_name := p; k_type := tANY; k_class := c_rdclass c |} now = Some a' /\
                a_rcode a' = rcNXDOMAIN) ->
  cache_get (s_cache s) {| k_name := q; k_type := c_rdtype c; k_class := c_rdclass c |} now = Some a ->
  exists s', s_cache s' = s_cache s /\
    next_request c s (pre ++ q :: rest) now =
      (if (match a_rrset a with None => true | Some _ => false end) && c_raise c then NNoAnswer s' a else NAnswer s' a).
Proof.
  intros c now a q rest. induction pre as [|p pre IH]; intros s HC HP HG; simpl.
  - rewrite HC. simpl. rewrite HG.
    destruct ((match a_rrset a with None => true | Some _ => false end) && c_raise c); exists (with_qname s q rest); split; reflexivity.
  - rewrite HC. simpl. destruct (HP p (or_introl eq_refl)) as (G1 & a' & G2 & G3).
    rewrite G1, G2, G3. simpl.
    destruct (IH (with_nx (with_qname s p (pre ++ q :: rest)) (nx_set (s_nx s) p (a_src a'))) HC) as (s' & E1 & E2).
    + intros p0 Hp0. simpl. apply HP. right. exact Hp0.
    + simpl. exact HG.
    + exists s'. split; [exact E1|exact E2].
Qed.

Theorem cache_hit_general_resolve : forall sc c ch fuel e pre q rest a,
  c_qnames c = pre ++ q :: rest -> c_cache c = true ->
  (forall p, In p pre ->
     cache_get ch {| k_name := p; k_type := c_rdtype c; k_class := c_rdclass c |} (e_clock e) = None /\
     exists a', cache_get ch {| k_name := p; k_type := tANY; k_class := c_rdclass c |} (e_clock e) = Some a' /\
                a_rcode a' = rcNXDOMAIN) ->
  cache_get ch {| k_name := q; k_type := c_rdtype c; k_class := c_rdclass c |} (e_clock e) = Some a ->
  exists s', resolve_with fuel sc c ch e =
    ((if (match a_rrset a with None => true | Some _ => false end) && c_raise c then FNoAnswer a else FAnswer a), s', e)
    /\ s_cache s' = ch.
Proof.
  intros sc c ch fuel e pre q rest a HQ HC HP HG. unfold resolve_with. rewrite HQ.
  destruct (next_request_cache_hit c (e_clock e) a q rest pre (init_st c ch) HC HP HG) as (s' & E1 & E2).
  rewrite E2. simpl in E1.
  destruct ((match a_rrset a with None => true | Some _ => false end) && c_raise c); simpl; exists s'; auto.
Qed.

(* an unexpired cached answer for the first candidate is returned without any query *)
Theorem cache_hit_spec_resolve : forall sc c ch fuel e q rest a,
  c_qnames c = q :: rest -> c_cache c = true ->
  cache_get ch {| k_name := q; k_type := c_rdtype c; k_class := c_rdclass c |} (e_clock e) = Some a ->
  exists s', resolve_with fuel sc c ch e =
    ((if (match a_rrset a with None => true | Some _ => false end) && c_raise c then FNoAnswer a else FAnswer a), s', e)
    /\ s_cache s' = ch.
Proof.
  intros sc c ch fuel e q rest a HQ HC HG.
  apply (cache_hit_general_resolve sc c ch fuel e [] q rest a); auto. intros p [].
Qed.
