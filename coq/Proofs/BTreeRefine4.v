(* C19 - refinement, tree level: BTree.insert_element / BTree._delete / get on the store simulate the
   value-level functions; the depth read off the store, which serves them as fuel, is the tree's. *)
From DV Require Import Base.Prelude Model.BTreeM Model.BTreeStoreM Proofs.BTreeBase Proofs.BTreeWf Proofs.BTreeInsert
  Proofs.BTreeLookup Proofs.BTreeDelete Proofs.BTreeStore Proofs.BTreeRefine Proofs.BTreeRefine2 Proofs.BTreeRefine3.

Lemma rep_depth_le s : forall id n fp, rep s id n fp -> (depth n <= length fp)%nat.
Proof.
  apply (rep_mind s (fun id n fp _ => (depth n <= length fp)%nat)
           (fun ids trs fps _ => match trs with [] => True | k :: _ => (depth k <= length (concat fps))%nat end)).
  - intros id n kids fps Hn Hlk Hr IH Hnd. cbn [depth length]. destruct kids; lia.
  - exact Logic.I.
  - intros k ks tr trs fp fps Hr IH Hrs IHs. cbn [concat]. rewrite app_length. lia.
Qed.

Lemma fp_le_store s id n fp : rep s id n fp -> (length fp <= length s)%nat.
Proof.
  intros Hr. pose proof (rep_nodup _ _ _ _ Hr) as Hnd.
  replace (length s) with (length (seq 0 (length s))) by apply seq_length.
  apply NoDup_incl_length; [assumption|]. intros x Hx. apply in_seq. pose proof (rep_valid _ _ _ _ Hr x Hx). lia.
Qed.

Lemma s_depth_sim s : forall fuel id n fp, rep s id n fp -> (depth n <= fuel)%nat -> s_depth fuel s id = depth n.
Proof.
  induction fuel as [|f IH]; intros id n fp Hr Hd.
  { destruct n as [lf es [|k ks]]; cbn in Hd; lia. }
  destruct n as [lf es ks]. apply rep_inv in Hr as (nn & fps & Hn & _ & _ & Hks & _).
  cbn [s_depth depth]. rewrite Hn. destruct ks as [|k ks].
  - apply reps_nil_inv in Hks as (-> & _). reflexivity.
  - apply reps_cons_inv in Hks as (kid & kids & fk & fps' & -> & _ & Hrk & _). f_equal.
    apply (IH kid k fk Hrk). cbn [depth] in Hd. lia.
Qed.

Lemma s_depth_root s id n fp : rep s id n fp -> s_depth (length s) s id = depth n.
Proof.
  intros Hr. apply (s_depth_sim s _ id n fp Hr).
  pose proof (rep_depth_le _ _ _ _ Hr). pose proof (fp_le_store _ _ _ _ Hr). lia.
Qed.

Lemma get_sim s k : forall fuel fuel' id n fp r, (fuel <= fuel')%nat -> rep s id n fp -> get fuel n k = Ok r -> s_get fuel' s id k = Ok r.
Proof.
  induction fuel as [|f IH]; intros fuel' id n fp r Hf Hr Hv; [discriminate|].
  destruct fuel' as [|f']; [lia|].
  destruct n as [lf es ks]. cbn [get] in Hv. cbn [s_get].
  pose proof Hr as Hr0. apply rep_inv in Hr as (nn & fps & Hn & Hl & He & Hks & _).
  rewrite (sget_some _ _ _ Hn). cbn [bind]. rewrite He, Hl.
  destruct (search k es) as [(i & eq)| |]; cbn [bind] in Hv |- *; try discriminate.
  destruct eq; [exact Hv|]. destruct lf; [exact Hv|].
  destruct (split_at i ks) as [((ka & ck) & kb)| |] eqn:Esp; cbn [bind] in Hv; try discriminate.
  apply split_at_inv in Esp as (-> & Hi).
  apply reps_mid in Hks as (ia & cid & ib & fa & fc & fb & -> & _ & _ & Hrc & _ & Lia & _).
  rewrite <- Hi, <- Lia. rewrite split_at_app by reflexivity. cbn [bind]. eapply (IH f'); eauto. lia.
Qed.

Section SIM4.
Variable c : nat.
Notation own := (ownc c).

Definition tree_sr (s : store) (sb : sbtree) (b : btree) : Prop :=
  sb_t sb = b_t b /\ sb_size sb = b_size b /\ sb_immut sb = b_immut b /\ sb_inorder sb = b_inorder b /\
  exists fp, rep s (sb_root sb) (b_root b) fp.

(* the root preparation of insert_element: a full root is split under a new, empty root *)
Lemma grow_root_sim t s root rootv fp rootv' :
  rep s root rootv fp -> own s root -> grow_root t rootv = Ok rootv' ->
  exists mx s' root' fp', is_maximal_l t (length (n_elts rootv)) = Ok mx /\
    (if mx then
       let '(s1, nr) := alloc s (mkS c false [] []) in
       do (s2, mid, rid) <- s_split t s1 root;
       do s3 <- s_adopt t s2 nr root mid rid;
       Ok (s3, nr)
     else Ok (s, root)) = Ok (s', root') /\
    rep s' root' rootv' fp' /\ own s' root'.
Proof.
  intros Hr Ho Eg. unfold grow_root in Eg. rewrite is_maximal_eq in Eg.
  destruct (is_maximal_l t (length (n_elts rootv))) as [mx| |]; cbn [bind] in Eg; try discriminate.
  exists mx. destruct mx; [|inversion Eg; subst rootv'; eauto 7].
  destruct (split_node t rootv) as [((l & m) & r)| |] eqn:Esp; cbn [bind] in Eg; try discriminate.
  unfold adopt in Eg. rewrite is_maximal_eq in Eg. cbn [n_elts length] in Eg.
  destruct (is_maximal_l t 0) as [[|]| |] eqn:Emx0; cbn [bind] in Eg; try discriminate.
  destruct (search (fst m) []) as [(i0 & [|])| |] eqn:Es0; cbn [bind] in Eg; try discriminate.
  inversion Eg; subst rootv'. clear Eg.
  set (nr := length s). set (s1 := s ++ [mkS c false [] []]).
  assert (Hfa : fr s s1 []) by apply alloc_fr.
  assert (Hr1 : rep s1 root rootv fp) by (eapply rep_fr; [exact Hr|exact Hfa|]; intros x _ []).
  assert (Ho1 : own s1 root) by (eapply ownc_fr; eauto).
  destruct (split_sim c _ _ _ _ _ _ _ _ Hr1 Ho1 Esp) as (s2 & fl & frr & Hs2 & Hrl & Hrr & Hnd & Hin & Hfr2 & _).
  assert (Hlen1 : length s1 = S nr) by (unfold s1; rewrite app_length; cbn; lia).
  assert (Hnr : nth_error s2 nr = Some (mkS c false [] [])).
  { destruct Hfr2 as (_ & F & _). rewrite F; [apply nth_alloc|lia|]. intros [Hx|[]].
    pose proof (rep_valid _ _ _ _ Hr root (rep_root_in _ _ _ _ Hr)). lia. }
  set (newroot := mkS c false (insert_at i0 m []) [root; length s1]).
  set (s3 := sset s2 nr newroot).
  assert (Hfr3 : fr s2 s3 [nr]) by (eapply sset_fr; [exact Hnr|reflexivity]).
  assert (Hnin : forall x, In x (fl ++ frr) -> x <> nr).
  { intros x Hx. destruct (Hin x Hx) as [Hf|Hq]; [|lia]. pose proof (rep_valid _ _ _ _ Hr x Hf). unfold nr. lia. }
  assert (Hnr3 : nth_error s3 nr = Some newroot) by (apply nth_sset_eq, nth_error_Some; congruence).
  exists s3, nr, (nr :: concat [fl; frr]). split; [reflexivity|]. split; [|split; [|exists newroot; auto]].
  - unfold alloc. fold s1 nr. rewrite Hs2. cbn [bind]. unfold s_adopt.
    rewrite (sget_some _ _ _ Hnr). cbn [bind s_elts length s_leaf s_kids s_cr]. rewrite Emx0. cbn [bind]. rewrite Es0. reflexivity.
  - apply (rep_build _ nr newroot false _ [l; r] [fl; frr] Hnr3 eq_refl eq_refl); [discriminate| |].
    + cbn [newroot s_kids]. constructor; [|constructor; [|constructor]].
      * eapply rep_fr; [exact Hrl|exact Hfr3|]. intros x Hx [<-|[]]. apply (Hnin nr); [apply in_app_iff; now left|reflexivity].
      * eapply rep_fr; [exact Hrr|exact Hfr3|]. intros x Hx [<-|[]]. apply (Hnin nr); [apply in_app_iff; now right|reflexivity].
    + cbn [concat]. rewrite app_nil_r. constructor; [|assumption]. intros Hx. now apply (Hnin nr Hx).
Qed.

Lemma insert_element_sim s sb b e io b' o :
  sb_cr sb = c -> tree_sr s sb b ->
  insert_element b e io = Ok (b', o) ->
  exists s' sb', s_insert_element s sb e io = Ok (s', sb', o) /\ tree_sr s' sb' b' /\ sb_cr sb' = c.
Proof.
  intros Hc (Ht & Hsz & Him & Hio & fp & Hr) Hv.
  unfold insert_element in Hv. unfold s_insert_element. rewrite Him, Hc, Ht.
  destruct (b_immut b); [discriminate|].
  destruct (insert_tree (b_t b) io (b_root b) e) as [(root3 & o3)| |] eqn:Eit; cbn [bind] in Hv; try discriminate.
  inversion Hv; subst b' o. clear Hv. unfold insert_tree in Eit.
  destruct (grow_root (b_t b) (b_root b)) as [rootv| |] eqn:Eg; cbn [bind] in Eit; try discriminate.
  destruct (cow_sim c _ _ _ _ Hr) as (s1 & root1 & fp1 & -> & Hr1 & Ho1 & _ & _). cbn [bind].
  destruct (grow_root_sim _ _ _ _ _ _ Hr1 Ho1 Eg) as (mx & s2 & root2 & fp2 & Emx & Egs & Hr2 & Ho2).
  destruct (b_root b) as [lf es ks]. destruct (rep_root _ _ _ _ _ _ Hr1) as (r1 & Hn1 & _ & He1).
  cbn [n_elts] in Emx. rewrite (sget_some _ _ _ Hn1). cbn [bind]. rewrite He1, Emx. cbn [bind]. rewrite Egs. cbn [bind].
  rewrite (s_depth_root _ _ _ _ Hr2).
  destruct (ins_sim c (b_t b) io e (depth rootv) s2 root2 rootv fp2 root3 o3 Hr2 Ho2 Eit) as (s3 & -> & fp3 & Hr3 & _). cbn [bind].
  eexists _, _. split; [reflexivity|]. split; [|reflexivity].
  unfold tree_sr. cbn [sb_t sb_size sb_immut sb_inorder sb_root b_t b_size b_immut b_inorder b_root].
  rewrite Hsz, Hio. repeat split; eauto.
Qed.

Lemma delete_sim s sb b key exact b' o :
  sb_cr sb = c -> tree_sr s sb b -> wf (b_t b) (b_root b) ->
  delete_btree b key exact = Ok (b', o) ->
  exists s' sb', s_delete s sb key exact = Ok (s', sb', o) /\ tree_sr s' sb' b' /\ sb_cr sb' = c.
Proof.
  intros Hc (Ht & Hsz & Him & Hio & fp & Hr) (Ht3 & (h & Hwr) & Hs) Hv.
  unfold delete_btree in Hv. unfold s_delete. rewrite Him, Hc, Ht.
  destruct (b_immut b); [discriminate|].
  destruct (delete_tree (b_t b) (b_root b) key exact) as [(rootv2 & o2)| |] eqn:Edt; cbn [bind] in Hv; try discriminate.
  inversion Hv; subst b' o. clear Hv.
  destruct (cow_sim c _ _ _ _ Hr) as (s1 & root1 & fp1 & -> & Hr1 & Ho1 & _ & _). cbn [bind].
  unfold delete_tree in Edt.
  destruct (del (b_t b) (depth (b_root b)) true (b_root b) key exact) as [(rootv1 & o1)| |] eqn:Ed; cbn [bind] in Edt; try discriminate.
  rewrite (s_depth_root _ _ _ _ Hr1).
  unfold wfr in Hwr.
  destruct (del_sim c (b_t b) Ht3 (depth (b_root b)) h ltac:(rewrite (wfn_depth _ _ _ _ Hwr); lia) true (b_root b) key exact
              s1 root1 fp1 rootv1 o1 Hwr ltac:(discriminate) Hs Hr1 Ho1 Ed) as (s2 & Hs2 & fp2 & Hr2 & _ & _ & Ho2).
  rewrite Hs2. cbn [bind].
  destruct rootv1 as [lf es ks]. apply rep_inv in Hr2 as Hi. destruct Hi as (r2 & fps & Hn2 & Hl2 & He2 & Hks2 & -> & Hnd2 & Hlk2).
  rewrite (sget_some _ _ _ Hn2). cbn [bind]. rewrite He2, Hl2.
  assert (Hfin : forall root2 fpx, rep s2 root2 rootv2 fpx ->
            tree_sr s2 (mkSB (b_t b) root2 c (match o1 with DDel _ => sb_size sb - 1 | _ => sb_size sb end) false (sb_inorder sb))
                       (mkB (b_t b) rootv2 (match o1 with DDel _ => b_size b - 1 | _ => b_size b end) false (b_inorder b))).
  { intros root2 fpx Hx. unfold tree_sr. cbn [sb_t sb_size sb_immut sb_inorder sb_root b_t b_size b_immut b_inorder b_root].
    rewrite Hsz, Hio. repeat split; eauto. }
  cbn [collapse_root] in Edt.
  destruct es as [|e0 es].
  - destruct lf.
    + cbn [bind] in Edt |- *. inversion Edt; subst rootv2 o2.
      eexists _, _. split; [reflexivity|]. split; [eapply Hfin; eauto|reflexivity].
    + destruct ks as [|k [|k2 ks]]; cbn [bind] in Edt; try discriminate. inversion Edt; subst rootv2 o2.
      apply reps_cons_inv in Hks2 as (kid & kids & fk & fps' & Ek & -> & Hrk & Hrest).
      apply reps_nil_inv in Hrest as (-> & ->). rewrite Ek. cbn [bind].
      eexists _, _. split; [reflexivity|]. split; [eapply Hfin; eauto|reflexivity].
  - cbn [bind] in Edt |- *. inversion Edt; subst rootv2 o2.
    eexists _, _. split; [reflexivity|]. split; [eapply Hfin; eauto|reflexivity].
Qed.

End SIM4.
