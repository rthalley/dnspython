(* C13 - SOA records out of place: after any number of well-formed difference sequences, an SOA that
   does not carry the current serial (a dropped / duplicated / swapped SOA makes the next one such).
   Also: duplicated first / final SOA, and the up-to-date shape. *)
From DV Require Import Base.Prelude Model.XfrM Proofs.XfrSets Proofs.XfrSpec Proofs.XfrZone Proofs.XfrDiff
  Proofs.XfrSafety Proofs.XfrBasic Proofs.XfrRun Proofs.XfrSteps Proofs.XfrGeneral Proofs.XfrIxfr Proofs.XfrAxfr Proofs.XfrPerm
  Proofs.XfrGlue Proofs.XfrSections.

Definition mis_code (fin b : version) (expecting : bool) : Z :=
  if v_soa b =? v_soa fin then (if expecting then eEmptyIXFR else eUnexpectedEnd) else eBaseMismatch.

Lemma step_soa_mismatch : forall l u p tz cur fin e b, v_serial b <> cur ->
  step l (ist u p tz cur (single (soa_rr fin)) e false) (single (soa_rr b)) =
  (ist u p tz cur (single (soa_rr fin)) (if v_soa b =? v_soa fin then e else false) true,
   Some (mis_code fin b e)).
Proof.
  intros l u p tz cur fin e b Hser. rewrite step_ist_soa. unfold mis_code. cbv zeta.
  assert (H1 : (v_serial b =? cur) = false) by (apply Z.eqb_neq, Hser).
  assert (H2 : (cur =? v_serial b) = false) by (rewrite Z.eqb_sym; exact H1).
  rewrite H1, H2. destruct (v_soa b =? v_soa fin), e; reflexivity.
Qed.

(* After the well-formed sections pre and the records P (taken as additions), an SOA whose serial is
   not the current one: rejected - IXFR base serial mismatch, or, when it is the announced SOA,
   unexpected end / empty IXFR sequence.  Whatever follows, wherever the message boundaries are. *)
Theorem ixfr_soa_out_of_place : forall fin pre P b rest z0 z1 ser ws,
  skel_ok ser fin pre -> apply_secs z0 pre = Some z1 ->
  Forall okrec P -> (pre <> [] \/ P = []) ->
  v_serial b <> end_serial ser pre ->
  v_serial fin <> ser -> serial_lt (v_serial fin) ser = false -> (pre = [] /\ P = [] \/ quiet z0) ->
  chunking tIXFR (soa_rr fin :: secs_stream pre ++ P ++ soa_rr b :: rest) ws ->
  exists n, inbound_xfr z0 tIXFR (Some ser) false ws =
            (Error (mis_code fin b (match pre with [] => true | _ => false end)) z0, n).
Proof.
  intros fin pre P b rest z0 z1 ser ws Hsk Hap HP Hcase Hser Hs Hlt Hq0 Hch.
  assert (Hl2 : loopn (ist false z0 z0 ser (single (soa_rr fin)) true false) (map single (secs_stream pre ++ P)) =
                (ist false z0 (adds z1 (erase P)) (end_serial ser pre) (single (soa_rr fin))
                     (match pre with [] => true | _ => false end) false, None)).
  { destruct pre as [|c pre'].
    - destruct Hcase as [Hne| ->]; [congruence|]. cbn in Hap. inversion Hap; subst. reflexivity.
    - destruct Hq0 as [[Hp _]|Hq0]; [discriminate|]. apply secs_adds_run; (discriminate || assumption). }
  rewrite app_assoc in Hch.
  apply (ixfr_error z0 ser fin Hs Hlt ws _ _ _ _ _ _ Hch Hl2 eq_refl
           (fun l => step_soa_mismatch l false z0 (adds z1 (erase P)) (end_serial ser pre) fin _ b Hser)).
Qed.

(* a valid chain of versions as sections *)
Fixpoint secs_of (v : version) (chain : list version) : list sect :=
  match chain with
  | [] => []
  | w :: r => mkSect v (zminus (v_rest v) (v_rest w)) w (zminus (v_rest w) (v_rest v)) :: secs_of w r
  end.

Lemma secs_stream_of : forall chain v, secs_stream (secs_of v chain) = diff_seqs v chain.
Proof.
  induction chain as [|w r IH]; intros v; cbn [secs_of secs_stream diff_seqs]; [reflexivity|].
  rewrite IH. unfold diff_seq. cbn [c_old c_dels c_new c_adds app]. rewrite <- app_assoc. reflexivity.
Qed.

Lemma end_serial_of : forall chain v, end_serial (v_serial v) (secs_of v chain) = v_serial (last chain v).
Proof.
  induction chain as [|w r IH]; intros v; cbn [secs_of end_serial]; [reflexivity|].
  cbn [c_new]. rewrite IH. destruct r as [|w2 r']; [reflexivity|].
  change (last (w :: w2 :: r') v) with (last (w2 :: r') v). f_equal. apply last_default. discriminate.
Qed.

(* the sections of a valid chain are well formed (the versions they start from do not carry the announced
   SOA) and apply; the result is the last version *)
Lemma secs_of_valid : forall chain v fin z,
  version_wf v -> Forall version_wf chain ->
  (forall x, In x (removelast (v :: chain)) -> v_soa x <> v_soa fin) -> zeq z (zone_of v) ->
  skel_ok (v_serial v) fin (secs_of v chain) /\
  exists z', apply_secs z (secs_of v chain) = Some z' /\ zeq z' (zone_of (last chain v)).
Proof.
  induction chain as [|w r IH]; intros v fin z Hv Hch Hd Hz; [cbn; eauto|].
  inversion Hch as [|? ? Hw Hch']; subst.
  destruct Hv as [Htv Hrv]. pose proof Hw as [Htw Hrw].
  destruct (diff_apply (v_rest v) (v_rest w) z Hrv Hrw (zeq_rest _ _ Hz)) as [z1 [Hd1 [_ Hadd]]].
  pose proof (zminus_plain _ (v_rest w) Hrv) as PD. pose proof (zminus_plain _ (v_rest v) Hrw) as PA.
  destruct (IH w fin (adds (zput soakey (v_ttl w, [v_soa w]) z1) (zminus (v_rest w) (v_rest v))) Hw Hch')
    as (Hsk & z' & Hap & Hzq).
  { intros x Hin. apply Hd. right. exact Hin. }
  { intros k. rewrite Hadd, look_zone_of. reflexivity. }
  cbn [secs_of skel_ok apply_secs c_old c_dels c_new c_adds]. rewrite !erase_plain_id, Hd1 by assumption.
  split; [exact (conj eq_refl (conj (Hd v (or_introl eq_refl)) (conj Htw (conj (plain_okrec _ PD) (conj (plain_okrec _ PA) Hsk)))))|].
  exists z'. split; [exact Hap|]. replace (last (w :: r) v) with (last r w); [exact Hzq|].
  destruct r as [|w2 r']; [reflexivity|]. apply (last_default (w2 :: r')). discriminate.
Qed.

Lemma last_app_cons : forall {A} (c1 : list A) b c2 d, last (c1 ++ b :: c2) d = last (b :: c2) d.
Proof.
  intros A c1. induction c1 as [|y c1 IH]; intros b c2 d; [reflexivity|].
  cbn [app]. destruct (c1 ++ b :: c2) eqn:E; [destruct c1; discriminate|]. rewrite <- E.
  change (last (y :: c1 ++ b :: c2) d) with (match c1 ++ b :: c2 with [] => y | _ => last (c1 ++ b :: c2) d end).
  rewrite E. rewrite <- E. apply IH.
Qed.

(* the versions up to the one a section starts from are not the last one of a valid chain *)
Lemma chain_prefix_soa : forall v0 c1 b c2, chain_ok v0 (c1 ++ b :: c2) ->
  forall x, In x (v0 :: c1) -> v_soa x <> v_soa (last (c1 ++ b :: c2) v0).
Proof.
  intros v0 c1 b c2 (_ & _ & _ & H & _) x Hin E. apply (H x); [|unfold v_serial; rewrite E; reflexivity].
  rewrite removelast_app by discriminate. destruct Hin as [<-|Hin]; [left; reflexivity|right; apply in_or_app; left; exact Hin].
Qed.

Lemma last_in_cons : forall {A} (l : list A) d, In (last l d) (d :: l).
Proof. intros A l d. apply (Forall_last (fun x => In x (d :: l))); [left; reflexivity|]. apply Forall_forall. intros x Hx. right. exact Hx. Qed.

Section SoaFaults.
Variables (v0 : version) (c1 : list version) (b : version) (c2 : list version).
Let chain := c1 ++ b :: c2.
Let a := last c1 v0.
Let fin := last chain v0.

Hypothesis Hok : chain_ok v0 chain.
Hypothesis Hcons : v_serial b <> v_serial a.    (* consecutive versions have different serials *)

(* up to the section a -> b the stream is that of the well-formed sections of c1, which take the client
   to version a *)
Lemma chain_prefix_secs : forall z0, zeq z0 (zone_of v0) ->
  quiet z0 /\ skel_ok (v_serial v0) fin (secs_of v0 c1) /\
  exists z1, apply_secs z0 (secs_of v0 c1) = Some z1 /\ zeq z1 (zone_of a) /\
             version_wf a /\ version_wf b /\ v_soa a <> v_soa fin.
Proof.
  intros z0 Hz. pose proof Hok as (_ & Hv0 & Hch & _ & _).
  apply Forall_app in Hch. destruct Hch as [Hc1 Hbc2]. inversion Hbc2 as [|? ? Hb _]; subst.
  destruct (secs_of_valid c1 v0 fin z0 Hv0 Hc1 (fun x Hx => chain_prefix_soa v0 c1 b c2 Hok x (In_removelast _ x Hx)) Hz)
    as [Hsk [z1 [Hap Hl]]].
  split; [exact (zeq_zone_of_quiet _ _ Hv0 Hz)|]. split; [exact Hsk|]. exists z1. split; [exact Hap|]. split; [exact Hl|].
  split; [apply Forall_last; assumption|]. split; [exact Hb|apply (chain_prefix_soa v0 c1 b c2 Hok), last_in_cons].
Qed.

(* the SOA that starts the deletion section a -> b is DROPPED (a is not the client's version) *)
Theorem ixfr_dropped_section_soa_rejected : forall z0 ws,
  c1 <> [] -> zeq z0 (zone_of v0) ->
  chunking tIXFR (soa_rr fin :: diff_seqs v0 c1 ++ zminus (v_rest a) (v_rest b) ++
                  soa_rr b :: zminus (v_rest b) (v_rest a) ++ diff_seqs b c2 ++ [soa_rr fin]) ws ->
  exists n, inbound_xfr z0 tIXFR (Some (v_serial v0)) false ws = (Error (mis_code fin b false) z0, n).
Proof.
  intros z0 ws Hne Hz Hch.
  destruct (chain_prefix_secs z0 Hz) as (Hq0 & Hsk & z1 & Hap & Hl & Hwa & Hwb & Hsa).
  destruct (chain_ok_g_serial _ _ (chain_ok_ok_g _ _ Hok)) as [Hser Hlt].
  rewrite <- secs_stream_of in Hch.
  destruct (ixfr_soa_out_of_place fin (secs_of v0 c1) (zminus (v_rest a) (v_rest b)) b
              (zminus (v_rest b) (v_rest a) ++ diff_seqs b c2 ++ [soa_rr fin]) z0 z1 (v_serial v0) ws
              Hsk Hap) as [n Hn]; try assumption.
  - apply plain_okrec, zminus_plain. destruct Hwa; assumption.
  - left. destruct c1; [congruence|discriminate].
  - rewrite end_serial_of. exact Hcons.
  - right. exact Hq0.
  - exists n. rewrite Hn. destruct c1; [congruence|reflexivity].
Qed.

(* the SOA that starts the deletion section a -> b is sent TWICE *)
Theorem ixfr_duplicated_section_soa_rejected : forall z0 rest ws,
  zeq z0 (zone_of v0) ->
  chunking tIXFR (soa_rr fin :: diff_seqs v0 c1 ++ soa_rr a :: soa_rr a :: zminus (v_rest a) (v_rest b) ++
                  soa_rr b :: rest) ws ->
  exists n, inbound_xfr z0 tIXFR (Some (v_serial v0)) false ws = (Error (mis_code fin b false) z0, n).
Proof.
  intros z0 rest ws Hz Hch.
  destruct (chain_prefix_secs z0 Hz) as (Hq0 & Hsk & z1 & Hap & Hl & Hwa & Hwb & Hsa).
  destruct (chain_ok_g_serial _ _ (chain_ok_ok_g _ _ Hok)) as [Hser Hlt].
  set (extra := mkSect a [] a (zminus (v_rest a) (v_rest b))).
  assert (Hend : end_serial (v_serial v0) (secs_of v0 c1) = v_serial a) by apply end_serial_of.
  assert (Hsk2 : skel_ok (v_serial v0) fin (secs_of v0 c1 ++ [extra])).
  { apply skel_ok_app. split; [exact Hsk|]. rewrite Hend. cbn [skel_ok extra c_old c_dels c_new c_adds].
    destruct Hwa as [Hta Hra].
    exact (conj eq_refl (conj Hsa (conj Hta (conj (Forall_nil _) (conj (plain_okrec _ (zminus_plain _ _ Hra)) Logic.I))))). }
  assert (Hap2 : apply_secs z0 (secs_of v0 c1 ++ [extra]) =
                 Some (adds (zput soakey (v_ttl a, [v_soa a]) z1) (erase (zminus (v_rest a) (v_rest b))))).
  { rewrite apply_secs_app, Hap. reflexivity. }
  destruct (ixfr_soa_out_of_place fin _ [] b rest z0 _ (v_serial v0) ws Hsk2 Hap2) as [n Hn]; try assumption.
  - constructor.
  - right. reflexivity.
  - rewrite end_serial_app, Hend. exact Hcons.
  - right. exact Hq0.
  - rewrite secs_stream_app, secs_stream_of. cbn [secs_stream extra c_old c_dels c_new c_adds app].
    repeat (first [rewrite <- app_assoc | progress cbn [app] | rewrite app_nil_r]). exact Hch.
  - exists n. rewrite Hn. destruct (secs_of v0 c1); reflexivity.
Qed.
End SoaFaults.

(* the first SOA sent twice: "empty IXFR sequence", whatever follows *)
Theorem ixfr_duplicated_first_soa_rejected : forall fin rest z0 ser ws,
  v_serial fin <> ser -> serial_lt (v_serial fin) ser = false ->
  chunking tIXFR (soa_rr fin :: soa_rr fin :: rest) ws ->
  exists n, inbound_xfr z0 tIXFR (Some ser) false ws = (Error eEmptyIXFR z0, n).
Proof.
  intros fin rest z0 ser ws Hs Hlt Hch.
  destruct (ixfr_soa_out_of_place fin [] [] fin rest z0 z0 ser ws Logic.I eq_refl (Forall_nil _)
              (or_intror eq_refl) Hs Hs Hlt (or_introl (conj eq_refl eq_refl)) Hch) as [n Hn].
  exists n. rewrite Hn. unfold mis_code. rewrite Z.eqb_refl. reflexivity.
Qed.

(* the up-to-date shape (first SOA carries the client's serial) followed by anything in the same
   message: rejected; the zone is never touched on this path *)
Theorem uptodate_surplus_rejected : forall z ser udp w ws r0 y rest,
  header_ok tIXFR w -> w_records w = r0 :: y :: rest -> apex_soa r0 ->
  r_data r0 mod two32 = ser ->
  inbound_xfr z tIXFR (Some ser) udp (w :: ws) = (Error eAfterFinal z, 0%nat).
Proof.
  intros z ser udp w ws r0 y rest Hh Hr Ha He.
  rewrite inbound_ixfr_cons, (first_message_ixfr z ser udp w r0 (y :: rest) Hh Hr Ha). cbv zeta.
  rewrite He, Z.eqb_refl. cbn [map loopT]. unfold step. cbn [done set_done ist]. reflexivity.
Qed.

(* A complete valid IXFR response followed by more records (a duplicated final SOA, anything): if
   they come in the message of the final SOA the transfer is rejected and the zone untouched;
   otherwise it completes with the target (the surplus is never read). *)
Theorem ixfr_surplus_after_final : forall v0 chain z0 y extra ws,
  chain_ok v0 chain -> zeq z0 (zone_of v0) ->
  chunking tIXFR (ixfr_stream v0 chain ++ y :: extra) ws ->
  exists n, inbound_xfr z0 tIXFR (Some (v_serial v0)) false ws = (Error eAfterFinal z0, n)
         \/ exists z', inbound_xfr z0 tIXFR (Some (v_serial v0)) false ws = (Done z', n)
                       /\ zeq z' (zone_of (last chain v0)).
Proof.
  intros v0 chain z0 y extra ws Hok Hz Hch. apply chain_ok_ok_g in Hok.
  unfold ixfr_stream in Hch. cbv zeta in Hch. cbn [app] in Hch. rewrite <- app_assoc in Hch. cbn [app] in Hch.
  destruct (chain_ok_g_serial _ _ Hok) as [Hser Hlt].
  destruct (chain_done false v0 chain z0 _ Hok Hz (chain_ok_g_runs _ _ Hok))
    as (tz & Hl & Hf & Hm & Hzf).
  destruct (ixfr_tcp z0 _ _ Hser Hlt ws [] _ _ _ Hch Hl eq_refl) as [_ (k & a' & ws' & _ & _ & Hk)]. rewrite !app_nil_r in Hk.
  destruct a' as [|y' a'']; eexists; [right; eexists; split; [|exact Hzf]|left]; apply Hk; cbn [map loopT].
  - rewrite Hf. reflexivity.
  - rewrite Hm. reflexivity.
Qed.
