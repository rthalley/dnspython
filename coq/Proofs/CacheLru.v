(* C17 - the store-level LRUCache model refines the list-level specification.
   R c a zs : concrete state c represents abstract state a; zs lists, most recently used first,
   the node id of every cached entry next to the entry.  The ring is exactly 0 :: ids.
   R is the conjunction of three independent parts - the ring in the store (`ring`), the dict
   (`dict_ok`), the scalars - and every method is a composition of a few moves on each part. *)
From DV Require Import Base.Prelude Model.CacheM Proofs.CacheRing Proofs.CacheDict Proofs.ListFacts.

Definition node_ok (s : store) (z : zent) : Prop :=
  payload s (fst z) = Some (Some (zkey z), Some (e_val (snd z)), e_hits (snd z)).

Record R (c : lru) (a : alru) (zs : list zent) : Prop := mkR {
  R_list : a_list a = map snd zs;
  R_keys : NoDup (map zkey zs);
  R_cyc : cyc (l_store c) (sentinel :: map fst zs);
  R_nodup : NoDup (sentinel :: map fst zs);
  R_nodes : Forall (node_ok (l_store c)) zs;
  R_dict : forall k, dget (l_dict c) k = option_map fst (zfind k zs);
  R_dkeys : NoDup (dkeys (l_dict c));
  R_len : length (l_dict c) = length zs;
  R_fresh : forall i, sget (l_store c) i <> None -> (i < l_fresh c)%nat;
  R_max : l_max c = a_max a;
  R_max1 : 1 <= l_max c;
  R_hits : l_hits c = a_hits a;
  R_miss : l_miss c = a_miss a }.

(* reads the fields of the updated records off their constructors *)
Ltac proj := unfold lru_upd, lru_miss, alru_set_list, alru_miss;
  cbn [l_store l_dict l_max l_hits l_miss l_fresh a_list a_max a_hits a_miss].

Definition ring (s : store) (zs : list zent) : Prop :=
  cyc s (sentinel :: map fst zs) /\ NoDup (sentinel :: map fst zs) /\ Forall (node_ok s) zs.

Definition dict_ok (d : list (Z * nat)) (zs : list zent) : Prop :=
  (forall k, dget d k = option_map fst (zfind k zs)) /\ NoDup (dkeys d) /\ length d = length zs.

Lemma R_ring : forall c a zs, R c a zs -> ring (l_store c) zs.
Proof. intros c a zs []. unfold ring. auto. Qed.

Lemma R_dict_ok : forall c a zs, R c a zs -> dict_ok (l_dict c) zs.
Proof. intros c a zs []. unfold dict_ok. auto. Qed.

Lemma R_make : forall c a zs,
  ring (l_store c) zs -> dict_ok (l_dict c) zs ->
  (forall i, sget (l_store c) i <> None -> (i < l_fresh c)%nat) ->
  NoDup (map zkey zs) -> a_list a = map snd zs ->
  l_max c = a_max a -> 1 <= l_max c -> l_hits c = a_hits a -> l_miss c = a_miss a ->
  R c a zs.
Proof. intros c a zs (? & ? & ?) (? & ? & ?). intros. constructor; assumption. Qed.

(* R sees the abstract state only through its four fields *)
Lemma R_ext : forall c a a' zs, R c a zs ->
  a_list a' = map snd zs -> a_max a' = a_max a -> a_hits a' = a_hits a -> a_miss a' = a_miss a ->
  R c a' zs.
Proof.
  intros c a a' zs HR H1 H2 H3 H4. destruct HR. constructor; auto; congruence.
Qed.

Lemma R_miss_step : forall c a zs, R c a zs -> R (lru_miss c) (alru_miss a) zs.
Proof.
  intros c a zs HR. destruct HR. constructor; proj; auto. congruence.
Qed.

Lemma afind_R : forall c a zs k, R c a zs -> afind (a_list a) k = option_map snd (zfind k zs).
Proof. intros c a zs k HR. rewrite (R_list _ _ _ HR). apply afind_zfind. Qed.

Lemma keys_front : forall z1 z z2, NoDup (map zkey (z1 ++ z :: z2)) ->
  NoDup (zkey z :: map zkey (z1 ++ z2)).
Proof.
  intros z1 z z2 K. rewrite map_app in *. cbn [map] in K. apply NoDup_remove in K. constructor; tauto.
Qed.

Lemma zfind_self : forall z1 z z2, NoDup (map zkey (z1 ++ z :: z2)) ->
  zfind (zkey z) z1 = None /\ zfind (zkey z) (z1 ++ z :: z2) = Some z.
Proof.
  intros z1 z z2 H. apply keys_front, NoDup_cons_iff, proj1 in H. rewrite map_app in H.
  assert (A : zfind (zkey z) z1 = None).
  { apply zfind_none_notin. intros Hin. apply H, in_or_app. auto. }
  split; [exact A|]. rewrite zfind_app_none by exact A. cbn. rewrite Z.eqb_refl. reflexivity.
Qed.

Lemma node_val : forall s z, node_ok s z ->
  exists n, sget s (fst z) = Some n /\ n_key n = Some (zkey z) /\
            n_val n = Some (e_val (snd z)) /\ n_hits n = e_hits (snd z).
Proof.
  intros s z H. destruct (payload_some _ _ _ H) as [n [Hg Hp]]. injection Hp as A B C. eauto.
Qed.

Lemma nodes_payload : forall s s' zs,
  (forall z, In z zs -> payload s' (fst z) = payload s (fst z)) ->
  Forall (node_ok s) zs -> Forall (node_ok s') zs.
Proof.
  intros s s' zs Y H. rewrite Forall_forall in *. intros z Hz. unfold node_ok.
  rewrite Y by exact Hz. exact (H z Hz).
Qed.

Lemma ring_frame : forall s s' zs,
  (forall y, In y (sentinel :: map fst zs) -> sget s' y = sget s y) -> ring s zs -> ring s' zs.
Proof.
  intros s s' zs H (Hc & Hnd & Hn). split; [|split; [exact Hnd|]].
  - eapply cyc_frame; [| |exact Hc]; intros y Hy; unfold nxt, prv; rewrite H by exact Hy; reflexivity.
  - apply (nodes_payload s); [|exact Hn]. intros z Hz. unfold payload.
    rewrite H; [reflexivity|]. right. apply in_map. exact Hz.
Qed.

Lemma ring_at : forall s z1 z z2, ring s (z1 ++ z :: z2) ->
  node_ok s z /\ ~ In (fst z) (sentinel :: map fst (z1 ++ z2)) /\
  NoDup (sentinel :: map fst (z1 ++ z2)).
Proof.
  intros s z1 z z2 (_ & Hnd & Hn). split.
  - apply Forall_app in Hn. destruct Hn as [_ Hn]. apply Forall_cons_iff in Hn. apply Hn.
  - rewrite map_app in *. cbn [map] in Hnd. rewrite app_comm_cons in *. apply NoDup_remove in Hnd. tauto.
Qed.

Lemma ring_unlink : forall s z1 z z2, ring s (z1 ++ z :: z2) ->
  exists s1, unlink s (fst z) = Ok s1 /\ ring s1 (z1 ++ z2) /\
    (forall j, payload s1 j = payload s j).
Proof.
  intros s z1 z z2 Hr. destruct (ring_at _ _ _ _ Hr) as (_ & _ & Hnd'). destruct Hr as (Hc & Hnd & Hn).
  rewrite map_app in Hc, Hnd. cbn [map] in Hc, Hnd. rewrite app_comm_cons in Hc, Hnd.
  apply cyc_rot in Hc. apply nodup_app_comm in Hnd. cbn [app] in Hc, Hnd.
  destruct (unlink_cyc _ _ _ Hc Hnd) as (s1 & E & Hc1 & Y).
  { destruct z2; discriminate. }
  exists s1. split; [exact E|]. split; [|exact Y]. split; [|split; [exact Hnd'|]].
  - apply cyc_rot in Hc1. rewrite map_app. exact Hc1.
  - apply (nodes_payload s); [intros; apply Y|].
    apply Forall_app in Hn. destruct Hn as [H1 H2]. apply Forall_cons_iff in H2. apply Forall_app. tauto.
Qed.

Lemma ring_link : forall s zs z, ring s zs -> node_ok s z -> ~ In (fst z) (sentinel :: map fst zs) ->
  exists s', link_after s (fst z) sentinel = Ok s' /\ ring s' (z :: zs) /\
    (forall j, payload s' j = payload s j).
Proof.
  intros s zs z (Hc & Hnd & Hn) Hz Hnin.
  destruct (payload_some _ _ _ Hz) as (nd & Hg & _).
  destruct (link_after_cyc _ _ _ _ nd Hc Hnd Hnin Hg) as (s' & E & Hc' & Y).
  exists s'. split; [exact E|]. split; [|exact Y]. split; [exact Hc'|split].
  - cbn [map]. apply NoDup_cons_iff in Hnd. cbn [In] in Hnin.
    constructor; [cbn [In]; intuition congruence|constructor; tauto].
  - apply (nodes_payload s); [intros; apply Y|]. constructor; assumption.
Qed.

Lemma ring_hits : forall s z zs h, ring s (z :: zs) ->
  exists n s', sget s (fst z) = Some n /\ n_hits n = e_hits (snd z) /\
    set_hits s (fst z) h = Ok s' /\
    ring s' ((fst z, mkEnt (zkey z) (e_val (snd z)) h) :: zs) /\
    (forall j, sget s' j <> None -> sget s j <> None).
Proof.
  intros s z zs h (Hc & Hnd & Hn). apply Forall_cons_iff in Hn. destruct Hn as [Hz Hn].
  destruct (node_val _ _ Hz) as (n & Hg & Hk & Hv & Hh).
  destruct (set_hits_spec s (fst z) h n Hg) as (s' & E & N & P & Y).
  exists n, s'. repeat (split; [assumption|]). split; [split; [|split; [exact Hnd|]]|].
  - eapply cyc_frame; [| |exact Hc]; auto.
  - constructor.
    + unfold node_ok. cbn [fst snd]. rewrite Y, Nat.eqb_refl, Hk, Hv. reflexivity.
    + apply (nodes_payload s); [|exact Hn]. intros y Hy. rewrite Y.
      destruct (Nat.eqb_spec (fst z) (fst y)) as [E1|]; [|reflexivity].
      apply NoDup_cons_iff, proj2, NoDup_cons_iff, proj1 in Hnd.
      exfalso. apply Hnd. rewrite E1. apply in_map. exact Hy.
  - intros j Hj Hs. apply Hj. specialize (Y j). unfold payload in Y. rewrite Hs in Y.
    destruct (Nat.eqb_spec (fst z) j) as [Ej|]; [congruence|].
    destruct (sget s' j); [discriminate|reflexivity].
Qed.

Lemma dict_del : forall d z1 z z2, NoDup (map zkey (z1 ++ z :: z2)) -> dict_ok d (z1 ++ z :: z2) ->
  exists d', ddel d (zkey z) = Some d' /\ dict_ok d' (z1 ++ z2).
Proof.
  intros d z1 z z2 K (D & DK & DL). destruct (zfind_self _ _ _ K) as [_ Hzf].
  destruct (ddel_some d (zkey z) (fst z)) as [d' Hdel]. { rewrite D, Hzf. reflexivity. }
  destruct (ddel_spec _ _ _ Hdel DK) as (Dg & Dn & Dl & _).
  exists d'. split; [exact Hdel|]. split; [|split; [exact Dn|]].
  - intros k. rewrite Dg, D, (zfind_remove z1 z z2 k K). destruct (zkey z =? k); reflexivity.
  - rewrite app_length in *. cbn [length] in DL. lia.
Qed.

Lemma dict_put : forall d zs i e, zfind (e_key e) zs = None -> dict_ok d zs ->
  dict_ok (dset d (e_key e) i) ((i, e) :: zs).
Proof.
  intros d zs i e Hnf (D & DK & DL). split; [|split].
  - intros k. rewrite dget_dset. cbn [zfind]. change (zkey (i, e)) with (e_key e).
    destruct (e_key e =? k); [reflexivity|apply D].
  - apply nodup_dset, DK.
  - cbn [length]. rewrite length_dset_new, DL; [reflexivity|]. rewrite D, Hnf. reflexivity.
Qed.

(* the entry of z moves to the front under the same key and node *)
Lemma dict_touch : forall d z1 z z2 e, NoDup (map zkey (z1 ++ z :: z2)) -> e_key e = zkey z ->
  dict_ok d (z1 ++ z :: z2) -> dict_ok d ((fst z, e) :: z1 ++ z2).
Proof.
  intros d z1 z z2 e K He (D & DK & DL). destruct (zfind_self _ _ _ K) as [_ Hzf].
  split; [|split; [exact DK|]].
  - intros k. rewrite D. cbn [zfind]. change (zkey (fst z, e)) with (e_key e).
    rewrite He, (zfind_remove z1 z z2 k K).
    destruct (Z.eqb_spec (zkey z) k) as [<-|]; [rewrite Hzf|]; reflexivity.
  - rewrite DL. cbn [length]. rewrite !app_length. cbn [length]. lia.
Qed.

(* del self.data[node.key] after the unlink; the node becomes garbage *)
Lemma drop_R : forall c a z1 z z2 s1,
  R c a (z1 ++ z :: z2) -> ring s1 (z1 ++ z2) ->
  (forall j, payload s1 j = payload (l_store c) j) ->
  exists c', drop_node c s1 (fst z) = Ok c' /\
    R c' (alru_set_list a (map snd (z1 ++ z2))) (z1 ++ z2).
Proof.
  intros c a z1 z z2 s1 HR Hr1 Y.
  destruct (ring_at _ _ _ _ (R_ring _ _ _ HR)) as (Hz & Hnin & _).
  destruct (node_val s1 z) as (nd & Hg & Hk & _). { unfold node_ok. rewrite Y. exact Hz. }
  destruct (dict_del _ _ _ _ (R_keys _ _ _ HR) (R_dict_ok _ _ _ HR)) as (d' & Hdel & Hd').
  exists (lru_upd c (sfree s1 (fst z)) d'). split.
  { unfold drop_node, getn. rewrite Hg. cbn [bind]. rewrite Hk, Hdel. reflexivity. }
  apply R_make; proj; try apply HR; try reflexivity.
  - apply (ring_frame s1); [|exact Hr1]. intros y Hy. rewrite sget_sfree.
    destruct (Nat.eqb_spec (fst z) y) as [<-|]; [tauto|reflexivity].
  - exact Hd'.
  - intros i Hi. apply (R_fresh _ _ _ HR). rewrite sget_sfree in Hi.
    destruct (Nat.eqb (fst z) i); [congruence|]. intros H. apply Hi, (payload_dom _ _ Y), H.
  - pose proof (keys_front _ _ _ (R_keys _ _ _ HR)) as K. apply NoDup_cons_iff in K. apply K.
Qed.

Lemma remove_R : forall c a z1 z z2,
  R c a (z1 ++ z :: z2) ->
  exists s1 c', unlink (l_store c) (fst z) = Ok s1 /\ drop_node c s1 (fst z) = Ok c' /\
    R c' (alru_set_list a (map snd (z1 ++ z2))) (z1 ++ z2).
Proof.
  intros c a z1 z z2 HR.
  destruct (ring_unlink _ _ _ _ (R_ring _ _ _ HR)) as (s1 & E & Hr1 & Y).
  destruct (drop_R _ _ _ _ _ s1 HR Hr1 Y) as (c' & E2 & HR'). eauto.
Qed.

(* a new node linked right after the sentinel *)
Lemma insert_R : forall c a zs key v,
  R c a zs -> zfind key zs = None ->
  exists s4,
    link_after (sset (l_store c) (l_fresh c) (mkNode (Some key) (Some v) 0 (l_fresh c) (l_fresh c)))
               (l_fresh c) sentinel = Ok s4 /\
    R (mkLru s4 (dset (l_dict c) key (l_fresh c)) (l_max c) (l_hits c) (l_miss c) (S (l_fresh c)))
      (alru_set_list a (mkEnt key v 0 :: map snd zs))
      ((l_fresh c, mkEnt key v 0) :: zs).
Proof.
  intros c a zs key v HR Hnf.
  set (i := l_fresh c). set (nd := mkNode (Some key) (Some v) 0 i i).
  assert (Hi : sget (l_store c) i = None).
  { destruct (sget (l_store c) i) eqn:E; [|reflexivity].
    assert (H : (i < l_fresh c)%nat) by (apply (R_fresh _ _ _ HR); congruence). unfold i in H. lia. }
  assert (Hnin : ~ In i (sentinel :: map fst zs)).
  { intros Hin. exact (cyc_in_store _ _ _ (R_cyc _ _ _ HR) Hin Hi). }
  destruct (ring_link (sset (l_store c) i nd) zs (i, mkEnt key v 0)) as (s4 & E & Hr4 & Y);
    [| |exact Hnin|].
  { apply (ring_frame (l_store c)); [|exact (R_ring _ _ _ HR)]. intros y Hy. rewrite sget_sset.
    destruct (Nat.eqb_spec i y) as [<-|]; [tauto|reflexivity]. }
  { unfold node_ok, payload. cbn [fst]. rewrite sget_sset, Nat.eqb_refl. reflexivity. }
  exists s4. split; [exact E|].
  apply R_make; proj; try apply HR; try reflexivity.
  - exact Hr4.
  - apply (dict_put _ _ i (mkEnt key v 0)); [exact Hnf|exact (R_dict_ok _ _ _ HR)].
  - intros j Hj.
    assert (Hj3 : sget (sset (l_store c) i nd) j <> None) by (intros H; apply Hj, (payload_dom _ _ Y), H).
    rewrite sget_sset in Hj3. destruct (Nat.eqb_spec i j) as [<-|]; [lia|].
    apply (R_fresh _ _ _ HR) in Hj3. fold i in Hj3. lia.
  - cbn [map]. constructor; [|apply HR]. apply zfind_none_notin. exact Hnf.
Qed.

(* a successful lookup: the node moves to the front, its hit count goes up *)
Lemma touch_R : forall c a z1 z z2 s1,
  R c a (z1 ++ z :: z2) -> ring s1 (z1 ++ z2) ->
  (forall j, payload s1 j = payload (l_store c) j) ->
  exists s2 n2 s3,
    link_after s1 (fst z) sentinel = Ok s2 /\ sget s2 (fst z) = Some n2 /\
    n_hits n2 = e_hits (snd z) /\ set_hits s2 (fst z) (e_hits (snd z) + 1) = Ok s3 /\
    R (mkLru s3 (l_dict c) (l_max c) (l_hits c + 1) (l_miss c) (l_fresh c))
      (mkALru (mkEnt (zkey z) (e_val (snd z)) (e_hits (snd z) + 1) :: map snd (z1 ++ z2))
              (a_max a) (a_hits a + 1) (a_miss a))
      ((fst z, mkEnt (zkey z) (e_val (snd z)) (e_hits (snd z) + 1)) :: z1 ++ z2).
Proof.
  intros c a z1 z z2 s1 HR Hr1 Y.
  destruct (ring_at _ _ _ _ (R_ring _ _ _ HR)) as (Hz & Hnin & _).
  destruct (ring_link s1 _ z Hr1) as (s2 & E2 & Hr2 & Y2);
    [unfold node_ok; rewrite Y; exact Hz|exact Hnin|].
  destruct (ring_hits _ _ _ (e_hits (snd z) + 1) Hr2) as (n2 & s3 & Hg2 & Hh2 & E3 & Hr3 & D3).
  exists s2, n2, s3. repeat (split; [assumption|]).
  apply R_make; proj; try apply HR; try reflexivity.
  - exact Hr3.
  - apply dict_touch; [apply HR|reflexivity|exact (R_dict_ok _ _ _ HR)].
  - intros j Hj. apply (R_fresh _ _ _ HR). intros H.
    apply (D3 j Hj), (payload_dom _ _ Y2), (payload_dom _ _ Y), H.
  - exact (keys_front _ _ _ (R_keys _ _ _ HR)).
  - rewrite (R_hits _ _ _ HR). reflexivity.
Qed.

Lemma evict_one_R : forall c a zs z,
  R c a (zs ++ [z]) ->
  exists c', evict_one c = Ok c' /\ R c' (alru_set_list a (map snd zs)) zs /\ l_max c' = l_max c.
Proof.
  intros c a zs z HR.
  pose proof (R_cyc _ _ _ HR) as Hc. rewrite map_app in Hc. cbn [map] in Hc.
  apply cyc_prv_last in Hc. destruct (prv_some _ _ _ Hc) as [sen [Hs Hp]].
  destruct (remove_R _ _ _ _ _ HR) as [s1 [c' [E1 [E2 HR']]]].
  rewrite app_nil_r in HR'.
  exists c'. split; [|split; [exact HR'|]].
  - unfold evict_one, getn. rewrite Hs. cbn [bind]. rewrite Hp, E1. cbn [bind]. exact E2.
  - rewrite (R_max _ _ _ HR'), (R_max _ _ _ HR). reflexivity.
Qed.

(* how many entries the loop of put / set_max_size leaves *)
Definition keep (strict : bool) (mx : Z) : Z := if strict then mx else mx - 1.

Lemma firstn_snoc_le : forall {A} n (l : list A) x, (n <= length l)%nat -> firstn n (l ++ [x]) = firstn n l.
Proof.
  intros A n l x H. rewrite firstn_app. replace (n - length l)%nat with 0%nat by lia.
  cbn. apply app_nil_r.
Qed.

Lemma evict_while_R : forall fuel strict c a zs,
  R c a zs -> (length zs < fuel)%nat ->
  exists c', evict_while fuel strict c = Ok c' /\
    R c' (alru_set_list a (map snd (firstn (Z.to_nat (keep strict (l_max c))) zs)))
         (firstn (Z.to_nat (keep strict (l_max c))) zs) /\
    l_max c' = l_max c.
Proof.
  induction fuel as [|f IH]; intros strict c a zs HR Hf; [lia|].
  cbn [evict_while]. unfold zlen. rewrite (R_len _ _ _ HR).
  pose proof (R_max1 _ _ _ HR) as M1.
  destruct (if strict then l_max c <? Z.of_nat (length zs) else l_max c <=? Z.of_nat (length zs)) eqn:Cond.
  - assert (Hlt : 0 <= keep strict (l_max c) < Z.of_nat (length zs)) by (unfold keep; destruct strict; lia).
    destruct (@exists_last _ zs) as (zs' & z & ->); [intros ->; cbn in Hlt; lia|].
    destruct (evict_one_R _ _ _ _ HR) as [c1 [E1 [HR1 Hm1]]].
    rewrite E1. cbn [bind].
    rewrite app_length in Hf, Hlt. cbn in Hf, Hlt.
    destruct (IH strict c1 _ zs' HR1) as [c' [E2 [HR2 Hm2]]]; [lia|].
    exists c'. split; [exact E2|]. rewrite Hm1 in HR2, Hm2. split; [|exact Hm2].
    rewrite firstn_snoc_le by lia. exact HR2.
  - exists c. split; [reflexivity|]. split; [|reflexivity].
    rewrite firstn_all2 by (unfold keep; destruct strict; lia).
    eapply R_ext; [exact HR| | | |]; reflexivity.
Qed.

Lemma flush_loop_R : forall zs fuel s,
  ring s zs -> (length zs < fuel)%nat ->
  exists s', flush_loop fuel s (hd sentinel (map fst zs)) = Ok s' /\ ring s' [] /\
    (forall j, sget s' j <> None -> sget s j <> None).
Proof.
  induction zs as [|z zs IH]; intros [|f] s Hr Hf; try (cbn in Hf; lia).
  - exists s. cbn. auto.
  - cbn [flush_loop hd map].
    destruct (ring_at s [] z zs Hr) as (_ & Hnin & _).
    destruct (Nat.eqb_spec (fst z) sentinel) as [E0|_]; [exfalso; apply Hnin; left; auto|].
    destruct Hr as (Hc & Hr'). cbn [cyc path map] in Hc.
    destruct (nxt_some _ _ _ (path_nxt_hd _ _ _ _ (proj2 Hc))) as (gn & Hgn & Hnext).
    unfold getn. rewrite Hgn. cbn [bind].
    destruct (ring_unlink s [] z zs (conj Hc Hr')) as (s1 & E1 & Hr1 & Y1).
    rewrite E1. cbn [bind]. rewrite Hnext.
    destruct (IH f (sfree s1 (fst z))) as (s' & E2 & Hr2 & D2); [|cbn in Hf; lia|].
    { apply (ring_frame s1); [|exact Hr1]. intros y Hy. rewrite sget_sfree.
      destruct (Nat.eqb_spec (fst z) y) as [<-|]; [tauto|reflexivity]. }
    exists s'. split; [exact E2|]. split; [exact Hr2|].
    intros j Hj. apply D2 in Hj. rewrite sget_sfree in Hj.
    destruct (Nat.eqb (fst z) j); [congruence|]. intros H. apply Hj, (payload_dom _ _ Y1), H.
Qed.

Lemma sget_in_dom : forall s i, sget s i <> None -> In i (map fst s).
Proof.
  induction s as [|[j n] s IH]; intros i H; cbn in *; [congruence|].
  destruct (Nat.eqb_spec j i); auto.
Qed.

Lemma ring_fits_store : forall s m, cyc s m -> NoDup m -> (length m <= length s)%nat.
Proof.
  intros s m Hc Hnd. rewrite <- (map_length fst s). apply NoDup_incl_length; [exact Hnd|].
  intros x Hx. apply sget_in_dom. eapply cyc_in_store; eauto.
Qed.

Lemma node_ok_in : forall c a z1 z z2, R c a (z1 ++ z :: z2) -> node_ok (l_store c) z.
Proof. intros c a z1 z z2 HR. apply (ring_at _ _ _ _ (R_ring _ _ _ HR)). Qed.

(* the entry found for a key sits on a ring node that carries the key and the entry's answer *)
Lemma R_node : forall c a zs key z, R c a zs -> zfind key zs = Some z ->
  In z zs /\ exists nd, sget (l_store c) (fst z) = Some nd /\ n_key nd = Some key /\
                         n_val nd = Some (e_val (snd z)).
Proof.
  intros c a zs key z HR Ez. destruct (zfind_split _ _ _ Ez) as (z1 & z2 & -> & <- & _).
  split; [apply in_or_app; right; left; reflexivity|].
  destruct (node_val _ z (node_ok_in _ _ _ _ _ HR)) as (nd & Hg & Hk & Hv & _). eauto.
Qed.

Definition sim (cl : call) : Prop := forall c a zs k,
  R c a zs ->
  exists c' zs',
    lru_step cl c k = Ok (fst (fst (alru_step cl a k)), c', snd (alru_step cl a k)) /\
    R c' (snd (fst (alru_step cl a k))) zs'.

(* looking a key up on both sides: absent everywhere, or the entry of one z of zs *)
Lemma R_find : forall c a zs key, R c a zs ->
  (zfind key zs = None /\ dget (l_dict c) key = None /\ afind (a_list a) key = None /\
   aremove (a_list a) key = map snd zs) \/
  (exists z1 z z2, zs = z1 ++ z :: z2 /\ zkey z = key /\ zfind key (z1 ++ z2) = None /\
     dget (l_dict c) key = Some (fst z) /\ afind (a_list a) key = Some (snd z) /\
     aremove (a_list a) key = map snd (z1 ++ z2)).
Proof.
  intros c a zs key HR. rewrite (R_dict _ _ _ HR), (R_list _ _ _ HR), afind_zfind.
  destruct (zfind key zs) as [z|] eqn:Ez; [right|left].
  - destruct (zfind_split _ _ _ Ez) as (z1 & z2 & -> & <- & Hz1). exists z1, z, z2.
    repeat split; [|apply aremove_split, Hz1].
    rewrite (zfind_remove z1 z z2 _ (R_keys _ _ _ HR)), Z.eqb_refl. reflexivity.
  - repeat split. apply aremove_absent. rewrite afind_zfind, Ez. reflexivity.
Qed.

(* The two sides are computed apart: the specification's step is named (r, a', k') and its
   equation Ea evaluated at the leaves, so that the case analysis of the store-level code does
   not drag three copies of the specification's along. *)
Lemma sim_get : forall key, sim (Get key).
Proof.
  intros key c a zs k HR.
  destruct (R_find _ _ _ key HR) as [(_ & Hd & Ha & _)|(z1 & z & z2 & -> & <- & _ & Hd & Ha & Hr)];
    destruct (alru_step _ a k) as [[r a'] k'] eqn:Ea; cbn [fst snd];
    unfold alru_step in Ea; rewrite Ha in Ea; unfold lru_step; rewrite Hd.
  { injection Ea as <- <- <-. exists (lru_miss c), zs. split; [reflexivity|]. apply R_miss_step. exact HR. }
  destruct (ring_unlink _ _ _ _ (R_ring _ _ _ HR)) as (s1 & E1 & Hr1 & Y1).
  rewrite E1. cbn [bind].
  destruct (node_val s1 z) as [n [Hg [Hnk [Hnv Hnh]]]].
  { unfold node_ok. rewrite Y1. exact (node_ok_in _ _ _ _ _ HR). }
  unfold getn at 1. rewrite Hg. cbn [bind]. rewrite Hnv. rewrite Hr in Ea.
  destruct (tick k) as [t k1] eqn:Et.
  destruct (a_exp (e_val (snd z)) <=? t) eqn:Ex; injection Ea as <- <- <-.
  - destruct (drop_R _ _ _ _ _ s1 HR Hr1 Y1) as [c' [E2 HR']].
    rewrite E2. exists (lru_miss c'), (z1 ++ z2). split; [reflexivity|]. apply R_miss_step. exact HR'.
  - destruct (touch_R _ _ _ _ _ s1 HR Hr1 Y1) as [s2 [n2 [s3 [E2 [Hg2 [Hh2 [E3 HR']]]]]]].
    rewrite E2. cbn [bind]. unfold getn. rewrite Hg2. cbn [bind]. rewrite Hh2, E3.
    eexists _, _. split; [reflexivity|exact HR'].
Qed.

Lemma sim_hitsfor : forall key, sim (HitsFor key).
Proof.
  intros key c a zs k HR.
  destruct (R_find _ _ _ key HR) as [(_ & Hd & Ha & _)|(z1 & z & z2 & -> & <- & _ & Hd & Ha & _)];
    destruct (alru_step _ a k) as [[r a'] k'] eqn:Ea; cbn [fst snd];
    unfold alru_step in Ea; rewrite Ha in Ea; unfold lru_step; rewrite Hd.
  { injection Ea as <- <- <-. exists c, zs. split; [reflexivity|exact HR]. }
  destruct (node_val _ z (node_ok_in _ _ _ _ _ HR)) as [n [Hg [Hnk [Hnv Hnh]]]].
  unfold getn. rewrite Hg. cbn [bind]. rewrite Hnv, Hnh.
  destruct (tick k) as [t k1]. destruct (a_exp (e_val (snd z)) <=? t); injection Ea as <- <- <-;
    eexists _, _; (split; [reflexivity|exact HR]).
Qed.

Lemma sim_flush_key : forall key, sim (Flush (Some key)).
Proof.
  intros key c a zs k HR.
  destruct (R_find _ _ _ key HR) as [(_ & Hd & _ & Hr)|(z1 & z & z2 & -> & <- & _ & Hd & _ & Hr)];
    unfold lru_step, alru_step; cbn [fst snd]; rewrite Hd, Hr.
  - exists c, zs. split; [reflexivity|].
    eapply R_ext; [exact HR| | | |]; reflexivity.
  - destruct (remove_R _ _ _ _ _ HR) as [s1 [c' [E1 [E2 HR']]]].
    rewrite E1. cbn [bind]. rewrite E2. cbn [bind].
    exists c', (z1 ++ z2). split; [reflexivity|exact HR'].
Qed.

Lemma sim_flush_all : sim (Flush None).
Proof.
  intros c a zs k HR. unfold lru_step, alru_step. cbn [fst snd].
  pose proof (R_cyc _ _ _ HR) as Hc.
  destruct (nxt_some _ _ _ (path_nxt_hd _ _ _ _ Hc)) as [sen [Hs Hsn]].
  unfold getn. rewrite Hs. cbn [bind]. rewrite Hsn.
  destruct (flush_loop_R zs (S (length (l_store c))) (l_store c) (R_ring _ _ _ HR))
    as (s' & E & Hr' & D).
  { pose proof (ring_fits_store _ _ Hc (R_nodup _ _ _ HR)) as HL. cbn [length] in HL.
    rewrite map_length in HL. exact (le_S _ _ HL). }
  rewrite E. cbn [bind].
  exists (lru_upd c s' []), []. split; [reflexivity|].
  apply R_make; proj; try apply HR; try reflexivity.
  - exact Hr'.
  - repeat split. constructor.
  - intros i Hi. apply (R_fresh _ _ _ HR), D, Hi.
  - constructor.
Qed.

Lemma zfind_firstn_none : forall n zs k, zfind k zs = None -> zfind k (firstn n zs) = None.
Proof.
  intros n zs k H. apply zfind_none_notin. apply zfind_none_notin in H. intros Hin. apply H.
  rewrite <- firstn_map in Hin. eapply In_firstn. exact Hin.
Qed.

(* put once the old entry of the key, if any, is gone: evict down to max_size - 1, insert *)
Lemma put_tail : forall c1 a1 zs1 key v (k : clk),
  R c1 a1 zs1 -> zfind key zs1 = None ->
  exists c' zs',
    (do st2 <- evict_while (evict_fuel c1) false c1;
     let i := l_fresh st2 in
     let s3 := sset (l_store st2) i (mkNode (Some key) (Some v) 0 i i) in
     do s4 <- link_after s3 i sentinel;
     Ok (RNone, mkLru s4 (dset (l_dict st2) key i) (l_max st2) (l_hits st2) (l_miss st2) (S i), k))
    = Ok (RNone, c', k) /\
    R c' (alru_set_list a1 (mkEnt key v 0 :: atrim (map snd zs1) (a_max a1 - 1))) zs'.
Proof.
  intros c1 a1 zs1 key v k HR Hnf.
  destruct (evict_while_R (evict_fuel c1) false c1 a1 zs1 HR) as [c2 [E2 [HR2 Hm2]]].
  { unfold evict_fuel. rewrite (R_len _ _ _ HR). lia. }
  rewrite E2. cbn [bind]. cbv zeta.
  destruct (insert_R c2 _ _ key v HR2 (zfind_firstn_none _ _ _ Hnf)) as [s4 [E4 HR4]].
  rewrite E4. cbn [bind].
  eexists _, _. split; [reflexivity|].
  unfold atrim. rewrite <- (R_max _ _ _ HR), firstn_map. exact HR4.
Qed.

Lemma sim_put : forall key v, sim (Put key v).
Proof.
  intros key v c a zs k HR.
  destruct (R_find _ _ _ key HR) as [(Hnf & Hd & _ & Hr)|(z1 & z & z2 & -> & <- & Hnf & Hd & _ & Hr)];
    unfold lru_step, alru_step; cbn [fst snd]; rewrite Hd, Hr; cbn [bind].
  - exact (put_tail c a zs key v k HR Hnf).
  - destruct (remove_R _ _ _ _ _ HR) as [s1 [c1 [E1 [E2 HR1]]]].
    rewrite E1. cbn [bind]. rewrite E2. cbn [bind].
    exact (put_tail c1 _ _ (zkey z) v k HR1 Hnf).
Qed.

(* set_max_size from a state that is related once the new limit is written on both sides *)
Lemma set_max_R : forall c a zs m,
  R (mkLru (l_store c) (l_dict c) (if m <? 1 then 1 else m) (l_hits c) (l_miss c) (l_fresh c))
    (mkALru (a_list a) (if m <? 1 then 1 else m) (a_hits a) (a_miss a)) zs ->
  exists c' zs',
    lru_set_max c m = Ok c' /\
    R c' (mkALru (atrim (a_list a) (if m <? 1 then 1 else m)) (if m <? 1 then 1 else m) (a_hits a) (a_miss a)) zs'.
Proof.
  intros c a zs m HR. unfold lru_set_max.
  destruct (evict_while_R _ true _ _ zs HR (Nat.lt_succ_diag_r _)) as (c2 & E2 & HR2 & _).
  pose proof (R_len _ _ _ HR) as HL. unfold evict_fuel. cbn [l_dict] in *. rewrite HL.
  exists c2. eexists. split; [exact E2|].
  unfold atrim. rewrite (R_list _ _ _ HR : a_list a = _), firstn_map. exact HR2.
Qed.

Lemma sim_setmax : forall m, sim (SetMax m).
Proof.
  intros m c a zs k HR. unfold lru_step, alru_step. cbn [fst snd].
  destruct (set_max_R c a zs m) as [c' [zs' [E HR']]].
  { destruct HR. constructor; proj; auto. destruct (Z.ltb_spec m 1); lia. }
  rewrite E. cbn [bind]. exists c', zs'. split; [reflexivity|exact HR'].
Qed.

Theorem sim_step : forall cl, sim cl.
Proof.
  intros [key|key v|[key|]|m|key| | | |].
  - apply sim_get.
  - apply sim_put.
  - apply sim_flush_key.
  - apply sim_flush_all.
  - apply sim_setmax.
  - apply sim_hitsfor.
  - intros c a zs k HR. exists c, zs. cbn. rewrite (R_hits _ _ _ HR). auto.
  - intros c a zs k HR. exists c, zs. cbn. rewrite (R_miss _ _ _ HR). auto.
  - intros c a zs k HR. exists c, zs. cbn. rewrite (R_hits _ _ _ HR), (R_miss _ _ _ HR). auto.
  - intros c a zs k HR. eexists _, zs. cbn. split; [reflexivity|].
    destruct HR. constructor; proj; auto.
Qed.

(* LRUCache(max_size) *)
Lemma init_R : forall m, exists c, lru_init m = Ok c /\ R c (alru_init m) [].
Proof.
  intros m. unfold lru_init.
  destruct (set_max_R (mkLru [(sentinel, mkNode None None 0 sentinel sentinel)] [] 0 0 0 1%nat)
              (mkALru [] 0 0 0) [] m) as [c' [zs' [E HR']]].
  { constructor; proj; cbn [map]; auto.
    - constructor.
    - cbn. unfold linked, nxt, prv. cbn. auto.
    - constructor; [tauto|constructor].
    - constructor.
    - intros [|i] Hi; cbn in *; [lia|congruence].
    - destruct (Z.ltb_spec m 1); lia. }
  exists c'. split; [exact E|].
  unfold alru_init. unfold atrim in HR'. rewrite firstn_nil in HR'.
  pose proof (R_list _ _ _ HR') as HL. cbn [a_list] in HL.
  destruct zs'; [exact HR'|discriminate].
Qed.
