(* C09: read_rrsets - a CNAME never coexists with other data in the list of rrsets it returns. *)
From DV Require Import Base.Prelude Model.NameM Model.ZoneTextM Proofs.ListFacts.
From DV Require Import Proofs.NameOrder.
From DV Require Import Proofs.ZoneTextBase Proofs.ZoneTextInv Proofs.ZoneTextAcc Proofs.ZoneTextWf.
Open Scope Z_scope.

Definition rrs_excl (st : rrstore) : Prop := forall n, node_excl (rrs_node st n).

Lemma rrs_node_cons k r st n :
  rrs_node ((k, r) :: st) n = if name_eqb k n then r :: rrs_node st n else rrs_node st n.
Proof. unfold rrs_node. cbn [filter fst]. destruct (name_eqb k n); reflexivity. Qed.

Lemma has_kind_cons k r nd : has_kind k (r :: nd) = nkind_eqb (rds_kind r) k || has_kind k nd.
Proof. reflexivity. Qed.

(* the kinds present at a name after rrs_set: those before, plus the kind of the new rdataset *)
Lemma rrs_set_kinds : forall st n r n' k,
  has_kind k (rrs_node (rrs_set st n r) n') = true ->
  has_kind k (rrs_node st n') = true \/ (name_eqb n n' = true /\ nkind_eqb (rds_kind r) k = true).
Proof.
  induction st as [|[k0 r0] st IH]; intros n r n' k H; cbn [rrs_set] in H.
  - rewrite rrs_node_cons in H. destruct (name_eqb n n') eqn:E; [|left; exact H].
    rewrite has_kind_cons in H. apply orb_true_iff in H as [H|H]; [right; auto|left; exact H].
  - destruct (name_eqb k0 n && rds_match r0 (rtype r) (rcovers r)) eqn:Em.
    + apply andb_true_iff in Em as [Ek Emr]. rewrite rrs_node_cons in *.
      rewrite (name_eqb_trans_l _ _ n' Ek) in *. destruct (name_eqb n n') eqn:E; [|left; exact H].
      rewrite has_kind_cons in *. apply orb_true_iff in H as [H|H]; [right; auto|left; rewrite H; apply orb_true_r].
    + rewrite rrs_node_cons in *. destruct (name_eqb k0 n') eqn:E.
      * rewrite has_kind_cons in *. apply orb_true_iff in H as [H|H]; [left; rewrite H; reflexivity|].
        destruct (IH _ _ _ _ H) as [H'|H']; [left; rewrite H'; apply orb_true_r|right; exact H'].
      * apply IH. exact H.
Qed.

Lemma rrs_node_eqv st n n' : name_eqb n n' = true -> rrs_node st n = rrs_node st n'.
Proof.
  intros H. unfold rrs_node. f_equal. apply filter_ext. intros [k r]. cbn [fst].
  rewrite !(name_eqb_sym k). apply name_eqb_trans_l. exact H.
Qed.

Lemma node_kind_neutral_or_has nd : node_kind nd = KNeutral \/ has_kind (node_kind nd) nd = true.
Proof.
  destruct (node_kind nd) eqn:E; [right|left; reflexivity|right]; eapply node_kind_has; eauto; discriminate.
Qed.

Lemma node_kind_neutral nd k : node_kind nd = KNeutral -> has_kind k nd = true -> k = KNeutral.
Proof.
  induction nd as [|r nd IH]; [discriminate|]. cbn [node_kind]. rewrite has_kind_cons.
  destruct (rds_kind r) eqn:Ek; try discriminate. destruct k; cbn [nkind_eqb orb]; auto.
Qed.

(* in an exclusive node, a CNAME or a regular rdataset decides the kind of the node *)
Lemma excl_kind nd k : node_excl nd -> k <> KNeutral -> has_kind k nd = true -> node_kind nd = k.
Proof.
  intros He Hk Hh. unfold node_excl in He. destruct (node_kind nd) eqn:Ek.
  - pose proof (node_kind_has nd KRegular Ek ltac:(discriminate)) as Hr.
    destruct k; [reflexivity|congruence|rewrite (He Hh) in Hr; discriminate].
  - elim Hk. eapply node_kind_neutral; eauto.
  - pose proof (node_kind_has nd KCname Ek ltac:(discriminate)) as Hc.
    destruct k; [rewrite (He Hc) in Hh; discriminate|congruence|reflexivity].
Qed.

Lemma rrs_add_excl zo rel st n ttl ty rd st' :
  rrs_excl st -> rrs_add zo rel st n ttl ty rd = Ok st' -> rrs_excl st'.
Proof.
  intros He H. unfold rrs_add in H. cbv zeta in H.
  destruct (_ && _ && _); [discriminate|].
  set (r := match rrs_find st n ty (covers_of ty rd) with
            | Some e => rds_union e ttl rd
            | None => mkrds ty (covers_of ty rd) ttl [rd]
            end) in *.
  apply bind_ok in H as (u & Hchk & H). inversion H; subst; clear H.
  (* the check lets in only the kind the name already has, or a neutral rdataset *)
  assert (Hadm : forall k, k <> KNeutral -> has_kind k (rrs_node st n) = true ->
                   rds_kind r = k \/ rds_kind r = KNeutral).
  { intros k Hk Hh. pose proof (excl_kind _ k (He n) Hk Hh) as Hnk.
    destruct (rrs_node st n) as [|x nd]; [discriminate|]. rewrite Hnk in Hchk.
    destruct k, (rds_kind r); try discriminate; auto; congruence. }
  intros n'. unfold node_excl. intros Hc.
  destruct (has_kind KRegular (rrs_node (rrs_set st n r) n')) eqn:Hr; [exfalso|reflexivity].
  destruct (rrs_set_kinds _ _ _ _ _ Hc) as [Hc'|[En Hkc]];
    destruct (rrs_set_kinds _ _ _ _ _ Hr) as [Hr'|[En' Hkr]].
  - rewrite (He n' Hc') in Hr'. discriminate.
  - rewrite <- (rrs_node_eqv st n n' En') in Hc'.
    destruct (Hadm KCname ltac:(discriminate) Hc') as [E|E]; rewrite E in Hkr; discriminate.
  - rewrite <- (rrs_node_eqv st n n' En) in Hr'.
    destruct (Hadm KRegular ltac:(discriminate) Hr') as [E|E]; rewrite E in Hkc; discriminate.
  - destruct (rds_kind r); discriminate.
Qed.

Lemma rrs_fields_store c zo s last n toks lerr s' :
  rrs_fields c zo s last n toks lerr = Ok s' ->
  exists ttl ty rd, rrs_add zo (c_rel c) (rr_store s) n ttl ty rd = Ok (rr_store s').
Proof.
  unfold rrs_fields. intros H.
  apply bind_ok in H as ([v1 r1] & _ & H).
  destruct (match ttl_from_text v1 with Ok t => _ | _ => _ end) as [[[ttl lt] ltk] toksa].
  apply bind_ok in H as ([v2 r2] & _ & H).
  destruct (match class_from_text v2 with Some k => _ | None => _ end) as [cls toksb].
  destruct (negb _); [discriminate|].
  apply bind_ok in H as ([[[ttl' lt'] ltk'] toksc] & _ & H).
  apply bind_ok in H as ([v4 toksd] & _ & H).
  destruct (type_from_text v4) as [ty|]; [|discriminate].
  apply bind_ok in H as (rd & _ & H).
  destruct (if negb (rr_dttl_known s) && (ty =? tSOA) then _ else _) as [[[t|] dt] dtk]; [|discriminate].
  apply bind_ok in H as (st' & Ha & H). inversion H. eauto.
Qed.

Lemma rrs_line_excl c zo s lead toks lerr s' :
  rrs_excl (rr_store s) -> rrs_line c zo s lead toks lerr = Ok s' -> rrs_excl (rr_store s').
Proof.
  unfold rrs_line. intros He H.
  apply bind_ok in H as ([[last toks1] blank] & _ & H).
  set (s0 := mkrr last _ _ _ _ (rr_store s)) in H.
  assert (Heol : (if lerr then Lib eSyntax else Ok s0) = Ok s' -> rrs_excl (rr_store s'))
    by (destruct lerr; intros X; inversion X; exact He).
  destruct blank; [auto|]. destruct last as [name|]; [|discriminate].
  destruct (negb _); [auto|].
  apply bind_ok in H as (n & _ & H). apply rrs_fields_store in H as (ttl & ty & rd & H).
  eapply rrs_add_excl; eauto.
Qed.

Lemma rrs_loop_excl : forall fuel c zo s text s',
  rrs_excl (rr_store s) -> rrs_loop fuel c zo s text = Ok s' -> rrs_excl (rr_store s').
Proof.
  induction fuel as [|f IH]; intros c zo s text s' He H; cbn [rrs_loop] in H; [discriminate|].
  destruct (ZoneTextM.lex text 0 MSkip []) as [[toks term] rest]. cbv zeta in H.
  apply bind_ok in H as (s1 & E & H).
  assert (He1 : rrs_excl (rr_store s1)).
  { destruct (starts_ws text); [eapply rrs_line_excl; eauto|].
    destruct toks as [|t0 tl]; [|eapply rrs_line_excl; eauto].
    destruct (match term with TErr => true | _ => false end); inversion E; subst; exact He. }
  destruct term; [eapply IH; eauto|inversion H; subst; exact He1|discriminate].
Qed.

Theorem rrsets_cname_exclusive_proof c zo text st :
  read_rrsets c zo text = Ok st -> rrs_excl st.
Proof.
  unfold read_rrsets. intros H. apply bind_ok in H as (s & E & H). inversion H; subst.
  eapply rrs_loop_excl; [|exact E]. intros n. unfold rrs_node, node_excl. cbn. discriminate.
Qed.
