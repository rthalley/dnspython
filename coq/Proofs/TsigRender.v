(* Rendering the same Message object again (size probe, retransmission, the first envelope of a
   transfer served twice): to_wire stores the signed TSIG rdata and, for multi, the returned
   context in the object, but a later render is the same function of (message octets, key,
   request MAC, the tsig_ctx ARGUMENT, clock) as the first one - neither the stored rdata's MAC
   and time nor the stored context influence it. *)
From DV Require Import Base.Prelude Proofs.ListFacts.
From DV Require Model.NameM.
From DV Require Import Model.TsigM Proofs.TsigSpec Proofs.TsigLemmas.
Open Scope Z_scope.

Section WithH.
  Variable H : hashid -> bytes -> bytes -> bytes.

  (* signing with the rdata a previous sign returned = signing with the original rdata *)
  Lemma sign_again : forall wire k rd t rmac ctx multi rd' c',
    sign H wire k rd (Some t) rmac ctx multi = Ok (rd', c') ->
    forall wire2 t2 rmac2 ctx2 multi2,
      sign H wire2 k rd' (Some t2) rmac2 ctx2 multi2 = sign H wire2 k rd (Some t2) rmac2 ctx2 multi2.
  Proof.
    intros until c'. intros S wire2 t2 rmac2 ctx2 multi2.
    apply sign_fields in S as (Ft & Fa & Ff & Fo & Fe & Fot). unfold sign.
    rewrite (digest_rd_irrelevant wire2 k rd' rd (Some t2) (Some t2) rmac2 ctx2 multi2) by auto.
    now rewrite Fa, Ff, Fo, Fe, Fot.
  Qed.

  Lemma rerender_is_render_lemma : forall wire k owner rmac ctx multi now1 o w1 o1,
    render H wire k owner rmac ctx multi now1 o = Ok (w1, o1) ->
    forall wire2 rmac2 ctx2 multi2 now2,
      sign_message H wire2 k owner (o_tsig o1) now2 rmac2 ctx2 multi2
      = sign_message H wire2 k owner (o_tsig o) now2 rmac2 ctx2 multi2.
  Proof.
    intros until o1. intros R wire2 rmac2 ctx2 multi2 now2. unfold render in R.
    dbind R as r SM. destruct r as [[w rd'] c']. cbn [fst snd] in R. apply Ok_inj in R.
    replace (o_tsig o1) with rd' by (injection R as _ <-; reflexivity).
    apply sign_message_inv in SM as [SG _].
    unfold sign_message. now rewrite (sign_again _ _ _ _ _ _ _ _ _ SG).
  Qed.
End WithH.
