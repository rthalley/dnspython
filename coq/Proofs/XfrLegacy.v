(* C13 - the older API dns.zone.from_xfr(dns.query.xfr(...)) on an AXFR response: the zone that is built
   is the server's version. *)
From DV Require Import Base.Prelude Model.XfrM Proofs.XfrSets Proofs.XfrSpec Proofs.XfrZone Proofs.XfrDiff
  Proofs.XfrSafety Proofs.XfrBasic Proofs.XfrRun Proofs.XfrSteps Proofs.XfrGeneral Proofs.XfrIxfr Proofs.XfrAxfr.

(* from_xfr's way of adding an RRset agrees with the transaction's on ordinary RRsets *)
Definition rs_plain (s : rrset) : Prop :=
  rs_ok s /\ is_singleton (s_type s) = false /\ kind_of (s_type s) (s_covers s) <> 2.

Lemma fx_add_rs : forall z s, rs_plain s -> quiet z ->
  fx_add z s = zput (skey s) (merge (look z (skey s)) (s_ttl s) (s_data s)) z.
Proof.
  intros z s ((Hc & Ht & _ & Hne & Hs) & Hsg & Hkd) Hq. unfold fx_add, merge, tmin.
  destruct (look z (skey s)) as [[t0 S0]|].
  - rewrite (fold_rds_add_union _ _ _ Hsg). reflexivity.
  - rewrite node_put_id by (apply quiet_addable; [exact Hq|exact Hkd]).
    rewrite (fold_rds_add_union _ _ _ Hsg). fold (union [] (s_data s)). rewrite (union_nil_sorted _ Hs). reflexivity.
Qed.

Lemma fx_addrs : forall l z, Forall rs_plain l -> quiet z ->
  fold_left fx_add l z = addrs z l /\ quiet (addrs z l) /\ look (addrs z l) soakey = look z soakey.
Proof.
  induction l as [|s l IH]; intros z Hf Hq; cbn [fold_left addrs]; [auto|].
  inversion Hf as [|? ? Hs Hf']; subst. rewrite (fx_add_rs z s Hs Hq).
  destruct (IH _ Hf' (quiet_zput _ (skey s) (merge (look z (skey s)) (s_ttl s) (s_data s)) Hq (proj2 (proj2 Hs)))) as (A & B & C).
  split; [exact A|]. split; [exact B|]. rewrite C, look_zput.
  destruct Hs as ((_ & Ht & _) & _). destruct (key_eqb soakey (skey s)) eqn:E; [|reflexivity].
  apply key_eqb_eq in E. unfold skey, soakey in E. inversion E. congruence.
Qed.

(* the RRsets that ordinary records are merged into *)
Lemma group_plain : forall f a, Forall plain a -> Forall rs_plain (group f a).
Proof.
  intros f a Ha.
  destruct (group_parse f a (plain_rec_g a Ha) (plain_once a Ha)) as (R1 & R2 & _). rewrite Forall_forall in *. intros s Hs.
  split; [apply R1, Hs|]. destruct (proj1 (in_map_iff _ _ _) (R2 _ (in_map skey _ _ Hs))) as (r & Ek & Hr).
  destruct (Ha r Hr) as (_ & _ & _ & _ & H1 & H2). unfold rkey, skey in Ek. inversion Ek as [[E1 E2 E3]].
  auto.
Qed.

(* the SOA of v, on a zone that has no SOA yet or has this one *)
Lemma fx_add_soa : forall z v, ttl_ok (v_ttl v) -> quiet z ->
  (forall e, look z soakey = Some e -> e = (v_ttl v, [v_soa v])) ->
  fx_add z (single (soa_rr v)) = zput soakey (v_ttl v, [v_soa v]) z.
Proof.
  intros z v Httl Hq Hl. unfold fx_add, single, soa_rr, skey.
  cbn [s_name s_type s_covers s_ttl s_data r_name r_type r_covers r_ttl r_data].
  change (origin, tSOA, 0) with soakey. rewrite (clamp_ok _ Httl). destruct (look z soakey) as [[t ds]|].
  - specialize (Hl _ eq_refl). inversion Hl; subst. rewrite Z.ltb_irrefl. reflexivity.
  - rewrite node_put_id by (apply quiet_addable; [exact Hq|discriminate]). reflexivity.
Qed.

Lemma flat_group_nil : forall ws, concat (map w_records ws) = [] ->
  flat_map (fun w => group false (w_records w)) ws = [].
Proof.
  induction ws as [|w ws IH]; cbn [map concat flat_map]; intros H; [reflexivity|].
  apply app_eq_nil in H. destruct H as [H1 H2]. rewrite H1, (IH H2). reflexivity.
Qed.

(* the RRsets of one message of ordinary records *)
Lemma fx_msg : forall f x tz, Forall plain x -> zsorted tz -> quiet tz ->
  fold_left fx_add (group f x) tz = addrs tz (group f x) /\ quiet (addrs tz (group f x)) /\
  look (addrs tz (group f x)) soakey = look tz soakey /\ zeq (addrs tz (group f x)) (adds tz x).
Proof.
  intros f x tz Hx Hz Hq. destruct (fx_addrs _ tz (group_plain f x Hx) Hq) as (A & B & C).
  split; [exact A|]. split; [exact B|]. split; [exact C|].
  apply group_parse; [apply plain_rec_g, Hx|apply plain_once, Hx|exact Hz].
Qed.

(* the RRsets of the messages, folded into the zone tz that already holds the SOA *)
Lemma fx_full : forall ws f a tz v c,
  ttl_ok (v_ttl v) -> Forall plain c -> zsorted tz -> quiet tz -> look tz soakey = Some (v_ttl v, [v_soa v]) ->
  a ++ concat (map w_records ws) = c ++ [soa_rr v] ->
  zeq (fold_left fx_add (group f a ++ flat_map (fun w => group false (w_records w)) ws) tz)
      (zput soakey (v_ttl v, [v_soa v]) (adds tz c)).
Proof.
  intros ws f a tz v c Httl Hc Hz Hq Hl Hcat. revert f tz Hc Hz Hq Hl. revert ws a c Hcat.
  refine (stream_cut_ind [soa_rr v] _ _ _ _).
  - discriminate.
  - (* the closing SOA: nothing follows it *)
    intros c x l ws E f tz Hc Hz Hq Hl. injection E as <- E. symmetry in E. apply app_eq_nil in E. destruct E as [-> E].
    rewrite (flat_group_nil ws E), app_nil_r. destruct (fx_msg f c tz Hc Hz Hq) as (A & B' & C & D).
    unfold group. rewrite (group_go_after_soa c f [] (soa_rr v) [] eq_refl), fold_left_app. fold (group f c). rewrite A.
    cbn [map fold_left]. rewrite (fx_add_soa _ v Httl B'); [|rewrite C, Hl; intros e He; inversion He; reflexivity]. apply zput_zeq, D.
  - intros a w ws l IH f tz Hc Hz Hq Hl. apply Forall_app in Hc. destruct Hc as [Ha Hc'].
    destruct (fx_msg f a tz Ha Hz Hq) as (A & B & C & D). rewrite fold_left_app, A. cbn [flat_map].
    eapply zeq_trans; [apply (IH false _ Hc' (zsorted_zeq _ _ D (adds_sorted _ _ Hz)) B); rewrite C; exact Hl|].
    rewrite adds_app. apply zput_zeq, adds_zeq, D.
Qed.

Lemma firstn_skipn_records : forall n (ws : list wmsg),
  concat (map w_records (skipn n ws)) = [] ->
  concat (map w_records (firstn n ws)) = concat (map w_records ws).
Proof.
  intros n ws H. rewrite <- (firstn_skipn n ws) at 2. rewrite map_app, concat_app, H, app_nil_r. reflexivity.
Qed.

(* from_xfr's zone on messages that carry the AXFR stream of v, the first one beginning with the SOA *)
Lemma fx_axfr : forall v w ws a, version_wf v -> w_records w = soa_rr v :: a ->
  a ++ concat (map w_records ws) = body (v_rest v) ++ [soa_rr v] ->
  zeq (fold_left fx_add (flat_map (fun w => group false (w_records w)) (w :: ws)) []) (zone_of v).
Proof.
  intros v w ws a [Httl Hwf] Hr Hrec. cbn [flat_map]. rewrite Hr.
  rewrite (group_soa_first false (soa_rr v) a eq_refl). cbn [map app fold_left]. rewrite <- (group_true a).
  rewrite (fx_add_soa [] v Httl quiet_nil) by (intros e He; discriminate He).
  set (tz0 := zput soakey (v_ttl v, [v_soa v]) []).
  assert (Hq0 : quiet tz0) by (apply quiet_zput; [exact quiet_nil|discriminate]).
  assert (Hs0 : zsorted tz0).
  { intros k. unfold tz0. rewrite look_zput. destruct (key_eqb k soakey); [apply ssorted_one|exact Logic.I]. }
  assert (Hl0 : look tz0 soakey = Some (v_ttl v, [v_soa v])) by (unfold tz0; rewrite look_zput, key_eqb_refl; reflexivity).
  eapply zeq_trans; [apply (fx_full ws true a tz0 v (body (v_rest v)) Httl (body_plain _ Hwf) Hs0 Hq0 Hl0 Hrec)|].
  intros k. rewrite look_zput, look_zone_of. destruct (key_eqb k soakey) eqn:E; [reflexivity|].
  rewrite look_adds_fa. unfold tz0. rewrite look_zput, E.
  rewrite <- (adds_body _ (rest_wf_wf0 _ Hwf) k), look_adds_fa. reflexivity.
Qed.

(* dns.zone.from_xfr(dns.query.xfr(...)): a well-formed version with NS records at the apex, any division of
   its AXFR response into messages: the zone that is built is the server's version *)
Theorem legacy_axfr_converges : forall v ws,
  version_wf v -> look (v_rest v) (origin, 2, 0) <> None ->
  chunking tAXFR (axfr_stream v) ws ->
  exists z, legacy_axfr ws = Ok z /\ zeq z (zone_of v).
Proof.
  intros v ws Hv Hns Hch. unfold axfr_stream in Hch. pose proof Hv as [Httl Hwf]. pose proof (body_plain _ Hwf) as Hpl.
  destruct (axfr_body_g (fun k => key_kind k <> 2) v _ [] None ws conflicts_kind ltac:(discriminate) Httl
              (plain_rec_g _ Hpl) (todo_plain [] _ quiet_nil Hpl) Hch) as (z' & n & Hn & _ & Hsk).
  unfold legacy_axfr. rewrite Hn.
  (* the messages that were yielded carry the whole stream *)
  apply chunking_first in Hch. destruct Hch as (w & ws' & a & -> & Hr & Hw & Hws & Hcat).
  destruct n as [|m]; [cbn [skipn map concat] in Hsk; rewrite Hr in Hsk; discriminate|]. cbn [skipn] in Hsk.
  rewrite <- (firstn_skipn_records m ws' Hsk) in Hcat. pose proof (fx_axfr v w (firstn m ws') a Hv Hr Hcat) as Hfin.
  unfold from_xfr. cbv zeta. cbn [firstn].
  set (zf := fold_left fx_add _ []) in *.
  assert (H1 : look zf (origin, tSOA, 0) = Some (v_ttl v, [v_soa v])) by (rewrite Hfin; reflexivity).
  assert (H2 : look zf (origin, 2, 0) = look (v_rest v) (origin, 2, 0)) by (rewrite Hfin; reflexivity).
  rewrite H1. destruct (look zf (origin, 2, 0)) as [e|] eqn:E2.
  - exists zf. split; [reflexivity|exact Hfin].
  - exfalso. apply Hns. rewrite <- H2. reflexivity.
Qed.
