(* C01: the zone-file path: Tokenizer.get() returns the printed form of a name as one identifier
   token (no unescaped delimiter, white space or line end in to_text output), and
   Tokenizer.get_name parses it back to the name. *)
From DV Require Import Base.Prelude Model.NameM Proofs.NameValid Proofs.NameText.
Open Scope Z_scope.

(* a text the scanner walks through without stopping: every character is an ordinary one, or a
   backslash followed by a character other than newline *)
Inductive clean : list Z -> Prop :=
| clean_nil : clean []
| clean_char c w : tok_delim c = false -> c <> 92 -> clean w -> clean (c :: w)
| clean_pair c w : c <> 10 -> clean w -> clean (92 :: c :: w).

Lemma clean_app a b : clean a -> clean b -> clean (a ++ b).
Proof.
  induction 1 as [|c w Hd H92 Hw IH|c w H10 Hw IH]; intros Hb; cbn [app].
  - exact Hb.
  - apply clean_char; auto.
  - apply clean_pair; auto.
Qed.

Lemma tok_scan_clean w : clean w -> forall f rest tok,
  (length w < f)%nat ->
  exists f', (f - length w <= f')%nat /\ tok_scan f (w ++ rest) tok = tok_scan f' rest (rev w ++ tok).
Proof.
  induction 1 as [|c w Hd H92 Hw IH|c w H10 Hw IH]; intros f rest tok Hf.
  - exists f. split; [cbn; lia|reflexivity].
  - destruct f as [|f]; [cbn in Hf; lia|]. cbn [app tok_scan]. rewrite Hd.
    replace (c =? 92) with false by lia.
    destruct (IH f rest (c :: tok)) as (f' & Hf' & E); [cbn in Hf; lia|].
    exists f'. split; [cbn [length]; lia|]. rewrite E. cbn [rev]. rewrite <- app_assoc. reflexivity.
  - destruct f as [|f]; [cbn in Hf; lia|]. cbn [app tok_scan].
    change (tok_delim 92) with false. change (92 =? 92) with true. cbn iota.
    replace (c =? 10) with false by lia.
    destruct (IH f rest (c :: 92 :: tok)) as (f' & Hf' & E); [cbn in Hf; lia|].
    exists f'. split; [cbn [length]; lia|]. rewrite E. cbn [rev]. rewrite <- !app_assoc. reflexivity.
Qed.

(* every octet value prints as clean text *)
Lemma esc_octet_clean c : 0 <= c < 256 -> clean (esc_octet c).
Proof.
  intros Hc. unfold esc_octet. destruct (escaped c) eqn:E.
  - apply clean_pair; [|constructor].
    unfold escaped in E. intros ->. discriminate.
  - destruct ((c >? 32) && (c <? 127)) eqn:P.
    + apply clean_char; [| |constructor].
      * (* a delimiter is a blank or control character, or is escaped *)
        destruct (tok_delim c) eqn:T; [exfalso|reflexivity]. unfold tok_delim in T.
        repeat (apply orb_true_iff in T; destruct T as [T|T]); apply Z.eqb_eq in T; subst c;
          (discriminate E || discriminate P).
      * destruct (escaped_false _ E) as (_ & H & _). exact H.
    + destruct (ddd_digits c Hc) as (D1 & D2 & D3 & _). revert D1 D2 D3.
      generalize (48 + c / 100) (48 + (c / 10) mod 10) (48 + c mod 10). intros d1 d2 d3 D1 D2 D3.
      apply clean_pair; [lia|].
      apply clean_char; [unfold tok_delim; lia|lia|].
      apply clean_char; [unfold tok_delim; lia|lia|]. constructor.
Qed.

Lemma escapify_clean l : Forall (fun c => 0 <= c < 256) l -> clean (escapify l).
Proof.
  induction 1 as [|c l Hc _ IH]; [constructor|].
  unfold escapify. cbn [flat_map]. apply clean_app; [apply esc_octet_clean; exact Hc|exact IH].
Qed.

Lemma join_dot_clean (ls : list (list Z)) : Forall clean ls -> clean (join_dot ls).
Proof.
  induction 1 as [|x ls Hx _ IH]; [constructor|]. destruct ls as [|y ls]; [exact Hx|].
  change (join_dot (x :: y :: ls)) with (x ++ 46 :: join_dot (y :: ls)).
  apply clean_app; [exact Hx|]. apply clean_char; [reflexivity|discriminate|exact IH].
Qed.

Lemma to_text_clean (n : name) : AllBytes n -> clean (to_text n) /\ to_text n <> [].
Proof.
  intros HB. unfold name, label in *.
  assert (forall m : list (list Z), AllBytes m -> clean (join_dot (map escapify m))) as J.
  { intros m Hm. apply join_dot_clean. apply Forall_map. eapply Forall_impl; [|exact Hm].
    intros l Hl. apply escapify_clean, Hl. }
  destruct n as [|x n].
  { split; [apply clean_char; [reflexivity|discriminate|constructor]|discriminate]. }
  destruct x as [|c x].
  - destruct n as [|y n].
    + split; [apply clean_char; [reflexivity|discriminate|constructor]|discriminate].
    + change (to_text ([] :: y :: n)) with (join_dot (map escapify ([] :: y :: n))).
      split; [apply J, HB|].
      change (join_dot (map escapify ([] :: y :: n))) with ([] ++ 46 :: join_dot (map escapify (y :: n))).
      discriminate.
  - change (to_text ((c :: x) :: n)) with (join_dot (map escapify ((c :: x) :: n))).
    split; [apply J, HB|].
    destruct (join_head (c :: x) n) as (h & r & E & _); [discriminate|].
    intros X. discriminate (eq_trans (eq_sym X) E).
Qed.

(* a clean, non-empty text does not start with a blank *)
Lemma clean_skip_ws w rest : clean w -> w <> [] -> tok_skip_ws (w ++ rest) = w ++ rest.
Proof.
  intros Hw Hne. destruct Hw as [|c w Hd H92 Hw|c w H10 Hw]; [congruence| |reflexivity].
  cbn [app tok_skip_ws]. unfold tok_delim in Hd. replace ((c =? 32) || (c =? 9)) with false by lia. reflexivity.
Qed.

(* what may follow the token: end of input or a delimiter *)
Definition token_end (rest : list Z) : Prop :=
  rest = [] \/ exists d r, rest = d :: r /\ tok_delim d = true.

Theorem tokenizer_identifier (n : name) rest : AllBytes n -> token_end rest ->
  tok_get_identifier (to_text n ++ rest) = Ok (to_text n, rest).
Proof.
  intros HB He. destruct (to_text_clean n HB) as [Hc Hne].
  unfold tok_get_identifier. rewrite clean_skip_ws by assumption.
  destruct (tok_scan_clean _ Hc (S (length (to_text n ++ rest))) rest []) as (f' & Hf' & ->).
  { rewrite app_length. lia. }
  rewrite app_nil_r.
  assert (rev (to_text n) <> []) as Hr by (apply rev_ne; exact Hne).
  destruct f' as [|f']; [rewrite app_length in Hf'; lia|].
  destruct He as [->|(d & r & -> & Hd)]; cbn [tok_scan].
  - destruct (rev (to_text n)) eqn:R; [congruence|]. rewrite <- R, rev_involutive. reflexivity.
  - rewrite Hd. destruct (rev (to_text n)) eqn:R; [congruence|]. rewrite <- R, rev_involutive. reflexivity.
Qed.

Lemma choose_derel_abs n o : is_absolute n = true -> choose_relativity n o false = Ok n.
Proof.
  intros A. unfold choose_relativity. destruct o as [[|x o]|]; try reflexivity.
  unfold derelativize. rewrite A. reflexivity.
Qed.

(* Tokenizer.get_name on the printed name: the name itself (origin None), or the name made
   absolute with the origin exactly as from_text does *)
Theorem tokenizer_name_roundtrip (n : name) rest : Valid n -> AllBytes n -> token_end rest ->
  tok_get_name (to_text n ++ rest) None = Ok n.
Proof.
  intros V HB He. unfold tok_get_name. rewrite tokenizer_identifier by assumption.
  cbn [bind fst]. rewrite text_roundtrip by assumption. reflexivity.
Qed.

Theorem tokenizer_name_roundtrip_origin (n o : name) rest :
  Valid n -> AllBytes n -> token_end rest -> is_absolute o = true ->
  tok_get_name (to_text n ++ rest) (Some o) =
    if is_absolute n then Ok n else mk_name (n ++ o).
Proof.
  intros V HB He Ao. unfold tok_get_name. rewrite tokenizer_identifier by assumption.
  cbn [bind fst]. rewrite text_roundtrip_origin by assumption.
  destruct (is_absolute n) eqn:A; cbn [bind].
  - apply choose_derel_abs, A.
  - destruct (mk_name (n ++ o)) as [m| |] eqn:M; cbn [bind]; try reflexivity.
    apply mk_name_ok in M. destruct M as [-> _].
    apply choose_derel_abs. destruct o as [|x o]; [discriminate|]. rewrite is_absolute_app. exact Ao.
Qed.

(* the scanner's fuel is sufficient on every input, and the only errors are the library's *)
Lemma tok_scan_no_fuel : forall f i tok, (length i < f)%nat -> tok_scan f i tok <> Internal iFuel.
Proof.
  induction f as [|f IH]; intros i tok H; [lia|].
  cbn [tok_scan]. destruct i as [|c r]; [destruct tok; discriminate|].
  destruct (tok_delim c); [destruct tok; discriminate|].
  destruct (c =? 92).
  - destruct r as [|c2 r2]; [discriminate|]. destruct (c2 =? 10); [discriminate|].
    apply IH. cbn [length] in H. lia.
  - apply IH. cbn [length] in H. lia.
Qed.

Theorem tok_get_identifier_fuel text : tok_get_identifier text <> Internal iFuel.
Proof. unfold tok_get_identifier. apply tok_scan_no_fuel. lia. Qed.
