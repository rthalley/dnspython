(* C10: top-level theorems about zone transactions. *)
From DV Require Import Base.Prelude Model.NameM Model.TxnM.
From DV Require Import Proofs.NameValid Proofs.NameOrder Proofs.NameRel.
From DV Require Import Proofs.TxnName Proofs.TxnStore Proofs.TxnLow Proofs.TxnSim.
Open Scope Z_scope.

Lemma zstore_sim c : wfc c -> store_sim (zstore c) (rstore c) EV (R c) (RP c) false (fun _ => True).
Proof.
  intros W. split.
  - intros; apply sim_publish; auto.
  - intros s1 s2 n1 n2 ty cov HR [-> Vn]. apply sim_get; auto.
  - intros s1 s2 n ty cov r _ G. split; [exact (r_get_cls c _ _ _ _ _ G)|exact Logic.I].
  - intros s1 s2 n1 n2 r HR [-> Vn] Hc _. apply sim_put; auto.
  - intros s1 s2 n1 n2 HR [-> Vn]. apply sim_del_name; auto.
  - intros s1 s2 n1 n2 ty cov HR [-> Vn]. apply sim_del_rds; auto.
  - intros s1 s2 n1 n2 HR [-> Vn]. apply sim_exists; auto.
  - intros s1 s2 n1 n2 HR [-> Vn]. apply sim_node; auto.
  - intros; apply sim_changed; auto.
  - discriminate.
Qed.

(* Every history of transactions (any operations, argument forms, commit / rollback / exception exits),
   run on the zone model and on the reference store from related published states, gives the same
   result for every call (values and exception classes) and related published states after every
   transaction. *)
Theorem refines_hist c h z l :
  wfc c -> Forall spec_valid h -> RP c z l ->
  Forall2 (ROut (RP c)) (impl_hist c h z) (spec_hist c h l).
Proof. intros W. apply (sim_valid_hist _ _ c _ _ (zstore_sim c W) (sim_begin c)). Qed.

(* what "related published states" means for an observer of the zone: Zone.get_node(name) returns,
   for every owner name, exactly the rdatasets the reference store holds for it (same order), and
   never an empty node *)
Definition ref_node (c : cfg) (l : list entry) (n : name) : option node :=
  match canon c n with
  | Ok a => match entries_at a l with [] => None | x => Some x end
  | _ => None
  end.

Theorem RP_observe c z l n :
  wfc c -> Valid n -> RP c z l -> zone_get_node c z n = ref_node c l n.
Proof.
  intros W Vn HP. pose proof (sim_node c W (mkVer z []) (mkRst l false) n HP Vn) as H.
  unfold get_node, r_node, zone_get_node, ref_node in *. cbn [v_nodes rs_entries] in H.
  destruct (validate_name c n), (canon c n); cbn [bind] in H; try discriminate; try reflexivity.
  inversion H as [H1]. exact H1.
Qed.

Corollary RP_no_empty_node c z l n nd :
  wfc c -> Valid n -> RP c z l -> zone_get_node c z n = Some nd -> nd <> [].
Proof.
  intros W Vn HP H. rewrite (RP_observe c z l n W Vn HP) in H. unfold ref_node in H.
  destruct (canon c n); try discriminate. destruct (entries_at _ _); inversion H; discriminate.
Qed.

(* the empty zone and the empty store are related: the theorem is not vacuous *)
Lemma RP_empty c : RP c [] [].
Proof. apply RP_nil. Qed.

Definition is_commit (o : op) : bool := match o with OCommit => true | _ => false end.
Definition no_commit (ops : list op) : Prop := Forall (fun o => is_commit o = false) ops.

Definition is_err (r : res out) : bool := match r with Ok _ => false | _ => true end.

(* for any one-call function that leaves the published state alone unless it is commit(), and any exit
   function that leaves it alone on rollback *)
Section RunAtomic.
  Context {P T : Type}.
  Variable stp : op -> P -> T -> res (out * P * T).
  Variable ext : bool -> P -> T -> P.
  Hypothesis H_keep : forall o z t x z' t', is_commit o = false -> stp o z t = Ok (x, z', t') -> z' = z.
  Hypothesis H_roll : forall z t, ext false z t = z.

  Lemma g_with_abort ops : forall fault z t outs z',
    no_commit ops -> g_with stp ext ops fault z t = (outs, z') -> existsb is_err outs = true -> z' = z.
  Proof.
    induction ops as [|o ops IH]; intros [[|k]|] z t outs z' Hn; cbn [g_with];
      try (intros [= <- <-]; cbn; try discriminate; intros _; apply H_roll).
    all: inversion Hn as [|? ? Ho Hr]; subst;
      destruct (stp o z t) as [[[x z1] t1]|e|e] eqn:Es; try (intros [= <- <-] _; apply H_roll);
      apply (H_keep _ _ _ _ _ _ Ho) in Es; subst z1;
      destruct (g_with stp ext ops _ z t1) as [outs1 zf] eqn:Er; intros [= <- <-]; cbn; eauto.
  Qed.

  (* an injected fault always produces an error entry, whatever the index *)
  Lemma g_with_fault_errs ops : forall k z t outs z',
    g_with stp ext ops (Some k) z t = (outs, z') -> existsb is_err outs = true.
  Proof.
    induction ops as [|o ops IH]; intros [|k] z t outs z'; cbn [g_with]; try (intros [= <- _]; reflexivity).
    destruct (stp o z t) as [[[x z1] t1]|e|e]; try (intros [= <- _]; reflexivity).
    destruct (g_with stp ext ops (Some k) z1 t1) as [outs1 zf] eqn:Er. intros [= <- _]. cbn. eauto.
  Qed.

  Lemma g_crash_point ops k z t : no_commit ops -> snd (g_with stp ext ops (Some k) z t) = z.
  Proof.
    intros Hn. destruct (g_with stp ext ops (Some k) z t) as [outs z'] eqn:E.
    eapply g_with_abort; eauto using g_with_fault_errs.
  Qed.

  Lemma g_manual_no_commit ops : forall z t, no_commit ops -> snd (g_manual stp ext ops z t) = z.
  Proof.
    induction ops as [|o ops IH]; intros z t Hn; cbn [g_manual]; [apply H_roll|].
    inversion Hn as [|? ? Ho Hr]; subst.
    destruct (stp o z t) as [[[x z1] t1]|e|e] eqn:Es; rewrite g_cons_snd, IH by exact Hr; eauto.
  Qed.
End RunAtomic.

Section Atomic.
  Context {P S : Type}.
  Variable st : store P S.
  Variable c : cfg.

  Lemma hl_write_ok f (t t' : txn (S:=S)) :
    hl_write f t = Ok t' -> t_ended t = false /\ t_ro t = false /\ t_ended t' = false /\ t_ro t' = false.
  Proof.
    unfold hl_write. destruct (t_ended t) eqn:Ee; [discriminate|]. destruct (t_ro t) eqn:Er; [discriminate|].
    destruct (f (t_st t)); cbn [bind]; try discriminate. intros [= <-]. cbn. auto.
  Qed.

  (* what a call that returns has done to the transaction and to the published state: an ending call ends
     it and publishes on commit; a writing call needs a writable transaction; every other call is a read *)
  Lemma step_ok o z t x z' t' :
    step st c o z t = Ok (x, z', t') ->
    t_ended t = false /\
    match o with
    | OCommit | ORollback =>
        t' = mkTxn (t_st t) (t_ro t) true /\
        z' = if negb (t_ro t) && is_commit o && s_changed st (t_st t) then s_publish st (t_st t) else z
    | OAdd _ | OReplace _ | ODelete _ | ODeleteExact _ | OSerial _ _ _ =>
        z' = z /\ t_ro t = false /\ t_ended t' = false /\ t_ro t' = false
    | _ => z' = z /\ t' = t
    end.
  Proof.
    destruct o; cbn [step is_commit].
    1-4: destruct (hl_write _ t) as [t1| |] eqn:Ew; cbn [bind]; try discriminate; intros [= _ <- <-];
         apply hl_write_ok in Ew; tauto.
    - unfold hl_update_serial. destruct (t_ended t) eqn:Ee; [discriminate|]. destruct (value <? 0); [discriminate|].
      destruct (match n with None => _ | Some a => _ end); cbn [bind]; try discriminate.
      destruct (s_get _ _ _ _ _) as [[e0|]| |]; cbn [bind]; try discriminate.
      destruct (r_items e0) as [|[body serial] ?]; [discriminate|].
      destruct (if relative then _ else _); cbn [bind]; try discriminate.
      destruct (hl_write _ t) as [t1| |] eqn:Ew; cbn [bind]; try discriminate. intros [= _ <- <-].
      apply hl_write_ok in Ew. tauto.
    - destruct (t_ended t); [discriminate|]. destruct (name_of_arg n); cbn [bind]; try discriminate.
      destruct (make_type (AInt ty)); cbn [bind]; try discriminate.
      destruct (make_type (AInt cov)); cbn [bind]; try discriminate.
      destruct (s_get _ _ _ _ _); cbn [bind]; intros [= _ <- <-]; auto.
    - destruct (t_ended t); [discriminate|]. destruct (name_of_arg n); cbn [bind]; try discriminate.
      destruct (s_exists _ _ _); cbn [bind]; intros [= _ <- <-]; auto.
    - destruct (t_ended t); [discriminate|]. intros [= _ <- <-]; auto.
    - destruct (t_ended t); [discriminate|]. destruct (s_count st (t_st t)). intros [= _ <- <-]; auto.
    - destruct (t_ended t); [discriminate|]. destruct (name_of_arg n); cbn [bind]; try discriminate.
      destruct (s_node _ _ _); cbn [bind]; intros [= _ <- <-]; auto.
    - unfold hl_end. destruct (t_ended t); cbn [bind]; [discriminate|]. intros [= _ <- <-]. auto.
    - unfold hl_end. destruct (t_ended t); cbn [bind]; [discriminate|]. intros [= _ <- <-]. auto.
  Qed.

  Lemma step_keeps_zone o z t x z' t' :
    is_commit o = false -> step st c o z t = Ok (x, z', t') -> z' = z.
  Proof.
    intros Hc Es. apply step_ok in Es. destruct Es as [_ H].
    destruct o; try discriminate Hc; try tauto. destruct H as [_ ->]. rewrite andb_false_r. reflexivity.
  Qed.

  Lemma exit_rollback_keeps z t : hl_exit st false z t = z.
  Proof.
    unfold hl_exit, hl_end. destruct (t_ended t); [reflexivity|]. rewrite andb_false_r. reflexivity.
  Qed.

  (* a with-block that is left through an exception - raised by an operation or by the caller after any
     number of operations - leaves the published zone exactly as it was *)
  Theorem atomic_with_abort ops : forall fault z t outs z',
    no_commit ops ->
    run_with st c ops fault z t = (outs, z') ->
    existsb is_err outs = true -> z' = z.
  Proof. rewrite run_with_g. apply g_with_abort; [apply step_keeps_zone|apply exit_rollback_keeps]. Qed.

  Corollary atomic_crash_point ops k z t :
    no_commit ops -> snd (run_with st c ops (Some k) z t) = z.
  Proof. rewrite run_with_g. apply g_crash_point; [apply step_keeps_zone|apply exit_rollback_keeps]. Qed.

  (* without commit() the caller-driven style never publishes either (rollback or abandon) *)
  Theorem atomic_manual_no_commit ops : forall z t,
    no_commit ops -> snd (run_manual st c ops z t) = z.
  Proof. rewrite run_manual_g. apply g_manual_no_commit; [apply step_keeps_zone|apply exit_rollback_keeps]. Qed.

  Definition is_end (o : op) : bool := match o with OCommit | ORollback => true | _ => false end.
  Definition no_end (ops : list op) : Prop := Forall (fun o => is_end o = false) ops.

  (* the transaction state after the calls of a with-block, when none of them raised *)
  Fixpoint final_txn (ops : list op) (z : P) (t : txn (S:=S)) : option (txn (S:=S)) :=
    match ops with
    | [] => Some t
    | o :: r => match step st c o z t with
                | Ok (_, z', t') => final_txn r z' t'
                | _ => None
                end
    end.

  Lemma final_txn_g : final_txn = g_final (step st c).
  Proof. reflexivity. Qed.

  Lemma step_keeps_open o z t x z' t' :
    is_end o = false -> step st c o z t = Ok (x, z', t') -> z' = z /\ t_ended t' = t_ended t /\ t_ro t' = t_ro t.
  Proof.
    intros Hc Es. apply step_ok in Es. destruct Es as [He H].
    destruct o; try discriminate Hc; try (destruct H as [-> ->]; auto); intuition congruence.
  Qed.

  (* a with-block whose calls all succeed commits on exit: the published zone becomes the private state of
     the transaction (what its own reads saw) if the transaction changed anything, and stays otherwise *)
  Theorem clean_exit_commits ops : forall z t outs z',
    no_end ops -> t_ended t = false ->
    run_with st c ops None z t = (outs, z') -> existsb is_err outs = false ->
    exists t', final_txn ops z t = Some t' /\
               z' = if negb (t_ro t') && s_changed st (t_st t') then s_publish st (t_st t') else z.
  Proof.
    induction ops as [|o ops IH]; intros z t outs z' Hn He.
    - cbn [run_with final_txn]. intros H _. inversion H; subst. exists t. split; [reflexivity|].
      unfold hl_exit, hl_end. rewrite He. cbn. rewrite andb_true_r. reflexivity.
    - inversion Hn as [|? ? Ho Hr]; subst. cbn [run_with final_txn].
      destruct (step st c o z t) as [[[x z1] t1]|e|e] eqn:Es.
      + destruct (step_keeps_open o z t x z1 t1 Ho Es) as (-> & He1 & _).
        destruct (run_with st c ops None z t1) as [outs1 zf] eqn:Er.
        intros H; inversion H; subst. cbn [existsb is_err orb]. intros Hx.
        apply (IH z t1 outs1 z' Hr); auto. congruence.
      + intros H; inversion H; subst. cbn. discriminate.
      + intros H; inversion H; subst. cbn. discriminate.
  Qed.

  Theorem ended_refuses o z t : t_ended t = true -> step st c o z t = Lib eAlreadyEnded.
  Proof.
    intros He. destruct o; cbn [step]; unfold hl_write, hl_update_serial, hl_end; rewrite He; reflexivity.
  Qed.

  Definition is_write (o : op) : bool :=
    match o with OAdd _ | OReplace _ | ODelete _ | ODeleteExact _ => true | _ => false end.

  Theorem readonly_refuses o z t :
    t_ended t = false -> t_ro t = true -> is_write o = true -> step st c o z t = Lib eReadOnly.
  Proof.
    intros He Hr Hw. destruct o; try discriminate Hw; cbn [step]; unfold hl_write; rewrite He, Hr; reflexivity.
  Qed.

  (* no call on a read-only transaction changes its state or the zone (update_serial fails too) *)
  Theorem readonly_never_changes o z t x z' t' :
    t_ro t = true -> step st c o z t = Ok (x, z', t') -> z' = z /\ t_st t' = t_st t /\ t_ro t' = true.
  Proof.
    intros Hr Es. apply step_ok in Es. destruct Es as [_ H].
    destruct o; try (destruct H as (_ & H & _); congruence); destruct H as [-> ->]; rewrite ?Hr; auto.
  Qed.

  (* commit() / rollback() end the transaction, so that every later call refuses *)
  Theorem end_ends commit z t z' t' : hl_end st commit z t = Ok (z', t') -> t_ended t' = true.
  Proof. unfold hl_end. destruct (t_ended t); [discriminate|]. intros H; inversion H; reflexivity. Qed.
End Atomic.
