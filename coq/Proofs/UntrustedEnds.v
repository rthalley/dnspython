(* What a modelled function may end in.  Every statement of C04 about a `res` has this shape: a
   condition on the value returned, the library errors allowed, the Python-level exceptions allowed
   (none - or the model's fuel marker, while a loop has not yet been shown to terminate).  The
   predicates of the single models (Good, FE, G, Fine, Nice, Syn, NiceR, ...) are instances of it
   by conversion, so the lemmas below apply to goals stated with them. *)
From DV Require Import Base.Prelude Proofs.ListFacts.

Definition ends {A} (Q : A -> Prop) (L I : Z -> Prop) (r : res A) : Prop :=
  match r with Ok a => Q a | Lib e => L e | Internal e => I e end.

Definition none (e : Z) : Prop := False.
Definition any {A} (a : A) : Prop := True.
#[global] Hint Extern 0 (any _) => exact Logic.I : core.

Lemma ends_bind {A B} (Q1 : A -> Prop) (Q2 : B -> Prop) L I (r : res A) (k : A -> res B) :
  ends Q1 L I r -> (forall a, Q1 a -> ends Q2 L I (k a)) -> ends Q2 L I (bind r k).
Proof. destruct r; cbn [bind ends]; auto. Qed.

(* the common case: nothing about the value is needed *)
Lemma ends_seq {A B} (Q : B -> Prop) L I (r : res A) (k : A -> res B) :
  ends any L I r -> (forall a, ends Q L I (k a)) -> ends Q L I (bind r k).
Proof. intros H K. eapply ends_bind; [exact H|auto]. Qed.

Lemma ends_mono {A} (Q Q' : A -> Prop) (L L' I I' : Z -> Prop) r :
  ends Q L I r -> (forall a, Q a -> Q' a) -> (forall e, L e -> L' e) -> (forall e, I e -> I' e) ->
  ends Q' L' I' r.
Proof. destruct r; cbn [ends]; auto. Qed.

Lemma ends_any {A} (Q : A -> Prop) L I r : ends Q L I r -> ends any L I r.
Proof. destruct r; cbn [ends]; auto. Qed.

Lemma ends_ok {A} (Q : A -> Prop) L I r a : ends Q L I r -> r = Ok a -> Q a.
Proof. intros H ->. exact H. Qed.

(* the value, where a continuation needs more of it than Q says *)
Lemma ends_eq {A} (Q : A -> Prop) L I r : ends Q L I r -> ends (fun a => r = Ok a /\ Q a) L I r.
Proof. destruct r; cbn [ends]; auto. Qed.

(* the other direction: from a value of the whole to the values of its parts *)
Tactic Notation "ib" ident(H) "as" ident(a) ident(E) := apply bind_ok in H; destruct H as (a & E & H).
