(* C10: the simulation relation between a zone version and the flat reference store, and its
   preservation by every low-level store operation (the abstract methods of Transaction). *)
From DV Require Import Base.Prelude Model.NameM Model.TxnM.
From DV Require Import Proofs.NameValid Proofs.NameOrder Proofs.NameRel Proofs.TxnName Proofs.TxnStore.
Open Scope Z_scope.

Definition opt_node (l : node) : option node := match l with [] => None | _ => Some l end.

(* every owner of the reference store holds at most one rdataset per (type, covers), all of class IN *)
Definition swf (l : list entry) : Prop := forall a, node_wf (entries_at a l).

(* the version holds, under the validated key of every owner name, exactly the rdatasets the reference
   store holds for the absolute spelling of that owner - in the same order - and no empty node *)
Definition R (c : cfg) (v : version) (s : rstate) : Prop :=
  (forall n k a, Valid n -> validate_name c n = Ok k -> canon c n = Ok a ->
     map_get (v_nodes v) k = opt_node (entries_at a (rs_entries s)))
  /\ swf (rs_entries s)
  /\ (match v_changed v with [] => false | _ => true end) = rs_dirty s.

Lemma at_name_congr a a' e : name_eqb a a' = true -> at_name a e = at_name a' e.
Proof. intros H. unfold at_name. apply name_eqb_trans_r. exact H. Qed.

Lemma entries_at_congr a a' l : name_eqb a a' = true -> entries_at a l = entries_at a' l.
Proof.
  intros H. unfold entries_at. f_equal. apply filter_ext. intros e. apply at_name_congr. exact H.
Qed.

Lemma entries_at_filter a0 q a l :
  entries_at a (filter (fun e => negb (at_name a0 e && q (e_rds e))) l) =
  if name_eqb a0 a then filter (fun r => negb (q r)) (entries_at a l) else entries_at a l.
Proof.
  unfold entries_at. induction l as [|e l IH].
  - cbn. destruct (name_eqb a0 a); reflexivity.
  - destruct (at_name a e) eqn:Ea.
    + (* e is at a *)
      assert (at_name a0 e = name_eqb a0 a) as E0.
      { unfold at_name in *. rewrite (name_eqb_sym a0 a). rewrite (name_eqb_trans_l (e_name e) a a0 Ea). reflexivity. }
      destruct (name_eqb a0 a) eqn:E; destruct (q (e_rds e)) eqn:Q;
        repeat (cbn [filter map andb negb]; rewrite ?Ea, ?E0, ?Q); rewrite ?IH; reflexivity.
    + destruct (negb (at_name a0 e && q (e_rds e))) eqn:P;
        repeat (cbn [filter map andb negb]; rewrite ?Ea, ?P); exact IH.
Qed.

Lemma entries_at_app a l l' : entries_at a (l ++ l') = entries_at a l ++ entries_at a l'.
Proof. unfold entries_at. rewrite filter_app, map_app. reflexivity. Qed.

Lemma entries_at_single a a0 r : entries_at a [mkEntry a0 r] = if name_eqb a0 a then [r] else [].
Proof. unfold entries_at, at_name. cbn. destruct (name_eqb a0 a); reflexivity. Qed.

(* what the three writes of the reference store do to the rdatasets of an owner a' *)
Lemma entries_at_drop a a' l :
  entries_at a' (filter (fun e => negb (at_name a e)) l) = if name_eqb a a' then [] else entries_at a' l.
Proof.
  rewrite (filter_ext _ (fun e => negb (at_name a e && (fun _ : rds => true) (e_rds e))))
    by (intros e; rewrite andb_true_r; reflexivity).
  rewrite (entries_at_filter a (fun _ : rds => true) a' l). destruct (name_eqb a a'); [|reflexivity].
  induction (entries_at a' l); cbn; auto.
Qed.

Lemma entries_at_del_rds a ty cov a' l :
  entries_at a' (filter (fun e => negb (at_key a ty cov e)) l) =
  if name_eqb a a' then filter (fun r => negb (rds_match r cIN ty cov)) (entries_at a l) else entries_at a' l.
Proof.
  unfold at_key. rewrite (entries_at_filter a (fun x => rds_match x cIN ty cov)).
  destruct (name_eqb a a') eqn:E; [rewrite <- (entries_at_congr a a' _ E)|]; reflexivity.
Qed.

Lemma entries_at_put a r a' l :
  swf l -> r_cls r = cIN ->
  entries_at a' (filter (fun e => negb (at_name a e &&
               (rds_match (e_rds e) (r_cls r) (r_ty r) (r_cov r) || evicts (classify_rds r) e))) l ++ [mkEntry a r]) =
  if name_eqb a a' then node_replace (entries_at a l) r else entries_at a' l.
Proof.
  intros Hwf Cr. rewrite entries_at_app, entries_at_single.
  set (q := fun x => rds_match x cIN (r_ty r) (r_cov r) || evicts_rds (classify_rds r) x).
  rewrite (filter_ext _ (fun e => negb (at_name a e && q (e_rds e))))
    by (intros e; unfold q; rewrite Cr; destruct (classify_rds r); reflexivity).
  rewrite entries_at_filter. destruct (name_eqb a a') eqn:E; [|apply app_nil_r].
  rewrite <- (entries_at_congr a a' _ E), node_replace_filter by (auto; apply Hwf). reflexivity.
Qed.

Lemma node_find_entries a l ty cov :
  node_find (entries_at a l) cIN ty cov =
  match find (at_key a ty cov) l with Some e => Some (e_rds e) | None => None end.
Proof.
  unfold entries_at, at_key. induction l as [|e l IH]; cbn [filter map find node_find]; [reflexivity|].
  destruct (at_name a e); cbn [andb map node_find].
  - destruct (rds_match (e_rds e) cIN ty cov); [reflexivity|exact IH].
  - exact IH.
Qed.

Lemma existsb_entries a l :
  existsb (at_name a) l = match entries_at a l with [] => false | _ => true end.
Proof.
  unfold entries_at. induction l as [|e l IH]; cbn [existsb filter map]; [reflexivity|].
  destruct (at_name a e); cbn [orb map]; [reflexivity|exact IH].
Qed.

Lemma opt_node_some l nd : opt_node l = Some nd -> l = nd /\ nd <> [].
Proof. destruct l; cbn; intros H; inversion H; subst. split; [reflexivity|discriminate]. Qed.

Lemma opt_node_none l : opt_node l = None -> l = [].
Proof. destruct l; cbn; [reflexivity|discriminate]. Qed.

Lemma opt_node_snoc l r : opt_node (l ++ [r]) = Some (l ++ [r]).
Proof. destruct l; reflexivity. Qed.

Lemma opt_node_replace nd r : opt_node (node_replace nd r) = Some (node_replace nd r).
Proof.
  unfold node_replace, node_append. destruct (node_delete _ _ _ _); [reflexivity|].
  destruct (classify_rds r); apply opt_node_snoc.
Qed.

(* the `changed` set of a version that has copied or deleted something is not empty *)
Lemma changed_has_ne (l : list name) k : changed_has l k = true -> l <> [].
Proof. intros H E. rewrite E in H. discriminate. Qed.

Lemma changed_add_ne (l : list name) k : changed_add l k <> [].
Proof. unfold changed_add. destruct (changed_has l k) eqn:E; [eapply changed_has_ne; eauto|destruct l; discriminate]. Qed.

Section Low.
  Variable c : cfg.
  Hypothesis W : wfc c.

  Lemma sim_node v s n : R c v s -> Valid n -> get_node c v n = r_node c s n.
  Proof.
    intros (Hm & _ & _) Vn. unfold get_node, r_node.
    pose proof (validate_canon c n W Vn) as VC.
    destruct (validate_name c n) as [k|e|e] eqn:Ev, (canon c n) as [a|e'|e'] eqn:Ec; try contradiction; cbn [bind].
    - rewrite (Hm n k a Vn Ev Ec). unfold opt_node. destruct (entries_at a (rs_entries s)); reflexivity.
    - cbn in VC. subst. reflexivity.
    - cbn in VC. subst. reflexivity.
  Qed.

  Lemma sim_get v s n ty cov : R c v s -> Valid n -> get_rdataset c v n ty cov = r_get c s n ty cov.
  Proof.
    intros HR Vn. unfold get_rdataset. rewrite (sim_node v s n HR Vn). unfold r_node, r_get.
    destruct (canon c n) as [a|e|e]; cbn [bind]; try reflexivity.
    rewrite <- node_find_entries. destruct (entries_at a (rs_entries s)); reflexivity.
  Qed.

  Lemma sim_exists v s n : R c v s -> Valid n -> s_exists (zstore c) v n = r_exists c s n.
  Proof.
    intros HR Vn. cbn [s_exists zstore]. rewrite (sim_node v s n HR Vn). unfold r_node, r_exists.
    destruct (canon c n) as [a|e|e]; cbn [bind]; try reflexivity.
    rewrite existsb_entries. destruct (entries_at a (rs_entries s)); reflexivity.
  Qed.

  (* what a stored rdataset looks like *)
  Lemma r_get_cls s n ty cov r : r_get c s n ty cov = Ok (Some r) -> r_cls r = cIN.
  Proof.
    unfold r_get. destruct (canon c n); cbn [bind]; try discriminate.
    destruct (find _ _) eqn:F; intros H; inversion H; subst.
    apply find_some in F. destruct F as [_ F]. unfold at_key in F. apply andb_true_iff in F.
    destruct F as [_ F]. eapply rds_match_cls; eauto.
  Qed.

  Lemma get_cls v n ty cov r : get_rdataset c v n ty cov = Ok (Some r) -> r_cls r = cIN.
  Proof.
    unfold get_rdataset, get_node. destruct (validate_name c n) as [k| |]; cbn [bind]; try discriminate.
    destruct (map_get (v_nodes v) k) as [nd|]; [|discriminate]. intros H; inversion H as [F].
    eapply node_find_cls; eauto.
  Qed.

  Lemma cow_spec v n k :
    validate_name c n = Ok k ->
    exists v1 nd,
      maybe_cow c v n = Ok (v1, nd, k) /\
      nd = match map_get (v_nodes v) k with Some x => x | None => [] end /\
      (forall k', map_get (v_nodes v1) k' = if name_eqb k k' then Some nd else map_get (v_nodes v) k') /\
      v_changed v1 <> [].
  Proof.
    intros Ev. unfold maybe_cow. rewrite Ev. cbn [bind].
    destruct (map_get (v_nodes v) k) as [nd|] eqn:G.
    - destruct (changed_has (v_changed v) k) eqn:Ch.
      + exists v, nd. split; [reflexivity|split; [reflexivity|split; [|eapply changed_has_ne; eauto]]].
        intros k'. destruct (name_eqb k k') eqn:E; [|reflexivity].
        rewrite <- (map_get_congr _ k k' E). exact G.
      + eexists _, nd. split; [reflexivity|split; [reflexivity|split; [intros k'; apply map_get_set|apply changed_add_ne]]].
    - eexists _, []. split; [reflexivity|split; [reflexivity|split; [intros k'; apply map_get_set|apply changed_add_ne]]].
  Qed.

  (* the node the version holds for an owner is the reference store's list for that owner *)
  Lemma node_is_entries v s n k a :
    R c v s -> Valid n -> validate_name c n = Ok k -> canon c n = Ok a ->
    match map_get (v_nodes v) k with Some x => x | None => [] end = entries_at a (rs_entries s).
  Proof.
    intros (Hm & _ & _) Vn Ev Ec. rewrite (Hm n k a Vn Ev Ec).
    destruct (entries_at a (rs_entries s)); reflexivity.
  Qed.

  (* ---------------------------------------------------------------- writing
     a write changes, on both sides, what one owner (key k, absolute name a) holds, to the same list nd' *)
  Lemma R_update v s k a m' l' nd' ch' :
    R c v s -> key_rel c k a -> ch' <> [] -> node_wf nd' ->
    (forall k', map_get m' k' = if name_eqb k k' then opt_node nd' else map_get (v_nodes v) k') ->
    (forall a', entries_at a' l' = if name_eqb a a' then nd' else entries_at a' (rs_entries s)) ->
    R c (mkVer m' ch') (mkRst l' true).
  Proof.
    intros (Hm & Hwf & _) KR Hch Wn Hm' Hl'. split; [|split]; cbn [v_nodes v_changed rs_entries rs_dirty].
    - intros n' k' a' Vn' Ev' Ec'.
      pose proof (validate_canon c n' W Vn') as VC'. rewrite Ev', Ec' in VC'. destruct VC' as (KR' & _).
      rewrite Hm', Hl', (key_rel_eqb c k a k' a' KR KR'). destruct (name_eqb a a'); [reflexivity|apply (Hm n' k' a' Vn' Ev' Ec')].
    - intros a'. rewrite Hl'. destruct (name_eqb a a'); [exact Wn|apply Hwf].
    - destruct ch'; congruence.
  Qed.

  Lemma sim_put v s n r :
    R c v s -> Valid n -> r_cls r = cIN -> res_rel (R c) (put_rdataset c v n r) (r_put c s n r).
  Proof.
    intros HR Vn Cr. unfold put_rdataset, r_put.
    pose proof (validate_canon c n W Vn) as VC.
    destruct (validate_name c n) as [k|e|e] eqn:Ev, (canon c n) as [a|e'|e'] eqn:Ec; try contradiction;
      try (unfold maybe_cow; rewrite Ev; cbn; exact VC).
    destruct VC as (KR & _).
    destruct (cow_spec v n k Ev) as (v1 & nd & -> & Hnd & Hget & Hch). cbn [bind res_rel].
    rewrite (node_is_entries v s n k a HR Vn Ev Ec) in Hnd. subst nd. pose proof HR as (_ & Hwf & _).
    apply (R_update v s k a _ _ (node_replace (entries_at a (rs_entries s)) r)); auto.
    - apply node_replace_wf; [apply Hwf|exact Cr].
    - intros k'. rewrite map_get_set, Hget, opt_node_replace. destruct (name_eqb k k'); reflexivity.
    - intros a'. apply entries_at_put; assumption.
  Qed.

  Lemma sim_del_rds v s n ty cov :
    R c v s -> Valid n -> res_rel (R c) (delete_rdataset c v n ty cov) (r_del_rds c s n ty cov).
  Proof.
    intros HR Vn. unfold delete_rdataset, r_del_rds.
    pose proof (validate_canon c n W Vn) as VC.
    destruct (validate_name c n) as [k|e|e] eqn:Ev, (canon c n) as [a|e'|e'] eqn:Ec; try contradiction;
      try (unfold maybe_cow; rewrite Ev; cbn; exact VC).
    destruct VC as (KR & _).
    destruct (cow_spec v n k Ev) as (v1 & nd & -> & Hnd & Hget & Hch). cbn [bind].
    rewrite (node_is_entries v s n k a HR Vn Ev Ec) in Hnd. subst nd. pose proof HR as (_ & Hwf & _).
    rewrite node_delete_filter by apply Hwf.
    set (nd' := filter (fun r => negb (rds_match r cIN ty cov)) (entries_at a (rs_entries s))).
    (* both branches of `if len(node) == 0` give the same map, observationally *)
    assert (exists m, (match nd' with
                       | [] => do m <- map_del (v_nodes v1) k; Ok (mkVer m (v_changed v1))
                       | _ => Ok (mkVer (map_set (v_nodes v1) k nd') (v_changed v1))
                       end) = Ok (mkVer m (v_changed v1)) /\
                      forall k', map_get m k' = if name_eqb k k' then opt_node nd' else map_get (v_nodes v) k') as (m & -> & Hm').
    { destruct nd' as [|x nd2] eqn:End.
      - unfold map_del, map_has. rewrite Hget, name_eqb_refl. cbn [bind].
        eexists. split; [reflexivity|]. intros k'. rewrite map_get_remove, Hget. destruct (name_eqb k k'); reflexivity.
      - eexists. split; [reflexivity|]. intros k'. rewrite map_get_set, Hget. destruct (name_eqb k k'); reflexivity. }
    cbn [res_rel]. apply (R_update v s k a _ _ nd'); auto.
    - apply node_wf_filter, Hwf.
    - intros a'. apply entries_at_del_rds.
  Qed.

  Lemma sim_del_name v s n :
    R c v s -> Valid n -> res_rel (R c) (delete_node c v n) (r_del_name c s n).
  Proof.
    intros HR Vn. unfold delete_node, r_del_name.
    pose proof (validate_canon c n W Vn) as VC.
    destruct (validate_name c n) as [k|e|e] eqn:Ev, (canon c n) as [a|e'|e'] eqn:Ec; try contradiction;
      try (cbn; exact VC).
    destruct VC as (KR & _). cbn [bind].
    unfold map_has. rewrite (proj1 HR n k a Vn Ev Ec), existsb_entries.
    destruct (entries_at a (rs_entries s)) as [|x nd] eqn:En; cbn [opt_node res_rel]; [exact HR|].
    apply (R_update v s k a _ _ []); auto using changed_add_ne, node_wf_nil.
    - intros k'. apply map_get_remove.
    - intros a'. apply entries_at_drop.
  Qed.

  (* published states: a node map and a reference list denote the same zone *)
  Definition RP (z : nmap) (l : list entry) : Prop := R c (mkVer z []) (mkRst l false).

  Lemma RP_nil : RP [] [].
  Proof.
    split; [|split]; cbn; auto.
    intros a. apply node_wf_nil.
  Qed.

  Lemma sim_begin z l b : RP z l -> R c (s_begin (zstore c) z b) (s_begin (rstore c) l b).
  Proof.
    intros H. cbn [s_begin zstore rstore]. destruct b; [apply RP_nil|exact H].
  Qed.

  Lemma sim_publish v s : R c v s -> RP (s_publish (zstore c) v) (s_publish (rstore c) s).
  Proof.
    intros (Hm & Hwf & _). split; [|split]; cbn; auto.
  Qed.

  Lemma sim_changed v s : R c v s -> s_changed (zstore c) v = s_changed (rstore c) s.
  Proof. intros (_ & _ & H). exact H. Qed.
End Low.
