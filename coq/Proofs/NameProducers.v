(* C01: every operation that produces a name returns a library exception or a name within the
   DNS limits; never a Python-level exception. *)
From DV Require Import Base.Prelude Model.NameM.
From DV Require Import Proofs.NameOrder Proofs.NameValid Proofs.NameRel Proofs.NameSucc Proofs.NameText Proofs.NameWire.
Open Scope Z_scope.

Definition good (r : res name) : Prop :=
  match r with Ok n => Valid n | Lib _ => True | Internal _ => False end.

Lemma mk_name_good ls : good (mk_name ls).
Proof.
  destruct (mk_name ls) as [m|e|e] eqn:E; cbn; auto.
  - apply mk_name_ok in E. destruct E as [-> V]. exact V.
  - eapply mk_name_never_internal; eauto.
Qed.

Lemma concatenate_good a b : good (concatenate a b).
Proof. unfold concatenate. destruct (_ && _); [exact Logic.I|apply mk_name_good]. Qed.

Lemma relativize_good n o : Valid n -> good (relativize n o).
Proof. intros V. unfold relativize. destruct (is_subdomain n o); [apply mk_name_good|exact V]. Qed.

Lemma derelativize_good n o : Valid n -> good (derelativize n o).
Proof. intros V. unfold derelativize. destruct (negb _); [apply concatenate_good|exact V]. Qed.

Lemma choose_relativity_good n o rel : Valid n -> good (choose_relativity n o rel).
Proof.
  intros V. unfold choose_relativity. destruct o as [[|x o]|]; try exact V.
  destruct rel; [apply relativize_good|apply derelativize_good]; exact V.
Qed.

Lemma parent_good n : good (parent n).
Proof. unfold parent. destruct (_ || _); [exact Logic.I|apply mk_name_good]. Qed.

Lemma split_good n d :
  Valid n ->
  match split n d with Ok (p, s) => Valid p /\ Valid s | Lib _ => True | Internal _ => False end.
Proof.
  intros V. unfold split.
  destruct (d =? 0); [split; [exact V|apply Valid_nil]|].
  destruct (d =? zlen n); [split; [apply Valid_nil|exact V]|].
  destruct (_ || _); [exact Logic.I|].
  pose proof (mk_name_good (drop_last (Z.to_nat d) n)) as G1.
  pose proof (mk_name_good (take_last (Z.to_nat d) n)) as G2.
  destruct (mk_name (drop_last _ n)); cbn [bind good] in *; auto.
  destruct (mk_name (take_last _ n)); cbn [bind good] in *; auto.
Qed.

Lemma from_text_good text origin : good (from_text text origin).
Proof.
  destruct (from_text text origin) as [m|e|e] eqn:E; cbn; auto.
  - apply (from_text_ok _ _ _ E).
  - eapply from_text_no_internal; eauto.
Qed.

Lemma from_wire_good wire start :
  match from_wire wire start with Ok (n, _) => Valid n | Lib _ => True | Internal _ => False end.
Proof.
  destruct (from_wire wire start) as [[m c]|e|e] eqn:E; auto.
  - apply from_wire_inv in E as (_ & _ & _ & V). exact V.
  - eapply from_wire_total; eauto.
Qed.

(* _handle_relativity_and_call returns a valid name when the wrapped function does on the names
   of the zone *)
Lemma handle_relativity_good f n o p :
  (forall m, Valid m -> is_absolute o = true -> is_subdomain m o = true -> good (f m o p)) ->
  Valid n -> good (handle_relativity f n o p).
Proof.
  intros F Vn. destruct (is_absolute o) eqn:Ao; [|unfold handle_relativity; rewrite Ao; exact Logic.I].
  rewrite handle_relativity_eq by exact Ao. destruct (is_absolute n).
  - destruct (is_subdomain n o) eqn:S; [apply F; auto|exact Logic.I].
  - destruct (mk_name (n ++ o)) as [m| |] eqn:M; cbn [bind];
      [|exact Logic.I|exact (mk_name_never_internal _ _ M)].
    apply mk_name_ok in M as [-> V].
    assert (good (f (n ++ o) o p)) as G
      by (apply F; auto; apply is_subdomain_suffix; [reflexivity|intros ->; discriminate]).
    destruct (f (n ++ o) o p); cbn [bind good] in *; auto. apply relativize_good, G.
Qed.

Theorem successor_good n o p : Valid n -> Valid o -> good (successor n o p).
Proof.
  intros Vn Vo. apply handle_relativity_good; [|exact Vn]. intros m Vm Ao S.
  destruct (absolute_successor_spec m o p Vm Vo Ao S) as (s & -> & V & _). exact V.
Qed.

Theorem predecessor_good n o p : Valid n -> Valid o -> good (predecessor n o p).
Proof.
  intros Vn Vo. apply handle_relativity_good; [|exact Vn]. intros m Vm Ao S.
  destruct (absolute_predecessor_ok m o p Vm Ao S) as (s & -> & V & _). exact V.
Qed.

(* dns.wire.Parser.get_name(origin) *)
Lemma parser_get_name_good wire start origin :
  match parser_get_name wire start origin with
  | Ok (n, _) => Valid n | Lib _ => True | Internal _ => False end.
Proof.
  unfold parser_get_name. pose proof (from_wire_good wire start) as G.
  destruct (from_wire wire start) as [[n c]|e|e]; cbn [bind fst snd]; auto.
  destruct origin as [[|x o]|]; try exact G.
  pose proof (relativize_good n (x :: o) G) as R.
  destruct (relativize n (x :: o)); cbn [bind good] in *; auto.
Qed.
