(* Render-then-parse for dynamic updates: zone section, prerequisite and update sections with the
   empty class-ANY/NONE forms, delete-an-RR form and ordinary records; one record per record set. *)
From DV Require Import Base.Prelude Model.NameM Model.MessageM.
From DV Require Import Proofs.NameOrder Proofs.NameValid Proofs.NameRel Proofs.NameWire Proofs.NameCompress.
From DV Require Import Proofs.MessageName Proofs.MessageRender Proofs.MessageRead Proofs.MessageRoundtrip Proofs.MessageRoundtrip2.
From DV Require Import Proofs.MessageSize Proofs.MessageTrunc Proofs.MessageRoundtrip3.
Open Scope Z_scope.

Section Upd.
Variable o : option name.
Hypothesis OO : org_ok o.
Variable zc : Z.      (* the zone class *)

Definition is_meta (c : Z) : bool := (c =? cANY) || (c =? cNONE).
Definition upd_del (d : rrd) : option Z := if is_meta (d_cl d) then Some (d_cl d) else None.
Definition upd_class (d : rrd) : Z := if is_meta (d_cl d) then zc else d_cl d.
Definition upd_empty (sec : Z) (d : rrd) : bool := is_meta (d_cl d) && ((d_cl d =? cANY) || (sec =? 1)).

Definition ugood (sec : Z) (d : rrd) : Prop :=
  d_ty d <> tOPT /\ d_ty d <> tTSIG /\
  if upd_empty sec d then d_fs d = [] /\ d_rd d = []
  else schema_of (upd_class d) (d_ty d) = Some (d_fs d) /\ 0 <= d_ttl d <= 2147483647.

Definition urrset (sec : Z) (d : rrd) : rrset :=
  if upd_empty sec d then mkRR (d_owner d) (upd_class d) (d_ty d) 0 (upd_del d) 0 []
  else rrset_add (mkRR (d_owner d) (upd_class d) (d_ty d) (rd_covers (d_ty d) (d_rd d)) (upd_del d) 0 [])
                 (d_rd d) (d_ttl d).

Definition apply_u (sec : Z) (m : msg) (d : rrd) : msg :=
  set_sec m sec (get_sec m sec ++ [urrset sec d]).

Lemma get_rr_upd w off abs' d end_ ext sec count i m z zs :
  RRreads o o w off abs' (d_owner d) (d_ty d) (d_cl d) (d_ttl d) (d_fs d) (d_rd d) end_ ->
  ugood sec d -> mq m = z :: zs -> rclass z = zc -> 1 <= sec <= 3 ->
  get_rr (w ++ ext) o po0 true sec count i off true m = Ok (end_, true, apply_u sec m d).
Proof.
  intros (c1 & rdl & A & B & C & D & E) (G1 & G2 & G3) HZ HC Hs.
  destruct (E ext) as (EH & ED). unfold get_rr. rewrite EH. cbn [bind].
  assert (E1 : (d_ty d =? tOPT) = false) by (apply Z.eqb_neq; assumption).
  assert (E2 : (d_ty d =? tTSIG) = false) by (apply Z.eqb_neq; assumption).
  rewrite !E1, !E2. cbn [orb]. unfold parse_rr_header. cbn [negb].
  assert (S0 : (sec =? 0) = false) by (apply Z.eqb_neq; lia). rewrite S0, HZ.
  unfold apply_u, urrset, upd_empty, upd_class, upd_del, is_meta in *. rewrite HC.
  destruct ((d_cl d =? cANY) || (d_cl d =? cNONE)) eqn:EM; [destruct ((d_cl d =? cANY) || (sec =? 1)) eqn:EE|];
    cbn [bind andb] in *.
  1:{ (* an empty form *)
      destruct G3 as (F1 & F2).
      specialize (ED []). rewrite F1, F2 in ED. cbn [dec_fields rev app] in ED. injection ED as ED.
      assert (rdl = 0)%nat by lia. subst rdl. cbn [Z.of_nat Z.gtb Z.compare].
      change (p_xfr po0) with false. cbn [andb orb]. unfold find_add.
      replace (c1 + 10)%nat with end_ by lia. reflexivity. }
  (* one record: of a meta class (delete an RR) or not *)
  all: destruct G3 as (HS & Httl); rewrite Nat2Z.id;
    (destruct (Nat.ltb_spec (length (w ++ ext) - (c1 + 10)) rdl); [rewrite app_length in *; lia|]);
    rewrite ?E1, ?E2; unfold dec_rdata; rewrite HS, A, ED; cbn [bind fst snd rev app]; rewrite Nat.eqb_refl; cbn [bind];
    rewrite ?E1, ?E2; (destruct (Z.gtb_spec (d_ttl d) 2147483647); [lia|]);
    change (p_xfr po0) with false; cbn [andb orb]; unfold find_add, rd_covers;
    destruct (is_sigtype (d_ty d)); reflexivity.
Qed.

Lemma apply_u_mq sec m d : 1 <= sec <= 3 -> mq (apply_u sec m d) = mq m.
Proof.
  intros H. unfold apply_u, set_sec. cbn [mq].
  destruct (Z.eqb_spec sec 0); [lia|reflexivity].
Qed.

Lemma get_section_chain_u w ext sec count z zs : 1 <= sec <= 3 -> rclass z = zc ->
  forall ds off end_ i m,
  Chain o w off ds end_ -> Forall (ugood sec) ds -> mq m = z :: zs ->
  get_section (w ++ ext) o po0 true sec count i (length ds) off true m
  = Ok (end_, true, fold_left (apply_u sec) ds m).
Proof.
  intros Hs HC. induction ds as [|d ds IH]; intros off end_ i m C O HZ.
  - inversion C; subst. reflexivity.
  - inversion C as [|? ? mid ? ? R C']; subst. inversion O as [|? ? G O']; subst.
    cbn [length get_section]. destruct R as (abs' & R).
    rewrite (get_rr_upd w off abs' d mid ext sec count i m z zs R G HZ HC Hs). cbn [bind].
    rewrite (IH mid end_ (S i) _ C' O'); [reflexivity|]. rewrite apply_u_mq by exact Hs. exact HZ.
Qed.
End Upd.

Section UpdRender.
Variable o : option name.
Hypothesis OO : org_ok o.
Variable zc : Z.

(* a record set of sections 1..3 of an update, in the normal form the reader produces *)
Definition wf_urrset (sec : Z) (rs : rrset) : Prop :=
  name_wf o (rname rs) /\ rtype rs <> tOPT /\ rtype rs <> tTSIG /\
  ((rrds rs = [] /\ rclass rs = zc /\ rcovers rs = 0 /\ rttl rs = 0 /\
    (rdeleting rs = Some cANY \/ (rdeleting rs = Some cNONE /\ sec = 1)))
   \/
   (exists rd fs, rrds rs = [rd] /\ schema_of (rclass rs) (rtype rs) = Some fs /\
                  Forall (piece_wf o) rd /\ shaped fs rd /\ 0 <= rttl rs <= 2147483647 /\
                  rd_covers (rtype rs) rd = rcovers rs /\
                  ((rdeleting rs = None /\ is_meta (rclass rs) = false)
                   \/ (rdeleting rs = Some cNONE /\ rclass rs = zc /\ sec <> 1)))).

Definition udesc (sec : Z) (rs : rrset) (d : rrd) : Prop :=
  ugood zc sec d /\ rrset_equiv (urrset zc sec d) rs.

(* the reader's normal form is a fixed point: from the class on the wire the reader recovers class and deleting *)
Lemma upd_fields sec rs own ttl fs rd' :
  wf_urrset sec rs ->
  let d := mkD own (rtype rs) (wclass rs) ttl fs rd' in
  upd_empty sec d = is_nil (rrds rs) /\ upd_class zc d = rclass rs /\ upd_del d = rdeleting rs.
Proof.
  intros (_ & _ & _ & K). unfold upd_empty, upd_class, upd_del, is_meta, wclass. cbn [d_cl].
  destruct K as [(E & EC & _ & _ & [D|(D & ->)])|(rd & fs0 & E & _ & _ & _ & _ & _ & [(D & M)|(D & EC & NS)])]; rewrite E, D; cbn [is_nil].
  - rewrite EC. auto.
  - rewrite EC. auto.
  - unfold is_meta in M. rewrite M. auto.
  - rewrite EC. change ((cNONE =? cANY) || (cNONE =? cNONE)) with true. change (cNONE =? cANY) with false.
    destruct (Z.eqb_spec sec 1); [contradiction|]. auto.
Qed.

(* either form is written as one RR, and any RR that differs from it in case only describes the record set and is
   written as the same RR *)
Lemma urrset_one sec rs c :
  wf_urrset sec rs ->
  exists ttl fs rd,
    (forall pos t, rrset_em rs o c pos t = rr_em (rname rs) (rtype rs) (wclass rs) ttl rd o o c c pos t) /\
    Forall (piece_wf o) rd /\ shaped fs rd /\ rrset_count rs = 1 /\
    forall owner' rd', ci_equal owner' (rname rs) -> rdata_ci rd' rd ->
      let d := mkD owner' (rtype rs) (wclass rs) ttl fs rd' in
      udesc sec rs d /\
      (forall pos t, rrset_em (urrset zc sec d) o c pos t = rr_em owner' (rtype rs) (wclass rs) ttl rd' o o c c pos t).
Proof.
  intros WF. pose proof WF as (_ & T1 & T2 & K).
  destruct K as [(E & EC & ECV & ETT & ED)|(rd & fs & E & HS & PO & SH & TTL & COV & ED)].
  - exists 0, [], []. split; [intros; unfold rrset_em; rewrite E; reflexivity|].
    split; [constructor|]. split; [exact sh_nil|]. split; [unfold rrset_count; rewrite E; reflexivity|].
    intros owner' rd' CI1 CI2. inversion CI2; subst.
    destruct (upd_fields sec rs owner' 0 [] [] WF) as (U1 & U2 & U3). rewrite E in U1. cbn [is_nil] in U1.
    unfold udesc, ugood, urrset. rewrite U1, U2, U3. cbn [d_ty d_fs d_rd d_owner].
    split; [split; [auto|]|reflexivity].
    unfold rrset_equiv. cbn [rname rclass rtype rcovers rdeleting rttl rrds]. rewrite E, ECV, ETT.
    repeat split; try reflexivity; [exact CI1|constructor].
  - exists (rttl rs), fs, rd. split; [intros; unfold rrset_em; rewrite E; apply rrs_em_one|].
    split; [exact PO|]. split; [exact SH|]. split; [unfold rrset_count; rewrite E; reflexivity|].
    intros owner' rd' CI1 CI2.
    destruct (upd_fields sec rs owner' (rttl rs) fs rd' WF) as (U1 & U2 & U3). rewrite E in U1. cbn [is_nil] in U1.
    unfold udesc, ugood, urrset. rewrite U1, U2, U3. cbn [d_ty d_fs d_rd d_owner d_ttl].
    unfold rrset_add. cbn [rrds rttl rtype rname rclass rcovers rdeleting set_rds existsb app].
    split; [split; [auto|]|intros; apply rrs_em_one].
    unfold rrset_equiv. cbn [rname rclass rtype rcovers rdeleting rttl rrds]. rewrite E.
    repeat split; try reflexivity; [exact CI1|rewrite (rd_covers_ci _ _ _ CI2); exact COV|constructor; [exact CI2|constructor]].
Qed.

Lemma urrset_em_chain sec rs file t em t' :
  TableSound file t -> wf_urrset sec rs ->
  rrset_em rs o true (zlen file) t = Ok (em, t') ->
  TableSound (file ++ em) t' /\
  exists d, Chain o (file ++ em) (length file) [d] (length (file ++ em)) /\ udesc sec rs d /\ rrset_count rs = 1 /\
    (forall tq, tbl_ci tq t ->
       exists tq', rrset_em (urrset zc sec d) o true (zlen file) tq = Ok (em, tq') /\ tbl_ci tq' t').
Proof.
  intros TS WF H. pose proof WF as (NW & _).
  destruct (name_wf_full o (rname rs) OO NW) as (Lown & HFo & NOL).
  destruct (urrset_one sec rs true WF) as (ttl & fs & rd & EM & PO & SH & Hc & BACK). rewrite EM in H.
  destruct (rr_em_read_o o fs (rname rs) Lown (rtype rs) (wclass rs) ttl rd true true file t em t' OO TS NW HFo NOL PO SH H)
    as (TS1 & absn & x & X & rd' & CI1 & _ & HFX & SX & CI2 & _ & _ & RR & RE1).
  destruct (BACK x rd' CI1 CI2) as (UD & EM').
  split; [exact TS1|]. exists (mkD x (rtype rs) (wclass rs) ttl fs rd').
  split; [econstructor; [exists absn; exact RR|constructor; lia]|]. split; [exact UD|]. split; [exact Hc|].
  intros tq TC. destruct (RE1 tq x X TC HFX SX) as (tq' & E1 & TC'). exists tq'. rewrite EM'. auto.
Qed.

Lemma rr_chain_u sec : 1 <= sec <= 3 -> forall l r r' file,
  zlen file = zlen (out r) -> TableSound file (tbl r) -> TblBelow r -> Forall (wf_urrset sec) l ->
  tracks (map (rr_step o sec) l) r = Ok (false, r') ->
  exists em ds,
    out r' = out r ++ em /\ TableSound (file ++ em) (tbl r') /\ TblBelow r' /\
    Chain o (file ++ em) (length file) ds (length (file ++ em)) /\ Forall2 (udesc sec) l ds /\
    count_of r' sec = count_of r sec + zlen ds /\
    (forall s, 0 <= s <= 3 -> s <> sec -> count_of r' s = count_of r s) /\
    rsec r <= rsec r' <= Z.max (rsec r) sec /\
    (forall l2 tq, l2 = map (urrset zc sec) ds -> tbl_ci tq (tbl r) ->
       exists tq', tracks (map (rr_step o sec) l2) (with_tbl r tq) = Ok (false, with_tbl r' tq') /\ tbl_ci tq' (tbl r')).
Proof.
  intros Hsec. apply (sec_chain sec ltac:(lia) rrd (Chain o) (rr_step o sec) (wf_urrset sec)
                                (fun l ds => Forall2 (udesc sec) l ds) (fun _ ds l2 => l2 = map (urrset zc sec) ds)).
  - intros. constructor. assumption.
  - intros w more off xs1 mid xs2 end_ C1 C2. exact (Chain_app o _ _ _ _ _ _ (Chain_app_w o _ _ _ _ _ C1) C2).
  - reflexivity.
  - intros rs. apply ext_rrset_em.
  - constructor.
  - intros l2 ->. reflexivity.
  - intros rs l file t em t' W1 TS HE.
    destruct (urrset_em_chain sec rs file t em t' TS W1 HE) as (TS' & d & CH & UD & Hc & RE).
    split; [exact TS'|]. exists [d]. split; [exact CH|]. split; [exact Hc|]. split; [intros; constructor; assumption|].
    intros xs2 l2 ->. eexists _, _. split; [reflexivity|]. split; [reflexivity|]. split; [|exact RE].
    cbn [s_n rr_step]. rewrite Hc. destruct UD as ((_ & _ & G) & _). unfold urrset.
    destruct (upd_empty sec d); reflexivity.
Qed.

End UpdRender.

Section UpdMsg.
Variable o : option name.
Hypothesis OO : org_ok o.

Record WfUpd (m : msg) (z : rrset) : Prop := mkWfU {
  wu_update : (opcode_from_flags (mflags m) =? 5) = true;
  wu_zone : mq m = [z];
  wu_zname : name_wf o (rname z);
  wu_ztype : rtype z = tSOA;
  wu_zclass : is_metaclass (rclass z) = false;
  wu_an : Forall (wf_urrset o (rclass z) 1) (man m);
  wu_au : Forall (wf_urrset o (rclass z) 2) (mau m);
  wu_ad : Forall (wf_urrset o (rclass z) 3) (mad m);
  wu_opt : match mopt m with Some oo => opts_ok (oopts oo) /\ name_wf o [[]] | None => True end }.

Definition read_result_u (zc id fl : Z) (q : qd) (ds1 ds2 ds3 : list rrd) (oo : option optrec)
           (t : option (name * rdata)) : msg :=
  let m1 := add_q (mkMsg id fl [] [] [] [] None None) q in
  let m2 := fold_left (apply_u zc 1) ds1 m1 in
  let m3 := fold_left (apply_u zc 2) ds2 m2 in
  let m4 := fold_left (apply_u zc 3) ds3 m3 in
  let m5 := match oo with Some o' => set_opt m4 o' | None => m4 end in
  match t with Some (kn, rd) => set_tsig m5 kn rd | None => m5 end.

Lemma fold_apply_u_eq zc sec ds : 0 <= sec <= 3 -> forall m,
  fold_left (apply_u zc sec) ds m = set_sec m sec (get_sec m sec ++ map (urrset zc sec) ds).
Proof.
  intros Hs. induction ds as [|d ds IH]; intros m; cbn [fold_left map].
  - rewrite app_nil_r. symmetry. apply set_get_sec. exact Hs.
  - rewrite IH. unfold apply_u. rewrite get_set_sec, set_set_sec, <- app_assoc by exact Hs. reflexivity.
Qed.

Lemma read_structure_u zc id fl q ds1 ds2 ds3 (oo : option optrec) (t : option (name * rdata)) owner' wb body
      (e0 e1 e2 e3 e4 : nat) :
  let w := hdr_bytes id fl 1 (zlen ds1) (zlen ds2) (zlen ds3 + opt_count oo + opt_count t) ++ body in
  0 <= id <= 65535 -> 0 <= fl <= 65535 -> zlen ds1 <= 65535 -> zlen ds2 <= 65535 ->
  zlen ds3 + opt_count oo + opt_count t <= 65535 ->
  (opcode_from_flags fl =? 5) = true ->
  QChain o w 12 [q] e0 -> q_ty q = tSOA -> is_metaclass (q_cl q) = false -> q_cl q = zc ->
  Chain o w e0 ds1 e1 -> Chain o w e1 ds2 e2 -> Chain o w e2 ds3 e3 ->
  Forall (ugood zc 1) ds1 -> Forall (ugood zc 2) ds2 -> Forall (ugood zc 3) ds3 ->
  match oo with
  | Some o' => (exists abs', RRreads o o w e3 abs' owner' tOPT (opayload o') (oflags o') [FRest] [PB wb] e4) /\
               ci_equal owner' [[]] /\ opts_wire (oopts o') = Ok wb /\ opts_ok (oopts o')
  | None => e4 = e3
  end ->
  match t with
  | Some (kn', rd') => exists x, RRreads o None w e4 kn' x tTSIG cANY 0 tsig_fs rd' (length w)
  | None => e4 = length w
  end ->
  from_wire w o po0 = Ok (read_result_u zc id fl q ds1 ds2 ds3 oo t).
Proof.
  intros w Hid Hfl H1 H2 H3 Hop QC QT QM QZ C1 C2 C3 O1 O2 O3 HO HT.
  pose proof (zlen_nonneg ds1). pose proof (zlen_nonneg ds2). pose proof (zlen_nonneg ds3).
  assert (Hoc : 0 <= opt_count oo) by (destruct oo; cbn; lia).
  assert (Htc : 0 <= opt_count t) by (destruct t; cbn; lia).
  apply from_wire_ok; try lia. fold w. change (Z.to_nat 1) with 1%nat. rewrite !zlen_to_nat.
  (* the zone section *)
  set (m0 := mkMsg id fl [] [] [] [] None None).
  assert (GQ : get_question w o true 1 12 m0 = Ok (e0, add_q m0 q)).
  { inversion QC as [|? ? mid ? ? R QC']; subst. inversion QC'; subst. cbn [get_question].
    destruct R as (_ & _ & R). destruct (R []) as (c1 & Hc & Hn & Ht & Hcl). rewrite app_nil_r in *.
    rewrite Hn. cbn [bind fst snd]. rewrite Ht, Hcl. cbn [bind].
    unfold parse_rr_header. cbn [negb Z.eqb]. rewrite QM, QT. change (tSOA =? tSOA) with true.
    cbn [negb orb mq m0 bind]. replace (c1 + 4)%nat with e0 by lia. unfold add_q, qrec, find_add. rewrite ?QT. reflexivity. }
  set (m1 := add_q m0 q) in *.
  assert (Z1 : mq m1 = [qrec q]) by reflexivity.
  assert (QZ' : rclass (qrec q) = zc) by exact QZ.
  pose proof (get_section_chain_u o zc w [] 1 (length ds1) (qrec q) [] ltac:(lia) QZ' ds1 e0 e1 0%nat m1 C1 O1 Z1) as G1.
  set (m2 := fold_left (apply_u zc 1) ds1 m1) in *.
  assert (Z2 : mq m2 = [qrec q]) by (unfold m2; rewrite fold_apply_u_eq by lia; reflexivity).
  pose proof (get_section_chain_u o zc w [] 2 (length ds2) (qrec q) [] ltac:(lia) QZ' ds2 e1 e2 0%nat m2 C2 O2 Z2) as G2.
  set (m3 := fold_left (apply_u zc 2) ds2 m2) in *.
  assert (Z3 : mq m3 = [qrec q]) by (unfold m3; rewrite fold_apply_u_eq by lia; exact Z2).
  pose proof (fun count => get_section_chain_u o zc w [] 3 count (qrec q) [] ltac:(lia) QZ' ds3 e2 e3 0%nat m3 C3 O3 Z3) as G3.
  assert (HM : mopt (fold_left (apply_u zc 3) ds3 m3) = None) by (unfold m3, m2; rewrite !fold_apply_u_eq by lia; reflexivity).
  rewrite app_nil_r in G1, G2, G3.
  exact (read_body_sections o true w id fl 1 _ _ (length ds3) oo t owner' wb e0 e1 e2 e3 e4 m1 m2 m3 _ Hop GQ G1 G2 G3 HM HO HT).
Qed.
End UpdMsg.

Section UpdFinal.
Variable o : option name.
Hypothesis OO : org_ok o.

Lemma udesc_lists zc sec : 1 <= sec <= 3 -> forall l ds, Forall2 (udesc zc sec) l ds ->
  Forall (ugood zc sec) ds /\ Forall2 rrset_equiv (map (urrset zc sec) ds) l.
Proof.
  intros Hs. induction 1 as [|rs d l ds (G & E) _ (IH1 & IH2)]; [split; constructor|].
  split; [constructor; assumption|]. cbn [map]. constructor; assumption.
Qed.

Lemma read_result_u_fields zc id fl q ds1 ds2 ds3 oo t :
  let m' := read_result_u zc id fl q ds1 ds2 ds3 oo t in
  mid m' = id /\ mflags m' = fl /\ mq m' = [qrec q] /\
  man m' = map (urrset zc 1) ds1 /\ mau m' = map (urrset zc 2) ds2 /\ mad m' = map (urrset zc 3) ds3 /\
  mopt m' = oo /\ mtsig m' = t.
Proof.
  unfold read_result_u. rewrite !fold_apply_u_eq by lia.
  destruct oo as [[]|]; destruct t as [[kn rd]|]; repeat split; reflexivity.
Qed.

(* dynamic updates: zone section, prerequisites and updates in all their forms (RRset exists value
   independent / dependent, name in use / not in use, RRset does not exist; add, delete an RRset,
   delete all RRsets of a name, delete an RR), additional records, EDNS and TSIG *)
Theorem update_parse_lemma pad m z ms rp w :
  WfUpd o m z -> wf_tsig m -> to_wire m o ms rp false pad = Ok w ->
  exists m', from_wire w o po0 = Ok m' /\ msg_equiv_p pad m' m /\ (pad = 0 -> to_wire m' o ms rp false 0 = Ok w).
Proof.
  intros [WU WZ WN WT WC WA WUu WD WO] WTS H.
  set (zc := rclass z) in *.
  assert (WQ : Forall (fun rs => name_wf o (rname rs)) (mq m)) by (rewrite WZ; constructor; [exact WN|constructor]).
  destruct (layout_final_p o OO (wf_urrset o zc) (fun sec l ds => Forall2 (udesc zc sec) l ds)
                         (fun sec (l : list rrset) ds l2 => l2 = map (urrset zc sec) ds) (rr_chain_u o OO zc)
                         pad m ms rp w WQ WA WUu WD WO WTS H)
    as (qs & ds1 & ds2 & ds3 & owner' & wb & body & e0 & e1 & e2 & e3 & e4 & t' & Ew & Hid & Hfl & L0 & L1 & L2 & L3 &
        QC & C1 & C2 & C3 & QD & SD1 & SD2 & SD3 & HO0 & HT & TE & _ & RR).
  destruct (opt_read_rel o pad (mopt m) w owner' wb e3 e4 HO0) as (oo & OR & OC & O0 & HO). rewrite <- OC in *. clear HO0.
  rewrite WZ in QD. inversion QD as [|? q ? qs' (Q1 & Q2 & Q3 & Q4) QD']; subst. inversion QD'; subst.
  destruct (udesc_lists zc 1 ltac:(lia) _ _ SD1) as (G1 & E1).
  destruct (udesc_lists zc 2 ltac:(lia) _ _ SD2) as (G2 & E2).
  destruct (udesc_lists zc 3 ltac:(lia) _ _ SD3) as (G3 & E3).
  exists (read_result_u zc (mid m) (mflags m) q ds1 ds2 ds3 oo t').
  destruct (read_result_u_fields zc (mid m) (mflags m) q ds1 ds2 ds3 oo t') as (X1 & X2 & X3 & X4 & X5 & X6 & X7 & X8).
  split; [|split].
  - change (zlen [q]) with 1 in *.
    eapply (read_structure_u o zc); try eassumption.
    + rewrite Q3. exact WT.
    + rewrite Q4. exact WC.
  - unfold msg_equiv_p. rewrite X1, X2, X3, X4, X5, X6, X7, X8, WZ. do 2 (split; [reflexivity|]).
    split; [|auto 10]. constructor; [|constructor].
    unfold q_equiv. cbn [rname rclass rtype rcovers rdeleting rttl rrds qrec]. auto 10.
  - intros Hp. apply (RR Hp); try assumption. rewrite X7. exact (O0 Hp).
Qed.
End UpdFinal.
