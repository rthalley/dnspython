(* C10: what the stores are made of - results, dicts keyed by Name, the rdataset algebra, Node list surgery
   (delete / append / replace as filters on a well-formed node). *)
From DV Require Import Base.Prelude Model.NameM Model.TxnM Proofs.ListFacts.
From DV Require Import Proofs.NameValid Proofs.NameOrder Proofs.NameRel Proofs.TxnName.
Open Scope Z_scope.

Definition res_rel {A B} (R : A -> B -> Prop) (x : res A) (y : res B) : Prop :=
  match x, y with
  | Ok a, Ok b => R a b
  | Lib e, Lib e' => e = e'
  | Internal e, Internal e' => e = e'
  | _, _ => False
  end.

Lemma res_rel_bind {A B A' B'} (R : A -> B -> Prop) (R' : A' -> B' -> Prop) x y f g :
  res_rel R x y -> (forall a b, R a b -> res_rel R' (f a) (g b)) -> res_rel R' (bind x f) (bind y g).
Proof. destruct x, y; cbn; intros H K; try contradiction; auto. Qed.

Lemma res_rel_eq {A} (x y : res A) : res_rel eq x y <-> x = y.
Proof. destruct x, y; cbn; split; intros H; try congruence; try contradiction; inversion H; auto. Qed.

(* ---------------------------------------------------------------- dicts keyed by Name
   The node map of a version (map_get / map_set / map_remove), the map of node-object ids (amap_get ...) and
   the B-tree zone's map (bmap_get, bmap_remove) are the same association list at three value types. *)
Section Keyed.
  Context {V : Type}.

  Fixpoint kget (m : list (name * V)) (k : name) : option V :=
    match m with
    | [] => None
    | (k', v) :: r => if name_eqb k' k then Some v else kget r k
    end.

  Fixpoint kset (m : list (name * V)) (k : name) (v : V) : list (name * V) :=
    match m with
    | [] => [(k, v)]
    | (k', v') :: r => if name_eqb k' k then (k', v) :: r else (k', v') :: kset r k v
    end.

  Fixpoint kremove (m : list (name * V)) (k : name) : list (name * V) :=
    match m with
    | [] => []
    | (k', v) :: r => if name_eqb k' k then kremove r k else (k', v) :: kremove r k
    end.

  Lemma kget_congr m k k' : name_eqb k k' = true -> kget m k = kget m k'.
  Proof.
    intros H. induction m as [|[k0 v] m IH]; [reflexivity|]. cbn [kget].
    rewrite (name_eqb_trans_r k0 k k' H), IH. reflexivity.
  Qed.

  Lemma kget_set m k0 v k : kget (kset m k0 v) k = if name_eqb k0 k then Some v else kget m k.
  Proof.
    induction m as [|[k' v'] m IH]; cbn [kset kget]; [reflexivity|].
    destruct (name_eqb k' k0) eqn:E0; cbn [kget].
    - rewrite (name_eqb_trans_l k' k0 k E0). destruct (name_eqb k0 k); reflexivity.
    - rewrite IH. destruct (name_eqb k' k) eqn:E1; [|reflexivity]. rewrite (name_eqb_other k' k0 k E0 E1). reflexivity.
  Qed.

  Lemma kget_remove m k0 k : kget (kremove m k0) k = if name_eqb k0 k then None else kget m k.
  Proof.
    induction m as [|[k' v'] m IH]; cbn [kremove kget]; [destruct (name_eqb k0 k); reflexivity|].
    destruct (name_eqb k' k0) eqn:E0; cbn [kget]; rewrite IH.
    - rewrite (name_eqb_trans_l k' k0 k E0). destruct (name_eqb k0 k); reflexivity.
    - destruct (name_eqb k' k) eqn:E1; [|reflexivity]. rewrite (name_eqb_other k' k0 k E0 E1). reflexivity.
  Qed.
End Keyed.

Lemma map_get_congr m k k' : name_eqb k k' = true -> map_get m k = map_get m k'.
Proof. exact (kget_congr m k k'). Qed.

Lemma map_get_set m k0 v k :
  map_get (map_set m k0 v) k = if name_eqb k0 k then Some v else map_get m k.
Proof. exact (kget_set m k0 v k). Qed.

Lemma map_get_remove m k0 k :
  map_get (map_remove m k0) k = if name_eqb k0 k then None else map_get m k.
Proof. exact (kget_remove m k0 k). Qed.

Lemma map_has_set m k v : map_has (map_set m k v) k = true.
Proof. unfold map_has. rewrite map_get_set, name_eqb_refl. reflexivity. Qed.

(* a key that was just set: setting it again overwrites, removing it removes *)
Lemma map_set_set m k x y : map_set (map_set m k x) k y = map_set m k y.
Proof.
  induction m as [|[k' v'] m IH]; cbn [map_set]; [rewrite name_eqb_refl; reflexivity|].
  destruct (name_eqb k' k) eqn:E; cbn [map_set]; rewrite E; [reflexivity|rewrite IH; reflexivity].
Qed.

Lemma map_remove_set m k x : map_remove (map_set m k x) k = map_remove m k.
Proof.
  induction m as [|[k' v'] m IH]; cbn [map_set map_remove]; [rewrite name_eqb_refl; reflexivity|].
  destruct (name_eqb k' k) eqn:E; cbn [map_remove]; rewrite E; [reflexivity|rewrite IH; reflexivity].
Qed.

(* writing the node that is already there does not change the map *)
Lemma map_set_same m k x : map_get m k = Some x -> map_set m k x = m.
Proof.
  induction m as [|[k' v'] m IH]; cbn [map_get map_set]; [discriminate|].
  destruct (name_eqb k' k); [intros H; inversion H; reflexivity|intros H; rewrite (IH H); reflexivity].
Qed.

Lemma existsb_ext {A} (f g : A -> bool) l : (forall x, f x = g x) -> existsb f l = existsb g l.
Proof. intros H. induction l; cbn; [reflexivity|]. rewrite H, IHl. reflexivity. Qed.

(* ---------------------------------------------------------------- rdatasets
   update_ttl touches the TTL only, adding records the items only: class, type and covers are those of
   the rdataset one started from *)
Lemma update_ttl_set r t : exists t', update_ttl r t = set_ttl r t'.
Proof. unfold update_ttl. destruct (r_items r); [|destruct (t <? r_ttl r)]; eauto. exists (r_ttl r). destruct r; reflexivity. Qed.

Lemma fold_add_set l : forall x, exists l', fold_left rds_add l x = set_items x l'.
Proof.
  induction l as [|y l IH]; intros x; cbn [fold_left]; [exists (r_items x); destruct x; reflexivity|].
  destruct (IH (rds_add x y)) as [l' ->]. eexists. reflexivity.
Qed.

Lemma rds_union_set e r : exists t' l', rds_union e r = mkRds (r_cls e) (r_ty e) (r_cov e) t' l'.
Proof.
  unfold rds_union. destruct (update_ttl_set e (r_ttl r)) as [t' ->]. destruct (fold_add_set (r_items r) (set_ttl e t')) as [l' ->].
  eexists _, _. reflexivity.
Qed.

Lemma rds_union_cls e r : r_cls (rds_union e r) = r_cls e.
Proof. destruct (rds_union_set e r) as (t' & l' & ->). reflexivity. Qed.

Definition tkey (r : rds) : Z * Z := (r_ty r, r_cov r).
Definition node_wf (nd : node) : Prop := NoDup (map tkey nd) /\ Forall (fun r => r_cls r = cIN) nd.

Definition evicts_rds (k : nkind) (x : rds) : bool :=
  match k with
  | KCname => nkind_eqb (classify_rds x) KRegular
  | KRegular => nkind_eqb (classify_rds x) KCname
  | KNeutral => false
  end.

Lemma rds_match_tkey r ty cov : r_cls r = cIN -> rds_match r cIN ty cov = true <-> tkey r = (ty, cov).
Proof.
  intros C. unfold rds_match, tkey. rewrite C, Z.eqb_refl. cbn [andb].
  rewrite andb_true_iff, !Z.eqb_eq. split; [intros [-> ->]; reflexivity|intros H; inversion H; auto].
Qed.

Lemma rds_match_cls r cls ty cov : rds_match r cls ty cov = true -> r_cls r = cls.
Proof. unfold rds_match. rewrite !andb_true_iff, !Z.eqb_eq. tauto. Qed.

Lemma node_find_cls nd cls ty cov r : node_find nd cls ty cov = Some r -> r_cls r = cls.
Proof.
  induction nd as [|x nd IH]; cbn [node_find]; [discriminate|].
  destruct (rds_match x cls ty cov) eqn:M; [intros H; inversion H; subst; eapply rds_match_cls; eauto|exact IH].
Qed.

Lemma node_wf_nil : node_wf [].
Proof. split; constructor. Qed.

Lemma node_wf_tail r nd : node_wf (r :: nd) -> node_wf nd.
Proof. intros [H1 H2]. inversion H1; inversion H2; subst. split; auto. Qed.

Lemma node_wf_filter p nd : node_wf nd -> node_wf (filter p nd).
Proof.
  intros [H1 H2]. split.
  - induction nd as [|r nd IH]; cbn; [constructor|].
    inversion H1; inversion H2; subst. destruct (p r); cbn; auto.
    constructor; auto. intros Hin. apply H3. apply in_map_iff in Hin. destruct Hin as (x & E & Hx).
    apply filter_In in Hx. apply in_map_iff. exists x. tauto.
  - apply Forall_forall. intros x Hx. apply filter_In in Hx. eapply Forall_forall in H2; [exact H2|tauto].
Qed.

Lemma filter_nomatch nd ty cov :
  Forall (fun r => r_cls r = cIN) nd -> ~ In (ty, cov) (map tkey nd) ->
  filter (fun r => negb (rds_match r cIN ty cov)) nd = nd.
Proof.
  induction nd as [|x nd IH]; intros F H; [reflexivity|]. cbn [filter].
  inversion F; subst.
  destruct (rds_match x cIN ty cov) eqn:Mx; cbn [negb].
  - exfalso. apply (rds_match_tkey x ty cov H2) in Mx. apply H. left. exact Mx.
  - f_equal. apply IH; auto. intros Hin. apply H. right. exact Hin.
Qed.

(* list.remove of the (unique) match = dropping every match *)
Lemma node_delete_filter nd ty cov :
  node_wf nd -> node_delete nd cIN ty cov = filter (fun r => negb (rds_match r cIN ty cov)) nd.
Proof.
  induction nd as [|r nd IH]; intros W; [reflexivity|]. cbn [node_delete filter].
  destruct W as [W1 W2]. inversion W1; inversion W2; subst.
  destruct (rds_match r cIN ty cov) eqn:M; cbn [negb].
  - symmetry. apply filter_nomatch; [exact H6|].
    apply (rds_match_tkey r ty cov H5) in M. rewrite <- M. exact H1.
  - f_equal. apply IH. split; auto.
Qed.

Lemma node_append_filter nd r :
  node_append nd r = filter (fun x => negb (evicts_rds (classify_rds r) x)) nd ++ [r].
Proof.
  unfold node_append. destruct nd as [|x nd]; [reflexivity|].
  destruct (classify_rds r); cbn [evicts_rds]; try reflexivity.
  f_equal. symmetry. rewrite (filter_ext _ (fun _ => true)) by reflexivity.
  clear. generalize (x :: nd). induction l; cbn; congruence.
Qed.

Lemma node_replace_filter nd r :
  node_wf nd -> r_cls r = cIN ->
  node_replace nd r =
  filter (fun x => negb (rds_match x cIN (r_ty r) (r_cov r) || evicts_rds (classify_rds r) x)) nd ++ [r].
Proof.
  intros W C. unfold node_replace. rewrite C, node_delete_filter by exact W.
  rewrite node_append_filter, filter_filter. f_equal. apply filter_ext. intros x.
  rewrite negb_orb. apply andb_comm.
Qed.

Lemma node_replace_wf nd r : node_wf nd -> r_cls r = cIN -> node_wf (node_replace nd r).
Proof.
  intros W C. rewrite node_replace_filter by assumption.
  pose proof (node_wf_filter (fun x => negb (rds_match x cIN (r_ty r) (r_cov r) || evicts_rds (classify_rds r) x)) nd W) as [F1 F2].
  split.
  - rewrite map_app. cbn [map]. apply NoDup_snoc; [exact F1|].
    intros Hin. apply in_map_iff in Hin. destruct Hin as (x & E & Hx). apply filter_In in Hx. destruct Hx as [Hx Hp].
    apply negb_true_iff, orb_false_iff in Hp. destruct Hp as [Hp _].
    assert (rds_match x cIN (r_ty r) (r_cov r) = true); [|congruence].
    apply rds_match_tkey; [|exact E]. destruct W as [_ W2]. eapply Forall_forall in W2; eauto.
  - apply Forall_app. split; [exact F2|constructor; auto].
Qed.
