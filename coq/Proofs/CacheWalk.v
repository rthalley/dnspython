(* C17 - the ring as the harness observes it: walking .next from the sentinel visits exactly the
   recency list, walking .prev visits its reverse, and prev (next n) = n on the ring. *)
From Coq Require Import Sorting.Sorted.
From DV Require Import Base.Prelude Model.CacheM Model.CacheSpecM Proofs.CacheRing Proofs.CacheDict Proofs.CacheLru
  Proofs.CacheSpec Proofs.CacheThm.

(* the pointer a walk in direction dir follows *)
Definition ptr (dir : bool) (s : store) (i : nat) : option nat := if dir then nxt s i else prv s i.

(* following ptr dir from the head of l visits l and then arrives at e *)
Fixpoint chain (dir : bool) (s : store) (e : nat) (l : list nat) : Prop :=
  match l with
  | [] => True
  | x :: r => ptr dir s x = Some (hd e r) /\ chain dir s e r
  end.

Lemma chain_snoc : forall dir s e x l,
  chain dir s x l -> ptr dir s x = Some e -> chain dir s e (l ++ [x]).
Proof.
  induction l as [|y l IH]; cbn; [auto|]. intros [H1 H2] Hx. split; [|auto].
  destruct l; exact H1.
Qed.

(* a path is a chain of next pointers one way and of prev pointers the other way *)
Lemma path_chain : forall s l a b, path s a l b ->
  chain true s b (a :: l) /\ chain false s a (b :: rev l).
Proof.
  induction l as [|x r IH]; intros a b; cbn [path rev].
  - intros [H1 H2]. cbn. auto.
  - intros [[H1 H2] H]. destruct (IH _ _ H) as [F Bk]. split; [split; [exact H1|exact F]|].
    rewrite app_comm_cons. apply chain_snoc; assumption.
Qed.

Lemma walk_chain : forall dir s l fuel,
  chain dir s sentinel l -> ~ In sentinel l -> (length l < fuel)%nat ->
  walk fuel s dir (hd sentinel l) = Some l.
Proof.
  intros dir s. induction l as [|x r IH]; intros [|f] Hc Hn Hf; try (cbn in Hf; lia); [reflexivity|].
  destruct Hc as [Hx Hr]. cbn [walk hd].
  destruct (Nat.eqb_spec x sentinel) as [->|_]; [exfalso; apply Hn; left; reflexivity|].
  assert (H : exists n, sget s x = Some n /\ (if dir then n_next n else n_prev n) = hd sentinel r)
    by (destruct dir; [apply nxt_some|apply prv_some]; exact Hx).
  destruct H as (n & -> & ->).
  rewrite IH; [reflexivity|exact Hr|intros H; apply Hn; right; exact H|cbn in Hf; lia].
Qed.

Lemma ring_ids_chain : forall dir s l,
  chain dir s sentinel (sentinel :: l) -> ~ In sentinel l -> (length l <= length s)%nat ->
  ring_ids s dir = Some l.
Proof.
  intros dir s l [H0 Hc] Hn Hf.
  assert (H : exists n, sget s sentinel = Some n /\ (if dir then n_next n else n_prev n) = hd sentinel l)
    by (destruct dir; [apply nxt_some|apply prv_some]; exact H0).
  destruct H as (n & Hs & Hp). unfold ring_ids. rewrite Hs, Hp. apply walk_chain; [exact Hc|exact Hn|lia].
Qed.

Lemma cyc_prev_next : forall s m n, cyc s m -> In n m ->
  exists x, nxt s n = Some x /\ prv s x = Some n /\ In x m.
Proof.
  intros s m n Hc Hin. apply in_split in Hin. destruct Hin as [l1 [l2 ->]].
  apply cyc_rot in Hc. cbn [app cyc] in Hc.
  exists (hd n (l2 ++ l1)). destruct (l2 ++ l1) as [|x r] eqn:E; cbn [path hd] in *.
  - destruct Hc. repeat split; auto. apply in_or_app. right. left. auto.
  - destruct Hc as [[H1 H2] _]. repeat split; auto.
    assert (Hx : In x (l2 ++ l1)) by (rewrite E; left; auto).
    apply in_app_or in Hx. apply in_or_app. destruct Hx; [right; right; auto|left; auto].
Qed.

Lemma ring_walks : forall c a zs, R c a zs ->
  ring_ids (l_store c) true = Some (map fst zs) /\
  ring_ids (l_store c) false = Some (rev (map fst zs)).
Proof.
  intros c a zs HR. pose proof (R_cyc _ _ _ HR) as Hc. pose proof (R_nodup _ _ _ HR) as Hnd.
  pose proof (ring_fits_store _ _ Hc Hnd) as Hfit. cbn [length] in Hfit.
  destruct (path_chain _ _ _ _ Hc) as [F Bk]. apply NoDup_cons_iff in Hnd. destruct Hnd as [Hn0 _].
  split; apply ring_ids_chain; auto; try lia.
  - rewrite <- in_rev. exact Hn0.
  - rewrite rev_length. lia.
Qed.

(* the ring invariant, of every state that represents a specification state *)
Lemma ring_invariant_R : forall c a zs, R c a zs ->
  ring_ids (l_store c) true = Some (map fst zs) /\
  ring_ids (l_store c) false = Some (rev (map fst zs)) /\
  NoDup (sentinel :: map fst zs) /\
  (forall n, In n (sentinel :: map fst zs) ->
     exists x, nxt (l_store c) n = Some x /\ prv (l_store c) x = Some n /\ In x (sentinel :: map fst zs)) /\
  length (map fst zs) = length (l_dict c) /\
  (forall key i, dget (l_dict c) key = Some i ->
     In i (map fst zs) /\ exists nd, sget (l_store c) i = Some nd /\ n_key nd = Some key).
Proof.
  intros c a zs HR. destruct (ring_walks _ _ _ HR) as [W1 W2].
  split; [exact W1|]. split; [exact W2|]. split; [apply (R_nodup _ _ _ HR)|].
  split; [|split].
  - intros n Hn. eapply cyc_prev_next; [apply (R_cyc _ _ _ HR)|exact Hn].
  - rewrite map_length. symmetry. apply (R_len _ _ _ HR).
  - intros key i Hd. rewrite (R_dict _ _ _ HR) in Hd.
    destruct (zfind key zs) as [z|] eqn:Ez; [|discriminate]. injection Hd as <-.
    destruct (R_node _ _ _ _ _ HR Ez) as (Hin & nd & Hg & Hk & _).
    split; [apply in_map, Hin|eauto].
Qed.

Lemma ring_invariant_l : forall m t0 its g w, mono its -> lru_reach m t0 its g w ->
  exists ids,
    ring_ids (l_store (fst w)) true = Some ids /\
    ring_ids (l_store (fst w)) false = Some (rev ids) /\
    NoDup (sentinel :: ids) /\
    (forall n, In n (sentinel :: ids) ->
       exists x, nxt (l_store (fst w)) n = Some x /\ prv (l_store (fst w)) x = Some n /\ In x (sentinel :: ids)) /\
    length ids = length (l_dict (fst w)) /\
    (forall key i, dget (l_dict (fst w)) key = Some i ->
       In i ids /\ exists nd, sget (l_store (fst w)) i = Some nd /\ n_key nd = Some key).
Proof.
  intros m t0 its g w Hm Hr. destruct (reach_inv _ _ _ _ _ Hm Hr) as (a & zs & HR & _).
  exists (map fst zs). exact (ring_invariant_R _ _ _ HR).
Qed.

(* the ring, read through the node keys, is the recency list: most recently used first *)
Lemma ring_sorted_R : forall c a zs h, R c a zs -> recency_ok h (akeys (a_list a)) ->
  Forall2 (fun i k => exists nd, sget (l_store c) i = Some nd /\ n_key nd = Some k) (map fst zs) (map zkey zs) /\
  StronglySorted (younger h) (map zkey zs) /\
  (forall k, In k (map zkey zs) <-> has c k = true).
Proof.
  intros c a zs h HR [HS _]. split; [|split].
  - pose proof (R_nodes _ _ _ HR) as Hn. clear -Hn. induction zs as [|z zs IH]; cbn; [constructor|].
    apply Forall_cons_iff in Hn. destruct Hn as [Hz Hn]. constructor; [|auto].
    destruct (node_val _ z Hz) as [nd [Hg [Hk _]]]. eauto.
  - rewrite (R_list _ _ _ HR) in HS. unfold akeys in HS. rewrite map_map in HS. exact HS.
  - intros k. rewrite (has_R _ _ _ k HR), ahas_in, (R_list _ _ _ HR). unfold akeys. rewrite map_map. tauto.
Qed.

Lemma ring_sorted_l : forall m t0 its g w, mono its -> lru_reach m t0 its g w ->
  exists ids keys,
    ring_ids (l_store (fst w)) true = Some ids /\
    Forall2 (fun i k => exists nd, sget (l_store (fst w)) i = Some nd /\ n_key nd = Some k) ids keys /\
    StronglySorted (younger (snd g)) keys /\
    (forall k, In k keys <-> has (fst w) k = true).
Proof.
  intros m t0 its g w Hm Hr.
  destruct (reach_inv _ _ _ _ _ Hm Hr) as (a & zs & HR & HA).
  exists (map fst zs), (map zkey zs).
  split; [apply (ring_walks _ _ _ HR)|exact (ring_sorted_R _ _ _ _ HR (A_recency _ _ _ HA))].
Qed.
