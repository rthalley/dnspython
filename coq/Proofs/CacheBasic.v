(* C17 - step-local facts about Cache and LRUCache lookups. *)
From DV Require Import Base.Prelude Model.CacheM Proofs.ListFacts.

Lemma tick_now : forall k t k', tick k = (t, k') -> now k' = t.
Proof. unfold tick. intros k t k'. destruct (pend k); intros [= <- <-]; reflexivity. Qed.

(* a lookup only ever returns an answer whose expiration is strictly after the clock reading it
   compared against, and that reading is the last one the call made (now of the resulting clock) *)
Lemma cache_get_fresh : forall key c k v c' k',
  cache_step (Get key) c k = Ok (RAns v, c', k') -> now k' < a_exp v.
Proof.
  intros key c k v c' k'. unfold cache_step.
  destruct (maybe_clean c k) as [c1 k1].
  destruct (dget (c_data c1) key) as [v0|]; [|discriminate].
  destruct (tick k1) as [t k2] eqn:Et.
  destruct (Z.leb_spec (a_exp v0) t); [discriminate|].
  intros [= <- _ <-]. rewrite (tick_now _ _ _ Et). lia.
Qed.

(* the same for the LRUCache, whose lookup also relinks the node: whatever the intermediate
   stores are, an answer comes out of the unexpired branch only *)
Lemma lru_get_fresh : forall key c k v c' k',
  lru_step (Get key) c k = Ok (RAns v, c', k') -> now k' < a_exp v.
Proof.
  intros key c k v c' k'. unfold lru_step.
  destruct (dget (l_dict c) key) as [i|]; [|discriminate]. intros H.
  apply bind_ok in H as (s1 & _ & H). apply bind_ok in H as (n & _ & H).
  destruct (n_val n) as [v0|]; [|discriminate].
  destruct (tick k) as [t k1] eqn:Et.
  destruct (Z.leb_spec (a_exp v0) t).
  - apply bind_ok in H as (st1 & _ & H). discriminate.
  - apply bind_ok in H as (s2 & _ & H). apply bind_ok in H as (n2 & _ & H).
    apply bind_ok in H as (s3 & _ & H). injection H as <- _ <-. rewrite (tick_now _ _ _ Et). lia.
Qed.
