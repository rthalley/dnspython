(* C08: with prefer_truncation the result is the rendering of a prefix (in section order) of the
   record sets, with TC set exactly when the cut lies before the additional section, and with
   the configured OPT and TSIG records. *)
From DV Require Import Base.Prelude Model.NameM Model.MessageM.
From DV Require Import Proofs.ListFacts Proofs.NameOrder Proofs.NameValid Proofs.NameRel Proofs.NameWire Proofs.NameCompress.
From DV Require Import Proofs.MessageName Proofs.MessageRender Proofs.MessageSize.
Open Scope Z_scope.

(* states that agree on everything but the current section and the header flags *)
Definition req (a b : rst) : Prop :=
  out a = out b /\ tbl a = tbl b /\ cq a = cq b /\ can a = can b /\ cau a = cau b /\ cad a = cad b /\
  maxsz a = maxsz b /\ reserved a = reserved b /\ padded a = padded b.

Lemma req_refl a : req a a.
Proof. unfold req. repeat split; reflexivity. Qed.

Lemma tracked_req E sec n a b ba a' :
  req a b -> rsec b <= sec -> tracked E sec n a = Ok (ba, a') ->
  exists b', tracked E sec n b = Ok (ba, b') /\ req a' b' /\
             rsec a' = sec /\ rsec b' = sec /\ rflags a' = rflags a /\ rflags b' = rflags b.
Proof.
  intros (E1 & E2 & E3 & E4 & E5 & E6 & E7 & E8 & E9) Hb H. unfold tracked in *.
  apply bind_ok in H. destruct H as (a1 & Sa & H). apply set_section_spec in Sa. destruct Sa as (-> & _).
  rewrite (set_section_le _ _ Hb). cbn [bind out tbl set_rsec] in *. rewrite <- E1, <- E2.
  destruct (E (zlen (out a)) (tbl a)) as [[em t']| |]; cbn [bind fst snd] in *; try discriminate.
  unfold track_end in *. cbn [out set_out maxsz set_rsec] in *. rewrite <- E7.
  destruct (zlen (out a ++ em) >? maxsz a); injection H as <- <-; (eexists; split; [reflexivity|]);
    unfold req, rollback; cbn [out tbl cq can cau cad maxsz reserved padded rsec rflags inc_count set_out set_rsec];
    rewrite ?E3, ?E4, ?E5, ?E6; repeat split; try reflexivity; try assumption; congruence.
Qed.

Lemma tracks_req : forall l a b ba a',
  req a b -> rsec a = rsec b -> tracks l a = Ok (ba, a') ->
  exists b', tracks l b = Ok (ba, b') /\ req a' b' /\ rsec a' = rsec b' /\ rflags a' = rflags a /\ rflags b' = rflags b.
Proof.
  induction l as [|s l IH]; intros a b ba a' R Hs H.
  - injection H as <- <-. exists b. auto.
  - cbn [tracks] in *. apply bind_ok in H. destruct H as ([b1 a1] & H1 & H). unfold run_step in *.
    assert (Hb : rsec b <= s_sec s).
    { unfold tracked in H1. apply bind_ok in H1. destruct H1 as (x & S & _). apply set_section_spec in S. lia. }
    destruct (tracked_req _ _ _ _ _ _ _ R Hb H1) as (b1' & T & R' & S1 & S2 & F1 & F2).
    rewrite T. cbn [bind fst snd] in *. destruct b1.
    + injection H as <- <-. exists b1'. split; [reflexivity|]. split; [exact R'|]. repeat split; congruence.
    + destruct (IH _ _ _ _ R' ltac:(congruence) H) as (b' & T' & R'' & S' & F1' & F2').
      exists b'. split; [exact T'|]. split; [exact R''|]. repeat split; congruence.
Qed.

Lemma tracks_cut : forall l r r',
  tracks l r = Ok (true, r') ->
  exists l1 s l3 rc, l = l1 ++ s :: l3 /\ tracks l1 r = Ok (false, rc) /\ run_step s rc = Ok (true, r').
Proof.
  induction l as [|s l IH]; intros r r' H; [discriminate|].
  cbn [tracks] in H. apply bind_ok in H. destruct H as ([b1 r1] & H1 & H). cbn [fst snd] in H. destruct b1.
  - injection H as <-. exists [], s, l, r. auto.
  - destruct (IH _ _ H) as (l1 & s' & l3 & rc & -> & A & B).
    exists (s :: l1), s', l3, rc. split; [reflexivity|]. split; [|exact B].
    cbn [tracks]. rewrite H1. exact A.
Qed.

(* the tail of Message.to_wire on states that agree *)
Lemma write_header_req id a b a' :
  req a b -> rflags a = rflags b -> write_header id a = Ok a' ->
  exists b', write_header id b = Ok b' /\ req a' b' /\ out a' = out b' /\
             rsec a' = rsec a /\ rsec b' = rsec b /\ rflags a' = rflags a /\ rflags b' = rflags b.
Proof.
  intros (E1 & E2 & E3 & E4 & E5 & E6 & E7 & E8 & E9) EF H. apply write_header_iff in H. destruct H as (R & ->).
  eexists. split; [apply write_header_iff; split; [rewrite <- EF, <- E3, <- E4, <- E5, <- E6; exact R|reflexivity]|].
  unfold req. cbn [out tbl cq can cau cad maxsz reserved padded rsec rflags set_out].
  rewrite <- EF, <- E1, <- E2, <- E3, <- E4, <- E5, <- E6. repeat split; assumption.
Qed.

Lemma add_opt_req o opt pad x y a b ba a' :
  req a b -> rsec b <= 3 -> add_opt o opt pad x y a = Ok (ba, a') ->
  exists b', add_opt o opt pad x y b = Ok (ba, b') /\ req a' b' /\ rsec a' = 3 /\ rsec b' = 3 /\
             rflags a' = rflags a /\ rflags b' = rflags b.
Proof.
  intros R Hb H. rewrite add_opt_tracked in *. rewrite <- (proj1 R).
  apply bind_ok in H. destruct H as (rs & HR & H). rewrite HR. cbn [bind].
  assert (R' : req (if pad =? 0 then a else set_padded a) (if pad =? 0 then b else set_padded b)).
  { destruct (pad =? 0); [exact R|]. destruct R as (F1 & F2 & F3 & F4 & F5 & F6 & F7 & F8 & F9). unfold req.
    cbn [out tbl cq can cau cad maxsz reserved padded set_padded]. repeat split; assumption. }
  destruct (tracked_req _ _ _ _ _ _ _ R' ltac:(destruct (pad =? 0); exact Hb) H) as (b' & T & Rb & S1 & S2 & F1 & F2).
  exists b'. destruct (pad =? 0); auto 10.
Qed.

Lemma write_tsig_req o kn rd a b ba a' :
  req a b -> rsec b <= 3 -> write_tsig o kn rd a = Ok (ba, a') ->
  exists b', write_tsig o kn rd b = Ok (ba, b') /\ req a' b' /\ rsec a' = 3 /\ rsec b' = 3 /\
             rflags a' = rflags a /\ rflags b' = rflags b.
Proof.
  intros R Hb H. rewrite write_tsig_eq in *. pose proof R as (_ & _ & _ & _ & _ & _ & _ & _ & E9).
  rewrite <- E9.
  apply bind_ok in H. destruct H as ([b1 a1] & H1 & H).
  destruct (tracked_req _ _ _ _ _ _ _ R Hb H1) as (b1' & T & R' & S1 & S2 & F1 & F2).
  rewrite T. cbn [bind fst snd] in *. destruct b1.
  - injection H as <- <-. exists b1'. split; [reflexivity|]. split; [exact R'|]. auto.
  - destruct R' as (G1 & G2 & G3 & G4 & G5 & G6 & G7 & G8 & G9). rewrite <- G6, <- G1, <- G2.
    destruct (pack16 (cad a1)); cbn [bind] in *; try discriminate. injection H as <- <-.
    eexists. split; [reflexivity|]. unfold req.
    cbn [out tbl cq can cau cad maxsz reserved padded rsec rflags set_out].
    repeat split; try reflexivity; assumption.
Qed.

Lemma req_release a b : req a b -> req (release_reserved a) (release_reserved b).
Proof.
  intros (E1 & E2 & E3 & E4 & E5 & E6 & E7 & E8 & E9). unfold req, release_reserved.
  cbn [out tbl cq can cau cad maxsz reserved padded set_limits]. rewrite E7, E8. repeat split; try reflexivity; assumption.
Qed.

Lemma finish_req m origin pad x y a b ra :
  req a b -> rsec b <= 3 -> rflags a = rflags b ->
  finish m origin pad x y a = Ok ra ->
  exists rb, finish m origin pad x y b = Ok rb /\ out ra = out rb.
Proof.
  intros R Hb EF H. apply finish_iff in H. destruct H as (a5 & a6 & A5 & A6 & H).
  assert (X5 : exists b5, match mopt m with
                          | Some oo => add_opt origin oo pad x y (release_reserved b) = Ok (false, b5)
                          | None => b5 = release_reserved b
                          end /\ req a5 b5 /\ rsec b5 <= 3 /\ rflags a5 = rflags b5).
  { destruct (mopt m) as [oo|].
    - destruct (add_opt_req _ _ _ _ _ _ _ _ _ (req_release _ _ R) Hb A5) as (b5 & T & R' & S1 & S2 & F1 & F2).
      exists b5. split; [exact T|]. split; [exact R'|].
      cbn [rflags release_reserved set_limits] in F1, F2. split; [lia|congruence].
    - subst a5. exists (release_reserved b). split; [reflexivity|]. split; [apply req_release; exact R|].
      cbn [rsec rflags release_reserved set_limits]. auto. }
  destruct X5 as (b5 & B5 & R5 & Sb5 & F5).
  destruct (write_header_req _ _ _ _ R5 F5 A6) as (b6 & B6 & R6 & O6 & Sa6 & Sb6 & Fa6 & Fb6).
  destruct (mtsig m) as [[kn rd]|] eqn:ET.
  - destruct H as (a7 & A7 & H).
    destruct (write_tsig_req _ _ _ _ _ _ _ R6 ltac:(lia) A7) as (b7 & B7 & R7 & S1 & S2 & F1 & F2).
    destruct (write_header_req _ _ _ _ R7 ltac:(congruence) H) as (b8 & B8 & _ & O8 & _).
    exists b8. split; [|exact O8]. apply finish_iff. exists b5, b6. rewrite ET. split; [exact B5|]. split; [exact B6|]. exists b7. auto.
  - subst ra. exists b6. split; [|exact O6]. apply finish_iff. exists b5, b6. rewrite ET. auto.
Qed.

Definition cut_msg (m : msg) (fl : Z) (q a u d : list rrset) : msg :=
  mkMsg (mid m) fl q a u d (mopt m) (mtsig m).

Definition is_nil {A} (l : list A) : bool := match l with [] => true | _ => false end.
Definition cut_before (q2 a2 u2 : list rrset) : bool := negb (is_nil q2 && is_nil a2 && is_nil u2).

Lemma req_set r s f : req (set_rflags (set_rsec r s) f) r.
Proof. unfold req. repeat split; reflexivity. Qed.
Lemma req_set2 r s : req (set_rsec r s) r.
Proof. unfold req. repeat split; reflexivity. Qed.

(* Message.to_wire without prefer_truncation, over any list of section steps and with flags fl in the
   header: the reserves of m, the steps, TooBig if one does not fit, the tail of m *)
Definition render_steps (m : msg) (o : option name) (e pad fl : Z) (l : list step) : res (list Z) :=
  do r <- (do ts <- start m e pad;
           do b4 <- tracks l (set_rflags (snd ts) fl);
           do r3 <- overflow false b4;
           finish m o pad (compute_opt_reserve m pad) (fst ts) r3);
  Ok (out r).

Lemma cut_run m fl q a u d o ms rp pad :
  to_wire (cut_msg m fl q a u d) o ms rp false pad
  = render_steps m o (eff_limit ms rp) pad fl (secs_steps o q a u d).
Proof.
  unfold to_wire, render_steps. rewrite to_wire_st_eq.
  assert (ST : start (cut_msg m fl q a u d) (eff_limit ms rp) pad
               = do ts <- start m (eff_limit ms rp) pad; Ok (fst ts, set_rflags (snd ts) fl)).
  { unfold start. change (compute_opt_reserve (cut_msg m fl q a u d) pad) with (compute_opt_reserve m pad).
    change (compute_tsig_reserve (cut_msg m fl q a u d)) with (compute_tsig_reserve m).
    unfold reserve at 1 3. cbn [maxsz rst0].
    destruct (_ <? 0); [reflexivity|]. destruct (_ >? _); [reflexivity|]. cbn [bind].
    destruct (compute_tsig_reserve m) as [tr| |]; cbn [bind]; try reflexivity.
    unfold reserve. cbn [maxsz set_limits rst0]. destruct (tr <? 0); [reflexivity|]. destruct (tr >? _); reflexivity. }
  rewrite ST. destruct (start m (eff_limit ms rp) pad) as [[tr r2]| |]; reflexivity.
Qed.

(* where a prefix of the section loops ends *)
Lemma map_app_cut {A B} (f : A -> B) : forall (xs : list A) (rest l1 l3 : list B) s,
  map f xs ++ rest = l1 ++ s :: l3 ->
  (exists x1 x x3, xs = x1 ++ x :: x3 /\ l1 = map f x1 /\ s = f x) \/
  (exists l1', l1 = map f xs ++ l1' /\ rest = l1' ++ s :: l3).
Proof.
  induction xs as [|x xs IH]; intros rest l1 l3 s H; [right; exists l1; auto|].
  destruct l1 as [|b l1]; cbn [map app] in H; injection H as <- H.
  - left. exists [], x, xs. auto.
  - destruct (IH _ _ _ _ H) as [(x1 & y & x3 & -> & -> & ->)|(l1' & -> & ->)].
    + left. exists (x :: x1), y, x3. auto.
    + right. exists l1'. auto.
Qed.

Lemma secs_steps_cut o q a u d l1 s l3 :
  secs_steps o q a u d = l1 ++ s :: l3 ->
  exists q1 q2 a1 a2 u1 u2 d1 d2,
    q = q1 ++ q2 /\ a = a1 ++ a2 /\ u = u1 ++ u2 /\ d = d1 ++ d2 /\
    (q2 <> [] -> a1 = [] /\ u1 = [] /\ d1 = []) /\ (a2 <> [] -> u1 = [] /\ d1 = []) /\ (u2 <> [] -> d1 = []) /\
    l1 = secs_steps o q1 a1 u1 d1 /\ cut_before q2 a2 u2 = (s_sec s <? 3) /\
    (forall rs l, q2 = rs :: l -> secs_steps o (q1 ++ [rs]) [] [] [] = l1 ++ [s]) /\
    (forall rs l, q2 = [] -> a2 = rs :: l -> secs_steps o q1 (a1 ++ [rs]) [] [] = l1 ++ [s]) /\
    (forall rs l, q2 = [] -> a2 = [] -> u2 = rs :: l -> secs_steps o q1 a1 (u1 ++ [rs]) [] = l1 ++ [s]) /\
    (forall rs l, q2 = [] -> a2 = [] -> u2 = [] -> d2 = rs :: l -> secs_steps o q1 a1 u1 (d1 ++ [rs]) = l1 ++ [s]).
Proof.
  unfold secs_steps. intros H.
  apply map_app_cut in H. destruct H as [(q1 & rs & q3 & -> & -> & ->)|(l1a & -> & H)].
  { exists q1, (rs :: q3), [], a, [], u, [], d. cbn [app map]. rewrite !app_nil_r.
    repeat split; try reflexivity; try discriminate.
    intros rs' l E. injection E as <- <-. rewrite map_app. cbn [map app]. rewrite ?app_nil_r, <- ?app_assoc. reflexivity. }
  apply map_app_cut in H. destruct H as [(a1 & rs & a3 & -> & -> & ->)|(l1b & -> & H)].
  { exists q, [], a1, (rs :: a3), [], u, [], d. cbn [app map]. rewrite !app_nil_r.
    repeat split; try reflexivity; try discriminate; try congruence.
    intros rs' l _ E. injection E as <- <-. rewrite map_app. cbn [map app]. rewrite ?app_nil_r, <- ?app_assoc. reflexivity. }
  apply map_app_cut in H. destruct H as [(u1 & rs & u3 & -> & -> & ->)|(l1c & -> & H)].
  { exists q, [], a, [], u1, (rs :: u3), [], d. cbn [app map]. rewrite !app_nil_r.
    repeat split; try reflexivity; try discriminate; try congruence.
    intros rs' l _ _ E. injection E as <- <-. rewrite map_app. cbn [map app]. rewrite ?app_nil_r, <- ?app_assoc. reflexivity. }
  rewrite <- (app_nil_r (map _ d)) in H.
  apply map_app_cut in H. destruct H as [(d1 & rs & d3 & -> & -> & ->)|(l1d & _ & H)]; [|destruct l1d; discriminate].
  exists q, [], a, [], u, [], d1, (rs :: d3). rewrite !app_nil_r.
  repeat split; try reflexivity; try discriminate; try congruence.
  intros rs' l _ _ _ E. injection E as <- <-. rewrite map_app. cbn [map app]. rewrite ?app_nil_r, <- ?app_assoc. reflexivity.
Qed.

Lemma secs_steps_sec o q a u d : Forall (fun s => s_sec s <= 3) (secs_steps o q a u d).
Proof.
  unfold secs_steps. rewrite !Forall_app, !Forall_map.
  repeat split; apply Forall_forall; intros rs _; cbn [s_sec q_step rr_step]; lia.
Qed.

(* prefer_truncation over the flat list of section steps: the result is the rendering of the longest
   prefix of the steps that fits - the step after it, appended, gives TooBig - with TC set exactly when
   that step lies before the additional section *)
Theorem trunc_steps_maximal m origin ms rp pad w :
  to_wire m origin ms rp true pad = Ok w ->
  exists l1 l2, body_steps origin m = l1 ++ l2 /\
    render_steps m origin (eff_limit ms rp) pad
      (match l2 with [] => mflags m | s :: _ => if s_sec s <? 3 then Z.lor (mflags m) fTC else mflags m end) l1 = Ok w /\
    (forall s l3, l2 = s :: l3 -> render_steps m origin (eff_limit ms rp) pad (mflags m) (l1 ++ [s]) = Lib eTooBig).
Proof.
  intros H.
  destruct (to_wire_stages _ _ _ _ _ _ _ H) as (r & tr & r2 & b4 & s4 & r3 & -> & ST & S4 & R3 & FIN & I2 & _).
  assert (F2 : set_rflags r2 (mflags m) = r2) by (apply start_iff in ST; destruct ST as (_ & _ & _ & ->); reflexivity).
  unfold render_steps. rewrite ST. cbn [bind fst snd]. destruct b4.
  - (* some step did not fit *)
    destruct (tracks_cut _ _ _ S4) as (l1 & s & l3 & rc & EL & A & B).
    exists l1, (s :: l3). split; [exact EL|]. split.
    2:{ intros s' l3' E. injection E as <- _. rewrite F2, tracks_app, A. cbn [bind fst snd tracks]. rewrite B. reflexivity. }
    (* the state at the cut: what did not fit was rolled back *)
    pose proof (secs_steps_ext origin (mq m) (man m) (mau m) (mad m)) as X. fold (body_steps origin m) in X. rewrite EL in X.
    apply Forall_app in X. destruct X as (X1 & Xs). apply Forall_inv in Xs.
    pose proof (secs_steps_sec origin (mq m) (man m) (mau m) (mad m)) as Hs. fold (body_steps origin m) in Hs. rewrite EL in Hs.
    apply Forall_app in Hs. destruct Hs as (_ & Hs). apply Forall_inv in Hs.
    destruct (tracks_SInv _ _ _ _ _ X1 I2 A) as (_ & _ & TBc & _).
    destruct (tracks_keeps _ _ _ _ A) as (_ & _ & _ & Fc & _).
    destruct (tracked_spec _ _ _ _ _ _ Xs TBc B) as (Hrc & em & new & _ & _ & [(Hb & _)|(_ & _ & ->)]); [discriminate|].
    unfold overflow in R3. cbn [fst snd rsec rflags set_rsec] in R3. injection R3 as <-.
    match type of FIN with finish _ _ _ _ _ ?x = _ => set (r3 := x) in * end.
    assert (FL2 : rflags r2 = mflags m) by (rewrite <- F2; reflexivity).
    set (fl := if s_sec s <? 3 then Z.lor (mflags m) fTC else mflags m).
    (* the prefix runs through the same states, up to the flags *)
    destruct (tracks_req _ r2 (set_rflags r2 fl) _ _ (req_refl _) eq_refl A) as (rc' & A' & R' & S' & _ & F').
    cbn [rflags set_rflags] in F'.
    assert (Rq : req r3 rc').
    { destruct R' as (G1 & G2 & G3 & G4 & G5 & G6 & G7 & G8 & G9). unfold r3, req.
      destruct (s_sec s <? 3); cbn [out tbl cq can cau cad maxsz reserved padded set_rflags set_rsec]; repeat split; assumption. }
    assert (EF : rflags r3 = rflags rc').
    { rewrite F'. unfold r3, fl. destruct (s_sec s <? 3); cbn [rflags set_rflags set_rsec]; congruence. }
    destruct (finish_req _ _ _ _ _ _ _ _ Rq ltac:(rewrite <- S'; lia) EF FIN) as (rb & FB & ->).
    rewrite A'. unfold overflow. cbn [bind fst snd]. rewrite FB. reflexivity.
  - (* everything fitted *)
    injection R3 as <-. exists (body_steps origin m), []. rewrite app_nil_r. split; [reflexivity|]. split; [|discriminate].
    rewrite F2, S4. unfold overflow. cbn [bind fst snd]. rewrite FIN. reflexivity.
Qed.

(* the same in terms of the four sections: truncation is maximal, the first record set that was left out
   really did not fit *)
Theorem trunc_prefix_maximal_lemma m origin ms rp pad w :
  to_wire m origin ms rp true pad = Ok w ->
  exists q1 q2 a1 a2 u1 u2 d1 d2,
    mq m = q1 ++ q2 /\ man m = a1 ++ a2 /\ mau m = u1 ++ u2 /\ mad m = d1 ++ d2 /\
    (q2 <> [] -> a1 = [] /\ u1 = [] /\ d1 = []) /\ (a2 <> [] -> u1 = [] /\ d1 = []) /\ (u2 <> [] -> d1 = []) /\
    to_wire (cut_msg m (if cut_before q2 a2 u2 then Z.lor (mflags m) fTC else mflags m) q1 a1 u1 d1)
            origin ms rp false pad = Ok w /\
    (forall rs l3, q2 = rs :: l3 ->
       to_wire (cut_msg m (mflags m) (q1 ++ [rs]) [] [] []) origin ms rp false pad = Lib eTooBig) /\
    (forall rs l3, q2 = [] -> a2 = rs :: l3 ->
       to_wire (cut_msg m (mflags m) q1 (a1 ++ [rs]) [] []) origin ms rp false pad = Lib eTooBig) /\
    (forall rs l3, q2 = [] -> a2 = [] -> u2 = rs :: l3 ->
       to_wire (cut_msg m (mflags m) q1 a1 (u1 ++ [rs]) []) origin ms rp false pad = Lib eTooBig) /\
    (forall rs l3, q2 = [] -> a2 = [] -> u2 = [] -> d2 = rs :: l3 ->
       to_wire (cut_msg m (mflags m) q1 a1 u1 (d1 ++ [rs])) origin ms rp false pad = Lib eTooBig).
Proof.
  intros H. destruct (trunc_steps_maximal _ _ _ _ _ _ H) as (l1 & [|s l3] & EL & R & TOO).
  - exists (mq m), [], (man m), [], (mau m), [], (mad m), []. rewrite !app_nil_r. rewrite app_nil_r in EL. subst l1.
    repeat (split; [reflexivity || congruence|]). split; [rewrite cut_run; exact R|repeat split; discriminate].
  - specialize (TOO s l3 eq_refl).
    destruct (secs_steps_cut _ _ _ _ _ _ _ _ EL) as (q1 & q2 & a1 & a2 & u1 & u2 & d1 & d2 & EQ & EA & EU & ED & C1 & C2 & C3 & -> & CB & M1 & M2 & M3 & M4).
    exists q1, q2, a1, a2, u1, u2, d1, d2. do 7 (split; [assumption|]).
    split; [rewrite cut_run, CB; exact R|].
    split; [intros rs l E; rewrite cut_run, (M1 rs l E); exact TOO|].
    split; [intros rs l E1 E2; rewrite cut_run, (M2 rs l E1 E2); exact TOO|].
    split; [intros rs l E1 E2 E3; rewrite cut_run, (M3 rs l E1 E2 E3); exact TOO
           |intros rs l E1 E2 E3 E4; rewrite cut_run, (M4 rs l E1 E2 E3 E4); exact TOO].
Qed.

Theorem trunc_prefix_lemma m origin ms rp pad w :
  to_wire m origin ms rp true pad = Ok w ->
  exists q1 q2 a1 a2 u1 u2 d1 d2,
    mq m = q1 ++ q2 /\ man m = a1 ++ a2 /\ mau m = u1 ++ u2 /\ mad m = d1 ++ d2 /\
    (q2 <> [] -> a1 = [] /\ u1 = [] /\ d1 = []) /\ (a2 <> [] -> u1 = [] /\ d1 = []) /\ (u2 <> [] -> d1 = []) /\
    to_wire (cut_msg m (if cut_before q2 a2 u2 then Z.lor (mflags m) fTC else mflags m) q1 a1 u1 d1)
            origin ms rp false pad = Ok w.
Proof.
  intros H. destruct (trunc_prefix_maximal_lemma m origin ms rp pad w H)
    as (q1 & q2 & a1 & a2 & u1 & u2 & d1 & d2 & A1 & A2 & A3 & A4 & A5 & A6 & A7 & A8 & _).
  exists q1, q2, a1, a2, u1, u2, d1, d2. auto 10.
Qed.
