(* C17 - real-time order: in every execution the body of a call (its position in the
   sequential witness) lies between the call's invocation and its response. *)
From DV Require Import Base.Prelude Model.CacheM Proofs.CacheConc.

Definition tid_of (l : label) : option nat :=
  match l with
  | LInv t _ | LAcq t | LBody t _ _ | LRel t | LRes t _ _ => Some t
  | LEnv _ => None
  end.

Definition silent (t : nat) (ls : list label) : Prop := forall x, In x ls -> tid_of x <> Some t.

Lemma call_eqb_eq : forall a b, call_eqb a b = true -> a = b.
Proof.
  intros a b H. destruct a as [k|k v|[k|]|m|k| | | |], b as [k'|k' v'|[k'|]|m'|k'| | | |]; cbn in H;
    try discriminate; try reflexivity;
    try (apply Z.eqb_eq in H; subst; reflexivity).
  apply andb_true_iff in H. destruct H as [H H3]. apply andb_true_iff in H. destruct H as [H1 H2].
  apply Z.eqb_eq in H1, H2, H3. destruct v, v'. cbn in *. subst. reflexivity.
Qed.

Lemma tnext_silent : forall t st x, tid_of x <> Some t -> tnext t st x = Some st.
Proof.
  intros t st x H. destruct x as [u c|u|u c ds|u|u c r|d]; cbn in *; try reflexivity;
    (destruct (Nat.eqb u t) eqn:E; [apply Nat.eqb_eq in E; congruence|reflexivity]).
Qed.

Lemma trun_silent : forall t ls st, silent t ls -> trun t st ls = Some st.
Proof.
  intros t ls. induction ls as [|x r IH]; intros st H; cbn; [reflexivity|].
  rewrite tnext_silent by (apply H; left; reflexivity). apply IH. intros y Hy. apply H. right. exact Hy.
Qed.

Lemma trun_app : forall t l1 l2 st, trun t st (l1 ++ l2) =
  match trun t st l1 with Some st' => trun t st' l2 | None => None end.
Proof.
  intros t l1. induction l1 as [|x r IH]; intros l2 st; cbn; [reflexivity|].
  destruct (tnext t st x); [apply IH|reflexivity].
Qed.

(* labels of thread t that begin, linearize or end a call *)
Definition call_event (t : nat) (x : label) : Prop :=
  match x with
  | LInv u _ | LBody u _ _ | LRes u _ _ => u = t
  | _ => False
  end.

Definition nocall (t : nat) (p : list label) : Prop := forall x, In x p -> ~ call_event t x.

(* what thread t has done of its current call, read off its protocol state: pre ends with the
   invocation, and from TFin on the body, of that call, with no other call event of t in between *)
Definition shape (t : nat) (st : tstate) (pre : list label) : Prop :=
  match st with
  | TIdle => True
  | TWait c | THold c => exists p1 p2, pre = p1 ++ LInv t c :: p2 /\ nocall t p2
  | TFin c | TRel c =>
      exists p1 p2 p3 ds, pre = p1 ++ LInv t c :: p2 ++ LBody t c ds :: p3 /\ nocall t p2 /\ nocall t p3
  end.

Lemma nocall_snoc : forall t p y, nocall t p -> ~ call_event t y -> nocall t (p ++ [y]).
Proof. intros t p y H Hy x Hx. apply in_app_or in Hx. destruct Hx as [Hx|[<-|[]]]; auto. Qed.

Lemma shape_snoc : forall t st pre y, shape t st pre -> ~ call_event t y -> shape t st (pre ++ [y]).
Proof.
  intros t [|c|c|c|c] pre y H Hy; cbn [shape] in *; [exact H| | | |].
  1,2: destruct H as (p1 & p2 & -> & H2); exists p1, (p2 ++ [y]);
    rewrite <- app_assoc; split; [reflexivity|apply nocall_snoc; assumption].
  all: destruct H as (p1 & p2 & p3 & ds & -> & H2 & H3); exists p1, p2, (p3 ++ [y]), ds;
    rewrite <- !app_assoc; cbn [app]; rewrite <- app_assoc; split; [reflexivity|];
    split; [exact H2|apply nocall_snoc; assumption].
Qed.

(* an invocation opens the shape, the body extends it, the response closes it; every other
   label is no call event of t and only lengthens the last segment *)
Lemma shape_step : forall t st pre y st',
  shape t st pre -> tnext t st y = Some st' -> shape t st' (pre ++ [y]).
Proof.
  intros t st pre y st' Hs Hn.
  destruct y as [u c|u|u c ds|u|u c r|d]; cbn [tnext] in Hn;
    try (destruct (Nat.eqb_spec u t) as [->|Hne]);
    try (injection Hn as <-; apply shape_snoc; [exact Hs|cbn; congruence]);
    destruct st as [|c0|c0|c0|c0]; try discriminate.
  - injection Hn as <-. exists pre, []. split; [reflexivity|intros x []].
  - injection Hn as <-. apply (shape_snoc t (TWait c0)); [exact Hs|cbn; auto].
  - destruct (call_eqb c c0) eqn:E; [|discriminate]. apply call_eqb_eq in E. subst c0. injection Hn as <-.
    destruct Hs as (p1 & p2 & -> & H2). exists p1, p2, [], ds.
    rewrite <- app_assoc. split; [reflexivity|]. split; [exact H2|intros x []].
  - injection Hn as <-. apply (shape_snoc t (TFin c0)); [exact Hs|cbn; auto].
  - destruct (call_eqb c c0); [|discriminate]. injection Hn as <-. exact Logic.I.
Qed.

Lemma trun_shape : forall t pre st, trun t TIdle pre = Some st -> shape t st pre.
Proof.
  intros t pre. induction pre as [|y l IH] using rev_ind; intros st H.
  - injection H as <-. exact Logic.I.
  - rewrite trun_app in H. destruct (trun t TIdle l) as [st1|]; [|discriminate].
    cbn in H. destruct (tnext t st1 y) as [st2|] eqn:E; [|discriminate]. injection H as <-.
    exact (shape_step _ _ _ _ _ (IH _ eq_refl) E).
Qed.

Section Order.
  Context {St : Type}.
  Variable step : call -> St -> clk -> res (ret * St * clk).

  (* Whenever a call of thread t returns, that same call was invoked earlier, its body ran in
     between, and thread t did nothing else in between: the linearization point lies inside
     the call's interval. *)
  Theorem body_within_call : forall s t0 ls cf pre t c r post,
    exec step (init_conf s t0) ls cf -> ls = pre ++ LRes t c r :: post ->
    exists p1 p2 p3 ds,
      pre = p1 ++ LInv t c :: p2 ++ LBody t c ds :: p3 /\
      (forall x, In x p2 -> ~ call_event t x) /\ (forall x, In x p3 -> ~ call_event t x).
  Proof.
    intros s t0 ls cf pre t c r post He ->.
    pose proof (thread_protocol step s t0 _ cf t He) as HP.
    rewrite trun_app in HP. destruct (trun t TIdle pre) as [st|] eqn:E0; [|discriminate].
    cbn [trun tnext] in HP. rewrite Nat.eqb_refl in HP.
    destruct st as [|c0|c0|c0|c0]; try discriminate.
    destruct (call_eqb c c0) eqn:Ec; [|discriminate]. apply call_eqb_eq in Ec. subst c0.
    exact (trun_shape _ _ _ E0).
  Qed.
End Order.

Fixpoint acq_tids (ls : list label) : list nat :=
  match ls with
  | [] => []
  | LAcq t :: r => t :: acq_tids r
  | _ :: r => acq_tids r
  end.

Fixpoint body_tids (ls : list label) : list nat :=
  match ls with
  | [] => []
  | LBody t _ _ :: r => t :: body_tids r
  | _ :: r => body_tids r
  end.

Section AcqOrder.
  Context {St : Type}.
  Variable step : call -> St -> clk -> res (ret * St * clk).

  (* the thread that holds the lock and has not run its body yet *)
  Definition holding (cf : @conf St) : list nat :=
    match cf_lock cf with
    | Some u => match cf_ph cf u with Holding _ => [u] | _ => [] end
    | None => []
    end.

  (* a phase change of a thread that does not hold the lock *)
  Lemma holding_upd_other : forall (cf : @conf St) o n t p,
    cf_lock cf <> Some t ->
    holding (mkConf o n (cf_lock cf) (upd (cf_ph cf) t p)) = holding cf.
  Proof.
    intros cf o n t p Hne. unfold holding. cbn [cf_lock cf_ph].
    destruct (cf_lock cf) as [u|]; [|reflexivity]. rewrite upd_other by congruence. reflexivity.
  Qed.

  Lemma acq_body_order : forall cf ls cf', exec step cf ls cf' -> mutex_inv cf ->
    holding cf ++ acq_tids ls = body_tids ls ++ holding cf'.
  Proof.
    induction 1 as [cf|cf l cf1 ls cf2 Hs He IH]; intros HI.
    - cbn. rewrite app_nil_r. reflexivity.
    - pose proof (mutex_step step _ _ _ Hs HI) as HI1. specialize (IH HI1).
      destruct Hs as [cf u c Hph | cf u c Hph Hl | cf u c ds r s' k' Hph Hl Hds Hst
                      | cf u c r Hph Hl | cf u c r Hph | cf d Hd];
        cbn [acq_tids body_tids].
      + rewrite <- IH. f_equal. symmetry. apply holding_upd_other.
        intros Hx. apply HI in Hx. rewrite Hph in Hx. discriminate.
      + rewrite <- IH. unfold holding at 1. rewrite Hl. cbn [app].
        unfold holding. cbn [cf_lock cf_ph]. rewrite upd_same. reflexivity.
      + unfold holding at 1. rewrite Hl, Hph. cbn [app]. f_equal.
        rewrite <- IH. unfold holding. cbn [cf_lock cf_ph]. rewrite Hl, upd_same. reflexivity.
      + rewrite <- IH. unfold holding at 1. rewrite Hl, Hph.
        unfold holding. cbn [cf_lock]. reflexivity.
      + rewrite <- IH. f_equal. symmetry. apply holding_upd_other.
        intros Hx. apply HI in Hx. rewrite Hph in Hx. discriminate.
      + rewrite <- IH. reflexivity.
  Qed.

  (* the order in which bodies run - the order of the sequential witness - is the order in
     which the threads acquired the lock (the last acquirer may not have run its body yet) *)
  Theorem witness_in_acquisition_order : forall s t0 ls cf,
    exec step (init_conf s t0) ls cf -> acq_tids ls = body_tids ls ++ holding cf.
  Proof.
    intros s t0 ls cf He.
    assert (HI : mutex_inv (init_conf s t0)) by (intros x; cbn; split; discriminate).
    pose proof (acq_body_order _ _ _ He HI) as H. cbn in H. exact H.
  Qed.
End AcqOrder.
