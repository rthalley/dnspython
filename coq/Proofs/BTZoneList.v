(* C20: the sorted association lists that stand for BTreeDict / BTreeSet:
   get / set / update / delete / seek characterised by membership, sortedness preserved. *)
From DV Require Import Base.Prelude Model.NameM Model.BTZoneM Proofs.BTZoneOrder.
Open Scope Z_scope.

Notation K := ekey.

Definition klt (a b : key) : Prop := kcmp a b = Lt.

(* strictly sorted key lists *)
Fixpoint ksorted (ks : list key) : Prop :=
  match ks with
  | [] => True
  | k :: r => (forall k', In k' r -> klt k k') /\ ksorted r
  end.

Definition keys {V} (l : @al V) : list key := map (fun e => K (fst e)) l.
Definition sorted {V} (l : @al V) : Prop := ksorted (keys l).

Lemma klt_irrefl : forall k, ~ klt k k.
Proof. intros k H. unfold klt in H. rewrite kcmp_refl in H. discriminate. Qed.

Lemma klt_trans : forall a b c, klt a b -> klt b c -> klt a c.
Proof. unfold klt; intros; eapply kcmp_trans; eauto. Qed.

Lemma klt_le : forall a b, klt a b -> kcmp a b <> Gt.
Proof. unfold klt. intros a b ->. discriminate. Qed.

Lemma klt_or_ge : forall a b, klt a b \/ kcmp b a <> Gt.
Proof.
  intros a b. unfold klt. destruct (kcmp a b) eqn:E; auto; right.
  - apply kcmp_eq in E. subst. rewrite kcmp_refl. discriminate.
  - apply kcmp_gt_lt in E. rewrite E. discriminate.
Qed.

Lemma klt_neq : forall a b, klt a b -> a <> b.
Proof. intros a b H ->. eapply klt_irrefl; eauto. Qed.

Lemma ksorted_nodup : forall ks k, ksorted (k :: ks) -> ~ In k ks.
Proof. intros ks k [H _] Hin. apply (klt_irrefl k). auto. Qed.

Lemma ksorted_unique : forall l1 l2, ksorted l1 -> ksorted l2 -> (forall k, In k l1 <-> In k l2) -> l1 = l2.
Proof.
  induction l1 as [|a l1 IH]; intros l2 S1 S2 H.
  - destruct l2 as [|b l2]; auto. exfalso. apply (H b). left; auto.
  - destruct l2 as [|b l2]; [exfalso; apply (H a); left; auto|].
    destruct S1 as [A1 S1], S2 as [B1 S2].
    assert (a = b).
    { assert (Ha : In a (b :: l2)) by (apply H; left; auto).
      assert (Hb : In b (a :: l1)) by (apply H; left; auto).
      destruct Ha as [->|Ha]; auto. destruct Hb as [->|Hb]; auto.
      exfalso. apply (klt_irrefl a). eapply klt_trans; [apply A1; eauto | apply B1; auto]. }
    subst b. f_equal. apply IH; auto.
    (* the tails have the same elements, as a is in neither *)
    assert (T : forall l l' : list key, (forall k', In k' l -> klt a k') ->
                (forall k, In k (a :: l) <-> In k (a :: l')) -> forall k, In k l -> In k l').
    { intros l l' A Hm k Hk. destruct (proj1 (Hm k) (or_intror Hk)) as [<-|]; auto.
      exfalso. apply (klt_irrefl a). auto. }
    intros k. split; [apply (T l1 l2 A1 H)|apply (T l2 l1 B1); intros; symmetry; apply H].
Qed.

Section AL.
  Context {V : Type}.
  Implicit Types l : @al V.

  Lemma in_keys : forall l k v, In (k, v) l -> In (K k) (keys l).
  Proof. intros. unfold keys. apply in_map_iff. exists (k, v); auto. Qed.

  Lemma keys_in : forall l x, In x (keys l) -> exists k v, In (k, v) l /\ K k = x.
  Proof. intros l x H. unfold keys in H. apply in_map_iff in H as [[k v] [H1 H2]]. eauto. Qed.

  Lemma sorted_cons : forall k v l, sorted ((k, v) :: l) <->
                                    (forall k' v', In (k', v') l -> klt (K k) (K k')) /\ sorted l.
  Proof.
    intros. unfold sorted; cbn. split; intros [H1 H2]; split; auto.
    - intros k' v' Hin. apply H1. eapply in_keys; eauto.
    - intros x Hx. apply keys_in in Hx as (k' & v' & Hin & <-). eauto.
  Qed.

  Lemma sorted_functional : forall l k1 v1 k2 v2,
      sorted l -> In (k1, v1) l -> In (k2, v2) l -> K k1 = K k2 -> (k1, v1) = (k2, v2).
  Proof.
    induction l as [|[k v] l IH]; intros k1 v1 k2 v2 S H1 H2 E; [contradiction|].
    apply sorted_cons in S as [S1 S2].
    destruct H1 as [H1|H1], H2 as [H2|H2]; try congruence.
    - injection H1 as <- <-. exfalso. exact (klt_neq _ _ (S1 _ _ H2) E).
    - injection H2 as <- <-. exfalso. exact (klt_neq _ _ (S1 _ _ H1) (eq_sym E)).
    - eauto.
  Qed.

  Lemma al_get_some : forall l k v, al_get k l = Some v -> exists k0, In (k0, v) l /\ K k0 = K k.
  Proof.
    induction l as [|[k' v'] l IH]; intros k v H; cbn in H; [discriminate|].
    destruct (name_eqb k k') eqn:E.
    - inversion H; subst. apply name_eqb_ekey in E. exists k'. split; [left; auto|auto].
    - destruct (IH _ _ H) as (k0 & Hin & Hk). exists k0; split; [right|]; auto.
  Qed.

  Lemma al_get_none : forall l k, al_get k l = None <-> ~ In (K k) (keys l).
  Proof.
    induction l as [|[k' v'] l IH]; intros k; cbn.
    - split; auto.
    - destruct (name_eqb k k') eqn:E.
      + apply name_eqb_ekey in E. split; [discriminate|]. intros H. exfalso. apply H. left; auto.
      + apply name_eqb_false_ekey in E. rewrite IH. split.
        * intros H [H1|H1]; auto.
        * intros H H1. apply H. right; auto.
  Qed.

  Lemma al_get_in : forall l k0 k v, sorted l -> In (k0, v) l -> K k0 = K k -> al_get k l = Some v.
  Proof.
    intros l k0 k v S Hin E. destruct (al_get k l) as [v'|] eqn:G.
    - apply al_get_some in G as (k1 & Hin1 & E1).
      pose proof (sorted_functional l k1 v' k0 v S Hin1 Hin (eq_trans E1 (eq_sym E))). congruence.
    - apply al_get_none in G. exfalso. apply G. rewrite <- E. eapply in_keys; eauto.
  Qed.

  Lemma al_mem_iff : forall l k, al_mem k l = true <-> In (K k) (keys l).
  Proof.
    intros. unfold al_mem. destruct (al_get k l) eqn:G.
    - split; auto. intros _. apply al_get_some in G as (k0 & Hin & <-). eapply in_keys; eauto.
    - apply al_get_none in G. split; [discriminate|]. intros; contradiction.
  Qed.

  Lemma al_get_ext : forall l k k', K k = K k' -> al_get k l = al_get k' l.
  Proof.
    induction l as [|[k0 v0] l IH]; intros k k' E; cbn; auto.
    rewrite (name_eqb_ext k k' k0 k0 E eq_refl). destruct (name_eqb k' k0); auto.
  Qed.

  Lemma al_set_spec : forall l k v, sorted l ->
      sorted (al_set k v l) /\
      forall k' v', In (k', v') (al_set k v l) <-> (k', v') = (k, v) \/ (In (k', v') l /\ K k' <> K k).
  Proof.
    induction l as [|[k0 v0] l IH]; intros k v S; cbn [al_set].
    - split; [apply sorted_cons; split; [intros ? ? []|exact S]|]. cbn. intuition.
    - pose proof S as S'. apply sorted_cons in S as [S1 S2].
      assert (Hne : forall k' v', In (k', v') l -> K k' <> K k0)
        by (intros k' v' H; apply not_eq_sym, klt_neq; eauto).
      destruct (order k k0 =? 0) eqn:E0; [|destruct (order k k0 <? 0) eqn:E1].
      + (* the element is replaced, key spelling included *)
        apply order_eq_kcmp, kcmp_eq in E0. split.
        * apply sorted_cons. split; [rewrite E0; exact S1|exact S2].
        * intros k' v'. cbn [In]. rewrite E0. split.
          -- intros [H|H]; [left; auto|right; eauto].
          -- intros [H|[[H|H] Hn]]; auto. injection H as <- <-. congruence.
      + apply order_lt_kcmp in E1. split.
        * apply sorted_cons. split; [|exact S'].
          intros k' v' [H|H]; [injection H as <- <-; exact E1|eapply klt_trans; eauto].
        * intros k' v'. cbn [In]. split.
          -- intros [H|H]; [left; auto|right]. split; [exact H|]. apply not_eq_sym, klt_neq.
             destruct H as [H|H]; [injection H as <- <-; exact E1|eapply klt_trans; eauto].
          -- intros [H|[H _]]; auto.
      + assert (Hgt : klt (K k0) (K k)) by (apply order_gt_kcmp; apply Z.eqb_neq in E0; apply Z.ltb_ge in E1; lia).
        destruct (IH k v S2) as [A B]. split.
        * apply sorted_cons. split; [|exact A].
          intros k' v' Hin. apply B in Hin as [H|[H _]]; [injection H as <- <-; exact Hgt|eauto].
        * intros k' v'. cbn [In]. rewrite B. split.
          -- intros [H|[H|[H Hn]]]; auto. right. split; [auto|]. injection H as <- <-. apply klt_neq, Hgt.
          -- intros [H|[[H|H] Hn]]; auto.
  Qed.

  Lemma al_set_sorted : forall l k v, sorted l -> sorted (al_set k v l).
  Proof. intros. apply al_set_spec; assumption. Qed.

  Lemma al_set_in : forall l k v k' v', sorted l ->
      (In (k', v') (al_set k v l) <-> (k', v') = (k, v) \/ (In (k', v') l /\ K k' <> K k)).
  Proof. intros. apply al_set_spec; assumption. Qed.

  Lemma al_set_keys : forall l k v, sorted l -> forall y, In y (keys (al_set k v l)) <-> y = K k \/ In y (keys l).
  Proof.
    intros l k v S y. split.
    - intros H. apply keys_in in H as (k' & v' & Hin & <-). apply al_set_in in Hin as [Hin|[Hin _]]; auto.
      + inversion Hin; auto.
      + right. eapply in_keys; eauto.
    - intros [->|H]; [apply (in_keys _ k v), al_set_in; auto|].
      apply keys_in in H as (k' & v' & Hin & <-). destruct (key_eq_dec (K k') (K k)) as [->|Hne].
      + apply (in_keys _ k v), al_set_in; auto.
      + apply (in_keys _ k' v'), al_set_in; auto.
  Qed.

  Lemma al_update_keys : forall l k v, keys (al_update k v l) = keys l.
  Proof.
    induction l as [|[k0 v0] l IH]; intros k v; cbn; auto.
    destruct (name_eqb k k0); cbn; auto. f_equal. apply IH.
  Qed.

  Lemma al_update_sorted : forall l k v, sorted l -> sorted (al_update k v l).
  Proof. intros. unfold sorted. rewrite al_update_keys. auto. Qed.

  Lemma al_update_in : forall l k v k' v', sorted l ->
      (In (k', v') (al_update k v l) <->
       (exists v0, In (k', v0) l /\ K k' = K k /\ v' = v) \/ (In (k', v') l /\ K k' <> K k)).
  Proof.
    induction l as [|[k0 v0] l IH]; intros k v k' v' S; cbn.
    - split; [intros [] | intros [(? & [] & _)|[[] _]]].
    - apply sorted_cons in S as [S1 S2].
      destruct (name_eqb k k0) eqn:E.
      + apply name_eqb_ekey in E. cbn. split.
        * intros [H|H].
          -- injection H as <- <-. left. exists v0. auto.
          -- right. split; auto. rewrite E. apply not_eq_sym, klt_neq. eauto.
        * intros [(v1 & [H|H] & Hk & ->)|[[H|H] Hn]]; auto.
          -- injection H as <- <-; auto.
          -- exfalso. apply (klt_neq _ _ (S1 _ _ H)). congruence.
          -- injection H as <- <-. congruence.
      + apply name_eqb_false_ekey in E. cbn. rewrite IH by auto. split.
        * intros [H|[(v1 & H & Hk & ->)|[H Hn]]].
          -- injection H as <- <-. right. split; auto.
          -- left. exists v1. auto.
          -- right; auto.
        * intros [(v1 & [H|H] & Hk & ->)|[[H|H] Hn]]; auto.
          -- injection H as <- <-. congruence.
          -- right. left. exists v1; auto.
  Qed.

  Lemma al_update_idem : forall l k v v', al_update k v (al_update k v' l) = al_update k v l.
  Proof.
    induction l as [|[k0 v0] l IH]; intros k v v'; cbn; auto.
    destruct (name_eqb k k0) eqn:E; cbn; rewrite E; [reflexivity|]. f_equal. apply IH.
  Qed.

  Lemma al_del_none : forall l k, al_del k l = None <-> ~ In (K k) (keys l).
  Proof.
    induction l as [|[k' v'] l IH]; intros k; cbn.
    - split; auto.
    - destruct (name_eqb k k') eqn:E.
      + apply name_eqb_ekey in E. split; [discriminate|]. intros H. exfalso. apply H. left; auto.
      + apply name_eqb_false_ekey in E. destruct (al_del k l) eqn:D.
        * split; [discriminate|]. intros H. exfalso.
          assert (al_del k l <> None) by congruence. apply H0. apply IH. intros Hin. apply H. right; auto.
        * split; auto. intros _ [H1|H1]; auto. apply IH in D. auto.
  Qed.

  Lemma al_del_present : forall l k k0 v, In (k0, v) l -> K k0 = K k -> exists l', al_del k l = Some l'.
  Proof.
    intros l k k0 v Hin E. destruct (al_del k l) eqn:D; eauto. apply al_del_none in D.
    exfalso. apply D. rewrite <- E. eapply in_keys; eauto.
  Qed.

  Lemma al_del_some : forall l k l', sorted l -> al_del k l = Some l' ->
      sorted l' /\ forall k' v', In (k', v') l' <-> (In (k', v') l /\ K k' <> K k).
  Proof.
    induction l as [|[k0 v0] l IH]; intros k l' S H; cbn in H; [discriminate|].
    pose proof S as S'. apply sorted_cons in S as [S1 S2].
    destruct (name_eqb k k0) eqn:E.
    - inversion H; subst l'. apply name_eqb_ekey in E. split; auto. intros k' v'. split.
      + intros Hin. split; [right; auto|]. rewrite E. apply not_eq_sym, klt_neq. eauto.
      + intros [[Hin|Hin] Hn]; auto. injection Hin as <- <-. congruence.
    - apply name_eqb_false_ekey in E. destruct (al_del k l) as [r|] eqn:D; [|discriminate].
      inversion H; subst l'. destruct (IH _ _ S2 D) as [Sr Hr]. split.
      + apply sorted_cons. split; auto. intros k' v' Hin. apply Hr in Hin as [Hin _]. eauto.
      + intros k' v'. cbn. rewrite Hr. split.
        * intros [Hin|[Hin Hn]]; [|split; auto]. injection Hin as <- <-. split; auto.
        * intros [[Hin|Hin] Hn]; auto.
  Qed.

  Lemma al_discard_spec : forall l k, sorted l ->
      sorted (al_discard k l) /\
      forall k' v', In (k', v') (al_discard k l) <-> (In (k', v') l /\ K k' <> K k).
  Proof.
    intros l k S. unfold al_discard. destruct (al_del k l) as [l'|] eqn:D.
    - eapply al_del_some; eauto.
    - split; auto. apply al_del_none in D. intros k' v'. split; [|intros [H _]; auto].
      intros Hin. split; auto. intros E. apply D. rewrite <- E. eapply in_keys; eauto.
  Qed.

  Lemma al_discard_keys : forall l k, sorted l ->
      forall y, In y (keys (al_discard k l)) <-> In y (keys l) /\ y <> K k.
  Proof.
    intros l k S y. destruct (al_discard_spec l k S) as [_ H]. split.
    - intros Hy. apply keys_in in Hy as (k' & v' & Hin & <-). apply H in Hin as [Hin Hn].
      split; [eapply in_keys; eauto|exact Hn].
    - intros [Hy Hn]. apply keys_in in Hy as (k' & v' & Hin & <-). apply (in_keys _ k' v'), H. auto.
  Qed.

  Lemma sorted_app : forall l1 l2, sorted (l1 ++ l2) ->
      sorted l1 /\ sorted l2 /\ forall k1 v1 k2 v2, In (k1, v1) l1 -> In (k2, v2) l2 -> klt (K k1) (K k2).
  Proof.
    induction l1 as [|[k v] l1 IH]; intros l2 S; cbn [app] in *.
    - repeat split; auto; try exact Logic.I. intros ? ? ? ? [].
    - apply sorted_cons in S as [S1 S2]. destruct (IH _ S2) as (A & B & C). repeat split; auto.
      + apply sorted_cons. split; auto. intros k' v' Hin. apply (S1 k' v'). apply in_or_app; auto.
      + intros k1 v1 k2 v2 [H|H] H2; eauto. injection H as <- <-. apply (S1 k2 v2). apply in_or_app; auto.
  Qed.

  Lemma sorted_mid : forall l1 k v l2, sorted (l1 ++ (k, v) :: l2) ->
      (forall k' v', In (k', v') l1 -> klt (K k') (K k)) /\ (forall k' v', In (k', v') l2 -> klt (K k) (K k')).
  Proof.
    intros l1 k v l2 S. apply sorted_app in S as (_ & S2 & H12). split.
    - intros k' v' Hin. exact (H12 k' v' k v Hin (or_introl eq_refl)).
    - apply sorted_cons in S2. apply S2.
  Qed.

  Lemma seek_after_spec : forall (after : @al V) k (before b a : @al V),
      sorted after -> seek_after k before after = (b, a) ->
      exists mid, after = mid ++ a /\ b = rev mid ++ before /\
                  (forall k' v', In (k', v') mid -> kcmp (K k') (K k) <> Gt) /\
                  (forall k' v', In (k', v') a -> klt (K k) (K k')).
  Proof.
    induction after as [|[k0 v0] after IH]; intros k before b a S H; cbn in H.
    - inversion H; subst. exists []. cbn. repeat split; auto; intros ? ? [].
    - pose proof S as S'. apply sorted_cons in S as [S1 S2].
      destruct (order k0 k <=? 0) eqn:E.
      + apply order_le_kcmp in E. destruct (IH _ _ _ _ S2 H) as (mid & H1 & H2 & H3 & H4).
        exists ((k0, v0) :: mid). cbn. repeat split; auto.
        * rewrite H1; auto.
        * rewrite H2, <- app_assoc. reflexivity.
        * intros k' v' [Hin|Hin]; eauto. injection Hin as <- <-; auto.
      + inversion H; subst. exists []. cbn. repeat split; auto.
        assert (Hgt : klt (K k) (K k0)) by (apply order_gt_kcmp; apply Z.leb_gt in E; lia).
        intros k' v' [Hin|Hin]; [injection Hin as <- <-; auto|]. eapply klt_trans; eauto.
  Qed.

  Lemma c_seek_spec : forall l k (b a : @al V),
      sorted l -> c_seek l k = (b, a) ->
      l = rev b ++ a /\
      (forall k' v', In (k', v') b -> kcmp (K k') (K k) <> Gt) /\
      (forall k' v', In (k', v') a -> klt (K k) (K k')).
  Proof.
    intros l k b a S H. unfold c_seek in H.
    destruct (seek_after_spec _ _ _ _ _ S H) as (mid & H1 & H2 & H3 & H4).
    rewrite app_nil_r in H2. subst b. rewrite rev_involutive. repeat split; auto.
    intros k' v' Hin. apply in_rev in Hin. eauto.
  Qed.

  (* Cursor.seek then Cursor.prev: the greatest element at or before the key *)
  Lemma seek_prev_spec : forall l k, sorted l ->
      match fst (c_prev (c_seek l k)) with
      | Some (g, v) => In (g, v) l /\ kcmp (K g) (K k) <> Gt /\
                       forall k' v', In (k', v') l -> kcmp (K k') (K k) <> Gt -> kcmp (K k') (K g) <> Gt
      | None => forall k' v', In (k', v') l -> klt (K k) (K k')
      end.
  Proof.
    intros l k S. destruct (c_seek l k) as [b a] eqn:Es. destruct (c_seek_spec _ _ _ _ S Es) as (E & Hb & Ha).
    unfold c_prev. cbn [fst snd]. destruct b as [|[g v] b]; cbn [fst]; [rewrite E; exact Ha|].
    cbn [rev] in E. rewrite E. split; [apply in_or_app; left; apply in_or_app; right; left; reflexivity|].
    split; [apply (Hb g v); left; reflexivity|]. intros k' v' Hin Hle.
    rewrite E, <- app_assoc in S.
    apply in_app_or in Hin as [Hin|Hin]; [apply in_app_or in Hin as [Hin|[Hin|[]]]|].
    - apply klt_le, (proj1 (sorted_mid _ _ _ _ S) _ _ Hin).
    - injection Hin as <- <-. rewrite kcmp_refl. discriminate.
    - exfalso. apply Hle, kcmp_gt_lt, (Ha k' v' Hin).
  Qed.
End AL.
