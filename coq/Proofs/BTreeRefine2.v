(* C19 - refinement, continued: split / adopt / in-order optimisation / insert_nonfull. *)
From DV Require Import Base.Prelude Model.BTreeM Model.BTreeStoreM Proofs.BTreeBase Proofs.BTreeWf Proofs.BTreeStore
  Proofs.BTreeRefine.
From Coq Require Import Permutation.

Lemma reps_firstn s ids trs fps j : reps s ids trs fps -> reps s (firstn j ids) (firstn j trs) (firstn j fps).
Proof. intros H. revert j. induction H; intros [|j]; cbn; constructor; auto. Qed.

Lemma reps_skipn s ids trs fps j : reps s ids trs fps -> reps s (skipn j ids) (skipn j trs) (skipn j fps).
Proof. intros H. revert j. induction H; intros [|j]; cbn; try constructor; auto. Qed.

Lemma list_match_ne {A X} (l : list A) (a b : X) : l <> [] -> match l with [] => a | _ :: _ => b end = b.
Proof. destruct l; [contradiction|reflexivity]. Qed.

Lemma insert_at_mid {A} (a b : list A) x y : insert_at (S (length a)) y (a ++ x :: b) = a ++ x :: y :: b.
Proof.
  replace (a ++ x :: b) with ((a ++ [x]) ++ b) by (now rewrite <- app_assoc).
  rewrite insert_at_app by (rewrite app_length; cbn; lia). now rewrite <- app_assoc.
Qed.

Lemma split_node_inv t lf es ks l m r :
  split_node t (Node lf es ks) = Ok (l, m, r) ->
  is_maximal_l t (length es) = Ok true /\ nth_error es (t_min t) = Some m /\
  l = Node lf (firstn (t_min t) es) (if lf then ks else firstn (S (t_min t)) ks) /\
  r = Node lf (skipn (S (t_min t)) es) (if lf then [] else skipn (S (t_min t)) ks).
Proof.
  unfold split_node. rewrite is_maximal_eq. cbn [n_elts].
  destruct (is_maximal_l t (length es)) as [[|]| |]; cbn [bind negb]; try discriminate.
  destruct (nth_error es (t_min t)); [|discriminate]. intros H. inversion H. auto.
Qed.

Section SIM2.
Variable c : nat.
Notation own := (ownc c).
Notation stepped := (stepped c).

Lemma split_sim t s id n fp l m r :
  rep s id n fp -> own s id -> split_node t n = Ok (l, m, r) ->
  exists s' fl frr,
    s_split t s id = Ok (s', m, length s) /\
    rep s' id l fl /\ rep s' (length s) r frr /\ NoDup (fl ++ frr) /\
    (forall x, In x (fl ++ frr) -> In x fp \/ x = length s) /\
    fr s s' [id] /\ own s' id /\ own s' (length s) /\ length s' = S (length s).
Proof.
  intros Hr (n0 & Hn0 & Hc0) Hv. destruct n as [lf es ks]. pose proof (rep_valid _ _ _ _ Hr) as Hval.
  apply rep_inv in Hr as (nn & fps & Hn & <- & <- & Hks & -> & Hnd & Hlk). assert (n0 = nn) by congruence. subst n0.
  apply split_node_inv in Hv as (Emx & Emid & -> & ->).
  assert (Hvid : (id < length s)%nat) by (apply nth_error_Some; congruence).
  assert (Hn1 : forall x, nth_error (s ++ [x]) id = Some nn) by (intros x; now rewrite nth_error_app1).
  unfold s_split. rewrite (sget_some _ _ _ Hn). cbn [bind]. rewrite Emx. cbn [bind negb]. unfold alloc. rewrite Emid.
  rewrite (upd_some _ _ _ _ (Hn1 _)). cbn [bind].
  (* a leaf has no children, so cutting its (empty) child list like that of an internal node changes nothing *)
  set (k := S (t_min t)).
  assert (Hcut : forall A (l : list A), (s_leaf nn = true -> l = []) ->
            (if s_leaf nn then l else firstn k l) = firstn k l /\ (if s_leaf nn then [] else skipn k l) = skipn k l).
  { intros A l H. destruct (s_leaf nn); [|auto]. rewrite (H eq_refl), firstn_nil, skipn_nil. auto. }
  destruct (Hcut _ (s_kids nn) (fun H => proj1 (Hlk H))) as (-> & ->), (Hcut _ ks (fun H => proj2 (Hlk H))) as (-> & ->). clear Hcut.
  set (rn := mkS (s_cr nn) (s_leaf nn) (skipn k (s_elts nn)) (skipn k (s_kids nn))).
  set (ln := mkS (s_cr nn) (s_leaf nn) (firstn (t_min t) (s_elts nn)) (firstn k (s_kids nn))).
  set (s' := sset (s ++ [rn]) id ln).
  assert (Hid' : nth_error s' id = Some ln) by (apply nth_sset_eq; rewrite app_length; lia).
  assert (Hrid' : nth_error s' (length s) = Some rn) by (unfold s'; rewrite nth_sset_ne by lia; apply nth_alloc).
  assert (Hfr : fr s s' [id]).
  { eapply fr_trans; [eapply fr_weaken; [apply alloc_fr|intros ? []]|apply sub_refl|]. eapply sset_fr; [apply Hn1|reflexivity]. }
  assert (Hkf : reps s' (s_kids nn) ks fps).
  { eapply reps_fr; [exact Hks|exact Hfr|]. intros x Hx [<-|[]]. apply NoDup_cons_iff in Hnd as (Hni & _). contradiction. }
  (* the two footprints together are the old one and the new cell *)
  assert (Hperm : Permutation ((id :: concat (firstn k fps)) ++ length s :: concat (skipn k fps)) (length s :: id :: concat fps)).
  { rewrite <- Permutation_middle. cbn [app]. now rewrite <- concat_app, firstn_skipn. }
  assert (Hndall : NoDup ((id :: concat (firstn k fps)) ++ length s :: concat (skipn k fps))).
  { apply (Permutation_NoDup (Permutation_sym Hperm)). constructor; [|assumption]. intros Hi. apply Hval in Hi. lia. }
  exists s', (id :: concat (firstn k fps)), (length s :: concat (skipn k fps)).
  split; [reflexivity|]. split; [|split; [|split; [exact Hndall|split; [|split; [exact Hfr|split; [|split]]]]]].
  - apply (rep_build s' id ln); [exact Hid'|reflexivity|reflexivity| |exact (reps_firstn _ _ _ _ k Hkf)|eapply NoDup_app_l; eauto].
    cbn [ln s_leaf s_kids]. intros Hl. destruct (Hlk Hl) as (-> & _). apply firstn_nil.
  - apply (rep_build s' (length s) rn); [exact Hrid'|reflexivity|reflexivity| |exact (reps_skipn _ _ _ _ k Hkf)|eapply NoDup_app_r; eauto].
    cbn [rn s_leaf s_kids]. intros Hl. destruct (Hlk Hl) as (-> & _). apply skipn_nil.
  - intros x Hx. apply (Permutation_in _ Hperm) in Hx. destruct Hx as [<-|Hx]; auto.
  - exists ln. auto.
  - exists rn. auto.
  - unfold s'. rewrite length_sset, app_length. cbn. lia.
Qed.

Lemma opt_loop_sim t : forall fuel s pid p fp lid li p',
  rep s pid p fp -> own s pid -> own s lid -> kid_at s pid li lid ->
  opt_loop fuel t p li = Ok p' ->
  exists s', s_opt_loop fuel t s lid pid li = Ok s' /\ stepped s pid fp s' p'.
Proof.
  induction fuel as [|f IH]; intros s pid p fp lid li p' Hr Hop Hol Hk Hv; [discriminate|].
  cbn [opt_loop] in Hv. cbn [s_opt_loop].
  destruct (split_at li (n_kids p)) as [((ka & lft) & kb)| |] eqn:Esp; cbn [bind] in Hv; try discriminate.
  assert (exists nl, nth_error s lid = Some nl /\ s_elts nl = n_elts lft) as (nl & Hnl & Hel).
  { destruct p as [lf es ks]. cbn [n_kids] in Esp. apply split_at_inv in Esp as (-> & <-).
    destruct (rep_kid _ _ _ _ _ _ _ _ Hr) as (n & ia & cid & ib & cn & Hn & _ & Hkn & Hlia & _ & Hcn & Hce).
    destruct Hk as (n0 & Hn0 & Hk0). assert (n0 = n) by congruence. subst n0.
    rewrite Hkn, <- Hlia, nth_error_app_mid in Hk0. inversion Hk0; subst. eauto. }
  rewrite (sget_some _ _ _ Hnl). cbn [bind]. rewrite Hel.
  destruct (length (n_elts lft) <? t_max t)%nat; [|inversion Hv; subst p'; exists s; auto using stepped_refl].
  destruct (try_right_steal t p li) as [(p1 & ok)| |] eqn:E; cbn [bind] in Hv; try discriminate.
  destruct (right_steal_sim c t s pid p fp lid li p1 ok Hr Hop Hol Hk E) as (s1 & -> & Hst1 & Hol1 & Hk1 & _). cbn [bind].
  destruct ok; [|inversion Hv; subst p'; eauto].
  destruct Hst1 as (fp1 & Hr1 & Hsub1 & Hfr1 & Hop1).
  destruct (IH s1 pid p1 fp1 lid li p' Hr1 Hop1 Hol1 Hk1 Hv) as (s2 & -> & Hst2). eauto using stepped_trans.
Qed.

Lemma optimize_sim t s pid p fp index p' :
  rep s pid p fp -> own s pid ->
  optimize_in_order_insertion t p index = Ok p' ->
  exists s', s_optimize t s pid index = Ok s' /\ stepped s pid fp s' p'.
Proof.
  intros Hr Hop Hv. unfold optimize_in_order_insertion in Hv. unfold s_optimize.
  destruct index as [|li]; [inversion Hv; subst p'; exists s; auto using stepped_refl|].
  destruct (split_at li (n_kids p)) as [((ka & lft) & kb)| |] eqn:Esp; cbn [bind] in Hv; try discriminate.
  destruct p as [plf pes pks]. cbn [n_kids] in Esp. apply split_at_inv in Esp as (-> & <-).
  destruct (rep_kid _ _ _ _ _ _ _ _ Hr) as (n & ia & lid0 & ib & l0 & Hn & -> & Hkn & Hlia & _ & Hl0 & Hel0).
  rewrite (sget_some _ _ _ Hn). cbn [bind]. rewrite Hkn, split_at_app by assumption. cbn [bind].
  rewrite (sget_some _ _ _ Hl0). cbn [bind]. rewrite Hel0.
  destruct (length (n_elts lft) =? t_max t)%nat; [inversion Hv; subst p'; exists s; auto using stepped_refl|].
  destruct (cow_child_open c _ _ _ _ _ _ _ _ Hr Hop) as (s1 & lid & ia1 & ib1 & fa1 & fl & fb1 & -> & Hopen & Hol & Hfr1 & Hsub1 & _). cbn [bind].
  destruct (opened_close _ _ _ _ _ _ _ _ _ _ _ _ _ Hopen) as (Hr1 & Hop1). destruct (opened_kid _ _ _ _ _ _ _ _ _ _ _ _ _ Hopen) as (_ & Hk1).
  destruct (opt_loop_sim t _ s1 pid _ _ lid (length ka) p' Hr1 Hop1 Hol Hk1 Hv) as (s2 & -> & Hst2). eauto using stepped_trans.
Qed.

Definition rec_sim (rec : tree -> res (tree * option elt)) (srec : store -> nat -> res (store * option elt)) : Prop :=
  forall s cid ck fc ck' o, rep s cid ck fc -> own s cid -> rec ck = Ok (ck', o) ->
    exists s', srec s cid = Ok (s', o) /\ stepped s cid fc s' ck'.

Definition again_sim (again : tree -> res (tree * option elt)) (sagain : store -> res (store * option elt)) (id : nat) : Prop :=
  forall s n fp n' o, rep s id n fp -> own s id -> again n = Ok (n', o) ->
    exists s', sagain s = Ok (s', o) /\ stepped s id fp s' n'.

(* the split child's two halves adopted by the (non-full) parent *)
Lemma adopt_sim t s s2 id es ia cid ib ka ck kb fa fc fb l m r fl frr n' :
  opened c s id es ia cid ib ka ck kb fa fc fb ->
  rep s2 cid l fl -> rep s2 (length s) r frr -> NoDup (fl ++ frr) ->
  (forall x, In x (fl ++ frr) -> In x fc \/ x = length s) -> fr s s2 [cid] ->
  adopt t (Node false es (ka ++ l :: kb)) l m r (length ka) = Ok n' ->
  exists s3, s_adopt t s2 id cid m (length s) = Ok s3 /\ stepped s id (id :: concat (fa ++ fc :: fb)) s3 n'.
Proof.
  intros Hopen Hrl Hrr Hndlr Hinlr Hfr2 Ead.
  assert (Hval : forall x, In x (id :: concat (fa ++ fc :: fb)) -> (x < length s)%nat).
  { eapply rep_valid. apply (opened_close _ _ _ _ _ _ _ _ _ _ _ _ _ Hopen). }
  destruct Hopen as (n1 & Hn1 & Hcn1 & Hln1 & <- & Hkn1 & Hra & Hrc & Hrb & Hlia & Hnd1).
  assert (Hidn : ~ In id (concat fa ++ fc ++ concat fb)) by (rewrite concat_mid in Hnd1; now apply NoDup_cons_iff in Hnd1).
  pose proof (rep_root_in _ _ _ _ Hrc) as Hcin.
  assert (Hidc : id <> cid) by (intros ->; apply Hidn; rewrite !in_app_iff; auto).
  (* the parent node is untouched by the split *)
  assert (Hn1_2 : nth_error s2 id = Some n1).
  { destruct Hfr2 as (_ & F & _). rewrite F; [assumption|apply Hval; now left|]. intros [Hx|[]]. congruence. }
  unfold adopt in Ead. rewrite is_maximal_eq in Ead. cbn [n_elts] in Ead.
  unfold s_adopt. rewrite (sget_some _ _ _ Hn1_2). cbn [bind].
  destruct (is_maximal_l t (length (s_elts n1))) as [mx| |]; cbn [bind] in Ead |- *; try discriminate.
  destruct mx; try discriminate. rewrite Hln1.
  destruct (search (fst m) (s_elts n1)) as [(i' & eq')| |]; cbn [bind] in Ead |- *; try discriminate.
  destruct eq'; try discriminate.
  rewrite list_match_ne in Ead by (destruct ka; discriminate).
  destruct (nth_error (ka ++ l :: kb) i'); try discriminate.
  destruct (Nat.eqb_spec i' (length ka)) as [->|Hne]; try discriminate. inversion Ead; subst n'. clear Ead.
  rewrite Hkn1, list_match_ne by (destruct ia; discriminate).
  rewrite insert_at_mid, <- Hlia, nth_error_app_mid, Nat.eqb_refl, insert_at_mid, Hlia.
  set (nd := mkS (s_cr n1) false (insert_at (length ka) m (s_elts n1)) (ia ++ cid :: length s :: ib)).
  set (s3 := sset s2 id nd). exists s3. split; [reflexivity|].
  assert (Hfr3 : fr s2 s3 [id]) by (apply (sset_fr s2 id n1 nd Hn1_2); reflexivity).
  assert (Hidlr : forall x, In x (fl ++ frr) -> ~ In x [id]).
  { intros x Hx [<-|[]]. destruct (Hinlr _ Hx) as [Hq|Hq]; [apply Hidn; rewrite !in_app_iff; auto|].
    specialize (Hval id (or_introl eq_refl)). lia. }
  apply (rebuild c s s3 id nd ia ib ka kb fa fb [fc] [cid; length s] [l; r] [fl; frr]);
    cbn [concat]; rewrite ?app_nil_r; try assumption; try reflexivity.
  - apply Hval. now left.
  - eapply fr_trans; [eapply fr_weaken; [exact Hfr2|]|apply sub_refl|eapply fr_weaken; [exact Hfr3|]].
    + intros x [<-|[]]. now right.
    + intros x [<-|[]]. now left.
  - apply nth_sset_eq, nth_error_Some. congruence.
  - constructor; [|constructor; [|constructor]]; (eapply rep_fr; [eassumption|exact Hfr3|]);
      intros x Hx; apply Hidlr, in_app_iff; auto.
  - intros x Hx. destruct (Hinlr x Hx) as [Hq|Hq]; [now left|right; lia].
Qed.

Lemma ins_iter_sim t io rec again srec sagain s id n fp e n' o :
  rec_sim rec srec -> again_sim again sagain id -> rep s id n fp -> own s id ->
  ins_iter t io rec again n e = Ok (n', o) ->
  exists s', s_ins_iter t io srec sagain s id e = Ok (s', o) /\ stepped s id fp s' n'.
Proof.
  intros Hrec Hagain Hr Hop Hv. destruct n as [lf es ks]. unfold ins_iter in Hv. unfold s_ins_iter.
  destruct (rep_root _ _ _ _ _ _ Hr) as (nn & Hnn & <- & <-).
  rewrite (sget_some _ _ _ Hnn). cbn [bind].
  destruct (search (fst e) (s_elts nn)) as [(i & eq)| |] eqn:Es; cbn [bind] in Hv |- *; try discriminate.
  destruct eq.
  { destruct (split_at i (s_elts nn)) as [((a & old) & b)| |]; cbn [bind] in Hv |- *; try discriminate.
    inversion Hv; subst n' o. eauto using write_elts_sim. }
  destruct (s_leaf nn); [inversion Hv; subst n' o; eauto using write_elts_sim|].
  destruct (split_at i ks) as [((ka & child) & kb)| |] eqn:Esp; cbn [bind] in Hv; try discriminate.
  apply split_at_inv in Esp as (-> & <-).
  destruct (cow_child_open c _ _ _ _ _ _ _ _ Hr Hop) as (s1 & cid & ia & ib & fa & fc & fb & -> & Hopen & Hoc & Hfr1 & Hsub1 & _). cbn [bind].
  pose proof (stepped_trans c _ id _ _ _ Hfr1 Hsub1) as Hback.
  destruct (opened_kid _ _ _ _ _ _ _ _ _ _ _ _ _ Hopen) as (Hrc & _).
  destruct child as [clf ces cks]. destruct (rep_root _ _ _ _ _ _ Hrc) as (cn & Hcn & _ & <-).
  rewrite (sget_some _ _ _ Hcn). cbn [bind]. rewrite is_maximal_eq in Hv. cbn [n_elts] in Hv.
  destruct (is_maximal_l t (length (s_elts cn))) as [mx| |]; cbn [bind] in Hv |- *; try discriminate.
  destruct mx.
  - (* split the full child, adopt the two halves, go round the loop once more *)
    destruct (split_node t (Node clf (s_elts cn) cks)) as [((l & m) & r)| |] eqn:Espl; cbn [bind] in Hv; try discriminate.
    destruct (split_sim t s1 cid _ fc l m r Hrc Hoc Espl) as (s2 & fl & frr & -> & Hrl & Hrr & Hndlr & Hinlr & Hfr2 & _). cbn [bind].
    destruct (adopt t (Node false (s_elts nn) (ka ++ l :: kb)) l m r (length ka)) as [n1'| |] eqn:Ead; cbn [bind] in Hv; try discriminate.
    destruct (adopt_sim t s1 s2 id _ _ _ _ _ _ _ _ _ _ _ _ _ _ _ n1' Hopen Hrl Hrr Hndlr Hinlr Hfr2 Ead) as (s3 & -> & fp3 & Hr3 & Hsub3 & Hfr3 & Hop3). cbn [bind].
    destruct (Hagain s3 _ _ n' o Hr3 Hop3 Hv) as (s4 & -> & Hst4). eauto using stepped_trans.
  - (* descend *)
    destruct (rec (Node clf (s_elts cn) cks)) as [(c' & o')| |] eqn:Erec; cbn [bind] in Hv; try discriminate.
    destruct (Hrec s1 cid _ fc c' o' Hrc Hoc Erec) as (s2 & -> & Hstc). cbn [bind].
    pose proof (stepped_child c _ _ _ _ _ _ _ _ _ _ _ _ _ _ Hopen Hstc) as Hst2.
    destruct io; [|inversion Hv; subst n' o; eauto].
    destruct (optimize_in_order_insertion t (Node false (s_elts nn) (ka ++ c' :: kb)) (length ka)) as [n''| |] eqn:Eopt; cbn [bind] in Hv; try discriminate.
    inversion Hv; subst n' o. destruct Hst2 as (fp2 & Hr2 & Hsub2 & Hfr2 & Hop2).
    destruct (optimize_sim t s2 id _ _ (length ka) n'' Hr2 Hop2 Eopt) as (s3 & -> & Hst3). cbn [bind]. eauto using stepped_trans.
Qed.

Lemma ins_sim t io e : forall fuel, rec_sim (fun n => ins t fuel io n e) (fun s id => s_ins t fuel io s id e).
Proof.
  induction fuel as [|f IH]; intros s id n fp n' o Hr Hop Hv; [discriminate|].
  cbn [ins] in Hv. cbn [s_ins].
  destruct n as [lf es ks]. destruct (rep_root _ _ _ _ _ _ Hr) as (nn & Hnn & _ & <-).
  rewrite (sget_some _ _ _ Hnn). cbn [bind]. rewrite is_maximal_eq in Hv. cbn [n_elts] in Hv.
  destruct (is_maximal_l t (length (s_elts nn))) as [mx| |]; cbn [bind] in Hv |- *; try discriminate.
  destruct mx; try discriminate.
  eapply (ins_iter_sim t io _ _ (fun s c => s_ins t f io s c e)); [exact IH| |exact Hr|exact Hop|exact Hv].
  intros s1 n1 fp1 n1' o1 Hr1 Hop1 Hv1.
  eapply (ins_iter_sim t io _ _ (fun s c => s_ins t f io s c e)); [exact IH| |exact Hr1|exact Hop1|exact Hv1].
  intros ? ? ? ? ? _ _ Hd. discriminate.
Qed.

End SIM2.
