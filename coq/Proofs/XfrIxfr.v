(* C13 - incremental transfers between versions of ordinary RRsets: a chain of difference sequences
   takes v0 to vn, in any division of the stream into messages; early end; wrong base serial. *)
From DV Require Import Base.Prelude Model.XfrM Proofs.XfrSets Proofs.XfrSpec Proofs.XfrZone Proofs.XfrDiff
  Proofs.XfrSafety Proofs.XfrBasic Proofs.XfrRun Proofs.XfrSteps Proofs.XfrGeneral.

Lemma body_plain : forall z, rest_wf z -> Forall plain (body z).
Proof.
  intros z [_ Hf]. unfold body. apply Forall_forall. intros r Hr.
  apply in_flat_map in Hr. destruct Hr as [[[[n t] c] [ttl ds]] [Hin Hr]].
  rewrite Forall_forall in Hf. apply Hf in Hin. cbn in Hin. destruct Hin as (Hn & Ht & Httl & _ & _ & Hsg).
  cbn in Hr. apply in_map_iff in Hr. destruct Hr as [d [<- _]].
  unfold plain. cbn. auto.
Qed.

Lemma zminus_plain : forall a b, rest_wf a -> Forall plain (zminus a b).
Proof.
  intros a b Ha. unfold zminus. apply Forall_forall. intros r Hr. apply filter_In in Hr.
  pose proof (body_plain a Ha) as Hp. rewrite Forall_forall in Hp. apply Hp, Hr.
Qed.

(* multi-step incremental chains, any division into messages *)
Theorem ixfr_converges : forall v0 chain z0 ws,
  chain_ok v0 chain -> zeq z0 (zone_of v0) -> chunking tIXFR (ixfr_stream v0 chain) ws ->
  exists z' n, inbound_xfr z0 tIXFR (Some (v_serial v0)) false ws = (Done z', n)
               /\ zeq z' (zone_of (last chain v0)).
Proof. intros v0 chain z0 ws Hok. apply ixfr_converges_general, chain_ok_ok_g, Hok. Qed.

(* UDP IXFR: the whole response is one datagram *)
Theorem udp_ixfr : forall v0 chain z0 w,
  chain_ok v0 chain -> zeq z0 (zone_of v0) ->
  header_ok tIXFR w -> w_records w = ixfr_stream v0 chain ->
  exists z', inbound_xfr z0 tIXFR (Some (v_serial v0)) true [w] = (Done z', 1%nat)
             /\ zeq z' (zone_of (last chain v0)).
Proof. intros v0 chain z0 w Hok. apply udp_ixfr_general, chain_ok_ok_g, Hok. Qed.

(* "based on a different serial": the difference sequences start at v0's serial but the client
   asked for another one *)
Theorem wrong_base_rejected : forall v0 chain z ser ws,
  chain <> [] -> chunking tIXFR (ixfr_stream v0 chain) ws ->
  v_serial v0 <> ser -> v_serial (last chain v0) <> ser ->
  serial_lt (v_serial (last chain v0)) ser = false ->
  v_soa v0 <> v_soa (last chain v0) ->
  exists n, inbound_xfr z tIXFR (Some ser) false ws = (Error eBaseMismatch z, n).
Proof.
  intros v0 chain z ser ws Hne Hch Hs0 Hsn Hlt Hsoa.
  unfold ixfr_stream in Hch. cbv zeta in Hch. destruct chain as [|v1 chain]; [congruence|].
  eapply (ixfr_error z ser _ Hsn Hlt ws [] (soa_rr v0)); [exact Hch|reflexivity|reflexivity|].
  intros l. rewrite step_ist_soa. apply Z.eqb_neq in Hsoa, Hs0. rewrite Hsoa, Hs0. reflexivity.
Qed.

(* "ends early": every proper prefix of a valid IXFR response, cut into messages in any way, is an
   error and (error_leaves_zone) leaves the zone alone *)
Theorem ixfr_early_end_rejected : forall v0 chain z0 ws q,
  chain_ok v0 chain -> zeq z0 (zone_of v0) ->
  Forall (header_ok tIXFR) ws -> q <> [] ->
  concat (map w_records ws) ++ q = ixfr_stream v0 chain ->
  exists e n, inbound_xfr z0 tIXFR (Some (v_serial v0)) false ws = (Error e z0, n).
Proof. intros v0 chain z0 ws q Hok. apply ixfr_early_end_rejected_general, chain_ok_ok_g, Hok. Qed.
