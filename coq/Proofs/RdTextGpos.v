(* GPOS: a string accepted by _validate_float_string (SchemaM.parse_float, the C02 model of it) consists of
   digits, at most one dot and an optional sign: it is one tokenizer word of ASCII characters. *)
From DV Require Import Base.Prelude Model.NameM Model.TokM Model.RdTextM.
From DV Require Model.SchemaM.
From DV Require Import Proofs.TokEsc Proofs.TokWords.
Open Scope Z_scope.

Definition fchar (c : Z) : bool := SchemaM.is_dig c || (c =? 46) || (c =? 45) || (c =? 43).

Lemma fchars_word s : forallb fchar s = true -> forallb safe s = true /\ all_ascii s = true.
Proof.
  apply forallb_word. unfold fchar, SchemaM.is_dig. intros c H. split; [apply safe_char|]; lia.
Qed.

Lemma digs_fchars s : forallb SchemaM.is_dig s = true -> forallb fchar s = true.
Proof.
  intros H. apply forallb_forall. intros c Hc. rewrite forallb_forall in H. unfold fchar. rewrite (H c Hc). reflexivity.
Qed.

Lemma all_digits_digs s : SchemaM.all_digits s = true -> forallb SchemaM.is_dig s = true.
Proof. unfold SchemaM.all_digits. intros H. apply andb_true_iff in H as [_ H]. exact H. Qed.

Lemma split_dot_spec s : forall a b, SchemaM.split_dot s = (a, b) ->
  match b with Some r => s = a ++ 46 :: r | None => s = a end.
Proof.
  induction s as [|c s IH]; intros a b H; cbn [SchemaM.split_dot] in H.
  - inversion H; subst. reflexivity.
  - destruct (c =? 46) eqn:E.
    + inversion H; subst. apply Z.eqb_eq in E. subst. reflexivity.
    + destruct (SchemaM.split_dot s) as [a' b'] eqn:Es. inversion H; subst. specialize (IH a' b eq_refl).
      destruct b; cbn [app]; rewrite IH at 1; reflexivity.
Qed.

Lemma opt_digits s : (negb (Nat.eqb (length s) 0) && negb (SchemaM.all_digits s)) = false -> forallb SchemaM.is_dig s = true.
Proof.
  intros H. destruct s as [|c s]; [reflexivity|]. cbn [length Nat.eqb negb andb] in H.
  apply negb_false_iff in H. apply all_digits_digs, H.
Qed.

Lemma float_body (body : list Z) (neg : bool) (p : bool * list Z * list Z) :
  (if SchemaM.all_digits body then Some (neg, body, [])
   else match SchemaM.split_dot body with
        | (lft, Some rgt) =>
            match SchemaM.split_dot rgt with
            | (_, Some _) => None
            | (_, None) =>
                if Nat.eqb (length lft) 0 && Nat.eqb (length rgt) 0 then None
                else if negb (Nat.eqb (length lft) 0) && negb (SchemaM.all_digits lft) then None
                else if negb (Nat.eqb (length rgt) 0) && negb (SchemaM.all_digits rgt) then None
                else Some (neg, lft, rgt)
            end
        | (_, None) => None
        end) = Some p -> forallb fchar body = true.
Proof.
  destruct (SchemaM.all_digits body) eqn:Ed; [intros _; apply digs_fchars, all_digits_digs, Ed|].
  destruct (SchemaM.split_dot body) as [lft [rgt|]] eqn:Es; try discriminate.
  destruct (SchemaM.split_dot rgt) as [x [y|]] eqn:Es2; try discriminate.
  destruct (Nat.eqb (length lft) 0 && Nat.eqb (length rgt) 0); try discriminate.
  destruct (negb (Nat.eqb (length lft) 0) && negb (SchemaM.all_digits lft)) eqn:El; try discriminate.
  destruct (negb (Nat.eqb (length rgt) 0) && negb (SchemaM.all_digits rgt)) eqn:Er; try discriminate.
  intros _. pose proof (split_dot_spec _ _ _ Es) as Hs. cbv beta iota in Hs.
  rewrite Hs. rewrite forallb_app. cbn [forallb].
  rewrite (digs_fchars _ (opt_digits _ El)), (digs_fchars _ (opt_digits _ Er)). reflexivity.
Qed.

Theorem float_string_word s p : SchemaM.parse_float s = Some p ->
  forallb safe s = true /\ all_ascii s = true /\ s <> [].
Proof.
  intros H. destruct s as [|c r]; [discriminate|].
  assert (F : forallb fchar (c :: r) = true).
  { unfold SchemaM.parse_float in H. destruct ((c =? 45) || (c =? 43)) eqn:Esign.
    - cbn [forallb]. rewrite (float_body r _ _ H). rewrite andb_true_r. unfold fchar.
      apply orb_true_iff in Esign. destruct Esign as [E|E]; rewrite E; rewrite ?orb_true_r; reflexivity.
    - exact (float_body (c :: r) _ _ H). }
  destruct (fchars_word _ F) as [S A]. split; [exact S|]. split; [exact A|discriminate].
Qed.
