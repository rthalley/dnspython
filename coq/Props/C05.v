(* C05 - every record type's master-file text parses back to an equal record.
   Statements only; the proofs are in Proofs/Tok*.v and Proofs/RdText*.v.
   Models: Model/TokM.v (dns/tokenizer.py, text helpers of dns/rdata.py), Model/RdTextM.v (the
   to_styled_text / from_text pairs of the regular rdata types as a field language),
   Model/NameM.v (dns/name.py, shared). *)
From DV Require Import Base.Prelude Model.NameM Model.TokM Model.RdTextM.
From DV Require Import Proofs.NameValid Proofs.NameOrder Proofs.NameText.
From DV Require Import Proofs.TokEsc Proofs.TokTxt Proofs.TokWords Proofs.TokDec Proofs.TokHex
     Proofs.TokShape Proofs.TokGeneric Proofs.TokUtf8 Proofs.RdTextName Proofs.RdTextAddr Proofs.RdTextBitmap Proofs.RdTextTypes Proofs.RdTextB32 Proofs.RdTextSig Proofs.RdTextEui Proofs.RdTextFmtHex Proofs.RdTextLoc Proofs.RdTextLocAlt Proofs.RdText Proofs.RdTextRel Proofs.RdTextWire Proofs.RdTextSchemaTie.
From DV Require Model.SchemaM.
Open Scope Z_scope.

(* TXT-like records (TXT, SPF, AVC, NINFO, RESINFO, WALLET): the text produced by to_styled_text for
   any non-empty list of octet strings (all 256 octet values, each string <= 255 octets) followed by
   end of line / end of input is read back by dns.rdata.from_text (peek for the generic syntax,
   Tokenizer.get_remaining, Token.unescape_to_bytes, end-of-line check) as the same list. *)
Theorem quoted_bytes_roundtrip : forall strings rest,
  strings <> [] ->
  Forall (fun s => all_bytes s = true /\ zlen s <= 255) strings ->
  (rest = [] \/ exists r, rest = 10 :: r) ->
  rdata_from_text_txt (txt_to_text strings ++ rest) = Ok strings.
Proof. exact txt_roundtrip. Qed.
Print Assumptions quoted_bytes_roundtrip.

Example quoted_bytes_roundtrip_nonvacuous :
  let strings := [[0; 9; 10; 31; 32; 34; 59; 92; 127; 128; 200; 255]; []; [40; 41]] in
  strings <> [] /\ Forall (fun s => all_bytes s = true /\ zlen s <= 255) strings /\
  rdata_from_text_txt (txt_to_text strings ++ [10]) = Ok strings.
Proof.
  split; [discriminate|]. split.
  - repeat (constructor; [split; [reflexivity|vm_compute; discriminate]|]). constructor.
  - vm_compute. reflexivity.
Qed.

(* the per-string core: Token.unescape_to_bytes inverts dns.rdata._escapify on every octet string *)
Theorem unescape_to_bytes_inverts_escapify : forall s,
  all_bytes s = true -> ub_loop (escapify s) [] = Ok s.
Proof. exact unescape_to_bytes_escapify. Qed.
Print Assumptions unescape_to_bytes_inverts_escapify.

(* the code-point path (Tokenizer.get_string = Token.unescape, then str.encode()), still used by
   GPOS/NSEC3/... and, before fix 83744a5, by HINFO/X25/ISDN/CAA/NAPTR: correct for ASCII only *)
Theorem quotedcp_roundtrip_partial : forall s,
  all_ascii s = true -> (do u <- ue_loop (escapify s) []; utf8_encode u) = Ok s.
Proof. exact codepoint_path_ascii. Qed.
Print Assumptions quotedcp_roundtrip_partial.

Theorem quotedcp_refuted :
  exists s, all_bytes s = true /\ (do u <- ue_loop (escapify s) []; utf8_encode u) <> Ok s.
Proof. exact codepoint_path_refuted. Qed.
Print Assumptions quotedcp_refuted.

(* RdataStyle.txt_is_utf8 (documented as lossless): strings that are well-formed UTF-8 are printed as
   characters by _escapify_unicode, the others octet-wise; both settings read back as the octets.
   utf8_decode is the strict decoder (Unicode table 3-7) and is the left inverse of str.encode(). *)
Theorem quoted_bytes_roundtrip_styles : forall utf8 strings rest,
  strings <> [] ->
  Forall (fun s => all_bytes s = true /\ zlen s <= 255) strings ->
  (rest = [] \/ exists r, rest = 10 :: r) ->
  rdata_from_text_txt (txt_to_text_style utf8 strings ++ rest) = Ok strings.
Proof. exact txt_roundtrip_style. Qed.
Print Assumptions quoted_bytes_roundtrip_styles.

Theorem utf8_decode_then_encode : forall s u,
  utf8_decode s = Some u -> utf8_encode u = Ok s /\ Forall (fun c => 0 <= c) u.
Proof. exact utf8_decode_encode. Qed.
Print Assumptions utf8_decode_then_encode.

Example quoted_bytes_roundtrip_styles_nonvacuous :
  (* U+00A0, U+200B, U+3000, a control character, a quote; then an ill-formed sequence *)
  let strings := [[194; 160; 226; 128; 139; 227; 128; 128; 1; 34]; [192; 128; 255]] in
  txt_to_text_style true strings
    = [34; 160; 8203; 12288; 92; 48; 48; 49; 92; 34; 34; 32; 34; 92; 49; 57; 50; 92; 49; 50; 56; 92; 50; 53; 53; 34]
  /\ rdata_from_text_txt (txt_to_text_style true strings ++ [10]) = Ok strings.
Proof. split; vm_compute; reflexivity. Qed.

(* f"{n}" read back by Tokenizer.as_uintN (int() of the token), any width *)
Theorem decimal_field_roundtrip : forall maxv n,
  0 <= n <= maxv -> as_uint maxv (mkTok tIDENT (dec n) false None) 10 = Ok n.
Proof. exact as_uint_dec. Qed.
Print Assumptions decimal_field_roundtrip.

Theorem ttl_field_roundtrip : forall n, 0 <= n <= MAX_TTL -> ttl_from_text (dec n) = Ok n.
Proof. exact ttl_from_text_dec. Qed.
Print Assumptions ttl_field_roundtrip.

Theorem hex_roundtrip : forall d, all_bytes d = true -> unhexlify (hexlify d) = Ok d.
Proof. exact unhexlify_hexlify. Qed.
Print Assumptions hex_roundtrip.

Theorem base64_roundtrip : forall d, all_bytes d = true -> b64decode (b64encode d) = Ok d.
Proof. exact b64decode_b64encode. Qed.
Print Assumptions base64_roundtrip.

(* NSEC3 next hashed owner: base32hex, lower case, padding stripped on output and restored on input
   (base64.b32encode / b32decode with the two translation tables) *)
Theorem base32hex_roundtrip : forall d, all_bytes d = true -> b32hex_decode (b32hex_encode d) = Ok d.
Proof. exact b32hex_roundtrip. Qed.
Print Assumptions base32hex_roundtrip.

(* _wordbreak with ANY chunk size and any separator made of blanks: the tokenizer's
   concatenate_remaining_identifiers returns the unbroken string (hex and base64 alphabets consist of
   "safe" characters: no delimiter, no backslash) *)
Theorem chunked_text_roundtrip : forall w chunk sep rest allow_empty,
  forallb safe w = true -> forallb is_blank sep = true ->
  (rest = [] \/ exists r, rest = 10 :: r) -> (allow_empty = true \/ w <> []) ->
  exists te st, is_eol_or_eof te = true /\ ungot st = Some te /\
    concatenate_remaining_identifiers (mkSt (wordbreak w chunk sep ++ rest) 0%nat false None) allow_empty
    = Ok (w, st).
Proof. exact chunked_wordbreak_roundtrip. Qed.
Print Assumptions chunked_text_roundtrip.

Theorem hex_and_base64_alphabets_are_safe : forall d, all_bytes d = true ->
  forallb safe (hexlify d) = true /\ forallb safe (b64encode d) = true.
Proof. exact alphabets_safe. Qed.
Print Assumptions hex_and_base64_alphabets_are_safe.

(* inet_aton (inet_ntoa a) = a for every 4-octet / 16-octet string: dotted quad; for IPv6 the longest
   zero run written as `::` (anywhere, including the all-zero address), the embedded IPv4 forms
   `::a.b.c.d` and `::ffff:a.b.c.d`, leading zeros of each group stripped.  Used by A, AAAA, L32 (in the
   schema below), APL, IPSECKEY/AMTRELAY gateways, WKS. *)
Theorem ipv4_text_roundtrip : forall a, all_bytes a = true -> length a = 4%nat ->
  exists t, ipv4_ntoa a = Ok t /\ ipv4_aton t = Ok a.
Proof. exact ipv4_roundtrip. Qed.
Print Assumptions ipv4_text_roundtrip.

Theorem ipv6_text_roundtrip : forall a, all_bytes a = true -> length a = 16%nat ->
  exists t, ipv6_ntoa a = Ok t /\ ipv6_aton t = Ok a.
Proof. exact ipv6_roundtrip. Qed.
Print Assumptions ipv6_text_roundtrip.

Example ipv6_text_examples :
  ipv6_ntoa [32; 1; 13; 184; 0; 0; 0; 0; 0; 0; 0; 0; 0; 0; 0; 1]
    = Ok [50; 48; 48; 49; 58; 100; 98; 56; 58; 58; 49]                          (* 2001:db8::1 *)
  /\ ipv6_ntoa [0; 0; 0; 0; 0; 0; 0; 0; 0; 0; 255; 255; 1; 2; 3; 4]
    = Ok [58; 58; 102; 102; 102; 102; 58; 49; 46; 50; 46; 51; 46; 52]            (* ::ffff:1.2.3.4 *)
  /\ ipv6_aton [58; 58] = Ok (repeat 0 16).
Proof. repeat split; vm_compute; reflexivity. Qed.

(* NSEC / NSEC3 / CSYNC type bitmaps *)

(* dns/rdtypes/util.py Bitmap: the types printed by Bitmap.to_text (in that order), read back by
   Bitmap.from_rdtypes (sort, skip duplicates, open a new window when the window number changes, set the
   bit, remember the highest octet used), give the same windows - for every canonical bitmap (RFC 4034
   4.1.2: window numbers increasing, 1..32 octets, last octet not zero; bit 0 of window 0 clear because
   type 0 cannot be written).  The mnemonic layer (dns.rdatatype.to_text/from_text) is checked by the
   correspondence (op 54 reads the printed mnemonics back). *)
Theorem type_bitmap_roundtrip : forall ws,
  canon_from (-1) ws -> no_type0 ws -> from_rdtypes (bitmap_types ws) = ws.
Proof. exact bitmap_text_roundtrip. Qed.
Print Assumptions type_bitmap_roundtrip.

(* dns/rdatatype.py: RdataType.from_text (RdataType.to_text v) = v for every type value (mnemonic, with
   '_' printed as '-', or TYPEnnn), and the printed form is a non-empty tokenizer word (the member
   table by evaluation, TYPEnnn by the decimal round trip).  With type_bitmap_roundtrip this puts NSEC and CSYNC under text_roundtrip_schema. *)
Theorem type_mnemonic_roundtrip : forall v, 0 <= v < 65536 ->
  exists n, rdtype_to_text v = Ok n /\ n <> [] /\ forallb safe n = true /\ rdtype_from_text n = Ok v.
Proof. exact rdtype_facts. Qed.
Print Assumptions type_mnemonic_roundtrip.

Example type_bitmap_roundtrip_nonvacuous :
  (* A RRSIG NSEC (window 0, 6 octets) and CAA (window 1, 1 octet): the later window is shorter *)
  let ws := [(0, [64; 0; 0; 0; 0; 3]); (1, [64])] in
  canon_from (-1) ws /\ no_type0 ws /\ bitmap_types ws = [1; 46; 47; 257] /\ from_rdtypes [1; 46; 47; 257] = ws.
Proof.
  cbv zeta. split.
  - cbn [canon_from fst]. unfold canon_window. cbn [fst snd]. repeat split; try lia; try discriminate; vm_compute; discriminate.
  - split; [intros _; reflexivity|]. split; vm_compute; reflexivity.
Qed.

(* RFC 3597 generic form *)

(* unknown type: GenericRdata.to_styled_text / dns.rdata.from_text, any hex chunk size, blank separators *)
Theorem generic_roundtrip : forall d chunk sep rest,
  all_bytes d = true -> forallb is_blank sep = true -> (rest = [] \/ exists r, rest = 10 :: r) ->
  rdata_from_text_generic (generic_to_text d chunk sep ++ rest) = Ok d.
Proof. exact generic_roundtrip_unknown. Qed.
Print Assumptions generic_roundtrip.

(* known type written in generic syntax: for ANY type whose wire codec round-trips on v (fw/tw are
   the type's from_wire / to_wire), dns.rdata.from_text of the generic text of to_wire(v) is v *)
Theorem generic_roundtrip_known_type : forall (V : Type) (ft : tstate -> res (V * tstate))
    (fw : list Z -> res V) (tw : V -> res (list Z)) (v : V) (w : list Z) chunk sep rest,
  tw v = Ok w -> fw w = Ok v -> all_bytes w = true -> forallb is_blank sep = true ->
  (rest = [] \/ exists r, rest = 10 :: r) ->
  rdata_from_text ft fw tw (generic_to_text w chunk sep ++ rest) = Ok v.
Proof. intros V. exact (@generic_roundtrip_known V). Qed.
Print Assumptions generic_roundtrip_known_type.

(* instance with a real wire codec: the TXT-like types *)
Theorem generic_roundtrip_txt : forall strings chunk sep rest,
  strings <> [] -> Forall (fun s => all_bytes s = true /\ zlen s <= 255) strings ->
  forallb is_blank sep = true -> (rest = [] \/ exists r, rest = 10 :: r) ->
  rdata_from_text_txt (generic_to_text (txt_to_wire strings) chunk sep ++ rest) = Ok strings.
Proof. exact txt_generic_roundtrip. Qed.
Print Assumptions generic_roundtrip_txt.

Example generic_roundtrip_nonvacuous :
  rdata_from_text_generic (generic_to_text [0; 255; 16] 2 [32; 9] ++ [10]) = Ok [0; 255; 16]
  /\ generic_to_text [0; 255; 16] 2 [32; 9] = [92; 35; 32; 51; 32; 48; 48; 32; 9; 102; 102; 32; 9; 49; 48].
Proof. split; vm_compute; reflexivity. Qed.

(* RRSIG / SIG inception and expiration (dns/rdtypes/rrsigbase.py): posixtime_to_sigtime prints the
   32-bit time as YYYYMMDDHHMMSS (time.gmtime, modelled by the civil-from-days algorithm) and
   sigtime_to_posixtime reads it back (string slices, int(), the proleptic Gregorian day count of
   calendar.timegm): equal for every value of the field, the text being one tokenizer word. *)
Theorem sigtime_text_roundtrip : forall t, 0 <= t <= 4294967295 ->
  sigtime_to_posixtime (posixtime_to_sigtime t) = Ok t
  /\ forallb safe (posixtime_to_sigtime t) = true /\ posixtime_to_sigtime t <> [].
Proof. exact sigtime_roundtrip. Qed.
Print Assumptions sigtime_text_roundtrip.

Example sigtime_examples :
  posixtime_to_sigtime 0 = [49;57;55;48;48;49;48;49;48;48;48;48;48;48]                   (* 19700101000000 *)
  /\ posixtime_to_sigtime 951782399 = [50;48;48;48;48;50;50;56;50;51;53;57;53;57]        (* 20000228235959 *)
  /\ posixtime_to_sigtime 951782400 = [50;48;48;48;48;50;50;57;48;48;48;48;48;48]        (* 20000229000000 *)
  /\ posixtime_to_sigtime 4294967295 = [50;49;48;54;48;50;48;55;48;54;50;56;49;53]       (* 21060207062815 *)
  /\ sigtime_to_posixtime [50;49;48;54;48;50;48;55;48;54;50;56;49;53] = Ok 4294967295.
Proof. repeat split; vm_compute; reflexivity. Qed.

(* dns/rdtypes/euibase.py: the octets printed as hex pairs joined by "-" (one tokenizer word) are read
   back - text length, dash positions, dashes removed, unhexlify, octet count - as the same octets;
   stated for every length n > 0 (the two types use 6 and 8). *)
Theorem eui_text_roundtrip : forall n b, all_bytes b = true -> length b = n -> (0 < n)%nat ->
  eui_from_text n (eui_to_text b) = Ok b /\ forallb safe (eui_to_text b) = true /\ eui_to_text b <> [].
Proof. exact eui_roundtrip. Qed.
Print Assumptions eui_text_roundtrip.

Example eui_examples :
  eui_to_text [0; 1; 35; 171; 205; 255] = [48;48;45;48;49;45;50;51;45;97;98;45;99;100;45;102;102]   (* 00-01-23-ab-cd-ff *)
  /\ eui_from_text 6 [48;48;45;48;49;45;50;51;45;65;66;45;99;100;45;102;102] = Ok [0; 1; 35; 171; 205; 255]
  /\ eui_from_text 6 [48;48;45;48;49;45;50;51;45;97;98;45;99;100;45;102] = Lib eSyntax
  /\ eui_from_text 6 [48;48;58;48;49;45;50;51;45;97;98;45;99;100;45;102;102] = Lib eSyntax
  /\ schema_of 108 = Some [FEui 6] /\ schema_of 109 = Some [FEui 8].
Proof. repeat split; vm_compute; reflexivity. Qed.

(* dns/rdtypes/CH/A.py: the 16-bit address printed with f"{address:o}" is one tokenizer word and reads
   back through get_uint16(base=8), for all 65536 addresses *)
Theorem octal_field_roundtrip : forall v, 0 <= v <= 65535 ->
  print_base 8 v <> [] /\ forallb safe (print_base 8 v) = true /\
  as_uint max16 (mkTok tIDENT (print_base 8 v) false None) 8 = Ok v.
Proof. exact octal_facts. Qed.
Print Assumptions octal_field_roundtrip.

Example octal_examples :
  print_base 8 4660 = [49; 49; 48; 54; 52] /\ print_base 8 0 = [48] /\ print_base 8 65535 = [49; 55; 55; 55; 55; 55]
  /\ as_uint max16 (mkTok tIDENT [49; 56] false None) 8 = Lib eSyntax           (* "18" is not octal *)
  /\ schema_of CH_A = Some [FName; FOct16].
Proof. repeat split; vm_compute; reflexivity. Qed.

(* dns/rdtypes/ANY/NID.py, L64.py keep the 64-bit value as the text xxxx:xxxx:xxxx:xxxx and validate it with
   dns.rdtypes.util.parse_formatted_hex (after fix 18da675: hexadecimal digits only).  A validated text is
   one tokenizer word (so it is printed and read back verbatim by the schema theorem), and the text the
   constructor builds from 8 octets (from_wire) is valid. *)
Theorem formatted_hex_text_is_word : forall t, fmthex_ok t = true -> forallb safe t = true /\ t <> [].
Proof. exact fmthex_word. Qed.
Print Assumptions formatted_hex_text_is_word.

Theorem formatted_hex_of_octets_valid : forall b, all_bytes b = true -> length b = 8%nat ->
  fmthex_ok (fmthex_of_bytes b) = true.
Proof. exact fmthex_of_bytes_ok. Qed.
Print Assumptions formatted_hex_of_octets_valid.

Example formatted_hex_examples :
  fmthex_of_bytes [0; 20; 79; 255; 255; 32; 238; 100]
  = [48;48;49;52;58;52;102;102;102;58;102;102;50;48;58;101;101;54;52]                 (* 0014:4fff:ff20:ee64 *)
  /\ fmthex_ok [50;48;48;49;58;48;68;66;56;58;49;49;52;48;58;49;48;48;48] = true       (* 2001:0DB8:1140:1000 *)
  /\ fmthex_ok [32;49;50;51;58;48;48;48;48;58;48;48;48;48;58;48;48;48;48] = false      (* " 123:..." (before the fix: accepted) *)
  /\ fmthex_ok [48;120;49;50;58;48;48;48;48;58;48;48;48;48;58;48;48;48;48] = false     (* 0x12:... *)
  /\ fmthex_ok [50;48;48;49;58;48;68;66;56;58;49;49;52;48;45;49;48;48;48] = false      (* wrong separator *)
  /\ schema_of 104 = Some [u16; FFmtHex] /\ schema_of 106 = Some [u16; FFmtHex].
Proof. repeat split; vm_compute; reflexivity. Qed.

(* dns/rdtypes/ANY/LOC.py keeps the altitude and the three sizes as floats and prints them with
   format(x / 100.0, "0.2f"); from_text reads float(t) * 100.0.  The model does this in IEEE-754 double arithmetic
   (round_q: correctly rounded, ties to even; compared with CPython on every run).  The record-level theorem
   (FLocRec case of text_roundtrip_schema) reduces the round trip to the per-number map num_reparse; for the
   numbers that records read from wire contain it is settled here:
   - the sizes base * 10^exponent cm (RFC 1876, 100 values): the two-decimal text reads back, through
     float(_decode_size(_encode_size(.))) of fix d18c8f0, to exactly the same float;
   - the altitude (whole cm): round(float(text) * 100.0) is the altitude again for every value of the 32-bit wire
     range, by error bounds on the three correctly rounded operations (no sweep). *)
Theorem loc_sizes_from_wire_roundtrip : forall b e, 0 <= b <= 9 -> 0 <= e <= 9 ->
  loc_norm (num_reparse (wire_size b e)) = Ok (wire_size b e) /\ 0 <= dm (wire_size b e).
Proof. exact wire_size_roundtrip. Qed.
Print Assumptions loc_sizes_from_wire_roundtrip.

Theorem loc_altitude_roundtrip : forall alt, -10000000 <= alt < 4284967296 ->
  exists a', num_reparse (the_dbl (dbl_of_Z alt)) = FFin a' /\ dbl_round a' = alt.
Proof. exact altitude_roundtrip. Qed.
Print Assumptions loc_altitude_roundtrip.

(* hence a LOC whose sizes are wire values is read back exactly (loc_expect is what the FLocRec case of
   text_roundtrip_schema returns) *)
Theorem loc_from_wire_reads_back_exactly : forall la lo alt sz hp vp,
  is_wire_size sz -> is_wire_size hp -> is_wire_size vp -> loc_expect la lo alt sz hp vp = VLoc la lo alt sz hp vp.
Proof. exact loc_expect_wire. Qed.
Print Assumptions loc_from_wire_reads_back_exactly.

(* the rounding primitive: for 2^-10 <= n/d < 2^40 the result is finite and within half a unit of its last place *)
Theorem double_rounding_spec : forall neg n d, 0 < n -> 0 < d -> d <= n * 2 ^ 10 -> n < d * 2 ^ 40 ->
  exists m e, round_q neg n d = FFin (mkD neg m e) /\ -64 <= e <= -11 /\ 0 <= m /\
    Z.abs (m * d - n * 2 ^ (- e)) * 2 <= d.
Proof. exact round_q_spec. Qed.
Print Assumptions double_rounding_spec.

(* The regular rdata types as field lists (schema_of): decimal fields of every width, TTLs, names,
   quoted character-strings, rest-of-line hex / base64, TXT strings.  For every well-formed schema,
   all field values within the constructor's ranges, every style whose chunk separators are blanks
   (any chunk sizes, any origin/relativize) and every parsing context (origin, relativize,
   relativize_to): dns.rdata.from_text of the printed text returns the values, names being mapped by
   the name-level effect `name_path` of the two relativization choices (no text involved). *)
Theorem text_roundtrip_schema : forall sty c fs chk vs text vs' rest fw tw,
  schema_wf fs -> Forall2 val_ok fs vs -> style_ok sty -> (rest = [] \/ exists r, rest = 10 :: r) ->
  record_to_text sty fs vs = Ok text -> expects sty c fs vs = Ok vs' -> chk vs' = Ok tt ->
  record_from_text_gen fw tw c fs chk (text ++ rest) = Ok vs'.
Proof. exact record_roundtrip. Qed.
Print Assumptions text_roundtrip_schema.

(* every schema of the table is well-formed *)
Theorem schema_table_wf : forall rdtype fs, schema_of rdtype = Some fs -> schema_wf fs.
Proof. exact schema_table_wf_all. Qed.
Print Assumptions schema_table_wf.

(* the two together, per record type of the table: no side condition on the schema is left, and the
   cross-field check is the type's own (schema_chk) *)
Theorem text_roundtrip_every_schema_type : forall rdtype fs sty c vs text vs' rest fw tw,
  schema_of rdtype = Some fs ->
  Forall2 val_ok fs vs -> style_ok sty -> (rest = [] \/ exists r, rest = 10 :: r) ->
  record_to_text sty fs vs = Ok text -> expects sty c fs vs = Ok vs' -> schema_chk rdtype vs' = Ok tt ->
  record_from_text_gen fw tw c fs (schema_chk rdtype) (text ++ rest) = Ok vs'.
Proof. exact record_roundtrip_type. Qed.
Print Assumptions text_roundtrip_every_schema_type.

(* names printed and parsed without any origin: exactly the same values (asis_vals is the identity except on the
   three LOC sizes, which come back as re-read from their two-decimal text; see the LOC section) *)
Theorem text_roundtrip_asis : forall sty c fs chk vs text rest fw tw,
  schema_wf fs -> Forall2 val_ok fs vs -> style_ok sty -> (rest = [] \/ exists r, rest = 10 :: r) ->
  s_origin sty = None -> p_origin c = None -> p_relativize_to c = None ->
  record_to_text sty fs vs = Ok text -> chk (asis_vals fs vs) = Ok tt ->
  record_from_text_gen fw tw c fs chk (text ++ rest) = Ok (asis_vals fs vs).
Proof. exact record_roundtrip_asis. Qed.
Print Assumptions text_roundtrip_asis.

Theorem asis_is_identity_without_loc : forall fs vs, length fs = length vs ->
  existsb (fun f => match f with FLocRec => true | _ => false end) fs = false -> asis_vals fs vs = vs.
Proof. exact asis_vals_id. Qed.
Print Assumptions asis_is_identity_without_loc.

(* relativity: a name below the (absolute) origin, relativized on output and read back with the same
   origin, is relativize(n, origin) when relativize=True and a name equal to n up to ASCII case
   (the origin's own spelling) when relativize=False *)
Theorem name_relativity_relout : forall sty n x o (rel_in : bool),
  Valid n -> Valid (x :: o) -> is_absolute (x :: o) = true -> is_subdomain n (x :: o) = true ->
  exists r, relativize n (x :: o) = Ok r /\ ci_equal (r ++ x :: o) n /\
    name_path (sty_rel sty (x :: o) true) (mkPctx (Some (x :: o)) rel_in None) n
    = Ok (if rel_in then r else r ++ x :: o).
Proof. exact name_path_relout. Qed.
Print Assumptions name_relativity_relout.

(* a relative name made absolute on output reads back, without origin, as the absolute name *)
Theorem name_relativity_absout : forall sty r x o,
  Valid (r ++ x :: o) -> is_absolute r = false ->
  name_path (sty_rel sty (x :: o) false) (mkPctx None true None) r = Ok (r ++ x :: o).
Proof. exact name_path_absout. Qed.
Print Assumptions name_relativity_absout.

(* non-vacuity: an SOA and a NAPTR with awkward octets, origin ex., relativized output, chunking *)
Definition ex_origin : name := [[101; 120]; []].
Definition ex_sty : style := mkStyle (Some ex_origin) true 3 [32; 9] 5 [32] true.
Definition ex_ctx : pctx := mkPctx (Some ex_origin) true None.
Definition ex_soa : list tval :=
  [VName [[64; 46; 0]; [101; 120]; []]; VName [[]]; VInt 4294967295; VInt 0; VInt 1; VInt 7; VInt 2147483647].
Definition ex_naptr : list tval :=
  [VInt 65535; VInt 0; VBytes [34; 92; 200]; VBytes []; VBytes [59; 40]; VName [[255]; [69; 88]; []]].
Definition ex_rrsig : list tval :=
  [VInt 65280; VInt 13; VInt 255; VInt 2147483647; VInt 4294967295; VInt 951782400; VInt 65535;
   VName [[115]; [101; 120]; []]; VBytes [0; 255; 62; 63]].
Definition ex_soa_fs : list tfield := [FName; FName; u32; FTtl; FTtl; FTtl; FTtl].
Definition ex_naptr_fs : list tfield := [u16; u16; cstr; cstr; cstr; FName].

Example text_roundtrip_schema_hypotheses :
  schema_of 6 = Some ex_soa_fs /\ schema_of 35 = Some ex_naptr_fs /\ style_ok ex_sty /\
  Forall2 val_ok ex_soa_fs ex_soa /\ Forall2 val_ok ex_naptr_fs ex_naptr /\
  exists fs, schema_of 46 = Some fs /\ schema_of 24 = Some fs /\ Forall2 val_ok fs ex_rrsig.
Proof.
  assert (N : forall n, validate_labels n = Ok tt -> Forall (fun l => forallb is_byte l = true) n -> Valid n /\ AllBytes n).
  { intros n H1 H2. split; [apply validate_iff, H1|]. unfold AllBytes.
    eapply Forall_impl; [|exact H2]. intros l Hl. rewrite forallb_forall in Hl. apply Forall_forall.
    intros x Hx. apply is_byte_range, Hl, Hx. }
  split; [reflexivity|]. split; [reflexivity|]. split.
  { split; [reflexivity|]. split; [reflexivity|]. apply N; [reflexivity|repeat constructor]. }
  split; [|split].
  - unfold ex_soa_fs, ex_soa, u32. repeat (apply Forall2_cons || apply Forall2_nil); cbn [val_ok];
      try (apply N; [reflexivity|repeat constructor]); unfold MAX_TTL; lia.
  - unfold ex_naptr_fs, ex_naptr, u16, cstr. repeat (apply Forall2_cons || apply Forall2_nil); cbn [val_ok];
      try (apply N; [reflexivity|repeat constructor]); try lia;
      (split; [reflexivity|]; split; [left; reflexivity|]; split; [right; unfold zlen; cbn; lia|discriminate]).
  - eexists. split; [reflexivity|]. split; [reflexivity|]. unfold ex_rrsig.
    repeat (apply Forall2_cons || apply Forall2_nil); cbn [val_ok enum_max];
      try (apply N; [reflexivity|repeat constructor]); try (unfold MAX_TTL; lia).
    split; [reflexivity|discriminate].
Qed.

Example text_roundtrip_schema_computed :
  (do text <- record_to_text ex_sty ex_soa_fs ex_soa; record_from_text ex_ctx ex_soa_fs no_check (text ++ [10]))
  = Ok (VName [[64; 46; 0]] :: tl ex_soa)
  /\ expects ex_sty ex_ctx ex_soa_fs ex_soa = Ok (VName [[64; 46; 0]] :: tl ex_soa)
  /\ (do text <- record_to_text ex_sty ex_naptr_fs ex_naptr; record_from_text ex_ctx ex_naptr_fs no_check text)
    = Ok [VInt 65535; VInt 0; VBytes [34; 92; 200]; VBytes []; VBytes [59; 40]; VName [[255]]]
  /\ match schema_of 46 with
     | Some fs => (do text <- record_to_text ex_sty fs ex_rrsig; record_from_text ex_ctx fs (schema_chk 46) text)
                  = Ok [VInt 65280; VInt 13; VInt 255; VInt 2147483647; VInt 4294967295; VInt 951782400; VInt 65535;
                        VName [[115]]; VBytes [0; 255; 62; 63]]
     | None => False
     end.
Proof. split; [vm_compute; reflexivity|]. split; [vm_compute; reflexivity|]. split; vm_compute; reflexivity. Qed.

(* the checks relating several fields (chk): DS / CDS / DLV digest length by digest type, ZONEMD *)
Example record_check_examples :
  match schema_of 43, schema_of 59, schema_of 63 with
  | Some fs, Some cfs, Some zfs =>
      let vs := [VInt 60485; VInt 5; VInt 1; VBytes (repeat 171 20)] in
      let del := [VInt 0; VInt 0; VInt 0; VBytes [0]] in
      let z := [VInt 2018031900; VInt 1; VInt 1; VBytes (repeat 7 48)] in
      schema_chk 43 vs = Ok tt
      /\ (do text <- record_to_text ex_sty fs vs; record_from_text ex_ctx fs (schema_chk 43) text) = Ok vs
      (* one octet less: it prints, but the constructor's length check rejects it *)
      /\ (do text <- record_to_text ex_sty fs [VInt 60485; VInt 5; VInt 1; VBytes (repeat 171 19)];
          record_from_text ex_ctx fs (schema_chk 43) text) = Lib eSyntax
      (* the CDS "delete" form is a CDS but not a DS *)
      /\ (do text <- record_to_text ex_sty cfs del; record_from_text ex_ctx cfs (schema_chk 59) text) = Ok del
      /\ (do text <- record_to_text ex_sty fs del; record_from_text ex_ctx fs (schema_chk 43) text) = Lib eSyntax
      /\ (do text <- record_to_text ex_sty zfs z; record_from_text ex_ctx zfs (schema_chk 63) text) = Ok z
  | _, _, _ => False
  end.
Proof. vm_compute. repeat split; reflexivity. Qed.

(* optional and list-valued last fields: ISDN with and without subaddress, HIP with rendezvous servers
   (relativized on output, read back with the same origin), TKEY with and without other data *)
Example tail_field_examples :
  match schema_of 20, schema_of 55, schema_of 249 with
  | Some isdn, Some hip, Some tkey =>
      let i1 := [VBytes [49; 34; 200]; VBytes [0; 92]] in
      let i2 := [VBytes [49; 34; 200]; VBytes []] in
      let h := [VInt 2; VBytes [32; 1; 255]; VBytes [3; 1; 0; 1; 183]; VNames [[[114; 118; 115]; [101; 120]; []]; [[92; 46]; [111]; []]]] in
      let t1 := [VName [[103; 115; 115]; []]; VInt 0; VInt 4294967295; VInt 3; VInt 0; VBytes [1; 2; 3]; VBytes []] in
      let t2 := [VName [[103; 115; 115]; []]; VInt 0; VInt 4294967295; VInt 3; VInt 0; VBytes [1; 2; 3]; VBytes [255]] in
      (do text <- record_to_text ex_sty isdn i1; record_from_text ex_ctx isdn (schema_chk 20) text) = Ok i1
      /\ (do text <- record_to_text ex_sty isdn i2; record_from_text ex_ctx isdn (schema_chk 20) (text ++ [10])) = Ok i2
      /\ (do text <- record_to_text ex_sty hip h; record_from_text ex_ctx hip (schema_chk 55) text)
         = Ok [VInt 2; VBytes [32; 1; 255]; VBytes [3; 1; 0; 1; 183]; VNames [[[114; 118; 115]]; [[92; 46]; [111]; []]]]
      /\ (do text <- record_to_text ex_sty tkey t1; record_from_text ex_ctx tkey (schema_chk 249) text) = Ok t1
      /\ (do text <- record_to_text ex_sty tkey t2; record_from_text ex_ctx tkey (schema_chk 249) (text ++ [10])) = Ok t2
  | _, _, _ => False
  end.
Proof. vm_compute. repeat split; reflexivity. Qed.

(* IEEE-754 checks: 1.15 * 100.0 = 114.99999999999999 (int 114, round 115); 0.29 * 100.0 truncates to 28;
   a LOC with default sizes (omitted), one with explicit sizes, sizes that the wire form cannot hold *)
Example loc_examples :
  (match float_of_text [49; 46; 49; 53] with
   | Ok x => match fmul100 x with FFin d => Some (dm d, de d, dbl_round d, dbl_trunc d) | _ => None end
   | _ => None end) = Some (8092405580431359, -46, 115, 114)
  /\ (match float_of_text [48; 46; 50; 57] with
      | Ok x => match fmul100 x with FFin d => Some (dbl_trunc d) | _ => None end | _ => None end) = Some 28
  /\ match schema_of 29 with
     | Some loc =>
         let l1 := [VLoc (42, 21, 54, 0, 1) (71, 6, 18, 0, -1) (-2400) loc_default_size loc_default_hprec loc_default_vprec] in
         let l2 := [VLoc (90, 0, 0, 1, -1) (0, 0, 0, 999, 1) 4284967295 (wire_size 7 0) (wire_size 1 6) (wire_size 0 0)] in
         (do text <- record_to_text ex_sty loc l1; Ok text)
         = Ok [52;50;32;50;49;32;53;52;46;48;48;48;32;78;32;55;49;32;54;32;49;56;46;48;48;48;32;87;32;45;50;52;46;48;48;109]
         /\ (do text <- record_to_text ex_sty loc l1; record_from_text ex_ctx loc (schema_chk 29) text) = Ok l1
         /\ (do text <- record_to_text ex_sty loc l2; record_from_text ex_ctx loc (schema_chk 29) (text ++ [10])) = Ok l2
         (* 0.07m is re-read as 7.000000000000001 cm and kept as 7 cm *)
         /\ the_dbl (num_reparse (wire_size 7 0)) <> wire_size 7 0 /\ loc_norm (num_reparse (wire_size 7 0)) = Ok (wire_size 7 0)
         (* a size given in the text that the wire form cannot hold: 0.079m is kept as 7 cm, 29m as 20m *)
         /\ record_from_text ex_ctx loc (schema_chk 29)
              [49;32;78;32;49;32;69;32;48;32;48;46;48;55;57;109;32;50;57;109;32;49;109]
            = Ok [VLoc (1, 0, 0, 0, 1) (1, 0, 0, 0, 1) 0 (wire_size 7 0) (wire_size 2 3) (wire_size 1 2)]
     | None => False
     end.
Proof. vm_compute. repeat split; try reflexivity; discriminate. Qed.

(* SVCB / HTTPS: mandatory + alpn with a comma and a backslash inside an id (two levels of escaping) + port +
   hints + ech + an unregistered key with binary data + a valueless key; AliasMode; the record is read back; a
   duplicate key and parameters in AliasMode are rejected *)
Example svcb_examples :
  match schema_of 64, schema_of 65 with
  | Some svcb, Some https =>
      let ps := [(0, PKeys [1; 3]); (1, PStrs [[104; 50]; [97; 44; 92; 34]]); (3, PPort 8443);
                 (4, PAddrs false [[192; 0; 2; 1]; [10; 0; 0; 255]]); (5, PEch [1; 2; 3]);
                 (6, PAddrs true [[32; 1; 13; 184; 0; 0; 0; 0; 0; 0; 0; 0; 0; 0; 0; 1]]);
                 (8, PNone); (65000, PGen [0; 255; 34; 32])] in
      let r1 := [VSvcb 16 [[115; 118; 99]; [101; 120]; []] ps] in
      let r0 := [VSvcb 0 [[]] []] in
      svcb = https
      /\ (do text <- record_to_text ex_sty svcb r1; record_from_text ex_ctx svcb (schema_chk 64) text)
         = Ok [VSvcb 16 [[115; 118; 99]] ps]
      /\ (do text <- record_to_text ex_sty svcb r0; record_from_text ex_ctx svcb (schema_chk 64) (text ++ [10])) = Ok r0
      (* 1 . port=1 port=2 *)
      /\ record_from_text ex_ctx svcb (schema_chk 64) [49;32;46;32;112;111;114;116;61;49;32;112;111;114;116;61;50] = Lib eSyntax
      (* 0 . port=1 *)
      /\ record_from_text ex_ctx svcb (schema_chk 64) [48;32;46;32;112;111;114;116;61;49] = Lib eSyntax
  | _, _ => False
  end.
Proof. vm_compute. repeat split; reflexivity. Qed.

Example svcb_text_example :
  svcb_to_text ex_sty 1 [[]] [(1, PStrs [[104; 50]; [97; 44; 98]]); (2, PNone); (3, PPort 53)]
  = Ok [49;32;46;32;97;108;112;110;61;34;104;50;44;97;92;92;44;98;34;32;110;111;45;100;101;102;97;117;108;116;45;97;108;112;110;32;
        112;111;114;116;61;34;53;51;34].      (* 1 . alpn="h2,a\\,b" no-default-alpn port="53" *)
Proof. vm_compute. reflexivity. Qed.

(* WKS: the bitmap is rebuilt from the listed ports (here ports 0, 7, 8 and 23 -> 0x81 0x80 0x01); no port at all *)
Example wks_examples :
  match schema_of 11 with
  | Some wks =>
      let w1 := [VBytes [10; 0; 0; 1]; VInt 6; VBytes [129; 128; 1]] in
      let w0 := [VBytes [255; 255; 255; 255]; VInt 255; VBytes []] in
      (do text <- record_to_text ex_sty wks w1; record_from_text ex_ctx wks (schema_chk 11) text) = Ok w1
      /\ (do text <- record_to_text ex_sty wks w1; Ok text) = Ok [49;48;46;48;46;48;46;49;32;54;32;48;32;55;32;56;32;50;51]
      /\ (do text <- record_to_text ex_sty wks w0; record_from_text ex_ctx wks (schema_chk 11) (text ++ [10])) = Ok w0
      /\ record_from_text ex_ctx wks (schema_chk 11) [49;46;50;46;51;46;52;32;54;32;54;53;53;51;54] = Lib eSyntax   (* port 65536 *)
  | None => False
  end.
Proof. vm_compute. repeat split; reflexivity. Qed.

(* APL: items of the three address families (the IPv6 address contains colons: the first colon splits), the
   empty list, a missing prefix *)
Example apl_examples :
  match schema_of 42 with
  | Some apl =>
      let a1 := [VApl [(1, false, [10; 0; 0; 0], 8); (2, true, [32; 1; 13; 184; 0; 0; 0; 0; 0; 0; 0; 0; 0; 0; 0; 1], 128);
                       (3, false, [48; 97; 70; 70], 255)]] in
      (do text <- record_to_text ex_sty apl a1; record_from_text ex_ctx apl (schema_chk 42) text) = Ok a1
      /\ (do text <- record_to_text ex_sty apl a1; Ok text)
         = Ok [49;58;49;48;46;48;46;48;46;48;47;56;32;33;50;58;50;48;48;49;58;100;98;56;58;58;49;47;49;50;56;32;51;58;48;97;70;70;47;50;53;53]
      /\ (do text <- record_to_text ex_sty apl [VApl []]; record_from_text ex_ctx apl (schema_chk 42) (text ++ [10])) = Ok [VApl []]
      /\ record_from_text ex_ctx apl (schema_chk 42) [49; 58; 49; 46; 50; 46; 51; 46; 52] = Lib eSyntax
  | None => False
  end.
Proof. vm_compute. repeat split; reflexivity. Qed.

(* KEY: the flags / protocol mnemonics of RFC 2535 are accepted on input; with NOKEY flags nothing follows the
   algorithm (the printed trailing blank is harmless); a key after NOKEY is rejected *)
Example key_examples :
  match schema_of 25 with
  | Some key =>
      let k1 := [VKey 256 3 5 [] [1; 3; 210; 42]] in
      let k2 := [VKey 49152 3 8 [] []] in
      (do text <- record_to_text ex_sty key k1; record_from_text ex_ctx key (schema_chk 25) text) = Ok k1
      /\ (do text <- record_to_text ex_sty key k2; record_from_text ex_ctx key (schema_chk 25) (text ++ [10])) = Ok k2
      (* NOKEY|FLAG2 TLS RSASHA256 *)
      /\ record_from_text ex_ctx key (schema_chk 25)
           [78;79;75;69;89;124;70;76;65;71;50;32;84;76;83;32;82;83;65;83;72;65;50;53;54] = Ok [VKey 57344 1 8 [] []]
      (* NOKEY 3 8 AQID *)
      /\ record_from_text ex_ctx key (schema_chk 25) [78;79;75;69;89;32;51;32;56;32;65;81;73;68] = Lib eSyntax
  | None => False
  end.
Proof. vm_compute. repeat split; reflexivity. Qed.

(* GPOS: three decimal strings kept verbatim; the constructor's checks (_validate_float_string, |latitude| <= 90,
   |longitude| <= 180 as floats) are the cross-field check, shared with the C02 model (SchemaM.gpos_ok) *)
Example gpos_examples :
  match schema_of 27 with
  | Some gpos =>
      let g1 := [VBytes [45; 51; 50; 46; 54; 56; 56; 50]; VBytes [49; 49; 54; 46; 56; 54; 53; 50]; VBytes [49; 48; 46; 48]] in   (* -32.6882 116.8652 10.0 *)
      let g2 := [VBytes [43; 57; 48; 46]; VBytes [46; 53]; VBytes [45; 48]] in                                           (* +90. .5 -0 *)
      let bad := [VBytes [57; 48; 46; 49]; VBytes [48]; VBytes [48]] in                                                  (* 90.1 0 0 *)
      schema_chk 27 g1 = Ok tt /\ schema_chk 27 g2 = Ok tt /\ schema_chk 27 bad = Lib eFormError
      /\ (do text <- record_to_text ex_sty gpos g1; record_from_text ex_ctx gpos (schema_chk 27) text) = Ok g1
      /\ (do text <- record_to_text ex_sty gpos g2; record_from_text ex_ctx gpos (schema_chk 27) (text ++ [10])) = Ok g2
      /\ (do text <- record_to_text ex_sty gpos bad; record_from_text ex_ctx gpos (schema_chk 27) text) = Lib eSyntax
  | None => False
  end.
Proof. vm_compute. repeat split; reflexivity. Qed.

(* TSIG (meta record; its text form exists for debugging): BADSIG is printed for error 16, the other data is
   present or absent according to its length, a wrong MAC length is rejected *)
Example tsig_examples :
  match schema_of 250 with
  | Some tsig =>
      let t1 := [VName [[104; 109; 97; 99]; []]; VInt 281474976710655; VInt 300; VBytes [1; 2; 3; 255]; VInt 65535; VInt 16; VBytes []] in
      let t2 := [VName [[104; 109; 97; 99]; []]; VInt 0; VInt 0; VBytes [0]; VInt 0; VInt 18; VBytes [0; 0; 0; 0; 0; 1]] in
      (do text <- record_to_text ex_sty tsig t1; record_from_text ex_ctx tsig (schema_chk 250) text) = Ok t1
      /\ (do text <- record_to_text ex_sty tsig t2; record_from_text ex_ctx tsig (schema_chk 250) (text ++ [10])) = Ok t2
      /\ enum_print KRcode 16 = Ok [66; 65; 68; 83; 73; 71] /\ enum_print KRcode 4095 = Ok [52; 48; 57; 53]
      /\ record_from_text ex_ctx tsig (schema_chk 250)
           [104; 46; 32; 49; 32; 50; 32; 51; 32; 65; 81; 73; 68; 66; 65; 61; 61; 32; 48; 32; 48; 32; 48] = Lib eSyntax
  | None => False
  end.
Proof. vm_compute. repeat split; reflexivity. Qed.

(* gateway forms (dns.rdtypes.util.Gateway): IPSECKEY with no gateway and no key, with an IPv6 gateway, with a
   name below the origin; AMTRELAY with an IPv4 relay; a gateway text of the wrong form is rejected *)
Example gateway_examples :
  match schema_of 45, schema_of 260 with
  | Some ipk, Some amt =>
      let k0 := [VInt 10; VGw 0 0 GwNone; VBytes []] in
      let k2 := [VInt 10; VGw 2 2 (GwText [50; 48; 48; 49; 58; 100; 98; 56; 58; 58; 49]); VBytes [1; 3; 81; 83]] in
      let k3 := [VInt 0; VGw 3 255 (GwName [[103; 119]; [101; 120]; []]); VBytes [255]] in
      let a1 := [VInt 10; VInt 1; VGw 1 0 (GwText [49; 48; 46; 48; 46; 48; 46; 49])] in
      (do text <- record_to_text ex_sty ipk k0; record_from_text ex_ctx ipk (schema_chk 45) text) = Ok k0
      /\ (do text <- record_to_text ex_sty ipk k2; record_from_text ex_ctx ipk (schema_chk 45) (text ++ [10])) = Ok k2
      /\ (do text <- record_to_text ex_sty ipk k3; record_from_text ex_ctx ipk (schema_chk 45) text)
         = Ok [VInt 0; VGw 3 255 (GwName [[103; 119]]); VBytes [255]]
      /\ (do text <- record_to_text ex_sty amt a1; record_from_text ex_ctx amt (schema_chk 260) text) = Ok a1
      /\ record_from_text ex_ctx ipk (schema_chk 45) [49; 48; 32; 49; 32; 50; 32; 58; 58; 49; 32; 65; 65; 61; 61] = Lib eSyntax
  | _, _ => False
  end.
Proof. vm_compute. repeat split; reflexivity. Qed.

(* whatever cls.from_text (token phase, constructor conversions and checks, cross-field checks) returns for
   a type of the table satisfies, field by field, the conditions under which the type's _to_wire cannot
   fail: integers within their struct.pack format, counted strings <= 255 octets (<= 65535 where the
   length field has two octets), names within the DNS limits, addresses and formatted-hex texts that the
   encoder converts again, bitmap windows 0..255 with 1..32 octets, gateway forms matching their type.
   For every field kind of the language, hence for all types of schema_of. *)
Theorem text_then_wire : forall c fs chk st vs st',
  class_from_text c fs chk st = Ok (vs, st') -> Forall2 wire_ok fs vs.
Proof. exact class_from_text_wire. Qed.
Print Assumptions text_then_wire.

(* the same, tied to the C02 wire model (Model/SchemaM.v, read-only): for the types made of self-delimiting
   fields (integers, counted strings, names) possibly followed by one field that runs to the end of the record
   (opaque octets, TXT strings) the values returned by from_text are valid values of the corresponding SchemaM
   fields, so SchemaM.encode_rdata passes its field-validation step and is the field encoder itself (the record
   checks CkDS / CkZONEMD / CkGPOS / CkCAA of the C02 table are on the text side schema_chk / the field checks) *)
Theorem text_then_schema_encoder : forall c fs chk st vs st' wfs origin,
  to_fields fs = Some wfs -> class_from_text c fs chk st = Ok (vs, st') ->
  exists xs, to_vals fs vs = Some xs /\
    SchemaM.encode_rdata origin wfs SchemaM.CkNone xs = SchemaM.enc_fields origin wfs xs.
Proof. exact RdTextSchemaTie.text_then_schema_encoder. Qed.
Print Assumptions text_then_schema_encoder.

Example text_then_schema_encoder_types :
  tie_types = [2; 5; 6; 12; 13; 15; 16; 17; 18; 19; 21; 22; 23; 24; 26; 27; 33; 35; 36; 37; 39; 43; 44; 46; 48; 49; 51; 52; 53;
               56; 59; 60; 61; 63; 66; 67; 68; 99; 107; 258; 261; 262; 32769; 196609]
  (* 44 types, among them NS CNAME SOA PTR MX TXT SRV NAPTR CERT DS SSHFP RRSIG DNSKEY DHCID NSEC3PARAM TLSA ZONEMD *)
  /\ match schema_of 15 with Some fs => to_fields fs | None => None end
     = Some [SchemaM.FS (SchemaM.FU 2 65535); SchemaM.FS (SchemaM.FName true)]
  /\ match schema_of 16 with Some fs => to_fields fs | None => None end
     = Some [SchemaM.FRepeat true false [SchemaM.FCounted 1 0 255]].
Proof. repeat split; vm_compute; reflexivity. Qed.

Theorem text_then_wire_field : forall c f st raw st' v,
  parse_field c f st = Ok (raw, st') -> ctor_field f raw = Ok v -> wire_ok f v.
Proof. exact parse_field_wire. Qed.
Print Assumptions text_then_wire_field.

Theorem name_from_text_valid : forall c t n, as_name c t = Ok n -> Valid n.
Proof. exact as_name_valid. Qed.
Print Assumptions name_from_text_valid.

(* C05-empty-field-no-text: a record whose rest-of-line hex/base64 field is empty prints a text that
   from_text rejects (SSHFP 1 1 with an empty fingerprint) *)
Theorem empty_rest_field_refuted :
  exists fs vs text, schema_of 44 = Some fs /\ record_to_text (mkStyle None false 128 [32] 32 [32] false) fs vs = Ok text /\
    record_from_text (mkPctx None true None) fs (schema_chk 44) (text ++ [10]) <> Ok vs.
Proof. exact empty_rest_refuted. Qed.
Print Assumptions empty_rest_field_refuted.
