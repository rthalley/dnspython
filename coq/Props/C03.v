(* C03 - messages survive render-then-parse; compression is sound.
   Model: Model/MessageM.v.  Proofs: Proofs/Message*.v *)
From DV Require Import Base.Prelude Model.NameM Model.MessageM.
From DV Require Import Proofs.MessageBits.
Open Scope Z_scope.

(* the extended rcode is split between the header (low 4 bits) and the OPT TTL (top 8 bits) *)
Theorem rcode_split : forall r, 0 <= r < 4096 ->
  exists v ev, rcode_to_flags r = Ok (v, ev) /\ rcode_from_flags v ev = r
               /\ Z.land v 65520 = 0 /\ Z.land ev 16777215 = 0.
Proof. exact rcode_split_lemma. Qed.
Print Assumptions rcode_split.

(* Message.set_rcode then Message.rcode(), whatever the other header / EDNS flag bits are *)
Theorem set_rcode_then_rcode : forall m r m', 0 <= r < 4096 -> m_set_rcode m r = Ok m' -> m_rcode m' = r.
Proof. exact set_rcode_rcode. Qed.
Print Assumptions set_rcode_then_rcode.

Theorem set_rcode_keeps_other_flags : forall m r m', 0 <= r < 4096 ->
  m_set_rcode m r = Ok m' -> Z.land (mflags m') 65520 = Z.land (mflags m) 65520.
Proof. exact set_rcode_keeps_flags. Qed.
Print Assumptions set_rcode_keeps_other_flags.

Theorem opcode_roundtrip : forall o, 0 <= o < 16 -> opcode_from_flags (opcode_to_flags o) = o.
Proof. exact opcode_split. Qed.
Print Assumptions opcode_roundtrip.

Theorem set_opcode_then_opcode : forall m o, 0 <= o < 16 ->
  m_opcode (m_set_opcode m o) = o /\ Z.land (mflags (m_set_opcode m o)) 34815 = Z.land (mflags m) 34815.
Proof. exact set_opcode_then_opcode_lemma. Qed.
Print Assumptions set_opcode_then_opcode.

Theorem edns_version_roundtrip : forall v ef, 0 <= v < 256 ->
  Z.shiftr (Z.land (use_edns_flags v ef) 16711680) 16 = v.
Proof. exact edns_version_split. Qed.
Print Assumptions edns_version_roundtrip.

From DV Require Import Proofs.NameOrder Proofs.NameValid Proofs.NameCompress.
From DV Require Import Proofs.MessageName Proofs.MessageRender Proofs.MessageRead Proofs.MessageRoundtrip Proofs.MessageRoundtrip2 Proofs.MessageRoundtrip3 Proofs.MessageUpdate Proofs.MessageRerender Proofs.MessageLimit Proofs.MessageApi Proofs.MessageUtf8.

(* Rendering a well-formed ordinary message (any opcode but UPDATE; any id and flags; EDNS with any
   flags, extended rcode, version, payload and generic options; a TSIG record; with or without an
   origin, i.e. with relative names) without a size overflow and parsing the octets with the same
   origin yields the same id and flags (hence opcode and rcode, see the bit theorems above), the same
   EDNS state, the same TSIG record, and in every section the same record sets in the same order with
   the same TTLs and RDATA, names equal up to ASCII case (the library's name equality; compression is
   case-insensitive).
   (dynamic updates: update_forms_roundtrip below; the two theorems together are the first clause of
   the property for rendering without overflow and without padding) *)
Theorem render_parse : forall o m max_size request_payload w,
  org_ok o -> WfMsg o m -> wf_tsig m ->
  to_wire m o max_size request_payload false 0 = Ok w ->
  exists m', from_wire w o po0 = Ok m' /\ msg_equiv_t m' m.
Proof. exact render_parse_stmt. Qed.
Print Assumptions render_parse.

(* the same with a padding block size (Message.pad): the parsed message carries, in addition, the padding
   option that Renderer.add_opt appended (msg_equiv_p: OPT = the original OPT with option 12 of zeros added) *)
Theorem render_parse_padded : forall o pad m max_size request_payload w,
  org_ok o -> WfMsg o m -> wf_tsig m ->
  to_wire m o max_size request_payload false pad = Ok w ->
  exists m', from_wire w o po0 = Ok m' /\ msg_equiv_p pad m' m.
Proof. exact render_parse_padded_stmt. Qed.
Print Assumptions render_parse_padded.

(* ... and rendering the parsed message again (same limit, no shuffling) reproduces the octets exactly:
   the parsed names differ from the originals at most in the case of labels that the renderer wrote as
   a compression pointer (and, below an origin, in the origin labels, which are written from the origin) *)
Theorem rerender_identical : forall o m max_size request_payload w m',
  org_ok o -> WfMsg o m -> wf_tsig m ->
  to_wire m o max_size request_payload false 0 = Ok w -> from_wire w o po0 = Ok m' ->
  to_wire m' o max_size request_payload false 0 = Ok w.
Proof. exact rerender_identical_lemma. Qed.
Print Assumptions rerender_identical.

(* the same for a padded rendering of an unsigned message: the parsed message carries the padding option, and
   rendering it WITHOUT padding gives the same octets.  (For a padded AND signed message this does not hold:
   after padding the TSIG owner is written uncompressed, which the parsed message cannot know.) *)
Theorem rerender_identical_padded : forall o pad m max_size request_payload w m',
  org_ok o -> WfMsg o m -> mtsig m = None ->
  to_wire m o max_size request_payload false pad = Ok w -> from_wire w o po0 = Ok m' ->
  to_wire m' o max_size request_payload false 0 = Ok w.
Proof. exact rerender_identical_padded_lemma. Qed.
Print Assumptions rerender_identical_padded.

(* Dynamic updates (opcode UPDATE; the reader builds an UpdateMessage, one record per record set):
   a zone section with one SOA-typed entry of a non-meta class, and in the prerequisite, update and
   additional sections record sets in the normal form the reader produces - the empty forms
   "name is in use" / "RRset exists (value independent)" / "delete an RRset" / "delete all RRsets"
   (class ANY on the wire, deleting = ANY) and "name is not in use" / "RRset does not exist" (class
   NONE in the prerequisite section), the one-record forms "RRset exists (value dependent)" / "add to
   an RRset" (the record's own class) and "delete an RR from an RRset" (class NONE on the wire,
   deleting = NONE, RDATA in the zone class) - with EDNS, TSIG, with or without origin: rendering and
   parsing gives back the same id, flags, EDNS state, TSIG and the same record sets in every section *)
Theorem update_forms_roundtrip : forall o m z max_size request_payload w,
  org_ok o -> WfUpd o m z -> wf_tsig m ->
  to_wire m o max_size request_payload false 0 = Ok w ->
  exists m', from_wire w o po0 = Ok m' /\ msg_equiv_t m' m.
Proof. exact update_forms_roundtrip_stmt. Qed.
Print Assumptions update_forms_roundtrip.

(* ... also with a padding block size *)
Theorem update_forms_roundtrip_padded : forall o pad m z max_size request_payload w,
  org_ok o -> WfUpd o m z -> wf_tsig m ->
  to_wire m o max_size request_payload false pad = Ok w ->
  exists m', from_wire w o po0 = Ok m' /\ msg_equiv_p pad m' m.
Proof. exact update_forms_roundtrip_padded_stmt. Qed.
Print Assumptions update_forms_roundtrip_padded.

(* ... and the parsed update renders to the same octets again *)
Theorem update_forms_rerender_identical : forall o m z max_size request_payload w m',
  org_ok o -> WfUpd o m z -> wf_tsig m ->
  to_wire m o max_size request_payload false 0 = Ok w -> from_wire w o po0 = Ok m' ->
  to_wire m' o max_size request_payload false 0 = Ok w.
Proof. exact update_forms_rerender_stmt. Qed.
Print Assumptions update_forms_rerender_identical.

(* known finding C03-update-meta-class-spelling, as a theorem: "the parsed message has the same records" does NOT
   hold for the in-memory spelling that UpdateMessage.present(name) / absent(...) / delete(name) produce (class
   ANY or NONE, deleting = None): it renders to the octets of the reader's normal form (zone class, deleting = ANY
   or NONE), so the parsed record set has another class than the rendered one - while re-rendering is identical *)
Theorem update_meta_spelling_refuted :
  exists m w m', to_wire m None 0 0 false 0 = Ok w /\ from_wire w None po0 = Ok m' /\
                 map rclass (man m') <> map rclass (man m) /\ to_wire m' None 0 0 false 0 = Ok w.
Proof. exact update_meta_spelling_refuted_lemma. Qed.
Print Assumptions update_meta_spelling_refuted.

(* the header counts equal the records present (record sets count one per record, an empty set one;
   OPT and TSIG count in the additional section), and the reader, which reads exactly that many
   records and rejects trailing octets, accepts the message *)
Theorem counts_exact : forall o pad m max_size request_payload w,
  org_ok o -> WfMsg o m -> wf_tsig m -> to_wire m o max_size request_payload false pad = Ok w ->
  exists body,
    w = hdr_bytes (mid m) (mflags m) (zlen (mq m)) (rr_count (man m)) (rr_count (mau m))
                  (rr_count (mad m) + opt_count (mopt m) + opt_count (mtsig m)) ++ body /\
    exists m', from_wire w o po0 = Ok m'.
Proof. exact counts_exact_stmt. Qed.
Print Assumptions counts_exact.

(* every name the renderer writes (compressed or not, absolute or completed with the origin) keeps
   the compression table sound (each entry's offset decodes, by the fuel-free decoding relation
   Dec = NameM.from_wire, to a name ci-equal to its key) and is recovered by the independent decoder
   NameM.from_wire and by the reader's get_name *)
Theorem name_write_sound : forall o n c file t file' t',
  org_ok o -> TableSound file t -> name_wf o n -> name_to_wire n o c file t = Ok (file', t') ->
  exists em L L' n',
    file' = file ++ em /\ TableSound file' t' /\ full_labels n o = Ok L /\ ci_equal L' L /\
    NameM.from_wire file' (length file) = Ok (L', length em) /\
    relz o L' = Ok n' /\ ci_equal n' n /\
    (forall ext endp, (length file' <= endp)%nat -> get_name (file' ++ ext) o endp (length file) = Ok (n', length file')).
Proof. exact name_write_sound_stmt. Qed.
Print Assumptions name_write_sound.

(* ... and the invariant holds for the final octets (after the header has been written, the OPT record
   with or without padding and the TSIG record appended): every offset of the compression table decodes to
   its key, so every pointer that was written targets an earlier occurrence of exactly that suffix *)
Theorem render_table_sound : forall o pad m max_size request_payload r,
  org_ok o -> WfMsg o m -> wf_tsig m -> to_wire_st m o max_size request_payload false pad = Ok r ->
  TableSound (out r) (tbl r).
Proof. exact render_table_sound_stmt. Qed.
Print Assumptions render_table_sound.

(* every message the reader returns - from ANY octets, under every reader option - carries its EDNS options
   (NSID, ECS, COOKIE, EDE, the UTF-8 text options, options without a class) in exactly the octets their
   classes render: decoding those octets again gives the same octets back; REPORTCHANNEL carries a valid absolute
   name in uncompressed form.  This is the options part of the
   well-formedness hypothesis of render_parse (WfMsg: wf_opt), so it holds for parsed messages unconditionally *)
Theorem parsed_options_wf : forall wire origin po m,
  Forall (fun b => 0 <= b < 256) wire -> from_wire wire origin po = Ok m ->
  match mopt m with
  | Some oo => Forall (fun cd => if fst cd =? 18
                                then exists n, name_ok n /\ snd cd = wire_labels false n   (* REPORTCHANNEL *)
                                else opt_dec (fst cd) (snd cd) = Ok (snd cd)) (oopts oo)
  | None => True
  end.
Proof. exact parsed_options_wf_lemma. Qed.
Print Assumptions parsed_options_wf.

(* the UTF-8 validator of the text-valued options (the model of bytes.decode("utf8"), byte-exact against the
   implementation on the malformed-UTF-8 table of the harness) accepts exactly the RFC 3629 encodings of sequences
   of Unicode scalar values (no surrogates, no overlong forms, nothing above U+10FFFF) *)
Theorem utf8_validator_exact : forall l, Forall (fun b => 0 <= b) l ->
  (utf8_ok l = true <-> exists cps, Forall scalar cps /\ l = flat_map utf8_enc cps).
Proof. exact utf8_ok_spec. Qed.
Print Assumptions utf8_validator_exact.

(* non-vacuity: a response with shared suffixes, a case variant, MX/NS/SOA names and EDNS *)
Definition n_ex : name := [[101; 120]; [99; 111; 109]; []].                 (* ex.com. *)
Definition n_www : name := [[119; 119; 119]; [101; 120]; [99; 111; 109]; []]. (* www.ex.com. *)
Definition n_WWW : name := [[87; 87; 87]; [69; 88]; [99; 111; 109]; []].      (* WWW.EX.com. *)
Definition ex_m : msg :=
  mkMsg 4660 33152
        [mkRR n_www 1 15 0 None 0 []]
        [mkRR n_www 1 15 0 None 300 [[PB [0; 10]; PN [[109]; [101; 120]; [99; 111; 109]; []]];
                                     [PB [0; 20]; PN n_WWW]];
         mkRR n_WWW 1 1 0 None 60 [[PB [1; 2; 3; 4]]]]
        [mkRR n_ex 1 6 0 None 3600 [[PN n_www; PN n_ex; PB (repeat 0 20)]]]
        [mkRR n_ex 1 16 0 None 5 [[PB [2; 104; 105]]]]
        (* options: one without a class, NSID, COOKIE (client+server), ECS 192.0.2.0/24, EDE 18 "ok", filtering contact "é", REPORTCHANNEL *)
        (Some (mkOpt 32768 1232 [(65001, [1; 2; 3]); (3, [97]); (10, repeat 7 16); (8, [0; 1; 24; 0; 192; 0; 2]);
                                 (15, [0; 18; 111; 107]); (23, [195; 169]);
                                 (18, [3; 97; 98; 99; 2; 101; 120; 0])])) None.     (* report channel abc.ex. *)

Ltac pieces := repeat (cbn [piece_wf]; first [assumption | exact Logic.I | reflexivity | constructor]).
Ltac solve_name_ok := split; [repeat split; [repeat constructor; vm_compute; discriminate | vm_compute; discriminate | repeat constructor; discriminate] | reflexivity].

Lemma nw_none n : name_ok n -> name_wf None n.
Proof. intros H. left. split; [exact H|exact Logic.I]. Qed.

Lemma ex_m_wf : WfMsg None ex_m.
Proof.
  assert (N1 : name_ok n_www) by solve_name_ok.
  assert (N2 : name_ok n_WWW) by solve_name_ok.
  assert (N3 : name_ok n_ex) by solve_name_ok.
  assert (N4 : name_ok [[109]; [101; 120]; [99; 111; 109]; []]) by solve_name_ok.
  pose proof (nw_none _ N1) as W1. pose proof (nw_none _ N2) as W2. pose proof (nw_none _ N3) as W3. pose proof (nw_none _ N4) as W4.
  constructor; cbn [ex_m mflags mq man mau mad mopt].
  - reflexivity.
  - constructor; [exact W1|constructor].
  - constructor; [|constructor; [|constructor]].
    + unfold wf_rrset. cbn [rname rdeleting rrds rtype rttl rclass rcovers].
      split; [exact W1|]. split; [reflexivity|]. split; [discriminate|]. split; [discriminate|]. split; [discriminate|].
      split; [lia|]. split.
      { exists [FFix 2; FNameC]. split; [reflexivity|].
        pieces. }
      split; [repeat constructor|]. split; [repeat constructor; reflexivity|discriminate].
    + unfold wf_rrset. cbn [rname rdeleting rrds rtype rttl rclass rcovers].
      split; [exact W2|]. split; [reflexivity|]. split; [discriminate|]. split; [discriminate|]. split; [discriminate|].
      split; [lia|]. split.
      { exists [FFix 4]. split; [reflexivity|]. repeat constructor. }
      split; [repeat constructor|]. split; [repeat constructor|discriminate].
  - constructor; [|constructor].
    unfold wf_rrset. cbn [rname rdeleting rrds rtype rttl rclass rcovers].
    split; [exact W3|]. split; [reflexivity|]. split; [discriminate|]. split; [discriminate|]. split; [discriminate|].
    split; [lia|]. split.
    { exists [FNameC; FNameC; FFix 20]. split; [reflexivity|]. pieces. }
    split; [repeat constructor|]. split; [repeat constructor|reflexivity].
  - constructor; [|constructor].
    unfold wf_rrset. cbn [rname rdeleting rrds rtype rttl rclass rcovers].
    split; [exact W3|]. split; [reflexivity|]. split; [discriminate|]. split; [discriminate|]. split; [discriminate|].
    split; [lia|]. split.
    { exists [FTxt]. split; [reflexivity|]. repeat constructor.
      exists [[104; 105]]. split; [discriminate|]. split; [repeat constructor; vm_compute; discriminate|reflexivity]. }
    split; [repeat constructor|]. split; [repeat constructor|discriminate].
  - cbn [keys_fresh]. repeat split; repeat constructor.
  - cbn [keys_fresh]. repeat split; repeat constructor.
  - cbn [keys_fresh]. repeat split; repeat constructor.
  - split; [|apply nw_none; split; [apply Valid_root|reflexivity]].
    repeat (constructor; [first [reflexivity | (exists [[97; 98; 99]; [101; 120]; []]; split; [solve_name_ok|reflexivity])]|]).
    constructor.
Qed.

Example render_parse_nonvacuous :
  exists w m', to_wire ex_m None 0 0 false 0 = Ok w /\ zlen w = 209 /\
               from_wire w None po0 = Ok m' /\ msg_equiv m' ex_m /\
               (* the case variant WWW.EX.com. was written as a pointer and reads back as www.ex.com. *)
               map rname (man m') = [n_www; n_www].
Proof.
  destruct (to_wire ex_m None 0 0 false 0) as [w| |] eqn:E; try (vm_compute in E; discriminate).
  destruct (render_parse None ex_m 0 0 w Logic.I ex_m_wf Logic.I E) as (m' & F & (EQ & _)).
  exists w, m'. split; [reflexivity|]. vm_compute in E. injection E as <-.
  split; [reflexivity|]. split; [exact F|]. split; [exact EQ|].
  vm_compute in F. injection F as <-. reflexivity.
Qed.

(* the parsed message differs from ex_m (the case variant) and still renders to the same octets *)
Example rerender_nonvacuous :
  exists w m', to_wire ex_m None 0 0 false 0 = Ok w /\ from_wire w None po0 = Ok m' /\
               man m' <> man ex_m /\ to_wire m' None 0 0 false 0 = Ok w.
Proof.
  destruct (to_wire ex_m None 0 0 false 0) as [w| |] eqn:E; try (vm_compute in E; discriminate).
  destruct (from_wire w None po0) as [m'| |] eqn:F;
    try (vm_compute in E; injection E as <-; vm_compute in F; discriminate).
  exists w, m'. split; [reflexivity|]. split; [exact F|]. split.
  - vm_compute in E. injection E as <-. vm_compute in F. injection F as <-. vm_compute. discriminate.
  - exact (rerender_identical None ex_m 0 0 w m' Logic.I ex_m_wf Logic.I E F).
Qed.

(* with block size 16 the rendering is block aligned and the parsed OPT carries the padding option *)
Example render_parse_padded_nonvacuous :
  exists w m', to_wire ex_m None 0 0 false 16 = Ok w /\ zlen w mod 16 = 0 /\
               from_wire w None po0 = Ok m' /\ msg_equiv_p 16 m' ex_m /\ mopt m' <> mopt ex_m.
Proof.
  destruct (to_wire ex_m None 0 0 false 16) as [w| |] eqn:E; try (vm_compute in E; discriminate).
  destruct (render_parse_padded None 16 ex_m 0 0 w Logic.I ex_m_wf Logic.I E) as (m' & F & EQ).
  exists w, m'. split; [reflexivity|]. vm_compute in E. injection E as <-.
  split; [reflexivity|]. split; [exact F|]. split; [exact EQ|].
  vm_compute in F. injection F as <-. vm_compute. discriminate.
Qed.

(* ---- non-vacuity for updates: zone ex.com/IN, prerequisites "name in use", "RRset does not exist",
   update "delete an RRset", "delete an RR", "add", relative names under the origin com. ---- *)
Definition o_com : option name := Some [[99; 111; 109]; []].
Definition r_ex : name := [[101; 120]].                 (* ex   (relative to com.) *)
Definition r_www : name := [[119; 119; 119]; [101; 120]].  (* www.ex *)
Definition ex_u : msg :=
  mkMsg 77 10240
        [mkRR r_ex 1 6 0 None 0 []]
        [mkRR r_www 1 255 0 (Some 255) 0 []; mkRR r_www 1 15 0 (Some 254) 0 []]
        [mkRR r_www 1 1 0 (Some 255) 0 [];
         mkRR r_www 1 1 0 (Some 254) 0 [[PB [1; 2; 3; 4]]];
         mkRR r_www 1 15 0 None 300 [[PB [0; 10]; PN [[109]; [101; 120]]]]]
        [] None None.

Lemma ex_u_wf : WfUpd o_com ex_u (mkRR r_ex 1 6 0 None 0 []).
Proof.
  assert (OC : name_ok [[99; 111; 109]; []]) by solve_name_ok.
  assert (W1 : name_wf o_com r_ex).
  { right. exists [[99; 111; 109]; []]. split; [reflexivity|]. split; [reflexivity|].
    repeat split; [repeat constructor; vm_compute; discriminate | vm_compute; discriminate | repeat constructor; discriminate]. }
  assert (W2 : name_wf o_com r_www).
  { right. exists [[99; 111; 109]; []]. split; [reflexivity|]. split; [reflexivity|].
    repeat split; [repeat constructor; vm_compute; discriminate | vm_compute; discriminate | repeat constructor; discriminate]. }
  assert (W3 : name_wf o_com [[109]; [101; 120]]).
  { right. exists [[99; 111; 109]; []]. split; [reflexivity|]. split; [reflexivity|].
    repeat split; [repeat constructor; vm_compute; discriminate | vm_compute; discriminate | repeat constructor; discriminate]. }
  constructor; cbn [ex_u mflags mq man mau mad mopt rname rtype rclass].
  - reflexivity.
  - reflexivity.
  - exact W1.
  - reflexivity.
  - reflexivity.
  - constructor; [|constructor; [|constructor]].
    + split; [exact W2|]. split; [discriminate|]. split; [discriminate|]. left. cbn. auto 10.
    + split; [exact W2|]. split; [discriminate|]. split; [discriminate|]. left. cbn. auto 10.
  - constructor; [|constructor; [|constructor; [|constructor]]].
    + split; [exact W2|]. split; [discriminate|]. split; [discriminate|]. left. cbn. auto 10.
    + split; [exact W2|]. split; [discriminate|]. split; [discriminate|]. right.
      exists [PB [1; 2; 3; 4]], [FFix 4]. cbn [rrds rclass rtype rttl rcovers rdeleting].
      split; [reflexivity|]. split; [reflexivity|]. split; [pieces|]. split; [pieces|]. split; [lia|].
      split; [reflexivity|]. right. split; [reflexivity|]. split; [reflexivity|discriminate].
    + split; [exact W2|]. split; [discriminate|]. split; [discriminate|]. right.
      exists [PB [0; 10]; PN [[109]; [101; 120]]], [FFix 2; FNameC]. cbn [rrds rclass rtype rttl rcovers rdeleting].
      split; [reflexivity|]. split; [reflexivity|]. split; [pieces|]. split; [pieces|]. split; [lia|].
      split; [reflexivity|]. left. split; reflexivity.
  - constructor.
  - exact Logic.I.
Qed.

Example update_roundtrip_nonvacuous :
  exists w m', to_wire ex_u o_com 0 0 false 0 = Ok w /\ from_wire w o_com po0 = Ok m' /\ msg_equiv_t m' ex_u.
Proof.
  assert (OC : org_ok o_com) by (cbn; solve_name_ok).
  destruct (to_wire ex_u o_com 0 0 false 0) as [w| |] eqn:E; try (vm_compute in E; discriminate).
  destruct (update_forms_roundtrip o_com ex_u _ 0 0 w OC ex_u_wf Logic.I E) as (m' & F & EQ).
  exists w, m'. auto.
Qed.
