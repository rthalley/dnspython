(* C09 - zones survive write-then-read as text; equivalent zone-file spellings agree.
   Statements only; proofs are in Proofs/ZoneText*.v.  Model: Model/ZoneTextM.v. *)
From DV Require Import Base.Prelude Model.NameM Model.ZoneTextM.
From DV Require Import Proofs.ZoneTextBase Proofs.ZoneTextInv Proofs.ZoneTextRespell Proofs.ZoneTextLex
  Proofs.ZoneTextAcc Proofs.ZoneTextRecord Proofs.ZoneTextSweep Proofs.ZoneTextRoundtrip Proofs.ZoneTextNames
  Proofs.ZoneTextParens Proofs.ZoneTextRead Proofs.ZoneTextGenerate Proofs.ZoneTextWf
  Proofs.ZoneTextRdata Proofs.ZoneTextStruct Proofs.ZoneTextFuel Proofs.ZoneTextTtl Proofs.ZoneTextRrsets.
From DV Require Import Proofs.NameValid Proofs.NameText.
From Coq Require Import Permutation.
Open Scope Z_scope.

(* WRITE THEN READ.  For every reader configuration c (origin given or taken from $ORIGIN,
   relativized or absolute, any class), every lossless style st (any combination of sorting,
   $ORIGIN, $TTL / default TTL, owner de-duplication, omitted class, left justification of the
   owner and any justification of the other columns, output origin / relativization) and every
   well-formed zone, printing succeeds and reading the printed text gives back exactly the zone
   (names in the order the printer wrote them - `printed_order`, a permutation - and rdatasets,
   records and TTLs unchanged).
   Well-formedness (nodes_wf) is what zones built through the library's API satisfy: distinct
   names inside the origin, non-empty nodes and rdatasets, one rdataset per (type, covers), no
   duplicate records, singleton types hold one record, SOA only at the origin, TTLs and types in
   range, CNAME not mixed with other data; plus, per name and per record, that its own text form
   parses back (owner_ok / rdata_ok: the C01 and C05 round trips, RDATA being a parameter here). *)
Theorem zone_roundtrip : forall (c : cfg) (st : style) (zo : name),
  lossless st ->
  0 <= c_class c <= 65535 ->
  forall nodes nodes' : zone,
  nodes' = printed_order st nodes ->
  (c_origin c = Some zo \/ (c_origin c = None /\ st_want_origin st = true)) ->
  (st_want_origin st = true -> origin_ok zo) ->
  nodes_wf c st zo [] nodes' ->
  (c_check c = true -> check_origin c (Some zo) nodes' = Ok tt) ->
  exists text,
    zone_text st (mkpz (Some zo) (c_rel c) (c_class c) nodes) = Ok text /\
    from_text c text = Ok (match nodes' with [] => c_origin c | _ => Some zo end, nodes').
Proof. exact zone_roundtrip_proof. Qed.
Print Assumptions zone_roundtrip.

(* The per-name premise of zone_roundtrip holds for EVERY valid owner name (all 256 octet values,
   names printed as stored, i.e. the default ZoneStyle/to_text name options) - by C01's text round
   trip and C06's relativize/derelativize laws.  Relativized zone: the stored name is relative and
   name + origin fits in 255 octets; absolute zone: the stored name is inside the origin. *)
Theorem owner_roundtrip_relativized : forall (c : cfg) (st : style) (zo : name),
  Valid zo /\ AllBytes zo /\ is_absolute zo = true -> st_origin st = None ->
  forall n : name,
  c_rel c = true -> Valid n -> AllBytes n -> is_absolute n = false -> Valid (n ++ zo) ->
  owner_ok c st zo n (NameM.to_text n) (n ++ zo).
Proof. exact owner_ok_relativized. Qed.
Print Assumptions owner_roundtrip_relativized.

Theorem owner_roundtrip_absolute : forall (c : cfg) (st : style) (zo : name),
  st_origin st = None ->
  forall n : name,
  c_rel c = false -> Valid n -> AllBytes n -> is_absolute n = true -> is_subdomain n zo = true ->
  owner_ok c st zo n (NameM.to_text n) n.
Proof. exact owner_ok_absolute. Qed.
Print Assumptions owner_roundtrip_absolute.

Theorem origin_roundtrip : forall zo : name,
  Valid zo /\ AllBytes zo /\ is_absolute zo = true -> origin_ok zo.
Proof. exact origin_ok_valid. Qed.
Print Assumptions origin_roundtrip.

(* The per-record premise of zone_roundtrip holds for every record of a modelled field-list type
   (A NS CNAME SOA PTR MX TXT KEY AAAA SRV DNAME NSEC) whose fields are in range: domain names
   valid and stored in normal form (relative = under the origin, absolute = outside it in a
   relativized zone), integers and TTLs in range, IPv4 addresses as inet_aton accepts them,
   character-strings of at most 255 arbitrary octets (the _escapify / unescape_to_bytes round
   trip is proved here), verbatim tokens free of delimiters and backslashes. *)
Theorem rdata_roundtrip_fields : forall (c : cfg) (st : style) (zo : name),
  Valid zo /\ AllBytes zo /\ is_absolute zo = true -> st_origin st = None ->
  forall ty m ks rd,
  tbl_by_code type_table ty = Some (m, ks) -> ty <> tRRSIG ->
  rdata_fits (c_rel c) zo ks rd ->
  rdata_ok c st zo ty rd (rd_toks rd).
Proof. exact rdata_ok_fits_proof. Qed.
Print Assumptions rdata_roundtrip_fields.

(* every character-string survives _escapify followed by the tokenizer's unescape_to_bytes *)
Theorem quoted_string_roundtrip : forall x, Forall is_octet x ->
  tok_unescape (escapify_q x) = Ok x /\ q_clean (escapify_q x) = true.
Proof. exact quoted_string_roundtrip_proof. Qed.
Print Assumptions quoted_string_roundtrip.

(* ... and for RRSIG records (covered type printed as its mnemonic) and for unknown types in the
   RFC 3597 form with non-empty data (lower-case hex). *)
Theorem rdata_roundtrip_rrsig : forall (c : cfg) (st : style) (zo : name),
  Valid zo /\ AllBytes zo /\ is_absolute zo = true -> st_origin st = None ->
  forall cov rest,
  0 <= cov <= 65535 -> rdata_fits (c_rel c) zo rrsig_tail rest ->
  rdata_ok c st zo tRRSIG (VInt cov :: rest) (TId (type_to_text cov) :: rd_toks rest).
Proof. exact rdata_ok_rrsig_proof. Qed.
Print Assumptions rdata_roundtrip_rrsig.

Theorem rdata_roundtrip_generic : forall (c : cfg) (st : style) (zo : name),
  st_origin st = None ->
  forall ty n h,
  tbl_by_code type_table ty = None -> 0 < n -> hex_lower h = true -> zlen h = 2 * n ->
  rdata_ok c st zo ty [VTok [92; 35]; VInt n; VRest [h]] [TId [92; 35]; TId (dec n); TId h].
Proof. exact rdata_ok_generic_proof. Qed.
Print Assumptions rdata_roundtrip_generic.

(* WRITE THEN READ, all hypotheses structural.  For zones over the modelled types (field-list types,
   RRSIG, unknown types in RFC 3597 form) and the default name style (names printed as stored): every zone with pairwise different valid
   owner names stored in the zone's form (relative under the origin / absolute inside it),
   non-empty nodes and rdatasets, one rdataset per type, no duplicate records, singleton types
   holding one record, SOA at the origin only, CNAME not mixed with other data and in-range fields
   (`zone_struct`) is printed and read back unchanged - relativized and absolute zones, every
   lossless style, sorted or not, origin given or taken from $ORIGIN. *)
Theorem zone_roundtrip_fields : forall (c : cfg) (st : style) (zo : name),
  Valid zo /\ AllBytes zo /\ is_absolute zo = true -> st_origin st = None ->
  forall nodes : zone,
  lossless st -> 0 <= c_class c <= 65535 ->
  (c_origin c = Some zo \/ (c_origin c = None /\ st_want_origin st = true)) ->
  zone_struct c zo nodes ->
  (c_check c = true -> check_origin c (Some zo) (printed_order st nodes) = Ok tt) ->
  exists text,
    zone_text st (mkpz (Some zo) (c_rel c) (c_class c) nodes) = Ok text /\
    from_text c text = Ok (match printed_order st nodes with [] => c_origin c | _ => Some zo end,
                           printed_order st nodes).
Proof. exact zone_roundtrip_fields_proof. Qed.
Print Assumptions zone_roundtrip_fields.

(* The well-formedness hypothesis does not depend on the order of the names: `zone_wf` (pairwise
   different names + a condition on each name alone) implies `nodes_wf` for every permutation, in
   particular for the printer's order - so zone_roundtrip applies to a well-formed zone under
   sorted and unsorted styles alike. *)
Theorem wf_any_order : forall c st zo (z z' : zone),
  Permutation z' z -> zone_wf c st zo z -> nodes_wf c st zo [] z'.
Proof. exact nodes_wf_any_order. Qed.
Print Assumptions wf_any_order.

(* the printer's name sort only reorders the names *)
Theorem printed_order_permutation : forall st nodes, Permutation (printed_order st nodes) nodes.
Proof. exact printed_order_perm. Qed.
Print Assumptions printed_order_permutation.

(* the class and type columns the printer writes read back, and are never taken for a TTL or a
   class, for every 16-bit code *)
Theorem type_column_roundtrip : forall ty, 0 <= ty <= 65535 -> type_ok ty.
Proof. exact type_ok_all. Qed.
Print Assumptions type_column_roundtrip.

(* The decimal text of every TTL in range reads back as that TTL. *)
Theorem ttl_text_roundtrip : forall n, 0 <= n <= MAX_TTL -> ttl_from_text (dec n) = Ok n.
Proof. exact ttl_from_text_dec. Qed.
Print Assumptions ttl_text_roundtrip.

(* TTLs written with BIND units, in any letter case ("1w2D3h4m5s"), read as the sum of their parts. *)
Theorem ttl_units_text : forall l,
  l <> [] -> units_ok l -> 0 <= units_value l <= MAX_TTL ->
  ttl_from_text (units_text l) = Ok (units_value l).
Proof. exact ttl_units_text_proof. Qed.
Print Assumptions ttl_units_text.

(* After a successful load no node holds a CNAME (or RRSIG(CNAME)) together with other data -
   for every input text and every reader configuration. *)
Theorem cname_exclusive_after_load : forall c text o z,
  from_text c text = Ok (o, z) -> zone_excl z.
Proof. exact cname_exclusive_after_load_proof. Qed.
Print Assumptions cname_exclusive_after_load.

(* The same for dns.zonefile.read_rrsets: in the list of rrsets it returns, no owner name has a
   CNAME (or RRSIG(CNAME)) rrset together with other data. *)
Theorem cname_exclusive_rrsets : forall c zo text st,
  read_rrsets c zo text = Ok st -> rrs_excl st.
Proof. exact rrsets_cname_exclusive_proof. Qed.
Print Assumptions cname_exclusive_rrsets.

(* Every owner name of the loaded zone is (the relativization of) a name inside the origin. *)
Theorem loaded_names_inside : forall c text o z,
  from_text c text = Ok (o, z) ->
  z = [] \/ exists zo, o = Some zo /\ Forall (in_zone (c_rel c) zo) (map fst z).
Proof. exact loaded_names_inside_proof. Qed.
Print Assumptions loaded_names_inside.

(* A record line whose owner lies outside the origin changes nothing but `last_name`, whatever
   follows the owner on that line ... *)
Theorem outside_origin_ignored : forall c s co zo ov n toks,
  corigin s = Some co -> zorigin s = Some zo ->
  as_name true ov (Some co) false None = Ok n ->
  is_subdomain n zo = false ->
  rr_line c s false (TId ov :: toks) false = Ok (set_last s n).
Proof. exact outside_origin_line_proof. Qed.
Print Assumptions outside_origin_ignored.

(* ... likewise for dns.zonefile.read_rrsets (the list of rrsets is untouched). *)
Theorem outside_origin_ignored_rrsets : forall c zo s ov n toks,
  as_name true ov (Some zo) false None = Ok n ->
  is_subdomain n zo = false ->
  rrs_line c zo s false (TId ov :: toks) false =
  Ok (mkrr (Some n) (rr_lttl s) (rr_lttl_known s) (rr_dttl s) (rr_dttl_known s) (rr_store s)).
Proof. exact rrsets_outside_origin_proof. Qed.
Print Assumptions outside_origin_ignored_rrsets.

(* ... and `last_name` does not influence a following line that spells its owner. *)
Theorem outside_origin_then_explicit_owner : forall c s m toks lerr t,
  rr_line c (set_last s m) false (t :: toks) lerr = rr_line c s false (t :: toks) lerr.
Proof. exact last_name_irrelevant_proof. Qed.
Print Assumptions outside_origin_then_explicit_owner.

(* "<ttl> <class>" and "<class> <ttl>" load alike, with an explicit or an inherited owner. *)
Theorem respell_ttl_class_order : forall c s tv cv t rest lerr,
  ttl_from_text tv = Ok t ->
  class_from_text cv = Some (c_class c) ->
  (forall ov, rr_line c s false (TId ov :: TId tv :: TId cv :: rest) lerr =
              rr_line c s false (TId ov :: TId cv :: TId tv :: rest) lerr) /\
  rr_line c s true (TId tv :: TId cv :: rest) lerr = rr_line c s true (TId cv :: TId tv :: rest) lerr.
Proof. exact respell_ttl_class_order_proof. Qed.
Print Assumptions respell_ttl_class_order.

(* Spelling the owner again and inheriting it (leading white space) load alike. *)
Theorem respell_owner : forall c s co ov n t toks lerr,
  corigin s = Some co ->
  lastname s = Some n ->
  as_name true ov (Some co) false None = Ok n ->
  rr_line c s false (TId ov :: t :: toks) lerr = rr_line c s true (t :: toks) lerr.
Proof. exact respell_owner_proof. Qed.
Print Assumptions respell_owner.

(* $ORIGIN-relative versus absolute names: a record line may spell its owner relative to the
   current origin, absolutely, or (for the origin itself) as "@"; likewise every domain name
   inside RDATA.  For every valid name over all 256 octet values. *)
Theorem respell_origin_relative : forall c s co (n : name) toks lerr,
  corigin s = Some co ->
  Valid n -> AllBytes n -> is_absolute n = false ->
  AllBytes co -> is_absolute co = true -> Valid (n ++ co) ->
  rr_line c s false (TId (NameM.to_text n) :: toks) lerr =
  rr_line c s false (TId (NameM.to_text (n ++ co)) :: toks) lerr.
Proof. exact respell_origin_relative_proof. Qed.
Print Assumptions respell_origin_relative.

Theorem respell_origin_at : forall c s co toks lerr,
  corigin s = Some co -> Valid co -> AllBytes co -> is_absolute co = true ->
  rr_line c s false (TId [64] :: toks) lerr = rr_line c s false (TId (NameM.to_text co) :: toks) lerr.
Proof. exact respell_origin_at_proof. Qed.
Print Assumptions respell_origin_at.

Theorem respell_rdata_name_relative : forall (n co : name) rel zo ks toks,
  Valid n -> AllBytes n -> is_absolute n = false ->
  AllBytes co -> is_absolute co = true -> Valid (n ++ co) ->
  parse_fields (KName :: ks) (TId (NameM.to_text n) :: toks) co rel zo =
  parse_fields (KName :: ks) (TId (NameM.to_text (n ++ co)) :: toks) co rel zo.
Proof. exact respell_rdata_name_relative_proof. Qed.
Print Assumptions respell_rdata_name_relative.

(* Parenthesised multi-line versus single-line records (and any other re-layout of a logical
   line): two layouts with the same tokens - blanks, tabs, parentheses with embedded newlines,
   comments - are read alike, at the level of the character stream, for every reader state and
   whatever follows. *)
Theorem respell_layout : forall c s ps ps' rest f,
  mvalid 0 ps = true -> mvalid 0 ps' = true ->
  mtoks ps = mtoks ps' ->
  starts_ws (mrender ps ++ [10]) = starts_ws (mrender ps' ++ [10]) ->
  read_loop (S f) c s (mrender ps ++ 10 :: rest) = read_loop (S f) c s (mrender ps' ++ 10 :: rest).
Proof. exact respell_layout_proof. Qed.
Print Assumptions respell_layout.

Theorem respell_parens : forall c s ts ps rest f,
  forallb tok_clean ts = true ->
  mvalid 0 ps = true -> mtoks ps = ts ->
  starts_ws (mrender ps ++ [10]) = starts_ws (mrender (single_line ts) ++ [10]) ->
  read_loop (S f) c s (mrender ps ++ 10 :: rest) =
  read_loop (S f) c s (mrender (single_line ts) ++ 10 :: rest).
Proof. exact respell_parens_proof. Qed.
Print Assumptions respell_parens.

(* $GENERATE versus its expansion.  `exp_fold` reads, one record line after the other, the lines
   `<lhs with $ substituted> [ttl] [class] type <tokens of rhs with $ substituted>` for the indices of the
   range; a statement that loads (every generated name inside the origin, type other than SOA)
   leaves exactly the reader state (zone, last name, TTL state) that these lines leave. *)
Theorem respell_generate : forall c s co zo t0 lhs ttlo clso tyt rhs start stop step ttl ty lm rm s',
  corigin s = Some co -> zorigin s = Some zo -> is_absolute co = true ->
  grange_from_text (tokval t0) = Ok (start, stop, step) ->
  ttl_given s ttlo ttl ->
  (forall cv, clso = Some cv -> class_from_text cv = Some (c_class c)) ->
  type_from_text tyt = Some ty -> class_from_text tyt = None -> ttl_from_text tyt = Lib eBadTTL ->
  ty <> tSOA ->
  parse_modify lhs = Ok lm -> parse_modify rhs = Ok rm ->
  generate_line c s (t0 :: TId lhs :: opt_tok ttlo ++ opt_tok clso ++ [TId tyt; TId rhs]) false = Ok (s', Some []) ->
  exp_fold (Z.to_nat ((stop - start) / step + 1)) start step c s lhs rhs lm rm ttlo clso tyt = Ok s'.
Proof. exact respell_generate_proof. Qed.
Print Assumptions respell_generate.

(* The reader loop runs on fuel length(text) + 1 (from_text).  That bound is sufficient: every
   logical line consumes at least one character (lex_rest), so any larger fuel gives the same
   result, and the out-of-fuel marker is unreachable (no line ever produces it either). *)
Theorem read_loop_fuel_irrelevant : forall c f1 f2 text s,
  (length text < f1)%nat -> (length text < f2)%nat ->
  read_loop f1 c s text = read_loop f2 c s text.
Proof. exact read_loop_fuel_irrelevant_proof. Qed.
Print Assumptions read_loop_fuel_irrelevant.

Theorem read_loop_fuel_sufficient : forall c f text s,
  (length text < f)%nat -> read_loop f c s text <> Internal iFuelZ.
Proof. exact read_loop_fuel_sufficient_proof. Qed.
Print Assumptions read_loop_fuel_sufficient.

(* ... and a statement that is rejected (CNAME conflict, bad substituted name or rdata, ...) is
   rejected with exactly the exception its expansion raises - unless an out-of-zone name stopped it. *)
Theorem respell_generate_errors : forall c s co zo t0 lhs ttlo clso tyt rhs start stop step ttl ty lm rm,
  corigin s = Some co -> zorigin s = Some zo -> is_absolute co = true ->
  grange_from_text (tokval t0) = Ok (start, stop, step) ->
  ttl_given s ttlo ttl ->
  (forall cv, clso = Some cv -> class_from_text cv = Some (c_class c)) ->
  type_from_text tyt = Some ty -> class_from_text tyt = None -> ttl_from_text tyt = Lib eBadTTL ->
  ty <> tSOA ->
  parse_modify lhs = Ok lm -> parse_modify rhs = Ok rm ->
  let stmt := generate_line c s (t0 :: TId lhs :: opt_tok ttlo ++ opt_tok clso ++ [TId tyt; TId rhs]) false in
  let expn := exp_fold (Z.to_nat ((stop - start) / step + 1)) start step c s lhs rhs lm rm ttlo clso tyt in
  (forall e, stmt = Lib e -> expn = Lib e) /\ (forall e, stmt = Internal e -> expn = Internal e).
Proof. exact respell_generate_errors_proof. Qed.
Print Assumptions respell_generate_errors.

(* non-vacuity: the hypotheses are satisfiable, the model really loads zones *)
Definition ex_origin : name := [[101; 120]; []].   (* "ex." *)
Definition ex_cfg := mkcfg (Some ex_origin) true 1 true.
(* "@ 300 IN SOA ns hm 1 2 3 4 5\n@ 300 IN NS ns\nwww IN 60 CNAME ns\nout.side. 5 IN A 1.2.3.4\n" *)
Definition ex_text : list Z :=
  [64;32;51;48;48;32;73;78;32;83;79;65;32;110;115;32;104;109;32;49;32;50;32;51;32;52;32;53;10;
   64;32;51;48;48;32;73;78;32;78;83;32;110;115;10;
   119;119;119;32;73;78;32;54;48;32;67;78;65;77;69;32;110;115;10;
   111;117;116;46;115;105;100;101;46;32;53;32;73;78;32;65;32;49;46;50;46;51;46;52;10].

Example ex_loads : exists z, from_text ex_cfg ex_text = Ok (Some ex_origin, z) /\ length z = 2%nat.
Proof. eexists. split; [vm_compute; reflexivity|reflexivity]. Qed.

Example ex_class_ttl_hyps :
  ttl_from_text [54; 48] = Ok 60 /\ class_from_text [73; 78] = Some (c_class ex_cfg).
Proof. split; reflexivity. Qed.

Example ex_outside_hyps :
  as_name true [111;117;116;46;115;105;100;101;46] (Some ex_origin) false None = Ok [[111;117;116];[115;105;100;101];[]] /\
  is_subdomain [[111;117;116];[115;105;100;101];[]] ex_origin = false.
Proof. split; reflexivity. Qed.

Example ex_owner_hyps :
  as_name true [119;119;119] (Some ex_origin) false None = Ok [[119;119;119];[101;120];[]].
Proof. reflexivity. Qed.

(* ---------- non-vacuity of zone_roundtrip: a relativized zone with three names, read without
   an origin argument ($ORIGIN is printed), de-duplicated owners, $TTL 300, justified columns ---------- *)
Definition ns_ : name := [[110; 115]].
Definition www_ : name := [[119; 119; 119]].
Definition rt_nodes : zone :=
  [ ([], [ mkrds tSOA 0 300 [[VName ns_; VName [[104; 109]]; VInt 1; VInt 7200; VInt 900; VInt 1209600; VInt 60]];
           mkrds tNS 0 300 [[VName ns_]; [VName [[110; 115; 50]; [111]; []]]] ]);
    (www_, [ mkrds tCNAME 0 60 [[VName ns_]] ]);
    (ns_, [ mkrds tA 0 300 [[VTok [49; 46; 50; 46; 51; 46; 52]]; [VTok [49; 46; 50; 46; 51; 46; 53]]];
            mkrds tTXT 0 3600 [[VStrs [[104; 105; 32; 34]; []]]] ]) ].
Definition rt_cfg := mkcfg None true 1 true.
Definition rt_style := mkstyle false true (Some 300) true false false false false (-8) 6 0 (-6) None false false.

Ltac solve_rdata toks := exists toks; split; [vm_compute; reflexivity|split; vm_compute; reflexivity].

Example rt_premises :
  lossless rt_style /\ origin_ok ex_origin /\ nodes_wf rt_cfg rt_style ex_origin [] rt_nodes /\
  check_origin rt_cfg (Some ex_origin) rt_nodes = Ok tt.
Proof.
  split; [|split; [|split]].
  - unfold lossless, rt_style; cbn.
    split; [reflexivity|]. split; [reflexivity|]. split; [reflexivity|]. split; [lia|]. split; [reflexivity|].
    intros d0 Hd0; inversion Hd0; subst; unfold MAX_TTL; lia.
  - split; [|split]; vm_compute; reflexivity.
  - unfold rt_nodes. cbn [nodes_wf].
    repeat split;
      lazymatch goal with
      | |- exists _, _ => idtac
      | |- _ <> _ => vm_compute; intros HH; discriminate HH
      | |- _ <= _ => vm_compute; intros HH; discriminate HH
      | |- is_singleton _ = true -> _ =>
          vm_compute; first [intros HH; discriminate HH | intros _; eexists; reflexivity]
      | |- soa_ok _ _ _ _ => unfold soa_ok; vm_compute; first [intros _; reflexivity | intros HH; discriminate HH]
      | |- key_fresh _ _ => unfold key_fresh; repeat (apply Forall_cons; [vm_compute; reflexivity|]); apply Forall_nil
      | |- rds_fresh _ _ _ => unfold rds_fresh; repeat (apply Forall_cons; [vm_compute; reflexivity|]); apply Forall_nil
      | |- compat _ _ => vm_compute; first [reflexivity | exact Logic.I]
      | |- True => exact Logic.I
      | |- _ = _ => vm_compute; reflexivity
      end.
    + exists [64], ex_origin. repeat split; vm_compute; reflexivity.
    + solve_rdata [TId [110;115]; TId [104;109]; TId [49]; TId [55;50;48;48]; TId [57;48;48]; TId [49;50;48;57;54;48;48]; TId [54;48]].
    + solve_rdata [TId [110;115]].
    + solve_rdata [TId [110;115;50;46;111;46]].
    + exists [119;119;119], [[119;119;119];[101;120];[]]. repeat split; vm_compute; reflexivity.
    + solve_rdata [TId [110;115]].
    + exists [110;115], [[110;115];[101;120];[]]. repeat split; vm_compute; reflexivity.
    + solve_rdata [TId [49;46;50;46;51;46;52]].
    + solve_rdata [TId [49;46;50;46;51;46;53]].
    + solve_rdata [TQ [104;105;32;92;34]; TQ []].
  - vm_compute. reflexivity.
Qed.

(* ... and the conclusion, computed: the printed text is read back as the same zone *)
Example rt_computed :
  exists text, zone_text rt_style (mkpz (Some ex_origin) true 1 rt_nodes) = Ok text /\
               from_text rt_cfg text = Ok (Some ex_origin, rt_nodes).
Proof.
  exists (match zone_text rt_style (mkpz (Some ex_origin) true 1 rt_nodes) with Ok t => t | _ => [] end).
  split; vm_compute; reflexivity.
Qed.

(* non-vacuity of respell_parens:  www 300 (\n  IN\tA; c\n1.2.3.4 ) ;x   versus   www 300 IN A 1.2.3.4 *)
Definition pr_ts : list tok :=
  [TId [119;119;119]; TId [51;48;48]; TId [73;78]; TId [65]; TId [49;46;50;46;51;46;52]].
Definition pr_ps : list mpiece :=
  [MTk (TId [119;119;119]); MSp 1; MTk (TId [51;48;48]); MSp 1; MOpen; MNl; MSp 2; MTk (TId [73;78]); MTab;
   MTk (TId [65]); MComNl [32; 99]; MTk (TId [49;46;50;46;51;46;52]); MSp 1; MClose; MSp 1; MComEnd [120]].
Example pr_hyps :
  forallb tok_clean pr_ts = true /\ mvalid 0 pr_ps = true /\ mtoks pr_ps = pr_ts /\
  starts_ws (mrender pr_ps ++ [10]) = starts_ws (mrender (single_line pr_ts) ++ [10]).
Proof. repeat split; reflexivity. Qed.

(* non-vacuity of respell_generate:  $GENERATE 1-5/2 h${0,2} IN A 10.0.0.$   after  $TTL 300 *)
Definition gn_state : rstate := set_dttl (init_state (mkcfg (Some ex_origin) true 1 false)) 300.
Example gn_hyps :
  let c := mkcfg (Some ex_origin) true 1 false in
  let lhs := [104; 36; 123; 48; 44; 50; 125] in
  let rhs := [49; 48; 46; 48; 46; 48; 46; 36] in
  corigin gn_state = Some ex_origin /\ zorigin gn_state = Some ex_origin /\
  grange_from_text [49; 45; 53; 47; 50] = Ok (1, 5, 2) /\
  ttl_given gn_state None 300 /\
  type_from_text [65] = Some tA /\ class_from_text [65] = None /\ ttl_from_text [65] = Lib eBadTTL /\
  (exists lm rm s', parse_modify lhs = Ok lm /\ parse_modify rhs = Ok rm /\
     generate_line c gn_state [TId [49; 45; 53; 47; 50]; TId lhs; TId [73; 78]; TId [65]; TId rhs] false
       = Ok (s', Some []) /\ length (zn s') = 3%nat).
Proof.
  cbv zeta. repeat split; try reflexivity.
  - left. split; reflexivity.
  - eexists _, _, _. split; [vm_compute; reflexivity|]. split; [vm_compute; reflexivity|].
    split; vm_compute; reflexivity.
Qed.

(* non-vacuity of zone_roundtrip_fields: the structural hypotheses hold for the example zone *)
Ltac le_c := vm_compute; first [reflexivity | intros HH; discriminate HH].
Ltac solve_forall tac := repeat (apply Forall_cons; [tac|]); apply Forall_nil.
Ltac cmp := vm_compute; first [reflexivity | exact Logic.I].
Ltac solve_valid := apply validate_iff; vm_compute; reflexivity.
Ltac solve_bytes := apply AllBytes_dec; vm_compute; reflexivity.

Ltac rd_fit tac := left; eexists _, _; split; [reflexivity|]; split; [discriminate|]; split; [reflexivity|]; tac.

Example rt_struct : zone_struct rt_cfg ex_origin rt_nodes.
Proof.
  assert (Vns : Valid ns_ /\ AllBytes ns_) by (split; [solve_valid|solve_bytes]).
  assert (Vnsx : Valid (ns_ ++ ex_origin)) by solve_valid.
  assert (Nns : name_field_ok true ex_origin ns_).
  { split; [apply Vns|]. split; [apply Vns|]. left. split; [reflexivity|exact Vnsx]. }
  split.
  - repeat (constructor; [solve_forall ltac:(vm_compute; reflexivity)|]). constructor.
  - unfold rt_nodes. apply Forall_cons; [|apply Forall_cons; [|apply Forall_cons; [|apply Forall_nil]]].
    + (* apex: SOA, NS *)
      split; [discriminate|]. split.
      { split; [solve_valid|]. split; [solve_bytes|]. split; [reflexivity|solve_valid]. }
      cbn [rdss_struct fst snd].
      split; [constructor|]. split; [cmp|]. split.
      { split; [split; le_c|]. split; [discriminate|]. split; [split; le_c|].
        split; [intros _; reflexivity|]. split; [intros _; eexists; reflexivity|].
        cbn [rdatas_struct rdatas]. split; [|split; [reflexivity|exact Logic.I]].
        rd_fit ltac:(idtac). cbn [rdata_fits fval_ok]. split; [exact Nns|]. split.
        { split; [solve_valid|]. split; [solve_bytes|]. left. split; [reflexivity|solve_valid]. }
        repeat (split; [split; le_c|]). exact Logic.I. }
      split; [solve_forall ltac:(reflexivity)|]. split; [cmp|]. split; [|exact Logic.I].
      split; [split; le_c|]. split; [discriminate|]. split; [split; le_c|].
      split; [intros HH; discriminate HH|]. split; [intros HH; discriminate HH|].
      cbn [rdatas_struct rdatas app].
      split; [rd_fit ltac:(idtac); cbn [rdata_fits fval_ok]; split; [exact Nns|exact Logic.I]|].
      split; [reflexivity|]. split; [|split; [vm_compute; reflexivity|exact Logic.I]].
      rd_fit ltac:(idtac). cbn [rdata_fits fval_ok]. split; [|exact Logic.I].
      split; [solve_valid|]. split; [solve_bytes|]. right. split; vm_compute; reflexivity.
    + (* www: CNAME *)
      split; [discriminate|]. split.
      { split; [solve_valid|]. split; [solve_bytes|]. split; [reflexivity|solve_valid]. }
      cbn [rdss_struct fst snd]. split; [constructor|]. split; [cmp|]. split; [|exact Logic.I].
      split; [split; le_c|]. split; [discriminate|]. split; [split; le_c|].
      split; [intros HH; discriminate HH|]. split; [intros _; eexists; reflexivity|].
      cbn [rdatas_struct rdatas].
      split; [rd_fit ltac:(idtac); cbn [rdata_fits fval_ok]; split; [exact Nns|exact Logic.I]|].
      split; [reflexivity|exact Logic.I].
    + (* ns: A, TXT *)
      split; [discriminate|]. split.
      { split; [apply Vns|]. split; [apply Vns|]. split; [reflexivity|exact Vnsx]. }
      cbn [rdss_struct fst snd]. split; [constructor|]. split; [cmp|]. split.
      { split; [split; le_c|]. split; [discriminate|]. split; [split; le_c|].
        split; [intros HH; discriminate HH|]. split; [intros HH; discriminate HH|].
        cbn [rdatas_struct rdatas app].
        split; [rd_fit ltac:(idtac); cbn [rdata_fits fval_ok]; split; [split; vm_compute; reflexivity|exact Logic.I]|].
        split; [reflexivity|].
        split; [rd_fit ltac:(idtac); cbn [rdata_fits fval_ok]; split; [split; vm_compute; reflexivity|exact Logic.I]|].
        split; [vm_compute; reflexivity|exact Logic.I]. }
      split; [solve_forall ltac:(reflexivity)|]. split; [cmp|]. split; [|exact Logic.I].
      split; [split; le_c|]. split; [discriminate|]. split; [split; le_c|].
      split; [intros HH; discriminate HH|]. split; [intros HH; discriminate HH|].
      cbn [rdatas_struct rdatas]. split; [|split; [reflexivity|exact Logic.I]].
      rd_fit ltac:(idtac). cbn [rdata_fits]. split; [discriminate|].
      solve_forall ltac:(split; [solve_forall ltac:(split; le_c)|le_c]).
Qed.
