(* C01 - Name text and wire codecs are exact inverses within DNS length limits.
   Model: coq/Model/NameM.v (_validate_labels / Name.__init__, _escapify / to_text, the escape state
   machine of from_text, to_wire with and without a compression table, from_wire_parser over
   dns.wirebase.Parser, concatenate / relativize / derelativize / split / parent /
   successor / predecessor).  Declarative side:
     Valid      Proofs/NameValid.v   every label <= 63, sum(len+1) <= 255, empty label only last
     AllBytes   Proofs/NameText.v    every octet in 0..255
     good       Proofs/NameProducers.v   Ok(valid name) or a library exception; never Internal
     desc       Proofs/NameWire.v    strictly decreasing list of offsets below a bound
     TableSoundW / TableExact / NoCaseAlias / full_name / Dec   Proofs/NameCompress.v *)
From DV Require Import Base.Prelude Model.NameM.
From DV Require Import Proofs.NameOrder Proofs.NameValid Proofs.NameRel Proofs.NameSucc.
From DV Require Import Proofs.NameText Proofs.NameWire Proofs.NameProducers Proofs.NameCompress Proofs.NameTok.
Open Scope Z_scope.

(* _validate_labels decides exactly the DNS limits *)
Theorem validate_iff : forall n : name, validate_labels n = Ok tt <-> Valid n.
Proof. exact NameValid.validate_iff. Qed.
Print Assumptions validate_iff.

Theorem validate_error : forall (n : name) (e : Z),
  validate_labels n = Lib e ->
  (e = eLabelTooLong /\ ~ Forall (fun l => zlen l <= 63) n) \/
  (e = eNameTooLong /\ Forall (fun l => zlen l <= 63) n /\ wire_length n > 255) \/
  (e = eEmptyLabel /\ Forall (fun l => zlen l <= 63) n /\ wire_length n <= 255 /\
     ~ Forall (fun l => l <> []) (removelast n)).
Proof. exact NameValid.validate_error. Qed.
Print Assumptions validate_error.

(* text: to_text then from_text is the identity, for every octet value *)
(* the per-octet fact: the escaped form of any octet 0..255, followed by anything, parses back
   to exactly that octet *)
Theorem escape_octet_roundtrip : forall c t L lab, 0 <= c < 256 ->
  ft_loop (esc_octet c ++ t) L lab false 0%nat 0 = ft_loop t L (c :: lab) false 0%nat 0.
Proof. exact NameText.ft_octet. Qed.
Print Assumptions escape_octet_roundtrip.

Theorem text_roundtrip : forall n : name,
  Valid n -> AllBytes n -> from_text (to_text n) None = Ok n.
Proof. exact NameText.text_roundtrip. Qed.
Print Assumptions text_roundtrip.

(* with an origin: absolute names come back unchanged, relative ones get the origin appended *)
Theorem text_roundtrip_origin : forall (n : name) (origin : option name),
  Valid n -> AllBytes n ->
  from_text (to_text n) origin =
    if is_absolute n then Ok n
    else match origin with Some o => mk_name (n ++ o) | None => Ok n end.
Proof. exact NameText.text_roundtrip_origin. Qed.
Print Assumptions text_roundtrip_origin.

(* omit_final_dot=True output, read back against the root origin *)
Theorem text_roundtrip_omit : forall n : name,
  Valid n -> AllBytes n -> is_absolute n = true ->
  from_text (to_text_omit n) (Some root) = Ok n.
Proof. exact NameText.text_roundtrip_omit. Qed.
Print Assumptions text_roundtrip_omit.

(* any text the library accepts (octets 0..255) gives a name over octets whose printed form
   parses back to that same name: parse / print / parse is stable *)
Theorem text_normal_form : forall (text : list Z) (origin : option name) (n : name),
  byte_l text -> (forall o, origin = Some o -> AllBytes o) ->
  from_text text origin = Ok n ->
  AllBytes n /\ from_text (to_text n) None = Ok n.
Proof. exact NameText.text_normal_form. Qed.
Print Assumptions text_normal_form.

(* the zone-file path: Tokenizer.get() / get_name on the printed name *)
(* the printed form of any name over all 256 octet values is returned by the tokenizer as ONE
   identifier token, whatever follows it (end of input or any delimiter: blank, newline, ';',
   parentheses, quote), and get_name turns it back into the name *)
Theorem tokenizer_identifier : forall (n : name) (rest : list Z),
  AllBytes n -> token_end rest ->
  tok_get_identifier (to_text n ++ rest) = Ok (to_text n, rest).
Proof. exact NameTok.tokenizer_identifier. Qed.
Print Assumptions tokenizer_identifier.

Theorem tokenizer_name_roundtrip : forall (n : name) (rest : list Z),
  Valid n -> AllBytes n -> token_end rest ->
  tok_get_name (to_text n ++ rest) None = Ok n.
Proof. exact NameTok.tokenizer_name_roundtrip. Qed.
Print Assumptions tokenizer_name_roundtrip.

Theorem tokenizer_name_roundtrip_origin : forall (n o : name) (rest : list Z),
  Valid n -> AllBytes n -> token_end rest -> is_absolute o = true ->
  tok_get_name (to_text n ++ rest) (Some o) = if is_absolute n then Ok n else mk_name (n ++ o).
Proof. exact NameTok.tokenizer_name_roundtrip_origin. Qed.
Print Assumptions tokenizer_name_roundtrip_origin.

(* wire, uncompressed: exact inverse at any offset inside any byte string *)
Theorem wire_roundtrip : forall (n : name) (pre post : list Z),
  Valid n -> is_absolute n = true ->
  to_wire n None false = Ok (wire_labels false n) /\
  from_wire (pre ++ wire_labels false n ++ post) (length pre) = Ok (n, length (wire_labels false n)).
Proof. exact NameWire.wire_roundtrip. Qed.
Print Assumptions wire_roundtrip.

(* with an origin (relative names are made absolute): never longer than 255 octets - NameTooLong
   instead - and the result decodes to exactly the labels of the name followed by the origin's *)
Theorem to_wire_spec : forall (n : name) (origin : option name) (canon : bool) (w : list Z),
  Valid n -> (forall o, origin = Some o -> Valid o) ->
  to_wire n origin canon = Ok w ->
  exists labels, full_name n origin = Ok labels /\ w = wire_labels canon labels /\
                 Z.of_nat (length w) <= 255.
Proof. exact NameCompress.to_wire_spec. Qed.
Print Assumptions to_wire_spec.

(* the third call shape, Name.to_wire(file, None, origin): same octets and the same NameTooLong as
   the form without a file (so to_wire_spec / to_wire_roundtrip apply to it as well) *)
Theorem to_wire_file_eq : forall (n : name) (origin : option name) (canon : bool),
  Valid n -> (forall o, origin = Some o -> Valid o) ->
  to_wire_file n origin canon = to_wire n origin canon.
Proof. exact NameCompress.to_wire_file_eq. Qed.
Print Assumptions to_wire_file_eq.

Theorem to_wire_roundtrip : forall (n : name) (origin : option name) (w pre post : list Z),
  Valid n -> (forall o, origin = Some o -> Valid o) ->
  to_wire n origin false = Ok w ->
  exists labels, full_name n origin = Ok labels /\
    from_wire (pre ++ w ++ post) (length pre) = Ok (labels, length w).
Proof. exact NameCompress.to_wire_roundtrip. Qed.
Print Assumptions to_wire_roundtrip.

(* whatever from_wire decodes, from any message (compressed or not), is a valid absolute name
   whose own uncompressed encoding decodes to it again *)
Theorem from_wire_reencode : forall (msg : list Z) (off : nat) (n : name) (c : nat),
  Forall (fun x => 0 <= x) msg ->
  from_wire msg off = Ok (n, c) ->
  Valid n /\ is_absolute n = true /\
  from_wire (wire_labels false n) 0 = Ok (n, length (wire_labels false n)).
Proof. exact NameCompress.from_wire_reencode. Qed.
Print Assumptions from_wire_reencode.

(* decoding terminates on every input; pointers only go strictly backwards *)
(* the model's loop runs on fuel S ((S start) * (S (length wire))); the fuel marker
   (Internal iFuel) and every other non-library exception are unreachable *)
Theorem from_wire_total : forall (wire : list Z) (start : nat) (e : Z),
  from_wire wire start <> Internal e.
Proof. exact NameWire.from_wire_total. Qed.
Print Assumptions from_wire_total.

Theorem from_wire_fuel_measure : forall (wire : list Z) fuel p biggest acc e,
  (cur p <= length wire)%nat -> (meas wire p biggest < fuel)%nat ->
  fw_go wire fuel p biggest acc <> Internal e.
Proof. exact NameWire.fw_go_enough. Qed.
Print Assumptions from_wire_fuel_measure.

Theorem pointers_strictly_decrease : forall (wire : list Z) (start : nat) (n : name) (consumed : nat) (tr : list nat),
  from_wire_tr wire start = Ok (n, consumed, tr) ->
  desc start tr /\ Forall (fun c => (c <= length wire)%nat) tr /\
  from_wire wire start = Ok (n, consumed).
Proof. exact NameWire.pointers_strictly_decrease. Qed.
Print Assumptions pointers_strictly_decrease.

(* the instrumented decoder (which exposes the followed pointers) is the decoder *)
Theorem from_wire_tr_erase : forall (wire : list Z) (start : nat),
  from_wire wire start =
    match from_wire_tr wire start with
    | Ok (n, c, _) => Ok (n, c)
    | Lib e => Lib e
    | Internal e => Internal e
    end.
Proof. exact NameWire.from_wire_tr_erase. Qed.
Print Assumptions from_wire_tr_erase.

(* model note: from_wire_parser masks the first pointer octet with 0x3F, the model subtracts 192 *)
Theorem pointer_mask_equiv : forall c : Z, 192 <= c < 256 -> Z.land c 63 = c - 192.
Proof. exact NameWire.pointer_mask_equiv. Qed.
Print Assumptions pointer_mask_equiv.

(* every producer: a valid name or a library exception, never a Python-level one *)
Theorem producers_valid :
  (forall ls, good (mk_name ls)) /\
  (forall a b, good (concatenate a b)) /\
  (forall n o, Valid n -> good (relativize n o)) /\
  (forall n o, Valid n -> good (derelativize n o)) /\
  (forall n o rel, Valid n -> good (choose_relativity n o rel)) /\
  (forall n, good (parent n)) /\
  (forall n d, Valid n ->
     match split n d with Ok (p, s) => Valid p /\ Valid s | Lib _ => True | Internal _ => False end) /\
  (forall text origin, good (from_text text origin)) /\
  (forall wire start,
     match from_wire wire start with Ok (n, _) => Valid n | Lib _ => True | Internal _ => False end) /\
  (forall n o p, Valid n -> Valid o -> good (successor n o p)) /\
  (forall n o p, Valid n -> Valid o -> good (predecessor n o p)).
Proof.
  exact (conj mk_name_good (conj concatenate_good (conj relativize_good (conj derelativize_good
        (conj choose_relativity_good (conj parent_good (conj split_good (conj from_text_good
        (conj from_wire_good (conj successor_good predecessor_good)))))))))).
Qed.
Print Assumptions producers_valid.

(* dns.wire.Parser.get_name(origin): decode, then relativize *)
Theorem parser_get_name_valid : forall (wire : list Z) (start : nat) (origin : option name),
  match parser_get_name wire start origin with
  | Ok (n, _) => Valid n | Lib _ => True | Internal _ => False end.
Proof. exact NameProducers.parser_get_name_good. Qed.
Print Assumptions parser_get_name_valid.

(* For every message prefix `file`, every table that is sound for it (each offset <= 0x3FFF and
   from_wire at that offset yields a name equal to the key), every valid name and origin:
   the output extends the message, the table stays sound (so the invariant carries through a
   whole message), every new offset is <= 0x3FFF, and the independent decoder from_wire, run at
   the offset where the name was written, returns a name equal to the written one under the
   library's (ASCII-case-insensitive) equality and consumes exactly the octets emitted. *)
Theorem compress_sound : forall (n : name) (origin : option name) (canon : bool)
    (file : list Z) (t : ctable) (file' : list Z) (t' : ctable) (labels : name),
  Forall (fun c => 0 <= c) file ->
  (forall k v, In (k, v) t -> Valid k) ->
  TableSoundW file t -> Valid n -> full_name n origin = Ok labels ->
  to_wire_compress n origin canon file t = Ok (file', t') ->
  exists em n',
    file' = file ++ em /\ TableSoundW file' t' /\ (forall k v, In (k, v) t' -> Valid k) /\
    from_wire file' (length file) = Ok (n', length em) /\ ci_equal n' labels /\
    (exists new, t' = t ++ new /\ Forall (fun kv => 0 <= snd kv <= 16383) new).
Proof. exact NameCompress.compress_sound_W. Qed.
Print Assumptions compress_sound.

(* the two "consumed" statements of the design, as corollaries *)
Theorem consumed_plain : forall (n : name) (pre post : list Z),
  Valid n -> is_absolute n = true ->
  exists m, from_wire (pre ++ wire_labels false n ++ post) (length pre) = Ok (m, length (wire_labels false n)).
Proof. exact NameCompress.consumed_plain. Qed.
Print Assumptions consumed_plain.

Theorem consumed_compressed : forall (n : name) (origin : option name) (canon : bool)
    (file : list Z) (t : ctable) (file' : list Z) (t' : ctable) (labels : name),
  Forall (fun c => 0 <= c) file -> (forall k v, In (k, v) t -> Valid k) ->
  TableSoundW file t -> Valid n -> full_name n origin = Ok labels ->
  to_wire_compress n origin canon file t = Ok (file', t') ->
  exists m, from_wire file' (length file) = Ok (m, (length file' - length file)%nat).
Proof. exact NameCompress.consumed_compressed. Qed.
Print Assumptions consumed_compressed.

(* byte-identical when no key of the table is a case variant of a suffix being written
   (and the name is not canonicalized) *)
Theorem compress_exact : forall (n : name) (origin : option name)
    (file : list Z) (t : ctable) (file' : list Z) (t' : ctable) (labels : name),
  TableExact file t -> Valid n -> full_name n origin = Ok labels -> NoCaseAlias t labels ->
  to_wire_compress n origin false file t = Ok (file', t') ->
  exists em,
    file' = file ++ em /\ TableExact file' t' /\
    from_wire file' (length file) = Ok (labels, length em).
Proof. exact NameCompress.compress_exact. Qed.
Print Assumptions compress_exact.

(* a whole sequence of names written through one table (what a message renderer does): the
   table invariant composes and every name is decodable, in the FINAL message, at the offset
   where it was written *)
Theorem write_names_sound : forall (origin : option name) (ns : list name)
    (file : list Z) (t : ctable) (file' : list Z) (t' : ctable),
  TableSound file t -> Forall Valid ns ->
  write_names ns origin file t = Ok (file', t') ->
  exists em offs,
    file' = file ++ em /\ TableSound file' t' /\
    Forall2 (fun n off =>
               exists labels n' c, full_name n origin = Ok labels /\
                 from_wire file' off = Ok (n', c) /\ ci_equal n' labels) ns offs.
Proof. exact NameCompress.write_names_sound. Qed.
Print Assumptions write_names_sound.

(* the relation Dec used by TableExact is exactly the decoder *)
Theorem decode_relation_sound : forall msg off ls h,
  Dec msg off off ls h -> Valid ls -> from_wire msg off = Ok (ls, (h - off)%nat).
Proof. exact NameCompress.Dec_from_wire. Qed.
Print Assumptions decode_relation_sound.

Theorem decode_relation_complete : forall msg off n c, Forall (fun c => 0 <= c) msg ->
  from_wire msg off = Ok (n, c) -> exists h, Dec msg off off n h /\ c = (h - off)%nat /\ Valid n.
Proof. exact NameCompress.from_wire_Dec. Qed.
Print Assumptions decode_relation_complete.

Definition ex_name : name := [[119; 46; 64; 0; 255; 92; 34]; [36; 65]; []].   (* labels: w.@ NUL 0xff backslash dquote ; $A ; root *)
Example ex_valid : Valid ex_name /\ AllBytes ex_name /\ is_absolute ex_name = true.
Proof.
  split; [apply validate_iff; reflexivity|]. split; [|reflexivity].
  repeat constructor; lia.
Qed.
Example ex_text : to_text ex_name =
  [119; 92;46; 92;64; 92;48;48;48; 92;50;53;53; 92;92; 92;34; 46; 92;36; 65; 46]
  /\ from_text (to_text ex_name) None = Ok ex_name.
Proof. split; vm_compute; reflexivity. Qed.
Example ex_bad_escape : from_text [92; 50; 53; 54; 46] None = Lib eBadEscape    (* \256. (fixed d203a35) *)
                        /\ from_text [92; 50; 53; 53; 46] None = Ok [[255]; []].
Proof. split; vm_compute; reflexivity. Qed.
Example ex_wire : from_wire ([7; 7] ++ wire_labels false ex_name ++ [9]) 2 = Ok (ex_name, 12%nat).
Proof. vm_compute. reflexivity. Qed.
(* a pointer chain 9 -> 4 -> 0, and the loops / forward pointers that are rejected *)
Example ex_ptr : from_wire_tr [1; 97; 0; 0; 1; 98; 192; 0; 0; 1; 99; 192; 4] 9 = Ok ([[99]; [98]; [97]; []], 4%nat, [4%nat; 0%nat]).
Proof. vm_compute. reflexivity. Qed.
Example ex_ptr_self : from_wire [192; 0] 0 = Lib eBadPointer /\ from_wire [1; 97; 192; 2] 2 = Lib eBadPointer
                      /\ from_wire [192; 2; 0] 0 = Lib eBadPointer /\ from_wire [64; 0] 0 = Lib eBadLabelType.
Proof. repeat split; vm_compute; reflexivity. Qed.
Example ex_limits : mk_name [repeat 97 64] = Lib eLabelTooLong /\ mk_name [[]; [97]] = Lib eEmptyLabel
  /\ mk_name [repeat 97 63; repeat 97 63; repeat 97 63; repeat 97 62; []] = Lib eNameTooLong
  /\ mk_name [repeat 97 63; repeat 97 63; repeat 97 63; repeat 97 61; []]
     = Ok [repeat 97 63; repeat 97 63; repeat 97 63; repeat 97 61; []].
Proof. repeat split; vm_compute; reflexivity. Qed.

(* compression with a case variant: the second name points into the first; decoding yields the
   first spelling of the shared suffix (equal, not byte-identical) *)
Definition ex_com1 : name := [[101; 120]; [67; 79; 77]; []].            (* ex.COM. *)
Definition ex_com2 : name := [[119]; [69; 88]; [99; 111; 109]; []].     (* w.EX.com. *)
Example ex_compress :
  exists f1 t1 f2 t2,
    to_wire_compress ex_com1 None false (repeat 0 12) [] = Ok (f1, t1) /\
    to_wire_compress ex_com2 None false f1 t1 = Ok (f2, t2) /\
    from_wire f2 12 = Ok (ex_com1, 8%nat) /\
    from_wire f2 20 = Ok ([[119]; [101; 120]; [67; 79; 77]; []], 4%nat) /\
    map snd t2 = [12; 15; 20].
Proof. do 4 eexists. repeat split; vm_compute; reflexivity. Qed.
Example ex_table_sound : TableSoundW (repeat 0 12) [] /\ TableExact (repeat 0 12) [] /\ NoCaseAlias [] ex_com1.
Proof. split; [|split]; intros k v []. Qed.
(* offsets above 0x3FFF are not entered into the table *)
Example ex_no_entry_above_3fff :
  exists f1, to_wire_compress ex_com1 None false (repeat 0 16384) [] = Ok (f1, []).
Proof. eexists. vm_compute. reflexivity. Qed.

Example ex_tok : tok_get_name (to_text ex_name ++ [32; 51; 48; 48]) None = Ok ex_name
                 /\ token_end [32; 51; 48; 48] /\ token_end [].
Proof. split; [vm_compute; reflexivity|]. split; [right; exists 32, [51; 48; 48]; auto|left; reflexivity]. Qed.
