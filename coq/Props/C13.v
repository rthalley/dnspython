(* C13 - Inbound AXFR/IXFR converges to the server's zone or leaves the zone untouched.
   Statements only; proofs are in Proofs/Xfr*.v, the model in Model/XfrM.v, the server-side
   specification (headers, versions, streams) in Proofs/XfrSpec.v. *)
From DV Require Import Base.Prelude Model.XfrM Proofs.XfrSpec.
From DV Require Proofs.XfrZone Proofs.XfrDiff.
From DV Require Proofs.XfrSafety Proofs.XfrBasic Proofs.XfrIxfr Proofs.XfrAxfr Proofs.XfrFault Proofs.XfrOrder Proofs.XfrRefresh Proofs.XfrGlue Proofs.XfrTsig Proofs.XfrSections Proofs.XfrGroup Proofs.XfrSoaFaults Proofs.XfrTsigLink Proofs.XfrAddStart Proofs.XfrBody Proofs.XfrGeneral Proofs.XfrGeneralAxfr Proofs.XfrLegacy Proofs.XfrGeneralOrder Proofs.XfrInversion Proofs.XfrInversionGen Proofs.XfrRefreshGen.
From DV Require Model.TsigM.
From Coq Require Import Sorting.Permutation.

(* Whatever is received (any messages, any records, any chunking, any fault), if the transfer ends
   with an exception - including the stream ending before the transfer is complete - the zone is
   exactly what it was. *)
Theorem error_leaves_zone : forall z rdt ser udp ws e z' n,
  inbound_xfr z rdt ser udp ws = (Error e z', n) -> z' = z.
Proof. exact XfrSafety.error_leaves_zone. Qed.
Print Assumptions error_leaves_zone.

(* "an error is never reported for a transfer that was applied": one call of process_message
   either leaves the published zone alone, or it committed, raised nothing and returned True. *)
Theorem no_error_after_apply : forall s m s' o,
  process_message s m = (s', o) ->
  pub s' = pub s \/ (o = None /\ done s' = true /\ txn s' = None).
Proof. exact XfrSafety.process_message_pub. Qed.
Print Assumptions no_error_after_apply.

(* the same for process_message used without the driver: as long as no call returned True, the
   zone is untouched (feed lists rTrue for a call that returned True) *)
Theorem not_done_leaves_zone : forall ms s l z,
  feed s ms = (l, z) -> ~ In rTrue l -> z = pub s.
Proof. exact XfrSafety.feed_not_done_leaves_zone. Qed.
Print Assumptions not_done_leaves_zone.

(* dns.serial.Serial.__lt__ is RFC 1982 section 3.2 *)
Theorem serial_lt_rfc1982 : forall a b,
  serial_lt a b = true <-> 0 < (b - a) mod two32 < two31.
Proof. exact XfrBasic.serial_lt_rfc1982. Qed.
Print Assumptions serial_lt_rfc1982.

Theorem serial_gt_lt : forall a b, serial_gt a b = serial_lt b a.
Proof. exact XfrBasic.serial_gt_lt. Qed.
Print Assumptions serial_gt_lt.

(* RFC 1982 3.1: adding 0 < d < 2^31 yields a greater serial (what transaction.update_serial relies on) *)
Theorem serial_add_greater : forall a d v, 0 < d < two31 -> serial_add a d = Ok v -> serial_lt a v = true.
Proof. exact XfrBasic.serial_add_greater. Qed.
Print Assumptions serial_add_greater.

Theorem serial_backwards_rejected : forall z ser udp w ws r0 rest,
  header_ok tIXFR w -> w_records w = r0 :: rest -> apex_soa r0 ->
  serial_lt (r_data r0 mod two32) ser = true ->
  inbound_xfr z tIXFR (Some ser) udp (w :: ws) = (Error eBackwards z, 0%nat).
Proof. exact XfrBasic.serial_backwards_rejected. Qed.
Print Assumptions serial_backwards_rejected.

Theorem uptodate_noop : forall z ser udp w ws r0,
  header_ok tIXFR w -> w_records w = [r0] -> apex_soa r0 ->
  r_data r0 mod two32 = ser ->
  inbound_xfr z tIXFR (Some ser) udp (w :: ws) = (Done z, 1%nat).
Proof. exact XfrBasic.uptodate_noop. Qed.
Print Assumptions uptodate_noop.

Theorem use_tcp_signalled : forall z ser w ws r0,
  header_ok tIXFR w -> w_records w = [r0] -> apex_soa r0 ->
  r_data r0 mod two32 <> ser -> serial_lt (r_data r0 mod two32) ser = false ->
  inbound_xfr z tIXFR (Some ser) true (w :: ws) = (Error eUseTCP z, 0%nat).
Proof. exact XfrBasic.use_tcp_signalled. Qed.
Print Assumptions use_tcp_signalled.

(* Multi-step incremental chains: for every chain of well-formed server versions v0 -> v1 -> ... -> vn
   (the intermediate serials differ from vn's, vn is not older than v0 in RFC 1982 terms), a client
   zone equal to v0, and EVERY division of the response stream into messages, the transfer completes
   and the zone equals vn (with vn's SOA, hence its serial). *)
Theorem ixfr_converges : forall v0 chain z0 ws,
  chain_ok v0 chain -> zeq z0 (zone_of v0) -> chunking tIXFR (ixfr_stream v0 chain) ws ->
  exists z' n, inbound_xfr z0 tIXFR (Some (v_serial v0)) false ws = (Done z', n)
               /\ zeq z' (zone_of (last chain v0)).
Proof. exact XfrIxfr.ixfr_converges. Qed.
Print Assumptions ixfr_converges.

(* AXFR: for every well-formed server zone, any client zone, and EVERY division of the stream into
   messages - where dns.message merges the records of a message into RRsets (one_rr_per_rrset=False,
   force_unique from the first SOA on) - the zone ends up equal to the server's. *)
Theorem axfr_converges : forall v z0 ser ws,
  version_wf v -> chunking tAXFR (axfr_stream v) ws ->
  exists z' n, inbound_xfr z0 tAXFR ser false ws = (Done z', n) /\ zeq z' (zone_of v).
Proof. exact XfrAxfr.axfr_converges. Qed.
Print Assumptions axfr_converges.

(* AXFR-style answer to an IXFR request (the second record is not an SOA): rollback, replacement
   transaction, same result; the fallback may be triggered in a later message than the first. *)
Theorem axfr_style_ixfr_converges : forall v z0 ser ws,
  version_wf v -> v_rest v <> [] ->
  v_serial v <> ser -> serial_lt (v_serial v) ser = false ->
  chunking tIXFR (axfr_stream v) ws ->
  exists z' n, inbound_xfr z0 tIXFR (Some ser) false ws = (Done z', n) /\ zeq z' (zone_of v).
Proof. exact XfrAxfr.axfr_style_ixfr_converges. Qed.
Print Assumptions axfr_style_ixfr_converges.

(* General form (RFC 1995 / RFC 5936 do not fix the order of the records inside a deletion section,
   an addition section or an AXFR body): ixfr_response / axfr_response allow ANY permutation of the
   deleted records of every section, and any order AND repetition of added records / body records
   (same_set) - so swapping two records of a section and duplicating an added record are benign.  ixfr_converges, axfr_converges and
   axfr_style_ixfr_converges above are the instances with the canonical order. *)
Theorem ixfr_converges_any_order : forall v0 chain z0 recs ws,
  chain_ok v0 chain -> zeq z0 (zone_of v0) -> ixfr_response v0 chain recs -> chunking tIXFR recs ws ->
  exists z' n, inbound_xfr z0 tIXFR (Some (v_serial v0)) false ws = (Done z', n)
               /\ zeq z' (zone_of (last chain v0)).
Proof. exact XfrOrder.ixfr_converges_any_order. Qed.
Print Assumptions ixfr_converges_any_order.

Theorem axfr_converges_any_order : forall v z0 ser recs ws,
  version_wf v -> axfr_response v recs -> chunking tAXFR recs ws ->
  exists z' n, inbound_xfr z0 tAXFR ser false ws = (Done z', n) /\ zeq z' (zone_of v).
Proof. exact XfrOrder.axfr_converges_any_order. Qed.
Print Assumptions axfr_converges_any_order.

Theorem axfr_style_ixfr_converges_any_order : forall v z0 ser recs ws,
  version_wf v -> v_rest v <> [] -> axfr_response v recs ->
  v_serial v <> ser -> serial_lt (v_serial v) ser = false ->
  chunking tIXFR recs ws ->
  exists z' n, inbound_xfr z0 tIXFR (Some ser) false ws = (Done z', n) /\ zeq z' (zone_of v).
Proof. exact XfrOrder.axfr_style_ixfr_converges_any_order. Qed.
Print Assumptions axfr_style_ixfr_converges_any_order.

(* AXFR whose body also carries out-of-zone records ("glue that is not a subdomain of the origin",
   any class / type except SOA / TTL / rdata), anywhere between the two SOAs: they are ignored *)
Theorem axfr_converges_with_glue : forall v z0 ser recs ws,
  version_wf v -> XfrGlue.axfr_response_glue v recs -> chunking tAXFR recs ws ->
  exists z' n, inbound_xfr z0 tAXFR ser false ws = (Done z', n) /\ zeq z' (zone_of v).
Proof. exact XfrGlue.axfr_converges_with_glue. Qed.
Print Assumptions axfr_converges_with_glue.

Theorem axfr_style_ixfr_converges_with_glue : forall v z0 ser recs ws,
  version_wf v -> v_rest v <> [] -> XfrGlue.axfr_response_glue v recs ->
  v_serial v <> ser -> serial_lt (v_serial v) ser = false ->
  chunking tIXFR recs ws ->
  exists z' n, inbound_xfr z0 tIXFR (Some ser) false ws = (Done z', n) /\ zeq z' (zone_of v).
Proof. exact XfrGlue.axfr_style_ixfr_converges_with_glue. Qed.
Print Assumptions axfr_style_ixfr_converges_with_glue.

(* incremental chains whose deletion / addition sections also carry out-of-zone records *)
Theorem ixfr_converges_with_glue : forall v0 chain z0 recs ws,
  chain_ok v0 chain -> zeq z0 (zone_of v0) -> XfrGlue.ixfr_response_glue v0 chain recs -> chunking tIXFR recs ws ->
  exists z' n, inbound_xfr z0 tIXFR (Some (v_serial v0)) false ws = (Done z', n)
               /\ zeq z' (zone_of (last chain v0)).
Proof. exact XfrGlue.ixfr_converges_with_glue. Qed.
Print Assumptions ixfr_converges_with_glue.

(* UDP IXFR: the same stream in one datagram *)
Theorem udp_ixfr : forall v0 chain z0 w,
  chain_ok v0 chain -> zeq z0 (zone_of v0) ->
  header_ok tIXFR w -> w_records w = ixfr_stream v0 chain ->
  exists z', inbound_xfr z0 tIXFR (Some (v_serial v0)) true [w] = (Done z', 1%nat)
             /\ zeq z' (zone_of (last chain v0)).
Proof. exact XfrIxfr.udp_ixfr. Qed.
Print Assumptions udp_ixfr.

(* based on a different serial *)
Theorem wrong_base_rejected : forall v0 chain z ser ws,
  chain <> [] -> chunking tIXFR (ixfr_stream v0 chain) ws ->
  v_serial v0 <> ser -> v_serial (last chain v0) <> ser ->
  serial_lt (v_serial (last chain v0)) ser = false ->
  v_soa v0 <> v_soa (last chain v0) ->
  exists n, inbound_xfr z tIXFR (Some ser) false ws = (Error eBaseMismatch z, n).
Proof. exact XfrIxfr.wrong_base_rejected. Qed.
Print Assumptions wrong_base_rejected.

(* ends early: every proper prefix of a valid IXFR response, in any division into messages *)
Theorem ixfr_early_end_rejected : forall v0 chain z0 ws q,
  chain_ok v0 chain -> zeq z0 (zone_of v0) ->
  Forall (header_ok tIXFR) ws -> q <> [] ->
  concat (map w_records ws) ++ q = ixfr_stream v0 chain ->
  exists e n, inbound_xfr z0 tIXFR (Some (v_serial v0)) false ws = (Error e z0, n).
Proof. exact XfrIxfr.ixfr_early_end_rejected. Qed.
Print Assumptions ixfr_early_end_rejected.

(* ends early, AXFR *)
Theorem axfr_early_end_rejected : forall v z0 ser ws q,
  version_wf v -> Forall (header_ok tAXFR) ws -> q <> [] ->
  concat (map w_records ws) ++ q = axfr_stream v ->
  exists e n, inbound_xfr z0 tAXFR ser false ws = (Error e z0, n).
Proof. exact XfrFault.axfr_early_end_rejected. Qed.
Print Assumptions axfr_early_end_rejected.

(* single faults on a valid IXFR response that are always detected: a non-zero rcode, or a wrong
   question, in ANY message that is read before the transfer is complete (any division into
   messages); truncation at every position is ixfr_early_end_rejected / axfr_early_end_rejected *)
Theorem ixfr_rcode_fault_rejected : forall v0 chain z0 ws1 w' ws2 q,
  chain_ok v0 chain -> zeq z0 (zone_of v0) ->
  Forall (header_ok tIXFR) ws1 -> q <> [] ->
  concat (map w_records ws1) ++ q = ixfr_stream v0 chain ->
  match ws1 with w :: _ => w_records w <> [] | [] => True end ->
  w_rcode w' <> 0 ->
  exists n, inbound_xfr z0 tIXFR (Some (v_serial v0)) false (ws1 ++ w' :: ws2) = (Error eTransfer z0, n).
Proof. exact XfrFault.ixfr_rcode_fault_rejected. Qed.
Print Assumptions ixfr_rcode_fault_rejected.

Theorem ixfr_question_fault_rejected : forall v0 chain z0 ws1 w' ws2 q qn qt qs,
  chain_ok v0 chain -> zeq z0 (zone_of v0) ->
  Forall (header_ok tIXFR) ws1 -> q <> [] ->
  concat (map w_records ws1) ++ q = ixfr_stream v0 chain ->
  match ws1 with w :: _ => w_records w <> [] | [] => True end ->
  w_rcode w' = 0 -> w_question w' = (qn, qt) :: qs -> (qn <> origin \/ qt <> tIXFR) ->
  exists e n, (e = eQName \/ e = eQType) /\
    inbound_xfr z0 tIXFR (Some (v_serial v0)) false (ws1 ++ w' :: ws2) = (Error e z0, n).
Proof. exact XfrFault.ixfr_question_fault_rejected. Qed.
Print Assumptions ixfr_question_fault_rejected.

(* corrupt serial: after any number of correct difference sequences the next SOA (start of the next
   deletion section, or the final SOA) does not carry the current serial *)
Theorem ixfr_corrupt_serial_rejected : forall v0 pre vn bad rest z0 ws,
  version_wf v0 -> Forall version_wf pre -> zeq z0 (zone_of v0) ->
  (forall v, In v (v0 :: removelast pre) -> v_soa v <> v_soa vn) ->
  v_serial vn <> v_serial v0 -> serial_lt (v_serial vn) (v_serial v0) = false ->
  v_soa bad <> v_soa vn -> v_serial bad <> v_serial (last pre v0) ->
  chunking tIXFR (soa_rr vn :: diff_seqs v0 pre ++ soa_rr bad :: rest) ws ->
  exists n, inbound_xfr z0 tIXFR (Some (v_serial v0)) false ws = (Error eBaseMismatch z0, n).
Proof. exact XfrFault.ixfr_corrupt_serial_rejected. Qed.
Print Assumptions ixfr_corrupt_serial_rejected.

(* a deletion that does not apply at that point (duplicate of a deleted record; corrupt owner, type
   or rdata of a deleted record): DeleteNotExact, zone untouched *)
Theorem ixfr_bad_delete_rejected : forall v0 pre vn D1 r z1 rest z0 ws,
  version_wf v0 -> Forall version_wf pre -> zeq z0 (zone_of v0) ->
  (forall v, In v (v0 :: removelast pre ++ [last pre v0]) -> v_soa v <> v_soa vn) ->
  v_serial vn <> v_serial v0 -> serial_lt (v_serial vn) (v_serial v0) = false ->
  Forall XfrZone.plain D1 -> XfrZone.plain r ->
  XfrDiff.dels (zone_of (last pre v0)) D1 = Some z1 ->
  XfrZone.del1 (look z1 (rkey r)) (r_data r) = None ->
  chunking tIXFR (soa_rr vn :: diff_seqs v0 pre ++ soa_rr (last pre v0) :: D1 ++ r :: rest) ws ->
  exists n, inbound_xfr z0 tIXFR (Some (v_serial v0)) false ws = (Error eDeleteNotExact z0, n).
Proof. exact XfrFault.ixfr_bad_delete_rejected. Qed.
Print Assumptions ixfr_bad_delete_rejected.

(* UDP IXFR that neither completes nor is the bare-SOA "use TCP" answer *)
Theorem udp_incomplete_rejected : forall v0 chain z0 w a q,
  chain_ok v0 chain -> zeq z0 (zone_of v0) -> header_ok tIXFR w ->
  a <> [] -> q <> [] ->
  w_records w = soa_rr (last chain v0) :: a ->
  soa_rr (last chain v0) :: a ++ q = ixfr_stream v0 chain ->
  forall ws, inbound_xfr z0 tIXFR (Some (v_serial v0)) true (w :: ws) = (Error eUDPEnd z0, 0%nat).
Proof. exact XfrFault.udp_incomplete_rejected. Qed.
Print Assumptions udp_incomplete_rejected.

(* the outcome side of the single-fault lemma, for ANY input (hence any fault): an error leaves the
   zone unchanged (error_leaves_zone); a completed transfer leaves the zone untouched (up-to-date
   answer) or holding the SOA announced by the first record - the server's serial *)
Theorem done_has_announced_soa : forall z rdt ser udp ws z' n,
  inbound_xfr z rdt ser udp ws = (Done z', n) ->
  z' = z \/ exists w ws' r0 rs, ws = w :: ws' /\ group (rdt =? tIXFR) (w_records w) = r0 :: rs
                                 /\ announced r0 z'.
Proof. exact XfrFault.done_has_announced_soa. Qed.
Print Assumptions done_has_announced_soa.

(* ---- the transfer is only as good as the stream.  An IXFR response with a well-formed SOA skeleton
        (XfrSections.skel_ok: every deletion section starts at the current serial, the chain ends at
        the announced serial) is applied section by section WHATEVER its records are: exact deletion
        of the deleted records, SOA replacement, set union with the added records
        (XfrSections.apply_secs).  So a dropped or altered non-SOA record is either caught by
        delete_exact or changes the result by exactly that record. ---- *)
Theorem ixfr_sections_applied : forall fin secs z0 z' ser ws,
  secs <> [] -> XfrSections.skel_ok ser fin secs -> XfrSections.end_serial ser secs = v_serial fin ->
  ttl_ok (v_ttl fin) -> v_serial fin <> ser -> serial_lt (v_serial fin) ser = false ->
  XfrZone.quiet z0 -> XfrSections.apply_secs z0 secs = Some z' ->
  chunking tIXFR (soa_rr fin :: XfrSections.secs_stream secs ++ [soa_rr fin]) ws ->
  exists n, inbound_xfr z0 tIXFR (Some ser) false ws = (Done (zput soakey (v_ttl fin, [v_soa fin]) z'), n).
Proof. exact XfrSections.ixfr_sections_applied. Qed.
Print Assumptions ixfr_sections_applied.

(* some deletion (dropped earlier, altered, duplicated ...) does not apply: DeleteNotExact, zone untouched *)
Theorem ixfr_sections_rejected : forall fin secs tail z0 ser ws,
  XfrSections.skel_ok ser fin secs ->
  v_serial fin <> ser -> serial_lt (v_serial fin) ser = false ->
  XfrZone.quiet z0 -> XfrSections.apply_secs z0 secs = None ->
  chunking tIXFR (soa_rr fin :: XfrSections.secs_stream secs ++ tail) ws ->
  exists n, inbound_xfr z0 tIXFR (Some ser) false ws = (Error eDeleteNotExact z0, n).
Proof. exact XfrSections.ixfr_sections_rejected. Qed.
Print Assumptions ixfr_sections_rejected.

(* an addition of the last section received as another record: both transfers complete and the zones
   agree everywhere except at the two RRsets concerned *)
Theorem ixfr_altered_addition : forall fin pre c A1 a a' A2 z0 z1 z2 ser ws1 ws2,
  XfrSections.c_adds c = A1 ++ a :: A2 -> XfrZone.plain a -> XfrZone.plain a' ->
  XfrSections.skel_ok ser fin (pre ++ [c]) -> XfrSections.end_serial ser (pre ++ [c]) = v_serial fin ->
  ttl_ok (v_ttl fin) -> v_serial fin <> ser -> serial_lt (v_serial fin) ser = false ->
  XfrZone.quiet z0 -> XfrSections.apply_secs z0 (pre ++ [c]) = Some z1 ->
  XfrSections.apply_secs z0 (pre ++ [XfrSections.set_adds c (A1 ++ a' :: A2)]) = Some z2 ->
  chunking tIXFR (soa_rr fin :: XfrSections.secs_stream (pre ++ [c]) ++ [soa_rr fin]) ws1 ->
  chunking tIXFR (soa_rr fin :: XfrSections.secs_stream (pre ++ [XfrSections.set_adds c (A1 ++ a' :: A2)]) ++ [soa_rr fin]) ws2 ->
  exists zf1 zf2 n1 n2,
    inbound_xfr z0 tIXFR (Some ser) false ws1 = (Done zf1, n1) /\
    inbound_xfr z0 tIXFR (Some ser) false ws2 = (Done zf2, n2) /\
    forall k, rkey a <> k -> rkey a' <> k -> look zf2 k = look zf1 k.
Proof. exact XfrSections.ixfr_altered_addition. Qed.
Print Assumptions ixfr_altered_addition.

(* the same for full transfers: a response SOA, B, SOA is applied as the set union of the in-zone
   records of B WHATEVER B is (dropped, altered, repeated records, glue) - also for the AXFR-style
   answer to an IXFR request *)
Theorem axfr_body_applied : forall fin B z0 ser ws,
  ttl_ok (v_ttl fin) -> Forall XfrGlue.okrec B ->
  chunking tAXFR (soa_rr fin :: B ++ [soa_rr fin]) ws ->
  exists z' n, inbound_xfr z0 tAXFR ser false ws = (Done z', n)
               /\ zeq z' (zput soakey (v_ttl fin, [v_soa fin]) (XfrDiff.adds [] (XfrGlue.erase B))).
Proof. exact XfrBody.axfr_body_applied. Qed.
Print Assumptions axfr_body_applied.

Theorem axfr_style_body_applied : forall fin r c z0 ser ws,
  ttl_ok (v_ttl fin) -> XfrGlue.okrec r -> Forall XfrGlue.okrec c ->
  v_serial fin <> ser -> serial_lt (v_serial fin) ser = false ->
  chunking tIXFR (soa_rr fin :: (r :: c) ++ [soa_rr fin]) ws ->
  exists z' n, inbound_xfr z0 tIXFR (Some ser) false ws = (Done z', n)
               /\ zeq z' (zput soakey (v_ttl fin, [v_soa fin]) (XfrDiff.adds [] (XfrGlue.erase (r :: c)))).
Proof. exact XfrBody.axfr_style_body_applied. Qed.
Print Assumptions axfr_style_body_applied.

(* the first record of the response is not the zone's SOA (e.g. the first SOA of an AXFR was dropped) *)
Theorem first_record_not_soa_rejected : forall z rdt ser udp w ws r0 rest,
  header_ok rdt w -> w_records w = r0 :: rest -> (rdt = tAXFR /\ udp = false \/ rdt = tIXFR /\ ser <> None) ->
  (r_name r0 <> origin \/ r_type r0 <> tSOA) ->
  exists e, (e = eNoAnswer \/ e = eFirstNotSOA) /\
            inbound_xfr z rdt ser udp (w :: ws) = (Error e z, 0%nat).
Proof. exact XfrBody.first_record_not_soa_rejected. Qed.
Print Assumptions first_record_not_soa_rejected.

(* ---- SOA records out of place (dropped, duplicated, swapped SOAs).  After any number of well-formed
        sections pre and records P taken as additions, an SOA b whose serial is not the current one is
        rejected: base serial mismatch, or - when b is the announced SOA - unexpected end / empty IXFR
        sequence (XfrSoaFaults.mis_code).  Zone untouched, any division into messages. ---- *)
Theorem ixfr_soa_out_of_place : forall fin pre P b rest z0 z1 ser ws,
  XfrSections.skel_ok ser fin pre -> XfrSections.apply_secs z0 pre = Some z1 ->
  Forall XfrGlue.okrec P -> (pre <> [] \/ P = []) ->
  v_serial b <> XfrSections.end_serial ser pre ->
  v_serial fin <> ser -> serial_lt (v_serial fin) ser = false -> (pre = [] /\ P = [] \/ XfrZone.quiet z0) ->
  chunking tIXFR (soa_rr fin :: XfrSections.secs_stream pre ++ P ++ soa_rr b :: rest) ws ->
  exists n, inbound_xfr z0 tIXFR (Some ser) false ws =
            (Error (XfrSoaFaults.mis_code fin b (match pre with [] => true | _ => false end)) z0, n).
Proof. exact XfrSoaFaults.ixfr_soa_out_of_place. Qed.
Print Assumptions ixfr_soa_out_of_place.

(* instances on a valid response v0 -> ... -> a -> b -> ... -> vn (consecutive serials differ):
   the SOA that starts the deletion section a -> b is dropped ... *)
Theorem ixfr_dropped_section_soa_rejected : forall v0 c1 b c2,
  chain_ok v0 (c1 ++ b :: c2) -> v_serial b <> v_serial (last c1 v0) ->
  forall z0 ws, c1 <> [] -> zeq z0 (zone_of v0) ->
  chunking tIXFR (soa_rr (last (c1 ++ b :: c2) v0) :: diff_seqs v0 c1 ++
                  zminus (v_rest (last c1 v0)) (v_rest b) ++
                  soa_rr b :: zminus (v_rest b) (v_rest (last c1 v0)) ++ diff_seqs b c2 ++
                  [soa_rr (last (c1 ++ b :: c2) v0)]) ws ->
  exists n, inbound_xfr z0 tIXFR (Some (v_serial v0)) false ws =
            (Error (XfrSoaFaults.mis_code (last (c1 ++ b :: c2) v0) b false) z0, n).
Proof. exact XfrSoaFaults.ixfr_dropped_section_soa_rejected. Qed.
Print Assumptions ixfr_dropped_section_soa_rejected.

(* ... or sent twice (also the very first one, c1 = []) *)
Theorem ixfr_duplicated_section_soa_rejected : forall v0 c1 b c2,
  chain_ok v0 (c1 ++ b :: c2) -> v_serial b <> v_serial (last c1 v0) ->
  forall z0 rest ws, zeq z0 (zone_of v0) ->
  chunking tIXFR (soa_rr (last (c1 ++ b :: c2) v0) :: diff_seqs v0 c1 ++
                  soa_rr (last c1 v0) :: soa_rr (last c1 v0) :: zminus (v_rest (last c1 v0)) (v_rest b) ++
                  soa_rr b :: rest) ws ->
  exists n, inbound_xfr z0 tIXFR (Some (v_serial v0)) false ws =
            (Error (XfrSoaFaults.mis_code (last (c1 ++ b :: c2) v0) b false) z0, n).
Proof. exact XfrSoaFaults.ixfr_duplicated_section_soa_rejected. Qed.
Print Assumptions ixfr_duplicated_section_soa_rejected.

(* the SOA that starts the ADDITION section of a -> b is dropped (the section adds something): its
   first added record is then a deletion of a record that is not there *)
Theorem ixfr_dropped_addstart_rejected : forall v0 c1 b c2,
  chain_ok v0 (c1 ++ b :: c2) ->
  forall r A' rest z0 ws,
  zminus (v_rest b) (v_rest (last c1 v0)) = r :: A' -> zeq z0 (zone_of v0) ->
  chunking tIXFR (soa_rr (last (c1 ++ b :: c2) v0) :: diff_seqs v0 c1 ++ soa_rr (last c1 v0) ::
                  zminus (v_rest (last c1 v0)) (v_rest b) ++ r :: rest) ws ->
  exists n, inbound_xfr z0 tIXFR (Some (v_serial v0)) false ws = (Error eDeleteNotExact z0, n).
Proof. exact XfrAddStart.ixfr_dropped_addstart_rejected. Qed.
Print Assumptions ixfr_dropped_addstart_rejected.

(* ... or sent twice (b is not the last version): the copy starts a deletion section whose "deletions"
   are the additions.  (For the last version the duplicate is undetectable:
   ex_dup_last_addstart_undetectable.) *)
Theorem ixfr_duplicated_addstart_rejected : forall v0 c1 b c2,
  chain_ok v0 (c1 ++ b :: c2) ->
  forall r A' nx tail z0 ws,
  c2 <> [] -> ttl_ok (v_ttl nx) ->
  zminus (v_rest b) (v_rest (last c1 v0)) = r :: A' -> zeq z0 (zone_of v0) ->
  chunking tIXFR (soa_rr (last (c1 ++ b :: c2) v0) :: diff_seqs v0 c1 ++ soa_rr (last c1 v0) ::
                  zminus (v_rest (last c1 v0)) (v_rest b) ++
                  soa_rr b :: soa_rr b :: (r :: A') ++ soa_rr nx :: tail) ws ->
  exists n, inbound_xfr z0 tIXFR (Some (v_serial v0)) false ws = (Error eDeleteNotExact z0, n).
Proof. exact XfrAddStart.ixfr_duplicated_addstart_rejected. Qed.
Print Assumptions ixfr_duplicated_addstart_rejected.

(* the first SOA sent twice *)
Theorem ixfr_duplicated_first_soa_rejected : forall fin rest z0 ser ws,
  v_serial fin <> ser -> serial_lt (v_serial fin) ser = false ->
  chunking tIXFR (soa_rr fin :: soa_rr fin :: rest) ws ->
  exists n, inbound_xfr z0 tIXFR (Some ser) false ws = (Error eEmptyIXFR z0, n).
Proof. exact XfrSoaFaults.ixfr_duplicated_first_soa_rejected. Qed.
Print Assumptions ixfr_duplicated_first_soa_rejected.

(* the first SOA dropped or swapped with the next one: the response then starts with an SOA carrying
   the client's serial (the up-to-date shape); anything after it in the same message is rejected, and
   alone it is the up-to-date answer (uptodate_noop): the zone is not touched on this path *)
Theorem uptodate_surplus_rejected : forall z ser udp w ws r0 y rest,
  header_ok tIXFR w -> w_records w = r0 :: y :: rest -> apex_soa r0 ->
  r_data r0 mod two32 = ser ->
  inbound_xfr z tIXFR (Some ser) udp (w :: ws) = (Error eAfterFinal z, 0%nat).
Proof. exact XfrSoaFaults.uptodate_surplus_rejected. Qed.
Print Assumptions uptodate_surplus_rejected.

(* records after the final SOA of a complete valid response (a duplicated final SOA, anything):
   rejected when they come in the message of the final SOA, never read otherwise *)
Theorem ixfr_surplus_after_final : forall v0 chain z0 y extra ws,
  chain_ok v0 chain -> zeq z0 (zone_of v0) ->
  chunking tIXFR (ixfr_stream v0 chain ++ y :: extra) ws ->
  exists n, inbound_xfr z0 tIXFR (Some (v_serial v0)) false ws = (Error eAfterFinal z0, n)
         \/ exists z', inbound_xfr z0 tIXFR (Some (v_serial v0)) false ws = (Done z', n)
                       /\ zeq z' (zone_of (last chain v0)).
Proof. exact XfrSoaFaults.ixfr_surplus_after_final. Qed.
Print Assumptions ixfr_surplus_after_final.

(* the parser's RRset grouping (dns.message, xfr=True): what process_message gets to see *)

(* one_rr_per_rrset (IXFR): every record is its own RRset, in stream order *)
Theorem group_one_rr : forall rs, group true rs = map single rs.
Proof. exact XfrBasic.group_true. Qed.
Print Assumptions group_one_rr.

(* force_unique is sticky: from the first SOA record of the section on, stream order is preserved *)
Theorem group_after_soa : forall f x1 r x2, r_type r = tSOA ->
  group f (x1 ++ r :: x2) = group f x1 ++ single r :: map single x2.
Proof. exact XfrGroup.group_after_soa. Qed.
Print Assumptions group_after_soa.

(* merging neither loses nor invents a record (records of the singleton types NXT, DNAME, NSEC, CNAME
   replace each other when merged: XfrGroup.mergeable excludes them) *)
Theorem group_keeps_records : forall f x t, Forall XfrGroup.mergeable x ->
  In t (XfrGroup.tups (group f x)) <-> In t (map XfrGroup.tup x).
Proof. exact XfrGroup.group_keeps_records. Qed.
Print Assumptions group_keeps_records.

(* hence for AXFR in wire form: a message that carries records after the final SOA - of any content,
   also of an RRset that occurred before the SOA in the same message - is rejected *)
Theorem axfr_surplus_rejected : forall v B z0 ser wsA wl ws3 c2 y x2,
  Forall XfrGlue.okrec B ->
  Forall (header_ok tAXFR) wsA -> header_ok tAXFR wl ->
  concat (map w_records wsA) ++ c2 = soa_rr v :: B ->
  w_records wl = c2 ++ soa_rr v :: y :: x2 ->
  match wsA with w :: _ => w_records w <> [] | [] => True end ->
  exists n, inbound_xfr z0 tAXFR ser false (wsA ++ wl :: ws3) = (Error eAfterFinal z0, n).
Proof. exact XfrGroup.axfr_surplus_rejected. Qed.
Print Assumptions axfr_surplus_rejected.

(* ---- a secondary refreshing its zone (make_query -> extract_serial_from_query -> the server's
        answer for that serial -> transfer) ---- *)

(* the query carries the zone's current SOA serial; the transfer is based on the serial read back *)
Theorem refresh_query_serial : forall z table qt s s2 c z',
  refresh1 z table = Ok (qt, s, s2, c, z') ->
  s = zone_serial z /\ s2 = s /\ qt = (match zone_serial z with Some _ => tIXFR | None => tAXFR end).
Proof. exact XfrRefresh.refresh_query_serial. Qed.
Print Assumptions refresh_query_serial.

(* incremental refresh: afterwards the zone is the server's newest version and the next query will
   carry its serial (so refreshes compose) *)
Theorem refresh_converges : forall v0 chain z table recs ws,
  chain_ok v0 chain -> zeq z (zone_of v0) ->
  find_row table (Some (v_serial v0)) = Some ws ->
  ixfr_response v0 chain recs -> chunking tIXFR recs ws ->
  exists z', refresh1 z table = Ok (tIXFR, Some (v_serial v0), Some (v_serial v0), 0, z')
             /\ zeq z' (zone_of (last chain v0))
             /\ zone_serial z' = Some (v_serial (last chain v0)).
Proof. exact XfrRefresh.refresh_converges. Qed.
Print Assumptions refresh_converges.

Theorem refresh_full : forall v z table recs ws,
  version_wf v -> zone_serial z = None ->
  find_row table None = Some ws ->
  axfr_response v recs -> chunking tAXFR recs ws ->
  exists z', refresh1 z table = Ok (tAXFR, None, None, 0, z')
             /\ zeq z' (zone_of v) /\ zone_serial z' = Some (v_serial v).
Proof. exact XfrRefresh.refresh_full. Qed.
Print Assumptions refresh_full.

Theorem refresh_axfr_style : forall v z zs table recs ws,
  version_wf v -> v_rest v <> [] -> zone_serial z = Some zs ->
  v_serial v <> zs -> serial_lt (v_serial v) zs = false ->
  find_row table (Some zs) = None -> find_row table None = Some ws ->
  axfr_response v recs -> chunking tIXFR recs ws ->
  exists z', refresh1 z table = Ok (tIXFR, Some zs, Some zs, 0, z')
             /\ zeq z' (zone_of v) /\ zone_serial z' = Some (v_serial v).
Proof. exact XfrRefresh.refresh_axfr_style. Qed.
Print Assumptions refresh_axfr_style.

(* a whole sequence of incremental refreshes: at every step the server answers the serial found in
   the query (which is the serial the zone reached in the previous step) with a valid response
   (refresh_plan): every refresh succeeds and the zone ends up at the server's last version *)
Theorem refreshes_converge : forall v tables vfin, XfrRefresh.refresh_plan v tables vfin ->
  forall z, zeq z (zone_of v) ->
  length (refreshes z tables) = length tables
  /\ Forall XfrRefresh.refresh_ok (refreshes z tables)
  /\ zeq (XfrRefresh.final_zone z (refreshes z tables)) (zone_of vfin).
Proof. exact XfrRefresh.refreshes_converge. Qed.
Print Assumptions refreshes_converge.

(* dns.query.inbound_xfr, udp_mode TRY_FIRST / ONLY: the UDP answer is the bare SOA ("use TCP") *)
Theorem try_first_falls_back : forall v0 chain z tbu tbt wu recs ws,
  chain_ok v0 chain -> zeq z (zone_of v0) ->
  find_row tbu (Some (v_serial v0)) = Some [wu] ->
  header_ok tIXFR wu -> w_records wu = [soa_rr (last chain v0)] ->
  find_row tbt (Some (v_serial v0)) = Some ws ->
  ixfr_response v0 chain recs -> chunking tIXFR recs ws ->
  (exists z', xfr_top z 1 tbu tbt = Ok (0, z') /\ zeq z' (zone_of (last chain v0)))
  /\ xfr_top z 2 tbu tbt = Ok (eUseTCP, z).
Proof. exact XfrRefresh.try_first_falls_back. Qed.
Print Assumptions try_first_falls_back.

(* ---- transfers authenticated with TSIG (Inbound.require_tsig, set by the drivers when a keyring
        is in use; xfr_run true).  TSIG validation itself is outside the model: w_tsig says that the
        message carried a (valid) TSIG. ---- *)

(* the safety theorems above hold for authenticated transfers as well *)
Theorem error_leaves_zone_authenticated : forall req z rdt ser udp ws e z' n,
  xfr_run req z rdt ser udp ws = (Error e z', n) -> z' = z.
Proof. exact XfrSafety.error_leaves_zone_t. Qed.
Print Assumptions error_leaves_zone_authenticated.

(* with require_tsig, a message that carries no TSIG never publishes anything (the defect fixed by
   4883021 was: the unsigned last message committed and "missing TSIG" was raised afterwards) *)
Theorem unsigned_message_never_applies : forall s m s' o,
  req_tsig s = true -> m_tsig m = false ->
  process_message s m = (s', o) -> pub s' = pub s.
Proof. exact XfrSafety.unsigned_message_never_applies. Qed.
Print Assumptions unsigned_message_never_applies.

(* an authenticated transfer only completes on a signed message (the last one processed) *)
Theorem authenticated_completion_is_signed : forall z rdt ser udp ws z' n,
  xfr_run true z rdt ser udp ws = (Done z', n) ->
  exists w, nth_error ws (pred n) = Some w /\ w_tsig w = true.
Proof. exact XfrTsig.authenticated_completion_is_signed. Qed.
Print Assumptions authenticated_completion_is_signed.

(* when every message is signed the authenticated transfer is exactly the unauthenticated one: all
   convergence and rejection theorems of this file carry over *)
Theorem xfr_run_all_signed : forall z rdt ser udp ws,
  Forall (fun w => w_tsig w = true) ws ->
  xfr_run true z rdt ser udp ws = inbound_xfr z rdt ser udp ws.
Proof. exact XfrTsig.xfr_run_all_signed. Qed.
Print Assumptions xfr_run_all_signed.

(* the link to the TSIG model of C14 (coq/Model/TsigM.v): when the had_tsig flags of the transfer's
   messages are those computed by TsigM.read_stream on the envelopes (XfrTsigLink.tsig_linked), the
   envelope that completed an authenticated transfer was accepted by the TSIG reader with a TSIG *)
Theorem completion_envelope_had_tsig :
  forall (H : TsigM.hashid -> TsigM.bytes -> TsigM.bytes -> TsigM.bytes) wires kr rmac now ws z rdt ser udp z' n,
  XfrTsigLink.tsig_linked H wires kr rmac now ws ->
  xfr_run true z rdt ser udp ws = (Done z', n) ->
  exists m, nth_error (TsigM.read_stream H wires kr rmac None now) (pred n) = Some (Ok m)
            /\ TsigM.m_had_tsig m = true.
Proof. exact XfrTsigLink.completion_envelope_had_tsig. Qed.
Print Assumptions completion_envelope_had_tsig.

(* dns.query.inbound_xfr: which transport is used and what is reported, for every query type, UDP mode,
   keyring flag and server behaviour (tcp_outcome = the TCP attempt) *)
Theorem inbound_xfr_decision_table : forall kr z qt s mode tbu tbt,
  ((qt <> tIXFR \/ mode = 0) -> xfr_core kr z qt s mode tbu tbt = XfrRefresh.tcp_outcome kr z qt s tbt) /\
  (qt = tIXFR -> mode <> 0 ->
     let u := fst (xfr_run kr z qt s true (pick tbu s)) in
     (forall z', u = Done z' -> xfr_core kr z qt s mode tbu tbt = Ok (0, z')) /\
     (forall e z', u = Error e z' -> e <> eUseTCP -> xfr_core kr z qt s mode tbu tbt = Ok (e, z')) /\
     (forall z', u = Error eUseTCP z' -> mode = 2 -> xfr_core kr z qt s mode tbu tbt = Ok (eUseTCP, z')) /\
     (forall z', u = Error eUseTCP z' -> mode <> 2 -> xfr_core kr z qt s mode tbu tbt = XfrRefresh.tcp_outcome kr z qt s tbt)).
Proof. exact XfrRefresh.inbound_xfr_decision_table. Qed.
Print Assumptions inbound_xfr_decision_table.

Theorem xfr_core_error_leaves_zone : forall kr z qt s mode tbu tbt c z',
  xfr_core kr z qt s mode tbu tbt = Ok (c, z') -> c <> 0 -> z' = z.
Proof. exact XfrRefresh.xfr_core_error_leaves_zone. Qed.
Print Assumptions xfr_core_error_leaves_zone.

(* dns.xfr.make_query (serial argument None / 0 / n, zone with or without SOA) and
   extract_serial_from_query: the serial read back is the one make_query returned *)
Theorem query_serial_table : forall zs ser,
  match make_query zs ser with
  | Ok (qt, s) =>
      extract_serial (qt, s) = Ok s /\
      match ser with
      | None => qt = tAXFR /\ s = None
      | Some n =>
          if n =? 0 then match zs with
                         | Some z0 => qt = tIXFR /\ s = Some z0
                         | None => qt = tAXFR /\ s = None
                         end
          else qt = tIXFR /\ s = Some n /\ 0 < n < two32
      end
  | Internal _ => exists n, ser = Some n /\ n <> 0 /\ ~ (0 < n < two32)
  | Lib _ => False
  end.
Proof. exact XfrRefresh.query_serial_table. Qed.
Print Assumptions query_serial_table.

(* non-vacuity: concrete instances of the hypotheses *)
Example ex_backwards :
  let w := mkW 0 [(0, tIXFR)] [mkRR 0 1 6 0 3600 5; mkRR 1 1 1 0 300 7] in
  header_ok tIXFR w /\ apex_soa (mkRR 0 1 6 0 3600 5) /\ serial_lt (5 mod two32) 4294967295 = false
  /\ serial_lt (5 mod two32) 9 = true
  /\ inbound_xfr [((0, 6, 0), (3600, [9]))] tIXFR (Some 9) false [w]
     = (Error eBackwards [((0, 6, 0), (3600, [9]))], 0%nat).
Proof. cbv zeta. repeat split; try reflexivity. right. eexists. reflexivity. Qed.

Example ex_error_after_commit_impossible :
  (* surplus record after the final SOA in the same message: rejected, nothing applied *)
  inbound_xfr [] tAXFR None false
    [mkW 0 [] [mkRR 0 1 6 0 3600 2; mkRR 1 1 1 0 5 4; mkRR 0 1 6 0 3600 2; mkRR 1 1 1 0 5 5]]
  = (Error eAfterFinal [], 0%nat).
Proof. reflexivity. Qed.

(* a two-step chain satisfying chain_ok, with a TTL change, a deletion and additions *)
Definition ex_v0 := mkV 3600 (4294967295) [((0, 2, 0), (3600, [1; 2])); ((1, 1, 0), (300, [4; 5]))].
Definition ex_v1 := mkV 3600 0 [((0, 2, 0), (3600, [1; 2])); ((1, 1, 0), (60, [4; 5]))].
Definition ex_v2 := mkV 600 ((1 * two32) + 7) [((0, 2, 0), (3600, [2; 3])); ((2, 16, 0), (0, [9]))].

Example ex_chain_ok : chain_ok ex_v0 [ex_v1; ex_v2].
Proof.
  unfold chain_ok. split; [discriminate|].
  assert (W : forall v, In v [ex_v0; ex_v1; ex_v2] -> version_wf v).
  { intros v [<-|[<-|[<-|[]]]]; (split; [cbv; split; discriminate|]); split;
      repeat constructor; cbv; intuition (try discriminate; try lia). }
  split; [apply W; cbn; auto|].
  split; [constructor; [apply W; cbn; auto|constructor; [apply W; cbn; auto|constructor]]|].
  split; [|reflexivity].
  intros v [<-|[<-|[]]]; cbv; discriminate.
Qed.

Example ex_ixfr_runs :
  fst (inbound_xfr (zone_of ex_v0) tIXFR (Some (v_serial ex_v0)) false
         (map (fun r => mkW 0 [] [r]) (ixfr_stream ex_v0 [ex_v1; ex_v2])))
  = Done ((soakey, (600, [v_soa ex_v2])) :: [((2, 16, 0), (0, [9])); ((0, 2, 0), (3600, [2; 3]))]).
Proof. vm_compute. reflexivity. Qed.

Example ex_version_wf : version_wf ex_v2 /\ v_rest ex_v2 <> [] /\
  chunking tAXFR (axfr_stream ex_v2)
    [mkW 0 [(0, tAXFR)] [soa_rr ex_v2; mkRR 0 1 2 0 3600 2]; mkW 0 [] []; mkW 0 [] [mkRR 0 1 2 0 3600 3; mkRR 2 1 16 0 0 9; soa_rr ex_v2]].
Proof.
  split; [|split; [discriminate|]].
  - split; [cbv; split; discriminate|]. split; repeat constructor; cbv; intuition (try discriminate; try lia).
  - split; [|split; [reflexivity|discriminate]].
    constructor; [split; [reflexivity|right; eexists; reflexivity]|].
    constructor; [split; [reflexivity|left; reflexivity]|].
    constructor; [split; [reflexivity|left; reflexivity]|constructor].
Qed.

(* grouping matters: in the last message the two NS records are one RRset when they arrive *)
Example ex_axfr_runs :
  inbound_xfr [((5, 1, 0), (1, [1]))] tAXFR None false
    [mkW 0 [(0, tAXFR)] [soa_rr ex_v2]; mkW 0 [] [mkRR 0 1 2 0 3600 3; mkRR 2 1 16 0 0 9; mkRR 0 1 2 0 3600 2; soa_rr ex_v2]]
  = (Done [(soakey, (600, [v_soa ex_v2])); ((2, 16, 0), (0, [9])); ((0, 2, 0), (3600, [2; 3]))], 2%nat).
Proof. vm_compute. reflexivity. Qed.

Example ex_response_any_order :
  axfr_response ex_v2 [soa_rr ex_v2; mkRR 2 1 16 0 0 9; mkRR 0 1 2 0 3600 3; mkRR 0 1 2 0 3600 2; mkRR 2 1 16 0 0 9; soa_rr ex_v2].
Proof.
  exists [mkRR 2 1 16 0 0 9; mkRR 0 1 2 0 3600 3; mkRR 0 1 2 0 3600 2; mkRR 2 1 16 0 0 9]. split; [|reflexivity].
  intros r. cbn. intuition.
Qed.

(* the hypotheses of ixfr_bad_delete_rejected hold for a duplicated deletion: ex_v0 -> ex_v1 changes
   the TTL of (a, A), so both A records are deleted; deleting the first one twice fails *)
Example ex_dup_delete :
  let r := mkRR 1 1 1 0 300 4 in
  XfrDiff.dels (zone_of ex_v0) [r] <> None /\
  (forall z1, XfrDiff.dels (zone_of ex_v0) [r] = Some z1 -> XfrZone.del1 (look z1 (rkey r)) (r_data r) = None) /\
  fst (inbound_xfr (zone_of ex_v0) tIXFR (Some (v_serial ex_v0)) false
         [mkW 0 [] [soa_rr ex_v1; soa_rr ex_v0; r; r; mkRR 1 1 1 0 300 5; soa_rr ex_v1]])
  = Error eDeleteNotExact (zone_of ex_v0).
Proof.
  cbv zeta. split; [vm_compute; discriminate|]. split; [|vm_compute; reflexivity].
  intros z1 H. vm_compute in H. inversion H; subst. vm_compute. reflexivity.
Qed.

Example ex_response_with_glue :
  XfrGlue.axfr_response_glue ex_v2
    [soa_rr ex_v2; mkRR (-1) 3 1 0 4294967295 7; mkRR 2 1 16 0 0 9; mkRR 0 1 2 0 3600 3; mkRR (-2) 1 28 0 5 1; mkRR 0 1 2 0 3600 2; soa_rr ex_v2].
Proof.
  exists [mkRR (-1) 3 1 0 4294967295 7; mkRR 2 1 16 0 0 9; mkRR 0 1 2 0 3600 3; mkRR (-2) 1 28 0 5 1; mkRR 0 1 2 0 3600 2].
  split; [|split; [|reflexivity]].
  - assert (P : forall r, In r [mkRR 2 1 16 0 0 9; mkRR 0 1 2 0 3600 3; mkRR 0 1 2 0 3600 2] -> XfrZone.plain r).
    { intros r [<-|[<-|[<-|[]]]]; unfold XfrZone.plain, ttl_ok; cbn; repeat split; try discriminate; lia. }
    constructor; [left; reflexivity|]. constructor; [right; apply P; cbn; auto|].
    constructor; [right; apply P; cbn; auto|]. constructor; [left; reflexivity|].
    constructor; [right; apply P; cbn; auto|constructor].
  - intros r. cbn. intuition.
Qed.

(* a refresh plan ex_v0 -> ex_v1 -> ex_v2 in two refreshes, and what the model computes for it *)
Lemma ex_wf : forall v, In v [ex_v0; ex_v1; ex_v2] -> version_wf v.
Proof.
  intros v [<-|[<-|[<-|[]]]]; (split; [cbv; split; discriminate|]); split;
    repeat constructor; cbv; intuition (try discriminate; try lia).
Qed.

Definition ex_msgs (l : list rr) : list wmsg := map (fun r => mkW 0 [] [r]) l.

Lemma ex_chunking : forall l, l <> [] -> chunking tIXFR l (ex_msgs l).
Proof.
  intros l Hl. split; [|split].
  - unfold ex_msgs. apply Forall_forall. intros w Hw. apply in_map_iff in Hw. destruct Hw as [r [<- _]].
    split; [reflexivity|left; reflexivity].
  - unfold ex_msgs. induction l as [|r l IH]; [reflexivity|]. cbn. f_equal.
    destruct l; [reflexivity|]. apply IH. discriminate.
  - destruct l; [congruence|]. cbn. discriminate.
Qed.

Example ex_refresh_plan :
  XfrRefresh.refresh_plan ex_v0
    [ [(Some (v_serial ex_v0), ex_msgs (ixfr_stream ex_v0 [ex_v1]))];
      [(Some (v_serial ex_v0), []); (Some (v_serial ex_v1), ex_msgs (ixfr_stream ex_v1 [ex_v2]))] ]
    ex_v2.
Proof.
  assert (C01 : chain_ok ex_v0 [ex_v1]).
  { split; [discriminate|]. split; [apply ex_wf; cbn; auto|].
    split; [constructor; [apply ex_wf; cbn; auto|constructor]|]. split; [|reflexivity].
    intros v [<-|[]]; cbv; discriminate. }
  assert (C12 : chain_ok ex_v1 [ex_v2]).
  { split; [discriminate|]. split; [apply ex_wf; cbn; auto|].
    split; [constructor; [apply ex_wf; cbn; auto|constructor]|]. split; [|reflexivity].
    intros v [<-|[]]; cbv; discriminate. }
  eapply XfrRefresh.rp_cons with (chain := [ex_v1]) (recs := ixfr_stream ex_v0 [ex_v1]).
  - exact C01.
  - reflexivity.
  - eexists. split; [apply XfrOrder.ixfr_seqs_canonical|reflexivity].
  - apply ex_chunking. discriminate.
  - eapply XfrRefresh.rp_cons with (chain := [ex_v2]) (recs := ixfr_stream ex_v1 [ex_v2]).
    + exact C12.
    + reflexivity.
    + eexists. split; [apply XfrOrder.ixfr_seqs_canonical|reflexivity].
    + apply ex_chunking. discriminate.
    + apply XfrRefresh.rp_nil.
Qed.

(* an authenticated AXFR whose last message is unsigned: rejected before anything is committed *)
Example ex_missing_tsig :
  xfr_run true [((5, 1, 0), (1, [1]))] tAXFR None false
    [mkWT 0 [] [soa_rr ex_v2; mkRR 0 1 2 0 3600 3] true; mkWT 0 [] [mkRR 2 1 16 0 0 9; mkRR 0 1 2 0 3600 2; soa_rr ex_v2] false]
  = (Error eMissingTSIG [((5, 1, 0), (1, [1]))], 1%nat).
Proof. vm_compute. reflexivity. Qed.

(* "only as good as the stream": the last add-section SOA duplicated, with a message boundary right
   after the duplicate, is a well-formed response for ANOTHER target (empty last addition section);
   the transfer completes with that zone - it cannot be detected *)
Example ex_dup_last_addstart_undetectable :
  fst (inbound_xfr (zone_of ex_v0) tIXFR (Some (v_serial ex_v0)) false
         [mkW 0 [] [soa_rr ex_v1; soa_rr ex_v0; mkRR 1 1 1 0 300 4; mkRR 1 1 1 0 300 5; soa_rr ex_v1; soa_rr ex_v1];
          mkW 0 [] [mkRR 1 1 1 0 60 4; mkRR 1 1 1 0 60 5; soa_rr ex_v1]])
  = Done [(soakey, (3600, [v_soa ex_v1])); ((0, 2, 0), (3600, [1; 2]))].
Proof. vm_compute. reflexivity. Qed.

(* ==== versions of ANY content: singleton types (CNAME, DNAME, NSEC: one rdata), CNAME-kind RRsets, names that
        change between a CNAME and other data from one version to the next.  The only demand on a version is
        RFC 1034 3.6.2 "CNAME and other data" (no node holds a CNAME-kind and a regular RRset), which the
        library enforces itself in dns/node.py (Node._append_rdataset, modelled by node_put).  ==== *)
Theorem ixfr_converges_general : forall v0 chain z0 ws,
  XfrGeneral.chain_ok_g v0 chain -> zeq z0 (zone_of v0) -> chunking tIXFR (ixfr_stream v0 chain) ws ->
  exists z' n, inbound_xfr z0 tIXFR (Some (v_serial v0)) false ws = (Done z', n)
               /\ zeq z' (zone_of (last chain v0)).
Proof. exact XfrGeneral.ixfr_converges_general. Qed.
Print Assumptions ixfr_converges_general.

Theorem axfr_converges_general : forall v z0 ser ws,
  XfrGeneral.version_wf_g v -> chunking tAXFR (axfr_stream v) ws ->
  exists z' n, inbound_xfr z0 tAXFR ser false ws = (Done z', n) /\ zeq z' (zone_of v).
Proof. exact XfrGeneralAxfr.axfr_converges_general. Qed.
Print Assumptions axfr_converges_general.

Theorem axfr_style_ixfr_converges_general : forall v z0 ser ws,
  XfrGeneral.version_wf_g v -> v_rest v <> [] ->
  v_serial v <> ser -> serial_lt (v_serial v) ser = false ->
  chunking tIXFR (axfr_stream v) ws ->
  exists z' n, inbound_xfr z0 tIXFR (Some ser) false ws = (Done z', n) /\ zeq z' (zone_of v).
Proof. exact XfrGeneral.axfr_style_ixfr_converges_general. Qed.
Print Assumptions axfr_style_ixfr_converges_general.

Theorem udp_ixfr_general : forall v0 chain z0 w,
  XfrGeneral.chain_ok_g v0 chain -> zeq z0 (zone_of v0) ->
  header_ok tIXFR w -> w_records w = ixfr_stream v0 chain ->
  exists z', inbound_xfr z0 tIXFR (Some (v_serial v0)) true [w] = (Done z', 1%nat)
             /\ zeq z' (zone_of (last chain v0)).
Proof. exact XfrGeneral.udp_ixfr_general. Qed.
Print Assumptions udp_ixfr_general.

(* "ends early", versions of any content: every proper prefix of the stream in any division into messages *)
Theorem ixfr_early_end_rejected_general : forall v0 chain z0 ws q,
  XfrGeneral.chain_ok_g v0 chain -> zeq z0 (zone_of v0) ->
  Forall (header_ok tIXFR) ws -> q <> [] ->
  concat (map w_records ws) ++ q = ixfr_stream v0 chain ->
  exists e n, inbound_xfr z0 tIXFR (Some (v_serial v0)) false ws = (Error e z0, n).
Proof. exact XfrGeneral.ixfr_early_end_rejected_general. Qed.
Print Assumptions ixfr_early_end_rejected_general.

Theorem axfr_early_end_rejected_general : forall v z0 ser ws q,
  XfrGeneral.version_wf_g v -> Forall (header_ok tAXFR) ws -> q <> [] ->
  concat (map w_records ws) ++ q = axfr_stream v ->
  exists e n, inbound_xfr z0 tAXFR ser false ws = (Error e z0, n).
Proof. exact XfrGeneralAxfr.axfr_early_end_rejected_general. Qed.
Print Assumptions axfr_early_end_rejected_general.

(* versions of any content, the records of every section / of the body in any order (no repetitions) *)
Theorem ixfr_converges_general_any_order : forall v0 chain z0 recs ws,
  XfrGeneral.chain_ok_g v0 chain -> zeq z0 (zone_of v0) -> XfrGeneralOrder.ixfr_response_p v0 chain recs ->
  chunking tIXFR recs ws ->
  exists z' n, inbound_xfr z0 tIXFR (Some (v_serial v0)) false ws = (Done z', n)
               /\ zeq z' (zone_of (last chain v0)).
Proof. exact XfrGeneralOrder.ixfr_converges_general_any_order. Qed.
Print Assumptions ixfr_converges_general_any_order.

Theorem axfr_converges_general_any_order : forall v z0 ser B ws,
  XfrGeneral.version_wf_g v -> Permutation B (body (v_rest v)) ->
  chunking tAXFR (soa_rr v :: B ++ [soa_rr v]) ws ->
  exists z' n, inbound_xfr z0 tAXFR ser false ws = (Done z', n) /\ zeq z' (zone_of v).
Proof. exact XfrGeneralOrder.axfr_converges_general_any_order. Qed.
Print Assumptions axfr_converges_general_any_order.

(* the general forms subsume the restricted ones *)
Theorem general_covers_restricted : forall v0 chain, chain_ok v0 chain -> XfrGeneral.chain_ok_g v0 chain.
Proof. exact XfrGeneral.chain_ok_ok_g. Qed.
Print Assumptions general_covers_restricted.

(* name 1: CNAME + RRSIG(CNAME) + NSEC, name 2: two A records  --->
   name 1: A + NSEC (other rdata), name 2: CNAME, name 3: DNAME *)
Definition ex_c0 := mkV 3600 10
  [((0, 2, 0), (3600, [1])); ((1, 5, 0), (300, [4])); ((1, 46, 5), (300, [1])); ((1, 47, 0), (60, [2])); ((2, 1, 0), (60, [1; 2]))].
Definition ex_c1 := mkV 3600 11
  [((0, 2, 0), (3600, [1])); ((1, 1, 0), (300, [7])); ((1, 47, 0), (60, [3])); ((2, 5, 0), (60, [9])); ((3, 39, 0), (60, [1]))].

Example ex_general_chain_ok : XfrGeneral.chain_ok_g ex_c0 [ex_c1] /\ ~ version_wf ex_c0.
Proof.
  split.
  - assert (W : forall v, In v [ex_c0; ex_c1] -> XfrGeneral.version_wf_g v).
    { intros v [<-|[<-|[]]]; (split; [cbv; split; discriminate|]); (split; [|split]);
        try (apply XfrGeneral.consistent_check; vm_compute; reflexivity);
        try (split; repeat constructor; cbv; intuition (try discriminate; try lia));
        repeat constructor; cbv; intros; try discriminate; eexists; reflexivity. }
    split; [discriminate|]. split; [apply W; cbn; auto|]. split; [constructor; [apply W; cbn; auto|constructor]|].
    split; [|vm_compute; reflexivity].
    intros v [<-|[]]. vm_compute. discriminate.
  - intros [_ [_ Hf]]. inversion Hf as [|? ? _ Hf1]; subst. inversion Hf1 as [|? ? He _]; subst.
    cbn in He. destruct He as (_ & _ & _ & _ & _ & Hs & _). discriminate.
Qed.

Example ex_general_ixfr_runs :
  fst (inbound_xfr (zone_of ex_c0) tIXFR (Some (v_serial ex_c0)) false
         (map (fun r => mkW 0 [] [r]) (ixfr_stream ex_c0 [ex_c1])))
  = Done [(soakey, (3600, [11])); ((3, 39, 0), (60, [1])); ((2, 5, 0), (60, [9])); ((1, 47, 0), (60, [3]));
          ((1, 1, 0), (300, [7])); ((0, 2, 0), (3600, [1]))].
Proof. vm_compute. reflexivity. Qed.

(* why "CNAME and other data" is demanded of the server's version: a body with a CNAME and an A record at
   one node is accepted, and the zone holds whichever came last - not the server's version *)
Example ex_cname_and_other_data_last_wins :
  fst (inbound_xfr [] tAXFR None false
         [mkW 0 [] [mkRR 0 1 6 0 3600 5; mkRR 1 1 5 0 300 4; mkRR 1 1 1 0 300 7; mkRR 0 1 6 0 3600 5]])
  = Done [(soakey, (3600, [5])); ((1, 1, 0), (300, [7]))]
  /\ fst (inbound_xfr [] tAXFR None false
         [mkW 0 [] [mkRR 0 1 6 0 3600 5; mkRR 1 1 1 0 300 7; mkRR 1 1 5 0 300 4; mkRR 0 1 6 0 3600 5]])
  = Done [(soakey, (3600, [5])); ((1, 5, 0), (300, [4]))].
Proof. split; vm_compute; reflexivity. Qed.

Theorem legacy_axfr_converges : forall v ws,
  version_wf v -> look (v_rest v) (origin, 2, 0) <> None ->
  chunking tAXFR (axfr_stream v) ws ->
  exists z, legacy_axfr ws = Ok z /\ zeq z (zone_of v).
Proof. exact XfrLegacy.legacy_axfr_converges. Qed.
Print Assumptions legacy_axfr_converges.

Example ex_legacy_runs :
  legacy_axfr [mkW 0 [(0, tAXFR)] [soa_rr ex_v2]; mkW 0 [] [mkRR 0 1 2 0 3600 3; mkRR (-1) 1 1 0 300 7; mkRR 2 1 16 0 0 9];
               mkW 0 [] [mkRR 0 1 2 0 3600 2; soa_rr ex_v2]; mkW 0 [] [mkRR 5 1 1 0 1 1]]
  = Ok [(soakey, (600, [v_soa ex_v2])); ((0, 2, 0), (3600, [2; 3])); ((2, 16, 0), (0, [9])); ((-1, 1, 0), (300, [7]))].
Proof. vm_compute. reflexivity. Qed.

(* ==== inversion: what a COMPLETED transfer implies about the stream that was read (vocabulary wire_rec: apex
        SOA records of class IN, ordinary in-zone records, out-of-zone records) ==== *)
Theorem ixfr_done_is_denotation : forall fin z0 ser ws rest z' n,
  XfrZone.quiet z0 -> ttl_ok (v_ttl fin) -> v_serial fin <> ser -> serial_lt (v_serial fin) ser = false ->
  chunking tIXFR (soa_rr fin :: rest) ws -> Forall XfrInversion.wire_rec rest ->
  match rest with x :: _ => exists b, x = soa_rr b /\ ttl_ok (v_ttl b) | [] => True end ->
  inbound_xfr z0 tIXFR (Some ser) false ws = (Done z', n) ->
  exists secs z1 b extra,
    rest = XfrSections.secs_stream secs ++ soa_rr b :: extra /\ secs <> [] /\ XfrSections.skel_ok ser fin secs /\
    XfrSections.end_serial ser secs = v_serial fin /\ v_soa b = v_soa fin /\ XfrSections.apply_secs z0 secs = Some z1 /\
    z' = zput soakey (v_ttl b, [v_soa b]) z1.
Proof. exact XfrInversion.ixfr_done_is_denotation. Qed.
Print Assumptions ixfr_done_is_denotation.

Theorem axfr_style_done_is_denotation : forall fin z0 ser ws x rest z' n,
  ttl_ok (v_ttl fin) -> v_serial fin <> ser -> serial_lt (v_serial fin) ser = false ->
  chunking tIXFR (soa_rr fin :: x :: rest) ws -> XfrGlue.okrec x -> Forall XfrInversion.wire_rec rest ->
  inbound_xfr z0 tIXFR (Some ser) false ws = (Done z', n) ->
  exists B b extra,
    x :: rest = B ++ soa_rr b :: extra /\ B <> [] /\ Forall XfrGlue.okrec B /\ v_soa b = v_soa fin /\
    z' = zput soakey (v_ttl b, [v_soa b]) (XfrDiff.adds [] (XfrGlue.erase B)).
Proof. exact XfrInversion.axfr_style_done_is_denotation. Qed.
Print Assumptions axfr_style_done_is_denotation.

Theorem axfr_done_is_denotation : forall fin z0 ser ws rest z' n,
  chunking tAXFR (soa_rr fin :: rest) ws -> Forall XfrInversion.wire_rec rest ->
  inbound_xfr z0 tAXFR ser false ws = (Done z', n) ->
  exists B b extra,
    rest = B ++ soa_rr b :: extra /\ Forall XfrGlue.okrec B /\ v_soa b = v_soa fin /\
    zeq z' (zput soakey (v_ttl b, [v_soa b]) (XfrDiff.adds [] (XfrGlue.erase B))).
Proof. exact XfrInversion.axfr_done_is_denotation. Qed.
Print Assumptions axfr_done_is_denotation.

(* the single-fault lemma in its strongest form *)
Theorem ixfr_outcome_dichotomy : forall fin z0 ser ws rest,
  XfrZone.quiet z0 -> ttl_ok (v_ttl fin) -> v_serial fin <> ser -> serial_lt (v_serial fin) ser = false ->
  chunking tIXFR (soa_rr fin :: rest) ws -> Forall XfrInversion.wire_rec rest ->
  match rest with x :: _ => exists b, x = soa_rr b /\ ttl_ok (v_ttl b) | [] => True end ->
  (exists e n, inbound_xfr z0 tIXFR (Some ser) false ws = (Error e z0, n)) \/
  (exists secs z1 b extra n,
     inbound_xfr z0 tIXFR (Some ser) false ws = (Done (zput soakey (v_ttl b, [v_soa b]) z1), n) /\
     rest = XfrSections.secs_stream secs ++ soa_rr b :: extra /\ secs <> [] /\ XfrSections.skel_ok ser fin secs /\
     XfrSections.end_serial ser secs = v_serial fin /\ v_soa b = v_soa fin /\ XfrSections.apply_secs z0 secs = Some z1).
Proof. exact XfrInversion.ixfr_outcome_dichotomy. Qed.
Print Assumptions ixfr_outcome_dichotomy.

(* every way an IXFR request can complete over TCP: up to date / difference sequences / the whole zone *)
Theorem ixfr_done_classification : forall fin z0 ser ws rest z' n,
  XfrZone.quiet z0 -> ttl_ok (v_ttl fin) ->
  chunking tIXFR (soa_rr fin :: rest) ws -> Forall XfrInversion.wire_rec rest ->
  inbound_xfr z0 tIXFR (Some ser) false ws = (Done z', n) ->
  (v_serial fin = ser /\ z' = z0) \/
  (v_serial fin <> ser /\ exists secs z1 b extra,
     rest = XfrSections.secs_stream secs ++ soa_rr b :: extra /\ secs <> [] /\ XfrSections.skel_ok ser fin secs /\
     XfrSections.end_serial ser secs = v_serial fin /\ v_soa b = v_soa fin /\ XfrSections.apply_secs z0 secs = Some z1 /\
     z' = zput soakey (v_ttl b, [v_soa b]) z1) \/
  (v_serial fin <> ser /\ exists B b extra,
     rest = B ++ soa_rr b :: extra /\ B <> [] /\ Forall XfrGlue.okrec B /\ v_soa b = v_soa fin /\
     z' = zput soakey (v_ttl b, [v_soa b]) (XfrDiff.adds [] (XfrGlue.erase B))).
Proof. exact XfrInversion.ixfr_done_classification. Qed.
Print Assumptions ixfr_done_classification.

Theorem udp_ixfr_done_is_denotation : forall fin z0 ser w ws rest z' n,
  XfrZone.quiet z0 -> ttl_ok (v_ttl fin) -> v_serial fin <> ser ->
  header_ok tIXFR w -> w_records w = soa_rr fin :: rest -> Forall XfrInversion.wire_rec rest ->
  match rest with x :: _ => exists b, x = soa_rr b /\ ttl_ok (v_ttl b) | [] => True end ->
  inbound_xfr z0 tIXFR (Some ser) true (w :: ws) = (Done z', n) ->
  exists secs z1 b,
    rest = XfrSections.secs_stream secs ++ [soa_rr b] /\ secs <> [] /\ XfrSections.skel_ok ser fin secs /\
    XfrSections.end_serial ser secs = v_serial fin /\ v_soa b = v_soa fin /\ XfrSections.apply_secs z0 secs = Some z1 /\
    z' = zput soakey (v_ttl b, [v_soa b]) z1.
Proof. exact XfrInversion.udp_ixfr_done_is_denotation. Qed.
Print Assumptions udp_ixfr_done_is_denotation.

(* the inversion with NO restriction on the records (any class, type, TTL; apex SOA records in canonical form)
   and on the client zone; the denotation is stated with the transaction operations themselves:
   m_del / m_add = delete_exact / add of one record (out-of-zone records skipped), m_soa = replace of the SOA *)
Theorem ixfr_done_is_denotation_any : forall fin z0 ser ws rest z' n,
  ttl_ok (v_ttl fin) -> v_serial fin <> ser -> serial_lt (v_serial fin) ser = false ->
  chunking tIXFR (soa_rr fin :: rest) ws -> Forall XfrInversionGen.any_rec rest ->
  match rest with x :: _ => exists b, x = soa_rr b /\ ttl_ok (v_ttl b) | [] => True end ->
  inbound_xfr z0 tIXFR (Some ser) false ws = (Done z', n) ->
  exists secs z1 b extra,
    rest = XfrSections.secs_stream secs ++ soa_rr b :: extra /\ secs <> [] /\ XfrInversionGen.skel_g ser fin secs /\
    XfrSections.end_serial ser secs = v_serial fin /\ v_soa b = v_soa fin /\
    XfrInversionGen.m_secs z0 secs = Ok z1 /\ XfrInversionGen.m_soa z1 b = Ok z'.
Proof. exact XfrInversionGen.ixfr_done_is_denotation_any. Qed.
Print Assumptions ixfr_done_is_denotation_any.

(* ... and conversely (so, for streams whose final SOA is the last record of its message, a proper IXFR completes
   IF AND ONLY IF the stream has this form and every operation succeeds, and the zone is then the result) *)
Theorem ixfr_sections_applied_any : forall fin secs z0 z1 z' ser ws,
  secs <> [] -> XfrInversionGen.skel_g ser fin secs -> XfrSections.end_serial ser secs = v_serial fin ->
  v_serial fin <> ser -> serial_lt (v_serial fin) ser = false ->
  XfrInversionGen.m_secs z0 secs = Ok z1 -> XfrInversionGen.m_soa z1 fin = Ok z' ->
  chunking tIXFR (soa_rr fin :: XfrSections.secs_stream secs ++ [soa_rr fin]) ws ->
  exists n, inbound_xfr z0 tIXFR (Some ser) false ws = (Done z', n).
Proof. exact XfrInversionGen.ixfr_sections_applied_any. Qed.
Print Assumptions ixfr_sections_applied_any.

Theorem axfr_outcome_dichotomy : forall fin z0 ser ws rest,
  chunking tAXFR (soa_rr fin :: rest) ws -> Forall XfrInversion.wire_rec rest ->
  (exists e n, inbound_xfr z0 tAXFR ser false ws = (Error e z0, n)) \/
  (exists B b extra z' n,
     inbound_xfr z0 tAXFR ser false ws = (Done z', n) /\
     rest = B ++ soa_rr b :: extra /\ Forall XfrGlue.okrec B /\ v_soa b = v_soa fin /\
     zeq z' (zput soakey (v_ttl b, [v_soa b]) (XfrDiff.adds [] (XfrGlue.erase B)))).
Proof. exact XfrInversion.axfr_outcome_dichotomy. Qed.
Print Assumptions axfr_outcome_dichotomy.

Theorem ixfr_outcome_dichotomy_any : forall fin z0 ser ws rest,
  ttl_ok (v_ttl fin) -> v_serial fin <> ser -> serial_lt (v_serial fin) ser = false ->
  chunking tIXFR (soa_rr fin :: rest) ws -> Forall XfrInversionGen.any_rec rest ->
  match rest with x :: _ => exists b, x = soa_rr b /\ ttl_ok (v_ttl b) | [] => True end ->
  (exists e n, inbound_xfr z0 tIXFR (Some ser) false ws = (Error e z0, n)) \/
  (exists secs z1 b extra z' n,
     inbound_xfr z0 tIXFR (Some ser) false ws = (Done z', n) /\
     rest = XfrSections.secs_stream secs ++ soa_rr b :: extra /\ secs <> [] /\ XfrInversionGen.skel_g ser fin secs /\
     XfrSections.end_serial ser secs = v_serial fin /\ v_soa b = v_soa fin /\
     XfrInversionGen.m_secs z0 secs = Ok z1 /\ XfrInversionGen.m_soa z1 b = Ok z').
Proof. exact XfrInversionGen.ixfr_outcome_dichotomy_any. Qed.
Print Assumptions ixfr_outcome_dichotomy_any.

(* refreshing a zone of any content (the refresh theorems for general versions) *)
Theorem refresh_converges_general : forall v0 chain z table recs ws,
  XfrGeneral.chain_ok_g v0 chain -> zeq z (zone_of v0) ->
  find_row table (Some (v_serial v0)) = Some ws ->
  XfrGeneralOrder.ixfr_response_p v0 chain recs -> chunking tIXFR recs ws ->
  exists z', refresh1 z table = Ok (tIXFR, Some (v_serial v0), Some (v_serial v0), 0, z')
             /\ zeq z' (zone_of (last chain v0))
             /\ zone_serial z' = Some (v_serial (last chain v0)).
Proof. exact XfrRefreshGen.refresh_converges_general. Qed.
Print Assumptions refresh_converges_general.

Theorem refresh_full_general : forall v z table B ws,
  XfrGeneral.version_wf_g v -> zone_serial z = None ->
  find_row table None = Some ws ->
  Permutation B (body (v_rest v)) -> chunking tAXFR (soa_rr v :: B ++ [soa_rr v]) ws ->
  exists z', refresh1 z table = Ok (tAXFR, None, None, 0, z')
             /\ zeq z' (zone_of v) /\ zone_serial z' = Some (v_serial v).
Proof. exact XfrRefreshGen.refresh_full_general. Qed.
Print Assumptions refresh_full_general.

Theorem refresh_axfr_style_general : forall v z zs table ws,
  XfrGeneral.version_wf_g v -> v_rest v <> [] -> zone_serial z = Some zs ->
  v_serial v <> zs -> serial_lt (v_serial v) zs = false ->
  find_row table (Some zs) = None -> find_row table None = Some ws ->
  chunking tIXFR (axfr_stream v) ws ->
  exists z', refresh1 z table = Ok (tIXFR, Some zs, Some zs, 0, z')
             /\ zeq z' (zone_of v) /\ zone_serial z' = Some (v_serial v).
Proof. exact XfrRefreshGen.refresh_axfr_style_general. Qed.
Print Assumptions refresh_axfr_style_general.

Theorem refreshes_converge_general : forall v tables vfin, XfrRefreshGen.refresh_plan_g v tables vfin ->
  forall z, zeq z (zone_of v) ->
  length (refreshes z tables) = length tables
  /\ Forall XfrRefresh.refresh_ok (refreshes z tables)
  /\ zeq (XfrRefresh.final_zone z (refreshes z tables)) (zone_of vfin).
Proof. exact XfrRefreshGen.refreshes_converge_general. Qed.
Print Assumptions refreshes_converge_general.

Theorem try_first_falls_back_general : forall v0 chain z tbu tbt wu recs ws,
  XfrGeneral.chain_ok_g v0 chain -> zeq z (zone_of v0) ->
  find_row tbu (Some (v_serial v0)) = Some [wu] ->
  header_ok tIXFR wu -> w_records wu = [soa_rr (last chain v0)] ->
  find_row tbt (Some (v_serial v0)) = Some ws ->
  XfrGeneralOrder.ixfr_response_p v0 chain recs -> chunking tIXFR recs ws ->
  (exists z', xfr_top z 1 tbu tbt = Ok (0, z') /\ zeq z' (zone_of (last chain v0)))
  /\ xfr_top z 2 tbu tbt = Ok (eUseTCP, z).
Proof. exact XfrRefreshGen.try_first_falls_back_general. Qed.
Print Assumptions try_first_falls_back_general.
