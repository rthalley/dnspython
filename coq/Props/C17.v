(* C17 - resolver caches never serve stale data, honour the LRU bound, evict strictly LRU,
   count every lookup once, and are linearizable.
   Model: Model/CacheM.v (Cache value-level; LRUCache store-level with the sentinel ring).
   Histories are lists of `item`s: Call c ds (ds = clock increments seen by the reads of the
   call) and Adv d; `mono` = the clock never goes backwards. *)
From DV Require Import Base.Prelude Model.CacheM Model.CacheSpecM.
From DV Require Import Proofs.CacheRing Proofs.CacheDict Proofs.CacheLru Proofs.CacheSpec
  Proofs.CacheThm Proofs.CacheSimple Proofs.CacheBasic Proofs.CacheWalk Proofs.CacheConc Proofs.CacheOrder Proofs.CacheGuard.
From DV Require Model.CacheSkel Model.ResolM Proofs.ResolChain.
From DV Require Import Model.CacheAnsM Proofs.CacheExpiry Proofs.CacheObs.

(* ---- never stale: a lookup returns an answer only if its expiration is strictly later than the
   last clock reading of that lookup (any state, any clock) *)
Theorem never_stale_cache : forall key c k v c' k',
  cache_step (Get key) c k = Ok (RAns v, c', k') -> now k' < a_exp v.
Proof. exact cache_get_fresh. Qed.
Print Assumptions never_stale_cache.

Theorem never_stale_lru : forall key c k v c' k',
  lru_step (Get key) c k = Ok (RAns v, c', k') -> now k' < a_exp v.
Proof. exact lru_get_fresh. Qed.
Print Assumptions never_stale_lru.

(* ---- never stale, from the message: Answer.expiration = clock reading at construction +
   minimum_ttl of QueryMessage.resolve_chaining (Model/ResolM.v, property C16).  The expiration
   of an answer built from response m at reading t is at most t + the TTL of every CNAME RRset
   followed, of the answer RRset, and for a negative answer of the enclosing SOA and its MINIMUM;
   hence a lookup returning it happens strictly inside all those lifetimes. *)
Theorem answer_expiration_from_message : forall m vid t v,
  answer_of_msg m vid t = Ok v ->
  a_id v = vid /\ within_record_lifetimes m t (a_exp v).
Proof. exact answer_expiration_spec. Qed.
Print Assumptions answer_expiration_from_message.

Theorem lru_serves_only_within_record_lifetimes : forall m vid t v key c k c' k',
  answer_of_msg m vid t = Ok v ->
  lru_step (Get key) c k = Ok (RAns v, c', k') ->
  within_record_lifetimes m t (now k' + 1).
Proof. exact lru_serves_within_lifetimes. Qed.
Print Assumptions lru_serves_only_within_record_lifetimes.

Theorem cache_serves_only_within_record_lifetimes : forall m vid t v key c k c' k',
  answer_of_msg m vid t = Ok v ->
  cache_step (Get key) c k = Ok (RAns v, c', k') ->
  within_record_lifetimes m t (now k' + 1).
Proof. exact cache_serves_within_lifetimes. Qed.
Print Assumptions cache_serves_only_within_record_lifetimes.

(* every history of an LRUCache runs without KeyError/AttributeError/fuel exhaustion *)
Theorem lru_total : forall m t0 its, mono its ->
  exists c0 rs w, lru_init m = Ok c0 /\ wrun lru_step its (c0, t0) = Ok (rs, w).
Proof. exact lru_total_l. Qed.
Print Assumptions lru_total.

Theorem cache_total : forall interval t0 ds0 its, mono its -> Forall cache_item its ->
  exists rs w, wrun cache_step its
    (fst (cache_init interval (mkClk t0 ds0)), now (snd (cache_init interval (mkClk t0 ds0)))) = Ok (rs, w).
Proof. exact cache_total_c. Qed.
Print Assumptions cache_total.

(* ---- latest unexpired: a lookup returns exactly the most recently stored answer of the key
   that was neither flushed nor evicted (the ideal map `fst g`), unless it has expired *)
Theorem latest_unexpired_lru : forall m t0 its g w key ds r w',
  mono its -> lru_reach m t0 its g w -> nonneg ds ->
  wstep lru_step (Call (Get key) ds) w = Ok (Some r, w') ->
  r = expected (fst g) key (snd w').
Proof. exact lru_get_l. Qed.
Print Assumptions latest_unexpired_lru.

Theorem latest_unexpired_cache : forall interval t0 ds0 its g w key ds r w',
  mono its -> Forall cache_item its -> cache_reach interval t0 ds0 its g w -> nonneg ds ->
  wstep cache_step (Call (Get key) ds) w = Ok (Some r, w') ->
  r = expected (fst g) key (snd w').
Proof. exact cache_get_c. Qed.
Print Assumptions latest_unexpired_cache.

(* ---- nothing is lost early: an answer that was stored, not flushed, not evicted and has not
   expired yet is still held (LRU: on a node carrying exactly it; Cache: cleaning drops expired
   entries only) *)
Theorem lru_holds_every_live_answer : forall m t0 its g w key v, mono its -> lru_reach m t0 its g w ->
  fst g key = Some v -> snd w < a_exp v ->
  exists i nd, dget (l_dict (fst w)) key = Some i /\ sget (l_store (fst w)) i = Some nd /\
               n_key nd = Some key /\ n_val nd = Some v.
Proof. exact lru_live_present_l. Qed.
Print Assumptions lru_holds_every_live_answer.

Theorem cache_holds_every_live_answer : forall interval t0 ds0 its g w key v,
  mono its -> Forall cache_item its -> cache_reach interval t0 ds0 its g w ->
  fst g key = Some v -> snd w < a_exp v -> dget (c_data (fst w)) key = Some v.
Proof. exact cache_live_present_c. Qed.
Print Assumptions cache_holds_every_live_answer.

(* ---- what "not flushed or evicted" rests on: a key leaves the dict only by flush, by a lookup
   of that very key (which then found it expired and returned None), or during put/set_max_size;
   it enters only by put *)
Theorem key_set_changes : forall m t0 its g w cl ds r w' x,
  mono its -> lru_reach m t0 its g w -> nonneg ds ->
  wstep lru_step (Call cl ds) w = Ok (Some r, w') ->
  keyset_rule cl (has (fst w)) (has (fst w')) x.
Proof. exact lru_keyset_l. Qed.
Print Assumptions key_set_changes.

(* ---- LRU bound: after every call of every history, len(data) <= max_size (and max_size >= 1);
   set_max_size included *)
Theorem lru_bound : forall m t0 its g w, mono its -> lru_reach m t0 its g w ->
  zlen (l_dict (fst w)) <= l_max (fst w) /\ 1 <= l_max (fst w).
Proof. exact lru_bound_l. Qed.
Print Assumptions lru_bound.

(* ---- strict LRU: whatever a put / set_max_size evicts was used less recently (put or
   successful get) than everything it keeps *)
Theorem evicts_lru_first : forall m t0 its g w cl ds r w' gk kept,
  mono its -> lru_reach m t0 its g w -> nonneg ds ->
  wstep lru_step (Call cl ds) w = Ok (Some r, w') ->
  (match cl with Put key _ => gk <> key /\ kept <> key | SetMax _ => True | _ => False end) ->
  has (fst w) gk = true -> has (fst w') gk = false -> has (fst w') kept = true ->
  younger (snd g) kept gk.
Proof. exact lru_evict_l. Qed.
Print Assumptions evicts_lru_first.

(* ---- put evicts only when the limit forces it: afterwards the cache holds the new entry and as
   many of the other entries as fit *)
Theorem put_evicts_only_when_full : forall m t0 its g w key v ds r w',
  mono its -> lru_reach m t0 its g w -> nonneg ds ->
  wstep lru_step (Call (Put key v) ds) w = Ok (Some r, w') ->
  zlen (l_dict (fst w')) =
  Z.min (l_max (fst w)) (zlen (l_dict (fst w)) - (if has (fst w) key then 1 else 0) + 1).
Proof. exact lru_put_size_l. Qed.
Print Assumptions put_evicts_only_when_full.

(* ---- counters: hits / misses are the numbers of successful / failed lookups since the last
   reset; get_hits_for_key is the number of successful lookups of the stored answer *)
Theorem counters_exact_lru : forall m t0 its g w, mono its -> lru_reach m t0 its g w ->
  (l_hits (fst w), l_miss (fst w)) = stats_of (snd g).
Proof. exact lru_stats_l. Qed.
Print Assumptions counters_exact_lru.

Theorem counters_exact_cache : forall interval t0 ds0 its g w,
  mono its -> Forall cache_item its -> cache_reach interval t0 ds0 its g w ->
  (c_hits (fst w), c_miss (fst w)) = stats_of (snd g).
Proof. exact cache_stats_c. Qed.
Print Assumptions counters_exact_cache.

Theorem node_hits_exact : forall m t0 its g w key ds r w',
  mono its -> lru_reach m t0 its g w -> nonneg ds ->
  wstep lru_step (Call (HitsFor key) ds) w = Ok (Some r, w') ->
  r = expected_hits (fst g) (snd g) key (snd w').
Proof. exact lru_hitsfor_l. Qed.
Print Assumptions node_hits_exact.

(* the shrink case of set_max_size: the new limit is max(1, m) and holds at once *)
Theorem set_max_size_bound : forall m t0 its g w mx ds r w',
  mono its -> lru_reach m t0 its g w -> nonneg ds ->
  wstep lru_step (Call (SetMax mx) ds) w = Ok (Some r, w') ->
  l_max (fst w') = Z.max 1 mx /\ zlen (l_dict (fst w')) <= Z.max 1 mx.
Proof. exact lru_setmax_l. Qed.
Print Assumptions set_max_size_bound.

(* ---- the sentinel ring: in every reachable state walking .next from the sentinel yields a
   duplicate-free list ids, walking .prev yields its reverse, prev (next n) = n for every ring
   node, the dict has one entry per ring node and maps each key to the ring node carrying it *)
Theorem ring_invariant : forall m t0 its g w, mono its -> lru_reach m t0 its g w ->
  exists ids,
    ring_ids (l_store (fst w)) true = Some ids /\
    ring_ids (l_store (fst w)) false = Some (rev ids) /\
    NoDup (sentinel :: ids) /\
    (forall n, In n (sentinel :: ids) ->
       exists x, nxt (l_store (fst w)) n = Some x /\ prv (l_store (fst w)) x = Some n /\ In x (sentinel :: ids)) /\
    length ids = length (l_dict (fst w)) /\
    (forall key i, dget (l_dict (fst w)) key = Some i ->
       In i ids /\ exists nd, sget (l_store (fst w)) i = Some nd /\ n_key nd = Some key).
Proof. exact ring_invariant_l. Qed.
Print Assumptions ring_invariant.

(* the ring read through the node keys: exactly the cached keys, most recently used first
   (strictly sorted by the age of their last put / successful get in the event history) *)
Theorem ring_sorted_by_last_use : forall m t0 its g w, mono its -> lru_reach m t0 its g w ->
  exists ids keys,
    ring_ids (l_store (fst w)) true = Some ids /\
    Forall2 (fun i k => exists nd, sget (l_store (fst w)) i = Some nd /\ n_key nd = Some k) ids keys /\
    Sorted.StronglySorted (younger (snd g)) keys /\
    (forall k, In k keys <-> has (fst w) k = true).
Proof. exact ring_sorted_l. Qed.
Print Assumptions ring_sorted_by_last_use.

(* ---- refinement: from related states the store-level model and the list-level specification
   make the same step (same result, same clock) and stay related; the ring is the recency list *)
Theorem lru_refines_spec : forall cl c a zs k,
  R c a zs ->
  exists c' zs',
    lru_step cl c k = Ok (fst (fst (alru_step cl a k)), c', snd (alru_step cl a k)) /\
    R c' (snd (fst (alru_step cl a k))) zs'.
Proof. exact sim_step. Qed.
Print Assumptions lru_refines_spec.

Theorem ring_is_recency_list : forall c a zs, R c a zs ->
  ring_ids (l_store c) true = Some (map fst zs) /\
  ring_ids (l_store c) false = Some (rev (map fst zs)).
Proof. exact ring_walks. Qed.
Print Assumptions ring_is_recency_list.

(* ---- concurrency (any object whose method bodies are single critical sections; instantiated
   with lru_step / cache_step).  Threads interleave at invocation, lock acquisition, body,
   release and return, and time passes anywhere. *)
Theorem mutual_exclusion_lru : forall s t0 ls cf t1 t2,
  exec lru_step (init_conf s t0) ls cf ->
  in_cs (cf_ph cf t1) = true -> in_cs (cf_ph cf t2) = true -> t1 = t2.
Proof. exact (mutual_exclusion lru_step). Qed.
Print Assumptions mutual_exclusion_lru.

Theorem linearizable_lru : forall s t0 ls cf,
  exec lru_step (init_conf s t0) ls cf ->
  exists rs,
    wrun lru_step (witness ls) (s, t0) = Ok (rs, (cf_obj cf, cf_now cf)) /\
    forall t, thread_results t (witness_tid ls) rs = responses t ls ++ pending (cf_ph cf t).
Proof. exact (linearizable lru_step). Qed.
Print Assumptions linearizable_lru.

Theorem linearizable_cache : forall s t0 ls cf,
  exec cache_step (init_conf s t0) ls cf ->
  exists rs,
    wrun cache_step (witness ls) (s, t0) = Ok (rs, (cf_obj cf, cf_now cf)) /\
    forall t, thread_results t (witness_tid ls) rs = responses t ls ++ pending (cf_ph cf t).
Proof. exact (linearizable cache_step). Qed.
Print Assumptions linearizable_cache.

(* the witness order (order in which the bodies ran) is the lock-acquisition order *)
Theorem witness_is_lock_acquisition_order : forall s t0 ls cf,
  exec lru_step (init_conf s t0) ls cf -> acq_tids ls = body_tids ls ++ holding cf.
Proof. exact (witness_in_acquisition_order lru_step). Qed.
Print Assumptions witness_is_lock_acquisition_order.

(* each call of a thread is Inv, Acq, Body, Rel, Res in this order for the same method, and the
   calls of one thread do not overlap: the body - the call's place in the sequential witness -
   lies between invocation and response, so the witness respects real-time precedence *)
Theorem linearization_point_inside_call : forall s t0 ls cf t,
  exec lru_step (init_conf s t0) ls cf -> trun t TIdle ls = Some (abs_phase (cf_ph cf t)).
Proof. exact (thread_protocol lru_step). Qed.
Print Assumptions linearization_point_inside_call.

(* real-time order, positionally: when a call returns, the same call was invoked earlier, its
   body ran in between and the thread did nothing else in between *)
Theorem body_between_invocation_and_response : forall s t0 ls cf pre t c r post,
  exec lru_step (init_conf s t0) ls cf -> ls = pre ++ LRes t c r :: post ->
  exists p1 p2 p3 ds,
    pre = p1 ++ LInv t c :: p2 ++ LBody t c ds :: p3 /\
    (forall x, In x p2 -> ~ call_event t x) /\ (forall x, In x p3 -> ~ call_event t x).
Proof. exact (body_within_call lru_step). Qed.
Print Assumptions body_between_invocation_and_response.

(* ---- the critical-section premise, explicit.  `atomic c` = the method behind c is one
   `with self.lock:` block; a method that is not runs unprotected (reads the object, writes back
   later).  If every method is atomic, every execution of that larger LTS is one of the LTS above
   and is linearizable.  The table `atomic` of dns/resolver.py is regenerated from the source on
   every run together with guard_ok_* (all entries true) and linearizable_*_source (this theorem
   instantiated with it): removing a lock breaks those obligations by name. *)
Theorem linearizable_if_methods_atomic : forall (atomic : call -> bool),
  (forall c, atomic c = true) ->
  forall s t0 ls g,
  gexec lru_step atomic (ginit s t0) ls g ->
  exists ls' rs,
    ls = map GL ls' /\
    exec lru_step (init_conf s t0) ls' (fst g) /\
    wrun lru_step (witness ls') (s, t0) = Ok (rs, (cf_obj (fst g), cf_now (fst g))) /\
    forall t, thread_results t (witness_tid ls') rs = responses t ls' ++ pending (cf_ph (fst g) t).
Proof. exact (guarded_linearizable lru_step). Qed.
Print Assumptions linearizable_if_methods_atomic.

(* and the premise is needed: with an unprotected put two threads lose an update, which no
   sequential order of the two calls produces *)
Theorem unprotected_put_is_not_linearizable :
  exists g,
    gexec cache_step put_unprotected (ginit cache0 0) lost_update_run g /\
    dkeys (c_data (cf_obj (fst g))) = [2] /\
    (forall its, its = [Call (Put 1 (mkAns 1 100)) []; Call (Put 2 (mkAns 2 100)) []] \/
                 its = [Call (Put 2 (mkAns 2 100)) []; Call (Put 1 (mkAns 1 100)) []] ->
       exists rs w, wrun cache_step its (cache0, 0) = Ok (rs, w) /\ length (c_data (fst w)) = 2%nat).
Proof. exact unlocked_put_loses_update. Qed.
Print Assumptions unprotected_put_is_not_linearizable.

(* every object state that concurrent threads can produce is the state of a sequential history
   (the witness), so every sequential theorem above applies to it verbatim *)
Theorem concurrent_states_are_sequential_states : forall m t0 c0 ls cf,
  lru_init m = Ok c0 -> exec lru_step (init_conf c0 t0) ls cf ->
  exists g, lru_reach m t0 (witness ls) g (cf_obj cf, cf_now cf) /\ mono (witness ls).
Proof. exact conc_lru_reach. Qed.
Print Assumptions concurrent_states_are_sequential_states.

(* in particular a lookup executed by any thread at any point of any interleaving returns the
   most recently stored, not flushed, not evicted, unexpired answer - of the witness history *)
Theorem conc_latest_unexpired : forall m t0 c0 ls cf t key ds cf',
  lru_init m = Ok c0 -> exec lru_step (init_conf c0 t0) ls cf ->
  cstep lru_step cf (LBody t (Get key) ds) cf' ->
  exists g r, lru_reach m t0 (witness ls) g (cf_obj cf, cf_now cf) /\
              cf_ph cf' t = Finished (Get key) r /\
              r = expected (fst g) key (cf_now cf').
Proof. exact conc_lru_get_l. Qed.
Print Assumptions conc_latest_unexpired.

(* consequences for the LRUCache under concurrency: the bound holds in every reachable
   configuration, and no method body can raise *)
Theorem conc_lru_bound : forall m t0 c0 ls cf,
  lru_init m = Ok c0 -> exec lru_step (init_conf c0 t0) ls cf ->
  zlen (l_dict (cf_obj cf)) <= l_max (cf_obj cf).
Proof. exact conc_lru_bound_l. Qed.
Print Assumptions conc_lru_bound.

Theorem conc_lru_progress : forall m t0 c0 ls cf t c ds,
  lru_init m = Ok c0 -> exec lru_step (init_conf c0 t0) ls cf ->
  cf_ph cf t = Holding c -> cf_lock cf = Some t -> nonneg ds ->
  exists cf', cstep lru_step cf (LBody t c ds) cf'.
Proof. exact conc_lru_progress_l. Qed.
Print Assumptions conc_lru_progress.

(* ---- the runs the harness observes are the runs the theorems quantify over: every harness
   operation (a call, time passing, "build an Answer now and put it") is one or two items with the
   same result, world and ghost state, monotone if its increments are *)
Theorem observed_step_is_item_run : forall (h : hop) (w : lru * Z) g r w' g',
  hstep_g lru_step lru_gupd h w g = Ok (r, w', g') ->
  exists its, items_of_hop h w = Ok its /\ lru_grun its w g = Ok (g', w') /\
              hstep lru_step h w = Ok (r, w').
Proof. exact (hstep_g_items lru_step lru_gupd). Qed.
Print Assumptions observed_step_is_item_run.

Theorem observed_step_items_monotone : forall (h : hop) (w : lru * Z) its,
  mono_hop h -> items_of_hop h w = Ok its -> mono its.
Proof. exact (@items_of_hop_mono lru). Qed.
Print Assumptions observed_step_items_monotone.

(* non-vacuity: a concrete history of LRUCache(2) *)
Definition ex_hist : list item :=
  [Call (Put 1 (mkAns 11 50)) []; Call (Put 2 (mkAns 12 60)) []; Call (Get 1) [3];
   Call (Put 3 (mkAns 13 70)) []; Adv 100; Call (Get 1) [0]].

Example ex_mono : mono ex_hist.
Proof.
  unfold mono, ex_hist.
  repeat (apply Forall_cons;
          [cbn; unfold nonneg; repeat (first [apply Forall_nil | apply Forall_cons; [lia|]]); try lia|]).
  apply Forall_nil.
Qed.

(* after the history: key 2 was evicted by the third put (1 had been looked up more recently),
   key 1 expired and was dropped by the last lookup *)
Example ex_reach : exists g w, lru_reach 2 0 ex_hist g w /\ dkeys (l_dict (fst w)) = [3] /\ snd w = 103.
Proof.
  eexists. eexists. split.
  - eexists. split; vm_compute; reflexivity.
  - vm_compute. split; reflexivity.
Qed.

(* the hypotheses of evicts_lru_first are satisfiable: the put of key 3 evicts 2 and keeps 1 *)
Example ex_evict : exists g w r w',
  lru_reach 2 0 (firstn 3 ex_hist) g w /\
  wstep lru_step (Call (Put 3 (mkAns 13 70)) []) w = Ok (Some r, w') /\
  has (fst w) 2 = true /\ has (fst w') 2 = false /\ has (fst w') 1 = true.
Proof.
  eexists. eexists. eexists. eexists. split.
  - eexists. split; vm_compute; reflexivity.
  - split; [vm_compute; reflexivity|]. vm_compute. repeat split.
Qed.

Example ex_cache : exists g w,
  cache_reach 5 0 [] [Call (Put 1 (mkAns 11 50)) []; Adv 60; Call (Get 1) [0]] g w /\
  c_miss (fst w) = 1.
Proof. eexists. eexists. split; vm_compute; reflexivity. Qed.

(* an executable scheduler is sound for `exec`: concrete interleavings exist *)
Theorem exec_fun_is_exec : forall ls cf ls' cf',
  exec_fun lru_step ls cf = Some (ls', cf') -> exec lru_step cf ls' cf'.
Proof. exact (exec_fun_sound lru_step). Qed.
Print Assumptions exec_fun_is_exec.

(* two threads: thread 1 gets the lock first although thread 0 invoked first; the sequential
   witness is  time+2 ; get(1) ; put(1) *)
Definition ex_sched : list label :=
  [LInv 0 (Put 1 (mkAns 11 50)); LInv 1 (Get 1); LAcq 1; LEnv 2; LBody 1 (Get 1) [1]; LRel 1;
   LAcq 0; LBody 0 (Put 1 (mkAns 11 50)) []; LRes 1 (Get 1) RNone; LRel 0].

Example ex_conc :
  match lru_init 2 with
  | Ok c0 =>
      match exec_fun lru_step ex_sched (init_conf c0 0) with
      | Some (ls, cf) =>
          cf_now cf = 2 /\ dkeys (l_dict (cf_obj cf)) = [1] /\ responses 1 ls = [RNone] /\
          witness ls = [Adv 2; Call (Get 1) [1]; Call (Put 1 (mkAns 11 50)) []]
      | None => False
      end
  | _ => False
  end.
Proof. vm_compute. repeat split. Qed.

(* the code before the fix (set_max_size only stored the limit): the bound failed *)
Definition old_set_max (st : lru) (m : Z) : lru :=
  mkLru (l_store st) (l_dict st) (if m <? 1 then 1 else m) (l_hits st) (l_miss st) (l_fresh st).

Example old_set_max_size_broke_the_bound :
  match wrun lru_step [Call (Put 1 (mkAns 1 50)) []; Call (Put 2 (mkAns 2 50)) []; Call (Put 3 (mkAns 3 50)) []]
             (mkLru [(sentinel, mkNode None None 0 sentinel sentinel)] [] 3 0 0 1%nat, 0) with
  | Ok (_, (c, _)) => zlen (l_dict (old_set_max c 1)) = 3 /\ l_max (old_set_max c 1) = 1
  | _ => False
  end.
Proof. vm_compute. split; reflexivity. Qed.

(* a response with a CNAME (TTL 30) to an A RRset (TTL 20): the answer built at reading 1000
   expires at 1020 *)
Definition ex_msg : ResolM.msg :=
  {| ResolM.m_qr := true; ResolM.m_rcode := 0;
     ResolM.m_question := [ {| ResolM.q_name := [[107;49]; []]; ResolM.q_class := 1; ResolM.q_type := 1 |} ];
     ResolM.m_answer :=
       [ {| ResolM.rs_name := [[107;49]; []]; ResolM.rs_class := 1; ResolM.rs_type := 5; ResolM.rs_ttl := 30;
            ResolM.rs_data := [ResolM.DName [[99;48]; []]] |};
         {| ResolM.rs_name := [[99;48]; []]; ResolM.rs_class := 1; ResolM.rs_type := 1; ResolM.rs_ttl := 20;
            ResolM.rs_data := [ResolM.DOther 7] |} ];
     ResolM.m_authority := [] |}.

Example ex_answer_of_msg : answer_of_msg ex_msg 5 1000 = Ok (mkAns 5 1020).
Proof. vm_compute. reflexivity. Qed.
