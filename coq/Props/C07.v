(* C07 - records and record sets have value semantics and exact set algebra.
   Statements only; the proofs are in Proofs/SetAlg.v, SetRdata.v, SetMachine.v, SetRds.v,
   SetRdsMachine.v, SetTtl.v, SetImm.v. *)
From Coq Require Import Permutation.
From DV Require Import Base.Prelude Model.SetM Proofs.SetAlg Proofs.SetRdata Proofs.SetMachine
  Proofs.SetRds Proofs.SetRdsMachine Proofs.SetTtl Proofs.SetImm Proofs.SetObj Proofs.SetProc.
From Coq Require Import Sorted.
From DV Require Model.NameM Model.SchemaM Model.DnssecM Model.SetCanonM Proofs.DnssecRef Proofs.SchemaCodec Proofs.SchemaFix Proofs.SetCanon Proofs.SetCanonRfc Proofs.SetCanonTotal.
Open Scope Z_scope.

(* two records are equal iff same class, same type and same canonical encoding (and the same
   relativity, the rule of Rdata.__eq__) *)
Theorem rdata_eq_iff_digest : forall a b,
  rd_eqb a b = true <->
  rcls a = rcls b /\ rtyp a = rtyp b /\ rrel a = rrel b /\ rdig a = rdig b.
Proof. exact rd_eqb_iff. Qed.
Print Assumptions rdata_eq_iff_digest.

Theorem rdata_ne_is_not_eq : forall a b, rd_neb a b = negb (rd_eqb a b).
Proof. exact rd_neb_negb. Qed.
Print Assumptions rdata_ne_is_not_eq.

Theorem rdata_hash_congr : forall a b, rd_eqb a b = true -> rd_hashkey a = rd_hashkey b.
Proof. exact rd_hash_congr. Qed.
Print Assumptions rdata_hash_congr.

(* _cmp is antisymmetric, transitive, total, its equivalence is ==, and between records of the
   same relativity it is the canonical RDATA octet order of RFC 4034 6.3 *)
Theorem rdata_order_total :
  (forall a b, rd_cmp b a = - rd_cmp a b) /\
  (forall a b c, rd_cmp a b <= 0 -> rd_cmp b c <= 0 -> rd_cmp a c <= 0) /\
  (forall a b, rd_cmp a b <= 0 \/ rd_cmp b a <= 0) /\
  (forall a b, rcls a = rcls b -> rtyp a = rtyp b -> (rd_cmp a b = 0 <-> rd_eqb a b = true)) /\
  (forall a b, rrel a = rrel b -> (rd_cmp a b < 0 <-> lex_lt (rdig a) (rdig b))).
Proof. exact rd_order_total_spec. Qed.
Print Assumptions rdata_order_total.

Theorem rdata_rich_comparisons : forall w a b,
  rcls a = rcls b -> rtyp a = rtyp b ->
  rd_rich w a b = Ok (match w with
                      | RLt => rd_cmp a b <? 0
                      | RLe => rd_cmp a b <=? 0
                      | RGe => rd_cmp a b >=? 0
                      | RGt => rd_cmp a b >? 0
                      end).
Proof. exact rd_rich_spec. Qed.
Print Assumptions rdata_rich_comparisons.

(* records with their fields: ==, hash, order on the real encodings *)
(* Model/SetCanonM.v: field lists and values are C02's (SchemaM), the canonical-form reference is
   C15's (DnssecRef.rfc4034_canonical_rdata); both imported read-only. *)
Module Canon.
Import NameM SchemaM SetCanonM SetCanon SetCanonRfc SetCanonTotal.

(* the structured ==, _cmp and hash agree with the flat records the set theorems are about *)
Theorem structured_eq_is_flat_eq : forall a b x y,
  s_abs a = Ok x -> s_abs b = Ok y -> s_eq a b = Ok (rd_eqb x y).
Proof. exact s_eq_abs. Qed.
Print Assumptions structured_eq_is_flat_eq.

Theorem structured_cmp_is_flat_cmp : forall a b x y,
  s_abs a = Ok x -> s_abs b = Ok y -> s_cmp a b = Ok (rd_cmp x y).
Proof. exact s_cmp_abs. Qed.
Print Assumptions structured_cmp_is_flat_cmp.

Theorem structured_hash_congr : forall a b x y,
  s_abs a = Ok x -> s_abs b = Ok y -> s_eq a b = Ok true -> s_hashkey a = s_hashkey b.
Proof. exact s_hash_congr. Qed.
Print Assumptions structured_hash_congr.

(* to_wire(canonicalize=True) is to_wire of the record with lower-cased names (types that pass
   the flag on), and plainly C02's writer otherwise *)
Theorem canonical_is_lowercased_encoding : forall o low, origin_lc o -> forall fs vs,
  cenc_fields o low fs vs = enc_fields o fs (lowvals low vs).
Proof. exact cenc_fields_low. Qed.
Print Assumptions canonical_is_lowercased_encoding.

(* two absolute records of one class and type are == iff their field values are equal: integers
   and octet strings identical, embedded names label by label up to ASCII case when the type
   passes canonicalize on (RFC 4034 6.2 types, see canonicalize_flags_are_rfc4034), identical
   otherwise.  The `only if` direction is C02's round trip: the wire form determines the record. *)
Theorem rdata_eq_iff_canonical : forall a b da db,
  schema_wf (sfs a) = true ->
  scls a = scls b -> styp a = styp b -> sfs b = sfs a -> slow b = slow a ->
  valid_fields (sfs a) (svs a) = true -> valid_fields (sfs a) (svs b) = true ->
  s_digest a None = Ok da -> s_digest b None = Ok db ->
  (s_eq a b = Ok true <-> vals_ci (slow a) (svs a) (svs b)).
Proof. exact s_eq_iff_fields. Qed.
Print Assumptions rdata_eq_iff_canonical.

(* the same without any hypothesis about the digests: every valid record with absolute names has
   one (C02's enc_fields_total) *)
Theorem valid_absolute_record_has_digest : forall r,
  schema_wf (sfs r) = true -> valid_fields (sfs r) (svs r) = true ->
  SchemaCodec.nok_fields SchemaFix.abs_name (sfs r) (svs r) ->
  exists d, s_digest r None = Ok d.
Proof. exact s_digest_total. Qed.
Print Assumptions valid_absolute_record_has_digest.

Theorem rdata_eq_iff_canonical_valid : forall a b,
  schema_wf (sfs a) = true ->
  scls a = scls b -> styp a = styp b -> sfs b = sfs a -> slow b = slow a ->
  valid_fields (sfs a) (svs a) = true -> valid_fields (sfs a) (svs b) = true ->
  SchemaCodec.nok_fields SchemaFix.abs_name (sfs a) (svs a) ->
  SchemaCodec.nok_fields SchemaFix.abs_name (sfs a) (svs b) ->
  (s_eq a b = Ok true <-> vals_ci (slow a) (svs a) (svs b)).
Proof. exact s_eq_iff_fields_abs. Qed.
Print Assumptions rdata_eq_iff_canonical_valid.

(* relative names: a record that has one never equals a record that has none; two such records
   are == iff the values agree after completing the relative names with the root *)
Theorem relative_record_never_equals_absolute : forall a b da db,
  s_digest_rel a = Ok (da, true) -> s_digest_rel b = Ok (db, false) ->
  s_eq a b = Ok false /\ s_eq b a = Ok false.
Proof. exact relative_never_equals_absolute. Qed.
Print Assumptions relative_record_never_equals_absolute.

Theorem rdata_eq_iff_canonical_relative : forall a b da db,
  schema_wf (sfs a) = true ->
  scls a = scls b -> styp a = styp b -> sfs b = sfs a -> slow b = slow a ->
  valid_fields (sfs a) (absvals (svs a)) = true -> valid_fields (sfs a) (absvals (svs b)) = true ->
  s_digest_rel a = Ok (da, true) -> s_digest_rel b = Ok (db, true) ->
  (s_eq a b = Ok true <-> vals_ci (slow a) (absvals (svs a)) (absvals (svs b))).
Proof. exact s_eq_iff_fields_relative. Qed.
Print Assumptions rdata_eq_iff_canonical_relative.

(* down to the sets: two spellings of one record are the same member (duplicates collapse), hash
   alike and compare as equal *)
Theorem spellings_of_one_record_collapse : forall a b da db x y,
  schema_wf (sfs a) = true ->
  scls a = scls b -> styp a = styp b -> sfs b = sfs a -> slow b = slow a ->
  valid_fields (sfs a) (svs a) = true -> valid_fields (sfs a) (svs b) = true ->
  s_digest a None = Ok da -> s_digest b None = Ok db ->
  vals_ci (slow a) (svs a) (svs b) ->
  s_abs a = Ok x -> s_abs b = Ok y ->
  rd_eqb x y = true /\ sadd rd_eqb y [x] = [x] /\ rd_hashkey x = rd_hashkey y /\ rd_cmp x y = 0.
Proof. exact case_variants_collapse. Qed.
Print Assumptions spellings_of_one_record_collapse.

(* to_digestable(origin) = RFC 4034 6.2 canonical RDATA (C15's reference), for every origin *)
Theorem digest_is_rfc4034_canonical : forall r origin fl,
  slow r = DnssecM.rfc_downcased (styp r) -> tf_fields (sfs r) (svs r) = Ok fl ->
  s_digest r origin = DnssecRef.rfc4034_canonical_rdata (styp r) fl origin.
Proof. exact s_digest_is_rfc4034. Qed.
Print Assumptions digest_is_rfc4034_canonical.

Theorem canonicalize_flags_are_rfc4034 :
  forallb (fun ct => match schema_of (fst ct) (snd ct) with
                     | Some (_, low) => Bool.eqb low (DnssecM.rfc_downcased (snd ct))
                     | None => false
                     end) table_types = true.
Proof. exact table_flags_are_rfc4034. Qed.
Print Assumptions canonicalize_flags_are_rfc4034.

(* ==, order and hash as statements about canonical RDATA octets *)
Theorem eq_order_hash_on_canonical_rdata : forall a b fa fb da db,
  scls a = scls b -> styp a = styp b ->
  slow a = DnssecM.rfc_downcased (styp a) -> slow b = DnssecM.rfc_downcased (styp b) ->
  tf_fields (sfs a) (svs a) = Ok fa -> tf_fields (sfs b) (svs b) = Ok fb ->
  DnssecRef.rfc4034_canonical_rdata (styp a) fa None = Ok da ->
  DnssecRef.rfc4034_canonical_rdata (styp b) fb None = Ok db ->
  s_eq a b = Ok (zlist_eqb da db) /\
  s_cmp a b = Ok (match cmp_bytes da db with Eq => 0 | Gt => 1 | Lt => -1 end) /\
  s_hashkey a = Ok da /\ s_hashkey b = Ok db.
Proof. exact s_eq_is_canonical_equality. Qed.
Print Assumptions eq_order_hash_on_canonical_rdata.

(* non-vacuity: an MX record and a case variant *)
Definition ex_mx1 := mkS 0 1 15 0 [FS (FU 2 65535); FS (FName true)] CkNone true [VS (VI 10); VS (VN [[77; 97]; []])].
Definition ex_mx2 := mkS 1 1 15 0 [FS (FU 2 65535); FS (FName true)] CkNone true [VS (VI 10); VS (VN [[109; 65]; []])].
Example ex_mx :
  schema_wf (sfs ex_mx1) = true /\ valid_fields (sfs ex_mx1) (svs ex_mx1) = true /\
  s_digest ex_mx1 None = Ok [0; 10; 2; 109; 97; 0] /\ s_digest ex_mx2 None = Ok [0; 10; 2; 109; 97; 0] /\
  s_eq ex_mx1 ex_mx2 = Ok true /\ vals_ci true (svs ex_mx1) (svs ex_mx2) /\
  tf_fields (sfs ex_mx1) (svs ex_mx1) = Ok [DnssecM.FRaw [0; 10]; DnssecM.FName [[77; 97]; []]].
Proof. repeat split; repeat constructor. Qed.
Definition ex_ns_rel1 := mkS 0 1 2 0 [FS (FName true)] CkNone true [VS (VN [[97]])].
Definition ex_ns_rel2 := mkS 1 1 2 0 [FS (FName true)] CkNone true [VS (VN [[65]])].
Example ex_relative :
  s_digest_rel ex_ns_rel1 = Ok ([1; 97; 0], true) /\ s_digest_rel ex_ns_rel2 = Ok ([1; 97; 0], true) /\
  valid_fields (sfs ex_ns_rel1) (absvals (svs ex_ns_rel1)) = true /\
  s_eq ex_ns_rel1 ex_ns_rel2 = Ok true /\
  s_digest_rel (mkS 2 1 2 0 [FS (FName true)] CkNone true [VS (VN [[97]; []])]) = Ok ([1; 97; 0], false).
Proof. repeat split. Qed.
Example ex_mx_abs : SchemaCodec.nok_fields SchemaFix.abs_name (sfs ex_mx1) (svs ex_mx1).
Proof. cbn. unfold SchemaFix.abs_name. auto. Qed.
End Canon.

(* dns.set.Set: a set that remembers first-insertion order *)

(* every public method of Set, in every order and with every aliasing of the registers, keeps
   every set duplicate-free *)
Theorem nodup_inv : forall ops st, Forall ND st -> Forall ND (sexec st ops).
Proof. exact sexec_nodup. Qed.
Print Assumptions nodup_inv.

(* the algebra for an arbitrary element type whose == is an equivalence relation; `same` is
   `self is other` and is only ever true when the two arguments are the same object *)
Theorem set_algebra_generic :
  forall (A : Type) (eqb : A -> A -> bool),
    (forall x, eqb x x = true) -> (forall x y, eqb x y = eqb y x) ->
    (forall x y z, eqb x y = true -> eqb y z = true -> eqb x z = true) ->
    forall a s o same x,
      NoDupE A eqb s -> NoDupE A eqb o -> (same = true -> o = s) ->
      mem eqb x (salg_g A eqb a s o same) = alg_bool a (mem eqb x s) (mem eqb x o).
Proof. exact salg_mem. Qed.
Print Assumptions set_algebra_generic.

(* value semantics: replacing every member of the operands by an equal element (another
   spelling of the same record) changes the result only by the same replacement *)
Theorem set_algebra_respects_equality :
  forall (A : Type) (eqb : A -> A -> bool),
    (forall x, eqb x x = true) -> (forall x y, eqb x y = eqb y x) ->
    (forall x y z, eqb x y = true -> eqb y z = true -> eqb x z = true) ->
    forall a s s' o o',
      NoDupE A eqb s -> NoDupE A eqb o ->
      Forall2 (fun x y => eqb x y = true) s s' -> Forall2 (fun x y => eqb x y = true) o o' ->
      Forall2 (fun x y => eqb x y = true) (salg_g A eqb a s o false) (salg_g A eqb a s' o' false).
Proof. exact salg_value_semantics. Qed.
Print Assumptions set_algebra_respects_equality.

(* in-place forms, including the aliased calls a.union_update(a) etc. *)
Theorem union_spec : forall s o same x, ND s -> ND o -> (same = true -> o = s) ->
  rmem x (sunion_update rd_eqb s o same) = rmem x s || rmem x o.
Proof. exact union_update_mem. Qed.
Print Assumptions union_spec.

Theorem inter_spec : forall s o same x, ND s -> ND o -> (same = true -> o = s) ->
  rmem x (sinter_update rd_eqb s o same) = rmem x s && rmem x o.
Proof. exact inter_update_mem. Qed.
Print Assumptions inter_spec.

Theorem diff_spec : forall s o same x, ND s -> ND o -> (same = true -> o = s) ->
  rmem x (sdiff_update rd_eqb s o same) = rmem x s && negb (rmem x o).
Proof. exact diff_update_mem. Qed.
Print Assumptions diff_spec.

Theorem symdiff_spec : forall s o same x, ND s -> ND o -> (same = true -> o = s) ->
  rmem x (ssym_update rd_eqb s o same) = xorb (rmem x s) (rmem x o).
Proof. exact sym_update_mem. Qed.
Print Assumptions symdiff_spec.

(* copying forms; o may be s itself *)
Theorem union_copy_spec : forall s o x, ND s -> ND o ->
  rmem x (sunion rd_eqb s o) = rmem x s || rmem x o.
Proof. exact union_mem. Qed.
Print Assumptions union_copy_spec.

Theorem inter_copy_spec : forall s o x, ND s -> ND o ->
  rmem x (sinter rd_eqb s o) = rmem x s && rmem x o.
Proof. exact inter_mem. Qed.
Print Assumptions inter_copy_spec.

Theorem diff_copy_spec : forall s o x, ND s -> ND o ->
  rmem x (sdiff rd_eqb s o) = rmem x s && negb (rmem x o).
Proof. exact diff_mem. Qed.
Print Assumptions diff_copy_spec.

Theorem symdiff_copy_spec : forall s o x, ND s -> ND o ->
  rmem x (ssym rd_eqb s o) = xorb (rmem x s) (rmem x o).
Proof. exact sym_mem. Qed.
Print Assumptions symdiff_copy_spec.

(* first-insertion order: the exact member lists (objects, not only equivalence classes) *)
Theorem order_first_insertion : forall s o, ND s -> ND o ->
  sunion_update rd_eqb s o false = s ++ filter (fun y => negb (rmem y s)) o /\
  sinter_update rd_eqb s o false = filter (fun y => rmem y o) s /\
  sdiff_update rd_eqb s o false = filter (fun y => negb (rmem y o)) s /\
  ssym_update rd_eqb s o false
    = filter (fun y => negb (rmem y o)) s ++ filter (fun y => negb (rmem y s)) o.
Proof. exact order_first_insertion_all. Qed.
Print Assumptions order_first_insertion.

Theorem aliased_inplace : forall a s,
  salg a s s true = match a with AUnion | AInter => s | ADiff | ASym => [] end.
Proof. exact set_alg_aliased. Qed.
Print Assumptions aliased_inplace.

Theorem subset_spec : forall s o,
  sissubset rd_eqb s o = true <-> (forall x, rmem x s = true -> rmem x o = true).
Proof. exact SetMachine.subset_spec. Qed.
Print Assumptions subset_spec.

Theorem superset_spec : forall s o,
  sissuperset rd_eqb s o = true <-> (forall x, rmem x o = true -> rmem x s = true).
Proof. exact SetMachine.superset_spec. Qed.
Print Assumptions superset_spec.

Theorem disjoint_spec : forall s o,
  sisdisjoint rd_eqb s o = true <-> (forall x, rmem x s = true -> rmem x o = true -> False).
Proof. exact SetMachine.disjoint_spec. Qed.
Print Assumptions disjoint_spec.

(* Set.__eq__ is equality of the member sets, whatever the insertion orders *)
Theorem eq_ignores_order : forall s o, ND s -> ND o ->
  (seq rd_eqb s o = true <-> forall x, rmem x s = rmem x o).
Proof. exact set_eq_ignores_order. Qed.
Print Assumptions eq_ignores_order.

Theorem eq_permutation : forall s s', ND s -> Permutation s s' -> seq rd_eqb s s' = true.
Proof. exact set_eq_perm. Qed.
Print Assumptions eq_permutation.

(* Set(items) and update(iterable): duplicates collapse, also inside the argument *)
Theorem init_collapses_duplicates : forall l x,
  ND (sof_list rd_eqb l) /\ rmem x (sof_list rd_eqb l) = rmem x l.
Proof. exact sof_list_spec. Qed.
Print Assumptions init_collapses_duplicates.

Theorem update_iterable_spec : forall s l x,
  ND s -> ND (supdate rd_eqb s l) /\ rmem x (supdate rd_eqb s l) = rmem x s || rmem x l.
Proof. exact supdate_spec. Qed.
Print Assumptions update_iterable_spec.

Theorem remove_spec : forall s x,
  ND s ->
  (rmem x s = false -> sremove rd_eqb x s = Lib eValueError) /\
  (rmem x s = true ->
     sremove rd_eqb x s = Ok (filter (fun k => negb (rd_eqb k x)) s) /\
     forall y, rmem y (filter (fun k => negb (rd_eqb k x)) s) = rmem y s && negb (rd_eqb y x)).
Proof. exact sremove_spec. Qed.
Print Assumptions remove_spec.

Theorem discard_spec : forall s x y,
  ND s -> rmem y (sdiscard rd_eqb x s) = rmem y s && negb (rd_eqb y x).
Proof. exact sdiscard_spec. Qed.
Print Assumptions discard_spec.

Theorem pop_spec : forall s : list rdata,
  (s = [] -> spop s = Internal iKeyError) /\
  (forall x s', spop s = Ok (x, s') -> s = s' ++ [x]) /\
  (s <> [] -> exists x s', spop s = Ok (x, s')).
Proof. exact spop_spec. Qed.
Print Assumptions pop_spec.

(* the algebra stated on the machine: for every operation history the hypotheses above hold
   by the invariant, so every in-place / copying / predicate step obeys set theory *)
Theorem set_history_inplace : forall ops w a r o s os,
  let st := sexec [] ops in
  nth_error st r = Some s -> nth_error st o = Some os -> inplace_alg w = Some a ->
  exists s', sstep st (SInpl w r (Some o)) = (set_nth st r s', N) /\
    ND s' /\ (forall x, rmem x s' = alg_bool a (rmem x s) (rmem x os)) /\
    (r <> o -> s' = alg_order rdata rd_eqb a s os).
Proof. exact set_machine_inplace. Qed.
Print Assumptions set_history_inplace.

Theorem set_history_copying : forall ops w d r o s os st',
  let st := sexec [] ops in
  nth_error st r = Some s -> nth_error st o = Some os ->
  assign st d (salg (func_alg w) s os false) = Some st' ->
  sstep st (SFunc w d r (Some o)) = (st', N) /\
  ND (salg (func_alg w) s os false) /\
  (forall x, rmem x (salg (func_alg w) s os false) = alg_bool (func_alg w) (rmem x s) (rmem x os)) /\
  salg (func_alg w) s os false = alg_order rdata rd_eqb (func_alg w) s os.
Proof. exact set_machine_copying. Qed.
Print Assumptions set_history_copying.

Theorem set_history_predicates : forall ops w r o s os,
  let st := sexec [] ops in
  nth_error st r = Some s -> nth_error st o = Some os ->
  sstep st (SPred w r (Some o)) = (st, ob (spred w s os)) /\
  (spred PEq s os = true <-> forall x, rmem x s = rmem x os) /\
  (spred PSubset s os = true <-> forall x, rmem x s = true -> rmem x os = true) /\
  (spred PSuperset s os = true <-> forall x, rmem x os = true -> rmem x s = true) /\
  (spred PDisjoint s os = true <-> forall x, rmem x s = true -> rmem x os = true -> False) /\
  spred PNe s os = negb (spred PEq s os).
Proof. exact set_machine_pred. Qed.
Print Assumptions set_history_predicates.

(* no aliasing effects in dns.set.Set: an operation changes no set but its target *)
Theorem set_frame : forall st op r,
  starget op <> Some r -> nth_error (fst (sstep st op)) r = nth_error st r.
Proof. exact sstep_frame. Qed.
Print Assumptions set_frame.

(* every reachable state, for all operation sequences over all registers and aliasings: members
   pairwise unequal, no member of another class/type/covered type, singleton types hold at most
   one record *)
Theorem rdataset_inv : forall ops r s,
  nth_error (rexec [] ops) r = Some s ->
  ND (items s) /\
  (forall x, In x (items s) -> rcls x = cls s /\ rtyp x = typ s) /\
  (is_sigtype (typ s) = true -> forall x, In x (items s) -> rcov x = cov s) /\
  (is_singleton (typ s) = true -> (length (items s) <= 1)%nat).
Proof. exact rds_machine_inv. Qed.
Print Assumptions rdataset_inv.

(* add() succeeds exactly on records of the set's class, type and covered type *)
Theorem rdataset_add_ok_iff : forall s rd ottl,
  snd (radd s rd ottl) = Ok tt <-> compat s rd /\ cov_ok s rd.
Proof. exact radd_ok_iff. Qed.
Print Assumptions rdataset_add_ok_iff.

(* wrong class or type: IncompatibleTypes and nothing changes *)
Theorem rdataset_refuses_type : forall s rd ottl,
  ~ compat s rd -> radd s rd ottl = (s, Lib eIncompatibleTypes).
Proof. exact radd_refuses_type. Qed.
Print Assumptions rdataset_refuses_type.

(* wrong covered type: DifferingCovers; only the TTL has been minimised (as in the code) *)
Theorem rdataset_refuses_covers : forall s rd ottl,
  compat s rd -> ~ cov_ok s rd ->
  radd s rd ottl = (match ottl with Some t => update_ttl s t | None => s end, Lib eDifferingCovers).
Proof. exact radd_refuses_covers. Qed.
Print Assumptions rdataset_refuses_covers.

Theorem rdataset_refuses : forall s rd ottl,
  snd (radd s rd ottl) <> Ok tt ->
  items (fst (radd s rd ottl)) = items s /\ cls (fst (radd s rd ottl)) = cls s /\
  typ (fst (radd s rd ottl)) = typ s /\ cov (fst (radd s rd ottl)) = cov s.
Proof. exact radd_failure_keeps_members. Qed.
Print Assumptions rdataset_refuses.

(* a non-empty rdataset of another class/type cannot be merged in *)
Theorem rdataset_union_refuses : forall self other,
  wf other -> items other <> [] -> (cls other <> cls self \/ typ other <> typ self) ->
  r_union_update self other false = (update_ttl self (ttl other), Lib eIncompatibleTypes).
Proof. exact r_union_update_refuses. Qed.
Print Assumptions rdataset_union_refuses.

Theorem singleton_keeps_newest : forall s rd ottl,
  is_singleton (typ s) = true -> compat s rd -> cov_ok s rd ->
  exists s', radd s rd ottl = (s', Ok tt) /\ items s' = [rd] /\ ttl s' = merged_ttl s ottl.
Proof. exact singleton_newest. Qed.
Print Assumptions singleton_keeps_newest.

Theorem singleton_union_keeps_newest : forall self other y,
  wf other -> mergeable self other -> is_singleton (typ self) = true -> items other = [y] ->
  exists s', r_union_update self other false = (s', Ok tt) /\ items s' = [y] /\
    ttl s' = (if isempty self then ttl other else Z.min (ttl self) (ttl other)).
Proof. exact r_union_update_singleton. Qed.
Print Assumptions singleton_union_keeps_newest.

Theorem rdataset_add : forall s rd ottl,
  is_singleton (typ s) = false -> compat s rd -> cov_ok s rd ->
  exists s', radd s rd ottl = (s', Ok tt) /\ items s' = sadd rd_eqb rd (items s) /\
             ttl s' = merged_ttl s ottl.
Proof. exact add_nonsingleton. Qed.
Print Assumptions rdataset_add.

(* the four in-place algorithms through the Rdataset overrides (Set.union_update calls
   Rdataset.add, TTL minimisation first): set theory on the members, first-insertion order *)
Theorem rdataset_algebra : forall a self other,
  wf self -> wf other -> mergeable self other -> is_singleton (typ self) = false ->
  exists s', ralg a self other false = (s', Ok tt) /\
    (forall x, rmem x (items s') = alg_bool a (rmem x (items self)) (rmem x (items other))) /\
    items s' = alg_order rdata rd_eqb a (items self) (items other).
Proof. exact ralg_mem. Qed.
Print Assumptions rdataset_algebra.

Theorem rdataset_algebra_ttl : forall a self other,
  wf other -> mergeable self other -> is_singleton (typ self) = false ->
  exists s', ralg a self other false = (s', Ok tt) /\
    items s' = salg a (items self) (items other) false /\
    ttl s' = (match a with
              | ADiff => ttl self
              | _ => if isempty self then ttl other else Z.min (ttl self) (ttl other)
              end) /\
    kd s' = kd self /\ cls s' = cls self /\ typ s' = typ self.
Proof. exact ralg_ok. Qed.
Print Assumptions rdataset_algebra_ttl.

Theorem rdataset_algebra_aliased : forall a self,
  ralg a self self true = (with_items self (salg a (items self) (items self) true), Ok tt).
Proof. exact ralg_aliased. Qed.
Print Assumptions rdataset_algebra_aliased.

Theorem rdataset_copying_forms : forall w self other,
  wf other -> mergeable self other -> is_singleton (typ self) = false ->
  exists x, r_func w self other = Ok x /\
    items x = salg (func_alg w) (items self) (items other) false /\
    kd x = kd self /\
    ttl x = (match func_alg w with
             | ADiff => ttl self
             | _ => if isempty self then ttl other else Z.min (ttl self) (ttl other)
             end).
Proof. exact r_func_ok. Qed.
Print Assumptions rdataset_copying_forms.

Theorem rdataset_history_inplace : forall ops w a r o s os,
  let st := rexec [] ops in
  nth_error st r = Some s -> nth_error st o = Some os -> r <> o ->
  kd s <> KImm -> inplace_alg w = Some a ->
  mergeable s os -> is_singleton (typ s) = false ->
  exists s', rstep st (RInpl w r o) = (set_nth st r s', N) /\
    (forall x, rmem x (items s') = alg_bool a (rmem x (items s)) (rmem x (items os))) /\
    items s' = alg_order rdata rd_eqb a (items s) (items os) /\
    ttl s' = (match a with
              | ADiff => ttl s
              | _ => if isempty s then ttl os else Z.min (ttl s) (ttl os)
              end).
Proof. exact rds_machine_inplace. Qed.
Print Assumptions rdataset_history_inplace.

(* the TTL of every rdataset, after any operation sequence, is the minimum of the non-empty
   list of TTL literals merged into it (directly or through other sets) since it was last
   empty; the list is the ghost history computed by gstep *)
Theorem ttl_is_min : forall ops r s,
  nth_error (rexec [] ops) r = Some s ->
  exists hs, hs = hget (snd (rexec_g [] [] ops)) r /\ hs <> [] /\ ttl s = hmin hs /\
             forall t, In t hs -> In t (flat_map op_literals ops).
Proof. exact ttl_is_min_of_merged. Qed.
Print Assumptions ttl_is_min.

Theorem ttl_ghost_is_erasable : forall ops st h, fst (rexec_g st h ops) = rexec st ops.
Proof. exact rexec_g_fst. Qed.
Print Assumptions ttl_ghost_is_erasable.

(* no aliasing effects: a set that is not the target of an operation is not changed by it *)
Theorem rdataset_frame : forall st op r,
  rtarget op <> Some r -> nth_error (fst (rstep st op)) r = nth_error st r.
Proof. exact rstep_frame. Qed.
Print Assumptions rdataset_frame.

(* an ImmutableRdataset is never modified by any method *)
Theorem immutable_rdataset_unchanged : forall st op r s,
  nth_error st r = Some s -> kd s = KImm -> rrebind op <> Some r ->
  nth_error (fst (rstep st op)) r = Some s.
Proof. exact imm_unchanged. Qed.
Print Assumptions immutable_rdataset_unchanged.

(* rdataset equality: class, type, covered type and the member *set* (orders and TTLs are not
   compared); two RRsets also need equal owner names *)
Theorem rdataset_eq_spec : forall a b,
  wf a -> wf b ->
  (r_eq a b = true <->
   cls a = cls b /\ typ a = typ b /\ cov a = cov b /\
   (kd a = KRR -> kd b = KRR -> name_eqb (oname a) (oname b) = true) /\
   (forall x, rmem x (items a) = rmem x (items b))).
Proof. exact r_eq_spec. Qed.
Print Assumptions rdataset_eq_spec.

(* == on rdatasets is reflexive and symmetric; it is transitive except through a plain Rdataset
   between two RRsets (RRset.__eq__ ignores the owner name against a plain Rdataset, see
   ex_eq_not_transitive_across_kinds) *)
Theorem rdataset_eq_refl : forall a, wf a -> r_eq a a = true.
Proof. exact r_eq_refl. Qed.
Print Assumptions rdataset_eq_refl.

Theorem rdataset_eq_sym : forall a b, wf a -> wf b -> r_eq a b = r_eq b a.
Proof. exact r_eq_sym. Qed.
Print Assumptions rdataset_eq_sym.

Theorem rdataset_eq_trans : forall a b c,
  wf a -> wf b -> wf c -> kd b = KRR \/ (kd a <> KRR \/ kd c <> KRR) ->
  r_eq a b = true -> r_eq b c = true -> r_eq a c = true.
Proof. exact r_eq_trans. Qed.
Print Assumptions rdataset_eq_trans.

Theorem immutable_mutators_raise : forall st op r s,
  nth_error st r = Some s -> kd s = KImm -> op_self op = Some r -> imm_blocked op = true ->
  match op with RInpl _ _ o => nth_error st o <> None | _ => True end ->
  rstep st op = (st, E eTypeError).
Proof. exact imm_mutators_raise. Qed.
Print Assumptions immutable_mutators_raise.

Theorem rdataset_match_spec : forall s c t v,
  r_match s c t v = true <-> cls s = c /\ typ s = t /\ cov s = v.
Proof. exact r_match_spec. Qed.
Print Assumptions rdataset_match_spec.

(* RRset.full_match / match(name, ...): all five identifying attributes, the owner name
   case-insensitively, the deleting class exactly *)
Theorem rrset_full_match_spec : forall s n c t v d,
  r_full_match s n c t v d = true <->
  cls s = c /\ typ s = t /\ cov s = v /\ map lower_l (oname s) = map lower_l n /\ deleting s = d.
Proof. exact r_full_match_spec. Qed.
Print Assumptions rrset_full_match_spec.

(* Rdataset.processing_order: whatever random.shuffle does (any function that rearranges its
   argument), the result is a rearrangement of the members, and for the prioritised types
   (MX, KX, RT, AFSDB, PX, NAPTR, SVCB, HTTPS) it is in non-decreasing priority order *)
Theorem processing_order_is_rearrangement :
  forall (A : Type) (shuffle : list A -> list A) (prio : A -> Z),
    (forall l, Permutation l (shuffle l)) ->
    forall by_priority items, Permutation items (processing_order A shuffle prio by_priority items).
Proof. exact processing_order_perm. Qed.
Print Assumptions processing_order_is_rearrangement.

Theorem processing_order_by_priority :
  forall (A : Type) (shuffle : list A -> list A) (prio : A -> Z),
    (forall l, Permutation l (shuffle l)) ->
    forall items, StronglySorted (le_prio A prio) (processing_order A shuffle prio true items).
Proof. exact processing_order_sorted. Qed.
Print Assumptions processing_order_by_priority.

(* weighted_processing_order (SRV, URI): whatever random.uniform returns, a rearrangement in
   non-decreasing priority order *)
Theorem weighted_order_is_rearrangement :
  forall (A : Type) (uniform : Z -> Z) (prio weight : A -> Z) items,
    Permutation items (weighted_order A uniform prio weight items).
Proof. exact weighted_order_perm. Qed.
Print Assumptions weighted_order_is_rearrangement.

Theorem weighted_order_by_priority :
  forall (A : Type) (uniform : Z -> Z) (prio weight : A -> Z) items,
    StronglySorted (le_prio A prio) (weighted_order A uniform prio weight items).
Proof. exact weighted_order_sorted. Qed.
Print Assumptions weighted_order_by_priority.

Theorem init_restores_context : forall a g, gctx (fst (gact g a)) = gctx g.
Proof. exact gact_ctx. Qed.
Print Assumptions init_restores_context.

Theorem setattr_after_init_raises : forall l o k v,
  let g := grun (mkG None [] []) l in
  gact g (ASet o k v) = (mkG None (gstore g) (glog g ++ [E eTypeError]), false) /\
  gact g (ADel o k) = (mkG None (gstore g) (glog g ++ [E eTypeError]), false).
Proof. exact setattr_after_init_raises_all. Qed.
Print Assumptions setattr_after_init_raises.

Theorem setattr_in_foreign_init_raises : forall g o o' k v,
  gctx g = Some o' -> o' <> o ->
  gact g (ASet o k v) = (mkG (gctx g) (gstore g) (glog g ++ [E eTypeError]), false).
Proof. exact setattr_inside_other_init. Qed.
Print Assumptions setattr_in_foreign_init_raises.

Theorem constify_immutable : forall v, pre v = true -> imm (constify v) = true.
Proof. exact constify_imm. Qed.
Print Assumptions constify_immutable.

Theorem constify_keeps_immutable : forall v, imm v = true -> constify v = v.
Proof. exact constify_id. Qed.
Print Assumptions constify_keeps_immutable.

(* the field normalisers: whatever the caller passes (bytearray, list of bytearrays, str), the
   stored field is bytes resp. a tuple of bytes *)
Theorem as_bytes_immutable : forall enc ml eok v r,
  as_bytes enc ml eok v = Ok r -> exists b, r = VBytes b.
Proof. exact as_bytes_imm. Qed.
Print Assumptions as_bytes_immutable.

Theorem as_tuple_immutable : forall enc ml eok v r,
  as_tuple (as_bytes enc ml eok) v = Ok r -> imm r = true.
Proof. exact as_tuple_bytes_imm. Qed.
Print Assumptions as_tuple_immutable.

(* copy / deepcopy / pickle: cls.__new__(cls).__setstate__(self.__getstate__()) is an object with
   exactly the fields of the original - slots and, for classes without __slots__, the instance
   dictionary (the state the fix 7fab959 added) - hence an equal record *)
Theorem getstate_returns_every_field : forall cs o,
  wf_obj cs o -> getstate cs o = Ok (oslots o ++ odict o).
Proof. exact getstate_all_fields. Qed.
Print Assumptions getstate_returns_every_field.

Theorem copy_is_the_same_record : forall cs hd o state,
  wf_obj cs o -> In rdcomment_id cs -> (odict o = [] \/ hd = true) ->
  getstate cs o = Ok state -> setstate cs hd state = Ok o.
Proof. exact copy_has_the_same_fields. Qed.
Print Assumptions copy_is_the_same_record.

(* replace(): class and type cannot be replaced, unknown fields are refused, and the new record
   is built by the class constructor from the kept and the replaced fields *)
Theorem replace_cannot_change_class_or_type : forall params ctor cs hd o kwargs k v,
  In (k, v) kwargs -> (k = 0 \/ k = 1) ->
  replace params ctor cs hd o kwargs = Internal iAttributeError.
Proof. exact replace_refuses_class_and_type. Qed.
Print Assumptions replace_cannot_change_class_or_type.

Theorem replace_refuses_unknown : forall params ctor cs hd o kwargs k v,
  In (k, v) kwargs -> k <> rdcomment_id -> ~ In k params ->
  replace params ctor cs hd o kwargs = Internal iAttributeError.
Proof. exact replace_refuses_unknown_field. Qed.
Print Assumptions replace_refuses_unknown.

Theorem replace_without_arguments : forall params ctor cs hd o,
  ogetattr o rdcomment_id = Some VNone ->
  replace params ctor cs hd o [] =
  (do args <- map_res (fun k => match ogetattr o k with Some v => Ok v | None => Internal iAttributeError end) params;
   ctor args).
Proof. exact replace_nothing. Qed.
Print Assumptions replace_without_arguments.

(* finding: without the hypothesis `pre` the statement is false - objects unknown to constify
   (dns.edns.Option inside an OPT record) stay mutable *)
Theorem constify_immutable_refuted : exists v, hashable v = true /\ imm (constify v) = false.
Proof. exact constify_opaque_refuted. Qed.
Print Assumptions constify_immutable_refuted.

(* two NS records that differ in the case of the target: distinct objects, equal, same hash *)
Definition ex_a := mkRd 0 1 2 0 [1; 97; 0] false.
Definition ex_A := mkRd 1 1 2 0 [1; 97; 0] false.
Definition ex_b := mkRd 2 1 2 0 [1; 98; 0] false.
Definition ex_rel := mkRd 3 1 2 0 [1; 97; 0] true.

Example ex_equal_distinct : rd_eqb ex_a ex_A = true /\ ex_a <> ex_A /\ rd_eqb ex_a ex_rel = false.
Proof. repeat split; discriminate. Qed.

Example ex_nd : ND [ex_a; ex_b] /\ ND [ex_b; ex_rel].
Proof. split; repeat constructor. Qed.

Example ex_union_keeps_first :
  sunion rd_eqb [ex_a; ex_b] [ex_rel; ex_A] = [ex_a; ex_b; ex_rel] /\
  ssym rd_eqb [ex_a; ex_b] [ex_rel; ex_A] = [ex_b; ex_rel] /\
  seq rd_eqb [ex_a; ex_b] [ex_b; ex_A] = true.
Proof. repeat split. Qed.

Example ex_machine :
  sexec [] [SNew 0 [ex_a; ex_A; ex_b]; SNew 1 [ex_b]; SInpl IDiff 0 (Some 1%nat); SInpl ISym 1 (Some 1%nat)]
  = [[ex_a]; []].
Proof. reflexivity. Qed.

Example ex_order : rd_cmp ex_rel ex_a = -1 /\ rd_cmp ex_a ex_b = -1 /\ lex_lt [1; 97; 0] [1; 98; 0].
Proof. repeat split. apply lex_tail, lex_head. lia. Qed.

(* Rdataset examples: hypotheses of the Rdataset theorems are satisfiable *)
Definition ex_ns := mkRds KRds 1 2 0 300 [ex_a] [] None.
Definition ex_ns2 := mkRds KRds 1 2 0 60 [ex_A; ex_b] [] None.
Definition ex_cname := mkRds KRds 1 5 0 300 [mkRd 7 1 5 0 [1; 97; 0] false] [] None.
Definition ex_sig := mkRds KRds 1 46 1 300 [] [] None.

Example ex_wf : wf ex_ns /\ wf ex_ns2 /\ wf ex_cname /\ mergeable ex_ns ex_ns2.
Proof.
  split; [apply wfb_wf; reflexivity|]. split; [apply wfb_wf; reflexivity|].
  split; [apply wfb_wf; reflexivity|]. split; [reflexivity|]. split; [reflexivity|].
  cbn. intros H. discriminate H.
Qed.

Example ex_union_ttl :
  r_union_update ex_ns ex_ns2 false = (mkRds KRds 1 2 0 60 [ex_a; ex_b] [] None, Ok tt).
Proof. reflexivity. Qed.

Example ex_refuse :
  ~ compat ex_ns (mkRd 9 1 1 0 [1; 2; 3; 4] false) /\
  (compat ex_sig (mkRd 9 1 46 2 [0; 2] false) /\ ~ cov_ok ex_sig (mkRd 9 1 46 2 [0; 2] false)) /\
  (compat ex_cname (mkRd 8 1 5 0 [1; 98; 0] false) /\ cov_ok ex_cname (mkRd 8 1 5 0 [1; 98; 0] false)).
Proof.
  split; [intros [H1 H2]; cbn in H2; discriminate H2|].
  split.
  - split; [split; reflexivity|]. unfold cov_ok. cbn. intros [H|[[_ H]|H]]; discriminate H.
  - split; [split; reflexivity|]. left. reflexivity.
Qed.

Example ex_ttl_machine :
  let ops := [RNew 0 1 2 0 0; RAdd 0 ex_a (Some 300); RNew 1 1 2 0 0; RAdd 1 ex_b (Some 60);
              RInpl IUnion 0 1; RClear 0; RAdd 0 ex_b (Some 900)] in
  map ttl (rexec [] ops) = [900; 60] /\ snd (rexec_g [] [] ops) = [[900]; [60]].
Proof. split; reflexivity. Qed.

Example ex_guard :
  glog (grun (mkG None [] []) [AInit 0 [ASet 0 1 5; AInit 1 [ASet 0 2 6; ARaise]; ASet 0 3 7]; ASet 0 1 9])
  = [N; E eTypeError; E 999; E eTypeError].
Proof. reflexivity. Qed.

Example ex_constify :
  pre (VList [VByteArray [1]; VTuple [VList []]; VDict [(VInt 1, VList [VNone])]]) = true /\
  constify (VList [VByteArray [1]; VTuple [VList []]; VDict [(VInt 1, VList [VNone])]])
  = VTuple [VBytes [1]; VTuple [VTuple []]; VFrozen [(VInt 1, VTuple [VNone])]].
Proof. split; reflexivity. Qed.

Example ex_as_bytes :
  as_bytes true (Some 255) true (VByteArray [1; 2]) = Ok (VBytes [1; 2]) /\
  as_tuple (as_bytes true (Some 255) true) (VList [VByteArray [1]; VStr [97]]) = Ok (VTuple [VBytes [1]; VBytes [97]]) /\
  as_tuple (as_bytes false None true) (VInt 3) = Internal eTypeError.
Proof. repeat split. Qed.

(* hypotheses of the value-semantics theorem, of the history theorems and of the
   immutable-mutators theorem are satisfiable *)
Example ex_forall2 :
  Forall2 (fun x y => rd_eqb x y = true) [ex_a; ex_b] [ex_A; ex_b] /\
  Forall2 (fun x y => rd_eqb x y = true) (sunion rd_eqb [ex_a; ex_b] [ex_rel]) (sunion rd_eqb [ex_A; ex_b] [ex_rel]).
Proof. split; repeat constructor. Qed.

Example ex_history :
  let ops := [RNew 0 1 2 0 0; RAdd 0 ex_a (Some 300); RNew 1 1 2 0 0; RAdd 1 ex_A (Some 60); RAdd 1 ex_b None] in
  exists s os, nth_error (rexec [] ops) 0 = Some s /\ nth_error (rexec [] ops) 1 = Some os /\
    kd s <> KImm /\ mergeable s os /\ is_singleton (typ s) = false /\
    fst (rstep (rexec [] ops) (RInpl IXor 0 1)) = [mkRds KRds 1 2 0 60 [ex_b] [] None; os].
Proof.
  cbv zeta. eexists. eexists. split; [reflexivity|]. split; [reflexivity|].
  split; [discriminate|]. split; [|split; reflexivity].
  split; [reflexivity|]. split; [reflexivity|]. cbn. intros H. discriminate H.
Qed.

Example ex_immutable_blocked :
  let st := [mkRds KImm 1 2 0 300 [ex_a] [] None; ex_ns2] in
  rstep st (RInpl IOr 0 1) = (st, E eTypeError) /\ rstep st (RAdd 0 ex_b (Some 1)) = (st, E eTypeError) /\
  rstep st (RInpl ISub 0 0) = (st, E eTypeError) /\
  fst (rstep st (RFunc FOr 2 0 1)) = st ++ [mkRds KImm 1 2 0 60 [ex_a; ex_b] [] None].
Proof. repeat split. Qed.

(* an OPENPGPKEY-like object: no slot of its own, the key in the instance dictionary *)
Example ex_copy :
  let cs := [0; 1; 2] in
  let o := mkObj [(0, VInt 1); (1, VInt 61); (2, VNone)] [(3, VBytes [1; 2; 3])] in
  wf_obj cs o /\ getstate cs o = Ok [(0, VInt 1); (1, VInt 61); (2, VNone); (3, VBytes [1; 2; 3])] /\
  setstate cs true [(0, VInt 1); (1, VInt 61); (2, VNone); (3, VBytes [1; 2; 3])] = Ok o /\
  setstate cs true [(0, VInt 1); (1, VInt 61); (2, VNone)] <> Ok o.
Proof.
  cbv zeta. split; [|split; [reflexivity|split; [reflexivity|discriminate]]].
  repeat split; cbn; repeat constructor; cbn; try tauto; try lia;
    try (intros [H|[H|[H|[]]]]; discriminate); try (intros [H|[H|[]]]; discriminate);
    try (intros [H|[]]; discriminate); try (intros k [<-|[]] [H|[H|[H|[]]]]; discriminate).
Qed.

Example ex_processing_order :
  (forall l : list (Z * Z), Permutation l (rev l)) /\
  processing_order (Z * Z) (@rev _) fst true [(10, 1); (5, 2); (10, 3); (0, 4)] = [(0, 4); (5, 2); (10, 3); (10, 1)].
Proof. split; [apply Permutation_rev|reflexivity]. Qed.

Example ex_eq_not_transitive_across_kinds :
  let rr1 := mkRds KRR 1 2 0 0 [ex_a] [[120]; []] None in
  let rr2 := mkRds KRR 1 2 0 0 [ex_a] [[121]; []] None in
  let plain := mkRds KRds 1 2 0 9 [ex_A] [] None in
  r_eq rr1 plain = true /\ r_eq plain rr2 = true /\ r_eq rr1 rr2 = false.
Proof. repeat split. Qed.
