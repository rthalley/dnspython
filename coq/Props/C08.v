(* C08 - rendered messages respect the size limit; truncation and padding are exact.
   Model: Model/MessageM.v (to_wire = Message.to_wire with Renderer).  Proofs: Proofs/MessageSize.v *)
From DV Require Import Base.Prelude Model.NameM Model.MessageM.
From DV Require Import Proofs.MessageRender Proofs.MessageSize Proofs.MessagePad Proofs.MessageTrunc.
From DV Require Import Proofs.MessageRead Proofs.MessageRoundtrip Proofs.MessageRoundtrip2 Proofs.MessageRoundtrip3 Proofs.MessageTruncParse Proofs.MessageUpdate Proofs.MessageLimit Proofs.MessageApi.
From DV Require Import Proofs.NameCompress.
Open Scope Z_scope.

(* a rendered message never exceeds its effective limit (512 <= limit <= 65535 after the clamp) *)
Theorem size_bound : forall m origin max_size request_payload prefer_truncation pad w,
  to_wire m origin max_size request_payload prefer_truncation pad = Ok w ->
  zlen w <= eff_limit max_size request_payload /\ 512 <= eff_limit max_size request_payload <= 65535.
Proof. exact size_bound_stmt. Qed.
Print Assumptions size_bound.

(* a record set that does not fit is removed whole (output, table, counts exactly as before, no
   table offset at or beyond the cut); one that fits is present whole with all its records counted *)
Theorem rollback_whole_rrset : forall origin sec rs r b r',
  0 <= sec <= 3 -> TblBelow r -> add_rrset origin sec rs r = Ok (b, r') ->
  exists em new,
    rrset_em rs origin true (zlen (out r)) (tbl r) = Ok (em, tbl r ++ new) /\
    if b then
      zlen (out r) + zlen em > maxsz r /\
      out r' = out r /\ tbl r' = tbl r /\ TblBelow r' /\
      (cq r', can r', cau r', cad r') = (cq r, can r, cau r, cad r)
    else
      zlen (out r') <= maxsz r' /\
      out r' = out r ++ em /\ tbl r' = tbl r ++ new /\ TblBelow r' /\
      cq r' + can r' + cau r' + cad r' = cq r + can r + cau r + cad r + rrset_count rs.
Proof. exact rollback_whole_rrset_lemma. Qed.
Print Assumptions rollback_whole_rrset.

(* at the end of Message.to_wire no compression-table offset points at or beyond the end *)
Theorem no_offset_beyond_end : forall m origin max_size request_payload prefer_truncation pad r,
  to_wire_st m origin max_size request_payload prefer_truncation pad = Ok r ->
  Forall (fun kv => snd kv < zlen (out r)) (tbl r).
Proof. exact table_inside_lemma. Qed.
Print Assumptions no_offset_beyond_end.

(* prefer_truncation (any message, origin, limit, padding, TSIG): the result is, octet for octet,
   the complete rendering of the message cut to a prefix of its record sets in section order
   (questions, then answers, ...: once a section is cut every later section is empty), whose TC
   flag is set exactly when the cut lies before the additional section, and which still carries
   the configured OPT and TSIG records (cut_msg keeps mopt and mtsig) *)
Theorem trunc_prefix : forall m origin max_size request_payload pad w,
  to_wire m origin max_size request_payload true pad = Ok w ->
  exists q1 q2 a1 a2 u1 u2 d1 d2,
    mq m = q1 ++ q2 /\ man m = a1 ++ a2 /\ mau m = u1 ++ u2 /\ mad m = d1 ++ d2 /\
    (q2 <> [] -> a1 = [] /\ u1 = [] /\ d1 = []) /\ (a2 <> [] -> u1 = [] /\ d1 = []) /\ (u2 <> [] -> d1 = []) /\
    to_wire (cut_msg m (if cut_before q2 a2 u2 then Z.lor (mflags m) fTC else mflags m) q1 a1 u1 d1)
            origin max_size request_payload false pad = Ok w.
Proof. exact trunc_prefix_lemma. Qed.
Print Assumptions trunc_prefix.

(* ... and it parses back to exactly that prefix message: same id, flags with TC as stated, TSIG record,
   per section the kept record sets, and the OPT record (with the padding option appended when a block
   size is given) - for every padding block size, with or without origin.
   Hypotheses (the ones of C03 render_parse): WfMsg o m - any opcode but UPDATE (updates: next theorem),
   names absolute-and-not-below-the-origin or relative, TTL <= 2^31-1, distinct record-set keys and distinct
   RDATA per set, and every record set of a type/class for which MessageM.schema_of gives the reader's field
   list: A AAAA SRV KX PX DHCID NSAP NSAP-PTR WKS NAPTR (class IN); A (class CH); NS CNAME SOA PTR MX TXT RRSIG SIG SPF NINFO AVC RESINFO WALLET AFSDB RT
   RP SSHFP TLSA SMIMEA CERT DNSKEY CDNSKEY OPENPGPKEY EUI48 EUI64 L32 L64 NID HINFO X25 NSEC3PARAM URI KEY DS DLV
   CDS ZONEMD CAA CSYNC NSEC3 DNAME NSEC BRID HHIT LP TKEY (any class; the last six with their constructors' content checks, MessageM.chk); and
   every type without a codec in dns/rdtypes (generic form).  Types with a codec outside that list
   (AMTRELAY DSYNC GPOS HIP ISDN LOC; APL HTTPS SVCB IPSECKEY in class IN) are outside
   the theorem; they are exercised by the
   oracle of the limit sweep only. *)
Theorem trunc_parses : forall o pad m max_size request_payload w,
  org_ok o -> WfMsg o m -> wf_tsig m -> to_wire m o max_size request_payload true pad = Ok w ->
  exists q1 q2 a1 a2 u1 u2 d1 d2 m',
    mq m = q1 ++ q2 /\ man m = a1 ++ a2 /\ mau m = u1 ++ u2 /\ mad m = d1 ++ d2 /\
    (q2 <> [] -> a1 = [] /\ u1 = [] /\ d1 = []) /\ (a2 <> [] -> u1 = [] /\ d1 = []) /\ (u2 <> [] -> d1 = []) /\
    from_wire w o po0 = Ok m' /\
    msg_equiv_p pad m' (cut_msg m (if cut_before q2 a2 u2 then Z.lor (mflags m) fTC else mflags m) q1 a1 u1 d1).
Proof. exact trunc_parses_pad_lemma. Qed.
Print Assumptions trunc_parses.

(* the same for dynamic updates (WfUpd: zone section, all prerequisite / delete / add forms): when the zone
   section is kept (q2 = []; it is cut only if the reserved OPT/TSIG octets leave no room for it) the result
   parses back to the update cut to a prefix of its record sets *)
Theorem trunc_parses_update : forall o pad m z max_size request_payload w,
  org_ok o -> WfUpd o m z -> wf_tsig m -> to_wire m o max_size request_payload true pad = Ok w ->
  exists q1 q2 a1 a2 u1 u2 d1 d2,
    mq m = q1 ++ q2 /\ man m = a1 ++ a2 /\ mau m = u1 ++ u2 /\ mad m = d1 ++ d2 /\
    (q2 <> [] -> a1 = [] /\ u1 = [] /\ d1 = []) /\ (a2 <> [] -> u1 = [] /\ d1 = []) /\ (u2 <> [] -> d1 = []) /\
    (q2 = [] ->
     exists m', from_wire w o po0 = Ok m' /\
       msg_equiv_p pad m' (cut_msg m (if cut_before q2 a2 u2 then Z.lor (mflags m) fTC else mflags m) q1 a1 u1 d1)).
Proof. exact trunc_parses_update_lemma. Qed.
Print Assumptions trunc_parses_update.

(* truncation is maximal ("a record set that does not fit is removed": one that was removed did not fit): in the
   very split of trunc_prefix, the prefix extended by the first record set that was left out cannot be rendered at
   the same limit - without prefer_truncation it raises TooBig (any message, TSIG, padding) *)
Theorem trunc_maximal : forall m o max_size request_payload pad w,
  to_wire m o max_size request_payload true pad = Ok w ->
  exists q1 q2 a1 a2 u1 u2 d1 d2,
    mq m = q1 ++ q2 /\ man m = a1 ++ a2 /\ mau m = u1 ++ u2 /\ mad m = d1 ++ d2 /\
    (q2 <> [] -> a1 = [] /\ u1 = [] /\ d1 = []) /\ (a2 <> [] -> u1 = [] /\ d1 = []) /\ (u2 <> [] -> d1 = []) /\
    to_wire (cut_msg m (if cut_before q2 a2 u2 then Z.lor (mflags m) fTC else mflags m) q1 a1 u1 d1)
            o max_size request_payload false pad = Ok w /\
    (forall rs l3, q2 = rs :: l3 ->
       to_wire (cut_msg m (mflags m) (q1 ++ [rs]) [] [] []) o max_size request_payload false pad = Lib eTooBig) /\
    (forall rs l3, q2 = [] -> a2 = rs :: l3 ->
       to_wire (cut_msg m (mflags m) q1 (a1 ++ [rs]) [] []) o max_size request_payload false pad = Lib eTooBig) /\
    (forall rs l3, q2 = [] -> a2 = [] -> u2 = rs :: l3 ->
       to_wire (cut_msg m (mflags m) q1 a1 (u1 ++ [rs]) []) o max_size request_payload false pad = Lib eTooBig) /\
    (forall rs l3, q2 = [] -> a2 = [] -> u2 = [] -> d2 = rs :: l3 ->
       to_wire (cut_msg m (mflags m) q1 a1 u1 (d1 ++ [rs])) o max_size request_payload false pad = Lib eTooBig).
Proof. exact trunc_prefix_maximal_lemma. Qed.
Print Assumptions trunc_maximal.

(* max_size = 0 means the request payload, else 65535; limits are clamped to 512..65535; nothing else
   (in particular not the payload advertised by the message's own OPT record) enters the limit *)
Theorem limit_defaulting : forall m o max_size request_payload prefer_truncation pad,
  to_wire m o max_size request_payload prefer_truncation pad =
  to_wire m o (clamp (if max_size =? 0 then (if request_payload =? 0 then 65535 else request_payload) else max_size))
          0 prefer_truncation pad.
Proof. exact limit_defaulting_lemma. Qed.
Print Assumptions limit_defaulting.

(* without prefer_truncation: a rendering that succeeds at one limit is the rendering at every larger limit
   (any message, TSIG, padding) *)
Theorem limit_monotone : forall m o max_size request_payload max_size' request_payload' pad w,
  to_wire m o max_size request_payload false pad = Ok w ->
  eff_limit max_size request_payload <= eff_limit max_size' request_payload' ->
  to_wire m o max_size' request_payload' false pad = Ok w.
Proof. exact limit_monotone_lemma. Qed.
Print Assumptions limit_monotone.

(* ... and TooBig is raised exactly when the full rendering exceeds the effective limit: with neither a
   TSIG record nor padding (then the reserve is exactly the OPT record) the result at any other limit is the
   same octets if they fit and TooBig otherwise *)
Theorem toobig_exact : forall m o max_size request_payload max_size' request_payload' w,
  mtsig m = None -> to_wire m o max_size request_payload false 0 = Ok w ->
  compute_opt_reserve m 0 + 12 <= eff_limit max_size' request_payload' ->
  to_wire m o max_size' request_payload' false 0 =
  if zlen w <=? eff_limit max_size' request_payload' then Ok w else Lib eTooBig.
Proof. exact toobig_exact_lemma. Qed.
Print Assumptions toobig_exact.

(* when padding is requested (and the message has an OPT record to carry it) the final length,
   TSIG included, is a multiple of the block size - for every message, origin, limit and key name
   (the repaired code writes the TSIG owner uncompressed after padding; commit d2163b7) *)
Theorem pad_multiple : forall m origin max_size request_payload prefer_truncation pad o w,
  0 < pad -> mopt m = Some o ->
  to_wire m origin max_size request_payload prefer_truncation pad = Ok w -> zlen w mod pad = 0.
Proof. exact pad_multiple_lemma. Qed.
Print Assumptions pad_multiple.

(* with prefer_truncation (and no padding) TooBig is never raised: record sets that do not fit are left out, and
   the reserved OPT and TSIG records always fit - the OPT reserve is exact and the TSIG record, written with
   compression, is at most its reserved (uncompressed) size, a pointer only ever replacing a suffix of two or
   more labels.  (The reserves themselves must leave room for the header: otherwise Renderer.reserve raises
   ValueError, known finding C08-reserve-valueerror.) *)
Theorem trunc_no_toobig : forall m o max_size request_payload tr,
  compute_tsig_reserve m = Ok tr ->
  compute_opt_reserve m 0 + tr + 12 <= eff_limit max_size request_payload ->
  to_wire m o max_size request_payload true 0 <> Lib eTooBig.
Proof. exact trunc_no_toobig_lemma. Qed.
Print Assumptions trunc_no_toobig.

(* known finding C08-reserve-valueerror, as a theorem: "rendering either raises TooBig or (prefer_truncation)
   returns a truncated message" does NOT hold when the reserved OPT/TSIG octets alone exceed the limit -
   Renderer.reserve raises ValueError (pinned by tests/test_renderer.py); the same message renders at 65535 *)
Theorem toobig_or_truncated_refuted :
  exists m, to_wire m None 512 0 true 0 = Internal iValueError /\ to_wire m None 512 0 false 0 = Internal iValueError /\
            exists w, to_wire m None 65535 0 false 0 = Ok w.
Proof. exact toobig_or_truncated_refuted_lemma. Qed.
Print Assumptions toobig_or_truncated_refuted.

(* ... and the whole class of such inputs (known finding C08-reserve-valueerror): whenever the OPT reserve exceeds
   the effective limit, or the TSIG reserve exceeds what the OPT reserve left of it, to_wire raises the
   ValueError of Renderer.reserve, with and without prefer_truncation, for every origin and padding *)
Theorem reserve_overflow_valueerror_refuted : forall m o max_size request_payload prefer pad,
  (eff_limit max_size request_payload < compute_opt_reserve m pad \/
   exists t, compute_tsig_reserve m = Ok t /\ eff_limit max_size request_payload - compute_opt_reserve m pad < t) ->
  to_wire m o max_size request_payload prefer pad = Internal iValueError.
Proof. exact reserve_valueerror_lemma. Qed.
Print Assumptions reserve_overflow_valueerror_refuted.

(* a Renderer created with max_size, after ANY sequence of add_question / add_rrset / reserve /
   release_reserved / add_opt (any padding arguments) / write_header / _write_tsig calls in any order, with
   TooBig caught by the caller and the sequence continued (MessageM.run_rops): the output is at most
   max(12, max_size) octets; the four header counts add up to the records of the calls that were accepted
   (a call that raised TooBig counts nothing: it was rolled back whole); every compression-table offset lies
   inside the output and decodes there - header included, whatever was written into it - to its key *)
Theorem renderer_api_invariant : forall origin id flags max_size ops res r,
  run_rops origin id ops (mkRst (repeat 0 12) [] 0 0 0 0 0 flags max_size 0 false) [] = (res, r) ->
  12 <= zlen (out r) <= Z.max 12 max_size /\
  cq r + can r + cau r + cad r = accepted origin id ops (mkRst (repeat 0 12) [] 0 0 0 0 0 flags max_size 0 false) /\
  Forall (fun kv => snd kv < zlen (out r)) (tbl r) /\
  TableSound (out r) (tbl r) /\
  (* the budget: what reserve() took is exactly what release_reserved() gives back *)
  (maxsz r + reserved r = max_size /\ 0 <= reserved r).
Proof. exact renderer_api_invariant_lemma. Qed.
Print Assumptions renderer_api_invariant.

(* non-vacuity: a message that is truncated at limit 512, and one rolled-back record set *)
Definition ex_rr (k : Z) : rrset :=
  mkRR [[119; 119; 119]; [101; 120]; []] 1 16 0 None 300 [[PB (200 :: repeat k 200)]].
Definition ex_msg : msg :=
  mkMsg 7 256 [mkRR [[119; 119; 119]; [101; 120]; []] 1 16 0 None 0 []]
        [ex_rr 1; ex_rr 2; ex_rr 3] [] [] (Some (mkOpt 0 1232 [])) None.

Example truncated_at_512 :
  exists w, to_wire ex_msg None 512 0 true 0 = Ok w /\ zlen w = 461 /\ nth 2 w 0 = 3.
Proof. eexists. vm_compute. repeat split; reflexivity. Qed.

Example too_big_at_512 : to_wire ex_msg None 512 0 false 0 = Lib eTooBig.
Proof. vm_compute. reflexivity. Qed.

Example rollback_happens :
  exists r', add_rrset None 1 (ex_rr 1)
                       (mkRst (repeat 0 400) [] 0 0 0 0 0 0 512 0 false) = Ok (true, r')
             /\ zlen (out r') = 400.
Proof. eexists. vm_compute. split; reflexivity. Qed.

(* the configuration that used to give 245: pad 128, TSIG key name sharing a suffix with the question *)
Definition ex_pad : msg :=
  mkMsg 1 256 [mkRR [[119; 119; 119]; [101; 120]; []] 1 1 0 None 0 []] [] [] []
        (Some (mkOpt 0 1232 []))
        (Some ([[107; 101; 121]; [101; 120]; []],
               [PU [[104; 109; 97; 99]; []]; PB (repeat 0 8); PB (0 :: 32 :: repeat 7 32); PB [0; 1]; PB [0; 0]; PB [0; 0]])).
Example padded_with_tsig :
  exists w, to_wire ex_pad None 0 0 false 128 = Ok w /\ zlen w = 128.
Proof. eexists. vm_compute. split; reflexivity. Qed.
