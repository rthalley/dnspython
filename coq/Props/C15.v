(* C15 - key-free DNSSEC computations equal an independent RFC 4034/4035/5155/6840 reference.
   Model: coq/Model/DnssecM.v (mirrors dns/dnssec.py, dns/rdata.py, dns/rdtypes/dnskeybase.py,
   dns/rdtypes/util.py, dns/zone.py).  Reference: coq/Proofs/DnssecRef.v (written from the RFCs).
   Two more theorems are generated and checked on every run against the table extracted from the
   current dns/rdtypes/** (tools/translate_canon.py -> GenCanon.v in the scratch dir):
     canon_flags_match_rfc4034   : forallb flag_ok table = true
     canonical_rdata_eq_rfc4034  : digestable table cls ty fs origin = rfc4034_canonical_rdata ty fs origin *)
From DV Require Import Base.Prelude Model.NameM Model.DnssecM.
From Coq Require Import Permutation Sorted.
From DV Require Import Proofs.NameValid Proofs.NameOrder Proofs.DnssecRef Proofs.DnssecCanon Proofs.DnssecKey.
From DV Require Import Proofs.DnssecSort Proofs.DnssecRrsig Proofs.DnssecBitmap Proofs.DnssecOrder Proofs.DnssecChain Proofs.DnssecZonemd.
Open Scope Z_scope.

(* Rdata.to_digestable, for any per-type table that passes the RFC 4034 6.2 check, is the RFC
   canonical RDATA: names expanded, never compressed, lower-cased exactly for the listed types *)
Theorem canonical_rdata_eq_rfc : forall tbl : list entry,
  forallb flag_ok tbl = true ->
  forall cls ty fs origin,
    arity_ok tbl cls ty fs = true ->
    digestable tbl cls ty fs origin = rfc4034_canonical_rdata ty fs origin.
Proof. exact digestable_eq_rfc. Qed.
Print Assumptions canonical_rdata_eq_rfc.

(* DNSKEY.key_id == RFC 4034 appendix B, both branches (algorithm 1 and the checksum) *)
Theorem keytag_eq_rfc : forall flags protocol alg key,
  0 <= flags < 65536 -> 0 <= protocol < 256 -> 0 <= alg < 256 -> bytes_ok key ->
  key_id flags protocol alg key =
  Ok (let rdata := u16 flags ++ [protocol; alg] ++ key in
      if alg =? 1 then rfc_keytag_alg1 rdata else rfc_keytag rdata).
Proof. exact key_id_eq_rfc. Qed.
Print Assumptions keytag_eq_rfc.

(* make_ds hashes exactly  canonical owner | DNSKEY RDATA  (RFC 4034 5.1.4) and fills the DS fields *)
Theorem ds_input_eq_rfc : forall owner flags protocol alg key dtype,
  Valid owner -> is_absolute owner = true ->
  0 <= flags < 65536 -> 0 <= protocol < 256 -> 0 <= alg < 256 -> bytes_ok key ->
  dtype = 1 \/ dtype = 2 \/ dtype = 4 ->
  make_ds owner flags protocol alg key dtype =
  Ok (rfc_ds_input owner flags protocol alg key,
      (let rdata := u16 flags ++ [protocol; alg] ++ key in
       if alg =? 1 then rfc_keytag_alg1 rdata else rfc_keytag rdata),
      alg, dtype).
Proof. exact make_ds_eq_rfc. Qed.
Print Assumptions ds_input_eq_rfc.

(* make_ds / make_cds with the owner given as text (relative text completed with `origin`, "@" = the
   origin): the name that dns.name.from_text(text, origin) denotes is the one that is digested *)
Theorem ds_text_owner_eq_rfc : forall text origin owner flags protocol alg key dtype,
  from_text text origin = Ok owner ->
  Valid owner -> is_absolute owner = true ->
  0 <= flags < 65536 -> 0 <= protocol < 256 -> 0 <= alg < 256 -> bytes_ok key ->
  dtype = 1 \/ dtype = 2 \/ dtype = 4 ->
  make_ds_text text origin flags protocol alg key dtype =
  Ok (rfc_ds_input owner flags protocol alg key,
      (let rdata := u16 flags ++ [protocol; alg] ++ key in
       if alg =? 1 then rfc_keytag_alg1 rdata else rfc_keytag rdata),
      alg, dtype).
Proof. exact make_ds_text_eq_rfc. Qed.
Print Assumptions ds_text_owner_eq_rfc.

(* nsec3_hash == RFC 5155 section 5 (iterated hash, base32hex) for every hash function *)
Theorem nsec3_eq_rfc : forall (H : bytes -> bytes) domain salt iterations,
  Valid domain -> is_absolute domain = true ->
  nsec3_hash H domain salt iterations 1 = Ok (rfc_nsec3_hash H domain salt (Z.to_nat iterations)).
Proof. exact nsec3_hash_eq_rfc. Qed.
Print Assumptions nsec3_eq_rfc.

(* sorted(rdatas) is the canonical RR order of RFC 4034 6.3, and that order is unique *)
Theorem canonical_rrset_order : forall l : list bytes,
  is_canonical_order l (sort_bytes l) /\
  forall s, is_canonical_order l s -> s = sort_bytes l.
Proof.
  intros l. split; [apply sort_bytes_canonical|].
  intros s Hs. eapply canonical_order_unique; [exact Hs|apply sort_bytes_canonical].
Qed.
Print Assumptions canonical_rrset_order.

(* _make_rrsig_signature_data == RFC 4034 3.1.8.1: 18-octet RRSIG prefix, canonical signer name,
   then every RR as owner|type|class|original TTL|rdlength|canonical RDATA in canonical order, the
   owner wildcard-reduced per RFC 4035 5.3.2; for relative names with an origin as well *)
Theorem rrsig_input_eq_rfc : forall tbl : list entry,
  forallb flag_ok tbl = true ->
  forall r rrname rdclass rdtype rdatas origin signer owner canon sorted,
    rfc_expand (r_signer r) origin = Ok signer -> Valid signer ->
    rfc_expand rrname origin = Ok owner -> Valid owner ->
    labels_ok owner (r_labels r) ->
    Forall (fun fs => arity_ok tbl rdclass rdtype fs = true) rdatas ->
    map_res (fun fs => rfc4034_canonical_rdata rdtype fs origin) rdatas = Ok canon ->
    Forall (fun c => zlen c < 65536) canon ->
    is_canonical_order canon sorted ->
    make_rrsig_data tbl r rrname rdclass rdtype rdatas origin
    = Ok (rfc_rrsig_input (r_covered r) (r_alg r) (r_labels r) (r_ottl r) (r_exp r) (r_inc r) (r_tag r)
                          signer owner rdclass rdtype sorted).
Proof. exact make_rrsig_data_eq_rfc. Qed.
Print Assumptions rrsig_input_eq_rfc.

(* RFC 4035 5.3.2: fewer labels than the owner has -> "*" + the rightmost `labels` labels (+ root);
   the reduced owner is again a valid name *)
Theorem wildcard_reduction : forall owner labels,
  Valid owner -> is_absolute owner = true -> 0 <= labels <= rfc_label_count owner ->
  rfc_wildcard_owner owner labels =
    (if labels =? rfc_label_count owner then owner
     else [42] :: skipn (length owner - 1 - Z.to_nat labels) owner)
  /\ Valid (rfc_wildcard_owner owner labels).
Proof. exact wildcard_reduction_spec. Qed.
Print Assumptions wildcard_reduction.

(* RFC 4035 5.3.1: labels field larger than the owner's label count is refused *)
Theorem rrsig_labels_too_large_rejected : forall tbl r rrname rdclass rdtype rdatas origin signer owner,
  rfc_expand (r_signer r) origin = Ok signer -> Valid signer ->
  rfc_expand rrname origin = Ok owner -> Valid owner ->
  rfc_label_count owner < r_labels r ->
  make_rrsig_data tbl r rrname rdclass rdtype rdatas origin = Lib eValidationFailure.
Proof. exact make_rrsig_data_rejects_long_labels. Qed.
Print Assumptions rrsig_labels_too_large_rejected.

(* Bitmap.from_rdtypes: for every list of types (any order, duplicates, zeros) the produced blocks
   are a well-formed RFC 4034 4.1.2 encoding (windows strictly increasing within 0..255, 1..32 octets
   per window, all octets bytes, no trailing zero octet) that decodes to exactly the set of non-zero
   types given, in ascending order *)
Theorem bitmap_exact : forall ts,
  Forall (fun t => 0 <= t <= 65535) ts ->
  exists ws, from_rdtypes ts = Ok ws /\ bitmap_wf ws /\ strictly_increasing (bitmap_types ws) /\
             forall t, In t (bitmap_types ws) <-> In t ts /\ t <> 0.
Proof. exact from_rdtypes_members. Qed.
Print Assumptions bitmap_exact.

(* sign_zone(rrset_signer=...) -> _sign_zone_nsec.  For every zone (any delegation / glue / occluded
   data / empty non-terminal layout; stored with absolute names, or relativized with the apex as
   the empty name) whose owner names `sorted` are in canonical order:
   - the NSEC records handed to the signer are, in order, the reference chain over the names that
     are not beneath a zone cut: every such name exactly once, `next` = the following such name,
     the last one wraps to the origin (see nsec_chain_visits_each_once below), each bitmap a
     well-formed encoding of exactly the types at the name (+ RRSIG, NSEC; only NS/DS at a cut);
   - the other RRsets handed to the signer are exactly the authoritative ones (no RRSIGs, at a
     delegation point only DS, nothing beneath a delegation). *)
Theorem nsec_chain_spec_eq : forall (origin apex : name) (relativize : bool) (nodes : list znode)
    (sorted : list name) (ab : bool),
  ci_distinct sorted ->
  Forall (fun n => is_absolute n = ab) sorted ->
  StronglySorted name_le sorted ->
  is_absolute origin = true ->
  (ab = true /\ apex = origin /\ relativize = false) \/ (ab = false /\ apex = [] /\ relativize = true) ->
  (forall n, In n sorted ->
     types_at nodes n <> [] /\ Forall (fun t => 1 <= t <= 65535) (types_at nodes n)) ->
  has_type (types_at nodes apex) tSOA = true ->
  Permutation (map fst nodes) sorted ->
  exists calls,
    sign_zone_nsec origin relativize nodes = Ok calls /\
    rr_calls calls = rfc_signed apex nodes (rfc_secure apex nodes sorted) /\
    Forall2 nsec_matches (nsec_calls calls) (rfc_chain origin apex nodes (rfc_secure apex nodes sorted)).
Proof. exact sign_zone_nsec_eq_rfc. Qed.
Print Assumptions nsec_chain_spec_eq.

(* the same, read off the implementation's output: the NSEC owners are exactly the names that are
   not beneath a delegation, each exactly once, in canonical order; next = following owner, the last
   one wraps to the origin *)
Theorem nsec_chain_visits_each_once : forall origin apex relativize nodes sorted ab,
  ci_distinct sorted ->
  Forall (fun n => is_absolute n = ab) sorted ->
  StronglySorted name_le sorted ->
  is_absolute origin = true ->
  (ab = true /\ apex = origin /\ relativize = false) \/ (ab = false /\ apex = [] /\ relativize = true) ->
  (forall n, In n sorted ->
     types_at nodes n <> [] /\ Forall (fun t => 1 <= t <= 65535) (types_at nodes n)) ->
  has_type (types_at nodes apex) tSOA = true ->
  Permutation (map fst nodes) sorted ->
  exists calls, sign_zone_nsec origin relativize nodes = Ok calls /\
    let owners := map (fun e => fst (fst e)) (nsec_calls calls) in
    let nexts := map (fun e => snd (fst e)) (nsec_calls calls) in
    owners = rfc_secure apex nodes sorted /\ NoDup owners /\ StronglySorted name_le owners /\
    (forall n, In n owners <-> In n sorted /\ rfc_occluded apex nodes sorted n = false) /\
    nexts = match owners with [] => [] | _ :: r => r ++ [origin] end.
Proof. exact nsec_owners_exact. Qed.
Print Assumptions nsec_chain_visits_each_once.

(* Zone._compute_digest (ZONEMD, SIMPLE scheme, SHA-384/512): the octets fed to the hash are the
   RFC 8976 3.3/3.4 serialisation (is_zonemd_input): a list of RRs that is a permutation of the
   zone's records minus the apex ZONEMD RRset and the RRSIG covering it, sorted by canonical owner
   name, then type, then canonical RDATA, each RR as owner|type|class|TTL|RDLENGTH|RDATA with
   canonical owner and RDATA.  Hypotheses = the zone is a dictionary of dictionaries (distinct owner
   names, distinct (type, covers) per node), RRSIG rdatasets are filed under the type they cover
   (`cr` is the canonical RDATA as a total function), rdata shapes fit their types, lengths fit. *)
Theorem zonemd_input_eq_rfc : forall (tbl : list entry) (origin : name) (relativize : bool)
    (nodes : list (name * list zrds)),
  forallb flag_ok tbl = true ->
  ci_distinct (map fst nodes) ->
  (forall nd, In nd nodes -> NoDup (map rds_key (snd nd))) ->
  (forall nd rds, In nd nodes -> In rds (snd nd) -> z_type rds <> tRRSIG -> z_covers rds = 0) ->
  (forall nd rds fs, In nd nodes -> In rds (snd nd) -> In fs (z_rdatas rds) -> z_type rds = tRRSIG ->
     0 <= z_covers rds < 65536 /\ exists rest, cr origin rds fs = u16 (z_covers rds) ++ rest) ->
  (forall nd rds fs, In nd nodes -> In rds (snd nd) -> In fs (z_rdatas rds) ->
     arity_ok tbl (z_class rds) (z_type rds) fs = true) ->
  (forall nd rds fs, In nd nodes -> In rds (snd nd) -> In fs (z_rdatas rds) -> zlen (cr origin rds fs) < 65536) ->
  (forall nd, In nd nodes -> exists a, rfc_expand (fst nd) (Some origin) = Ok a) ->
  forall all, rfc_zone_rrs origin nodes = Ok all ->
  forall halg scheme, halg = 1 \/ halg = 2 -> scheme = 1 ->
  exists input, compute_digest_input tbl origin relativize nodes halg scheme = Ok input
                /\ is_zonemd_input origin (zapex origin relativize) nodes input.
Proof. exact compute_digest_eq_rfc. Qed.
Print Assumptions zonemd_input_eq_rfc.

(* RFC 4034 3.1.3: a wildcard owner whose RRSIG labels field is not (label count - 1) is refused *)
Theorem rrsig_wild_labels_mismatch_rejected : forall tbl r rrname rdclass rdtype rdatas origin signer owner,
  rfc_expand (r_signer r) origin = Ok signer -> Valid signer ->
  rfc_expand rrname origin = Ok owner -> Valid owner ->
  is_wild owner = true -> r_labels r <> rfc_label_count owner - 1 ->
  make_rrsig_data tbl r rrname rdclass rdtype rdatas origin = Lib eValidationFailure.
Proof. exact make_rrsig_data_rejects_wild_mismatch. Qed.
Print Assumptions rrsig_wild_labels_mismatch_rejected.

(* ... and a well-formed encoding is determined by the set it stands for, so from_rdtypes returns
   THE RFC 4034 4.1.2 encoding of the type set, octet for octet *)
Theorem bitmap_unique : forall a b,
  bitmap_wf a -> bitmap_wf b -> bitmap_types a = bitmap_types b -> a = b.
Proof. exact bitmap_encoding_unique. Qed.
Print Assumptions bitmap_unique.

Example keytag_hyps_satisfiable :
  key_id 257 3 8 [1; 2; 3; 4; 5] = Ok (rfc_keytag (u16 257 ++ [3; 8] ++ [1; 2; 3; 4; 5]))
  /\ key_id 256 3 1 [9; 8; 7] = Ok (9 * 256 + 8).
Proof. split; vm_compute; reflexivity. Qed.

Example ds_text_hyps_satisfiable :
  from_text [99] (Some [[69; 120]; []]) = Ok [[99]; [69; 120]; []] /\
  from_text [64] (Some [[69; 120]; []]) = Ok [[69; 120]; []] /\
  make_ds_text [99] (Some [[69; 120]; []]) 256 3 8 [1; 2] 2 = Ok ([1; 99; 2; 101; 120; 0; 1; 0; 3; 8; 1; 2], 1290, 8, 2).
Proof. repeat split; vm_compute; reflexivity. Qed.

Example ds_hyps_satisfiable :
  Valid [[69; 120]; []] /\ is_absolute [[69; 120]; []] = true /\
  make_ds [[69; 120]; []] 256 3 8 [1; 2] 2 = Ok ([2; 101; 120; 0; 1; 0; 3; 8; 1; 2], 1290, 8, 2).
Proof.
  split; [|split; vm_compute; reflexivity].
  repeat split; repeat constructor; cbn; try lia; discriminate.
Qed.

Example canonical_rdata_nonvacuous :
  let tbl := [ {| e_class := 255; e_type := 15; e_calls := [{| c_none := true; c_canon := true |}]; e_loop := None |};
               {| e_class := 255; e_type := 107; e_calls := [{| c_none := true; c_canon := false |}]; e_loop := None |} ] in
  forallb flag_ok tbl = true /\
  arity_ok tbl 1 15 [FRaw [0; 10]; FName [[77; 88]; []]] = true /\
  digestable tbl 1 15 [FRaw [0; 10]; FName [[77; 88]; []]] None = Ok [0; 10; 2; 109; 120; 0] /\
  digestable tbl 1 107 [FRaw [0; 10]; FName [[77; 88]; []]] None = Ok [0; 10; 2; 77; 88; 0].
Proof. vm_compute. repeat split. Qed.

Example rrsig_hyps_satisfiable :
  let tbl := [ {| e_class := 255; e_type := 15; e_calls := [{| c_none := true; c_canon := true |}]; e_loop := None |} ] in
  let r := {| r_covered := 15; r_alg := 8; r_labels := 1; r_ottl := 300; r_exp := 2; r_inc := 1; r_tag := 7;
              r_signer := []; r_sig := [] |} in
  let origin := Some [[69; 120]; []] in
  let rdatas := [[FRaw [0; 20]; FName [[66]]]; [FRaw [0; 10]; FName [[65]; []]]] in
  rfc_expand (r_signer r) origin = Ok [[69; 120]; []] /\
  rfc_expand [[119]; [88]] origin = Ok [[119]; [88]; [69; 120]; []] /\
  labels_ok [[119]; [88]; [69; 120]; []] 1 /\
  map_res (fun fs => rfc4034_canonical_rdata 15 fs origin) rdatas = Ok [[0; 20; 1; 98; 2; 101; 120; 0]; [0; 10; 1; 97; 0]] /\
  is_canonical_order [[0; 20; 1; 98; 2; 101; 120; 0]; [0; 10; 1; 97; 0]] [[0; 10; 1; 97; 0]; [0; 20; 1; 98; 2; 101; 120; 0]] /\
  make_rrsig_data tbl r [[119]; [88]] 1 15 rdatas origin
  = Ok ([0; 15; 8; 1; 0; 0; 1; 44; 0; 0; 0; 2; 0; 0; 0; 1; 0; 7] ++ [2; 101; 120; 0]
        ++ ([1; 42; 2; 101; 120; 0] ++ [0; 15; 0; 1; 0; 0; 1; 44; 0; 5] ++ [0; 10; 1; 97; 0])
        ++ ([1; 42; 2; 101; 120; 0] ++ [0; 15; 0; 1; 0; 0; 1; 44; 0; 8] ++ [0; 20; 1; 98; 2; 101; 120; 0])).
Proof.
  cbv zeta.
  split; [vm_compute; reflexivity|].
  split; [vm_compute; reflexivity|].
  split; [split; [vm_compute; split; congruence|vm_compute; discriminate]|].
  split; [vm_compute; reflexivity|].
  split; [split; [apply perm_swap|repeat constructor; vm_compute; congruence]|].
  vm_compute; reflexivity.
Qed.

Example bitmap_nonvacuous :
  from_rdtypes [47; 1; 46; 1; 0; 1234] = Ok [(0, [64; 0; 0; 0; 0; 3]); (4, [0; 0; 0; 0; 0; 0; 0; 0; 0; 0; 0; 0; 0; 0; 0; 0; 0; 0; 0; 0; 0; 0; 0; 0; 0; 0; 32])]
  /\ bitmap_types [(0, [64; 0; 0; 0; 0; 3]); (4, [0; 0; 0; 0; 0; 0; 0; 0; 0; 0; 0; 0; 0; 0; 0; 0; 0; 0; 0; 0; 0; 0; 0; 0; 0; 0; 32])] = [1; 46; 47; 1234].
Proof. split; vm_compute; reflexivity. Qed.

(* a zone ex. with a delegation sub.ex. (NS, DS and a glue-like A at the cut), glue beneath it and
   a name after it: all hypotheses of nsec_chain_spec_eq hold, and the chain is as expected *)
Example nsec_chain_hyps_satisfiable :
  let ex := [[101; 120]; []] in
  let nm l := l :: ex in
  let nodes := [ (nm [122], [16]); (ex, [6; 2]); (nm [115], [2; 1; 43]); ([110] :: nm [115], [1]) ] in
  let sorted := [ ex; nm [115]; [110] :: nm [115]; nm [122] ] in
  ci_distinct sorted /\ Forall (fun n => is_absolute n = true) sorted /\ StronglySorted name_le sorted /\
  (forall n, In n sorted -> types_at nodes n <> [] /\ Forall (fun t => 1 <= t <= 65535) (types_at nodes n)) /\
  has_type (types_at nodes ex) tSOA = true /\ Permutation (map fst nodes) sorted /\
  rfc_secure ex nodes sorted = [ex; nm [115]; nm [122]] /\
  sign_zone_nsec ex false nodes =
    Ok [ SignRR ex 6; SignRR ex 2;
         SignRR (nm [115]) 43; SignNSEC ex (nm [115]) [(0, [34; 0; 0; 0; 0; 3])];
         SignRR (nm [122]) 16; SignNSEC (nm [115]) (nm [122]) [(0, [32; 0; 0; 0; 0; 19])];
         SignNSEC (nm [122]) ex [(0, [0; 0; 128; 0; 0; 3])] ].
Proof.
  cbv zeta. split; [|split; [|split; [|split; [|split; [|split; [|split]]]]]].
  - split.
    + repeat constructor; cbn; intuition discriminate.
    + intros x y Hx Hy. cbn in Hx, Hy.
      repeat (destruct Hx as [<-|Hx]; [|]); try contradiction;
        repeat (destruct Hy as [<-|Hy]; [|]); try contradiction;
        try reflexivity; unfold ci_equal; cbn; intros H; discriminate H.
  - repeat constructor.
  - repeat constructor; unfold name_le; vm_compute; intros H; discriminate H.
  - intros n Hn. cbn [In] in Hn.
    repeat (destruct Hn as [<-|Hn]; [|]); try contradiction;
      match goal with
      | |- context [types_at ?nd ?x] =>
          let v := eval vm_compute in (types_at nd x) in change (types_at nd x) with v
      end; (split; [discriminate|repeat (constructor; [lia|]); constructor]).
  - vm_compute. reflexivity.
  - apply Permutation_cons_app with (l1 := [[[101; 120]; []]; [[115]; [101; 120]; []]; [[110]; [115]; [101; 120]; []]]) (l2 := []).
    rewrite app_nil_r. reflexivity.
  - vm_compute. reflexivity.
  - vm_compute. reflexivity.
Qed.

Example zonemd_hyps_satisfiable :
  let ex := [[69; 120]; []] in
  let tbl := [ {| e_class := 255; e_type := 2; e_calls := [{| c_none := true; c_canon := true |}]; e_loop := None |};
               {| e_class := 255; e_type := 46; e_calls := [{| c_none := true; c_canon := true |}]; e_loop := None |} ] in
  let mk ty cov rds := {| z_type := ty; z_covers := cov; z_class := 1; z_ttl := 60; z_rdatas := rds |} in
  let nodes := [ ([[97]; [69; 120]; []], [mk 1 0 [[FRaw [10; 0; 0; 2]]; [FRaw [10; 0; 0; 1]]]]);
                 (ex, [mk 63 0 [[FRaw [0; 0; 0; 1; 1; 1; 9]]]; mk 2 0 [[FName [[78; 83]; [69; 120]; []]]];
                       mk 46 63 [[FRaw [0; 63; 8; 1]; FName ex; FRaw [7]]]; mk 46 2 [[FRaw [0; 2; 8; 1]; FName ex; FRaw [8]]]]) ] in
  ci_distinct (map fst nodes) /\
  (forall nd, In nd nodes -> NoDup (map rds_key (snd nd))) /\
  (exists all, rfc_zone_rrs ex nodes = Ok all /\ length all = 6%nat) /\
  compute_digest_input tbl ex false nodes 1 1 =
    Ok ([2; 101; 120; 0] ++ [0; 2; 0; 1; 0; 0; 0; 60; 0; 7] ++ [2; 110; 115; 2; 101; 120; 0]
        ++ [2; 101; 120; 0] ++ [0; 46; 0; 1; 0; 0; 0; 60; 0; 9] ++ [0; 2; 8; 1; 2; 101; 120; 0; 8]
        ++ [1; 97; 2; 101; 120; 0] ++ [0; 1; 0; 1; 0; 0; 0; 60; 0; 4] ++ [10; 0; 0; 1]
        ++ [1; 97; 2; 101; 120; 0] ++ [0; 1; 0; 1; 0; 0; 0; 60; 0; 4] ++ [10; 0; 0; 2]).
Proof.
  cbv zeta. split; [|split; [|split]].
  - split.
    + repeat constructor; cbn; intuition discriminate.
    + intros x y Hx Hy. cbn in Hx, Hy.
      repeat (destruct Hx as [<-|Hx]; [|]); try contradiction;
        repeat (destruct Hy as [<-|Hy]; [|]); try contradiction;
        try reflexivity; unfold ci_equal; cbn; intros H; discriminate H.
  - intros nd Hn. cbn [In] in Hn. repeat (destruct Hn as [<-|Hn]; [|]); try contradiction;
      cbn; repeat constructor; cbn; intuition discriminate.
  - eexists. split; [vm_compute; reflexivity|reflexivity].
  - vm_compute. reflexivity.
Qed.
