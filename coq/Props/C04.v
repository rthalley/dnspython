(* C04 - untrusted wire or text input only ever raises the library's own errors.
   Statements only; the proofs are in Proofs/Parser*.v and Proofs/Untrusted*.v.
   Models: Model/ParserM.v (dns/wirebase.py, name.from_wire_parser), Model/UntrustedM.v
   (ExceptionWrapper, rdata.from_wire[_parser], message._WireReader / from_wire, ttl, grange,
   zonefile line dispatch), shared Model/NameM.v (name text) and Model/TokM.v (tokenizer).
   Result discipline: Ok | Lib e (the library's hierarchy) | Internal e (a Python-level
   exception: IndexError, struct.error, AssertionError, ValueError, UnicodeError; exhausted
   fuel = non-termination); for parser computations Val | Exn (XLib e) | Exn (XInt e). *)
From DV Require Import Base.Prelude Model.NameM Model.ParserM Model.UntrustedM.
From DV Require Model.TokM Model.SchemaM Model.SchemaHand Proofs.UntrustedSchema Proofs.UntrustedHand Model.ZoneTextM Proofs.UntrustedZone
                Model.RdTextM Model.UntrustedTextM Proofs.UntrustedMsgText Proofs.UntrustedMsgTerm
                Model.TsigM Proofs.UntrustedTsig Proofs.UntrustedEdns Proofs.UntrustedEsc.
From DV Require Import Proofs.NameValid Proofs.ParserSafe Proofs.ParserProg
                       Proofs.UntrustedSafe Proofs.UntrustedDec Proofs.UntrustedText.
Open Scope Z_scope.

(* For an ARBITRARY inner computation (any per-type parser: any value, any library exception, any
   Python-level exception) `with ExceptionWrapper(cls)` lets out a value or an instance of cls. *)
Theorem wrap_closes : forall (A : Type) (cls : Z) (fam : Z -> bool) (inner : M A) (s : pstate),
  fam cls = true ->
  match wrap cls fam inner s with
  | (Val a, s') => inner s = (Val a, s')
  | (Exn (XLib e), s') => fam e = true /\ snd (inner s) = s'
  | (Exn (XInt _), _) => False
  end.
Proof. exact @UntrustedSafe.wrap_closes. Qed.
Print Assumptions wrap_closes.

(* the same for text-side parsers (value-level results) *)
Theorem wrap_closes_text : forall (A : Type) (cls : Z) (fam : Z -> bool) (inner : res A),
  fam cls = true ->
  match wrap_res cls fam inner with
  | Ok a => inner = Ok a
  | Lib e => fam e = true
  | Internal _ => False
  end.
Proof. exact @UntrustedSafe.wrap_res_closes. Qed.
Print Assumptions wrap_closes_text.

(* what is converted: every Python-level exception, and every library exception outside the class *)
Theorem wrap_converts_internal : forall (A : Type) cls fam (inner : M A) s e s',
  inner s = (Exn (XInt e), s') -> wrap cls fam inner s = (Exn (XLib cls), s').
Proof. exact @UntrustedSafe.wrap_converts_internal. Qed.
Print Assumptions wrap_converts_internal.

Theorem wrap_converts_foreign_lib : forall (A : Type) cls fam (inner : M A) s e s',
  inner s = (Exn (XLib e), s') -> fam e = false -> wrap cls fam inner s = (Exn (XLib cls), s').
Proof. exact @UntrustedSafe.wrap_converts. Qed.
Print Assumptions wrap_converts_foreign_lib.

(* Any program of Parser API calls (get_bytes / get_uintN / get_struct / get_counted_bytes /
   get_remaining / get_name, nested restrict_to; non-negative sizes) on any octet string from any
   start offset ends in a value, FormError or a name error - never AssertionError, struct.error,
   IndexError, never out of fuel - and the parser stays inside the message. *)
Theorem no_internal_parser : forall (wire : list Z) (current : Z) (ops : list op),
  bytes_ok wire -> ops_ok ops ->
  match parser_init wire current with
  | Exn x => x = XLib eFormError
  | Val s0 =>
      match exec wire ops s0 with
      | (Val _, s1) => pfur s1 <= pcur s1 <= pend s1 /\ pend s1 = zlen wire
      | (Exn (XLib e), s1) =>
          ((e = eFormError \/ e = eBadPointer \/ e = eBadLabelType) \/ e = eNameTooLong) /\ pend s1 = zlen wire
      | (Exn (XInt _), _) => False
      end
  end.
Proof. exact parser_program_never_internal. Qed.
Print Assumptions no_internal_parser.

(* dns.name.from_wire: total (pointer chasing terminates within the model's fuel); a valid name
   and a positive consumed count inside the message, or FormError / BadPointer / BadLabelType /
   NameTooLong. *)
Theorem no_internal_name_wire : forall (wire : list Z) (current : Z),
  bytes_ok wire ->
  match name_from_wire wire current with
  | Ok (n, c) => Valid n /\ 0 < c /\ current + c <= zlen wire
  | Lib e => (e = eFormError \/ e = eBadPointer \/ e = eBadLabelType) \/ e = eNameTooLong
  | Internal _ => False
  end.
Proof. exact name_from_wire_total. Qed.
Print Assumptions no_internal_name_wire.

(* dns.name.from_text (every octet string, every origin): a valid name or BadEscape / EmptyLabel /
   LabelTooLong / NameTooLong. *)
Theorem no_internal_name_text : forall (text : list Z) (origin : option name),
  match NameM.from_text text origin with
  | Ok n => Valid n
  | Lib e => e = eBadEscape \/ e = eEmptyLabel \/ e = eLabelTooLong \/ e = eNameTooLong
  | Internal _ => False
  end.
Proof. exact name_from_text_family. Qed.
Print Assumptions no_internal_name_text.

(* dns.rdata.from_wire around an arbitrary per-type parser that respects the Parser API: a value
   that consumed exactly rdlen octets, or a FormError-family error. *)
Theorem no_internal_rdata_wire : forall (wire : list Z)
         (per_type : Z -> Z -> M unit), (forall c t, api_disciplined wire (per_type c t)) ->
  forall rdclass rdtype current rdlen, 0 <= rdlen ->
  match rdata_from_wire wire per_type rdclass rdtype current rdlen with
  | (Val _, s) => pcur s = current + rdlen /\ current + rdlen <= zlen wire
  | (Exn (XLib e), _) => is_form e = true
  | (Exn (XInt _), _) => False
  end.
Proof. exact rdata_from_wire_family. Qed.
Print Assumptions no_internal_rdata_wire.

(* the hypothesis is satisfiable: the per-type parsers of the executable model (NS-like, MX, SOA,
   TXT, OPT, TSIG, A, AAAA, generic) have it - they do raise ValueError / SyntaxError inside *)
Theorem per_type_instance : forall (wire : list Z), bytes_ok wire ->
  forall origin c t, api_disciplined wire (dec_rdata wire origin c t).
Proof. exact dec_rdata_disciplined. Qed.
Print Assumptions per_type_instance.

(* EVERY record type: the generic schema decoder of C02 (Model/SchemaM.v: Parser + restrict_to +
   cls.from_wire_parser + constructor under the wrapper; tied to the ~60 regular per-type
   parsers by C02's translator and correspondence).  On arbitrary octets, any origin: a record
   that passed the constructor and consumed exactly rdlen, or a FormError-family error. *)
Theorem no_internal_rdata_wire_schema : forall (o : option name) (fs : list SchemaM.fld) (ck : SchemaM.check)
         (wire : list Z) (cur rdlen : nat),
  bytes_ok wire -> SchemaM.schema_wf fs = true ->
  match SchemaM.decode_rdata o fs ck wire cur rdlen with
  | Ok vs =>
      SchemaM.validate fs ck vs = true /\ (cur + rdlen <= length wire)%nat /\
      SchemaM.dec_fields wire o fs (cur + rdlen) cur = Ok (vs, (cur + rdlen)%nat)
  | Lib e => is_form e = true
  | Internal _ => False
  end.
Proof. exact UntrustedSchema.schema_from_wire_family. Qed.
Print Assumptions no_internal_rdata_wire_schema.

(* ... for whatever get_rdata_class(rdclass, rdtype) resolves to in a table that passes entry_ok
   (instantiated on the table generated from dns/rdtypes/** on every run: generated obligation
   no_internal_rdata_wire_all_types), and "every value returned can be rendered to wire again":
   the accepted record's own to_wire exists and decodes to the same record. *)
Theorem no_internal_rdata_wire_table : forall (tbl : list SchemaM.entry) (c t : Z) w r ck
         (wire : list Z) (cur rdlen : nat),
  bytes_ok wire -> forallb SchemaM.entry_ok tbl = true -> SchemaM.lookup tbl c t = SchemaM.CSchema w r ck ->
  match SchemaM.decode_rdata None (map fst r) ck wire cur rdlen with
  | Ok vs =>
      (cur + rdlen <= length wire)%nat /\
      exists w', SchemaM.encode_rdata None (map fst w) ck vs = Ok w' /\
                 SchemaM.decode_rdata None (map fst r) ck w' 0 (length w') = Ok vs
  | Lib x => is_form x = true
  | Internal _ => False
  end.
Proof. exact UntrustedSchema.table_from_wire_family. Qed.
Print Assumptions no_internal_rdata_wire_table.

(* ... and the eight irregular types that C02 models by hand (HIP, IPSECKEY, AMTRELAY, APL, SVCB,
   HTTPS, LOC, OPT with every EDNS option class): the same statement, incl. termination of their
   `while parser.remaining() > 0` loops *)
Theorem no_internal_rdata_wire_hand : forall (h : SchemaHand.hid) (o : option name) (wire : list Z) (cur rdlen : nat),
  bytes_ok wire ->
  match SchemaHand.hand_decode_rdata h o wire cur rdlen with
  | Ok vs => SchemaHand.hand_valid h vs = true /\ (cur + rdlen <= length wire)%nat
  | Lib e => is_form e = true
  | Internal _ => False
  end.
Proof. exact UntrustedHand.hand_from_wire_family. Qed.
Print Assumptions no_internal_rdata_wire_hand.

Theorem rdata_wire_hand_renders : forall (h : SchemaHand.hid) (wire : list Z) (cur rdlen : nat) vs,
  bytes_ok wire ->
  SchemaHand.hand_decode_rdata h None wire cur rdlen = Ok vs ->
  exists w', SchemaHand.hand_encode_rdata h None vs = Ok w'.
Proof. exact UntrustedHand.hand_from_wire_renders. Qed.
Print Assumptions rdata_wire_hand_renders.

(* dns.edns.option_from_wire(otype, wire, current, olen) is NOT under ExceptionWrapper.  Every
   option class of dns/edns.py (ECS, COOKIE, EDE, NSID, REPORTCHANNEL, the four text options,
   GenericOption) on every octet string, every offset and every non-negative length: an option, a
   FormError-family error, the dns.exception.SyntaxError of dns.ipv4.inet_ntoa (ECS with more than
   four IPv4 address octets), or the ValueError that the option constructors document and
   tests/test_edns.py pins (ECS family / prefix lengths, COOKIE lengths) - never struct.error,
   IndexError or UnicodeDecodeError. *)
Theorem no_internal_edns_option : forall (wire : list Z), bytes_ok wire ->
  forall (otype current olen : Z), 0 <= olen ->
  match fst (option_from_wire wire otype current olen) with
  | Val _ => True
  | Exn (XLib e) => is_form e = true \/ e = eSyntax
  | Exn (XInt e) => e = iValueError
  end.
Proof. exact UntrustedEdns.option_from_wire_outcome. Qed.
Print Assumptions no_internal_edns_option.

(* ExceptionWrapper(FormError) around a per-type wire parser would turn a non-terminating loop (the
   model's fuel marker) into a FormError, so termination is stated at the loops themselves: the
   `while parser.remaining() > 0` loops of OPT.from_wire_parser (every option class inside) and of
   TXTBase.from_wire_parser end for every octet string and every parser state inside the message
   (each iteration consumes at least the option header / the length octet). *)
Theorem wire_parser_loops_terminate : forall (wire : list Z), bytes_ok wire -> forall (lo : Z) (s : pstate),
  0 <= lo -> wfl wire lo s -> pcur s <= pend s ->
  fst (dec_opt wire s) <> Exn (XInt iFuel) /\ fst (dec_txt wire s) <> Exn (XInt iFuel).
Proof. exact UntrustedEdns.wire_loops_terminate. Qed.
Print Assumptions wire_parser_loops_terminate.

(* dns.message.from_wire, every option combination, arbitrary per-type parsers: a message, or a
   FormError-family error (ShortHeader, TrailingJunk, BadEDNS, BadTSIG, name errors, FormError),
   the documented UnknownTSIGKey, or Truncated - the latter only when raise_on_truncation. *)
Theorem no_internal_message : forall (wire : list Z), bytes_ok wire ->
  forall (per_type : Z -> Z -> M unit), (forall c t, api_disciplined wire (per_type c t)) ->
  forall o : opts,
  match message_from_wire wire per_type o with
  | (Val _, m) => MI wire m
  | (Exn (XLib e), m) =>
      MI wire m /\ ((is_form e = true \/ e = eUnknownTSIGKey) \/ (e = eTruncated /\ o_raise_trunc o = true))
  | (Exn (XInt _), _) => False
  end.
Proof. exact message_from_wire_family. Qed.
Print Assumptions no_internal_message.

(* hypothesis-free instance: the executable reader that the correspondence ties to the code *)
Theorem no_internal_message_instance : forall (wire : list Z), bytes_ok wire -> forall (origin : option name) (bits : Z),
  match message_from_wire wire (dec_rdata wire origin) (opts_of_bits bits) with
  | (Exn (XInt _), _) => False
  | (Exn (XLib e), m) =>
      (is_form e = true \/ e = eUnknownTSIGKey) \/ (e = eTruncated /\ o_raise_trunc (opts_of_bits bits) = true)
  | (Val _, m) => True
  end.
Proof. exact message_from_wire_concrete. Qed.
Print Assumptions no_internal_message_instance.

(* continue_on_error: after the 12-octet header nothing is raised except the requested
   truncation signal; every failure is recorded (MI: a library error code and an offset with
   12 <= offset <= len(wire)). *)
Theorem continue_on_error_records : forall (wire : list Z), bytes_ok wire ->
  forall (per_type : Z -> Z -> M unit), (forall c t, api_disciplined wire (per_type c t)) ->
  forall o : opts, o_coe o = true ->
  match message_from_wire wire per_type o with
  | (Val _, m) =>
      Forall (fun eo => (is_form (fst eo) = true \/ fst eo = eUnknownTSIGKey) /\ 12 <= snd eo <= zlen wire)
             (ms_errors m)
  | (Exn (XLib e), _) => e = eShortHeader \/ (e = eTruncated /\ o_raise_trunc o = true)
  | (Exn (XInt _), _) => False
  end.
Proof. exact UntrustedSafe.continue_on_error_records. Qed.
Print Assumptions continue_on_error_records.

(* ... and parsing resumes at rdata_start + rdlen: whenever the per-record step returns (rdata
   parsed, or its failure recorded), the parser stands exactly behind the record's rdata. *)
Theorem continue_on_error_resumes : forall (wire : list Z)
  (per_type : Z -> Z -> M unit), (forall c t, api_disciplined wire (per_type c t)) ->
  forall o section count i fu m0 s nm s1 rdtype rdclass ttl rdlen s2 r m' s',
  get_name wire None s = (Val nm, s1) ->
  get_struct wire [2; 2; 4; 2] s1 = (Val [rdtype; rdclass; ttl; rdlen], s2) ->
  wfl wire 0 s2 -> 0 <= rdlen ->
  get_rr wire per_type o section count i fu m0 s = (Val r, m', s') ->
  pcur s' = pcur s2 + rdlen.
Proof. exact get_rr_position. Qed.
Print Assumptions continue_on_error_resumes.

(* dns.ttl.from_text, any string, any classification of characters as decimal digits *)
Theorem no_internal_ttl : forall (dval : Z -> option Z) (s : list Z),
  match ttl_from_text dval s with
  | Ok v => 0 <= v <= 4294967295
  | Lib e => e = eBadTTL
  | Internal _ => False
  end.
Proof. exact ttl_from_text_family. Qed.
Print Assumptions no_internal_ttl.

(* Tokenizer.get in any state with any flags terminates with a token, SyntaxError or UnexpectedEnd *)
Theorem no_internal_tokenizer : forall (st : TokM.tstate) (want_leading want_comment : bool),
  match TokM.get st want_leading want_comment with
  | Ok _ => True
  | Lib e => e = TokM.eSyntax \/ e = TokM.eUnexpectedEnd
  | Internal _ => False
  end.
Proof. exact tokenizer_get_family. Qed.
Print Assumptions no_internal_tokenizer.

Theorem no_internal_unescape : forall t : TokM.token,
  match TokM.unescape t with
  | Ok _ => True
  | Lib e => e = TokM.eUnexpectedEnd \/ e = TokM.eSyntax
  | Internal _ => False
  end.
Proof. exact unescape_family. Qed.
Print Assumptions no_internal_unescape.

(* unescape_to_bytes encodes to UTF-8: safe for every string without lone surrogates ... *)
Theorem no_internal_unescape_to_bytes : forall t : TokM.token,
  Forall (fun c => ~ (55296 <= c <= 57343)) (TokM.tvalue t) ->
  match TokM.unescape_to_bytes t with
  | Ok _ => True
  | Lib e => e = TokM.eUnexpectedEnd \/ e = TokM.eSyntax
  | Internal _ => False
  end.
Proof. exact unescape_to_bytes_family. Qed.
Print Assumptions no_internal_unescape_to_bytes.

(* ... a lone surrogate does reach UnicodeEncodeError in the bare token method ... *)
Theorem unescape_to_bytes_surrogate_refuted :
  TokM.unescape_to_bytes (TokM.mkTok TokM.tQUOTED [55296] false None) = Internal TokM.iUnicodeEncode.
Proof. exact UntrustedText.unescape_to_bytes_surrogate_refuted. Qed.
Print Assumptions unescape_to_bytes_surrogate_refuted.

(* ... and is a SyntaxError where records are parsed (under ExceptionWrapper(SyntaxError)) *)
Theorem unescape_to_bytes_wrapped : forall t : TokM.token,
  match wrap_res eSyntax is_syntax (TokM.unescape_to_bytes t) with
  | Ok _ => True
  | Lib e => is_syntax e = true
  | Internal _ => False
  end.
Proof. exact UntrustedText.unescape_to_bytes_wrapped. Qed.
Print Assumptions unescape_to_bytes_wrapped.

(* The \DDD escapes are tested with str.isdecimal() and converted with int(c) in tokenizer.py.  For
   EVERY digit classifier dval (`dval c = Some d` iff c.isdecimal(), d = int(c): ASCII digits and the
   decimal digits of every other script; a character that only str.isdigit() accepts - superscripts,
   circled digits - has dval = None and is an ordinary escaped character) and every string:
   Token.unescape gives a value, SyntaxError or UnexpectedEnd; the int(c) conversion cannot fail
   because it is applied only where the classifier is defined. *)
Theorem no_internal_unescape_any_classifier : forall (dval : Z -> option Z) (value : list Z),
  match ue_loop_g dval value [] with
  | Ok _ => True
  | Lib e => e = TokM.eUnexpectedEnd \/ e = TokM.eSyntax
  | Internal _ => False
  end.
Proof. exact UntrustedEsc.unescape_g_family. Qed.
Print Assumptions no_internal_unescape_any_classifier.

(* Token.unescape_to_bytes: additionally UnicodeEncodeError, and only for a lone surrogate *)
Theorem no_internal_unescape_to_bytes_any_classifier : forall (dval : Z -> option Z) (value : list Z),
  match ub_loop_g dval value [] with
  | Ok _ => True
  | Lib e => e = TokM.eUnexpectedEnd \/ e = TokM.eSyntax
  | Internal e => e = TokM.iUnicodeEncode /\ ~ Forall UntrustedText.no_surrogate value
  end.
Proof. exact UntrustedEsc.unescape_to_bytes_g_family. Qed.
Print Assumptions no_internal_unescape_to_bytes_any_classifier.

(* with the ASCII classifier they are the decoders of the shared tokenizer model *)
Theorem unescape_classifier_ascii_agrees : forall value : list Z,
  ue_loop_g dval_ascii value [] = TokM.ue_loop value [] /\ ub_loop_g dval_ascii value [] = TokM.ub_loop value [].
Proof. exact UntrustedEsc.unescape_ascii_agrees. Qed.
Print Assumptions unescape_classifier_ascii_agrees.

(* dns.grange.from_text called directly leaks ValueError / AssertionError ... *)
Theorem grange_unguarded_refuted :
  grange_from_text dval_run [49; 45] = Internal iValueError
  /\ grange_from_text dval_run [49; 47; 50] = Internal iAssertGr
  /\ grange_from_text dval_run [49; 45; 50; 47; 48] = Internal iAssertGr.
Proof. exact UntrustedText.grange_unguarded_refuted. Qed.
Print Assumptions grange_unguarded_refuted.

(* ... which zonefile._generate_line closes with `except Exception: raise SyntaxError` *)
Theorem generate_range_closes : forall (dval : Z -> option Z) (s : list Z),
  match generate_range dval s with
  | Ok (start, stop, step) => True
  | Lib e => e = eSyntax
  | Internal _ => False
  end.
Proof. exact UntrustedText.generate_range_closes. Qed.
Print Assumptions generate_range_closes.

(* Reader.read's test on the first token of a line is total (after the fix) ... *)
Theorem no_internal_zonefile_dispatch : forall (t : TokM.token) (directives_allowed : bool),
  exists k, line_kind t directives_allowed = Ok k /\ 0 <= k <= 4.
Proof. exact line_kind_total. Qed.
Print Assumptions no_internal_zonefile_dispatch.

(* ... the snapshot's `token.value[0]` raised IndexError on the empty quoted string (fixed in /repo) *)
Theorem zonefile_dispatch_prefix_refuted :
  line_kind_prefix (TokM.mkTok TokM.tQUOTED [] false None) true = Internal iIndexError.
Proof. exact line_kind_prefix_refuted. Qed.
Print Assumptions zonefile_dispatch_prefix_refuted.

(* Whole zone files, on C09's model of the reader (Model/ZoneTextM.v: Reader.read, _rr_line,
   _generate_line with its modifiers, $TTL/$ORIGIN/$UNICODE, txn.add incl. the CNAME rule,
   check_origin; a fixed table of record types, others via the generic syntax).  EVERY character
   string, every origin / relativize / class / check_origin setting: a zone, or SyntaxError (to
   which Reader.read adds file:line), NameTooLong from an owner or $ORIGIN name, UnknownOrigin,
   CNAMEAndOtherData, NoSOA, NoNS (eUnmodelled = input outside the modelled fragment), or the
   documented zone-semantic ValueError ("add() has non-origin SOA") - never AssertionError,
   IndexError, ..., never out of fuel. *)
Theorem no_internal_zonefile : forall (c : ZoneTextM.cfg) (text : list Z),
  match ZoneTextM.from_text c text with
  | Ok _ => True
  | Lib e => e = ZoneTextM.eSyntax \/ e = ZoneTextM.eNameTooLongZ \/ e = ZoneTextM.eUnknownOrigin
             \/ e = ZoneTextM.eCNAMEAndOther \/ e = ZoneTextM.eNoSOA \/ e = ZoneTextM.eNoNS
             \/ e = ZoneTextM.eUnmodelled
  | Internal e => e = ZoneTextM.iValueError
  end.
Proof. exact UntrustedZone.zone_from_text_outcome. Qed.
Print Assumptions no_internal_zonefile.

(* dns.zonefile.read_rrsets (the same reader on the RRsets transaction) *)
Theorem no_internal_read_rrsets : forall (c : ZoneTextM.cfg) (zo : name) (text : list Z),
  match ZoneTextM.read_rrsets c zo text with
  | Ok _ => True
  | Lib e => e = ZoneTextM.eSyntax \/ e = ZoneTextM.eNameTooLongZ \/ e = ZoneTextM.eUnknownOrigin
             \/ e = ZoneTextM.eCNAMEAndOther \/ e = ZoneTextM.eNoSOA \/ e = ZoneTextM.eNoNS
             \/ e = ZoneTextM.eUnmodelled
  | Internal e => e = ZoneTextM.iValueError
  end.
Proof. exact UntrustedZone.read_rrsets_outcome. Qed.
Print Assumptions no_internal_read_rrsets.

(* Model/UntrustedTextM.v: _TextReader.read with its header / question / RR line methods, section
   switching by comment lines, the flags loops, TTL and class columns, _parse_rr_header, the per-type
   text parser under ExceptionWrapper(SyntaxError).
   For ANY per-type text parser that obeys the tokenizer discipline (it never leaves more input than
   it found, except for one put-back token) - whatever it returns or raises - and any type-mnemonic
   function whose only library error is UnknownRdatatype, on EVERY character string: a message or one
   of the documented library errors; never ValueError / AssertionError / ..., and the `while 1`
   loops end (no fuel exhaustion). *)
Theorem no_internal_message_text :
  forall (per_type_text : Z -> Z -> TokM.tstate -> res (unit * TokM.tstate)) (pctx : RdTextM.pctx)
         (type_from_text : list Z -> res Z),
  (forall v e, type_from_text v = Lib e -> e = UntrustedTextM.eUnknownRdatatype) ->
  (forall c t st, UntrustedMsgTerm.Le st (per_type_text c t st)) ->
  forall (text : list Z) (one_rr_per_rrset : bool),
  match UntrustedTextM.from_text per_type_text pctx type_from_text text one_rr_per_rrset with
  | Ok _ => True
  | Lib e => UntrustedMsgText.mt_lib e
  | Internal _ => False
  end.
Proof. exact UntrustedMsgTerm.message_from_text_total. Qed.
Print Assumptions no_internal_message_text.

(* without the discipline hypothesis: the only Internal outcome is exhausted fuel *)
Theorem message_text_outcome :
  forall (per_type_text : Z -> Z -> TokM.tstate -> res (unit * TokM.tstate)) (pctx : RdTextM.pctx)
         (type_from_text : list Z -> res Z),
  (forall v e, type_from_text v = Lib e -> e = UntrustedTextM.eUnknownRdatatype) ->
  forall (text : list Z) (one_rr_per_rrset : bool),
  match UntrustedTextM.from_text per_type_text pctx type_from_text text one_rr_per_rrset with
  | Ok _ => True
  | Lib e => UntrustedMsgText.mt_lib e
  | Internal e => e = UntrustedTextM.iFuelT
  end.
Proof. exact UntrustedMsgText.message_from_text_outcome. Qed.
Print Assumptions message_text_outcome.

(* the instance the correspondence runs: C05's text schemas (Model/RdTextM.v) per type and the
   rdatatype mnemonic table; both hypotheses are discharged *)
Theorem no_internal_message_text_instance : forall (pctx : RdTextM.pctx) (text : list Z) (one_rr_per_rrset : bool),
  match UntrustedTextM.from_text (UntrustedTextM.per_type_run pctx) pctx UntrustedTextM.type_from_text_run
                                 text one_rr_per_rrset with
  | Ok _ => True
  | Lib e => UntrustedMsgText.mt_lib e
  | Internal _ => False
  end.
Proof. exact UntrustedMsgTerm.message_from_text_run_total. Qed.
Print Assumptions no_internal_message_text_instance.

(* the tokenizer discipline of every text schema of C05's table *)
Theorem text_schema_discipline : forall (pctx : RdTextM.pctx) (rdclass rdtype : Z) (st : TokM.tstate),
  UntrustedMsgTerm.Le st (UntrustedTextM.per_type_run pctx rdclass rdtype st).
Proof. exact UntrustedMsgTerm.per_type_run_le. Qed.
Print Assumptions text_schema_discipline.

(* ExceptionWrapper(SyntaxError) around a per-type text parser would turn a non-terminating loop
   (the model's fuel marker) into a SyntaxError, so termination is stated where the marker is made:
   the `while True` loops of Tokenizer.get_remaining and concatenate_remaining_identifiers (the
   loops of the schema field readers besides Tokenizer.get, see no_internal_tokenizer; the SVCB
   parameter loop is bounded by the same measure, lemma le_svcb_params_loop) end in every
   tokenizer state. *)
Theorem text_token_loops_terminate : forall st : TokM.tstate,
  (forall max_tokens, TokM.get_remaining st max_tokens <> Internal TokM.tFuel) /\
  (forall allow_empty, TokM.concatenate_remaining_identifiers st allow_empty <> Internal TokM.tFuel).
Proof. exact UntrustedMsgTerm.text_loops_terminate. Qed.
Print Assumptions text_token_loops_terminate.

(* the third token loop of the per-type text parsers, SVCBBase.from_text's parameter loop (C05's
   model): more fuel never changes its result, i.e. len(text) + 2 iterations always suffice *)
Theorem svcb_param_loop_fuel_sufficient : forall (st : TokM.tstate) (params : list (Z * RdTextM.pval)) (extra : nat),
  RdTextM.svcb_params_loop (TokM.rem_fuel st + extra) st params = RdTextM.svcb_params_loop (TokM.rem_fuel st) st params.
Proof. exact UntrustedMsgTerm.svcb_params_loop_fuel_sufficient. Qed.
Print Assumptions svcb_param_loop_fuel_sufficient.

(* dns.rdata.from_text on C05's model of it (TokM.rdata_from_text: first token, the generic-syntax
   branch with its wire re-encoding check, the per-type text parser, the end-of-line check - all
   inside ExceptionWrapper(SyntaxError)), for an ARBITRARY per-type parser and wire codec: a value or
   a SyntaxError-family error.  With text_token_loops_terminate and no_internal_tokenizer the loops
   inside end for every text schema of Model/RdTextM.v. *)
Theorem no_internal_rdata_text : forall (V : Type) (per_type : TokM.tstate -> res (V * TokM.tstate))
    (from_wire : list Z -> res V) (to_wire : V -> res (list Z)) (text : list Z),
  match TokM.rdata_from_text per_type from_wire to_wire text with
  | Ok _ => True
  | Lib e => TokM.in_syntax_family e = true
  | Internal _ => False
  end.
Proof. exact @UntrustedMsgTerm.rdata_from_text_family. Qed.
Print Assumptions no_internal_rdata_text.

(* signed messages: validation with a real key *)

(* On C14's model (Model/TsigM.v: dns.tsig.validate / _digest / _maybe_start_digest / get_context,
   TSIG.from_wire_parser, the TSIG and OPT paths of _WireReader, every keyring form - None, key,
   dictionary of keys or bare secrets).  For ANY keyed hash function H, any octet string, any
   keyring, request MAC (at most 65535 octets), running context, multi flag and clock: a message or a
   library error (FormError family, BadTime, BadSignature, BadKey, BadAlgorithm, the Peer* errors,
   UnknownTSIGKey, NeedAbsoluteNameOrOrigin for a relative key name, the dns.name errors of
   relativizing an owner name against `origin`; eUnsupported = GSS-TSIG / UPDATE, outside the model) - never struct.error, AssertionError, ValueError or NotImplementedError.
   (The first version of this proof left exactly one case open - NotImplementedError out of
   _maybe_start_digest for a later envelope of a multi-message exchange - which was reproduced on
   the library and repaired as /repo ed7f7ab; C14's model mirrors the repair.) *)
Theorem no_internal_signed_message :
  forall (H : TsigM.hashid -> TsigM.bytes -> TsigM.bytes -> TsigM.bytes) (origin : option name) (w : TsigM.bytes)
         (kr : TsigM.keyring) (request_mac : TsigM.bytes) (ctx : option TsigM.hctx) (multi : bool) (now : Z),
  bytes_ok w -> zlen request_mac <= 65535 ->
  match TsigM.read_gen H origin w kr request_mac ctx multi now with
  | Ok _ => True
  | Lib e => UntrustedTsig.tlib e
  | Internal _ => False
  end.
Proof. exact UntrustedTsig.signed_message_family. Qed.
Print Assumptions no_internal_signed_message.

(* dns.tsig.validate itself, for a TSIG rdata as TSIG.from_wire_parser produces it (tsig_inv:
   fudge, original id, error and the two length fields in range) *)
Theorem no_internal_tsig_validate :
  forall (H : TsigM.hashid -> TsigM.bytes -> TsigM.bytes -> TsigM.bytes) (wire : TsigM.bytes) (k : TsigM.key)
         (owner : name) (rd : TsigM.tsig) (now : Z) (request_mac : TsigM.bytes) (tsig_start : nat)
         (ctx : option TsigM.hctx) (multi : bool),
  (12 <= length wire)%nat -> UntrustedTsig.tsig_inv rd -> zlen request_mac <= 65535 ->
  match TsigM.validate H wire k owner rd now request_mac tsig_start ctx multi with
  | Ok _ => True
  | Lib e => UntrustedTsig.tlib e
  | Internal _ => False
  end.
Proof. exact UntrustedTsig.validate_family. Qed.
Print Assumptions no_internal_tsig_validate.

(* the OPT option loop of that reader runs under the FormError wrapper, which would hide a fuel
   marker; the loop (called with fuel rdlen + 1 on the rdlen octets of the record) never produces
   any Python-level outcome *)
Theorem signed_message_opt_loop_terminates : forall (w : TsigM.bytes), bytes_ok w ->
  forall (rdata_start rdlen : nat) (e : Z),
  TsigM.opt_options w (rdata_start + rdlen) rdata_start (S rdlen) <> Internal e.
Proof. exact UntrustedTsig.opt_options_terminates. Qed.
Print Assumptions signed_message_opt_loop_terminates.

(* TSIG.from_wire_parser establishes tsig_inv *)
Theorem tsig_from_wire_establishes_inv : forall (w : TsigM.bytes), bytes_ok w -> forall (endp pos : nat) t,
  TsigM.tsig_from_wire w endp pos = Ok t -> UntrustedTsig.tsig_inv t.
Proof. exact UntrustedTsig.tsig_from_wire_inv. Qed.
Print Assumptions tsig_from_wire_establishes_inv.

(* a message whose A record is one octet short: in continue_on_error mode the failure (FormError,
   offset 43 = where the rdata parse stopped) is recorded and the message is returned *)
Definition ex_wire : list Z :=
  [0;1; 0;0; 0;1; 0;1; 0;0; 0;0;  3;119;119;119;0; 0;1; 0;1;
   192;12; 0;1; 0;1; 0;0;1;44; 0;3; 1;2;3].

Example ex_wire_bytes : bytes_ok ex_wire.
Proof. unfold bytes_ok, ex_wire. repeat constructor; lia. Qed.

Example ex_strict_raises :
  fst (message_from_wire ex_wire (dec_rdata ex_wire None) (opts_of_bits 0)) = Exn (XLib eFormError).
Proof. vm_compute. reflexivity. Qed.

Example ex_coe_records :
  let '(r, m) := message_from_wire ex_wire (dec_rdata ex_wire None) (opts_of_bits 8) in
  r = Val tt /\ ms_errors m = [(eFormError, 36)].
Proof. vm_compute. split; reflexivity. Qed.

(* the wrapper at work: the A parser raised dns.exception.SyntaxError (not a FormError) *)
Example ex_inner_was_foreign :
  fst (dec_rdata ex_wire None 1 1 (mkP 33 36 33)) = Exn (XLib eSyntax)
  /\ fst (rdata_from_wire_parser (dec_rdata ex_wire None) 1 1 (mkP 33 36 33)) = Exn (XLib eFormError).
Proof. vm_compute. split; reflexivity. Qed.

(* a compression loop is rejected, not followed forever *)
Example ex_pointer_loop : name_from_wire [192; 0] 0 = Lib eBadPointer.
Proof. vm_compute. reflexivity. Qed.

Example ex_ops_ok : ops_ok [OU16; ORestrict 4 [OBytes 2; OU16]; OName None; ORemaining].
Proof. cbn. repeat split; lia. Qed.

(* message text: a question and an answer are read; an unknown header word and an out-of-range
   TYPE mnemonic (ValueError before fix 763e120) are library errors *)
Definition ex_pctx := RdTextM.mkPctx None false None.
Definition ex_msgtext (text : list Z) :=
  UntrustedTextM.from_text (UntrustedTextM.per_type_run ex_pctx) ex_pctx UntrustedTextM.type_from_text_run text false.

Example ex_msgtext_ok :
  match ex_msgtext [105; 100; 32; 49; 10; 59; 81; 85; 69; 83; 84; 73; 79; 78; 10; 101; 120; 97; 109; 112; 108; 101; 46; 32; 73; 78; 32; 65; 10; 59; 65; 78; 83; 87; 69; 82; 10; 101; 120; 97; 109; 112; 108; 101; 46; 32; 51; 48; 48; 32; 73; 78; 32; 65; 32; 49; 48; 46; 48; 46; 48; 46; 49; 10] with
  | Ok m => length (UntrustedTextM.tm_q m) = 1%nat /\ map UntrustedTextM.r_ttl (UntrustedTextM.tm_rrs m) = [300]
  | _ => False
  end.
Proof. vm_compute. split; reflexivity. Qed.

Example ex_msgtext_unknown_header :
  ex_msgtext [98; 111; 103; 117; 115; 32; 49; 10] = Lib UntrustedTextM.eUnknownHeaderField.
Proof. vm_compute. reflexivity. Qed.

Example ex_msgtext_type65536 :
  ex_msgtext [105; 100; 32; 49; 10; 59; 65; 78; 83; 87; 69; 82; 10; 101; 120; 97; 109; 112; 108; 101; 46; 32; 51; 48; 48; 32; 73; 78; 32; 84; 89; 80; 69; 54; 53; 53; 51; 54; 32; 92; 35; 32; 48; 10] = Lib TokM.eSyntax.
Proof. vm_compute. reflexivity. Qed.

(* the envelope that raised NotImplementedError before fix ed7f7ab: BadAlgorithm now *)
Example ex_unimplemented_algorithm_multi :
  TsigM.read (fun _ _ _ => []) UntrustedTsig.nie_wire (TsigM.KR_Dict [(NameM.root, inr [1])]) []
       (Some {| TsigM.c_hash := TsigM.SHA256; TsigM.c_size := None; TsigM.c_key := [1]; TsigM.c_data := [] |}) true 0
  = Lib TsigM.eBadAlgorithm.
Proof. exact UntrustedTsig.unimplemented_algorithm_multi. Qed.

(* the direct option API: ECS with a /33 IPv4 prefix is inet_ntoa's SyntaxError, a scope of 33 bits
   the constructor's ValueError; inside an OPT record both are FormError *)
Example ex_ecs_direct :
  fst (option_from_wire [0;1;33;0; 1;2;3;4;5] 8 0 9) = Exn (XLib eSyntax)
  /\ fst (option_from_wire [0;1;32;33; 1;2;3;4] 8 0 8) = Exn (XInt iValueError)
  /\ fst (option_from_wire [0;1;24;0; 1;2;3] 8 0 7) = Val tt.
Proof. vm_compute. repeat split; reflexivity. Qed.
