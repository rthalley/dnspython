(* C14 - TSIG MACs follow RFC 8945; genuine messages verify, altered ones never do.

   Model: coq/Model/TsigM.v (dns/tsig.py, the TSIG rdata codec, the TSIG path of dns/message.py).
   Specification: coq/Proofs/TsigSpec.v (RFC 8945 4.3 / 5.3.1, written independently).
   Every theorem is quantified over the keyed hash  H : hashid -> key -> octets -> digest;
   nothing is assumed about H. *)
From DV Require Import Base.Prelude.
From DV Require Model.NameM.
From DV Require Import Model.TsigM Proofs.TsigSpec Proofs.TsigLemmas Proofs.TsigInj Proofs.TsigReader Proofs.TsigStream Proofs.TsigSender Proofs.TsigTamper Proofs.TsigCodec Proofs.TsigWire Proofs.TsigInjNames Proofs.TsigRender.
From DV Require Import Proofs.NameValid.
Open Scope Z_scope.

(* the octets fed to the MAC are the RFC 8945 input *)

(* request (request_mac empty), response / first envelope bound to a request MAC *)
Theorem digest_is_rfc :
  forall wire k rd time rmac ctx multi c,
    (ctx = None \/ multi = false) ->
    digest wire k rd time rmac ctx multi = Ok c ->
    c_data c = rfc8945_input (omac rmac) (t_oid rd) wire (vars_of k rd (time_of rd time))
    /\ c_key c = ksecret k
    /\ assoc_name hashes (kalg k) = Some (c_hash c, c_size c).
Proof. exact digest_first_is_rfc. Qed.
Print Assumptions digest_is_rfc.

(* subsequent envelope of a multi-message exchange: running context ++ message ++ timers *)
Theorem digest_is_rfc_subsequent :
  forall wire k rd time rmac c0 c,
    digest wire k rd time rmac (Some c0) true = Ok c ->
    c_data c = c_data c0 ++ rfc_dns_message (t_oid rd) wire
               ++ rfc_tsig_timers (time_of rd time) (t_fudge rd)
    /\ c_key c = c_key c0 /\ c_hash c = c_hash c0 /\ c_size c = c_size c0.
Proof. exact digest_subsequent_is_rfc. Qed.
Print Assumptions digest_is_rfc_subsequent.

(* the MAC sign() puts into the record *)
Theorem sign_mac_is_rfc8945 :
  forall H wire k rd t rmac ctx multi rd' c',
    (ctx = None \/ multi = false) ->
    sign H wire k rd (Some t) rmac ctx multi = Ok (rd', c') ->
    exists h sz,
      assoc_name hashes (kalg k) = Some (h, sz)
      /\ t_mac rd' = rfc_truncate (trunc_of sz)
           (H h (ksecret k) (rfc8945_input (omac rmac) (t_oid rd) wire (vars_of k rd t)))
      /\ t_time rd' = t /\ t_alg rd' = t_alg rd /\ t_fudge rd' = t_fudge rd
      /\ t_oid rd' = t_oid rd /\ t_error rd' = t_error rd /\ t_other rd' = t_other rd.
Proof. exact sign_mac_is_rfc. Qed.
Print Assumptions sign_mac_is_rfc8945.

(* ... and for a subsequent envelope, with the context handed to the next one *)
Theorem sign_mac_is_rfc8945_subsequent :
  forall H wire k rd t rmac c0 rd' c',
    sign H wire k rd (Some t) rmac (Some c0) true = Ok (rd', c') ->
    t_mac rd' = rfc_truncate (trunc_of (c_size c0))
        (H (c_hash c0) (c_key c0)
           (c_data c0 ++ rfc_dns_message (t_oid rd) wire ++ rfc_tsig_timers t (t_fudge rd)))
    /\ exists c1, c' = Some c1 /\ c_data c1 = rfc_request_mac (t_mac rd') /\ c_key c1 = ksecret k
                  /\ assoc_name hashes (kalg k) = Some (c_hash c1, c_size c1).
Proof. exact sign_mac_subsequent. Qed.
Print Assumptions sign_mac_is_rfc8945_subsequent.

Theorem sign_then_validate :
  forall H wire k rd t rmac ctx multi rd' c' wire' start adcount now,
    sign H wire k rd (Some t) rmac ctx multi = Ok (rd', c') ->
    get_adcount wire' = Ok adcount -> adcount <> 0 ->
    strip_tsig wire' adcount start = wire ->
    t_error rd = 0 ->
    NameM.name_eqb (kalg k) (t_alg rd) = true ->
    rfc_time_ok now t (t_fudge rd) ->
    validate H wire' k (kname k) rd' now rmac start ctx multi = Ok c'.
Proof. exact sign_then_validate_lemma. Qed.
Print Assumptions sign_then_validate.

(* the TSIG rdata codec: decoding what _to_wire wrote, anywhere inside a message, gives the
   record back and consumes exactly its octets *)
Theorem tsig_rdata_wire_roundtrip :
  forall t rdw (pre post : bytes),
    tsig_ok t -> tsig_to_wire t = Ok rdw ->
    tsig_from_wire (pre ++ rdw ++ post) (length pre + length rdw) (length pre) = Ok t.
Proof. exact tsig_codec_roundtrip. Qed.
Print Assumptions tsig_rdata_wire_roundtrip.

(* wire level: when the reader arrives at the TSIG RR that Message.to_wire / Renderer.add_tsig
   appended, it reads back the same owner and rdata and validate accepts, for every H; the
   resulting context is the one the signer handed on *)
Theorem signed_rr_reads_back_validated :
  forall H wire k rd now rmac ctx multi out rd' c' now2 count st,
    sign_message H wire k (kname k) rd now rmac ctx multi = Ok (out, rd', c') ->
    Valid (kname k) -> Valid (t_alg rd) ->
    all_bytes wire = true -> (12 <= length wire)%nat ->
    t_error rd = 0 -> NameM.name_eqb (kalg k) (t_alg rd) = true ->
    rfc_time_ok now2 now (t_fudge rd) ->
    r_pos st = length wire -> r_ctx st = ctx -> r_origin st = None ->
    get_rr H out (KR_Key k) rmac now2 multi 3 count (count - 1) st
    = Ok {| r_pos := length out; r_tsig := Some (kname k, rd'); r_ctx := c';
            r_recs := (3, TSIG, ANY, length wire) :: r_recs st; r_opt := r_opt st; r_origin := None |}.
Proof. exact signed_rr_reads_back_validated_lemma. Qed.
Print Assumptions signed_rr_reads_back_validated.

(* ... and the whole read: if the part of the signed message before the TSIG RR parses (questions,
   ANSWER, AUTHORITY, the ADDITIONAL records before the TSIG, ending where the TSIG RR starts),
   dns.message.from_wire returns it validated, with the signer's follow-up context *)
Theorem read_signed_message :
  forall H wire k rd now rmac ctx multi out rd' c' now2 fl qd an au ad p s1 s2 s3,
    sign_message H wire k (kname k) rd now rmac ctx multi = Ok (out, rd', c') ->
    Valid (kname k) -> Valid (t_alg rd) ->
    all_bytes wire = true -> (12 <= length wire)%nat ->
    t_error rd = 0 -> NameM.name_eqb (kalg k) (t_alg rd) = true ->
    rfc_time_ok now2 now (t_fudge rd) ->
    get_uint out (length out) 2 2 = Ok fl -> get_uint out (length out) 4 2 = Ok qd ->
    get_uint out (length out) 6 2 = Ok an -> get_uint out (length out) 8 2 = Ok au ->
    get_uint out (length out) 10 2 = Ok ad ->
    ((fst fl / 2048) mod 16 =? 5) = false ->
    get_question out (Z.to_nat (fst qd)) 12 = Ok p ->
    get_section H out (KR_Key k) rmac now2 multi 1 (fst an) (Z.to_nat (fst an))
      {| r_pos := p; r_tsig := None; r_ctx := ctx; r_recs := []; r_opt := false; r_origin := None |} = Ok s1 ->
    get_section H out (KR_Key k) rmac now2 multi 2 (fst au) (Z.to_nat (fst au)) s1 = Ok s2 ->
    1 <= fst ad ->
    get_section_n H out (KR_Key k) rmac now2 multi 3 (fst ad) 0 (Z.to_nat (fst ad - 1)) s2 = Ok s3 ->
    r_pos s3 = length wire ->
    read H out (KR_Key k) rmac ctx multi now2
    = Ok {| m_had_tsig := true; m_tsig := Some (kname k, rd'); m_ctx := c';
            m_recs := rev ((3, TSIG, ANY, length wire) :: r_recs s3) |}.
Proof. exact read_signed_message_lemma. Qed.
Print Assumptions read_signed_message.

(* rendering the same Message object again (Message.to_wire called twice: size probe,
   retransmission, first envelope served twice): after a render stored the signed rdata and, for
   multi, the returned context in the object, every later render is the same function of
   (octets, key, request MAC, tsig_ctx argument, clock) as a render of the original object *)
Theorem rerender_is_render :
  forall H wire k owner rmac ctx multi now1 o w1 o1,
    render H wire k owner rmac ctx multi now1 o = Ok (w1, o1) ->
    forall wire2 rmac2 ctx2 multi2 now2,
      sign_message H wire2 k owner (o_tsig o1) now2 rmac2 ctx2 multi2
      = sign_message H wire2 k owner (o_tsig o) now2 rmac2 ctx2 multi2.
Proof. exact rerender_is_render_lemma. Qed.
Print Assumptions rerender_is_render.

Theorem validate_accepts_iff :
  forall H wire k owner rd now rmac start ctx multi r,
    validate H wire k owner rd now rmac start ctx multi = Ok r <->
    exists adcount c,
      pre_ok wire k owner rd now adcount
      /\ digest (strip_tsig wire adcount start) k rd None rmac ctx multi = Ok c
      /\ t_mac rd = ctx_sign H c
      /\ maybe_start_digest k (t_mac rd) multi = Ok r.
Proof. exact validate_accepts_iff_lemma. Qed.
Print Assumptions validate_accepts_iff.

Theorem validate_accepts_only_rfc_mac :
  forall H wire k owner rd now rmac start ctx multi r,
    (ctx = None \/ multi = false) ->
    all_bytes wire = true ->
    validate H wire k owner rd now rmac start ctx multi = Ok r ->
    exists adcount h sz,
      pre_ok wire k owner rd now adcount
      /\ assoc_name hashes (kalg k) = Some (h, sz)
      /\ t_mac rd = rfc_truncate (trunc_of sz)
           (H h (ksecret k)
              (rfc8945_input (omac rmac) (t_oid rd) (rfc_received_message wire adcount start)
                 (vars_of k rd (t_time rd)))).
Proof. exact validate_accepts_mac_is_rfc. Qed.
Print Assumptions validate_accepts_only_rfc_mac.

Theorem validate_accepts_only_rfc_mac_subsequent :
  forall H wire k owner rd now rmac start c0 r,
    all_bytes wire = true ->
    validate H wire k owner rd now rmac start (Some c0) true = Ok r ->
    exists adcount,
      pre_ok wire k owner rd now adcount
      /\ t_mac rd = rfc_truncate (trunc_of (c_size c0))
           (H (c_hash c0) (c_key c0)
              (c_data c0 ++ rfc_dns_message (t_oid rd) (rfc_received_message wire adcount start)
                 ++ rfc_tsig_timers (t_time rd) (t_fudge rd)))
      /\ exists c1, r = Some c1 /\ c_data c1 = rfc_request_mac (t_mac rd) /\ c_key c1 = ksecret k
                    /\ assoc_name hashes (kalg k) = Some (c_hash c1, c_size c1).
Proof. exact validate_accepts_mac_subsequent. Qed.
Print Assumptions validate_accepts_only_rfc_mac_subsequent.

(* altered messages: the input construction is injective *)
Theorem input_injective_same_shape :
  forall rm oid1 oid2 w1 w2 v1 v2,
    canonical_name (v_name v1) = canonical_name (v_name v2) ->
    canonical_name (v_alg v1) = canonical_name (v_alg v2) ->
    (length (skipn 2 w1) = length (skipn 2 w2) \/ length (v_other v1) = length (v_other v2)) ->
    vars_wf oid1 v1 -> vars_wf oid2 v2 ->
    rfc8945_input rm oid1 w1 v1 = rfc8945_input rm oid2 w2 v2 ->
    oid1 = oid2 /\ skipn 2 w1 = skipn 2 w2 /\ v_time v1 = v_time v2 /\ v_fudge v1 = v_fudge v2
    /\ v_error v1 = v_error v2 /\ v_other v1 = v_other v2.
Proof. exact rfc_input_injective. Qed.
Print Assumptions input_injective_same_shape.

(* ... also in the key name and the algorithm name (valid absolute names, compared canonically) *)
Theorem input_injective_names :
  forall rm oid1 oid2 w1 w2 v1 v2,
    good_name (v_name v1) -> good_name (v_name v2) -> good_name (v_alg v1) -> good_name (v_alg v2) ->
    length (skipn 2 w1) = length (skipn 2 w2) ->
    vars_wf oid1 v1 -> vars_wf oid2 v2 ->
    rfc8945_input rm oid1 w1 v1 = rfc8945_input rm oid2 w2 v2 ->
    ci (v_name v1) = ci (v_name v2) /\ ci (v_alg v1) = ci (v_alg v2) /\
    oid1 = oid2 /\ skipn 2 w1 = skipn 2 w2 /\ v_time v1 = v_time v2 /\ v_fudge v1 = v_fudge v2
    /\ v_error v1 = v_error v2 /\ v_other v1 = v_other v2.
Proof. exact rfc_input_injective_names. Qed.
Print Assumptions input_injective_names.

(* signed with a different key (secret, key name or algorithm): the receiver accepts only if its
   own keyed hash of its own input equals the signer's MAC; with a different key name or
   algorithm the two inputs are different *)
Theorem wrong_key :
  forall H wire k1 k2 rd t rmac ctx multi rd' c' wire' start adcount now owner r,
    (ctx = None \/ multi = false) ->
    all_bytes wire' = true ->
    sign H wire k1 rd (Some t) rmac ctx multi = Ok (rd', c') ->
    get_adcount wire' = Ok adcount ->
    rfc_received_message wire' adcount start = wire ->
    validate H wire' k2 owner rd' now rmac start ctx multi = Ok r ->
    exists h1 sz1 h2 sz2,
      assoc_name hashes (kalg k1) = Some (h1, sz1) /\ assoc_name hashes (kalg k2) = Some (h2, sz2) /\
      let d1 := rfc8945_input (omac rmac) (t_oid rd) wire (vars_of k1 rd t) in
      let d2 := rfc8945_input (omac rmac) (t_oid rd) wire (vars_of k2 rd t) in
      rfc_truncate (trunc_of sz2) (H h2 (ksecret k2) d2) = rfc_truncate (trunc_of sz1) (H h1 (ksecret k1) d1)
      /\ (good_name (kname k1) -> good_name (kname k2) -> good_name (kalg k1) -> good_name (kalg k2) ->
          tsig_wf rd' ->
          (ci (kname k1) <> ci (kname k2) \/ ci (kalg k1) <> ci (kalg k2)) -> d1 <> d2).
Proof. exact wrong_key_lemma. Qed.
Print Assumptions wrong_key.

Theorem tamper_needs_collision :
  forall H k rmac ctx multi wire1 owner1 rd1 now1 start1 r1 wire2 owner2 rd2 now2 start2 r2,
    (ctx = None \/ multi = false) ->
    all_bytes wire1 = true -> all_bytes wire2 = true ->
    tsig_wf rd1 -> tsig_wf rd2 ->
    validate H wire1 k owner1 rd1 now1 rmac start1 ctx multi = Ok r1 ->
    validate H wire2 k owner2 rd2 now2 rmac start2 ctx multi = Ok r2 ->
    t_mac rd1 = t_mac rd2 ->
    exists ad1 ad2 h sz,
      get_adcount wire1 = Ok ad1 /\ get_adcount wire2 = Ok ad2 /\
      assoc_name hashes (kalg k) = Some (h, sz) /\
      let d1 := rfc8945_input (omac rmac) (t_oid rd1) (rfc_received_message wire1 ad1 start1) (vars_of k rd1 (t_time rd1)) in
      let d2 := rfc8945_input (omac rmac) (t_oid rd2) (rfc_received_message wire2 ad2 start2) (vars_of k rd2 (t_time rd2)) in
      ((length (skipn 2 (rfc_received_message wire1 ad1 start1)) = length (skipn 2 (rfc_received_message wire2 ad2 start2))
        \/ length (t_other rd1) = length (t_other rd2)) ->
       authenticated wire1 ad1 start1 rd1 = authenticated wire2 ad2 start2 rd2
       \/ (d1 <> d2 /\
           rfc_truncate (trunc_of sz) (H h (ksecret k) d1) = rfc_truncate (trunc_of sz) (H h (ksecret k) d2))).
Proof. exact tamper_needs_collision_lemma. Qed.
Print Assumptions tamper_needs_collision.

Theorem wrong_request_mac :
  forall H wire k rd t rmac1 rmac2 ctx multi rd' c' wire' start adcount now owner r,
    (ctx = None \/ multi = false) ->
    all_bytes wire' = true ->
    zlen rmac1 < 65536 -> zlen rmac2 < 65536 ->
    sign H wire k rd (Some t) rmac1 ctx multi = Ok (rd', c') ->
    get_adcount wire' = Ok adcount ->
    rfc_received_message wire' adcount start = wire ->
    rmac1 <> rmac2 ->
    validate H wire' k owner rd' now rmac2 start ctx multi = Ok r ->
    exists h sz,
      assoc_name hashes (kalg k) = Some (h, sz) /\
      let d1 := rfc8945_input (omac rmac1) (t_oid rd) wire (vars_of k rd t) in
      let d2 := rfc8945_input (omac rmac2) (t_oid rd) wire (vars_of k rd t) in
      d1 <> d2 /\
      rfc_truncate (trunc_of sz) (H h (ksecret k) d1) = rfc_truncate (trunc_of sz) (H h (ksecret k) d2).
Proof. exact wrong_request_mac_lemma. Qed.
Print Assumptions wrong_request_mac.

(* the checks that do not involve the MAC, in the order validate makes them *)
Theorem peer_error :
  forall H wire k owner rd now rmac start ctx multi adcount,
    get_adcount wire = Ok adcount -> adcount <> 0 ->
    t_error rd <> 0 ->
    validate H wire k owner rd now rmac start ctx multi = Lib (TsigM.peer_error (t_error rd)).
Proof. exact peer_error_lemma. Qed.
Print Assumptions peer_error.

Theorem bad_time :
  forall H wire k owner rd now rmac start ctx multi adcount,
    get_adcount wire = Ok adcount -> adcount <> 0 -> t_error rd = 0 ->
    ~ rfc_time_ok now (t_time rd) (t_fudge rd) ->
    validate H wire k owner rd now rmac start ctx multi = Lib eBadTime.
Proof. exact bad_time_lemma. Qed.
Print Assumptions bad_time.

Theorem bad_key :
  forall H wire k owner rd now rmac start ctx multi adcount,
    get_adcount wire = Ok adcount -> adcount <> 0 -> t_error rd = 0 ->
    rfc_time_ok now (t_time rd) (t_fudge rd) ->
    NameM.name_eqb (kname k) owner = false ->
    validate H wire k owner rd now rmac start ctx multi = Lib eBadKey.
Proof. exact bad_key_lemma. Qed.
Print Assumptions bad_key.

Theorem bad_alg :
  forall H wire k owner rd now rmac start ctx multi adcount,
    get_adcount wire = Ok adcount -> adcount <> 0 -> t_error rd = 0 ->
    rfc_time_ok now (t_time rd) (t_fudge rd) ->
    NameM.name_eqb (kname k) owner = true ->
    NameM.name_eqb (kalg k) (t_alg rd) = false ->
    validate H wire k owner rd now rmac start ctx multi = Lib eBadAlgorithm.
Proof. exact bad_alg_lemma. Qed.
Print Assumptions bad_alg.

(* the reader: a TSIG record that is not the last record is a format error *)

(* at the header of a TSIG record outside ADDITIONAL, or not last, or not class ANY, the reader
   raises BadTSIG (a FormError) ... *)
Theorem tsig_not_last_is_formerror :
  forall H w kr rmac now multi section count i st np nrel tp cp lp dp,
    get_name w (length w) (r_pos st) = Ok np ->
    (match r_origin st with Some o => NameM.relativize (fst np) o | None => Ok (fst np) end) = Ok nrel ->
    get_uint w (length w) (snd np) 2 = Ok tp ->
    get_uint w (length w) (snd tp) 2 = Ok cp ->
    get_uint w (length w) (snd cp) 4 = Ok lp ->
    get_uint w (length w) (snd lp) 2 = Ok dp ->
    fst tp = TSIG ->
    (section <> 3 \/ fst cp <> ANY \/ i <> count - 1) ->
    get_rr H w kr rmac now multi section count i st = Lib eBadTSIG /\ is_formerror eBadTSIG = true.
Proof. exact get_rr_misplaced_formerror. Qed.
Print Assumptions tsig_not_last_is_formerror.

(* ... hence in every message that is read without error a TSIG record is the last one *)
Theorem read_ok_tsig_is_last :
  forall H origin w kr rmac ctx multi now m i r,
    read_gen H origin w kr rmac ctx multi now = Ok m ->
    nth_error (m_recs m) i = Some r -> rec_type r = TSIG ->
    i = (length (m_recs m) - 1)%nat /\ rec_section r = 3 /\ rec_class r = ANY.
Proof. exact tsig_only_last. Qed.
Print Assumptions read_ok_tsig_is_last.

(* a message is read successfully only if dns.tsig.validate accepted its TSIG (keyring permitting);
   a message without TSIG extends the running digest of a multi-message exchange by the whole wire *)
Theorem read_accepts_only_validated :
  forall H origin w kr rmac ctx multi now m,
    read_gen H origin w kr rmac ctx multi now = Ok m ->
    exists body,
      Forall not_tsig body /\
      ((m_recs m = body /\ m_tsig m = None /\ m_had_tsig m = false
        /\ m_ctx m = ctx_after_unsigned ctx multi w)
       \/ (exists owner rd start,
             m_recs m = body ++ [(3, TSIG, ANY, start)]
             /\ m_tsig m = Some (owner, rd) /\ m_had_tsig m = true
             /\ decided H w kr rmac now multi owner rd start ctx (m_ctx m))).
Proof. exact read_ok. Qed.
Print Assumptions read_accepts_only_validated.

(* message level: two wire messages read as validated under the same key, request MAC and MAC
   value carry identical authenticated content, or the truncated keyed hash collides on their two
   distinct RFC inputs *)
Theorem read_tamper_needs_collision :
  forall H origin1 origin2 k rmac ctx multi w1 now1 m1 owner1 rd1 w2 now2 m2 owner2 rd2,
    (ctx = None \/ multi = false) ->
    all_bytes w1 = true -> all_bytes w2 = true ->
    read_gen H origin1 w1 (KR_Key k) rmac ctx multi now1 = Ok m1 -> m_tsig m1 = Some (owner1, rd1) ->
    read_gen H origin2 w2 (KR_Key k) rmac ctx multi now2 = Ok m2 -> m_tsig m2 = Some (owner2, rd2) ->
    t_mac rd1 = t_mac rd2 ->
    exists body1 start1 body2 start2 ad1 ad2 h sz,
      m_recs m1 = body1 ++ [(3, TSIG, ANY, start1)] /\ m_recs m2 = body2 ++ [(3, TSIG, ANY, start2)] /\
      get_adcount w1 = Ok ad1 /\ get_adcount w2 = Ok ad2 /\
      assoc_name hashes (kalg k) = Some (h, sz) /\
      let d1 := rfc8945_input (omac rmac) (t_oid rd1) (rfc_received_message w1 ad1 start1) (vars_of k rd1 (t_time rd1)) in
      let d2 := rfc8945_input (omac rmac) (t_oid rd2) (rfc_received_message w2 ad2 start2) (vars_of k rd2 (t_time rd2)) in
      ((length (skipn 2 (rfc_received_message w1 ad1 start1)) = length (skipn 2 (rfc_received_message w2 ad2 start2))
        \/ length (t_other rd1) = length (t_other rd2)) ->
       authenticated w1 ad1 start1 rd1 = authenticated w2 ad2 start2 rd2
       \/ (d1 <> d2 /\
           rfc_truncate (trunc_of sz) (H h (ksecret k) d1) = rfc_truncate (trunc_of sz) (H h (ksecret k) d2))).
Proof. exact read_tamper_needs_collision_lemma. Qed.
Print Assumptions read_tamper_needs_collision.

(* which octets are authenticated: any change of an octet 2..9 or 12..tsig_start-1 of the received
   wire, or of ARCOUNT, changes the authenticated content (octets 0-1, the message id, are
   replaced by the original id of the TSIG record, which is authenticated instead) *)
Theorem altered_octet_changes_authenticated :
  forall (w1 w2 : bytes) ad1 ad2 start rd1 rd2 p,
    (10 <= length w1)%nat -> (10 <= length w2)%nat ->
    ((2 <= p < 10)%nat \/ (12 <= p < start)%nat) ->
    nth_error w1 p <> nth_error w2 p ->
    authenticated w1 ad1 start rd1 <> authenticated w2 ad2 start rd2.
Proof. exact altered_octet_changes_authenticated_lemma. Qed.
Print Assumptions altered_octet_changes_authenticated.

Theorem altered_arcount_changes_authenticated :
  forall (w1 w2 : bytes) ad1 ad2 start1 start2 rd1 rd2,
    (10 <= length w1)%nat -> (10 <= length w2)%nat ->
    0 < ad1 < 65536 -> 0 < ad2 < 65536 -> ad1 <> ad2 ->
    authenticated w1 ad1 start1 rd1 <> authenticated w2 ad2 start2 rd2.
Proof. exact altered_arcount_changes_authenticated_lemma. Qed.
Print Assumptions altered_arcount_changes_authenticated.

(* multi-message exchanges with any subset of envelopes unsigned (RFC 8945 5.3.1) *)
Theorem read_stream_is_rfc :
  forall H k rmac now origin ws ms ctx run,
    ctx_matches k ctx run ->
    Forall (fun w => all_bytes w = true) ws ->
    read_stream_gen H origin ws (KR_Key k) rmac ctx now = map Ok ms ->
    stream_spec H k rmac now run ws ms.
Proof. exact read_stream_is_rfc_lemma. Qed.
Print Assumptions read_stream_is_rfc.

(* the sending side (Message.to_wire(multi=True, tsig_ctx=previous); ctx.update(wire) for envelopes
   sent without TSIG) produces exactly the MACs of the same specification *)
Theorem sign_stream_is_rfc :
  forall H k rmac ms outs ctx run,
    ctx_matches k ctx run ->
    sign_stream H ms k rmac ctx = map Ok outs ->
    sender_spec H k rmac run ms outs.
Proof. exact sign_stream_is_rfc_lemma. Qed.
Print Assumptions sign_stream_is_rfc.

(* non-vacuity: a toy keyed hash, a 12-octet message, key "k." / hmac-sha256-128 *)
Definition exH (h : hashid) (k d : bytes) : bytes :=
  map (fun i => (fold_left Z.add (k ++ d) i * i) mod 256) [1; 2; 3; 4; 5; 6; 7; 8; 9; 10; 11; 12; 13; 14; 15; 16; 17; 18; 19; 20].
Definition exwire : bytes := [18; 52; 1; 0; 0; 0; 0; 0; 0; 0; 0; 0].
Definition exkey : key := {| kname := [[107]; []]; ksecret := [1; 2; 3; 4; 5; 6; 7; 8; 9; 10; 11; 12; 13; 14; 15; 16; 17]; kalg := nHMAC_SHA256_128 |}.
Definition exrd : tsig := {| t_alg := nHMAC_SHA256_128; t_time := 0; t_fudge := 300; t_mac := [];
                             t_oid := 4660; t_error := 0; t_other := [] |}.

Example ex_sign_ok :
  exists rd', sign exH exwire exkey exrd (Some 1000) [9; 9] None false = Ok (rd', None)
              /\ length (t_mac rd') = 16%nat.
Proof. eexists. split; vm_compute; reflexivity. Qed.

Example ex_validate_ok :
  exists rd' w, sign_message exH exwire exkey (kname exkey) exrd 1000 [9; 9] None false = Ok (w, rd', None)
    /\ all_bytes w = true /\ tsig_wf rd'
    /\ validate exH w exkey (kname exkey) rd' 1300 [9; 9] 12 None false = Ok None
    /\ validate exH w exkey (kname exkey) rd' 1301 [9; 9] 12 None false = Lib eBadTime
    /\ validate exH w exkey (kname exkey) rd' 1000 [9; 8] 12 None false = Lib eBadSignature
    /\ read exH w (KR_Key exkey) [9; 9] None false 1000
       = Ok {| m_had_tsig := true; m_tsig := Some (kname exkey, rd'); m_ctx := None;
               m_recs := [(3, 250, 255, 12%nat)] |}.
Proof.
  eexists. eexists. split; [vm_compute; reflexivity|].
  split; [vm_compute; reflexivity|].
  split; [unfold tsig_wf, zlen; cbn; lia|].
  repeat split; vm_compute; reflexivity.
Qed.

Example ex_multi_ok :
  exists rd' c1, sign exH exwire exkey exrd (Some 1000) [9; 9] None true = Ok (rd', Some c1)
    /\ c_data c1 = rfc_request_mac (t_mac rd')
    /\ exists rd'' c2, sign exH exwire exkey exrd (Some 1001) [9; 9] (Some (update c1 exwire)) true = Ok (rd'', Some c2)
         /\ t_mac rd'' = firstn 16 (exH SHA256 (ksecret exkey)
              (rfc8945_input_subsequent (t_mac rd') [exwire] 4660 exwire 1001 300)).
Proof.
  eexists. eexists. split; [vm_compute; reflexivity|]. split; [vm_compute; reflexivity|].
  eexists. eexists. split; vm_compute; reflexivity.
Qed.

(* a TSIG record followed by another record *)
Definition ex_signed : bytes :=
  Eval vm_compute in
    match sign_message exH exwire exkey (kname exkey) exrd 1000 [] None false with
    | Ok (w, _, _) => w | _ => [] end.
Example ex_not_last :
  (exists rd', sign_message exH exwire exkey (kname exkey) exrd 1000 [] None false = Ok (ex_signed, rd', None))
  /\ read exH (firstn 10 ex_signed ++ [0; 2] ++ skipn 12 ex_signed ++ [0; 255; 0; 0; 1; 0; 0; 0; 0; 0; 0])
          (KR_Key exkey) [] None false 1000 = Lib eBadTSIG.
Proof. split; [eexists; vm_compute; reflexivity | vm_compute; reflexivity]. Qed.

(* three envelopes, the middle one sent without TSIG: signed by sign_stream, accepted by read_stream *)
Definition oks {A} (l : list (res A)) : list A :=
  flat_map (fun r => match r with Ok a => [a] | _ => [] end) l.
Definition ex_ws : list bytes :=
  Eval vm_compute in
    oks (sign_stream exH [(exwire, Some (exrd, 1000)); (exwire, None); (exwire, Some (exrd, 1001))] exkey [9; 9] None).
Definition ex_ms : list rmsg :=
  Eval vm_compute in oks (read_stream exH ex_ws (KR_Key exkey) [9; 9] None 1000).

Example ex_stream :
  sign_stream exH [(exwire, Some (exrd, 1000)); (exwire, None); (exwire, Some (exrd, 1001))] exkey [9; 9] None
    = map Ok ex_ws
  /\ read_stream exH ex_ws (KR_Key exkey) [9; 9] None 1000 = map Ok ex_ms
  /\ map m_had_tsig ex_ms = [true; false; true]
  /\ Forall (fun w => all_bytes w = true) ex_ws.
Proof.
  split; [vm_compute; reflexivity|].
  split; [vm_compute; reflexivity|]. split; [vm_compute; reflexivity|].
  repeat constructor.
Qed.

(* the algorithm table: hash and MAC length in octets (None = whole digest), RFC 8945 section 6 *)
Example ex_algorithm_table :
  map (fun e => (fst e, fst (snd e), trunc_of (snd (snd e)))) hashes =
  [ (nHMAC_SHA1, SHA1, None); (nHMAC_SHA224, SHA224, None); (nHMAC_SHA256, SHA256, None);
    (nHMAC_SHA256_128, SHA256, Some 16%nat); (nHMAC_SHA384, SHA384, None);
    (nHMAC_SHA384_192, SHA384, Some 24%nat); (nHMAC_SHA512, SHA512, None);
    (nHMAC_SHA512_256, SHA512, Some 32%nat); (nHMAC_MD5, MD5, None) ].
Proof. reflexivity. Qed.

(* a message with a question and an ADDITIONAL record, signed and read back (the hypotheses of
   read_signed_message hold for it) *)
Definition exwire2 : bytes :=
  [18; 52; 1; 0; 0; 1; 0; 0; 0; 0; 0; 1] ++ [1; 97; 0; 0; 1; 0; 1]
  ++ [1; 98; 0; 255; 0; 0; 1; 0; 0; 0; 0; 0; 2; 120; 121].
Definition ex_signed2 : bytes :=
  Eval vm_compute in
    match sign_message exH exwire2 exkey (kname exkey) exrd 1000 [] None false with
    | Ok (w, _, _) => w | _ => [] end.
Example ex_read_signed :
  (exists rd', sign_message exH exwire2 exkey (kname exkey) exrd 1000 [] None false = Ok (ex_signed2, rd', None))
  /\ (exists m, read exH ex_signed2 (KR_Key exkey) [] None false 1200 = Ok m /\ m_had_tsig m = true
                /\ length (m_recs m) = 2%nat)
  /\ (exists s3, get_section_n exH ex_signed2 (KR_Key exkey) [] 1200 false 3 2 0 1
                   {| r_pos := 19; r_tsig := None; r_ctx := None; r_recs := []; r_opt := false; r_origin := None |} = Ok s3
                 /\ r_pos s3 = length exwire2).
Proof.
  split; [eexists; vm_compute; reflexivity|].
  split; [eexists; split; [vm_compute; reflexivity|split; reflexivity]|].
  eexists; split; [vm_compute; reflexivity|reflexivity].
Qed.

(* from_wire(origin=...): the origin does not enter the key lookup or validation - read with the key
   name itself, an ancestor of it, or an unrelated name as origin, with Key and dict keyrings *)
Example ex_read_with_origin :
  (exists m, read_gen exH (Some (kname exkey)) ex_signed2 (KR_Key exkey) [] None false 1200 = Ok m /\ m_had_tsig m = true)
  /\ (exists m, read_gen exH (Some [[]]) ex_signed2 (KR_Dict [(kname exkey, inl exkey)]) [] None false 1200 = Ok m /\ m_had_tsig m = true)
  /\ (exists m, read_gen exH (Some [[120]; []]) ex_signed2 (KR_Dict [(kname exkey, inr (ksecret exkey))]) [] None false 1200 = Ok m
                /\ m_had_tsig m = true).
Proof. repeat split; eexists; split; vm_compute; reflexivity. Qed.
