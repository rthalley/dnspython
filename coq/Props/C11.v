(* C11 - versioned readers see one snapshot; version retention is sound.
   Model: Model/VersM.v (dns/versioned.py Zone bookkeeping).  `after ops` is the state reached from a
   new zone by ANY list of operations (reader open by latest/id/serial, reader end, writer begin /
   replace / delete / commit / rollback, set_max_versions, set_pruning_policy with an arbitrary
   policy function); failing operations leave the state unchanged, as in the code. *)
From DV Require Import Base.Prelude Model.VersM Proofs.VersInv Proofs.VersThms.
From Coq Require Import Sorting.Sorted.
Import VersM.

(* version ids strictly increase over the whole history (hist = every version ever committed),
   and history is append-only *)
Theorem ids_strictly_increase : forall ops1 ops2,
  StronglySorted Z.lt (map vid (hist (after (ops1 ++ ops2)))) /\
  exists new, hist (after (ops1 ++ ops2)) = hist (after ops1) ++ new.
Proof. exact T_ids_strictly_increase. Qed.
Print Assumptions ids_strictly_increase.

Theorem commit_id_fresh : forall ops s' r w,
  wtxn (after ops) = Some w -> wchanged w = true -> step (after ops) WCommit = Ok (s', r) ->
  hist s' = hist (after ops) ++ [mkV (wid w) (wcont w)] /\ forall v, In v (hist (after ops)) -> vid v < wid w.
Proof. exact T_commit_id_fresh. Qed.
Print Assumptions commit_id_fresh.

(* the retained versions are a contiguous run of history: a suffix ... *)
Theorem retained_contiguous_suffix : forall ops,
  exists dropped, hist (after ops) = dropped ++ versions (after ops).
Proof. exact T_retained_contiguous_suffix. Qed.
Print Assumptions retained_contiguous_suffix.

(* ... that contains the newest version ... *)
Theorem newest_retained : forall ops,
  exists v, last_opt (versions (after ops)) = Some v /\ last_opt (hist (after ops)) = Some v.
Proof. exact T_newest_retained. Qed.
Print Assumptions newest_retained.

(* ... and every version pinned by an open reader *)
Theorem pinned_retained : forall ops r,
  In r (readers (after ops)) -> exists v, In v (versions (after ops)) /\ vid v = rvid r.
Proof. exact T_pinned_retained. Qed.
Print Assumptions pinned_retained.

(* and is otherwise exactly what the policy allows: nothing prunable is ever left (the oldest
   retained version is the newest, or pinned, or refused by the policy) ... *)
Theorem prune_maximal : forall ops v rest,
  versions (after ops) = v :: rest ->
  rest = [] \/ (exists r, In r (readers (after ops)) /\ rvid r <= vid v) \/
  policy (after ops) (versions (after ops)) v = false.
Proof. exact T_prune_maximal. Qed.
Print Assumptions prune_maximal.

(* ... and nothing is dropped that the policy wanted to keep: every operation either leaves the
   deque alone or removes exactly what the pruning loop removes (`pruned`: oldest first, each below
   least_kept and approved by the policy on the deque as it was then) *)
Theorem prune_sound : forall ops o s' r,
  step (after ops) o = Ok (s', r) ->
  versions s' = versions (after ops) \/
  exists vs0 least,
    (vs0 = versions (after ops) \/
     exists nv, vs0 = versions (after ops) ++ [nv] /\ hist s' = hist (after ops) ++ [nv]) /\
    least_kept vs0 (readers s') = Ok least /\ pruned (policy s') least vs0 (versions s').
Proof. exact T_prune_sound. Qed.
Print Assumptions prune_sound.

(* a reader is opened on the version that is current (or the one requested by id / serial) ... *)
Theorem open_reads_requested : forall ops o s' h i c,
  step (after ops) o = Ok (s', ROpened h i c) ->
  read s' h = Some c /\
  exists v, In v (versions (after ops)) /\ vid v = i /\ vcont v = c /\
    match o with
    | OpenLatest => last_opt (versions (after ops)) = Some v
    | OpenId j => i = j
    | OpenSerial x => serial_of c = Some x
    | _ => False
    end.
Proof. exact T_open_reads_requested. Qed.
Print Assumptions open_reads_requested.

(* reader(serial=) opens the newest retained version carrying that serial *)
Theorem open_serial_newest : forall ops x s' h i c,
  step (after ops) (OpenSerial x) = Ok (s', ROpened h i c) ->
  forall v', In v' (versions (after ops)) -> serial_of (vcont v') = Some x -> vid v' <= i.
Proof. exact T_open_serial_newest. Qed.
Print Assumptions open_serial_newest.

(* ... and reads that same content for its whole life, whatever happens meanwhile *)
Theorem snapshot_stable : forall ops1 ops2 h c,
  read (after ops1) h = Some c -> ~ In (Close h) ops2 -> read (after (ops1 ++ ops2)) h = Some c.
Proof. exact T_snapshot_stable. Qed.
Print Assumptions snapshot_stable.

(* the asserts / deque[0] / deque[-1] / min() of the code never fail in any history *)
Theorem no_internal_error : forall ops o e, step (after ops) o <> Internal e.
Proof. exact T_no_internal_error. Qed.
Print Assumptions no_internal_error.

(* non-vacuity: a history with pinned readers, pruning and a policy change *)
Definition ex_ops : list op :=
  [ WBegin true; WPut 0 1; WPut 2 5; WCommit;            (* version 2, serial 1 *)
    OpenLatest;                                          (* reader 0 on version 2 *)
    WBegin false; WPut 2 6; WPut 0 2; WCommit;           (* version 3 *)
    OpenSerial 2;                                        (* reader 1 on version 3 *)
    WBegin false; WDel 2; WCommit;                       (* version 4 *)
    SetMax (Some 2); Close 0;                            (* version 2 goes *)
    WBegin false; WPut 3 1; WCommit ].                   (* version 5; version 3 pinned by reader 1 *)

Example ex_retained : map vid (versions (after ex_ops)) = [3; 4; 5] /\
                      map vid (hist (after ex_ops)) = [1; 2; 3; 4; 5].
Proof. vm_compute. split; reflexivity. Qed.

Example ex_reader_pinned : read (after ex_ops) 1 = Some [(0, 2); (2, 6)] /\
                           readers (after ex_ops) = [mkR 1 3].
Proof. vm_compute. split; reflexivity. Qed.

Example ex_snapshot_hyp : read (after (firstn 10 ex_ops)) 1 = Some [(0, 2); (2, 6)] /\
                          ~ In (Close 1) (skipn 10 ex_ops).
Proof.
  split; [vm_compute; reflexivity|].
  cbn. intros H. repeat (destruct H as [H|H]; [discriminate H|]). exact H.
Qed.

Example ex_open_hyp : exists s', step (after (firstn 9 ex_ops)) (OpenSerial 2) = Ok (s', ROpened 1 3 [(0, 2); (2, 6)]).
Proof. eexists. vm_compute. reflexivity. Qed.

Example ex_commit_hyp : exists w, wtxn (after (firstn 8 ex_ops)) = Some w /\ wchanged w = true /\ wid w = 3.
Proof. eexists. vm_compute. repeat split; reflexivity. Qed.

(* the policy disjunct of prune_maximal is really used: with set_max_versions(None) nothing is pruned *)
Example ex_policy_keeps :
  let s := after [SetMax None; WBegin false; WPut 2 1; WCommit; WBegin false; WPut 2 2; WCommit] in
  map vid (versions s) = [1; 2; 3] /\ readers s = [] /\ policy s (versions s) (mkV 1 []) = false.
Proof. vm_compute. repeat split; reflexivity. Qed.
