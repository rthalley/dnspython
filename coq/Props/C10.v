(* C10 - zone transactions match a reference model and are all-or-nothing.
   Model: Model/TxnM.v.  `impl_hist` is dns.transaction.Transaction over the zone's WritableVersion
   (validated / relativized keys, copy-on-write node map, Node list surgery); `spec_hist` is the same
   transaction front-end over the flat reference store (absolute owner, rdataset) with declarative
   CNAME/other-data exclusivity.  Proofs: Proofs/Txn*.v. *)
From DV Require Import Base.Prelude Model.NameM Model.TxnM.
From DV Require Import Proofs.NameValid Proofs.TxnName Proofs.TxnStore Proofs.TxnLow Proofs.TxnSim Proofs.TxnThm
                       Proofs.TxnIrrel Proofs.TxnSpec Proofs.TxnInv Proofs.TxnItems Proofs.TxnAbs Proofs.TxnHeap Proofs.TxnCount Proofs.TxnObj Proofs.TxnObjR Proofs.TxnBtree Proofs.TxnHook.
Open Scope Z_scope.

(* Any history of transactions - every operation and argument form, manual commit/rollback or with-block,
   an exception injected after any index - gives on the zone model and on the reference store the same
   result for every call (values and exception classes), and published zones that stay related after
   every transaction. *)
Theorem refines :
  forall c h z l, wfc c -> Forall spec_valid h -> RP c z l ->
  Forall2 (ROut (RP c)) (impl_hist c h z) (spec_hist c h l).
Proof. exact refines_hist. Qed.
Print Assumptions refines.

(* The refinement with EVERY call of a transaction inside, the iterate calls included (iterate_names /
   iterate_rdatasets count the names and rdatasets of the private state): the relation is strengthened with
   the structural well-formedness of the node map and "owners of the reference store are canonical". *)
Theorem refines_with_iteration :
  forall c h z l, wfc c -> Forall spec_valid_it h -> RP2 c z l ->
  Forall2 (ROut (RP2 c)) (impl_hist c h z) (spec_hist c h l).
Proof. exact refines_iter. Qed.
Print Assumptions refines_with_iteration.

Theorem every_wellformed_zone_is_related_to_its_abstraction :
  forall c m, wfc c -> zwf c m -> RP2 c m (abs c m).
Proof. exact RP2_abs. Qed.
Print Assumptions every_wellformed_zone_is_related_to_its_abstraction.

(* The same with the abstraction function: a well-formed node map z (no duplicate key, validated keys, no
   empty node, one rdataset per type) denotes the reference store `abs c z`; for every such zone,
   abs (exec_impl h z) ~ exec_spec h (abs z) with equal results, and well-formedness is preserved. *)
Theorem refines_from_any_wellformed_zone :
  forall c h z, wfc c -> Forall spec_valid h -> zwf c z ->
  Forall2 (fun x y => fst x = fst y /\ zwf c (snd x) /\ store_equiv c (abs c (snd x)) (snd y))
          (impl_hist c h z) (spec_hist c h (abs c z)).
Proof. exact refines_abs. Qed.
Print Assumptions refines_from_any_wellformed_zone.

Theorem wellformed_zone_denotes_its_abstraction :
  forall c m, wfc c -> zwf c m -> RP c m (abs c m).
Proof. exact RP_abs. Qed.
Print Assumptions wellformed_zone_denotes_its_abstraction.

Theorem no_empty_node_under_any_key :
  forall c h z, wfc c -> Forall spec_valid h -> zwf c z ->
  Forall (fun x => Forall (fun kn => snd kn <> []) (snd x)) (impl_hist c h z).
Proof. exact no_empty_node_anywhere. Qed.
Print Assumptions no_empty_node_under_any_key.

(* iterate_names / iterate_rdatasets (the one observation `refines` leaves out): a well-formed version counts
   exactly the distinct owners and the records of its abstraction *)
Theorem iteration_counts_are_those_of_the_abstraction :
  forall c m ch d, wfc c -> zwf c m ->
  s_count (zstore c) (mkVer m ch) = s_count (rstore c) (mkRst (abs c m) d).
Proof. exact iter_counts_abs. Qed.
Print Assumptions iteration_counts_are_those_of_the_abstraction.

(* "related" for an observer: Zone.get_node(name) shows, for every owner name in either spelling, exactly
   the rdatasets of the reference store for that owner *)
Theorem related_zones_look_the_same :
  forall c z l n, wfc c -> Valid n -> RP c z l -> zone_get_node c z n = ref_node c l n.
Proof. exact RP_observe. Qed.
Print Assumptions related_zones_look_the_same.

(* empty nodes are removed *)
Theorem empty_nodes_removed :
  forall c z l n nd, wfc c -> Valid n -> RP c z l -> zone_get_node c z n = Some nd -> nd <> [].
Proof. exact RP_no_empty_node. Qed.
Print Assumptions empty_nodes_removed.

(* all-or-nothing: a with-block left through an exception, raised by an operation or injected by the
   caller after any index, leaves the published zone exactly as it was (for any store) *)
Theorem atomic :
  forall P S (st : store P S) c ops fault z t outs z',
  no_commit ops -> run_with st c ops fault z t = (outs, z') -> existsb is_err outs = true -> z' = z.
Proof. exact @atomic_with_abort. Qed.
Print Assumptions atomic.

Theorem atomic_every_crash_point :
  forall P S (st : store P S) c ops k z t, no_commit ops -> snd (run_with st c ops (Some k) z t) = z.
Proof. exact @atomic_crash_point. Qed.
Print Assumptions atomic_every_crash_point.

Theorem atomic_without_commit :
  forall P S (st : store P S) c ops z t, no_commit ops -> snd (run_manual st c ops z t) = z.
Proof. exact @atomic_manual_no_commit. Qed.
Print Assumptions atomic_without_commit.

(* ... and a with-block whose calls all succeed commits: the published zone becomes the transaction's own
   view (its private state, which its reads saw) if it changed anything *)
Theorem clean_exit_publishes_the_transaction_view :
  forall P S (st : store P S) c ops z t outs z',
  no_end ops -> t_ended t = false ->
  run_with st c ops None z t = (outs, z') -> existsb is_err outs = false ->
  exists t', final_txn st c ops z t = Some t' /\
             z' = if negb (t_ro t') && s_changed st (t_st t') then s_publish st (t_st t') else z.
Proof. exact @clean_exit_commits. Qed.
Print Assumptions clean_exit_publishes_the_transaction_view.

(* All-or-nothing at the level of objects (the object-level model `hstore`: node objects with identity, the
   open version sharing them with the published zone, copy-on-write): whatever calls succeed inside a
   transaction, and however it ends, every node object that existed when it began still holds what it held -
   so the published zone and every older version are intact. *)
Theorem published_objects_never_mutated :
  forall c z mode ops t',
  ids_ok (fst z) (snd z) -> Forall op_valid ops ->
  final_txn (hstore c) c ops z (open_txn (hstore c) mode z) = Some t' ->
  forall id, (id < length (fst z))%nat -> hnode (hv_heap (t_st t')) id = hnode (fst z) id.
Proof. exact TxnHeap.published_objects_never_mutated. Qed.
Print Assumptions published_objects_never_mutated.

(* The same one level deeper, where Rdataset / ImmutableRdataset objects have identity too (a copied node shares
   its rdataset objects with the published node; in a plain zone they are mutable): every rdataset object -
   value and mutability - and every node object that existed when the transaction began is exactly as it was,
   because every in-place method is applied to an object the transaction created itself (the clone of
   union/intersection/difference, the Rdataset copy of an ImmutableRdataset in _add, the copied node).  An
   in-place edit of a published rdataset is thereby excluded for this model. *)
Theorem published_rdataset_objects_never_mutated :
  forall c rh nh m mode ops t',
  o_final c ops (rh, nh, m) (o_open mode (rh, nh, m)) = Some t' ->
  (forall i, (i < length rh)%nat -> nth i (ov_rh (t_st t')) robj0 = nth i rh robj0) /\
  (forall i, (i < length nh)%nat -> nth i (ov_nh (t_st t')) [] = nth i nh []).
Proof. exact published_rdatasets_never_mutated. Qed.
Print Assumptions published_rdataset_objects_never_mutated.

(* all-or-nothing for the published triple (rdataset objects, node objects, node map) of the object model *)
Theorem object_level_atomic_every_crash_point :
  forall c ops k z t, no_commit ops -> snd (o_run_with c ops (Some k) z t) = z.
Proof. exact o_atomic_crash_point. Qed.
Print Assumptions object_level_atomic_every_crash_point.

Theorem object_level_atomic_without_commit :
  forall c ops z t, no_commit ops -> snd (o_run_manual c ops z t) = z.
Proof. exact o_atomic_no_commit. Qed.
Print Assumptions object_level_atomic_without_commit.

Theorem object_level_ended_refuses_all :
  forall c o z (t : txn (S:=over)), t_ended t = true -> o_step c o z t = Lib eAlreadyEnded.
Proof. exact o_ended_refuses. Qed.
Print Assumptions object_level_ended_refuses_all.

(* commit (incl. the ImmutableVersion wrapping of versioned / B-tree zones) only allocates new objects *)
Theorem commit_never_mutates_objects :
  forall c v,
  let '(rh', nh', _) := o_publish c v in
  (forall i, (i < length (ov_rh v))%nat -> nth i rh' robj0 = nth i (ov_rh v) robj0) /\
  (forall i, (i < length (ov_nh v))%nat -> nth i nh' [] = nth i (ov_nh v) []).
Proof. exact publish_never_mutates. Qed.
Print Assumptions commit_never_mutates_objects.

(* the rdataset-object model refines the value-level model: same result for every call of every history
   (iterate calls included), for plain, versioned and B-tree style commits alike, and the published objects
   dereference to the published value (`published_objects_dereference_to_the_value`) *)
Theorem rdataset_object_level_refines_value_level :
  forall c h oz z, Forall spec_items_wf h -> RPo oz z ->
  Forall2 ROuto (obj_hist c h oz) (impl_hist c h z).
Proof. exact obj_refines_value. Qed.
Print Assumptions rdataset_object_level_refines_value_level.

(* the whole chain in one statement: the rdataset-object model and the reference store give the same results *)
Theorem rdataset_object_level_refines_the_reference_store :
  forall c h oz z l, wfc c -> Forall spec_valid h -> Forall spec_items_wf h -> RPo oz z -> RP c z l ->
  Forall2 (fun x y => fst x = fst y /\ exists z', RPo (snd x) z' /\ RP c z' (snd y)) (obj_hist c h oz) (spec_hist c h l).
Proof. exact obj_refines_reference. Qed.
Print Assumptions rdataset_object_level_refines_the_reference_store.

Theorem published_objects_dereference_to_the_value :
  forall oz z, RPo oz z -> z = oderef oz.
Proof. exact RPo_oderef. Qed.
Print Assumptions published_objects_dereference_to_the_value.

(* the object-level model refines the value-level model that `refines` is about: same results for every
   call, and the published objects dereference to the published value *)
Theorem object_level_refines_value_level :
  forall c h hz z, Forall spec_valid h -> RPh hz z ->
  Forall2 (ROut RPh) (heap_hist c h hz) (impl_hist c h z).
Proof. exact heap_refines_value. Qed.
Print Assumptions object_level_refines_value_level.

(* ended transactions refuse every call; read-only transactions refuse every write *)
Theorem ended_refuses_all :
  forall P S (st : store P S) c o z t, t_ended t = true -> step st c o z t = Lib eAlreadyEnded.
Proof. exact @ended_refuses. Qed.
Print Assumptions ended_refuses_all.

Theorem commit_and_rollback_end :
  forall P S (st : store P S) commit z t z' t', hl_end st commit z t = Ok (z', t') -> t_ended t' = true.
Proof. exact @end_ends. Qed.
Print Assumptions commit_and_rollback_end.

Theorem readonly_refuses_writes :
  forall P S (st : store P S) c o z t,
  t_ended t = false -> t_ro t = true -> is_write o = true -> step st c o z t = Lib eReadOnly.
Proof. exact @readonly_refuses. Qed.
Print Assumptions readonly_refuses_writes.

Theorem readonly_changes_nothing :
  forall P S (st : store P S) c o z t x z' t',
  t_ro t = true -> step st c o z t = Ok (x, z', t') -> z' = z /\ t_st t' = t_st t /\ t_ro t' = true.
Proof. exact @readonly_never_changes. Qed.
Print Assumptions readonly_changes_nothing.

(* "identically for ... B-tree zones", for the overrides themselves: dns.btreezone.WritableVersion (node
   flags, delegation index, update_glue_flag re-creating the nodes beneath a cut) as a store gives the same
   result for every call of every history as the base WritableVersion, and the same content under every key *)
Theorem btree_overrides_leave_content_alone :
  forall c h bz z, Forall spec_valid h -> RPb bz z ->
  Forall2 (ROut RPb) (btree_hist c h bz) (impl_hist c h z).
Proof. exact btree_refines_value. Qed.
Print Assumptions btree_overrides_leave_content_alone.

(* check_put_rdataset / check_delete_rdataset / check_delete_name: the checks are a store transformer, so the
   store-generic theorems (atomic, ended_refuses_all, ...) hold with checks installed; the refinement lifts *)
Theorem refines_with_checks_installed :
  forall c, wfc c -> forall hk h z l, Forall spec_valid h -> RP c z l ->
  Forall2 (ROut (RP c)) (run_hist (hooked (zstore c) hk) c h z) (run_hist (hooked (rstore c) hk) c h l).
Proof. exact refines_hooked. Qed.
Print Assumptions refines_with_checks_installed.

Theorem a_check_that_objects_vetoes_the_put :
  forall P S (st : store P S) hk s n r e,
  run_hooks st (hk_put hk) s n (r_ty r) (r_ttl r) = Lib e -> s_put (hooked st hk) s n r = Lib e.
Proof. exact @put_check_vetoes. Qed.
Print Assumptions a_check_that_objects_vetoes_the_put.

(* Two histories that differ only in how owner names are spelled (relative or absolute, letter case:
   `ES`), run on zones of any class with relativize on or off (c1, c2 share only the origin) that hold
   the same content, give the same result for every call and end with the same content. *)
Theorem name_form_irrelevant :
  forall c1 c2, wfc c1 -> wfc c2 -> c_origin c1 = c_origin c2 ->
  forall h1 h2 z1 z2, Forall2 (spec_rel (ES c1 c2)) h1 h2 -> same_zone c1 c2 z1 z2 ->
  Forall2 (fun x y => fst x = fst y /\ same_zone c1 c2 (snd x) (snd y)) (impl_hist c1 h1 z1) (impl_hist c2 h2 z2).
Proof. exact impl_irrelevant. Qed.
Print Assumptions name_form_irrelevant.

Theorem same_content_looks_the_same :
  forall c1 c2, wfc c1 -> wfc c2 ->
  forall z1 z2 n1 n2, same_zone c1 c2 z1 z2 -> ES c1 c2 n1 n2 -> zone_get_node c1 z1 n1 = zone_get_node c2 z2 n2.
Proof. exact same_zone_observe. Qed.
Print Assumptions same_content_looks_the_same.

(* the spellings the property names are instances of ES *)
Theorem relative_and_absolute_are_the_same_owner :
  forall c r, wfc c -> Valid r -> is_absolute r = false -> Valid (r ++ c_origin c) -> ES c c r (r ++ c_origin c).
Proof. exact ES_rel_abs. Qed.
Print Assumptions relative_and_absolute_are_the_same_owner.

Theorem letter_case_is_the_same_owner :
  forall c n n', wfc c -> Valid n -> Valid n' -> ci n n' -> is_absolute n = true -> ES c c n n'.
Proof. exact ES_case. Qed.
Print Assumptions letter_case_is_the_same_owner.

Theorem letter_case_of_a_relative_name_is_the_same_owner :
  forall c r r', wfc c -> Valid r -> Valid r' -> ci r r' -> is_absolute r = false -> ES c c r r'.
Proof. exact ES_case_rel. Qed.
Print Assumptions letter_case_of_a_relative_name_is_the_same_owner.

(* get after put on the reference store: the stored rdataset; CNAME / other-data exclusivity *)
Theorem reference_get_after_put :
  forall c s n r s' n' a a' ty cov,
  swf (rs_entries s) -> r_cls r = cIN -> canon c n = Ok a -> canon c n' = Ok a' ->
  r_put c s n r = Ok s' ->
  r_get c s' n' ty cov =
  if name_eqb a a' then
    if (r_ty r =? ty) && (r_cov r =? cov) then Ok (Some r)
    else match r_get c s n' ty cov with
         | Ok (Some x) => if evicts_rds (classify_rds r) x then Ok None else Ok (Some x)
         | o => o
         end
  else r_get c s n' ty cov.
Proof. exact r_get_put. Qed.
Print Assumptions reference_get_after_put.

Theorem reference_get_after_delete :
  forall c s n s' n' a a' ty0 cov0 ty cov,
  swf (rs_entries s) -> canon c n = Ok a -> canon c n' = Ok a' ->
  r_del_rds c s n ty0 cov0 = Ok s' ->
  r_get c s' n' ty cov = if name_eqb a a' && (ty0 =? ty) && (cov0 =? cov) then Ok None else r_get c s n' ty cov.
Proof. exact r_get_del_rds. Qed.
Print Assumptions reference_get_after_delete.

Theorem reference_exists_after_delete_name :
  forall c s n s' n' a a',
  canon c n = Ok a -> canon c n' = Ok a' -> r_del_name c s n = Ok s' ->
  r_exists c s' n' = if name_eqb a a' then Ok false else r_exists c s n'.
Proof. exact r_exists_del_name. Qed.
Print Assumptions reference_exists_after_delete_name.

(* merge: TTL minimisation, union for plain types, newest record for singleton types *)
Theorem merge_ttl_is_min :
  forall e r, r_ttl (rds_union e r) = match r_items e with [] => r_ttl r | _ => Z.min (r_ttl e) (r_ttl r) end.
Proof. exact union_ttl. Qed.
Print Assumptions merge_ttl_is_min.

Theorem merge_plain_is_union :
  forall e r, is_singleton (r_ty e) = false ->
  (forall x, mem x (r_items (rds_union e r)) = mem x (r_items e) || mem x (r_items r)) /\
  exists suffix, r_items (rds_union e r) = r_items e ++ suffix.
Proof. exact union_items_plain. Qed.
Print Assumptions merge_plain_is_union.

Theorem merge_singleton_keeps_newest :
  forall e r, is_singleton (r_ty e) = true ->
  r_items (rds_union e r) = match rev (r_items r) with [] => r_items e | newest :: _ => [newest] end.
Proof. exact union_items_singleton. Qed.
Print Assumptions merge_singleton_keeps_newest.

Theorem delete_is_difference :
  forall e r, NoDup (r_items e) ->
  (forall x, mem x (r_items (rds_difference e r)) = mem x (r_items e) && negb (mem x (r_items r))) /\
  r_ttl (rds_difference e r) = r_ttl e.
Proof. exact difference_items. Qed.
Print Assumptions delete_is_difference.

Theorem delete_exact_test :
  forall e r, r_cls e = r_cls r -> tkey e = tkey r -> NoDup (r_items e) -> NoDup (r_items r) ->
  (rds_eqb (rds_intersection e r) r = true <-> forall x, In x (r_items r) -> In x (r_items e)).
Proof. exact exact_test. Qed.
Print Assumptions delete_exact_test.

(* reads inside a transaction see its own writes (zone model) *)
Theorem read_your_writes :
  forall c, wfc c -> forall v s n r v' n',
  R c v s -> Valid n -> Valid n' -> r_cls r = cIN -> res_rel ci (canon c n) (canon c n') ->
  put_rdataset c v n r = Ok v' ->
  match canon c n with
  | Ok _ => get_rdataset c v' n' (r_ty r) (r_cov r) = Ok (Some r)
  | _ => True
  end.
Proof. exact TxnSpec.read_your_writes. Qed.
Print Assumptions read_your_writes.

Theorem add_then_get_returns_the_union :
  forall c, wfc c -> forall v s n r v',
  R c v s -> Valid n -> r_cls r = cIN -> (r_ty r =? tSOA) = false ->
  hl_add (zstore c) c false [AName n; ARds r] v = Ok v' ->
  exists old, get_rdataset c v n (r_ty r) (r_cov r) = Ok old /\
    get_rdataset c v' n (r_ty r) (r_cov r) = Ok (Some (match old with Some e => rds_union e r | None => r end)).
Proof. exact add_then_get. Qed.
Print Assumptions add_then_get_returns_the_union.

(* RFC 1982 serial increments (dns.serial.Serial.__add__ as used by update_serial) *)
Theorem serial_rfc1982 :
  forall v d, 0 <= v < 4294967296 -> 1 <= d <= 2147483647 ->
  exists s, serial_add v d = Ok s /\ s = (v + d) mod 4294967296 /\ serial_lt v s.
Proof. exact serial_increment. Qed.
Print Assumptions serial_rfc1982.

Theorem serial_rfc1982_zero_skipped :
  forall v d s, 0 <= v < 4294967296 -> 1 <= d <= 2147483646 -> serial_add v d = Ok s -> serial_lt v (bump s).
Proof. exact serial_increment_bumped. Qed.
Print Assumptions serial_rfc1982_zero_skipped.

Theorem serial_too_large_increment_refused :
  forall v d, d > 2147483647 -> serial_add v d = Lib eValueError.
Proof. exact serial_increment_refused. Qed.
Print Assumptions serial_too_large_increment_refused.

(* the one corner where "0 becomes 1" lands at distance exactly 2^31 (undefined in RFC 1982) *)
Theorem serial_zero_skip_corner_refuted :
  exists v d s, 0 <= v < 4294967296 /\ 1 <= d <= 2147483647 /\ serial_add v d = Ok s /\
                ~ serial_lt v (bump s) /\ ~ serial_lt (bump s) v.
Proof. exact serial_corner_refuted. Qed.
Print Assumptions serial_zero_skip_corner_refuted.

(* update_serial as a public call on the reference store (and, by `refines`, on the zone): the SOA then
   holds the RFC 1982 sum, 1 instead of 0, TTL and other fields unchanged *)
Theorem update_serial_stores_the_rfc1982_sum :
  forall c s body serial items ttl value,
  wfc c -> swf (rs_entries s) ->
  r_get c s NameM.empty tSOA 0 = Ok (Some (mkRds cIN tSOA 0 ttl ((body, serial) :: items))) ->
  0 <= value <= 2147483647 ->
  exists s',
    hl_update_serial (rstore c) c value true None (mkTxn s false false) = Ok (mkTxn s' false false) /\
    r_get c s' NameM.empty tSOA 0 =
      Ok (Some (mkRds cIN tSOA 0 ttl [(body, bump ((serial mod 4294967296 + value) mod 4294967296))])).
Proof. exact update_serial_effect. Qed.
Print Assumptions update_serial_stores_the_rfc1982_sum.

(* update_serial, the full table: every value, relative or absolute, given an SOA at the origin *)
Theorem update_serial_full_table :
  forall c, wfc c -> forall s body serial items ttl value relative,
  swf (rs_entries s) ->
  r_get c s [] tSOA 0 = Ok (Some (mkRds cIN tSOA 0 ttl ((body, serial) :: items))) ->
  let t := mkTxn s false false in
  let result := hl_update_serial (rstore c) c value relative None t in
  if value <? 0 then result = Lib eValueError
  else if relative && (value >? 2147483647) then result = Lib eValueError
  else
    let sum := if relative then (serial mod 4294967296 + value) mod 4294967296 else value mod 4294967296 in
    exists s', result = Ok (mkTxn s' false false) /\
               r_get c s' [] tSOA 0 = Ok (Some (mkRds cIN tSOA 0 ttl [(body, bump sum)])).
Proof. exact update_serial_table. Qed.
Print Assumptions update_serial_full_table.

Theorem update_serial_without_soa_is_keyerror :
  forall c s value relative, 0 <= value -> r_get c s [] tSOA 0 = Ok None ->
  hl_update_serial (rstore c) c value relative None (mkTxn s false false) = Lib eKeyError.
Proof. exact update_serial_no_soa. Qed.
Print Assumptions update_serial_without_soa_is_keyerror.

(* changed() is truthful: while it answers False, the version's node map is literally the one it started from *)
Theorem changed_false_means_untouched :
  forall c mode z ops t',
  Forall op_valid ops ->
  final_txn (zstore c) c ops z (open_txn (zstore c) mode z) = Some t' ->
  s_changed (zstore c) (t_st t') = false ->
  v_nodes (t_st t') = v_nodes (t_st (open_txn (zstore c) mode z)).
Proof. exact changed_is_truthful. Qed.
Print Assumptions changed_false_means_untouched.

(* no Python-level exception escapes: the partial operations of the model (`del self.nodes[name]` in
   delete_rdataset - the KeyError of the defect fixed by 2d6b3bb -, the assertion in _add) never fail *)
Theorem no_python_exception_escapes :
  forall c h z l, wfc c -> Forall spec_valid h -> Forall spec_named h -> RP c z l ->
  Forall (fun x => Forall not_internal (fst x)) (impl_hist c h z).
Proof. exact impl_never_internal. Qed.
Print Assumptions no_python_exception_escapes.

(* singleton rule as an invariant: whatever is added, merged or deleted, every rdataset found in a reachable
   zone is duplicate-free and holds at most one record if its type is SOA, CNAME, DNAME, NSEC or NXT *)
Theorem singleton_and_no_duplicates_invariant :
  forall c h z l, wfc c -> Forall spec_valid h -> Forall spec_items_wf h -> RP c z l -> ent_items_wf l ->
  Forall (fun x => forall n nd, Valid n -> zone_get_node c (snd x) n = Some nd -> Forall items_wf nd) (impl_hist c h z).
Proof. exact singleton_invariant. Qed.
Print Assumptions singleton_and_no_duplicates_invariant.

Definition ex_origin : name := [[101; 120]; []].                    (* ex. *)
Definition ex_cfg : cfg := mkCfg 0 true ex_origin.

Example ex_wfc : wfc ex_cfg.
Proof.
  split; [|reflexivity]. repeat split.
  - repeat constructor; cbn; lia.
  - cbn. lia.
  - repeat constructor. discriminate.
Qed.

Example ex_related : RP ex_cfg [] [].
Proof. apply RP_empty. Qed.

Definition ex_www : name := [[119]].                               (* w   (relative) *)
Definition ex_www_abs : name := [[119]; [101; 120]; []].           (* w.ex. *)
Definition ex_a : rds := mkRds 1 1 0 300 [(1, 0)].
Definition ex_hist : list txnspec :=
  [ mkSpec 0 1 [OAdd [AName ex_www; ARds ex_a]] None;                                   (* committed *)
    mkSpec 0 1 [ODelete [AName ex_www_abs; AInt 1]; OExists (AName ex_www)] (Some 2%nat) ]. (* aborted  *)

Example ex_valid : Forall spec_valid ex_hist.
Proof.
  assert (Valid ex_www) by (repeat split; [repeat constructor; cbn; lia|cbn; lia|constructor]).
  assert (Valid ex_www_abs).
  { repeat split; [repeat constructor; cbn; lia|cbn; lia|repeat constructor; discriminate]. }
  unfold ex_hist. constructor; [|constructor; [|constructor]]; unfold spec_valid; cbn [x_ops].
  - constructor; [|constructor]. cbn [op_valid]. constructor; [exact H|constructor; [exact Logic.I|constructor]].
  - constructor; [|constructor; [|constructor]]; cbn [op_valid arg_valid]; auto.
    constructor; [exact H0|constructor; [exact Logic.I|constructor]].
Qed.

(* the last rdataset of a node deleted through the absolute spelling, in a relativized zone (the
   sequence that raised KeyError before fix 2d6b3bb), then the abort leaves the committed content *)
Example ex_run :
  map (fun x => (map obs_of_out (fst x), snd x)) (impl_hist ex_cfg ex_hist []) =
  [ ([N], [(ex_www, [ex_a])]);
    ([N; ob false; E eInjected], [(ex_www, [ex_a])]) ].
Proof. vm_compute. reflexivity. Qed.

(* the two spellings of `w` in zone ex. are the same owner; the two configurations hold the same content *)
Example ex_same_owner : ES ex_cfg (mkCfg 2 false ex_origin) ex_www ex_www_abs.
Proof.
  split; [|split]; [| |vm_compute; reflexivity].
  - repeat split; [repeat constructor; cbn; lia|cbn; lia|constructor].
  - repeat split; [repeat constructor; cbn; lia|cbn; lia|repeat constructor; discriminate].
Qed.

Example ex_same_zone : same_zone ex_cfg (mkCfg 2 false ex_origin) [] [].
Proof. exists [], []. split; [apply RP_empty|split; [apply RP_empty|constructor]]. Qed.

Example ex_named : Forall spec_named ex_hist.
Proof. repeat constructor. Qed.

Example ex_items_wf : Forall spec_items_wf ex_hist /\ ent_items_wf [].
Proof.
  split; [|constructor]. unfold ex_hist, spec_items_wf. repeat constructor; cbn; try lia; try (intros []).
Qed.

(* hypotheses of the reference-store laws *)
Example ex_law_hyps :
  swf [] /\ canon ex_cfg ex_www = Ok ex_www_abs /\ canon ex_cfg ex_www_abs = Ok ex_www_abs /\
  exists s', r_put ex_cfg (mkRst [] false) ex_www ex_a = Ok s'.
Proof.
  split; [intros a; apply node_wf_nil|]. split; [reflexivity|]. split; [reflexivity|]. eexists. reflexivity.
Qed.

Example ex_zwf : zwf ex_cfg [] /\ zwf ex_cfg [(ex_www, [ex_a])].
Proof.
  split; [apply zwf_nil|]. split; [cbn; auto|]. constructor; [|constructor]. cbn [fst snd]. split.
  - split; [repeat split; [repeat constructor; cbn; lia|cbn; lia|constructor]|reflexivity].
  - split; [discriminate|]. split; [repeat constructor; intros []|repeat constructor].
Qed.

Example ex_heap : RPh ([], []) [] /\ ids_ok (@nil node) [].
Proof. split; [apply RPh_empty|intros i []]. Qed.

(* object identities: the committed add allocates a new node object (id 0); the aborted delete copies it
   (id 1, garbage after the abort) and the published map still points to object 0, which is untouched *)
Example ex_heap_run :
  map snd (heap_hist ex_cfg ex_hist ([], [])) =
  [ ([[ex_a]], [(ex_www, 0%nat)]); ([[ex_a]], [(ex_www, 0%nat)]) ].
Proof. vm_compute. reflexivity. Qed.

Example ex_related2 : RP2 ex_cfg [] [].
Proof. apply RP2_empty. Qed.

Example ex_iter_valid :
  Forall spec_valid_it [mkSpec 0 1 [OAdd [AName ex_www; ARds ex_a]; OIter] None] /\
  map fst (impl_hist ex_cfg [mkSpec 0 1 [OAdd [AName ex_www; ARds ex_a]; OIter] None] []) = [[Ok RNone; Ok (RPair 1 1)]].
Proof.
  split; [|vm_compute; reflexivity]. constructor; [|constructor]. constructor; [|constructor; [exact Logic.I|constructor]].
  cbn. constructor; [|constructor; [exact Logic.I|constructor]].
  repeat split; [repeat constructor; cbn; lia|cbn; lia|constructor].
Qed.

(* the rdataset-object model on the example history: the committed add creates rdataset object 0 (mutable, plain
   zone) held by node object 0; the aborted transaction leaves both; o_final is defined on it *)
Example ex_obj_run :
  map snd (obj_hist ex_cfg ex_hist ([], [], [])) =
  [ ([mkRobj ex_a false], [[0%nat]], [(ex_www, 0%nat)]); ([mkRobj ex_a false], [[0%nat]], [(ex_www, 0%nat)]) ] /\
  exists t', o_final ex_cfg [ODelete [AName ex_www_abs; AInt 1]] ([mkRobj ex_a false], [[0%nat]], [(ex_www, 0%nat)])
                     (o_open 0 ([mkRobj ex_a false], [[0%nat]], [(ex_www, 0%nat)])) = Some t'.
Proof. split; [vm_compute; reflexivity|]. eexists. vm_compute. reflexivity. Qed.

Example ex_obj_related : RPo ([], [], []) [].
Proof. apply RPo_empty. Qed.

Example ex_btree_related : RPb ([], []) [].
Proof. apply RPb_empty. Qed.

(* NS at `w` (a cut), then a record beneath it: flags DELEGATION (2) and GLUE (4); the origin has ORIGIN (1) *)
Example ex_btree_flags :
  let c := mkCfg 2 true ex_origin in
  let h := [mkSpec 0 1 [OAdd [AName []; ARds (mkRds 1 6 0 300 [(1, 1)])];
                        OAdd [AName ex_www; ARds (mkRds 1 2 0 300 [(1, 0)])];
                        OAdd [AName ([[120]] ++ ex_www); ARds ex_a]] None] in
  map (fun x => map (fun kn => (fst kn, bn_flags (snd kn))) (fst (snd x))) (btree_hist c h ([], [])) =
  [[([], 1); (ex_www, 2); ([[120]] ++ ex_www, 4)]].
Proof. vm_compute. reflexivity. Qed.

(* atomicity with checks installed is an instance of `atomic` *)
Example ex_atomic_hooked :
  forall hk ops k z t, no_commit ops -> snd (run_with (hooked (zstore ex_cfg) hk) ex_cfg ops (Some k) z t) = z.
Proof. intros. apply atomic_every_crash_point. assumption. Qed.
