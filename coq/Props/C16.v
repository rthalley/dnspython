(* C16 - stub resolution reaches the documented outcome under every fault sequence.
   Model: Model/ResolM.v (resolver state machine, reply interpretation, cache, candidate names).
   A script `sc : nat -> outcome` is an arbitrary infinite sequence of per-query outcomes
   (duration + exception class or reply message); `resolve_with fuel sc c cache env` is one
   Resolver.resolve call once the candidate names c_qnames are known. *)
From DV Require Import Base.Prelude Model.NameM Model.ResolM.
From DV Require Import Proofs.ResolBase Proofs.ResolTerm Proofs.ResolTrace Proofs.ResolSpec Proofs.ResolCand Proofs.ResolChain Proofs.ResolBackoff Proofs.ResolMain.
Open Scope Z_scope.

(* Termination within the lifetime, for every script whose clock does not run backwards:
   the fuel `fuel_bound c` (a function of the number of servers, candidate names and the
   lifetime only) is never exhausted; every query is issued strictly before start + lifetime
   with a timeout that ends by then; the call returns at most one back-off interval (2 s)
   after max(start, start + lifetime); LifetimeTimeout is raised only once the lifetime is over. *)
Theorem terminates_within_lifetime : forall sc c ch e f s' e',
  (forall i, 0 <= o_dur (sc i)) ->
  resolve_with (fuel_bound c) sc c ch e = (f, s', e') ->
  f <> FFuel /\
  e_clock e <= e_clock e' <= Z.max (e_clock e) (e_clock e + c_lifetime c) + 2000 /\
  (exists new, e_trace e' = e_trace e ++ new /\ Forall (ev_in_lifetime c (e_clock e)) new) /\
  (forall errs d, f = FLifetime errs d -> d = e_clock e' - e_clock e /\ c_lifetime c <= d).
Proof. exact resolve_terminates_within_lifetime. Qed.
Print Assumptions terminates_within_lifetime.

(* A server that proved broken (query_result took it out of the mix: malformed reply, network
   error, unusable reply content, bad rcode, truncation over TCP) is never asked again within the
   resolution, across all candidate names; and neither list.remove nor an assertion of the
   resolver can fail.  Servers are distinct objects. *)
Theorem broken_never_reasked : forall sc c,
  NoDup (ids (c_servers c)) ->
  forall fuel ch e f s' e',
  resolve_with fuel sc c ch e = (f, s', e') -> f <> FFuel ->
  (exists new, e_trace e' = e_trace e ++ new /\
     ForallOrdPairs (fun a b => ev_drops c a = true -> ev_server b <> ev_server a) new) /\
  (forall k, f <> FInternal k).
Proof. exact broken_never_reasked_resolve. Qed.
Print Assumptions broken_never_reasked.

(* A truncated UDP reply is followed immediately by one TCP query to the same server for the
   same name without back-off; the resolution never ends on a truncated UDP reply; a reply
   truncated over TCP is not retried: that server is not asked again. *)
Theorem tc_retry_once_same_server : forall sc c,
  NoDup (ids (c_servers c)) -> (forall i, 0 <= o_dur (sc i)) ->
  forall ch e f s' e',
  resolve_with (fuel_bound c) sc c ch e = (f, s', e') ->
  exists new, e_trace e' = e_trace e ++ new /\
    adjacent (fun a b => ev_trunc_udp a = true ->
                ev_server b = ev_server a /\ ev_tcp b = true /\ ev_backoff b = 0 /\ ev_qname b = ev_qname a) new /\
    (forall a, last_opt new = Some a -> ev_trunc_udp a = false) /\
    ForallOrdPairs (fun a b => is_trunc (ev_obs a) = true -> ev_tcp a = true -> ev_server b <> ev_server a) new.
Proof. exact tc_retry_resolve. Qed.
Print Assumptions tc_retry_once_same_server.

(* The decision table of Resolver.resolve.  `new` = the queries of this resolution with what came
   back; `outcome_ok` (Proofs/ResolSpec.v, printed below) says, per documented result:
   Answer / NoAnswer: the last reply is the first acceptable NOERROR reply (every earlier reply is
     neither acceptable nor YXDOMAIN) and the Answer is built from it, or it is an unexpired cache
     entry for a candidate name; NoAnswer iff the RRset is absent and raise_on_no_answer;
   NXDOMAIN: the names reported are the candidates and EVERY candidate has NXDOMAIN evidence - an
     acceptable NXDOMAIN reply to a query for it in this resolution, or a cached NXDOMAIN;
   YXDOMAIN: the last reply has rcode YXDOMAIN;  NoNameservers: every configured server was taken
     out of the mix by one of the queries;  LifetimeTimeout: the lifetime has elapsed (or the clock
     went back by more than a second);  nothing else can come out.
   The cache afterwards is exactly `cache_after`: every acceptable reply stored under
   (question name, rdtype, rdclass) resp. (question name, ANY, rdclass) for NXDOMAIN. *)
Theorem outcome_spec : forall sc c ch fuel e f s' e',
  resolve_with fuel sc c ch e = (f, s', e') -> f <> FFuel ->
  exists new, e_trace e' = e_trace e ++ new /\
    match f with
    | FInternal _ => True      (* impossible for distinct servers: broken_never_reasked *)
    | _ => outcome_ok c (e_clock e) ch new f (e_clock e') /\ s_cache s' = cache_after c ch new
    end.
Proof. exact outcome_spec_resolve. Qed.
Print Assumptions outcome_spec.
Print outcome_ok.
Print from_network.
Print from_cache.
Print nx_prov.
Print cache_step.

(* Resolver.resolve as a whole (metaquery refusal, candidate names, then the loop with the
   sufficient fuel): exactly one of the six documented results, or one of the two refusals that
   happen before any query is sent - a metaquery, or a candidate name longer than 255 octets. *)
Theorem documented_results_only : forall sc r rq ch e f ch' e',
  NoDup (ids (r_servers r)) -> (forall i, 0 <= o_dur (sc i)) ->
  resolve 0 sc r rq ch e = (f, ch', e') ->
  (match f with
   | FAnswer _ | FNoAnswer _ | FNXDOMAIN _ _ | FYXDOMAIN | FNoNameservers _ | FLifetime _ _ => True
   | _ => False
   end) \/
  (f = FNoMetaqueries /\ (is_metatype (rq_rdtype rq) = true \/ is_metaclass (rq_rdclass rq) = true) /\ e' = e /\ ch' = ch) \/
  (exists er, f = FLibError er /\ qnames_to_try r (rq_qname rq) (rq_search rq) = Lib er /\ e' = e /\ ch' = ch).
Proof. exact resolve_documented_results. Qed.
Print Assumptions documented_results_only.

(* Candidate names: the search-list / ndots rule of _get_qnames_to_try ... *)
Theorem qnames_rule : forall r qname search l,
  qnames_to_try r qname search = Ok l ->
  let srch := match search with None => r_use_search_by_default r | Some b => b end in
  let nd := match r_ndots r with None => 1 | Some n => n end in
  (is_absolute qname = true -> l = [qname]) /\
  (is_absolute qname = false ->
     exists absq, concatenate qname root = Ok absq /\
       (srch = false -> l = [absq]) /\
       (srch = true ->
          exists sl cands,
            ((r_search r <> [] -> sl = r_search r) /\
             (r_search r = [] -> name_eqb (r_domain r) root = false -> sl = [r_domain r]) /\
             (r_search r = [] -> name_eqb (r_domain r) root = true -> sl = [])) /\
            Forall2 (fun s x => concatenate qname s = Ok x) sl cands /\
            (zlen qname - 1 >= nd -> l = absq :: cands) /\
            (zlen qname - 1 < nd -> l = cands ++ [absq]))).
Proof. exact qnames_rule_lemma. Qed.
Print Assumptions qnames_rule.

(* ... and the resolution asks them in that order: every query is for the candidate at position
   |candidates| - 1 - ev_left, positions never go back, and the resolution moves to a later
   candidate only right after an acceptable NXDOMAIN reply. *)
Theorem candidates_in_order : forall sc c ch fuel e f s' e',
  resolve_with fuel sc c ch e = (f, s', e') -> f <> FFuel ->
  exists new, e_trace e' = e_trace e ++ new /\
    Forall (fun ev => exists done rest, c_qnames c = done ++ ev_qname ev :: rest /\ length rest = ev_left ev) new /\
    adjacent (fun a b => (ev_left b <= ev_left a)%nat /\
                         ((ev_left b < ev_left a)%nat -> nx_accepts (ev_obs a) <> None)) new.
Proof. exact candidates_in_order_resolve. Qed.
Print Assumptions candidates_in_order.

(* The back-off law (ev_level = the sleep the next re-arm of the round will take): the first query is
   not delayed and announces 0.1 s; for consecutive queries a, b for the same candidate either b is
   not delayed and announces the same, or b sleeps exactly what a announced and announces twice as
   much, capped at 2 s; the first query for a new candidate is not delayed and announces 0.1 s. *)
Theorem backoff_law : forall sc c ch fuel e f s' e',
  resolve_with fuel sc c ch e = (f, s', e') -> f <> FFuel ->
  exists new, e_trace e' = e_trace e ++ new /\
    adjacent (fun a b =>
      if Nat.eqb (ev_left b) (ev_left a)
      then (ev_backoff b = 0 /\ ev_level b = ev_level a) \/
           (ev_backoff b = ev_level a /\ ev_level b = Z.min (ev_level a * 2) 2000)
      else ev_backoff b = 0 /\ ev_level b = 100) new /\
    (forall a l, new = a :: l -> ev_backoff a = 0 /\ ev_level a = 100).
Proof. exact backoff_law_resolve. Qed.
Print Assumptions backoff_law.

(* The answer follows the CNAME chain: the CNAME RRsets followed form a path in the answer section
   from the question name to the canonical name, fewer than MAX_CHAIN = 16 of them (whatever loops
   the section contains); the walk stops at the wanted RRset or where no CNAME continues; the
   minimum TTL is the minimum over the chain and the answer, or - for a negative reply - also the
   TTL and MINIMUM of the closest enclosing SOA in the authority section. *)
Theorem chain_spec : forall m ch,
  resolve_chaining m = Ok ch ->
  exists q, m_question m = [q] /\ m_qr m = true /\
    chain_path (m_answer m) (q_class q) (q_type q) (q_name q) (ch_cnames ch) (ch_canonical ch) /\
    (length (ch_cnames ch) < MAX_CHAIN)%nat /\
    stops_at (m_answer m) (q_class q) (q_type q) (ch_canonical ch) (ch_answer ch) /\
    match ch_answer ch with
    | Some a => m_rcode m <> rcNXDOMAIN /\ ch_min_ttl ch = Z.min (min_over MAX_TTL (ch_cnames ch)) (rs_ttl a)
    | None =>
        exists r, soa_at (m_authority m) (q_class q) (ch_canonical ch) r /\
          ch_min_ttl ch = match r with
                          | Some s => Z.min (Z.min (min_over MAX_TTL (ch_cnames ch)) (rs_ttl s)) (soa_minimum s)
                          | None => min_over MAX_TTL (ch_cnames ch)
                          end
    end.
Proof. exact chain_spec_lemma. Qed.
Print Assumptions chain_spec.

Theorem chain_too_long_only_if : forall m,
  resolve_chaining m = Lib eChainTooLong ->
  exists q p n, m_question m = [q] /\
    chain_path (m_answer m) (q_class q) (q_type q) (q_name q) p n /\ length p = MAX_CHAIN.
Proof. exact chain_too_long_lemma. Qed.
Print Assumptions chain_too_long_only_if.

(* Results are cached under the queried name, type and class: an answer accepted from the network is
   found under (its question name - a candidate -, rdtype, rdclass) until it expires ... *)
Theorem cache_key_spec : forall sc c ch fuel e f s' e' a,
  resolve_with fuel sc c ch e = (f, s', e') -> f <> FFuel -> c_cache c = true ->
  f = FAnswer a \/ f = FNoAnswer a ->
  forall new, e_trace e' = e_trace e ++ new -> from_network c new a ->
  In (a_qname a) (c_qnames c) /\
  forall now, now < a_expiration a ->
    cache_get (s_cache s') {| k_name := a_qname a; k_type := c_rdtype c; k_class := c_rdclass c |} now = Some a.
Proof. exact cache_put_spec_resolve. Qed.
Print Assumptions cache_key_spec.

(* ... and a later resolution returns such an entry without sending a query: when the candidates
   before it are known (cached) not to exist and have no cached answer themselves. *)
Theorem cache_hit_spec : forall sc c ch fuel e pre q rest a,
  c_qnames c = pre ++ q :: rest -> c_cache c = true ->
  (forall p, In p pre ->
     cache_get ch {| k_name := p; k_type := c_rdtype c; k_class := c_rdclass c |} (e_clock e) = None /\
     exists a', cache_get ch {| k_name := p; k_type := tANY; k_class := c_rdclass c |} (e_clock e) = Some a' /\
                a_rcode a' = rcNXDOMAIN) ->
  cache_get ch {| k_name := q; k_type := c_rdtype c; k_class := c_rdclass c |} (e_clock e) = Some a ->
  exists s', resolve_with fuel sc c ch e =
    ((if (match a_rrset a with None => true | Some _ => false end) && c_raise c then FNoAnswer a else FAnswer a), s', e)
    /\ s_cache s' = ch.
Proof. exact cache_hit_general_resolve. Qed.
Print Assumptions cache_hit_spec.

(* the definitions the statements above use (Proofs/Resol*.v), for the reader of the check log *)
Print ev_in_lifetime.
Print drops.
Print ev_drops.
Print is_trunc.
Print ev_trunc_udp.
Print accepts.
Print nx_accepts.
Print is_yx.
Print nonterminal.
Print nx_cached.
Print cache_after.
Print chain_path.
Print stops_at.
Print soa_at.
Print min_over.

(* non-vacuity: a concrete run satisfying all hypotheses *)
Definition ex_n1 : name := [[104]; [97]; []].
Definition ex_n2 : name := [[104]; []].
Definition ex_nx : pmsg := {| pm_qr := true; pm_rcode := 3; pm_nq := 1%nat; pm_answer := []; pm_authority := [] |}.
Definition ex_ans : pmsg :=
  {| pm_qr := true; pm_rcode := 0; pm_nq := 1%nat;
     pm_answer := [ {| p_owner := None; p_class := 1; p_type := 1; p_ttl := 300; p_data := None; p_num := 7 |} ];
     pm_authority := [] |}.
Definition ex_script : list outcome :=
  [ {| o_dur := 10; o_reply := PExn 0; o_reply_tcp := PExn 0 |};          (* malformed reply: server 0 is dropped *)
    {| o_dur := 10; o_reply := PMsg ex_nx; o_reply_tcp := PMsg ex_nx |};      (* NXDOMAIN for the first candidate *)
    {| o_dur := 10; o_reply := PExn 11; o_reply_tcp := PExn 11 |};         (* truncated over UDP *)
    {| o_dur := 10; o_reply := PMsg ex_ans; o_reply_tcp := PMsg ex_ans |} ].   (* answer over TCP *)
Definition ex_sc (i : nat) : outcome := nth i ex_script {| o_dur := 0; o_reply := PExn 12; o_reply_tcp := PExn 12 |}.
Definition ex_cfg : cfg :=
  {| c_servers := [ {| sv_id := 0; sv_maxsize := false |}; {| sv_id := 1; sv_maxsize := false |} ];
     c_tcp := false; c_retry_servfail := false; c_raise := true; c_cache := false;
     c_lifetime := 5000; c_timeout := 2000; c_rdtype := 1; c_rdclass := 1; c_qnames := [ex_n1; ex_n2] |}.
Definition ex_env : env := {| e_clock := 0; e_pos := 0; e_trace := [] |}.

Example ex_hyp_nodup : NoDup (ids (c_servers ex_cfg)).
Proof. repeat constructor; simpl; intuition discriminate. Qed.

Example ex_hyp_durations : forall i, 0 <= o_dur (ex_sc i).
Proof.
  intro i. unfold ex_sc. do 5 (destruct i as [|i]; [simpl; lia|]). simpl. destruct i; simpl; lia.
Qed.

Example ex_run :
  let '(f, _, e') := resolve_with (fuel_bound ex_cfg) ex_sc ex_cfg [] ex_env in
  map (fun ev => (ev_server ev, ev_tcp ev)) (e_trace e') = [(0, false); (1, false); (1, false); (1, true)]
  /\ map (ev_drops ex_cfg) (e_trace e') = [true; false; false; false]
  /\ map ev_trunc_udp (e_trace e') = [false; false; true; false]
  /\ (match f with FAnswer a => a_src a | _ => -1 end) = 3
  /\ e_clock e' = 40.
Proof. vm_compute. repeat split. Qed.

(* chain_spec: a reply with a two-link CNAME chain *)
Definition ex_t1 : name := [[116]; []].
Definition ex_t2 : name := [[117]; []].
Definition ex_chain_msg : msg :=
  inst_msg {| q_name := ex_n2; q_class := 1; q_type := 1 |}
    {| pm_qr := true; pm_rcode := 0; pm_nq := 1%nat;
       pm_answer := [ {| p_owner := None; p_class := 1; p_type := 5; p_ttl := 300; p_data := Some ex_t1; p_num := 0 |};
                      {| p_owner := Some ex_t1; p_class := 1; p_type := 5; p_ttl := 60; p_data := Some ex_t2; p_num := 0 |};
                      {| p_owner := Some ex_t2; p_class := 1; p_type := 1; p_ttl := 200; p_data := None; p_num := 9 |} ];
       pm_authority := [] |}.
Example ex_chain :
  match resolve_chaining ex_chain_msg with
  | Ok ch => ch_canonical ch = ex_t2 /\ ch_min_ttl ch = 60 /\ length (ch_cnames ch) = 2%nat /\ ch_answer ch <> None
  | _ => False
  end.
Proof. vm_compute. repeat split. discriminate. Qed.
Example ex_qnames :
  qnames_to_try {| r_servers := []; r_timeout := 2000; r_lifetime := 5000; r_retry_servfail := false;
                   r_cache := false; r_use_search_by_default := false; r_search := [[[97]; []]];
                   r_domain := root; r_ndots := None |} [[104]] (Some true)
  = Ok [[[104]; [97]; []]; [[104]; []]].
Proof. vm_compute. reflexivity. Qed.

(* cache_key_spec / cache_hit_spec: with the cache on, the answer of ex_run is stored and then hit without a query *)
Definition ex_cfg_cache : cfg :=
  {| c_servers := c_servers ex_cfg; c_tcp := false; c_retry_servfail := false; c_raise := true; c_cache := true;
     c_lifetime := 5000; c_timeout := 2000; c_rdtype := 1; c_rdclass := 1; c_qnames := [ex_n1; ex_n2] |}.
Example ex_cache :
  let '(f, s', e') := resolve_with (fuel_bound ex_cfg_cache) ex_sc ex_cfg_cache [] ex_env in
  (match f with
   | FAnswer a => a_src a = 3 /\ a_qname a = ex_n2 /\
                  cache_get (s_cache s') {| k_name := ex_n2; k_type := 1; k_class := 1 |} 1000 = Some a
   | _ => False end) /\
  let '(f2, _, e2) := resolve_with (fuel_bound ex_cfg_cache) ex_sc ex_cfg_cache (s_cache s') e' in
  (match f2 with FAnswer a2 => a_src a2 = 3 | _ => False end) /\ e_pos e2 = e_pos e' /\ length (e_trace e2) = 4%nat.
Proof. vm_compute. repeat split. Qed.
